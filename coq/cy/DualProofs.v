(* C55: proofs about the generic pieces - the C integer ranges, the call-log monad, array fill = list
   comprehension, the specification functions the two _apply_processors pairs are compared through *)
From Coq Require Import List ZArith Bool Lia Arith.
Import ListNotations.
From SAV.cy Require Import Dual.
Open Scope Z_scope.

Lemma pow63 : 2 ^ 63 = 9223372036854775808. Proof. reflexivity. Qed.
Lemma pow64 : 2 ^ 64 = 18446744073709551616. Proof. reflexivity. Qed.

Lemma in_ssize_spec : forall z, in_ssize z = true <-> ssize_min <= z <= ssize_max.
Proof. intros. unfold in_ssize. rewrite andb_true_iff, !Z.leb_le. tauto. Qed.

Lemma wrap_ssize_in : forall z, ssize_min <= z <= ssize_max -> wrap_ssize z = z.
Proof.
  intros z. unfold wrap_ssize, ssize_min, ssize_max. rewrite pow63, pow64. intros Hz.
  rewrite Z.mod_small; lia.
Qed.

Lemma bind_ret_l : forall A B (a : A) (k : A -> M B), bind (ret a) k = k a.
Proof. intros. unfold bind, ret. destruct (k a). reflexivity. Qed.

Lemma bind_ret_r : forall A (m : M A), bind m ret = m.
Proof. intros A [t [a|e]]; unfold bind, ret; [rewrite app_nil_r|]; reflexivity. Qed.

Lemma bind_raise : forall A B e (k : A -> M B), bind (raise e) k = raise e.
Proof. reflexivity. Qed.

Lemma bind_assoc : forall A B C (m : M A) (f : A -> M B) (g : B -> M C),
  bind (bind m f) g = bind m (fun x => bind (f x) g).
Proof.
  intros A B C [t [a|e]] f g; unfold bind; [|reflexivity].
  destruct (f a) as [t1 [b|e1]]; [|reflexivity].
  destruct (g b) as [t2 r2]. rewrite app_assoc. reflexivity.
Qed.

Lemma bind_ext : forall A B (m : M A) (f g : A -> M B), (forall a, f a = g a) -> bind m f = bind m g.
Proof. intros A B [t [a|e]] f g Hfg; unfold bind; [rewrite Hfg|]; reflexivity. Qed.

Lemma snd_bind : forall A B (m : M A) (k : A -> M B),
  snd (bind m k) = match snd m with Ok a => snd (k a) | Raise e => Raise e end.
Proof. intros A B [t [a|e]] k; cbn [bind snd]; [destruct (k a)|]; reflexivity. Qed.

Lemma mapM_map : forall A B (g : A -> B) (f : B -> M Z) l, mapM f (map g l) = mapM (fun x => f (g x)) l.
Proof. induction l as [|x l IH]; cbn [map mapM]; [|rewrite IH]; reflexivity. Qed.

(* All the loops below run an index over a list.  They are compared with structural recursion by peeling
   the head: the loop over range(i+1, i+1+n) is the loop over range(i, i+n) with S applied to the index,
   and position S j of x :: l is position j of l. *)
Lemma mapM_seq_S : forall (f : nat -> M Z) i n, mapM f (seq (S i) n) = mapM (fun j => f (S j)) (seq i n).
Proof. intros. rewrite <- seq_shift. apply mapM_map. Qed.

Lemma finish_map_some : forall l, finish (map Some l) = Ok l.
Proof. induction l as [|x l IH]; cbn [map finish]; [|rewrite IH]; reflexivity. Qed.

Lemma set_slot_at : forall (done : list Z) k v,
  set_slot (map Some done ++ None :: repeat None k) (length done) v
  = Some (map Some (done ++ [v]) ++ repeat None k).
Proof.
  induction done as [|x d IH]; intros k v; cbn [map app length set_slot]; [reflexivity|].
  rewrite IH. reflexivity.
Qed.

(* invariant of the fill: the slots below the index hold the values computed so far, the k others are NULL *)
Lemma fill_from_spec : forall step k done,
  bind (fill_from step k (length done) (map Some done ++ repeat None k)) (fun a => ([], finish a))
  = bind (mapM step (seq (length done) k)) (fun vs => ret (done ++ vs)).
Proof.
  intros step k. induction k as [|k IH]; intros done; cbn [fill_from seq mapM repeat].
  - rewrite !bind_ret_l, !app_nil_r, finish_map_some. reflexivity.
  - rewrite !bind_assoc. apply bind_ext. intros v.
    rewrite set_slot_at, <- (last_length done v), IH, bind_assoc.
    apply bind_ext. intros vs. rewrite bind_ret_l, <- app_assoc. reflexivity.
Qed.

Theorem cfill_is_comprehension : forall n step, cfill n step = mapM step (seq 0 n).
Proof. intros. exact (eq_trans (fill_from_spec step n []) (bind_ret_r _ _)). Qed.

Lemma mapM_seq_nth : forall (g : Z -> M Z) e (l : list Z),
  mapM (fun i => match nth_error l i with Some r => g r | None => raise e end) (seq 0 (length l)) = mapM g l.
Proof.
  intros g e l. induction l as [|x l IH]; cbn [length seq mapM]; [reflexivity|].
  rewrite mapM_seq_S. cbn [nth_error]. rewrite IH. reflexivity.
Qed.

(* what the compiled loop computes: stops at len(procs), reads data unchecked *)
Fixpoint spec_c (ps : list proc) (data : list Z) : M (list Z) :=
  match ps, data with
  | [], _ => ret []
  | _ :: _, [] => raise UB
  | p :: ps', d :: r => bind (apply_proc p d) (fun v => bind (spec_c ps' r) (fun vs => ret (v :: vs)))
  end.
(* what the pure result loop computes: the same while both lists last, but the rest of the row is kept,
   and past the end of the row only an actual processor fails (proc_valid skips the None entries) *)
Fixpoint spec_keep (ps : list proc) (data : list Z) : M (list Z) :=
  match ps, data with
  | [], _ => ret data
  | p :: ps', d :: r => bind (apply_proc p d) (fun v => bind (spec_keep ps' r) (fun vs => ret (v :: vs)))
  | p :: ps', [] => match p with None => spec_keep ps' [] | Some _ => raise IndexError end
  end.

Lemma ap_step_spec : forall ps ds, mapM (ap_step ps ds) (seq 0 (length ps)) = spec_c ps ds.
Proof.
  induction ps as [|p ps IH]; intros [|d r]; cbn [length seq mapM spec_c]; try reflexivity.
  rewrite mapM_seq_S, <- (IH r). reflexivity.
Qed.

Lemma ap_compiled_spec : forall procs data, cfill (length procs) (ap_step procs data) = spec_c procs data.
Proof. intros. rewrite cfill_is_comprehension. apply ap_step_spec. Qed.

Lemma set_nth_at : forall (done : list Z) d r v, set_nth (done ++ d :: r) (length done) v = done ++ v :: r.
Proof. induction done as [|x dn IH]; intros; cbn [app length set_nth]; [|rewrite IH]; reflexivity. Qed.

Lemma ap_row_pure_loop_S : forall p procs k i x r,
  ap_row_pure_loop (p :: procs) k (S i) (x :: r) = bind (ap_row_pure_loop procs k i r) (fun vs => ret (x :: vs)).
Proof.
  intros p procs k. induction k as [|k IH]; intros i x r; cbn [ap_row_pure_loop nth_error]; [reflexivity|].
  destruct (nth_error procs i) as [[f|]|]; [|apply IH|reflexivity].
  destruct (nth_error r i) as [d|]; [|reflexivity].
  cbn [set_nth]. rewrite bind_assoc. apply bind_ext. intros v. apply IH.
Qed.

Lemma ap_row_pure_loop_spec : forall ps ds, length ds = length ps ->
  ap_row_pure_loop ps (length ps) 0 ds = spec_c ps ds.
Proof.
  induction ps as [|p ps IH]; intros [|d r] Hl; try discriminate Hl; [reflexivity|].
  injection Hl as Hl. cbn [length ap_row_pure_loop nth_error spec_c].
  destruct p as [f|]; cbn [apply_proc set_nth].
  - apply bind_ext. intros v. rewrite ap_row_pure_loop_S, IH by exact Hl. reflexivity.
  - rewrite bind_ret_l, ap_row_pure_loop_S, IH by exact Hl. reflexivity.
Qed.

Lemma valid_from_S : forall ps i, valid_from (S i) ps = map S (valid_from i ps).
Proof.
  induction ps as [|[f|] ps IH]; intros i; cbn [valid_from map]; [reflexivity| |apply IH].
  rewrite IH. reflexivity.
Qed.

Lemma ap_res_pure_loop_S : forall p procs vs x r,
  ap_res_pure_loop (p :: procs) (map S vs) (x :: r) = bind (ap_res_pure_loop procs vs r) (fun out => ret (x :: out)).
Proof.
  intros p procs vs. induction vs as [|i vs IH]; intros x r; cbn [map ap_res_pure_loop nth_error]; [reflexivity|].
  destruct (nth_error procs i) as [[f|]|]; try reflexivity.
  destruct (nth_error r i) as [d|]; [|reflexivity].
  cbn [set_nth]. rewrite bind_assoc. apply bind_ext. intros v. apply IH.
Qed.

(* once the row is exhausted the first index tried decides, and it fails either way *)
Lemma ap_res_pure_loop_nil : forall p procs vs,
  ap_res_pure_loop (p :: procs) (map S vs) [] = ap_res_pure_loop procs vs [].
Proof.
  intros p procs [|i vs]; cbn [map ap_res_pure_loop nth_error]; [reflexivity|].
  destruct (nth_error procs i) as [[f|]|], i; reflexivity.
Qed.

Lemma ap_res_pure_spec : forall procs data, ap_res_pure procs data = spec_keep procs data.
Proof.
  unfold ap_res_pure. induction procs as [|p ps IH]; intros [|d r]; try reflexivity.
  - destruct p as [f|]; cbn [valid_from spec_keep]; [reflexivity|].
    rewrite valid_from_S, ap_res_pure_loop_nil. apply IH.
  - cbn [spec_keep]. destruct p as [f|]; cbn [valid_from ap_res_pure_loop nth_error apply_proc set_nth].
    + apply bind_ext. intros v. rewrite valid_from_S, ap_res_pure_loop_S, IH. reflexivity.
    + rewrite bind_ret_l, valid_from_S, ap_res_pure_loop_S, IH. reflexivity.
Qed.

Lemma spec_equal_lengths : forall ps ds, length ps = length ds -> spec_c ps ds = spec_keep ps ds.
Proof.
  induction ps as [|p ps IH]; intros [|d r] Hl; try discriminate Hl; cbn [spec_c spec_keep]; [reflexivity|].
  injection Hl as Hl. rewrite IH by exact Hl. reflexivity.
Qed.

Lemma spec_c_excess : forall ps d1 extra, length d1 = length ps -> spec_c ps (d1 ++ extra) = spec_c ps d1.
Proof.
  induction ps as [|p ps IH]; intros [|d r] extra Hl; try discriminate Hl; cbn [spec_c app]; [destruct extra; reflexivity|].
  injection Hl as Hl. rewrite IH by exact Hl. reflexivity.
Qed.

Lemma spec_keep_excess : forall ps d1 extra, length d1 = length ps ->
  spec_keep ps (d1 ++ extra) = bind (spec_c ps d1) (fun vs => ret (vs ++ extra)).
Proof.
  induction ps as [|p ps IH]; intros [|d r] extra Hl; try discriminate Hl; cbn [spec_c spec_keep app].
  - rewrite bind_ret_l. reflexivity.
  - injection Hl as Hl. rewrite IH, !bind_assoc by exact Hl. apply bind_ext. intros v.
    rewrite !bind_assoc. apply bind_ext. intros vs. rewrite !bind_ret_l. reflexivity.
Qed.

(* a row that is too short: with processors that do not raise, the compiled loop reaches the unchecked read *)
Definition total (p : proc) : Prop := match p with None => True | Some f => forall x, exists v, snd f x = Ok v end.

Lemma total_apply : forall p d, total p -> exists v, snd (apply_proc p d) = Ok v.
Proof. intros [f|] d Hp; [exact (Hp d) | exists d; reflexivity]. Qed.

Lemma spec_c_short : forall ps ds, Forall total ps -> (length ds < length ps)%nat -> snd (spec_c ps ds) = Raise UB.
Proof.
  induction ps as [|p ps IH]; intros [|d r] Ht Hl; try (inversion Hl; fail); [reflexivity|].
  inversion Ht as [|? ? Hp Hps]; subst. destruct (total_apply p d Hp) as [v Hv].
  cbn [spec_c length] in *. rewrite snd_bind, Hv. cbn beta iota.
  rewrite snd_bind, IH by first [assumption | lia]. reflexivity.
Qed.

Lemma spec_keep_no_ub : forall ps ds, Forall total ps -> snd (spec_keep ps ds) <> Raise UB.
Proof.
  induction ps as [|p ps IH]; intros ds Ht; [discriminate|].
  inversion Ht as [|? ? Hp Hps]; subst. destruct ds as [|d r]; cbn [spec_keep].
  - destruct p; [discriminate | apply IH, Hps].
  - destruct (total_apply p d Hp) as [v Hv]. rewrite snd_bind, Hv. cbn beta iota. rewrite snd_bind.
    specialize (IH r Hps). destruct (snd (spec_keep ps r)); [discriminate | exact IH].
Qed.
