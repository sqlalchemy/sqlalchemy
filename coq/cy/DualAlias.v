(* C55: aliasing.  Functions of the dual modules that return a container return a FRESH object in both
   branches: a later mutation of an argument is not visible through the result, and vice versa.
   Reference model: a store of list objects (object identity = position); unique_list allocates. *)
From Coq Require Import List ZArith Bool Lia Arith.
Import ListNotations.
From SAV.cy Require Import Dual DualTheorems.
Open Scope Z_scope.

Definition store := list (list Z).
Definition a_read (st : store) (o : nat) : list Z := nth o st [].
Fixpoint a_upd (st : store) (o : nat) (v : list Z) : store :=
  match st, o with
  | [], _ => []
  | _ :: r, O => v :: r
  | x :: r, S o' => x :: a_upd r o' v
  end.
Definition hashables (l : list Z) : list elem := map H l.
Definition content (r : res (list Z)) : list Z := match r with Ok l => l | Raise _ => [] end.
(* unique_list(src): both branches build a new list object (the compiled branch a comprehension, the pure
   one list(dict)) - the result is allocated at the end of the store *)
Definition a_unique_compiled (st : store) (src : nat) : nat * store :=
  (length st, st ++ [content (ul_compiled (hashables (a_read st src)))]).
Definition a_unique_pure (st : store) (src : nat) : nat * store :=
  (length st, st ++ [content (ul_pure (hashables (a_read st src)))]).

Inductive aop := ANew (l : list Z) | AUnique (src : nat) | AOrdSet (src : nat)   (* OrderedSet(src)._list *)
               | AAppend (o : nat) (x : Z)                                        (* list.append *)
               | AAdd (o : nat) (x : Z)                                           (* OrderedSet.add *)
               | ARead (o : nat).
Fixpoint a_run (uniq : store -> nat -> nat * store) (st : store) (ops : list aop) : list (list Z) :=
  match ops with
  | [] => []
  | ANew l :: r => a_run uniq (st ++ [l]) r
  | AUnique s :: r => a_run uniq (snd (uniq st s)) r
  | AOrdSet s :: r => a_run uniq (snd (uniq st s)) r
  | AAppend o x :: r => a_run uniq (a_upd st o (a_read st o ++ [x])) r
  | AAdd o x :: r => a_run uniq (if memz x (a_read st o) then st else a_upd st o (a_read st o ++ [x])) r
  | ARead o :: r => a_read st o :: a_run uniq st r
  end.

Lemma a_read_upd_other : forall st i j v, i <> j -> a_read (a_upd st i v) j = a_read st j.
Proof.
  unfold a_read. induction st as [|x st IH]; intros [|i] [|j] v H; cbn [a_upd nth]; try reflexivity; try congruence.
  apply IH. congruence.
Qed.
Lemma a_read_app_old : forall st l o, (o < length st)%nat -> a_read (st ++ [l]) o = a_read st o.
Proof. intros. unfold a_read. apply app_nth1. assumption. Qed.
Lemma a_read_app_new : forall st l, a_read (st ++ [l]) (length st) = l.
Proof. intros. unfold a_read. rewrite app_nth2, Nat.sub_diag by lia. reflexivity. Qed.

(* the result is a new object, it holds the de-duplicated content, and neither object sees the other's later
   mutation - in BOTH branches: all that matters is that the result is allocated at the end of the store *)
Theorem unique_list_result_is_fresh : forall uniq, (uniq = a_unique_compiled \/ uniq = a_unique_pure) ->
  forall st src x, (src < length st)%nat ->
  let '(r, st') := uniq st src in
  r <> src /\ a_read st' src = a_read st src /\
  a_read (a_upd st' src (a_read st' src ++ [x])) r = a_read st' r /\
  a_read (a_upd st' r (a_read st' r ++ [x])) src = a_read st' src.
Proof.
  intros uniq Hu st src x Hs.
  assert (exists l, uniq st src = (length st, st ++ [l])) as [l ->] by (destruct Hu; subst; eexists; reflexivity).
  repeat split.
  - lia.
  - apply a_read_app_old, Hs.
  - apply a_read_upd_other. lia.
  - apply a_read_upd_other. lia.
Qed.

(* a run consults the allocator only through its results *)
Lemma a_run_ext : forall u1 u2, (forall st s, u1 st s = u2 st s) ->
  forall ops st, a_run u1 st ops = a_run u2 st ops.
Proof.
  intros u1 u2 Hu. induction ops as [|o r IH]; intros st; [reflexivity|].
  destruct o; cbn [a_run]; rewrite ?Hu, ?IH; reflexivity.
Qed.

Theorem alias_runs_agree : forall ops st, a_run a_unique_compiled st ops = a_run a_unique_pure st ops.
Proof.
  apply a_run_ext. intros st s. unfold a_unique_compiled. rewrite branch_equiv_unique_list. reflexivity.
Qed.
