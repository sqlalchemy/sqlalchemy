(* C55: branch_equiv_<fn> (inside the C types' range the two branches agree on value, exception and
   call log) and range_divergence_<fn> (what happens outside) for every modelled pair, in the order of
   coq/cy/Dual.v *)
From Coq Require Import List ZArith Bool Lia Arith.
Import ListNotations.
From SAV.cy Require Import Dual DualProofs.
Open Scope Z_scope.

Lemma ul_go_rel : forall l seen d, (forall y, memz y seen = memz y d) ->
  ul_pure_go d l = match ul_compiled_go seen l with Ok o => Ok (d ++ o) | Raise e => Raise e end.
Proof.
  induction l as [|[x|x] l IH]; intros seen d Hs; cbn [ul_pure_go ul_compiled_go].
  - rewrite app_nil_r. reflexivity.
  - rewrite <- Hs. destruct (memz x seen) eqn:E.
    + apply IH. assumption.
    + rewrite (IH (x :: seen) (d ++ [x])).
      * destruct (ul_compiled_go (x :: seen) l); [rewrite <- app_assoc|]; reflexivity.
      * intros y. unfold memz. rewrite existsb_app. cbn [existsb]. rewrite orb_false_r.
        fold (memz y seen). fold (memz y d). rewrite Hs. apply orb_comm.
  - reflexivity.
Qed.

Theorem branch_equiv_unique_list : forall l, ul_compiled l = ul_pure l.
Proof.
  intros. unfold ul_compiled, ul_pure. rewrite (ul_go_rel l [] [] (fun _ => eq_refl)).
  destruct (ul_compiled_go [] l); reflexivity.
Qed.

Theorem branch_equiv_row_apply_processors : forall procs data, ap_row_compiled procs data = ap_row_pure procs data.
Proof.
  intros. unfold ap_row_compiled, ap_row_pure.
  destruct (Nat.eqb_spec (length data) (length procs)) as [E|]; [|reflexivity].
  rewrite ap_compiled_spec, ap_row_pure_loop_spec by exact E. reflexivity.
Qed.

(* the compiled branch never reaches undefined behaviour: the assertion protects the unchecked reads *)
Theorem row_apply_processors_compiled_defined : forall procs data, Forall total procs ->
  snd (ap_row_compiled procs data) <> Raise UB.
Proof.
  intros procs data Ht. unfold ap_row_compiled.
  destruct (Nat.eqb_spec (length data) (length procs)) as [E|]; [|discriminate].
  rewrite ap_compiled_spec, spec_equal_lengths by congruence. apply spec_keep_no_ub, Ht.
Qed.

Theorem branch_equiv_result_apply_processors : forall procs data, length data = length procs ->
  ap_res_compiled procs data = ap_res_pure procs data.
Proof.
  intros procs data Hl. unfold ap_res_compiled. rewrite ap_compiled_spec, ap_res_pure_spec.
  apply spec_equal_lengths. congruence.
Qed.

(* a row longer than the processors: the compiled branch drops the excess, the pure one keeps it *)
Theorem range_divergence_result_apply_processors_long : forall procs d1 extra, length d1 = length procs ->
  ap_res_compiled procs (d1 ++ extra) = ap_res_compiled procs d1 /\
  ap_res_pure procs (d1 ++ extra) = bind (ap_res_compiled procs d1) (fun vs => ret (vs ++ extra)).
Proof.
  intros procs d1 extra Hl. unfold ap_res_compiled. rewrite !ap_compiled_spec, ap_res_pure_spec.
  split; [apply spec_c_excess | apply spec_keep_excess]; assumption.
Qed.

(* a row shorter than the processors: the compiled branch reads past the end of the row *)
Theorem range_divergence_result_apply_processors_short : forall procs data, Forall total procs ->
  (length data < length procs)%nat ->
  snd (ap_res_compiled procs data) = Raise UB /\ snd (ap_res_pure procs data) <> Raise UB.
Proof.
  intros procs data Ht Hl. unfold ap_res_compiled. rewrite ap_compiled_spec, ap_res_pure_spec.
  split; [apply spec_c_short | apply spec_keep_no_ub]; assumption.
Qed.

Theorem branch_equiv_many_rows : forall make rows, Z.of_nat (length rows) <= ssize_max ->
  many_compiled make rows = many_pure make rows.
Proof.
  intros make rows Hr. unfold many_compiled, many_pure, to_ssize.
  assert (in_ssize (Z.of_nat (length rows)) = true) as ->.
  { apply in_ssize_spec. unfold ssize_min. rewrite pow63. lia. }
  rewrite Nat2Z.id, cfill_is_comprehension.
  apply mapM_seq_nth.
Qed.

Theorem branch_equiv_baserow_getattr : forall r n, getattr_compiled r n = getattr_pure r n.
Proof.
  intros r n. unfold getattr_compiled, getattr_pure.
  destruct n as [|c n']; [reflexivity|].
  destruct (c =? 95); [reflexivity|].
  destruct (dict_get (k2i r) (c :: n')) as [idx|] eqn:E; [|reflexivity].
  destruct (mem_name (c :: n') (class_attrs r)) eqn:Em; cbn [negb]; [reflexivity|].
  unfold generic_getattr, get_by_key_impl. rewrite Em, E. reflexivity.
Qed.

(* one term for both branches in the model (C attribute stores = object.__setattr__ on the same three slots) *)
Theorem branch_equiv_baserow_set_attrs : forall ca k d, set_attrs_compiled ca k d = set_attrs_pure ca k d.
Proof. reflexivity. Qed.

Lemma am_step_in_range : forall s o, 0 <= am_index s -> am_index s + 1 < uint_mod ->
  am_step wrap_uint s o = am_step (fun z => z) s o.
Proof.
  intros s o H0 H1.
  assert (wrap_uint (am_index s + 1) = am_index s + 1) as Hw by (apply Z.mod_small; lia).
  destruct o; cbn [am_step]; destruct (lookup k (am_dict s)); try reflexivity; unfold add_missing; rewrite Hw; reflexivity.
Qed.

Lemma am_step_index : forall s o,
  am_index s <= am_index (fst (am_step (fun z => z) s o)) <= am_index s + 1.
Proof.
  intros s o. destruct o; cbn [am_step]; destruct (lookup k (am_dict s)); cbn [fst add_missing am_index]; lia.
Qed.

Theorem branch_equiv_anon_map : forall ops s, 0 <= am_index s ->
  am_index s + Z.of_nat (length ops) < uint_mod -> am_compiled s ops = am_pure s ops.
Proof.
  unfold am_compiled, am_pure.
  induction ops as [|o r IH]; intros s H0 H1; cbn [am_run]; [reflexivity|].
  cbn [length] in H1. rewrite am_step_in_range by lia.
  pose proof (am_step_index s o) as Hi.
  destruct (am_step (fun z => z) s o) as [s1 out]. cbn [fst] in Hi.
  rewrite IH by lia. reflexivity.
Qed.

Lemma lookup_app : forall k d d',
  lookup k (d ++ d') = match lookup k d with Some v => Some v | None => lookup k d' end.
Proof.
  induction d as [|[k' v] d IH]; intros d'; cbn [app lookup]; [reflexivity|].
  destruct (k =? k'); [reflexivity | apply IH].
Qed.

(* after 2^32 - 1 new keys the compiled counter is at its maximum: the next two new keys get 2^32 - 1 and
   then 0 again - the value already handed to the very first key; the pure counter goes on to 2^32 *)
Theorem range_divergence_anon_map_index : forall d k1 k2, k1 <> k2 ->
  lookup k1 d = None -> lookup k2 d = None ->
  let s := {| am_dict := d; am_index := uint_mod - 1 |} in
  snd (am_compiled s [Get k1; Get k2]) = [(uint_mod - 1, false); (0, false)] /\
  snd (am_pure s [Get k1; Get k2]) = [(uint_mod - 1, false); (uint_mod, false)].
Proof.
  intros d k1 k2 Hne H1 H2 s.
  assert (forall v, lookup k2 (d ++ [(k1, v)]) = None) as Hl.
  { intros v. rewrite lookup_app, H2. cbn [lookup]. apply Z.eqb_neq in Hne. rewrite Z.eqb_sym, Hne. reflexivity. }
  unfold am_compiled, am_pure, s. cbn [am_run am_step am_dict am_index]. rewrite H1.
  cbn [add_missing am_dict am_index]. rewrite !Hl. cbn [snd].
  replace (uint_mod - 1 + 1) with uint_mod by lia.
  unfold wrap_uint. rewrite Z.mod_same by discriminate. split; reflexivity.
Qed.

Theorem branch_equiv_get_id : forall addr, 0 <= addr < ulonglong_mod -> get_id_compiled addr = get_id_pure addr.
Proof. intros. unfold get_id_compiled, get_id_pure. apply Z.mod_small. assumption. Qed.

Theorem branch_equiv_orderedset_insert : forall l pos x, in_ssize pos = true ->
  os_insert_compiled l pos x = os_insert_pure l pos x.
Proof. intros l pos x H. unfold os_insert_compiled, os_insert_pure, to_ssize. rewrite H. reflexivity. Qed.

(* the compiled signature converts pos before the body runs: an element that is already present makes the
   pure version return without ever looking at pos *)
Theorem range_divergence_orderedset_insert : forall l pos x, in_ssize pos = false ->
  os_insert_compiled l pos x = Raise OverflowError /\
  os_insert_pure l pos x = (if memz x l then Ok l else Raise OverflowError).
Proof.
  intros l pos x H. unfold os_insert_compiled, os_insert_pure, os_insert_body, list_insert, to_ssize.
  rewrite H. split; reflexivity.
Qed.

Theorem branch_equiv_orderedset_getitem : forall l key, in_ssize key = true ->
  os_getitem_compiled l key = os_getitem_pure l key.
Proof. intros l key H. unfold os_getitem_compiled, os_getitem_pure, to_ssize. rewrite H. reflexivity. Qed.

Theorem range_divergence_orderedset_getitem : forall l key, in_ssize key = false ->
  os_getitem_compiled l key = Raise OverflowError /\ os_getitem_pure l key = Raise IndexError.
Proof.
  intros l key H. unfold os_getitem_compiled, os_getitem_pure, list_getitem, to_ssize. rewrite H. split; reflexivity.
Qed.

Definition idx_ok (z : Z) : Prop := ssize_min < z <= ssize_max.

Lemma contig_compiled_unfold : forall a b r, contig_compiled (a :: b :: r) =
  match to_ssize a with
  | Raise e => Raise e
  | Ok pa => match to_ssize b with
             | Raise e => Raise e
             | Ok pb => if pa =? wrap_ssize (pb - 1) then contig_compiled (b :: r) else Ok false
             end
  end.
Proof. reflexivity. Qed.
Lemma contig_pure_unfold : forall a b r, contig_pure (a :: b :: r) = if a =? b - 1 then contig_pure (b :: r) else false.
Proof. reflexivity. Qed.

Lemma contig_in_range : forall l, Forall idx_ok l -> contig_compiled l = Ok (contig_pure l).
Proof.
  induction l as [|a l IH]; intros Hf; [reflexivity|].
  destruct l as [|b r]; [reflexivity|].
  inversion Hf as [|? ? Ha Hr]; subst. inversion Hr as [|? ? Hb Hr']; subst.
  rewrite contig_compiled_unfold, contig_pure_unfold. unfold to_ssize.
  assert (in_ssize a = true) as -> by (apply in_ssize_spec; unfold idx_ok in Ha; lia).
  assert (in_ssize b = true) as -> by (apply in_ssize_spec; unfold idx_ok in Hb; lia).
  rewrite wrap_ssize_in by (unfold idx_ok in Hb; lia).
  destruct (a =? b - 1); [apply IH; assumption|reflexivity].
Qed.

Theorem branch_equiv_tuplegetter : forall idx, Forall idx_ok idx -> tg_compiled idx = tg_pure idx.
Proof.
  intros idx Hf. unfold tg_compiled, tg_pure, tuplegetter. rewrite contig_in_range by assumption. reflexivity.
Qed.

(* an index that does not fit Py_ssize_t: OverflowError only when compiled *)
Theorem range_divergence_tuplegetter_overflow : forall a b r, in_ssize a = false ->
  tg_compiled (a :: b :: r) = Raise OverflowError /\
  exists g, tg_pure (a :: b :: r) = Ok g.
Proof.
  intros a b r H. unfold tg_compiled, tg_pure, tuplegetter. cbn [length Nat.eqb contig_compiled]. unfold to_ssize. rewrite H.
  split; [destruct r; reflexivity|].
  destruct r; cbn [Nat.eqb]; destruct (contig_pure _); eexists; reflexivity.
Qed.

(* curr = -2^63: `curr - 1` wraps to 2^63 - 1, so (2^63 - 1, -2^63) is "contiguous" only when compiled *)
Theorem range_divergence_tuplegetter_wrap :
  tg_compiled [ssize_max; ssize_min] = Ok (GSlice ssize_max (ssize_min + 1)) /\
  tg_pure [ssize_max; ssize_min] = Ok (GItems [ssize_max; ssize_min]).
Proof. split; vm_compute; reflexivity. Qed.

(* likewise: PyDict_Update is dict.update, one [dict_update] in the model *)
Theorem branch_equiv_immutabledict_update : forall a b, pydict_update_compiled a b = pydict_update_pure a b.
Proof. reflexivity. Qed.
