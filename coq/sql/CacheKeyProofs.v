(* C02: what the compiler sees of a statement is a function of its cache key
   (view = restrict . proj, and proj is the un-pruned key) *)
From Coq Require Import List NArith ZArith Bool.
Import ListNotations.
From SAV.sql Require Import CacheKey.

Section NodeInd.
  Variable P : node -> Prop.
  Hypothesis H : forall lbl cls atoms kids,
      Forall (fun p => Forall P (snd p)) kids -> P (Node lbl cls atoms kids).
  Fixpoint node_ind' (n : node) : P n :=
    match n with
    | Node lbl cls atoms kids =>
        H lbl cls atoms kids
          ((fix gk (x : list (N * list node)) : Forall (fun p => Forall P (snd p)) x :=
              match x with
              | [] => Forall_nil _
              | p :: x' =>
                  Forall_cons p
                    ((fix gl (u : list node) : Forall P u :=
                        match u with
                        | [] => Forall_nil _
                        | s :: u' => Forall_cons s (node_ind' s) (gl u')
                        end) (snd p))
                    (gk x')
              end) kids)
    end.
End NodeInd.

Section KtreeInd.
  Variable P : ktree -> Prop.
  Hypothesis HN : forall l c ka kk, Forall (fun p => Forall P (snd p)) kk -> P (KN l c ka kk).
  Hypothesis HR : forall l c, P (KR l c).
  Hypothesis HI : forall a, P (KI a).
  Fixpoint ktree_ind' (k : ktree) : P k :=
    match k with
    | KN l c ka kk =>
        HN l c ka kk
          ((fix gk (x : list (N * list ktree)) : Forall (fun p => Forall P (snd p)) x :=
              match x with
              | [] => Forall_nil _
              | p :: x' =>
                  Forall_cons p
                    ((fix gl (u : list ktree) : Forall P u :=
                        match u with
                        | [] => Forall_nil _
                        | s :: u' => Forall_cons s (ktree_ind' s) (gl u')
                        end) (snd p))
                    (gk x')
              end) kk)
    | KR l c => HR l c
    | KI a => HI a
    end.
End KtreeInd.

Lemma atom_eqb_eq : forall a b, atom_eqb a b = true -> a = b.
Proof.
  intros [i t] [j u]; unfold atom_eqb; cbn. intro H. apply andb_true_iff in H as [H1 H2].
  apply Z.eqb_eq in H1. apply eqb_prop in H2. subst; reflexivity.
Qed.
Lemma atom_eqb_refl : forall a, atom_eqb a a = true.
Proof. intros [i t]; unfold atom_eqb; cbn. rewrite Z.eqb_refl, eqb_reflx; reflexivity. Qed.

Lemma ktree_eqb_eq : forall a b, ktree_eqb a b = true -> a = b.
Proof.
  induction a as [l c ka kk IH | l c | x] using ktree_ind'; intros [l' c' ka' kk' | l' c' | y] Hq;
    cbn in Hq; try discriminate Hq.
  - apply andb_prop in Hq as [Hq Hk]. apply andb_prop in Hq as [Hq Ha]. apply andb_prop in Hq as [Hl Hc].
    apply N.eqb_eq in Hl. apply N.eqb_eq in Hc. subst l' c'.
    assert (ka = ka') as <-.
    { clear -Ha. revert ka' Ha. induction ka as [|[i p] x IHx]; intros [|[j q] y] Ha; try discriminate Ha; [reflexivity|].
      apply andb_prop in Ha as [Ha Hr]. apply andb_prop in Ha as [Hi Hp].
      apply N.eqb_eq in Hi. apply atom_eqb_eq in Hp. rewrite Hi, Hp, (IHx _ Hr). reflexivity. }
    assert (kk = kk') as <-; [|reflexivity].
    clear -IH Hk. revert kk' Hk.
    induction IH as [|[i p] x Hp _ IHx]; intros [|[j q] y] Hk; try discriminate Hk; [reflexivity|].
    apply andb_prop in Hk as [Hk Hr]. apply andb_prop in Hk as [Hi Hl].
    apply N.eqb_eq in Hi. rewrite Hi, (IHx _ Hr). apply (f_equal (fun z => (j, z) :: y)).
    cbn in Hp. clear -Hp Hl. revert q Hl.
    induction Hp as [|s u Hs _ IHu]; intros [|t v] Hl; try discriminate Hl; [reflexivity|].
    apply andb_prop in Hl as [H1 H2]. rewrite (Hs _ H1), (IHu _ H2). reflexivity.
  - apply andb_prop in Hq as [Hl Hc]. apply N.eqb_eq in Hl. apply N.eqb_eq in Hc. rewrite Hl, Hc. reflexivity.
  - rewrite (atom_eqb_eq _ _ Hq). reflexivity.
Qed.
Lemma ktree_eqb_refl : forall k, ktree_eqb k k = true.
Proof.
  induction k as [l c ka kk IH | l c | a] using ktree_ind'; cbn.
  - rewrite (N.eqb_refl l), (N.eqb_refl c). apply andb_true_intro; split; cbn.
    + induction ka as [|[i p] x IHx]; [reflexivity|]. rewrite N.eqb_refl, atom_eqb_refl. exact IHx.
    + induction IH as [|[i p] x Hp _ IHx]; [reflexivity|]. rewrite N.eqb_refl, IHx, andb_true_r. cbn in Hp |- *.
      induction Hp as [|s u Hs _ IHu]; [reflexivity|]. rewrite Hs. exact IHu.
  - rewrite (N.eqb_refl l), (N.eqb_refl c); reflexivity.
  - apply atom_eqb_refl.
Qed.

Lemma bind_eqb_eq : forall x y, bind_eqb x y = true -> x = y.
Proof.
  intros [l v c e] [l' v' c' e']; unfold bind_eqb; cbn. intro H.
  apply andb_true_iff in H as [H He]. apply andb_true_iff in H as [H Hc]. apply andb_true_iff in H as [Hl Hv].
  apply N.eqb_eq in Hl. apply atom_eqb_eq in Hv. apply eqb_prop in Hc. apply atom_eqb_eq in He.
  subst; reflexivity.
Qed.

Lemma memN_In : forall k l, memN k l = true <-> In k l.
Proof.
  intros k l; unfold memN. split; intro H.
  - apply existsb_exists in H as [x [Hi He]]. apply N.eqb_eq in He. subst; exact Hi.
  - apply existsb_exists. exists k. split; [exact H | apply N.eqb_refl].
Qed.
Lemma nodupN_NoDup : forall l, nodupN l = true -> NoDup l.
Proof.
  induction l as [|x r IH]; cbn; intro H; [constructor|].
  apply andb_true_iff in H as [H1 H2]. constructor; [|apply IH, H2].
  intro Hi. apply memN_In in Hi. rewrite Hi in H1; discriminate.
Qed.
Lemma alookup_In : forall {A} k (l : list (N * A)) v, alookup k l = Some v -> In (k, v) l.
Proof.
  induction l as [|[k' v'] r IH]; cbn; intros v H; [discriminate|].
  destruct (N.eqb_spec k' k) as [->|Hn]; [inversion H; subst; left; reflexivity | right; apply IH, H].
Qed.
Lemma alookup_notin : forall {A} k (l : list (N * A)), ~ In k (map fst l) -> alookup k l = None.
Proof.
  intros A k l Hn. destruct (alookup k l) as [v|] eqn:E; [|reflexivity].
  elim Hn. exact (in_map fst _ _ (alookup_In _ _ _ E)).
Qed.
Lemma alookup_NoDup : forall {A} k (l : list (N * A)) v, NoDup (map fst l) -> In (k, v) l -> alookup k l = Some v.
Proof.
  induction l as [|[k' v'] r IH]; cbn; intros v Hn Hi; [contradiction|].
  inversion Hn as [|? ? Hx Hr]; subst. destruct Hi as [He|Hi].
  - inversion He; subst. rewrite N.eqb_refl; reflexivity.
  - destruct (N.eqb_spec k' k) as [->|Hne]; [|apply IH; assumption].
    elim Hx. exact (in_map fst _ _ Hi).
Qed.
Lemma alookup_map : forall {A B} (f : A -> B) k (l : list (N * A)),
  alookup k (map (fun p => (fst p, f (snd p))) l) = option_map f (alookup k l).
Proof.
  induction l as [|[k' v'] r IH]; cbn; [reflexivity|]. destruct (N.eqb k' k); [reflexivity | exact IH].
Qed.
Lemma kget_map : forall {A B} (f : A -> B) k (l : list (N * list A)),
  kget k (map (fun p => (fst p, map f (snd p))) l) = map f (kget k l).
Proof.
  intros. unfold kget. rewrite (alookup_map (map f)). destruct (alookup k l); reflexivity.
Qed.
Lemma kget_In : forall {A} a (kids : list (N * list A)) x, In x (kget a kids) -> exists l, In (a, l) kids /\ In x l.
Proof.
  intros A a kids x H. unfold kget in H. destruct (alookup a kids) as [l|] eqn:E; [|contradiction].
  exists l. split; [exact (alookup_In _ _ _ E) | exact H].
Qed.
(* the two ways the hypothesis of [node_ind'] / [ktree_ind'] is used: at one attribute, and to compare
   two traversals of all children *)
Lemma Forall_kget : forall {A} (P : A -> Prop) (kids : list (N * list A)),
  Forall (fun p => Forall P (snd p)) kids -> forall a, Forall P (kget a kids).
Proof.
  intros A P kids H a. apply Forall_forall. intros x Hx. destruct (kget_In _ _ _ Hx) as [l [Hl Hi]].
  exact (proj1 (Forall_forall _ _) (proj1 (Forall_forall _ _) H _ Hl) _ Hi).
Qed.
Lemma kids_map_ext : forall {A B} (f g : A -> B) (kids : list (N * list A)),
  Forall (fun p => Forall (fun x => f x = g x) (snd p)) kids ->
  map (fun p => (fst p, map f (snd p))) kids = map (fun p => (fst p, map g (snd p))) kids.
Proof.
  intros A B f g kids H. apply map_ext_in. intros p Hp. f_equal.
  apply map_ext_in, Forall_forall. exact (proj1 (Forall_forall _ _) H p Hp).
Qed.
Lemma kids_map_map : forall {A B C} (f : A -> B) (g : B -> C) (kids : list (N * list A)),
  map (fun p => (fst p, map g (snd p))) (map (fun p => (fst p, map f (snd p))) kids)
  = map (fun p => (fst p, map (fun x => g (f x)) (snd p))) kids.
Proof. intros. rewrite map_map. apply map_ext. intro p. cbn. rewrite map_map. reflexivity. Qed.

Lemma flat_map_ext_in : forall {A B} (f g : A -> list B) l, (forall a, In a l -> f a = g a) -> flat_map f l = flat_map g l.
Proof.
  induction l as [|x r IH]; intro H; [reflexivity|]. cbn. rewrite (H x (or_introl eq_refl)). f_equal.
  apply IH. intros a Ha. apply H. right; exact Ha.
Qed.

(* the entries of a key: every field contributes one entry under its own name, or nothing *)
Definition pick {S A} (g : N * S -> option A) (fs : list (N * S)) : list (N * A) :=
  flat_map (fun f => match g f with Some v => [(fst f, v)] | None => [] end) fs.
Lemma alookup_pick : forall {S A} (g : N * S -> option A) fs a, NoDup (map fst fs) ->
  alookup a (pick g fs) = match alookup a fs with Some s => g (a, s) | None => None end.
Proof.
  induction fs as [|[a' s] r IH]; intros a Hn; [reflexivity|]. inversion Hn as [|? ? Hx Hr]; subst.
  unfold pick; cbn [flat_map alookup]. fold (pick g r). destruct (N.eqb_spec a' a) as [->|Hne].
  - destruct (g (a, s)); cbn; [rewrite N.eqb_refl; reflexivity|].
    rewrite (IH a Hr), (alookup_notin a r Hx); reflexivity.
  - destruct (g (a', s)); cbn; [destruct (N.eqb_spec a' a); [contradiction|]|]; apply IH, Hr.
Qed.

Definition atom_rule (sh : shape) (x : atom) : bool :=
  match sh with HTruthy | HKids => atruthy x | HNotNone => negb (is_none x) | _ => false end.
Definition keyshape (sh : shape) : bool := match sh with HTruthy | HNotNone | HKids => true | _ => false end.

Lemma sel_atoms_pick : forall fs atoms, sel_atoms fs atoms =
  pick (fun f => let x := aget (fst f) atoms in if atom_rule (snd f) x then Some x else None) fs.
Proof.
  intros. apply flat_map_ext. intros [a sh]. destruct sh; cbn [fst snd atom_rule]; try reflexivity;
    [destruct (atruthy _) | destruct (is_none _) | destruct (atruthy _)]; reflexivity.
Qed.
Lemma sel_kids_pick : forall {A} fs (pk : list (N * list A)), sel_kids fs pk =
  pick (fun f => if keyshape (snd f) then match kget (fst f) pk with [] => None | l => Some l end else None) fs.
Proof. intros. apply flat_map_ext. intros [a sh]. destruct sh; cbn; try reflexivity; destruct (kget a pk); reflexivity. Qed.
Lemma sel_kids_lookup : forall {A} fs (pk : list (N * list A)) a sh, NoDup (map fst fs) -> alookup a fs = Some sh ->
  keyshape sh = true -> kget a (sel_kids fs pk) = kget a pk.
Proof.
  intros A fs pk a sh Hn Hi Hk. unfold kget at 1. rewrite sel_kids_pick, (alookup_pick _ fs a Hn), Hi. cbn [fst snd].
  rewrite Hk. destruct (kget a pk); reflexivity.
Qed.

Lemma truthy_not_none : forall x, atruthy x = true -> is_none x = false.
Proof. intros [i t]; unfold is_none; cbn. intros ->. apply andb_false_r. Qed.

Lemma covers_spec : forall T V, covers T V = true -> forall c,
  NoDup (map fst (cfields (tget T c))) /\ forall a, In a (vget V c) -> keyed (tget T c) a = true.
Proof.
  intros T V H c. unfold covers in H.
  apply andb_prop in H as [H _]. apply andb_prop in H as [H _]. apply andb_prop in H as [Hk Hn]. split.
  - unfold tget. destruct (alookup c T) as [ci|] eqn:E; [|constructor].
    exact (nodupN_NoDup _ (proj1 (forallb_forall _ _) Hn _ (alookup_In _ _ _ E))).
  - intros a Hi. unfold vget in Hi. destruct (alookup c V) as [l|] eqn:E; [|contradiction].
    exact (proj1 (forallb_forall _ _) (proj1 (forallb_forall _ _) Hk _ (alookup_In _ _ _ E)) _ Hi).
Qed.
Lemma keyed_inv : forall ci a, keyed ci a = true ->
  ck ci = KIdentity \/ exists sh, In (a, sh) (cfields ci) /\ keyshape sh = true.
Proof.
  intros ci a H. unfold keyed in H. destruct (ck ci); [right | left; reflexivity | discriminate].
  apply existsb_exists in H as [[a' sh] [Hi Hb]]. cbn in Hb. apply andb_prop in Hb as [He Hs].
  apply N.eqb_eq in He. subst a'. exists sh. split; [exact Hi | exact Hs].
Qed.

(* what the compiler sees is a function of the unpruned key: first for the entries of one object whose
   V attributes are all fields of the key, its children already restricted *)
Lemma restrict_sel : forall V lbl cls fs atoms (pk : list (N * list ktree)), NoDup (map fst fs) ->
  (forall a, In a (vget V cls) -> exists sh, In (a, sh) fs /\ keyshape sh = true) ->
  restrict V (KN lbl cls (sel_atoms fs atoms) (sel_kids fs pk))
  = KN lbl cls
      (flat_map (fun a => let x := aget a atoms in if atruthy x then [(a, x)] else []) (vget V cls))
      (flat_map (fun a => match kget a (map (fun p => (fst p, map (restrict V) (snd p))) pk) with
                          | [] => [] | l => [(a, l)] end) (vget V cls)).
Proof.
  intros V lbl cls fs atoms pk Hnd Hf. cbn [restrict]. f_equal; apply flat_map_ext_in; intros a Ha;
    destruct (Hf a Ha) as [sh [Hi Hs]]; apply (alookup_NoDup _ _ _ Hnd) in Hi.
  - rewrite sel_atoms_pick, (alookup_pick _ _ a Hnd), Hi. cbn.
    destruct (atruthy (aget a atoms)) eqn:Et.
    + assert (atom_rule sh (aget a atoms) = true) as ->.
      { destruct sh; try discriminate; cbn; try exact Et. rewrite (truthy_not_none _ Et); reflexivity. }
      rewrite Et; reflexivity.
    + destruct (atom_rule sh (aget a atoms)); [rewrite Et|]; reflexivity.
  - rewrite !(kget_map (restrict V)), (sel_kids_lookup _ _ a sh Hnd Hi Hs). reflexivity.
Qed.
Theorem view_restrict : forall T V, covers T V = true -> forall n, view T V n = restrict V (proj T n).
Proof.
  intros T V Hc. induction n as [lbl cls atoms kids IH] using node_ind'.
  destruct (covers_spec T V Hc cls) as [Hnd Hkd]. cbn [view proj]. unfold view_body, proj_body.
  rewrite (kids_map_ext _ _ _ IH), <- kids_map_map.
  (* a class that is not cacheable has no V entry unless covers fails *)
  destruct (ck (tget T cls)) eqn:Ek; [|reflexivity|]; symmetry; apply (restrict_sel V lbl cls _ atoms _ Hnd);
    intros a Ha; (destruct (keyed_inv _ a (Hkd a Ha)) as [E|H]; [rewrite Ek in E; discriminate E | exact H]).
Qed.

Lemma wf_spec : forall T s k bs, wf T s = true -> gen_key T s = Some (k, bs) ->
  fst (unprune k []) = proj T s /\
  (forall b, In b bs -> bfind (blbl b) (allbinds T s) = Some b) /\
  incl (kbl T (proj T s)) (map blbl bs).
Proof.
  intros T s k bs Hw Hk. unfold wf in Hw. rewrite Hk in Hw.
  apply andb_prop in Hw as [Hw Hc]. apply andb_prop in Hw as [Hu Hb]. split; [apply ktree_eqb_eq, Hu|]. split.
  - intros b Hi. apply (proj1 (forallb_forall _ _) Hb) in Hi.
    destruct (bfind (blbl b) (allbinds T s)) as [b'|]; [|discriminate]. rewrite (bind_eqb_eq _ _ Hi); reflexivity.
  - intros l Hl. apply memN_In. exact (proj1 (forallb_forall _ _) Hc l Hl).
Qed.
(* equal keys un-prune to equal projections, hence to equal views *)
Theorem key_determines_view : forall T V, covers T V = true -> forall s1 s2 k b1 b2,
  wf T s1 = true -> wf T s2 = true -> gen_key T s1 = Some (k, b1) -> gen_key T s2 = Some (k, b2) ->
  view T V s1 = view T V s2.
Proof.
  intros T V Hc s1 s2 k b1 b2 H1 H2 K1 K2. rewrite !(view_restrict T V Hc).
  rewrite <- (proj1 (wf_spec T s1 k b1 H1 K1)), <- (proj1 (wf_spec T s2 k b2 H2 K2)). reflexivity.
Qed.
