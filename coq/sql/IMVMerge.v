(* C12: the dialect-level merge of IMV.v (sentinel sort / sentinel dictionary match). *)
From Coq Require Import List ZArith Bool Lia Arith Permutation Sorted ZifyBool.
Import ListNotations.
From SAV.sql Require Import IMV.
Open Scope Z_scope.

Section MergeProofs.
Context {P K R : Type}.
Variable key_eqb : K -> K -> bool.
Hypothesis key_eqb_spec : forall a b, key_eqb a b = true <-> a = b.
Variable sent_of_param : P -> K.
Variable sent_of_row : R -> K.
Variable sort_key : R -> Z.

Local Notation sort_rows := (sort_rows sort_key).
Local Notation insert_row := (insert_row sort_key).
Local Notation dict_get := (dict_get key_eqb sent_of_row).
Local Notation dict_len := (dict_len key_eqb sent_of_row).
Local Notation lookup_all := (lookup_all key_eqb sent_of_row).
Local Notation merge_rows := (merge_rows key_eqb sent_of_param sent_of_row sort_key).

Definition key_le (a b : R) : Prop := sort_key a <= sort_key b.
Definition key_lt (a b : R) : Prop := sort_key a < sort_key b.

Lemma insert_row_perm r l : Permutation (insert_row r l) (r :: l).
Proof.
  induction l as [|x t IH]; cbn [IMV.insert_row]; [reflexivity|].
  destruct (sort_key r <=? sort_key x); [reflexivity|].
  rewrite IH. apply perm_swap.
Qed.
Lemma sort_rows_perm l : Permutation (sort_rows l) l.
Proof. induction l as [|x t IH]; cbn; [reflexivity|]. unfold IMV.sort_rows in IH. rewrite insert_row_perm, IH. reflexivity. Qed.

Lemma insert_row_sorted r l : StronglySorted key_le l -> StronglySorted key_le (insert_row r l).
Proof.
  induction 1 as [|x t Hs IH Hall]; cbn [IMV.insert_row]; [constructor; constructor|].
  destruct (sort_key r <=? sort_key x) eqn:E.
  - constructor; [constructor; assumption|]. constructor; [unfold key_le; lia|].
    eapply Forall_impl; [|exact Hall]. unfold key_le. intros; lia.
  - constructor; [exact IH|]. apply (Permutation_Forall (Permutation_sym (insert_row_perm r t))).
    constructor; [unfold key_le; lia|exact Hall].
Qed.
Lemma sort_rows_sorted l : StronglySorted key_le (sort_rows l).
Proof. induction l as [|x t IH]; cbn; [constructor|]. apply insert_row_sorted. exact IH. Qed.

(* a sorted permutation of a strictly sorted list is that list *)
Lemma sorted_perm_unique target : StronglySorted key_lt target ->
  forall s, StronglySorted key_le s -> Permutation s target -> s = target.
Proof.
  induction 1 as [|t tt Hs IH Hall]; intros s Hss Hp.
  - apply Permutation_nil. symmetry. exact Hp.
  - destruct s as [|x s']; [apply Permutation_nil in Hp; discriminate|].
    inversion Hss as [|? ? Hss' Hx]; subst.
    assert (x = t).
    { assert (Hxin : In x (t :: tt)) by (eapply Permutation_in; [exact Hp|left; reflexivity]).
      destruct Hxin as [->|Hxin]; [reflexivity|].
      eapply Forall_forall in Hall; [|exact Hxin]. unfold key_lt in Hall.
      assert (Htin : In t (x :: s')) by (eapply Permutation_in; [symmetry; exact Hp|left; reflexivity]).
      destruct Htin as [->|Htin]; [reflexivity|].
      eapply Forall_forall in Hx; [|exact Htin]. unfold key_le in Hx. lia. }
    subst x. f_equal. apply IH; [exact Hss'|]. eapply Permutation_cons_inv. exact Hp.
Qed.

Theorem sort_rows_restores target rows : StronglySorted key_lt target -> Permutation target rows ->
  sort_rows rows = target.
Proof.
  intros Hs Hp. apply sorted_perm_unique; [exact Hs|apply sort_rows_sorted|].
  rewrite sort_rows_perm. symmetry. exact Hp.
Qed.

Lemma key_eqb_refl k : key_eqb k k = true.
Proof. apply key_eqb_spec. reflexivity. Qed.

Lemma dict_get_some k rows r : dict_get k rows = Some r -> In r rows /\ sent_of_row r = k.
Proof.
  induction rows as [|x t IH]; cbn [IMV.dict_get]; [discriminate|].
  destruct (dict_get k t) eqn:E.
  - intros H; inversion H; subst. destruct (IH eq_refl). split; [right; assumption|assumption].
  - destruct (key_eqb (sent_of_row x) k) eqn:E2; [|discriminate].
    intros H; inversion H; subst. split; [left; reflexivity|apply key_eqb_spec; exact E2].
Qed.
Lemma dict_get_none k rows : (forall y, In y rows -> sent_of_row y <> k) -> dict_get k rows = None.
Proof.
  induction rows as [|x t IH]; intros H; cbn [IMV.dict_get]; [reflexivity|].
  rewrite IH by (intros y Hy; apply H; right; exact Hy).
  destruct (key_eqb (sent_of_row x) k) eqn:E; [|reflexivity].
  apply key_eqb_spec in E. exfalso. apply (H x); [left; reflexivity|exact E].
Qed.
Lemma dict_get_own rows r : NoDup (map sent_of_row rows) -> In r rows -> dict_get (sent_of_row r) rows = Some r.
Proof.
  induction rows as [|x t IH]; intros Hn Hin; [destruct Hin|]. cbn [map] in Hn. inversion Hn; subst.
  cbn [IMV.dict_get]. destruct Hin as [->|Hin].
  - rewrite dict_get_none.
    + rewrite key_eqb_refl. reflexivity.
    + intros y Hy Heq. apply H1. rewrite <- Heq. apply in_map. exact Hy.
  - rewrite IH by assumption. reflexivity.
Qed.

Lemma distinct_keys_nodup ks : NoDup ks -> distinct_keys key_eqb ks = ks.
Proof.
  induction 1 as [|k t Hnin Hn IH]; cbn [distinct_keys]; [reflexivity|].
  destruct (existsb (key_eqb k) t) eqn:E; [|rewrite IH; reflexivity].
  apply existsb_exists in E as (x & Hx & E). apply key_eqb_spec in E. subst x. contradiction.
Qed.
Lemma dict_len_nodup rows : NoDup (map sent_of_row rows) -> dict_len rows = length rows.
Proof. intros H. unfold IMV.dict_len. rewrite distinct_keys_nodup by exact H. apply map_length. Qed.

(* soundness, whatever the database returned: a successful match puts behind the n-th parameter
   set a fetched row that carries that parameter set's sentinel *)
Lemma lookup_all_sound keys rows out : lookup_all keys rows = Some out ->
  map sent_of_row out = keys /\ incl out rows.
Proof.
  revert out. induction keys as [|k t IH]; intros out; cbn [IMV.lookup_all].
  - intros [= <-]. split; [reflexivity|intros x []].
  - destruct (dict_get k rows) eqn:E; [|discriminate]. destruct (lookup_all t rows) eqn:E2; [|discriminate].
    intros [= <-]. destruct (IH _ eq_refl) as [H1 H2]. destruct (dict_get_some _ _ _ E) as [H3 H4].
    split; [cbn; rewrite H1, H4; reflexivity|]. intros x [<-|Hx]; [exact H3|apply H2; exact Hx].
Qed.

(* completeness: when the fetched rows have distinct sentinels and hold the row of every parameter
   set asked for, the match finds exactly those rows *)
Lemma lookup_all_complete (row_of : P -> R) rows sub : (forall p, sent_of_row (row_of p) = sent_of_param p) ->
  NoDup (map sent_of_row rows) -> (forall p, In p sub -> In (row_of p) rows) ->
  lookup_all (map sent_of_param sub) rows = Some (map row_of sub).
Proof.
  intros Hrs Hn. induction sub as [|p t IH]; intros Hin; [reflexivity|]. cbn [map IMV.lookup_all].
  rewrite <- Hrs, dict_get_own, IH; [reflexivity| |exact Hn|]; auto using in_eq, in_cons.
Qed.

(* merge_rows read branch by branch: guard off -> rows as fetched (merge_passthrough); implicit sentinel ->
   sorted, or the assert for a composite one; otherwise the dictionary match and its two guards (merge_explicit) *)
Lemma merge_guard_on n d : n <> 0 -> d = false -> merge_guard n d = true.
Proof. intros Hn ->. unfold merge_guard, truthy. destruct (n =? 0) eqn:E; [lia|reflexivity]. Qed.

Lemma merge_passthrough c (b : batch P) rows :
  c_num_sentinel c = 0 \/ b_downgraded b = true -> merge_rows c b rows = Ok rows.
Proof.
  intros H. unfold IMV.merge_rows, merge_guard. destruct H as [->| ->]; [reflexivity|].
  rewrite andb_false_r. reflexivity.
Qed.

Lemma merge_implicit c (b : batch P) rows : c_num_sentinel c = 1 -> b_downgraded b = false ->
  c_implicit c = true -> merge_rows c b rows = Ok (sort_rows rows).
Proof. intros H1 H2 H3. unfold IMV.merge_rows. rewrite H1, H2, H3. reflexivity. Qed.

Lemma merge_implicit_composite c (b : batch P) rows : 1 < c_num_sentinel c -> b_downgraded b = false ->
  c_implicit c = true -> merge_rows c b rows = Raise AssertionError.
Proof.
  intros H1 H2 H3. unfold IMV.merge_rows, composite_sentinel. rewrite merge_guard_on, H3 by (lia || assumption).
  destruct (c_num_sentinel c >? 1) eqn:E; [reflexivity|lia].
Qed.

(* the explicit-sentinel branch, with the tests in the positive *)
Lemma merge_explicit c (b : batch P) rows : c_num_sentinel c <> 0 -> b_downgraded b = false ->
  c_implicit c = false ->
  merge_rows c b rows =
  if c_has_keys c then
    if Nat.eqb (dict_len rows) (length (b_items b)) then
      match lookup_all (map sent_of_param (b_items b)) rows with
      | Some ordered => Ok ordered
      | None => Raise SentinelKeyError
      end
    else Raise RowCountMismatch
  else Raise AssertionError.
Proof.
  intros H1 H2 H3. unfold IMV.merge_rows, rowcount_differs. rewrite merge_guard_on, H3 by assumption.
  destruct (c_has_keys c), (Nat.eqb (dict_len rows) (length (b_items b))); reflexivity.
Qed.

(* sentinel columns were selected but no client-side value reaches them and the dialect has no
   implicit sentinel support: `assert imv.sentinel_param_keys` *)
Lemma merge_no_keys c (b : batch P) rows : c_num_sentinel c <> 0 -> b_downgraded b = false ->
  c_implicit c = false -> c_has_keys c = false -> merge_rows c b rows = Raise AssertionError.
Proof. intros H1 H2 H3 H4. rewrite merge_explicit, H4 by assumption. reflexivity. Qed.

Lemma merge_explicit_sound c (b : batch P) rows out : c_num_sentinel c <> 0 -> b_downgraded b = false ->
  c_implicit c = false -> merge_rows c b rows = Ok out ->
  map sent_of_row out = map sent_of_param (b_items b) /\ incl out rows /\ length out = length (b_items b).
Proof.
  intros H1 H2 H3. rewrite merge_explicit by assumption.
  destruct (c_has_keys c); [|discriminate]. destruct (Nat.eqb _ _); [|discriminate].
  destruct (lookup_all _ rows) eqn:E; [|discriminate]. intros [= <-].
  destruct (lookup_all_sound _ _ _ E) as [Ha Hb]. split; [exact Ha|]. split; [exact Hb|].
  rewrite <- (map_length sent_of_row), Ha. apply map_length.
Qed.

Lemma merge_explicit_complete c (b : batch P) rows (row_of : P -> R) :
  (forall p, sent_of_row (row_of p) = sent_of_param p) ->
  c_num_sentinel c <> 0 -> b_downgraded b = false -> c_implicit c = false -> c_has_keys c = true ->
  NoDup (map sent_of_param (b_items b)) -> Permutation (map row_of (b_items b)) rows ->
  merge_rows c b rows = Ok (map row_of (b_items b)).
Proof.
  intros Hrs H1 H2 H3 H4 Hn Hp. rewrite merge_explicit, H4 by assumption.
  assert (Hn' : NoDup (map sent_of_row rows)).
  { eapply Permutation_NoDup; [apply Permutation_map, Hp|].
    rewrite map_map. erewrite map_ext; [exact Hn|exact Hrs]. }
  rewrite dict_len_nodup, <- (Permutation_length Hp), map_length, Nat.eqb_refl by exact Hn'.
  rewrite (lookup_all_complete row_of _ _ Hrs Hn'); [reflexivity|].
  intros p Hin. eapply Permutation_in; [exact Hp|apply in_map, Hin].
Qed.

Lemma merge_rowcount_guard c (b : batch P) rows : c_num_sentinel c <> 0 -> b_downgraded b = false ->
  c_implicit c = false -> c_has_keys c = true -> dict_len rows <> length (b_items b) ->
  merge_rows c b rows = Raise RowCountMismatch.
Proof.
  intros H1 H2 H3 H4 H5. rewrite merge_explicit, H4 by assumption.
  apply Nat.eqb_neq in H5. rewrite H5. reflexivity.
Qed.
Lemma merge_keyerror_guard c (b : batch P) rows p : c_num_sentinel c <> 0 -> b_downgraded b = false ->
  c_implicit c = false -> c_has_keys c = true -> dict_len rows = length (b_items b) ->
  In p (b_items b) -> (forall r, In r rows -> sent_of_row r <> sent_of_param p) ->
  merge_rows c b rows = Raise SentinelKeyError.
Proof.
  intros H1 H2 H3 H4 H5 Hin Hno. rewrite merge_explicit, H4, H5, Nat.eqb_refl by assumption.
  destruct (lookup_all _ rows) eqn:E; [exfalso|reflexivity].
  destruct (lookup_all_sound _ _ _ E) as [Ha Hb].
  apply (in_map sent_of_param) in Hin. rewrite <- Ha in Hin. apply in_map_iff in Hin as (r & Hr & Hrin).
  exact (Hno r (Hb r Hrin) Hr).
Qed.
End MergeProofs.
