(* C05 - IN lists: the rendered list is a list of tokens denoting the values; with a bind_expression
   each element is wrapped as a whole (literal_execute, 550a51d) or the joined placeholders are split on ", ". *)
From Coq Require Import List NArith Bool.
Import ListNotations.
From SAV.sql Require Import Literal LiteralStrProofs.
Open Scope N_scope.

Lemma join_sep_cons2 a b r : join_sep (a :: b :: r) = a ++ SEP ++ join_sep (b :: r).
Proof. reflexivity. Qed.

(* every element is one token by the round trip; what follows it - ", '" or ")" - starts with
   neither a quote nor a percent sign, so the driver passes it and the round trip applies again *)
Theorem in_list_tokens : forall d fl n xs rest,
  (n = true -> d = MSSQL) -> xs <> [] ->
  lex_list (length xs) (server d fl)
           (driver fl (render_in_list (map (render_string d fl n) xs) ++ 41 :: rest))
  = LOk xs (driver fl (41 :: rest)).
Proof.
  intros d fl n xs rest Hn. unfold render_in_list.
  induction xs as [|x xs IH]; intros Hne; [contradiction|].
  destruct xs as [|y ys].
  - cbn [map join_sep length lex_list].
    rewrite (string_literal_roundtrip d fl n x (41 :: rest) Hn) by (cbn; discriminate).
    rewrite driver_cons_ne by discriminate. reflexivity.
  - change (length (x :: y :: ys)) with (S (length (y :: ys))).
    cbn [map lex_list] in *. rewrite join_sep_cons2, <- !app_assoc.
    rewrite (string_literal_roundtrip d fl n x _ Hn) by (cbn; discriminate).
    cbn [SEP app]. rewrite 2!driver_cons_ne, IH by discriminate. reflexivity.
Qed.

(* the text does not contain ", " *)
Fixpoint no_sep (s : str) : bool :=
  match s with
  | c :: r => negb ((c =? 44) && match r with c2 :: _ => c2 =? 32 | [] => false end) && no_sep r
  | [] => true
  end.

(* a text without ", " goes to the accumulator as it is, provided what follows does not start with
   the blank that would make a separator of a final comma *)
Lemma split_walk x : forall cur t, no_sep x = true ->
  match t with c :: _ => c =? 32 | [] => false end = false ->
  split_sep_aux cur (x ++ t) = split_sep_aux (rev x ++ cur) t.
Proof.
  induction x as [|c x IH]; intros cur t H Ht; [reflexivity|].
  cbn [no_sep] in H. apply andb_prop in H. destruct H as [H1 H2]. apply negb_true_iff in H1.
  cbn [rev]. rewrite <- app_assoc. cbn [app]. rewrite <- (IH (c :: cur) t H2 Ht).
  cbn [split_sep_aux]. destruct x as [|c2 x2]; cbn [app].
  - destruct t as [|c2 t2]; [reflexivity|]. rewrite Ht, andb_false_r. reflexivity.
  - rewrite H1. reflexivity.
Qed.

Lemma split_join lits : lits <> [] -> forallb no_sep lits = true ->
  split_sep (join_sep lits) = lits.
Proof.
  unfold split_sep. induction lits as [|x r IH]; intros Hne H; [contradiction|].
  cbn [forallb] in H. apply andb_prop in H. destruct H as [Hx Hr].
  destruct r as [|y r'].
  - pose proof (split_walk x [] [] Hx eq_refl) as E. rewrite !app_nil_r in E.
    cbn [join_sep]. rewrite E. cbn [split_sep_aux]. rewrite rev_involutive. reflexivity.
  - rewrite join_sep_cons2, (split_walk x [] (SEP ++ join_sep (y :: r')) Hx eq_refl), app_nil_r.
    cbn [SEP app split_sep_aux]. change ((44 =? 44) && (32 =? 32)) with true. cbn iota.
    rewrite rev_involutive, IH by (discriminate || exact Hr). reflexivity.
Qed.

Theorem process_expanding_bound_ok : forall l r phs,
  phs <> [] -> forallb no_sep phs = true ->
  process_expanding_bound l r phs = render_in_list_be l r phs.
Proof.
  intros l r phs Hne H. unfold process_expanding_bound, render_in_list_be.
  rewrite (split_join phs Hne H). reflexivity.
Qed.

Theorem process_expanding_literal : forall l r lits,
  process_expanding_be l r lits = render_in_list_be l r lits.
Proof. reflexivity. Qed.

Definition s_lower_open : str := [108; 111; 119; 101; 114; 40].
Definition lit_A_B : str := [39; 65; 44; 32; 66; 39].
