(* C18 - each native form, read by the database, is the requested slice; WITH TIES and PERCENT *)
From Coq Require Import List ZArith Bool Lia Sorted.
Import ListNotations.
From SAV.sql Require Import Limit LimitListProofs.
Open Scope Z_scope.

Lemma pct_count_ceil : forall p total, 0 <= p -> 0 <= total ->
  p * total <= 100 * pct_count p total < p * total + 100.
Proof. intros. unfold pct_count. Z.div_mod_to_equations. lia. Qed.

Section Ties.
Variable A : Type.
Variable lek : A -> A -> bool.               (* the ORDER BY, as a total preorder on rows *)
Variable eqk : A -> A -> bool.
Hypothesis lek_trans : forall a b c, lek a b = true -> lek b c = true -> lek a c = true.
Hypothesis eqk_def : forall a b, eqk a b = lek a b && lek b a.
Let R (a b : A) : Prop := lek a b = true.

(* below the pivot's tie group nothing matches any more *)
Lemma filter_take_while_sorted : forall (pivot : A) (t : list A),
  StronglySorted R t -> (forall y, In y t -> R pivot y) ->
  filter (eqk pivot) t = take_while (eqk pivot) t.
Proof.
  induction t as [|x t IH]; intros Hs Hp; [reflexivity|].
  apply StronglySorted_inv in Hs. destruct Hs as [Hs Hx]. cbn [filter take_while].
  destruct (eqk pivot x) eqn:E.
  - f_equal. apply IH; [exact Hs|]. intros y Hy. apply Hp. now right.
  - rewrite Forall_forall in Hx. apply filter_none. intros y Hy.
    destruct (eqk pivot y) eqn:E2; [|reflexivity].
    rewrite eqk_def in E2. apply andb_prop in E2. destruct E2 as [_ E2].
    assert (lek x pivot = true) by (eapply lek_trans; [apply Hx; exact Hy|exact E2]).
    rewrite eqk_def in E. rewrite (Hp x (or_introl eq_refl)), H in E. discriminate.
Qed.

(* the database's WITH TIES (prefix, then the run of rows tied with its last row) is the declarative
   one (positions < n, plus every row with the key of the n-th) on a result sorted by the ORDER BY *)
Lemma ties_ext_spec : forall n (r : list A), StronglySorted R r ->
  ties_ext A eqk n r = with_ties_spec eqk n r.
Proof.
  intros n r Hs. unfold ties_ext, with_ties_spec, index. rewrite <- takeZ_firstn.
  destruct (last_opt (takeZ n r)) as [pivot|] eqn:EL; [|reflexivity]. apply last_opt_In in EL.
  rewrite <- (takeZ_dropZ A r n) in Hs. apply SSorted_app in Hs. destruct Hs as [Hs Hcross].
  rewrite number_filter_lt_or, Z.sub_0_r. f_equal. symmetry.
  apply filter_take_while_sorted; [exact Hs|]. intros y Hy. now apply Hcross.
Qed.
End Ties.

Section Forms.
Variable A : Type.
Variable eqA : A -> A -> bool.
Variable eqk : A -> A -> bool.
Variable reorder : list A -> list A.

Notation exec := (exec A eqA eqk reorder).
Notation result := (result A eqA).

(* MSSQL: SELECT TOP n *)
Lemma top_eq_slice : forall n distinct pre,
  exec (PTop n false false) distinct pre = slice 0 (Some n) (result distinct pre).
Proof. intros. cbn [exec fetch_sem opt0]. rewrite slice_some. reflexivity. Qed.

(* OFFSET o ROWS FETCH FIRST f ROWS ONLY, with either part optional *)
Lemma offset_fetch_eq_slice : forall o f distinct pre,
  exec (PFetch o f false false) distinct pre = slice (opt0 o) f (result distinct pre).
Proof. intros. cbn [exec fetch_sem]. rewrite slice_opt. destruct f; reflexivity. Qed.

(* LIMIT l [OFFSET o] *)
Lemma limit_eq_slice : forall l o distinct pre, 0 <= l ->
  exec (PLimit l o) distinct pre = slice (opt0 o) (Some l) (result distinct pre).
Proof.
  intros. cbn [exec]. unfold limit_sem. replace (l <? 0) with false by lia. now rewrite slice_some.
Qed.

(* SQLite / generic: LIMIT -1 OFFSET o  (any negative LIMIT) *)
Lemma limit_negative_eq_slice : forall l o distinct pre, l < 0 ->
  exec (PLimit l o) distinct pre = slice (opt0 o) None (result distinct pre).
Proof.
  intros. cbn [exec]. unfold limit_sem. replace (l <? 0) with true by lia. now rewrite slice_none.
Qed.

(* PostgreSQL: LIMIT ALL OFFSET o *)
Lemma limit_all_eq_slice : forall o distinct pre,
  exec (PLimitAll o) distinct pre = slice o None (result distinct pre).
Proof. intros. cbn [exec]. now rewrite slice_none. Qed.

(* MySQL: LIMIT [o,] l *)
Lemma mysql_eq_slice : forall o l distinct pre,
  exec (PMySQL o l) distinct pre = slice (opt0 o) (Some l) (result distinct pre).
Proof. intros. cbn [exec]. now rewrite slice_some. Qed.

(* MySQL: LIMIT o, 18446744073709551615 is "no limit" exactly as long as the rows left fit in 2^64-1 *)
Lemma mysql_no_limit_iff : forall o distinct pre, 0 <= o ->
  exec (PMySQL (Some o) mysql_no_limit) distinct pre = slice o None (result distinct pre)
  <-> Z.of_nat (length (result distinct pre)) - o <= mysql_no_limit.
Proof.
  intros o distinct pre Ho. cbn [exec opt0]. rewrite slice_none, takeZ_all_iff, dropZ_length by assumption.
  unfold mysql_no_limit. lia.
Qed.

Section WithTies.
Variable lek : A -> A -> bool.
Hypothesis lek_trans : forall a b c, lek a b = true -> lek b c = true -> lek a c = true.
Hypothesis eqk_def : forall a b, eqk a b = lek a b && lek b a.

Lemma sorted_result : forall distinct pre,
  StronglySorted (fun a b => lek a b = true) pre ->
  StronglySorted (fun a b => lek a b = true) (result distinct pre).
Proof. intros [] pre H; cbn [Limit.result]; [now apply SSorted_dedup|exact H]. Qed.

Lemma fetch_sem_spec : forall o n percent ties rows,
  (ties = true -> StronglySorted (fun a b => lek a b = true) rows) ->
  fetch_sem A eqk o (Some n) percent ties rows = fetch_spec A eqk (opt0 o) n percent ties rows.
Proof.
  intros o n percent ties rows Hs. unfold fetch_sem, fetch_spec.
  destruct ties.
  - rewrite slice_none. apply (ties_ext_spec A lek eqk lek_trans eqk_def).
    apply SSorted_dropZ. now apply Hs.
  - now rewrite slice_some.
Qed.
End WithTies.

End Forms.
