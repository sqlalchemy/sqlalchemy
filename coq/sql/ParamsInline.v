(* C04 - lemmas about the driver-side substitution [inline] and the reference meaning [inline_spec] *)
From Coq Require Import List NArith ZArith Bool.
Import ListNotations.
From SAV.sql Require Import Params ParamsDict.

Lemma undouble_double : forall s, undouble_pct (double_pct s) = s.
Proof.
  induction s as [|c s IH]; [reflexivity|]. cbn [double_pct].
  destruct (N.eqb c PCT) eqn:E.
  - apply N.eqb_eq in E. subst c. cbn [undouble_pct]. rewrite N.eqb_refl. f_equal. exact IH.
  - cbn [undouble_pct]. rewrite E. f_equal. exact IH.
Qed.
Lemma unpct_pct : forall ps s, unpct ps (pct ps s) = s.
Proof. intros ps s. unfold unpct, pct. destruct (doubles_percent ps); [apply undouble_double|reflexivity]. Qed.
Lemma pct_comma : forall ps, pct ps COMMA_SP = COMMA_SP.
Proof. intro ps. unfold pct. destruct (doubles_percent ps); reflexivity. Qed.

Definition oapp {A} (x y : option (list A)) : option (list A) :=
  match x, y with Some a, Some b => Some (a ++ b) | _, _ => None end.

Lemma option_map_app_oapp : forall {A} (a : list A) y, option_map (app a) y = oapp (Some a) y.
Proof. intros A a [y|]; reflexivity. Qed.
Lemma oapp_assoc : forall {A} (x y z : option (list A)), oapp (oapp x y) z = oapp x (oapp y z).
Proof. intros A [x|] [y|] [z|]; cbn; try reflexivity. rewrite app_assoc. reflexivity. Qed.
Lemma oapp_nil_r : forall {A} (x : option (list A)), oapp x (Some []) = x.
Proof. intros A [x|]; cbn; [rewrite app_nil_r|]; reflexivity. Qed.

Lemma concat_opt_app : forall {A} (l1 l2 : list (option (list A))),
  concat_opt (l1 ++ l2) = oapp (concat_opt l1) (concat_opt l2).
Proof.
  induction l1 as [|[x|] l1 IH]; intro l2; cbn [app concat_opt].
  - destruct (concat_opt l2); reflexivity.
  - rewrite IH. destruct (concat_opt l1), (concat_opt l2); cbn; try reflexivity. rewrite app_assoc. reflexivity.
  - reflexivity.
Qed.

Lemma inline_dict_app : forall ps a b d, inline_dict ps (a ++ b) d = oapp (inline_dict ps a d) (inline_dict ps b d).
Proof.
  induction a as [|t a IH]; intros b d; cbn [app inline_dict].
  - destruct (inline_dict ps b d); reflexivity.
  - destruct t; try reflexivity.
    + rewrite IH, !option_map_app_oapp, oapp_assoc. reflexivity.
    + destruct (dget n d) as [[v|l]|]; try reflexivity. rewrite IH.
      destruct (inline_dict ps a d), (inline_dict ps b d); reflexivity.
Qed.

(* qmark / format: a segment that consumes exactly its own values *)
Lemma inline_seq_app : forall ps a va ra b vb,
  inline_seq ps a va = Some ra ->
  inline_seq ps (a ++ b) (va ++ vb) = oapp (Some ra) (inline_seq ps b vb).
Proof.
  induction a as [|t a IH]; intros va ra b vb H; cbn [app inline_seq] in *.
  - destruct va; [|discriminate]. inversion H; subst. cbn [app]. destruct (inline_seq ps b vb); reflexivity.
  - destruct t; try discriminate.
    + destruct (inline_seq ps a va) as [r|] eqn:E; [|discriminate]. cbn [option_map] in H. inversion H; subst.
      rewrite (IH va r b vb E). destruct (inline_seq ps b vb); cbn; [rewrite app_assoc|]; reflexivity.
    + destruct va as [|[v|l] va]; try discriminate.
      destruct (inline_seq ps a va) as [r|] eqn:E; [|discriminate]. cbn [option_map] in H. inversion H; subst.
      cbn [app]. rewrite (IH va r b vb E). destruct (inline_seq ps b vb); reflexivity.
Qed.

Lemma inline_num_app : forall ps a b vals, inline_num ps (a ++ b) vals = oapp (inline_num ps a vals) (inline_num ps b vals).
Proof.
  induction a as [|t a IH]; intros b vals; cbn [app inline_num].
  - destruct (inline_num ps b vals); reflexivity.
  - destruct t; try reflexivity.
    + rewrite IH, !option_map_app_oapp, oapp_assoc. reflexivity.
    + destruct (N.eqb k 0); [reflexivity|].
      destruct (nth_error vals (N.to_nat k - 1)) as [[v|l]|]; try reflexivity. rewrite IH.
      destruct (inline_num ps a vals), (inline_num ps b vals); reflexivity.
Qed.

Lemma join_toks_cons2 : forall x y r, join_toks (x :: y :: r) = x :: OTxt COMMA_SP :: join_toks (y :: r).
Proof. reflexivity. Qed.
Lemma In_join_toks : forall t l, In t (join_toks l) -> t = OTxt COMMA_SP \/ In t l.
Proof.
  induction l as [|x l IH]; [intros []|]. destruct l as [|y l]; [intro H; right; exact H|].
  rewrite join_toks_cons2. intros [H|[H|H]]; [right; left; exact H|left; symmetry; exact H|].
  destruct (IH H) as [H'|H']; [left|right; right]; exact H'.
Qed.
Lemma join_vals_cons2 : forall x y r, join_vals (x :: y :: r) = Val x :: map Ch COMMA_SP ++ join_vals (y :: r).
Proof. reflexivity. Qed.
