(* C04 - named / pyformat: the dictionary handed to the driver gives every placeholder its bind's value *)
From Coq Require Import List NArith ZArith Bool.
Import ListNotations.
From SAV.sql Require Import Params ParamsDict ParamsEscape ParamsGuard ParamsPost ParamsInline ParamsFinal.

Lemma expand_from_length : forall e l i, length (expand_from e i l) = length l.
Proof. induction l as [|v l IH]; intro i; cbn [expand_from length]; [reflexivity|]. f_equal. apply IH. Qed.

Section Named.
Variable tab : list (N * N).
Variable lit : Z -> str.
Variable empty_expr : str.
Variable proc : N -> Z -> Z.
Variable ps : style.
Variable inp : input.
Hypothesis W : wf tab inp.
Hypothesis Hps : positional ps = false.

Notation order := (i_order inp).
Notation bnamed := (fun n : name => OPh (esc tab n)).
(* the driver looks every placeholder up in the dictionary *)
Notation Jnamed := (fun (st : pcstate) (seg : list otok) (_ : list name) =>
  inline_dict ps seg (fdict tab inp (processed proc inp st))).

Theorem named_ok :
  exists ts fp sp, run tab lit empty_expr proc ps inp = Ok (ts, fp) /\
                   inline_spec lit empty_expr proc inp = Some sp /\ inline ps ts fp = Some sp.
Proof.
  assert (Hnum : numeric ps = false) by (revert Hps; destruct ps; cbn; congruence).
  destruct (style_ok tab lit empty_expr proc ps inp W bnamed (@nil name) (0%N)) with (J := Jnamed)
    as [done [st [sp [_ [_ [E [S1 S2]]]]]]].
  - intro n. exact Logic.I.
  - rewrite Hnum. discriminate.
  - unfold compile. rewrite Hnum, Hps. reflexivity.
  - rewrite Hps. discriminate.
  - reflexivity.
  - intros st a ka ra c kc H. rewrite inline_dict_app, H. reflexivity.
  - intros st s. cbn [inline_dict option_map]. rewrite unpct_pct, app_nil_r. reflexivity.
  - (* a plain bind is looked up under its escaped name, the key it was renamed to *)
    intros done st n v z I Hn K G1 G2.
    pose proof (fdict_get tab lit empty_expr proc ps inp W done st n _ I G1) as F.
    rewrite (ebn_get_or_key_in tab _ _ Hn) in F. cbn [inline_dict]. rewrite F, G2. reflexivity.
  - (* an expanded name is rendered and stored as it is *)
    intros done st n k v z I Hn Hx G1 G2.
    replace (bind_tok ps k) with (OPh k) by (revert Hps; destruct ps; cbn; congruence).
    pose proof (fdict_get tab lit empty_expr proc ps inp W done st k _ I G1) as F.
    rewrite (ebn_get_or_key_out tab order k) in F by exact (w_xfresh _ _ W n k (v_done I n Hn) Hx).
    cbn [inline_dict]. rewrite F, G2. reflexivity.
  - intro st. unfold inline, final_toks, final_params. rewrite Hnum, Hps. reflexivity.
  - eexists _, _, sp. split; [exact E|]. split; [exact S1|exact S2].
Qed.
End Named.
