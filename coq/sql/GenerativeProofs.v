(* C03: a generative method that mutates only cells it has allocated itself leaves every earlier cell
   untouched, so each statement of a chain still observes what it did (heap extension is a preorder). *)
From Coq Require Import List Arith Bool Lia.
Import ListNotations.
From SAV.sql Require Import Generative.

(* [h'] keeps every cell of [h]: the one relation between heaps that all results below are about *)
Definition extends (h h' : heap) : Prop :=
  length h <= length h' /\ forall k, k < length h -> nth k h' 0 = nth k h 0.

Lemma extends_refl h : extends h h.
Proof. split; auto. Qed.
Lemma extends_trans h1 h2 h3 : extends h1 h2 -> extends h2 h3 -> extends h1 h3.
Proof. intros [L1 E1] [L2 E2]. split; [lia|]. intros k Hk. rewrite E2 by lia. auto. Qed.

Lemma updh_length h : forall c v, length (updh h c v) = length h.
Proof. induction h as [|x r IH]; intros [|c] v; cbn; auto. Qed.
Lemma updh_other h : forall c v k, k <> c -> nth k (updh h c v) 0 = nth k h 0.
Proof.
  induction h as [|x r IH]; intros [|c] v [|k] Hk; cbn; auto; try congruence; try (apply IH; congruence).
Qed.

Lemma extends_app h0 h x : extends h0 h -> extends h0 (h ++ x).
Proof. intros [L E]. split; [rewrite app_length; lia|]. intros k Hk. rewrite app_nth1 by lia. auto. Qed.
Lemma extends_updh h0 h c v : length h0 <= c -> extends h0 h -> extends h0 (updh h c v).
Proof. intros Hc [L E]. split; [rewrite updh_length; exact L|]. intros k Hk. rewrite updh_other by lia. auto. Qed.

Lemma lookup_in f o c : lookup f o = Some c -> In (f, c) o.
Proof.
  induction o as [|[a d] r IH]; cbn; [discriminate|]. destruct (Nat.eqb_spec a f) as [->|].
  - intros H; inversion H; subst. left; reflexivity.
  - intros H. right. apply IH. exact H.
Qed.
Lemma in_setf f c o p : In p (setf f c o) -> p = (f, c) \/ In p o.
Proof.
  induction o as [|[a d] r IH]; cbn.
  - intros [<-|[]]. left; reflexivity.
  - destruct (Nat.eqb a f); cbn.
    + intros [<-|H]; [left; reflexivity|right; right; exact H].
    + intros [<-|H]; [right; left; reflexivity|]. destruct (IH H) as [->|H']; [left; reflexivity|right; right; exact H'].
Qed.

Lemma lookup_setf f c o g : lookup g (setf f c o) = if Nat.eqb f g then Some c else lookup g o.
Proof.
  induction o as [|[a d] r IH]; cbn.
  - destruct (Nat.eqb f g); reflexivity.
  - destruct (Nat.eqb_spec a f) as [->|Hn]; cbn.
    + destruct (Nat.eqb f g); reflexivity.
    + rewrite IH. destruct (Nat.eqb_spec a g) as [->|]; [|reflexivity].
      destruct (Nat.eqb_spec f g); [congruence|reflexivity].
Qed.

Lemma wf_grow h h' o : wf h o -> length h <= length h' -> wf h' o.
Proof. intros Hwf Hl p Hp. specialize (Hwf p Hp). lia. Qed.

(* invariant of one call started in heap [h0]: the heap extends [h0], the object stays well-formed, and
   every field rebound so far points at a cell allocated during the call *)
Definition call_inv (h0 : heap) (fresh : list field) (st : heap * obj) : Prop :=
  let (h, o) := st in
  extends h0 h /\ wf h o /\ (forall f, In f fresh -> exists c, lookup f o = Some c /\ length h0 <= c).

Lemma run_effs_inv h0 : forall m fresh st, rebind_only_from fresh m = true ->
  call_inv h0 fresh st -> exists fresh', call_inv h0 fresh' (fold_left run_eff m st).
Proof.
  induction m as [|e m IH]; intros fresh st Hr Hi; cbn [fold_left]; [exists fresh; exact Hi|].
  destruct st as [h o]. destruct Hi as [Hext [Hwf Hfr]]. destruct e as [f v|f v]; cbn [rebind_only_from] in Hr.
  - apply (IH (f :: fresh)); [exact Hr|]. cbn [run_eff call_inv]. split; [apply extends_app, Hext|]. split.
    + intros p Hp. rewrite app_length. cbn [length].
      destruct (in_setf _ _ _ _ Hp) as [->|Hp']; [cbn; lia|]. specialize (Hwf p Hp'). lia.
    + intros g Hg. rewrite lookup_setf. destruct (Nat.eqb_spec f g) as [->|Hfg].
      * exists (length h). split; [reflexivity|apply Hext].
      * destruct Hg as [Hg|Hg]; [contradiction|]. exact (Hfr g Hg).
  - apply andb_true_iff in Hr. destruct Hr as [Hin Hr]. apply (IH fresh); [exact Hr|].
    apply existsb_exists in Hin. destruct Hin as [g [Hg Hfg]]. apply Nat.eqb_eq in Hfg. subst g.
    destruct (Hfr f Hg) as [c [Hc Hle]]. cbn [run_eff]. rewrite Hc. cbn [call_inv].
    split; [apply extends_updh; assumption|]. split; [|exact Hfr].
    intros p Hp. rewrite updh_length. exact (Hwf p Hp).
Qed.

(* one generative call leaves every cell that existed before the call untouched *)
Theorem method_frame h o m : rebind_only m = true -> wf h o ->
  let (h', o') := run_method h o m in
  length h <= length h' /\ (forall k, k < length h -> nth k h' 0 = nth k h 0) /\ wf h' o'.
Proof.
  intros Hr Hwf. unfold run_method.
  destruct (run_effs_inv h m [] (h, o) Hr) as [fresh' Hi].
  - split; [apply extends_refl|]. split; [exact Hwf|intros f []].
  - destruct (fold_left run_eff m (h, o)) as [h' o']. destruct Hi as [[H1 H2] [H3 _]]. auto.
Qed.

Lemma chain_extends : forall ms h o hn os, Forall (fun m => rebind_only m = true) ms -> wf h o ->
  chain h o ms = (hn, os) -> extends h hn.
Proof.
  induction ms as [|m ms IH]; intros h o hn os Hall Hwf Hc; cbn [chain] in Hc.
  - inversion Hc; subst. apply extends_refl.
  - inversion Hall as [|? ? Hm Hms]; subst. pose proof (method_frame h o m Hm Hwf) as MF.
    destruct (run_method h o m) as [h1 o1]. destruct MF as [Hlen [Hold Hwf1]].
    destruct (chain h1 o1 ms) as [hn' os'] eqn:E. inversion Hc; subst.
    apply (extends_trans h h1 hn); [split; assumption|exact (IH h1 o1 hn os' Hms Hwf1 E)].
Qed.

Lemma observe_stable h h' o : wf h o -> extends h h' -> observe h' o = observe h o.
Proof.
  intros Hwf [_ Hold]. unfold observe. apply map_ext_in. intros p Hp. f_equal. apply Hold. apply Hwf. exact Hp.
Qed.

(* the whole chain: every object, observed in the final heap, looks exactly as it did in the heap in
   which it was created - however many generative calls were made from it or from its descendants *)
Theorem chain_frame : forall ms h o, Forall (fun m => rebind_only m = true) ms -> wf h o ->
  let (hn, os) := chain h o ms in
  let hs := chain_heaps h o ms in
  (length os = length hs) /\
  (forall i oi hi, nth_error os i = Some oi -> nth_error hs i = Some hi -> observe hn oi = observe hi oi).
Proof.
  induction ms as [|m ms IH]; intros h o Hall Hwf.
  - cbn. split; [reflexivity|]. intros [|[|i]] oi hi H1 H2; inversion H1; inversion H2; subst; reflexivity.
  - pose proof (chain_extends (m :: ms) h o) as Hext. cbn [chain chain_heaps] in *.
    inversion Hall as [|? ? Hm Hms]; subst.
    pose proof (method_frame h o m Hm Hwf) as MF. destruct (run_method h o m) as [h1 o1].
    destruct MF as [_ [_ Hwf1]]. specialize (IH h1 o1 Hms Hwf1). destruct (chain h1 o1 ms) as [hn os].
    cbn zeta in IH. destruct IH as [Hl IH]. cbn [length]. split; [rewrite Hl; reflexivity|].
    intros [|i] oi hi H1 H2; cbn [nth_error] in H1, H2; [|exact (IH i oi hi H1 H2)].
    inversion H1; inversion H2; subst oi hi. apply observe_stable; [exact Hwf|].
    exact (Hext hn (o :: os) Hall Hwf eq_refl).
Qed.
