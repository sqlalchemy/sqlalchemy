(* C56 - the clause ASSEMBLY of visit_on_conflict_do_update denotes what the user's arguments say:
   same conflict target, same WHERE, the SET items a permutation of the user's items. *)
From Coq Require Import List ZArith Bool Lia Permutation.
Import ListNotations.
From SAV.sql Require Import Upsert UpsertAsm UpsertParse UpsertSpec UpsertSynProofs.

Lemma seq_perm : forall {A} (a b : list (option A)), Permutation a b ->
  forall la, sequence a = Some la -> exists lb, sequence b = Some lb /\ Permutation la lb.
Proof.
  intros A a b HP. induction HP; intros la Hs.
  - eauto.
  - apply seq_cons_inv in Hs as (y & r & -> & Hr & ->).
    destruct (IHHP r Hr) as (lb & Hb & Hp). exists (y :: lb). cbn [sequence]. rewrite Hb. auto.
  - apply seq_cons_inv in Hs as (y' & r & -> & Hr & ->). apply seq_cons_inv in Hr as (x' & r' & -> & Hr & ->).
    exists (x' :: y' :: r'). cbn [sequence]. rewrite Hr. split; [reflexivity|apply perm_swap].
  - destruct (IHHP1 la Hs) as (lb & Hb & P1). destruct (IHHP2 lb Hb) as (lc & Hc & P2).
    exists lc. split; [assumption|eapply perm_trans; eassumption].
Qed.

Lemma seq_map_impl : forall {A B} (f g : A -> option B), (forall x y, f x = Some y -> g x = Some y) ->
  forall l r, sequence (map f l) = Some r -> sequence (map g l) = Some r.
Proof.
  intros A B f g H. induction l as [|x l IH]; intros r Hs; [exact Hs|]. cbn [map] in *.
  apply seq_cons_inv in Hs as (y & r' & Hy & Hr & ->). cbn [sequence]. rewrite (H x y Hy), (IH r' Hr). reflexivity.
Qed.

Lemma pop_key_some : forall f l v l', pop_key f l = Some (v, l') ->
  exists k, f k = true /\ Permutation l ((k, v) :: l').
Proof.
  induction l as [|[k0 v0] l IH]; intros v l' H; cbn [pop_key] in H; [discriminate|].
  destruct (f k0) eqn:E.
  - injection H as <- <-. exists k0. auto.
  - destruct (pop_key f l) as [[v1 r1]|]; [|discriminate]. injection H as <- <-.
    destruct (IH v1 r1 eq_refl) as (k & Hf & HP). exists k. split; [exact Hf|].
    eapply perm_trans; [apply perm_skip; exact HP|apply perm_swap].
Qed.

Lemma pop_key_none : forall f l, pop_key f l = None -> forall k v, In (k, v) l -> f k = false.
Proof.
  induction l as [|[k0 v0] l IH]; intros H k v Hin; [destruct Hin|].
  cbn [pop_key] in H. destruct (f k0) eqn:E; [discriminate|].
  destruct (pop_key f l) as [[v1 r1]|]; [discriminate|].
  destruct Hin as [Heq|Hin]; [injection Heq as <- <-; assumption|eapply IH; eauto].
Qed.

Lemma key_idx_nth : forall cols i,
  NoDup (map ckey cols) -> i < length cols -> key_idx cols (ckey (nth i cols dflt_col)) = Some i.
Proof.
  induction cols as [|c cs IH]; intros i Hnd Hi; [simpl in Hi; lia|].
  simpl in Hnd. inversion Hnd as [|x l Hnin Hnd']; subst.
  destruct i as [|i].
  - simpl. rewrite Z.eqb_refl. reflexivity.
  - simpl in Hi. cbn [nth key_idx].
    destruct (Z.eqb (ckey c) (ckey (nth i cs dflt_col))) eqn:E.
    + apply Z.eqb_eq in E. exfalso. apply Hnin. rewrite E. apply in_map. apply nth_In. lia.
    + rewrite IH by (assumption || lia). reflexivity.
Qed.

Lemma key_idx_some : forall cols s j, key_idx cols s = Some j ->
  j < length cols /\ ckey (nth j cols dflt_col) = s.
Proof.
  induction cols as [|c cs IH]; intros s j H; cbn [key_idx] in H; [discriminate|].
  destruct (Z.eqb (ckey c) s) eqn:E.
  - injection H as <-. apply Z.eqb_eq in E. simpl. split; [lia|assumption].
  - destruct (key_idx cs s) as [j'|] eqn:Ej; [|discriminate]. injection H as <-.
    destruct (IH s j' Ej). simpl. split; [lia|assumption].
Qed.

Section Asm.
  Variable cols : list coldesc.
  Hypothesis Hwf : wf_cols cols.
  Let n := length cols.

  (* what a set_ item of the user says, and what the database makes of a rendered SET item *)
  Definition item_said (kv : skey * expr) : option (nat * expr) := set_item n (key_col cols (fst kv)) (snd kv).
  Definition A (kv : lhs * expr) : option (nat * expr) := set_item n (lhs_idx cols (fst kv)) (snd kv).

  (* the set_ key [k] is the one the rendering loop pops at table column number j *)
  Definition hits (j : nat) (k : skey) : bool := is_str (ckey (nth j cols dflt_col)) k || is_col j k.

  (* the columns the keys of a set_ argument designate *)
  Definition cols_hit (sp : list (skey * expr)) : list nat :=
    flat_map (fun kv => match key_col cols (fst kv) with Some j => [j] | None => [] end) sp.

  Lemma A_col : forall j v, j < n -> A (LName (col_name cols j), v) = set_item n (Some j) v.
  Proof. intros j v Hj. unfold A. cbn [fst snd lhs_idx]. rewrite name_idx_nth by (apply Hwf || exact Hj). reflexivity. Qed.

  Lemma hits_key_col : forall j k, j < n -> hits j k = true -> key_col cols k = Some j.
  Proof.
    intros j [s|i] Hj H; unfold hits in H; cbn [is_str is_col orb] in H; cbn [key_col].
    - rewrite orb_false_r in H. apply Z.eqb_eq in H. subst s. rewrite key_idx_nth by (apply Hwf || exact Hj). reflexivity.
    - apply Nat.eqb_eq in H. subst i. apply Nat.ltb_lt in Hj. fold n. rewrite Hj. reflexivity.
  Qed.

  Lemma popped_denotes : forall j k v, j < n -> hits j k = true -> A (LName (col_name cols j), v) = item_said (k, v).
  Proof. intros j k v Hj Hk. unfold item_said. cbn [fst snd]. rewrite (hits_key_col j k Hj Hk). apply A_col. exact Hj. Qed.

  (* a key that is popped at no table column is rendered under [leftover], and the database resolves the
     name it is rendered with to the column the key designates, if any *)
  Lemma unhit_denotes : forall k v, (forall j, j < n -> hits j k = false) ->
    A (match k with KStr s => (LAdd s, v) | KCol j => (LQual (col_name cols j), v) end) = item_said (k, v).
  Proof.
    intros [s|i] v H; unfold A, item_said; cbn [fst snd key_col lhs_idx].
    - destruct (key_idx cols s) as [j|] eqn:E; [|reflexivity].
      apply key_idx_some in E as [Hj <-]. specialize (H j Hj). unfold hits in H. cbn [is_str] in H.
      rewrite Z.eqb_refl in H. discriminate.
    - fold n. destruct (Nat.ltb i n) eqn:E; [|reflexivity].
      apply Nat.ltb_lt in E. specialize (H i E). unfold hits in H. cbn [is_col] in H.
      rewrite Nat.eqb_refl, orb_true_r in H. discriminate.
  Qed.

  Lemma cols_hit_seq : forall sp l, sequence (map item_said sp) = Some l -> cols_hit sp = map fst l.
  Proof.
    induction sp as [|[k v] sp IH]; intros l H; cbn [map] in H.
    - injection H as <-. reflexivity.
    - apply seq_cons_inv in H as (x & l' & Hx & Hl & ->). apply set_item_some in Hx as [Hk _]. cbn [fst] in Hk.
      unfold cols_hit. cbn [flat_map map fst]. rewrite Hk. cbn [app]. f_equal. apply IH. exact Hl.
  Qed.

  (* [cs] is the part of the table's column list that starts at offset i *)
  Definition suffix_at (cs : list coldesc) (i : nat) : Prop :=
    forall j, j < length cs -> nth j cs dflt_col = nth (i + j) cols dflt_col /\ i + j < n.

  Lemma suffix_all : suffix_at cols 0.
  Proof. intros j Hj. split; [reflexivity|exact Hj]. Qed.

  Lemma suffix_hd : forall c cs i, suffix_at (c :: cs) i -> c = nth i cols dflt_col /\ i < n.
  Proof. intros c cs i H. destruct (H 0) as [H1 H2]; [simpl; lia|]. rewrite Nat.add_0_r in *. exact (conj H1 H2). Qed.

  Lemma suffix_tl : forall c cs i, suffix_at (c :: cs) i -> suffix_at cs (S i).
  Proof.
    intros c cs i H j Hj. destruct (H (S j)) as [H1 H2]; [simpl; lia|].
    cbn [nth] in H1. replace (S i + j) with (i + S j) by lia. auto.
  Qed.

  (* one round of the loop over the table's columns: the key string is looked up before the Column object *)
  Definition pop_col (j : nat) (sp : list (skey * expr)) : option (expr * list (skey * expr)) :=
    match pop_key (is_str (ckey (nth j cols dflt_col))) sp with
    | Some x => Some x
    | None => pop_key (is_col j) sp
    end.

  Lemma asm_cols_cons : forall cs i sp,
    asm_cols (nth i cols dflt_col :: cs) i sp =
    match pop_col i sp with
    | Some (v, sp') => let (out, left) := asm_cols cs (S i) sp' in ((LName (col_name cols i), v) :: out, left)
    | None => asm_cols cs (S i) sp
    end.
  Proof.
    intros cs i sp. unfold pop_col. cbn [asm_cols].
    destruct (pop_key (is_str (ckey (nth i cols dflt_col))) sp) as [[v sp']|]; reflexivity.
  Qed.

  Lemma pop_col_some : forall j sp v sp', pop_col j sp = Some (v, sp') ->
    exists k, hits j k = true /\ Permutation sp ((k, v) :: sp').
  Proof.
    unfold pop_col, hits. intros j sp v sp' H.
    destruct (pop_key (is_str _) sp) as [x|] eqn:E.
    - injection H as ->. apply pop_key_some in E as (k & Hk & HP). exists k. rewrite Hk. auto.
    - apply pop_key_some in H as (k & Hk & HP). exists k. rewrite Hk, orb_true_r. auto.
  Qed.

  Lemma pop_col_none : forall j sp, pop_col j sp = None -> forall k v, In (k, v) sp -> hits j k = false.
  Proof.
    unfold pop_col, hits. intros j sp H k v Hin. destruct (pop_key (is_str _) sp) eqn:E; [discriminate|].
    rewrite (pop_key_none _ _ E k v Hin), (pop_key_none _ _ H k v Hin). reflexivity.
  Qed.

  (* When no two keys designate the same column, the entry popped at a column is the only one that hits it, so
     what is left after the loop hits none of the columns visited. *)
  Lemma asm_cols_spec : forall cs i sp out left,
    suffix_at cs i -> NoDup (cols_hit sp) -> asm_cols cs i sp = (out, left) ->
    Permutation (map A out ++ map item_said left) (map item_said sp) /\
    (forall k v, In (k, v) left -> In (k, v) sp /\ forall j, i <= j < i + length cs -> hits j k = false).
  Proof.
    induction cs as [|c cs IH]; intros i sp out left Hsuf Hnd H.
    - injection H as <- <-. split; [apply Permutation_refl|]. intros k v Hin. split; [exact Hin|]. simpl. lia.
    - destruct (suffix_hd _ _ _ Hsuf) as [-> Hi]. apply suffix_tl in Hsuf. rewrite asm_cols_cons in H.
      destruct (pop_col i sp) as [[v sp']|] eqn:Ep.
      + destruct (pop_col_some _ _ _ _ Ep) as (k & Hk & HP).
        destruct (asm_cols cs (S i) sp') as [out' left'] eqn:Er. injection H as <- <-.
        unfold cols_hit in Hnd. apply (Permutation_NoDup (Permutation_flat_map _ HP)) in Hnd.
        cbn [flat_map fst] in Hnd. rewrite (hits_key_col i k Hi Hk) in Hnd.
        inversion Hnd as [|? ? Hnin Hnd']; subst.
        destruct (IH (S i) sp' out' left' Hsuf Hnd' Er) as [P1 C1]. split.
        * cbn [map app]. rewrite (popped_denotes i k v Hi Hk).
          eapply perm_trans; [apply perm_skip; exact P1|]. apply Permutation_sym. exact (Permutation_map item_said HP).
        * intros k0 v0 Hin. destruct (C1 k0 v0 Hin) as [Hs Hj].
          split; [eapply Permutation_in; [apply Permutation_sym; exact HP|right; exact Hs]|].
          intros j Hr. destruct (Nat.eq_dec j i) as [->|Hne]; [|apply Hj; simpl in Hr; lia].
          destruct (hits i k0) eqn:Eh; [|reflexivity]. exfalso. apply Hnin. apply in_flat_map.
          exists (k0, v0). split; [exact Hs|]. cbn [fst]. rewrite (hits_key_col i k0 Hi Eh). left. reflexivity.
      + destruct (IH (S i) sp out left Hsuf Hnd H) as [P1 C1]. split; [exact P1|].
        intros k0 v0 Hin. destruct (C1 k0 v0 Hin) as [Hs Hj]. split; [exact Hs|].
        intros j Hr. destruct (Nat.eq_dec j i) as [->|Hne]; [exact (pop_col_none _ _ Ep k0 v0 Hs)|apply Hj; simpl in Hr; lia].
  Qed.

  (* item by item, also where an item denotes nothing *)
  Theorem asm_sets_denotes : forall set_,
    NoDup (cols_hit set_) -> Permutation (map A (asm_sets cols set_)) (map item_said set_).
  Proof.
    intros set_ Hnd. unfold asm_sets. destruct (asm_cols cols 0 set_) as [out left] eqn:Ea.
    destruct (asm_cols_spec cols 0 set_ out left suffix_all Hnd Ea) as [P1 C1].
    rewrite map_app. replace (map A (leftover cols left)) with (map item_said left); [exact P1|].
    unfold leftover. rewrite map_map. apply map_ext_in. intros [k v] Hin. symmetry.
    apply unhit_denotes. intros j Hj. apply (C1 k v Hin). fold n. lia.
  Qed.

  Theorem asm_sets_perm : forall set_ l,
    spec_sets cols set_ = Some l -> NoDup (map fst l) ->
    exists l', abs_sets cols (asm_sets cols set_) = Some l' /\ Permutation l' l.
  Proof.
    intros set_ l Hs Hnd. change (sequence (map item_said set_) = Some l) in Hs. rewrite <- (cols_hit_seq _ _ Hs) in Hnd.
    destruct (seq_perm _ _ (Permutation_sym (asm_sets_denotes set_ Hnd)) l Hs) as (l' & Hl' & HP).
    exists l'. split; [exact Hl'|apply Permutation_sym; exact HP].
  Qed.

  Lemma asm_target_abs : forall t tg,
    spec_target cols t = Some tg -> abs_target cols (asm_target cols t) = Some tg.
  Proof.
    intros [|e w|nm] tg H; cbn [spec_target asm_target abs_target] in *; try exact H.
    destruct (sequence (map (telem_col cols) e)) as [l|] eqn:El; [|discriminate H].
    rewrite map_map, (seq_map_impl (telem_col cols) _) with (r := l); [exact H| |exact El].
    intros [s|i] j Hj; cbn [telem_col] in Hj; [exact Hj|].
    destruct (Nat.ltb i (length cols)) eqn:Ei; [|discriminate]. injection Hj as <-.
    apply Nat.ltb_lt in Ei. apply name_idx_nth; [apply Hwf|exact Ei].
  Qed.

  Theorem asm_clause_perm : forall c cl,
    spec_clause cols c = Some cl -> sets_nodup cl ->
    exists cl', abs_clause cols (asm_clause cols c) = Some cl' /\ clause_perm cl' cl.
  Proof.
    intros [t|t s w] cl H Hnd; cbn [spec_clause asm_clause abs_clause] in *.
    - destruct (spec_target cols t) as [tg|] eqn:Et; [|discriminate]. injection H as <-.
      rewrite (asm_target_abs t tg Et). exists (tg, DoNothing). split; [reflexivity|].
      split; [reflexivity|exact I].
    - apply mk_update_some in H. destruct H as (tg & l & Et & Es & Hne & Hw & ->).
      rewrite (asm_target_abs t tg Et).
      destruct (asm_sets_perm s l Es Hnd) as (l' & Hl' & HP).
      rewrite Hl'. unfold mk_update.
      assert (Hl'ne : is_nil l' = false).
      { destruct l'; [|reflexivity]. apply Permutation_nil in HP. congruence. }
      rewrite Hl'ne, Hw. cbn [negb andb]. eexists. split; [reflexivity|].
      split; [reflexivity|]. cbn [snd]. split; [exact HP|reflexivity].
  Qed.

  Theorem asm_clauses_perm : forall sa cls,
    spec_of cols sa = Some cls -> Forall sets_nodup cls ->
    exists cls', abs_clauses cols (map (asm_clause cols) sa) = Some cls' /\ Forall2 clause_perm cls' cls.
  Proof.
    unfold spec_of, abs_clauses. induction sa as [|c sa IH]; intros cls H Hnd; cbn [map] in *.
    - injection H as <-. exists []. split; [reflexivity|constructor].
    - apply seq_cons_inv in H as (cl & cls0 & Hc & Hcs & ->). inversion Hnd as [|? ? Hn1 Hn2]; subst.
      destruct (asm_clause_perm c cl Hc Hn1) as (cl' & Hc' & Hp).
      destruct (IH cls0 Hcs Hn2) as (cls' & Hcs' & Hps).
      exists (cl' :: cls'). cbn [sequence]. rewrite Hc', Hcs'. split; [reflexivity|constructor; assumption].
  Qed.
End Asm.
