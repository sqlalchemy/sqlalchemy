(* C22 (a) - proofs about the dispatch model: the finite reflective check [covers] lifts to arbitrary trees *)
From Coq Require Import List NArith Bool.
Import ListNotations.
From SAV.sql Require Import Dispatch.

(* induction over nodes with nested child lists: the children come with [Forall P] *)
Section NodeInd.
  Variable P : node -> Prop.
  Hypothesis HElem : forall k vn kids, Forall P kids -> P (NElem k vn kids).
  Hypothesis HNo : P NNoDispatch.
  Hypothesis HBin : forall op cust l r, P l -> P r -> P (NBinary op cust l r).
  Hypothesis HUn : forall o m cust e, P e -> P (NUnary o m cust e).
  Hypothesis HEl : forall op kids, Forall P kids -> P (NExprList op kids).
  Hypothesis HCl : forall op kids, Forall P kids -> P (NClauseList op kids).

  Fixpoint node_rect' (n : node) : P n :=
    let fix go (l : list node) : Forall P l :=
      match l with
      | [] => Forall_nil P
      | x :: r => Forall_cons x (node_rect' x) (go r)
      end in
    match n with
    | NElem k vn kids => HElem k vn kids (go kids)
    | NNoDispatch => HNo
    | NBinary op cust l r => HBin op cust l r (node_rect' l) (node_rect' r)
    | NUnary o m cust e => HUn o m cust e (node_rect' e)
    | NExprList op kids => HEl op kids (go kids)
    | NClauseList op kids => HCl op kids (go kids)
    end.
End NodeInd.

(* the local fixpoints inside [walk] / [wf] are the top-level list versions *)
Lemma walk_elem : forall T d k vn kids,
  walk T d (NElem k vn kids) = continue_if (elem_dispatch T (comp_of d k) vn) (walks T d kids).
Proof. reflexivity. Qed.

Lemma walk_elist : forall T d op kids,
  walk T d (NExprList op kids) =
  continue_if (elem_dispatch T (d_sql d) (n_elist T)) (continue_if (elist_dispatch T (d_sql d) op) (walks T d kids)).
Proof. reflexivity. Qed.

Lemma walk_clist : forall T d op kids,
  walk T d (NClauseList op kids) =
  continue_if (elem_dispatch T (d_sql d) (n_clist T)) (continue_if (clist_dispatch T op) (walks T d kids)).
Proof. reflexivity. Qed.

(* [wfs T] takes [T] inside its fixpoint, so it equals the fixpoint local to [wf] only extensionally *)
Lemma wfs_local : forall T kids,
  (fix wfs (l : list node) : bool := match l with [] => true | x :: r => wf T x && wfs r end) kids = wfs T kids.
Proof. intros. induction kids as [|x r IH]; [reflexivity|]. cbn [wfs]. rewrite <- IH. reflexivity. Qed.
Lemma wf_elem : forall T k vn kids, wf T (NElem k vn kids) = wfs T kids.
Proof. intros. exact (wfs_local T kids). Qed.
Lemma wf_elist : forall T op kids, wf T (NExprList op kids) = wfs T kids.
Proof. intros. exact (wfs_local T kids). Qed.
Lemma wf_clist : forall T op kids,
  wf T (NClauseList op kids) = (match op with Some o => memN o (clist_ops T) | None => true end && wfs T kids).
Proof. intros. cbn [wf]. f_equal. exact (wfs_local T kids). Qed.

(* A dispatch step never selects a method the visitor does not have: every step has the shape
     if has_attr T c n then Method n else <something that selects no method> *)
Definition selects_own (T : tables) (c : clsid) (o : outcome) : Prop := forall m, o = Method m -> has_attr T c m = true.

Lemma selects_own_guard : forall T c n o, selects_own T c o -> selects_own T c (if has_attr T c n then Method n else o).
Proof. intros T c n o Ho m. destruct (has_attr T c n) eqn:E; [|apply Ho]. intros H. inversion H; subst. exact E. Qed.

(* every dispatch step that can select a method ([clist_dispatch] never yields [Method]) *)
Definition any_dispatch (T : tables) (c : clsid) (o : outcome) : Prop :=
  (exists vn, o = elem_dispatch T c vn) \/ (exists op, o = binary_dispatch T c op) \/
  (exists op, o = elist_dispatch T c op) \/ (exists op b, o = unary_dispatch T c op b) \/
  (exists cust, o = custom_dispatch T c cust).

Lemma selected_method_exists : forall T c o m, any_dispatch T c o -> o = Method m -> has_attr T c m = true.
Proof.
  intros T c o m H. revert m. change (selects_own T c o).
  destruct H as [[vn ->]|[[op ->]|[[op ->]|[[op [b ->]]|[cust ->]]]]];
    unfold elem_dispatch, binary_dispatch, elist_dispatch, unary_dispatch, custom_dispatch, op_dispatch_caught, op_dispatch_bare.
  2-4: destruct (names_of T op); [apply selects_own_guard|]; intro m; now destruct (memN op (generic_ops T)).
  - apply selects_own_guard. intro m. now destruct (has_attr T c (n_unsupported T)).
  - destruct cust; [apply selects_own_guard|]; easy.
Qed.

Lemma unsupported_means_missing : forall T c vn,
  elem_dispatch T c vn = Doc Unsupported -> has_attr T c vn = false /\ has_attr T c (n_unsupported T) = true.
Proof.
  intros T c vn. unfold elem_dispatch. destruct (has_attr T c vn); [discriminate|].
  destruct (has_attr T c (n_unsupported T)); [auto|discriminate].
Qed.

Lemma covers_hatch : forall T d k, covers T = true -> In d (dialects T) ->
  has_attr T (comp_of d k) (n_unsupported T) = true.
Proof.
  intros T d k H Hd. unfold covers in H. apply andb_true_iff in H. destruct H as [H _].
  apply andb_true_iff in H. destruct H as [H _].
  rewrite forallb_forall in H. apply H. apply in_flat_map. exists d. split; [exact Hd|].
  destruct k; cbn; auto.
Qed.

Lemma covers_unary : forall T d o b, covers T = true -> In d (dialects T) -> memOB (o, b) (unary_ops T) = true ->
  not_internal (unary_dispatch T (d_sql d) o b) = true.
Proof.
  intros T d o b H Hd Hm. unfold covers in H. apply andb_true_iff in H. destruct H as [H _].
  apply andb_true_iff in H. destruct H as [_ H]. rewrite forallb_forall in H. specialize (H d Hd).
  rewrite forallb_forall in H. apply existsb_exists in Hm. destruct Hm as [[o' b'] [Hin Heq]].
  cbn [fst snd] in Heq. apply andb_true_iff in Heq. destruct Heq as [Ho Hb].
  apply N.eqb_eq in Ho. apply Bool.eqb_prop in Hb. subst. exact (H _ Hin).
Qed.

Lemma covers_clist : forall T o, covers T = true -> memN o (clist_ops T) = true -> memN o (generic_ops T) = true.
Proof.
  intros T o H Hm. unfold covers in H. apply andb_true_iff in H. destruct H as [_ H].
  rewrite forallb_forall in H. apply existsb_exists in Hm. destruct Hm as [o' [Hin Heq]].
  apply N.eqb_eq in Heq. subst. exact (H _ Hin).
Qed.

Lemma elem_not_internal : forall T c vn, has_attr T c (n_unsupported T) = true -> not_internal (elem_dispatch T c vn) = true.
Proof. intros T c vn H. unfold elem_dispatch. rewrite H. destruct (has_attr T c vn); reflexivity. Qed.

(* visit_binary / visit_expression_clauselist convert the KeyError *)
Lemma caught_not_internal : forall T c n op, not_internal (op_dispatch_caught T c n op) = true.
Proof. intros. unfold op_dispatch_caught. destruct (has_attr T c n), (memN op (generic_ops T)); reflexivity. Qed.
Lemma binary_not_internal : forall T c op, not_internal (binary_dispatch T c op) = true.
Proof.
  intros. unfold binary_dispatch. destruct (names_of T op); [apply caught_not_internal|].
  destruct (memN op (generic_ops T)); reflexivity.
Qed.
Lemma elist_not_internal : forall T c op, not_internal (elist_dispatch T c op) = true.
Proof.
  intros. unfold elist_dispatch. destruct (names_of T op); [apply caught_not_internal|].
  destruct (memN op (generic_ops T)); reflexivity.
Qed.
Lemma custom_not_internal : forall T c cust, not_internal (custom_dispatch T c cust) = true.
Proof. intros. unfold custom_dispatch. destruct cust; [destruct (has_attr T c n)|]; reflexivity. Qed.

Definition no_int (r : result) : Prop := forall e, r <> RInt e.

Lemma continue_no_int : forall o k, not_internal o = true -> no_int k -> no_int (continue_if o k).
Proof. intros o k Ho Hk e. destruct o; cbn in *; try discriminate; auto. Qed.

Lemma seq_no_int : forall a b, no_int a -> no_int b -> no_int (match a with ROk => b | RDoc e => RDoc e | RInt e => RInt e end).
Proof. intros a b Ha Hb e. destruct a; auto. Qed.

Lemma walks_no_int : forall T d kids, Forall (fun n => wf T n = true -> no_int (walk T d n)) kids ->
  wfs T kids = true -> no_int (walks T d kids).
Proof.
  intros T d kids H. induction H as [|x r Hx _ IH]; cbn [wfs walks]; intros Hw; [intros e; discriminate|].
  apply andb_true_iff in Hw. destruct Hw. apply seq_no_int; auto.
Qed.

Theorem dispatch_total : forall T, covers T = true -> forall d, In d (dialects T) ->
  forall n, wf T n = true -> forall e, walk T d n <> RInt e.
Proof.
  intros T HC d Hd n. change (wf T n = true -> no_int (walk T d n)).
  assert (Hh : forall k vn, not_internal (elem_dispatch T (comp_of d k) vn) = true).
  { intros. apply elem_not_internal, covers_hatch; assumption. }
  induction n using node_rect'; intros Hw.
  - (* NElem *) rewrite wf_elem in Hw. rewrite walk_elem. apply continue_no_int; [apply Hh|now apply walks_no_int].
  - (* NNoDispatch *) discriminate.
  - (* NBinary *) cbn [wf walk] in *. apply andb_true_iff in Hw. destruct Hw.
    apply continue_no_int; [apply (Hh KSql)|]. apply continue_no_int; [apply binary_not_internal|].
    apply continue_no_int; [apply custom_not_internal|]. apply seq_no_int; auto.
  - (* NUnary *) cbn [wf walk] in *. apply andb_true_iff in Hw. destruct Hw as [Hop He].
    apply continue_no_int; [apply (Hh KSql)|].
    destruct o as [o|], m as [m|]; try (intros e'; discriminate);
      (apply continue_no_int; [now apply covers_unary|]; apply continue_no_int; [apply custom_not_internal|auto]).
  - (* NExprList *) rewrite wf_elist in Hw. rewrite walk_elist. apply continue_no_int; [apply (Hh KSql)|].
    apply continue_no_int; [apply elist_not_internal|now apply walks_no_int].
  - (* NClauseList *) rewrite wf_clist in Hw. rewrite walk_clist. apply andb_true_iff in Hw. destruct Hw as [Hop Hk].
    apply continue_no_int; [apply (Hh KSql)|]. apply continue_no_int; [|now apply walks_no_int].
    destruct op as [o|]; [|reflexivity]. cbn [clist_dispatch]. now rewrite (covers_clist T o HC Hop).
Qed.

(* outside the guard [wf] the statement is false: an operator with no visit_<op>_unary_operator method and
   no OPERATORS entry gives a bare KeyError *)
Lemma unary_unlisted_operator_keyerror : forall T d op ns e,
  has_attr T (d_sql d) (n_unary T) = true ->
  names_of T op = Some ns -> has_attr T (d_sql d) (on_unop ns) = false -> memN op (generic_ops T) = false ->
  walk T d (NUnary (Some op) None None e) = RInt KeyErr.
Proof.
  intros T d op ns e H1 H2 H3 H4. cbn [walk]. unfold elem_dispatch, unary_dispatch, op_dispatch_bare.
  now rewrite H1, H2, H3, H4.
Qed.

Lemma clauselist_unlisted_operator_keyerror : forall T d op kids,
  has_attr T (d_sql d) (n_clist T) = true -> memN op (generic_ops T) = false ->
  walk T d (NClauseList (Some op) kids) = RInt KeyErr.
Proof.
  intros T d op kids H1 H2. rewrite walk_clist. unfold elem_dispatch, clist_dispatch. now rewrite H1, H2.
Qed.

(* the same operator in a BinaryExpression gives the documented error: the two paths are inconsistent *)
Lemma binary_unlisted_operator_documented : forall T d op ns l r,
  has_attr T (d_sql d) (n_binary T) = true ->
  names_of T op = Some ns -> has_attr T (d_sql d) (on_binary ns) = false -> memN op (generic_ops T) = false ->
  walk T d (NBinary op None l r) = RDoc Unsupported.
Proof.
  intros T d op ns l r H1 H2 H3 H4. cbn [walk]. unfold elem_dispatch, binary_dispatch, op_dispatch_caught.
  now rewrite H1, H2, H3, H4.
Qed.

Lemma nodispatch_attributeerror : forall T d, walk T d NNoDispatch = RInt AttributeErr.
Proof. reflexivity. Qed.

Corollary dispatch_total_cases : forall T, covers T = true -> forall d, In d (dialects T) ->
  forall n, wf T n = true -> walk T d n = ROk \/ exists e, walk T d n = RDoc e.
Proof.
  intros T HC d Hd n Hw. pose proof (dispatch_total T HC d Hd n Hw) as H.
  destruct (walk T d n) as [|e|e]; [left; reflexivity|right; eauto|exfalso; exact (H e eq_refl)].
Qed.

(* a small concrete table: the hypotheses are satisfiable, every branch is reachable *)
(* names: 0 visit_unsupported_compilation, 1 visit_binary, 2 visit_unary, 3 visit_expression_clauselist,
   4 visit_clauselist, 5 visit_column, 6 visit_array (dialect B only), 7 visit_INTEGER, 8 visit_like_op_binary,
   9 visit_neg_unary_operator (absent everywhere), 10.. unused dispatch names, 20 visit_hstore_op_binary (B only)
   classes: 100 base sql compiler, 101 dialect-B sql compiler, 102 ddl compiler, 103 type compiler, 104 Compiled
   operators: 0 add (generic), 1 like_op (method), 2 neg (generic), 3 desc_op (generic), 4 comma_op (generic),
              5 foo_op (nothing), 6 custom_op *)
Definition ons (a b c e : N) : opnames := {| on_binary := a; on_unop := b; on_unmod := c; on_elist := e |}.
Definition sample : tables := {|
  cls_methods := [(104, [0]); (100, [1;2;3;4;5;8;30;31;32]); (101, [6;20]); (102, [40]); (103, [0;7])]%N;
  cls_mro := [(100, [100;104]); (101, [101;100;104]); (102, [102;104]); (103, [103])]%N;
  dialects := [ {| d_sql := 100; d_ddl := 102; d_type := 103 |}; {| d_sql := 101; d_ddl := 102; d_type := 103 |} ]%N;
  n_unsupported := 0; n_binary := 1; n_unary := 2; n_elist := 3; n_clist := 4;
  generic_ops := [0;2;3;4]%N;
  op_table := [(0, ons 10 11 12 13); (1, ons 8 14 15 16); (2, ons 17 9 18 19); (3, ons 21 22 23 24);
               (4, ons 25 26 27 28); (5, ons 33 34 35 36); (6, ons 30 31 32 37)]%N;
  unary_ops := [(2, false); (3, true); (6, false); (6, true)]%N;
  clist_ops := [4]%N
|}.
Definition dA : dialect := {| d_sql := 100; d_ddl := 102; d_type := 103 |}%N.
Definition dB : dialect := {| d_sql := 101; d_ddl := 102; d_type := 103 |}%N.
