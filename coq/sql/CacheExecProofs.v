(* C02: a cached compilation receives the parameters of the statement being
   executed; executing through the cache equals executing directly, for every history *)
From Coq Require Import List NArith ZArith Bool.
Import ListNotations.
From SAV.sql Require Import CacheKey CacheKeyProofs CacheKeyBinds CacheExec.

Lemma bindex_bfind : forall l bs i, bindex l bs = Some i ->
  exists x, bfind l bs = Some x /\ (forall d, nth i bs d = x) /\ blbl x = l /\ In x bs.
Proof.
  induction bs as [|b r IH]; cbn; intros i H; [discriminate|].
  destruct (N.eqb_spec (blbl b) l) as [E|E].
  - inversion H; subst i. exists b. repeat split; auto.
  - destruct (bindex l r) as [j|] eqn:Ej; [|discriminate]. inversion H; subst i.
    destruct (IH j eq_refl) as [x [H1 [H2 [H3 H4]]]]. exists x. repeat split; auto.
Qed.
Lemma bindex_labels : forall l b1 b2, map blbl b1 = map blbl b2 -> bindex l b1 = bindex l b2.
Proof.
  induction b1 as [|x r IH]; intros [|y s] H; cbn in H; try discriminate; [reflexivity|].
  inversion H as [[H1 H2]]. cbn. rewrite H1, (IH s H2). reflexivity.
Qed.
Lemma bindex_some : forall l bs, In l (map blbl bs) -> exists i, bindex l bs = Some i.
Proof.
  induction bs as [|b r IH]; cbn; intro H; [contradiction|].
  destruct (N.eqb_spec (blbl b) l) as [E|E]; [exists O; reflexivity|].
  destruct H as [H|H]; [contradiction|]. destruct (IH H) as [i ->]. exists (S i); reflexivity.
Qed.

(* construct_params(extracted_parameters=...) on a Compiled made from s0 yields the values of s, for
   any two statements with one key that look the same to the compiler and agree on which of their
   extracted parameters have a callable *)
Lemma rebind_pair : forall T V (SQL : Type) (render : atom -> ktree -> SQL * list N),
  (forall ctx v, incl (snd (render ctx v)) (kbl T v)) ->
  forall ctx s0 s k b0 b sets, wf T s0 = true -> wf T s = true ->
  gen_key T s0 = Some (k, b0) -> gen_key T s = Some (k, b) ->
  view T V s0 = view T V s -> incl (kbl T (view T V s0)) (kbl T (proj T s0)) -> map bcall b0 = map bcall b ->
  (tsql _ (compile T V SQL render ctx s0 b0), rebind_many SQL (compile T V SQL render ctx s0 b0) b sets)
  = exec_direct T V SQL render ctx s sets.
Proof.
  intros T V SQL render Hholes ctx s0 s k b0 b sets W0 W1 K0 K1 Hv Hkbl Hc.
  unfold exec_direct, rebind_many, compile. cbn [tsql tholes]. rewrite <- Hv. f_equal.
  apply map_ext. intro ps. apply map_ext_in. intros l Hl.
  unfold param_with. destruct (alookup l ps) as [v|]; [reflexivity|].
  destruct (wf_spec T s0 k b0 W0 K0) as [_ [F0 C0]]. destruct (wf_spec T s k b W1 K1) as [_ [F1 _]].
  (* the hole l is an extracted parameter of s0, at some position i of b0; position i of b holds the
     parameter of s with the same label *)
  destruct (bindex_some l b0 (C0 _ (Hkbl _ (Hholes _ _ _ Hl)))) as [i Hi].
  destruct (bindex_bfind l b0 i Hi) as [x0 [_ [Hn0 [Hx0 Hin0]]]].
  pose proof Hi as Hi'. rewrite (bindex_labels l b0 b (key_determines_labels T s0 s k b0 b K0 K1)) in Hi'.
  destruct (bindex_bfind l b i Hi') as [x [_ [Hn [Hx Hin]]]].
  specialize (F0 x0 Hin0). rewrite Hx0 in F0. specialize (F1 x Hin). rewrite Hx in F1.
  unfold param_of; cbn [tbinds torig]. rewrite F0, F1, Hi. cbn [bindex]. rewrite (Hn x0).
  assert (bcall x0 = bcall x) as ->; [|reflexivity].
  rewrite <- (Hn0 x0), <- (Hn x0), <- !(map_nth bcall), Hc. reflexivity.
Qed.

Section ExecProofs.
  Variable T : ttab.
  Variable V : vtab.
  Variable SQL : Type.
  Variable render : atom -> ktree -> SQL * list N.
  Variable U : list node.           (* the statements that are ever executed *)
  Hypothesis Hholes : forall ctx v, incl (snd (render ctx v)) (kbl T v).
  Hypothesis HU_wf : forall s, In s U -> wf T s = true.
  Hypothesis HU_view : forall s1 s2 k b1 b2, In s1 U -> In s2 U ->
    gen_key T s1 = Some (k, b1) -> gen_key T s2 = Some (k, b2) -> view T V s1 = view T V s2.
  Hypothesis HU_kbl : forall s, In s U -> incl (kbl T (view T V s)) (kbl T (proj T s)).
  Hypothesis HU_call : forall s1 s2 k b1 b2, In s1 U -> In s2 U ->
    gen_key T s1 = Some (k, b1) -> gen_key T s2 = Some (k, b2) -> map bcall b1 = map bcall b2.

  Notation compile := (compile T V SQL render).
  Notation exec_direct := (exec_direct T V SQL render).

  Lemma rebind_positional : forall ctx s0 s k b0 b sets, In s0 U -> In s U ->
    gen_key T s0 = Some (k, b0) -> gen_key T s = Some (k, b) ->
    (tsql _ (compile ctx s0 b0), rebind_many SQL (compile ctx s0 b0) b sets) = exec_direct ctx s sets.
  Proof using Hholes HU_wf HU_view HU_kbl HU_call.
    intros ctx s0 s k b0 b sets H0 H1 K0 K1.
    exact (rebind_pair T V SQL render Hholes ctx s0 s k b0 b sets (HU_wf _ H0) (HU_wf _ H1) K0 K1
             (HU_view s0 s k b0 b H0 H1 K0 K1) (HU_kbl s0 H0) (HU_call s0 s k b0 b H0 H1 K0 K1)).
  Qed.
End ExecProofs.

(* histories over any class of statements on which re-binding is right for every two members
   with one key *)
Section History.
  Variable T : ttab.
  Variable V : vtab.
  Variable SQL : Type.
  Variable render : atom -> ktree -> SQL * list N.
  Variable ok : node -> Prop.
  Notation compile := (compile T V SQL render).
  Notation exec_direct := (exec_direct T V SQL render).
  Notation exec_cached := (exec_cached T V SQL render).
  Notation run := (run T V SQL render).
  Hypothesis Hpair : forall ctx s0 s k b0 b sets, ok s0 -> ok s ->
    gen_key T s0 = Some (k, b0) -> gen_key T s = Some (k, b) ->
    (tsql _ (compile ctx s0 b0), rebind_many SQL (compile ctx s0 b0) b sets) = exec_direct ctx s sets.

  Lemma ckey_eqb_eq : forall a b, ckey_eqb a b = true -> a = b.
  Proof.
    intros [c1 k1] [c2 k2]; unfold ckey_eqb; cbn. intro H. apply andb_true_iff in H as [H1 H2].
    apply atom_eqb_eq in H1. apply ktree_eqb_eq in H2. subst; reflexivity.
  Qed.
  Lemma clookup_In : forall k (c : cache SQL) t, clookup SQL k c = Some t -> In (k, t) c.
  Proof.
    induction c as [|[k' t'] r IH]; cbn; intros t H; [discriminate|].
    destruct (ckey_eqb k' k) eqn:E; [|right; apply IH, H].
    inversion H; subst. apply ckey_eqb_eq in E. subst. left; reflexivity.
  Qed.

  (* every cache entry under key (ctx, k) is the compilation of a statement with key k *)
  Definition Inv (c : cache SQL) : Prop :=
    forall ck t, In (ck, t) c ->
      exists s0 b0, ok s0 /\ gen_key T s0 = Some (snd ck, b0) /\ t = compile (fst ck) s0 b0.

  Lemma exec_cached_ok : forall c x, Inv c -> ok (s_stmt x) ->
    fst (exec_cached c x) = exec_direct (s_ctx x) (s_stmt x) (s_sets x) /\ Inv (snd (exec_cached c x)).
  Proof.
    intros c x Hinv Hin. unfold CacheExec.exec_cached.
    destruct (if s_enabled x then gen_key T (s_stmt x) else None) as [[k b]|] eqn:Ek.
    2: { split; [reflexivity | exact Hinv]. }
    assert (gen_key T (s_stmt x) = Some (k, b)) as K by (destruct (s_enabled x); [exact Ek | discriminate]).
    destruct (clookup SQL (s_ctx x, k) c) as [t|] eqn:El.
    - split; [|exact Hinv]. cbn [fst].
      apply clookup_In in El. destruct (Hinv _ _ El) as [s0 [b0 [H0 [K0 Et]]]]. cbn [fst snd] in *.
      subst t. exact (Hpair (s_ctx x) s0 (s_stmt x) k b0 b (s_sets x) H0 Hin K0 K).
    - split; cbn [fst snd].
      + exact (Hpair (s_ctx x) (s_stmt x) (s_stmt x) k b b (s_sets x) Hin Hin K K).
      + intros ck t Ht. apply filter_In in Ht as [Ht _]. destruct Ht as [Ht|Ht].
        * inversion Ht; subst. exists (s_stmt x), b. repeat split; auto.
        * exact (Hinv _ _ Ht).
  Qed.

  Theorem run_ok : forall h c, Inv c -> (forall x, In x h -> ok (s_stmt x)) ->
    fst (run c h) = map (fun x => exec_direct (s_ctx x) (s_stmt x) (s_sets x)) h /\ Inv (snd (run c h)).
  Proof.
    induction h as [|x r IH]; intros c Hinv Hin; cbn [CacheExec.run map fst snd]; [split; [reflexivity | exact Hinv]|].
    destruct (exec_cached_ok c x Hinv (Hin x (or_introl eq_refl))) as [E1 I1].
    destruct (IH _ I1 (fun y Hy => Hin y (or_intror Hy))) as [E2 I2].
    split; [rewrite E1, E2; reflexivity | exact I2].
  Qed.

  Lemma Inv_nil : Inv [].
  Proof. intros ck t []. Qed.

  Theorem run_from_cold : forall h1 h2, (forall x, In x (h1 ++ h2) -> ok (s_stmt x)) ->
    fst (run (snd (run [] h1)) h2) = map (fun x => exec_direct (s_ctx x) (s_stmt x) (s_sets x)) h2.
  Proof.
    intros h1 h2 Hin. destruct (run_ok h1 [] Inv_nil (fun x Hx => Hin x (in_or_app _ _ _ (or_introl Hx)))) as [_ I1].
    exact (proj1 (run_ok h2 _ I1 (fun x Hx => Hin x (in_or_app _ _ _ (or_intror Hx))))).
  Qed.
End History.
