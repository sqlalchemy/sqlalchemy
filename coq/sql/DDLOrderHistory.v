(* C14 - metadata histories (Table(...), MetaData.remove, extend_existing): what they preserve, and
   that the plans are functions of the metadata the history leaves behind *)
From Coq Require Import List NArith Bool Lia Permutation.
Import ListNotations.
From SAV.util Require Import Topo TopoProofs TopoCycle.
From SAV.sql Require Import DDLOrder DDLOrderBase DDLOrderExec DDLOrderCreate.

Lemma insert_fk_perm f l : Permutation (insert_fk f l) (f :: l).
Proof. induction l as [|g l IH]; simpl; [apply Permutation_refl|].
  destruct (N.leb (fk_id f) (fk_id g)); [apply Permutation_refl|].
  etransitivity; [apply perm_skip; exact IH|apply perm_swap]. Qed.

Lemma sort_fks_perm l : Permutation (sort_fks l) l.
Proof. unfold sort_fks. induction l as [|f l IH]; simpl; [constructor|].
  etransitivity; [apply insert_fk_perm|]. constructor. exact IH. Qed.

(* extend_existing: the re-specified constraints win, the others stay; ids stay distinct *)
Lemma In_extend_fks old new f : In f (extend_fks old new) <->
  In f new \/ (In f old /\ has_fk (fk_id f) new = false).
Proof. unfold extend_fks. split.
  - intros H. apply (Permutation_in _ (sort_fks_perm _)) in H. apply in_app_or in H. destruct H as [H|H]; [right|left; exact H].
    apply filter_In in H. destruct H as [H1 H2]. apply negb_true_iff in H2. tauto.
  - intros H. apply (Permutation_in _ (Permutation_sym (sort_fks_perm _))). apply in_or_app. destruct H as [H|[H1 H2]]; [right; exact H|left].
    apply filter_In. split; [exact H1|]. rewrite H2. reflexivity. Qed.

Lemma extend_fks_nodup old new : NoDup (map fk_id old) -> NoDup (map fk_id new) ->
  NoDup (map fk_id (extend_fks old new)).
Proof. intros Ho Hn. unfold extend_fks.
  eapply Permutation_NoDup; [apply Permutation_map; apply Permutation_sym; apply sort_fks_perm|].
  rewrite map_app. apply NoDup_app_intro; [apply NoDup_map_filter; exact Ho|exact Hn|].
  intros i H1 H2. apply in_map_iff in H1. destruct H1 as [f [<- Hf]]. apply filter_In in Hf. destruct Hf as [_ Hf].
  apply negb_true_iff in Hf. apply has_fk_In in H2. congruence. Qed.

(* every table a history mentions has distinct constraints *)
Definition step_ok (s : step) : Prop :=
  match s with Define t | Extend t => NoDup (map fk_id (t_fks t)) | Remove _ => True end.

Definition md_ok (md : metadata) : Prop :=
  NoDup (names md) /\ forall t, In t md -> NoDup (map fk_id (t_fks t)).

(* a table under a new name is appended: Define, and Extend of a name not yet there *)
Lemma md_ok_snoc md t : md_ok md -> memb (t_name t) (names md) = false -> NoDup (map fk_id (t_fks t)) ->
  md_ok (md ++ [t]).
Proof. intros [Hn Hi] M Ht. apply memb_false in M. split.
  - unfold names. rewrite map_app. apply NoDup_app_intro; [exact Hn|repeat constructor; intros []|].
    intros x Hx [<-|[]]. contradiction.
  - intros u Hu. apply in_app_or in Hu. destruct Hu as [Hu|[<-|[]]]; [apply Hi; exact Hu|exact Ht]. Qed.

Lemma apply_step_ok md s md' : md_ok md -> step_ok s -> apply_step md s = Some md' -> md_ok md'.
Proof.
  intros Hok Hs. pose proof Hok as [Hn Hi]. destruct s as [t|n|t]; simpl.
  - destruct (memb (t_name t) (names md)) eqn:M; [discriminate|]. intros [= <-]. apply md_ok_snoc; assumption.
  - intros [= <-]. split.
    + apply NoDup_map_filter. exact Hn.
    + intros u Hu. apply filter_In in Hu. apply Hi. tauto.
  - destruct (memb (t_name t) (names md)) eqn:M; intros [= <-]; [|apply md_ok_snoc; assumption]. split.
    + (* extend_existing keeps every name in its place *)
      unfold names. rewrite map_map. erewrite map_ext; [exact Hn|]. intros u.
      destruct (N.eqb (t_name u) (t_name t)); reflexivity.
    + intros u Hu. apply in_map_iff in Hu. destruct Hu as [v [Hv1 Hv2]].
      destruct (N.eqb (t_name v) (t_name t)); subst u; [|apply Hi; exact Hv2].
      simpl. apply extend_fks_nodup; [apply Hi; exact Hv2|exact Hs]. Qed.

Theorem run_history_ok : forall h md md', md_ok md -> Forall step_ok h -> run_history md h = Some md' -> md_ok md'.
Proof. induction h as [|s h IH]; intros md md' Hm Hf; simpl.
  - intros H; inversion H; subst; exact Hm.
  - inversion Hf as [|s' h' Hs Hf']; subst. destruct (apply_step md s) as [md1|] eqn:E; [|discriminate].
    apply IH; [eapply apply_step_ok; eassumption|exact Hf']. Qed.

Theorem history_wf h md : Forall step_ok h -> current h = Some md ->
  (forall t f, In t md -> In f (t_fks t) -> In (fk_ref f) (names md)) -> wf md.
Proof. intros Hf Hc Hr. assert (Hok : md_ok md).
  { eapply run_history_ok; [|exact Hf|exact Hc]. split; [constructor|intros t []]. }
  destruct Hok as [H1 H2]. split; [exact H1|]. split; [exact Hr|exact H2]. Qed.

(* the plans after a history are, by definition, the plans of the metadata it leaves behind: foreign keys are
   names resolved against the current tables (DDLOrder.v), so nothing else of the history can enter *)
Definition create_after (existing : list N) (checkfirst : bool) (h : list step) : option outcome :=
  option_map (create_plan existing checkfirst) (current h).
Definition drop_after (existing : list N) (checkfirst : bool) (h : list step) : option outcome :=
  option_map (drop_plan existing checkfirst) (current h).
Definition sorted_after (h : list step) : option (res (list node * bool)) :=
  option_map sorted_tables (current h).

Theorem plans_depend_on_current_only h h' : current h = current h' ->
  (forall ex cf, create_after ex cf h = create_after ex cf h') /\
  (forall ex cf, drop_after ex cf h = drop_after ex cf h') /\
  sorted_after h = sorted_after h'.
Proof. intros E. unfold create_after, drop_after, sorted_after. rewrite E. repeat split. Qed.

Theorem create_all_after_history h md db0 checkfirst :
  Forall step_ok h -> current h = Some md ->
  (forall t f, In t md -> In f (t_fks t) -> In (fk_ref f) (names md)) ->
  consistent db0 md -> (checkfirst = false -> db0 = []) ->
  ~ (exists w, cycle (fixed md) w /\ incl w (names md)) ->
  exists o u, create_after (map fst db0) checkfirst h = Some (Plan o u) /\
    forall u', Permutation u' u -> exists db', exec db0 (o ++ u') = Some db' /\ cat_equiv db' md.
Proof. intros Hf Hc Hr Hcons Hcf Hfix. pose proof (history_wf h md Hf Hc Hr) as Hwf.
  destruct (create_all_succeeds md db0 checkfirst Hwf Hcons Hcf Hfix) as [o [u [Hp Hex]]].
  exists o, u. split; [|exact Hex]. unfold create_after. rewrite Hc. simpl. rewrite Hp. reflexivity. Qed.

(* redefining a referred table: the referring table still comes after it *)
Example history_redefine_parent :
  let h := [Define (mktable 0 [] []); Define (mktable 1 [mkfk 0 0 false false] []);
            Remove 0; Define (mktable 0 [] [])]%N in
  current h = Some [mktable 1 [mkfk 0 0 false false] []; mktable 0 [] []]%N /\
  create_after [] false h = Some (Plan [CreateT 0 []; CreateT 1 [mkfk 0 0 false false]]%N []) /\
  drop_after [] false h = Some (Plan [DropT 1; DropT 0]%N []) /\
  sorted_after h = Some (Ok ([0; 1]%N, false)).
Proof. vm_compute. repeat split. Qed.
