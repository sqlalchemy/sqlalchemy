(* C09 - CPython's _ord2ymd inverts _ymd2ord on every ordinal.  The position in a 400-year cycle is split into
   the "digits" of the year (centuries, 4-year groups, single years, which have 36524, 1461 and 365 days) and a day
   of the year; days_before_year and is_leap are computed from the digits by arithmetic, and only the choice of
   the month from the day of the year (the month-length table) is checked case by case. *)
From Coq Require Import List NArith ZArith Bool Lia ZifyBool.
Import ListNotations.
From SAV.sql Require Import Types.
Open Scope Z_scope.

(* the month tables depend on the year only through is_leap; _ord2ymd looks them up with the years 4 and 1 *)
Lemma days_before_month_flag : forall y m,
  days_before_month y m = days_before_month (if is_leap (Z.to_N y) then 4 else 1) m.
Proof. intros y m. unfold days_before_month. now destruct (is_leap (Z.to_N y)). Qed.

Lemma days_in_month_flag : forall y m, days_in_month y m = days_in_month (if is_leap y then 4 else 1) m.
Proof. intros y m. unfold days_in_month. now destruct (is_leap y). Qed.

Lemma days_before_month_nonneg : forall y m, 0 <= days_before_month y m.
Proof.
  intros y m. unfold days_before_month. destruct ((2 <? m) && _).
  all: destruct m as [|p|p]; try lia; do 4 (try destruct p as [p|p|]); lia.
Qed.

(* [d] is the date of the 0-based ordinal [k]; validity lacks only the upper bound of the year *)
Definition at_ordinal (d : date) (k : Z) : Prop :=
  ymd2ord d = k + 1 /\ days_before_year (Z.of_N (dy d)) <= k /\ ((dy d <= 9999)%N -> valid_date d = true).

Section YearDigits.
  Variables q a b c : Z.
  Hypotheses (Hq : 0 <= q) (Ha : 0 <= a < 4) (Hb : 0 <= b < 25) (Hc : 0 <= c < 4).
  Let y := q * 400 + 1 + a * 100 + b * 4 + c.
  Let leap := (c =? 3) && (negb (b =? 24) || (a =? 3)).
  Let start := 146097 * q + 36524 * a + 1461 * b + 365 * c.

  (* in the next two lemmas lia replaces / and mod (also those of N) by their defining equations *)
  Ltac Zify.zify_post_hook ::= Z.to_euclidean_division_equations.

  Lemma days_before_year_digits : days_before_year y = start.
  Proof. unfold days_before_year, y, start. lia. Qed.

  (* y - 1 = 400 q + 100 a + 4 b + c: y is a multiple of 4 iff c = 3, of 100 iff also b = 24, of 400 iff also a = 3 *)
  Lemma is_leap_digits : is_leap (Z.to_N y) = leap.
  Proof.
    unfold is_leap, leap.
    replace (Z.to_N y mod 4 =? 0)%N with (c =? 3) by (unfold y; lia).
    replace (Z.to_N y mod 100 =? 0)%N with ((c =? 3) && (b =? 24)) by (unfold y; lia).
    replace (Z.to_N y mod 400 =? 0)%N with ((c =? 3) && (b =? 24) && (a =? 3)) by (unfold y; lia).
    destruct (c =? 3), (b =? 24), (a =? 3); reflexivity.
  Qed.

  Ltac Zify.zify_post_hook ::= idtac.

  Lemma date_digits : forall m d k, 1 <= m <= 12 ->
    1 <= d <= Z.of_N (days_in_month (if leap then 4 else 1) (Z.to_N m)) ->
    k = start + days_before_month (if leap then 4 else 1) m + d - 1 ->
    at_ordinal {| dy := Z.to_N y; dm := Z.to_N m; dd := Z.to_N d |} k.
  Proof.
    intros m d k Hm Hd ->. unfold at_ordinal, ymd2ord, valid_date. cbn [dy dm dd].
    rewrite !Z2N.id by (unfold y; lia).
    rewrite days_before_year_digits, days_before_month_flag, days_in_month_flag, is_leap_digits.
    pose proof (days_before_month_nonneg (if leap then 4 else 1) m). lia.
  Qed.
End YearDigits.

(* ---- from the day of the year to month and day: the month-length table, case by case ---- *)
Fixpoint check_range (f : Z -> bool) (lo : Z) (k : nat) : bool :=
  match k with
  | O => f lo
  | S k' => check_range f lo k' && check_range f (lo + 2 ^ Z.of_nat k') k'
  end.

Lemma check_range_spec : forall f k lo, check_range f lo k = true ->
  forall z, lo <= z < lo + 2 ^ Z.of_nat k -> f z = true.
Proof.
  intros f. induction k as [|k IH]; intros lo H z Hz; cbn [check_range] in H.
  - cbn in Hz. replace z with lo by lia. exact H.
  - apply andb_true_iff in H as [H1 H2]. rewrite Nat2Z.inj_succ, Z.pow_succ_r in Hz by lia.
    destruct (Z_lt_dec z (lo + 2 ^ Z.of_nat k)).
    + apply (IH lo H1). lia.
    + apply (IH _ H2). lia.
Qed.

(* the estimate (n + 50) / 32 is the month of day [n] or the one after it *)
Definition month_day_ok (leap : bool) (n : Z) : bool :=
  let y := if leap then 4 else 1 in
  let month := (n + 50) / 32 in
  let m := if n <? days_before_month y month then month - 1 else month in
  let d := n - days_before_month y m + 1 in
  (1 <=? m) && (m <=? 12) && (1 <=? d) && (d <=? Z.of_N (days_in_month (if leap then 4 else 1) (Z.to_N m))).

Lemma month_day_checked :
  check_range (fun n => (365 <=? n) || month_day_ok false n && month_day_ok true n) 0 9 = true.
Proof. vm_compute. reflexivity. Qed.

Lemma month_day : forall leap n, 0 <= n < 365 -> month_day_ok leap n = true.
Proof.
  intros leap n Hn. pose proof (check_range_spec _ 9 0 month_day_checked n ltac:(cbn; lia)) as H. cbv beta in H.
  destruct (Z.leb_spec 365 n); [lia|]. apply andb_true_iff in H. now destruct leap.
Qed.

Theorem ymd_in_cycle_correct : forall q r, 0 <= q -> 0 <= r < 146097 ->
  at_ordinal (ymd_in_cycle q r) (146097 * q + r).
Proof.
  intros q r Hq Hr. unfold ymd_in_cycle. cbv zeta.
  set (n100 := r / 36524). set (n4 := r mod 36524 / 1461). set (n1 := r mod 36524 mod 1461 / 365).
  set (n := r mod 36524 mod 1461 mod 365).
  assert (Hdec : r = 36524 * n100 + 1461 * n4 + 365 * n1 + n /\ 0 <= n100 <= 4 /\ 0 <= n4 < 25 /\ 0 <= n1 <= 4 /\
                 0 <= n < 365 /\ (n100 = 4 -> n4 = 0 /\ n1 = 0 /\ n = 0) /\ (n1 = 4 -> n4 < 24 /\ n = 0))
    by (subst n100 n4 n1 n; Z.div_mod_to_equations; lia).
  clearbody n100 n4 n1 n.
  destruct ((n1 =? 4) || (n100 =? 4)) eqn:E.
  - (* a cycle has one day more than 4 centuries and a 4-year group one more than 4 years: that day is December 31
       of the year before, a leap year whose last digit is 3 *)
    set (y := _ - 1).
    assert (exists a b, y = q * 400 + 1 + a * 100 + b * 4 + 3 /\ 0 <= a < 4 /\ 0 <= b < 25 /\
              negb (b =? 24) || (a =? 3) = true /\ r = 36524 * a + 1461 * b + 1460) as (a & b & -> & Ha & Hb & Hab & ->).
    { destruct (Z.eq_dec n100 4); [exists 3, 24|exists n100, n4]; lia. }
    change 12%N with (Z.to_N 12). change 31%N with (Z.to_N 31).
    apply date_digits; rewrite ?Hab; cbn; lia.
  - assert (Hdd := date_digits q n100 n4 n1 Hq ltac:(lia) ltac:(lia) ltac:(lia)).
    pose proof (month_day ((n1 =? 3) && (negb (n4 =? 24) || (n100 =? 3))) n ltac:(lia)) as Hmd.
    unfold month_day_ok in Hmd. cbv zeta in Hmd. revert Hmd.
    destruct (n <? _); intro Hmd; apply Hdd; lia.
Qed.

(* max_ord = days_before_year 10000 *)
Lemma year_before_ordinal : forall y k, days_before_year (Z.of_N y) <= k < max_ord -> (y <= 9999)%N.
Proof. unfold days_before_year, max_ord. intros y k H. Z.div_mod_to_equations. lia. Qed.

Theorem ordinal_law_holds : ordinal_law.
Proof.
  intros n Hn. unfold ord2ymd.
  assert (Hqr : n - 1 = 146097 * ((n - 1) / 146097) + (n - 1) mod 146097 /\ 0 <= (n - 1) / 146097 /\
                0 <= (n - 1) mod 146097 < 146097) by (Z.div_mod_to_equations; lia).
  destruct (ymd_in_cycle_correct ((n - 1) / 146097) ((n - 1) mod 146097)) as (Ho & Hy & Hv); try apply Hqr.
  rewrite <- (proj1 Hqr) in *. split; [|lia].
  apply Hv, (year_before_ordinal _ (n - 1)). lia.
Qed.
