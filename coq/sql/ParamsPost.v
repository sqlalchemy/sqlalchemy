(* C04 - the loop of _process_parameters_for_postcompile: invariant over the names processed so far *)
From Coq Require Import List NArith ZArith Bool.
Import ListNotations.
From SAV.sql Require Import Params ParamsDict ParamsEscape ParamsGuard.

Section Post.
Variable tab : list (N * N).
Variable lit : Z -> str.
Variable empty_expr : str.
Variable ps : style.
Variable inp : input.
Hypothesis W : wf tab inp.

Notation order := (i_order inp).
Notation ebn := (ebn_of tab (i_order inp)).

(* the value given for a bind; every registered bind has one under the guard (w_plain, w_expand, w_litv) *)
Definition given (n : name) : pval := match dget n (i_params inp) with Some v => v | None => PS 0 end.
(* what replaces __[POSTCOMPILE_n] *)
Definition repl_of (n : name) : list otok :=
  match kind_of inp n with
  | Expand => repl_expand empty_expr ps (esc tab n) (plist inp n)
  | _ => [OTxt (pct ps (lit_of lit empty_expr (given n)))]
  end.
Definition newpos_of (n : name) : list name :=
  match kind_of inp n with
  | Plain => [n]
  | Expand => if numeric ps then [] else xnames tab inp n
  | LitExec => []
  end.

(* The state after the loop has gone through the names [done] (a bind can occur several times in positiontup).
   Parameters: those of plain binds and of binds still to come are untouched (v_keep), each expanded name of a
   processed bind holds its element (v_x), and there are no other keys (v_keys).  Every processed bind that is
   not plain has its replacement under its escaped name (v_repl_in), no other bind has one (v_repl_out); this
   is how the loop recognises a bind it has met before. *)
Record pc_inv (done : list name) (st : pcstate) : Prop := {
  v_done : incl done order;
  v_nodup : NoDup (keys (s_params st));
  v_x : forall n k v, In n done -> In (k, v) (xitems tab inp n) -> dget k (s_params st) = Some (PS v);
  v_keep : forall k, In k order -> (~ In k done \/ kind_of inp k = Plain) ->
           dget k (s_params st) = dget k (i_params inp);
  v_keys : forall k, In k (keys (s_params st)) ->
           In k order \/ exists n, In n order /\ In k (xnames tab inp n);
  v_repl_in : forall n, In n done -> kind_of inp n <> Plain -> dget (esc tab n) (s_repl st) = Some (repl_of n);
  v_repl_out : forall n, In n order -> ~ In n done -> dget (esc tab n) (s_repl st) = None;
  v_upd : forall n, In n done -> kind_of inp n = Expand -> dget (esc tab n) (s_upd st) = Some (xitems tab inp n);
  v_newpos : s_newpos st = if positional ps then flat_map newpos_of done else [];
  v_numpos : s_numpos st = if numeric ps then flat_map (xnames tab inp) done else [];
  v_procs_x : forall n k v, In n done -> In (k, v) (xitems tab inp n) ->
              dget k (s_procs st) = dget n (i_procs inp);
  v_procs_keys : forall k, In k (keys (s_procs st)) -> exists n, In n done /\ In k (xnames tab inp n);
  v_procs_nodup : NoDup (keys (s_procs st))
}.

Definition pc_init : pcstate :=
  {| s_params := i_params inp; s_repl := []; s_upd := []; s_newpos := []; s_numpos := []; s_procs := [] |}.

Lemma pc_inv_init : pc_inv [] pc_init.
Proof.
  constructor; cbn [pc_init s_params s_repl s_upd s_newpos s_numpos s_procs flat_map].
  - intros x [].
  - exact (w_pnodup _ _ W).
  - intros n k v [].
  - reflexivity.
  - intros k H. left. exact (w_pkeys _ _ W k H).
  - intros n [].
  - reflexivity.
  - intros n [].
  - destruct (positional ps); reflexivity.
  - destruct (numeric ps); reflexivity.
  - intros n k v [].
  - intros k [].
  - constructor.
Qed.

Lemma xitems_nonexpand : forall n, kind_of inp n <> Expand -> xitems tab inp n = [].
Proof. intros n H. unfold xitems. destruct (kind_of inp n); congruence. Qed.

Lemma xitem_name : forall n k v, In (k, v) (xitems tab inp n) -> In k (xnames tab inp n).
Proof. intros n k v H. exact (in_map fst _ _ H). Qed.

Lemma positional_cases :
  (if positional ps && negb (numeric ps) then true else false) = (if positional ps then negb (numeric ps) else false).
Proof. destruct ps; reflexivity. Qed.

(* the bind is met for the first time and needs a replacement expression *)
Definition pc_fresh (done : list name) (n : name) : bool :=
  negb (is_plain (kind_of inp n)) && negb (memb n done).

Lemma pc_fresh_spec : forall done n, pc_fresh done n = true <-> ~ In n done /\ kind_of inp n <> Plain.
Proof.
  intros done n. unfold pc_fresh. split.
  - intro H. apply andb_prop in H. destruct H as [H1 H2]. split.
    + apply memb_false, negb_true_iff. exact H2.
    + intro K. rewrite K in H1. discriminate.
  - intros [A B]. apply memb_false in A. rewrite A. destruct (kind_of inp n); [destruct (B eq_refl)|reflexivity..].
Qed.
Lemma pc_fresh_false : forall done n, pc_fresh done n = false -> kind_of inp n <> Plain -> In n done.
Proof.
  intros done n H K. apply memb_In. unfold pc_fresh in H.
  destruct (kind_of inp n), (memb n done); cbn in H; congruence.
Qed.

(* What pc_step does, written without the case distinction on the kind of the bind: the three kinds differ
   only in what [xitems], [repl_of] and [newpos_of] are for them (no expanded names for a plain
   or literal_execute bind), and a bind seen before is neither popped nor registered again. *)
Definition pc_next (done : list name) (st : pcstate) (n : name) : pcstate :=
  let f := pc_fresh done n in
  let u := xitems tab inp n in
  {| s_params := dupdate (map (fun kv => (fst kv, PS (snd kv))) u) (if f then dpop n (s_params st) else s_params st);
     s_repl := if f then dset (esc tab n) (repl_of n) (s_repl st) else s_repl st;
     s_upd := match kind_of inp n with
              | Expand => if f then dset (esc tab n) u (s_upd st) else s_upd st
              | _ => s_upd st
              end;
     s_newpos := if positional ps then s_newpos st ++ newpos_of n else s_newpos st;
     s_numpos := if numeric ps then s_numpos st ++ xnames tab inp n else s_numpos st;
     s_procs := match dget n (i_procs inp) with
                | Some p => dupdate (map (fun kv => (fst kv, p)) u) (s_procs st)
                | None => s_procs st
                end |}.

(* "escaped_name in replacement_expressions" tells whether the bind was met before *)
Lemma seen_before : forall done st n, pc_inv done st -> In n order -> kind_of inp n <> Plain ->
  dmem (esc tab n) (s_repl st) = memb n done.
Proof.
  intros done st n I Hn K. unfold dmem. destruct (memb n done) eqn:M.
  - apply memb_In in M. rewrite (v_repl_in _ _ I n M K). reflexivity.
  - apply memb_false in M. rewrite (v_repl_out _ _ I n Hn M). reflexivity.
Qed.

Lemma pc_step_eq : forall done st n, pc_inv done st -> In n order ->
  pc_step lit empty_expr ps inp ebn st n = Ok (pc_next done st n).
Proof.
  intros done st n I Hn. unfold pc_step, pc_next, pc_fresh, newpos_of, xnames.
  rewrite (ebn_get_or_key_in tab _ _ Hn).
  assert (Hnil : forall l : list name, (if numeric ps then l ++ [] else l) = l)
    by (intro l; rewrite app_nil_r; destruct (numeric ps); reflexivity).
  destruct (kind_of inp n) eqn:K; cbn [is_plain negb andb].
  - rewrite (xitems_nonexpand n) by congruence. cbn [map dupdate fold_left]. rewrite Hnil.
    destruct (dget n (i_procs inp)); reflexivity.
  - rewrite (seen_before done st n I Hn) by congruence.
    assert (Hpos : forall l x : list name, (if positional ps && negb (numeric ps) then l ++ x else l)
                   = if positional ps then l ++ (if numeric ps then [] else x) else l).
    { intros l x. destruct (positional ps), (numeric ps); cbn [andb negb]; rewrite ?app_nil_r; reflexivity. }
    destruct (memb n done) eqn:M; cbn [negb].
    + apply memb_In in M. rewrite (v_upd _ _ I n M K). cbn [bind]. rewrite Hpos. reflexivity.
    + apply memb_false in M. destruct (w_expand _ _ W n Hn K) as [l Hl].
      rewrite (v_keep _ _ I n Hn (or_introl M)), Hl. cbn [bind].
      assert (Hx : expanded_names (esc tab n) l = xitems tab inp n) by (unfold xitems, plist; rewrite K, Hl; reflexivity).
      assert (Hr : repl_expand empty_expr ps (esc tab n) l = repl_of n) by (unfold repl_of, plist; rewrite K, Hl; reflexivity).
      rewrite Hx, Hr, Hpos. reflexivity.
  - rewrite (seen_before done st n I Hn) by congruence.
    rewrite (xitems_nonexpand n) by congruence. cbn [map dupdate fold_left]. rewrite !Hnil.
    assert (Hpos : forall l : list name, (if positional ps then l ++ [] else l) = l)
      by (intro l; rewrite app_nil_r; destruct (positional ps); reflexivity).
    rewrite Hpos. destruct (memb n done) eqn:M; cbn [negb].
    + destruct st, (dget n (i_procs inp)); reflexivity.
    + apply memb_false in M. destruct (w_litv _ _ W n Hn K) as [v Hv].
      (* the un-escaped name is a key of the parameters: it is the one popped *)
      assert (Hg : dget n (s_params st) = Some v) by (rewrite (v_keep _ _ I n Hn (or_introl M)); exact Hv).
      unfold pop_key, dmem. rewrite Hg, Hg. unfold repl_of, given. rewrite K, Hv.
      destruct (dget n (i_procs inp)); reflexivity.
Qed.

Lemma pc_inv_step : forall done st n, pc_inv done st -> In n order -> pc_inv (done ++ [n]) (pc_next done st n).
Proof.
  intros done st n I Hn.
  assert (Hdone : incl (done ++ [n]) order).
  { intros x Hx. apply In_snoc in Hx. destruct Hx as [Hx| ->]; [exact (v_done _ _ I x Hx)|exact Hn]. }
  (* an expanded name of a processed bind m is one of n's only if m is n; if it is not, m was processed before *)
  assert (Hcase : forall m k, In m (done ++ [n]) -> In k (xnames tab inp m) ->
            (In k (xnames tab inp n) /\ m = n) \/ (~ In k (xnames tab inp n) /\ In m done)).
  { intros m k Hm Hk. destruct (memb k (xnames tab inp n)) eqn:M; [apply memb_In in M|apply memb_false in M].
    - left. split; [exact M|exact (w_xdisj _ _ W m n k (Hdone m Hm) Hn Hk M)].
    - right. split; [exact M|]. apply In_snoc in Hm. destruct Hm as [Hm| ->]; [exact Hm|contradiction]. }
  assert (Hesc : forall m, In m order -> m <> n -> esc tab m <> esc tab n).
  { intros m Hm Hne He. exact (Hne (w_inj _ _ W m n Hm Hn He)). }
  unfold pc_next. constructor; cbn [s_params s_repl s_upd s_newpos s_numpos s_procs].
  - exact Hdone.
  - apply NoDup_keys_dupdate. destruct (pc_fresh done n); [apply NoDup_keys_dpop|]; exact (v_nodup _ _ I).
  - intros m k v Hm Hx. pose proof (xitem_name _ _ _ Hx) as Hk.
    destruct (Hcase m k Hm Hk) as [[M ->]|[M Hm']].
    + apply dget_dupdate_in.
      * rewrite keys_retag. exact (w_xnodup _ _ W n Hn).
      * exact (in_map (fun kv => (fst kv, PS (snd kv))) _ _ Hx).
    + rewrite dget_dupdate_other by (rewrite keys_retag; exact M). rewrite <- (v_x _ _ I m k v Hm' Hx).
      destruct (pc_fresh done n); [apply dget_dpop_other|reflexivity].
      intros ->. exact (w_xfresh _ _ W m n (v_done _ _ I m Hm') Hk Hn).
  - intros k Hk H.
    rewrite dget_dupdate_other by (rewrite keys_retag; intro Hx; exact (w_xfresh _ _ W n k Hn Hx Hk)).
    rewrite <- (v_keep _ _ I k Hk).
    + destruct (pc_fresh done n) eqn:F; [|reflexivity]. apply pc_fresh_spec in F. apply dget_dpop_other. intros ->.
      destruct H as [H|H]; [apply H; apply In_snoc; right; reflexivity|exact (proj2 F H)].
    + destruct H as [H|H]; [left; intro Hd; apply H; apply In_snoc; left; exact Hd|right; exact H].
  - intros k Hk. apply In_keys_dupdate in Hk. rewrite keys_retag in Hk. destruct Hk as [Hk|Hk].
    + right. exists n. split; assumption.
    + apply (v_keys _ _ I). destruct (pc_fresh done n); [exact (In_keys_dpop _ _ _ Hk)|exact Hk].
  - intros m Hm K. apply In_snoc in Hm. destruct (pc_fresh done n) eqn:F.
    + apply pc_fresh_spec in F. destruct Hm as [Hm| ->]; [|apply dget_dset_same].
      rewrite dget_dset_other; [exact (v_repl_in _ _ I m Hm K)|].
      apply Hesc; [exact (v_done _ _ I m Hm)|intros ->; exact (proj1 F Hm)].
    + apply (v_repl_in _ _ I); [|exact K]. destruct Hm as [Hm| ->]; [exact Hm|exact (pc_fresh_false _ _ F K)].
  - intros m Hm H.
    assert (Hne : m <> n) by (intros ->; apply H; apply In_snoc; right; reflexivity).
    assert (Hnd : ~ In m done) by (intro Hd; apply H; apply In_snoc; left; exact Hd).
    destruct (pc_fresh done n); [rewrite dget_dset_other by exact (Hesc m Hm Hne)|]; exact (v_repl_out _ _ I m Hm Hnd).
  - intros m Hm K. apply In_snoc in Hm. destruct Hm as [Hm| ->].
    + destruct (kind_of inp n); try exact (v_upd _ _ I m Hm K).
      destruct (pc_fresh done n) eqn:F; [|exact (v_upd _ _ I m Hm K)]. apply pc_fresh_spec in F.
      rewrite dget_dset_other; [exact (v_upd _ _ I m Hm K)|].
      apply Hesc; [exact (v_done _ _ I m Hm)|intros ->; exact (proj1 F Hm)].
    + rewrite K. destruct (pc_fresh done n) eqn:F; [apply dget_dset_same|].
      apply (v_upd _ _ I n); [|exact K]. apply (pc_fresh_false _ _ F). congruence.
  - rewrite (v_newpos _ _ I). destruct (positional ps); [rewrite flat_map_snoc|]; reflexivity.
  - rewrite (v_numpos _ _ I). destruct (numeric ps); [rewrite flat_map_snoc|]; reflexivity.
  - intros m k v Hm Hx. pose proof (xitem_name _ _ _ Hx) as Hk.
    destruct (Hcase m k Hm Hk) as [[M ->]|[M Hm']].
    + destruct (dget n (i_procs inp)) as [p|] eqn:Ep.
      * apply dget_dupdate_in; [rewrite keys_retag; exact (w_xnodup _ _ W n Hn)|].
        exact (in_map (fun kv => (fst kv, p)) _ _ Hx).
      * (* no processor for n: a processor recorded under k would be that of n *)
        apply dget_None_keys. intro Hkk. destruct (v_procs_keys _ _ I k Hkk) as [n1 [B1 B2]].
        rewrite (w_xdisj _ _ W n1 n k (v_done _ _ I n1 B1) Hn B2 M) in B1.
        apply dget_In_keys in Hkk. apply Hkk. rewrite (v_procs_x _ _ I n k v B1 Hx). exact Ep.
    + rewrite <- (v_procs_x _ _ I m k v Hm' Hx).
      destruct (dget n (i_procs inp)); [apply dget_dupdate_other; rewrite keys_retag; exact M|reflexivity].
  - intros k Hk.
    assert (H : In k (xnames tab inp n) \/ In k (keys (s_procs st))).
    { destruct (dget n (i_procs inp)); [|right; exact Hk].
      apply In_keys_dupdate in Hk. rewrite keys_retag in Hk. exact Hk. }
    destruct H as [H|H].
    + exists n. split; [apply In_snoc; right; reflexivity|exact H].
    + destruct (v_procs_keys _ _ I k H) as [n1 [B1 B2]]. exists n1. split; [apply In_snoc; left; exact B1|exact B2].
  - destruct (dget n (i_procs inp)); [apply NoDup_keys_dupdate|]; exact (v_procs_nodup _ _ I).
Qed.

Lemma pc_loop_inv : forall names done st, pc_inv done st -> incl names order ->
  exists st', foldM (pc_step lit empty_expr ps inp ebn) names st = Ok st' /\ pc_inv (done ++ names) st'.
Proof.
  induction names as [|n names IH]; intros done st I Hi.
  - exists st. split; [reflexivity|]. rewrite app_nil_r. exact I.
  - pose proof (Hi n (or_introl eq_refl)) as Hn.
    destruct (IH (done ++ [n]) _ (pc_inv_step done st n I Hn) (fun x Hx => Hi x (or_intror Hx))) as [st2 [E2 I2]].
    exists st2. cbn [foldM]. rewrite (pc_step_eq done st n I Hn). cbn [bind]. split; [exact E2|].
    rewrite <- app_assoc in I2. exact I2.
Qed.

Lemma pc_loop : forall names, incl names order ->
  exists st', foldM (pc_step lit empty_expr ps inp ebn) names pc_init = Ok st' /\ pc_inv names st'.
Proof. intros names H. exact (pc_loop_inv names [] pc_init pc_inv_init H). Qed.
End Post.

Arguments v_done {tab lit empty_expr ps inp done st} _.
Arguments v_nodup {tab lit empty_expr ps inp done st} _.
Arguments v_x {tab lit empty_expr ps inp done st} _.
Arguments v_keep {tab lit empty_expr ps inp done st} _.
Arguments v_keys {tab lit empty_expr ps inp done st} _.
Arguments v_repl_in {tab lit empty_expr ps inp done st} _.
Arguments v_newpos {tab lit empty_expr ps inp done st} _.
Arguments v_numpos {tab lit empty_expr ps inp done st} _.
Arguments v_procs_x {tab lit empty_expr ps inp done st} _.
Arguments v_procs_keys {tab lit empty_expr ps inp done st} _.
Arguments v_procs_nodup {tab lit empty_expr ps inp done st} _.
