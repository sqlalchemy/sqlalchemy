(* C15, second part: the attributes reflection takes from places other than the CREATE TABLE text.
   * columns: get_columns computes `nullable` from PRAGMA table_info's notnull flag; the DDL compiler emits
     NOT NULL iff `not column.nullable`; SQLite sets notnull iff NOT NULL was written (also for PRIMARY KEY
     columns: a non-rowid primary key column without NOT NULL really accepts NULL) - validated live.
   * partial indexes: get_indexes fetches the CREATE INDEX text with
       SELECT sql FROM <schema>.sqlite_master WHERE name = ? AND type = 'index'
     (the table's own schema; unqualified = main) and searches it with  \)\s+where\s+(.+)  (re.I | re.DOTALL:
     the group runs to the end of the text, newlines included - /repo dd187db).
   The expression of the nullable rule and the schema qualification of the query are extracted from the
   current source on every run (into Gen_C15.v, by specs/c15.py); the theorems are stated for any rule / flag satisfying the
   per-run obligation. *)
From Coq Require Import List NArith Bool Lia.
Import ListNotations.
From SAV.sql Require Import Ident IdentProofs Reflect ReflectProofs.
Open Scope N_scope.

Definition kwWHERE : str := [87; 72; 69; 82; 69].

(* (.+) with DOTALL: greedy, to the end of the text, at least one character *)
Definition line_of (t : str) : option str := match t with [] => None | g => Some g end.
(* \s+(.+) after at least one space was consumed: consume more spaces first (greedy), else start the group here *)
Fixpoint best (t : str) : option str :=
  match t with
  | c :: r => if is_space c then match best r with Some g => Some g | None => line_of t end else line_of t
  | [] => None
  end.
Definition pred_tail (t : str) : option str :=
  match t with c :: r => if is_space c then best r else None | [] => None end.
(* one attempt right after a ")" :  \s+where\s+(.+) *)
Definition pred_after_paren (t : str) : option str :=
  match spaces1 t with
  | Some t1 => match ci_prefix kwWHERE t1 with Some t2 => pred_tail t2 | None => None end
  | None => None
  end.
(* partial_pred_re.search(index_sql) *)
Fixpoint pred_search (t : str) : option str :=
  match t with
  | [] => None
  | c :: r => if c =? rpar then match pred_after_paren r with Some g => Some g | None => pred_search r end
              else pred_search r
  end.

(* visit_create_index: CREATE [UNIQUE ]INDEX <name> ON <table> (<cols>)[ WHERE <pred>] *)
Definition sCREATE : str := [67; 82; 69; 65; 84; 69; 32].
Definition sUNIQUEsp : str := [85; 78; 73; 81; 85; 69; 32].
Definition sINDEXsp : str := [73; 78; 68; 69; 88; 32].
Definition sON : str := [32; 79; 78; 32].
Definition render_index_head (unique : bool) (qname qtable : str) (qcols : list str) : str :=
  sCREATE ++ (if unique then sUNIQUEsp else []) ++ sINDEXsp ++ qname ++ sON ++ qtable ++ [sp; lpar] ++ join_cols qcols.
Definition render_index (unique : bool) (qname qtable : str) (qcols : list str) (where_ : option str) : str :=
  render_index_head unique qname qtable qcols ++ rpar ::
  match where_ with Some w => [sp] ++ kwWHERE ++ [sp] ++ w | None => [] end.

(* sqlite_master of every attached database: schema -> (index name -> sql); [None] as a query schema = main *)
Definition masters := list (str * list (str * str)).
Definition s_main : str := [109; 97; 105; 110].
Fixpoint assoc_s {A} (d : list (str * A)) (k : str) : option A :=
  match d with [] => None | (k', v) :: r => if str_eqb k k' then Some v else assoc_s r k end.
(* the schema the lookup query names: the table's schema when the query is qualified *)
Definition query_schema (qualified : bool) (schema : option str) : str :=
  match (if qualified then schema else None) with Some s => s | None => s_main end.
Definition reflect_where (qualified : bool) (ms : masters) (schema : option str) (iname : str) : option str :=
  match assoc_s ms (query_schema qualified schema) with
  | Some m => match assoc_s m iname with Some sql => pred_search sql | None => None end
  | None => None
  end.

(* no attempt of the pattern succeeds at a ")" inside the head (index/table/column names may contain anything) *)
Fixpoint iclean (s t : str) : bool :=
  match s with
  | [] => true
  | c :: s' => (if c =? rpar then is_none (pred_after_paren (s' ++ t)) else true) && iclean s' t
  end.
Definition pred_ok (w : str) : bool :=
  match w with c :: _ => negb (is_space c) | [] => false end.

Lemma pred_search_clean : forall s t, iclean s t = true -> pred_search (s ++ t) = pred_search t.
Proof.
  induction s as [|c s IH]; intros t H; [reflexivity|].
  cbn [iclean] in H. apply andb_true_iff in H. destruct H as [Hc Hs].
  cbn [app pred_search]. destruct (c =? rpar).
  - destruct (pred_after_paren (s ++ t)); [discriminate|]. apply IH. exact Hs.
  - apply IH. exact Hs.
Qed.

Lemma pred_after_paren_rendered : forall w, pred_ok w = true ->
  pred_after_paren ([sp] ++ kwWHERE ++ [sp] ++ w) = Some w.
Proof.
  intros [|c w] H; [discriminate|]. unfold pred_ok in H. apply negb_true_iff in H. rename H into Hs.
  unfold pred_after_paren. cbn [app]. rewrite spaces1_sp.
  change (drop_spaces (kwWHERE ++ sp :: c :: w)) with (kwWHERE ++ sp :: c :: w).
  rewrite ci_prefix_self. unfold pred_tail. change (is_space sp) with true. cbn match.
  cbn [best]. rewrite Hs. reflexivity.
Qed.

(* the predicate of a rendered partial index is read back, for every index name / table / column list that
   passes the boolean guard, and a non-partial index has none when its text is clean *)
Theorem index_pred_roundtrip : forall unique qname qtable qcols w,
  pred_ok w = true ->
  iclean (render_index_head unique qname qtable qcols) (rpar :: [sp] ++ kwWHERE ++ [sp] ++ w) = true ->
  pred_search (render_index unique qname qtable qcols (Some w)) = Some w.
Proof.
  intros unique qname qtable qcols w Hw Hc. unfold render_index.
  rewrite (pred_search_clean _ _ Hc). cbn [pred_search]. rewrite N.eqb_refl.
  rewrite (pred_after_paren_rendered w Hw). reflexivity.
Qed.

Theorem index_nopred_roundtrip : forall unique qname qtable qcols,
  iclean (render_index_head unique qname qtable qcols) [rpar] = true ->
  pred_search (render_index unique qname qtable qcols None) = None.
Proof.
  intros unique qname qtable qcols Hc. unfold render_index. rewrite (pred_search_clean _ _ Hc). reflexivity.
Qed.

(* ... through the catalog: the query must name the schema the index lives in *)
Theorem reflect_where_roundtrip : forall ms schema m iname unique qname qtable qcols where_,
  assoc_s ms (query_schema true schema) = Some m ->
  assoc_s m iname = Some (render_index unique qname qtable qcols where_) ->
  match where_ with
  | Some w => pred_ok w = true /\
              iclean (render_index_head unique qname qtable qcols) (rpar :: [sp] ++ kwWHERE ++ [sp] ++ w) = true
  | None => iclean (render_index_head unique qname qtable qcols) [rpar] = true
  end ->
  reflect_where true ms schema iname = where_.
Proof.
  intros ms schema m iname unique qname qtable qcols where_ Hm Hi Hg. unfold reflect_where. rewrite Hm, Hi.
  destruct where_ as [w|].
  - destruct Hg as [Hw Hc]. apply index_pred_roundtrip; assumption.
  - apply index_nopred_roundtrip. exact Hg.
Qed.

(* REFUTED for an unqualified query: an index of a table in an attached schema is looked up in main *)
Definition demo_sql : str :=
  render_index true [117; 113] [116] [[120]] (Some [120; 32; 62; 32; 48]).       (* CREATE UNIQUE INDEX uq ON t (x) WHERE x > 0 *)
Definition demo_masters : masters := [(s_main, []); ([97; 117; 120], [([117; 113], demo_sql)])].
Theorem unqualified_index_query_refuted :
  reflect_where true demo_masters (Some [97; 117; 120]) [117; 113] = Some [120; 32; 62; 32; 48] /\
  reflect_where false demo_masters (Some [97; 117; 120]) [117; 113] = None.
Proof. vm_compute. split; reflexivity. Qed.

(* a column as created: nullable flag, position in the primary key (0 = not part of it) *)
Record col := { c_nullable : bool; c_pk : N }.
(* SQLite's table_info for it: notnull iff the DDL said NOT NULL, i.e. iff not nullable *)
Definition table_info_notnull (c : col) : bool := negb (c_nullable c).
Definition reflect_nullable (rule : bool -> bool -> bool) (c : col) : bool :=
  rule (table_info_notnull c) (negb (c_pk c =? 0)).
(* reflect(create(T)) = T on `nullable`, for EVERY column - primary key members included *)
Theorem nullable_roundtrip : forall rule, (forall nn pk, rule nn pk = negb nn) ->
  forall c, reflect_nullable rule c = c_nullable c.
Proof. intros rule H c. unfold reflect_nullable, table_info_notnull. rewrite H. apply negb_involutive. Qed.
(* REFUTED for a rule that also looks at the primary key *)
Theorem nullable_pk_rule_refuted :
  reflect_nullable (fun nn pk => negb nn && negb pk) {| c_nullable := true; c_pk := 2 |} = false.
Proof. reflexivity. Qed.

(* a predicate spanning several lines is read back whole (/repo dd187db: the group is DOTALL) *)
Example index_pred_newline_roundtrip :
  pred_search (render_index false [105] [116] [[120]] (Some [34; 97; 10; 98; 34; 32; 62; 32; 48])) =
  Some [34; 97; 10; 98; 34; 32; 62; 32; 48].
Proof. vm_compute. reflexivity. Qed.
