(* C20 - UTF-8, percent coding, quote/unquote, int/str and sort_keys round trips *)
From Coq Require Import List NArith ZArith Bool Lia ZifyBool Permutation Decimal DecimalZ DecimalPos.
Import ListNotations.
From SAV.sql Require Import UrlCodec UrlListProofs.
Open Scope N_scope.

(* one unfolding step of the decoder with the tail abstract: rewriting with it unfolds the outermost call only *)
Lemma utf8_dec_cons : forall b0 t0,
  utf8_dec (b0 :: t0) = ltac:(let t := eval cbn [utf8_dec] in (utf8_dec (b0 :: t0)) in exact t).
Proof. reflexivity. Qed.

Lemma utf8_dec_2 : forall b0 b1 r, 0xC2 <= b0 < 0xE0 -> cont b1 = true ->
  utf8_dec (b0 :: b1 :: r) = (b0 - 0xC0) * 64 + (b1 - 0x80) :: utf8_dec r.
Proof.
  intros b0 b1 r H0 H1. rewrite utf8_dec_cons.
  rewrite !(proj2 (N.ltb_ge _ _)), (proj2 (N.ltb_lt _ _)), H1 by lia. reflexivity.
Qed.

Lemma utf8_dec_3 : forall b0 b1 b2 r, 0xE0 <= b0 < 0xF0 -> second3 b0 b1 = true -> cont b2 = true ->
  utf8_dec (b0 :: b1 :: b2 :: r) = ((b0 - 0xE0) * 64 + (b1 - 0x80)) * 64 + (b2 - 0x80) :: utf8_dec r.
Proof.
  intros b0 b1 b2 r H0 H1 H2. rewrite utf8_dec_cons.
  rewrite !(proj2 (N.ltb_ge _ _)), (proj2 (N.ltb_lt _ _)), H1, H2 by lia. reflexivity.
Qed.

Lemma utf8_dec_4 : forall b0 b1 b2 b3 r,
  0xF0 <= b0 < 0xF5 -> second4 b0 b1 = true -> cont b2 = true -> cont b3 = true ->
  utf8_dec (b0 :: b1 :: b2 :: b3 :: r)
  = (((b0 - 0xF0) * 64 + (b1 - 0x80)) * 64 + (b2 - 0x80)) * 64 + (b3 - 0x80) :: utf8_dec r.
Proof.
  intros b0 b1 b2 b3 r H0 H1 H2 H3. rewrite utf8_dec_cons.
  rewrite !(proj2 (N.ltb_ge _ _)), (proj2 (N.ltb_lt _ _)), H1, H2, H3 by lia. reflexivity.
Qed.

Lemma cont_digit : forall d, d < 64 -> cont (0x80 + d) = true.
Proof. intros d H. unfold cont. lia. Qed.

Definition byte (b : N) : bool := b <? 256.

Lemma digit64 : forall x, exists q d, x / 64 = q /\ x mod 64 = d /\ x = 64 * q + d /\ d < 64.
Proof.
  intros x. exists (x / 64), (x mod 64). repeat split; [apply N.div_mod' | apply N.mod_lt; discriminate].
Qed.

Lemma utf8_char_ok : forall c, scalar c = true ->
  forallb byte (utf8_char c) = true /\ forall r, utf8_dec (utf8_char c ++ r) = c :: utf8_dec r.
Proof.
  intros c Hs. unfold scalar in Hs. unfold utf8_char, byte.
  destruct (N.ltb_spec c 0x80) as [H1|H1].
  { split; [cbn [forallb]; lia|]. intros r. cbn [List.app utf8_dec]. replace (c <? 0x80) with true by lia. reflexivity. }
  (* c / 64^k as iterated quotients; once the digits have names all that is left is linear *)
  change 4096 with (64 * 64). change 262144 with (64 * 64 * 64). rewrite <- !N.div_div by discriminate.
  destruct (digit64 c) as [q1 [d0 [-> [-> [Hc Hd0]]]]]. destruct (digit64 q1) as [q2 [d1 [-> [-> [Hq1 Hd1]]]]].
  destruct (digit64 q2) as [q3 [d2 [-> [-> [Hq2 Hd2]]]]].
  destruct (N.ltb_spec c 0x800) as [H2|H2]; [|destruct (N.ltb_spec c 0x10000) as [H3|H3]];
    (split; [cbn [forallb]; lia|]); intros r; cbn [List.app].
  - rewrite utf8_dec_2; [f_equal; lia | lia | exact (cont_digit d0 Hd0)].
  - (* second byte: c is not overlong, not a surrogate (and at most 10FFFF below) *)
    rewrite utf8_dec_3; [f_equal; lia | lia | | exact (cont_digit d0 Hd0)].
    unfold second3, cont. destruct (N.eqb_spec (0xE0 + q2) 0xE0); [|destruct (N.eqb_spec (0xE0 + q2) 0xED)]; lia.
  - rewrite utf8_dec_4; [f_equal; lia | lia | | exact (cont_digit d1 Hd1) | exact (cont_digit d0 Hd0)].
    unfold second4, cont. destruct (N.eqb_spec (0xF0 + q3) 0xF0); [|destruct (N.eqb_spec (0xF0 + q3) 0xF4)]; lia.
Qed.

Lemma utf8_roundtrip : forall s, forallb scalar s = true -> utf8_dec (utf8 s) = s.
Proof. apply flat_map_roundtrip; [reflexivity|]. intros c r Hc. exact (proj2 (utf8_char_ok c Hc) r). Qed.

Lemma utf8_bytes : forall s, forallb scalar s = true -> forallb byte (utf8 s) = true.
Proof. apply forallb_flat_map. intros c Hc. exact (proj1 (utf8_char_ok c Hc)). Qed.

Lemma hexval_hexdig : forall n, n < 16 -> hexval (hexdig n) = Some n.
Proof.
  intros n Hn. unfold hexdig. destruct (N.ltb_spec n 10) as [H|H]; unfold hexval.
  - replace ((48 <=? 48 + n) && (48 + n <=? 57)) with true by lia. f_equal. lia.
  - replace ((48 <=? 55 + n) && (55 + n <=? 57)) with false by lia.
    replace ((65 <=? 55 + n) && (55 + n <=? 70)) with true by lia. f_equal. lia.
Qed.

Lemma mem_false_neq : forall c l, mem c l = false -> forall x, In x l -> x <> c.
Proof.
  intros c l H x Hin ->. unfold mem in H. assert (existsb (N.eqb c) l = true); [|congruence].
  apply existsb_exists. exists c. split; [exact Hin | apply N.eqb_refl].
Qed.

(* [lia] is given the Euclidean division equations for b / 16 and b mod 16, down to [quote_byte_chars] only *)
Ltac Zify.zify_post_hook ::= Z.to_euclidean_division_equations.

Lemma pct_decode_byte : forall safe, mem 37 safe = false -> forall b r, byte b = true ->
  pct_decode (quote_byte safe b ++ r) = b :: pct_decode r.
Proof.
  intros safe Hsafe b r Hb. unfold byte in Hb. unfold quote_byte.
  destruct (always_safe b || mem b safe) eqn:E; cbn [List.app pct_decode].
  - destruct (N.eqb_spec b 37) as [->|_]; [|reflexivity]. rewrite Hsafe in E. discriminate E.
  - rewrite N.eqb_refl, !hexval_hexdig by lia. f_equal. lia.
Qed.

Lemma pct_roundtrip : forall safe bs, mem 37 safe = false -> forallb byte bs = true ->
  pct_decode (flat_map (quote_byte safe) bs) = bs.
Proof. intros safe bs Hsafe. apply flat_map_roundtrip; [reflexivity | exact (pct_decode_byte safe Hsafe)]. Qed.

Definition qchar (safe : list N) (c : N) : bool := always_safe c || mem c safe || (c =? 37).

Lemma hexdig_safe : forall n, n < 16 -> always_safe (hexdig n) = true.
Proof. intros n H. unfold hexdig, always_safe. destruct (N.ltb_spec n 10); lia. Qed.

Lemma quote_byte_chars : forall safe b, byte b = true -> forallb (qchar safe) (quote_byte safe b) = true.
Proof.
  intros safe b Hb. unfold byte in Hb. unfold quote_byte, qchar.
  destruct (always_safe b || mem b safe) eqn:E; cbn [forallb].
  - rewrite E. reflexivity.
  - rewrite !hexdig_safe by lia. cbn. rewrite orb_true_r. reflexivity.
Qed.

Ltac Zify.zify_post_hook ::= idtac.

Lemma quote_bytes_chars : forall safe bs, forallb byte bs = true ->
  forallb (qchar safe) (flat_map (quote_byte safe) bs) = true.
Proof. intros safe. apply forallb_flat_map. exact (quote_byte_chars safe). Qed.

Lemma quote_some : forall safe s, forallb scalar s = true ->
  quote safe s = Some (flat_map (quote_byte safe) (utf8 s)).
Proof. intros safe s H. unfold quote, utf8_strict. rewrite H. reflexivity. Qed.

Lemma quote_inv : forall safe s q, quote safe s = Some q ->
  forallb scalar s = true /\ q = flat_map (quote_byte safe) (utf8 s).
Proof.
  intros safe s q H. unfold quote, utf8_strict in H. destruct (forallb scalar s); [|discriminate].
  inversion H. split; reflexivity.
Qed.

Lemma quote_chars : forall safe s q, quote safe s = Some q -> forallb (qchar safe) q = true.
Proof. intros safe s q H. apply quote_inv in H as [E ->]. apply quote_bytes_chars, utf8_bytes, E. Qed.

Definition ascii (c : N) : bool := c <? 128.

Lemma unq_go_ascii : forall s acc, forallb ascii s = true -> unq_go acc s = flush (List.rev s ++ acc).
Proof.
  induction s as [|c s IH]; intros acc H; [reflexivity|]. cbn in H. apply andb_true_iff in H as [Hc Hs].
  cbn [unq_go]. unfold ascii in Hc. rewrite Hc, (IH _ Hs). cbn [List.rev]. rewrite <- app_assoc. reflexivity.
Qed.

Lemma unquote_ascii : forall s, forallb ascii s = true -> unquote s = utf8_dec (pct_decode s).
Proof.
  intros s H. unfold unquote. rewrite (unq_go_ascii s [] H). unfold flush.
  rewrite app_nil_r, rev_involutive. reflexivity.
Qed.

Lemma qchar_ascii : forall safe, forallb ascii safe = true -> forall c, qchar safe c = true -> ascii c = true.
Proof.
  intros safe Hsafe c H. unfold qchar in H. unfold ascii.
  destruct (always_safe c) eqn:E1; [unfold always_safe in E1; lia|].
  destruct (c =? 37) eqn:E3; [lia|]. rewrite orb_false_r in H. cbn in H.
  unfold mem in H. apply existsb_exists in H as [x [Hin Hx]]. apply N.eqb_eq in Hx. subst x.
  rewrite forallb_forall in Hsafe. exact (Hsafe c Hin).
Qed.

(* quote writes ASCII only, so unquote sees one run: percent-decode it, then UTF-8-decode it *)
Theorem unquote_quote : forall safe s q, forallb ascii safe = true -> mem 37 safe = false ->
  quote safe s = Some q -> unquote q = s.
Proof.
  intros safe s q Ha H37 H. pose proof (quote_chars safe s q H) as Hq. apply quote_inv in H as [E ->].
  rewrite unquote_ascii by exact (forallb_impl _ _ _ (qchar_ascii safe Ha) Hq).
  rewrite (pct_roundtrip safe _ H37 (utf8_bytes s E)). exact (utf8_roundtrip s E).
Qed.

Lemma replace_id : forall a b s, forallb (nb a) s = true -> replace a b s = s.
Proof.
  induction s as [|c s IH]; intros H; [reflexivity|]. cbn in H. apply andb_true_iff in H as [Hc Hs].
  cbn. rewrite (nb_eqb a c Hc). f_equal. exact (IH Hs).
Qed.

Lemma replace_back : forall a b s, forallb (nb b) s = true -> replace b a (replace a b s) = s.
Proof.
  induction s as [|c s IH]; intros H; [reflexivity|]. cbn in H. apply andb_true_iff in H as [Hc Hs].
  cbn. destruct (N.eqb_spec c a) as [->|Hne]; [rewrite N.eqb_refl | rewrite (nb_eqb b c Hc)]; f_equal; exact (IH Hs).
Qed.

Definition qpchar (c : N) : bool := always_safe c || (c =? 43) || (c =? 37).

Lemma quote_plus_inv : forall s q, quote_plus s = Some q ->
  exists q0, quote [32] s = Some q0 /\ q = replace 32 43 q0.
Proof.
  intros s q H. unfold quote_plus in H. destruct (quote [32] s) as [q0|]; [|discriminate].
  inversion H. exists q0. split; reflexivity.
Qed.

Lemma quote_plus_chars : forall s q, quote_plus s = Some q -> forallb qpchar q = true.
Proof.
  intros s q H. apply quote_plus_inv in H as [q0 [E ->]]. apply quote_chars in E.
  induction q0 as [|c q0 IH]; [reflexivity|]. cbn in E. apply andb_true_iff in E as [Hc Hq].
  cbn [replace map forallb]. fold (replace 32 43 q0). rewrite (IH Hq), andb_true_r.
  unfold qchar, mem in Hc. cbn in Hc. unfold qpchar.
  destruct (N.eqb_spec c 32) as [->|Hne]; [reflexivity|]. unfold always_safe in *. lia.
Qed.

Theorem unquote_plus_quote_plus : forall s q, quote_plus s = Some q -> unquote_plus q = s.
Proof.
  intros s q H. apply quote_plus_inv in H as [q0 [E ->]]. unfold unquote_plus. rewrite replace_back.
  - exact (unquote_quote [32] s q0 eq_refl eq_refl E).
  - apply (forallb_impl (qchar [32])); [|exact (quote_chars _ _ _ E)].
    intros c Hc. unfold qchar, mem in Hc. cbn in Hc. unfold nb, always_safe in *. lia.
Qed.

Lemma quote_plus_some : forall s, forallb scalar s = true -> exists q, quote_plus s = Some q.
Proof. intros s H. unfold quote_plus. rewrite (quote_some [32] s H). eexists; reflexivity. Qed.

Lemma digits_uint_digits : forall d, digits_uint (uint_digits d) = Some d.
Proof. induction d; cbn [uint_digits digits_uint]; try rewrite IHd; reflexivity. Qed.

Lemma uint_digits_head : forall d, d <> Nil ->
  exists c r, uint_digits d = c :: r /\ (c =? 45) = false /\ (c =? 43) = false.
Proof. destruct d; intros H; try contradiction; cbn [uint_digits]; eexists; eexists; repeat split. Qed.

Lemma to_int_nonnil : forall z, match Z.to_int z with Pos d | Neg d => d <> Nil end.
Proof. destruct z; cbn; [discriminate | apply DecimalPos.Unsigned.to_uint_nonnil ..]. Qed.

Theorem py_int_str_of_Z : forall z, py_int (str_of_Z z) = Some z.
Proof.
  intros z. unfold str_of_Z. pose proof (DecimalZ.of_to z) as Hz. pose proof (to_int_nonnil z) as Hd.
  destruct (Z.to_int z) as [d|d]; destruct (uint_digits_head d Hd) as [c [r [Hcr [H45 H43]]]]; unfold py_int.
  - rewrite Hcr, H45, H43, <- Hcr, digits_uint_digits. cbn [option_map]. rewrite Hz. reflexivity.
  - rewrite N.eqb_refl, Hcr. cbn [is_nil]. rewrite <- Hcr, digits_uint_digits. cbn [option_map]. rewrite Hz. reflexivity.
Qed.

Lemma uint_digits_chars : forall d, forallb (fun c => (48 <=? c) && (c <=? 57)) (uint_digits d) = true.
Proof. induction d; cbn [uint_digits forallb]; try rewrite IHd; reflexivity. Qed.

Lemma str_of_Z_chars : forall z, forallb (fun c => ((48 <=? c) && (c <=? 57)) || (c =? 45)) (str_of_Z z) = true.
Proof.
  intros z. unfold str_of_Z. destruct (Z.to_int z); cbn [forallb];
  apply (forallb_impl (fun c => (48 <=? c) && (c <=? 57))); try apply uint_digits_chars; intros; lia.
Qed.

Lemma insert_key_perm : forall k l, Permutation (insert_key k l) (k :: l).
Proof.
  induction l as [|y l IH]; cbn [insert_key]; [apply Permutation_refl|].
  destruct (str_leb k y); [apply Permutation_refl|].
  eapply Permutation_trans; [apply perm_skip, IH | apply perm_swap].
Qed.

Theorem sort_keys_perm : forall l, Permutation (sort_keys l) l.
Proof.
  induction l as [|k l IH]; [apply Permutation_refl|]. unfold sort_keys. cbn [fold_right].
  eapply Permutation_trans; [apply insert_key_perm | apply perm_skip, IH].
Qed.
