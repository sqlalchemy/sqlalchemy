(* C56 - concrete test vectors: the two regions where the implementation leaves the insert-or-update model, their
   agreeing neighbours, and non-vacuity examples for the guarded theorems. *)
From Coq Require Import List ZArith Bool Permutation.
Import ListNotations.
From SAV.sql Require Import Upsert UpsertAsm UpsertParse UpsertSpec.
Open Scope Z_scope.

Definition w_cols : list coldesc := [mkcol 0 0; mkcol 9 1; mkcol 2 2; mkcol 3 3].
Definition w_ixs : list uindex := [mkix 8 [0%nat] None; mkix 6 [1%nat] None].
Definition w_gt_w0 (inl : bool) : pred := Pred CGt (EAtom (ACol 3)) (EAtom (AConst inl 0)).
Definition w_ixs_partial : list uindex :=
  [mkix 8 [0%nat] None; mkix 6 [1%nat] None; mkix 7 [2%nat; 3%nat] (Some (w_gt_w0 true))].

Ltac nodupZ := repeat (constructor; [simpl; intuition discriminate|]); constructor.

Lemma w_cols_wf : wf_cols w_cols.
Proof. split; simpl; nodupZ. Qed.

Definition idf (l : list row) : list row := l.
Lemma idf_perm : forall l, Permutation (idf l) l.
Proof. intros; apply Permutation_refl. Qed.

(* bindparam() in DO UPDATE ... WHERE, RETURNING without sort_by_parameter_order: executed row at a time (finding
   C56-where-bindparam-batched, repaired by repo e3b606f), not batched with the first parameter set's value *)
Definition wa_sa : list sa_clause :=
  [SAUpdate (STElems [TECol 0] None) [(KStr 3, EAtom (AExc 2))]
            (Some (Pred CLt (EAtom (ACol 2)) (EAtom (APar 0))))].
Definition wa_t : table := [[Some 1; Some 0; Some 1; Some 0]; [Some 2; Some 1; Some 2; Some 0]].
Definition wa_ps : list prow :=
  [([Some 1; None; Some 5; None], [Some 9; None]); ([Some 2; None; Some 7; None], [Some 0; None])].

Example where_bindparam_unsorted_ok :
  exists cls, spec_of w_cols wa_sa = Some cls /\
    batched false true false (length wa_ps) wa_sa = false /\
    exec_impl idf true false w_cols w_ixs wa_sa true false 1000 wa_t wa_ps = upsert_spec w_ixs cls wa_t wa_ps /\
    upsert_spec w_ixs cls wa_t wa_ps =
      Ok ([[Some 1; Some 0; Some 1; Some 5]; [Some 2; Some 1; Some 2; Some 0]], [[Some 1; Some 0; Some 1; Some 5]]).
Proof. eexists. split; [vm_compute; reflexivity|]. split; [reflexivity|]. split; vm_compute; reflexivity. Qed.

(* the same executemany with sort_by_parameter_order=True is executed row by row and agrees *)
Example where_bindparam_sorted_ok :
  exists cls, spec_of w_cols wa_sa = Some cls /\
    exec_impl idf true false w_cols w_ixs wa_sa true true 1000 wa_t wa_ps = upsert_spec w_ixs cls wa_t wa_ps /\
    upsert_spec w_ixs cls wa_t wa_ps =
      Ok ([[Some 1; Some 0; Some 1; Some 5]; [Some 2; Some 1; Some 2; Some 0]], [[Some 1; Some 0; Some 1; Some 5]]).
Proof. eexists. split; [vm_compute; reflexivity|]. split; vm_compute; reflexivity. Qed.

(* SQLite: a bound literal inside index_where makes every executemany fail *)
Definition wb_sa : list sa_clause := [SANothing (STElems [TECol 2; TECol 3] (Some (w_gt_w0 false)))].
Definition wb_ps : list prow :=
  [([Some 1; None; Some 1; Some 1], [None; None]); ([Some 2; None; Some 1; Some 1], [None; None])].

Lemma index_where_literal_executemany_refuted :
  exists cls, spec_of w_cols wb_sa = Some cls /\ Forall sets_nodup cls /\ chain_ok wb_sa = true /\
    batch_safe wb_sa = true /\
    exec_impl idf true false w_cols w_ixs_partial wb_sa false false 1000 [] wb_ps = Err EInvalidRequest /\
    upsert_spec w_ixs_partial cls [] wb_ps = Ok ([[Some 1; None; Some 1; Some 1]], [[Some 1; None; Some 1; Some 1]]).
Proof.
  eexists. split; [vm_compute; reflexivity|]. split; [repeat constructor|].
  split; [reflexivity|]. split; [reflexivity|]. split; vm_compute; reflexivity.
Qed.

(* one parameter set at a time the same statement works *)
Example index_where_literal_single_ok :
  exists cls, spec_of w_cols wb_sa = Some cls /\
    exec_impl idf true false w_cols w_ixs_partial wb_sa false false 1000 [] (firstn 1 wb_ps)
    = upsert_spec w_ixs_partial cls [] (firstn 1 wb_ps).
Proof. eexists. split; vm_compute; reflexivity. Qed.

(* PostgreSQL with an embedded VALUES counter: bindparam() in a SET value, sort_by_parameter_order:
   still batched, one SET parameter for all rows *)
Definition wc_sa : list sa_clause :=
  [SAUpdate (STElems [TECol 1] None) [(KStr 3, EAtom (APar 0))] None].
Definition wc_t : table := [[Some 1; Some 1; Some 0; Some 0]; [Some 2; Some 2; Some 0; Some 0]].
Definition wc_ps : list prow :=
  [([Some 7; Some 1; Some 0; Some 0], [Some 5; None]); ([Some 8; Some 2; Some 0; Some 0], [Some 6; None])].

Lemma pg_embedded_counter_set_bindparam_refuted :
  exists cls, spec_of w_cols wc_sa = Some cls /\ Forall sets_nodup cls /\ chain_ok wc_sa = true /\
    ~ res_equiv (exec_impl idf false true w_cols w_ixs wc_sa true true 1000 wc_t wc_ps)
                (upsert_spec w_ixs cls wc_t wc_ps).
Proof.
  eexists. split; [vm_compute; reflexivity|]. split; [repeat constructor; simpl; intuition|].
  split; [reflexivity|].
  intros H. vm_compute in H. destruct H as [H _]. discriminate H.
Qed.

(* without the embedded counter the same executemany is downgraded to row-at-a-time and agrees *)
Example pg_set_bindparam_no_counter_ok :
  exists cls, spec_of w_cols wc_sa = Some cls /\
    exec_impl idf false false w_cols w_ixs wc_sa true true 1000 wc_t wc_ps = upsert_spec w_ixs cls wc_t wc_ps /\
    upsert_spec w_ixs cls wc_t wc_ps =
      Ok ([[Some 1; Some 1; Some 0; Some 5]; [Some 2; Some 2; Some 0; Some 6]],
          [[Some 1; Some 1; Some 0; Some 5]; [Some 2; Some 2; Some 0; Some 6]]).
Proof. eexists. split; [vm_compute; reflexivity|]. split; vm_compute; reflexivity. Qed.

(* non-vacuity of the guarded main theorem: a batched, two-clause upsert with a partial index, duplicates
   inside the executemany, SET keys given as column key / Column object / column name *)
Definition wd_cols : list coldesc := [mkcol 0 0; mkcol 1 1; mkcol 4 2; mkcol 3 3].
Definition wd_sa : list sa_clause :=
  [SANothing (STElems [TECol 3; TEStr 2] (Some (w_gt_w0 true)));
   SAUpdate (STElems [TECol 0] None)
            [(KStr 3, EAdd (ACol 3) (AConst false 1)); (KStr 2, EAtom (AExc 2)); (KCol 1, EAtom ANull)]
            (Some (Pred CLt (EAtom (ACol 2)) (EAtom (AExc 2))))].
Definition wd_t : table := [[Some 1; Some 1; Some 1; Some 0]; [Some 2; Some 2; Some 5; Some 1]].
Definition wd_ps : list prow :=
  [([Some 1; Some 7; Some 3; Some 0], []); ([Some 3; Some 8; Some 5; Some 1], []);
   ([Some 1; Some 9; Some 4; Some 0], []); ([Some 4; Some 1; Some 0; Some 0], [])].

Example guarded_batched_example :
  exists cls, spec_of wd_cols wd_sa = Some cls /\ Forall sets_nodup cls /\ chain_ok wd_sa = true /\
    wf_cols wd_cols /\ batched false true false (length wd_ps) wd_sa = true /\ batch_safe wd_sa = true /\
    exec_impl idf true false wd_cols w_ixs_partial wd_sa true false 2 wd_t wd_ps =
      Ok ([[Some 1; None; Some 4; Some 2]; [Some 2; Some 2; Some 5; Some 1]; [Some 4; Some 1; Some 0; Some 0]],
          [[Some 1; None; Some 3; Some 1]; [Some 1; None; Some 4; Some 2]; [Some 4; Some 1; Some 0; Some 0]]).
Proof.
  eexists. split; [vm_compute; reflexivity|].
  split; [repeat constructor; simpl; intuition discriminate|]. split; [reflexivity|].
  split; [split; simpl; nodupZ|]. split; [reflexivity|]. split; [reflexivity|]. vm_compute. reflexivity.
Qed.

(* MySQL: ordered list vs dict *)
Example mysql_ordered_example :
  r_mysql wd_cols false (my_asm wd_cols true [(3, EAtom (AExc 2)); (5, EAtom ANull); (1, EAdd (ACol 1) (AExc 1))])
  = [TKw KON; TKw KDUPLICATE; TKw KKEY; TKw KUPDATE;
     TId 3; TEq; TKw KVALUES; TLp; TId 2; TRp; TComma;
     TId 1; TEq; TLp; TId ID_T; TDot; TId 1; TPlus; TKw KVALUES; TLp; TId 1; TRp; TRp].
Proof. vm_compute. reflexivity. Qed.
