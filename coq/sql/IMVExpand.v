(* C12: the per-batch parameter expansion of IMV.v - which value the database binds to which
   placeholder of the rewritten statement (positional / numeric / named paramstyles). *)
From Coq Require Import List ZArith Bool Lia Arith ZifyBool.
Import ListNotations.
From SAV.sql Require Import IMV.
Open Scope Z_scope.

Lemma positions_from_bounds i mask x : In x (positions_from i mask) -> (i <= x < i + length mask)%nat.
Proof.
  revert i. induction mask as [|m t IH]; intros i H; cbn in H; [destruct H|].
  destruct m; [destruct H as [<-|H]|]; cbn [length]; try lia; apply IH in H; lia.
Qed.
Lemma fold_left_keeps {A B} (f : A -> B -> A) (I : A -> Prop) l a :
  I a -> (forall a b, I a -> In b l -> I (f a b)) -> I (fold_left f l a).
Proof.
  revert a. induction l as [|b t IH]; intros a Ha Hf; cbn; [exact Ha|].
  apply IH; [apply Hf; [exact Ha|left; reflexivity]|]. intros a' b' Ha' Hb'. apply Hf; [exact Ha'|right; exact Hb'].
Qed.
Lemma lower_le_upper mask : (lower_index mask <= upper_index mask <= length mask)%nat.
Proof.
  unfold lower_index, upper_index, expand_positions.
  destruct (positions_from 0 mask) as [|x r] eqn:E; [lia|].
  assert (Hpos : forall y, In y (x :: r) -> (y < length mask)%nat)
    by (intros y Hy; rewrite <- E in Hy; apply positions_from_bounds in Hy; lia).
  assert (fold_left Nat.min r x <= x)%nat by (apply (fold_left_keeps Nat.min (fun a => (a <= x)%nat)); intros; lia).
  assert (x <= fold_left Nat.max r x < length mask)%nat.
  { apply (fold_left_keeps Nat.max (fun a => (x <= a < length mask)%nat)).
    - pose proof (Hpos x (in_eq _ _)). lia.
    - intros a b Ha Hb. pose proof (Hpos b (in_cons _ _ _ Hb)). lia. }
  lia.
Qed.

Lemma slice_all {A} (l : list A) : slice 0 (length l) l = l.
Proof. unfold slice. rewrite Nat.sub_0_r. cbn [skipn]. apply firstn_all. Qed.
Lemma slice_length {A} lo hi (l : list A) : (lo <= hi <= length l)%nat -> length (slice lo hi l) = (hi - lo)%nat.
Proof. intros H. unfold slice. rewrite firstn_length, skipn_length. lia. Qed.

Lemma skipn_app_exact {A} (pre l : list A) : skipn (length pre) (pre ++ l) = l.
Proof. induction pre; cbn; [reflexivity|assumption]. Qed.
Lemma firstn_app_exact {A} (pre l : list A) : firstn (length pre) (pre ++ l) = pre.
Proof. induction pre as [|a t IH]; cbn; [reflexivity|]. rewrite IH. reflexivity. Qed.

(* for i < n, the i-th group of k consecutive values after the first lo ones *)
Definition db_groups {A} (lo k n : nat) (params : list A) : list (list A) :=
  map (fun i => slice (lo + i * k) (lo + (i + 1) * k) params) (seq 0 n).

Lemma db_groups_concat {A} (k : nat) (ls : list (list A)) : Forall (fun l => length l = k) ls ->
  forall pre post, db_groups (length pre) k (length ls) (pre ++ concat ls ++ post) = ls.
Proof.
  induction 1 as [|l r Hl Hr IH]; intros pre post; [reflexivity|].
  unfold db_groups. cbn [length seq map concat]. f_equal.
  - unfold slice. replace (length pre + (0 + 1) * k - (length pre + 0 * k))%nat with k by lia.
    rewrite Nat.mul_0_l, Nat.add_0_r, skipn_app_exact, <- app_assoc, <- Hl. apply firstn_app_exact.
  - rewrite <- seq_shift, map_map.
    specialize (IH (pre ++ l) post). unfold db_groups in IH.
    rewrite <- IH at 2. apply map_ext. intros i.
    rewrite app_length, Hl, <- !app_assoc. f_equal; lia.
Qed.

Lemma concat_length_uniform {A} (k : nat) (ls : list (list A)) : Forall (fun l => length l = k) ls ->
  length (concat ls) = (length ls * k)%nat.
Proof. induction 1 as [|l r Hl _ IH]; [reflexivity|]. cbn [concat length]. rewrite app_length, IH, Hl. reflexivity. Qed.

Lemma py_range_numeric lo n cbs :
  py_range (numeric_start lo) (numeric_end n cbs (numeric_start lo)) = zrange (lo + 1) (Z.to_nat (n * cbs)).
Proof. unfold py_range, numeric_start, numeric_end. f_equal. lia. Qed.

Record wf_layout (ly : layout) (items : list ptuple) : Prop := {
  wf_len : Forall (fun p => length p = length (l_mask ly)) items;     (* every tuple follows positiontup *)
  wf_count : l_num_ins ly = Z.of_nat (upper_index (l_mask ly) - lower_index (l_mask ly))
    (* the bind parameters counted inside VALUES are the contiguous block found in positiontup
       (the `assert len(all_expand_positions) == upper - lower` of the code) *)
}.

Section Positional.
Variable ly : layout.
Let lo := lower_index (l_mask ly).
Let hi := upper_index (l_mask ly).
Let k := (hi - lo)%nat.

(* one uniform description of the expansion, whichever of the two branches built
   replaced_parameters *)
Lemma expand_positional_eq b0 rest cbs : wf_layout ly (b0 :: rest) ->
  expand_positional ly (b0 :: rest) cbs = Ok (mkExpanded
    (firstn lo b0 ++ concat (map (slice lo hi) (b0 :: rest)) ++ skipn hi b0)
    (if l_embed ly then Z.of_nat (length (b0 :: rest)) else cbs)
    (if numeric_guard (l_numeric ly) (l_num_ins ly)
     then zrange (Z.of_nat lo + 1) (Z.to_nat (l_num_ins ly * cbs)) else [])
    (if l_embed ly then zrange 0 (length (b0 :: rest)) else [])).
Proof.
  intros [Hlen Hcnt]. unfold expand_positional. fold lo hi. rewrite py_range_numeric.
  destruct (l_num_ins ly =? Z.of_nat (length b0)) eqn:E; [|reflexivity].
  (* no parameters outside VALUES: every tuple is its own VALUES slice *)
  pose proof (lower_le_upper (l_mask ly)) as Hb. fold lo hi in Hb, Hcnt.
  assert (Hb0 : length b0 = length (l_mask ly)) by (inversion Hlen; assumption).
  assert (lo = 0%nat /\ hi = length b0) as [-> ->] by lia.
  assert (Hid : map (slice 0 (length b0)) (b0 :: rest) = b0 :: rest).
  { rewrite <- (map_id (b0 :: rest)) at 2. apply map_ext_in. intros p Hp.
    eapply Forall_forall in Hlen; [|exact Hp]. rewrite <- Hlen in Hb0. rewrite Hb0. apply slice_all. }
  rewrite skipn_all, Hid. reflexivity.
Qed.

(* what the database binds: the placeholders are consumed left to right; |lo| of them precede the
   VALUES clause, then come [groups] groups of k, then the rest *)
Theorem expand_positional_values items cbs b0 rest : items = b0 :: rest -> wf_layout ly items ->
  cbs = Z.of_nat (length items) ->
  exists e, expand_positional ly items cbs = Ok e /\
    e_groups e = Z.of_nat (length items) /\
    db_groups lo k (length items) (e_params e) = map (slice lo hi) items /\   (* VALUES row i = parameter set i *)
    firstn lo (e_params e) = firstn lo b0 /\                                    (* parameters left of VALUES *)
    skipn (lo + length items * k) (e_params e) = skipn hi b0 /\                 (* parameters right of VALUES *)
    (l_embed ly = true -> e_counters e = zrange 0 (length items)).
Proof.
  intros -> Hwf Hcbs. rewrite expand_positional_eq by exact Hwf. set (items := b0 :: rest) in *.
  eexists; split; [reflexivity|]. cbn [e_params e_groups e_counters].
  pose proof (lower_le_upper (l_mask ly)) as Hb. fold lo hi in Hb.
  destruct Hwf as [Hlen _].
  assert (Hlo : length (firstn lo b0) = lo) by (inversion Hlen; rewrite firstn_length; lia).
  assert (Hall : Forall (fun l => length l = k) (map (slice lo hi) items)).
  { apply Forall_forall. intros l Hl. apply in_map_iff in Hl as (p & <- & Hp).
    eapply Forall_forall in Hlen; [|exact Hp]. apply slice_length. lia. }
  split; [destruct (l_embed ly); [reflexivity|exact Hcbs]|]. split; [|split; [|split]].
  - rewrite <- Hlo at 1. rewrite <- (map_length (slice lo hi) items) at 1. apply db_groups_concat, Hall.
  - rewrite <- Hlo at 1. apply firstn_app_exact.
  - replace (lo + length items * k)%nat with (length (firstn lo b0 ++ concat (map (slice lo hi) items)))
      by (rewrite app_length, Hlo, (concat_length_uniform k _ Hall), map_length; reflexivity).
    rewrite app_assoc. apply skipn_app_exact.
  - intros ->. reflexivity.
Qed.

Lemma zrange_nth start n j : (j < n)%nat -> nth j (zrange start n) 0 = start + Z.of_nat j.
Proof.
  revert start j. induction n as [|m IH]; intros start j H; [lia|]. destruct j; cbn [zrange nth]; [lia|].
  rewrite IH by lia. lia.
Qed.
Lemma zrange_length start n : length (zrange start n) = n.
Proof. revert start. induction n; intros; cbn; [reflexivity|]. rewrite IHn. reflexivity. Qed.

(* numeric paramstyle: the VALUES placeholders are renumbered lo+1, lo+2, ... contiguously, so the
   j-th of them (group j / k, column j mod k) addresses replaced_parameters[lo + j], the very slot a
   left-to-right binding reads *)
Theorem numeric_renumber_contiguous items cbs b0 rest : items = b0 :: rest -> wf_layout ly items ->
  cbs = Z.of_nat (length items) -> l_numeric ly = true -> (0 < k)%nat ->
  exists e, expand_positional ly items cbs = Ok e /\
    length (e_numbers e) = (k * length items)%nat /\
    forall j, (j < k * length items)%nat -> nth j (e_numbers e) 0 = Z.of_nat (lo + j) + 1.
Proof.
  intros -> Hwf Hcbs Hnum Hk. rewrite expand_positional_eq by exact Hwf.
  eexists; split; [reflexivity|]. cbn [e_numbers]. destruct Hwf as [_ Hcnt]. fold lo hi k in Hcnt.
  unfold numeric_guard. rewrite Hnum. destruct (l_num_ins ly >? 0) eqn:E; [|lia]. cbn [andb].
  replace (Z.to_nat (l_num_ins ly * cbs)) with (k * length (b0 :: rest))%nat by lia.
  split; [apply zrange_length|]. intros j Hj. rewrite zrange_nth by exact Hj. lia.
Qed.
End Positional.

Section SelectMask.
Variable want : bool.
(* the local fixpoint of select_mask under a name, so that an induction can let the index run *)
Fixpoint sel (j : nat) (mask : list bool) (l : list Z) : list (nat * Z) :=
  match mask, l with
  | m :: mt, x :: lt => if Bool.eqb m want then (j, x) :: sel (S j) mt lt else sel (S j) mt lt
  | _, _ => []
  end.
Lemma sel_in base mask l j v : In (j, v) (sel base mask l) <->
  exists j0, j = (base + j0)%nat /\ nth_error mask j0 = Some want /\ nth_error l j0 = Some v.
Proof.
  revert base l. induction mask as [|m mt IH]; intros base [|x lt]; cbn [sel];
    try (split; [intros []|intros ([|j0] & _ & Hm & Hl); discriminate]).
  assert (Hhd : In (j, v) (if Bool.eqb m want then (base, x) :: sel (S base) mt lt else sel (S base) mt lt)
                <-> (m = want /\ j = base /\ x = v) \/ In (j, v) (sel (S base) mt lt)).
  { destruct (Bool.eqb m want) eqn:E; cbn [In].
    - apply eqb_prop in E. split; [intros [[= <- <-]|H]|intros [(_ & -> & ->)|H]]; auto.
    - apply eqb_false_iff in E. split; [auto|intros [(Hm & _)|H]; [contradiction|exact H]]. }
  rewrite Hhd, IH. split.
  - intros [(-> & -> & ->)|(j0 & -> & H)]; [exists 0%nat|exists (S j0)]; (split; [lia|auto]).
  - intros ([|j0] & -> & Hm & Hl); cbn in Hm, Hl.
    + left. injection Hm as ->. injection Hl as ->. repeat split. lia.
    + right. exists j0. split; [lia|auto].
Qed.
End SelectMask.

Lemma select_mask_in want mask (l : list Z) j v : In (j, v) (select_mask want mask l) <->
  nth_error mask j = Some want /\ nth_error l j = Some v.
Proof.
  change (select_mask want mask l) with (sel want 0 mask l). rewrite sel_in. split.
  - intros (j0 & -> & H). exact H.
  - intros H. exists j. split; [reflexivity|exact H].
Qed.

(* every entry of the per-row part carries the index of its parameter set *)
Lemma named_updates_in mask i0 items j oi v : In (j, oi, v) (named_updates mask i0 items) <->
  exists i' p, oi = Some (i0 + i')%nat /\ nth_error items i' = Some p /\
               nth_error mask j = Some true /\ nth_error p j = Some v.
Proof.
  revert i0. induction items as [|p r IH]; intros i0; cbn [named_updates].
  - split; [intros []|intros (i' & p & _ & H & _); destruct i'; discriminate].
  - rewrite in_app_iff, in_map_iff, IH. split.
    + intros [((j', v') & [= <- <- <-] & Hin)|(i' & p' & -> & H)].
      * apply select_mask_in in Hin. exists 0%nat, p. rewrite Nat.add_0_r. auto.
      * exists (S i'), p'. rewrite Nat.add_succ_r. auto.
    + intros ([|i'] & p' & -> & H2 & H3).
      * injection H2 as <-. left. exists (j, v). rewrite Nat.add_0_r. split; [reflexivity|].
        apply select_mask_in. exact H3.
      * right. exists i', p'. rewrite Nat.add_succ_r. auto.
Qed.

(* the dictionary passed to the DBAPI: "<key j>__<i>" holds parameter set i's value for key j (for the
   keys rendered inside VALUES), every other key holds the FIRST parameter set's value *)
Theorem expand_named_spec mask first items j oi v : In (j, oi, v) (expand_named mask first items) <->
  match oi with
  | None => nth_error mask j = Some false /\ nth_error first j = Some v
  | Some i => nth_error mask j = Some true /\ exists p, nth_error items i = Some p /\ nth_error p j = Some v
  end.
Proof.
  unfold expand_named. rewrite in_app_iff, in_map_iff, named_updates_in. destruct oi as [i|].
  - split.
    + intros [((j', v') & Heq & _)|(i' & p & [= ->] & H2 & H3 & H4)]; [discriminate|]. eauto.
    + intros (H3 & p & H2 & H4). right. exists i, p. auto.
  - split.
    + intros [((j', v') & [= <- <-] & Hin)|(i' & p & Heq & _)]; [|discriminate].
      apply select_mask_in, Hin.
    + intros H. left. exists (j, v). split; [reflexivity|]. apply select_mask_in, H.
Qed.

(* keys are unique, so the dictionary is well defined *)
Corollary expand_named_functional mask first items j oi v v' :
  In (j, oi, v) (expand_named mask first items) -> In (j, oi, v') (expand_named mask first items) -> v = v'.
Proof.
  rewrite !expand_named_spec. destruct oi as [i|].
  - intros (_ & p & H1 & H2) (_ & p' & H1' & H2'). congruence.
  - intros (_ & H) (_ & H'). congruence.
Qed.
