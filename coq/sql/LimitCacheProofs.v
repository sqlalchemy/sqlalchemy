(* C18 - the cache key fixes the value-free statement, and the form chosen is that statement's form with
   the values put back *)
From Coq Require Import List ZArith Bool.
Import ListNotations.
From SAV.sql Require Import Limit.
Open Scope Z_scope.

Lemma markers_key : forall s s', same_key s s' = true -> markers s = markers s'.
Proof.
  intros [lim off ord dis] [lim' off' ord' dis'] H. unfold same_key in H. cbn [s_lim s_off s_ordered s_distinct] in H.
  apply andb_prop in H as [H Hd]. apply andb_prop in H as [H Hr]. apply andb_prop in H as [Hl Ho].
  apply eqb_prop in Hd, Hr. subst ord' dis'. unfold markers. cbn [s_lim s_off s_ordered s_distinct]. f_equal.
  - destruct lim as [|[a av]|[a av] p t], lim' as [|[b bv]|[b bv] p' t']; try discriminate Hl; cbn [c_simple] in Hl.
    + reflexivity.
    + now apply eqb_prop in Hl as ->.
    + apply andb_prop in Hl as [Hl Ht]. apply andb_prop in Hl as [Hl Hp]. apply eqb_prop in Hl, Hp, Ht. now subst.
  - destruct off as [[a av]|], off' as [[b bv]|]; try discriminate Ho; [|reflexivity].
    cbn in Ho. now apply eqb_prop in Ho as ->.
Qed.

Lemma which_form_template : forall d s,
  which_form d s = subst (lim_val s) (opt0 (val (s_off s))) (which_form d (markers s)).
Proof.
  intros d [lim [[os o]|] ord dis]; destruct d as [| | | |b|b].
  (* the values stay variables; the constants -1, 0, 2^64-1 of the native forms are not markers.  Only
     mssql_form branches on more than the presence of the clauses. *)
  5, 11: destruct lim as [|[[] l]|[[] f] [] []], ord, b; reflexivity.
  all: destruct lim as [|[ls l]|[fs f] p t]; try destruct b; reflexivity.
Qed.
