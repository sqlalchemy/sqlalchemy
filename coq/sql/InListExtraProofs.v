(* C07, the remaining theorems of props/C07.v: negation, re-binding one compiled statement, the empty list (result and
   the documented failure), literal rendering at the edge of its guard, the bound values. *)
From Coq Require Import List ZArith NArith Bool Lia.
Import ListNotations.
From SAV.sql Require Import Val3 Val3Proofs InList InListSpecProofs InListCloseProofs InListLeepProofs
  InListRenderProofs InListMainProofs InListCacheProofs.

Lemma consistent_in_impl l k op : consistent (in_impl l k op) = true.
Proof. destruct op; reflexivity. Qed.
Lemma consistent_text_in l op : consistent (text_in l op) = true.
Proof. destruct op; reflexivity. Qed.
Lemma consistent_negate e : consistent e = true -> consistent (negate e) = true.
Proof.
  unfold consistent, negate, negate_in_binary. cbn [ie_bind ie_op ie_negate ie_text].
  intros H. apply andb_true_iff in H as [H1 H2]. apply inop_eqb_eq in H2. rewrite H2.
  destruct (bp_expand_op (ie_bind e)) as [o|] eqn:E.
  - apply andb_true_iff in H1 as [H1 H3]. apply inop_eqb_eq in H1. subst o.
    unfold opt_inop_eqb. destruct (ie_op e); cbn [inop_eqb negate_op bp_expand_op andb]; now rewrite H3.
  - cbn [opt_inop_eqb]. rewrite E. now destruct (ie_op e).
Qed.
Lemma negate_op_of e : consistent e = true -> ie_op (negate e) = negate_op (ie_op e).
Proof.
  unfold consistent. intros H. apply andb_true_iff in H as [_ H]. apply inop_eqb_eq in H. exact H.
Qed.
Lemma negate_wf e vals : wf (negate e) vals = wf e vals.
Proof.
  unfold wf, negate, negate_in_binary. cbn [ie_left ie_bind].
  destruct (opt_inop_eqb _ _); reflexivity.
Qed.
Lemma negate_left e : ie_left (negate e) = ie_left e.
Proof. reflexivity. Qed.

Lemma expected_negate op X R : expected (negate_op op) X R = not3 (expected op X R).
Proof. destruct op; cbn [negate_op expected]; [reflexivity|now rewrite not3_invol]. Qed.

Theorem negated_forms e : consistent e = true ->
  consistent (negate e) = true /\
  (forall vals, wf (negate e) vals = wf e vals) /\
  (forall x rows, expected (ie_op (negate e)) x rows = not3 (expected (ie_op e) x rows)).
Proof.
  intros H. split; [exact (consistent_negate e H)|]. split; [exact (negate_wf e)|].
  intros x rows. rewrite (negate_op_of e H). exact (expected_negate (ie_op e) x rows).
Qed.

Theorem rebound_correct d p e execs row :
  consistent e = true ->
  (forall ex, In ex execs -> wf e (fst ex) = true /\ empty_ok d e (fst ex) = true) ->
  exists xs, run_execs (compile d p e) (ctx_others p) execs = Ok xs /\
    Forall2 (fun ex x => exec_sem row x =
               EOk (ctx_value p row (expected e.(ie_op) (lhs_vals row e.(ie_left)) (map value_row (fst ex)))))
            execs xs.
Proof.
  intros Hc H. rewrite (run_execs_fresh _ _ execs _ (same_refl _)).
  induction execs as [|ex execs IH]; [exists []; split; constructor|].
  destruct (H ex (or_introl eq_refl)) as [H1 H2].
  destruct (bound_correct d p e (fst ex) row false Hc H1 H2) as (x & c' & Hp & Hsem).
  destruct IH as (xs & Hxs & HF); [intros; apply H; now right|].
  exists (x :: xs). split; [|now constructor].
  cbn [map all_ok]. unfold fresh at 1. rewrite Hp. cbn [bind fst]. now rewrite Hxs.
Qed.

Theorem empty_set_correct d e row pop :
  consistent e = true -> wf e [] = true -> empty_ok d e [] = true ->
  exists x c', process (compile d PosBare e) [] [] pop = Ok (x, c') /\
    exec_sem row x = EOk (match e.(ie_op) with OIn => TF | ONotIn => TT end).
Proof.
  intros Hc Hw He.
  destruct (bound_correct d PosBare e [] row pop Hc Hw He) as (x & c' & H1 & H2).
  exists x, c'. split; [exact H1|]. rewrite H2. now destruct (ie_op e).
Qed.

(* the documented failure: no empty-set expression for a bare expanding parameter *)
Theorem empty_unsupported_iff d e :
  empty_ok d e [] = false <->
  (d.(d_empty_op_override) = true \/ e.(ie_bind).(bp_expand_op) = None) /\ d.(d_empty) = ENone.
Proof.
  unfold empty_ok, visit_empty_set_op_expr, visit_empty_set_expr.
  destruct (d_empty_op_override d), (bp_expand_op (ie_bind e)) as [[|]|], (d_empty d);
    split; intros H; try discriminate; try reflexivity; try (split; [auto|reflexivity]);
    destruct H as [[H|H] H']; discriminate.
Qed.

Theorem empty_unsupported_raises d p e pop :
  empty_ok d e [] = false ->
  process (compile d p e) (ctx_others p) [] pop = Raise NotImplementedError.
Proof.
  intros H. unfold empty_ok in H.
  destruct (visit_empty_set_op_expr d (type_count (ie_bind e)) (bp_expand_op (ie_bind e))) as [E|ex] eqn:HE; [discriminate|].
  assert (ex = NotImplementedError).
  { unfold visit_empty_set_op_expr, visit_empty_set_expr in HE.
    destruct (d_empty_op_override d), (bp_expand_op (ie_bind e)) as [[|]|], (d_empty d); congruence. }
  subst ex.
  pose proof (process_compile d p e [] pop) as P. unfold leep in P. now rewrite HE in P.
Qed.

Definition row_null : N -> sv := fun _ => SNull.
(* tuple_(x, y).in_([]) rendered literally on SQLite is the bare empty-set subquery (no "VALUES" before it, since
   a8e8272) and, like the bound form, FALSE even for NULL operands *)
Example literal_empty_tuple_fixed :
  let e := in_impl (LTuple [1%N; 2%N]) (KTuple 2) OIn in
  consistent e = true /\ wf e [] = true /\ empty_ok sqlite_dialect e [] = true /\
  literal_guard sqlite_dialect e [] = true /\
  (exists x c', process (compile sqlite_dialect PosBare e) [] [] false = Ok (x, c') /\ exec_sem row_null x = EOk TF) /\
  exists ts, compile_literal_stmt sqlite_dialect PosBare e [] = Ok ts /\ exec_literal row_null ts = EOk TF.
Proof.
  cbv zeta. repeat split; try reflexivity.
  - eexists _, _. split; vm_compute; reflexivity.
  - eexists. split; vm_compute; reflexivity.
Qed.

Example literal_nulltype_tuple_refuted :
  let e := in_impl (LTuple [1%N; 2%N]) KNull OIn in
  let vals := [VTuple [SInt 1; SInt 1]] in
  consistent e = true /\ wf e vals = true /\ literal_guard sqlite_dialect e vals = false /\
  (exists x c', process (compile sqlite_dialect PosBare e) [] vals false = Ok (x, c') /\
                exec_sem (fun _ => SInt 1) x = EOk TT) /\
  compile_literal_stmt sqlite_dialect PosBare e vals = Raise AttributeError.
Proof.
  cbv zeta. repeat split; try reflexivity.
  eexists _, _. split; vm_compute; reflexivity.
Qed.

Theorem literal_nulltype_tuple_refuted_ex :
  exists d e vals row,
    consistent e = true /\ wf e vals = true /\ literal_guard d e vals = false /\
    (exists x c', process (compile d PosBare e) [] vals false = Ok (x, c') /\ exec_sem row x = EOk TT) /\
    compile_literal_stmt d PosBare e vals = Raise AttributeError.
Proof.
  exists sqlite_dialect, (in_impl (LTuple [1%N; 2%N]) KNull OIn), [VTuple [SInt 1; SInt 1]], (fun _ => SInt 1).
  exact literal_nulltype_tuple_refuted.
Qed.

(* the bound parameters are exactly the list: one per value (k per k-tuple), the same values in the same order, for
   EVERY length (no padding, truncation or de-duplication); for scalars also one placeholder per parameter *)
Theorem bound_values_exact d b vals :
  vals <> [] ->
  (all_scalar vals = true -> tuple_branch b vals = false ->
   exists tu repl, leep d b vals = Ok (tu, repl) /\
     map snd tu = map (fun v => match v with VScalar s => s | VTuple _ => SNull end) vals /\
     length tu = length vals /\ repl = bind_items d tu) /\
  (forall k, all_tuple k vals = true -> tuple_branch b vals = true ->
   exists tu repl, leep d b vals = Ok (tu, repl) /\
     map snd tu = concat (map value_row vals) /\ length tu = (length vals * k)%nat).
Proof.
  intros Hne. split.
  - intros Hs Hb. rewrite (leep_scalar d b vals Hne Hs Hb). cbv zeta. eexists _, _. split; [reflexivity|].
    rewrite tu_scalar_snd. split; [reflexivity|]. split; [|reflexivity].
    unfold tu_scalar. rewrite map_length, enum_from_length. apply map_length.
  - intros k Ht Hb. rewrite (leep_tuple d b vals k Hne Ht Hb). cbv zeta. eexists _, _. split; [reflexivity|].
    rewrite concat_map, blocks_snd. split; [reflexivity|].
    rewrite <- (map_length snd), concat_map, blocks_snd.
    pose proof (all_tuple_len k vals Ht) as Hl. rewrite <- (map_length value_row vals).
    induction Hl as [|te ts Hte Hl IH]; [reflexivity|]. cbn [concat map length]. rewrite app_length, IH, Hte. lia.
Qed.
