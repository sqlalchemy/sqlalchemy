(* C07: the closed (value-substituted) forms of the rendered predicate are phrases of the evaluator with
   the prescribed truth value, in each syntactic context. *)
From Coq Require Import List ZArith NArith Bool Lia.
Import ListNotations.
From SAV.sql Require Import Val3 Val3Proofs InList InListSpecProofs InListBodyProofs.

(* c.. : the code-side token lists after [close] has put the row and the bound values in (InListMainProofs.close_lhs,
   close_render, close_ctx); [lit]: the context's numbers were rendered literally *)
Definition clhs (row : N -> sv) (l : lhs) : list tok :=
  match l with
  | LCol c => [TVal (row c)]
  | LTuple cs => row_toks (map (fun c => TVal (row c)) cs)
  end.
Definition crender (e : inexpr) (row : N -> sv) (right : list tok) : list tok :=
  match e.(ie_op) with
  | OIn => clhs row e.(ie_left) ++ [TIn] ++ right
  | ONotIn => if e.(ie_text) then clhs row e.(ie_left) ++ [TNot; TIn] ++ right
              else [TLp] ++ (clhs row e.(ie_left) ++ [TNot; TIn] ++ right) ++ [TRp]
  end.
Definition ctk (lit : bool) (z : Z) : tok := if lit then TNum z else TVal (SInt z).
Definition cctx_pre (p : position) (row : N -> sv) (lit : bool) : list tok :=
  match p with
  | PosBare => []
  | PosCase => [TLp]
  | PosAnd a _ => [TVal (row 0%N); TNe; ctk lit a; TAnd]
  | PosOr a => [TVal (row 0%N); TEq; ctk lit a; TOr]
  end.
Definition cctx_post (p : position) (row : N -> sv) (lit : bool) : list tok :=
  match p with
  | PosBare => []
  | PosCase => [TRp]
  | PosAnd _ b => [TAnd; TVal (row 0%N); TNe; ctk lit b]
  | PosOr _ => []
  end.

Definition lhs_ok (l : lhs) : Prop := match l with LCol _ => True | LTuple cs => cs <> [] end.

Lemma p_operand_clhs row l rest : lhs_ok l -> p_operand (clhs row l ++ rest) = Some (lhs_vals row l, rest).
Proof.
  intros H. destruct l as [c|cs]; [reflexivity|].
  cbn [clhs lhs_vals]. unfold row_toks. cbn [app]. rewrite <- app_assoc. cbn [app].
  rewrite (p_operand_row (map (fun c => TVal (row c)) cs) (map row cs)).
  - reflexivity.
  - rewrite <- (map_map row TVal). now apply scal_map.
  - destruct cs; [now destruct H|discriminate].
Qed.

Lemma clhs_head row l : lhs_ok l ->
  (exists v tl, clhs row l = TVal v :: tl /\ tl = []) \/ (exists tl, clhs row l = TLp :: tl).
Proof. destruct l; [left; now eexists _, _|right; now eexists]. Qed.

Lemma phrase_cmp_tok (ne : bool) t1 t2 v1 v2 : scalar_of t1 = Some v1 -> scalar_of t2 = Some v2 ->
  phrase LNot [t1; if ne then TNe else TEq; t2] (if ne then not3 (eq3 v1 v2) else eq3 v1 v2).
Proof.
  intros H1 H2. apply phrase_lift_not.
  - apply phrase_atom. intros rest. cbn [app]. unfold p_simple. rewrite (p_operand_scalar _ _ _ H1).
    destruct ne; unfold p_cmp; rewrite (p_operand_scalar _ _ _ H1), (p_operand_scalar _ _ _ H2);
      cbn [same_arity length Nat.eqb row_eq3]; now rewrite and3_TT_r.
  - destruct t1; try discriminate; exact I.
Qed.

Lemma ctk_scalar lit z : scalar_of (ctk lit z) = Some (SInt z).
Proof. destruct lit; reflexivity. Qed.

(* The rendered predicate need not be one atom: the default empty-set form "x IN (NULL) AND (1 != 1)" is a bare
   conjunction, and in an AND context its members join those of the context.  Hence: a non-empty conjunction of
   LNot-phrases with value [v], which after "(" is not taken for the start of a row value. *)
Definition good_pred (P : list tok) (v : tv) : Prop :=
  exists phs, phs <> [] /\ Forall (fun ph : list tok * tv => phrase LNot (fst ph) (snd ph)) phs /\
              P = join [TAnd] (map fst phs) /\ and3_list (map snd phs) = v /\ not_row_start P.

Lemma phrase_conj_app phs b tb :
  phs <> [] -> Forall (fun ph : list tok * tv => phrase LNot (fst ph) (snd ph)) phs -> phrase LAnd b tb ->
  phrase LAnd (join [TAnd] (map fst phs) ++ TAnd :: b) (and3 (and3_list (map snd phs)) tb).
Proof.
  intros Hne H Hb. induction H as [|p phs Hp H IH]; [congruence|].
  destruct phs as [|q phs].
  - cbn [map join and3_list fold_right]. rewrite and3_TT_r. now apply phrase_and.
  - cbn [map]. rewrite join_cons2. cbn [and3_list fold_right]. rewrite <- !app_assoc, <- and3_assoc.
    apply phrase_and; [assumption|]. apply IH. discriminate.
Qed.

Lemma ctx_phrase p row lit P v : good_pred P v ->
  phrase LOr (cctx_pre p row lit ++ P ++ cctx_post p row lit) (ctx_value p row v).
Proof.
  intros (phs & Hne & Hph & -> & <- & Hnr).
  pose proof (phrase_conj phs Hne Hph) as Hc.
  assert (Hcmp : forall (ne : bool) z, phrase LNot [TVal (row 0%N); if ne then TNe else TEq; ctk lit z]
                                (if ne then not3 (eq3 (row 0%N) (SInt z)) else eq3 (row 0%N) (SInt z)))
    by (intros; apply phrase_cmp_tok; [reflexivity|apply ctk_scalar]).
  destruct p as [| |a b|a]; cbn [cctx_pre cctx_post ctx_value].
  - rewrite app_nil_r. now apply phrase_lift_or.
  - apply phrase_lift_or, phrase_lift_and, phrase_lift_not; [|exact I].
    apply phrase_paren; [now apply phrase_lift_or|]. intros rest. now apply p_simple_paren_none.
  - apply phrase_lift_or.
    apply (phrase_and [TVal (row 0%N); TNe; ctk lit a] _ (join [TAnd] (map fst phs) ++ TAnd :: [TVal (row 0%N); TNe; ctk lit b]));
      [exact (Hcmp true a)|].
    apply phrase_conj_app; [assumption..|]. apply phrase_lift_and, (Hcmp true b).
  - rewrite app_nil_r.
    apply (phrase_or [TVal (row 0%N); TEq; ctk lit a]); [apply phrase_lift_and, (Hcmp false a)|now apply phrase_lift_or].
Qed.

Lemma in_atom row l (neg : bool) body k rows :
  lhs_ok l ->
  (forall rest, p_inbody (body ++ TRp :: rest) = Some (k, rows, rest)) ->
  rows_ok k (lhs_vals row l) rows = true ->
  phrase LNot (clhs row l ++ (if neg then [TNot; TIn] else [TIn]) ++ [TLp] ++ body ++ [TRp])
              (if neg then not3 (in_sem (lhs_vals row l) rows) else in_sem (lhs_vals row l) rows).
Proof.
  intros Hl Hb Hr. apply phrase_lift_not.
  - apply phrase_atom. intros rest. unfold p_simple. rewrite <- !app_assoc. rewrite (p_operand_clhs _ _ _ Hl).
    destruct neg; cbn [app]; rewrite Hb, Hr; reflexivity.
  - destruct l; exact I.
Qed.

Lemma clhs_not_row_start row l tl (neg : bool) : lhs_ok l ->
  not_row_start (clhs row l ++ (if neg then [TNot; TIn] else [TIn]) ++ tl).
Proof. destruct l, neg; cbn; intros; try exact I; repeat split; discriminate. Qed.

Lemma good_single ph v : phrase LNot ph v -> not_row_start ph -> good_pred ph v.
Proof.
  intros H Hn. exists [(ph, v)]. split; [discriminate|]. split; [now constructor|]. split; [reflexivity|].
  split; [apply and3_TT_r|exact Hn].
Qed.

Lemma regular_pred e row body k rows :
  lhs_ok e.(ie_left) ->
  (forall rest, p_inbody (body ++ TRp :: rest) = Some (k, rows, rest)) ->
  rows_ok k (lhs_vals row e.(ie_left)) rows = true ->
  good_pred (crender e row ([TLp] ++ body ++ [TRp])) (expected e.(ie_op) (lhs_vals row e.(ie_left)) rows).
Proof.
  intros Hl Hb Hr. unfold crender, expected. rewrite <- in_is_or_of_eq.
  pose proof (fun neg => in_atom row (ie_left e) neg body k rows Hl Hb Hr) as HA.
  pose proof (fun neg tl => clhs_not_row_start row (ie_left e) tl neg Hl) as HN.
  destruct (ie_op e); [exact (good_single _ _ (HA false) (HN false _))|].
  destruct (ie_text e); [exact (good_single _ _ (HA true) (HN true _))|].
  apply good_single; [|exact I]. cbn [app]. apply phrase_lift_not; [|exact I].
  apply phrase_paren; [apply phrase_lift_or, phrase_lift_and, (HA true)|].
  intros rest. apply p_simple_paren_none, (HN true).
Qed.

Definition null_body (k : nat) : list tok := if Nat.ltb 1 k then row_toks (repeat TNull k) else [TNull].

Lemma map_repeat {A B} (f : A -> B) a n : map f (repeat a n) = repeat (f a) n.
Proof. induction n; cbn [repeat map]; [reflexivity|now rewrite IHn]. Qed.

(* the replacement text closes the bracket of "IN (" itself *)
Lemma null_body_rp k tl :
  (if Nat.ltb 1 k then [TLp] ++ nulls k ++ [TRp; TRp] else [TNull; TRp]) ++ tl = null_body k ++ TRp :: tl.
Proof.
  unfold null_body, nulls, row_toks, items. rewrite map_repeat.
  destruct (Nat.ltb 1 k); cbn [app]; rewrite <- ?app_assoc; reflexivity.
Qed.

Lemma null_body_inbody k rest : (1 <= k)%nat ->
  p_inbody (null_body k ++ TRp :: rest) = Some (k, [repeat SNull k], rest).
Proof.
  intros Hk. unfold null_body. destruct (Nat.ltb 1 k) eqn:E.
  - apply (p_inbody_rows false [repeat TNull k] [repeat SNull k] k rest); [|discriminate|exact Hk|].
    + constructor; [|constructor]. clear. induction k; cbn [repeat]; constructor; [reflexivity|assumption].
    + constructor; [apply repeat_length|constructor].
  - apply Nat.ltb_ge in E. replace k with 1%nat by lia.
    apply (p_inbody_items [TNull] [SNull] rest); [repeat constructor|discriminate].
Qed.

Lemma null_atom row l (neg : bool) k : lhs_ok l -> (1 <= k)%nat -> length (lhs_vals row l) = k ->
  phrase LNot (clhs row l ++ (if neg then [TNot; TIn] else [TIn]) ++ [TLp] ++ null_body k ++ [TRp])
              (if neg then not3 (in_sem (lhs_vals row l) [repeat SNull k]) else in_sem (lhs_vals row l) [repeat SNull k]).
Proof.
  intros Hl Hk Hx. apply (in_atom row l neg (null_body k) k); [exact Hl| |].
  - intros rest. now apply null_body_inbody.
  - unfold rows_ok. cbn [forallb]. now rewrite Hx, repeat_length, !Nat.eqb_refl.
Qed.

Lemma paren_cmp_phrase (ne : bool) :
  phrase LNot [TLp; TNum 1; if ne then TNe else TEq; TNum 1; TRp] (if ne then TF else TT).
Proof.
  apply phrase_lift_not; [|exact I].
  change [TLp; TNum 1; if ne then TNe else TEq; TNum 1; TRp] with (TLp :: [TNum 1; if ne then TNe else TEq; TNum 1] ++ [TRp]).
  apply phrase_paren.
  - apply phrase_lift_or, phrase_lift_and.
    pose proof (phrase_cmp_tok ne (TNum 1) (TNum 1) (SInt 1) (SInt 1) eq_refl eq_refl) as H.
    destruct ne; exact H.
  - intros rest. apply p_simple_paren_none. destruct ne; cbn; split; discriminate.
Qed.

(* visit_empty_set_op_expr without a dialect override:  lhs IN (NULL) AND (1 != 1)  is a conjunction with a
   false member;  (lhs NOT IN (NULL) OR (1 = 1))  a disjunction with a true one, inside the brackets of NOT IN *)
Lemma default_empty_pred d e row k E :
  lhs_ok e.(ie_left) -> (1 <= k)%nat -> length (lhs_vals row e.(ie_left)) = k ->
  d.(d_empty_op_override) = false -> (e.(ie_op) = ONotIn -> e.(ie_text) = false) ->
  visit_empty_set_op_expr d k (Some e.(ie_op)) = Ok E ->
  good_pred (crender e row ([TLp] ++ E ++ [TRp])) (expected e.(ie_op) (lhs_vals row e.(ie_left)) []).
Proof.
  intros Hl Hk Hx Hov Htx HE. unfold visit_empty_set_op_expr in HE. rewrite Hov in HE.
  unfold crender, expected. cbn [or_eq fold_right].
  destruct (ie_op e); inversion HE; subst E; rewrite ?(Htx eq_refl), null_body_rp; cbn [not3].
  - exists [(clhs row (ie_left e) ++ [TIn] ++ [TLp] ++ null_body k ++ [TRp], in_sem (lhs_vals row (ie_left e)) [repeat SNull k]);
            ([TLp; TNum 1; TNe; TNum 1; TRp], TF)].
    split; [discriminate|]. split; [|split; [|split]].
    + constructor; [exact (null_atom row _ false k Hl Hk Hx)|]. constructor; [exact (paren_cmp_phrase true)|constructor].
    + cbn [map fst join app]. rewrite <- !app_assoc. cbn [app]. now rewrite <- !app_assoc.
    + cbn [map snd and3_list fold_right]. now destruct (in_sem _ _).
    + apply (clhs_not_row_start row (ie_left e) _ false Hl).
  - pose (Q := clhs row (ie_left e) ++ [TNot; TIn] ++ [TLp] ++ null_body k ++ [TRp]).
    replace (_ ++ _ ++ [TRp]) with (TLp :: (Q ++ TOr :: [TLp; TNum 1; TEq; TNum 1; TRp]) ++ [TRp])
      by (unfold Q; cbn [app]; rewrite <- !app_assoc; cbn [app]; now rewrite <- !app_assoc).
    apply good_single; [|exact I]. apply phrase_lift_not; [|exact I]. apply phrase_paren.
    + rewrite <- (or3_TT_r (not3 (in_sem (lhs_vals row (ie_left e)) [repeat SNull k]))).
      apply phrase_or; [apply phrase_lift_and, (null_atom row _ true k Hl Hk Hx)|].
      apply phrase_lift_or, phrase_lift_and, (paren_cmp_phrase false).
    + intros rest. apply p_simple_paren_none. unfold Q. rewrite <- app_assoc.
      apply (clhs_not_row_start row (ie_left e) _ true Hl).
Qed.
