(* C16 - any history of executions over one compiled cache: every execution yields what [spec_exec]
   says for the compilation that governs it (the first one since the last eviction). *)
From Coq Require Import List ZArith Bool Lia PeanoNat.
Import ListNotations.
From SAV.sql Require Import SchemaTr SchemaTrScanProofs SchemaTrProofs.
Open Scope Z_scope.

Section H.
Variable quote : option bool -> str -> str.
Variable dflt : str.
Variable stmts : nat -> stmt.
Hypothesis stmts_ok : forall sid, stmt_ok quote (stmts sid) = true.

Notation compile_plain := (compile_plain quote).
Notation compile_sym := (compile_sym quote).
Notation render_translates := (render_translates quote dflt).
Notation spec_exec := (spec_exec quote dflt).
Notation spec_scalar_default := (spec_scalar_default quote dflt).
Notation get_compiled := (get_compiled quote stmts).
Notation exec_cached := (exec_cached quote dflt stmts).
Notation exec_ddl := (exec_ddl quote dflt stmts).
Notation exec_scalar_default := (exec_scalar_default quote dflt stmts).
Notation step := (step quote dflt stmts).
Notation run_hist := (run_hist quote dflt stmts).
Notation gov_step := (gov_step stmts).
Notation gov := (gov stmts).
Notation gov_flag := (gov_flag stmts).
Notation op_ok := (op_ok stmts).

Definition cache_ok (c : cache) : Prop :=
  forall sid inc t, lookup sid c = Some (inc, t) -> compile_sym inc (stmts sid) = Ok t.
Definition flag_of (c : cache) (sid : nat) : option bool := option_map fst (lookup sid c).
(* the None-key state under which [sid] is or will be compiled: the cached one, else that of [m] *)
Definition flag_or (c : cache) (sid : nat) (m : smap) : bool :=
  match flag_of c sid with Some b => b | None => has_none m end.
Definition next (c : cache) (o : op) : cache := fst (step c o).
Definition cache_after (c : cache) (pre : list op) : cache := fold_left next pre c.

Lemma stmt_ok_parts : forall sid inc,
  marker_free quote inc (stmts sid) = true /\ names_ok (stmts sid) = true.
Proof.
  intros sid inc. pose proof (stmts_ok sid) as H. unfold stmt_ok in H.
  apply andb_prop in H as [H H3]. apply andb_prop in H as [H1 H2]. destruct inc; auto.
Qed.

Lemma compile_render_spec : forall inc m sid,
  is_empty m = false -> map_ok m = true -> force_ok m (stmts sid) = true ->
  bind (compile_sym inc (stmts sid)) (render_translates inc m) = spec_exec inc m (stmts sid).
Proof.
  intros inc m sid He Hm Hf. unfold SchemaTr.spec_exec. rewrite He.
  pose proof (compile_sym_bracketed quote inc (stmts sid)) as B.
  destruct (bracketed (stmts sid)); [rewrite B; reflexivity|]. destruct B as [t Ec]. rewrite Ec.
  destruct (stmt_ok_parts sid inc) as [H1 H2].
  exact (render_sym_general quote dflt inc m (stmts sid) t H1 H2 Hf Hm Ec).
Qed.

(* over a cache that holds only compilations, a hit is a compilation under the state the entry records *)
Lemma get_compiled_eq : forall c sid m, cache_ok c ->
  get_compiled c sid m =
    if is_empty m then Ok (c, None)
    else bind (compile_sym (flag_or c sid m) (stmts sid))
              (fun t => Ok (match lookup sid c with
                            | Some _ => c
                            | None => (sid, (has_none m, t)) :: c
                            end, Some (flag_or c sid m, t))).
Proof.
  intros c sid m Hc. unfold SchemaTr.get_compiled, flag_or, flag_of.
  destruct (is_empty m); [reflexivity|].
  destruct (lookup sid c) as [[inc t]|] eqn:El; cbn [option_map fst]; [|reflexivity].
  rewrite (Hc sid inc t El). reflexivity.
Qed.

Lemma cache_ok_cons : forall c sid inc t, cache_ok c -> compile_sym inc (stmts sid) = Ok t ->
  cache_ok ((sid, (inc, t)) :: c).
Proof.
  intros c sid inc t Hc Ht sid' inc' t' Hl. cbn [lookup] in Hl.
  destruct (Nat.eqb sid sid') eqn:E; [|exact (Hc sid' inc' t' Hl)].
  apply Nat.eqb_eq in E. subst. injection Hl as <- <-. exact Ht.
Qed.

Lemma exec_cached_spec : forall c sid m, cache_ok c -> op_ok (Exec sid m) = true ->
  snd (exec_cached c sid m) = spec_exec (flag_or c sid m) m (stmts sid).
Proof.
  intros c sid m Hc Ho. apply andb_prop in Ho as [Hm Hf].
  unfold SchemaTr.exec_cached. rewrite (get_compiled_eq c sid m Hc).
  destruct (is_empty m) eqn:He; [unfold SchemaTr.spec_exec; rewrite He; reflexivity|].
  rewrite <- (compile_render_spec _ m sid He Hm Hf).
  destruct (compile_sym (flag_or c sid m) (stmts sid)); reflexivity.
Qed.

Lemma exec_ddl_spec : forall sid m, op_ok (Ddl sid m) = true ->
  exec_ddl sid m = spec_exec (has_none m) m (stmts sid).
Proof.
  intros sid m Ho. apply andb_prop in Ho as [Hm Hf]. unfold SchemaTr.exec_ddl.
  destruct (is_empty m) eqn:He; [unfold SchemaTr.spec_exec; rewrite He; reflexivity|].
  exact (compile_render_spec _ m sid He Hm Hf).
Qed.

Lemma exec_scalar_default_spec : forall c sid dsid m, cache_ok c -> op_ok (ScalarDefault sid dsid m) = true ->
  snd (exec_scalar_default c sid dsid m) =
    spec_scalar_default (flag_or c sid m) m (stmts sid) (stmts dsid).
Proof.
  intros c sid dsid m Hc Ho. apply andb_prop in Ho as [Hm Hf].
  unfold SchemaTr.exec_scalar_default, SchemaTr.spec_scalar_default. rewrite (get_compiled_eq c sid m Hc).
  destruct (is_empty m); [reflexivity|].
  pose proof (compile_sym_bracketed quote (flag_or c sid m) (stmts sid)) as B.
  destruct (bracketed (stmts sid)); [rewrite B; reflexivity|]. destruct B as [t ->]. cbn [bind snd].
  pose proof (compile_sym_bracketed quote (has_none m) (stmts dsid)) as B.
  destruct (bracketed (stmts dsid)); [rewrite B; reflexivity|]. destruct B as [td Ed]. rewrite Ed. cbn [bind].
  (* the default was compiled with the map it is rendered with: only the None-key check is the parent's *)
  destruct (stmt_ok_parts dsid (has_none m)) as [H1 H2].
  rewrite <- (translate_eq_direct quote dflt m (stmts dsid) td H1 H2 Hf Hm Ed).
  unfold SchemaTr.render_translates. rewrite andb_negb_r. reflexivity.
Qed.

Lemma lookup_evict : forall sids c sid,
  lookup sid (evict sids c) = if existsb (Nat.eqb sid) sids then None else lookup sid c.
Proof.
  intros sids. induction c as [|[k v] c IH]; intros sid.
  - destruct (existsb (Nat.eqb sid) sids); reflexivity.
  - unfold evict in *. cbn [filter fst]. destruct (existsb (Nat.eqb k) sids) eqn:Ek; cbn [negb lookup].
    + rewrite IH. destruct (Nat.eqb k sid) eqn:E; [|reflexivity].
      apply Nat.eqb_eq in E. subst. rewrite Ek. reflexivity.
    + destruct (Nat.eqb k sid) eqn:E; [|apply IH].
      apply Nat.eqb_eq in E. subst. rewrite Ek. reflexivity.
Qed.

Lemma get_compiled_step : forall c sid m, cache_ok c ->
  let c' := match get_compiled c sid m with Ok (c', _) => c' | Err _ => c end in
  cache_ok c' /\
  forall sid', flag_of c' sid' =
    match flag_of c sid' with
    | Some b => Some b
    | None => if Nat.eqb sid sid' && negb (is_empty m) && negb (bracketed (stmts sid'))
              then Some (has_none m) else None
    end.
Proof.
  intros c sid m Hc. rewrite (get_compiled_eq c sid m Hc).
  destruct (is_empty m); cbn [negb].
  { split; [exact Hc|]. intros sid'. rewrite andb_false_r. destruct (flag_of c sid'); reflexivity. }
  pose proof (compile_sym_bracketed quote (flag_or c sid m) (stmts sid)) as B.
  destruct (bracketed (stmts sid)) eqn:Hb.
  - (* a bracketed name: the compilation fails and nothing is cached *)
    rewrite B. cbn [bind]. split; [exact Hc|]. intros sid'.
    destruct (flag_of c sid'); [reflexivity|]. destruct (Nat.eqb sid sid') eqn:E; [|reflexivity].
    apply Nat.eqb_eq in E. subst. rewrite Hb, andb_false_r. reflexivity.
  - destruct B as [t Ec]. rewrite Ec. cbn [bind]. unfold flag_or, flag_of in *.
    destruct (lookup sid c) as [hit|] eqn:El; cbn [option_map] in Ec.
    + (* a hit: the cache is unchanged, and [sid] already had a flag *)
      split; [exact Hc|]. intros sid'. destruct (lookup sid' c) eqn:Ef; [reflexivity|].
      destruct (Nat.eqb sid sid') eqn:E; [|reflexivity].
      apply Nat.eqb_eq in E. subst. rewrite El in Ef. discriminate Ef.
    + split; [apply cache_ok_cons; assumption|]. intros sid'. cbn [lookup].
      destruct (Nat.eqb sid sid') eqn:E; [|destruct (lookup sid' c); reflexivity].
      apply Nat.eqb_eq in E. subst. rewrite El, Hb. reflexivity.
Qed.

Lemma step_inv : forall c o, cache_ok c ->
  cache_ok (next c o) /\ forall sid, flag_of (next c o) sid = gov_step sid (flag_of c sid) o.
Proof.
  intros c o Hc. unfold next. destruct o as [sid m|sid m|sid dsid m|sids]; cbn [SchemaTr.step SchemaTr.gov_step].
  (* Exec and ScalarDefault leave the cache that get_compiled leaves *)
  1, 3: pose proof (get_compiled_step c sid m Hc) as G; cbn zeta in G;
    unfold SchemaTr.exec_cached, SchemaTr.exec_scalar_default;
    destruct (get_compiled c sid m) as [[c' [[inc t]|]]|e]; exact G.
  - split; [exact Hc|reflexivity].
  - cbn [fst]. split.
    + intros sid inc t Hl. rewrite lookup_evict in Hl. destruct (existsb (Nat.eqb sid) sids); [discriminate Hl|].
      exact (Hc sid inc t Hl).
    + intros sid. unfold flag_of. rewrite lookup_evict. destruct (existsb (Nat.eqb sid) sids); reflexivity.
Qed.

Lemma cache_after_inv : forall pre c, cache_ok c ->
  cache_ok (cache_after c pre) /\
  forall sid, flag_of (cache_after c pre) sid = fold_left (gov_step sid) pre (flag_of c sid).
Proof.
  induction pre as [|o pre IH]; intros c Hc; [split; [exact Hc|reflexivity]|].
  unfold cache_after in *. cbn [fold_left]. destruct (step_inv c o Hc) as [H1 H2].
  destruct (IH (next c o) H1) as [H3 H4]. split; [exact H3|]. intros sid. rewrite H4, H2. reflexivity.
Qed.

Lemma cache_ok_nil : cache_ok [].
Proof. intros sid inc t H. discriminate H. Qed.

Lemma run_hist_nth : forall pre c o post,
  nth (length pre) (run_hist c (pre ++ o :: post)) None = snd (step (cache_after c pre) o).
Proof.
  induction pre as [|p pre IH]; intros c o post.
  - unfold cache_after. cbn [app length SchemaTr.run_hist fold_left]. destruct (step c o) as [c' out]. reflexivity.
  - cbn [app length SchemaTr.run_hist]. unfold cache_after. cbn [fold_left]. unfold next at 2.
    destruct (step c p) as [c' out] eqn:E. cbn [nth fst]. apply IH.
Qed.

(* what an operation yields, given which None-key state governs each statement *)
Definition op_spec (flag : nat -> smap -> bool) (o : op) : option (result str) :=
  match o with
  | Exec sid m => Some (spec_exec (flag sid m) m (stmts sid))
  | Ddl sid m => Some (spec_exec (has_none m) m (stmts sid))
  | ScalarDefault sid dsid m => Some (spec_scalar_default (flag sid m) m (stmts sid) (stmts dsid))
  | Evict _ => None
  end.

Lemma step_spec : forall c o, cache_ok c -> op_ok o = true -> snd (step c o) = op_spec (flag_or c) o.
Proof.
  intros c [sid m|sid m|sid dsid m|sids] Hc Ho; cbn [SchemaTr.step op_spec].
  - rewrite <- (exec_cached_spec c sid m Hc Ho). destruct (exec_cached c sid m); reflexivity.
  - rewrite <- (exec_ddl_spec sid m Ho). reflexivity.
  - rewrite <- (exec_scalar_default_spec c sid dsid m Hc Ho). destruct (exec_scalar_default c sid dsid m); reflexivity.
  - reflexivity.
Qed.

Theorem cache_history_transparent : forall pre o post, op_ok o = true ->
  nth (length pre) (run_hist [] (pre ++ o :: post)) None = op_spec (gov_flag pre) o.
Proof.
  intros pre o post Ho. destruct (cache_after_inv pre [] cache_ok_nil) as [Hc Hf].
  rewrite run_hist_nth, (step_spec _ o Hc Ho).
  destruct o; cbn [op_spec]; unfold flag_or, SchemaTr.gov_flag, SchemaTr.gov; rewrite ?Hf; reflexivity.
Qed.

(* histories whose maps agree on the presence of the None key: no stale compilation is ever visible *)
Definition agrees (sid : nat) (b : bool) (o : op) : bool :=
  match o with
  | Exec sid' m | ScalarDefault sid' _ m => negb (Nat.eqb sid' sid) || is_empty m || Bool.eqb (has_none m) b
  | _ => true
  end.
Lemma gov_agrees : forall pre sid b g, forallb (agrees sid b) pre = true ->
  (g = None \/ g = Some b) ->
  fold_left (gov_step sid) pre g = None \/ fold_left (gov_step sid) pre g = Some b.
Proof.
  induction pre as [|o pre IH]; intros sid b g Ha Hg; [exact Hg|].
  cbn [forallb] in Ha. apply andb_prop in Ha as [Ho Ha]. cbn [fold_left].
  apply (IH sid b _ Ha).
  destruct Hg as [->| ->]; destruct o as [sid' m|sid' m|sid' dsid m|sids]; cbn [SchemaTr.gov_step agrees] in *; auto.
  (* a first compilation of [sid]: its map agrees with [b] *)
  1, 2: destruct (Nat.eqb sid' sid), (is_empty m), (bracketed (stmts sid)); cbn [negb orb andb] in *; auto;
    apply Bool.eqb_prop in Ho; subst; auto.
  all: destruct (existsb (Nat.eqb sid) sids); auto.
Qed.

Theorem history_consistent : forall pre sid m post, op_ok (Exec sid m) = true ->
  forallb (agrees sid (has_none m)) pre = true ->
  nth (length pre) (run_hist [] (pre ++ Exec sid m :: post)) None
  = Some (spec_exec (has_none m) m (stmts sid)).
Proof.
  intros pre sid m post Ho Ha. rewrite (cache_history_transparent pre _ post Ho). cbn [op_spec].
  unfold SchemaTr.gov_flag, SchemaTr.gov.
  destruct (gov_agrees pre sid (has_none m) None Ha (or_introl eq_refl)) as [-> | ->]; reflexivity.
Qed.

Lemma spec_exec_consistent : forall m s, is_empty m = false -> bracketed s = false ->
  spec_exec (has_none m) m s = direct quote dflt m s.
Proof.
  intros m s He Hb. unfold SchemaTr.spec_exec, SchemaTr.direct. rewrite He, Hb, andb_negb_r.
  rewrite direct_inc_consistent. reflexivity.
Qed.
End H.
