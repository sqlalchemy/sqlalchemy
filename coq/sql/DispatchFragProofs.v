(* C22 (b) - the unnamed-index assertion and the pickled comparator of DispatchFrag.v: when each internal error occurs, and when not *)
From Coq Require Import List NArith Bool.
Import ListNotations.
From SAV.sql Require Import DispatchFrag.

Lemma index_unchecked_none_asserts : visit_index_ddl false NameNone = DAssertionError.
Proof. reflexivity. Qed.

Lemma index_checked_none_documented : visit_index_ddl true NameNone = DCompileError.
Proof. reflexivity. Qed.

(* with the test in place the only remaining assertion is format_index's own, for a deferred (_NONE_NAME)
   name that no convention resolves; Index objects never carry _NONE_NAME (only the CHECK constraints of
   Boolean/Enum do) *)
Lemma index_checked_no_assert : forall n, n <> NameDeferred None -> visit_index_ddl true n <> DAssertionError.
Proof. intros [|[s|]|s] H; cbn; try discriminate. contradiction. Qed.

Lemma index_named_ok : forall checked s, visit_index_ddl checked (NameStr s) = DOk s.
Proof. intros [|] s; reflexivity. Qed.

Lemma index_assert_iff : forall checked n,
  visit_index_ddl checked n = DAssertionError <-> (n = NameDeferred None \/ (checked = false /\ n = NameNone)).
Proof.
  intros [|] [|[s|]|s]; cbn; split; intros H; try discriminate; auto;
    destruct H as [H|[H1 H2]]; try discriminate; auto.
Qed.

Lemma adapt_consistent : forall e c, consistent e = true -> e_memo e = Some c -> adapt_expression c = OpOk.
Proof.
  intros e c H E. unfold consistent in H. rewrite E in H. unfold adapt_expression.
  destruct (c_cls c), (c_type c), (e_type e); try discriminate; reflexivity.
Qed.

Lemma operate_consistent : forall e, consistent e = true ->
  snd (operate e) = OpOk /\ consistent (fst (operate e)) = true /\ e_memo (fst (operate e)) <> None.
Proof.
  intros e H. unfold operate, get_comparator. destruct (e_memo e) as [c|] eqn:E.
  - cbn. split; [eapply adapt_consistent; eauto|]. split; [exact H|]. rewrite E. discriminate.
  - cbn. split; [|split; [|discriminate]].
    + unfold adapt_expression, new_comparator. cbn. destruct (e_type e); reflexivity.
    + unfold consistent. cbn. destruct (e_type e); reflexivity.
Qed.

Lemma pickle_no_memo : forall e, e_memo e = None -> pickle_roundtrip e = e.
Proof. intros [t m] H. cbn in H. subst. reflexivity. Qed.

(* state invariant: before the first Operate there is no memo; afterwards the memo is consistent *)
Lemma run_guarded_inv : forall h e seen,
  (if seen : bool then consistent e = true else e_memo e = None) ->
  operate_before_pickle seen h = false -> Forall (fun o => o = OpOk) (run e h).
Proof.
  induction h as [|s r IH]; intros e seen Hinv Hg; [constructor|].
  destruct s; cbn [run operate_before_pickle] in *.
  - assert (Hc : consistent e = true).
    { destruct seen; [exact Hinv|]. unfold consistent. rewrite Hinv. reflexivity. }
    destruct (operate_consistent e Hc) as (H1 & H2 & H3).
    destruct (operate e) as [e' o]. cbn [fst snd] in *. constructor; [exact H1|].
    apply (IH e' true); assumption.
  - destruct seen; [discriminate|]. cbn in Hg. rewrite (pickle_no_memo e Hinv). apply (IH e false); assumption.
Qed.

Theorem pickle_before_operate_guarded : forall t h,
  operate_before_pickle false h = false -> Forall (fun o => o = OpOk) (run (fresh t) h).
Proof. intros t h H. apply (run_guarded_inv h (fresh t) false); [reflexivity|exact H]. Qed.

Theorem pickled_comparator_attributeerror : run (fresh TInteger) [Operate; Pickle; Operate] = [OpOk; OpAttributeError].
Proof. reflexivity. Qed.

(* the failure needs a lookup-based comparator class: String/NullType elements survive (with a wrong slot).
   Invariant: the element and the class of its memoized comparator, if any, stay of type [t]. *)
Lemma run_nolookup_inv : forall t, has_lookup t = false -> forall h e,
  e_type e = t -> (forall c, e_memo e = Some c -> c_cls c = t) -> Forall (fun o => o = OpOk) (run e h).
Proof.
  intros t Ht. induction h as [|s r IH]; intros e He Hc; [constructor|]. destruct s; cbn [run].
  - unfold operate, get_comparator. destruct (e_memo e) as [c|] eqn:E.
    + constructor.
      * unfold adapt_expression. rewrite (Hc c eq_refl), Ht. reflexivity.
      * apply IH; [exact He|]. intros c' Hc'. apply Hc. rewrite <- Hc'. symmetry. exact E.
    + constructor.
      * unfold adapt_expression, new_comparator. cbn. rewrite He, Ht. reflexivity.
      * apply IH; [exact He|]. cbn. intros c' Hc'. inversion Hc'. cbn. exact He.
  - apply IH; [exact He|]. cbn. intros c' Hc'. destruct (e_memo e) as [c|] eqn:E; [|discriminate].
    inversion Hc'. cbn. apply Hc. reflexivity.
Qed.

Lemma pickled_comparator_nolookup_ok : forall t h, has_lookup t = false -> Forall (fun o => o = OpOk) (run (fresh t) h).
Proof. intros t h Ht. apply (run_nolookup_inv t Ht); [reflexivity|discriminate]. Qed.
