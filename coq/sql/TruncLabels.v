(* C21 - labels / aliases / bind names inside one compilation: boolean equalities of the key types reflected,
   then the invariants of the anonymous-name map and of _truncated_identifier, uniqueness, length *)
From Coq Require Import List NArith ZArith Bool Lia.
Import ListNotations.
From SAV.sql Require Import Trunc TruncDigits.

Lemma str_eqb_eq : forall a b, str_eqb a b = true <-> a = b.
Proof.
  induction a as [|x a IH]; intros [|y b]; cbn; try (split; intro; (reflexivity || discriminate)).
  rewrite andb_true_iff, N.eqb_eq, IH. split; [intros [-> ->]; reflexivity|intros [= -> ->]; auto].
Qed.
Lemma seg_eqb_eq : forall a b, seg_eqb a b = true <-> a = b.
Proof.
  intros [s|i s] [t|j t]; cbn; try (split; intro; discriminate).
  - rewrite str_eqb_eq. split; [intros ->; reflexivity|intros [= ->]; reflexivity].
  - rewrite andb_true_iff, N.eqb_eq, str_eqb_eq. split; [intros [-> ->]; reflexivity|intros [= -> ->]; auto].
Qed.
Lemma tname_eqb_eq : forall a b, tname_eqb a b = true <-> a = b.
Proof.
  induction a as [|x a IH]; intros [|y b]; cbn; try (split; intro; (reflexivity || discriminate)).
  rewrite andb_true_iff, seg_eqb_eq, IH. split; [intros [-> ->]; reflexivity|intros [= -> ->]; auto].
Qed.
Lemma akey_eqb_eq : forall a b, akey_eqb a b = true <-> a = b.
Proof.
  intros [i s] [j t]. unfold akey_eqb. cbn. rewrite andb_true_iff, N.eqb_eq, str_eqb_eq.
  symmetry. apply pair_equal_spec.
Qed.
Lemma ckey_eqb_eq : forall a b, ckey_eqb a b = true <-> a = b.
Proof.
  intros [i s] [j t]. unfold ckey_eqb. cbn. rewrite andb_true_iff, N.eqb_eq, tname_eqb_eq.
  symmetry. apply pair_equal_spec.
Qed.

Lemma eqb_spec_of {K} (eqb : K -> K -> bool) :
  (forall a b, eqb a b = true <-> a = b) -> forall a b, reflect (a = b) (eqb a b).
Proof. intros H a b. apply iff_reflect. symmetry. apply H. Qed.
Lemma eqb_refl_of {K} (eqb : K -> K -> bool) :
  (forall a b, eqb a b = true <-> a = b) -> forall a, eqb a a = true.
Proof. intros H a. apply H. reflexivity. Qed.

Definition am_find (am : amap) (k : akey) : option str := assoc akey_eqb k (am_keys am).

(* every generated name is body ++ "_" ++ a counter value already consumed for that body, and distinct
   anonymous elements never get the same generated name *)
Definition AInv (am : amap) : Prop :=
  (forall k v, am_find am k = Some v ->
     exists c, v = snd k ++ [underscore] ++ py_dec c /\ (c < am_counter am (snd k))%N)
  /\ (forall k1 k2 v, am_find am k1 = Some v -> am_find am k2 = Some v -> k1 = k2).
Definition AExt (am am' : amap) : Prop := forall k v, am_find am k = Some v -> am_find am' k = Some v.

Lemma AExt_refl : forall am, AExt am am.
Proof. intros am k v H. exact H. Qed.
Lemma AExt_trans : forall a b c, AExt a b -> AExt b c -> AExt a c.
Proof. intros a b c H1 H2 k v H. apply H2, H1, H. Qed.

Lemma AInv_init : AInv {| am_keys := []; am_ctr := [] |}.
Proof. split; intros; discriminate. Qed.

Lemma am_get_spec : forall am k am' v, AInv am -> am_get am k = (am', v) ->
  AInv am' /\ AExt am am' /\ am_find am' k = Some v.
Proof.
  intros am k am' v [I1 I2] H. unfold am_get in H. fold (am_find am k) in H.
  destruct (am_find am k) as [v0|] eqn:F; injection H as <- <-.
  - repeat split; auto. apply AExt_refl.
  - set (c := am_counter am (snd k)).
    set (v := snd k ++ [underscore] ++ py_dec c).
    set (am' := {| am_keys := (k, v) :: am_keys am; am_ctr := (snd k, anon_counter_next c) :: am_ctr am |}).
    assert (Hfind : forall k0, am_find am' k0 = if akey_eqb k0 k then Some v else am_find am k0)
      by reflexivity.
    assert (Hctr : forall b, am_counter am' b = if str_eqb b (snd k) then (c + 1)%N else am_counter am b).
    { intros b. unfold am_counter, am'. cbn [am_ctr assoc]. destruct (str_eqb b (snd k)); reflexivity. }
    (* an older value of the same body ends in a smaller counter, so none equals the new one *)
    assert (Hnew : forall k0, am_find am k0 <> Some v).
    { intros k0 H0. destruct (I1 _ _ H0) as (c0 & Hv0 & Hc0).
      destruct (split_last_sep _ _ _ (py_dec_no_us c) (py_dec_no_us c0) _ _ Hv0) as [Eb Ed].
      apply py_dec_inj in Ed. rewrite <- Eb, <- Ed in Hc0. unfold c in Hc0. lia. }
    split; [split|split].
    + intros k0 v0 H0. rewrite Hfind in H0. rewrite Hctr. destruct (eqb_spec_of _ akey_eqb_eq k0 k) as [->|_].
      * injection H0 as <-. exists c. rewrite (eqb_refl_of _ str_eqb_eq). split; [reflexivity|lia].
      * destruct (I1 _ _ H0) as (c0 & Hv0 & Hc0). exists c0. split; [exact Hv0|].
        destruct (eqb_spec_of _ str_eqb_eq (snd k0) (snd k)) as [Eb|_]; [|exact Hc0].
        rewrite Eb in Hc0. fold c in Hc0. lia.
    + intros k1 k2 v0 H1 H2. rewrite Hfind in H1, H2.
      destruct (eqb_spec_of _ akey_eqb_eq k1 k) as [->|_], (eqb_spec_of _ akey_eqb_eq k2 k) as [->|_].
      * reflexivity.
      * injection H1 as <-. destruct (Hnew _ H2).
      * injection H2 as <-. destruct (Hnew _ H1).
      * eapply I2; eauto.
    + intros k0 v0 H0. rewrite Hfind. destruct (eqb_spec_of _ akey_eqb_eq k0 k) as [->|_]; [congruence|exact H0].
    + rewrite Hfind, (eqb_refl_of _ akey_eqb_eq). reflexivity.
Qed.

(* every anonymous key of the name has an entry *)
Definition covered (am : amap) (n : tname) : Prop :=
  forall i b, In (Anon i b) n -> am_find am (i, b) <> None.

Lemma covered_tail : forall am x r, covered am (x :: r) -> covered am r.
Proof. intros am x r C i b Hin. apply C. right. exact Hin. Qed.

Lemma anon_pure_ext : forall am am' n, covered am n -> AExt am am' ->
  anon_pure am' n = anon_pure am n /\ covered am' n.
Proof.
  intros am am' n Hc Hx. split.
  - induction n as [|[s|i b] r IH]; cbn [anon_pure]; [reflexivity|..];
      rewrite IH by exact (covered_tail _ _ _ Hc); [reflexivity|].
    fold (am_find am (i, b)) (am_find am' (i, b)). specialize (Hc i b (or_introl eq_refl)).
    destruct (am_find am (i, b)) as [v|] eqn:F; [rewrite (Hx _ _ F); reflexivity|contradiction].
  - intros i b Hin F. specialize (Hc i b Hin). destruct (am_find am (i, b)) as [v|] eqn:G; [|congruence].
    rewrite (Hx _ _ G) in F. discriminate.
Qed.

Lemma apply_map_spec : forall n am am' s, AInv am -> apply_map am n = (am', s) ->
  AInv am' /\ AExt am am' /\ covered am' n /\ anon_pure am' n = s.
Proof.
  induction n as [|[l|i b] r IH]; intros am am' s HI H; cbn [apply_map] in H.
  - inversion H; subst. split; [exact HI|split; [apply AExt_refl|split; [|reflexivity]]]. intros i b [].
  - destruct (apply_map am r) as [am1 t] eqn:E. inversion H; subst.
    destruct (IH _ _ _ HI E) as (I' & X & C & P). split; [exact I'|split; [exact X|split]].
    + intros i b [Hin|Hin]; [discriminate|]. apply C. exact Hin.
    + cbn [anon_pure]. rewrite P. reflexivity.
  - destruct (am_get am (i, b)) as [am1 v] eqn:G. destruct (apply_map am1 r) as [am2 t] eqn:E.
    inversion H; subst. destruct (am_get_spec _ _ _ _ HI G) as (I1 & X1 & F1).
    destruct (IH _ _ _ I1 E) as (I2 & X2 & C & P). split; [exact I2|split; [|split]].
    + eapply AExt_trans; eauto.
    + intros i' b' [Hin|Hin].
      * inversion Hin; subst. rewrite (X2 _ _ F1). discriminate.
      * apply C. exact Hin.
    + cbn [anon_pure]. fold (am_find am' (i, b)). rewrite (X2 _ _ F1), P. reflexivity.
Qed.

Local Open Scope Z_scope.

Definition memo_find (st : cstate) (cls : N) (n : tname) : option str :=
  assoc ckey_eqb (cls, n) (st_memo st).
Definition too_long (ll : Z) (st : cstate) (n : tname) : bool :=
  label_too_long (slen (anon_pure (st_am st) n)) ll.

(* a memo entry is the anonymised text itself if that is short enough, else its truncation with a counter
   value of the class that is already consumed *)
Definition entry_ok (ll : Z) (st : cstate) (cls : N) (n : tname) (out : str) : Prop :=
  covered (st_am st) n /\
  ((too_long ll st n = false /\ out = anon_pure (st_am st) n) \/
   (too_long ll st n = true /\
    exists c, (counter_start <= c < tcounter st cls)%N /\ out = truncname ll (anon_pure (st_am st) n) c)).

Fixpoint count_cls (cls : N) (m : list (ckey * str)) : N :=
  match m with
  | [] => 0%N
  | ((c, _), _) :: r => ((if N.eqb c cls then 1 else 0) + count_cls cls r)%N
  end.

Lemma count_cls_le : forall cls m, (count_cls cls m <= N.of_nat (length m))%N.
Proof.
  intros cls m. induction m as [|[[c n] o] r IH]; cbn [count_cls length]; [lia|].
  destruct (N.eqb c cls); lia.
Qed.

(* ti_uniq: the truncated entries of one class are pairwise different; ti_ctr_hi with count_cls bounds the
   counter by the number of memo entries, which is what the length bound of a whole compilation needs *)
Record TInv (ll : Z) (st : cstate) : Prop := {
  ti_am : AInv (st_am st);
  ti_entries : forall cls n out, memo_find st cls n = Some out -> entry_ok ll st cls n out;
  ti_uniq : forall cls n1 n2 out, memo_find st cls n1 = Some out -> memo_find st cls n2 = Some out ->
            too_long ll st n1 = true -> too_long ll st n2 = true -> n1 = n2;
  ti_ctr_lo : forall cls, (counter_start <= tcounter st cls)%N;
  ti_ctr_hi : forall cls, (tcounter st cls <= counter_start + count_cls cls (st_memo st))%N
}.

Definition memo_mono (st st' : cstate) : Prop :=
  forall cls n o, memo_find st cls n = Some o -> memo_find st' cls n = Some o.

Lemma memo_mono_refl : forall st, memo_mono st st.
Proof. intros st c n o H. exact H. Qed.
Lemma memo_mono_trans : forall a b c, memo_mono a b -> memo_mono b c -> memo_mono a c.
Proof. intros a b c H1 H2 cl n o H. apply H2, H1, H. Qed.

Lemma TInv_init : forall ll, TInv ll init_state.
Proof. intros ll. constructor; [apply AInv_init|..]; intros; (discriminate || (cbn; lia)). Qed.

(* TInv does not look at the bind dictionaries *)
Lemma TInv_same : forall ll st st', st_am st' = st_am st -> st_memo st' = st_memo st ->
  st_tctr st' = st_tctr st -> TInv ll st -> TInv ll st'.
Proof.
  intros ll st st' E1 E2 E3 [I1 I2 I3 I4 I5].
  constructor; unfold entry_ok, too_long, memo_find, tcounter in *; rewrite ?E1, ?E2, ?E3; assumption.
Qed.

(* an entry stays correct, on the same side of the length test, when the anonymous map is extended and
   the class counter grows: the text of a covered name does not change *)
Lemma entry_ok_mono : forall ll st st' cls n out,
  AExt (st_am st) (st_am st') -> (tcounter st cls <= tcounter st' cls)%N ->
  entry_ok ll st cls n out -> entry_ok ll st' cls n out /\ too_long ll st' n = too_long ll st n.
Proof.
  intros ll st st' cls n out X Hc (C & K). destruct (anon_pure_ext _ _ _ C X) as (P & C').
  unfold entry_ok, too_long in *. rewrite P. repeat split; [exact C'|].
  destruct K as [K|(T & c & Hcc & ->)]; [left; exact K|right; split; [exact T|exists c; split; [lia|reflexivity]]].
Qed.

Lemma label_too_long_false : forall len ll, label_too_long len ll = false -> len <= ll - 6.
Proof. intros len ll. unfold label_too_long. destruct (Z.gtb_spec len (ll - 6)); [discriminate|auto]. Qed.

Lemma label_cut_len : forall ll a, label_too_long (slen a) ll = true ->
  slen (slice_to a (label_cut ll)) = label_cut ll.
Proof.
  intros ll a H. apply Z.gtb_lt in H. unfold label_cut.
  rewrite slice_to_len_nonneg by lia. pose proof (slen_nonneg a). lia.
Qed.

Lemma hexs_len_pos : forall c, 1 <= slen (hexs c).
Proof. intros. unfold slen. rewrite hexs_len. pose proof (digits_len_ge1 16 c ltac:(lia)). lia. Qed.

Lemma truncname_len : forall ll a c, label_too_long (slen a) ll = true ->
  slen (truncname ll a c) = label_cut ll + 1 + slen (hexs c).
Proof.
  intros ll a c H. unfold truncname. rewrite hex_skip_ok, !slen_app, (label_cut_len ll a H).
  change (slen [underscore]) with 1. lia.
Qed.

Lemma truncname_inj : forall ll a1 a2 c1 c2,
  label_too_long (slen a1) ll = true -> label_too_long (slen a2) ll = true ->
  truncname ll a1 c1 = truncname ll a2 c2 -> c1 = c2.
Proof.
  intros ll a1 a2 c1 c2 H1 H2 E. unfold truncname in E. rewrite !hex_skip_ok in E.
  apply app_inv_len in E.
  - destruct E as [_ [=E]]. apply hexs_inj, E.
  - apply label_cut_len in H1, H2. unfold slen in *. lia.
Qed.

(* the state after a miss: the extended anonymous map, one more memo entry, and the class counter
   bumped if the name was truncated *)
Definition memo_add (st : cstate) (am' : amap) (cls : N) (n : tname) (o : str) (bump : bool) : cstate :=
  {| st_am := am'; st_memo := ((cls, n), o) :: st_memo st;
     st_tctr := if bump then (cls, counter_next (tcounter st cls)) :: st_tctr st else st_tctr st;
     st_binds := st_binds st; st_bind_names := st_bind_names st |}.

Lemma truncated_identifier_eq : forall ll st cls n,
  truncated_identifier ll st cls n =
  match memo_find st cls n with
  | Some o => (st, o)
  | None => let (am', a) := apply_map (st_am st) n in
            let b := label_too_long (slen a) ll in
            let o := if b then truncname ll a (tcounter st cls) else a in
            (memo_add st am' cls n o b, o)
  end.
Proof.
  intros. unfold truncated_identifier, memo_find. destruct (assoc _ _ _); [reflexivity|].
  destruct (apply_map _ _). destruct (label_too_long _ _); reflexivity.
Qed.

Lemma memo_find_add : forall st am' cls n o b cl m,
  memo_find (memo_add st am' cls n o b) cl m
  = if ckey_eqb (cl, m) (cls, n) then Some o else memo_find st cl m.
Proof. reflexivity. Qed.
Lemma tcounter_add : forall st am' cls n o b cl,
  tcounter (memo_add st am' cls n o b) cl
  = if b && N.eqb cl cls then (tcounter st cls + 1)%N else tcounter st cl.
Proof. intros. unfold tcounter. destruct b; [cbn; destruct (N.eqb cl cls)|]; reflexivity. Qed.

Lemma memo_mono_add : forall st am' cls n o b, memo_find st cls n = None ->
  memo_mono st (memo_add st am' cls n o b).
Proof.
  intros st am' cls n o b F cl m o' Hm. rewrite memo_find_add.
  destruct (eqb_spec_of _ ckey_eqb_eq (cl, m) (cls, n)); [congruence|exact Hm].
Qed.

Lemma TInv_add : forall ll st am' cls n, TInv ll st ->
  AInv am' -> AExt (st_am st) am' -> covered am' n ->
  let b := label_too_long (slen (anon_pure am' n)) ll in
  let o := if b then truncname ll (anon_pure am' n) (tcounter st cls) else anon_pure am' n in
  TInv ll (memo_add st am' cls n o b).
Proof.
  intros ll st am' cls n I IA X C b o. set (st' := memo_add st am' cls n o b).
  pose proof (ti_ctr_lo _ _ I) as Lo. pose proof (ti_ctr_hi _ _ I) as Hi.
  assert (Hctr : forall cl, (tcounter st cl <= tcounter st' cl)%N).
  { intros cl. unfold st'. rewrite tcounter_add. destruct b; [destruct (N.eqb_spec cl cls); subst|]; cbn; lia. }
  assert (Hold : forall cl m o', memo_find st cl m = Some o' ->
            entry_ok ll st' cl m o' /\ too_long ll st' m = too_long ll st m).
  { intros cl m o' Hm. apply entry_ok_mono; [exact X|apply Hctr|apply I, Hm]. }
  (* a truncated entry already present carries a counter below the present one, so it differs from [o] *)
  assert (Hfresh : forall m, memo_find st cls m = Some o -> too_long ll st' m = true -> b = true -> False).
  { intros m Hm Tm Tn. destruct (Hold _ _ _ Hm) as (_ & Et). rewrite Et in Tm.
    destruct (ti_entries _ _ I _ _ _ Hm) as (_ & [(T & _)|(_ & c0 & Hc0 & Eo)]); [congruence|].
    unfold o in Eo. rewrite Tn in Eo. apply truncname_inj in Eo; [lia|exact Tn|exact Tm]. }
  constructor.
  - exact IA.
  - intros cl m o' Hm. unfold st' in Hm. rewrite memo_find_add in Hm.
    destruct (eqb_spec_of _ ckey_eqb_eq (cl, m) (cls, n)) as [[= -> ->]|_]; [|apply Hold, Hm].
    injection Hm as <-. split; [exact C|].
    change (too_long ll st' n) with b. unfold o. destruct b eqn:B; [right|left; auto].
    split; [reflexivity|]. exists (tcounter st cls). split; [|reflexivity].
    unfold st'. rewrite tcounter_add, N.eqb_refl. specialize (Lo cls). cbn. lia.
  - intros cl m1 m2 o' H1 H2 T1 T2. unfold st' in H1, H2. rewrite memo_find_add in H1, H2.
    destruct (eqb_spec_of _ ckey_eqb_eq (cl, m1) (cls, n)) as [E1|_],
             (eqb_spec_of _ ckey_eqb_eq (cl, m2) (cls, n)) as [E2|_].
    + congruence.
    + injection E1 as -> ->. injection H1 as <-. destruct (Hfresh _ H2 T2 T1).
    + injection E2 as -> ->. injection H2 as <-. destruct (Hfresh _ H1 T1 T2).
    + destruct (Hold _ _ _ H1) as (_ & Et1), (Hold _ _ _ H2) as (_ & Et2).
      rewrite Et1 in T1. rewrite Et2 in T2. exact (ti_uniq _ _ I _ _ _ _ H1 H2 T1 T2).
  - intros cl. specialize (Lo cl). specialize (Hctr cl). lia.
  - intros cl. unfold st'. rewrite tcounter_add. cbn [memo_add st_memo count_cls]. rewrite (N.eqb_sym cls cl).
    specialize (Hi cl). destruct b, (N.eqb_spec cl cls); subst; cbn [andb]; lia.
Qed.

(* a step on the memo side only: the invariant is kept, at most one entry is added and none is lost,
   the bind dictionaries are not touched *)
Definition memo_step (ll : Z) (st st' : cstate) : Prop :=
  TInv ll st' /\ memo_mono st st' /\ st_binds st' = st_binds st /\ st_bind_names st' = st_bind_names st
  /\ (length (st_memo st') <= S (length (st_memo st)))%nat.

Lemma memo_step_refl : forall ll st, TInv ll st -> memo_step ll st st.
Proof. intros ll st I. split; [exact I|]. repeat split; auto using memo_mono_refl. Qed.

Lemma truncated_identifier_spec : forall ll st cls n st' o, TInv ll st ->
  truncated_identifier ll st cls n = (st', o) -> memo_step ll st st' /\ memo_find st' cls n = Some o.
Proof.
  intros ll st cls n st' o I H. rewrite truncated_identifier_eq in H.
  destruct (memo_find st cls n) as [o0|] eqn:F.
  - injection H as <- <-. split; [apply memo_step_refl, I|exact F].
  - destruct (apply_map (st_am st) n) as [am' a] eqn:A.
    destruct (apply_map_spec _ _ _ _ (ti_am _ _ I) A) as (IA & X & C & <-). injection H as <- <-.
    split; [split; [apply TInv_add; assumption|split; [apply memo_mono_add, F|cbn; auto]]|].
    rewrite memo_find_add, (eqb_refl_of _ ckey_eqb_eq). reflexivity.
Qed.

(* two names of one class that were given the same rendered name are the same name, or are two
   different names that anonymise to the same text short enough not to be truncated *)
Lemma memo_injective : forall ll st cls n1 n2 o, TInv ll st ->
  memo_find st cls n1 = Some o -> memo_find st cls n2 = Some o ->
  n1 = n2 \/ (anon_pure (st_am st) n1 = anon_pure (st_am st) n2
              /\ slen (anon_pure (st_am st) n1) <= ll - 6).
Proof.
  intros ll st cls n1 n2 o I H1 H2.
  destruct (ti_entries _ _ I _ _ _ H1) as (_ & K1). destruct (ti_entries _ _ I _ _ _ H2) as (_ & K2).
  (* an untruncated name has at most ll - 6 characters, a truncated one at least ll - 4 *)
  assert (Hmix : forall a b c, label_too_long (slen a) ll = false -> label_too_long (slen b) ll = true ->
                 a = truncname ll b c -> False).
  { intros a b c Ha Hb E. pose proof (truncname_len ll b c Hb) as L. rewrite <- E in L.
    apply label_too_long_false in Ha. pose proof (hexs_len_pos c). unfold label_cut in L. lia. }
  destruct K1 as [(T1 & E1)|(T1 & c1 & _ & E1)], K2 as [(T2 & E2)|(T2 & c2 & _ & E2)].
  - right. split; [congruence|]. apply label_too_long_false, T1.
  - exfalso. subst o. exact (Hmix _ _ _ T1 T2 E2).
  - exfalso. subst o. exact (Hmix _ _ _ T2 T1 (eq_sym E2)).
  - left. eapply (ti_uniq _ _ I); eauto.
Qed.

Lemma small_ll_shape : forall ll st cls n o, TInv ll st -> ll < 6 -> memo_find st cls n = Some o ->
  exists c, (counter_start <= c)%N /\ o = [underscore] ++ hexs c.
Proof.
  intros ll st cls n o I Hl H. destruct (ti_entries _ _ I _ _ _ H) as (_ & [(T & _)|(T & c & Hc & E)]).
  - apply label_too_long_false in T. pose proof (slen_nonneg (anon_pure (st_am st) n)). lia.
  - exists c. split; [lia|]. subst o. unfold truncname. rewrite hex_skip_ok. unfold label_cut.
    replace (Z.max (ll - 6) 0) with 0 by lia. reflexivity.
Qed.

(* single anonymous names (col.label(None), anonymous aliases, col == value binds): the same rendered
   name in one class only for the same (id, body) *)
Lemma anon_pure_single : forall am i b, covered am [Anon i b] ->
  am_find am (i, b) = Some (anon_pure am [Anon i b]).
Proof.
  intros am i b C. specialize (C i b (or_introl eq_refl)). cbn [anon_pure]. rewrite app_nil_r.
  fold (am_find am (i, b)). destruct (am_find am (i, b)); [reflexivity|contradiction].
Qed.
Lemma memo_anon_injective : forall ll st cls i1 b1 i2 b2 o, TInv ll st ->
  memo_find st cls [Anon i1 b1] = Some o -> memo_find st cls [Anon i2 b2] = Some o ->
  (i1, b1) = (i2, b2).
Proof.
  intros ll st cls i1 b1 i2 b2 o I H1 H2.
  destruct (memo_injective _ _ _ _ _ _ I H1 H2) as [[= -> ->]|(E & _)]; [reflexivity|].
  destruct (ti_entries _ _ I _ _ _ H1) as (C1 & _). destruct (ti_entries _ _ I _ _ _ H2) as (C2 & _).
  apply anon_pure_single in C1, C2. rewrite E in C1.
  exact (proj2 (ti_am _ _ I) _ _ _ C1 C2).
Qed.

Lemma hexs_len_iff : forall c k, (1 <= k)%nat -> slen (hexs c) <= Z.of_nat k <-> (c < 16 ^ N.of_nat k)%N.
Proof. intros c k Hk. unfold slen. rewrite hexs_len, <- digits_len_le_iff by lia. lia. Qed.

Definition hex_limit : N := 1048576%N.     (* 16^5 *)
Lemma hexs_len_le5 : forall c, (c < hex_limit)%N -> slen (hexs c) <= 5.
Proof. intros c. apply (hexs_len_iff c 5). lia. Qed.
Lemma hexs_len_gt5 : forall c, (hex_limit <= c)%N -> 5 < slen (hexs c).
Proof.
  intros c H. pose proof (hexs_len_iff c 5 ltac:(lia)) as K. change (16 ^ N.of_nat 5)%N with hex_limit in K. lia.
Qed.

Lemma memo_len_bounded : forall ll st cls n o, TInv ll st -> 6 <= ll ->
  (tcounter st cls <= hex_limit)%N -> memo_find st cls n = Some o -> slen o <= ll.
Proof.
  intros ll st cls n o I Hl Hc H. destruct (ti_entries _ _ I _ _ _ H) as (_ & [(T & ->)|(T & c & Hcc & ->)]).
  - apply label_too_long_false in T. lia.
  - rewrite (truncname_len _ _ _ T). pose proof (hexs_len_le5 c ltac:(lia)). unfold label_cut. lia.
Qed.
