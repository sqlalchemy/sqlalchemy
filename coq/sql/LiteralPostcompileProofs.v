(* C05 - post-compile substitution is ONE pass over the original statement text: the replacement
   values (rendered literals) are spliced in verbatim and never scanned again, whatever token-like
   text they contain. *)
From Coq Require Import List NArith Bool.
Import ListNotations.
From SAV.sql Require Import Literal.
Open Scope N_scope.

(* a statement template: text chunks and parameter tokens *)
Inductive piece := Txt (t : str) | Hole (name : str).
Definition piece_text (p : piece) : str :=
  match p with Txt t => t | Hole n => PC_PREFIX ++ n ++ [93] end.
Definition tmpl_text (ps : list piece) : str := flat_map piece_text ps.
Fixpoint tmpl_fill (f : str -> option str) (ps : list piece) : pcres :=
  match ps with
  | [] => POk []
  | Txt t :: r => match tmpl_fill f r with POk o => POk (t ++ o) | e => e end
  | Hole n :: r =>
    match f n with
    | Some v => match tmpl_fill f r with POk o => POk (v ++ o) | e => e end
    | None => PKeyError
    end
  end.

(* a text chunk in which no token can start: no "_[" and no trailing "_" *)
Fixpoint chunk_ok (t : str) : bool :=
  match t with
  | [] => true
  | c :: r =>
    match r with
    | [] => negb (c =? 95)
    | c2 :: _ => negb ((c =? 95) && (c2 =? 91)) && chunk_ok r
    end
  end.
Definition piece_ok (p : piece) : bool :=
  match p with Txt t => chunk_ok t | Hole n => name_ok n end.

Lemma pcsub_skip f a : forall k r, pcsub f (k + length a) (a ++ r) = pcsub f k r.
Proof.
  induction a as [|c a IH]; intros k r; [rewrite <- plus_n_O; reflexivity|].
  cbn [length app]. rewrite <- plus_n_Sm. apply IH.
Qed.

Lemma strip_prefix_app p r : strip_prefix p (p ++ r) = Some r.
Proof. induction p as [|a p IH]; [reflexivity|]. cbn [app strip_prefix]. rewrite N.eqb_refl. exact IH. Qed.

Lemma strip_prefix_inv p : forall s r, strip_prefix p s = Some r -> s = p ++ r.
Proof.
  induction p as [|a p IH]; intros s r H; [inversion H; reflexivity|].
  destruct s as [|b s]; [discriminate|]. cbn [strip_prefix] in H.
  destruct (N.eqb_spec a b) as [->|]; [|discriminate]. rewrite (IH s r H). reflexivity.
Qed.

Lemma span_rb_name n r : forallb (fun c => negb (is_ws c) && negb (c =? 93)) n = true ->
  span_rb (n ++ 93 :: r) = (n, 93 :: r).
Proof.
  induction n as [|c n IH]; intros H; [reflexivity|].
  cbn [forallb] in H. apply andb_prop in H. destruct H as [H1 H2]. apply andb_prop in H1.
  destruct H1 as [_ H1]. apply negb_true_iff in H1.
  cbn [app span_rb]. rewrite H1, (IH H2). reflexivity.
Qed.

Lemma tok_at_hole n r : name_ok n = true -> tok_at (PC_PREFIX ++ n ++ 93 :: r) = Some (n, r).
Proof.
  intros H. unfold tok_at. rewrite strip_prefix_app.
  pose proof H as H'. unfold name_ok in H'. apply andb_prop in H'. destruct H' as [_ H2].
  rewrite (span_rb_name n r H2), H. reflexivity.
Qed.

Lemma pcsub_hole f n r : name_ok n = true ->
  pcsub f 0 (PC_PREFIX ++ n ++ 93 :: r)
  = match f n with
    | Some v => match pcsub f 0 r with POk o => POk (v ++ o) | e => e end
    | None => PKeyError
    end.
Proof.
  intros Hn. pose proof (tok_at_hole n r Hn) as Ht.
  change (PC_PREFIX ++ n ++ 93 :: r) with (95 :: (tl PC_PREFIX ++ n ++ 93 :: r)) in *.
  cbn [pcsub]. rewrite Ht. destruct (f n) as [v|]; [|reflexivity].
  (* of the 15 + |n| characters to skip, the 14 left of the prefix go by computation *)
  change (pcsub f (15 + length n) (tl PC_PREFIX ++ n ++ 93 :: r))
    with (pcsub f (1 + length n) (n ++ 93 :: r)).
  rewrite pcsub_skip. reflexivity.
Qed.

(* no token starts inside an admissible chunk, whatever follows it: the text would begin "__[";
   the chunk holds the first one, two or all three of these characters, but it neither ends in "_"
   nor contains "_[" *)
Lemma tok_at_chunk c t r : chunk_ok (c :: t) = true -> tok_at ((c :: t) ++ r) = None.
Proof.
  intros H. unfold tok_at.
  destruct (strip_prefix PC_PREFIX ((c :: t) ++ r)) as [x|] eqn:E; [|reflexivity]. exfalso.
  apply strip_prefix_inv in E. change PC_PREFIX with ([95; 95; 91] ++ skipn 3 PC_PREFIX) in E.
  rewrite <- app_assoc in E.
  destruct t as [|c2 [|c3 t]]; cbn [app] in E; injection E; intros; subst; discriminate H.
Qed.

Lemma chunk_ok_tail c t : chunk_ok (c :: t) = true -> chunk_ok t = true.
Proof. destruct t as [|c2 t]; [reflexivity|]. cbn [chunk_ok]. intros H. apply andb_prop in H. tauto. Qed.

Lemma pcsub_chunk f t : forall r, chunk_ok t = true ->
  pcsub f 0 (t ++ r) = match pcsub f 0 r with POk o => POk (t ++ o) | e => e end.
Proof.
  induction t as [|c t IH]; intros r H.
  - cbn [app]. destruct (pcsub f 0 r); reflexivity.
  - pose proof (tok_at_chunk c t r H) as Ht. cbn [app] in *. cbn [pcsub]. rewrite Ht.
    rewrite (IH r (chunk_ok_tail c t H)). destruct (pcsub f 0 r); reflexivity.
Qed.

Theorem postcompile_single_pass : forall f ps,
  forallb piece_ok ps = true -> pcsub f 0 (tmpl_text ps) = tmpl_fill f ps.
Proof.
  intros f ps. unfold tmpl_text. induction ps as [|p ps IH]; intros H; [reflexivity|].
  cbn [forallb] in H. apply andb_prop in H. destruct H as [Hp Hps]. specialize (IH Hps).
  cbn [flat_map]. destruct p as [t|n]; cbn [piece_text piece_ok tmpl_fill] in *.
  - rewrite (pcsub_chunk f t _ Hp), IH. reflexivity.
  - rewrite <- !app_assoc. cbn [app]. rewrite (pcsub_hole f n _ Hp), IH. reflexivity.
Qed.

(* consequence: two value assignments that agree on the template's parameters up to one value give
   results that differ exactly by that value - in particular a value that spells another parameter's
   token is NOT expanded *)
Definition tok (n : str) : str := PC_PREFIX ++ n ++ [93].
Example postcompile_value_not_rescanned :
  let f := fun n => if str_eqb n [97] then Some (39 :: tok [98] ++ [39])      (* a = '__[POSTCOMPILE_b]' *)
                    else if str_eqb n [98] then Some [39; 120; 39] else None in
  pcsub f 0 (tmpl_text [Txt [40]; Hole [97]; Txt [44; 32]; Hole [98]; Txt [41]])
  = POk ([40] ++ (39 :: tok [98] ++ [39]) ++ [44; 32] ++ [39; 120; 39] ++ [41]).
Proof. vm_compute. reflexivity. Qed.
