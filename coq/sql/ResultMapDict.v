(* C11 - lemmas about the insertion-ordered dict of ResultMap.v and decidable equality of keys *)
From Coq Require Import List NArith Bool Arith Lia.
Import ListNotations.
From SAV.sql Require Import ResultMap.

Lemma nm_eqb_eq : forall a b, nm_eqb a b = true <-> a = b.
Proof.
  induction a as [x|h i s IH]; destruct b as [y|h' i' s']; cbn [nm_eqb];
    rewrite ?andb_true_iff, ?N.eqb_eq, ?IH; split; try congruence.
  - intros [[-> ->] ->]. reflexivity.
  - intros [= -> -> ->]. auto.
Qed.

Lemma key_eqb_eq : forall a b, key_eqb a b = true <-> a = b.
Proof. destruct a, b; cbn [key_eqb]; rewrite ?nm_eqb_eq, ?N.eqb_eq; split; congruence. Qed.

Lemma key_eqb_refl : forall a, key_eqb a a = true.
Proof. intro a. now apply key_eqb_eq. Qed.

Lemma key_eqb_neq : forall a b, key_eqb a b = false <-> a <> b.
Proof. intros a b. rewrite <- key_eqb_eq. symmetry. apply not_true_iff_false. Qed.

Lemma key_eqb_sym : forall a b, key_eqb a b = key_eqb b a.
Proof.
  intros a b. destruct (key_eqb a b) eqn:E.
  - apply key_eqb_eq in E. subst. symmetry. apply key_eqb_refl.
  - symmetry. apply key_eqb_neq. apply key_eqb_neq in E. congruence.
Qed.

Lemma rix_eqb_eq : forall a b, rix_eqb a b = true <-> a = b.
Proof. destruct a, b; cbn [rix_eqb]; rewrite ?Nat.eqb_eq; split; congruence. Qed.

Lemma memk_In : forall k l, memk k l = true <-> In k l.
Proof.
  intros k l. unfold memk. rewrite existsb_exists. split.
  - intros [x [Hx E]]. apply key_eqb_eq in E. now subst.
  - intro H. exists k. split; [assumption|apply key_eqb_refl].
Qed.

Lemma memk_false : forall k l, memk k l = false <-> ~ In k l.
Proof. intros k l. rewrite <- memk_In. symmetry. apply not_true_iff_false. Qed.

Section DictLemmas.
  Context {K V : Type} (eqb : K -> K -> bool).
  Hypothesis eqb_eq : forall a b, eqb a b = true <-> a = b.

  Lemma eqb_refl' : forall a, eqb a a = true.
  Proof. intro a. now apply eqb_eq. Qed.

  Lemma dget_dset : forall (d : list (K * V)) k v k',
    dget eqb (dset eqb k v d) k' = if eqb k' k then Some v else dget eqb d k'.
  Proof.
    induction d as [|[k0 v0] r IH]; intros k v k'; cbn [dset dget].
    - reflexivity.
    - destruct (eqb k k0) eqn:E.
      + apply eqb_eq in E. subst k0. cbn [dget]. destruct (eqb k' k); reflexivity.
      + cbn [dget]. destruct (eqb k' k0) eqn:E0.
        * apply eqb_eq in E0. subst k0. destruct (eqb k' k) eqn:E1; [|reflexivity].
          apply eqb_eq in E1. subst k'. rewrite eqb_refl' in E. discriminate.
        * apply IH.
  Qed.

  (* the last value bound to [k] in an association list, scanning left to right *)
  Fixpoint alast (l : list (K * V)) (k : K) : option V :=
    match l with
    | [] => None
    | (k', v) :: r => match alast r k with Some x => Some x | None => if eqb k k' then Some v else None end
    end.

  Lemma dupdate_cons : forall (d : list (K * V)) k v r,
    dupdate eqb d ((k, v) :: r) = dupdate eqb (dset eqb k v d) r.
  Proof. reflexivity. Qed.

  Lemma dget_dupdate : forall (l d : list (K * V)) k,
    dget eqb (dupdate eqb d l) k = match alast l k with Some v => Some v | None => dget eqb d k end.
  Proof.
    induction l as [|[k0 v0] r IH]; intros d k.
    - reflexivity.
    - rewrite dupdate_cons, IH. cbn [alast]. destruct (alast r k); [reflexivity|].
      rewrite dget_dset. destruct (eqb k k0); reflexivity.
  Qed.

  Lemma dget_dict_of : forall (l : list (K * V)) k, dget eqb (dict_of eqb l) k = alast l k.
  Proof. intros l k. unfold dict_of. rewrite dget_dupdate. destruct (alast l k); reflexivity. Qed.

  Lemma alast_Some_In : forall (l : list (K * V)) k v, alast l k = Some v -> In (k, v) l.
  Proof.
    induction l as [|[k0 v0] r IH]; intros k v H; cbn [alast] in H; [discriminate|].
    destruct (alast r k) eqn:E.
    - injection H as ->. right. now apply IH.
    - destruct (eqb k k0) eqn:E0; [|discriminate]. injection H as ->. apply eqb_eq in E0. subst. now left.
  Qed.

  Lemma alast_In_Some : forall (l : list (K * V)) k v, In (k, v) l -> exists v', alast l k = Some v'.
  Proof.
    induction l as [|[k0 v0] r IH]; intros k v H; [destruct H|]. cbn [alast].
    destruct (alast r k) eqn:E; [eauto|]. destruct H as [H|H].
    - injection H as -> ->. rewrite eqb_refl'. eauto.
    - destruct (IH _ _ H) as [v' Hv]. congruence.
  Qed.

  Lemma dset_keys_In : forall (d : list (K * V)) k v k', In k' (map fst (dset eqb k v d)) <-> k' = k \/ In k' (map fst d).
  Proof.
    induction d as [|[k0 v0] r IH]; intros k v k'; cbn [dset map fst In].
    - split; [intros [H|[]]; now left | intros [H|[]]; now left].
    - destruct (eqb k k0) eqn:E.
      + apply eqb_eq in E. subst k0. cbn [map fst In]. split.
        * intros [H|H]; [left; congruence|right; now right].
        * intros [H|[H|H]]; [left; congruence|left; assumption|right; assumption].
      + cbn [map fst In]. rewrite IH. tauto.
  Qed.

  Lemma dset_NoDup : forall (d : list (K * V)) k v, NoDup (map fst d) -> NoDup (map fst (dset eqb k v d)).
  Proof.
    induction d as [|[k0 v0] r IH]; intros k v H; cbn [dset map fst].
    - constructor; [intros []|constructor].
    - inversion H as [|? ? Hn Hr]; subst. destruct (eqb k k0) eqn:E.
      + apply eqb_eq in E. subst k0. cbn [map fst]. now constructor.
      + cbn [map fst]. constructor.
        * rewrite dset_keys_In. intros [Hk|Hk]; [|contradiction]. subst k0. rewrite eqb_refl' in E. discriminate.
        * now apply IH.
  Qed.

  Lemma dupdate_NoDup : forall (l d : list (K * V)), NoDup (map fst d) -> NoDup (map fst (dupdate eqb d l)).
  Proof.
    induction l as [|[k0 v0] r IH]; intros d H; [assumption|].
    rewrite dupdate_cons. apply IH. now apply dset_NoDup.
  Qed.

  Lemma dupdate_keys_In : forall (l d : list (K * V)) k,
    In k (map fst (dupdate eqb d l)) <-> In k (map fst l) \/ In k (map fst d).
  Proof.
    induction l as [|[k0 v0] r IH]; intros d k.
    - cbn. tauto.
    - rewrite dupdate_cons, IH, dset_keys_In. cbn [map fst In]. split; [intros [H|[H|H]]|intros [[H|H]|H]]; auto.
  Qed.

  Lemma dget_In : forall (d : list (K * V)) k v, dget eqb d k = Some v -> In (k, v) d.
  Proof.
    induction d as [|[k0 v0] r IH]; intros k v H; cbn [dget] in H; [discriminate|].
    destruct (eqb k k0) eqn:E.
    - injection H as ->. apply eqb_eq in E. subst. now left.
    - right. now apply IH.
  Qed.

  Lemma In_dget : forall (d : list (K * V)) k v, NoDup (map fst d) -> In (k, v) d -> dget eqb d k = Some v.
  Proof.
    induction d as [|[k0 v0] r IH]; intros k v Hn Hin; [destruct Hin|].
    cbn [map fst] in Hn. inversion Hn as [|? ? Hk Hr]; subst. cbn [dget]. destruct Hin as [H|H].
    - injection H as -> ->. now rewrite eqb_refl'.
    - destruct (eqb k k0) eqn:E.
      + apply eqb_eq in E. subst k0. exfalso. apply Hk. apply in_map_iff. exists (k, v). now split.
      + now apply IH.
  Qed.

  Lemma dget_None_keys : forall (d : list (K * V)) k, dget eqb d k = None <-> ~ In k (map fst d).
  Proof.
    induction d as [|[k0 v0] r IH]; intros k; cbn [dget map fst In].
    - split; [intros _ []|reflexivity].
    - destruct (eqb k k0) eqn:E.
      + split; [discriminate|]. intro H. exfalso. apply H. left. apply eqb_eq in E. congruence.
      + rewrite IH. split.
        * intros H [H1|H1]; [|contradiction]. subst. rewrite eqb_refl' in E. discriminate.
        * tauto.
  Qed.
  Lemma alast_NoDup_dget : forall (d : list (K * V)) k, NoDup (map fst d) -> alast d k = dget eqb d k.
  Proof.
    induction d as [|[k0 v0] r IH]; intros k Hn; cbn [alast dget]; [reflexivity|].
    cbn [map fst] in Hn. inversion Hn as [|? ? Hk Hr]; subst. rewrite (IH k Hr).
    destruct (eqb k k0) eqn:E; [|now destruct (dget eqb r k)].
    apply eqb_eq in E. subst k0. apply dget_None_keys in Hk. now rewrite Hk.
  Qed.

  Lemma dset_In_sub : forall (d : list (K * V)) k v p, In p (dset eqb k v d) -> p = (k, v) \/ In p d.
  Proof.
    induction d as [|[k0 v0] r IH]; intros k v p H; cbn [dset] in H.
    - destruct H as [H|[]]. now left.
    - destruct (eqb k k0).
      + destruct H as [H|H]; [now left|right; now right].
      + destruct H as [H|H]; [right; now left|]. apply IH in H as [H|H]; [now left|right; now right].
  Qed.

  Lemma dupdate_In_sub : forall (l d : list (K * V)) p, In p (dupdate eqb d l) -> In p l \/ In p d.
  Proof.
    induction l as [|[k v] r IH]; intros d p H; [now right|].
    rewrite dupdate_cons in H. apply IH in H as [H|H]; [left; now right|].
    apply dset_In_sub in H as [H|H]; [left; now left|now right].
  Qed.
End DictLemmas.
