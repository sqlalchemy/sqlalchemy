(* C07, spec side: what the evaluator makes of the text between "IN (" and ")". *)
From Coq Require Import List ZArith NArith Bool Lia.
Import ListNotations.
From SAV.sql Require Import Val3 Val3Proofs InList InListSpecProofs.

Lemma items_head t ts rest : exists tl, items (t :: ts) ++ rest = t :: tl.
Proof. destruct ts; [now exists rest|]. rewrite items_cons2. eexists; reflexivity. Qed.

(* a list that starts with a scalar token is read by the last clause of [p_inbody] *)
Lemma p_inbody_items ts vs rest : scal ts vs -> ts <> [] ->
  p_inbody (items ts ++ TRp :: rest) = Some (1%nat, map (fun v => [v]) vs, rest).
Proof.
  intros H Hne. pose proof (p_scalars_items ts vs (TRp :: rest) H Hne I) as HP.
  destruct H as [|t v ts vs Ht H]; [congruence|].
  destruct (items_head t ts (TRp :: rest)) as [tl E]. rewrite E in *.
  destruct t; try discriminate Ht; cbn [p_inbody]; now rewrite HP.
Qed.

Lemma p_inbody_rows (kw : bool) rts rvs k rest :
  Forall2 scal rts rvs -> rts <> [] -> (1 <= k)%nat -> Forall (fun r => length r = k) rvs ->
  p_inbody ((if kw then [TValues] else []) ++ join [TComma] (map row_toks rts) ++ TRp :: rest)
  = Some (k, rvs, rest).
Proof.
  intros H Hn Hk1 Hk.
  assert (Hne : Forall (fun t => t <> []) rts).
  { clear Hn. induction H as [|t v rts rvs Ht H IH]; constructor; inversion Hk; subst; [|now apply IH].
    apply scal_length in Ht. destruct t; [cbn in Ht; lia|discriminate]. }
  pose proof (p_rows_join rts rvs (TRp :: rest) H Hne Hn I) as HP.
  destruct H as [|t v rts rvs Ht H]; [congruence|]. inversion Hk; subst.
  destruct kw; cbn [app].
  - cbn [p_inbody]. now rewrite HP.
  - rewrite join_rows_tail in *. cbn [p_inbody]. now rewrite HP.
Qed.

Definition neutral (it : list tok) : Prop :=
  forall rest c, sel_scan (it ++ rest) 0 c true = sel_scan rest 0 c true.

Lemma sel_scan_items its : its <> [] -> Forall neutral its -> forall rest c,
  sel_scan (join [TComma] its ++ rest) 0 c true = sel_scan rest 0 (c + (length its - 1)) true.
Proof.
  intros Hne H. induction H as [|it its Hit H IH]; intros rest c; [congruence|].
  destruct its as [|it2 its].
  - cbn [join length]. rewrite Hit. f_equal. lia.
  - rewrite join_cons2, <- !app_assoc. rewrite Hit. cbn [app sel_scan].
    rewrite IH by discriminate. f_equal. cbn [length]. lia.
Qed.

Definition flat (t : tok) : bool := match t with TLp | TRp => false | _ => true end.
Lemma sel_scan_flat ws : forallb flat ws = true -> forall rest dd c il,
  sel_scan (ws ++ rest) (S dd) c il = sel_scan rest (S dd) c il.
Proof.
  induction ws as [|t ws IH]; intros H rest dd c il; [reflexivity|].
  cbn [forallb] in H. apply andb_true_iff in H as [Ht Hs].
  cbn [app]. destruct t; try discriminate; cbn [sel_scan]; now rewrite IH.
Qed.

Lemma forall_repeat {A} (P : A -> Prop) a n : P a -> Forall P (repeat a n).
Proof. intros H. induction n; cbn [repeat]; constructor; assumption. Qed.

(* "SELECT i1, .., ik <tail>" where the scan of [tail] reaches a top-level "WHERE 1 != 1": k columns, no row *)
Lemma select_empty_body its tail k rest :
  length its = k -> (1 <= k)%nat -> Forall neutral its ->
  (forall c, sel_scan (tail ++ TRp :: rest) 0 c true = Some (S c, one_ne_one ++ TRp :: rest)) ->
  p_inbody (([TSelect] ++ join [TComma] its ++ tail) ++ TRp :: rest) = Some (k, [], rest).
Proof.
  intros Hl Hk Hn Ht. rewrite <- !app_assoc. cbn [app p_inbody].
  rewrite sel_scan_items; [|destruct its; [cbn in Hl; lia|discriminate]|exact Hn].
  rewrite Ht. cbn. f_equal. f_equal. f_equal. lia.
Qed.

(* every dialect's visit_empty_set_expr is an empty set of the right arity *)
Lemma empty_set_expr_body d k toks rest : (1 <= k)%nat -> visit_empty_set_expr d k = Ok toks ->
  p_inbody (toks ++ TRp :: rest) = Some (k, [], rest).
Proof.
  intros Hk H. unfold visit_empty_set_expr in H.
  replace (or_one k) with k in H by (destruct k; [lia|reflexivity]).
  destruct (d_empty d); try discriminate; inversion H; subst; clear H.
  - apply select_empty_body; [apply repeat_length|exact Hk|apply forall_repeat; intros r c; reflexivity|].
    intros c. cbn [app sel_scan].
    now rewrite <- app_assoc, sel_scan_flat by (apply forallb_join; [reflexivity|apply forall_repeat; reflexivity]).
  - apply select_empty_body; [apply repeat_length|exact Hk|apply forall_repeat; intros r c; reflexivity|reflexivity].
  - apply select_empty_body; [now rewrite map_length, seq_length|exact Hk| |].
    + apply Forall_forall. intros it Hit. apply in_map_iff in Hit as (i & <- & _). intros r c. reflexivity.
    + intros c. cbn [app sel_scan].
      now rewrite <- app_assoc, sel_scan_flat by (apply forallb_join_map; reflexivity).
Qed.
