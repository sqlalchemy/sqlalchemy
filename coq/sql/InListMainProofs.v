(* C07, bound and literal rendering on one plan: the code puts [in_body f ..] between "IN (" and ")" ([leep_body]:
   f = TVal once the DBAPI has bound the values; [leep_literal_body]: f = render_literal_value), and every such body
   gives the predicate the prescribed truth value ([body_pred]). *)
From Coq Require Import List ZArith NArith Bool Lia.
Import ListNotations.
From SAV.sql Require Import Val3 Val3Proofs InList InListSpecProofs InListCloseProofs InListLeepProofs
  InListBodyProofs InListRenderProofs InListPhraseProofs.

Lemma close_lhs row ps l : close row ps [] (lhs_tokens l) = Some (clhs row l).
Proof.
  destruct l as [c|cs]; [reflexivity|].
  unfold lhs_tokens, clhs, row_toks, items. apply (close_wrap row ps []).
  induction cs as [|c [|c2 cs] IH]; try reflexivity.
  cbn [map] in *. rewrite !join_cons2. cbn [app close]. now rewrite IH.
Qed.

Lemma close_render row ps a e right cright : close row ps a right = Some cright ->
  close row ps a (render_binary e right) = Some (crender e row cright).
Proof.
  intros H. unfold render_binary, generic_binary, crender.
  assert (G : forall ops, forallb static ops = true ->
              close row ps a (lhs_tokens (ie_left e) ++ ops ++ right) = Some (clhs row (ie_left e) ++ ops ++ cright)).
  { intros ops Ho. apply (close_app row ps [] _ _ a _ _ (close_lhs row ps _)).
    apply (close_app row ps [] _ _ a _ _ (close_static row ps ops Ho)). exact H. }
  destruct (ie_op e); [apply (G [TIn] eq_refl)|].
  destruct (ie_text e); [apply (G [TNot; TIn] eq_refl)|].
  apply close_wrap, (G [TNot; TIn] eq_refl).
Qed.

Definition cargs_pre (d : dialect) (p : position) : list sv :=
  if d.(d_positional) then match p with PosAnd a _ | PosOr a => [SInt a] | _ => [] end else [].
Definition cargs_post (d : dialect) (p : position) : list sv :=
  if d.(d_positional) then match p with PosAnd _ b => [SInt b] | _ => [] end else [].

Lemma close_ctx d p row tu :
  close row (ctx_others p ++ exp_params tu) (cargs_pre d p) (ctx_pre d p) = Some (cctx_pre p row false) /\
  close row (ctx_others p ++ exp_params tu) (cargs_post d p) (ctx_post d p) = Some (cctx_post p row false).
Proof.
  unfold cargs_pre, cargs_post, ctx_pre, ctx_post, other_tok.
  destruct p; destruct (d_positional d); split; try reflexivity;
    cbn [close]; rewrite lookup_other_app; reflexivity.
Qed.

Lemma all_some_app {A} (l1 l2 : list (option A)) v1 v2 :
  all_some l1 = Some v1 -> all_some l2 = Some v2 -> all_some (l1 ++ l2) = Some (v1 ++ v2).
Proof.
  revert v1. induction l1 as [|[a|] l1 IH]; intros v1 H1 H2; cbn [all_some app] in *.
  - inversion H1; subst. exact H2.
  - destruct (all_some l1) as [w|]; [|discriminate]. cbn [option_map] in H1. inversion H1; subst.
    now rewrite (IH w eq_refl H2).
  - discriminate.
Qed.

Lemma args_total d p tu : d.(d_positional) = true -> NoDup (map fst tu) ->
  all_some (map (fun n => lookup_param n (ctx_others p ++ exp_params tu))
                (ctx_names_pre p ++ map (fun kv => PExp (fst kv)) tu ++ ctx_names_post p))
  = Some (cargs_pre d p ++ map snd tu ++ cargs_post d p).
Proof.
  intros Ed Hnd. rewrite !map_app. unfold cargs_pre, cargs_post. rewrite Ed.
  apply all_some_app; [|apply all_some_app].
  - destruct p; cbn [ctx_names_pre map all_some]; rewrite ?lookup_other_app; reflexivity.
  - apply (args_of_names (ctx_others p) tu (no_exp_others p) Hnd tu). apply incl_refl.
  - destruct p; cbn [ctx_names_post map all_some]; rewrite ?lookup_other_app; reflexivity.
Qed.

Lemma exec_from_pred row d p e tu repl crepl v :
  NoDup (map fst tu) ->
  close row (ctx_others p ++ exp_params tu) (pargs d tu) repl = Some crepl ->
  good_pred (crender e row ([TLp] ++ crepl ++ [TRp])) v ->
  exec_sem row (expansion d p e tu repl)
  = EOk (ctx_value p row v).
Proof.
  intros Hnd Hc Hg. destruct (close_ctx d p row tu) as [Hpre Hpost].
  assert (G : close row (ctx_others p ++ exp_params tu) (cargs_pre d p ++ pargs d tu ++ cargs_post d p)
                (ctx_pre d p ++ render_binary e ([TLp] ++ repl ++ [TRp]) ++ ctx_post d p)
              = Some (cctx_pre p row false ++ crender e row ([TLp] ++ crepl ++ [TRp]) ++ cctx_post p row false)).
  { apply close_app; [exact Hpre|]. apply close_app; [|exact Hpost]. now apply close_render, close_wrap. }
  apply (ctx_phrase p row false), phrase_teval in Hg.
  unfold exec_sem, close_expanded, expansion. cbn [x_statement x_params x_positiontup].
  destruct (d_positional d) eqn:Ed.
  - rewrite (args_total d p tu Ed Hnd). unfold pargs in G. rewrite Ed in G. now rewrite G.
  - unfold cargs_pre, cargs_post, pargs in G. rewrite Ed in G. change ([] ++ [] ++ []) with (@nil sv) in G. now rewrite G.
Qed.

Lemma static_repeat it k : forallb static it = true -> forallb static (join [TComma] (repeat it k)) = true.
Proof. intros H. apply forallb_join; [reflexivity|]. now apply forall_repeat. Qed.

Lemma empty_expr_static d k E : visit_empty_set_expr d k = Ok E -> forallb static E = true.
Proof.
  unfold visit_empty_set_expr, ones. destruct (d_empty d); intros H; inversion H; subst; clear H;
    repeat (rewrite ?forallb_app; cbn [forallb static andb one_ne_one app]);
    rewrite ?static_repeat, ?forallb_join_map by reflexivity; reflexivity.
Qed.

Lemma empty_op_static d k eo E : visit_empty_set_op_expr d k eo = Ok E -> forallb static E = true.
Proof.
  unfold visit_empty_set_op_expr, nulls. destruct (d_empty_op_override d); [apply empty_expr_static|].
  destruct eo as [[|]|]; [| |apply empty_expr_static];
    intros H; inversion H; subst; clear H; destruct (Nat.ltb 1 k);
    repeat (rewrite ?forallb_app; cbn [forallb static andb app]); rewrite ?static_repeat by reflexivity; reflexivity.
Qed.

Lemma inop_eqb_eq a b : inop_eqb a b = true -> a = b.
Proof. destruct a, b; cbn; congruence. Qed.

Lemma lhs_vals_length row l : length (lhs_vals row l) = match l with LCol _ => 1%nat | LTuple cs => length cs end.
Proof. destruct l; cbn [lhs_vals length]; [reflexivity|apply map_length]. Qed.

(* the two shapes allowed by [wf]: scalars against a column, k-tuples against a row value of arity k (whose
   bind has a tuple type, or no type and then a non-empty list to take the arity from) *)
Lemma wf_shape e vals : wf e vals = true ->
  (all_scalar vals = true /\ (forall row, length (lhs_vals row (ie_left e)) = 1%nat) /\
   tuple_branch (ie_bind e) vals = false /\ type_count (ie_bind e) = 1%nat) \/
  (exists k, all_tuple k vals = true /\ (1 <= k)%nat /\ (forall row, length (lhs_vals row (ie_left e)) = k) /\
             (vals <> [] -> tuple_branch (ie_bind e) vals = true) /\
             (bp_kind (ie_bind e) = KTuple k \/ bp_kind (ie_bind e) = KNull /\ vals <> [])).
Proof.
  unfold wf, tuple_branch, type_count, is_tuple_type, is_null_type.
  destruct (ie_left e) as [c|cs]; destruct (bp_kind (ie_bind e)) as [|k|]; intros H; try discriminate.
  - left. repeat split; try reflexivity; exact H.
  - left. repeat split; try reflexivity; [exact H|]. cbn [orb andb].
    destruct vals as [|v0 vals]; [reflexivity|].
    now destruct (all_scalar_in _ v0 H (or_introl eq_refl)) as (s & ->).
  - right. apply andb_true_iff in H as [H H3]. apply andb_true_iff in H as [H1 H2].
    apply Nat.eqb_eq in H1. apply Nat.leb_le in H2. exists k.
    repeat split; try assumption; [intros; now rewrite lhs_vals_length|now left].
  - right. apply andb_true_iff in H as [H H3]. apply andb_true_iff in H as [H1 H2].
    apply Nat.leb_le in H1. exists (length cs).
    assert (Hne : vals <> []) by (intros ->; discriminate).
    repeat split; try assumption; [intros; apply lhs_vals_length| |now right].
    intros _. cbn [orb andb]. destruct vals as [|v0 vals]; [congruence|].
    now destruct (all_tuple_in _ _ v0 H2 (or_introl eq_refl)) as (l & -> & _).
Qed.

Lemma wf_lhs_ok e vals : wf e vals = true -> lhs_ok (ie_left e).
Proof.
  intros H. assert (Hl : (1 <= length (lhs_vals (fun _ => SNull) (ie_left e)))%nat)
    by (destruct (wf_shape e vals H) as [(_ & H1 & _)|(k & _ & Hk & H1 & _)]; rewrite H1; lia).
  destruct (ie_left e) as [c|[|c cs]]; [exact I|cbn in Hl; lia|discriminate].
Qed.

Definition empty_repl (d : dialect) (e : inexpr) : list tok :=
  match visit_empty_set_op_expr d (type_count (ie_bind e)) (bp_expand_op (ie_bind e)) with
  | Ok E => E | Raise _ => [] end.
Lemma empty_ok_repl d e : empty_ok d e [] = true ->
  visit_empty_set_op_expr d (type_count (ie_bind e)) (bp_expand_op (ie_bind e)) = Ok (empty_repl d e).
Proof. unfold empty_ok, empty_repl. now destruct (visit_empty_set_op_expr _ _ _). Qed.
Lemma static_empty_repl d e : forallb static (empty_repl d e) = true.
Proof.
  unfold empty_repl. destruct (visit_empty_set_op_expr _ _ _) eqn:HE; [|reflexivity].
  exact (empty_op_static _ _ _ _ HE).
Qed.

Lemma empty_pred d e row : consistent e = true -> wf e [] = true -> empty_ok d e [] = true ->
  good_pred (crender e row ([TLp] ++ empty_repl d e ++ [TRp])) (expected (ie_op e) (lhs_vals row (ie_left e)) []).
Proof.
  intros Hc Hwf He. pose proof (wf_lhs_ok e [] Hwf) as Hl. pose proof (empty_ok_repl d e He) as HE.
  assert (Hk : (1 <= type_count (ie_bind e))%nat /\ length (lhs_vals row (ie_left e)) = type_count (ie_bind e)).
  { unfold type_count.
    destruct (wf_shape e [] Hwf) as [(_ & H1 & _ & H2)|(k & _ & Hk & H1 & _ & [H2|[_ H2]])]; [|rewrite H2|congruence].
    - unfold type_count in H2. rewrite H2, H1. split; lia.
    - split; [exact Hk|apply H1]. }
  destruct Hk as [Hk HX]. revert HE. generalize (empty_repl d e). intros E HE.
  assert (Hsub : visit_empty_set_expr d (type_count (ie_bind e)) = Ok E ->
            good_pred (crender e row ([TLp] ++ E ++ [TRp])) (expected (ie_op e) (lhs_vals row (ie_left e)) [])).
  { intros HS. apply (regular_pred e row E (type_count (ie_bind e)) [] Hl).
    - intros rest. exact (empty_set_expr_body d _ E rest Hk HS).
    - unfold rows_ok. now rewrite HX, Nat.eqb_refl. }
  pose proof HE as HS. unfold visit_empty_set_op_expr in HS.
  unfold consistent in Hc. apply andb_true_iff in Hc as [Hc _].
  destruct (d_empty_op_override d) eqn:Hov; [now apply Hsub|].
  destruct (bp_expand_op (ie_bind e)) as [o|]; [|now apply Hsub].
  apply andb_true_iff in Hc as [Ho Ht]. apply inop_eqb_eq in Ho. subst o. apply negb_true_iff in Ht.
  exact (default_empty_pred d e row _ E Hl Hk HX Hov (fun _ => Ht) HE).
Qed.

(* what stands between "IN (" and ")" when every value [v] is shown as the token [f v] *)
Definition in_body (f : sv -> tok) (d : dialect) (e : inexpr) (vals : list value) : list tok :=
  match vals with
  | [] => empty_repl d e
  | _ => if tuple_branch (ie_bind e) vals
         then (if d_tuple_in_values d then [TValues] else [])
              ++ join [TComma] (map (fun te => row_toks (map f te)) (map value_row vals))
         else items (map f (scalars vals))
  end.

Lemma rows_ok_tuples k X ts : length X = k -> Forall (fun te => length te = k) ts -> rows_ok k X ts = true.
Proof.
  intros HX H. unfold rows_ok. rewrite HX, Nat.eqb_refl. cbn [andb].
  apply forallb_forall. intros te Hin. rewrite Forall_forall in H. apply Nat.eqb_eq. now apply H.
Qed.

(* whatever faithful way of showing the values is used, the predicate has the prescribed truth value *)
Lemma body_pred d e row f vals : (forall v, scalar_of (f v) = Some v) ->
  consistent e = true -> wf e vals = true -> empty_ok d e vals = true ->
  good_pred (crender e row ([TLp] ++ in_body f d e vals ++ [TRp]))
            (expected (ie_op e) (lhs_vals row (ie_left e)) (map value_row vals)).
Proof.
  intros Hf Hc Hwf He. pose proof (wf_lhs_ok e vals Hwf) as Hl.
  destruct vals as [|v0 vals']; [now apply empty_pred|].
  unfold in_body.
  destruct (wf_shape e _ Hwf) as [(Hs & HX & Hb & _)|(k & Ht & Hk & HX & Hb & _)].
  - rewrite Hb, (all_scalar_rows _ Hs).
    apply (regular_pred e row _ 1%nat _ Hl).
    + intros rest. apply p_inbody_items; [now apply scal_map|discriminate].
    + apply rows_ok_tuples; [apply HX|]. apply Forall_forall. intros r Hr.
      apply in_map_iff in Hr as (v & <- & _). reflexivity.
  - rewrite (Hb ltac:(discriminate)). pose proof (all_tuple_len k _ Ht) as Hlen.
    apply (regular_pred e row _ k _ Hl); [|now apply rows_ok_tuples].
    intros rest. rewrite <- app_assoc, <- (map_map (map f) row_toks).
    apply p_inbody_rows; [now apply scal_map_rows|discriminate|exact Hk|exact Hlen].
Qed.

Lemma leep_body d e vals : wf e vals = true -> empty_ok d e vals = true ->
  exists tu repl, leep d (ie_bind e) vals = Ok (tu, repl) /\ NoDup (map fst tu) /\
    forall row base, no_exp base ->
      close row (base ++ exp_params tu) (pargs d tu) repl = Some (in_body TVal d e vals).
Proof.
  intros Hwf He. destruct vals as [|v0 vals'].
  - exists [], (empty_repl d e). split; [unfold leep; now rewrite (empty_ok_repl d e He)|].
    split; [constructor|]. intros row base _.
    unfold pargs. destruct (d_positional d); apply close_static, static_empty_repl.
  - unfold in_body.
    destruct (wf_shape e _ Hwf) as [(Hs & _ & Hb & _)|(k & Ht & _ & _ & Hb & _)].
    + eexists _, _. split; [exact (leep_scalar d _ (v0 :: vals') ltac:(discriminate) Hs Hb)|].
      split; [apply nodup_tu_scalar|]. intros row base Hbase.
      rewrite Hb, (close_bind_items row d base _ Hbase (nodup_tu_scalar _) _ (incl_refl _)).
      unfold val_items. now rewrite tu_scalar_snd.
    + specialize (Hb ltac:(discriminate)).
      eexists _, _. split; [exact (leep_tuple d _ (v0 :: vals') k ltac:(discriminate) Ht Hb)|].
      split; [apply nodup_blocks|]. intros row base Hbase. rewrite Hb.
      apply (close_app row _ [] _ _ (pargs d _)); [apply close_static; now destruct (d_tuple_in_values d)|].
      rewrite (close_bind_rows row d base _ Hbase (nodup_blocks _ _) _ (incl_refl _)).
      unfold val_rows. now rewrite blocks_snd.
Qed.

Theorem bound_correct d p e vals row pop :
  consistent e = true -> wf e vals = true -> empty_ok d e vals = true ->
  exists x c', process (compile d p e) (ctx_others p) vals pop = Ok (x, c') /\
    exec_sem row x = EOk (ctx_value p row (expected e.(ie_op) (lhs_vals row e.(ie_left)) (map value_row vals))).
Proof.
  intros Hc Hwf He.
  destruct (leep_body d e vals Hwf He) as (tu & repl & Hleep & Hnd & Hclose).
  pose proof (process_compile d p e vals pop) as Hp. rewrite Hleep in Hp. destruct Hp as (c' & Hp).
  eexists _, c'. split; [exact Hp|].
  apply (exec_from_pred row d p e tu repl _ _ Hnd (Hclose row _ (no_exp_others p))).
  now apply body_pred.
Qed.

(* the four shapes of [compile_literal_stmt] as prefix ++ predicate ++ suffix *)
Definition lit_pre (p : position) : list tok :=
  match p with
  | PosBare => [] | PosCase => [TLp]
  | PosAnd a _ => [TCol 0; TNe; TNum a; TAnd]
  | PosOr a => [TCol 0; TEq; TNum a; TOr]
  end.
Definition lit_post (p : position) : list tok :=
  match p with
  | PosBare => [] | PosCase => [TRp]
  | PosAnd _ b => [TAnd; TCol 0; TNe; TNum b]
  | PosOr _ => []
  end.

Lemma literal_stmt_form d p e vals :
  compile_literal_stmt d p e vals =
  bind (leep_literal d (ie_bind e) vals) (fun repl =>
  Ok (lit_pre p ++ render_binary e ([TLp] ++ repl ++ [TRp]) ++ lit_post p)).
Proof.
  unfold compile_literal_stmt, compile_literal.
  destruct (leep_literal d (ie_bind e) vals) as [repl|]; [|reflexivity].
  destruct p; cbn [bind lit_pre lit_post app]; rewrite ?app_nil_r; reflexivity.
Qed.

Lemma exec_literal_from_pred row p e repl v : forallb static repl = true ->
  good_pred (crender e row ([TLp] ++ repl ++ [TRp])) v ->
  exec_literal row (lit_pre p ++ render_binary e ([TLp] ++ repl ++ [TRp]) ++ lit_post p) = EOk (ctx_value p row v).
Proof.
  intros Hs Hg. unfold exec_literal.
  replace (close row [] [] _) with (Some (cctx_pre p row true ++ crender e row ([TLp] ++ repl ++ [TRp]) ++ cctx_post p row true)).
  - apply phrase_teval. now apply ctx_phrase.
  - symmetry. apply (close_app row [] [] _ _ []); [destruct p; reflexivity|].
    apply (close_app row [] [] _ _ []); [|destruct p; reflexivity].
    now apply close_render, close_wrap, close_static.
Qed.

Lemma static_rlv ss : forallb static (items (map render_literal_value ss)) = true.
Proof.
  unfold items. rewrite map_map. apply forallb_join_map; [reflexivity|]. intros v. now destruct v.
Qed.

Lemma static_in_body d e vals : forallb static (in_body render_literal_value d e vals) = true.
Proof.
  destruct vals as [|v0 vals']; [apply static_empty_repl|]. unfold in_body.
  destruct (tuple_branch _ _); [|apply static_rlv].
  rewrite forallb_app. apply andb_true_iff. split; [now destruct (d_tuple_in_values d)|].
  apply forallb_join_map; [reflexivity|]. intros te.
  unfold row_toks. cbn [forallb static andb]. now rewrite forallb_app, static_rlv.
Qed.

Lemma leep_literal_body d e vals :
  wf e vals = true -> empty_ok d e vals = true -> literal_guard d e vals = true ->
  leep_literal d (ie_bind e) vals = Ok (in_body render_literal_value d e vals).
Proof.
  intros Hwf He Hg. destruct vals as [|v0 vals'].
  - cbn [leep_literal in_body]. rewrite <- (empty_ok_repl d e He).
    unfold type_count, is_tuple_type. now destruct (bp_kind (ie_bind e)).
  - unfold leep_literal, in_body. unfold literal_guard in Hg. apply negb_true_iff in Hg.
    destruct (wf_shape e _ Hwf) as [(Hs & _ & Hb & _)|(k & Ht & _ & _ & Hb & Hkind)].
    + rewrite Hb, (all_scalar_ok _ Hs). cbn [bind]. unfold items. now rewrite map_map.
    + specialize (Hb ltac:(discriminate)). rewrite Hb, andb_true_r in Hg.
      (* inside the guard the bind has a tuple type: its arity is that of every value, so zip truncates nothing *)
      destruct Hkind as [Hkind|[Hkind _]]; [|unfold is_null_type in Hg; now rewrite Hkind in Hg].
      rewrite Hb, Hkind, (all_tuple_ok k _ Ht). cbn [bind]. f_equal. f_equal. f_equal.
      apply map_ext_in. intros te Hte. pose proof (all_tuple_len k _ Ht) as Hlen.
      rewrite Forall_forall in Hlen. rewrite <- (Hlen te Hte), firstn_all.
      unfold row_toks, items. cbn [app]. now rewrite map_map.
Qed.

Theorem literal_correct_guarded d p e vals row :
  consistent e = true -> wf e vals = true -> empty_ok d e vals = true -> literal_guard d e vals = true ->
  exists ts, compile_literal_stmt d p e vals = Ok ts /\
    exec_literal row ts = EOk (ctx_value p row (expected e.(ie_op) (lhs_vals row e.(ie_left)) (map value_row vals))).
Proof.
  intros Hc Hwf He Hg.
  rewrite literal_stmt_form, (leep_literal_body d e vals Hwf He Hg). cbn [bind].
  eexists. split; [reflexivity|].
  apply exec_literal_from_pred; [apply static_in_body|]. now apply body_pred; [now destruct v|..].
Qed.
