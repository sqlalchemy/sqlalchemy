(* C09 - Interval, Boolean, Decimal, Enum, Uuid, JSON / Pickle, and TypeDecorator steps under nesting *)
From Coq Require Import List NArith ZArith Bool Lia ZifyBool.
Import ListNotations.
From SAV.sql Require Import Types TypesStrProofs TypesDateProofs TypesOrdProofs.

(* ---------- Interval ---------- *)
Open Scope Z_scope.
Lemma time_of_us_ok : forall r, 0 <= r < us_per_day ->
  valid_time (time_of_us r) = true /\ us_of_time (time_of_us r) = r.
Proof.
  intros r Hr. unfold us_per_day in Hr. split.
  - unfold valid_time, time_of_us. cbn [th tmi ts tus].
    repeat (apply andb_true_iff; split); apply N.ltb_lt; Z.div_mod_to_equations; lia.
  - unfold us_of_time, time_of_us. cbn [th tmi ts tus].
    rewrite !Z2N.id by (Z.div_mod_to_equations; lia). Z.div_mod_to_equations. lia.
Qed.

Theorem interval_roundtrip : forall td,
  1 <= epoch_ord + td / us_per_day <= max_ord ->
  exists w, bind_interval (Some td) = Ok (Some w) /\ result_interval (Some w) = POk (Some td).
Proof.
  intros td Hr. unfold bind_interval, epoch_plus.
  replace ((1 <=? epoch_ord + td / us_per_day) && (epoch_ord + td / us_per_day <=? max_ord)) with true by lia.
  cbn [bind_datetime]. eexists. split; [reflexivity|].
  destruct (ordinal_law_holds _ Hr) as [Hv Ho].
  assert (Hm : 0 <= td mod us_per_day < us_per_day) by (apply Z.mod_pos_bound; reflexivity).
  destruct (time_of_us_ok _ Hm) as [Ht Hu].
  unfold result_interval, result_iso. rewrite (iso_datetime_roundtrip false) by assumption. cbn [stored].
  unfold minus_epoch. rewrite Ho, Hu. do 2 f_equal.
  unfold us_per_day. Z.div_mod_to_equations. lia.
Qed.

Theorem interval_out_of_range : forall td,
  ~ (1 <= epoch_ord + td / us_per_day <= max_ord) -> bind_interval (Some td) = Raise OverflowError.
Proof.
  intros td H. unfold bind_interval, epoch_plus.
  destruct ((1 <=? epoch_ord + td / us_per_day) && (epoch_ord + td / us_per_day <=? max_ord)) eqn:E; [lia|reflexivity].
Qed.

(* ---------- Boolean ---------- *)
Theorem boolean_roundtrip : forall b : bool,
  exists w, bind_boolean (Some (if b then BTrue else BFalse)) = Ok (Some w) /\ int_to_boolean (Some w) = Some b.
Proof. intros [|]; eexists; split; reflexivity. Qed.
Theorem boolean_none : bind_boolean None = Ok None /\ int_to_boolean None = None.
Proof. split; reflexivity. Qed.

(* ---------- Numeric / Float ---------- *)
Theorem decimal_roundtrip_scale : forall s v, (d_e v <= s)%N -> dec_eqb (to_decimal s v) v = true.
Proof.
  intros s [k e] H. cbn [d_e] in H. unfold to_decimal, dec_eqb. cbn [d_k d_e].
  apply N.leb_le in H. rewrite H. cbn [d_k d_e]. apply N.leb_le in H. apply Z.eqb_eq.
  rewrite <- Z.mul_assoc. f_equal. rewrite <- Z.pow_add_r by lia. f_equal. lia.
Qed.

Theorem to_decimal_scale : forall s v, d_e (to_decimal s v) = s.
Proof. intros s v. unfold to_decimal. destruct (d_e v <=? s)%N; reflexivity. Qed.

(* on a dialect without native decimals (SQLite): floats go out, Decimals at the effective scale come back *)
Theorem numeric_processors_non_native : forall t,
  num_bind_proc false t = ToFloat /\
  num_result_proc false t = if n_asdecimal t then ToDecimal (effective_scale t) else NoProc.
Proof. intros [fl ad sc drs]. unfold num_bind_proc, num_result_proc. cbn. destruct fl, ad; auto. Qed.

Theorem effective_scale_precedence : forall t,
  effective_scale t = match n_drs t, n_scale t with Some r, _ => r | None, Some s => s | None, None => 10%N end.
Proof. intros [fl ad [s|] [r|]]; reflexivity. Qed.

(* ---------- Uuid ---------- *)
Open Scope N_scope.
Lemma hexval_hexchar : forall d, d < 16 -> hexval (hexchar d) = Some d.
Proof.
  intros d H. unfold hexval, hexchar. destruct (d <? 10) eqn:E.
  - replace ((48 <=? 48 + d) && (48 + d <=? 57)) with true by lia. f_equal. lia.
  - replace ((48 <=? 87 + d) && (87 + d <=? 57)) with false by lia.
    replace ((97 <=? 87 + d) && (87 + d <=? 102)) with true by lia. f_equal. lia.
Qed.

Lemma hexnum_app : forall a b acc,
  hexnum (a ++ b) acc = match hexnum a acc with Some v => hexnum b v | None => None end.
Proof.
  induction a as [|c r IH]; intros b acc; cbn [app hexnum]; [reflexivity|].
  destruct (hexval c); [apply IH|reflexivity].
Qed.

Lemma hexdigs_length : forall w n, length (hexdigs w n) = w.
Proof. induction w as [|w IH]; intros n; cbn [hexdigs]; [reflexivity|]. rewrite app_length, IH. cbn. lia. Qed.

Lemma hexnum_hexdigs : forall w n acc, n < 16 ^ N.of_nat w ->
  hexnum (hexdigs w n) acc = Some (acc * 16 ^ N.of_nat w + n).
Proof.
  induction w as [|w IH]; intros n acc H.
  - cbn in *. f_equal. lia.
  - cbn [hexdigs]. rewrite hexnum_app. rewrite Nat2N.inj_succ, N.pow_succ_r' in *.
    rewrite IH by (apply N.div_lt_upper_bound; lia).
    cbn [hexnum]. rewrite hexval_hexchar by (apply N.mod_lt; lia). f_equal.
    zify. Z.to_euclidean_division_equations. nia.
Qed.

Theorem uuid_roundtrip : forall u, u < 2 ^ 128 -> result_uuid (bind_uuid (Some u)) = Ok (Some u).
Proof.
  intros u H. unfold bind_uuid, result_uuid. rewrite hexdigs_length. cbn [Nat.eqb].
  rewrite hexnum_hexdigs.
  - do 2 f_equal.
  - change (16 ^ N.of_nat 32) with (2 ^ 128). exact H.
Qed.
Theorem uuid_none : result_uuid (bind_uuid None) = Ok None.
Proof. reflexivity. Qed.

(* ---------- Enum ---------- *)
Lemma ekey_eqb_eq : forall a b, ekey_eqb a b = true <-> a = b.
Proof.
  destruct a, b; cbn; split; intro H; try discriminate.
  - apply N.eqb_eq in H. now subst.
  - injection H as ->. apply N.eqb_refl.
  - apply N.eqb_eq in H. now subst.
  - injection H as ->. apply N.eqb_refl.
Qed.

Lemma eget_app : forall {V} (a b : list (ekey * V)) k,
  eget (a ++ b) k = match eget b k with Some x => Some x | None => eget a k end.
Proof.
  intros V. induction a as [|[k0 v0] r IH]; intros b k; cbn [app eget].
  - destruct (eget b k); reflexivity.
  - rewrite IH. destruct (eget b k); reflexivity.
Qed.

Lemma eget_In : forall {V} (l : list (ekey * V)) k v, eget l k = Some v -> In (k, v) l.
Proof.
  intros V. induction l as [|[k0 v0] r IH]; intros k v H; cbn [eget] in H; [discriminate|].
  destruct (eget r k) eqn:E.
  - injection H as ->. right. now apply IH.
  - destruct (ekey_eqb k k0) eqn:E0; [|discriminate]. injection H as ->. apply ekey_eqb_eq in E0. subst. now left.
Qed.

Lemma In_eget : forall {V} (l : list (ekey * V)) k v, In (k, v) l -> exists v', eget l k = Some v'.
Proof.
  intros V. induction l as [|[k0 v0] r IH]; intros k v H; [destruct H|]. cbn [eget].
  destruct (eget r k) eqn:E; [eauto|]. destruct H as [H|H].
  - injection H as -> ->. replace (ekey_eqb k k) with true by (symmetry; now apply ekey_eqb_eq). eauto.
  - destruct (IH _ _ H) as [v' Hv']. congruence.
Qed.

Lemma eget_unique : forall {V} (l : list (ekey * V)) k v,
  (forall x, In (k, x) l -> x = v) -> (exists x, In (k, x) l) -> eget l k = Some v.
Proof.
  intros V l k v Hall [x Hx]. destruct (In_eget l k x Hx) as [v' Hv']. rewrite Hv'. f_equal.
  apply Hall. now apply eget_In.
Qed.

Lemma combine_app_eq : forall {A B} (a a' : list A) (b b' : list B), length a = length b ->
  combine (a ++ a') (b ++ b') = combine a b ++ combine a' b'.
Proof.
  intros A B. induction a as [|x a IH]; intros a' [|y b] b' H; try discriminate; [reflexivity|].
  cbn. injection H as H. now rewrite IH.
Qed.

Lemma combine_rev : forall {A B} (a : list A) (b : list B), length a = length b ->
  combine (rev a) (rev b) = rev (combine a b).
Proof.
  intros A B. induction a as [|x a IH]; intros [|y b] H; try discriminate; [reflexivity|].
  cbn [rev combine]. injection H as H. rewrite <- IH by assumption.
  rewrite combine_app_eq by (rewrite !rev_length; assumption). reflexivity.
Qed.

Lemma in_combine_swap : forall {A B} (a : list A) (b : list B) x y, In (x, y) (combine a b) -> In (y, x) (combine b a).
Proof.
  intros A B. induction a as [|x0 a IH]; intros [|y0 b] x y H; cbn [combine] in *; try (now destruct H).
  destruct H as [H|H].
  - injection H as -> ->. now left.
  - right. now apply IH.
Qed.

Lemma map_fst_combine : forall {A B} (a : list A) (b : list B), length a = length b -> map fst (combine a b) = a.
Proof.
  intros A B. induction a as [|x a IH]; intros [|y b] H; try discriminate; [reflexivity|].
  cbn. injection H as H. now rewrite IH.
Qed.

Lemma in_combine_map : forall {A B} (f : B -> A) (l : list B) a b,
  In (a, b) (combine (map f l) l) <-> a = f b /\ In b l.
Proof.
  intros A B f. induction l as [|x l IH]; intros a b; cbn; [tauto|]. split.
  - intros [H|H]; [injection H as <- <-; auto|apply IH in H; tauto].
  - intros [-> [->|H]]; [now left|right; apply IH; auto].
Qed.

(* the last binding of a value string in _object_lookup, when the db values are pairwise distinct *)
Lemma object_lookup_get : forall (l : list (N * ekey)) v o, NoDup (map fst l) -> In (v, o) l ->
  eget (map (fun vo => (EStr (fst vo), snd vo)) l) (EStr v) = Some o.
Proof.
  induction l as [|[v0 o0] r IH]; intros v o Hn Hin; [destruct Hin|].
  cbn [map fst] in Hn. inversion Hn as [|? ? Hnot Hr]; subst. cbn [map eget fst snd].
  destruct Hin as [Hin|Hin].
  - injection Hin as -> ->.
    destruct (eget (map (fun vo => (EStr (fst vo), snd vo)) r) (EStr v)) eqn:E.
    + exfalso. apply eget_In, in_map_iff in E as ([v1 o1] & E1 & Hin1). cbn in E1. injection E1 as -> ->.
      apply Hnot. apply in_map_iff. exists (v, e). auto.
    + cbn [ekey_eqb]. now rewrite N.eqb_refl.
  - now rewrite (IH v o Hr Hin).
Qed.

Lemma extras_no_obj : forall t o,
  eget (flat_map (fun v => match eget (object_lookup t) (EStr v) with
                           | Some o' => match eget (valid_lookup0 t) o' with Some x => [(EStr v, x)] | None => [] end
                           | None => []
                           end) (e_values t)) (EObj o) = None.
Proof.
  intros t o. induction (e_values t) as [|v r IH]; [reflexivity|]. cbn [flat_map]. rewrite eget_app, IH.
  destruct (eget (object_lookup t) (EStr v)) as [o'|]; [|reflexivity].
  destruct (eget (valid_lookup0 t) o'); reflexivity.
Qed.

(* enum class members: every member survives the round trip when the db values are pairwise distinct *)
Theorem enum_roundtrip_members : forall t o,
  NoDup (e_values t) -> length (e_values t) = length (e_objects t) ->
  In (EObj o) (e_objects t) ->
  exists v, bind_enum t (Some (EObj o)) = Ok (Some v) /\ result_enum t (Some v) = Ok (Some (EObj o)).
Proof.
  intros t o Hnd Hlen Hin. unfold bind_enum, valid_lookup. rewrite eget_app, extras_no_obj.
  unfold valid_lookup0. rewrite combine_rev by (symmetry; exact Hlen).
  assert (Hex : exists v, In (EObj o, v) (combine (e_objects t) (e_values t))).
  { clear Hnd. revert Hlen Hin. generalize (e_values t). induction (e_objects t) as [|x objs IH]; intros [|v vals] Hlen Hin;
      try discriminate; [destruct Hin|]. destruct Hin as [->|Hin].
    - exists v. now left.
    - injection Hlen as Hlen. destruct (IH vals Hlen Hin) as [v' Hv']. exists v'. now right. }
  destruct Hex as [v0 Hv0].
  destruct (In_eget (rev (combine (e_objects t) (e_values t))) (EObj o) v0) as [v Hv]; [now apply -> in_rev|].
  rewrite Hv. exists v. split; [reflexivity|].
  apply eget_In, in_rev, in_combine_swap in Hv.
  unfold result_enum, object_lookup. rewrite (object_lookup_get _ v (EObj o)); [reflexivity| |assumption].
  now rewrite map_fst_combine.
Qed.

(* refuted without the guard: two members given the same db value by values_callable *)
Theorem enum_roundtrip_duplicate_values_refuted :
  exists t o v, In (EObj o) (e_objects t) /\ length (e_values t) = length (e_objects t) /\
    bind_enum t (Some (EObj o)) = Ok (Some v) /\ result_enum t (Some v) <> Ok (Some (EObj o)).
Proof.
  exists {| e_values := [7; 7]; e_objects := [EObj 0; EObj 1]; e_validate_strings := false |}, 0, 7.
  repeat split; try (cbn; tauto). cbn. discriminate.
Qed.

(* plain string enums: Enum("a", "b", ...) *)
Theorem enum_roundtrip_strings : forall vals vs s, NoDup vals -> In s vals ->
  let t := {| e_values := vals; e_objects := map EStr vals; e_validate_strings := vs |} in
  bind_enum t (Some (EStr s)) = Ok (Some s) /\ result_enum t (Some s) = Ok (Some (EStr s)).
Proof.
  intros vals vs s Hnd Hin t.
  assert (Hvl0 : forall k x, In (k, x) (valid_lookup0 t) -> k = EStr x).
  { intros k x H. unfold valid_lookup0, t in H. cbn [e_objects e_values] in H.
    rewrite combine_rev in H by (now rewrite map_length). apply in_rev in H. now apply in_combine_map in H as [-> _]. }
  assert (Hol : forall k o, In (k, o) (object_lookup t) -> k = o).
  { intros k o H. unfold object_lookup, t in H. cbn [e_objects e_values] in H.
    apply in_map_iff in H as ([v o'] & E & H). cbn in E. injection E as <- <-.
    now apply in_combine_swap, in_combine_map in H as [-> _]. }
  assert (Hin0 : In (EStr s, s) (valid_lookup0 t)).
  { unfold valid_lookup0, t. cbn [e_objects e_values]. rewrite combine_rev by (now rewrite map_length).
    apply -> in_rev. now apply in_combine_map. }
  split.
  - unfold bind_enum. rewrite (eget_unique (valid_lookup t) (EStr s) s); [reflexivity| |].
    + intros x Hx. unfold valid_lookup in Hx. apply in_app_or in Hx as [Hx|Hx].
      * apply Hvl0 in Hx. now injection Hx as ->.
      * apply in_flat_map in Hx as (v & _ & Hx).
        destruct (eget (object_lookup t) (EStr v)) as [o|] eqn:Eo; [|destruct Hx].
        destruct (eget (valid_lookup0 t) o) as [y|] eqn:Ey; [|destruct Hx].
        destruct Hx as [Hx|[]]. injection Hx as -> ->.
        apply eget_In, Hol in Eo. subst o. apply eget_In, Hvl0 in Ey. now injection Ey as ->.
    + exists s. unfold valid_lookup. apply in_or_app. now left.
  - unfold result_enum. rewrite (eget_unique (object_lookup t) (EStr s) (EStr s)); [reflexivity| |].
    + intros x Hx. now apply Hol in Hx.
    + exists (EStr s). unfold object_lookup, t. cbn [e_objects e_values]. apply in_map_iff. exists (s, EStr s).
      split; [reflexivity|]. now apply in_combine_swap, in_combine_map.
Qed.

(* ---------- JSON / PickleType ---------- *)
Section SerializedProofs.
  Context {J W : Type} (dumps : J -> W) (loads : W -> J) (jnone : J).
  Hypothesis loads_dumps : forall x, loads (dumps x) = x.

  (* what Python sees after the round trip: [Some jnone] is the JSON document null, read as None *)
  Theorem json_roundtrip : forall nan v,
    result_json loads (bind_json dumps jnone nan v) =
    match v with
    | JDoc d => Some d
    | JSqlNull => None
    | JJsonNull => Some jnone
    | JPyNone => if nan then None else Some jnone
    end.
  Proof. intros nan [| | |d]; cbn; try destruct nan; cbn; now rewrite ?loads_dumps. Qed.

  Theorem pickle_roundtrip : forall v, result_pickle loads (bind_pickle dumps v) = v.
  Proof. intros [x|]; cbn; now rewrite ?loads_dumps. Qed.
End SerializedProofs.

(* ---------- TypeDecorator steps ---------- *)
Lemma count_result_app : forall id a b, count_result id (a ++ b) = (count_result id a + count_result id b)%nat.
Proof. intros. unfold count_result. now rewrite filter_app, app_length. Qed.

Lemma count_result_one : forall id id0,
  count_result id [SResultValue id0] = if N.eq_dec id0 id then 1%nat else 0%nat.
Proof.
  intros id id0. unfold count_result. cbn. destruct (N.eq_dec id0 id) as [->|Hne].
  - now rewrite N.eqb_refl.
  - now apply N.eqb_neq in Hne as ->.
Qed.

Lemma count_bind_one : forall id id0 p,
  count_bind id (SBindParam id0 :: p) = ((if N.eq_dec id0 id then 1 else 0) + count_bind id p)%nat.
Proof.
  intros id id0 p. unfold count_bind. cbn. destruct (N.eq_dec id0 id) as [->|Hne].
  - now rewrite N.eqb_refl.
  - now apply N.eqb_neq in Hne as ->.
Qed.

(* a processor holds the step of decorator [id] as often as [id] occurs among the decorators that override it *)
Lemma result_proc_count : forall t id,
  count_result id (match result_proc t with Some p => p | None => [] end) = count_occ N.eq_dec (res_ids t) id.
Proof.
  induction t as [[|]|id0 hb hr impl IH]; intros id; try reflexivity. cbn [result_proc res_ids].
  destruct hr; [|apply IH]. cbn [count_occ]. specialize (IH id).
  destruct (result_proc impl) as [q|]; [rewrite count_result_app|]; rewrite count_result_one, <- IH;
    destruct (N.eq_dec id0 id); cbn; lia.
Qed.

Lemma bind_proc_count : forall t id,
  count_bind id (match bind_proc t with Some p => p | None => [] end) = count_occ N.eq_dec (bind_ids t) id.
Proof.
  induction t as [[|]|id0 hb hr impl IH]; intros id; try reflexivity. cbn [bind_proc bind_ids].
  destruct hb; [|apply IH]. cbn [count_occ]. specialize (IH id).
  destruct (bind_proc impl) as [q|]; rewrite count_bind_one, <- IH; destruct (N.eq_dec id0 id); cbn; lia.
Qed.

Lemma res_ids_count_le : forall t id, (count_occ N.eq_dec (res_ids t) id <= count_occ N.eq_dec (dec_ids t) id)%nat.
Proof.
  induction t as [hp|id0 hb hr impl IH]; intros id; cbn [res_ids dec_ids count_occ]; [lia|].
  specialize (IH id). destruct hr; cbn [count_occ]; destruct (N.eq_dec id0 id); lia.
Qed.

Lemma bind_ids_count_le : forall t id, (count_occ N.eq_dec (bind_ids t) id <= count_occ N.eq_dec (dec_ids t) id)%nat.
Proof.
  induction t as [hp|id0 hb hr impl IH]; intros id; cbn [bind_ids dec_ids count_occ]; [lia|].
  specialize (IH id). destruct hb; cbn [count_occ]; destruct (N.eq_dec id0 id); lia.
Qed.

(* among pairwise distinct decorators, one that overrides the step occurs exactly once *)
Lemma count_once : forall (ids decs : list N) id, NoDup decs -> In id ids ->
  (count_occ N.eq_dec ids id <= count_occ N.eq_dec decs id)%nat -> count_occ N.eq_dec ids id = 1%nat.
Proof.
  intros ids decs id Hnd Hin Hle. apply (count_occ_In N.eq_dec) in Hin.
  pose proof (proj1 (NoDup_count_occ N.eq_dec decs) Hnd id). lia.
Qed.

Theorem result_step_once : forall t id, NoDup (dec_ids t) -> In id (res_ids t) ->
  exists p, result_proc t = Some p /\ count_result id p = 1%nat.
Proof.
  intros t id Hnd Hin. pose proof (count_once _ _ id Hnd Hin (res_ids_count_le t id)) as H.
  rewrite <- result_proc_count in H. destruct (result_proc t) as [p|]; [eauto|discriminate].
Qed.

Theorem bind_step_once : forall t id, NoDup (dec_ids t) -> In id (bind_ids t) ->
  exists p, bind_proc t = Some p /\ count_bind id p = 1%nat.
Proof.
  intros t id Hnd Hin. pose proof (count_once _ _ id Hnd Hin (bind_ids_count_le t id)) as H.
  rewrite <- bind_proc_count in H. destruct (bind_proc t) as [p|]; [eauto|discriminate].
Qed.

(* nesting never changes the type the result processor is taken from *)
Lemma type_of_nest : forall ws e, type_of (nest ws e) = type_of e.
Proof. induction ws as [|w ws IH]; intros e; [reflexivity|]. cbn [nest fold_right]. destruct w; cbn [apply_wrapper type_of]; apply IH. Qed.

Lemma column_once : forall e id, NoDup (dec_ids (type_of e)) -> In id (res_ids (type_of e)) ->
  count_result id (column_processor e) = 1%nat.
Proof.
  intros e id Hnd Hin. unfold column_processor. now destruct (result_step_once _ id Hnd Hin) as (p & -> & Hc).
Qed.

Theorem decorator_exactly_once : forall ws t id, NoDup (dec_ids t) -> In id (res_ids t) ->
  count_result id (column_processor (nest ws (CCol t))) = 1%nat.
Proof. intros ws t id Hnd Hin. apply column_once; now rewrite type_of_nest. Qed.

(* a type_coerce / cast under any nesting: the coerced type alone decides, whatever it is applied to *)
Theorem decorator_exactly_once_coerced : forall ws t e id, NoDup (dec_ids t) -> In id (res_ids t) ->
  count_result id (column_processor (nest ws (CCoerce t e))) = 1%nat.
Proof. intros ws t e id Hnd Hin. apply column_once; now rewrite type_of_nest. Qed.

Theorem decorator_not_applied_when_absent : forall ws t id, ~ In id (dec_ids t) ->
  count_result id (column_processor (nest ws (CCol t))) = 0%nat.
Proof.
  intros ws t id Hn. unfold column_processor. rewrite type_of_nest. cbn [type_of].
  apply (count_occ_not_In N.eq_dec) in Hn. pose proof (res_ids_count_le t id). rewrite result_proc_count. lia.
Qed.
