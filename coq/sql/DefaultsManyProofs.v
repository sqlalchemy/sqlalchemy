(* C13 - executemany: all parameter sets; the required-bind error; the ORM parameter collection. *)
From Coq Require Import List ZArith Bool PeanoNat.
Import ListNotations.
From SAV.sql Require Import Defaults DefaultsProofs.
Open Scope Z_scope.

(* [fire_all] and [multi_rows] thread the call counters through the rows in the same way: what holds of both is
   shown once, of [run step] *)
Section Run.
Variables (A : Type) (step : A -> calls -> pset * calls).
Fixpoint run (rows : list A) (cs : calls) : list pset * calls :=
  match rows with
  | [] => ([], cs)
  | x :: t => let '(a, cs1) := step x cs in let '(b, cs2) := run t cs1 in (a :: b, cs2)
  end.
Lemma run_cons : forall x t cs,
  run (x :: t) cs = (fst (step x cs) :: fst (run t (snd (step x cs))), snd (run t (snd (step x cs)))).
Proof. intros. cbn [run]. destruct (step x cs) as [a cs1]. cbn [fst snd]. destruct (run t cs1); reflexivity. Qed.
Lemma run_length : forall rows cs, length (fst (run rows cs)) = length rows.
Proof. induction rows as [|x t IH]; intros cs; [reflexivity|]. rewrite run_cons. cbn [fst length]. rewrite IH. reflexivity. Qed.
Lemma run_nth : forall rows cs i x, nth_error rows i = Some x ->
  nth_error (fst (run rows cs)) i = Some (fst (step x (snd (run (firstn i rows) cs)))).
Proof.
  induction rows as [|y t IH]; intros cs [|i] x H; try discriminate H; rewrite run_cons; cbn [fst nth_error firstn].
  - injection H as <-. reflexivity.
  - rewrite run_cons. apply IH, H.
Qed.
Lemma run_count : forall f (w : A -> nat),
  (forall x cs, count f (snd (step x cs)) = (count f cs + w x)%nat) ->
  forall rows cs, count f (snd (run rows cs)) = (count f cs + list_sum (map w rows))%nat.
Proof.
  intros f w H. induction rows as [|x t IH]; intros cs; [symmetry; apply Nat.add_0_r|].
  rewrite run_cons. cbn [snd]. rewrite IH, H. symmetry. apply Nat.add_assoc.
Qed.
Lemma sum_const : forall n (l : list A), list_sum (map (fun _ => n) l) = (length l * n)%nat.
Proof. intros n. induction l as [|x l IH]; [reflexivity|]. cbn [length Nat.mul]. rewrite <- IH. reflexivity. Qed.
Lemma sum_filter : forall (q : A -> bool) l,
  list_sum (map (fun x => if q x then 1%nat else 0%nat) l) = length (filter q l).
Proof.
  intros q. induction l as [|x l IH]; [reflexivity|]. cbn [map filter]. destruct (q x); cbn [length]; rewrite <- IH; reflexivity.
Qed.
End Run.
Arguments run {A} step rows cs.

Lemma get_map_key : forall (F : col -> val) cols c, distinct_keys cols = true -> In c cols ->
  get (ckey c) (map (fun c => (ckey c, F c)) cols) = Some (F c).
Proof.
  intros F. induction cols as [|c0 r IH]; intros c Hk Hin; [destruct Hin|].
  destruct (distinct_keys_cons _ _ Hk) as [Hk' Hn]. cbn [map get]. destruct Hin as [->|Hin].
  - rewrite Nat.eqb_refl. reflexivity.
  - rewrite (proj2 (Nat.eqb_neq _ _) (fun E => Hn c Hin (eq_sym E))). apply IH; auto.
Qed.

Lemma nth_error_map_combine : forall A B C (f : A * B -> C) (l1 : list A) (l2 : list B) i a b,
  nth_error l1 i = Some a -> nth_error l2 i = Some b ->
  nth_error (map f (combine l1 l2)) i = Some (f (a, b)).
Proof.
  intros A B C f. induction l1 as [|x l1 IH]; intros l2 i a b H1 H2; [destruct i; discriminate H1|].
  destruct l2 as [|y l2]; [destruct i; discriminate H2|]. destruct i as [|i]; cbn in *.
  - injection H1 as ->. injection H2 as ->. reflexivity.
  - apply IH; auto.
Qed.

Section M.
Variable cval : nat -> nat -> Z.
Variable ctxval : nat -> pset -> nat -> Z.
Variable sqlval : nat -> Z.
Variable srvval : nat -> Z.
Notation fire := (fire cval ctxval).
Notation fire_all := (fire_all cval ctxval).
Notation stored := (stored sqlval srvval).
Notation row_of := (row_of sqlval srvval).
Notation core_exec := (core_exec cval ctxval sqlval srvval).
Notation default_ok := (default_ok cval ctxval sqlval srvval).

(* how many prefetch columns call [f] (0 or 1 when no two columns share a callable) *)
Definition nuses (p0 : pset) (cols : list col) (f : nat) : nat := length (filter (uses p0 f) cols).

Lemma nuses_col : forall p0 cols c f, distinct_fns cols = true -> In c cols -> fn_of c = Some f ->
  nuses p0 cols f = if has (ckey c) p0 then 0%nat else 1%nat.
Proof.
  intros p0 cols c f Hf Hin Hfn.
  pose proof (filter_calls_fn (fun c => is_prefetch (plan_col p0 c)) f cols c Hf Hin Hfn) as X. cbv beta in X.
  rewrite (plan_fn p0 c f Hfn) in X. destruct (has (ckey c) p0); exact X.
Qed.

Lemma fire_all_run : forall p0 cols ps cs, fire_all p0 cols ps cs = run (fire p0 cols) ps cs.
Proof.
  intros p0 cols. induction ps as [|p r IH]; intros cs; [reflexivity|].
  cbn [Defaults.fire_all run]. destruct (fire p0 cols p cs). rewrite IH. reflexivity.
Qed.

Lemma construct_all_ok : forall p0 cols ps g,
  (forall p, In p ps -> forall c, In c cols -> has (ckey c) p0 = true -> has (ckey c) p = true) ->
  exists cps, construct_all p0 g cols ps = Ok cps /\ length cps = length ps /\
    forall i p, nth_error ps i = Some p -> exists g' t, nth_error cps i = Some t /\ construct p0 g' cols p = Ok t.
Proof.
  intros p0 cols. induction ps as [|p r IH]; intros g H.
  - exists []. repeat split. intros [|i] p Hp; discriminate Hp.
  - destruct (construct_ok p0 g cols p (H p (or_introl eq_refl))) as [t Ht].
    destruct (IH (S g) (fun q Hq => H q (or_intror Hq))) as [cps [Hc [L N]]].
    exists (t :: cps). cbn [construct_all]. rewrite Ht, Hc. split; [reflexivity|]. split; [cbn [length]; congruence|].
    intros [|i] q Hq; [injection Hq as <-; exists g, t; auto|apply (N i q Hq)].
Qed.

(* the callable counter the property speaks of matters only for a column that has a callable *)
Lemma default_ok_count : forall old c p pr n m v, (forall f, fn_of c = Some f -> n = m) ->
  default_ok old c p pr n v -> default_ok old c p pr m v.
Proof.
  intros old c p pr n m v. unfold Defaults.default_ok, fn_of.
  destruct (cdef c); intros E D; try exact D; rewrite <- (E _ eq_refl); exact D.
Qed.

(* the common frame of the two executemany theorems: the statement runs, stores one row per parameter set,
   every set adds [nuses] calls of [f], and row [i] meets [R i p old] *)
Definition exec_ok (cols : list col) (p0 : pset) (rest : list pset) (olds : list (option pset)) (cs : calls)
    (R : nat -> pset -> option pset -> pset -> Prop) : Prop :=
  exists rows cs',
    core_exec cols (p0 :: rest) olds cs = Ok (rows, cs') /\
    length rows = length (p0 :: rest) /\
    (forall f, count f cs' = (count f cs + length (p0 :: rest) * nuses p0 cols f)%nat) /\
    (forall i p old, nth_error (p0 :: rest) i = Some p -> nth_error olds i = Some old ->
       exists row, nth_error rows i = Some row /\ R i p old row).

(* what a stored [row] holds for parameter set [p] when the FIRST set [p0] decided the binds: a column [p0] names
   is stored as [p] gives it, every other column gets its default - also where [p] supplies a value for it *)
Definition first_rule (p0 : pset) (old : option pset) (cols : list col) (p : pset) (n : col -> nat) (row : pset) : Prop :=
  forall c, In c cols ->
    (has (ckey c) p0 = true -> get (ckey c) row = get (ckey c) p) /\
    (has (ckey c) p0 = false ->
       exists pr v, get (ckey c) row = Some v /\ default_ok old c p pr (n c) v /\
                    (forall c', In c' cols -> has (ckey c') p0 = true -> get (ckey c') pr = get (ckey c') p)).
(* what the property demands of the [row] stored for parameter set [p]: a supplied key (None included) is stored
   as given, an omitted column gets the default of its kind - callables their [n c]-th call, the context
   callable seeing the row's own supplied parameters *)
Definition row_rule (old : option pset) (cols : list col) (p : pset) (n : col -> nat) (row : pset) : Prop :=
  forall c, In c cols ->
    (forall v, get (ckey c) p = Some v -> get (ckey c) row = Some v) /\
    (get (ckey c) p = None ->
       exists pr v, get (ckey c) row = Some v /\ default_ok old c p pr (n c) v /\
                    (forall c' v', In c' cols -> get (ckey c') p = Some v' -> get (ckey c') pr = Some v')).

(* a later set needs the keys of the first (more are ignored) *)
Theorem core_exec_spec : forall cols p0 rest olds cs,
  distinct_keys cols = true -> distinct_fns cols = true ->
  (forall p, In p rest -> forall c, In c cols -> has (ckey c) p0 = true -> has (ckey c) p = true) ->
  length olds = length (p0 :: rest) ->
  exec_ok cols p0 rest olds cs (fun i p old => first_rule p0 old cols p (fun c => (fn_count c cs + i)%nat)).
Proof.
  intros cols p0 rest olds cs Hk Hf Ha Hl.
  destruct (construct_all_ok p0 cols (p0 :: rest) O) as [cps [Hc [Lc N]]]; [intros p [<-|Hp]; auto|].
  unfold exec_ok, Defaults.core_exec. rewrite Hc. cbn [bind]. rewrite fire_all_run.
  (* every parameter set adds [nuses] calls of [f] *)
  assert (C : forall l f, count f (snd (run (fire p0 cols) l cs)) = (count f cs + length l * nuses p0 cols f)%nat).
  { intros l f. rewrite <- sum_const. apply run_count. intros t cs0. apply fire_count. }
  pose proof (run_length _ (fire p0 cols) cps cs) as Lf. pose proof (C cps) as Cf.
  pose proof (run_nth _ (fire p0 cols) cps cs) as Nf.
  destruct (run (fire p0 cols) cps cs) as [fps cs']. cbn [fst snd] in Lf, Cf, Nf.
  eexists. eexists. split; [reflexivity|]. split; [rewrite map_length, combine_length, Lf, Lc, Hl; apply Nat.min_id|].
  split; [intros f; rewrite Cf, Lc; reflexivity|].
  intros i p old Hp Ho. destruct (N i p Hp) as [g' [t [Ht Hct]]].
  eexists. split; [apply (nth_error_map_combine _ _ _ _ fps olds i _ old (Nf i t Ht) Ho)|].
  cbn [fst snd]. set (csi := snd (run _ (firstn i cps) cs)).
  intros c Hin. unfold Defaults.row_of. rewrite (get_map_key _ cols c Hk Hin).
  destruct (row_spec cval ctxval sqlval srvval p0 g' cols p t csi old c Hk Hf Hct Hin) as [RS1 RS2]. split.
  - intros Hh. symmetry. apply RS1, Hh.
  - intros Hh. destruct (RS2 Hh) as [pr [D A]]. exists pr. eexists. split; [reflexivity|]. split; [|exact A].
    (* the column is omitted: if it has a callable, exactly this column uses it, once per set *)
    apply (default_ok_count _ _ _ _ _ _ _) with (2 := D). intros f Hfn. unfold fn_count, csi. rewrite Hfn, C.
    rewrite (nuses_col p0 cols c f Hf Hin Hfn), Hh, firstn_length_le; [cbv iota; rewrite Nat.mul_1_r; reflexivity|].
    apply Nat.lt_le_incl, nth_error_Some. rewrite Ht. discriminate.
Qed.

(* under the documented precondition "named by the first set" is "supplied by this set" *)
Theorem executemany_spec : forall cols p0 rest olds cs,
  distinct_keys cols = true -> distinct_fns cols = true ->
  (forall p, In p (p0 :: rest) -> keys_agree cols p0 p) ->
  length olds = length (p0 :: rest) ->
  exec_ok cols p0 rest olds cs (fun i p old => row_rule old cols p (fun c => (fn_count c cs + i)%nat)).
Proof.
  intros cols p0 rest olds cs Hk Hf Ha Hl.
  destruct (core_exec_spec cols p0 rest olds cs Hk Hf) as [rows [cs' [E [L [C R]]]]];
    [intros p Hp c Hin; rewrite (Ha p (or_intror Hp) c Hin); auto|exact Hl|].
  exists rows, cs'. split; [exact E|]. split; [exact L|]. split; [exact C|].
  intros i p old Hp Ho. destruct (R i p old Hp Ho) as [row [Hr Hc]]. exists row. split; [exact Hr|].
  assert (Hs : forall c' v, In c' cols -> get (ckey c') p = v ->
                 has (ckey c') p0 = match v with Some _ => true | None => false end).
  { intros c' v Hc' Hv. rewrite <- (Ha p (nth_error_In _ _ Hp) c' Hc'). unfold has. rewrite Hv. reflexivity. }
  intros c Hin. destruct (Hc c Hin) as [B D]. split.
  - intros v Hv. rewrite <- Hv. apply B, (Hs c _ Hin Hv).
  - intros Hn. destruct (D (Hs c _ Hin Hn)) as [pr [v [G [Dv A]]]].
    exists pr, v. split; [exact G|]. split; [exact Dv|].
    intros c' v' Hc' Hv'. rewrite <- Hv'. apply (A c' Hc'), (Hs c' _ Hc' Hv').
Qed.

Theorem single_spec : forall cols p old cs,
  distinct_keys cols = true -> distinct_fns cols = true ->
  exists row cs', core_exec cols [p] [old] cs = Ok ([row], cs') /\ row_rule old cols p (fun c => fn_count c cs) row.
Proof.
  intros cols p old cs Hk Hf.
  destruct (executemany_spec cols p [] [old] cs Hk Hf) as [rows [cs' [E [L [_ R]]]]];
    [intros q [<-|[]] c _; reflexivity|reflexivity|].
  destruct (R O p old eq_refl eq_refl) as [row [Hr Hc]].
  destruct rows as [|r0 [|r1 rows]]; try discriminate L. injection Hr as ->.
  exists row, cs'. split; [exact E|]. intros c Hin. rewrite <- (Nat.add_0_r (fn_count c cs)). apply Hc, Hin.
Qed.

Theorem supplied_none_kept : forall cols p0 rest olds cs i p old c,
  distinct_keys cols = true -> distinct_fns cols = true ->
  (forall q, In q (p0 :: rest) -> keys_agree cols p0 q) ->
  length olds = length (p0 :: rest) ->
  nth_error (p0 :: rest) i = Some p -> nth_error olds i = Some old -> In c cols ->
  get (ckey c) p = Some None ->
  exists rows cs' row, core_exec cols (p0 :: rest) olds cs = Ok (rows, cs') /\ nth_error rows i = Some row /\
                       get (ckey c) row = Some None.
Proof.
  intros cols p0 rest olds cs i p old c Hk Hf Ha Hl Hp Ho Hin Hn.
  destruct (executemany_spec cols p0 rest olds cs Hk Hf Ha Hl) as [rows [cs' [E [_ [_ R]]]]].
  destruct (R i p old Hp Ho) as [row [Hr Hc]]. exists rows, cs', row. split; [exact E|]. split; [exact Hr|].
  apply (proj1 (Hc c Hin)), Hn.
Qed.

Theorem calls_once_per_row : forall cols p0 rest olds cs c f,
  distinct_keys cols = true -> distinct_fns cols = true ->
  (forall p, In p (p0 :: rest) -> keys_agree cols p0 p) ->
  length olds = length (p0 :: rest) -> In c cols -> fn_of c = Some f ->
  exists rows cs', core_exec cols (p0 :: rest) olds cs = Ok (rows, cs') /\
    count f cs' = (count f cs + if has (ckey c) p0 then 0 else length (p0 :: rest))%nat.
Proof.
  intros cols p0 rest olds cs c f Hk Hf Ha Hl Hin Hfn.
  destruct (executemany_spec cols p0 rest olds cs Hk Hf Ha Hl) as [rows [cs' [E [_ [Hc _]]]]].
  exists rows, cs'. split; [exact E|]. rewrite Hc, (nuses_col p0 cols c f Hf Hin Hfn).
  destruct (has (ckey c) p0); [rewrite Nat.mul_0_r|rewrite Nat.mul_1_r]; reflexivity.
Qed.

Theorem missing_key_error : forall cols p0 p olds cs,
  (exists c, In c cols /\ has (ckey c) p0 = true /\ has (ckey c) p = false) ->
  exists k, core_exec cols [p0; p] olds cs = Err (ERequired 1 k) /\ has k p0 = true /\ has k p = false.
Proof.
  intros cols p0 p olds cs [c [Hin [H0 Hp]]]. unfold Defaults.core_exec. cbn [construct_all].
  destruct (construct_ok p0 O cols p0 (fun c _ H => H)) as [t0 Ht0]. rewrite Ht0. cbn [bind].
  pose proof (construct_result p0 1%nat cols p) as R. destruct (construct p0 1 cols p) as [t|e].
  - rewrite (R c Hin H0) in Hp. discriminate Hp.
  - destruct R as [c' [_ [-> R]]]. exists (ckey c'). split; [reflexivity|exact R].
Qed.

End M.

(* ORM parameter collection: the three collectors build the dictionary column by column, each column
   contributing entries under its own key only, so looking a column up means looking at its contribution *)
Lemma get_app : forall k (l q : pset),
  get k (l ++ q) = match get k l with Some v => Some v | None => get k q end.
Proof.
  induction l as [|[k' v'] l IH]; intros q; cbn [app get]; [reflexivity|].
  destruct (Nat.eqb k k'); [reflexivity|apply IH].
Qed.
Lemma get_none : forall k (l : pset), (forall kv, In kv l -> fst kv <> k) -> get k l = None.
Proof.
  induction l as [|[k' v'] l IH]; intros H; [reflexivity|]. cbn [get].
  rewrite (proj2 (Nat.eqb_neq k k')) by (intros ->; apply (H (k', v')); [left|]; reflexivity).
  apply IH. intros kv Hkv. apply H. right. exact Hkv.
Qed.
Lemma get_flat_map : forall (F : col -> pset) cols c,
  (forall c1, Forall (fun kv => fst kv = ckey c1) (F c1)) -> distinct_keys cols = true -> In c cols ->
  get (ckey c) (flat_map F cols) = get (ckey c) (F c).
Proof.
  intros F cols c HF. induction cols as [|c0 r IH]; intros Hk Hin; [destruct Hin|].
  destruct (distinct_keys_cons _ _ Hk) as [Hk' Hn]. cbn [flat_map]. rewrite get_app. destruct Hin as [->|Hin].
  - destruct (get (ckey c) (F c)); [reflexivity|]. apply get_none. intros kv Hkv E.
    apply in_flat_map in Hkv. destruct Hkv as [c1 [Hc1 Hkv]]. apply (Hn c1 Hc1).
    rewrite <- E. apply (proj1 (Forall_forall _ _) (HF c1) kv Hkv).
  - rewrite get_none; [apply IH; auto|]. intros kv Hkv.
    rewrite (proj1 (Forall_forall _ _) (HF c0) kv Hkv). apply Hn, Hin.
Qed.

Lemma orm_insert_params_get : forall cols attrs c, distinct_keys cols = true -> In c cols ->
  get (ckey c) (orm_insert_params cols attrs) =
    match get (ckey c) attrs with
    | Some (Some z) => Some (Some z)
    | _ => if no_default c && negb (Nat.eqb (ckey c) O) then Some None else None
    end.
Proof.
  intros cols attrs c Hk Hin. unfold orm_insert_params. rewrite get_flat_map; auto.
  - destruct (get (ckey c) attrs) as [[z|]|]; try destruct (no_default c && _);
      cbn [get]; rewrite ?Nat.eqb_refl; reflexivity.
  - intros c1. destruct (get (ckey c1) attrs) as [[z|]|]; try destruct (no_default c1 && _); repeat constructor.
Qed.

Lemma orm_update_params_get : forall cols old attrs c, distinct_keys cols = true -> In c cols -> ckey c <> O ->
  get (ckey c) (orm_update_params cols old attrs) =
    match get (ckey c) attrs with
    | Some v => if val_eqb v (match get (ckey c) old with Some o => o | None => None end) then None else Some v
    | None => None
    end.
Proof.
  intros cols old attrs c Hk Hin Hnz. unfold orm_update_params. rewrite get_flat_map; auto.
  - rewrite (proj2 (Nat.eqb_neq _ _) Hnz). destruct (get (ckey c) attrs) as [v|]; [|reflexivity].
    destruct (val_eqb v _); cbn [get]; rewrite ?Nat.eqb_refl; reflexivity.
  - intros c1. destruct (Nat.eqb_spec (ckey c1) O) as [E|_]; [rewrite E; repeat constructor|].
    destruct (get (ckey c1) attrs) as [v|]; [destruct (val_eqb v _)|]; repeat constructor.
Qed.

Lemma orm_bulk_update_params_get : forall cols m c, distinct_keys cols = true -> In c cols ->
  get (ckey c) (orm_bulk_update_params cols m) = get (ckey c) m.
Proof.
  intros cols m c Hk Hin. unfold orm_bulk_update_params. rewrite get_flat_map; auto.
  - destruct (get (ckey c) m); cbn [get]; rewrite ?Nat.eqb_refl; reflexivity.
  - intros c1. destruct (get (ckey c1) m); repeat constructor.
Qed.

(* every group the unit of work emits is homogeneous: the executemany theorem applies to each statement *)
Lemma take_group_same : forall cols p0 ps g t, take_group cols p0 ps = (g, t) ->
  (forall x, In x g -> same_keys cols p0 (fst x) = true) /\ ps = g ++ t.
Proof.
  intros cols p0. induction ps as [|x r IH]; intros g t H; cbn [take_group] in H.
  - inversion H. split; [intros x []|reflexivity].
  - destruct (same_keys cols p0 (fst x)) eqn:E.
    + destruct (take_group cols p0 r) as [g' t'] eqn:E'. inversion H; subst. destruct (IH g' t eq_refl) as [A B].
      split; [intros y [<-|Hy]; auto|]. cbn [app]. f_equal. exact B.
    + inversion H; subst. split; [intros y []|reflexivity].
Qed.
Lemma same_keys_agree : forall cols a b, same_keys cols a b = true -> keys_agree cols a b.
Proof.
  intros cols a b H c Hin. unfold same_keys in H. rewrite forallb_forall in H.
  specialize (H c Hin). apply Bool.eqb_prop in H. auto.
Qed.
