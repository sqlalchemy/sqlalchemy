(* C05 - integers, numerics, booleans, dates and times: token lemmas, the numeric refutations. *)
From Coq Require Import List NArith ZArith Bool DecimalN.
Import ListNotations.
From SAV.sql Require Import Literal LiteralStrProofs.
Open Scope N_scope.

Lemma uint_chars_digits d : forallb is_digit (uint_chars d) = true.
Proof. induction d; cbn [uint_chars forallb]; try rewrite IHd; reflexivity. Qed.

Lemma chars_uint_chars d : chars_uint (uint_chars d) = Some d.
Proof. induction d; cbn [uint_chars chars_uint]; try rewrite IHd; reflexivity. Qed.

Lemma uint_chars_nonempty n : dec_of_N n <> [].
Proof.
  unfold dec_of_N. intros H. destruct (N.to_uint n) eqn:E; cbn [uint_chars] in H; try discriminate.
  pose proof (DecimalN.Unsigned.of_to n) as Ho. rewrite E in Ho. cbn in Ho. subst n. discriminate E.
Qed.

Lemma dec_digits n : forallb is_digit (dec_of_N n) = true.
Proof. apply uint_chars_digits. Qed.

Lemma dec_of_N_cons n : exists c r, dec_of_N n = c :: r /\ is_digit c = true.
Proof.
  pose proof (dec_digits n) as Hd. destruct (dec_of_N n) as [|c r] eqn:E; [destruct (uint_chars_nonempty n E)|].
  apply andb_prop in Hd. exists c, r. split; [reflexivity|apply Hd].
Qed.

(* a digit differs from every character that is none: the sign, the quote, the backslash ... *)
Lemma digit_neq c k : is_digit c = true -> is_digit k = false -> c =? k = false.
Proof. intros Hc Hk. apply N.eqb_neq. intros ->. congruence. Qed.

Lemma parse_dec n : uint_Z (chars_uint (dec_of_N n)) = Some (Z.of_N n).
Proof. unfold dec_of_N. rewrite chars_uint_chars. cbn [uint_Z]. rewrite DecimalN.Unsigned.of_to. reflexivity. Qed.

Theorem int_literal_value : forall z, parse_int (render_int z) = Some z.
Proof.
  intros [|p|p]; cbn [render_int]; [reflexivity| |];
    pose proof (parse_dec (N.pos p)) as Hp; destruct (dec_of_N_cons (N.pos p)) as (c & r & E & Hc).
  - change (Z.to_N (Z.pos p)) with (N.pos p). rewrite E in *.
    unfold parse_int. rewrite (digit_neq c 45 Hc eq_refl). exact Hp.
  - rewrite E in *. unfold parse_int. change (45 =? 45) with true. cbn iota. rewrite Hp. reflexivity.
Qed.

Definition head_not_digit (s : str) : bool :=
  match s with c :: _ => negb (is_digit c) | [] => true end.

Lemma span_digits_spec s : forall a b, span_digits s = (a, b) ->
  s = a ++ b /\ forallb is_digit a = true /\ head_not_digit b = true.
Proof.
  induction s as [|c s IH]; intros a b H.
  - cbn in H. inversion H. repeat split; reflexivity.
  - cbn [span_digits] in H. destruct (is_digit c) eqn:E.
    + destruct (span_digits s) as [a' b'] eqn:E2. inversion H; subst.
      destruct (IH a' b eq_refl) as (H1 & H2 & H3). subst s.
      split; [reflexivity|]. split; [|assumption]. cbn [forallb]. rewrite E, H2. reflexivity.
    + inversion H; subst. split; [reflexivity|]. split; [reflexivity|].
      cbn [head_not_digit]. rewrite E. reflexivity.
Qed.

Lemma span_digits_app a : forall b, forallb is_digit a = true -> head_not_digit b = true ->
  span_digits (a ++ b) = (a, b).
Proof.
  induction a as [|c a IH]; intros b Ha Hb.
  - cbn [app]. destruct b as [|c r]; [reflexivity|]. cbn [span_digits]. cbn [head_not_digit] in Hb.
    destruct (is_digit c); [discriminate|reflexivity].
  - cbn [forallb] in Ha. apply andb_prop in Ha. destruct Ha as [Hc Ha].
    cbn [app span_digits]. rewrite Hc, (IH b Ha Hb). reflexivity.
Qed.

Lemma follow_not_digit rest : num_follow_ok rest = true -> head_not_digit rest = true.
Proof.
  destruct rest as [|c r]; [reflexivity|]. cbn [num_follow_ok head_not_digit]. unfold is_idchar.
  destruct (is_digit c); [discriminate|reflexivity].
Qed.

Lemma span_digits_ext s a b rest : span_digits s = (a, b) -> num_follow_ok rest = true ->
  span_digits (s ++ rest) = (a, b ++ rest).
Proof.
  intros H Hr. destruct (span_digits_spec s a b H) as (-> & Ha & Hb).
  rewrite <- app_assoc. apply span_digits_app; [exact Ha|].
  destruct b; [apply follow_not_digit; exact Hr|exact Hb].
Qed.

Lemma follow_not_e c r : num_follow_ok (c :: r) = true -> (c =? 101) || (c =? 69) = false.
Proof.
  cbn [num_follow_ok]. unfold is_idchar. intros H.
  destruct (N.eqb_spec c 101) as [->|]; [discriminate H|].
  destruct (N.eqb_spec c 69) as [->|]; [discriminate H|]. reflexivity.
Qed.
Lemma follow_not_dot c r : num_follow_ok (c :: r) = true -> c =? 46 = false.
Proof.
  cbn [num_follow_ok]. intros H. destruct (c =? 46); [|reflexivity].
  rewrite orb_true_r in H. discriminate.
Qed.

Lemma finish_nil tok r t : finish tok r = Some (t, []) -> r = [] /\ t = tok.
Proof. unfold finish. destruct (num_follow_ok r); intros H; inversion H. split; reflexivity. Qed.

Lemma lex_exp_no_exponent tok rest : num_follow_ok rest = true -> lex_exp tok rest = Some (tok, rest).
Proof.
  intros Hr. destruct rest as [|c r]; [reflexivity|]. unfold lex_exp.
  rewrite (follow_not_e c r Hr). unfold finish. rewrite Hr. reflexivity.
Qed.

(* Each level of the lexer, on a text it consumes completely: the token is that text, and it stays
   the token in front of any remainder that cannot continue a number. *)
Lemma lex_exp_complete tok r t rest : lex_exp tok r = Some (t, []) -> num_follow_ok rest = true ->
  t = tok ++ r /\ lex_exp tok (r ++ rest) = Some (t, rest).
Proof.
  intros H Hr. destruct r as [|c r].
  - injection H as <-. rewrite app_nil_r. split; [reflexivity|]. apply lex_exp_no_exponent, Hr.
  - unfold lex_exp in *. cbn [app]. destruct ((c =? 101) || (c =? 69)).
    + destruct (span_digits (drop_sign r)) as [e r'] eqn:E.
      destruct (nonempty e) eqn:Ee; [|discriminate].
      apply finish_nil in H. destruct H as [-> ->].
      pose proof (span_digits_ext _ _ _ rest E Hr) as E'.
      destruct (span_digits_spec _ _ _ E) as (Hd & _ & _). rewrite app_nil_r in Hd.
      (* r is its optional sign followed by the non-empty digit string e *)
      destruct r as [|c2 r2]; [subst e; discriminate|]. cbn [app drop_sign] in *.
      destruct (is_sign c2); cbn [app] in E'; rewrite E', Ee; unfold finish; rewrite Hr;
        subst e; split; reflexivity.
    + apply finish_nil in H. destruct H as [H _]. discriminate.
Qed.

Lemma lex_num_complete s t rest : lex_num s = Some (t, []) -> num_follow_ok rest = true ->
  t = s /\ lex_num (s ++ rest) = Some (t, rest).
Proof.
  unfold lex_num. intros H Hr. destruct (span_digits s) as [ip r1] eqn:E1.
  rewrite (span_digits_ext s ip r1 rest E1 Hr).
  destruct (span_digits_spec _ _ _ E1) as (-> & _ & _).
  destruct r1 as [|c r2]; cbn [app].
  - destruct (nonempty ip); [|discriminate]. injection H as <-.
    rewrite app_nil_r. split; [reflexivity|]. destruct rest as [|c r]; [reflexivity|].
    rewrite (follow_not_dot c r Hr). apply lex_exp_no_exponent, Hr.
  - destruct (c =? 46) eqn:Ec.
    + destruct (span_digits r2) as [fp r3] eqn:E2. rewrite (span_digits_ext _ _ _ rest E2 Hr).
      destruct (nonempty ip || nonempty fp); [|discriminate].
      destruct (lex_exp_complete _ _ _ rest H Hr) as [-> Hx].
      destruct (span_digits_spec _ _ _ E2) as (-> & _ & _). apply N.eqb_eq in Ec. subst c.
      split; [rewrite <- app_assoc; reflexivity|exact Hx].
    + destruct (nonempty ip); [|discriminate]. exact (lex_exp_complete _ _ _ rest H Hr).
Qed.

Lemma lex_signed_complete s t rest : lex_signed s = Some (t, []) -> num_follow_ok rest = true ->
  t = s /\ lex_signed (s ++ rest) = Some (t, rest).
Proof.
  unfold lex_signed. destruct s as [|c r]; [discriminate|]. cbn [app]. intros H Hr.
  destruct (is_sign c).
  - destruct (lex_num r) as [[t' rest']|] eqn:E; [|discriminate]. injection H as <- ->.
    destruct (lex_num_complete _ _ rest E Hr) as [-> Hx]. rewrite Hx. split; reflexivity.
  - exact (lex_num_complete (c :: r) t rest H Hr).
Qed.

Theorem numeric_token : forall text rest,
  sql_numeric text = true -> num_follow_ok rest = true ->
  lex_signed (text ++ rest) = Some (text, rest).
Proof.
  intros text rest H Hr. unfold sql_numeric in H.
  destruct (lex_signed text) as [[t r]|] eqn:E; [|discriminate]. destruct r; [|discriminate].
  destruct (lex_signed_complete _ _ rest E Hr) as [-> Hx]. exact Hx.
Qed.

Lemma lex_num_dec n : lex_num (dec_of_N n) = Some (dec_of_N n, []).
Proof.
  unfold lex_num. pose proof (span_digits_app (dec_of_N n) [] (dec_digits n) eq_refl) as Hs.
  rewrite app_nil_r in Hs. rewrite Hs. destruct (dec_of_N_cons n) as (c & r & -> & _). reflexivity.
Qed.

Lemma render_int_numeric z : sql_numeric (render_int z) = true.
Proof.
  unfold sql_numeric, lex_signed. destruct z as [|p|p]; cbn [render_int]; [reflexivity| |].
  - change (Z.to_N (Z.pos p)) with (N.pos p). pose proof (lex_num_dec (N.pos p)) as H.
    destruct (dec_of_N_cons (N.pos p)) as (c & r & E & Hc). rewrite E in *.
    unfold is_sign. rewrite (digit_neq c 43 Hc eq_refl), (digit_neq c 45 Hc eq_refl), H. reflexivity.
  - change (is_sign 45) with true. cbn iota. rewrite lex_num_dec. reflexivity.
Qed.

Theorem int_literal_token : forall z rest, num_follow_ok rest = true ->
  lex_signed (render_int z ++ rest) = Some (render_int z, rest).
Proof. intros z rest Hr. apply numeric_token; [apply render_int_numeric|exact Hr]. Qed.

Theorem minus_then_negative : forall p rest,
  lex_minus (45 :: render_int (Zneg p) ++ rest) = Comment (render_int (Zpos p) ++ rest).
Proof. intros p rest. reflexivity. Qed.

Theorem neg_operand_is_operator : forall le lit rest, lit <> [] ->
  lex_minus (render_neg le lit ++ rest) = OpMinus (tl (render_neg le lit) ++ rest).
Proof.
  intros le lit rest Hne. destruct lit as [|c l]; [contradiction|]. unfold render_neg.
  destruct (le || starts_minus (c :: l)) eqn:E; cbn [app tl].
  - reflexivity.
  - apply orb_false_iff in E. destruct E as [_ E]. cbn [starts_minus] in E.
    unfold lex_minus. change (45 =? 45) with true. cbn iota. rewrite E. reflexivity.
Qed.

Lemma numeric_process_text k text out : numeric_process k text = Ok out -> out = text.
Proof. unfold numeric_process. destruct k; try (intros H; inversion H; reflexivity).
  destruct (decimal_accepts text); intros H; inversion H; reflexivity. Qed.

Theorem numeric_literal_guarded : forall k text out rest,
  numeric_process k text = Ok out -> sql_numeric text = true -> num_follow_ok rest = true ->
  lex_signed (out ++ rest) = Some (text, rest).
Proof.
  intros k text out rest H Hn Hr. rewrite (numeric_process_text _ _ _ H). apply numeric_token; assumption.
Qed.

Definition s_NaN : str := [78; 97; 78].
Definition s_Infinity : str := [73; 110; 102; 105; 110; 105; 116; 121].
Definition s_1_0 : str := [49; 95; 48].
Definition s_inf : str := [105; 110; 102].
Definition s_nan : str := [110; 97; 110].
Definition s_arabic_12 : str := [1633; 1634].

Theorem numeric_literal_refuted :
  (numeric_process KStr s_NaN = Ok s_NaN /\ lex_signed (s_NaN ++ [32]) = None /\ is_identifier s_NaN = true) /\
  (numeric_process KStr s_Infinity = Ok s_Infinity /\ lex_signed (s_Infinity ++ [32]) = None
     /\ is_identifier s_Infinity = true) /\
  (numeric_process KStr s_1_0 = Ok s_1_0 /\ lex_signed (s_1_0 ++ [32]) = None) /\
  (numeric_process KStr s_arabic_12 = Ok s_arabic_12 /\ lex_signed (s_arabic_12 ++ [32]) = None
     /\ is_identifier s_arabic_12 = true) /\
  (numeric_process KDecimal s_NaN = Ok s_NaN).
Proof. vm_compute. repeat split; reflexivity. Qed.

Theorem float_literal_refuted :
  (numeric_process KFloat s_inf = Ok s_inf /\ lex_signed (s_inf ++ [32]) = None /\ is_identifier s_inf = true) /\
  (numeric_process KFloat s_nan = Ok s_nan /\ lex_signed (s_nan ++ [32]) = None /\ is_identifier s_nan = true).
Proof. vm_compute. repeat split; reflexivity. Qed.

Lemma digit_plain c : is_digit c = true -> plainc c = true.
Proof.
  intros H. unfold plainc.
  rewrite (digit_neq c 39 H eq_refl), (digit_neq c 37 H eq_refl), (digit_neq c 92 H eq_refl). reflexivity.
Qed.

Lemma dec_plain n : forallb plainc (dec_of_N n) = true.
Proof. exact (forallb_impl is_digit plainc _ digit_plain (dec_digits n)). Qed.

Lemma padN_plain w n : forallb plainc (padN w n) = true.
Proof. unfold padN, pad. rewrite forallb_app, forallb_repeat, dec_plain by reflexivity. reflexivity. Qed.

Lemma iso_date_plain x : forallb plainc (iso_date x) = true.
Proof. unfold iso_date. rewrite !forallb_app, !padN_plain. reflexivity. Qed.
Lemma hms_plain t : forallb plainc (hms t) = true.
Proof. unfold hms. rewrite !forallb_app, !padN_plain. reflexivity. Qed.
Lemma iso_time_plain t : forallb plainc (iso_time t) = true.
Proof.
  unfold iso_time. rewrite forallb_app, hms_plain. destruct (t_us t =? 0); [reflexivity|].
  cbn [forallb]. rewrite padN_plain. reflexivity.
Qed.
Lemma sqlite_time_plain t : forallb plainc (sqlite_time t) = true.
Proof. unfold sqlite_time. rewrite forallb_app, hms_plain. cbn [forallb]. rewrite padN_plain. reflexivity. Qed.

Lemma temporal_text_plain d v : forallb plainc (temporal_text d v) = true.
Proof.
  destruct d, v; cbn [temporal_text]; rewrite ?forallb_app; cbn [forallb];
    rewrite ?iso_date_plain, ?iso_time_plain, ?sqlite_time_plain; reflexivity.
Qed.

Lemma plain_no_backslash s : forallb plainc s = true -> forallb nobs s = true.
Proof. apply forallb_impl. intros c. unfold plainc, nobs. destruct (c =? 92); [rewrite andb_false_r; discriminate|reflexivity]. Qed.

(* the dialect-level replace leaves a temporal literal alone: what reaches the statement is
   prefix ' text ' suffix *)
Theorem temporal_render : forall d fl v,
  render_value d fl (VTemporal v) =
  Ok (fst (temporal_wrap d v) ++ [39] ++ temporal_text d v ++ [39] ++ snd (temporal_wrap d v)).
Proof.
  intros d fl v. cbn [render_value]. f_equal. apply dialect_replaces_no_backslash.
  unfold temporal_process. rewrite !forallb_app.
  rewrite (plain_no_backslash _ (temporal_text_plain d v)).
  destruct d, v; cbn [temporal_wrap fst snd]; try reflexivity;
    destruct (t_us t =? 0); reflexivity.
Qed.

(* the quoted part is one string token denoting the ISO text, in every dialect's lexical mode *)
Theorem temporal_literal_token : forall d fl v rest, no_quote_prefix rest ->
  lex_str (server d fl) (driver fl (([39] ++ temporal_text d v ++ [39]) ++ rest))
  = Some (temporal_text d v, driver fl rest).
Proof.
  intros d fl v rest Hr. rewrite <- (render_string_plain d fl) by apply temporal_text_plain.
  apply string_literal_roundtrip; [discriminate|exact Hr].
Qed.

(* the fixed text Oracle puts after the quoted part starts with a comma *)
Lemma temporal_suffix_no_quote d v rest : no_quote_prefix rest ->
  no_quote_prefix (snd (temporal_wrap d v) ++ rest).
Proof.
  intros Hr. destruct d, v; cbn [temporal_wrap snd app]; try exact Hr; try discriminate.
  destruct (t_us t =? 0); cbn; discriminate.
Qed.

Definition s_true : str := [116; 114; 117; 101].
Definition s_false : str := [102; 97; 108; 115; 101].
Theorem bool_null_render : forall d fl b,
  render_value d fl VNone = Ok null_text /\
  render_value d fl (VBool b) = Ok (bool_text d b) /\
  In (bool_text d b) [[49]; [48]; s_true; s_false].
Proof.
  intros d fl b. split; [reflexivity|]. split.
  - cbn [render_value]. f_equal. apply dialect_replaces_no_backslash.
    unfold bool_text. destruct (native_bool_text d), b; reflexivity.
  - unfold bool_text. destruct (native_bool_text d), b; cbn [In]; auto.
Qed.

Theorem int_render : forall d fl z, render_value d fl (VInt z) = Ok (render_int z).
Proof.
  intros d fl z. cbn [render_value]. f_equal. apply dialect_replaces_no_backslash, plain_no_backslash.
  destruct z as [|p|p]; cbn [render_int forallb]; [reflexivity| |]; apply dec_plain.
Qed.
