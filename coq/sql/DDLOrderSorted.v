(* C14 - MetaData.sorted_tables; refutation witnesses; create_all followed by drop_all *)
From Coq Require Import List NArith Bool Lia Permutation.
Import ListNotations.
From SAV.util Require Import Topo Cycles TopoProofs TopoCycle TopoExtra CyclesSound CyclesComplete CyclesExact.
From SAV.sql Require Import DDLOrder DDLOrderBase DDLOrderSort DDLOrderExec DDLOrderCreate DDLOrderDrop.

(* the dependency graph sort_tables works on: add_is_dependent_on edges and one edge (referred table,
   table) per ForeignKeyConstraint without use_alter to another table *)
Definition deps (md : metadata) : list edge := fixed md ++ mutable0 none_filter md.

Lemma insert_table_perm t l : Permutation (insert_table t l) (t :: l).
Proof. induction l as [|u l IH]; simpl; [apply Permutation_refl|].
  destruct (N.leb (t_name t) (t_name u)); [apply Permutation_refl|].
  etransitivity; [apply perm_skip; exact IH|apply perm_swap]. Qed.

Lemma key_sort_perm md : Permutation (key_sort md) md.
Proof. unfold key_sort. induction md as [|t l IH]; simpl; [constructor|].
  etransitivity; [apply insert_table_perm|]. constructor. exact IH. Qed.

Lemma ks_in md t : In t (key_sort md) <-> In t md.
Proof. split; apply Permutation_in; [|apply Permutation_sym]; apply key_sort_perm. Qed.

Lemma ks_names md : Permutation (names (key_sort md)) (names md).
Proof. unfold names. apply Permutation_map. apply key_sort_perm. Qed.

Lemma ks_incl md : incl (key_sort md) md /\ incl md (key_sort md).
Proof. split; intros t; apply ks_in. Qed.

Lemma ks_fixed md e : In e (fixed (key_sort md)) <-> In e (fixed md).
Proof. split; apply flat_map_incl, ks_incl. Qed.

Lemma ks_deps md e : In e (deps (key_sort md)) <-> In e (deps md).
Proof. unfold deps. rewrite !in_app_iff, ks_fixed.
  enough (In e (mutable0 none_filter (key_sort md)) <-> In e (mutable0 none_filter md)) by tauto.
  split; apply flat_map_incl, ks_incl. Qed.

Theorem sorted_tables_spec md o w : wf md -> sorted_tables md = Ok (o, w) ->
  Permutation o (names md) /\
  (forall t f, In t md -> In f (t_fks t) -> fk_alter f = false -> fk_ref f <> t_name t ->
     ~ on_cycle (deps md) (t_name t) -> before o (fk_ref f) (t_name t)) /\
  (forall t p, In t md -> In p (t_extra t) -> In p (names md) -> before o p (t_name t)) /\
  (w = false <-> ~ exists c, cycle (deps md) c /\ incl c (names md)) /\
  (w = false -> forall t f, In t md -> In f (t_fks t) -> fk_alter f = false -> fk_ref f <> t_name t ->
     before o (fk_ref f) (t_name t)).
Proof.
  intros Hwf. unfold sorted_tables.
  destruct (sort_tables_and_constraints none_filter (key_sort md)) as [[[o' cyc] w']| |] eqn:Hs; try discriminate.
  intros [= -> ->].
  destruct (stc_ok _ _ _ _ _ Hs) as [_ [Hsound [Hw0 Hw1]]].
  change (first_edges none_filter (key_sort md)) with (deps (key_sort md)) in Hsound, Hw0, Hw1.
  assert (Hnm : forall n, In n (names md) <-> In n (names (key_sort md))).
  { intros n. split; apply Permutation_in; [apply Permutation_sym|]; apply ks_names. }
  assert (Hdep : forall t f, In t md -> In f (t_fks t) -> fk_alter f = false -> fk_ref f <> t_name t ->
     hit none_filter (key_sort md) cyc t = false -> before o (fk_ref f) (t_name t)).
  { intros t f Ht Hf Ha Hne Hh. apply (stc_none_before _ _ _ _ t f Hs); try assumption; [apply ks_in, Ht|].
    apply Hnm. eapply Hwf; eassumption. }
  assert (Hcyc : sort (deps (key_sort md)) (names (key_sort md)) = Circular <->
                 exists c, cycle (deps md) c /\ incl c (names md)).
  { rewrite sort_circular_iff.
    split; apply has_cycle_mono; intros x; try apply ks_deps; apply Hnm. }
  split; [etransitivity; [exact (stc_perm _ _ _ _ _ Hs)|apply ks_names]|]. split; [|split; [|split]].
  - intros t f Ht Hf Ha Hne Hnc. apply Hdep; try assumption.
    apply not_true_iff_false. intros Hh. apply Hnc. apply hit_in_cyc, Hsound in Hh.
    revert Hh. apply reach_ext. intros e. apply ks_deps.
  - intros t p Ht Hp Hpn. apply (stc_before_fixed _ _ _ _ _ t p Hs); [apply ks_in, Ht|exact Hp|apply Hnm, Hpn].
  - rewrite <- Hcyc. split.
    + intros Hw X. destruct (Hw0 Hw) as [_ Hok]. congruence.
    + intros Hn. destruct w; [|reflexivity]. destruct Hn. apply Hw1. reflexivity.
  - intros Hw t f Ht Hf Ha Hne. apply Hdep; try assumption. destruct (Hw0 Hw) as [-> _]. reflexivity. Qed.

Theorem sorted_tables_circular_iff md :
  sorted_tables md = Circular <-> exists c, cycle (fixed md) c /\ incl c (names md).
Proof. transitivity (sort_tables_and_constraints none_filter (key_sort md) = Circular).
  - unfold sorted_tables. destruct (sort_tables_and_constraints none_filter (key_sort md)) as [[[o cyc] w]| |];
      split; (discriminate || reflexivity).
  - rewrite stc_none_circular_iff. split; apply has_cycle_mono; intros x; try apply ks_fixed;
      apply Permutation_in; [|apply Permutation_sym]; apply ks_names. Qed.

Theorem sorted_tables_total md : sorted_tables md <> OutOfFuel.
Proof. unfold sorted_tables.
  destruct (sort_tables_and_constraints none_filter (key_sort md)) as [[[o cyc] w]| |] eqn:Hs; try discriminate.
  exfalso. exact (stc_never_fuel _ _ Hs). Qed.

Lemma cat_equiv_consistent md d : wf md -> cat_equiv d md ->
  consistent d md /\ forall t, In t md -> has_table (t_name t) d = true.
Proof. intros Hwf [Hp Hf].
  assert (Hall : forall n, In n (names md) -> has_table n d = true).
  { intros n Hn. apply has_table_In. apply (Permutation_in _ (Permutation_sym Hp)). exact Hn. }
  split; [|intros t Ht; apply Hall; unfold names; apply in_map; exact Ht].
  split; [eapply Permutation_NoDup; [apply Permutation_sym; exact Hp|apply Hwf]|].
  split; [intros n Hn; apply (Permutation_in _ Hp); exact Hn|].
  intros t Ht _. split; [apply Hf; exact Ht|]. intros f Hff. apply Hall. destruct Hwf as [_ [Hr _]]. eapply Hr; eassumption. Qed.

Lemma consistent_nil md : consistent [] md.
Proof. split; [constructor|]. split; [intros n []|]. intros t _ H. discriminate. Qed.

Theorem create_then_drop md : wf md -> alter_named md -> siblings_agree md ->
  ~ (exists w, cycle (fixed md ++ unnamed_deps md) w /\ incl w (names md)) ->
  exists c d, create_script (create_plan [] false md) = Some c /\
              drop_script (drop_plan (names md) false md) = Some d /\
              exec [] (c ++ d) = Some [].
Proof.
  intros Hwf Hnamed Hsiblings Hcyc.
  assert (Hfix : ~ (exists w, cycle (fixed md) w /\ incl w (names md))).
  { intros H. apply Hcyc. revert H. apply has_cycle_mono; [apply incl_appl|]; apply incl_refl. }
  destruct (create_all_succeeds md [] false Hwf (consistent_nil md) (fun _ => eq_refl) Hfix) as [o [u [Hc Hex]]].
  destruct (Hex u (Permutation_refl _)) as [d1 [He1 Heq]].
  destruct (cat_equiv_consistent md d1 Hwf Heq) as [Hcons Hall].
  destruct (drop_all_succeeds_guarded md d1 false Hwf Hcons (fun _ => Hall) Hnamed Hsiblings Hcyc) as [o2 [u2 [Hd Hex2]]].
  simpl in Hc. exists (o ++ u), (u2 ++ o2). split; [rewrite Hc; reflexivity|]. split.
  - (* without checkfirst the existing tables are not consulted *)
    change (drop_plan (names md) false md) with (drop_plan (map fst d1) false md). rewrite Hd. reflexivity.
  - rewrite exec_app, He1. apply Hex2. apply Permutation_refl. Qed.

(* t0 has a named and an unnamed constraint to t1, t1 a named one to t0 *)
Definition md_sibling : metadata :=
  [ mktable 0 [mkfk 0 1 false true; mkfk 1 1 false false] [];
    mktable 1 [mkfk 0 0 false true] [] ].

(* The hypotheses of the theorems above, decided by evaluation for a concrete metadata. *)
Lemma no_cycle_by_sort ts items : sort ts items <> Circular -> ~ exists w, cycle ts w /\ incl w items.
Proof. intros H Hc. apply H. apply sort_circular_iff. exact Hc. Qed.

Fixpoint nodupb (l : list N) : bool :=
  match l with [] => true | x :: r => negb (memb x r) && nodupb r end.

Lemma nodupb_ok l : nodupb l = true -> NoDup l.
Proof. induction l as [|x r IH]; simpl; [constructor|]. rewrite andb_true_iff, negb_true_iff, memb_false.
  intros [H1 H2]. constructor; auto. Qed.

Definition wfb (md : metadata) : bool :=
  nodupb (names md) &&
  forallb (fun t => forallb (fun f => memb (fk_ref f) (names md)) (t_fks t) && nodupb (map fk_id (t_fks t))) md.

Lemma wfb_ok md : wfb md = true -> wf md.
Proof. unfold wfb. rewrite andb_true_iff, forallb_forall. intros [Hn Ht]. split; [apply nodupb_ok, Hn|].
  split; [intros t f Hin Hf|intros t Hin]; specialize (Ht t Hin); apply andb_true_iff in Ht; destruct Ht as [H1 H2].
  - apply memb_In. exact (proj1 (forallb_forall _ _) H1 f Hf).
  - apply nodupb_ok, H2. Qed.

Lemma alter_named_by_eval md :
  forallb (fun t => forallb (fun f => implb (fk_alter f) (fk_named f)) (t_fks t)) md = true -> alter_named md.
Proof. rewrite forallb_forall. intros H t f Ht Hf Ha. specialize (H t Ht). rewrite forallb_forall in H.
  specialize (H f Hf). rewrite Ha in H. exact H. Qed.

Lemma siblings_agree_by_eval md :
  forallb (fun t => forallb (fun f => forallb (fun f' =>
    implb (N.eqb (fk_ref f) (fk_ref f')) (Bool.eqb (fk_named f) (fk_named f'))) (t_fks t)) (t_fks t)) md = true ->
  siblings_agree md.
Proof. rewrite forallb_forall. intros H t f f' Ht Hf Hf' Hr. specialize (H t Ht). rewrite forallb_forall in H.
  specialize (H f Hf). rewrite forallb_forall in H. specialize (H f' Hf'). rewrite Hr, N.eqb_refl in H.
  apply eqb_prop, H. Qed.

Theorem drop_all_unguarded_refuted :
  exists md s, wf md /\ alter_named md /\
    ~ (exists w, cycle (fixed md ++ unnamed_deps md) w /\ incl w (names md)) /\
    drop_script (drop_plan (names md) false md) = Some s /\
    exec (catalog_of md) s = None /\
    (* although the same ALTERs followed by the other DROP order are accepted *)
    exists s', Permutation s' s /\ exec (catalog_of md) s' = Some [].
Proof.
  exists md_sibling. eexists. split; [apply wfb_ok; reflexivity|]. split; [|split; [|split; [|split]]].
  - apply alter_named_by_eval. reflexivity.
  - apply no_cycle_by_sort. vm_compute. discriminate.
  - vm_compute. reflexivity.
  - vm_compute. reflexivity.
  - exists [DropFK 0 (mkfk 0 1 false true); DropFK 1 (mkfk 0 0 false true); DropT 0; DropT 1].
    split; [|vm_compute; reflexivity]. apply perm_skip. apply perm_skip. apply perm_swap. Qed.

(* refutes "every dependency edge that lies on no cycle is respected": t1 <-> t2 is a cycle, t1 also refers to
   t3; the edge t3 -> t1 lies on no cycle, but its child t1 does, so it is dropped from the sort with the others *)
Definition md_feeder : metadata :=
  [ mktable 1 [mkfk 0 2 false false; mkfk 1 3 false false] [];
    mktable 2 [mkfk 0 1 false false] [];
    mktable 3 [] [] ].

Theorem sorted_tables_edge_reading_refuted :
  exists md t f o, wf md /\ In t md /\ In f (t_fks t) /\ fk_alter f = false /\ fk_ref f <> t_name t /\
    ~ on_cycle (deps md) (fk_ref f) /\
    sorted_tables md = Ok (o, true) /\ ~ before o (fk_ref f) (t_name t).
Proof.
  exists md_feeder, (mktable 1 [mkfk 0 2 false false; mkfk 1 3 false false] []), (mkfk 1 3 false false), [1;2;3]%N.
  split; [|split; [|split; [|split; [|split; [|split; [|split]]]]]].
  - apply wfb_ok. reflexivity.
  - left. reflexivity.
  - right. left. reflexivity.
  - reflexivity.
  - simpl. discriminate.
  - destruct (cycles_of_exact (deps md_feeder)) as [out [Ho Hx]]. intros Hc. apply Hx in Hc.
    vm_compute in Ho. inversion Ho; subst out. simpl in Hc. intuition discriminate.
  - vm_compute. reflexivity.
  - intros Hb. apply (before_prefix [1;2;3]%N 3%N 1%N [] [2;3]%N) in Hb; [exact Hb| |reflexivity].
    repeat constructor; simpl; intuition discriminate. Qed.
