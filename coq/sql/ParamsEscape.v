(* C04 - escaping of bind names (bindparam_string / bindname_escape_characters / escaped_bind_names) *)
From Coq Require Import List NArith ZArith Bool.
Import ListNotations.
From SAV.sql Require Import Params ParamsDict.

(* side conditions on the table, evaluated on the table extracted from the live module *)
(* no replacement character is itself an escaped character *)
Definition table_closed (tab : list (N * N)) : bool :=
  forallb (fun kr => match tab_get (snd kr) tab with None => true | Some _ => false end) tab.
(* some character is really replaced by a different one *)
Definition table_nontrivial (tab : list (N * N)) : bool :=
  existsb (fun kr => match tab_get (fst kr) tab with Some r => negb (N.eqb (fst kr) r) | None => false end) tab.

Section Esc.
Variable tab : list (N * N).

Lemma tab_get_In : forall c r t, tab_get c t = Some r -> In (c, r) t.
Proof.
  induction t as [|[k r'] t IH]; cbn [tab_get]; [discriminate|].
  destruct (N.eqb_spec c k) as [->|Hn]; intro H.
  - inversion H; subst. left. reflexivity.
  - right. apply IH. exact H.
Qed.

Lemma closed_repl : table_closed tab = true -> forall c r, tab_get c tab = Some r -> tab_get r tab = None.
Proof.
  intros Hc c r H. apply tab_get_In in H. unfold table_closed in Hc. rewrite forallb_forall in Hc.
  specialize (Hc _ H). cbn [snd] in Hc. destruct (tab_get r tab); [discriminate|reflexivity].
Qed.

Lemma esc_char_clean : table_closed tab = true -> forall c, tab_get (esc_char tab c) tab = None.
Proof.
  intros Hc c. unfold esc_char. destruct (tab_get c tab) eqn:E; [exact (closed_repl Hc _ _ E)|exact E].
Qed.

Lemma needs_esc_esc : table_closed tab = true -> forall n, needs_esc tab (esc tab n) = false.
Proof.
  intros Hc n. induction n as [|c n IH]; [reflexivity|].
  cbn [esc map needs_esc existsb]. rewrite (esc_char_clean Hc c). cbn [orb]. exact IH.
Qed.

Lemma needs_esc_false_esc : forall n, needs_esc tab n = false -> esc tab n = n.
Proof.
  induction n as [|c n IH]; [reflexivity|]. cbn [needs_esc existsb esc map]. intro H.
  apply orb_false_iff in H. destruct H as [H1 H2]. unfold esc_char.
  destruct (tab_get c tab); [discriminate|]. f_equal. apply IH. exact H2.
Qed.

Lemma esc_idem : table_closed tab = true -> forall n, esc tab (esc tab n) = esc tab n.
Proof. intros Hc n. apply needs_esc_false_esc. apply needs_esc_esc. exact Hc. Qed.

(* the escape map of a closed table that replaces anything cannot be injective: c and its replacement
   r are both sent to r *)
Lemma esc_not_injective : table_closed tab = true -> table_nontrivial tab = true ->
  exists a b, a <> b /\ esc tab a = esc tab b.
Proof.
  intros Hc Hn. unfold table_nontrivial in Hn. apply existsb_exists in Hn.
  destruct Hn as [[c r0] [_ H]]. cbn [fst] in H. destruct (tab_get c tab) as [r|] eqn:E; [|discriminate].
  apply negb_true_iff in H. apply N.eqb_neq in H.
  exists [c], [r]. split; [congruence|].
  cbn [esc map]. unfold esc_char. rewrite E, (closed_repl Hc _ _ E). reflexivity.
Qed.

Lemma ebn_fold_get : forall order d n,
  dget n (fold_left (fun d n => if needs_esc tab n then dset n (esc tab n) d else d) order d) =
  if memb n order && needs_esc tab n then Some (esc tab n) else dget n d.
Proof.
  induction order as [|m order IH]; intros d n; [reflexivity|].
  cbn [fold_left]. rewrite IH. cbn [memb existsb]. fold (memb n order).
  destruct (str_eqb_spec n m) as [->|Hn]; cbn [orb].
  - destruct (needs_esc tab m) eqn:E.
    + rewrite andb_true_r. destruct (memb m order); [reflexivity|]. apply dget_dset_same.
    + rewrite !andb_false_r. reflexivity.
  - destruct (memb n order && needs_esc tab n); [reflexivity|].
    destruct (needs_esc tab m); [apply dget_dset_other; exact Hn|reflexivity].
Qed.

Lemma ebn_get : forall order n,
  dget n (ebn_of tab order) = if memb n order && needs_esc tab n then Some (esc tab n) else None.
Proof. intros. unfold ebn_of. rewrite ebn_fold_get. reflexivity. Qed.

Lemma ebn_get_or_key_in : forall order n, In n order -> dget_or_key (ebn_of tab order) n = esc tab n.
Proof.
  intros order n H. unfold dget_or_key. rewrite ebn_get. apply memb_In in H. rewrite H. cbn [andb].
  destruct (needs_esc tab n) eqn:E; [reflexivity|]. symmetry. apply needs_esc_false_esc. exact E.
Qed.
Lemma ebn_get_or_key_out : forall order n, ~ In n order -> dget_or_key (ebn_of tab order) n = n.
Proof.
  intros order n H. unfold dget_or_key. rewrite ebn_get. apply memb_false in H. rewrite H. reflexivity.
Qed.

(* when nothing was escaped the renaming steps are skipped, and nothing needed renaming *)
Lemma ebn_nil : forall order n, ebn_of tab order = [] -> In n order -> esc tab n = n.
Proof. intros order n E Hn. rewrite <- (ebn_get_or_key_in order n Hn), E. reflexivity. Qed.

Lemma ebn_nodup : forall order, NoDup (keys (ebn_of tab order)).
Proof.
  intro order. unfold ebn_of. generalize (NoDup_nil name : NoDup (keys (@nil (name * name)))).
  generalize (@nil (name * name)) as d. induction order as [|m order IH]; intros d Hd; cbn [fold_left]; [exact Hd|].
  apply IH. destruct (needs_esc tab m); [apply NoDup_keys_dset|]; exact Hd.
Qed.

Lemma ebn_entries : forall order k e, In (k, e) (ebn_of tab order) -> e = esc tab k /\ In k order.
Proof.
  intros order k e H. apply (In_dget _ _ _ (ebn_nodup order)) in H. rewrite ebn_get in H.
  destruct (memb k order) eqn:M; [apply memb_In in M|discriminate].
  cbn [andb] in H. destruct (needs_esc tab k); [|discriminate]. split; [congruence|exact M].
Qed.
End Esc.
