(* The tree [construct] builds: its rendering is the flat printing of its left-nested reading
   ([render_lower]), and every ungrouped parent/child edge in it was left ungrouped by self_group
   ([inv], [construct_inv]). *)
From Coq Require Import List Arith ZArith Bool.
Import ListNotations.
From SAV.sql Require Import Prec SAExpr C01Tables.

Section SxInd.
Variable P : sx -> Prop.
Hypothesis HA : forall n, P (SA n).
Hypothesis HB : forall o l r, P l -> P r -> P (SB o l r).
Hypothesis HL : forall o e1 es, P e1 -> Forall P es -> P (SL o e1 es).
Hypothesis HU : forall u e, P e -> P (SU u e).
Hypothesis HG : forall e, P e -> P (SG e).
Fixpoint sx_ind' (x : sx) : P x :=
  match x with
  | SA n => HA n
  | SB o l r => HB o l r (sx_ind' l) (sx_ind' r)
  | SL o e1 es =>
      HL o e1 es (sx_ind' e1)
        ((fix go (l : list sx) : Forall P l :=
            match l with [] => Forall_nil P | y :: r => Forall_cons y (sx_ind' y) (go r) end) es)
  | SU u e => HU u e (sx_ind' e)
  | SG e => HG e (sx_ind' e)
  end.
End SxInd.

Theorem render_lower : forall x, flat (lower x) = render x.
Proof.
  induction x as [n|o l r IHl IHr|o e1 es IH1 IHes|u e IHe|e IHe] using sx_ind'; cbn [lower render flat].
  - reflexivity.
  - rewrite IHl, IHr. reflexivity.
  - rewrite <- IH1. generalize (lower e1) as acc.
    induction IHes as [|y es Hy _ IH]; intros acc; cbn [fold_left flat_map].
    + symmetry. apply app_nil_r.
    + rewrite IH. cbn [flat]. rewrite <- app_assoc, Hy. reflexivity.
  - rewrite IHe. reflexivity.
  - rewrite IHe. reflexivity.
Qed.

Lemma binop_not_un o : In o binops -> is_un o = false.
Proof.
  intros H. apply negb_true_iff. revert o H.
  apply (proj1 (forallb_forall (fun o => negb (is_un o)) binops)). reflexivity.
Qed.
Lemma unop_is_un u : In u unops -> is_un u = true.
Proof. intros H. apply existsb_exists. exists u. split; [exact H|apply Nat.eqb_refl]. Qed.

Definition every (P : sx -> Prop) : list sx -> Prop :=
  fix all l := match l with [] => True | y :: r => P y /\ all r end.

Section Inv.
Variable T : satab.

(* the invariant [construct] establishes, edge by edge: y sits under parent p ungrouped only if
   self_group decided not to group it, and never with the parent's own operator when the parent flattens *)
Definition sgc (p : nat) (y : sx) : Prop :=
  match op_of y with
  | None => True
  | Some c => sg_dec T c p = false /\ (flattens T p = true -> is_un p = false -> c <> p)
  end.

Fixpoint inv (x : sx) : Prop :=
  match x with
  | SA _ => True
  | SG e => inv e
  | SB o l r => In o binops /\ inv l /\ inv r /\ sgc o l /\ sgc o r
  | SL o e1 es =>
      In o binops /\ flattens T o = true /\ every (fun y => inv y /\ sgc o y) (e1 :: es)
  | SU u e => In u unops /\ inv e /\ sgc u e
  end.

Definition invs (o : nat) : list sx -> Prop := every (fun y => inv y /\ sgc o y).

Lemma invs_app o l1 l2 : invs o l1 -> invs o l2 -> invs o (l1 ++ l2).
Proof.
  induction l1 as [|a l1 IH]; intros H1 H2; [exact H2|].
  destruct H1 as [Ha Hr]. exact (conj Ha (IH Hr H2)).
Qed.

(* what the invariant needs of the table: negation partners are binary operators that do not flatten *)
Definition neg_wf : bool :=
  forallb (fun o => match negate T o with
                    | Some n => existsb (Nat.eqb n) binops && negb (flattens T n)
                    | None => true end) binops.

Lemma flattens_AND : flattens T AND = true.
Proof. unfold flattens. rewrite Nat.eqb_refl, orb_true_r. reflexivity. Qed.
Lemma flattens_OR : flattens T OR = true.
Proof. unfold flattens. rewrite Nat.eqb_refl, !orb_true_r. reflexivity. Qed.

(* self_group either leaves the node alone or wraps it; on a node of the invariant, which of the two
   is the table decision [sg_dec] *)
Lemma sg_cases x p : self_group T x p = x \/ self_group T x p = SG x.
Proof.
  destruct x; cbn [self_group]; auto; [destruct (_ || _)|destruct (_ || _)|destruct (is_precedent _ _ _)]; auto.
Qed.

Lemma sg_spec x p c : inv x -> op_of x = Some c ->
  self_group T x p = if sg_dec T c p then SG x else x.
Proof.
  destruct x as [n|o l r|o e1 es|u e|e]; cbn [op_of self_group inv]; intros Hi E;
    inversion E; subst c; unfold sg_dec.
  1,2: rewrite (binop_not_un o (proj1 Hi)); reflexivity.
  rewrite (unop_is_un u (proj1 Hi)). reflexivity.
Qed.

Lemma sg_inv x p : inv x -> inv (self_group T x p).
Proof. intros H. destruct (sg_cases x p) as [-> | ->]; exact H. Qed.

Lemma has_op_sg_false x p o : has_op x o = false -> has_op (self_group T x p) o = false.
Proof. intros H. destruct (sg_cases x p) as [-> | ->]; [exact H|reflexivity]. Qed.

Lemma sg_sgc x p : inv x ->
  (flattens T p = true -> is_un p = false -> has_op x p = false) ->
  sgc p (self_group T x p).
Proof.
  intros Hi Hne. unfold sgc. destruct (op_of x) as [c|] eqn:E.
  - rewrite (sg_spec x p c Hi E). destruct (sg_dec T c p) eqn:D; [exact I|]. rewrite E.
    split; [exact D|]. intros Hf Hu ->. specialize (Hne Hf Hu). unfold has_op in Hne.
    rewrite E, Nat.eqb_refl in Hne. discriminate.
  - destruct x; try discriminate; exact I.
Qed.

Lemma sgc_no_same o y : flattens T o = true -> In o binops -> sgc o y -> has_op y o = false.
Proof.
  intros Hf Ho Hs. unfold sgc in Hs. unfold has_op. destruct (op_of y) as [c|]; [|reflexivity].
  apply Nat.eqb_neq, Hs; [exact Hf|exact (binop_not_un o Ho)].
Qed.

Definition contrib (o : nat) (x : sx) : list sx := if has_op x o then flat_clauses x else [x].

Lemma contrib_nonempty o x : contrib o x <> [].
Proof.
  unfold contrib. destruct (has_op x o); [|discriminate].
  destruct x; cbn; discriminate.
Qed.

(* an operand that shows o is an o-node of the invariant *)
Lemma clauses_invs o x : has_op x o = true -> In o binops -> inv x -> invs o (flat_clauses x).
Proof.
  intros E Ho Hi. destruct x as [n|o' l r|o' e1 es|u e|e]; unfold has_op in E; cbn [op_of] in E;
    try discriminate; apply Nat.eqb_eq in E as ->.
  - destruct Hi as (_ & Hl & Hr & Sl & Sr). exact (conj (conj Hl Sl) (conj (conj Hr Sr) I)).
  - destruct Hi as (_ & _ & H). exact H.
  - pose proof (unop_is_un o (proj1 Hi)) as H. rewrite (binop_not_un o Ho) in H. discriminate.
Qed.

Lemma sg_invs o : flattens T o = true -> In o binops ->
  forall l, invs o l -> invs o (map (fun c => self_group T c o) l).
Proof.
  intros Hf Ho. induction l as [|a l IH]; [auto|]. intros [[Ha Hs] Hr].
  exact (conj (conj (sg_inv a o Ha) (sg_sgc a o Ha (fun _ _ => sgc_no_same o a Hf Ho Hs))) (IH Hr)).
Qed.

(* _construct_for_op flattens the operand first and groups each clause afterwards *)
Lemma contrib_invs o x : flattens T o = true -> In o binops -> inv x ->
  invs o (map (fun c => self_group T c o) (contrib o x)).
Proof.
  intros Hf Ho Hi. unfold contrib. destruct (has_op x o) eqn:E.
  - apply sg_invs, clauses_invs; assumption.
  - exact (conj (conj (sg_inv x o Hi) (sg_sgc x o Hi (fun _ _ => E))) I).
Qed.

(* and_/or_ group the operand first and flatten it if it still shows the operator *)
Lemma bool_contrib_invs o x : flattens T o = true -> In o binops -> inv x ->
  invs o (contrib o (self_group T x o)).
Proof.
  intros Hf Ho Hi. destruct (sg_cases x o) as [E|E]; rewrite E.
  - unfold contrib. destruct (has_op x o) eqn:Eo; [apply clauses_invs; assumption|].
    pose proof (sg_sgc x o Hi (fun _ _ => Eo)) as Hs. rewrite E in Hs. exact (conj (conj Hi Hs) I).
  - exact (conj (conj Hi I) I).
Qed.

Lemma mk_list_inv o l1 l2 : flattens T o = true -> In o binops -> l1 <> [] ->
  invs o l1 -> invs o l2 -> inv (mk_list o (l1 ++ l2)).
Proof.
  intros Hf Ho Hne H1 H2. destruct l1 as [|c l1]; [contradiction|].
  exact (conj Ho (conj Hf (invs_app o (c :: l1) l2 H1 H2))).
Qed.

Lemma bin_inv o l r : In o binops -> inv l -> inv r ->
  (flattens T o = true -> has_op l o = false /\ has_op r o = false) ->
  inv (SB o (self_group T l o) (self_group T r o)).
Proof.
  intros Ho Hl Hr Hne. cbn [inv]. split; [exact Ho|]. split; [apply sg_inv, Hl|]. split; [apply sg_inv, Hr|].
  split; apply sg_sgc; auto; intros Hf _; apply (Hne Hf).
Qed.

Lemma un_inv u x : In u unops -> inv x -> inv (SU u (self_group T x u)).
Proof.
  intros Hu Hi. cbn [inv]. split; [exact Hu|]. split; [apply sg_inv, Hi|].
  apply sg_sgc; [exact Hi|]. intros _ Hn. rewrite (unop_is_un u Hu) in Hn. discriminate.
Qed.

Lemma construct_for_op_inv o l r :
  In o binops -> o <> AND -> o <> OR -> inv l -> inv r -> inv (construct_for_op T o l r).
Proof.
  intros Ho Ha Hor Hl Hr. unfold construct_for_op.
  destruct (assoc T o && (has_op l o || has_op r o)) eqn:E.
  - apply andb_prop in E as [Has _].
    assert (Hf : flattens T o = true) by (unfold flattens; rewrite Has; reflexivity).
    fold (contrib o l) (contrib o r). rewrite map_app. apply mk_list_inv; auto using contrib_invs.
    intros H. apply map_eq_nil in H. exact (contrib_nonempty o l H).
  - (* o flattens only through its assoc flag, and then neither operand shows o *)
    apply bin_inv; auto. intros Hf. apply orb_false_elim. unfold flattens in Hf.
    rewrite (proj2 (Nat.eqb_neq _ _) Ha), (proj2 (Nat.eqb_neq _ _) Hor), !orb_false_r in Hf.
    rewrite Hf in E. exact E.
Qed.

Lemma bool_list_inv o l r : flattens T o = true -> In o binops -> inv l -> inv r -> inv (bool_list T o l r).
Proof.
  intros Hf Ho Hl Hr. unfold bool_list. fold (contrib o (self_group T l o)) (contrib o (self_group T r o)).
  apply mk_list_inv; auto using bool_contrib_invs, contrib_nonempty.
Qed.

Lemma negate_inv x : neg_wf = true -> inv x -> inv (negate_sx T x).
Proof.
  (* except on a binary node, x._negate() is SU INV (self_group x INV), up to computation *)
  intros Hn Hi. pose proof (un_inv INV x (or_introl eq_refl) Hi) as Hu.
  destruct x as [n|o l r|o e1 es|u e|e]; try exact Hu. clear Hu. cbn [negate_sx].
  destruct (negate T o) as [no|] eqn:En; [|exact (conj (or_introl eq_refl) (conj Hi I))].
  destruct Hi as (Ho & Hl & Hr & _).
  unfold neg_wf in Hn. rewrite forallb_forall in Hn. specialize (Hn o Ho). rewrite En in Hn.
  apply andb_prop in Hn as [Hin Hnf]. apply existsb_exists in Hin as (y & Hy & Ey).
  apply Nat.eqb_eq in Ey as ->. apply bin_inv; auto. intros Hf. rewrite Hf in Hnf. discriminate.
Qed.

(* user trees: binary operators come from the vocabulary; and_/or_ are written with UAnd/UOr *)
Fixpoint wf_u (t : uex) : Prop :=
  match t with
  | UA _ => True
  | UB o l r => In o binops /\ o <> AND /\ o <> OR /\ wf_u l /\ wf_u r
  | UAnd l r | UOr l r => wf_u l /\ wf_u r
  | UNot e | UNeg e => wf_u e
  end.

Theorem construct_inv : neg_wf = true -> forall t, wf_u t -> inv (construct T t).
Proof.
  intros Hn. induction t as [n|o l IHl r IHr|l IHl r IHr|l IHl r IHr|e IHe|e IHe]; cbn [construct wf_u]; intros Hw.
  - exact I.
  - destruct Hw as (Ho & Ha & Hor & Hl & Hr). apply construct_for_op_inv; auto.
  - destruct Hw as [Hl Hr]. apply bool_list_inv; auto using flattens_AND. left; reflexivity.
  - destruct Hw as [Hl Hr]. apply bool_list_inv; auto using flattens_OR. right; left; reflexivity.
  - apply negate_inv; auto.
  - apply un_inv; [right; left; reflexivity|auto].
Qed.
End Inv.
