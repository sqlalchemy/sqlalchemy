(* C01 semantic half: associative flattening, and_/or_ flattening and negation rewriting preserve
   evaluation, for any operator semantics in which the flattened operators are associative and every
   registered negation partner is the complement. *)
From Coq Require Import List Arith ZArith Bool.
Import ListNotations.
From SAV.sql Require Import Prec SAExpr C01Tables C01Proofs C01Main.

Section Sem.
Variable T : satab.
Variable V : Type.
Variable bsem : nat -> V -> V -> V.
Variable usem : nat -> V -> V.
Variable env : nat -> V.

Hypothesis H_assoc : forall o, In o binops -> flattens T o = true ->
  forall a b c, bsem o (bsem o a b) c = bsem o a (bsem o b c).
Hypothesis H_neg : forall o no, In o binops -> negate T o = Some no ->
  forall a b, usem INV (bsem o a b) = bsem no a b.

Fixpoint eval (p : pt) : V :=
  match p with
  | PA n => env n
  | PB o l r => bsem o (eval l) (eval r)
  | PU u e => usem u (eval e)
  end.

Definition evx (x : sx) : V := eval (erase (lower x)).

Lemma evx_SB o l r : evx (SB o l r) = bsem o (evx l) (evx r).
Proof. reflexivity. Qed.
Lemma evx_SU u e : evx (SU u e) = usem u (evx e).
Proof. reflexivity. Qed.
Lemma evx_SL o e1 es : evx (SL o e1 es) = fold_left (bsem o) (map evx es) (evx e1).
Proof.
  unfold evx. cbn [lower]. generalize (lower e1) as acc.
  induction es as [|e es IH]; intros acc; [reflexivity|]. exact (IH _).
Qed.

Lemma evx_sg x p : evx (self_group T x p) = evx x.
Proof. destruct (sg_cases T x p) as [-> | ->]; reflexivity. Qed.

Lemma evx_bin o l r : evx (SB o (self_group T l o) (self_group T r o)) = bsem o (evx l) (evx r).
Proof. rewrite evx_SB, !evx_sg. reflexivity. Qed.
Lemma evx_un u x : evx (SU u (self_group T x u)) = usem u (evx x).
Proof. rewrite evx_SU, evx_sg. reflexivity. Qed.

Lemma evx_mk_list_sg o cs : evx (mk_list o (map (fun c => self_group T c o) cs)) = evx (mk_list o cs).
Proof.
  destruct cs as [|c cs]; [reflexivity|]. cbn [map mk_list].
  rewrite !evx_SL, evx_sg, map_map, (map_ext _ evx (fun a => evx_sg a o)). reflexivity.
Qed.

Lemma evx_mk_contrib o x : evx (mk_list o (contrib o x)) = evx x.
Proof.
  unfold contrib. destruct (has_op x o) eqn:E; [|reflexivity].
  destruct x; unfold has_op in E; cbn [op_of] in E; try discriminate;
    apply Nat.eqb_eq in E as ->; reflexivity.
Qed.

Lemma fold_assoc o : In o binops -> flattens T o = true -> forall l a v,
  fold_left (bsem o) (a :: l) v = bsem o v (fold_left (bsem o) l a).
Proof.
  intros Ho Hf. cbn [fold_left]. induction l as [|b l IH]; intros a v; cbn [fold_left]; [reflexivity|].
  rewrite (H_assoc o Ho Hf). apply IH.
Qed.

(* the one place associativity is used: two left-nested chains joined end to end *)
Lemma evx_contribs o l r : In o binops -> flattens T o = true ->
  evx (mk_list o (contrib o l ++ contrib o r)) = bsem o (evx l) (evx r).
Proof.
  intros Ho Hf. rewrite <- (evx_mk_contrib o l), <- (evx_mk_contrib o r).
  pose proof (contrib_nonempty o l). pose proof (contrib_nonempty o r).
  destruct (contrib o l) as [|a la], (contrib o r) as [|b lb]; try contradiction.
  cbn [app mk_list]. rewrite !evx_SL, map_app, fold_left_app. apply (fold_assoc o Ho Hf).
Qed.

Lemma evx_construct_for_op o l r : In o binops -> evx (construct_for_op T o l r) = bsem o (evx l) (evx r).
Proof.
  intros Ho. unfold construct_for_op.
  destruct (assoc T o && (has_op l o || has_op r o)) eqn:E; [|apply evx_bin].
  apply andb_prop in E as [Ha _]. fold (contrib o l) (contrib o r).
  rewrite evx_mk_list_sg. apply evx_contribs; [exact Ho|]. unfold flattens. rewrite Ha. reflexivity.
Qed.

Lemma evx_bool_list o l r : In o binops -> flattens T o = true -> evx (bool_list T o l r) = bsem o (evx l) (evx r).
Proof.
  intros Ho Hf. unfold bool_list. fold (contrib o (self_group T l o)) (contrib o (self_group T r o)).
  rewrite (evx_contribs o _ _ Ho Hf), !evx_sg. reflexivity.
Qed.

Lemma evx_negate x : inv T x -> evx (negate_sx T x) = usem INV (evx x).
Proof.
  (* the same split as in [negate_inv] *)
  intros Hi. pose proof (evx_un INV x) as Hu.
  destruct x as [n|o l r|o e1 es|u e|e]; try exact Hu. clear Hu. cbn [negate_sx].
  destruct (negate T o) as [no|] eqn:En; [|reflexivity].
  rewrite evx_bin. symmetry. apply H_neg; [apply Hi|exact En].
Qed.

Theorem construct_sound : neg_wf T = true -> forall t, wf_u t -> evx (construct T t) = eval (full t).
Proof.
  intros Hn. induction t as [n|o l IHl r IHr|l IHl r IHr|l IHl r IHr|e IHe|e IHe]; cbn [construct full eval wf_u]; intros Hw.
  - reflexivity.
  - destruct Hw as (Ho & _ & _ & Hl & Hr). rewrite (evx_construct_for_op o _ _ Ho), IHl, IHr by assumption. reflexivity.
  - destruct Hw as [Hl Hr]. rewrite (evx_bool_list AND _ _ (or_introl eq_refl) (flattens_AND T)), IHl, IHr by assumption. reflexivity.
  - destruct Hw as [Hl Hr]. rewrite (evx_bool_list OR _ _ (or_intror (or_introl eq_refl)) (flattens_OR T)), IHl, IHr by assumption. reflexivity.
  - rewrite evx_negate, IHe by (try assumption; apply construct_inv; assumption). reflexivity.
  - rewrite evx_un, IHe by assumption. reflexivity.
Qed.

Theorem rendered_sound Bk allowed : compat T Bk allowed = true -> neg_wf T = true ->
  forall t, wf_u t -> uses allowed (construct T t) ->
  forall f p rest, parse (g_lbp Bk) (g_rbp Bk) (g_pbp Bk) f 0 (render (construct T t)) = Some (p, rest) ->
  rest = [] /\ eval p = eval (full t).
Proof.
  intros Hc Hn t Hw Hu f p rest Hp.
  pose proof (parses_fun _ _ _ _ _ _ _ (ex_intro _ f Hp) (c01_structure T Bk allowed Hc Hn t Hw Hu)) as E. inversion E; subst.
  split; [reflexivity|]. apply construct_sound; assumption.
Qed.
End Sem.
