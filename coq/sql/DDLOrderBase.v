(* C14 - basic lemmas: canonical find_cycles is exact, the order relation [before], membership in the
   edge sets of the model, small list facts *)
From Coq Require Import List NArith Bool Lia Permutation.
Import ListNotations.
From SAV.util Require Import Topo Cycles TopoProofs TopoCycle TopoExtra CyclesSound CyclesComplete CyclesExact.
From SAV.sql Require Import DDLOrder.

Lemma In_dedup x l : In x (dedup l) <-> In x l.
Proof. induction l as [|a l IH]; simpl; [tauto|]. destruct (memb a (dedup l)) eqn:M.
  - apply memb_In in M. split; [intros H; right; apply IH, H|]. intros [->|H]; [exact M|apply IH, H].
  - simpl. rewrite IH. tauto. Qed.

Lemma ord_of_spec ts a b : In b (ord_of ts a) <-> In (a, b) ts.
Proof. unfold ord_of. rewrite In_dedup, in_map_iff. split.
  - intros [[x y] [H1 H2]]. simpl in H1; subst. apply filter_In in H2. destruct H2 as [H2 H3].
    simpl in H3. apply N.eqb_eq in H3. subst. exact H2.
  - intros H. exists (a, b). split; [reflexivity|]. apply filter_In. split; [exact H|]. simpl. apply N.eqb_refl. Qed.

Lemma starts_of_spec ts a : In a (starts_of ts) <-> exists b, In (a, b) ts.
Proof. unfold starts_of. rewrite In_dedup, in_map_iff. split.
  - intros [[x y] [H1 H2]]. simpl in H1; subst. exists y. exact H2.
  - intros [b H]. exists (a, b). split; [reflexivity|exact H]. Qed.

Theorem cycles_of_exact ts : exists out, cycles_of ts = Some out /\ forall x, In x out <-> on_cycle ts x.
Proof. unfold cycles_of. exact (find_cycles_exact ts (ord_of ts) (ord_of_spec ts) (starts_of ts) (starts_of_spec ts)). Qed.

(* the model computes err.cycles with one canonical iteration order of the Python sets; any other
   order gives the same set *)
Theorem cycles_of_any_order ts (ord : node -> list node) (starts : list node) :
  (forall a b, In b (ord a) <-> In (a, b) ts) ->
  (forall a, In a starts <-> exists b, In (a, b) ts) ->
  exists out out', find_cycles ord starts = Some out /\ cycles_of ts = Some out' /\
                   forall x, In x out <-> In x out'.
Proof. intros H1 H2. destruct (find_cycles_exact ts ord H1 starts H2) as [out [Ho Hx]].
  destruct (cycles_of_exact ts) as [out' [Ho' Hx']]. exists out, out'. split; [exact Ho|]. split; [exact Ho'|].
  intros x. rewrite Hx, Hx'. tauto. Qed.

Definition before (o : list node) (p c : node) : Prop := exists l1 l2, o = l1 ++ l2 /\ In p l1 /\ In c l2.

Lemma NoDup_app_disj {A} (a b : list A) x : NoDup (a ++ b) -> In x a -> In x b -> False.
Proof. induction a as [|y a IH]; simpl; [tauto|]. intros Hn [->|Ha] Hb.
  - inversion Hn; subst. apply H1. apply in_or_app. right. exact Hb.
  - inversion Hn; subst. apply IH; assumption. Qed.

Lemma NoDup_app_intro {A} (a b : list A) : NoDup a -> NoDup b -> (forall x, In x a -> In x b -> False) -> NoDup (a ++ b).
Proof. induction a as [|x a IH]; simpl; intros Ha Hb Hd; [exact Hb|]. apply NoDup_cons_iff in Ha.
  destruct Ha as [Hx Ha]. constructor.
  - intros Hin. apply in_app_or in Hin. destruct Hin as [Hin|Hin]; [contradiction|]. apply (Hd x); [left; reflexivity|exact Hin].
  - apply IH; try assumption. intros y H1 H2. apply (Hd y); [right; exact H1|exact H2]. Qed.

Lemma NoDup_map_filter {A B} (g : A -> B) (p : A -> bool) l : NoDup (map g l) -> NoDup (map g (filter p l)).
Proof. induction l as [|a l IH]; simpl; intros H; [constructor|]. apply NoDup_cons_iff in H.
  destruct H as [H2 H3]. destruct (p a); simpl; [|apply IH; assumption].
  constructor; [|apply IH; assumption]. intros Hin. apply H2. apply in_map_iff in Hin.
  destruct Hin as [x [Hx1 Hx2]]. apply filter_In in Hx2. apply in_map_iff. exists x. tauto. Qed.

Lemma before_prefix (o : list node) p c pre suf : NoDup o -> before o p c -> o = pre ++ c :: suf -> In p pre.
Proof.
  intros Hn [l1 [l2 [E [Hp Hc]]]] E2. rewrite E in E2. pose proof E2 as E2'. apply app_eq_app in E2.
  destruct E2 as [l [[E1 E3]|[E1 E3]]].
  - destruct l as [|x l].
    + rewrite app_nil_r in E1. subst l1. exact Hp.
    + simpl in E3. inversion E3; subst x. exfalso. rewrite E in Hn.
      apply (NoDup_app_disj l1 l2 c Hn); [|exact Hc]. rewrite E1. apply in_or_app. right. left. reflexivity.
  - rewrite E1. apply in_or_app. left. exact Hp. Qed.

Lemma before_rev o p c : before o p c -> before (rev o) c p.
Proof. intros [l1 [l2 [-> [Hp Hc]]]]. exists (rev l2), (rev l1). rewrite rev_app_distr. split; [reflexivity|].
  split; apply in_rev; rewrite rev_involutive; assumption. Qed.

Lemma flat_map_incl {A B} (f : A -> list B) l l' : incl l l' -> incl (flat_map f l) (flat_map f l').
Proof. intros H x. rewrite !in_flat_map. intros [a [Ha Hx]]. exists a. auto. Qed.

(* the shape of every set of foreign-key edges in the model *)
Lemma In_fk_edges (P : table -> fk -> bool) tables e :
  In e (flat_map (fun t => map (fk_edge t) (filter (P t) (t_fks t))) tables) <->
  exists t f, In t tables /\ In f (t_fks t) /\ P t f = true /\ e = fk_edge t f.
Proof. rewrite in_flat_map. split.
  - intros [t [Ht H]]. apply in_map_iff in H. destruct H as [f [<- Hf]]. apply filter_In in Hf. exists t, f. tauto.
  - intros [t [f [Ht [Hf [Hp ->]]]]]. exists t. split; [exact Ht|]. apply in_map, filter_In. tauto. Qed.

Section Edges.
Variable filt : fk -> option bool.
Variable tables : list table.

Lemma In_fixed e : In e (fixed tables) <-> exists t, In t tables /\ In (fst e) (t_extra t) /\ snd e = t_name t.
Proof. unfold fixed. rewrite in_flat_map. split.
  - intros [t [Ht H]]. apply in_map_iff in H. destruct H as [p [<- Hp]]. exists t. simpl. auto.
  - intros [t [Ht [H1 H2]]]. exists t. split; [exact Ht|]. apply in_map_iff. exists (fst e).
    split; [|exact H1]. rewrite <- H2. destruct e; reflexivity. Qed.

Lemma In_mutable0 e : In e (mutable0 filt tables) <->
  exists t f, In t tables /\ In f (t_fks t) /\ dep_fk filt t f = true /\ e = fk_edge t f.
Proof. apply In_fk_edges. Qed.

Lemma In_mutable1 cyc e : In e (mutable1 filt tables cyc) <->
  exists t f, In t tables /\ In f (t_fks t) /\ dep_fk filt t f = true /\ discarded filt tables cyc t f = false
              /\ e = fk_edge t f.
Proof. unfold mutable1, mutable1_of. rewrite In_fk_edges.
  split; intros [t [f H]]; exists t, f; rewrite andb_true_iff, negb_true_iff in *; tauto. Qed.

Lemma mutable1_incl cyc : incl (mutable1 filt tables cyc) (mutable0 filt tables).
Proof. intros e H. apply In_mutable1 in H. destruct H as [t [f [H1 [H2 [H3 [_ H5]]]]]]. apply In_mutable0.
  exists t, f. tauto. Qed.

Lemma mutable1_nil : mutable1 filt tables [] = mutable0 filt tables.
Proof. apply flat_map_ext. intros t. unfold mutable1_of, mutable_of. f_equal.
  apply filter_ext. intros f. apply andb_true_r. Qed.

Lemma hit_of_edge cyc t f : In t tables -> In f (t_fks t) -> dep_fk filt t f = true ->
  In (t_name t) cyc -> hit filt tables cyc t = true.
Proof. intros Ht Hf Hd Hc. unfold hit. apply andb_true_iff. split; [apply memb_In; exact Hc|].
  apply existsb_exists. exists (fk_edge t f). split; [|simpl; apply N.eqb_refl].
  apply In_mutable0. exists t, f. tauto. Qed.

Lemma hit_in_cyc cyc t : hit filt tables cyc t = true -> In (t_name t) cyc.
Proof. unfold hit. intros H. apply andb_true_iff in H. apply memb_In. tauto. Qed.

Lemma find_table_some n t : find_table tables n = Some t -> In t tables /\ t_name t = n.
Proof. unfold find_table. intros H. apply find_some in H. destruct H as [H1 H2]. apply N.eqb_eq in H2. tauto. Qed.

Lemma find_table_in t : NoDup (names tables) -> In t tables -> find_table tables (t_name t) = Some t.
Proof. unfold find_table, names. induction tables as [|u l IH]; simpl; [tauto|]. intros Hn [->|Ht].
  - rewrite N.eqb_refl. reflexivity.
  - inversion Hn; subst. destruct (N.eqb (t_name u) (t_name t)) eqn:E.
    + apply N.eqb_eq in E. exfalso. apply H1. rewrite E. apply in_map. exact Ht.
    + apply IH; assumption. Qed.

Lemma names_unique t u : NoDup (names tables) -> In t tables -> In u tables -> t_name t = t_name u -> t = u.
Proof. intros Hn Ht Hu E. pose proof (find_table_in t Hn Ht) as H1. pose proof (find_table_in u Hn Hu) as H2.
  rewrite E in H1. congruence. Qed.
End Edges.
