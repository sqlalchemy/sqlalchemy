(* C16 - lemmas about the hand-written scanner for  re.sub(r"(__\[SCHEMA_([^\]]+)\])", replace, text):
   a token is matched where it starts, and nothing is matched inside text free of "__[SCHEMA". *)
From Coq Require Import List ZArith Bool Lia.
Import ListNotations.
From SAV.sql Require Import SchemaTr.
Open Scope Z_scope.

Lemma bind_ok_r : forall A (r : result A), bind r (fun x => Ok x) = r.
Proof. intros A [a|e]; reflexivity. Qed.
Lemma bind_ok_inv : forall A B (r : result A) (f : A -> result B) b,
  bind r f = Ok b -> exists a, r = Ok a /\ f a = Ok b.
Proof. intros A B [a|e] f b H; [eauto|discriminate H]. Qed.

Definition no_rb (n : str) : bool := negb (existsb (fun c => Z.eqb c c_rb) n).

(* [trans repl g]: what the scanner makes of the text [flat g]; [tok_ok]: a token the regex matches whole *)
Definition seg_out (repl : str -> result str) (x : seg) : result str :=
  match x with Lit s => Ok s | Tok n => repl n end.
Fixpoint trans (repl : str -> result str) (g : list seg) : result str :=
  match g with
  | [] => Ok []
  | x :: r => bind (seg_out repl x) (fun t => bind (trans repl r) (fun u => Ok (t ++ u)))
  end.
Definition tok_ok (x : seg) : bool :=
  match x with Lit _ => true | Tok n => negb (match n with [] => true | _ => false end) && no_rb n end.

Lemma trans_app : forall repl a b,
  trans repl (a ++ b) = bind (trans repl a) (fun x => bind (trans repl b) (fun y => Ok (x ++ y))).
Proof.
  intros repl. induction a as [|x a IH]; intros b.
  - symmetry. apply bind_ok_r.
  - cbn [app trans]. rewrite IH. destruct (seg_out repl x); cbn [bind]; [|reflexivity].
    destruct (trans repl a); cbn [bind]; [|reflexivity].
    destruct (trans repl b); cbn [bind]; [|reflexivity]. rewrite app_assoc. reflexivity.
Qed.

Lemma is_prefix_iff : forall p s, is_prefix p s = true <-> exists r, s = p ++ r.
Proof.
  induction p as [|a p IH]; intros s; [split; [exists s|]; reflexivity|].
  destruct s as [|b s]; cbn [is_prefix app].
  - split; [discriminate|intros [r H]; discriminate H].
  - rewrite andb_true_iff, Z.eqb_eq, IH. split.
    + intros [-> [r ->]]. eauto.
    + intros [r H]. injection H as -> ->. eauto.
Qed.

Lemma is_prefix_app_l : forall p a b, is_prefix p a = true -> is_prefix p (a ++ b) = true.
Proof.
  intros p a b H. apply is_prefix_iff in H as [r ->]. apply is_prefix_iff.
  rewrite <- app_assoc. eauto.
Qed.

Lemma is_prefix_shorter : forall p q s, is_prefix (p ++ q) s = true -> is_prefix p s = true.
Proof.
  intros p q s H. apply is_prefix_iff in H as [r ->]. apply is_prefix_iff.
  rewrite <- app_assoc. eauto.
Qed.

Lemma is_prefix_split : forall p x rest, is_prefix p (x ++ rest) = true ->
  is_prefix (firstn (length x) p) x = true /\ is_prefix (skipn (length x) p) rest = true.
Proof.
  induction p as [|a p IH]; intros [|b x] rest H; try (split; [reflexivity|exact H]).
  cbn [app is_prefix] in H. apply andb_prop in H as [E H].
  cbn [length firstn skipn is_prefix]. rewrite E. apply IH, H.
Qed.

Lemma strip_prefix_app : forall p r, strip_prefix p (p ++ r) = Some r.
Proof.
  induction p as [|a p IH]; intros r; [reflexivity|].
  cbn [strip_prefix app]. rewrite Z.eqb_refl. apply IH.
Qed.

Lemma strip_prefix_is_prefix : forall p s r, strip_prefix p s = Some r -> is_prefix p s = true.
Proof.
  induction p as [|a p IH]; intros s r H; [reflexivity|].
  destruct s as [|b s]; [discriminate H|]. cbn [strip_prefix] in H. cbn [is_prefix].
  destruct (Z.eqb a b); [|discriminate H]. exact (IH _ _ H).
Qed.

Lemma span_name_app : forall n r, no_rb n = true -> span_name (n ++ c_rb :: r) = (n, c_rb :: r).
Proof.
  unfold no_rb. induction n as [|c n IH]; intros r H; cbn [app span_name].
  - rewrite Z.eqb_refl. reflexivity.
  - cbn [existsb] in H. rewrite negb_orb in H. apply andb_prop in H as [H1 H2].
    apply negb_true_iff in H1. rewrite H1, (IH r H2). reflexivity.
Qed.

Lemma try_match_token : forall n r, n <> [] -> no_rb n = true -> try_match (token n ++ r) = Some n.
Proof.
  intros n r Hn Hr. unfold try_match, token. rewrite <- !app_assoc, strip_prefix_app.
  cbn [app]. rewrite (span_name_app n r Hr). destruct n; [contradiction|reflexivity].
Qed.

Lemma scan_aux_nil : forall repl k, scan_aux repl k [] = Ok [].
Proof. intros repl [|k]; reflexivity. Qed.

Lemma scan_aux_skip : forall repl l r, scan_aux repl (length l) (l ++ r) = scan_aux repl 0 r.
Proof.
  induction l as [|c l IH]; intros r; [reflexivity|].
  cbn [length app scan_aux]. apply IH.
Qed.

Lemma token_length : forall n, length (token n) = match_len n.
Proof. intros. unfold token, match_len, tok_prefix. rewrite !app_length. cbn [length]. lia. Qed.

Lemma scan_token : forall repl n r, n <> [] -> no_rb n = true ->
  scan repl (token n ++ r) = bind (repl n) (fun t => bind (scan repl r) (fun u => Ok (t ++ u))).
Proof.
  intros repl n r Hn Hr. unfold scan. pose proof (try_match_token n r Hn Hr) as Hm.
  pose proof (token_length n) as Hl.
  destruct (token n) as [|c tk] eqn:Et; [discriminate Et|].
  cbn [app] in *. cbn [scan_aux]. rewrite Hm.
  replace (match_len n - 1)%nat with (length tk) by (cbn [length] in Hl; lia).
  rewrite scan_aux_skip. reflexivity.
Qed.

Lemma occurs_head : forall p s, is_prefix p s = true -> occurs p s = true.
Proof. intros p [|c s] H; cbn [occurs]; rewrite H; reflexivity. Qed.

Lemma occurs_app_l : forall p a b, occurs p a = true -> occurs p (a ++ b) = true.
Proof.
  intros p. induction a as [|x a IH]; intros b H; cbn [occurs] in H; apply orb_true_iff in H as [H|H].
  - apply occurs_head, is_prefix_app_l, H.
  - discriminate H.
  - apply occurs_head, is_prefix_app_l, H.
  - cbn [app occurs]. rewrite (IH b H). apply orb_true_r.
Qed.
Lemma occurs_app_r : forall p a b, occurs p b = true -> occurs p (a ++ b) = true.
Proof.
  intros p. induction a as [|x a IH]; intros b H; [exact H|].
  cbn [occurs app]. rewrite (IH b H). apply orb_true_r.
Qed.
Lemma no_occurs_app : forall p a b, occurs p (a ++ b) = false -> occurs p a = false /\ occurs p b = false.
Proof.
  intros p a b H. split.
  - destruct (occurs p a) eqn:E; [|reflexivity]. rewrite (occurs_app_l p a b E) in H. discriminate H.
  - destruct (occurs p b) eqn:E; [|reflexivity]. rewrite (occurs_app_r p a b E) in H. discriminate H.
Qed.

(* border analysis of the prefix "__[SCHEMA_": a match cannot begin inside the literal [x] and run into what
   follows it, which is the end of the text or the next token *)
Lemma prefix_in_lit : forall x rest, x <> [] ->
  is_prefix tok_prefix (x ++ rest) = true ->
  rest = [] \/ is_prefix tok_prefix rest = true ->
  is_prefix marker x = true.
Proof.
  intros x rest Hx H Hr. apply is_prefix_split in H as [H1 H2].
  destruct x as [|c x]; [contradiction|]. cbn [length] in *.
  destruct (length x) as [|[|[|[|[|[|[|[|k]]]]]]]].
  (* 9 characters or more: the first 9 are "__[SCHEMA" *)
  9: exact (is_prefix_shorter marker _ _ H1).
  (* 1 to 8 characters: [rest] would begin with the last 9 to 2 characters of the prefix and with "__",
     but "__" is found in the prefix only at its start *)
  all: exfalso; destruct Hr as [->|Hr]; [|apply is_prefix_iff in Hr as [r ->]]; discriminate H2.
Qed.

Lemma try_match_lit : forall c l rest, occurs marker (c :: l) = false ->
  rest = [] \/ is_prefix tok_prefix rest = true ->
  try_match (c :: l ++ rest) = None.
Proof.
  intros c l rest Ho Hr. unfold try_match.
  destruct (strip_prefix tok_prefix (c :: l ++ rest)) as [r|] eqn:E; [|reflexivity].
  apply strip_prefix_is_prefix in E.
  rewrite (occurs_head _ _ (prefix_in_lit (c :: l) rest ltac:(discriminate) E Hr)) in Ho. discriminate Ho.
Qed.

Lemma scan_lit : forall repl l rest, occurs marker l = false ->
  rest = [] \/ is_prefix tok_prefix rest = true ->
  scan repl (l ++ rest) = bind (scan repl rest) (fun u => Ok (l ++ u)).
Proof.
  intros repl. induction l as [|c l IH]; intros rest Ho Hr.
  - symmetry. apply bind_ok_r.
  - unfold scan in *. cbn [app scan_aux]. rewrite (try_match_lit c l rest Ho Hr).
    cbn [occurs] in Ho. apply orb_false_iff in Ho as [_ Ho].
    rewrite (IH rest Ho Hr). destruct (scan_aux repl 0 rest); reflexivity.
Qed.

Lemma scan_plain : forall repl t, occurs marker t = false -> scan repl t = Ok t.
Proof.
  intros repl t H. pose proof (scan_lit repl t [] H (or_introl eq_refl)) as E.
  rewrite app_nil_r in E. rewrite E. cbn [scan scan_aux bind]. rewrite app_nil_r. reflexivity.
Qed.

Lemma token_prefix : forall n r, is_prefix tok_prefix (token n ++ r) = true.
Proof. intros. apply is_prefix_iff. unfold token. rewrite <- app_assoc. eauto. Qed.

(* [acc]: the literal text met since the last token; the marker could straddle adjacent literals *)
Lemma scan_flat : forall repl g acc, occurs marker (acc ++ skel g) = false -> forallb tok_ok g = true ->
  scan repl (acc ++ flat g) = bind (trans repl g) (fun u => Ok (acc ++ u)).
Proof.
  intros repl. induction g as [|x g IH]; intros acc Ho Hg.
  - unfold flat, skel in *. cbn [map concat] in *. rewrite app_nil_r in Ho. rewrite (scan_lit repl acc []); auto.
  - cbn [forallb] in Hg. apply andb_prop in Hg as [Hx Hg].
    unfold flat, skel in *. destruct x as [s|n]; cbn [map concat seg_text trans seg_out bind] in *.
    + rewrite app_assoc in *. rewrite (IH (acc ++ s) Ho Hg).
      destruct (trans repl g); cbn [bind]; rewrite ?app_assoc; reflexivity.
    + apply andb_prop in Hx as [Hn Hrb].
      assert (n <> []) as Hn' by (destruct n; [discriminate Hn|discriminate]).
      apply no_occurs_app in Ho as [Hacc Ho]. apply (no_occurs_app marker [c_rb]) in Ho as [_ Ho].
      rewrite (scan_lit repl acc); [|exact Hacc|right; apply token_prefix].
      rewrite (scan_token repl n _ Hn' Hrb). destruct (repl n) as [t|e]; cbn [bind]; [|reflexivity].
      rewrite (IH [] Ho Hg : scan repl (concat (map seg_text g)) = _).
      destruct (trans repl g); reflexivity.
Qed.
