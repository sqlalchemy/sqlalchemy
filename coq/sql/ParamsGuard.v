(* C04 - the region in which the parameter plumbing is correct: boolean guard and its meaning *)
From Coq Require Import List NArith ZArith Bool.
Import ListNotations.
From SAV.sql Require Import Params ParamsDict.

Section Guard.
Variable tab : list (N * N).

(* the list given for an expanding bind, the (name, value) pairs it expands to *)
Definition plist (inp : input) (n : name) : list Z :=
  match dget n (i_params inp) with Some (PL l) => l | _ => [] end.
Definition xitems (inp : input) (n : name) : list (name * Z) :=
  match kind_of inp n with Expand => expanded_names (esc tab n) (plist inp n) | _ => [] end.
Definition xnames (inp : input) (n : name) : list name := map fst (xitems inp n).

Definition tok_ok (inp : input) (t : tok) : bool :=
  match t with
  | Txt _ => true
  | Bind n => memb n (i_order inp) && is_plain (kind_of inp n)
  | PC n => memb n (i_order inp) && negb (is_plain (kind_of inp n))
  end.
Definition shape_ok (inp : input) (n : name) : bool :=
  match kind_of inp n, dget n (i_params inp) with
  | Plain, Some (PS _) => true
  | Expand, Some (PL _) => true
  | LitExec, Some _ => true
  | _, _ => false
  end.
(* some registered bind is expanding or literal_execute *)
Definition has_postcompile (inp : input) : bool :=
  existsb (fun n => negb (is_plain (kind_of inp n))) (i_order inp).
Fixpoint nodupb (l : list name) : bool :=
  match l with [] => true | x :: r => negb (memb x r) && nodupb r end.

Definition guard (inp : input) : bool :=
  let order := i_order inp in
  (* every placeholder of the text belongs to a registered bind of the matching kind *)
  forallb (tok_ok inp) (i_toks inp)
  (* the post-compile step runs when there is something for it to do *)
  && implb (has_postcompile inp) (i_pc inp)
  (* distinct binds keep distinct names after escaping *)
  && forallb (fun a => forallb (fun b => implb (str_eqb (esc tab a) (esc tab b)) (str_eqb a b)) order) order
  (* values have the shape of their bind *)
  && forallb (shape_ok inp) order
  && nodupb (keys (i_params inp)) && forallb (fun k => memb k order) (keys (i_params inp))
  (* bind processors belong to registered binds *)
  && forallb (fun k => memb k order) (keys (i_procs inp))
  (* the names name_1 .. name_k created for an expanding bind are new *)
  && forallb (fun n =>
       nodupb (xnames inp n)
       && forallb (fun x => negb (memb x order)
                            && forallb (fun m => negb (str_eqb x (esc tab m))) order
                            && forallb (fun m => str_eqb m n || negb (memb x (xnames inp m))) order)
                  (xnames inp n)) order.

(* what [guard] says, conjunct by conjunct: w_bind w_pc | w_haspc | w_inj | w_plain w_expand w_litv |
   w_pnodup w_pkeys | w_prockeys | w_xnodup w_xfresh w_xesc w_xdisj *)
Record wf (inp : input) : Prop := {
  w_bind : forall n, In (Bind n) (i_toks inp) -> In n (i_order inp) /\ kind_of inp n = Plain;
  w_pc : forall n, In (PC n) (i_toks inp) -> In n (i_order inp) /\ kind_of inp n <> Plain;
  w_haspc : has_postcompile inp = true -> i_pc inp = true;
  w_inj : forall a b, In a (i_order inp) -> In b (i_order inp) -> esc tab a = esc tab b -> a = b;
  w_plain : forall n, In n (i_order inp) -> kind_of inp n = Plain -> exists v, dget n (i_params inp) = Some (PS v);
  w_expand : forall n, In n (i_order inp) -> kind_of inp n = Expand -> exists l, dget n (i_params inp) = Some (PL l);
  w_litv : forall n, In n (i_order inp) -> kind_of inp n = LitExec -> exists v, dget n (i_params inp) = Some v;
  w_pnodup : NoDup (keys (i_params inp));
  w_pkeys : forall k, In k (keys (i_params inp)) -> In k (i_order inp);
  w_prockeys : forall k, In k (keys (i_procs inp)) -> In k (i_order inp);
  w_xnodup : forall n, In n (i_order inp) -> NoDup (xnames inp n);
  w_xfresh : forall n x, In n (i_order inp) -> In x (xnames inp n) -> ~ In x (i_order inp);
  w_xesc : forall n m x, In n (i_order inp) -> In m (i_order inp) -> In x (xnames inp n) -> x <> esc tab m;
  w_xdisj : forall n m x, In n (i_order inp) -> In m (i_order inp) ->
            In x (xnames inp n) -> In x (xnames inp m) -> n = m
}.

Lemma nodupb_NoDup : forall l, nodupb l = true -> NoDup l.
Proof.
  induction l as [|x l IH]; cbn [nodupb]; intro H; [constructor|].
  apply andb_true_iff in H. destruct H as [H1 H2]. apply negb_true_iff in H1. apply memb_false in H1.
  constructor; [exact H1|apply IH; exact H2].
Qed.

Lemma guard_wf : forall inp, guard inp = true -> wf inp.
Proof.
  intros inp H. unfold guard in H.
  apply andb_true_iff in H. destruct H as [H Gx].
  apply andb_true_iff in H. destruct H as [H Gprocs].
  apply andb_true_iff in H. destruct H as [H Gkeys].
  apply andb_true_iff in H. destruct H as [H Gnodup].
  apply andb_true_iff in H. destruct H as [H Gshape].
  apply andb_true_iff in H. destruct H as [H Ginj].
  apply andb_true_iff in H. destruct H as [Gtok Gpc].
  rewrite forallb_forall in Gtok, Ginj, Gshape, Gkeys, Gprocs, Gx.
  (* the conjunct about the names created for an expanding bind, read once for the last three fields *)
  assert (Gfresh : forall n x, In n (i_order inp) -> In x (xnames inp n) ->
            ~ In x (i_order inp) /\ (forall m, In m (i_order inp) -> x <> esc tab m) /\
            (forall m, In m (i_order inp) -> In x (xnames inp m) -> m = n)).
  { intros n x Hn Hx. destruct (proj1 (andb_true_iff _ _) (Gx _ Hn)) as [_ B].
    rewrite forallb_forall in B. specialize (B _ Hx).
    apply andb_true_iff in B. destruct B as [B B3]. apply andb_true_iff in B. destruct B as [B1 B2].
    apply negb_true_iff, memb_false in B1. rewrite forallb_forall in B2, B3.
    split; [exact B1|]. split; intros m Hm.
    - intros ->. specialize (B2 _ Hm). rewrite str_eqb_refl in B2. discriminate.
    - intro Hx'. specialize (B3 _ Hm). apply orb_true_iff in B3. destruct B3 as [B3|B3]; [exact (str_eqb_eq _ _ B3)|].
      apply negb_true_iff, memb_false in B3. contradiction. }
  constructor.
  - intros n Hn. specialize (Gtok _ Hn). cbn [tok_ok] in Gtok. apply andb_true_iff in Gtok. destruct Gtok as [A B].
    apply memb_In in A. split; [exact A|]. destruct (kind_of inp n); cbn in B; congruence.
  - intros n Hn. specialize (Gtok _ Hn). cbn [tok_ok] in Gtok. apply andb_true_iff in Gtok. destruct Gtok as [A B].
    apply memb_In in A. split; [exact A|]. destruct (kind_of inp n); cbn in B; congruence.
  - intro Hp. rewrite Hp in Gpc. exact Gpc.
  - intros a b Ha Hb He. specialize (Ginj _ Ha). rewrite forallb_forall in Ginj. specialize (Ginj _ Hb).
    rewrite He, str_eqb_refl in Ginj. exact (str_eqb_eq _ _ Ginj).
  - intros n Hn Hk. specialize (Gshape _ Hn). unfold shape_ok in Gshape. rewrite Hk in Gshape.
    destruct (dget n (i_params inp)) as [[v|l]|]; try discriminate. exists v. reflexivity.
  - intros n Hn Hk. specialize (Gshape _ Hn). unfold shape_ok in Gshape. rewrite Hk in Gshape.
    destruct (dget n (i_params inp)) as [[v|l]|]; try discriminate. exists l. reflexivity.
  - intros n Hn Hk. specialize (Gshape _ Hn). unfold shape_ok in Gshape. rewrite Hk in Gshape.
    destruct (dget n (i_params inp)) as [v|]; try discriminate. exists v. reflexivity.
  - apply nodupb_NoDup. exact Gnodup.
  - intros k Hk. apply memb_In. exact (Gkeys _ Hk).
  - intros k Hk. apply memb_In. exact (Gprocs _ Hk).
  - intros n Hn. apply nodupb_NoDup. exact (proj1 (proj1 (andb_true_iff _ _) (Gx _ Hn))).
  - intros n x Hn Hx. exact (proj1 (Gfresh n x Hn Hx)).
  - intros n m x Hn Hm Hx. exact (proj1 (proj2 (Gfresh n x Hn Hx)) m Hm).
  - intros n m x Hn Hm Hx Hx'. symmetry. exact (proj2 (proj2 (Gfresh n x Hn Hx)) m Hm Hx').
Qed.

Lemma has_postcompile_false : forall inp n, wf inp -> i_pc inp = false -> In n (i_order inp) -> kind_of inp n = Plain.
Proof.
  intros inp n W H Hn. destruct (is_plain (kind_of inp n)) eqn:K; [destruct (kind_of inp n); [reflexivity|discriminate K..]|].
  rewrite (w_haspc _ W) in H; [discriminate|].
  apply existsb_exists. exists n. rewrite K. split; [exact Hn|reflexivity].
Qed.
End Guard.
