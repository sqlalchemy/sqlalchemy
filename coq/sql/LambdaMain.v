(* C17 - the main theorem: every construction in every history equals the directly built statement (or is the
   documented refusal), under the guard *)
From Coq Require Import List NArith ZArith Bool.
Import ListNotations.
From SAV.sql Require Import Lambda LambdaBase LambdaProofs.

Section Main.
  Variable F : N -> fdesc.
  Variable U : N -> list use.
  Variable Kf : N -> list N.          (* the kinds of the closure cells of each lambda: stable over the history *)

  Definition good (code : N) (e : list val) : Prop :=
    map kind e = Kf code /\ safe_env (U code) e = true /\ safe_body (U code) = true.

  Definition chain_good (ch : list (N * list val)) : Prop := forall code e, In (code, e) ch -> good code e.

  (* every stored analysis was made from a closure of the declared kinds; every cached skeleton was built inside
     the guard, under the analysis of its own closure, and is filed under that closure's key *)
  Definition Inv (st : state) : Prop :=
    (forall code a, assoc_code code (analyses st) = Some a ->
       exists e0, map kind e0 = Kf code /\ a = classify_cells (U code) 0 e0) /\
    (forall key p, assoc_key key (cache st) = Some p ->
       exists pk code e0, key = pk ++ [(code, keyparts (classify_cells (U code) 0 e0) e0)] /\ good code e0 /\
                          build_uses F (classify_cells (U code) 0 e0) e0 (U code) = Ok p).

  Lemma Inv_empty : Inv empty_state.
  Proof. split; cbn; intros; discriminate. Qed.

  Lemma analyze_cases : forall us e, analyze us e = Ok (classify_cells us 0 e) \/ analyze us e = Rejected.
  Proof. intros us e. unfold analyze. destruct (rejects _ true); [|destruct (rejects _ false)]; auto. Qed.

  (* Inside the guard the analysis in force is that of the present closure, whichever closure it was made from. *)
  Lemma stored_analysis : forall st code e a, Inv st -> good code e ->
    assoc_code code (analyses st) = Some a -> a = classify_cells (U code) 0 e.
  Proof.
    intros st code e a [I1 _] (GK & _) EA. destruct (I1 code a EA) as (e0 & K0 & ->).
    apply classify_cells_kind. congruence.
  Qed.

  Lemma Inv_store_analysis : forall st code e, Inv st -> good code e ->
    Inv {| analyses := (code, classify_cells (U code) 0 e) :: analyses st; cache := cache st |}.
  Proof.
    intros st code e [I1 I2] (GK & _). split; [|exact I2]. cbn. intros code0 a0 H0. destruct (N.eqb code0 code) eqn:EQ.
    - apply N.eqb_eq in EQ. subst code0. injection H0 as <-. eauto.
    - exact (I1 code0 a0 H0).
  Qed.

  (* A cache hit returns the skeleton this construction would build itself: the entry was built, under the same
     analysis, from a closure with the same key. *)
  Lemma cache_hit : forall st pkey code e p, Inv st -> good code e ->
    assoc_key (pkey ++ [(code, keyparts (classify_cells (U code) 0 e) e)]) (cache st) = Some p ->
    build_uses F (classify_cells (U code) 0 e) e (U code) = Ok p.
  Proof.
    intros st pkey code e p [_ I2] (GK & GS & GB) EC.
    destruct (I2 _ p EC) as (pk & code' & e0 & Hkey & (GK0 & GS0 & _) & <-).
    apply app_inj_tail in Hkey. destruct Hkey as [_ Hk]. injection Hk as <- Hk.
    assert (K : map kind e0 = map kind e) by congruence.
    rewrite (classify_cells_kind (U code) e0 e 0 K) in *.
    exact (build_uses_same_key F (U code) e e e0 eq_refl K Hk (U code) GB GS GS0).
  Qed.

  (* the part of [invoke_link] after the analysis a has been found or made (st1 holds it) *)
  Definition link_build (st1 : state) (pkey : ckey) (code : N) (e : list val) (a : list cinfo)
    : state * res (ckey * list sitem) :=
    if existsb (fun ci => match snd ci with KeySeqBad => true | _ => false end) a then (st1, Rejected) else
    let key := pkey ++ [(code, keyparts a e)] in
    match assoc_key key (cache st1) with
    | Some p => (st1, Ok (key, p))
    | None =>
        match build_uses F a e (U code) with
        | Ok p => ({| analyses := analyses st1; cache := (key, p) :: cache st1 |}, Ok (key, p))
        | Rejected => (st1, Rejected) | TypeErr => (st1, TypeErr) | DomErr => (st1, DomErr)
        end
    end.

  Definition link_post (e : list val) (its : list item) (r : res (ckey * list sitem)) : Prop :=
    r = Rejected \/ exists key p, r = Ok (key, p) /\ fill e p = its.

  Lemma link_build_ok : forall st pkey code e its st' r, Inv st -> good code e -> direct_uses F e (U code) = Ok its ->
    link_build st pkey code e (classify_cells (U code) 0 e) = (st', r) -> Inv st' /\ link_post e its r.
  Proof.
    intros st pkey code e its st' r HI G Hd. unfold link_build.
    destruct (existsb _ _); [intros [= <- <-]; split; [exact HI|left; reflexivity]|].
    destruct (build_fill_uses F (classify_cells (U code) 0 e) e (U code) its (proj1 (proj2 G)) Hd) as (p' & Hb & Hf).
    destruct (assoc_key _ (cache st)) as [p|] eqn:EC.
    - rewrite (cache_hit st pkey code e p HI G EC) in Hb. injection Hb as ->.
      intros [= <- <-]. split; [exact HI|right; eauto].
    - rewrite Hb. intros [= <- <-]. split; [|right; eauto]. destruct HI as [I1 I2]. split; [exact I1|].
      cbn. intros k q Hq. destruct (ckey_eqb k _) eqn:EK; [|exact (I2 k q Hq)].
      injection Hq as <-. apply ckey_eqb_iff in EK. subst k. exists pkey, code, e. auto.
  Qed.

  Lemma invoke_link_ok : forall st pkey code e its st' r, Inv st -> good code e -> direct_uses F e (U code) = Ok its ->
    invoke_link F U st pkey code e = (st', r) -> Inv st' /\ link_post e its r.
  Proof.
    intros st pkey code e its st' r HI G Hd. unfold invoke_link.
    destruct (assoc_code code (analyses st)) as [a|] eqn:EA.
    - rewrite (stored_analysis st code e a HI G EA). exact (link_build_ok st pkey code e its st' r HI G Hd).
    - destruct (analyze_cases (U code) e) as [-> | ->].
      + exact (link_build_ok _ pkey code e its st' r (Inv_store_analysis st code e HI G) G Hd).
      + intros [= <- <-]. split; [exact HI|left; reflexivity].
  Qed.

  Lemma direct_chain_cons : forall code e r its, direct_chain F U ((code, e) :: r) = Ok its ->
    exists a b, direct_uses F e (U code) = Ok a /\ direct_chain F U r = Ok b /\ its = a ++ b.
  Proof.
    intros code e r its H. cbn in H. destruct (direct_uses F e (U code)) as [a| | |]; try discriminate.
    destruct (direct_chain F U r) as [b| | |]; try discriminate. inversion H. eauto.
  Qed.

  Lemma invoke_chain_ok : forall ch st pkey its st' r, Inv st -> chain_good ch -> direct_chain F U ch = Ok its ->
    invoke_chain F U st pkey ch = (st', r) -> Inv st' /\ (r = Rejected \/ r = Ok its).
  Proof.
    induction ch as [|[code e] ch IH]; intros st pkey its st' r HI HG Hd.
    - cbn in *. injection Hd as <-. intros [= <- <-]. auto.
    - destruct (direct_chain_cons _ _ _ _ Hd) as (a & b & Ha & Hb & ->).
      assert (G1 : good code e) by (apply HG; left; reflexivity).
      assert (HG' : chain_good ch) by (intros c0 e0 H0; apply HG; right; exact H0).
      cbn [invoke_chain]. destruct (invoke_link F U st pkey code e) as [st1 r1] eqn:E1.
      destruct (invoke_link_ok _ _ _ _ _ _ _ HI G1 Ha E1) as [HI1 [->|(key & p & -> & Hf)]]; [intros [= <- <-]; auto|].
      destruct (invoke_chain F U st1 key ch) as [st2 r2] eqn:E2.
      destruct (IH _ _ _ _ _ HI1 HG' Hb E2) as [HI2 [->| ->]]; intros [= <- <-]; [auto|]. rewrite Hf. auto.
  Qed.

  Theorem lambda_eq_direct_gen : forall h st, Inv st ->
    (forall ch, In ch h -> chain_good ch /\ exists its, direct_chain F U ch = Ok its) ->
    Forall2 (fun ch r => r = Rejected \/ r = direct_chain F U ch) h (run F U st h).
  Proof.
    induction h as [|ch h IH]; intros st HI HG; [constructor|].
    destruct (HG ch (or_introl eq_refl)) as [G1 [its Hd]].
    cbn [run]. unfold invoke. destruct (invoke_chain F U st [] ch) as [st1 r1] eqn:E1.
    destruct (invoke_chain_ok _ _ _ _ _ _ HI G1 Hd E1) as [HI1 HR]. rewrite <- Hd in HR.
    constructor; [exact HR|]. apply IH; [exact HI1|]. intros c0 H0. apply HG. right. exact H0.
  Qed.

  Theorem lambda_eq_direct : forall h,
    (forall ch, In ch h -> chain_good ch /\ exists its, direct_chain F U ch = Ok its) ->
    Forall2 (fun ch r => r = Rejected \/ r = direct_chain F U ch) h (run F U empty_state h).
  Proof. intros h H. apply lambda_eq_direct_gen; [exact Inv_empty|exact H]. Qed.
End Main.
