(* C17 - structural changes change the key; refutations outside the guard; the rejected shapes *)
From Coq Require Import List NArith ZArith Bool.
Import ListNotations.
From SAV.sql Require Import Lambda LambdaBase LambdaProofs LambdaMain.

(* a closure value that is not a literal (column, table, list of columns) is part of the cache key: two
   constructions that differ in such a cell never share a cached skeleton *)
Theorem structural_change_changes_key : forall us e0 e e' i,
  map kind e = map kind e0 -> map kind e' = map kind e0 ->
  wrapped (classify_cells us 0 e0) i = false -> cell e i <> cell e' i ->
  keyparts (classify_cells us 0 e0) e <> keyparts (classify_cells us 0 e0) e'.
Proof.
  intros us e0 e e' i K K' W Hne HK. destruct (alike_at us e0 e e' K K' HK i) as (_ & Hw & _).
  rewrite W in Hw. exact (Hne Hw).
Qed.

(* a helper function that is only ever called contributes its code object: a different function, a different key *)
Theorem function_change_changes_key : forall us e0 e e' i code cap code' cap',
  map kind e = map kind e0 -> map kind e' = map kind e0 -> has_param us i = false ->
  cell e i = VFun code cap -> cell e' i = VFun code' cap' -> code <> code' ->
  keyparts (classify_cells us 0 e0) e <> keyparts (classify_cells us 0 e0) e'.
Proof.
  intros us e0 e e' i code cap code' cap' K K' Hp E E' Hne HK. destruct (alike_at us e0 e e' K K' HK i) as (_ & _ & Hf).
  destruct (Hf Hp code cap E) as [cap'' E'']. congruence.
Qed.

(* ... but NOT its closure: the key of VFun code cap forgets cap *)
Lemma function_closure_not_in_key : forall us i code cap cap',
  keypart (true, classify us i (VFun code cap)) (VFun code cap) = keypart (true, classify us i (VFun code cap)) (VFun code cap').
Proof. intros. unfold keypart, classify. cbn. destruct (has_param us i); reflexivity. Qed.

Lemma classify_cells_nth : forall us e k i, i < length e ->
  nth i (classify_cells us k e) (false, Reject) = (deep_is_literal (cell e i), classify us (k + i) (cell e i)).
Proof.
  intros us. induction e as [|v r IH]; intros k i Hi; [inversion Hi|].
  destruct i; cbn.
  - rewrite Nat.add_0_r. reflexivity.
  - apply Nat.succ_lt_mono in Hi. rewrite (IH (S k) i Hi), Nat.add_succ_r. reflexivity.
Qed.

Lemma classify_cells_length : forall us e k, length (classify_cells us k e) = length e.
Proof. intros us. induction e; intros; cbn; auto. Qed.

Lemma rejects_at : forall us e i, i < length e -> deep_is_literal (cell e i) = true -> classify us i (cell e i) = Reject ->
  rejects (classify_cells us 0 e) false = true.
Proof.
  intros us e i Hi Hl Hc. unfold rejects. apply existsb_exists. exists (nth i (classify_cells us 0 e) (false, Reject)). split.
  - apply nth_In. rewrite classify_cells_length. exact Hi.
  - rewrite classify_cells_nth by exact Hi. cbn [Nat.add fst snd]. rewrite Hc, Hl. reflexivity.
Qed.

(* a None / int cell that no use of the body turns into a bound value is refused: the analysis never succeeds,
   whatever else the body does with the cell *)
Lemma unbound_scalar_rejected : forall us e i, has_param us i = false -> i < length e ->
  (match cell e i with VNone | VInt _ => true | _ => false end) = true ->
  forall a, analyze us e <> Ok a.
Proof.
  intros us e i Hp Hi Hs a. unfold analyze.
  assert (R : rejects (classify_cells us 0 e) false = true).
  { apply (rejects_at us e i Hi).
    - destruct (cell e i); try discriminate; reflexivity.
    - unfold classify. destruct (cell e i); try discriminate; cbn; rewrite Hp; reflexivity. }
  rewrite R. destruct (rejects _ true); discriminate.
Qed.

Theorem truth_test_unshared_rejected : forall us e t c i k1 k2,
  In (UIf t c i k1 k2) us -> has_param us i = false -> i < length e ->
  (match cell e i with VNone | VInt _ => true | _ => false end) = true ->
  forall a, analyze us e <> Ok a.
Proof. intros us e t c i k1 k2 _. apply unbound_scalar_rejected. Qed.

(* Concrete refutations outside the guard (tables: 0 = t, 1 = u; columns: 0 id, 1 x, 2 y) *)
Definition F0 (code : N) : fdesc := {| f_t := 0; f_c := 1; f_op := Gt; f_const := 1 |}.

(* v = None in  t.c.x != v *)
Definition U_none (code : N) : list use := [UCmp 0 1 Ne 0].
Lemma none_operand_refuted :
  run F0 U_none empty_state [[(1%N, [VInt 1])]; [(1%N, [VNone])]] =
    [Ok [ICrit (CCmp 0 1 Ne (VInt 1))]; Ok [ICrit (CCmp 0 1 Ne VNone)]] /\
  direct_chain F0 U_none [(1%N, [VNone])] = Ok [ICrit (CIsNotNull 0 1)].
Proof. split; vm_compute; reflexivity. Qed.

(* .limit(n) with n = None *)
Definition U_limit (code : N) : list use := [ULimit 0].
Lemma none_limit_refuted :
  run F0 U_limit empty_state [[(1%N, [VNone])]] = [Ok [ILimit VNone]] /\ direct_chain F0 U_limit [(1%N, [VNone])] = Ok [].
Proof. split; vm_compute; reflexivity. Qed.

(* helper() with its own closure value n: the first n is reused for ever *)
Definition U_call (code : N) : list use := [UCall 0].
Lemma nested_function_stale_refuted :
  run F0 U_call empty_state [[(1%N, [VFun 7 [VInt 0]])]; [(1%N, [VFun 7 [VInt 2]])]] =
    [Ok [ICrit (CCmp 0 1 Gt (VInt 0))]; Ok [ICrit (CCmp 0 1 Gt (VInt 0))]] /\
  direct_chain F0 U_call [(1%N, [VFun 7 [VInt 2]])] = Ok [ICrit (CCmp 0 1 Gt (VInt 2))].
Proof. split; vm_compute; reflexivity. Qed.

(* t.c.x > v  and  t.c.y == (1 if v else 2): v is a bound value, its truth value is baked in *)
Definition U_shared (code : N) : list use := [UCmp 0 1 Gt 0; UIf 0 2 0 1 2].
Lemma shared_truth_test_stale_refuted :
  run F0 U_shared empty_state [[(1%N, [VInt 1])]; [(1%N, [VInt 0])]] =
    [Ok [ICrit (CCmp 0 1 Gt (VInt 1)); ICrit (CCmp 0 2 Eq (VInt 1))];
     Ok [ICrit (CCmp 0 1 Gt (VInt 0)); ICrit (CCmp 0 2 Eq (VInt 1))]] /\
  direct_chain F0 U_shared [(1%N, [VInt 0])] = Ok [ICrit (CCmp 0 1 Gt (VInt 0)); ICrit (CCmp 0 2 Eq (VInt 2))].
Proof. split; vm_compute; reflexivity. Qed.

(* t.c.x > l[0] (as of /repo 3d569da).  A list that is only indexed is refused like dct["k"] / obj.attr (documented
   InvalidRequestError); a list that is also a bound value (IN) has its item re-extracted on every construction *)
Definition U_index (code : N) : list use := [UIndex 0 1 Gt 0 0].
Lemma list_index_alone_rejected :
  run F0 U_index empty_state [[(1%N, [VList [VInt 1; VInt 2]])]] = [Rejected].
Proof. vm_compute; reflexivity. Qed.
Definition U_index_in (code : N) : list use := [UIn 0 2 0; UIndex 0 1 Gt 0 1].
Lemma list_index_with_in_fresh :
  run F0 U_index_in empty_state [[(1%N, [VList [VInt 1; VInt 2]])]; [(1%N, [VList [VInt 0; VInt 5; VInt 3]])]] =
    [Ok [ICrit (CIn 0 2 [VInt 1; VInt 2]); ICrit (CCmp 0 1 Gt (VInt 2))];
     Ok [ICrit (CIn 0 2 [VInt 0; VInt 5; VInt 3]); ICrit (CCmp 0 1 Gt (VInt 5))]] /\
  map (direct_chain F0 U_index_in) [[(1%N, [VList [VInt 1; VInt 2]])]; [(1%N, [VList [VInt 0; VInt 5; VInt 3]])]] =
    run F0 U_index_in empty_state [[(1%N, [VList [VInt 1; VInt 2]])]; [(1%N, [VList [VInt 0; VInt 5; VInt 3]])]].
Proof. split; vm_compute; reflexivity. Qed.

(* A non-trivial history inside the guard.
   lambda 1: select(tbl.c.id).where(tbl.c.x > v)   lambda 2: s.where(col < 5).where(t.c.y.in_(lst)).limit(n)
   lambda 3: s.where(h(w))  with h = code 9 *)
Definition U_ex (code : N) : list use :=
  if N.eqb code 1 then [UFrom 0; UTabCmp 0 1 Gt 1]
  else if N.eqb code 2 then [UColCmp 0 Lt 5; UIn 0 2 1; ULimit 2; UIndex 0 1 Ne 1 0]
  else [UCallArg 0 1].
Definition K_ex (code : N) : list N :=
  (if N.eqb code 1 then [3; 0] else if N.eqb code 2 then [2; 1; 0] else [4; 0])%N.
Definition h_ex : list (list (N * list val)) :=
  [ [(1, [VTab 0; VInt 1]); (2, [VCol 0 1; VList [VInt 1; VInt 2]; VInt 3])];
    [(1, [VTab 1; VInt 0]); (2, [VCol 1 1; VList [VInt 4]; VInt 1])];
    [(1, [VTab 0; VInt 7]); (3, [VFun 9 []; VInt 4])];
    [(1, [VTab 0; VInt 2]); (2, [VCol 0 1; VList [VInt 7; VNone]; VInt 9]); (3, [VFun 9 [VInt 5]; VInt 8])] ]%N.
Lemma ex_guard : forall ch, In ch h_ex -> chain_good U_ex K_ex ch /\ exists its, direct_chain F0 U_ex ch = Ok its.
Proof.
  intros ch H. cbn in H. repeat (destruct H as [<-|H]; [split; [|eexists; vm_compute; reflexivity]|]); try contradiction;
    intros code e Hin; cbn in Hin; repeat (destruct Hin as [Hin|Hin]; [inversion Hin; subst; repeat split; vm_compute; reflexivity|]);
    contradiction.
Qed.
Lemma ex_runs : run F0 U_ex empty_state h_ex = map (direct_chain F0 U_ex) h_ex.
Proof. vm_compute; reflexivity. Qed.
