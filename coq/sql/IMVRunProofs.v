(* C12: the concrete database of IMVRun.v satisfies what IMVWhole.v assumes of the database; and the
   witnesses of the *_refuted theorems (a theorem minus one hypothesis, shown false on a concrete run). *)
From Coq Require Import List ZArith Bool Lia Permutation Sorted.
Import ListNotations.
From SAV.base Require Import Tree.
From SAV.sql Require Import IMV IMVPlan IMVMerge IMVWhole IMVRun.
Open Scope Z_scope.

Lemma list_eqb_spec a b : list_eqb a b = true <-> a = b.
Proof.
  revert b. induction a as [|x a IH]; intros [|y b]; cbn; split; try congruence; try discriminate; auto.
  - intros H. apply andb_prop in H. destruct H as [H1 H2]. apply Z.eqb_eq in H1. apply IH in H2. congruence.
  - intros H. inversion H; subst. rewrite Z.eqb_refl. cbn. apply IH. reflexivity.
Qed.

(* without an injected fault the concrete database returns one row per VALUES row, permuted *)
Lemma fetch_db_perm rowspec keys k x items :
  Permutation (map (db_row rowspec x) items) (fetch_db rowspec keys [] k x items).
Proof.
  unfold fetch_db. cbn [apply_fault].
  set (keyed := map (fun p : param => (nth (fst p) keys 0, (fst p, db_row rowspec x p))) items).
  assert (E : map (db_row rowspec x) items = map snd (map snd keyed)).
  { subst keyed. rewrite !map_map. reflexivity. }
  rewrite E. apply Permutation_map. apply Permutation_map. symmetry. apply sort_rows_perm.
Qed.

(* witness 1: a per-row bound parameter outside VALUES *)
Definition w1_cfg :=
  mkConfig (mkFlags false true true true false false false false) 2 32700 3 2 2 true true 1 false true false.
Definition w1_mask := [true; true; false].
Definition w1_rowspec : list (list Z) := [[1; 0]; [2; 1]; [1; 0]].
Definition w1_ps : list param := [(0%nat, [1; 100; 0]); (1%nat, [2; 101; 10]); (2%nat, [3; 102; 20])].
Definition w1_run := execute list_eqb (sent_of_param [0%nat]) (sent_of_row 1) sort_key (ext_of w1_mask)
                             (fetch_db w1_rowspec [] []) w1_cfg w1_ps.
Lemma w1_result : o_result w1_run = Ok [[1; 100; 1]; [2; 101; 2]; [3; 122; 3]].
Proof. vm_compute. reflexivity. Qed.
Lemma w1_spec : map (fun p => db_row w1_rowspec (Some (ext_of w1_mask p)) p) w1_ps
                = [[1; 100; 1]; [2; 111; 2]; [3; 122; 3]].
Proof. vm_compute. reflexivity. Qed.

(* witness 2: sentinel columns without client-side values *)
Definition w2_cfg :=
  mkConfig (mkFlags false true true true false false false false) 1000 32700 1 1 1 true true 1 false false false.
Definition w2_rowspec : list (list Z) := [[0]; [1; 0]; [0]].
Definition w2_ps : list param := [(0%nat, [100]); (1%nat, [101]); (2%nat, [102])].
Definition w2_run := execute list_eqb (sent_of_param []) (sent_of_row 1) sort_key (ext_of [true])
                             (fetch_db w2_rowspec [] []) w2_cfg w2_ps.
Lemma w2_result : o_result w2_run = Raise AssertionError /\ length (o_executed w2_run) = 1%nat.
Proof. vm_compute. split; reflexivity. Qed.

(* the hypotheses of execute_sorted_guarded, all but the uniformity of the non-VALUES parameters,
   hold for witness 1 - and the n-th row is NOT the row of the n-th parameter set *)
Lemma sorted_returning_refuted :
  exists (c : config) (mask : list bool) (rowspec : list (list Z)) (ps : list param),
    (forall k x items, Permutation (map (db_row rowspec x) items) (fetch_db rowspec [] [] k x items)) /\
    1 <= c_batch_size c /\ clamp_pre c /\ wf_config c /\ c_is_returning c = true /\ c_imv_sbo c = true /\
    result_columns (c_flags c) = true /\
    sentinel_hyp (sent_of_param [0%nat]) (sent_of_row 1) sort_key (db_row rowspec) c ps /\
    exists rows,
      o_result (execute list_eqb (sent_of_param [0%nat]) (sent_of_row 1) sort_key (ext_of mask)
                        (fetch_db rowspec [] []) c ps) = Ok rows /\
      rows <> map (fun p => db_row rowspec (Some (ext_of mask p)) p) ps.
Proof.
  exists w1_cfg, w1_mask, w1_rowspec, w1_ps.
  split; [intros; apply fetch_db_perm|].
  split; [cbn; lia|]. split; [right; cbn; lia|]. split; [split; [cbn; lia|reflexivity]|].
  split; [reflexivity|]. split; [reflexivity|]. split; [reflexivity|].
  split.
  - right. left. split; [reflexivity|]. split; [reflexivity|]. split; [reflexivity|]. cbn. repeat constructor; cbn; intuition discriminate.
  - eexists. split; [exact w1_result|]. rewrite w1_spec. discriminate.
Qed.

(* sentinel columns selected, no client-side value for them, no implicit-sentinel support:
   batching is chosen, the first statement is executed, then `assert imv.sentinel_param_keys` *)
Lemma sentinel_without_keys_refuted :
  exists (c : config) (rowspec : list (list Z)) (ps : list param),
    (forall k x items, Permutation (map (db_row rowspec x) items) (fetch_db rowspec [] [] k x items)) /\
    1 <= c_batch_size c /\ clamp_pre c /\ wf_config c /\ c_is_returning c = true /\ c_imv_sbo c = true /\
    result_columns (c_flags c) = true /\
    c_num_sentinel c = 1 /\ c_implicit c = false /\ c_has_keys c = false /\
    let run := execute list_eqb (sent_of_param []) (sent_of_row 1) sort_key (ext_of [true])
                       (fetch_db rowspec [] []) c ps in
    o_result run = Raise AssertionError /\ length (o_executed run) = 1%nat.
Proof.
  exists w2_cfg, w2_rowspec, w2_ps.
  split; [intros; apply fetch_db_perm|].
  split; [cbn; lia|]. split; [right; cbn; lia|]. split; [split; [cbn; lia|reflexivity]|].
  do 6 (split; [reflexivity|]). exact w2_result.
Qed.

(* the clamp can produce a non-positive size: one row's parameters already exceed the limit *)
Lemma clamp_nonpositive_refuted :
  exists bs mp tot per, 1 <= bs /\ 1 <= per /\ clamp bs mp tot per = Ok 0 /\
    total_batches 5 0 = Raise ZeroDivisionError.
Proof. exists 1000, 999, 1000, 1000. repeat split; try lia; reflexivity. Qed.
