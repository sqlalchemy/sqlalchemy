(* C04 - the theorems props/C04.v states, and the concrete inputs (witnesses outside the guard, one statement
   inside it) its examples evaluate; lit_dec / run_proc come from ParamsRun.v, the harness entry point *)
From Coq Require Import List NArith ZArith Bool.
Import ListNotations.
From SAV.sql Require Import Params ParamsDict ParamsEscape ParamsGuard ParamsPost ParamsInline ParamsFinal
  ParamsNamed ParamsPos ParamsNum ParamsRun.

(* bindname_escape_characters as of the pinned source; Gen_C04_obl.v, which specs/c04.py writes into the
   build directory of every ./check run from the live module, proves the live table equal to it (gen_tab_same) *)
Definition sa_tab : list (N * N) :=
  [(37, 80); (40, 65); (41, 90); (58, 67); (46, 95); (91, 95); (93, 95); (32, 95)]%N.

Lemma style_cases : forall ps,
  positional ps = false \/ (positional ps = true /\ numeric ps = false) \/ numeric ps = true.
Proof. destruct ps; cbn; tauto. Qed.

Theorem all_styles : forall tab lit empty_expr proc ps inp, guard tab inp = true ->
  exists ts fp sp, run tab lit empty_expr proc ps inp = Ok (ts, fp) /\
                   inline_spec lit empty_expr proc inp = Some sp /\ inline ps ts fp = Some sp.
Proof.
  intros tab lit empty_expr proc ps inp G. apply guard_wf in G.
  destruct (style_cases ps) as [H|[[H1 H2]|H]].
  - exact (named_ok tab lit empty_expr proc ps inp G H).
  - destruct (pos_ok tab lit empty_expr proc ps inp G H1 H2) as [ts [sp [A [B C]]]]. eexists _, _, sp. eauto.
  - exact (num_ok tab lit empty_expr proc ps inp G H).
Qed.

Theorem positional_sequence : forall tab lit empty_expr proc ps inp, guard tab inp = true ->
  positional ps = true -> numeric ps = false ->
  exists ts, run tab lit empty_expr proc ps inp = Ok (ts, FPos (flat_map (tok_vals proc inp) (i_toks inp))).
Proof.
  intros tab lit empty_expr proc ps inp G H1 H2. apply guard_wf in G.
  destruct (pos_ok tab lit empty_expr proc ps inp G H1 H2) as [ts [sp [A _]]]. exists ts. exact A.
Qed.

Theorem positiontup_text_order : forall tab ps inp, guard tab inp = true ->
  process_positional (ebn_of tab (i_order inp)) (carrier tab ps (i_toks inp)) =
  Ok (map (ctok tab ps (fun _ => OPos)) (i_toks inp), names_of (i_toks inp)).
Proof. intros tab ps inp G. apply guard_wf in G. exact (positiontup_in_text_order tab inp G ps). Qed.

(* _process_numeric: positiontup lists every bind once; the plain binds among it are numbered 1..n in that
   order (so the numbers are a bijection onto 1..n) and next_numeric_pos = n + 1 *)
Theorem numeric_is_permutation : forall tab ps inp, guard tab inp = true ->
  exists ptup,
    let plain := filter (fun n => is_plain (kind_of inp n)) ptup in
    process_numeric inp (ebn_of tab (i_order inp)) (carrier tab ps (i_toks inp)) =
      Ok (map (ctok tab ps (fun n => ONum (1 + N.of_nat (index_of n plain)))) (i_toks inp),
          ptup, (1 + N.of_nat (length plain))%N) /\
    NoDup ptup /\ (forall k, In k ptup <-> In k (i_order inp)).
Proof.
  intros tab ps inp G. apply guard_wf in G. exists (keys (num_dict inp)). cbv zeta.
  rewrite (process_numeric_ok tab ps inp G). split; [|split].
  - rewrite (n_next _ _ _ (num_state_inv inp)), (map_ext_in _ (ctok tab ps (fun n => ONum (1 + N.of_nat (index_of n (plain_names inp)))))); [reflexivity|].
    intros [s|n|n] Ht; cbn [ctok]; try reflexivity.
    destruct (w_bind _ _ G n Ht) as [Hn K].
    destruct (num_plain inp n (proj2 (plain_names_In inp n) (conj Hn K))) as [_ E]. rewrite E. reflexivity.
  - exact (n_nodup _ _ _ (num_state_inv inp)).
  - exact (num_dict_keys inp).
Qed.

(* reverse_escape o escape = id on the binds of the statement *)
Theorem reverse_escape_id : forall tab inp, guard tab inp = true ->
  forall n, In n (i_order inp) ->
  dget_or_key (reverse_dict (ebn_of tab (i_order inp))) (dget_or_key (ebn_of tab (i_order inp)) n) = n.
Proof.
  intros tab inp G n Hn. apply guard_wf in G. rewrite (ebn_get_or_key_in tab _ _ Hn).
  exact (reverse_escape_escape tab inp G n Hn).
Qed.

Theorem escape_assertion_holds : forall tab inp, guard tab inp = true ->
  length (reverse_dict (ebn_of tab (i_order inp))) = length (ebn_of tab (i_order inp)).
Proof. intros tab inp G. exact (reverse_escape_length tab inp (guard_wf tab inp G)). Qed.

Definition s (l : list N) : str := l.
Definition n_a_dot_b : name := [97; 46; 98]%N.     (* a.b *)
Definition n_a_sp_b : name := [97; 32; 98]%N.      (* a b *)
Definition n_a_us_b : name := [97; 95; 98]%N.      (* a_b *)
Definition n_x : name := [120]%N.                  (* x *)
Definition n_x_1 : name := [120; 95; 49]%N.        (* x_1 *)
Definition t_eq : str := [32; 61; 32]%N.           (* " = " *)
Definition t_and : str := [32; 65; 78; 68; 32]%N.  (* " AND " *)
Definition t_in : str := [32; 73; 78; 32; 40]%N.   (* " IN (" *)
Definition t_close : str := [41]%N.

(* two binds whose names collide after escaping: "a.b" = 1 and "a b" = 2 *)
Definition w_esc : input :=
  {| i_toks := [Bind n_a_dot_b; Txt t_and; Bind n_a_sp_b];
     i_order := [n_a_dot_b; n_a_sp_b];
     i_kind := [(n_a_dot_b, Plain); (n_a_sp_b, Plain)];
     i_values := None;
     i_params := [(n_a_dot_b, PS 1); (n_a_sp_b, PS 2)]; i_pc := false; i_procs := [] |}.
(* "a.b" = 1 and "a_b" = 2: only one of them needs escaping, the assertion of _process_positional passes *)
Definition w_esc2 : input :=
  {| i_toks := [Bind n_a_dot_b; Txt t_and; Bind n_a_us_b];
     i_order := [n_a_dot_b; n_a_us_b];
     i_kind := [(n_a_dot_b, Plain); (n_a_us_b, Plain)];
     i_values := None;
     i_params := [(n_a_dot_b, PS 1); (n_a_us_b, PS 2)]; i_pc := false; i_procs := [] |}.
(* an expanding bind "x" = [1; 2] next to a bind called "x_1" = 7 *)
Definition w_exp : input :=
  {| i_toks := [Txt t_in; PC n_x; Txt t_close; Txt t_and; Bind n_x_1];
     i_order := [n_x; n_x_1];
     i_kind := [(n_x, Expand); (n_x_1, Plain)];
     i_values := None;
     i_params := [(n_x, PL [1; 2]%Z); (n_x_1, PS 7)]; i_pc := true; i_procs := [] |}.
(* a literal_execute bind whose name needs escaping: "a b" = 5 *)
Definition w_lit : input :=
  {| i_toks := [Txt t_eq; PC n_a_sp_b];
     i_order := [n_a_sp_b];
     i_kind := [(n_a_sp_b, LitExec)];
     i_values := None;
     i_params := [(n_a_sp_b, PS 5)]; i_pc := true; i_procs := [] |}.
(* two binds called "p", the first ordinary, the second (the one left in compiler.binds) literal_execute *)
Definition w_mix : input :=
  {| i_toks := [Bind [112]%N; Txt t_and; PC [112]%N];
     i_order := [[112]%N; [112]%N];
     i_kind := [([112]%N, LitExec)];
     i_values := None;
     i_params := [([112]%N, PS 3)]; i_pc := true; i_procs := [] |}.
Definition empty0 : str := [48]%N.

Definition delivered (ps : style) (inp : input) : result (option (list rchar)) :=
  match run sa_tab lit_dec empty0 run_proc ps inp with
  | Ok (ts, fp) => Ok (inline ps ts fp)
  | Raise e => Raise e
  end.
Definition styles6 : list style := [Qmark; Format; Numeric; NumericDollar; Named; Pyformat].

(* a statement inside the guard that uses everything: escaped names, a repeated bind, an expanding bind (also
   empty), a literal_execute bind, insertmanyvalues ordering *)
Definition n_p : name := [112]%N.
Definition n_le : name := [108; 101]%N.
Definition n_e : name := [101]%N.
Definition ex_good : input :=
  {| i_toks := [Txt t_eq; Bind n_a_sp_b; Txt t_in; PC n_x; Txt t_close; Txt t_and; Bind n_p; Txt t_eq; PC n_le;
                Txt t_and; Bind n_a_sp_b; Txt t_in; PC n_e; Txt t_close; Txt [37]%N];
     i_order := [n_p; n_a_sp_b; n_x; n_le; n_e];
     i_kind := [(n_p, Plain); (n_a_sp_b, Plain); (n_x, Expand); (n_le, LitExec); (n_e, Expand)];
     i_values := Some [n_a_sp_b];
     i_params := [(n_p, PS 9); (n_a_sp_b, PS 4); (n_x, PL [1; 2; 3]%Z); (n_le, PS 6); (n_e, PL [])]; i_pc := true;
     i_procs := [(n_a_sp_b, 1%N); (n_x, 2%N)] |}.
