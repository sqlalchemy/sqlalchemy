(* C04 - from the compiled statement to the driver, for all paramstyles at once.
   The styles differ in how the compile step renders a plain bind ([b]) and in how the driver finds the value
   of a placeholder ([J]); section Deliver proves the delivery theorem from the few facts about [b] and [J]
   that depend on the style, and the files ParamsNamed, ParamsPos, ParamsNum supply those facts. *)
From Coq Require Import List NArith ZArith Bool.
Import ListNotations.
From SAV.sql Require Import Params ParamsDict ParamsEscape ParamsGuard ParamsPost ParamsInline.

Lemma expand_from_snd : forall e l i, map snd (expand_from e i l) = l.
Proof. induction l as [|v l IH]; intro i; cbn [expand_from map snd]; [reflexivity|]. f_equal. apply IH. Qed.

Lemma fst_combine_nseq : forall (l : list name) s, map fst (combine l (nseq s (length l))) = l.
Proof. induction l as [|y l IH]; intro s; [reflexivity|]. cbn [length nseq combine map fst]. f_equal. apply IH. Qed.

Section Final.
Variable tab : list (N * N).
Variable lit : Z -> str.
Variable empty_expr : str.
Variable proc : N -> Z -> Z.
Variable ps : style.
Variable inp : input.
Hypothesis W : wf tab inp.

Notation order := (i_order inp).
Notation toks := (i_toks inp).
Notation ebn := (ebn_of tab (i_order inp)).
Notation repl_of := (repl_of tab lit empty_expr ps inp).
Notation newpos_of := (newpos_of tab ps inp).
Notation xnames := (xnames tab inp).
Notation Inv := (pc_inv tab lit empty_expr ps inp).

(* the token that stands for a source token once binds are rendered by [b] *)
Definition ctok (b : name -> otok) (t : tok) : otok :=
  match t with Txt s => OTxt (pct ps s) | Bind n => b n | PC n => OPC (esc tab n) end.
Definition final_tok (b : name -> otok) (t : tok) : list otok :=
  match t with Txt s => [OTxt (pct ps s)] | Bind n => [b n] | PC n => repl_of n end.
Definition subst_fun (st : pcstate) (t : otok) : result (list otok) :=
  match t with
  | OPC k => match dget k (s_repl st) with Some r => Ok r | None => Raise KeyError end
  | _ => Ok [t]
  end.

Lemma subst_ok : forall (b : name -> otok) st ts,
  (forall n, match b n with OPC _ => False | _ => True end) ->
  (forall n, In (PC n) ts -> dget (esc tab n) (s_repl st) = Some (repl_of n)) ->
  concatM (subst_fun st) (map (ctok b) ts) = Ok (flat_map (final_tok b) ts).
Proof.
  intros b st ts Hb. induction ts as [|t ts IH]; intro H; [reflexivity|].
  cbn [map concatM flat_map]. rewrite IH by (intros n Hn; apply H; right; exact Hn).
  destruct t as [s|n|n]; cbn [ctok subst_fun final_tok bind app].
  - reflexivity.
  - specialize (Hb n). destruct (b n); try reflexivity. destruct Hb.
  - rewrite (H n (or_introl eq_refl)). reflexivity.
Qed.

Lemma no_pc_final : forall (b : name -> otok) ts,
  (forall n, ~ In (PC n) ts) -> flat_map (final_tok b) ts = map (ctok b) ts.
Proof.
  intros b ts. induction ts as [|t ts IH]; intro H; [reflexivity|].
  cbn [flat_map map]. rewrite IH by (intros n Hn; apply (H n); right; exact Hn).
  destruct t as [s|n|n]; try reflexivity. exfalso. apply (H n). left. reflexivity.
Qed.

Lemma final_ph : forall (b : name -> otok) k,
  (forall n, match b n with OPh _ => False | _ => True end) ->
  In (OPh k) (flat_map (final_tok b) toks) -> exists n, In (PC n) toks /\ In k (xnames n).
Proof.
  intros b k Hb H. apply in_flat_map in H. destruct H as [[s|n|n] [Ht H]]; cbn [final_tok] in H.
  - destruct H as [H|[]]. discriminate.
  - destruct H as [H|[]]. specialize (Hb n). rewrite H in Hb. destruct Hb.
  - exists n. split; [exact Ht|]. unfold ParamsPost.repl_of, repl_expand in H.
    unfold ParamsGuard.xnames, xitems. destruct (kind_of inp n); try (destruct H as [H|[]]; discriminate).
    destruct (plist inp n); [destruct H as [H|[]]; discriminate|].
    apply In_join_toks in H. destruct H as [H|H]; [discriminate|].
    apply in_map_iff in H. destruct H as [kv [He Hi]]. apply in_map_iff. exists kv. split; [|exact Hi].
    unfold bind_tok in He. destruct ps; congruence.
Qed.

(* flattened_processors *)
Definition fprocs (st : pcstate) : dict N := dupdate (s_procs st) (i_procs inp).
Notation pz := (pz proc inp).

Lemma papply_pz : forall fp k n z, dget k fp = dget n (i_procs inp) -> papply proc fp k (PS z) = PS (pz n z).
Proof. intros fp k n z H. unfold papply, Params.pz. rewrite H. destruct (dget n (i_procs inp)); reflexivity. Qed.

(* parameters[key] after flattened_processors; the default is never met where [pc_inv] holds and the key is
   a plain bind or an expanded name (getv_plain, getv_x) *)
Definition getv (st : pcstate) (k : name) : pval :=
  match dget k (s_params st) with Some v => papply proc (fprocs st) k v | None => PS 0 end.

(* a plain bind keeps the value given for it, and it is processed once, by its own processor *)
Lemma getv_plain : forall done st n v, Inv done st -> In n order -> kind_of inp n = Plain ->
  dget n (i_params inp) = Some (PS v) -> dget n (s_params st) = Some (PS v) /\ getv st n = PS (pz n v).
Proof.
  intros done st n v I Hn K Hv.
  assert (Hg : dget n (s_params st) = Some (PS v)) by (rewrite (v_keep I n Hn (or_intror K)); exact Hv).
  split; [exact Hg|]. unfold getv. rewrite Hg. apply papply_pz.
  (* no expanded name is the name of a bind, so the new processors do not shadow its own *)
  apply dget_dupdate_other. intro Hk. destruct (v_procs_keys I n Hk) as [n1 [B1 B2]].
  exact (w_xfresh _ _ W n1 n (v_done I n1 B1) B2 Hn).
Qed.
(* an expanded name carries its element, processed once by the processor of the expanding bind *)
Lemma getv_x : forall done st n k v, Inv done st -> In n done -> In (k, v) (xitems tab inp n) ->
  dget k (s_params st) = Some (PS v) /\ getv st k = PS (pz n v).
Proof.
  intros done st n k v I Hn Hx. pose proof (v_x I n k v Hn Hx) as Hg.
  split; [exact Hg|]. unfold getv. rewrite Hg. apply papply_pz.
  pose proof (v_procs_x I n k v Hn Hx) as G. unfold fprocs.
  destruct (dget k (s_procs st)) as [p|] eqn:E.
  - rewrite <- G. apply dget_dupdate_in; [exact (v_procs_nodup I)|apply dget_In_pair; exact E].
  - rewrite dget_dupdate_other by (apply dget_None_keys; exact E). rewrite <- G.
    apply dget_None_keys. intro Hk. apply (w_prockeys _ _ W) in Hk.
    exact (w_xfresh _ _ W n k (v_done I n Hn) (xitem_name _ _ _ _ _ Hx) Hk).
Qed.

Lemma assemble_ok : forall st ptup, (forall k, In k ptup -> dget k (s_params st) <> None) ->
  mapM (fun k => match dget k (s_params st) with
                 | Some v => Ok (papply proc (dupdate (s_procs st) (i_procs inp)) k v)
                 | None => Raise KeyError
                 end) ptup
  = Ok (map (getv st) ptup).
Proof.
  intros st ptup H. apply mapM_ok. intros k Hk. unfold getv. specialize (H k Hk).
  destruct (dget k (s_params st)); [reflexivity|congruence].
Qed.

Lemma positions_present : forall done st l, Inv done st -> incl l order ->
  (forall n, In n l -> kind_of inp n <> Plain -> In n done) ->
  forall k, In k (flat_map newpos_of l ++ flat_map xnames l) -> dget k (s_params st) <> None.
Proof.
  intros done st l I Hl Hd k Hk.
  assert (Hx : forall n, In n l -> In k (xnames n) -> dget k (s_params st) <> None).
  { intros n Hn Hi. destruct (proj1 (in_map_iff fst (xitems tab inp n) k) Hi) as [[k' v] [<- Hx]]. cbn [fst].
    assert (K : kind_of inp n <> Plain) by (intro K; rewrite xitems_nonexpand in Hx by congruence; destruct Hx).
    rewrite (proj1 (getv_x done st n k' v I (Hd n Hn K) Hx)). discriminate. }
  apply in_app_or in Hk. destruct Hk as [Hk|Hk]; apply in_flat_map in Hk; destruct Hk as [n [Hn Hi]]; [|exact (Hx n Hn Hi)].
  unfold ParamsPost.newpos_of in Hi. destruct (kind_of inp n) eqn:K.
  - destruct Hi as [<-|[]]. destruct (w_plain _ _ W n (Hl n Hn) K) as [v Hv].
    rewrite (proj1 (getv_plain done st n v I (Hl n Hn) K Hv)). discriminate.
  - destruct (numeric ps); [destruct Hi|exact (Hx n Hn Hi)].
  - destruct Hi.
Qed.

Lemma positions_plain : forall l, (forall n, In n l -> kind_of inp n = Plain) ->
  flat_map newpos_of l = l /\ flat_map xnames l = [].
Proof.
  induction l as [|n l IH]; intro H; [split; reflexivity|].
  destruct IH as [IH1 IH2]; [intros m Hm; apply H; right; exact Hm|].
  cbn [flat_map]. rewrite IH1, IH2. unfold ParamsPost.newpos_of, ParamsGuard.xnames.
  rewrite xitems_nonexpand, (H n (or_introl eq_refl)) by (rewrite (H n (or_introl eq_refl)); discriminate).
  split; reflexivity.
Qed.

(* the values after their processors were applied (what both branches of _init_compiled compute) *)
Definition processed (st : pcstate) : dict pval :=
  map (fun kv => (fst kv, papply proc (fprocs st) (fst kv) (snd kv))) (s_params st).

Lemma keys_processed : forall st, keys (processed st) = keys (s_params st).
Proof. intro st. unfold processed, keys. rewrite map_map. reflexivity. Qed.
Lemma dget_processed : forall st k, dget k (processed st) = option_map (papply proc (fprocs st) k) (dget k (s_params st)).
Proof.
  intros st k. unfold processed. induction (s_params st) as [|[k' v'] d IH]; [reflexivity|].
  cbn [map fst snd dget]. destruct (str_eqb_spec k k') as [->|Hn]; [reflexivity|exact IH].
Qed.

Definition fdict (d : dict pval) : dict pval :=
  match ebn with [] => d | _ => drekey (dget_or_key ebn) d end.

(* escaped_bind_names.get(k, k) is injective on the keys of the parameters: the binds have distinct
   escaped names, an expanded name is left alone and is no escaped name of a bind *)
Lemma rename_inj : forall done st, Inv done st ->
  forall a b, In a (keys (s_params st)) -> In b (keys (s_params st)) ->
  dget_or_key ebn a = dget_or_key ebn b -> a = b.
Proof.
  intros done st I a b Ha Hb.
  destruct (v_keys I a Ha) as [Ha'|[na [Hna Hxa]]];
  destruct (v_keys I b Hb) as [Hb'|[nb [Hnb Hxb]]].
  - rewrite !ebn_get_or_key_in by assumption. apply (w_inj _ _ W); assumption.
  - rewrite (ebn_get_or_key_in tab _ _ Ha'), (ebn_get_or_key_out tab _ b) by (exact (w_xfresh _ _ W nb b Hnb Hxb)).
    intro He. exfalso. exact (w_xesc _ _ W nb a b Hnb Ha' Hxb (eq_sym He)).
  - rewrite (ebn_get_or_key_in tab _ _ Hb'), (ebn_get_or_key_out tab _ a) by (exact (w_xfresh _ _ W na a Hna Hxa)).
    intro He. exfalso. exact (w_xesc _ _ W na b a Hna Hb' Hxa He).
  - rewrite (ebn_get_or_key_out tab _ a) by (exact (w_xfresh _ _ W na a Hna Hxa)).
    rewrite (ebn_get_or_key_out tab _ b) by (exact (w_xfresh _ _ W nb b Hnb Hxb)). tauto.
Qed.

Lemma fdict_get : forall done st k v, Inv done st -> dget k (s_params st) = Some v ->
  dget (dget_or_key ebn k) (fdict (processed st)) = Some (getv st k).
Proof.
  intros done st k v I Hv.
  assert (Hk : In k (keys (s_params st))) by (apply dget_In_keys; congruence).
  assert (Hp : dget k (processed st) = Some (getv st k)) by (rewrite dget_processed; unfold getv; rewrite Hv; reflexivity).
  unfold fdict. destruct ebn as [|e0 er] eqn:E; [exact Hp|]. rewrite <- E, <- Hp, drekey_inj.
  - apply dget_rekey_map. rewrite keys_processed. intros a Ha He. apply (rename_inj done st I); assumption.
  - rewrite keys_processed. apply (rename_inj done st I).
  - rewrite keys_processed. exact (v_nodup I).
Qed.

Section Renumber.
Variable np : list name.     (* numeric_positiontup *)
Variable next : N.           (* next_numeric_pos *)
Definition ppx : dict N := dupdate (combine np (nseq next (length np))) [].
Definition xnum (k : name) : N := match dget k ppx with Some num => num | None => 0%N end.
Definition renum (t : otok) : otok := match t with OPh k => ONum (xnum k) | _ => t end.

Lemma renum_ok : forall ts, (forall k, In (OPh k) ts -> In k np) ->
  mapM (fun t => match t with
                 | OPh k => match dget k ppx with Some num => Ok (ONum num) | None => Raise KeyError end
                 | _ => Ok t
                 end) ts = Ok (map renum ts).
Proof.
  intros ts H. apply mapM_ok. intros [s|k| |k|k] Ht; try reflexivity. cbn [renum]. unfold xnum.
  destruct (dget k ppx) eqn:E; [reflexivity|]. exfalso. apply dget_None_keys in E. apply E.
  unfold ppx. apply In_keys_dupdate. left. rewrite fst_combine_nseq. exact (H k Ht).
Qed.
End Renumber.

(* the entries of positiontup that belong to a source token *)
Definition tok_pos (t : tok) : list name := match t with Txt _ => [] | Bind n => [n] | PC n => xnames n end.

Section Style.
Variable b : name -> otok.

Section Run.
Variable ptup : list name.
Variable next : N.
Hypothesis b_not_pc : forall n, match b n with OPC _ => False | _ => True end.
Hypothesis b_numeric : numeric ps = true -> forall n, match b n with OPh _ => False | _ => True end.
Hypothesis compile_ok : compile tab ps inp =
  Ok ({| c_toks := map (ctok b) toks; c_positiontup := ptup; c_next := next |}, ebn).
Hypothesis ptup_ok : positional ps = true -> incl ptup order /\ forall n, In (PC n) toks -> In n ptup.

Notation numpos := (flat_map xnames ptup).
(* the statement and the parameters handed to the driver *)
Definition final_toks : list otok :=
  if numeric ps then map (renum numpos next) (flat_map (final_tok b) toks) else flat_map (final_tok b) toks.
Definition final_params (st : pcstate) : fparams :=
  if positional ps
  then FPos (map (getv st) (flat_map newpos_of ptup ++ if numeric ps then numpos else []))
  else FDict (fdict (processed st)).

Lemma run_ok : exists done st, Inv done st /\ (forall n, In (PC n) toks -> In n done) /\
  run tab lit empty_expr proc ps inp = Ok (final_toks, final_params st).
Proof.
  assert (Hnp : numeric ps = true -> positional ps = true) by (destruct ps; cbn; congruence).
  unfold run, final_toks, final_params. rewrite compile_ok. cbn [bind c_toks c_positiontup].
  destruct (i_pc inp) eqn:HP.
  - unfold postcompile. cbn [c_toks c_positiontup c_next].
    set (names := if positional ps then ptup else order).
    assert (Hnames : incl names order /\ forall n, In (PC n) toks -> In n names).
    { unfold names. destruct (positional ps); [exact (ptup_ok eq_refl)|].
      split; [apply incl_refl|]. intros n Hn. exact (proj1 (w_pc _ _ W n Hn)). }
    destruct (pc_loop tab lit empty_expr ps inp W names (proj1 Hnames)) as [st [E I]].
    exists names, st. split; [exact I|]. split; [exact (proj2 Hnames)|].
    unfold pc_init in E. rewrite E. cbn [bind].
    pose proof (subst_ok b st toks b_not_pc) as HS. unfold subst_fun in HS. rewrite HS; clear HS.
    2:{ intros n Hn. exact (v_repl_in I n (proj2 Hnames n Hn) (proj2 (w_pc _ _ W n Hn))). }
    cbn [bind].
    pose proof (positions_present names st names I (proj1 Hnames) (fun n Hn _ => Hn)) as Hpres.
    rewrite (v_newpos I), (v_numpos I). unfold names in *.
    destruct (numeric ps) eqn:Hnum.
    + rewrite (Hnp eq_refl) in *. fold (ppx numpos next). rewrite renum_ok.
      * cbn [bind]. rewrite (assemble_ok st _ Hpres). reflexivity.
      * intros k Hk. destruct (final_ph b k (b_numeric eq_refl) Hk) as [n [Hn Hx]].
        apply in_flat_map. exists n. split; [exact (proj2 Hnames n Hn)|exact Hx].
    + cbn [bind]. destruct (positional ps); [|reflexivity].
      rewrite (assemble_ok st), app_nil_r; [reflexivity|].
      intros k Hk. apply Hpres. apply in_or_app. left. exact Hk.
  - assert (Hall : forall n, In n order -> kind_of inp n = Plain) by (intros n Hn; exact (has_postcompile_false tab inp n W HP Hn)).
    assert (Hno : forall n, ~ In (PC n) toks).
    { intros n Hn. destruct (w_pc _ _ W n Hn) as [A B]. exact (B (Hall n A)). }
    pose proof (pc_inv_init tab lit empty_expr ps inp W) as I.
    exists [], (pc_init inp). split; [exact I|]. split; [intros n Hn; exact (Hno n Hn)|].
    cbn [bind]. rewrite <- (no_pc_final b toks Hno).
    destruct (positional ps) eqn:Hps.
    + destruct (ptup_ok eq_refl) as [Hincl _].
      destruct (positions_plain ptup (fun n Hn => Hall n (Hincl n Hn))) as [P1 P2]. rewrite P1, P2.
      pose proof (positions_present [] (pc_init inp) ptup I Hincl) as Hpres. rewrite P1, P2, app_nil_r in Hpres.
      pose proof (assemble_ok (pc_init inp) ptup) as HA. cbn [pc_init s_params s_procs] in HA. rewrite HA.
      * cbn [bind]. f_equal. f_equal; [|destruct (numeric ps); rewrite app_nil_r; reflexivity].
        destruct (numeric ps) eqn:Hnum; [|reflexivity].
        symmetry. apply map_id_in. intros [s|k| |k|k] Ht; try reflexivity.
        destruct (final_ph b k (b_numeric eq_refl) Ht) as [n [Hn _]]. destruct (Hno n Hn).
      * apply Hpres. intros n Hn K. destruct (K (Hall n (Hincl n Hn))).
    + destruct (numeric ps) eqn:Hnum; [discriminate (Hnp eq_refl)|reflexivity].
Qed.

Section Deliver.
(* [J st seg ks]: what the driver makes of the piece [seg] of the statement when the parameters are those
   built from the state [st]; [ks] are the entries of positiontup belonging to [seg] (used by qmark / format) *)
Variable J : pcstate -> list otok -> list name -> option (list rchar).
Hypothesis J_nil : forall st, J st [] [] = Some [].
Hypothesis J_app : forall st a ka ra c kc, J st a ka = Some ra ->
  J st (a ++ c) (ka ++ kc) = oapp (Some ra) (J st c kc).
Hypothesis J_txt : forall st s, J st [OTxt (pct ps s)] [] = Some (map Ch s).
(* the placeholder of a plain bind / of an expanded name finds the processed value stored under that key *)
Hypothesis J_bind : forall done st n v z, Inv done st -> In n order -> kind_of inp n = Plain ->
  dget n (s_params st) = Some v -> getv st n = PS z -> J st [b n] [n] = Some [Val z].
Hypothesis J_x : forall done st n k v z, Inv done st -> In n done -> In k (xnames n) ->
  dget k (s_params st) = Some v -> getv st k = PS z -> J st [bind_tok ps k] [k] = Some [Val z].

Lemma J_join : forall st (g : Z -> Z) items,
  (forall k v, In (k, v) items -> J st [bind_tok ps k] [k] = Some [Val (g v)]) -> items <> [] ->
  J st (join_toks (map (fun kv => bind_tok ps (fst kv)) items)) (map fst items) = Some (join_vals (map g (map snd items))).
Proof.
  intros st g items. induction items as [|[k v] items IH]; intros H Hne; [congruence|].
  pose proof (H k v (or_introl eq_refl)) as Hk.
  destruct items as [|[k2 v2] items]; [exact Hk|].
  specialize (IH (fun k' v' Hi => H k' v' (or_intror Hi)) ltac:(discriminate)).
  cbn [map fst snd] in IH |- *. rewrite join_toks_cons2, join_vals_cons2.
  pose proof (J_txt st COMMA_SP) as Hc. rewrite pct_comma in Hc.
  rewrite (J_app st [_] [k] _ _ _ Hk : J st (_ :: _) (k :: _) = _).
  rewrite (J_app st [_] [] _ _ _ Hc : J st (_ :: _) (k2 :: _) = _), IH. reflexivity.
Qed.

Lemma deliver_token : forall done st t, Inv done st -> In t toks ->
  (forall n, t = PC n -> In n done) ->
  exists r, spec_tok lit empty_expr proc inp t = Some r /\ J st (final_tok b t) (tok_pos t) = Some r.
Proof.
  intros done st t I Ht Hd. destruct t as [s|n|n]; cbn [final_tok tok_pos spec_tok].
  - exists (map Ch s). split; [reflexivity|apply J_txt].
  - destruct (w_bind _ _ W n Ht) as [Hn K]. destruct (w_plain _ _ W n Hn K) as [v Hv]. rewrite Hv.
    destruct (getv_plain done st n v I Hn K Hv) as [G1 G2].
    exists [Val (pz n v)]. split; [reflexivity|exact (J_bind done st n _ _ I Hn K G1 G2)].
  - destruct (w_pc _ _ W n Ht) as [Hn K]. unfold ParamsPost.repl_of, ParamsGuard.xnames, xitems, plist, given.
    destruct (kind_of inp n) eqn:K'; [congruence| |].
    + destruct (w_expand _ _ W n Hn K') as [[|z l] Hl]; rewrite Hl.
      * exists (map Ch empty_expr). split; [reflexivity|apply J_txt].
      * assert (Hx : expanded_names (esc tab n) (z :: l) = xitems tab inp n) by (unfold xitems, plist; rewrite K', Hl; reflexivity).
        exists (join_vals (map (pz n) (z :: l))). split; [reflexivity|]. unfold repl_expand.
        rewrite (J_join st (pz n)).
        -- unfold expanded_names. rewrite expand_from_snd. reflexivity.
        -- intros k v Hi. rewrite Hx in Hi. destruct (getv_x done st n k v I (Hd n eq_refl) Hi) as [G1 G2].
           exact (J_x done st n k _ _ I (Hd n eq_refl) (xitem_name _ _ _ _ _ Hi) G1 G2).
        -- discriminate.
    + destruct (w_litv _ _ W n Hn K') as [v Hv]. rewrite Hv.
      exists (map Ch (lit_of lit empty_expr v)). split; [reflexivity|apply J_txt].
Qed.

Lemma deliver_tokens : forall done st, Inv done st -> (forall n, In (PC n) toks -> In n done) ->
  forall ts, incl ts toks ->
  exists sp, concat_opt (map (spec_tok lit empty_expr proc inp) ts) = Some sp /\
             J st (flat_map (final_tok b) ts) (flat_map tok_pos ts) = Some sp.
Proof.
  intros done st I Hd. induction ts as [|t ts IH]; intro Hi.
  - exists []. split; [reflexivity|apply J_nil].
  - pose proof (Hi t (or_introl eq_refl)) as Ht.
    destruct (deliver_token done st t I Ht) as [r [R1 R2]]; [intros n ->; exact (Hd n Ht)|].
    destruct IH as [sp [S1 S2]]; [intros x Hx; apply Hi; right; exact Hx|].
    exists (r ++ sp). cbn [map concat_opt flat_map]. rewrite R1, S1, (J_app st _ _ r _ _ R2), S2. split; reflexivity.
Qed.

(* the delivery theorem of a style; its hypothesis says that [J] is the driver of this style *)
Theorem style_ok :
  (forall st, inline ps final_toks (final_params st) = J st (flat_map (final_tok b) toks) (flat_map tok_pos toks)) ->
  exists done st sp, Inv done st /\ (forall n, In (PC n) toks -> In n done) /\
    run tab lit empty_expr proc ps inp = Ok (final_toks, final_params st) /\
    inline_spec lit empty_expr proc inp = Some sp /\ inline ps final_toks (final_params st) = Some sp.
Proof.
  intro HJ. destruct run_ok as [done [st [I [Hd E]]]].
  destruct (deliver_tokens done st I Hd toks (incl_refl _)) as [sp [S1 S2]].
  exists done, st, sp. rewrite HJ. auto.
Qed.
End Deliver.
End Run.
End Style.
End Final.
