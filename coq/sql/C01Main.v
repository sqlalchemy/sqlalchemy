(* C01 main structural theorem: under the finite table check, the backend grammar parses the rendered
   text of every constructed expression back to its intended (left-nested) reading. *)
From Coq Require Import List Arith ZArith Bool Lia.
Import ListNotations.
From SAV.sql Require Import Prec SAExpr C01Tables C01Proofs.

Section Main.
Variable T : satab.
Variable Bk : btab.
Variable allowed : nat -> nat -> bool.
Hypothesis Hc : compat T Bk allowed = true.

Notation okB := (ok (g_lbp Bk) binops unops (g_lctx Bk) (g_rctx Bk) (g_uctx Bk) (g_ulev Bk)).

Lemma compat_pairs c p : In c allops -> In p allops ->
  allowed c p = true -> exempt T c p = false -> pair_ok T Bk c p = true.
Proof.
  intros Hcin Hpin Ha He. destruct (andb_prop _ _ Hc) as [H12 _]. destruct (andb_prop _ _ H12) as [H1 _].
  rewrite forallb_forall in H1. specialize (H1 c Hcin). rewrite forallb_forall in H1. specialize (H1 p Hpin).
  rewrite Ha, He in H1. exact H1.
Qed.
Lemma compat_flat o : In o binops -> flattens T o = true -> b_nonassoc Bk o = false.
Proof.
  intros Ho Hf. destruct (andb_prop _ _ Hc) as [H12 _]. destruct (andb_prop _ _ H12) as [_ H2].
  rewrite forallb_forall in H2. specialize (H2 o Ho). rewrite Hf in H2. apply negb_true_iff, H2.
Qed.
Lemma compat_btab o u : In o binops -> In u unops -> b_lbp Bk o <> b_pbp Bk u.
Proof.
  intros Ho Hu. destruct (andb_prop _ _ Hc) as [_ H3]. unfold btab_ok in H3.
  rewrite forallb_forall in H3. specialize (H3 o Ho). rewrite forallb_forall in H3.
  apply Nat.eqb_neq, negb_true_iff, H3, Hu.
Qed.

(* which ungrouped parent/child operator pairs occur in x: all must be allowed *)
Definition al (p : nat) (y : sx) : Prop :=
  match op_of y with None => True | Some c => allowed c p = true end.
Fixpoint uses (x : sx) : Prop :=
  match x with
  | SA _ => True
  | SG e => uses e
  | SB o l r => uses l /\ uses r /\ al o l /\ al o r
  | SL o e1 es =>
      uses e1 /\ al o e1 /\
      (fix all (l : list sx) : Prop := match l with [] => True | y :: r => uses y /\ al o y /\ all r end) es
  | SU u e => uses e /\ al u e
  end.

Definition fitsq (q : nat) (y : sx) : Prop :=
  match op_of y with None => True | Some c => q <= clevel Bk c end.

Lemma fitsq_0 y : fitsq 0 y.
Proof. unfold fitsq. destruct (op_of y); [apply Nat.le_0_l|exact I]. Qed.

(* the grammar's levels and the check's agree on each half of the vocabulary *)
Lemma levels_bin o : In o binops -> g_lbp Bk o = clevel Bk o /\ g_rctx Bk o = plevel Bk o.
Proof. intros Ho. unfold clevel, plevel. rewrite (binop_not_un o Ho). split; reflexivity. Qed.
Lemma levels_un u : In u unops -> g_ulev Bk u = clevel Bk u /\ g_uctx Bk u = plevel Bk u.
Proof. intros Hu. unfold clevel, plevel. rewrite (unop_is_un u Hu). split; reflexivity. Qed.
Lemma lctx_le_plevel o : In o binops -> g_lctx Bk o <= plevel Bk o.
Proof.
  intros Ho. rewrite <- (proj2 (levels_bin o Ho)). unfold g_lctx, g_rctx. destruct (b_nonassoc Bk o); lia.
Qed.

Lemma top_in_allops y c : inv T y -> op_of y = Some c -> In c allops.
Proof.
  destruct y as [n|o l r|o e1 es|u e|e]; cbn [op_of inv]; intros Hi E; try discriminate; inversion E; subst;
    apply in_or_app; [left|left|right]; apply Hi.
Qed.

(* the table check at work *)
Lemma child_fits p y q : In p allops -> q <= plevel Bk p ->
  inv T y -> sgc T p y -> al p y -> fitsq q y.
Proof.
  intros Hp Hq Hi Hs Ha. unfold fitsq, sgc, al in *. destruct (op_of y) as [c|] eqn:E; [|exact I].
  destruct Hs as [Hd Hne].
  assert (He : exempt T c p = false).
  { unfold exempt. destruct (Nat.eqb_spec c p) as [->|]; [|reflexivity].
    destruct (is_un p) eqn:Eu; [reflexivity|]. destruct (flattens T p) eqn:Ef; [|reflexivity].
    destruct (Hne eq_refl eq_refl eq_refl). }
  pose proof (compat_pairs c p (top_in_allops y c Hi E) Hp Ha He) as Hpk.
  unfold pair_ok in Hpk. rewrite Hd in Hpk. apply Nat.leb_le in Hpk. exact (Nat.le_trans _ _ _ Hq Hpk).
Qed.

Theorem ok_lower : forall x, inv T x -> uses x -> forall q, fitsq q x -> okB q (lower x).
Proof.
  induction x as [n|o l r IHl IHr|o e1 es IH1 IHes|u e IHe|e IHe] using sx_ind'; intros Hi Hu q Hq;
    cbn [inv uses] in Hi, Hu; cbn [lower ok].
  - exact I.
  - destruct Hi as (Ho & Hil & Hir & Sl & Sr), Hu as (Ul & Ur & Al & Ar).
    destruct (levels_bin o Ho) as [Ec Ep]. pose proof (in_or_app binops unops o (or_introl Ho)) as Hp.
    split; [exact Ho|]. split; [rewrite Ec; exact Hq|]. split.
    + apply IHl; auto. apply (child_fits o); auto using lctx_le_plevel.
    + apply IHr; auto. apply (child_fits o); auto using Nat.eq_le_incl.
  - destruct Hi as (Ho & Hf & (Hi1 & S1) & His), Hu as (U1 & A1 & Us).
    destruct (levels_bin o Ho) as [Ec Ep]. pose proof (in_or_app binops unops o (or_introl Ho)) as Hp.
    (* a flattening operator is not non-associative in the backend: the chain is read left-nested *)
    assert (Hl : g_lctx Bk o = g_lbp Bk o) by (unfold g_lctx, g_lbp; rewrite (compat_flat o Ho Hf); reflexivity).
    apply ok_weaken with (g_lctx Bk o); [rewrite Hl, Ec; exact Hq|].
    assert (H1 : okB (g_lctx Bk o) (lower e1)) by (apply IH1; auto; apply (child_fits o); auto using lctx_le_plevel).
    clear IH1 Hq. revert H1. generalize (lower e1) as acc.
    induction IHes as [|y es Hy _ IH]; intros acc Hacc; cbn [fold_left]; [exact Hacc|].
    destruct His as ((Hiy & Sy) & His), Us as (Uy & Ay & Us). apply IH; auto.
    cbn [ok]. split; [exact Ho|]. split; [rewrite Hl; apply le_n|]. split; [exact Hacc|].
    apply Hy; auto. apply (child_fits o); auto using Nat.eq_le_incl.
  - destruct Hi as (Hun & Hie & Se), Hu as (Ue & Ae).
    destruct (levels_un u Hun) as [Ec Ep]. pose proof (in_or_app binops unops u (or_intror Hun)) as Hp.
    split; [exact Hun|]. split; [rewrite Ec; exact Hq|].
    apply IHe; auto. apply (child_fits u); auto using Nat.eq_le_incl.
  - apply IHe; auto using fitsq_0.
Qed.

(* T_left; against a prefix operator it needs [btab_ok] *)
Lemma G_left : forall o, In o binops ->
  stops (g_lbp Bk) (g_rbp Bk) (g_pbp Bk) binops unops (g_ulev Bk) (g_lctx Bk o) o.
Proof.
  intros o Ho. unfold stops. split.
  - intros o1 _ Hle. unfold g_rbp, g_lbp, g_lctx in *. destruct (b_nonassoc Bk o); lia.
  - intros u Hu Hle. pose proof (compat_btab o u Ho Hu) as Hne.
    unfold g_ulev, g_pbp, g_lbp, g_lctx in *. destruct (b_nonassoc Bk o); lia.
Qed.

Theorem c01_structure : neg_wf T = true -> forall t, wf_u t -> uses (construct T t) ->
  exists f, parse (g_lbp Bk) (g_rbp Bk) (g_pbp Bk) f 0 (render (construct T t))
            = Some (erase (lower (construct T t)), []).
Proof.
  intros Hn t Hw Hu. rewrite <- render_lower.
  apply (parse_flat_top (g_lbp Bk) (g_rbp Bk) (g_pbp Bk) binops unops (g_lctx Bk) (g_rctx Bk) (g_uctx Bk) (g_ulev Bk)).
  1-5: intros x _; unfold g_rbp, g_rctx, g_lbp, g_lctx, g_pbp, g_uctx, g_ulev; try destruct (b_nonassoc Bk x); lia.
  - exact G_left.
  - apply ok_lower; [apply construct_inv; assumption|exact Hu|apply fitsq_0].
Qed.

End Main.

Lemma al_all p y : al allowed_all p y.
Proof. unfold al. destruct (op_of y); reflexivity || exact I. Qed.

Lemma uses_all : forall x, uses allowed_all x.
Proof.
  induction x as [n|o l r IHl IHr|o e1 es IH1 IHes|u e IHe|e IHe] using sx_ind'; cbn [uses];
    auto using al_all.
  split; [exact IH1|]. split; [apply al_all|].
  induction IHes as [|y es Hy _ IH]; auto using al_all.
Qed.
