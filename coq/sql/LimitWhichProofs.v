(* C18 - the form chosen by each dialect returns the requested slice; the DISTINCT defect of the
   MSSQL ROW_NUMBER() wrapper *)
From Coq Require Import List ZArith Bool Lia Permutation Sorted.
Import ListNotations.
From SAV.sql Require Import Limit LimitListProofs LimitFormProofs.
Open Scope Z_scope.

Section Wrappers.
Variable A : Type.
Variable eqA : A -> A -> bool.
Variable eqk : A -> A -> bool.
Variable reorder : list A -> list A.
Notation exec := (exec A eqA eqk reorder).
Notation result := (result A eqA).

Definition mssql_plan (lim off : option Z) : plan :=
  PRowNumber (preds_on MssqlRn (mssql_tr (is_some lim) (is_some off))) lim off.
Definition oracle_plan (lim off : option Z) : plan :=
  PRowNum (preds_on RowNum (oracle_tr (is_some lim) (is_some off)))
          (if is_some off then Some (preds_on OraRn (oracle_tr (is_some lim) (is_some off))) else None)
          lim off.

(* what the predicates of either translate_select_structure say of a row number counted from 1: it
   lies in the window (off, lim + off] *)
Lemma mssql_tr_window : forall lim off rn, is_some lim || is_some off = true -> 1 <= rn ->
  preds_hold lim off (preds_on MssqlRn (mssql_tr (is_some lim) (is_some off))) rn
  = window (opt0 off) lim rn.
Proof.
  intros [l|] [o|] rn H Hrn; try discriminate H; cbn -[Z.ltb Z.leb Z.add]; unfold window; cbn [opt0]; lia.
Qed.

Lemma oracle_tr_window : forall lim off rn, 1 <= rn ->
  preds_hold lim off (preds_on RowNum (oracle_tr (is_some lim) (is_some off))) rn &&
  preds_hold lim off (preds_on OraRn (oracle_tr (is_some lim) (is_some off))) rn
  = window (opt0 off) lim rn.
Proof.
  intros [l|] [o|] rn Hrn; cbn -[Z.ltb Z.leb Z.add]; unfold window; cbn [opt0]; lia.
Qed.

(* what the MSSQL wrapper computes is the slice of the rows BEFORE DISTINCT, since with mssql_rn among
   its columns DISTINCT removes nothing *)
Lemma mssql_plan_before_distinct : forall lim off distinct pre,
  is_some lim || is_some off = true -> 0 <= opt0 off ->
  exec (mssql_plan lim off) distinct pre = reorder (slice (opt0 off) lim pre).
Proof.
  intros lim off distinct pre Hsome Ho. unfold mssql_plan. cbn [Limit.exec]. f_equal.
  replace (if distinct then dedup (eqP A eqA) (number 1 pre) else number 1 pre) with (number 1 pre)
    by (destruct distinct; [now rewrite dedup_number|reflexivity]).
  rewrite <- number_window by assumption. f_equal. apply filter_ext_in.
  intros xr Hin. apply number_snd_ge in Hin. now apply mssql_tr_window.
Qed.

Lemma mssql_plan_guarded : forall lim off distinct pre,
  is_some lim || is_some off = true -> 0 <= opt0 off ->
  negb distinct || nodupb A eqA pre = true ->
  exec (mssql_plan lim off) distinct pre = reorder (slice (opt0 off) lim (result distinct pre)).
Proof.
  intros lim off distinct pre H1 H3 Hg. rewrite mssql_plan_before_distinct by assumption.
  f_equal. destruct distinct; cbn [negb orb Limit.result] in *; [|reflexivity]. now rewrite nodupb_dedup.
Qed.

(* Oracle: the ROWNUM predicate, ROWNUM <= lim [+ off] if any, is downward closed, so the inner level
   filters a numbered list as well; together with ora_rn > off outside, the same window *)
Lemma oracle_plan_slice : forall lim off distinct pre, 0 <= opt0 off ->
  exec (oracle_plan lim off) distinct pre = reorder (slice (opt0 off) lim (result distinct pre)).
Proof.
  intros lim off distinct pre Ho. unfold oracle_plan. cbn [Limit.exec].
  generalize (result distinct pre). intros rows.
  set (tr := oracle_tr (is_some lim) (is_some off)).
  pose (inner := fun xr : A * Z => preds_hold lim off (preds_on RowNum tr) (snd xr)).
  pose (outer := fun xr : A * Z => preds_hold lim off (preds_on OraRn tr) (snd xr)).
  assert (W : forall xr, In xr (number 1 rows) -> inner xr && outer xr = window (opt0 off) lim (snd xr))
    by (intros xr Hin; apply number_snd_ge in Hin; now apply oracle_tr_window).
  rewrite rownum_filter_down by (subst tr; destruct lim, off; cbn -[Z.leb Z.add]; intros; lia).
  rewrite <- number_window, <- (filter_ext_in _ _ _ W), filter_and by assumption. fold inner.
  destruct off as [o|]; [reflexivity|].
  (* no outer level, and nothing it would have to check *)
  now rewrite (filter_all _ outer) by (intros; subst outer tr; now destruct lim).
Qed.
End Wrappers.

Lemma is_some_val : forall c, is_some (val c) = is_some c.
Proof. intros [c|]; reflexivity. Qed.

Lemma lim_val_limit_or_fetch : forall s, opt0 (val (get_limit_or_fetch s)) = lim_val s.
Proof.
  intros s. unfold get_limit_or_fetch, fetch_clause, limit_clause, lim_val. destruct (s_lim s); reflexivity.
Qed.

Lemma has_row_limiting_limit_or_fetch : forall s,
  has_row_limiting s = is_some (get_limit_or_fetch s) || is_some (s_off s).
Proof.
  intros s. unfold has_row_limiting, get_limit_or_fetch, fetch_clause, limit_clause.
  destruct (s_lim s), (s_off s); reflexivity.
Qed.

Lemma fetch_clause_none : forall s, fetch_clause s = None ->
  get_limit_or_fetch s = limit_clause s /\ fetch_percent s = false /\ fetch_ties s = false.
Proof.
  intros s. unfold get_limit_or_fetch, fetch_clause, fetch_percent, fetch_ties.
  destruct (s_lim s); try discriminate; auto.
Qed.

Lemma use_top_inv : forall s, use_top s = true ->
  s_off s = None /\ exists c, get_limit_or_fetch s = Some c.
Proof.
  intros s H. unfold use_top, get_limit_or_fetch, simple_int in *.
  destruct (s_off s); [discriminate|]. split; [reflexivity|].
  destruct (fetch_clause s); [eauto|]. destruct (limit_clause s); [eauto|discriminate].
Qed.

Lemma can_use_fetch_limit_inv : forall s, check_can_use_fetch_limit s = None ->
  s_ordered s = true /\ fetch_percent s = false /\ fetch_ties s = false.
Proof.
  intros s. unfold check_can_use_fetch_limit.
  destruct (s_ordered s), (fetch_percent s), (fetch_ties s); try discriminate; auto.
Qed.

Definition native (d : dialect) : Prop := match d with MSSQL _ | Oracle _ => False | _ => True end.

Lemma generic_row_limit_native : forall fn s,
  (forall lo, wrapped (fn lo) = false /\ is_error (fn lo) = false /\ fn lo <> PNone) ->
  wrapped (generic_row_limit fn s) = false /\ is_error (generic_row_limit fn s) = false /\
  (has_row_limiting s = true -> generic_row_limit fn s <> PNone).
Proof.
  intros fn s Hfn.
  assert (G : forall lo, wrapped (fn lo) = false /\ is_error (fn lo) = false /\
                         (has_row_limiting s = true -> fn lo <> PNone))
    by (intros lo; destruct (Hfn lo) as (W & E & N); auto).
  unfold generic_row_limit, val. destruct (fetch_clause s) eqn:Ef; [easy|].
  destruct (limit_clause s) eqn:El; [apply G|]. destruct (s_off s) eqn:Eo; [apply G|].
  unfold has_row_limiting. rewrite Ef, El, Eo. easy.
Qed.

Lemma native_form : forall d s, native d ->
  wrapped (which_form d s) = false /\ is_error (which_form d s) = false /\
  (has_row_limiting s = true -> which_form d s <> PNone).
Proof.
  intros d s Hd. destruct d; try contradiction; apply generic_row_limit_native; intros [l [o|]|o]; easy.
Qed.

Section Which.
Variable A : Type.
Variable eqA : A -> A -> bool.
Variable eqk : A -> A -> bool.
Variable reorder : list A -> list A.
Variable lek : A -> A -> bool.
Hypothesis lek_trans : forall a b c, lek a b = true -> lek b c = true -> lek a c = true.
Hypothesis eqk_def : forall a b, eqk a b = lek a b && lek b a.

Notation exec := (exec A eqA eqk reorder).
Notation result := (result A eqA).
Notation spec := (spec A eqA eqk).
Notation sorted := (StronglySorted (fun a b => lek a b = true)).

Definition lo_spec (lo : lim_off) (rows : list A) : list A :=
  match lo with
  | LO_limit l o => slice (opt0 o) (Some l) rows
  | LO_offset o => slice o None rows
  end.
Definition lo_nonneg (lo : lim_off) : Prop :=
  match lo with LO_limit l o => 0 <= l /\ 0 <= opt0 o | LO_offset o => 0 <= o end.

Lemma default_limit_ok : forall lo distinct pre, lo_nonneg lo ->
  exec (default_limit_clause lo) distinct pre = lo_spec lo (result distinct pre).
Proof.
  intros [l o|o] distinct pre H; cbn [default_limit_clause lo_spec].
  - apply limit_eq_slice. apply H.
  - now rewrite limit_negative_eq_slice.
Qed.

Lemma sqlite_limit_ok : forall lo distinct pre, lo_nonneg lo ->
  exec (sqlite_limit_clause lo) distinct pre = lo_spec lo (result distinct pre).
Proof.
  intros [l [o|]|o] distinct pre H; cbn [sqlite_limit_clause lo_spec].
  - apply limit_eq_slice. apply H.
  - rewrite limit_eq_slice by apply H. reflexivity.
  - rewrite limit_negative_eq_slice by (unfold sqlite_no_limit; lia). reflexivity.
Qed.

Lemma pg_limit_ok : forall lo distinct pre, lo_nonneg lo ->
  exec (pg_limit_clause lo) distinct pre = lo_spec lo (result distinct pre).
Proof.
  intros [l o|o] distinct pre H; cbn [pg_limit_clause lo_spec].
  - apply limit_eq_slice. apply H.
  - apply limit_all_eq_slice.
Qed.

Lemma mysql_limit_ok : forall lo distinct pre, lo_nonneg lo ->
  Z.of_nat (length (result distinct pre)) <= mysql_no_limit ->
  exec (mysql_limit_clause lo) distinct pre = lo_spec lo (result distinct pre).
Proof.
  intros [l [o|]|o] distinct pre H Hb; cbn [mysql_limit_clause lo_spec].
  - apply mysql_eq_slice.
  - apply mysql_eq_slice.
  - apply mysql_no_limit_iff; [exact H|]. cbn [lo_nonneg] in H. lia.
Qed.

Lemma nonneg_vals : forall s, nonneg s = true -> 0 <= lim_val s /\ 0 <= opt0 (val (s_off s)).
Proof. intros s H. unfold nonneg in H. apply andb_prop in H. lia. Qed.

Lemma slice_0_none : forall rows : list A, slice 0 None rows = rows.
Proof. reflexivity. Qed.

Lemma unlimited_spec : forall s pre, has_row_limiting s = false -> spec s pre = result (s_distinct s) pre.
Proof.
  intros s pre. unfold has_row_limiting, Limit.spec, limit_clause, fetch_clause.
  destruct (s_lim s), (s_off s); try discriminate; reflexivity.
Qed.

(* The yardstick: [OFFSET o ROWS] [FETCH FIRST n [PERCENT] ROWS ONLY | WITH TIES], carrying every
   clause and option of the statement, is what was asked for.  Each form a dialect renders is
   compared with this one. *)
Lemma fetch_form_spec : forall s pre, (fetch_ties s = true -> sorted pre) ->
  fetch_sem A eqk (val (s_off s)) (val (get_limit_or_fetch s)) (fetch_percent s) (fetch_ties s)
    (result (s_distinct s) pre) = spec s pre.
Proof.
  intros s pre Hs. unfold Limit.spec, get_limit_or_fetch, fetch_clause, limit_clause, fetch_percent, fetch_ties in *.
  destruct (s_lim s) as [|c|c p t]; cbn [val option_map fetch_sem].
  - now rewrite slice_none.
  - now rewrite slice_some.
  - apply (fetch_sem_spec A eqk lek lek_trans eqk_def). intros Ht. apply sorted_result. now apply Hs.
Qed.

Lemma plain_spec : forall s pre, fetch_percent s = false -> fetch_ties s = false ->
  slice (opt0 (val (s_off s))) (val (get_limit_or_fetch s)) (result (s_distinct s) pre) = spec s pre.
Proof.
  intros s pre Hp Ht. rewrite <- fetch_form_spec by (rewrite Ht; discriminate).
  rewrite Hp, Ht. symmetry. apply (offset_fetch_eq_slice A eqA eqk reorder).
Qed.

(* SQLCompiler._row_limit_clause over any dialect limit_clause() that is right on its own *)
Lemma generic_ok : forall limit_fn s pre,
  (forall lo, lo_nonneg lo ->
     exec (limit_fn lo) (s_distinct s) pre = lo_spec lo (result (s_distinct s) pre)) ->
  0 <= lim_val s -> 0 <= opt0 (val (s_off s)) -> (fetch_ties s = true -> sorted pre) ->
  exec (generic_row_limit limit_fn s) (s_distinct s) pre = spec s pre.
Proof.
  intros limit_fn s pre Hfn Hl Ho Hs. unfold generic_row_limit.
  destruct (fetch_clause s) as [f|] eqn:Ef.
  - rewrite <- fetch_form_spec by assumption. unfold get_limit_or_fetch. now rewrite Ef.
  - destruct (fetch_clause_none s Ef) as (Eg & Ep & Et). rewrite <- plain_spec by assumption.
    rewrite <- lim_val_limit_or_fetch in Hl. rewrite Eg in *.
    destruct (val (limit_clause s)) as [l|]; [now rewrite Hfn|].
    destruct (val (s_off s)) as [o|]; [now rewrite Hfn|reflexivity].
Qed.

(* the rows as the outermost SELECT hands them on: in its own order when the form is a wrapper *)
Definition via_outer_select (d : dialect) (s : sel) (l : list A) : list A :=
  if wrapped (which_form d s) then reorder l else l.

(* branch by branch: nothing to render; TOP is the yardstick without OFFSET; otherwise, PERCENT and
   WITH TIES being refused, OFFSET .. FETCH or the wrapper, which is right under the guard *)
Lemma mssql_ok : forall b s pre, 0 <= opt0 (val (s_off s)) -> is_error (mssql_form b s) = false ->
  (fetch_ties s = true -> sorted pre) ->
  guard eqA (MSSQL b) s pre = true ->
  exec (mssql_form b s) (s_distinct s) pre = via_outer_select (MSSQL b) s (spec s pre).
Proof.
  intros b s pre Ho Herr Hs Hg. unfold via_outer_select, guard in *. cbn [which_form] in *. revert Herr Hg.
  unfold mssql_form. destruct (has_row_limiting s) eqn:Hrl; cbn [negb].
  2: { intros _ _. now rewrite unlimited_spec. }
  destruct (use_top s) eqn:Ht.
  { intros _ _. rewrite <- fetch_form_spec by assumption.
    destruct (use_top_inv s Ht) as (-> & c & ->). reflexivity. }
  destruct (check_can_use_fetch_limit s) eqn:Hc; [discriminate|].
  destruct (can_use_fetch_limit_inv s Hc) as (_ & Ep & Et). rewrite <- plain_spec by assumption.
  destruct b; cbn [wrapped]; intros _ Hg.
  - apply (offset_fetch_eq_slice A eqA eqk reorder (Some _)).
  - rewrite has_row_limiting_limit_or_fetch in Hrl.
    rewrite <- (is_some_val (get_limit_or_fetch s)), <- (is_some_val (s_off s)) in *.
    now apply mssql_plan_guarded.
Qed.

Lemma oracle_ok : forall b s pre, 0 <= opt0 (val (s_off s)) ->
  (fetch_ties s = true -> sorted pre) ->
  exec (oracle_form b s) (s_distinct s) pre = via_outer_select (Oracle b) s (spec s pre).
Proof.
  intros b s pre Ho Hs. unfold via_outer_select. cbn [which_form]. unfold oracle_form.
  destruct (has_row_limiting s) eqn:Hrl; cbn [negb]; [|now rewrite unlimited_spec].
  destruct (fetch_clause s) as [f|] eqn:Ef.
  - rewrite <- fetch_form_spec by assumption. unfold get_limit_or_fetch. now rewrite Ef.
  - destruct (fetch_clause_none s Ef) as (Eg & Ep & Et). rewrite <- plain_spec by assumption.
    rewrite Eg. destruct b; cbn [wrapped].
    + apply offset_fetch_eq_slice.
    + rewrite <- (is_some_val (limit_clause s)), <- (is_some_val (s_off s)). now apply oracle_plan_slice.
Qed.

(* whatever form the dialect picks, the database returns the requested slice - as a list
   for the native forms, through the wrapper's outer SELECT ([reorder]) for the emulations *)
Theorem which_form_exec : forall d s pre,
  nonneg s = true ->
  is_error (which_form d s) = false ->
  guard eqA d s pre = true ->
  (d = MySQL -> Z.of_nat (length (result (s_distinct s) pre)) <= mysql_no_limit) ->
  (fetch_ties s = true -> sorted pre) ->
  exec (which_form d s) (s_distinct s) pre = via_outer_select d s (spec s pre).
Proof.
  intros d s pre Hn Herr Hg Hmy Hs. apply nonneg_vals in Hn as [Hl Ho]. assert (N := native_form d s).
  destruct d; [| | | |now apply mssql_ok|now apply oracle_ok].
  (* the native dialects: never wrapped, _row_limit_clause over their own limit_clause() *)
  all: unfold via_outer_select; rewrite (proj1 (N I)); apply generic_ok; auto; intros lo Hlo.
  - now apply default_limit_ok.
  - now apply sqlite_limit_ok.
  - apply mysql_limit_ok; auto.
  - now apply pg_limit_ok.
Qed.

(* as lists: native forms always; wrappers only if the outer SELECT keeps the derived table's order *)
Theorem which_form_list : forall d s pre,
  (wrapped (which_form d s) = true -> forall l, reorder l = l) ->
  nonneg s = true ->
  is_error (which_form d s) = false ->
  guard eqA d s pre = true ->
  (d = MySQL -> Z.of_nat (length (result (s_distinct s) pre)) <= mysql_no_limit) ->
  (fetch_ties s = true -> sorted pre) ->
  exec (which_form d s) (s_distinct s) pre = spec s pre.
Proof.
  intros d s pre Hr Hn Herr Hg Hmy Hs. rewrite which_form_exec by assumption.
  unfold via_outer_select. destruct (wrapped (which_form d s)); [now apply Hr|reflexivity].
Qed.

End Which.

(* the decision is total and only fails where the code raises CompileError: MSSQL without usable TOP
   and either no ORDER BY or PERCENT / WITH TIES *)
Theorem which_form_error_iff : forall d s,
  is_error (which_form d s) = true <->
  exists b, d = MSSQL b /\ has_row_limiting s = true /\ use_top s = false /\
            (s_ordered s = false \/ fetch_percent s || fetch_ties s = true).
Proof.
  intros d s. split.
  - assert (N := native_form d s). destruct d as [| | | |b|b].
    1-4: intros H; now rewrite (proj1 (proj2 (N I))) in H.
    + intros H. exists b. split; [reflexivity|]. revert H. cbn [which_form]. unfold mssql_form, check_can_use_fetch_limit.
      destruct (has_row_limiting s); cbn [negb]; [|discriminate].
      destruct (use_top s); [discriminate|].
      destruct (s_ordered s); cbn [negb]; [|auto].
      destruct (fetch_percent s || fetch_ties s); [auto|]. destruct b; discriminate.
    + cbn [which_form]. unfold oracle_form. destruct (negb (has_row_limiting s)); [discriminate|].
      destruct (fetch_clause s); [discriminate|]. destruct b; discriminate.
  - intros (b & -> & H1 & H2 & H3). cbn [which_form]. unfold mssql_form, check_can_use_fetch_limit.
    rewrite H1, H2. cbn [negb]. destruct H3 as [-> | H3]; [reflexivity|].
    destruct (s_ordered s); cbn [negb]; [|reflexivity]. now rewrite H3.
Qed.

(* The defect: SELECT DISTINCT x .. ORDER BY x LIMIT 3 OFFSET 4 on MSSQL < 2012.  mssql_rn is put
   inside the DISTINCT, every row becomes distinct, and the slice is cut from the NON-distinct rows. *)
Definition refute_pre : list Z := [0; 0; 1; 1; 2; 2; 2; 3; 3; 4; 4; 4].
Definition refute_sel : sel :=
  Sel (Limit (Clause true 3)) (Some (Clause true 4)) true true.

Lemma refuted_values : forall reorder,
  exec Z Z.eqb Z.eqb reorder (which_form (MSSQL false) refute_sel) true refute_pre = reorder [2; 2; 2]
  /\ spec Z Z.eqb Z.eqb refute_sel refute_pre = [4].
Proof. intros. split; vm_compute; reflexivity. Qed.

Theorem mssql_rownumber_distinct_refuted :
  exists (s : sel) (pre : list Z), nonneg s = true /\ s_ordered s = true /\
    StronglySorted (fun a b => (a <=? b) = true) pre /\
    forall reorder, (forall l, Permutation (reorder l) l) ->
      ~ Permutation (exec Z Z.eqb Z.eqb reorder (which_form (MSSQL false) s) (s_distinct s) pre)
                    (spec Z Z.eqb Z.eqb s pre).
Proof.
  exists refute_sel, refute_pre. split; [reflexivity|]. split; [reflexivity|]. split.
  - unfold refute_pre. repeat (constructor; [|repeat (constructor; [reflexivity|]); constructor]). constructor.
  - intros reorder Hr HP. destruct (refuted_values reorder) as [E1 E2].
    change (s_distinct refute_sel) with true in HP. rewrite E1, E2 in HP.
    apply Permutation_length in HP. rewrite (Permutation_length (Hr _)) in HP. discriminate.
Qed.
