(* Lemmas about three-valued logic (Val3.v). *)
From Coq Require Import List ZArith NArith Bool.
Import ListNotations.
From SAV.sql Require Import Val3.

Lemma and3_comm a b : and3 a b = and3 b a.
Proof. destruct a, b; reflexivity. Qed.
Lemma or3_comm a b : or3 a b = or3 b a.
Proof. destruct a, b; reflexivity. Qed.
Lemma and3_assoc a b c : and3 a (and3 b c) = and3 (and3 a b) c.
Proof. destruct a, b, c; reflexivity. Qed.
Lemma or3_assoc a b c : or3 a (or3 b c) = or3 (or3 a b) c.
Proof. destruct a, b, c; reflexivity. Qed.
Lemma not3_invol a : not3 (not3 a) = a.
Proof. destruct a; reflexivity. Qed.
Lemma not3_and3 a b : not3 (and3 a b) = or3 (not3 a) (not3 b).
Proof. destruct a, b; reflexivity. Qed.
Lemma not3_or3 a b : not3 (or3 a b) = and3 (not3 a) (not3 b).
Proof. destruct a, b; reflexivity. Qed.
Lemma and3_TT_l a : and3 TT a = a.
Proof. destruct a; reflexivity. Qed.
Lemma and3_TT_r a : and3 a TT = a.
Proof. destruct a; reflexivity. Qed.
Lemma and3_TF_r a : and3 a TF = TF.
Proof. destruct a; reflexivity. Qed.
Lemma or3_TF_l a : or3 TF a = a.
Proof. destruct a; reflexivity. Qed.
Lemma or3_TF_r a : or3 a TF = a.
Proof. destruct a; reflexivity. Qed.
Lemma or3_TT_r a : or3 a TT = TT.
Proof. destruct a; reflexivity. Qed.

Lemma text_eqb_refl s : text_eqb s s = true.
Proof. induction s as [|x s IH]; cbn [text_eqb]; [reflexivity|]. now rewrite N.eqb_refl, IH. Qed.
Lemma text_eqb_eq a b : text_eqb a b = true <-> a = b.
Proof.
  revert b; induction a as [|x a IH]; intros [|y b]; cbn [text_eqb]; split; intro H; try reflexivity; try discriminate.
  - apply andb_true_iff in H as [H1 H2]. apply N.eqb_eq in H1. apply IH in H2. now subst.
  - inversion H; subst. now rewrite N.eqb_refl, text_eqb_refl.
Qed.

Lemma eq3_null_l b : eq3 SNull b = TU.
Proof. reflexivity. Qed.
Lemma eq3_null_r a : eq3 a SNull = TU.
Proof. destruct a; reflexivity. Qed.

Lemma and3_list_app l1 l2 : and3_list (l1 ++ l2) = and3 (and3_list l1) (and3_list l2).
Proof.
  unfold and3_list. induction l1 as [|a l1 IH]; cbn [app fold_right].
  - now rewrite and3_TT_l.
  - now rewrite IH, and3_assoc.
Qed.
