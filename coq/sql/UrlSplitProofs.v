(* C20 - the regex splitter inverts the assembly of well-formed literal components
   ("no text moves between components") *)
From Coq Require Import List NArith ZArith Bool Lia ZifyBool.
Import ListNotations.
From SAV.sql Require Import UrlCodec Url UrlListProofs.
Open Scope N_scope.

Definition opt_pre (c : N) (o : option str) : str := match o with Some s => c :: s | None => [] end.
Definition opt_id (o : option str) : str := match o with Some s => s | None => [] end.

Definition asm_userinfo (us pw : option str) : str :=
  match us with
  | None => []
  | Some u => u ++ opt_pre 58 pw ++ [64]
  end.

(* the string made of the literal components, laid out as render_as_string lays them out *)
Definition assemble (c : comps) : str :=
  c_drv c ++ [58; 47; 47] ++ asm_userinfo (c_user c) (c_pass c) ++ opt_id (c_host c)
  ++ opt_pre 58 (c_port c) ++ opt_pre 47 (c_db c) ++ opt_pre 63 (c_query c).

(* literal host text: "[...]" with a non-empty inside, or a bare text without ':' not starting with '[' *)
Definition host_lit_ok (o : option str) : bool :=
  match o with
  | None => true
  | Some t =>
    forallb (fun c => negb (c =? 47) && negb (c =? 63) && negb (c =? 64)) t &&
    match t with
    | [] => false
    | c :: r =>
      if c =? 91 then match rsplit 93 r with Some (a, []) => negb (is_nil a) | _ => false end
      else forallb (nb 58) t
    end
  end.

Definition user_ch (x : N) : bool := negb (x =? 58) && negb (x =? 47).
Definition port_ch (x : N) : bool := negb (x =? 47) && negb (x =? 63) && negb (x =? 64) && negb (x =? 93).
Definition db_ch (x : N) : bool := negb (x =? 63) && negb (x =? 64).
Definition query_ch (x : N) : bool := negb (x =? 10) && negb (x =? 64).

(* side conditions on each literal component, each about that component alone *)
Definition comp_ok (uw : N -> bool) (c : comps) : bool :=
  negb (is_nil (c_drv c)) && forallb (wordch uw) (c_drv c)
  && opt_all user_ch (c_user c)
  && opt_all (nb 64) (c_pass c)
  && (negb (has_some (c_pass c)) || has_some (c_user c))
  && host_lit_ok (c_host c)
  && opt_all port_ch (c_port c)
  && opt_all db_ch (c_db c)
  && opt_all query_ch (c_query c).

Definition strip_host (c : comps) : comps :=
  mkComps (c_drv c) (c_user c) (c_pass c) (dec_host (c_host c)) (c_port c) (c_db c) (c_query c).

Lemma opt_all_impl : forall (p q : N -> bool) o,
  (forall x, p x = true -> q x = true) -> opt_all p o = true -> opt_all q o = true.
Proof. intros p q [s|] Hpq; [exact (forallb_impl p q s Hpq) | reflexivity]. Qed.

Lemma pre_all : forall (p q : N -> bool) c o,
  q c = true -> (forall x, p x = true -> q x = true) -> opt_all p o = true -> forallb q (opt_pre c o) = true.
Proof.
  intros p q c [s|] Hc Hpq Ho; [|reflexivity]. cbn [opt_pre forallb]. rewrite Hc. exact (forallb_impl p q s Hpq Ho).
Qed.

Lemma stops_pre : forall (p : N -> bool) c o R, p c = false -> stops p R -> stops p (opt_pre c o ++ R).
Proof. intros p c [s|] R Hc HR; [exact Hc | exact HR]. Qed.

Lemma stops_pre_last : forall (p : N -> bool) c o, p c = false -> stops p (opt_pre c o).
Proof. intros p c [s|] Hc; [exact Hc | exact I]. Qed.

(* port, database and query are groups of the shape  (?: c (?P<g>[p]* ) )?  *)
Definition split_pre (c : N) (p : N -> bool) (r : str) : option str * str :=
  match r with
  | x :: r' => if x =? c then let (g, rest) := span p r' in (Some g, rest) else (None, r)
  | [] => (None, r)
  end.

(* the delimiter is itself in the class, so what follows does not begin with it and a missing group is seen as missing *)
Lemma split_pre_ok : forall c p o R, p c = true -> opt_all p o = true -> stops p R ->
  split_pre c p (opt_pre c o ++ R) = (o, R).
Proof.
  intros c p [s|] R Hc Ho HR; cbn [opt_pre List.app split_pre].
  - rewrite N.eqb_refl, (span_here p s R Ho HR). reflexivity.
  - destruct R as [|x R]; [reflexivity|]. cbn in HR. cbn [split_pre].
    destruct (N.eqb_spec x c) as [->|_]; [congruence | reflexivity].
Qed.

Definition run_ch (x : N) : bool := negb (x =? 47) && negb (x =? 63).   (* [^/?] *)

Lemma split_port_ok : forall p R, opt_all port_ch p = true -> stops run_ch R ->
  split_port (opt_pre 58 p ++ R) = (p, R).
Proof.
  intros p R Hp HR. apply (split_pre_ok 58 run_ch); [reflexivity | | exact HR].
  revert Hp. apply opt_all_impl. intros x Hx. unfold port_ch in Hx. unfold run_ch. lia.
Qed.

Lemma split_db_ok : forall d Q, opt_all db_ch d = true -> stops (nb 63) Q ->
  split_db (opt_pre 47 d ++ Q) = (d, Q).
Proof.
  intros d Q Hd HQ. apply (split_pre_ok 47 (nb 63)); [reflexivity | | exact HQ].
  revert Hd. apply opt_all_impl. intros x Hx. unfold db_ch in Hx. unfold nb. lia.
Qed.

Lemma split_query_ok : forall q, opt_all query_ch q = true -> split_query (opt_pre 63 q) = q.
Proof.
  intros [q|] Hq; [|reflexivity]. cbn [opt_pre split_query]. rewrite N.eqb_refl, span_all_id; [reflexivity|].
  revert Hq. apply forallb_impl. intros x Hx. unfold query_ch in Hx. unfold nb. lia.
Qed.

Lemma dec_host_bare : forall c r, c <> 91 -> dec_host (@Some str (c :: r)) = @Some str (c :: r).
Proof.
  intros c r Hne. cbn [dec_host]. destruct c as [|pc]; [reflexivity|].
  (* [dec_host] matches on the numeral 91: split the positive until it differs from it *)
  repeat (destruct pc as [pc|pc|]; try reflexivity); contradiction Hne; reflexivity.
Qed.

Definition bare_ch (x : N) : bool := negb (x =? 47) && negb (x =? 58) && negb (x =? 63).   (* [^/:?] *)

Lemma split_host_bare : forall t T, forallb bare_ch t = true -> stops bare_ch T ->
  match t ++ T with x :: _ => x <> 91 | [] => True end ->
  split_host (t ++ T) = (if is_nil t then None else Some t, T).
Proof.
  intros t T Ht HT H91. unfold split_host. fold bare_ch. rewrite (span_here bare_ch t T Ht HT).
  destruct (t ++ T) as [|x r] eqn:E.
  - apply app_eq_nil in E as [-> ->]. reflexivity.
  - destruct (N.eqb_spec x 91) as [->|_]; [contradiction|]. destruct t; [rewrite <- E|]; reflexivity.
Qed.

(* the last ']' of the run closes the bracket *)
Lemma split_host_bracket : forall a q R, is_nil a = false ->
  forallb run_ch a = true -> forallb run_ch q = true -> forallb (nb 93) q = true -> stops run_ch R ->
  split_host (91 :: a ++ 93 :: q ++ R) = (Some a, q ++ R).
Proof.
  intros a q R Hnn Ha Hq Hq93 HR. unfold split_host. fold run_ch. rewrite N.eqb_refl.
  replace (a ++ 93 :: q ++ R) with ((a ++ 93 :: q) ++ R) by (rewrite <- app_assoc; reflexivity).
  rewrite span_here, (rsplit_app 93 a q Hq93), Hnn; [reflexivity | | exact HR].
  rewrite forallb_app, Ha. exact Hq.
Qed.

Lemma split_host_ok : forall h p R, host_lit_ok h = true -> opt_all port_ch p = true ->
  stops run_ch R -> stops bare_ch R ->
  split_host (opt_id h ++ opt_pre 58 p ++ R) = (dec_host h, opt_pre 58 p ++ R).
Proof.
  intros h p R Hh Hp HR HRb. pose proof (stops_pre bare_ch 58 p R eq_refl HRb) as HT.
  destruct h as [[|c r]|]; [discriminate | |].
  2:{ apply (split_host_bare [] _ eq_refl HT). cbn [List.app].
      destruct (opt_pre 58 p ++ R); [exact I|]. intros ->. discriminate HT. }
  cbn [host_lit_ok] in Hh. apply andb_true_iff in Hh as [Hch Hh]. cbn [opt_id].
  destruct (N.eqb_spec c 91) as [->|Hne].
  - destruct (rsplit 93 r) as [[a b]|] eqn:E; [|discriminate]. destruct b; [|discriminate].
    cbn [dec_host]. rewrite E. destruct (rsplit_spec _ _ _ _ E) as [-> _]. clear E.
    cbn [forallb] in Hch. rewrite forallb_app in Hch.
    apply andb_true_iff in Hch as [_ Hch]. apply andb_true_iff in Hch as [Hch _].
    cbn [List.app]. rewrite <- app_assoc. cbn [List.app].
    apply split_host_bracket; [apply negb_true_iff, Hh | | | | exact HR].
    + revert Hch. apply forallb_impl. intros x Hx. unfold run_ch. lia.
    + revert Hp. apply pre_all; [reflexivity|]. intros x Hx. unfold port_ch in Hx. unfold run_ch. lia.
    + revert Hp. apply pre_all; [reflexivity|]. intros x Hx. unfold port_ch in Hx. unfold nb. lia.
  - rewrite (dec_host_bare c r Hne). apply (split_host_bare (c :: r)); [| exact HT | exact Hne].
    destruct (c =? 91) eqn:E; [apply N.eqb_eq in E; contradiction|].
    clear - Hch Hh. apply forallb_forall. intros x Hx. rewrite forallb_forall in Hch, Hh.
    specialize (Hch x Hx). specialize (Hh x Hx). unfold bare_ch. unfold nb in Hh. lia.
Qed.

(* The [match after] of [split_userinfo], with [np] for its [no_password]: a text without '@' behind the
   longest username cannot hold a password, so the engine backs off. *)
Lemma after_no_password : forall (after run : str) (np : option str * option str * str),
  forallb (nb 64) after = true ->
  match after with
  | c :: after' =>
    if c =? 58 then
      let (p, rest) := span (nb 64) after' in
      match rest with
      | _ :: tail => (Some run, Some p, tail)
      | [] => np
      end
    else np
  | [] => np
  end = np.
Proof.
  intros [|c after'] run np H; [reflexivity|]. destruct (c =? 58); [|reflexivity].
  cbn in H. apply andb_true_iff in H as [_ H]. rewrite (span_all_id _ _ H). reflexivity.
Qed.

Lemma split_userinfo_ok : forall us pw T,
  opt_all user_ch us = true -> opt_all (nb 64) pw = true ->
  negb (has_some pw) || has_some us = true -> forallb (nb 64) T = true ->
  split_userinfo (asm_userinfo us pw ++ T) = (us, pw, T).
Proof.
  intros us pw T Hu Hp Hpu HT. unfold split_userinfo. fold user_ch.
  destruct us as [u|], pw as [p|]; try discriminate; cbn [asm_userinfo opt_pre List.app]; cbn in Hu, Hp.
  - rewrite <- app_assoc. cbn [List.app]. rewrite <- app_assoc. cbn [List.app].
    rewrite (span_here user_ch u (58 :: p ++ 64 :: T) Hu eq_refl), N.eqb_refl.
    rewrite (span_here (nb 64) p (64 :: T) Hp eq_refl). reflexivity.
  - (* the longest username runs on into T, up to (t1, t2) *)
    rewrite (span_app user_ch (u ++ [64]) T) by (rewrite forallb_app, Hu; reflexivity).
    destruct (span user_ch T) as [t1 t2] eqn:E. apply span_spec in E as [-> _].
    rewrite forallb_app in HT. apply andb_true_iff in HT as [Ht1 Ht2]. cbn [fst snd].
    rewrite <- app_assoc. cbn [List.app].
    rewrite (rsplit_app 64 u t1 Ht1), (after_no_password t2 _ _ Ht2). reflexivity.
  - destruct (span user_ch T) as [t1 t2] eqn:E. destruct (span_spec _ _ _ _ E) as [HTeq _].
    rewrite HTeq, forallb_app in HT. apply andb_true_iff in HT as [Ht1 Ht2].
    rewrite (rsplit_none 64 t1 Ht1), (after_no_password t2 _ _ Ht2). reflexivity.
Qed.

Lemma tail_noat : forall ho po db qu,
  host_lit_ok ho = true -> opt_all port_ch po = true -> opt_all db_ch db = true -> opt_all query_ch qu = true ->
  forallb (nb 64) (opt_id ho ++ opt_pre 58 po ++ opt_pre 47 db ++ opt_pre 63 qu) = true.
Proof.
  intros ho po db qu Hho Hpo Hdb Hqu. rewrite !forallb_app.
  rewrite (pre_all port_ch (nb 64) 58 po eq_refl), (pre_all db_ch (nb 64) 47 db eq_refl),
    (pre_all query_ch (nb 64) 63 qu eq_refl), !andb_true_r; try assumption;
    try (intros x Hx; unfold port_ch, db_ch, query_ch in Hx; unfold nb; lia).
  destruct ho as [t|]; [|reflexivity]. cbn [host_lit_ok] in Hho. apply andb_true_iff in Hho as [Hch _].
  revert Hch. apply forallb_impl. intros x Hx. unfold nb. lia.
Qed.

Theorem split_ok : forall uw c, comp_ok uw c = true -> split_url uw (assemble c) = Some (strip_host c).
Proof.
  intros uw [drv us pw ho po db qu] H. unfold comp_ok in H. cbn [c_drv c_user c_pass c_host c_port c_db c_query] in H.
  apply andb_true_iff in H as [H Hq]. apply andb_true_iff in H as [H Hdb]. apply andb_true_iff in H as [H Hpo].
  apply andb_true_iff in H as [H Hho]. apply andb_true_iff in H as [H Hpu]. apply andb_true_iff in H as [H Hpw].
  apply andb_true_iff in H as [H Hus]. apply andb_true_iff in H as [H Hdrv].
  unfold assemble, split_url. cbn [c_drv c_user c_pass c_host c_port c_db c_query].
  rewrite (span_here (wordch uw) drv _ Hdrv) by reflexivity.
  destruct drv as [|d0 drv]; [discriminate|]. cbn [is_nil List.app].
  rewrite (split_userinfo_ok us pw _ Hus Hpw Hpu (tail_noat ho po db qu Hho Hpo Hdb Hq)).
  assert (HR : forall p, p 47 = false -> p 63 = false -> stops p (opt_pre 47 db ++ opt_pre 63 qu)).
  { intros p H47 H63. exact (stops_pre p 47 db _ H47 (stops_pre_last p 63 qu H63)). }
  rewrite (split_host_ok ho po _ Hho Hpo (HR run_ch eq_refl eq_refl) (HR bare_ch eq_refl eq_refl)).
  rewrite (split_port_ok po _ Hpo (HR run_ch eq_refl eq_refl)).
  rewrite (split_db_ok db _ Hdb (stops_pre_last (nb 63) 63 qu eq_refl)).
  rewrite (split_query_ok qu Hq). reflexivity.
Qed.
