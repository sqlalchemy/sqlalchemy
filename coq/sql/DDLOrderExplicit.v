(* C14 - explicit dependencies (Table.add_is_dependent_on): never dropped from the sort, so the CREATE
   TABLE / DROP TABLE statements follow them, FK cycle or not *)
From Coq Require Import List NArith Bool Lia Permutation.
Import ListNotations.
From SAV.util Require Import Topo Cycles TopoProofs TopoCycle TopoExtra CyclesSound CyclesComplete CyclesExact.
From SAV.sql Require Import DDLOrder DDLOrderBase DDLOrderSort DDLOrderExec DDLOrderCreate DDLOrderDrop.

Definition created_order (l : list stmt) : list node :=
  flat_map (fun s => match s with CreateT n _ => [n] | _ => [] end) l.
Definition dropped_order (l : list stmt) : list node :=
  flat_map (fun s => match s with DropT n => [n] | _ => [] end) l.

Lemma created_order_create_stmts tables cyc : forall l,
  (forall n, In n l -> In n (names tables)) -> created_order (create_stmts tables cyc l) = l.
Proof. induction l as [|n l IH]; intros H; [reflexivity|]. unfold create_stmts, created_order in *. cbn [flat_map].
  rewrite flat_map_app. rewrite IH by (intros x Hx; apply H; right; exact Hx).
  assert (Hn : In n (names tables)) by (apply H; left; reflexivity).
  unfold names in Hn. apply in_map_iff in Hn. destruct Hn as [t [Hn Ht]].
  destruct (find_table tables n) as [u|] eqn:F.
  - reflexivity.
  - exfalso. unfold find_table in F. pose proof (find_none _ _ F t Ht) as X. simpl in X.
    rewrite Hn, N.eqb_refl in X. discriminate. Qed.

Lemma dropped_order_map l : dropped_order (map DropT l) = l.
Proof. unfold dropped_order. induction l as [|n l IH]; simpl; congruence. Qed.

Theorem create_order_respects_explicit existing checkfirst md o u :
  create_plan existing checkfirst md = Plan o u ->
  forall t p, In t (create_tables existing checkfirst md) -> In p (t_extra t) ->
    In p (names (create_tables existing checkfirst md)) -> before (created_order o) p (t_name t).
Proof. unfold create_plan.
  destruct (sort_tables_and_constraints none_filter (create_tables existing checkfirst md)) as [[[ns cyc] w]| |] eqn:Hs;
    try discriminate.
  intros H; inversion H; subst o u. intros t p Ht Hp Hpn.
  rewrite created_order_create_stmts.
  - eapply stc_before_fixed; eassumption.
  - intros n. apply Permutation_in, (stc_perm _ _ _ _ _ Hs). Qed.

Theorem drop_order_respects_explicit existing checkfirst md o u :
  drop_plan existing checkfirst md = Plan o u ->
  forall t p, In t (drop_tables existing checkfirst md) -> In p (t_extra t) ->
    In p (names (drop_tables existing checkfirst md)) -> before (dropped_order o) (t_name t) p.
Proof. unfold drop_plan.
  destruct (sort_tables_and_constraints drop_filter (drop_tables existing checkfirst md)) as [[[ns cyc] w]| |] eqn:Hs;
    try discriminate.
  destruct (forallb stmt_named _); [|discriminate].
  intros H; inversion H; subst o u. intros t p Ht Hp Hpn.
  rewrite dropped_order_map. apply before_rev. eapply stc_before_fixed; eassumption. Qed.

Theorem drop_explicit_cycle_raises existing checkfirst md :
  (exists w, cycle (fixed (drop_tables existing checkfirst md)) w /\
             incl w (names (drop_tables existing checkfirst md))) ->
  drop_plan existing checkfirst md = ErrCircular.
Proof. intros H. unfold drop_plan. rewrite (explicit_cycle_raises drop_filter _ H). reflexivity. Qed.

(* t1 <-> t2 by foreign keys, t1.add_is_dependent_on(t2) on the very pair the cycle handling removes,
   t1 inserted first: t2 is still created first *)
Example explicit_on_cycle_edge :
  let md := [mktable 1 [mkfk 0 2 false true] [2]; mktable 2 [mkfk 0 1 false true] []]%N in
  create_plan [] false md =
    Plan [CreateT 2 []; CreateT 1 []]%N [AddFK 1 (mkfk 0 2 false true); AddFK 2 (mkfk 0 1 false true)]%N /\
  drop_plan [] false md =
    Plan [DropT 1; DropT 2]%N [DropFK 1 (mkfk 0 2 false true); DropFK 2 (mkfk 0 1 false true)]%N /\
  sorted_tables md = Ok ([2; 1]%N, true).
Proof. vm_compute. repeat split. Qed.
