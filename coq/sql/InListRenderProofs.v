(* C07, code side: the keys of an expansion are distinct; what its placeholders become once the DBAPI has
   substituted the values; the statement after the replacement text has taken the place of the POSTCOMPILE
   token; [process] on a freshly compiled statement. *)
From Coq Require Import List ZArith NArith Bool Lia.
Import ListNotations.
From SAV.sql Require Import Val3 Val3Proofs InList InListSpecProofs InListCloseProofs InListLeepProofs.

Lemma nodup_app {A} (l1 l2 : list A) : NoDup l1 -> NoDup l2 -> (forall x, In x l1 -> In x l2 -> False) -> NoDup (l1 ++ l2).
Proof.
  intros H1 H2 Hd. induction H1 as [|a l1 Ha H1 IH]; [exact H2|].
  cbn [app]. constructor.
  - intros Hin. apply in_app_or in Hin as [Hin|Hin]; [now apply Ha|]. apply (Hd a); [now left|exact Hin].
  - apply IH. intros x Hx. apply Hd. now right.
Qed.

Lemma nodup_map_inj {A B} (f : A -> B) l : (forall x y, f x = f y -> x = y) -> NoDup l -> NoDup (map f l).
Proof.
  intros Hf H. induction H as [|a l Ha H IH]; cbn [map]; constructor; [|exact IH].
  intros Hin. apply in_map_iff in Hin as (y & Hy & Hin). apply Hf in Hy. now subst.
Qed.

Lemma nodup_enum_keys {A} (g : N -> key) n (l : list A) : (forall x y, g x = g y -> x = y) ->
  NoDup (map fst (map (fun iv => (g (fst iv), snd iv)) (enum_from n l))).
Proof.
  intros Hg. rewrite map_map. cbn [fst]. rewrite <- (map_map fst g).
  apply nodup_map_inj; [exact Hg|apply enum_from_nodup].
Qed.

Lemma nodup_tu_scalar ss : NoDup (map fst (tu_scalar ss)).
Proof. apply (nodup_enum_keys (fun i => (i, 0%N))). intros x y H. now inversion H. Qed.

Lemma blocks_keys_ge (n : N) ts (x : N * N * sv) : In x (concat (blocks_from n ts)) -> (n <= fst (fst x))%N.
Proof.
  revert n. induction ts as [|t0 ts IH]; intros n H; [destruct H|].
  unfold blocks_from in H. cbn [enum_from map concat fst snd] in H. fold (blocks_from (N.succ n) ts) in H.
  apply in_app_or in H as [H|H].
  - apply in_map_iff in H as (y & <- & _). cbn [fst]. lia.
  - apply IH in H. lia.
Qed.

(* block i carries the keys (i, 1..): distinct inside a block, and later blocks have larger i *)
Lemma nodup_blocks n ts : NoDup (map fst (concat (blocks_from n ts))).
Proof.
  revert n. induction ts as [|t0 ts IH]; intro n; [constructor|].
  unfold blocks_from. cbn [enum_from map concat fst snd]. fold (blocks_from (N.succ n) ts).
  rewrite map_app. apply nodup_app; [|apply IH|].
  - apply (nodup_enum_keys (fun j => (n, j))). intros x y H. now inversion H.
  - intros k H1 H2. apply in_map_iff in H1 as (x & <- & Hx). apply in_map_iff in H2 as (y & Hy & Hin).
    apply in_map_iff in Hx as (z & <- & _). apply blocks_keys_ge in Hin. rewrite Hy in Hin. cbn [fst] in Hin. lia.
Qed.

Section CLOSE.
Variable row : N -> sv.
Variable d : dialect.
Variable base : list (pname * sv).
Variable tu : list (key * sv).
Hypothesis Hbase : no_exp base.
Hypothesis Hnd : NoDup (map fst tu).

Definition pargs (ents : list (key * sv)) : list sv := if d.(d_positional) then map snd ents else [].

Lemma close_bind1 kv : In kv tu ->
  close row (base ++ exp_params tu) (pargs [kv]) [render_bindtemplate d (fst kv)] = Some [TVal (snd kv)].
Proof.
  intros Hin. unfold pargs, render_bindtemplate. destruct (d_positional d); cbn [close map option_map].
  - reflexivity.
  - rewrite (lookup_app_no_exp _ _ _ Hbase).
    destruct kv as [[i j] v]. cbn [fst snd]. rewrite (lookup_exp_in tu (i, j) v Hnd Hin). reflexivity.
Qed.

Lemma pargs_concat blks : pargs (concat blks) = concat (map pargs blks).
Proof.
  unfold pargs. destruct (d_positional d).
  - now rewrite concat_map.
  - induction blks; [reflexivity|]. cbn [map concat]. now rewrite <- IHblks.
Qed.

Lemma pargs_singletons ents : concat (map (fun kv : key * sv => pargs [kv]) ents) = pargs ents.
Proof.
  unfold pargs. destruct (d_positional d); induction ents as [|kv ents IH]; cbn [map concat app]; try reflexivity.
  - f_equal. exact IH.
  - exact IH.
Qed.

(* the placeholders of an expansion after substitution *)
Definition val_items (ents : list (key * sv)) : list tok := items (map TVal (map snd ents)).
Definition val_rows (blks : list (list (key * sv))) : list tok :=
  join [TComma] (map (fun te => row_toks (map TVal te)) (map (map snd) blks)).

Lemma close_bind_items ents : incl ents tu ->
  close row (base ++ exp_params tu) (pargs ents) (bind_items d ents) = Some (val_items ents).
Proof.
  intros Hin. rewrite <- (pargs_singletons ents). unfold bind_items, val_items, items. rewrite !map_map.
  apply close_join; [reflexivity|]. intros kv Hkv. apply close_bind1. now apply Hin.
Qed.

Lemma close_bind_rows blks : incl (concat blks) tu ->
  close row (base ++ exp_params tu) (pargs (concat blks)) (bind_rows d blks) = Some (val_rows blks).
Proof.
  intros Hin. rewrite pargs_concat. unfold bind_rows, val_rows. rewrite map_map.
  apply close_join; [reflexivity|]. intros blk Hblk. apply close_wrap, close_bind_items.
  intros kv Hkv. apply Hin, in_concat. now exists blk.
Qed.

(* the positional argument tuple built from positiontup *)
Lemma args_of_names ents : incl ents tu ->
  all_some (map (fun p => lookup_param p (base ++ exp_params tu)) (map (fun kv => PExp (fst kv)) ents))
  = Some (map snd ents).
Proof.
  intros Hin. induction ents as [|kv ents IH]; [reflexivity|].
  cbn [map all_some]. rewrite (lookup_app_no_exp _ _ _ Hbase).
  destruct kv as [k v]. cbn [fst snd]. rewrite (lookup_exp_in tu k v Hnd (Hin _ (or_introl eq_refl))).
  rewrite IH; [reflexivity|]. intros x Hx. apply Hin. now right.
Qed.
End CLOSE.

Definition is_post (t : tok) : bool := match t with TPost => true | _ => false end.
Definition nopost (s : list tok) : bool := forallb (fun t => negb (is_post t)) s.
Definition subst_pure (repl : list tok) (s : list tok) : list tok :=
  flat_map (fun t => match t with TPost => repl | _ => [t] end) s.

Lemma subst_some r s : subst (Some r) s = Ok (subst_pure r s).
Proof.
  unfold subst. induction s as [|t s IH]; [reflexivity|].
  cbn [fold_right flat_map subst_pure]. rewrite IH. destruct t; reflexivity.
Qed.
Lemma subst_pure_app r a b : subst_pure r (a ++ b) = subst_pure r a ++ subst_pure r b.
Proof. apply flat_map_app. Qed.
Lemma subst_pure_nopost r s : nopost s = true -> subst_pure r s = s.
Proof.
  induction s as [|t s IH]; intros H; [reflexivity|].
  cbn [nopost forallb] in H. apply andb_true_iff in H as [Ht Hs].
  cbn [subst_pure flat_map]. fold (subst_pure r s). rewrite (IH Hs). destruct t; try reflexivity; discriminate.
Qed.

Lemma nopost_lhs l : nopost (lhs_tokens l) = true.
Proof.
  destruct l as [c|cs]; [reflexivity|]. unfold lhs_tokens, nopost. cbn [forallb negb is_post andb].
  rewrite forallb_app. cbn [forallb negb is_post andb]. rewrite andb_true_r.
  apply forallb_join; [reflexivity|]. apply Forall_forall. intros p Hp. apply in_map_iff in Hp as (c & <- & _). reflexivity.
Qed.

Lemma subst_render e r :
  subst_pure r (compile_template e) = render_binary e ([TLp] ++ r ++ [TRp]).
Proof.
  unfold compile_template, render_binary, generic_binary, bind_template.
  destruct (ie_op e), (ie_text e); cbn [op_tokens];
    rewrite ?subst_pure_app, !(subst_pure_nopost r (lhs_tokens _) (nopost_lhs _));
    cbn [subst_pure flat_map app]; rewrite ?app_nil_r; reflexivity.
Qed.

Lemma nopost_ctx d p : nopost (ctx_pre d p) = true /\ nopost (ctx_post d p) = true.
Proof. destruct p; unfold ctx_pre, ctx_post, other_tok; destruct (d_positional d); split; reflexivity. Qed.

Lemma subst_stmt d p e r :
  subst (Some r) (ctx_pre d p ++ compile_template e ++ ctx_post d p)
  = Ok (ctx_pre d p ++ render_binary e ([TLp] ++ r ++ [TRp]) ++ ctx_post d p).
Proof.
  rewrite subst_some, !subst_pure_app, subst_render.
  destruct (nopost_ctx d p) as [H1 H2]. now rewrite (subst_pure_nopost _ _ H1), (subst_pure_nopost _ _ H2).
Qed.

Lemma no_exp_others p : no_exp (ctx_others p).
Proof. destruct p; intros kv H; cbn in H; repeat (destruct H as [<-|H]; [exact I|]); destruct H. Qed.

(* the expansion of a freshly compiled statement whose parameter became the pairs [tu] and the text [repl] *)
Definition expansion (d : dialect) (p : position) (e : inexpr) (tu : list (key * sv)) (repl : list tok) : expanded :=
  {| x_statement := ctx_pre d p ++ render_binary e ([TLp] ++ repl ++ [TRp]) ++ ctx_post d p;
     x_params := ctx_others p ++ exp_params tu;
     x_positiontup := if d.(d_positional)
                      then Some (ctx_names_pre p ++ map (fun kv => PExp (fst kv)) tu ++ ctx_names_post p)
                      else None |}.

Lemma process_compile d p e vals pop :
  match leep d e.(ie_bind) vals with
  | Ok (tu, repl) => exists c', process (compile d p e) (ctx_others p) vals pop = Ok (expansion d p e tu repl, c')
  | Raise ex => process (compile d p e) (ctx_others p) vals pop = Raise ex
  end.
Proof.
  unfold process, compile, expansion.
  cbn [c_dialect c_bind c_bind_names c_string c_pre_string c_positiontup c_pre_positiontup or_else].
  destruct (leep d (ie_bind e) vals) as [[tu repl]|ex] eqn:H;
    [rewrite <- (update_params_fresh (ctx_others p) tu (no_exp_others p))|];
    destruct p; destruct (d_positional d) eqn:Ed;
    cbn [ctx_names_pre ctx_names_post ctx_others app map run_names step bind lookup_param find fst snd N.eqb Pos.eqb ps_repl ps_params ps_pos remove_param filter];
    rewrite H; try reflexivity;
    cbn [bind fst snd ps_repl ps_params ps_pos run_names step option_map app remove_param filter negb];
    rewrite subst_stmt; cbn [bind]; rewrite ?Ed, ?app_nil_r; eexists; reflexivity.
Qed.
