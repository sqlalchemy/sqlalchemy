(* C04 - numeric / numeric_dollar: _process_numeric numbers the plain binds 1..n in bind order, the
   expanded names continue from next_numeric_pos, and placeholder k finds its value at position k *)
From Coq Require Import List NArith ZArith Bool Lia.
Import ListNotations.
From SAV.sql Require Import Params ParamsDict ParamsEscape ParamsGuard ParamsPost ParamsInline ParamsFinal.

Lemma nseq_length : forall len s, length (nseq s len) = len.
Proof. induction len as [|len IH]; intro s; cbn [nseq length]; [reflexivity|]. f_equal. apply IH. Qed.
Lemma nseq_nth : forall len s j, (j < len)%nat -> nth_error (nseq s len) j = Some (s + N.of_nat j)%N.
Proof.
  induction len as [|len IH]; intros s j H; [lia|]. destruct j as [|j]; cbn [nseq nth_error].
  - f_equal. lia.
  - rewrite IH by lia. f_equal. lia.
Qed.

Lemma map_flat_map : forall {A B C} (f : B -> C) (g : A -> list B) l,
  map f (flat_map g l) = flat_map (fun x => map f (g x)) l.
Proof. induction l as [|x l IH]; [reflexivity|]. cbn [flat_map]. rewrite map_app, IH. reflexivity. Qed.

Lemma NoDup_flat_map : forall {A B} (f : A -> list B) l,
  NoDup l -> (forall a, In a l -> NoDup (f a)) ->
  (forall a b x, In a l -> In b l -> In x (f a) -> In x (f b) -> a = b) ->
  NoDup (flat_map f l).
Proof.
  induction l as [|a l IH]; intros Hn Hf Hd; [constructor|].
  inversion Hn as [|? ? Hni Hnd]; subst. cbn [flat_map]. apply NoDup_app_intro.
  - apply Hf. left. reflexivity.
  - apply IH; [exact Hnd|intros b Hb; apply Hf; right; exact Hb|].
    intros b c x Hb Hc. apply Hd; right; assumption.
  - intros x Hx Hy. apply in_flat_map in Hy. destruct Hy as [b [Hb Hxb]].
    apply Hni. rewrite (Hd a b x (or_introl eq_refl) (or_intror Hb) Hx Hxb). exact Hb.
Qed.

Fixpoint index_of (n : name) (l : list name) : nat :=
  match l with [] => O | x :: r => if str_eqb n x then O else S (index_of n r) end.
Lemma index_of_nth : forall n l, In n l -> nth_error l (index_of n l) = Some n.
Proof.
  induction l as [|x l IH]; intro H; [destruct H|]. cbn [index_of].
  destruct (str_eqb_spec n x) as [->|Hn]; [reflexivity|]. cbn [nth_error]. apply IH.
  destruct H as [H|H]; [congruence|exact H].
Qed.
Lemma index_of_lt : forall n l, In n l -> (index_of n l < length l)%nat.
Proof. intros n l H. apply nth_error_Some. rewrite (index_of_nth n l H). congruence. Qed.
Lemma index_of_snoc : forall n l, ~ In n l -> index_of n (l ++ [n]) = length l.
Proof.
  induction l as [|x l IH]; intro H; cbn [app index_of length].
  - rewrite str_eqb_refl. reflexivity.
  - rewrite str_eqb_neq by (intros ->; apply H; left; reflexivity). f_equal. apply IH.
    intro Hi. apply H. right. exact Hi.
Qed.
Lemma index_of_app_l : forall n l1 l2, In n l1 -> index_of n (l1 ++ l2) = index_of n l1.
Proof.
  induction l1 as [|x l1 IH]; intros l2 H; [destruct H|]. cbn [app index_of].
  destruct (str_eqb_spec n x) as [->|Hn]; [reflexivity|]. f_equal. apply IH. destruct H as [H|H]; [congruence|exact H].
Qed.

(* {key: num for num, key in enumerate(l, s)} for distinct keys *)
Lemma dget_enumerate : forall (l : list name) s x, NoDup l -> In x l ->
  dget x (dupdate (combine l (nseq s (length l))) []) = Some (s + N.of_nat (index_of x l))%N.
Proof.
  intros l s x Hnd Hin. apply dget_dupdate_in.
  - rewrite fst_combine_nseq. exact Hnd.
  - clear Hnd. revert s. induction l as [|y l IH]; intro s; [destruct Hin|].
    cbn [length nseq combine index_of]. destruct (str_eqb_spec x y) as [->|Hn].
    + left. f_equal. lia.
    + right. destruct Hin as [H|H]; [congruence|]. specialize (IH H (s + 1)%N).
      replace (s + N.of_nat (S (index_of x l)))%N with (s + 1 + N.of_nat (index_of x l))%N by lia. exact IH.
Qed.

Section NumLoop.
Variable inp : input.
Notation plainb := (fun n : name => is_plain (kind_of inp n)).

Definition plains (pp : dict (option N)) : list name := filter plainb (keys pp).

Record NInv (seen : list name) (st : dict (option N) * N) : Prop := {
  n_nodup : NoDup (keys (fst st));
  n_keys : forall k, In k (keys (fst st)) <-> In k seen;
  n_plain : forall n, In n (plains (fst st)) ->
            dget n (fst st) = Some (Some (1 + N.of_nat (index_of n (plains (fst st)))))%N;
  n_next : snd st = (1 + N.of_nat (length (plains (fst st))))%N
}.

Lemma num_step_inv : forall seen st n, NInv seen st -> NInv (seen ++ [n]) (num_step inp st n).
Proof.
  intros seen [pp num] n [Inodup Ikeys Iplain Inext]. cbn [fst snd] in *. unfold num_step.
  destruct (dmem n pp) eqn:D.
  - apply dmem_In in D. constructor; cbn [fst snd]; try assumption.
    intro k. split; intro H.
    + apply In_snoc. left. apply Ikeys. exact H.
    + apply In_snoc in H. destruct H as [H| ->]; [apply Ikeys; exact H|exact D].
  - apply dmem_false in D.
    assert (Hk : forall v k, In k (keys (dset n v pp)) <-> In k (seen ++ [n])).
    { intros v k. split; intro H.
      - apply In_keys_dset in H. apply In_snoc. destruct H as [->|H]; [right; reflexivity|left; apply Ikeys; exact H].
      - apply In_keys_dset. apply In_snoc in H. destruct H as [H| ->]; [right; apply Ikeys; exact H|left; reflexivity]. }
    assert (Hpl : forall v, plains (dset n v pp) = plains pp ++ if is_plain (kind_of inp n) then [n] else []).
    { intro v. unfold plains. rewrite keys_dset, (proj2 (dmem_false n pp) D), filter_app. reflexivity. }
    assert (Hnp : ~ In n (plains pp)) by (intro H; apply D; exact (proj1 (proj1 (filter_In _ _ _) H))).
    assert (Hold : forall v m, In m (plains pp) ->
              dget m (dset n v pp) = Some (Some (1 + N.of_nat (index_of m (plains pp))))%N).
    { intros v m Hm. rewrite dget_dset_other by (intros ->; exact (Hnp Hm)). exact (Iplain m Hm). }
    destruct (is_plain (kind_of inp n)) eqn:P; constructor; cbn [fst snd]; rewrite ?Hpl, ?P, ?app_nil_r;
      try (apply NoDup_keys_dset; exact Inodup); try apply Hk.
    + intros m Hm. apply In_snoc in Hm. destruct Hm as [Hm| ->].
      * rewrite index_of_app_l by exact Hm. exact (Hold _ m Hm).
      * rewrite dget_dset_same, index_of_snoc by exact Hnp. rewrite Inext. reflexivity.
    + rewrite app_length. cbn [length]. rewrite Inext. lia.
    + exact (Hold None).
    + exact Inext.
Qed.

Lemma num_loop_inv : forall l seen st, NInv seen st -> NInv (seen ++ l) (fold_left (num_step inp) l st).
Proof.
  induction l as [|n l IH]; intros seen st I; cbn [fold_left].
  - rewrite app_nil_r. exact I.
  - rewrite (app_assoc seen [n] l : seen ++ n :: l = (seen ++ [n]) ++ l). apply IH. apply num_step_inv. exact I.
Qed.

Lemma num_loop : forall l, NInv l (fold_left (num_step inp) l ([], 1%N)).
Proof.
  intro l. apply (num_loop_inv l [] ([], 1%N)). constructor; cbn [fst snd keys map plains filter length].
  - constructor.
  - tauto.
  - intros n [].
  - reflexivity.
Qed.
End NumLoop.

Section NumRun.
Variable tab : list (N * N).
Variable lit : Z -> str.
Variable empty_expr : str.
Variable proc : N -> Z -> Z.
Variable ps : style.
Variable inp : input.
Hypothesis W : wf tab inp.
Hypothesis Hnum : numeric ps = true.

Notation order := (i_order inp).
Notation ebn := (ebn_of tab (i_order inp)).

Lemma numeric_order_In : forall k, In k (numeric_order inp) <-> In k order.
Proof.
  intro k. unfold numeric_order. destruct (i_values inp) as [vb|]; [|tauto]. split; intro H.
  - apply in_app_or in H. destruct H as [H|H]; [exact (proj1 (proj1 (filter_In _ _ _) H))|exact H].
  - apply in_or_app. right. exact H.
Qed.

Definition num_state : dict (option N) * N := fold_left (num_step inp) (numeric_order inp) ([], 1%N).
Definition num_dict : dict (option N) := fst num_state.
Definition num_of (n : name) : N := match dget n num_dict with Some (Some k) => k | _ => 0%N end.
Definition plain_names : list name := plains inp num_dict.

Lemma num_state_inv : NInv inp (numeric_order inp) num_state.
Proof. exact (num_loop inp (numeric_order inp)). Qed.

Lemma num_dict_keys : forall k, In k (keys num_dict) <-> In k order.
Proof. intro k. unfold num_dict. rewrite (n_keys _ _ _ num_state_inv). apply numeric_order_In. Qed.

Lemma plain_names_In : forall n, In n plain_names <-> In n order /\ kind_of inp n = Plain.
Proof.
  intro n. unfold plain_names, plains. rewrite filter_In, num_dict_keys. split; intros [A B]; (split; [exact A|]).
  - destruct (kind_of inp n); cbn in B; congruence.
  - rewrite B. reflexivity.
Qed.

Lemma num_plain : forall n, In n plain_names -> dget n num_dict = Some (Some (num_of n)) /\ num_of n = (1 + N.of_nat (index_of n plain_names))%N.
Proof.
  intros n H. pose proof (n_plain _ _ _ num_state_inv n H) as G. fold num_dict in G. fold plain_names in G.
  unfold num_of. rewrite G. split; reflexivity.
Qed.

(* the numbering re-keyed by escaped names: the assertion passes and escaped lookups find the bind's entry *)
Lemma renumber : exists pp',
  match ebn with
  | [] => Ok num_dict
  | _ => if Nat.eqb (length (drekey (dget_or_key ebn) num_dict)) (length num_dict)
         then Ok (drekey (dget_or_key ebn) num_dict) else Raise AssertionError
  end = Ok pp' /\
  forall n, In n order -> dget (esc tab n) pp' = dget n num_dict.
Proof.
  destruct ebn as [|e0 er] eqn:E.
  - exists num_dict. split; [reflexivity|]. intros n Hn. rewrite (ebn_nil tab order n E Hn). reflexivity.
  - rewrite <- E.
    assert (Hinj : forall a b, In a (keys num_dict) -> In b (keys num_dict) -> dget_or_key ebn a = dget_or_key ebn b -> a = b).
    { intros a b Ha Hb. apply num_dict_keys in Ha. apply num_dict_keys in Hb.
      rewrite !ebn_get_or_key_in by assumption. apply (w_inj _ _ W); assumption. }
    rewrite (drekey_inj _ _ Hinj (n_nodup _ _ _ num_state_inv)). unfold rekey_map at 1. rewrite map_length, Nat.eqb_refl.
    eexists. split; [reflexivity|]. intros n Hn.
    rewrite <- (ebn_get_or_key_in tab order n Hn). apply dget_rekey_map.
    intros a Ha. apply Hinj; [exact Ha|apply num_dict_keys; exact Hn].
Qed.

Notation bnum := (fun n : name => ONum (num_of n)).

Lemma process_numeric_ok :
  process_numeric inp ebn (carrier tab ps (i_toks inp)) =
  Ok (map (ctok tab ps bnum) (i_toks inp), keys num_dict, snd num_state).
Proof.
  unfold process_numeric. fold num_state. destruct num_state as [pp next] eqn:E.
  assert (Hpp : pp = num_dict) by (unfold num_dict; rewrite E; reflexivity). subst pp.
  destruct renumber as [pp' [Hr Hg]]. rewrite Hr. cbn [bind].
  rewrite (mapM_ok _ (fun t => match t with
                               | OPh e => ONum (match dget e pp' with Some (Some k) => k | _ => 0%N end)
                               | _ => t end)).
  - cbn [bind snd]. unfold carrier. rewrite map_map.
    rewrite (map_ext_in _ (ctok tab ps bnum)); [reflexivity|].
    intros [s|n|n] Ht; cbn [ctok]; try reflexivity.
    destruct (w_bind _ _ W n Ht) as [Hn K]. rewrite (Hg n Hn). reflexivity.
  - intros t Ht. unfold carrier in Ht. apply in_map_iff in Ht. destruct Ht as [[s|n|n] [<- Ht]]; try reflexivity.
    destruct (w_bind _ _ W n Ht) as [Hn K]. rewrite (Hg n Hn).
    destruct (num_plain n (proj2 (plain_names_In n) (conj Hn K))) as [G _]. rewrite G. reflexivity.
Qed.

Lemma newpos_plain_names : flat_map (newpos_of tab ps inp) (keys num_dict) = plain_names.
Proof.
  unfold plain_names, plains. induction (keys num_dict) as [|k l IH]; [reflexivity|]. cbn [flat_map filter].
  rewrite IH. unfold newpos_of. rewrite Hnum. destruct (kind_of inp k); reflexivity.
Qed.

(* the expanded names, in the order in which they are numbered *)
Definition numpos : list name := flat_map (xnames tab inp) (keys num_dict).

Lemma numpos_nodup : NoDup numpos.
Proof.
  unfold numpos. apply NoDup_flat_map.
  - exact (n_nodup _ _ _ num_state_inv).
  - intros a Ha. exact (w_xnodup _ _ W a (proj1 (num_dict_keys a) Ha)).
  - intros a b x Ha Hb. exact (w_xdisj _ _ W a b x (proj1 (num_dict_keys a) Ha) (proj1 (num_dict_keys b) Hb)).
Qed.

Notation xnum := (xnum numpos (snd num_state)).
Lemma xnum_ok : forall k, In k numpos -> xnum k = (1 + N.of_nat (length plain_names + index_of k numpos))%N.
Proof.
  intros k Hk. unfold ParamsFinal.xnum, ppx. rewrite (dget_enumerate numpos (snd num_state) k numpos_nodup Hk), (n_next _ _ _ num_state_inv).
  fold num_dict. fold plain_names. lia.
Qed.

(* placeholder 1 + i takes the i-th entry of positiontup = plain_names ++ numpos *)
Lemma inline_nth : forall (gv : name -> pval) i k v, nth_error (plain_names ++ numpos) i = Some k -> gv k = PS v ->
  inline_num ps [ONum (1 + N.of_nat i)] (map gv (plain_names ++ numpos)) = Some [Val v].
Proof.
  intros gv i k v Hi Hv. cbn [inline_num].
  replace (N.eqb (1 + N.of_nat i) 0) with false by (symmetry; apply N.eqb_neq; lia).
  replace (N.to_nat (1 + N.of_nat i) - 1)%nat with i by lia.
  rewrite (map_nth_error gv _ _ Hi), Hv. reflexivity.
Qed.

Notation getv := (getv proc inp).
(* the driver renumbers the expanded names and looks every number up in the sequence *)
Notation Jnum := (fun (st : pcstate) (seg : list otok) (_ : list name) =>
  inline_num ps (map (renum numpos (snd num_state)) seg) (map (getv st) (plain_names ++ numpos))).

Theorem num_ok :
  exists ts fp sp, run tab lit empty_expr proc ps inp = Ok (ts, fp) /\
                   inline_spec lit empty_expr proc inp = Some sp /\ inline ps ts fp = Some sp.
Proof.
  assert (Hps : positional ps = true) by (revert Hnum; destruct ps; cbn; congruence).
  destruct (style_ok tab lit empty_expr proc ps inp W bnum (keys num_dict) (snd num_state)) with (J := Jnum)
    as [done [st [sp [_ [_ [E [S1 S2]]]]]]].
  - intro n. exact Logic.I.
  - intros _ n. exact Logic.I.
  - unfold compile. rewrite Hnum, process_numeric_ok. reflexivity.
  - intros _. split; [intros k Hk; apply num_dict_keys; exact Hk|].
    intros n Hn. apply num_dict_keys. exact (proj1 (w_pc _ _ W n Hn)).
  - reflexivity.
  - intros st a ka ra c kc H. rewrite map_app, inline_num_app, H. reflexivity.
  - intros st s. cbn [map renum inline_num option_map]. rewrite unpct_pct, app_nil_r. reflexivity.
  - (* a plain bind has the number 1 + its index in plain_names *)
    intros done st n v z _ Hn K _ G. assert (HP : In n plain_names) by (apply plain_names_In; split; assumption).
    cbn [map renum]. rewrite (proj2 (num_plain n HP)). apply (inline_nth _ _ n).
    + rewrite nth_error_app1 by exact (index_of_lt n plain_names HP).
      exact (index_of_nth n plain_names HP).
    + exact G.
  - (* an expanded name is renumbered to 1 + length plain_names + its index in numpos *)
    intros done st n k v z I Hn Hx _ G. replace (bind_tok ps k) with (OPh k) by (revert Hnum; destruct ps; cbn; congruence).
    assert (Hk : In k numpos).
    { apply in_flat_map. exists n. split; [apply num_dict_keys; exact (v_done I n Hn)|exact Hx]. }
    cbn [map renum]. rewrite (xnum_ok k Hk). apply (inline_nth _ _ k).
    + rewrite nth_error_app2 by lia. replace (length plain_names + index_of k numpos - length plain_names)%nat with (index_of k numpos) by lia.
      exact (index_of_nth k numpos Hk).
    + exact G.
  - intro st. unfold inline, final_toks, final_params. rewrite Hnum, Hps, newpos_plain_names. reflexivity.
  - eexists _, _, sp. split; [exact E|]. split; [exact S1|exact S2].
Qed.
End NumRun.
