(* C11 - the merge modes of _merge_cursor_description (positional, textual positional, by name, none) as
   instances of the keymap lemmas; _adapt_to_context; _safe_for_cache; the witnesses of what does not hold *)
From Coq Require Import List NArith Bool Arith Lia.
Import ListNotations.
From SAV.sql Require Import ResultMap ResultMapDict ResultMapKeymapProofs.

Local Notation kget := (dget key_eqb).
Local Notation kalast := (alast key_eqb).

Lemma In_mapi_from : forall {A B} (f : nat -> A -> B) l s x,
  In x (mapi_from f s l) <-> exists i a, nth_error l i = Some a /\ x = f (s + i) a.
Proof.
  intros A B f. induction l as [|a r IH]; intros s x; cbn [mapi_from In].
  - split; [intros []|]. intros (i & a & H & _). destruct i; discriminate.
  - rewrite IH. split.
    + intros [H|(i & b & Hn & Hx)].
      * exists 0, a. rewrite Nat.add_0_r. auto.
      * exists (S i), b. rewrite Nat.add_succ_r. auto.
    + intros (i & b & Hn & Hx). destruct i as [|i].
      * injection Hn as ->. rewrite Nat.add_0_r in Hx. now left.
      * right. exists i, b. rewrite Nat.add_succ_r in Hx. auto.
Qed.

Lemma In_mapi : forall {A B} (f : nat -> A -> B) l x,
  In x (mapi f l) <-> exists i a, nth_error l i = Some a /\ x = f i a.
Proof. intros. unfold mapi. now rewrite In_mapi_from. Qed.

Lemma mapi_from_length : forall {A B} (f : nat -> A -> B) l s, length (mapi_from f s l) = length l.
Proof. induction l as [|a r IH]; intros s; cbn; [reflexivity|now rewrite IH]. Qed.

(* positional 1:1 mode: the merged record of result column i *)
Definition prec (i : nat) (e : rc) : mrec :=
  {| m_idx := Some i; m_ridx := RAt i; m_objs := rc_objs e; m_key := rc_name e; m_rend := rc_keyname e;
     m_untr := KN |}.

Lemma In_raw_positional : forall rcs r,
  In r (raw_positional rcs) <-> exists i e, nth_error rcs i = Some e /\ r = prec i e.
Proof. intros rcs r. unfold raw_positional. rewrite In_mapi. reflexivity. Qed.

Definition km_pos (rcs : list rc) (tr : bool) : keymap := keymap_of (raw_positional rcs) (length rcs) tr.

Lemma build_positional : forall rcs f desc tr,
  rcs <> [] -> f_ordered f = true -> f_textual_ordered f = false -> length desc = length rcs ->
  build rcs f desc tr = Ok {| md_keymap := km_pos rcs tr; md_keys := map rc_keyname rcs; md_safe := true |}.
Proof.
  intros rcs f desc tr Hne Ho Ht Hl.
  assert (Hn : Nat.eqb (length rcs) 0 = false) by (destruct rcs; [congruence|reflexivity]).
  unfold build, merge, safe_for_cache. now rewrite Hn, Ho, Ht, Hl, Nat.eqb_refl.
Qed.

Theorem lookup_by_object : forall rcs tr i e o,
  nth_error rcs i = Some e -> In o (rc_name e :: rc_objs e) ->
  (forall j e', nth_error rcs j = Some e' -> In o (rc_name e' :: rc_keyname e' :: rc_objs e') -> j = i) ->
  lookup (km_pos rcs tr) o = Ok i.
Proof.
  intros rcs tr i e o Hn Ho Huniq. unfold km_pos.
  apply (lookup_unique_key _ _ _ (prec i e) o i).
  - destruct rcs; [destruct i|]; discriminate.
  - apply In_raw_positional. eauto.
  - exact Ho.
  - intros r' Hr' Hk. apply In_raw_positional in Hr' as (j & e' & Hj & ->). cbn [prec m_idx m_key m_rend m_objs] in *.
    now rewrite (Huniq j e' Hj Hk).
Qed.

Lemma km_pos_entries : forall rcs tr k r, In (k, r) (km_pos rcs tr) ->
  r = amb_rec k \/ exists i e, nth_error rcs i = Some e /\ r = prec i e /\ In k (rc_name e :: rc_objs e).
Proof.
  intros rcs tr k r H. destruct rcs as [|e0 l]; [destruct tr; destruct H|].
  apply keymap_entries in H as [(-> & _)|(Hr & Hk)]; [now left| |discriminate].
  right. apply In_raw_positional in Hr as (i & e & Hi & ->). eauto.
Qed.

(* _adapt_to_context finds records by MD_RESULT_MAP_INDEX; in the positional keymap that is MD_INDEX *)
Lemma km_pos_ridx : forall rcs tr k r i, In (k, r) (km_pos rcs tr) -> m_ridx r = RAt i <-> m_idx r = Some i.
Proof.
  intros rcs tr k r i H. apply km_pos_entries in H as [->|(j & e & _ & -> & _)]; cbn; split; congruence.
Qed.

Theorem no_wrong_column_positional : forall rcs tr k i,
  lookup (km_pos rcs tr) k = Ok i ->
  exists e, nth_error rcs i = Some e /\ In k (rc_name e :: rc_objs e).
Proof.
  intros rcs tr k i H. apply lookup_Ok_get in H as (r & G & Hi).
  apply (dget_In key_eqb key_eqb_eq), km_pos_entries in G as [->|(j & e & Hj & -> & Hk)]; [discriminate Hi|].
  injection Hi as <-. eauto.
Qed.

Theorem ambiguous_raises_positional_guarded : forall rcs tr k i j ei ej,
  dupes_path (raw_positional rcs) (length rcs) = true ->
  nth_error rcs i = Some ei -> nth_error rcs j = Some ej -> i <> j ->
  In k (rc_keyname ei :: rc_objs ei) -> In k (rc_keyname ej :: rc_objs ej) ->
  lookup (km_pos rcs tr) k = Raise Ambiguous.
Proof.
  intros rcs tr k i j ei ej Hd Hi Hj Hne Ki Kj. unfold km_pos.
  apply (ambiguous_raises_guarded _ _ _ _ (prec i ei) (prec j ej)); try assumption.
  - destruct rcs; [destruct i|]; discriminate.
  - apply In_raw_positional. eauto.
  - apply In_raw_positional. eauto.
  - cbn. congruence.
Qed.

(* a primary name that two merged records share always switches the scan on (whatever the number of
   compiled columns): the number of distinct names is then smaller than the number of records *)
Lemma NoDup_map_inj_on : forall {A B} (f : A -> B) (l : list A) a b,
  NoDup (map f l) -> In a l -> In b l -> f a = f b -> a = b.
Proof.
  intros A B f. induction l as [|x l IH]; intros a b Hn Ha Hb E; [destruct Ha|].
  cbn in Hn. inversion Hn as [|? ? Hx Hn']; subst. destruct Ha as [->|Ha], Hb as [->|Hb]; try reflexivity.
  - exfalso. apply Hx. rewrite E. now apply in_map.
  - exfalso. apply Hx. rewrite <- E. now apply in_map.
  - now apply IH.
Qed.

Lemma shared_name_dupes_path : forall rw n r1 r2,
  In r1 rw -> In r2 rw -> r1 <> r2 -> m_key r1 = m_key r2 -> dupes_path rw n = true.
Proof.
  intros rw n r1 r2 H1 H2 Hne Hk. unfold dupes_path. apply orb_true_iff. right. apply negb_true_iff, Nat.eqb_neq.
  intro Hlen. apply Hne.
  assert (Hnd : NoDup (map fst (by_key_of rw))) by (unfold by_key_of; apply dict_of_NoDup).
  assert (Hn2 : NoDup (map m_key rw)).
  { apply NoDup_incl_NoDup with (l := map fst (by_key_of rw)); [exact Hnd|rewrite !map_length; lia|].
    intros k. apply by_key_of_keys. }
  exact (NoDup_map_inj_on m_key rw r1 r2 Hn2 H1 H2 Hk).
Qed.

Theorem ambiguous_raises_shared_name : forall rw n tr k r1 r2,
  n <> 0 -> In r1 rw -> In r2 rw -> m_idx r1 <> m_idx r2 ->
  m_key r1 = m_key r2 ->
  In k (m_rend r1 :: m_objs r1) -> In k (m_rend r2 :: m_objs r2) ->
  lookup (keymap_of rw n tr) k = Raise Ambiguous.
Proof.
  intros rw n tr k r1 r2 Hn H1 H2 Hne Hk K1 K2.
  apply (ambiguous_raises_guarded rw n tr k r1 r2); try assumption.
  apply (shared_name_dupes_path rw n r1 r2); try assumption. intros ->. now apply Hne.
Qed.

Lemma textual_loop_spec : forall rcs desc s seen rw, textual_loop rcs s desc seen = Ok rw ->
  forall r, In r rw -> exists i cu, nth_error desc i = Some cu /\ m_idx r = Some (s + i) /\ m_key r = fst cu /\
    (m_objs r = [] \/ exists e, nth_error rcs (s + i) = Some e /\ m_objs r = rc_objs e).
Proof.
  intros rcs. induction desc as [|[colname untr] rest IH]; intros s seen rw H r Hr; cbn [textual_loop] in H.
  - injection H as <-. destruct Hr.
  - (* with or without a compiled column at position s, the record is built the same way *)
    destruct (nth_error rcs s) as [e|] eqn:En; [destruct (memk (hd KN (rc_objs e)) seen); [discriminate|]|].
    all: destruct (textual_loop rcs (S s) rest _) as [l|] eqn:El; [|discriminate]; injection H as <-.
    all: destruct Hr as [<-|Hr];
      [exists 0, (colname, untr); rewrite Nat.add_0_r; cbn; eauto 8|].
    all: destruct (IH _ _ _ El r Hr) as (i & cu & Hn & Hi & Hk & Ho).
    all: exists (S i), cu; rewrite Nat.add_succ_r; cbn [nth_error]; auto.
Qed.

Theorem no_wrong_column_textual : forall rcs desc rw tr k i,
  rcs <> [] -> raw_textual rcs desc = Ok rw ->
  lookup (keymap_of rw (length rcs) tr) k = Ok i ->
  exists cu, nth_error desc i = Some cu /\
    (k = fst cu \/ exists e, nth_error rcs i = Some e /\ In k (rc_objs e)).
Proof.
  intros rcs desc rw tr k i Hne Hraw H.
  apply no_wrong_column_compiled in H as (r & Hr & Hi & Hk).
  - destruct (textual_loop_spec rcs desc 0 [] rw Hraw r Hr) as (j & cu & Hn & Hj & Hkey & Ho).
    cbn [Nat.add] in *. rewrite Hi in Hj. injection Hj as <-. exists cu. split; [assumption|].
    destruct Hk as [Hk|Hk]; [left; congruence|]. right.
    destruct Ho as [Ho|(e & He & Ho)]; [rewrite Ho in Hk; destruct Hk|]. exists e. rewrite <- Ho. auto.
  - destruct rcs; [congruence|discriminate].
Qed.

(* object o may be reached through cursor name [key]: a compiled column carrying o is rendered as [key]
   or, with loose matching, has [key] among its own objects *)
Definition carried (rcs : list rc) (loose : bool) (key o : key) : Prop :=
  exists j e, nth_error rcs j = Some e /\ In o (rc_objs e) /\
              (rc_keyname e = key \/ (loose = true /\ In key (rc_objs e))).

Definition mm_ok (rcs : list rc) (loose : bool) (mm : list (key * (list key * nat))) : Prop :=
  forall key objs ridx, kget mm key = Some (objs, ridx) -> forall o, In o objs -> carried rcs loose key o.

Lemma mm_ok_dset : forall rcs loose mm key objs ridx, mm_ok rcs loose mm ->
  (forall o, In o objs -> carried rcs loose key o) -> mm_ok rcs loose (dset key_eqb key (objs, ridx) mm).
Proof.
  intros rcs loose mm key objs ridx Hok Hnew key' objs' ridx' Hget.
  rewrite (dget_dset key_eqb key_eqb_eq) in Hget. destruct (key_eqb key' key) eqn:Ek; [|exact (Hok _ _ _ Hget)].
  apply key_eqb_eq in Ek. subst key'. now injection Hget as <- <-.
Qed.

Lemma mm_loose_fold : forall rcs e j ridx os mm, nth_error rcs j = Some e -> incl os (rc_objs e) ->
  mm_ok rcs true mm ->
  mm_ok rcs true (fold_left (fun d rk => match kget d rk with
                                          | Some _ => d
                                          | None => dset key_eqb rk (rc_objs e, ridx) d
                                          end) os mm).
Proof.
  intros rcs e j ridx. induction os as [|rk os IH]; intros mm Hj Hincl Hok; cbn [fold_left]; [assumption|].
  apply IH; [assumption|intros x Hx; apply Hincl; now right|].
  destruct (kget mm rk); [assumption|]. apply mm_ok_dset; [assumption|].
  intros o Ho. exists j, e. repeat split; try assumption. right. split; [reflexivity|]. apply Hincl. now left.
Qed.

Lemma mm_step_ok : forall rcs loose mm j e, nth_error rcs j = Some e -> mm_ok rcs loose mm ->
  mm_ok rcs loose (mm_step loose mm (j, e)).
Proof.
  intros rcs loose mm j e Hj Hok. unfold mm_step.
  destruct loose; [apply (mm_loose_fold rcs e j j); [assumption|apply incl_refl|]|].
  all: destruct (kget mm (rc_keyname e)) as [[eo r0]|] eqn:E; apply mm_ok_dset; try assumption; intros o Ho.
  1,3: apply in_app_or in Ho as [Ho|Ho]; [exact (Hok _ _ _ E o Ho)|].
  all: exists j, e; auto.
Qed.

Lemma match_map_ok : forall rcs loose, mm_ok rcs loose (match_map loose rcs).
Proof.
  intros rcs loose. unfold match_map.
  assert (G : forall l mm, (forall p, In p l -> nth_error rcs (fst p) = Some (snd p)) -> mm_ok rcs loose mm ->
              mm_ok rcs loose (fold_left (mm_step loose) l mm)).
  { induction l as [|[j e] l IH]; intros mm Hl Hok; cbn [fold_left]; [assumption|].
    apply IH; [intros p Hp; apply Hl; now right|]. apply mm_step_ok; [|assumption]. apply (Hl (j, e)). now left. }
  apply G.
  - intros p Hp. apply In_mapi in Hp as (i & a & Hn & ->). exact Hn.
  - intros key objs ridx H. discriminate.
Qed.

Theorem no_wrong_column_byname : forall rcs loose desc tr k i,
  rcs <> [] ->
  lookup (keymap_of (raw_byname rcs loose desc) (length rcs) tr) k = Ok i ->
  exists cu, nth_error desc i = Some cu /\
    (k = fst cu \/ exists j e, nth_error rcs j = Some e /\ In k (rc_objs e) /\
                    (rc_keyname e = fst cu \/ (loose = true /\ In (fst cu) (rc_objs e)))).
Proof.
  intros rcs loose desc tr k i Hne H.
  apply no_wrong_column_compiled in H as (r & Hr & Hi & Hk).
  - unfold raw_byname in Hr. apply In_mapi in Hr as (j & [colname untr] & Hn & ->).
    destruct (kget (match_map loose rcs) colname) as [[objs ridx]|] eqn:E; cbn [m_idx m_key m_objs] in *;
      injection Hi as ->; exists (colname, untr); (split; [assumption|]); cbn [fst];
      destruct Hk as [Hk|Hk]; try (left; congruence).
    + right. exact (match_map_ok rcs loose _ _ _ E k Hk).
    + destruct Hk.
  - destruct rcs; [congruence|discriminate].
Qed.

Theorem no_wrong_column_bynone : forall desc tr k i,
  lookup (keymap_of (raw_bynone desc) 0 tr) k = Ok i ->
  exists cu, nth_error desc i = Some cu /\
    (k = fst cu \/ exists j cu', nth_error desc j = Some cu' /\ snd cu' = k /\ fst cu' = fst cu).
Proof.
  intros desc tr k i H. apply no_wrong_column_plain in H as (r & Hr & Hi & Hk).
  unfold raw_bynone in Hr. apply In_mapi in Hr as (j & cu & Hn & ->). cbn [m_idx m_key] in *.
  injection Hi as ->. exists cu. split; [assumption|].
  destruct Hk as [Hk|(r' & Hr' & Hu & Hk)]; [left; congruence|]. right.
  apply In_mapi in Hr' as (j' & cu' & Hn' & ->). cbn [m_untr m_key] in *. eauto.
Qed.

Lemma by_position_get : forall km i r, dget rix_eqb (by_position km) (RAt i) = Some r ->
  m_ridx r = RAt i /\ exists k, In (k, r) km.
Proof.
  intros km i r H. unfold by_position in H. rewrite (dget_dict_of rix_eqb rix_eqb_eq) in H.
  apply (alast_Some_In rix_eqb rix_eqb_eq), in_map_iff in H as ([k r0] & E & Hin). cbn [snd] in E.
  injection E as E1 E2. subst r0. eauto.
Qed.

Definition adapt_entries (km : keymap) (news : list key) : list (key * mrec) :=
  flat_map (fun x => x)
    (mapi (fun i new => match dget rix_eqb (by_position km) (RAt i) with Some r => [(new, r)] | None => [] end) news).

Lemma In_adapt_entries : forall km news o r,
  In (o, r) (adapt_entries km news) <->
  exists i, nth_error news i = Some o /\ dget rix_eqb (by_position km) (RAt i) = Some r.
Proof.
  intros km news o r. unfold adapt_entries. rewrite in_flat_map. split.
  - intros (x & Hx & Hin). apply In_mapi in Hx as (i & new & Hn & ->).
    destruct (dget rix_eqb (by_position km) (RAt i)) as [r0|] eqn:E; [|destruct Hin].
    destruct Hin as [Hin|[]]. injection Hin as -> ->. eauto.
  - intros (i & Hn & E). exists [(o, r)]. split; [|now left]. apply In_mapi. exists i, o. rewrite E. auto.
Qed.

Lemma adapt_get : forall km news o,
  kget (adapt km news) o = match kalast (adapt_entries km news) o with Some r => Some r | None => kget km o end.
Proof. intros. unfold adapt. fold (adapt_entries km news). apply (dget_dupdate key_eqb key_eqb_eq). Qed.

(* safety: a key of the adapted map resolves to its own position in the new statement, or as in the cached map *)
Theorem adapt_no_wrong_column : forall rcs tr news o j,
  lookup (adapt (km_pos rcs tr) news) o = Ok j ->
  nth_error news j = Some o \/ lookup (km_pos rcs tr) o = Ok j.
Proof.
  intros rcs tr news o j H. apply lookup_Ok_get in H as (r & G & Hj). rewrite adapt_get in G.
  destruct (kalast (adapt_entries (km_pos rcs tr) news) o) as [r'|] eqn:E.
  - injection G as ->. left.
    apply (alast_Some_In key_eqb key_eqb_eq), In_adapt_entries in E as (i & Hn & Hbp).
    apply by_position_get in Hbp as (Hri & k & Hin). apply (km_pos_ridx _ _ _ _ _ Hin) in Hri. congruence.
  - right. now apply (lookup_of_get _ _ r).
Qed.

(* a column that occurs once in the new statement, at a position that is reachable in the cached map,
   resolves to that position *)
Theorem adapt_lookup_new_column : forall rcs tr news o i k0,
  nth_error news i = Some o -> (forall j, nth_error news j = Some o -> j = i) ->
  lookup (km_pos rcs tr) k0 = Ok i ->
  lookup (adapt (km_pos rcs tr) news) o = Ok i.
Proof.
  intros rcs tr news o i k0 Hn Huniq Hk0.
  apply lookup_Ok_get in Hk0 as (r0 & G0 & Hi0). apply (dget_In key_eqb key_eqb_eq) in G0.
  assert (Hbp : exists r, dget rix_eqb (by_position (km_pos rcs tr)) (RAt i) = Some r).
  { unfold by_position. rewrite (dget_dict_of rix_eqb rix_eqb_eq).
    apply (alast_In_Some rix_eqb rix_eqb_eq _ _ r0). apply in_map_iff. exists (k0, r0). cbn [snd].
    split; [|assumption]. f_equal. now apply (km_pos_ridx _ _ _ _ _ G0). }
  destruct Hbp as (r & Hbp).
  assert (Hin : In (o, r) (adapt_entries (km_pos rcs tr) news)) by (apply In_adapt_entries; eauto).
  destruct (alast_In_Some key_eqb key_eqb_eq _ _ _ Hin) as (r' & Hr').
  apply (lookup_of_get _ _ r'); [rewrite adapt_get, Hr'; reflexivity|].
  apply (alast_Some_In key_eqb key_eqb_eq), In_adapt_entries in Hr' as (i' & Hn' & Hbp').
  rewrite (Huniq _ Hn') in Hbp'. apply by_position_get in Hbp' as (Hri & k & Hk).
  now apply (km_pos_ridx _ _ _ _ _ Hk).
Qed.

(* metadata marked safe for the compiled cache by the positional merge does not depend on what the cursor
   calls its columns: any later cursor description of the same length yields the same metadata *)
Theorem safe_for_cache_positional_sound : forall rcs f desc desc' tr,
  rcs <> [] -> f_ordered f = true -> f_textual_ordered f = false ->
  length desc = length rcs -> length desc' = length rcs ->
  build rcs f desc tr = build rcs f desc' tr /\ safe_for_cache rcs f desc = true.
Proof.
  intros rcs f desc desc' tr Hne Ho Ht Hl Hl'. split; [now rewrite !build_positional|].
  pose proof (build_positional rcs f desc tr Hne Ho Ht Hl) as E. unfold build in E.
  destruct (merge rcs f desc); [now injection E|discriminate].
Qed.

Theorem name_matching_never_safe : forall rcs f desc,
  f_textual_ordered f = false -> f_adhoc f = false ->
  (f_ordered f = false \/ length desc <> length rcs) -> safe_for_cache rcs f desc = false.
Proof.
  intros rcs f desc Ht Ha H. unfold safe_for_cache. rewrite Ht, Ha. cbn [orb andb negb].
  destruct H as [H|H]; [rewrite H; now rewrite andb_false_r|].
  replace (Nat.eqb (length rcs) (length desc)) with false by (symmetry; apply Nat.eqb_neq; congruence).
  now rewrite !andb_false_r.
Qed.

(* the duplicate detection is skipped when the primary names are pairwise distinct: a key carried by two
   columns then silently resolves to one of them (the unchanged code; reproduced on SQLite) *)
Definition w_q := KS (NP 10).  Definition w_bz := KS (NP 11).  Definition w_aq := KS (NP 12).
Definition w_z := KS (NP 13).
Definition w_rcs : list rc :=
  [ {| rc_keyname := w_q; rc_name := w_q; rc_objs := [KO 1; w_q; w_bz; w_aq] |};        (* a.q, key "b_z" *)
    {| rc_keyname := w_z; rc_name := w_z; rc_objs := [KO 2; w_z; w_z; w_bz] |} ].       (* b.z, legacy label "b_z" *)

Theorem ambiguous_raises_refuted :
  exists rcs tr k i j ei ej,
    nth_error rcs i = Some ei /\ nth_error rcs j = Some ej /\ i <> j /\
    In k (rc_keyname ei :: rc_objs ei) /\ In k (rc_keyname ej :: rc_objs ej) /\
    lookup (km_pos rcs tr) k = Ok j.
Proof.
  exists w_rcs, true, w_bz, 0, 1. eexists. eexists.
  split; [reflexivity|]. split; [reflexivity|]. split; [discriminate|].
  split; [cbn; tauto|]. split; [cbn; tauto|]. vm_compute. reflexivity.
Qed.

(* plain text (no compiled columns): duplicate cursor names are never detected *)
Theorem plain_text_duplicate_names_refuted :
  exists desc k, nth_error desc 0 = Some (k, KN) /\ nth_error desc 1 = Some (k, KN) /\
    lookup (keymap_of (raw_bynone desc) 0 true) k = Ok 1.
Proof. exists [(w_q, KN); (w_q, KN)], w_q. repeat split. Qed.

(* name matching with more cursor columns than compiled columns: two compiled columns with the same
   label.  Before 0c26c9c the scan was skipped here (3 distinct cursor names = 3 compiled columns) and
   the first LABEL OBJECT resolved to the second column; now every shared key raises *)
Definition w_foo := KS (NP 20).  Definition w_p := KS (NP 21).  Definition w_star := KS (NP 22).
Definition w_rcs2 : list rc :=
  [ {| rc_keyname := w_foo; rc_name := w_foo; rc_objs := [KO 1; w_foo] |};
    {| rc_keyname := w_foo; rc_name := w_foo; rc_objs := [KO 2; w_foo] |};
    {| rc_keyname := w_star; rc_name := w_star; rc_objs := [KO 3; w_star; w_star] |} ].
Example name_matching_duplicate_names_raise :
  let km := keymap_of (raw_byname w_rcs2 false [(w_foo, KN); (w_foo, KN); (w_p, KN); (w_q, KN)]) 3 true in
  map (lookup km) [KO 1; KO 2; w_foo; w_p; w_q] = [Raise Ambiguous; Raise Ambiguous; Raise Ambiguous; Ok 2; Ok 3].
Proof. vm_compute. reflexivity. Qed.

Example name_matching_order_matters :
  let rcs := [ {| rc_keyname := w_q; rc_name := w_q; rc_objs := [KO 1; w_q] |};
               {| rc_keyname := w_z; rc_name := w_z; rc_objs := [KO 2; w_z] |} ] in
  lookup (keymap_of (raw_byname rcs true [(w_q, KN); (w_z, KN)]) 2 true) (KO 1) = Ok 0 /\
  lookup (keymap_of (raw_byname rcs true [(w_z, KN); (w_q, KN)]) 2 true) (KO 1) = Ok 1.
Proof. vm_compute. split; reflexivity. Qed.
