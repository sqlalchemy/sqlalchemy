(* C02 - the type component of the cache key.  TypeEngine._static_cache_key (sql/type_api.py):
     (cls,) + tuple((k, self.__dict__[k]) for k in util.get_cls_kwargs(cls)
                    if k in self.__dict__ and not k.startswith("_") and <skip test>)
   with the skip test  self.__dict__[k] is not None.  Model + proof that the key is injective in the
   constructor arguments for that skip test, and is not for a truthiness test. *)
From Coq Require Import List NArith ZArith Bool.
Import ListNotations.
From SAV.sql Require Import CacheKey.

Inductive skipmode := SkipNone (* "is not None" *) | SkipFalsy (* "if value" *).
(* one constructor argument name of the class: is it in __dict__ under a public name, and its value *)
Record targ := mkArg { tpresent : bool; tval : atom }.
Definition keeps (m : skipmode) (a : targ) : bool :=
  tpresent a && match m with SkipNone => negb (is_none (tval a)) | SkipFalsy => atruthy (tval a) end.
(* the (name, value) pairs of the key; names are positions in get_cls_kwargs(cls) *)
Fixpoint tkey_from (m : skipmode) (i : nat) (args : list targ) : list (nat * atom) :=
  match args with
  | [] => []
  | a :: r => (if keeps m a then [(i, tval a)] else []) ++ tkey_from m (S i) r
  end.
Definition tkey (m : skipmode) (args : list targ) : list (nat * atom) := tkey_from m 0 args.
(* what the instance was constructed with: None when the argument was not given *)
Definition eff (a : targ) : atom := if tpresent a then tval a else ANone.

Fixpoint tkey_eqb (x y : list (nat * atom)) : bool :=
  match x, y with
  | [], [] => true
  | (i, a) :: x', (j, b) :: y' => Nat.eqb i j && atom_eqb a b && tkey_eqb x' y'
  | _, _ => false
  end.

Lemma tkey_from_ge : forall m args i p, In p (tkey_from m i args) -> i <= fst p.
Proof.
  induction args as [|a r IH]; intros i p H; [contradiction|]. cbn in H. apply in_app_or in H as [H|H].
  - destruct (keeps m a); [|contradiction]. destruct H as [<-|[]]. apply le_n.
  - exact (Nat.le_trans _ _ _ (Nat.le_succ_diag_r i) (IH _ _ H)).
Qed.

Lemma is_none_eq : forall x, is_none x = true -> x = ANone.
Proof.
  intros [i t]; unfold is_none; cbn. intro H. apply andb_true_iff in H as [H1 H2].
  apply Z.eqb_eq in H1. apply negb_true_iff in H2. subst; reflexivity.
Qed.
Lemma unkept_none : forall a, keeps SkipNone a = false -> eff a = ANone.
Proof.
  intros [p v]; unfold keeps, eff; cbn. destruct p; [|reflexivity]. cbn. intro H.
  apply negb_false_iff in H. apply is_none_eq, H.
Qed.
Lemma kept_eff : forall m a, keeps m a = true -> eff a = tval a.
Proof. intros m [p v]; unfold keeps, eff; cbn. destruct p; [reflexivity | discriminate]. Qed.

(* two instances of one class (same argument names) with equal static keys were constructed with
   equal arguments *)
Theorem tkey_injective : forall a1 a2, length a1 = length a2 ->
  tkey SkipNone a1 = tkey SkipNone a2 -> map eff a1 = map eff a2.
Proof.
  unfold tkey. generalize 0. intros i a1. revert i.
  induction a1 as [|a r IH]; intros i [|b r'] Hl H; try discriminate; [reflexivity|].
  cbn in Hl. injection Hl as Hl. cbn [tkey_from map] in *.
  destruct (keeps SkipNone a) eqn:Ka, (keeps SkipNone b) eqn:Kb; cbn [app] in H.
  - injection H as Hv Hr. rewrite (kept_eff _ _ Ka), (kept_eff _ _ Kb), Hv. f_equal. exact (IH _ _ Hl Hr).
  - exfalso. assert (In (i, tval a) (tkey_from SkipNone (S i) r')) as Hi by (rewrite <- H; left; reflexivity).
    exact (Nat.nle_succ_diag_l _ (tkey_from_ge _ _ _ _ Hi)).
  - exfalso. assert (In (i, tval b) (tkey_from SkipNone (S i) r)) as Hi by (rewrite H; left; reflexivity).
    exact (Nat.nle_succ_diag_l _ (tkey_from_ge _ _ _ _ Hi)).
  - rewrite (unkept_none _ Ka), (unkept_none _ Kb). f_equal. exact (IH _ _ Hl H).
Qed.

(* with a truthiness test Numeric(10, 0) and Numeric(10) share their key *)
Definition numeric_10_0 : list targ := [mkArg true (mkA 10 true); mkArg true (mkA 77 false)].
Definition numeric_10   : list targ := [mkArg true (mkA 10 true); mkArg true ANone].
Lemma tkey_falsy_not_injective :
  tkey SkipFalsy numeric_10_0 = tkey SkipFalsy numeric_10 /\ map eff numeric_10_0 <> map eff numeric_10 /\
  tkey SkipNone numeric_10_0 <> tkey SkipNone numeric_10.
Proof. repeat split; vm_compute; discriminate. Qed.
