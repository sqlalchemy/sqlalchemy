(* C09 - DATETIME / DATE / TIME: storage format and both result processors round-trip every valid value *)
From Coq Require Import List NArith ZArith Bool Lia Zify.
Import ListNotations.
From SAV.sql Require Import Types TypesStrProofs.
Open Scope N_scope.

Lemma days_in_month_le : forall y m, days_in_month y m <= 31.
Proof.
  intros y m. unfold days_in_month.
  repeat match goal with |- context [match ?x with _ => _ end] => destruct x end; lia.
Qed.

Lemma valid_date_bounds : forall d, valid_date d = true ->
  dy d < 10000 /\ dm d < 100 /\ dd d < 100.
Proof.
  intros d H. unfold valid_date in H. repeat (apply andb_true_iff in H as [H ?]).
  repeat match goal with H : (_ <=? _) = true |- _ => apply N.leb_le in H end.
  pose proof (days_in_month_le (dy d) (dm d)). lia.
Qed.

Lemma valid_time_bounds : forall t, valid_time t = true ->
  th t < 100 /\ tmi t < 100 /\ ts t < 100 /\ tus t < 1000000.
Proof.
  intros t H. unfold valid_time in H. repeat (apply andb_true_iff in H as [H ?]).
  repeat match goal with H : (_ <? _) = true |- _ => apply N.ltb_lt in H end. lia.
Qed.

(* ---------- fromisoformat ---------- *)
Lemma parse_date_fields_fmt : forall d rest, valid_date d = true ->
  parse_date_fields (fmt_date d ++ rest) = Some (d, rest).
Proof.
  intros d rest H. destruct (valid_date_bounds d H) as (Hy & Hm & Hd).
  unfold parse_date_fields, fmt_date. rewrite <- ?app_assoc. cbn [app].
  rewrite take_num_digs by assumption. rewrite expect_cons.
  rewrite take_num_digs by assumption. rewrite expect_cons.
  rewrite take_num_digs by assumption. destruct d; reflexivity.
Qed.

Definition drop_us (t : time) : time := {| th := th t; tmi := tmi t; ts := ts t; tus := 0 |}.

Lemma valid_drop_us : forall t, valid_time t = true -> valid_time (drop_us t) = true.
Proof.
  intros t H. unfold valid_time in *. cbn [th tmi ts tus drop_us].
  repeat (apply andb_true_iff in H as [H ?]). repeat (apply andb_true_iff; split); auto.
Qed.

(* what comes back of [t]: with truncate_microseconds the microseconds are not stored *)
Definition stored (trunc : bool) (t : time) : time := if trunc then drop_us t else t.

Lemma valid_stored : forall trunc t, valid_time t = true -> valid_time (stored trunc t) = true.
Proof. intros [|] t H; [now apply valid_drop_us|exact H]. Qed.

Lemma parse_time_fields_fmt : forall trunc t, valid_time t = true ->
  parse_time_fields (fmt_time trunc t) = Some (stored trunc t, []).
Proof.
  intros trunc t H. destruct (valid_time_bounds t H) as (Hh & Hm & Hs & Hu).
  unfold parse_time_fields, fmt_time. rewrite <- ?app_assoc. cbn [app].
  rewrite take_num_digs by assumption. rewrite expect_cons.
  rewrite take_num_digs by assumption. rewrite expect_cons.
  rewrite take_num_digs by assumption. destruct trunc; [reflexivity|]. cbn [app]. rewrite expect_cons.
  rewrite <- (app_nil_r (digs 6 (tus t))). rewrite take_num_digs by assumption. destruct t; reflexivity.
Qed.

Theorem iso_date_roundtrip : forall d, valid_date d = true -> iso_date (fmt_date d) = POk d.
Proof.
  intros d H. unfold iso_date. rewrite <- (app_nil_r (fmt_date d)), parse_date_fields_fmt by assumption.
  now rewrite H.
Qed.

Theorem iso_time_roundtrip : forall trunc t, valid_time t = true ->
  iso_time (fmt_time trunc t) = POk (stored trunc t).
Proof. intros trunc t H. unfold iso_time. now rewrite parse_time_fields_fmt, valid_stored. Qed.

Lemma fmt_time_nonempty : forall trunc t, exists c r, fmt_time trunc t = c :: r.
Proof.
  intros trunc t. unfold fmt_time. cbn [digs]. rewrite <- ?app_assoc. cbn [app]. eauto.
Qed.

Theorem iso_datetime_roundtrip : forall trunc d t, valid_date d = true -> valid_time t = true ->
  iso_datetime (fmt_datetime trunc d t) = POk (d, stored trunc t).
Proof.
  intros trunc d t Hd Ht. unfold iso_datetime, fmt_datetime. rewrite parse_date_fields_fmt by assumption.
  cbn [app]. rewrite expect_cons, parse_time_fields_fmt by assumption. now rewrite Hd, valid_stored.
Qed.

(* a date bound to a DATETIME column comes back as midnight of that day *)
Theorem iso_datetime_of_date : forall d, valid_date d = true ->
  iso_datetime (fmt_datetime false d midnight) = POk (d, midnight).
Proof. intros d H. now apply (iso_datetime_roundtrip false). Qed.

(* ---------- custom regexp ---------- *)
Lemma re_date_groups_fmt : forall d rest, valid_date d = true -> no_digit_head rest ->
  re_date_groups (fmt_date d ++ rest) = Some ([dy d; dm d; dd d], rest).
Proof.
  intros d rest H Hr. destruct (valid_date_bounds d H) as (Hy & Hm & Hd).
  unfold re_date_groups, fmt_date. rewrite <- ?app_assoc. cbn [app].
  rewrite take_run_digs by (assumption || discriminate || exact I || reflexivity). rewrite expect_cons.
  rewrite take_run_digs by (assumption || discriminate || exact I || reflexivity). rewrite expect_cons.
  rewrite take_run_digs by (assumption || discriminate || exact I || reflexivity). reflexivity.
Qed.

Lemma re_time_groups_fmt : forall trunc t, valid_time t = true ->
  re_time_groups (fmt_time trunc t) = Some [th t; tmi t; ts t; tus (stored trunc t)].
Proof.
  intros trunc t H. destruct (valid_time_bounds t H) as (Hh & Hm & Hs & Hu).
  unfold re_time_groups, fmt_time. rewrite <- ?app_assoc. cbn [app].
  rewrite take_run_digs by (assumption || discriminate || exact I || reflexivity). rewrite expect_cons.
  rewrite take_run_digs by (assumption || discriminate || exact I || reflexivity). rewrite expect_cons.
  destruct trunc; cbn [app].
  - rewrite take_run_digs by (assumption || discriminate || exact I || reflexivity). reflexivity.
  - rewrite take_run_digs by (assumption || discriminate || exact I || reflexivity). rewrite expect_cons.
    rewrite <- (app_nil_r (digs 6 (tus t))). rewrite take_run_digs by (assumption || discriminate || exact I || reflexivity). reflexivity.
Qed.

Lemma mk_date_valid : forall d, valid_date d = true -> mk_date [dy d; dm d; dd d] = Ok d.
Proof. intros [y m d] H. cbn [mk_date dy dm dd]. now rewrite H. Qed.
Lemma mk_time_valid : forall t, valid_time t = true -> mk_time [th t; tmi t; ts t; tus t] = Ok t.
Proof. intros [h mi s us] H. cbn [mk_time th tmi ts tus]. now rewrite H. Qed.

(* the groups of a formatted time, made into a time again *)
Lemma mk_time_stored : forall trunc t, valid_time t = true ->
  mk_time [th t; tmi t; ts t; tus (stored trunc t)] = Ok (stored trunc t).
Proof. intros trunc t H. rewrite <- (mk_time_valid _ (valid_stored trunc t H)). now destruct trunc. Qed.

Theorem regexp_date_roundtrip : forall d, valid_date d = true -> regexp_date (Some (fmt_date d)) = Ok (Some d).
Proof.
  intros d H. unfold regexp_date. rewrite <- (app_nil_r (fmt_date d)), re_date_groups_fmt by (try assumption; exact I).
  now rewrite mk_date_valid.
Qed.

Theorem regexp_time_roundtrip : forall trunc t, valid_time t = true ->
  regexp_time (Some (fmt_time trunc t)) = Ok (Some (stored trunc t)).
Proof. intros trunc t H. unfold regexp_time. now rewrite re_time_groups_fmt, mk_time_stored. Qed.

Theorem regexp_datetime_roundtrip : forall trunc d t, valid_date d = true -> valid_time t = true ->
  regexp_datetime (Some (fmt_datetime trunc d t)) = Ok (Some (d, stored trunc t)).
Proof.
  intros trunc d t Hd Ht. unfold regexp_datetime, fmt_datetime.
  rewrite re_date_groups_fmt by (try assumption; reflexivity). cbn [app]. rewrite expect_cons.
  rewrite re_time_groups_fmt by assumption. now rewrite mk_date_valid, mk_time_stored.
Qed.
