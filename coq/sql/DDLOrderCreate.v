(* C14 - create_all: the plan is accepted by the reference catalog and yields the metadata *)
From Coq Require Import List NArith Bool Lia Permutation.
Import ListNotations.
From SAV.util Require Import Topo Cycles TopoProofs TopoCycle TopoExtra CyclesSound CyclesComplete CyclesExact.
From SAV.sql Require Import DDLOrder DDLOrderBase DDLOrderSort DDLOrderExec.

Lemma flat_map_pick_none (D : table -> list fk) l n : ~ In n (map t_name l) ->
  flat_map (fun u => if N.eqb (t_name u) n then D u else []) l = [].
Proof. induction l as [|u l IH]; simpl; [reflexivity|]. intros H.
  destruct (N.eqb_spec (t_name u) n) as [E|E]; [exfalso; apply H; left; exact E|]. simpl. apply IH. tauto. Qed.

Lemma flat_map_pick (D : table -> list fk) l t : NoDup (map t_name l) -> In t l ->
  flat_map (fun u => if N.eqb (t_name u) (t_name t) then D u else []) l = D t.
Proof. induction l as [|u l IH]; simpl; [tauto|]. intros Hn Hin. apply NoDup_cons_iff in Hn. destruct Hn as [H1 H2].
  destruct Hin as [->|Hin].
  - rewrite N.eqb_refl, flat_map_pick_none by exact H1. apply app_nil_r.
  - destruct (N.eqb_spec (t_name u) (t_name t)) as [E|E]; [|apply IH; assumption].
    destruct H1. rewrite E. apply in_map, Hin. Qed.

Lemma In_alter_stmts mk filt tables cyc s : In s (alter_stmts mk filt tables cyc) ->
  exists t f, s = mk (t_name t) f /\ In t tables /\ In f (t_fks t) /\ deferred filt tables cyc t f = true.
Proof. intros H. apply in_flat_map in H. destruct H as [t [Ht H]]. apply in_map_iff in H. destruct H as [f [<- Hf]].
  apply filter_In in Hf. exists t, f. tauto. Qed.

(* the ALTER block, table by table: the constraints it names for a table are that table's [deferred_of],
   whether the statements add them or drop them *)
Section AlterBlock.
Variable mk : N -> fk -> stmt.
Hypothesis Hmk : mk = AddFK \/ mk = DropFK.
Variables (filt : fk -> option bool) (tables : list table) (cyc : list node).

Lemma alter_fks_stmts n : alter_fks n (alter_stmts mk filt tables cyc) =
  flat_map (fun t => if N.eqb (t_name t) n then deferred_of filt tables cyc t else []) tables.
Proof. unfold alter_stmts. generalize (deferred_of filt tables cyc). intros D.
  induction tables as [|t l IH]; simpl; [reflexivity|]. unfold alter_fks in *. rewrite flat_map_app, IH. f_equal.
  induction (D t) as [|f r IHr]; simpl; [destruct (N.eqb (t_name t) n); reflexivity|].
  rewrite IHr. destruct Hmk as [-> | ->]; destruct (N.eqb (t_name t) n); reflexivity. Qed.

Lemma alter_fks_table t : NoDup (names tables) -> In t tables ->
  alter_fks (t_name t) (alter_stmts mk filt tables cyc) = deferred_of filt tables cyc t.
Proof. intros Hn Ht. rewrite alter_fks_stmts. apply flat_map_pick; assumption. Qed.

Lemma alter_fks_none n : ~ In n (names tables) -> alter_fks n (alter_stmts mk filt tables cyc) = [].
Proof. intros Hn. rewrite alter_fks_stmts. apply flat_map_pick_none, Hn. Qed.
End AlterBlock.

Lemma deferred_none tables cyc t f :
  deferred none_filter tables cyc t f = fk_alter f || hit none_filter tables cyc t.
Proof. unfold deferred, pre_deferred, none_filter. simpl. rewrite orb_false_r, andb_true_r. reflexivity. Qed.

Lemma dep_fk_none t f : dep_fk none_filter t f = negb (fk_alter f) && negb (N.eqb (fk_ref f) (t_name t)).
Proof. unfold dep_fk, pre_deferred, none_filter. simpl. rewrite orb_false_r. reflexivity. Qed.

Lemma stc_none_before tables o cyc w t f : sort_tables_and_constraints none_filter tables = Ok (o, cyc, w) ->
  In t tables -> In f (t_fks t) -> fk_alter f = false -> fk_ref f <> t_name t ->
  hit none_filter tables cyc t = false -> In (fk_ref f) (names tables) -> before o (fk_ref f) (t_name t).
Proof. intros Hs Ht Hf Ha Hne Hh. apply (stc_before_fk _ _ _ _ _ t f Hs Ht Hf).
  - rewrite dep_fk_none, Ha. apply negb_true_iff, N.eqb_neq, Hne.
  - unfold discarded. rewrite Hh. reflexivity. Qed.

Lemma stc_none_circular_iff tables : sort_tables_and_constraints none_filter tables = Circular <->
  exists w, cycle (fixed tables) w /\ incl w (names tables).
Proof. split; [|apply explicit_cycle_raises]. rewrite stc_circular_iff. apply has_cycle_mono; [|apply incl_refl].
  (* no constraint is refused by the absent filter, so no edge is stuck *)
  intros e He. apply in_app_or in He. destruct He as [He|He]; [exact He|]. apply In_stuck in He.
  destruct He as [t [f [_ [Hf [Hu _]]]]]. apply unremovable_false in Hu; [discriminate Hu|exact Hf]. Qed.

Section CreateProof.
Variable md : metadata.
Variable db0 : db.
Variable checkfirst : bool.
Hypothesis Hwf : wf md.
Hypothesis Hcons : consistent db0 md.
Hypothesis Hcf : checkfirst = false -> db0 = [].

Let tables := create_tables (map fst db0) checkfirst md.

Lemma In_tables t : In t tables <-> In t md /\ has_table (t_name t) db0 = false.
Proof. unfold tables, create_tables. rewrite filter_In. destruct checkfirst eqn:C; simpl.
  - rewrite negb_true_iff, memb_false, has_table_false. tauto.
  - rewrite (Hcf eq_refl). simpl. tauto. Qed.

Lemma tables_nodup : NoDup (names tables).
Proof. apply NoDup_map_filter, Hwf. Qed.

Lemma name_in_tables n : In n (names md) -> has_table n db0 = false -> In n (names tables).
Proof. intros H Hh. apply in_map_iff in H. destruct H as [t [<- Ht]]. apply in_map, In_tables. tauto. Qed.

Lemma names_sub : incl (names tables) (names md).
Proof. apply incl_map, incl_filter. Qed.

Section WithSort.
Variables (o cyc : list node) (w : bool).
Hypothesis Hs : sort_tables_and_constraints none_filter tables = Ok (o, cyc, w).

Let inl (n : node) : list fk :=
  match find_table tables n with Some t => inline_of none_filter tables cyc t | None => [] end.

Lemma o_perm : Permutation o (names tables).
Proof. exact (stc_perm _ _ _ _ _ Hs). Qed.

Lemma o_nodup : NoDup o.
Proof. exact (stc_nodup _ _ _ _ _ tables_nodup Hs). Qed.

Lemma o_table n : In n o -> exists t, In t tables /\ t_name t = n /\ find_table tables n = Some t.
Proof. intros H. apply (Permutation_in _ o_perm), in_map_iff in H.
  destruct H as [t [<- Ht]]. exists t. split; [exact Ht|]. split; [reflexivity|]. apply find_table_in; [apply tables_nodup|exact Ht]. Qed.

Lemma create_stmts_map : forall l, incl l o ->
  create_stmts tables cyc l = map (fun n => CreateT n (inl n)) l.
Proof. induction l as [|n l IH]; intros Hi; [reflexivity|]. unfold create_stmts in *. cbn [flat_map map].
  rewrite IH by (intros x Hx; apply Hi; right; exact Hx).
  destruct (o_table n (Hi n (or_introl eq_refl))) as [t [_ [_ Hf]]]. unfold inl. rewrite Hf. reflexivity. Qed.

Lemma o_new n : In n o -> has_table n db0 = false.
Proof. intros H. destruct (o_table n H) as [t [Ht [<- _]]]. apply In_tables in Ht. tauto. Qed.

Lemma o_refs pre n suf : o = pre ++ n :: suf -> forall f, In f (inl n) ->
  fk_ref f = n \/ has_table (fk_ref f) db0 = true \/ In (fk_ref f) pre.
Proof.
  intros E f Hf.
  destruct (o_table n) as [t [Ht [<- Hfind]]]; [rewrite E; apply in_elt|]. unfold inl in Hf. rewrite Hfind in Hf.
  apply filter_In in Hf. destruct Hf as [Hf Hnd]. apply negb_true_iff in Hnd.
  rewrite deferred_none in Hnd. apply orb_false_iff in Hnd. destruct Hnd as [Ha Hh].
  destruct (N.eqb_spec (fk_ref f) (t_name t)) as [|Hne]; [left; assumption|right].
  destruct (has_table (fk_ref f) db0) eqn:Hx; [left; reflexivity|right].
  apply (before_prefix o (fk_ref f) (t_name t) pre suf o_nodup); [|exact E].
  apply (stc_none_before _ _ _ _ t f Hs Ht Hf Ha Hne Hh).
  apply name_in_tables; [|exact Hx]. apply In_tables in Ht. eapply Hwf; [apply Ht|exact Hf]. Qed.

Let d1 : db := db0 ++ rows_of inl o.

Lemma creates_ok : exec db0 (create_stmts tables cyc o) = Some d1.
Proof. rewrite create_stmts_map by apply incl_refl. apply exec_creates; [exact o_nodup|exact o_new|exact o_refs]. Qed.

Lemma d1_names : forall n, In n (map fst d1) <-> In n (names md).
Proof. intros n. unfold d1. rewrite map_app, rows_names, in_app_iff. split.
  - intros [H|H]; [apply Hcons, H|apply names_sub, (Permutation_in _ o_perm), H].
  - intros H. destruct (has_table n db0) eqn:E; [left; apply has_table_In, E|right].
    apply (Permutation_in _ (Permutation_sym o_perm)), name_in_tables; assumption. Qed.

Let u := alter_stmts AddFK none_filter tables cyc.

Lemma fks_total t : In t md -> Permutation (fks_in (t_name t) d1 ++ alter_fks (t_name t) u) (t_fks t).
Proof.
  intros Ht. unfold d1. rewrite fks_in_app. destruct (has_table (t_name t) db0) eqn:Hx.
  - (* already existed: nothing added *)
    unfold u. rewrite (alter_fks_none AddFK (or_introl eq_refl)), app_nil_r; [apply Hcons; assumption|].
    intros Hin. apply in_map_iff in Hin. destruct Hin as [t' [E Ht']]. apply In_tables in Ht'. rewrite E in Ht'.
    destruct Ht'; congruence.
  - assert (Htt : In t tables) by (apply In_tables; tauto).
    unfold u. rewrite (alter_fks_table AddFK (or_introl eq_refl) _ _ _ t tables_nodup Htt), fks_in_rows.
    + unfold inl. rewrite (find_table_in tables t tables_nodup Htt).
      etransitivity; [apply Permutation_app_comm|apply filter_split_perm].
    + apply (Permutation_in _ (Permutation_sym o_perm)), in_map, Htt. Qed.

Lemma fks_total_none n : ~ In n (names md) -> fks_in n d1 ++ alter_fks n u = [].
Proof. intros Hn. unfold u. rewrite (alter_fks_none AddFK (or_introl eq_refl)) by (intros H; apply Hn, names_sub, H).
  rewrite app_nil_r. apply fks_in_none, has_table_false. rewrite d1_names. exact Hn. Qed.

Theorem alters_ok u' : Permutation u' u -> exists d', exec d1 u' = Some d' /\ cat_equiv d' md.
Proof.
  intros Hp.
  assert (Hpp : forall n, Permutation (fks_in n d1 ++ alter_fks n u') (fks_in n d1 ++ alter_fks n u)).
  { intros n. apply Permutation_app_head, alter_fks_perm, Hp. }
  destruct (exec_adds u' d1) as [d' [H1 [H2 H3]]].
  - intros s Hin. apply (Permutation_in _ Hp), In_alter_stmts in Hin. destruct Hin as [t [f [-> [Ht [Hf _]]]]].
    exists (t_name t), f. apply In_tables in Ht. rewrite !has_table_In, !d1_names.
    split; [reflexivity|]. split; [apply in_map, Ht|eapply Hwf; [apply Ht|exact Hf]].
  - intros n. apply (Permutation_NoDup (Permutation_map fk_id (Permutation_sym (Hpp n)))).
    destruct (in_dec N.eq_dec n (names md)) as [Hin|Hnin]; [|rewrite (fks_total_none n Hnin); constructor].
    apply in_map_iff in Hin. destruct Hin as [t [<- Ht]].
    apply (Permutation_NoDup (Permutation_map fk_id (Permutation_sym (fks_total t Ht)))), Hwf, Ht.
  - exists d'. split; [exact H1|]. split.
    + rewrite H2. apply NoDup_Permutation; [|apply Hwf|exact d1_names]. unfold d1. rewrite map_app, rows_names.
      apply NoDup_app_intro; [apply Hcons|exact o_nodup|]. intros x Hx Ho. apply o_new in Ho.
      apply has_table_In in Hx. congruence.
    + intros t Ht. rewrite H3 by (apply has_table_In, d1_names, in_map, Ht).
      etransitivity; [apply Hpp|apply fks_total, Ht]. Qed.
End WithSort.

Theorem create_all_succeeds :
  ~ (exists w, cycle (fixed md) w /\ incl w (names md)) ->
  exists o u, create_plan (map fst db0) checkfirst md = Plan o u /\
    forall u', Permutation u' u -> exists d', exec db0 (o ++ u') = Some d' /\ cat_equiv d' md.
Proof.
  intros Hfix. unfold create_plan. fold tables.
  destruct (sort_tables_and_constraints none_filter tables) as [[[o cyc] w]| |] eqn:Hs.
  - exists (create_stmts tables cyc o), (alter_stmts AddFK none_filter tables cyc). split; [reflexivity|].
    intros u' Hp. rewrite exec_app. rewrite (creates_ok o cyc w Hs).
    apply (alters_ok o cyc w Hs). exact Hp.
  - destruct Hfix. apply stc_none_circular_iff in Hs. revert Hs.
    apply has_cycle_mono; [apply flat_map_incl, incl_filter|exact names_sub].
  - destruct (stc_never_fuel _ _ Hs). Qed.
End CreateProof.

Theorem create_plan_circular_iff existing checkfirst md :
  create_plan existing checkfirst md = ErrCircular <->
  exists w, cycle (fixed (create_tables existing checkfirst md)) w /\
            incl w (names (create_tables existing checkfirst md)).
Proof. rewrite <- stc_none_circular_iff. unfold create_plan.
  destruct (sort_tables_and_constraints none_filter (create_tables existing checkfirst md)) as [[[o cyc] w]| |];
    split; intros H; try discriminate; reflexivity. Qed.

Theorem create_plan_total existing checkfirst md :
  create_plan existing checkfirst md <> ErrFuel /\ create_plan existing checkfirst md <> ErrCompile.
Proof. unfold create_plan.
  destruct (sort_tables_and_constraints none_filter (create_tables existing checkfirst md)) as [[[o cyc] w]| |] eqn:E;
    split; try discriminate. exfalso. exact (stc_never_fuel _ _ E). Qed.
