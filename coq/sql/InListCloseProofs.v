(* C07: generic lemmas about the code-side helpers (all_ok, enum_from, parameter dictionaries) and
   about [close] (substitution of values for placeholders). *)
From Coq Require Import List ZArith NArith Bool Lia.
Import ListNotations.
From SAV.sql Require Import Val3 InList InListSpecProofs.

Lemma all_ok_map {A B} (f : A -> result B) (g : A -> B) l :
  (forall a, In a l -> f a = Ok (g a)) -> all_ok (map f l) = Ok (map g l).
Proof.
  induction l as [|a l IH]; intros H; [reflexivity|].
  cbn [map all_ok]. rewrite (H a (or_introl eq_refl)). rewrite IH; [reflexivity|].
  intros; apply H; now right.
Qed.

Lemma enum_from_length {A} n (l : list A) : length (enum_from n l) = length l.
Proof. revert n; induction l; intro n; cbn [enum_from length]; [reflexivity|now rewrite IHl]. Qed.
Lemma enum_from_snd {A} n (l : list A) : map snd (enum_from n l) = l.
Proof. revert n; induction l; intro n; cbn [enum_from map]; [reflexivity|now rewrite IHl]. Qed.
Lemma enum_from_ge {A} n (l : list A) x : In x (enum_from n l) -> (n <= fst x)%N.
Proof.
  revert n; induction l as [|a l IH]; intros n H; [destruct H|].
  cbn [enum_from] in H. destruct H as [<-|H]; [cbn; lia|]. apply IH in H. lia.
Qed.
Lemma enum_from_nodup {A} n (l : list A) : NoDup (map fst (enum_from n l)).
Proof.
  revert n; induction l as [|a l IH]; intro n; cbn [enum_from map]; constructor; [|apply IH].
  intros H. apply in_map_iff in H as (x & Hx & Hin). apply enum_from_ge in Hin. cbn [fst] in *. lia.
Qed.

Definition no_exp (l : list (pname * sv)) : Prop := forall kv, In kv l -> match fst kv with PExp _ => False | _ => True end.

Lemma key_eqb_refl k : key_eqb k k = true.
Proof. unfold key_eqb. now rewrite !N.eqb_refl. Qed.
Lemma key_eqb_eq a b : key_eqb a b = true -> a = b.
Proof.
  unfold key_eqb. intros H. apply andb_true_iff in H as [H1 H2].
  apply N.eqb_eq in H1, H2. destruct a, b; cbn in *; now subst.
Qed.

Lemma update_params_fresh base tu : no_exp base -> update_params base tu = base ++ exp_params tu.
Proof.
  intros Hb. unfold update_params. f_equal. f_equal.
  induction tu as [|kv tu IH]; [reflexivity|]. cbn [filter].
  replace (existsb _ base) with false; [cbn [negb]; now rewrite IH|].
  symmetry. apply not_true_is_false. intros H. apply existsb_exists in H as (x & Hx & H).
  specialize (Hb x Hx). destruct (fst x); try discriminate. destruct Hb.
Qed.

Lemma lookup_app_no_exp base l k : no_exp base -> lookup_param (PExp k) (base ++ l) = lookup_param (PExp k) l.
Proof.
  intros Hb. unfold lookup_param. induction base as [|kv base IH]; [reflexivity|].
  cbn [app find]. pose proof (Hb kv (or_introl eq_refl)) as H. destruct (fst kv); try (destruct H).
  all: apply IH; intros x Hx; apply Hb; now right.
Qed.

Lemma lookup_exp_in tu k v : NoDup (map fst tu) -> In (k, v) tu -> lookup_param (PExp k) (exp_params tu) = Some v.
Proof.
  intros Hn Hin. unfold lookup_param, exp_params. induction tu as [|kv tu IH]; [destruct Hin|].
  cbn [map find fst]. inversion Hn; subst. destruct Hin as [->|Hin].
  - cbn [fst snd]. now rewrite key_eqb_refl.
  - destruct (key_eqb (fst kv) k) eqn:E.
    + apply key_eqb_eq in E. subst. exfalso. apply H1. apply in_map_iff. now exists (fst kv, v).
    + now apply IH.
Qed.

Lemma lookup_other_app base l n :
  lookup_param (POther n) (base ++ exp_params l) = lookup_param (POther n) base.
Proof.
  unfold lookup_param. induction base as [|kv base IH].
  - cbn [app]. induction l as [|x l IHl]; [reflexivity|]. cbn [exp_params map find fst]. apply IHl.
  - cbn [app find]. destruct (fst kv); try apply IH. destruct (N.eqb n0 n); [reflexivity|apply IH].
Qed.

Definition static (t : tok) : bool :=
  match t with TQ | TBind _ _ | TOther _ | TCol _ | TPost => false | _ => true end.

Lemma close_static row ps s : forallb static s = true -> close row ps [] s = Some s.
Proof.
  induction s as [|t s IH]; intros H; [reflexivity|].
  cbn [forallb] in H. apply andb_true_iff in H as [Ht Hs].
  destruct t; try discriminate; cbn [close]; now rewrite (IH Hs).
Qed.

Lemma close_app row ps a1 s1 c1 a2 s2 c2 :
  close row ps a1 s1 = Some c1 -> close row ps a2 s2 = Some c2 ->
  close row ps (a1 ++ a2) (s1 ++ s2) = Some (c1 ++ c2).
Proof.
  revert a1 c1. induction s1 as [|t s1 IH]; intros a1 c1 H1 H2.
  - cbn [close] in H1. destruct a1; [|discriminate]. inversion H1; subst. exact H2.
  - (* "?" consumes an argument, a named placeholder must be bound; otherwise the token is kept *)
    cbn [app]. destruct t; cbn [close] in *; try discriminate H1;
      try (destruct a1 as [|x a1]; [discriminate H1|]; cbn [app]);
      try (destruct (lookup_param _ ps); [|discriminate H1]);
      (destruct (close row ps a1 s1) as [cc|] eqn:E; cbn [option_map] in H1; [|discriminate H1];
       inversion H1; subst; now rewrite (IH a1 cc E H2)).
Qed.

Lemma close_wrap row ps a s c : close row ps a s = Some c ->
  close row ps a ([TLp] ++ s ++ [TRp]) = Some ([TLp] ++ c ++ [TRp]).
Proof.
  intros H. apply (close_app row ps [] [TLp] [TLp] a _ _ eq_refl).
  rewrite <- (app_nil_r a). apply close_app; [exact H|reflexivity].
Qed.

(* pieces joined by a separator without placeholders close piecewise, the arguments in the same order *)
Lemma close_join {A} row ps sep (arg : A -> list sv) (src dst : A -> list tok) l :
  forallb static sep = true ->
  (forall a, In a l -> close row ps (arg a) (src a) = Some (dst a)) ->
  close row ps (concat (map arg l)) (join sep (map src l)) = Some (join sep (map dst l)).
Proof.
  intros Hs H. induction l as [|x [|y l] IH].
  - reflexivity.
  - cbn [map concat join]. rewrite app_nil_r. apply H. now left.
  - cbn [map concat] in *. rewrite !join_cons2.
    apply close_app; [apply H; now left|].
    apply (close_app row ps [] sep sep); [now apply close_static|].
    apply IH. intros a Ha. apply H. now right.
Qed.
