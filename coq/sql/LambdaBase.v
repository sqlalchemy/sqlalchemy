(* C17 - basic facts about the value type: induction principle, the key comparison decides equality, kinds *)
From Coq Require Import List NArith ZArith Bool.
Import ListNotations.
From SAV.sql Require Import Lambda.

Section ValInd.
  Variable P : val -> Prop.
  Hypothesis HNone : P VNone.
  Hypothesis HInt : forall z, P (VInt z).
  Hypothesis HStr : forall s, P (VStr s).
  Hypothesis HList : forall l, Forall P l -> P (VList l).
  Hypothesis HCol : forall t c, P (VCol t c).
  Hypothesis HTab : forall t, P (VTab t).
  Hypothesis HFun : forall k cap, Forall P cap -> P (VFun k cap).
  Fixpoint val_ind' (v : val) : P v :=
    let fix go (l : list val) : Forall P l :=
      match l with [] => Forall_nil P | x :: r => Forall_cons x (val_ind' x) (go r) end in
    match v with
    | VNone => HNone | VInt z => HInt z | VStr s => HStr s | VList l => HList l (go l)
    | VCol t c => HCol t c | VTab t => HTab t | VFun k cap => HFun k cap (go cap)
    end.
End ValInd.

(* Each comparison of the key decides equality, level by level; the nested list cases of [val_eqb] only know the
   comparison of their elements through the induction hypothesis, hence the [Forall] form. *)
Lemma list_eqb_iff_in : forall A (eqb : A -> A -> bool) xs,
  Forall (fun x => forall y, eqb x y = true <-> x = y) xs ->
  forall ys, list_eqb eqb xs ys = true <-> xs = ys.
Proof.
  induction 1 as [|x r Hx _ IH]; intros [|y ys]; cbn; try (split; (discriminate || reflexivity)).
  rewrite andb_true_iff, Hx, IH. intuition congruence.
Qed.

Lemma list_eqb_iff : forall A (eqb : A -> A -> bool), (forall x y, eqb x y = true <-> x = y) ->
  forall xs ys, list_eqb eqb xs ys = true <-> xs = ys.
Proof. intros A eqb H xs. apply list_eqb_iff_in, Forall_forall. intros x _. apply H. Qed.

(* the local fixpoints inside [val_eqb] are [list_eqb] *)
Lemma val_eqb_str : forall x y, val_eqb (VStr x) (VStr y) = list_eqb Z.eqb x y.
Proof. induction x as [|a x IH]; intros [|b y]; try reflexivity. cbn in *. rewrite IH. reflexivity. Qed.
Lemma val_eqb_list : forall x y, val_eqb (VList x) (VList y) = list_eqb val_eqb x y.
Proof. induction x as [|a x IH]; intros [|b y]; try reflexivity. cbn in *. rewrite IH. reflexivity. Qed.
Lemma val_eqb_fun : forall k cap k' cap', val_eqb (VFun k cap) (VFun k' cap') = (N.eqb k k' && list_eqb val_eqb cap cap').
Proof. intros. rewrite <- val_eqb_list. reflexivity. Qed.

Lemma val_eqb_iff : forall a b, val_eqb a b = true <-> a = b.
Proof.
  induction a using val_ind'; intros []; try (split; discriminate).
  - split; reflexivity.
  - cbn. rewrite Z.eqb_eq. split; congruence.
  - rewrite val_eqb_str, (list_eqb_iff _ _ Z.eqb_eq). split; congruence.
  - rewrite val_eqb_list, (list_eqb_iff_in _ _ _ H). split; congruence.
  - cbn. rewrite andb_true_iff, !N.eqb_eq. intuition congruence.
  - cbn. rewrite N.eqb_eq. split; congruence.
  - rewrite val_eqb_fun, andb_true_iff, N.eqb_eq, (list_eqb_iff_in _ _ _ H). intuition congruence.
Qed.

Lemma optval_eqb_iff : forall a b, optval_eqb a b = true <-> a = b.
Proof. intros [a|] [b|]; cbn; try (split; (discriminate || reflexivity)). rewrite val_eqb_iff. split; congruence. Qed.

Lemma ckey_eqb_iff : forall a b, ckey_eqb a b = true <-> a = b.
Proof.
  apply list_eqb_iff. intros [c k] [c' k']. cbn.
  rewrite andb_true_iff, N.eqb_eq, (list_eqb_iff _ _ optval_eqb_iff). intuition congruence.
Qed.

Lemma ckey_eqb_refl : forall a, ckey_eqb a a = true.
Proof. intros a. apply ckey_eqb_iff. reflexivity. Qed.

(* kinds: what the analysis can see of a value *)
Definition kind (v : val) : N :=
  match v with
  | VNone | VInt _ => 0
  | VStr _ => 6
  | VList _ => if deep_is_literal v then 1 else 5
  | VCol _ _ => 2
  | VTab _ => 3
  | VFun _ _ => 4
  end%N.

Definition same_shape (v v' : val) : Prop :=
  match v, v' with
  | (VNone | VInt _), (VNone | VInt _) | VStr _, VStr _ | VList _, VList _
  | VCol _ _, VCol _ _ | VTab _, VTab _ | VFun _ _, VFun _ _ => True
  | _, _ => False
  end.

Lemma kind_shape : forall v v', kind v = kind v' -> same_shape v v'.
Proof.
  intros v v' H. destruct v, v'; try exact I; try discriminate H; unfold kind in H;
    destruct (deep_is_literal (VList _)); discriminate H.
Qed.

Lemma kind_literal : forall v v', kind v = kind v' -> deep_is_literal v = deep_is_literal v'.
Proof.
  intros v v' H. pose proof (kind_shape _ _ H) as C. destruct v, v'; try contradiction; try reflexivity.
  unfold kind in H. destruct (deep_is_literal (VList l)), (deep_is_literal (VList l0)); (reflexivity || discriminate).
Qed.
