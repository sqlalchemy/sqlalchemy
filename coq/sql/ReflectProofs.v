(* C15.  First the boolean guards that the theorems of ReflectTheorems.v and props/C15.v assume (prep_dq .. wf_parts;
   specs/c15.py evaluates the same conditions to classify its test cases), then the matchers on rendered text:
   the lazy groups, the UNIQUE tail, the CONSTRAINT-name group, and comma-joined lists read back by a scanner. *)
From Coq Require Import List NArith Bool Lia Arith.
Import ListNotations.
From SAV.sql Require Import Ident IdentProofs Reflect.
Open Scope N_scope.

Definition prep_dq (p : prep) : bool :=
  (p_iq p =? dq) && (p_fq p =? dq) && (p_esc p =? dq) && negb (p_esc_pct p).

Definition is_none {A} (o : option A) : bool := match o with None => true | Some _ => false end.
Definition nonempty {A} (l : list A) : bool := match l with [] => false | _ => true end.

Section P.
Variable uni : N -> bool.
Variable p : prep.

(* a character that may appear in a name whose delimited form the lazy groups read back *)
Definition plainc (c : N) : bool := negb (c =? dq) && dotc c.
(* a double quote inside a name is never followed by white space (else the doubled quote + space could be taken
   for the end of the delimited name) *)
Fixpoint dq_ok (v : str) : bool :=
  match v with
  | a :: ((b :: _) as r) => (if a =? dq then negb (is_space b) else true) && dq_ok r
  | _ => true
  end.
(* constraint name v rendered as q by quote(): no newline; bare names consist of [\w$] *)
Definition name_ok (v q : str) : bool :=
  nonempty v && forallb dotc v && dq_ok v &&
  (if str_eqb q v then forallb (fun c => barec uni c && negb (is_space c)) v else true).
(* column name v rendered as q inside UNIQUE (...) *)
Definition col_ok (v q : str) : bool :=
  nonempty v && forallb (fun c => plainc c && negb (c =? rpar)) v &&
  (if str_eqb q v then forallb sigc v else true).
Definition opt_name_ok (n : option str) : bool :=
  match n with
  | None => true
  | Some v => match quote p v with Ok q => name_ok v q | RaiseIndexError => false end
  end.
Fixpoint cols_ok (cols : list str) : bool :=
  match cols with
  | [] => true
  | v :: r => match quote p v with Ok q => col_ok v q | RaiseIndexError => false end && cols_ok r
  end.
(* no match of UNIQUE_PATTERN starts inside the segment s (followed by t) *)
Fixpoint clean (s t : str) : bool :=
  match s with
  | [] => true
  | _ :: s' => is_none (uq_at uni (s ++ t)) && clean s' t
  end.
Fixpoint wf_parts (ps : list part) : bool :=
  match ps with
  | [] => true
  | Seg s :: r => match render_parts p r with Ok t => clean s t | RaiseIndexError => false end && wf_parts r
  | Uq n cols :: r => opt_name_ok n && nonempty cols && cols_ok cols && wf_parts r
  end.

Lemma forallb_imp : forall A (f g : A -> bool) l, (forall c, f c = true -> g c = true) ->
  forallb f l = true -> forallb g l = true.
Proof. intros A f g l H. rewrite !forallb_forall. auto. Qed.

Lemma ci_prefix_self : forall kw t, ci_prefix kw (kw ++ t) = Some t.
Proof.
  induction kw as [|k kw IH]; intros t; cbn [ci_prefix app]; [reflexivity|].
  unfold ci_eq. rewrite N.eqb_refl. cbn [orb]. apply IH.
Qed.

Lemma drop_spaces_head : forall c t, is_space c = false -> drop_spaces (c :: t) = c :: t.
Proof. intros c t H. cbn [drop_spaces]. rewrite H. reflexivity. Qed.

Lemma spaces1_sp : forall t, spaces1 (sp :: t) = Some (drop_spaces t).
Proof. reflexivity. Qed.

(* t is empty or begins with a character outside the class f: a maximal run of f ends before t *)
Definition stops (f : N -> bool) (t : str) : Prop := match t with c :: _ => f c = false | [] => True end.

Lemma span_stops : forall f v t, forallb f v = true -> stops f t -> span f (v ++ t) = (v, t).
Proof.
  intros f v t Hv Ht. induction v as [|a v IH]; cbn [app].
  - destruct t as [|c t]; [reflexivity|]. change (f c = false) in Ht. cbn [span]. rewrite Ht. reflexivity.
  - cbn [forallb] in Hv. apply andb_true_iff in Hv. destruct Hv as [Ha Hv]. cbn [span]. rewrite Ha, (IH Hv). reflexivity.
Qed.

Lemma lazy_go_body : forall stop body acc rest,
  forallb (fun c => dotc c && negb (c =? stop)) body = true ->
  lazy_go stop acc (body ++ stop :: rest) = Some (rev acc ++ body, rest).
Proof.
  intros stop body. induction body as [|c b IH]; intros acc rest H; cbn [app lazy_go].
  - rewrite N.eqb_refl, app_nil_r. reflexivity.
  - cbn [forallb] in H. apply andb_true_iff in H. destruct H as [Hc Hb].
    apply andb_true_iff in Hc. destruct Hc as [Hd Hs]. apply negb_true_iff in Hs.
    rewrite Hs, Hd, IH by assumption. cbn [rev]. rewrite <- app_assoc. reflexivity.
Qed.

Lemma lazy_dot_until_body : forall stop body rest, body <> [] ->
  forallb (fun c => dotc c && negb (c =? stop)) body = true ->
  lazy_dot_until stop (body ++ stop :: rest) = Some (body, rest).
Proof.
  intros stop [|c b] rest Hne H; [congruence|]. cbn [app lazy_dot_until].
  cbn [forallb] in H. apply andb_true_iff in H. destruct H as [Hc Hb].
  apply andb_true_iff in Hc. destruct Hc as [Hd _]. rewrite Hd.
  rewrite (lazy_go_body stop b [c] rest Hb). reflexivity.
Qed.

(* the lazy group between quotes ends at the first quote, past the first character, where the continuation
   succeeds *)
Lemma lazy_quoted_stop : forall R (K : str -> option R) acc r x, acc <> [] -> K r = Some x ->
  lazy_quoted K acc (dq :: r) = Some (rev acc, x).
Proof. intros R K [|a acc] r x Hne HK; [congruence|]. cbn [lazy_quoted]. rewrite N.eqb_refl, HK. reflexivity. Qed.

Lemma lazy_quoted_step : forall R (K : str -> option R) acc c r,
  dotc c = true -> (c =? dq) = false \/ K r = None ->
  lazy_quoted K acc (c :: r) = lazy_quoted K (c :: acc) r.
Proof.
  intros R K acc c r Hd Hs. cbn [lazy_quoted]. rewrite Hd.
  destruct acc as [|a acc]; [reflexivity|].
  destruct Hs as [Hs|Hs]; [rewrite Hs; reflexivity|]. destruct (c =? dq); [rewrite Hs|]; reflexivity.
Qed.

Lemma lazy_quoted_plain : forall R (K : str -> option R) v acc r x,
  forallb plainc v = true -> (acc <> [] \/ v <> []) -> K r = Some x ->
  lazy_quoted K acc (v ++ dq :: r) = Some (rev acc ++ v, x).
Proof.
  intros R K v. induction v as [|c v IH]; intros acc r x Hp Hne HK; cbn [app].
  - rewrite app_nil_r. apply lazy_quoted_stop; [destruct Hne; congruence|exact HK].
  - cbn [forallb] in Hp. apply andb_true_iff in Hp. destruct Hp as [Hc Hv].
    unfold plainc in Hc. apply andb_true_iff in Hc. destruct Hc as [Hq Hd]. apply negb_true_iff in Hq.
    rewrite (lazy_quoted_step _ K acc c _ Hd (or_introl Hq)), (IH (c :: acc) r x Hv) by (auto; left; discriminate).
    cbn [rev]. rewrite <- app_assoc. reflexivity.
Qed.

Lemma dq_ok_cons : forall a v, dq_ok (a :: v) = true -> (a = dq -> stops is_space v) /\ dq_ok v = true.
Proof.
  intros a [|b v] H; [split; [exact (fun _ => I)|reflexivity]|].
  cbn [dq_ok] in H. apply andb_true_iff in H. destruct H as [Hb Hv]. split; [|exact Hv].
  intros ->. rewrite N.eqb_refl in Hb. apply negb_true_iff in Hb. exact Hb.
Qed.

(* the delimited form of ANY name without newline whose quotes are not followed by a space: the continuation
   fails after either quote of a doubled pair, because what follows is not white space *)
Lemma lazy_quoted_doubled : forall R (K : str -> option R) v acc r x,
  (forall t, stops is_space t -> K t = None) ->
  forallb dotc v = true -> dq_ok v = true -> (acc <> [] \/ v <> []) -> K r = Some x ->
  lazy_quoted K acc (double dq v ++ dq :: r) = Some (rev acc ++ double dq v, x).
Proof.
  intros R K v. induction v as [|a v IH]; intros acc r x HK Hd Hq Hne Hr.
  - cbn [double flat_map app]. rewrite app_nil_r. apply lazy_quoted_stop; [destruct Hne; congruence|exact Hr].
  - cbn [forallb] in Hd. apply andb_true_iff in Hd. destruct Hd as [Ha Hv].
    destruct (dq_ok_cons a v Hq) as [Hsp Hqv].
    rewrite double_cons. destruct (a =? dq) eqn:Ea; cbn [app].
    + apply N.eqb_eq in Ea. subst a.
      assert (K (double dq v ++ dq :: r) = None) as K2.
      { apply HK. destruct v as [|b v']; [reflexivity|]. rewrite double_cons. specialize (Hsp eq_refl).
        destruct (b =? dq); [reflexivity|exact Hsp]. }
      rewrite (lazy_quoted_step _ K acc dq _ eq_refl (or_intror (HK (dq :: _) eq_refl))).
      rewrite (lazy_quoted_step _ K (dq :: acc) dq _ eq_refl (or_intror K2)).
      rewrite (IH (dq :: dq :: acc) r x HK Hv Hqv) by (auto; left; discriminate).
      cbn [rev]. rewrite <- !app_assoc. reflexivity.
    + rewrite (lazy_quoted_step _ K acc a _ Ha (or_introl Ea)), (IH (a :: acc) r x HK Hv Hqv) by (auto; left; discriminate).
      cbn [rev]. rewrite <- app_assoc. reflexivity.
Qed.

Hypothesis Hdq : prep_dq p = true.

Lemma quote_cases : forall v q, quote p v = Ok q -> q = v \/ q = dq :: double dq v ++ [dq].
Proof.
  intros v q Hq. pose proof Hdq as H. unfold prep_dq in H.
  apply andb_true_iff in H. destruct H as [H H4]. apply andb_true_iff in H. destruct H as [H H3].
  apply andb_true_iff in H. destruct H as [H1 H2].
  apply N.eqb_eq in H1. apply N.eqb_eq in H2. apply N.eqb_eq in H3. apply negb_true_iff in H4.
  unfold quote, quote_force in Hq. destruct (requires_quotes p v) as [[|]|]; inversion Hq; subst; auto.
  right. unfold quote_identifier, escape_identifier. rewrite H1, H2, H3, H4. reflexivity.
Qed.

Lemma quote_cases_plain : forall v q, quote p v = Ok q -> forallb plainc v = true ->
  q = v \/ q = dq :: v ++ [dq].
Proof.
  intros v q Hq Hp. destruct (quote_cases v q Hq) as [H|H]; [left; exact H|right].
  rewrite H, double_notin; [reflexivity|].
  intros Hin. apply forallb_forall with (x := dq) in Hp; [|assumption]. unfold plainc in Hp. rewrite N.eqb_refl in Hp. discriminate.
Qed.

Lemma uq_tail_rendered : forall body rest, body <> [] ->
  forallb (fun c => dotc c && negb (c =? rpar)) body = true ->
  uq_tail (lit_unique_open ++ body ++ rpar :: rest) = Some (body, rest).
Proof.
  intros body rest Hne Hb. unfold uq_tail, lit_unique_open. rewrite <- app_assoc, ci_prefix_self.
  cbn [app]. change (drop_spaces (sp :: lpar :: body ++ rpar :: rest)) with (drop_spaces (lpar :: body ++ rpar :: rest)).
  rewrite drop_spaces_head by reflexivity. rewrite N.eqb_refl. apply lazy_dot_until_body; assumption.
Qed.

Lemma named_not_constraint : forall R (tail : str -> option R) c t, ci_eq 67 c = false -> named uni tail (c :: t) = None.
Proof. intros R tail c t H. unfold named. cbn [kwCONSTRAINT ci_prefix]. rewrite H. reflexivity. Qed.

Lemma named_rendered : forall R (tail : str -> option R) v q c X x,
  quote p v = Ok q -> name_ok v q = true -> is_space c = false -> tail (c :: X) = Some x ->
  named uni tail (lit_constraint ++ q ++ sp :: c :: X) = Some (v, x).
Proof.
  intros R tail v q c X x Hq Hok Hc Ht.
  unfold name_ok in Hok. apply andb_true_iff in Hok. destruct Hok as [Hok Hbare].
  apply andb_true_iff in Hok. destruct Hok as [Hok Hdqok]. apply andb_true_iff in Hok. destruct Hok as [Hne Hp].
  unfold named, lit_constraint. rewrite <- app_assoc, ci_prefix_self. cbn [app]. rewrite spaces1_sp.
  set (K := fun r : str => match spaces1 r with Some r' => tail r' | None => None end).
  assert (K (sp :: c :: X) = Some x) as HK by (unfold K; rewrite spaces1_sp, drop_spaces_head; assumption).
  assert (forall t, stops is_space t -> K t = None) as HKn.
  { intros [|d t] Hd; unfold K, spaces1; [|rewrite Hd]; reflexivity. }
  destruct v as [|v0 v']; [discriminate|].
  destruct (quote_cases (v0 :: v') q Hq) as [-> | ->].
  - (* bare: not a quote, so the first alternative fails at once; the run of [\w$] ends at the space *)
    rewrite str_eqb_refl in Hbare.
    assert (forallb (barec uni) (v0 :: v') = true) as Hw
      by (revert Hbare; apply forallb_imp; intros d H; apply andb_true_iff in H; tauto).
    cbn [forallb] in Hbare. apply andb_true_iff in Hbare. destruct Hbare as [H0 _].
    apply andb_true_iff in H0. destruct H0 as [Hb0 Hs0]. apply negb_true_iff in Hs0.
    assert ((v0 =? dq) = false) as Hq0.
    { destruct (N.eqb_spec v0 dq) as [->|]; [|reflexivity]. unfold barec, wordc in Hb0. discriminate. }
    cbn [app]. rewrite drop_spaces_head, Hq0 by assumption.
    change (v0 :: v' ++ sp :: c :: X) with ((v0 :: v') ++ sp :: c :: X).
    rewrite (span_stops (barec uni) _ (sp :: c :: X) Hw eq_refl). unfold K in HK. rewrite HK. reflexivity.
  - (* delimited: the doubled quotes are collapsed again *)
    cbn [app]. rewrite drop_spaces_head by reflexivity. rewrite N.eqb_refl, <- app_assoc. cbn [app].
    rewrite (lazy_quoted_doubled _ K (v0 :: v') [] _ x HKn Hp Hdqok) by (auto; right; discriminate).
    cbn [rev app]. rewrite undouble_double. reflexivity.
Qed.
End P.

Lemma join_cols_cons : forall (q : str) qs,
  join_cols (q :: qs) = q ++ match qs with [] => [] | _ => 44 :: sp :: join_cols qs end.
Proof. intros q [|q2 qs]; [symmetry; apply app_nil_r|reflexivity]. Qed.

(* ", ".join(q1 .. qn) read back by a finditer-style scanner: [tok x q] says q is the text of the token x;
   tokens are maximal runs, so a token is read whole when what follows is empty or begins outside the
   class [brk] - as the comma does *)
Section Joined.
Variables (A : Type) (tok : A -> str -> Prop) (brk : N -> bool) (scan : nat -> str -> list A).
Hypothesis tok_ne : forall x q, tok x q -> q <> [].
Hypothesis scan_nil : forall f, scan f [] = [].
Hypothesis scan_sep : forall f t, scan (S (S f)) (44 :: sp :: t) = scan f t.
Hypothesis scan_tok : forall x q tl f, tok x q -> stops brk tl -> scan (S f) (q ++ tl) = x :: scan f tl.
Hypothesis brk_comma : brk 44 = false.

Lemma join_nonempty : forall xs qs, Forall2 tok xs qs -> xs <> [] -> join_cols qs <> [].
Proof.
  intros xs qs [|x q xs' qs' Hx _] Hne; [congruence|]. rewrite join_cols_cons.
  apply tok_ne in Hx. destruct q; [congruence|discriminate].
Qed.

Lemma join_forallb : forall P : N -> bool, P 44 = true -> P sp = true ->
  (forall x q, tok x q -> forallb P q = true) ->
  forall xs qs, Forall2 tok xs qs -> forallb P (join_cols qs) = true.
Proof.
  intros P H1 H2 HP. induction 1 as [|x q xs qs Hx Hxs IH]; [reflexivity|].
  rewrite join_cols_cons, forallb_app, (HP x q Hx). destruct qs; [reflexivity|].
  cbn [forallb andb]. rewrite H1, H2. exact IH.
Qed.

(* each token costs one unit of fuel and so does each separator character *)
Lemma scan_joined : forall xs qs, Forall2 tok xs qs ->
  forall f, (length (join_cols qs) <= f)%nat -> scan f (join_cols qs) = xs.
Proof.
  induction 1 as [|x q xs qs Hx Hxs IH]; intros f Hf; [apply scan_nil|].
  rewrite join_cols_cons in *. rewrite app_length in Hf.
  assert (1 <= length q)%nat as Hq by (apply tok_ne in Hx; destruct q; [congruence|cbn [length]; lia]).
  destruct f as [|f]; [lia|].
  rewrite (scan_tok x q _ f Hx) by (destruct qs; [exact I|exact brk_comma]). f_equal.
  destruct Hxs; [apply scan_nil|]. cbn [length] in Hf.
  destruct f as [|[|f]]; [lia|lia|]. rewrite scan_sep. apply IH. lia.
Qed.
End Joined.
