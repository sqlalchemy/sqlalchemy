(* C22 (c) - the CTE registry move of visit_cte: delete-then-set is right for every pair of keys, set-then-delete
   loses the CTE when they coincide *)
From Coq Require Import List NArith Bool.
Import ListNotations.
From SAV.sql Require Import DispatchCte.

Lemma lkey_eqb_refl : forall k, lkey_eqb k k = true.
Proof. intros [a b]. unfold lkey_eqb. cbn. rewrite !N.eqb_refl. reflexivity. Qed.
Lemma lkey_eqb_eq : forall a b, lkey_eqb a b = true -> a = b.
Proof. intros [a1 a2] [b1 b2] H. unfold lkey_eqb in H. cbn in H. apply andb_true_iff in H. destruct H as [H1 H2].
  apply N.eqb_eq in H1, H2. subst. reflexivity. Qed.
Lemma lkey_eqb_sym : forall a b, lkey_eqb a b = lkey_eqb b a.
Proof. intros [a1 a2] [b1 b2]. unfold lkey_eqb. cbn. rewrite (N.eqb_sym a1), (N.eqb_sym a2). reflexivity. Qed.

Lemma get_del_same : forall k m, reg_get k (reg_del k m) = None.
Proof.
  intros k. induction m as [|[k' v] r IH]; [reflexivity|]. cbn. destruct (lkey_eqb k k') eqn:E; cbn; [exact IH|].
  rewrite E. exact IH.
Qed.
Lemma get_del_other : forall k k' m, lkey_eqb k k' = false -> reg_get k (reg_del k' m) = reg_get k m.
Proof.
  intros k k'. induction m as [|[k2 v] r IH]; intros H; [reflexivity|]. cbn. destruct (lkey_eqb k' k2) eqn:E; cbn.
  - apply lkey_eqb_eq in E. subst k2. rewrite H. apply IH. exact H.
  - destruct (lkey_eqb k k2); [reflexivity|]. apply IH. exact H.
Qed.

(* after the move the CTE is registered under its new key - for EVERY pair of keys, equal ones included *)
Theorem move_registers : forall old new cte m, reg_get new (move old new cte m) = Some cte.
Proof. intros. unfold move, reg_set. cbn. rewrite lkey_eqb_refl. reflexivity. Qed.

Theorem move_unregisters_old : forall old new cte m, lkey_eqb old new = false -> reg_get old (move old new cte m) = None.
Proof.
  intros old new cte m H. unfold move, reg_set. cbn. rewrite H. rewrite get_del_other by exact H. apply get_del_same.
Qed.

Theorem move_frame : forall old new cte m k, lkey_eqb k old = false -> lkey_eqb k new = false ->
  reg_get k (move old new cte m) = reg_get k m.
Proof.
  intros old new cte m k H1 H2. unfold move, reg_set. cbn. rewrite H2. rewrite !get_del_other by assumption. reflexivity.
Qed.

(* set-then-delete loses the CTE exactly when the two keys coincide: the next lookup is a KeyError *)
Theorem move_swapped_loses_equal_key : forall k cte m, reg_get k (move_swapped k k cte m) = None.
Proof. intros. unfold move_swapped. apply get_del_same. Qed.

Theorem move_swapped_same_when_distinct : forall old new cte m k, lkey_eqb old new = false ->
  reg_get k (move_swapped old new cte m) = reg_get k (move old new cte m).
Proof.
  intros old new cte m k H. unfold move_swapped, move, reg_set. cbn. rewrite H. cbn.
  fold (reg_del old (reg_del new m)).
  destruct (lkey_eqb k new) eqn:E; [reflexivity|].
  destruct (lkey_eqb k old) eqn:E2.
  - apply lkey_eqb_eq in E2. subst k. rewrite get_del_same. rewrite get_del_other by exact E. rewrite get_del_same. reflexivity.
  - rewrite !get_del_other by assumption. reflexivity.
Qed.
