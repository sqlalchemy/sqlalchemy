(* C02: equal keys give equal SQL, and cached execution equals direct execution, for tables that cover
   everything and for tables with known gaps; the callable guard as a boolean check *)
From Coq Require Import List NArith ZArith Bool.
Import ListNotations.
From SAV.sql Require Import CacheKey CacheKeyProofs CacheKeyBinds CacheExec CacheExecProofs.

(* G, the argument of [vminus] and [gapfree] (CacheKey.v): (class, attribute) pairs the compiler reads
   that the key leaves out; CacheKeyRef.G_ref is the instance props/C02.v uses.  [keep G c a]: (c, a) is none of them *)
Definition keep (G : list (N * N)) (c a : N) : bool :=
  negb (existsb (fun g => N.eqb (fst g) c && N.eqb (snd g) a) G).
Lemma vget_vminus : forall V G c, vget (vminus V G) c = filter (keep G c) (vget V c).
Proof.
  intros V G c. unfold vget, vminus.
  induction V as [|[c' l] r IH]; cbn; [reflexivity|].
  destruct (N.eqb_spec c' c) as [->|Hn]; [reflexivity | exact IH].
Qed.
Lemma flat_map_filter_nil : forall {A B} (f : A -> list B) (p : A -> bool) l,
  (forall a, p a = false -> f a = []) -> flat_map f (filter p l) = flat_map f l.
Proof.
  intros A B f p l H. induction l as [|x r IH]; [reflexivity|]. cbn.
  destruct (p x) eqn:E; cbn; [|rewrite (H x E)]; rewrite IH; reflexivity.
Qed.

Lemma view_gapfree : forall T V G n, gapfree G n = true -> view T V n = view T (vminus V G) n.
Proof.
  intros T V G. induction n as [lbl cls atoms kids IH] using node_ind'. intro Hg.
  cbn [gapfree] in Hg. apply andb_prop in Hg as [Hg Hk]. cbn [view].
  rewrite <- (kids_map_ext (view T V) (view T (vminus V G)) kids).
  2: { apply Forall_forall. intros p Hp. apply Forall_forall. intros x Hx.
       apply (proj1 (Forall_forall _ _) (proj1 (Forall_forall _ _) IH p Hp) x Hx).
       exact (proj1 (forallb_forall _ _) (proj1 (forallb_forall _ _) Hk p Hp) x Hx). }
  assert (forall a, keep G cls a = false ->
            atruthy (aget a atoms) = false /\ kget a (map (fun p => (fst p, map (view T V) (snd p))) kids) = []) as Hgap.
  { intros a Hp. apply negb_false_iff, existsb_exists in Hp as [g [Hi Hb]].
    apply andb_prop in Hb as [H1 H2]. apply N.eqb_eq in H2. subst a.
    apply (proj1 (forallb_forall _ _) Hg) in Hi. rewrite H1 in Hi. apply andb_prop in Hi as [Ha Hn].
    apply negb_true_iff in Ha. rewrite Ha, (kget_map (view T V)). split; [reflexivity|].
    destruct (kget (snd g) kids); [reflexivity | discriminate]. }
  unfold view_body. rewrite vget_vminus, !flat_map_filter_nil; [reflexivity | |];
    intros a Hp; destruct (Hgap a Hp) as [Ha Hn]; [rewrite Hn | cbv zeta; rewrite Ha]; reflexivity.
Qed.
Lemma vminus_nil : forall V, vminus V [] = V.
Proof.
  unfold vminus. induction V as [|[c l] r IH]; cbn [map fst snd]; [reflexivity|]. rewrite IH. apply (f_equal (fun x => (c, x) :: r)).
  clear. induction l as [|a l' IHl]; [reflexivity|]. cbn [filter existsb negb]. f_equal. exact IHl.
Qed.
Lemma gapfree_nil : forall n, gapfree [] n = true.
Proof.
  induction n as [lbl cls atoms kids IH] using node_ind'. cbn. apply forallb_forall. intros p Hp.
  apply forallb_forall. exact (proj1 (Forall_forall _ _) (proj1 (Forall_forall _ _) IH p Hp)).
Qed.

Lemma key_determines_view_gaps : forall T V G, covers T (vminus V G) = true -> forall s1 s2 k b1 b2,
  gapfree G s1 = true -> gapfree G s2 = true -> wf T s1 = true -> wf T s2 = true ->
  gen_key T s1 = Some (k, b1) -> gen_key T s2 = Some (k, b2) -> view T V s1 = view T V s2.
Proof.
  intros T V G Hc s1 s2 k b1 b2 G1 G2 W1 W2 K1 K2. rewrite (view_gapfree T V G s1 G1), (view_gapfree T V G s2 G2).
  exact (key_determines_view T (vminus V G) Hc s1 s2 k b1 b2 W1 W2 K1 K2).
Qed.
Lemma kbl_view_gaps : forall T V G, covers T (vminus V G) = true -> forall s,
  gapfree G s = true -> incl (kbl T (view T V s)) (kbl T (proj T s)).
Proof.
  intros T V G Hc s Hg. rewrite (view_gapfree T V G s Hg), (view_restrict T (vminus V G) Hc s). apply kbl_restrict.
Qed.

Theorem key_determines_sql_guarded : forall T V G, covers T (vminus V G) = true ->
  forall (OUT : Type) (compile_direct : ktree -> OUT) s1 s2 k b1 b2,
  gapfree G s1 = true -> gapfree G s2 = true ->
  wf T s1 = true -> wf T s2 = true -> gen_key T s1 = Some (k, b1) -> gen_key T s2 = Some (k, b2) ->
  compile_direct (view T V s1) = compile_direct (view T V s2) /\ map blbl b1 = map blbl b2.
Proof.
  intros T V G Hc OUT cd s1 s2 k b1 b2 G1 G2 W1 W2 K1 K2. split.
  - rewrite (key_determines_view_gaps T V G Hc s1 s2 k b1 b2 G1 G2 W1 W2 K1 K2). reflexivity.
  - exact (key_determines_labels T s1 s2 k b1 b2 K1 K2).
Qed.

Theorem key_determines_sql : forall T V, covers T V = true ->
  forall (OUT : Type) (compile_direct : ktree -> OUT) s1 s2 k b1 b2,
  wf T s1 = true -> wf T s2 = true -> gen_key T s1 = Some (k, b1) -> gen_key T s2 = Some (k, b2) ->
  compile_direct (view T V s1) = compile_direct (view T V s2) /\ map blbl b1 = map blbl b2.
Proof.
  intros T V Hc OUT cd s1 s2 k b1 b2. rewrite <- (vminus_nil V) in Hc.
  exact (key_determines_sql_guarded T V [] Hc OUT cd s1 s2 k b1 b2 (gapfree_nil s1) (gapfree_nil s2)).
Qed.

Definition stmts (h : list step) : list node := map s_stmt h.
(* statements with equal keys agree on WHICH of their bind parameters have a callable *)
Definition callable_uniform (T : ttab) (U : list node) : Prop :=
  forall s1 s2 k b1 b2, In s1 U -> In s2 U ->
    gen_key T s1 = Some (k, b1) -> gen_key T s2 = Some (k, b2) -> map bcall b1 = map bcall b2.

(* the positional re-binding on its own: a Compiled made for s0, given the extracted parameters of s *)
Theorem rebind_positional_gaps : forall T V G, covers T (vminus V G) = true ->
  forall (SQL : Type) (render : atom -> ktree -> SQL * list N),
  (forall ctx v, incl (snd (render ctx v)) (kbl T v)) ->
  forall ctx s0 s k b0 b (sets : list pset),
  wf T s0 = true -> wf T s = true -> gapfree G s0 = true -> gapfree G s = true ->
  gen_key T s0 = Some (k, b0) -> gen_key T s = Some (k, b) -> map bcall b0 = map bcall b ->
  (tsql SQL (compile T V SQL render ctx s0 b0), rebind_many SQL (compile T V SQL render ctx s0 b0) b sets)
  = exec_direct T V SQL render ctx s sets.
Proof.
  intros T V G Hc SQL render Hh ctx s0 s k b0 b sets W0 W1 G0 G1 K0 K1 Hcall.
  exact (rebind_pair T V SQL render Hh ctx s0 s k b0 b sets W0 W1 K0 K1
           (key_determines_view_gaps T V G Hc s0 s k b0 b G0 G1 W0 W1 K0 K1) (kbl_view_gaps T V G Hc s0 G0) Hcall).
Qed.

Theorem cached_exec_eq_direct_gaps : forall T V G, covers T (vminus V G) = true ->
  forall (SQL : Type) (render : atom -> ktree -> SQL * list N),
  (forall ctx v, incl (snd (render ctx v)) (kbl T v)) ->
  forall h1 h2 : list step,
  (forall s, In s (stmts (h1 ++ h2)) -> wf T s = true /\ gapfree G s = true) ->
  callable_uniform T (stmts (h1 ++ h2)) ->
  fst (run T V SQL render (snd (run T V SQL render [] h1)) h2)
  = map (fun x => exec_direct T V SQL render (s_ctx x) (s_stmt x) (s_sets x)) h2.
Proof.
  intros T V G Hc SQL render Hh h1 h2 HU Hcall.
  apply (run_from_cold T V SQL render (fun s => In s (stmts (h1 ++ h2)))); [|intros x Hx; apply in_map, Hx].
  intros ctx s0 s k b0 b sets I0 I1 K0 K1. destruct (HU _ I0) as [W0 G0]. destruct (HU _ I1) as [W1 G1].
  exact (rebind_positional_gaps T V G Hc SQL render Hh ctx s0 s k b0 b sets W0 W1 G0 G1 K0 K1
           (Hcall s0 s k b0 b I0 I1 K0 K1)).
Qed.

Theorem cached_exec_eq_direct : forall T V, covers T V = true ->
  forall (SQL : Type) (render : atom -> ktree -> SQL * list N),
  (forall ctx v, incl (snd (render ctx v)) (kbl T v)) ->
  forall h1 h2 : list step,
  (forall s, In s (stmts (h1 ++ h2)) -> wf T s = true) ->
  callable_uniform T (stmts (h1 ++ h2)) ->
  fst (run T V SQL render (snd (run T V SQL render [] h1)) h2)
  = map (fun x => exec_direct T V SQL render (s_ctx x) (s_stmt x) (s_sets x)) h2.
Proof.
  intros T V Hc SQL render Hh h1 h2 HU Hcall. rewrite <- (vminus_nil V) in Hc.
  exact (cached_exec_eq_direct_gaps T V [] Hc SQL render Hh h1 h2 (fun s Hs => conj (HU s Hs) (gapfree_nil s)) Hcall).
Qed.

Fixpoint bools_eqb (x y : list bool) : bool :=
  match x, y with
  | [], [] => true
  | a :: x', b :: y' => Bool.eqb a b && bools_eqb x' y'
  | _, _ => false
  end.
Lemma bools_eqb_eq : forall x y, bools_eqb x y = true -> x = y.
Proof.
  induction x as [|a x IH]; intros [|b y] H; try discriminate; [reflexivity|].
  cbn in H. apply andb_true_iff in H as [H1 H2]. apply eqb_prop in H1. subst. f_equal. apply IH, H2.
Qed.
(* [callable_uniform] as a boolean check *)
Definition cunib (T : ttab) (U : list node) : bool :=
  forallb (fun s1 => forallb (fun s2 =>
    match gen_key T s1, gen_key T s2 with
    | Some (k1, b1), Some (k2, b2) => negb (ktree_eqb k1 k2) || bools_eqb (map bcall b1) (map bcall b2)
    | _, _ => true
    end) U) U.
Lemma cunib_sound : forall T U, cunib T U = true -> callable_uniform T U.
Proof.
  intros T U H s1 s2 k b1 b2 I1 I2 K1 K2. unfold cunib in H.
  rewrite forallb_forall in H. specialize (H s1 I1). rewrite forallb_forall in H. specialize (H s2 I2).
  rewrite K1, K2, ktree_eqb_refl in H. cbn in H. apply bools_eqb_eq, H.
Qed.
Lemma cunib_incl : forall T U U', incl U U' -> cunib T U' = true -> cunib T U = true.
Proof.
  intros T U U' Hi H. apply forallb_forall. intros s1 I1. apply forallb_forall. intros s2 I2.
  exact (proj1 (forallb_forall _ _) (proj1 (forallb_forall _ _) H s1 (Hi _ I1)) s2 (Hi _ I2)).
Qed.
