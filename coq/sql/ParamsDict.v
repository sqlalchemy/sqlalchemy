(* C04 - lemmas about strings, lists, the association-list dictionaries and the small monads of Params.v *)
From Coq Require Import List NArith ZArith Bool.
Import ListNotations.
From SAV.sql Require Import Params.

Lemma str_eqb_spec : forall a b, reflect (a = b) (str_eqb a b).
Proof.
  induction a as [|x a IH]; destruct b as [|y b]; cbn [str_eqb]; try (constructor; congruence).
  destruct (N.eqb_spec x y) as [->|Hn]; cbn [andb].
  - destruct (IH b) as [->|Hn]; constructor; congruence.
  - constructor; congruence.
Qed.
Lemma str_eqb_refl : forall a, str_eqb a a = true.
Proof. intro a. destruct (str_eqb_spec a a); congruence. Qed.
Lemma str_eqb_neq : forall a b, a <> b -> str_eqb a b = false.
Proof. intros a b H. destruct (str_eqb_spec a b); congruence. Qed.
Lemma str_eqb_eq : forall a b, str_eqb a b = true -> a = b.
Proof. intros a b H. destruct (str_eqb_spec a b); congruence. Qed.

Lemma memb_In : forall n l, memb n l = true <-> In n l.
Proof.
  intros n l. unfold memb. rewrite existsb_exists. split.
  - intros [x [Hx He]]. apply str_eqb_eq in He. subst. exact Hx.
  - intro H. exists n. split; [exact H|apply str_eqb_refl].
Qed.
Lemma memb_false : forall n l, memb n l = false <-> ~ In n l.
Proof.
  intros n l. rewrite <- memb_In. destruct (memb n l); split; intro H; congruence.
Qed.

Lemma NoDup_app_intro : forall {A} (a b : list A),
  NoDup a -> NoDup b -> (forall x, In x a -> In x b -> False) -> NoDup (a ++ b).
Proof.
  induction a as [|x a IH]; intros b Ha Hb Hd; [exact Hb|].
  inversion Ha as [|? ? Hni Hnd]; subst. cbn [app]. constructor.
  - intro Hi. apply in_app_or in Hi. destruct Hi as [Hi|Hi]; [exact (Hni Hi)|].
    exact (Hd x (or_introl eq_refl) Hi).
  - apply IH; [exact Hnd|exact Hb|]. intros y Hy. apply Hd. right. exact Hy.
Qed.
Lemma NoDup_app_elim : forall {A} (a b : list A), NoDup (a ++ b) ->
  NoDup a /\ NoDup b /\ (forall x, In x a -> In x b -> False).
Proof.
  induction a as [|x a IH]; intros b H.
  - split; [constructor|]. split; [exact H|intros x []].
  - cbn [app] in H. inversion H as [|? ? Hni Hnd]; subst.
    destruct (IH b Hnd) as [Ha [Hb Hd]]. split; [|split; [exact Hb|]].
    + constructor; [|exact Ha]. intro Hi. apply Hni. apply in_or_app. left. exact Hi.
    + intros y [<-|Hy] Hyb; [apply Hni; apply in_or_app; right; exact Hyb|exact (Hd y Hy Hyb)].
Qed.

Lemma NoDup_map_inj_on : forall {A B} (f : A -> B) l,
  (forall a b, In a l -> In b l -> f a = f b -> a = b) -> NoDup l -> NoDup (map f l).
Proof.
  induction l as [|x l IH]; intros Hi Hn; [constructor|].
  inversion Hn as [|? ? Hni Hnd]; subst. cbn [map]. constructor.
  - intro H. apply in_map_iff in H. destruct H as [y [He Hy]]. apply Hni.
    rewrite (Hi x y (or_introl eq_refl) (or_intror Hy) (eq_sym He)). exact Hy.
  - apply IH; [|exact Hnd]. intros a b Ha Hb. apply Hi; right; assumption.
Qed.

Lemma flat_map_snoc : forall {A B} (f : A -> list B) l x, flat_map f (l ++ [x]) = flat_map f l ++ f x.
Proof. intros. rewrite flat_map_app. cbn [flat_map]. rewrite app_nil_r. reflexivity. Qed.

Lemma In_snoc : forall {A} (l : list A) a x, In x (l ++ [a]) <-> In x l \/ x = a.
Proof.
  intros A l a x. split.
  - intro H. apply in_app_or in H. destruct H as [H|[<-|[]]]; [left; exact H|right; reflexivity].
  - intros [H| ->]; apply in_or_app; [left; exact H|right; left; reflexivity].
Qed.

Lemma keys_retag : forall {A B} (g : name * A -> B) (u : list (name * A)),
  map fst (map (fun kv => (fst kv, g kv)) u) = map fst u.
Proof. intros. rewrite map_map. reflexivity. Qed.

Lemma map_id_in : forall {A} (f : A -> A) l, (forall x, In x l -> f x = x) -> map f l = l.
Proof.
  induction l as [|x l IH]; intro H; [reflexivity|]. cbn [map].
  rewrite (H x (or_introl eq_refl)), IH by (intros y Hy; apply H; right; exact Hy). reflexivity.
Qed.

Section Dict.
Context {V : Type}.
Implicit Types (d : dict V) (k : name) (v : V).

Definition keys d : list name := map fst d.

Lemma dget_In_keys : forall k d, dget k d <> None <-> In k (keys d).
Proof.
  induction d as [|[k' v'] d IH]; cbn [dget keys map fst].
  - split; [congruence|intros []].
  - destruct (str_eqb_spec k k') as [->|Hn].
    + split; [intros _; left; reflexivity|congruence].
    + rewrite IH. unfold keys. split; [intro H; right; exact H|intros [H|H]; [congruence|exact H]].
Qed.
Lemma dget_None_keys : forall k d, dget k d = None <-> ~ In k (keys d).
Proof.
  intros k d. rewrite <- dget_In_keys. destruct (dget k d); split; intro H; try congruence.
  exfalso. apply H. congruence.
Qed.
Lemma dmem_In : forall k d, dmem k d = true <-> In k (keys d).
Proof.
  intros k d. rewrite <- dget_In_keys. unfold dmem. destruct (dget k d); split; congruence.
Qed.
Lemma dmem_false : forall k d, dmem k d = false <-> ~ In k (keys d).
Proof.
  intros k d. rewrite <- dget_In_keys. unfold dmem. destruct (dget k d); split; try congruence.
  intro H. exfalso. apply H. congruence.
Qed.

Lemma dget_In_pair : forall k v d, dget k d = Some v -> In (k, v) d.
Proof.
  induction d as [|[k' v'] d IH]; cbn [dget]; [discriminate|].
  destruct (str_eqb_spec k k') as [->|Hn]; intro H.
  - inversion H; subst. left. reflexivity.
  - right. apply IH. exact H.
Qed.

Lemma In_dget : forall k v d, NoDup (keys d) -> In (k, v) d -> dget k d = Some v.
Proof.
  induction d as [|[k' v'] d IH]; intros Hnd H; [destruct H|].
  cbn [keys map fst] in Hnd. inversion Hnd as [|? ? Hni Hnd']; subst. cbn [dget]. destruct H as [H|H].
  - inversion H; subst. rewrite str_eqb_refl. reflexivity.
  - rewrite str_eqb_neq; [exact (IH Hnd' H)|]. intros ->. exact (Hni (in_map fst _ _ H)).
Qed.

Lemma dget_dset_same : forall k v d, dget k (dset k v d) = Some v.
Proof.
  induction d as [|[k' v'] d IH]; cbn [dset dget].
  - rewrite str_eqb_refl. reflexivity.
  - destruct (str_eqb_spec k k') as [->|Hn]; cbn [dget].
    + rewrite str_eqb_refl. reflexivity.
    + rewrite (str_eqb_neq _ _ Hn). exact IH.
Qed.
Lemma dget_dset_other : forall k k' v d, k <> k' -> dget k (dset k' v d) = dget k d.
Proof.
  induction d as [|[k2 v2] d IH]; intro Hn; cbn [dset dget].
  - rewrite (str_eqb_neq _ _ Hn). reflexivity.
  - destruct (str_eqb_spec k' k2) as [->|Hn2]; cbn [dget].
    + rewrite (str_eqb_neq _ _ Hn). reflexivity.
    + destruct (str_eqb k k2); [reflexivity|apply IH; exact Hn].
Qed.
Lemma keys_dset : forall k v d, keys (dset k v d) = if dmem k d then keys d else keys d ++ [k].
Proof.
  induction d as [|[k' v'] d IH]; cbn [dset keys map fst].
  - reflexivity.
  - unfold dmem. cbn [dget]. destruct (str_eqb_spec k k') as [->|Hn]; cbn [keys map fst].
    + reflexivity.
    + fold (keys (dset k v d)). rewrite IH. unfold dmem. fold (keys d).
      destruct (dget k d); reflexivity.
Qed.
Lemma keys_dset_absent : forall k v d, ~ In k (keys d) -> dset k v d = d ++ [(k, v)].
Proof.
  induction d as [|[k' v'] d IH]; intro H; cbn [dset].
  - reflexivity.
  - cbn [keys map fst] in H. rewrite str_eqb_neq by (intro; subst; apply H; left; reflexivity).
    cbn [app]. f_equal. apply IH. intro Hi. apply H. right. exact Hi.
Qed.
Lemma In_keys_dset : forall x k v d, In x (keys (dset k v d)) <-> x = k \/ In x (keys d).
Proof.
  intros x k v d. rewrite keys_dset. destruct (dmem k d) eqn:E.
  - apply dmem_In in E. split; [intro H; right; exact H|intros [->|H]; assumption].
  - rewrite in_app_iff. cbn [In]. split; [intros [H|[H|[]]]; [right; exact H|left; congruence]
                                          |intros [->|H]; [right; left; reflexivity|left; exact H]].
Qed.
Lemma NoDup_keys_dset : forall k v d, NoDup (keys d) -> NoDup (keys (dset k v d)).
Proof.
  intros k v d H. rewrite keys_dset. destruct (dmem k d) eqn:E; [exact H|].
  apply dmem_false in E. apply NoDup_app_intro; [exact H|constructor; [intros []|constructor]|].
  intros x Hx [Hy|[]]. subst. exact (E Hx).
Qed.

Lemma dget_dpop_same : forall k d, NoDup (keys d) -> dget k (dpop k d) = None.
Proof.
  induction d as [|[k' v'] d IH]; intro H; cbn [dpop dget]; [reflexivity|].
  cbn [keys map fst] in H. inversion H as [|? ? Hni Hnd]; subst.
  destruct (str_eqb_spec k k') as [->|Hn].
  - apply dget_None_keys. exact Hni.
  - cbn [dget]. rewrite (str_eqb_neq _ _ Hn). apply IH. exact Hnd.
Qed.
Lemma dget_dpop_other : forall k k' d, k <> k' -> dget k (dpop k' d) = dget k d.
Proof.
  induction d as [|[k2 v2] d IH]; intro Hn; cbn [dpop dget]; [reflexivity|].
  destruct (str_eqb_spec k' k2) as [->|Hn2]; cbn [dget].
  - rewrite (str_eqb_neq _ _ Hn). reflexivity.
  - destruct (str_eqb k k2); [reflexivity|apply IH; exact Hn].
Qed.
Lemma In_keys_dpop : forall x k d, In x (keys (dpop k d)) -> In x (keys d).
Proof.
  induction d as [|[k2 v2] d IH]; cbn [dpop keys map fst]; [intros []|].
  destruct (str_eqb k k2); cbn [keys map fst In].
  - intro H. right. exact H.
  - intros [H|H]; [left; exact H|right; apply IH; exact H].
Qed.
Lemma NoDup_keys_dpop : forall k d, NoDup (keys d) -> NoDup (keys (dpop k d)).
Proof.
  induction d as [|[k2 v2] d IH]; cbn [dpop keys map fst]; intro H; [constructor|].
  inversion H as [|? ? Hni Hnd]; subst. destruct (str_eqb k k2); [exact Hnd|].
  cbn [keys map fst]. constructor; [|apply IH; exact Hnd].
  intro Hi. apply Hni. apply (In_keys_dpop _ _ _ Hi).
Qed.

Lemma dupdate_nil : forall d, dupdate [] d = d.
Proof. reflexivity. Qed.
Lemma dupdate_cons : forall k v items d, dupdate ((k, v) :: items) d = dupdate items (dset k v d).
Proof. reflexivity. Qed.
Lemma dget_dupdate_other : forall k items d, ~ In k (map fst items) -> dget k (dupdate items d) = dget k d.
Proof.
  induction items as [|[k' v'] items IH]; intros d H; [reflexivity|].
  rewrite dupdate_cons. cbn [map fst In] in H. rewrite IH by tauto.
  apply dget_dset_other. intro; subst; tauto.
Qed.
Lemma dget_dupdate_in : forall k v items d, NoDup (map fst items) -> In (k, v) items ->
  dget k (dupdate items d) = Some v.
Proof.
  induction items as [|[k' v'] items IH]; intros d Hnd Hin; [destruct Hin|].
  rewrite dupdate_cons. cbn [map fst] in Hnd. inversion Hnd as [|? ? Hni Hnd']; subst.
  destruct Hin as [He|Hin].
  - inversion He; subst. rewrite dget_dupdate_other by exact Hni. apply dget_dset_same.
  - apply IH; assumption.
Qed.
Lemma In_keys_dupdate : forall x items d, In x (keys (dupdate items d)) <-> In x (map fst items) \/ In x (keys d).
Proof.
  induction items as [|[k' v'] items IH]; intro d.
  - cbn. tauto.
  - rewrite dupdate_cons, IH, In_keys_dset. cbn [map fst In]. split.
    + intros [H|[->|H]]; [left; right; exact H|left; left; reflexivity|right; exact H].
    + intros [[<-|H]|H]; [right; left; reflexivity|left; exact H|right; right; exact H].
Qed.
Lemma NoDup_keys_dupdate : forall items d, NoDup (keys d) -> NoDup (keys (dupdate items d)).
Proof.
  induction items as [|[k' v'] items IH]; intros d H; [exact H|].
  rewrite dupdate_cons. apply IH. apply NoDup_keys_dset. exact H.
Qed.
End Dict.

Section Rekey.
Context {V : Type}.

Lemma dget_app : forall k (a b : dict V),
  dget k (a ++ b) = match dget k a with Some v => Some v | None => dget k b end.
Proof.
  induction a as [|[k' v'] a IH]; intro b; cbn [app dget]; [reflexivity|].
  destruct (str_eqb k k'); [reflexivity|apply IH].
Qed.

Definition rekey_map (f : name -> name) (d : dict V) : dict V := map (fun kv => (f (fst kv), snd kv)) d.

(* a dictionary built by setting keys that are all different is the list of the pairs set: nothing is overwritten *)
Lemma fold_dset_fresh : forall {A} (kf : A -> name) (vf : A -> V) (l : list A), NoDup (map kf l) ->
  fold_left (fun acc x => dset (kf x) (vf x) acc) l [] = map (fun x => (kf x, vf x)) l.
Proof.
  intros A kf vf l. induction l as [|x l IH] using rev_ind; intro Hnd; [reflexivity|].
  rewrite map_app in Hnd. cbn [map] in Hnd. apply NoDup_remove in Hnd. rewrite app_nil_r in Hnd. destruct Hnd as [Hnd Hni].
  rewrite fold_left_app, map_app. cbn [fold_left map]. rewrite IH by exact Hnd. apply keys_dset_absent.
  unfold keys. rewrite map_map. exact Hni.
Qed.

Lemma drekey_inj : forall (f : name -> name) (d : dict V),
  (forall a b, In a (keys d) -> In b (keys d) -> f a = f b -> a = b) ->
  NoDup (keys d) -> drekey f d = rekey_map f d.
Proof.
  intros f d Hinj Hnd. apply (fold_dset_fresh (fun kv => f (fst kv)) snd).
  rewrite <- (map_map fst f). exact (NoDup_map_inj_on f (keys d) Hinj Hnd).
Qed.

Lemma dget_rekey_map : forall (f : name -> name) (d : dict V) k,
  (forall a, In a (keys d) -> f a = f k -> a = k) ->
  dget (f k) (rekey_map f d) = dget k d.
Proof.
  induction d as [|[k' v'] d IH]; intros k Hinj; [reflexivity|].
  cbn [rekey_map map fst snd dget]. fold (rekey_map f d).
  destruct (str_eqb_spec k k') as [->|Hn].
  - rewrite str_eqb_refl. reflexivity.
  - rewrite str_eqb_neq.
    + apply IH. intros a Ha. apply Hinj. right. exact Ha.
    + intro He. apply Hn. symmetry. apply Hinj; [left; reflexivity|symmetry; exact He].
Qed.
End Rekey.

Lemma reverse_dict_inj : forall (d : dict name),
  NoDup (map snd d) -> reverse_dict d = map (fun kv => (snd kv, fst kv)) d.
Proof. intros d H. exact (fold_dset_fresh snd fst d H). Qed.

Lemma mapM_ok : forall {A B} (f : A -> result B) (g : A -> B) l,
  (forall a, In a l -> f a = Ok (g a)) -> mapM f l = Ok (map g l).
Proof.
  induction l as [|a l IH]; intro H; [reflexivity|].
  cbn [mapM map]. rewrite (H a (or_introl eq_refl)). cbn [bind].
  rewrite IH by (intros; apply H; right; assumption). reflexivity.
Qed.
Lemma concatM_ok : forall {A B} (f : A -> result (list B)) (g : A -> list B) l,
  (forall a, In a l -> f a = Ok (g a)) -> concatM f l = Ok (flat_map g l).
Proof.
  induction l as [|a l IH]; intro H; [reflexivity|].
  cbn [concatM flat_map]. rewrite (H a (or_introl eq_refl)). cbn [bind].
  rewrite IH by (intros; apply H; right; assumption). reflexivity.
Qed.
Lemma foldM_app : forall {A B} (f : A -> B -> result A) l1 l2 a,
  foldM f (l1 ++ l2) a = bind (foldM f l1 a) (foldM f l2).
Proof.
  induction l1 as [|b l1 IH]; intros l2 a; [reflexivity|].
  cbn [app foldM]. destruct (f a b); cbn [bind]; [apply IH|reflexivity].
Qed.
