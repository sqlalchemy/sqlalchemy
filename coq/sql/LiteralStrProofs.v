(* C05 - string literals: the replace chain is a character-wise encoding; the rendered literal is one
   token denoting exactly the value and leaving the remainder of the statement untouched. *)
From Coq Require Import List NArith Bool.
Import ListNotations.
From SAV.sql Require Import Literal.
Open Scope N_scope.

Definition encc (dp bs : bool) (c : chr) : str :=
  if c =? 39 then [39; 39]
  else if (c =? 37) && dp then [37; 37]
  else if (c =? 92) && bs then [92; 92]
  else [c].
Definition enc (dp bs : bool) (s : str) : str := flat_map (encc dp bs) s.

(* backslash doubling is active: the dialect has the override and the flag is set *)
Definition bs_active (d : dialect) (fl : flags) : bool :=
  match d with MySQL | PG => f_bs fl | _ => false end.

(* character classes: the dialect override leaves [nobs] alone, no replace touches [plainc] *)
Definition nobs (c : chr) : bool := negb (c =? 92).
Definition plainc (c : chr) : bool := negb (c =? 39) && negb (c =? 37) && negb (c =? 92).

Lemma flat_map_cons {A B} (f : A -> list B) x l : flat_map f (x :: l) = f x ++ flat_map f l.
Proof. reflexivity. Qed.

Lemma forallb_repeat {A} (f : A -> bool) x n : f x = true -> forallb f (repeat x n) = true.
Proof. intros H. induction n; [reflexivity|]. cbn [repeat forallb]. rewrite H, IHn. reflexivity. Qed.

Lemma forallb_impl {A} (f g : A -> bool) l : (forall x, f x = true -> g x = true) ->
  forallb f l = true -> forallb g l = true.
Proof.
  intros Hi. induction l as [|x l IH]; [reflexivity|]. cbn [forallb]. intros H.
  apply andb_prop in H. destruct H as [H1 H2]. rewrite (Hi x H1), (IH H2). reflexivity.
Qed.

Lemma replace1_app a b s t : replace1 a b (s ++ t) = replace1 a b s ++ replace1 a b t.
Proof. apply flat_map_app. Qed.

Lemma replace1_single a b c : replace1 a b [c] = if c =? a then b else [c].
Proof. unfold replace1. cbn [flat_map]. rewrite app_nil_r. reflexivity. Qed.

Lemma replace1_absent a b s : forallb (fun c => negb (c =? a)) s = true -> replace1 a b s = s.
Proof.
  induction s as [|c s IH]; intros H; [reflexivity|].
  cbn [forallb] in H. apply andb_prop in H. destruct H as [H1 H2].
  unfold replace1 in *. rewrite flat_map_cons, IH by exact H2.
  destruct (c =? a); [discriminate|reflexivity].
Qed.

Lemma encc_shape dp bs c : encc dp bs c = [c] \/ encc dp bs c = [c; c].
Proof.
  unfold encc. destruct (N.eqb_spec c 39) as [->|_]; [right; reflexivity|].
  destruct (N.eqb_spec c 37) as [->|_]; [destruct dp; [right|left]; reflexivity|].
  destruct (N.eqb_spec c 92) as [->|_]; [destruct bs; [right|left]; reflexivity|left; reflexivity].
Qed.

Lemma encc_no_percent dp bs c : c <> 37 -> encc dp bs c = encc false bs c.
Proof. intros H. apply N.eqb_neq in H. unfold encc. rewrite H. reflexivity. Qed.

Lemma dialect_replaces_bs d fl t :
  apply_repls fl (dialect_replaces d) t = if bs_active d fl then replace1 92 [92; 92] t else t.
Proof. destruct d; reflexivity. Qed.

Lemma dialect_replaces_no_backslash d fl t :
  forallb nobs t = true -> apply_repls fl (dialect_replaces d) t = t.
Proof.
  intros H. rewrite dialect_replaces_bs. destruct (bs_active d fl); [apply replace1_absent; exact H|reflexivity].
Qed.

(* Every replace1 is a flat_map, so a chain of them distributes over ++ and is therefore determined
   by what it does to one character - whatever the list of replacements. *)
Lemma apply_repls_app fl rs : forall s t,
  apply_repls fl rs (s ++ t) = apply_repls fl rs s ++ apply_repls fl rs t.
Proof.
  unfold apply_repls. induction rs as [|r rs IH]; intros s t; [reflexivity|].
  cbn [fold_left]. destruct (cond_holds fl (r_when r)); [rewrite replace1_app|]; apply IH.
Qed.

Lemma apply_repls_nil fl rs : apply_repls fl rs [] = [].
Proof.
  unfold apply_repls. induction rs as [|r rs IH]; [reflexivity|].
  cbn [fold_left]. destruct (cond_holds fl (r_when r)); exact IH.
Qed.

Lemma apply_repls_chain fl rs1 rs2 s :
  apply_repls fl (rs1 ++ rs2) s = apply_repls fl rs2 (apply_repls fl rs1 s).
Proof. apply fold_left_app. Qed.

Theorem apply_repls_charwise fl rs s :
  apply_repls fl rs s = flat_map (fun c => apply_repls fl rs [c]) s.
Proof.
  induction s as [|c s IH]; [apply apply_repls_nil|].
  rewrite flat_map_cons, <- IH, <- apply_repls_app. reflexivity.
Qed.

Lemma replace1_if (b : bool) a r c :
  (if b then replace1 a r [c] else [c]) = if (c =? a) && b then r else [c].
Proof. destruct b; [rewrite replace1_single, andb_true_r|rewrite andb_false_r]; reflexivity. Qed.

(* What the processor's chain followed by the dialect's does to one character.  The order of the
   calls does not show: a doubled quote has no percent or backslash for the later calls to find,
   a doubled percent no backslash. *)
Lemma literal_repls_char d fl c :
  apply_repls fl (dialect_replaces d) (apply_repls fl string_replaces [c])
  = encc (f_dp fl) (bs_active d fl) c.
Proof.
  rewrite dialect_replaces_bs. unfold apply_repls, string_replaces, encc.
  cbn [fold_left cond_holds r_when r_from r_to]. rewrite replace1_single.
  destruct (c =? 39). { destruct (f_dp fl), (bs_active d fl); reflexivity. }
  rewrite (replace1_if (f_dp fl) 37). destruct ((c =? 37) && f_dp fl).
  { destruct (bs_active d fl); reflexivity. }
  apply replace1_if.
Qed.

Lemma render_string_charwise d fl n s :
  render_string d fl n s = string_prefix n ++ 39 :: enc (f_dp fl) (bs_active d fl) s ++ [39].
Proof.
  unfold render_string, string_process. rewrite !apply_repls_app.
  rewrite (dialect_replaces_no_backslash d fl (string_prefix n)) by (destruct n; reflexivity).
  rewrite (dialect_replaces_no_backslash d fl [39]) by reflexivity.
  rewrite <- apply_repls_chain, apply_repls_charwise.
  erewrite flat_map_ext; [reflexivity|]. intros c. rewrite apply_repls_chain. apply literal_repls_char.
Qed.

Lemma collapse_cons_ne c r : c <> 37 -> collapse (c :: r) = c :: collapse r.
Proof.
  intros H. cbn [collapse]. destruct r as [|c2 r2]; [reflexivity|].
  destruct (N.eqb_spec c 37); [contradiction|reflexivity].
Qed.
Lemma collapse_pct_pct r : collapse (37 :: 37 :: r) = 37 :: collapse r.
Proof. reflexivity. Qed.

Lemma collapse_enc bs s t :
  collapse (enc true bs s ++ t) = enc false bs s ++ collapse t.
Proof.
  unfold enc. induction s as [|c s IH]; [reflexivity|].
  rewrite !flat_map_cons, <- !app_assoc. destruct (N.eqb_spec c 37) as [->|Hp].
  - change (encc true bs 37) with [37; 37]. change (encc false bs 37) with [37].
    cbn [app]. rewrite collapse_pct_pct, IH. reflexivity.
  - rewrite (encc_no_percent true) by exact Hp.
    destruct (encc_shape false bs c) as [-> | ->]; cbn [app];
      rewrite !collapse_cons_ne, IH by exact Hp; reflexivity.
Qed.

Lemma collapse_no_quote rest : no_quote_prefix rest -> no_quote_prefix (collapse rest).
Proof.
  destruct rest as [|c r]; [trivial|]. intros H. cbn [collapse].
  destruct r as [|c2 r2]; [exact H|].
  destruct ((c =? 37) && (c2 =? 37)); [cbn; discriminate|exact H].
Qed.

Lemma driver_cons_ne fl c r : c <> 37 -> driver fl (c :: r) = c :: driver fl r.
Proof. intros H. unfold driver. destruct (f_dp fl); [apply collapse_cons_ne; exact H|reflexivity]. Qed.

Lemma driver_enc fl bs s t : driver fl (enc (f_dp fl) bs s ++ t) = enc false bs s ++ driver fl t.
Proof. unfold driver. destruct (f_dp fl); [apply collapse_enc|reflexivity]. Qed.

Lemma driver_no_quote fl rest : no_quote_prefix rest -> no_quote_prefix (driver fl rest).
Proof. unfold driver. destruct (f_dp fl); [apply collapse_no_quote|trivial]. Qed.

Lemma driver_render_string d fl n s rest :
  driver fl (render_string d fl n s ++ rest)
  = string_prefix n ++ 39 :: enc false (bs_active d fl) s ++ 39 :: driver fl rest.
Proof.
  rewrite render_string_charwise.
  destruct n; cbn [string_prefix app]; rewrite <- app_assoc, !driver_cons_ne, driver_enc by discriminate;
    cbn [app]; rewrite driver_cons_ne by discriminate; reflexivity.
Qed.

Lemma scan_N_q em acc r : scan em Normal acc (39 :: r) = scan em AfterQ acc r.
Proof. reflexivity. Qed.
Lemma scan_Q_q em acc r : scan em AfterQ acc (39 :: r) = scan em Normal (39 :: acc) r.
Proof. reflexivity. Qed.
Lemma scan_N_bs em acc r : esc_on em = true -> scan em Normal acc (92 :: r) = scan em AfterBS acc r.
Proof. destruct em; [discriminate| |]; reflexivity. Qed.
Lemma scan_BS_bs em acc r : esc_on em = true -> scan em AfterBS acc (92 :: r) = scan em Normal (92 :: acc) r.
Proof. destruct em; [discriminate| |]; reflexivity. Qed.
Lemma scan_N_other em acc c r : c <> 39 -> (c =? 92) && esc_on em = false ->
  scan em Normal acc (c :: r) = scan em Normal (c :: acc) r.
Proof.
  intros H1 H2. cbn [scan]. destruct (N.eqb_spec c 39); [contradiction|]. rewrite H2. reflexivity.
Qed.
Lemma scan_Q_end em acc rest : no_quote_prefix rest -> scan em AfterQ acc rest = Some (rev acc, rest).
Proof.
  destruct rest as [|c r]; intros H; [reflexivity|]. cbn [scan].
  destruct (N.eqb_spec c 39); [contradiction|reflexivity].
Qed.

Lemma scan_encc em acc c r :
  scan em Normal acc (encc false (esc_on em) c ++ r) = scan em Normal (c :: acc) r.
Proof.
  unfold encc. destruct (N.eqb_spec c 39) as [->|Hq].
  - cbn [app]. rewrite scan_N_q, scan_Q_q. reflexivity.
  - rewrite andb_false_r. destruct ((c =? 92) && esc_on em) eqn:E.
    + apply andb_prop in E. destruct E as [E1 E2]. apply N.eqb_eq in E1. subst c.
      cbn [app]. rewrite scan_N_bs, scan_BS_bs by exact E2. reflexivity.
    + apply scan_N_other; assumption.
Qed.

Lemma scan_enc em s : forall acc rest, no_quote_prefix rest ->
  scan em Normal acc (enc false (esc_on em) s ++ 39 :: rest) = Some (rev acc ++ s, rest).
Proof.
  unfold enc. induction s as [|c s IH]; intros acc rest Hr.
  - cbn [flat_map app]. rewrite scan_N_q, scan_Q_end by exact Hr. rewrite app_nil_r. reflexivity.
  - rewrite flat_map_cons, <- app_assoc, scan_encc, IH by exact Hr.
    cbn [rev]. rewrite <- app_assoc. reflexivity.
Qed.

Lemma server_esc_on d fl : esc_on (lm_esc (server d fl)) = bs_active d fl.
Proof. destruct d; cbn [server lm_esc bs_active]; try reflexivity; destruct (f_bs fl); reflexivity. Qed.

Lemma lex_enc lm n s rest : (n = true -> lm_n lm = true) -> no_quote_prefix rest ->
  lex_str lm (string_prefix n ++ 39 :: enc false (esc_on (lm_esc lm)) s ++ 39 :: rest) = Some (s, rest).
Proof.
  intros Hn Hr. destruct n; cbn [string_prefix app lex_str]; [rewrite (Hn eq_refl)|];
    apply (scan_enc _ s [] rest Hr).
Qed.

(* the driver undoes the doubling of percent signs, the server's lexer the rest *)
Theorem string_literal_roundtrip : forall d fl n s rest,
  (n = true -> d = MSSQL) ->
  no_quote_prefix rest ->
  lex_str (server d fl) (driver fl (render_string d fl n s ++ rest)) = Some (s, driver fl rest).
Proof.
  intros d fl n s rest Hn Hr. rewrite driver_render_string, <- server_esc_on.
  apply lex_enc; [intros E; rewrite (Hn E); reflexivity|apply driver_no_quote; exact Hr].
Qed.

Lemma enc_plain dp bs s : forallb plainc s = true -> enc dp bs s = s.
Proof.
  unfold enc. induction s as [|c s IH]; intros H; [reflexivity|].
  cbn [forallb] in H. apply andb_prop in H. destruct H as [H1 H2].
  rewrite flat_map_cons, IH by exact H2. unfold encc, plainc in *.
  destruct (c =? 39); [discriminate|]. destruct (c =? 37); [discriminate|].
  destruct (c =? 92); [discriminate|]. reflexivity.
Qed.

Lemma render_string_plain d fl s :
  forallb plainc s = true -> render_string d fl false s = [39] ++ s ++ [39].
Proof. intros H. rewrite render_string_charwise, (enc_plain _ _ _ H). reflexivity. Qed.

(* \' OR 1=1 --  : with the flag off against a server that honours backslash escapes it ends the literal early *)
Definition inj_value : str := [92; 39; 32; 79; 82; 32; 49; 61; 49; 32; 45; 45; 32].
Theorem backslash_flag_mismatch_injects :
  lex_str (mkLex EscMySQL false) (render_string MySQL (mkFlags false false) false inj_value)
  = Some ([39], [32; 79; 82; 32; 49; 61; 49; 32; 45; 45; 32; 39]).
Proof. vm_compute. reflexivity. Qed.

Theorem percent_flag_mismatch_changes_value :
  lex_str (mkLex EscNone false) (render_string SQLite (mkFlags true false) false [37]) = Some ([37; 37], []).
Proof. vm_compute. reflexivity. Qed.

Lemma unicode_n_mssql d t s : unicode_n d t s = true -> d = MSSQL.
Proof. unfold unicode_n. destruct d; try discriminate. reflexivity. Qed.

Theorem string_value_roundtrip : forall d fl t s rest lit,
  render_value d fl (VStr t s) = Ok lit ->
  no_quote_prefix rest ->
  lex_str (server d fl) (driver fl (lit ++ rest)) = Some (s, driver fl rest).
Proof.
  intros d fl t s rest lit H Hr. cbn [render_value] in H. inversion H; subst lit.
  apply string_literal_roundtrip; [apply unicode_n_mssql|exact Hr].
Qed.
