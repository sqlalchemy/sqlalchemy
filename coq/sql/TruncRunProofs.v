(* C21 - proofs about Trunc.run, a whole compilation (sequence of name requests, bind parameters included):
   invariants and the statement-level theorems.  (TruncRun.v is the executable harness, not the subject.) *)
From Coq Require Import List NArith ZArith Bool Lia.
Import ListNotations.
From SAV.sql Require Import Trunc TruncDigits TruncLabels.

Local Open Scope Z_scope.

Section Binds.
  Variable benv : N -> bindrec.
  Notation truncate_bindparam := (truncate_bindparam benv).
  Notation visit_bindparam := (visit_bindparam benv).
  Notation step := (step benv).
  Notation run := (run benv).

  Definition bn_find (st : cstate) (oid : N) : option str := assoc N.eqb oid (st_bind_names st).
  Definition b_find (st : cstate) (nm : str) : option N := assoc str_eqb nm (st_binds st).

  Definition names_ok (st : cstate) : Prop :=
    forall oid nm, bn_find st oid = Some nm ->
      match b_key (benv oid) with
      | BPlain s => nm = s
      | BTrunc t => memo_find st cls_bindparam t = Some nm
      end.
  Definition owner_ok (st : cstate) (oid : N) (nm : str) : Prop :=
    exists ex, b_find st nm = Some ex
               /\ (ex = oid \/ (b_unique (benv ex) = false /\ b_unique (benv oid) = false)).

  Record BInv (ll : Z) (st : cstate) : Prop := {
    bi_t : TInv ll st;
    bi_names : names_ok st;
    bi_owner : forall oid nm, bn_find st oid = Some nm -> owner_ok st oid nm;
    bi_back : forall nm ex, b_find st nm = Some ex -> bn_find st ex = Some nm
  }.

  Lemma BInv_init : forall ll, BInv ll init_state.
  Proof. intros. constructor; [apply TInv_init|intros ? ? H; discriminate|intros ? ? H; discriminate|intros ? ? H; discriminate]. Qed.

  Definition bn_mono (st st' : cstate) : Prop :=
    forall oid nm, bn_find st oid = Some nm -> bn_find st' oid = Some nm.
  Lemma bn_mono_refl : forall st, bn_mono st st.
  Proof. intros st o n H. exact H. Qed.

  (* the bind side of the invariant only asks that memo entries stay *)
  Lemma BInv_memo_step : forall ll st st', BInv ll st -> memo_step ll st st' ->
    BInv ll st' /\ bn_mono st st'.
  Proof.
    intros ll st st' I (I0 & M0 & B0 & N0 & _).
    assert (Hbn : forall o, bn_find st' o = bn_find st o) by (intros; unfold bn_find; rewrite N0; reflexivity).
    assert (Hbf : forall n, b_find st' n = b_find st n) by (intros; unfold b_find; rewrite B0; reflexivity).
    split; [|intros ? ? K; rewrite Hbn; exact K]. constructor; [exact I0| | |].
    - intros oid nm Hn. rewrite Hbn in Hn. pose proof (bi_names _ _ I _ _ Hn) as Q.
      destruct (b_key (benv oid)); [exact Q|apply M0; exact Q].
    - intros oid nm Hn. rewrite Hbn in Hn. destruct (bi_owner _ _ I _ _ Hn) as (ex & Hex & Hrel).
      exists ex. rewrite Hbf. auto.
    - intros nm ex Hb. rewrite Hbf in Hb. rewrite Hbn. apply (bi_back _ _ I). exact Hb.
  Qed.

  Lemma truncate_bindparam_spec : forall ll st oid st1 nm, BInv ll st ->
    truncate_bindparam ll st oid = (st1, nm) ->
    TInv ll st1 /\ names_ok st1 /\ memo_mono st st1 /\ bn_mono st st1
    /\ st_binds st1 = st_binds st /\ bn_find st1 oid = Some nm
    /\ (forall o' n', bn_find st1 o' = Some n' -> o' <> oid -> bn_find st o' = Some n')
    /\ (length (st_memo st1) <= S (length (st_memo st)))%nat.
  Proof.
    intros ll st oid st1 nm I H. unfold Trunc.truncate_bindparam in H. fold (bn_find st oid) in H.
    destruct (bn_find st oid) as [nm0|] eqn:F.
    - inversion H; subst. split; [apply I|split; [apply I|]].
      repeat split; auto using memo_mono_refl, bn_mono_refl.
    - (* the state [st0] in which the name was found or made, whatever the kind of key *)
      destruct (match b_key (benv oid) with
                | BPlain s => (st, s)
                | BTrunc t => truncated_identifier ll st cls_bindparam t
                end) as [st0 nm0] eqn:T.
      assert (S0 : memo_step ll st st0 /\ match b_key (benv oid) with
                                           | BPlain s => nm0 = s
                                           | BTrunc t => memo_find st0 cls_bindparam t = Some nm0
                                           end).
      { destruct (b_key (benv oid)) as [s|t].
        - inversion T; subst. split; [apply memo_step_refl, I|reflexivity].
        - exact (truncated_identifier_spec _ _ _ _ _ _ (bi_t _ _ I) T). }
      destruct S0 as ((I0 & M0 & B0 & N0 & L0) & K0). inversion H; subst st1 nm0; clear H T.
      set (st1 := {| st_am := st_am st0; st_memo := st_memo st0; st_tctr := st_tctr st0;
                     st_binds := st_binds st0; st_bind_names := (oid, nm) :: st_bind_names st0 |}).
      assert (Hbn : forall o, bn_find st1 o = if N.eqb o oid then Some nm else bn_find st o).
      { intros o. unfold bn_find, st1. cbn [st_bind_names assoc]. rewrite N0. reflexivity. }
      split; [eapply TInv_same; [| | |exact I0]; reflexivity|]. split; [|split; [exact M0|]].
      { intros o n Hn. rewrite Hbn in Hn. change (memo_find st1) with (memo_find st0).
        destruct (N.eqb_spec o oid) as [->|].
        - inversion Hn; subst n. exact K0.
        - pose proof (bi_names _ _ I _ _ Hn) as Q. destruct (b_key (benv o)); [exact Q|apply M0, Q]. }
      split; [|split; [exact B0|split; [rewrite Hbn, N.eqb_refl; reflexivity|split; [|exact L0]]]];
        intros o n Hn; rewrite Hbn in *; destruct (N.eqb_spec o oid) as [->|]; congruence.
  Qed.

  Definition bind_add (st : cstate) (nm : str) (oid : N) : cstate :=
    {| st_am := st_am st; st_memo := st_memo st; st_tctr := st_tctr st;
       st_binds := (nm, oid) :: st_binds st; st_bind_names := st_bind_names st |}.

  (* visit_bindparam once the name is known: it is refused only if another parameter holds it, and
     accepted only if no other does or neither of the two is unique *)
  Lemma visit_bindparam_cases : forall ll st oid st1 nm, truncate_bindparam ll st oid = (st1, nm) ->
    match visit_bindparam ll st oid with
    | Ok r => r = (bind_add st1 nm oid, nm)
              /\ forall ex, b_find st1 nm = Some ex ->
                   ex = oid \/ (b_unique (benv ex) = false /\ b_unique (benv oid) = false)
    | Raise _ => exists ex, b_find st1 nm = Some ex /\ ex <> oid
    end.
  Proof.
    intros ll st oid st1 nm T. unfold Trunc.visit_bindparam. rewrite T. fold (b_find st1 nm).
    destruct (b_find st1 nm) as [ex|]; [|split; [reflexivity|discriminate]].
    destruct (N.eqb_spec ex oid) as [->|Hne]; [split; [reflexivity|intros ? [= <-]; auto]|].
    destruct (b_unique (benv ex) || b_unique (benv oid)) eqn:U; [eauto|]. apply orb_false_iff in U.
    destruct (negb _); [eauto|]. split; [reflexivity|intros ? [= <-]; auto].
  Qed.

  Lemma visit_bindparam_spec : forall ll st oid st' nm, BInv ll st ->
    visit_bindparam ll st oid = Ok (st', nm) ->
    BInv ll st' /\ memo_mono st st' /\ bn_mono st st' /\ bn_find st' oid = Some nm
    /\ (length (st_memo st') <= S (length (st_memo st)))%nat.
  Proof.
    intros ll st oid st' nm I H. destruct (truncate_bindparam ll st oid) as [st1 nm1] eqn:T.
    destruct (truncate_bindparam_spec _ _ _ _ _ I T) as (I1 & NO & MM & BM & EB & FB & OLD & LEN).
    pose proof (visit_bindparam_cases _ _ _ _ _ T) as V. rewrite H in V. destruct V as ([= -> ->] & Hc).
    set (st2 := bind_add st1 nm1 oid).
    assert (Hbf : forall n, b_find st2 n = if str_eqb n nm1 then Some oid else b_find st1 n) by reflexivity.
    split; [|split; [exact MM|split; [exact BM|split; [exact FB|exact LEN]]]].
    constructor.
    - eapply TInv_same; [| | |exact I1]; reflexivity.
    - exact NO.
    - intros o n Hn. change (bn_find st2 o) with (bn_find st1 o) in Hn.
      unfold owner_ok. rewrite Hbf. destruct (eqb_spec_of _ str_eqb_eq n nm1) as [->|Hn1].
      + exists oid. split; [reflexivity|].
        destruct (N.eq_dec o oid) as [->|Hne]; [left; reflexivity|right].
        destruct (bi_owner _ _ I _ _ (OLD _ _ Hn Hne)) as (ex & Hex & Hrel).
        unfold b_find in Hex. rewrite <- EB in Hex. pose proof (Hc _ Hex). intuition congruence.
      + destruct (N.eq_dec o oid) as [->|Hne]; [congruence|].
        destruct (bi_owner _ _ I _ _ (OLD _ _ Hn Hne)) as (ex & Hex & Hrel).
        exists ex. split; [|exact Hrel]. unfold b_find. rewrite EB. exact Hex.
    - intros n ex Hb. change (bn_find st2 ex) with (bn_find st1 ex). rewrite Hbf in Hb.
      destruct (eqb_spec_of _ str_eqb_eq n nm1) as [->|Hn1].
      + inversion Hb; subst ex. exact FB.
      + apply BM. apply (bi_back _ _ I). unfold b_find in *. rewrite <- EB. exact Hb.
  Qed.

  Definition out_ok (st' : cstate) (r : req) (o : str) : Prop :=
    match r with
    | RName cls (LStr s) => o = s
    | RName cls (LTrunc n) => memo_find st' cls n = Some o
    | RBind oid => bn_find st' oid = Some o
    end.

  Lemma step_spec : forall ll st r st' o, BInv ll st -> step ll st r = Ok (st', o) ->
    BInv ll st' /\ memo_mono st st' /\ bn_mono st st' /\ out_ok st' r o
    /\ (length (st_memo st') <= S (length (st_memo st)))%nat.
  Proof.
    intros ll st r st' o I H. destruct r as [cls [s|n]|oid]; cbn [Trunc.step element_name] in H.
    - inversion H; subst. split; [exact I|]. repeat split; auto using memo_mono_refl, bn_mono_refl.
    - destruct (truncated_identifier ll st cls n) as [st0 o0] eqn:T. inversion H; subst; clear H.
      destruct (truncated_identifier_spec _ _ _ _ _ _ (bi_t _ _ I) T) as (S0 & F0).
      destruct (BInv_memo_step _ _ _ I S0) as (I' & B'). destruct S0 as (_ & M0 & _ & _ & L0). auto 6.
    - destruct (visit_bindparam_spec _ _ _ _ _ I H) as (I' & M & B & F & L). auto.
  Qed.

  Lemma run_spec : forall ll rs st st' os, BInv ll st -> run ll st rs = Ok (st', os) ->
    BInv ll st' /\ memo_mono st st' /\ bn_mono st st' /\ length os = length rs
    /\ (forall r o, In (r, o) (combine rs os) -> out_ok st' r o)
    /\ (length (st_memo st') <= length (st_memo st) + length rs)%nat.
  Proof.
    induction rs as [|r rs IH]; intros st st' os I H; cbn [Trunc.run] in H.
    - inversion H; subst. split; [exact I|]. repeat split; auto using memo_mono_refl, bn_mono_refl.
      + intros ? ? [].
      + cbn. lia.
    - destruct (step ll st r) as [[st1 o]|] eqn:S1; [|discriminate].
      destruct (run ll st1 rs) as [[st2 os2]|] eqn:R; [|discriminate]. inversion H; subst; clear H.
      destruct (step_spec _ _ _ _ _ I S1) as (I1 & M1 & B1 & O1 & L1).
      destruct (IH _ _ _ I1 R) as (I2 & M2 & B2 & Len & O2 & L2).
      split; [exact I2|split; [eapply memo_mono_trans; eauto|split; [intros ? ? K; apply B2, B1, K|]]].
      split; [cbn; lia|split; [|cbn [length]; lia]].
      intros r0 o0 [E|Hin]; [|apply O2; exact Hin]. inversion E; subst r0 o0.
      destruct r as [cls [s|n]|oid]; cbn [out_ok] in *; [exact O1|apply M2; exact O1|apply B2; exact O1].
  Qed.

  (* what the statement-level theorems all start from: a compilation from the empty state *)
  Lemma run_init_spec : forall ll rs st os, run ll init_state rs = Ok (st, os) ->
    BInv ll st /\ (forall r o, In (r, o) (combine rs os) -> out_ok st r o)
    /\ (length (st_memo st) <= length rs)%nat.
  Proof. intros ll rs st os H. destruct (run_spec _ _ _ _ _ (BInv_init ll) H) as (I & _ & _ & _ & O & L). auto. Qed.

  Theorem run_labels_injective : forall ll rs st os cls n1 n2 o,
    run ll init_state rs = Ok (st, os) ->
    In (RName cls (LTrunc n1), o) (combine rs os) -> In (RName cls (LTrunc n2), o) (combine rs os) ->
    n1 = n2 \/ (anon_pure (st_am st) n1 = anon_pure (st_am st) n2
                /\ slen (anon_pure (st_am st) n1) <= ll - 6).
  Proof.
    intros ll rs st os cls n1 n2 o H H1 H2. destruct (run_init_spec _ _ _ _ H) as (I & O & _).
    exact (memo_injective _ _ _ _ _ _ (bi_t _ _ I) (O _ _ H1) (O _ _ H2)).
  Qed.

  Theorem run_labels_injective_small_ll : forall ll rs st os cls n1 n2 o, ll < 6 ->
    run ll init_state rs = Ok (st, os) ->
    In (RName cls (LTrunc n1), o) (combine rs os) -> In (RName cls (LTrunc n2), o) (combine rs os) ->
    n1 = n2.
  Proof.
    intros ll rs st os cls n1 n2 o Hl H H1 H2.
    destruct (run_labels_injective _ _ _ _ _ _ _ _ H H1 H2) as [E|(_ & L)]; [exact E|].
    (* no text has length <= ll - 6 < 0, so nothing escapes truncation *)
    pose proof (slen_nonneg (anon_pure (st_am st) n1)). lia.
  Qed.

  Theorem run_stable : forall ll rs st os r o1 o2,
    run ll init_state rs = Ok (st, os) ->
    In (r, o1) (combine rs os) -> In (r, o2) (combine rs os) -> o1 = o2.
  Proof.
    intros ll rs st os r o1 o2 H H1 H2. destruct (run_init_spec _ _ _ _ H) as (_ & O & _).
    pose proof (O _ _ H1) as A. pose proof (O _ _ H2) as B.
    destruct r as [cls [s|n]|oid]; cbn [out_ok] in A, B; congruence.
  Qed.

  (* anonymous elements: the generated names of distinct (id, body) keys differ *)
  Theorem run_anon_keys_distinct : forall ll rs st os k1 k2 v,
    run ll init_state rs = Ok (st, os) ->
    am_find (st_am st) k1 = Some v -> am_find (st_am st) k2 = Some v -> k1 = k2.
  Proof.
    intros ll rs st os k1 k2 v H. destruct (run_init_spec _ _ _ _ H) as (I & _).
    apply (proj2 (ti_am _ _ (bi_t _ _ I))).
  Qed.

  Theorem run_anon_labels_distinct : forall ll rs st os cls k1 k2 o,
    run ll init_state rs = Ok (st, os) ->
    In (RName cls (LTrunc [Anon (fst k1) (snd k1)]), o) (combine rs os) ->
    In (RName cls (LTrunc [Anon (fst k2) (snd k2)]), o) (combine rs os) -> k1 = k2.
  Proof.
    intros ll rs st os cls [i1 b1] [i2 b2] o H H1 H2. destruct (run_init_spec _ _ _ _ H) as (I & O & _).
    exact (memo_anon_injective _ _ _ _ _ _ _ _ (bi_t _ _ I) (O _ _ H1) (O _ _ H2)).
  Qed.

  Theorem run_binds_distinct : forall ll rs st os o1 o2 n1 n2,
    run ll init_state rs = Ok (st, os) ->
    In (RBind o1, n1) (combine rs os) -> In (RBind o2, n2) (combine rs os) ->
    o1 <> o2 -> b_unique (benv o1) = true \/ b_unique (benv o2) = true -> n1 <> n2.
  Proof.
    intros ll rs st os o1 o2 n1 n2 H H1 H2 Hne Hu E. subst n2.
    destruct (run_init_spec _ _ _ _ H) as (I & O & _).
    destruct (bi_owner _ _ I _ _ (O _ _ H1)) as (ex1 & F1 & R1).
    destruct (bi_owner _ _ I _ _ (O _ _ H2)) as (ex2 & F2 & R2).
    assert (ex2 = ex1) by congruence. subst ex2.
    destruct R1 as [->|(U1 & U2)], R2 as [->|(U3 & U4)]; try contradiction;
    destruct Hu as [Hu|Hu]; congruence.
  Qed.

  Theorem run_len_bounded : forall ll rs st os, 6 <= ll -> (N.of_nat (length rs) < hex_limit)%N ->
    run ll init_state rs = Ok (st, os) ->
    (forall cls n o, In (RName cls (LTrunc n), o) (combine rs os) -> slen o <= ll)
    /\ (forall oid t o, In (RBind oid, o) (combine rs os) -> b_key (benv oid) = BTrunc t -> slen o <= ll).
  Proof.
    intros ll rs st os Hl Hn H. destruct (run_init_spec _ _ _ _ H) as (I & O & L).
    assert (B : forall cls n o, memo_find st cls n = Some o -> slen o <= ll).
    { intros cls n o. apply memo_len_bounded; [apply I|exact Hl|].
      (* the counter is at most 1 + the number of memo entries, which is at most the number of requests *)
      pose proof (ti_ctr_hi _ _ (bi_t _ _ I) cls). pose proof (count_cls_le cls (st_memo st)).
      unfold counter_start in *. lia. }
    split.
    - intros cls n o Hin. exact (B _ _ _ (O _ _ Hin)).
    - intros oid t o Hin K. pose proof (bi_names _ _ I _ _ (O _ _ Hin)) as Q. rewrite K in Q. exact (B _ _ _ Q).
  Qed.
End Binds.
