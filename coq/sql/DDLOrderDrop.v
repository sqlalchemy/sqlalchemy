(* C14 - drop_all: guarded success and the documented errors *)
From Coq Require Import List NArith Bool Lia Permutation.
Import ListNotations.
From SAV.util Require Import Topo Cycles TopoProofs TopoCycle TopoExtra CyclesSound CyclesComplete CyclesExact.
From SAV.sql Require Import DDLOrder DDLOrderBase DDLOrderSort DDLOrderExec DDLOrderCreate.

(* documented: a use_alter constraint needs a name to be dropped *)
Definition alter_named (md : metadata) : Prop :=
  forall t f, In t md -> In f (t_fks t) -> fk_alter f = true -> fk_named f = true.
(* two constraints of one table to the same table are both named or both unnamed *)
Definition siblings_agree (md : metadata) : Prop :=
  forall t f f', In t md -> In f (t_fks t) -> In f' (t_fks t) -> fk_ref f = fk_ref f' -> fk_named f = fk_named f'.
(* dependencies that ALTER cannot take away: constraints without a name (and without use_alter) *)
Definition unnamed_dep (t : table) (f : fk) : bool :=
  negb (fk_alter f) && negb (fk_named f) && negb (N.eqb (fk_ref f) (t_name t)).
Definition unnamed_deps (md : metadata) : list edge :=
  flat_map (fun t => map (fk_edge t) (filter (unnamed_dep t) (t_fks t))) md.

Lemma In_unnamed md e : In e (unnamed_deps md) <->
  exists t f, In t md /\ In f (t_fks t) /\ unnamed_dep t f = true /\ e = fk_edge t f.
Proof. apply In_fk_edges. Qed.

Lemma drop_filter_true f : is_true (drop_filter f) = false.
Proof. unfold drop_filter. destruct (fk_named f); reflexivity. Qed.
Lemma drop_filter_false f : negb (is_false (drop_filter f)) = fk_named f.
Proof. unfold drop_filter. destruct (fk_named f); reflexivity. Qed.

Lemma deferred_drop tables cyc t f :
  deferred drop_filter tables cyc t f = fk_alter f || (hit drop_filter tables cyc t && fk_named f).
Proof. unfold deferred, pre_deferred. rewrite drop_filter_true, drop_filter_false, orb_false_r. reflexivity. Qed.

Lemma dep_fk_drop t f : dep_fk drop_filter t f = negb (fk_alter f) && negb (N.eqb (fk_ref f) (t_name t)).
Proof. unfold dep_fk, pre_deferred. rewrite drop_filter_true, orb_false_r. reflexivity. Qed.

(* a named constraint is removable: only unnamed ones stay stuck *)
Lemma stuck_drop_unnamed tables e : In e (stuck_edges drop_filter tables) -> In e (unnamed_deps tables).
Proof. intros H. apply In_stuck in H. destruct H as [t [f [Ht [Hf [Hu ->]]]]]. apply In_unnamed. exists t, f.
  repeat split; try assumption. pose proof (unremovable_false _ _ _ Hf Hu) as Hn.
  apply andb_true_iff in Hu. destruct Hu as [Hd _]. rewrite dep_fk_drop in Hd. apply andb_true_iff in Hd.
  destruct Hd as [Ha Hr]. unfold unnamed_dep. rewrite Ha, Hr, andb_true_r, <- drop_filter_false, Hn. reflexivity. Qed.

Lemma drop_edges_sub tables md : incl tables md ->
  incl (fixed tables ++ stuck_edges drop_filter tables) (fixed md ++ unnamed_deps md).
Proof. intros H. apply incl_app_app; [apply flat_map_incl, H|].
  intros e He. apply (flat_map_incl _ _ _ H), stuck_drop_unnamed, He. Qed.

Lemma filter_none {A} (p : A -> bool) l : (forall x, In x l -> p x = false) -> filter p l = [].
Proof. induction l as [|a l IH]; simpl; intros H; [reflexivity|]. rewrite (H a) by (left; reflexivity).
  apply IH. intros x Hx. apply H. right. exact Hx. Qed.

Section DropProof.
Variable md : metadata.
Variable db0 : db.
Variable checkfirst : bool.
Hypothesis Hwf : wf md.
Hypothesis Hcons : consistent db0 md.
Hypothesis Hcf : checkfirst = false -> forall t, In t md -> has_table (t_name t) db0 = true.
Hypothesis Hnamed : alter_named md.
Hypothesis Hsiblings : siblings_agree md.

Let tables := drop_tables (map fst db0) checkfirst md.

Lemma In_dtables t : In t tables <-> In t md /\ has_table (t_name t) db0 = true.
Proof. unfold tables, drop_tables. rewrite filter_In. destruct checkfirst eqn:C; simpl.
  - rewrite memb_In, has_table_In. tauto.
  - split; [intros [H _]; split; [exact H|apply (Hcf eq_refl); exact H]|tauto]. Qed.

Lemma dtables_nodup : NoDup (names tables).
Proof. apply NoDup_map_filter, Hwf. Qed.

Lemma dname_in_tables n : has_table n db0 = true -> exists t, In t tables /\ t_name t = n.
Proof. intros H. destruct Hcons as [_ [H2 _]]. pose proof (H2 n (proj1 (has_table_In n db0) H)) as Hn.
  apply in_map_iff in Hn. destruct Hn as [t [E Ht]]. exists t. split; [|exact E].
  apply In_dtables. split; [exact Ht|]. rewrite E. exact H. Qed.

Section WithSort.
Variables (o cyc : list node) (w : bool).
Hypothesis Hs : sort_tables_and_constraints drop_filter tables = Ok (o, cyc, w).

Lemma do_perm : Permutation o (names tables).
Proof. exact (stc_perm _ _ _ _ _ Hs). Qed.

Lemma do_nodup : NoDup o.
Proof. exact (stc_nodup _ _ _ _ _ dtables_nodup Hs). Qed.

Let u := alter_stmts DropFK drop_filter tables cyc.

Lemma du_named : forallb stmt_named u = true.
Proof. apply forallb_forall. intros s Hs'. destruct (In_alter_stmts _ _ _ _ _ Hs') as [tt [f [-> [Ht [Hf Hd]]]]]. simpl.
  rewrite deferred_drop in Hd. apply orb_true_iff in Hd. destruct Hd as [Ha|Hh].
  - apply (Hnamed tt f); try assumption. apply In_dtables in Ht. tauto.
  - apply andb_true_iff in Hh. tauto. Qed.

Lemma u_fks t : In t tables -> alter_fks (t_name t) u = deferred_of drop_filter tables cyc t.
Proof. apply (alter_fks_table DropFK (or_intror eq_refl)), dtables_nodup. Qed.

(* a constraint that ALTER does not drop keeps its edge in the sort: had the edge been discarded, a named
   sibling would refer to the same table *)
Lemma kept_before t g : In t tables -> In g (t_fks t) -> deferred drop_filter tables cyc t g = false ->
  fk_ref g <> t_name t -> In (fk_ref g) (names tables) -> before o (fk_ref g) (t_name t).
Proof.
  intros Ht Hg Hdef Hne Hr. rewrite deferred_drop in Hdef. apply orb_false_iff in Hdef. destruct Hdef as [Ha Hhn].
  apply (stc_before_fk _ _ _ _ _ t g Hs Ht Hg); [| |exact Hr].
  - rewrite dep_fk_drop, Ha. apply negb_true_iff, N.eqb_neq, Hne.
  - unfold discarded. destruct (hit drop_filter tables cyc t); [simpl in *|reflexivity].
    apply not_true_iff_false. intros Ex. apply existsb_exists in Ex. destruct Ex as [f' [Hf1 Hf2]].
    apply N.eqb_eq in Hf2. apply filter_In in Hf1. destruct Hf1 as [Hf1 Hf3]. rewrite drop_filter_false in Hf3.
    apply In_dtables in Ht. pose proof (Hsiblings t f' g (proj1 Ht) Hf1 Hg Hf2). congruence. Qed.

Lemma dropfks_ok u' : Permutation u' u -> exists d1, exec db0 u' = Some d1 /\ map fst d1 = map fst db0 /\
  forall t g, In t tables -> In g (fks_in (t_name t) d1) ->
    In g (t_fks t) /\ deferred drop_filter tables cyc t g = false.
Proof.
  intros Hp. assert (Hcat : forall t, In t tables -> Permutation (fks_in (t_name t) db0) (t_fks t)).
  { intros t Ht. apply In_dtables in Ht. apply Hcons; tauto. }
  destruct (exec_dropfks u' db0) as [d1 [H1 [H2 H3]]].
  - intros s Hin. apply (Permutation_in _ Hp) in Hin.
    pose proof (proj1 (forallb_forall _ _) du_named _ Hin) as Hn.
    apply In_alter_stmts in Hin. destruct Hin as [t [g [-> [Ht _]]]]. exists (t_name t), g. apply In_dtables in Ht. tauto.
  - intros n. pose proof (alter_fks_perm n _ _ Hp) as Hpp.
    destruct (in_dec N.eq_dec n (names tables)) as [Hin|Hnin].
    + apply in_map_iff in Hin. destruct Hin as [t [<- Ht]]. rewrite (u_fks t Ht) in Hpp. split.
      * apply (Permutation_NoDup (Permutation_map fk_id (Permutation_sym Hpp))), NoDup_map_filter, Hwf.
        apply In_dtables in Ht. tauto.
      * intros f Hf. apply (Permutation_in _ Hpp), filter_In in Hf. apply has_fk_In, in_map.
        apply (Permutation_in _ (Permutation_sym (Hcat t Ht))). tauto.
    + unfold u in Hpp. rewrite (alter_fks_none DropFK (or_intror eq_refl) _ _ _ n Hnin) in Hpp.
      apply Permutation_sym, Permutation_nil in Hpp. rewrite Hpp. split; [constructor|intros f []].
  - exists d1. split; [exact H1|]. split; [exact H2|]. intros t g Ht Hg.
    rewrite H3 in Hg. apply filter_In in Hg. destruct Hg as [Hg Hnd].
    apply (Permutation_in _ (Hcat t Ht)) in Hg. split; [exact Hg|].
    apply negb_true_iff, not_true_iff_false in Hnd. apply not_true_iff_false. intros D. apply Hnd, has_fk_In, in_map.
    apply (Permutation_in _ (Permutation_sym (alter_fks_perm _ _ _ Hp))). rewrite (u_fks t Ht).
    apply filter_In. tauto. Qed.

Theorem drop_exec u' : Permutation u' u -> exec db0 (u' ++ map DropT (rev o)) = Some [].
Proof.
  intros Hp. rewrite exec_app. destruct (dropfks_ok u' Hp) as [d1 [H1 [H2 H3]]]. rewrite H1.
  assert (Hhas : forall n, has_table n d1 = has_table n db0).
  { intros n. apply eq_true_iff_eq. rewrite !has_table_In, H2. tauto. }
  rewrite (exec_dropts d1 (rev o)).
  - f_equal. apply filter_none. intros r Hr. apply negb_false_iff, memb_In. rewrite <- in_rev.
    apply (Permutation_in _ (Permutation_sym do_perm)).
    destruct (dname_in_tables (fst r)) as [t [Ht <-]]; [|apply in_map, Ht].
    rewrite <- Hhas. apply has_table_In, in_map, Hr.
  - apply NoDup_rev, do_nodup.
  - rewrite H2. apply Hcons.
  - intros n Hn. rewrite Hhas. apply in_rev, (Permutation_in _ do_perm), in_map_iff in Hn.
    destruct Hn as [t [<- Ht]]. apply In_dtables in Ht. tauto.
  - (* whoever still refers to t is dropped before t *)
    intros pre t suf E un g Hu Hne Hg Href.
    rewrite Hhas in Hu. destruct (dname_in_tables _ Hu) as [tu [Htu <-]]. destruct (H3 tu g Htu Hg) as [Hgt Hdef].
    apply (before_prefix (rev o) (t_name tu) t pre suf (NoDup_rev do_nodup)); [|exact E].
    apply before_rev. rewrite <- Href. apply kept_before; try assumption; [congruence|].
    apply (Permutation_in _ do_perm), in_rev. rewrite Href, E. apply in_elt. Qed.
End WithSort.

Theorem drop_all_succeeds_guarded :
  ~ (exists w, cycle (fixed md ++ unnamed_deps md) w /\ incl w (names md)) ->
  exists o u, drop_plan (map fst db0) checkfirst md = Plan o u /\
    forall u', Permutation u' u -> exec db0 (u' ++ o) = Some [].
Proof.
  intros Hcyc. unfold drop_plan. fold tables.
  destruct (sort_tables_and_constraints drop_filter tables) as [[[o cyc] w]| |] eqn:Hs.
  - rewrite (du_named cyc). eexists _, _. split; [reflexivity|]. exact (drop_exec o cyc w Hs).
  - destruct Hcyc. apply stc_circular_iff in Hs. revert Hs.
    apply has_cycle_mono; [apply drop_edges_sub|apply incl_map]; apply incl_filter.
  - destruct (stc_never_fuel _ _ Hs). Qed.
End DropProof.

Theorem drop_plan_circular_iff existing checkfirst md :
  drop_plan existing checkfirst md = ErrCircular <->
  exists w, cycle (fixed (drop_tables existing checkfirst md) ++
                   stuck_edges drop_filter (drop_tables existing checkfirst md)) w /\
            incl w (names (drop_tables existing checkfirst md)).
Proof. rewrite <- stc_circular_iff. unfold drop_plan.
  destruct (sort_tables_and_constraints drop_filter (drop_tables existing checkfirst md)) as [[[o cyc] w]| |];
    [destruct (forallb stmt_named _)|..]; split; (discriminate || reflexivity). Qed.

Theorem drop_plan_circular_unnamed existing checkfirst md :
  drop_plan existing checkfirst md = ErrCircular ->
  exists w, cycle (fixed md ++ unnamed_deps md) w /\ incl w (names md).
Proof. rewrite drop_plan_circular_iff.
  apply has_cycle_mono; [apply drop_edges_sub|apply incl_map]; apply incl_filter. Qed.

Theorem drop_plan_compile_error existing checkfirst md :
  drop_plan existing checkfirst md = ErrCompile ->
  exists t f, In t md /\ In f (t_fks t) /\ fk_alter f = true /\ fk_named f = false.
Proof. unfold drop_plan.
  destruct (sort_tables_and_constraints drop_filter (drop_tables existing checkfirst md)) as [[[o cyc] w]| |] eqn:E;
    try discriminate.
  destruct (forallb stmt_named _) eqn:F; [discriminate|]. intros _.
  assert (X : exists s, In s (alter_stmts DropFK drop_filter (drop_tables existing checkfirst md) cyc) /\ stmt_named s = false).
  { clear E. induction (alter_stmts DropFK drop_filter (drop_tables existing checkfirst md) cyc) as [|s l IH]; simpl in F; [discriminate|].
    destruct (stmt_named s) eqn:S; simpl in F.
    - destruct (IH F) as [s' [H1 H2]]. exists s'. split; [right; exact H1|exact H2].
    - exists s. split; [left; reflexivity|exact S]. }
  destruct X as [s [Hin Hn]]. apply In_alter_stmts in Hin. destruct Hin as [t [f [-> [Ht [Hf Hd]]]]]. simpl in Hn.
  rewrite deferred_drop, Hn, andb_false_r, orb_false_r in Hd. exists t, f. apply filter_In in Ht. tauto. Qed.

Theorem drop_plan_total existing checkfirst md : drop_plan existing checkfirst md <> ErrFuel.
Proof. unfold drop_plan.
  destruct (sort_tables_and_constraints drop_filter (drop_tables existing checkfirst md)) as [[[o cyc] w]| |] eqn:E;
    try discriminate.
  - destruct (forallb stmt_named _); discriminate.
  - exfalso. exact (stc_never_fuel _ _ E). Qed.
