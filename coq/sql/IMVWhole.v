(* C12: the whole executemany (IMV.execute) - every parameter set once, returned rows in parameter order,
   for every row count, every batch size >= 1 and every order in which the database returns the
   rows of a statement. *)
From Coq Require Import List ZArith Bool Permutation Sorted.
Import ListNotations.
From SAV.sql Require Import IMV IMVPlan IMVMerge.
Open Scope Z_scope.

Lemma NoDup_app_inv {A} (l1 l2 : list A) : NoDup (l1 ++ l2) -> NoDup l1 /\ NoDup l2.
Proof.
  induction l1 as [|a l IH]; cbn; intros H; [split; [constructor|exact H]|].
  inversion H as [|? ? Hnin H']; subst. destruct (IH H') as [H1 H2]. split; [constructor|]; auto using in_or_app.
Qed.
Lemma StronglySorted_app_inv {A} (Rel : A -> A -> Prop) l1 l2 :
  StronglySorted Rel (l1 ++ l2) -> StronglySorted Rel l1 /\ StronglySorted Rel l2.
Proof.
  induction l1 as [|a l IH]; cbn; intros H; [split; [constructor|exact H]|].
  apply StronglySorted_inv in H as [H' Ha]. destruct (IH H') as [H1 H2]. apply Forall_app in Ha as [Ha _].
  split; [constructor|]; assumption.
Qed.
(* what both halves of an append inherit, every member of a concatenation inherits *)
Lemma concat_member {A} (Q : list A -> Prop) : (forall l1 l2, Q (l1 ++ l2) -> Q l1 /\ Q l2) ->
  forall ls l, Q (concat ls) -> In l ls -> Q l.
Proof.
  intros HQ. induction ls as [|x r IH]; intros l H Hin; [destruct Hin|].
  apply HQ in H as [Hx Hr]. destruct Hin as [<-|Hin]; [exact Hx|exact (IH l Hr Hin)].
Qed.
Lemma StronglySorted_map {A B} (f : A -> B) (Rel : B -> B -> Prop) l :
  StronglySorted (fun a b => Rel (f a) (f b)) l -> StronglySorted Rel (map f l).
Proof. induction 1; cbn; constructor; [assumption|]. apply Forall_forall. intros y Hy.
  apply in_map_iff in Hy. destruct Hy as (z & <- & Hz). eapply Forall_forall in H0; [exact H0|exact Hz]. Qed.

Section Whole.
Context {P K R X : Type}.
Variable key_eqb : K -> K -> bool.
Hypothesis key_eqb_spec : forall a b, key_eqb a b = true <-> a = b.
Variable sent_of_param : P -> K.
Variable sent_of_row : R -> K.
Variable sort_key : R -> Z.
Variable ext : P -> X.
Variable fetch : nat -> option X -> list P -> list R.

Local Notation merge_rows := (merge_rows key_eqb sent_of_param sent_of_row sort_key).
Local Notation deliver := (deliver key_eqb sent_of_param sent_of_row sort_key ext fetch).
Local Notation execute := (execute key_eqb sent_of_param sent_of_row sort_key ext fetch).

Lemma deliver_not_returning c all : c_is_returning c = false ->
  forall bl k done acc, deliver c all k bl done acc = mkOutcome (rev done ++ bl) (Ok acc).
Proof.
  intros Hr. induction bl as [|b r IH]; intros k done acc; cbn [IMV.deliver].
  - rewrite app_nil_r. reflexivity.
  - rewrite Hr, IH. cbn [rev]. rewrite <- app_assoc. reflexivity.
Qed.

(* if every merge succeeds with rows related by Q to the rows wanted for its batch, the loop runs
   to the end and the delivered rows are related to all the wanted rows; Q is equality for the sorted
   result and Permutation for the unsorted one *)
Lemma deliver_rel c all (want : batch P -> list R) (Q : list R -> list R -> Prop) :
  Q [] [] -> (forall a b a' b', Q a a' -> Q b b' -> Q (a ++ b) (a' ++ b')) ->
  c_is_returning c = true -> forall bl k done acc,
  (forall k' b, In b bl -> exists rows,
     merge_rows c b (fetch k' (stmt_ext ext c all b) (b_items b)) = Ok rows /\ Q (want b) rows) ->
  exists rows, deliver c all k bl done acc = mkOutcome (rev done ++ bl) (Ok (acc ++ rows)) /\
               Q (concat (map want bl)) rows.
Proof.
  intros Qnil Qapp Hr. induction bl as [|b r IH]; intros k done acc Hm; cbn [IMV.deliver map concat].
  - exists []. rewrite !app_nil_r. auto.
  - destruct (Hm k b (or_introl eq_refl)) as (rows & -> & Hq). rewrite Hr.
    destruct (IH (S k) (b :: done) (acc ++ rows)) as (rows' & -> & Hq'); [auto using in_cons|].
    exists (rows ++ rows'). cbn [rev]. rewrite <- !app_assoc. auto.
Qed.

Lemma deliver_prefix c all : forall bl k done acc,
  exists rest, rev done ++ bl = o_executed (deliver c all k bl done acc) ++ rest /\
    (forall rows, o_result (deliver c all k bl done acc) = Ok rows -> rest = []).
Proof.
  induction bl as [|b r IH]; intros k done acc; cbn [IMV.deliver].
  - exists []. cbn. split; [reflexivity|auto].
  - replace (rev done ++ b :: r) with (rev (b :: done) ++ r) by (cbn [rev]; apply app_assoc_reverse).
    destruct (c_is_returning c); [destruct (merge_rows c b _)|]; try apply IH;
      exists r; (split; [reflexivity|discriminate]).
Qed.

(* the statements sent to the database carry, concatenated in order, exactly the parameter sets
   given (when the run completes); an exception can only cut the sequence short *)
Theorem execute_every_param_once (c : config) (ps : list P) : 1 <= c_batch_size c -> clamp_pre c ->
  exists rest, ps = concat (map b_items (o_executed (execute c ps))) ++ rest /\
    (forall rows, o_result (execute c ps) = Ok rows -> rest = []) /\
    (c_is_returning c = false -> o_result (execute c ps) = Ok [] /\ rest = []).
Proof.
  intros Hbs Hpre. destruct (plan_spec c ps Hbs Hpre) as (bl & Hplan & Hcat & _).
  unfold IMV.execute. rewrite Hplan.
  destruct (deliver_prefix c ps bl 0%nat [] []) as (rest & H1 & H2). cbn [rev app] in H1.
  exists (concat (map b_items rest)). split; [|split].
  - rewrite <- concat_app, <- map_app, <- H1. symmetry. exact Hcat.
  - intros rows Hr. rewrite (H2 rows Hr). reflexivity.
  - intros Hnr. rewrite (deliver_not_returning c ps Hnr) in *. cbn [o_result o_executed rev app] in *.
    split; [reflexivity|]. rewrite (H2 [] eq_refl). reflexivity.
Qed.

Variable row_of : option X -> P -> R.   (* the row the database produces for a parameter set when the
                                            statement carries the non-VALUES parameters x *)
(* the only thing assumed about the database: it returns, for every statement, one row per VALUES
   row - in ANY order *)
Hypothesis fetch_perm : forall k x items, Permutation (map (row_of x) items) (fetch k x items).

(* what the configuration must provide for the rows to be re-ordered *)
Definition sentinel_hyp (c : config) (ps : list P) : Prop :=
  c_num_sentinel c = 0
  \/ (c_implicit c = false /\ c_has_keys c = true /\
      (forall x p, sent_of_row (row_of x p) = sent_of_param p) /\       (* the row carries the client-side value *)
      NoDup (map sent_of_param ps))                                     (* which is unique *)
  \/ (c_implicit c = true /\ c_num_sentinel c = 1 /\
      (* the server generates increasing values in VALUES order *)
      (forall x, StronglySorted (fun p q => sort_key (row_of x p) < sort_key (row_of x q)) ps)).

(* the consistency the compiler guarantees between its own fields *)
Definition wf_config (c : config) : Prop :=
  0 <= c_num_sentinel c /\
  sentinel_columns_none (c_flags c) = negb (truthy (c_num_sentinel c)).

(* whatever [sentinel_hyp] asks of all the parameter sets it asks of those of each batch *)
Lemma sentinel_hyp_app c l1 l2 : sentinel_hyp c (l1 ++ l2) -> sentinel_hyp c l1 /\ sentinel_hyp c l2.
Proof.
  intros [H|[(Hi & Hk & Hrs & Hnd)|(Hi & H1 & Hss)]].
  - split; left; exact H.
  - rewrite map_app in Hnd. apply NoDup_app_inv in Hnd as [Ha Hb]. split; right; left; auto.
  - split; right; right; (split; [exact Hi|split; [exact H1|]]); intros x;
      apply (StronglySorted_app_inv _ _ _ (Hss x)).
Qed.

(* one statement: the merge puts the fetched rows, whatever their order, back in the order of the
   batch - provided a batch that is passed through unmerged holds a single row *)
Lemma merge_batch_sorted c (b : batch P) k x : sentinel_hyp c (b_items b) ->
  (c_num_sentinel c = 0 \/ b_downgraded b = true -> length (b_items b) = 1%nat) ->
  merge_rows c b (fetch k x (b_items b)) = Ok (map (row_of x) (b_items b)).
Proof.
  intros Hsent Hone. specialize (fetch_perm k x (b_items b)).
  assert (Hpass : c_num_sentinel c = 0 \/ b_downgraded b = true ->
                  merge_rows c b (fetch k x (b_items b)) = Ok (map (row_of x) (b_items b))).
  { intros Hcase. rewrite merge_passthrough by exact Hcase. f_equal. specialize (Hone Hcase).
    destruct (b_items b) as [|p [|? ?]]; try discriminate. apply Permutation_length_1_inv, fetch_perm. }
  destruct (Z.eq_dec (c_num_sentinel c) 0) as [H0|H0]; [apply Hpass; left; exact H0|].
  destruct (b_downgraded b) eqn:Hd; [apply Hpass; right; reflexivity|].
  destruct Hsent as [H|[(Hi & Hk & Hrs & Hnd)|(Hi & H1 & Hss)]]; [contradiction| |].
  - apply (merge_explicit_complete key_eqb key_eqb_spec sent_of_param sent_of_row sort_key c b _ (row_of x));
      auto.
  - rewrite (merge_implicit key_eqb sent_of_param sent_of_row sort_key c b _ H1 Hd Hi). f_equal.
    apply sort_rows_restores; [|exact fetch_perm]. apply StronglySorted_map, Hss.
Qed.

Theorem execute_sorted_general (c : config) (ps : list P) :
  1 <= c_batch_size c -> clamp_pre c -> wf_config c ->
  c_is_returning c = true -> c_imv_sbo c = true -> result_columns (c_flags c) = true ->
  sentinel_hyp c ps ->
  exists bl, plan c ps = Ok bl /\ concat (map b_items bl) = ps /\
    execute c ps = mkOutcome bl
      (Ok (concat (map (fun b => map (row_of (stmt_ext ext c ps b)) (b_items b)) bl))).
Proof.
  intros Hbs Hpre [_ Hwf] Hret Hsbo Hrc Hsent.
  destruct (plan_spec c ps Hbs Hpre) as (bl & Hplan & Hcat & _ & Hall & Hrow).
  exists bl. split; [exact Hplan|]. split; [exact Hcat|].
  unfold IMV.execute. rewrite Hplan.
  destruct (deliver_rel c ps (fun b => map (row_of (stmt_ext ext c ps b)) (b_items b)) eq eq_refl
              ltac:(intros; subst; reflexivity) Hret bl 0%nat [] []) as (rows & -> & <-); [|reflexivity].
  intros k b Hb. eexists; split; [|reflexivity]. apply merge_batch_sorted.
  - rewrite <- Hcat in Hsent. exact (concat_member _ (sentinel_hyp_app c) _ _ Hsent (in_map b_items _ _ Hb)).
  - (* without sentinel columns, and for a downgraded batch, the mode decision has chosen one
       statement per parameter set *)
    intros Hcase. destruct (decide_mode (c_sbo c) (c_flags c)) as [[|] d] eqn:Hm.
    + eapply Forall_forall in Hrow; [exact Hrow|reflexivity|exact Hb].
    + exfalso. eapply Forall_forall in Hall; [|exact Hb]. destruct Hall as (_ & _ & _ & _ & _ & Hdg).
      rewrite Hm in Hdg. cbn [snd] in Hdg. destruct (mode_batched_safe _ _ _ Hm) as (Hd & _ & _ & Hs & _).
      assert (Hcsbo : c_sbo c = true) by (unfold c_sbo; rewrite Hret; exact Hsbo).
      destruct (Hs Hcsbo Hrc) as [Hnone _]. rewrite Hwf in Hnone.
      destruct Hcase as [H0|H1]; [rewrite H0 in Hnone; discriminate|congruence].
Qed.

(* Guard of finding C12-nonvalues-bind: every parameter set binds the same values to the
   parameters that are not inside VALUES (in particular: there are none) *)
Definition uniform_ext (ps : list P) : Prop := forall p q, In p ps -> In q ps -> ext p = ext q.

(* ... or every statement carries one parameter set anyway (row-at-a-time mode, e.g. an upsert whose
   SET clause has bound parameters) *)
Definition ext_guard (c : config) (ps : list P) : Prop :=
  fst (decide_mode (c_sbo c) (c_flags c)) = true \/ uniform_ext ps.

(* under the guard the statement of a batch carries the non-VALUES parameters of each of its own
   parameter sets *)
Lemma stmt_ext_uniform c ps bl b p : ext_guard c ps -> concat (map b_items bl) = ps -> In b bl ->
  (fst (decide_mode (c_sbo c) (c_flags c)) = true -> length (b_items b) = 1%nat) ->
  In p (b_items b) -> stmt_ext ext c ps b = Some (ext p).
Proof.
  intros Hg Hcat Hb Hrow Hp. unfold stmt_ext.
  assert (Hsub : incl (b_items b) ps).
  { intros q Hq. rewrite <- Hcat. apply in_concat. exists (b_items b). split; [apply in_map; exact Hb|exact Hq]. }
  destruct (fst (decide_mode (c_sbo c) (c_flags c))) eqn:Hm.
  - rewrite andb_false_r. specialize (Hrow eq_refl).
    destruct (b_items b) as [|q [|? ?]]; try discriminate. destruct Hp as [->|[]]. reflexivity.
  - destruct Hg as [Hg|Hu]; [congruence|]. rewrite andb_true_r.
    (* either way the head of a list of parameter sets of the call, and they all agree with p *)
    assert (Hhd : forall l, incl l ps -> l <> [] -> option_map ext (hd_error l) = Some (ext p)).
    { intros [|q r] Hl Hne; [congruence|]. cbn. f_equal. apply Hu; [apply Hl; left; reflexivity|apply Hsub, Hp]. }
    destruct (c_named c); apply Hhd; auto using incl_refl.
    + intros ->. destruct (Hsub p Hp).
    + intros E. rewrite E in Hp. destruct Hp.
Qed.

Lemma guarded_rows c ps bl : 1 <= c_batch_size c -> clamp_pre c -> plan c ps = Ok bl -> ext_guard c ps ->
  concat (map (fun b => map (row_of (stmt_ext ext c ps b)) (b_items b)) bl)
  = map (fun p => row_of (Some (ext p)) p) ps.
Proof.
  intros Hbs Hpre Hplan Hg. destruct (plan_spec c ps Hbs Hpre) as (bl' & Hplan' & Hcat & _ & _ & Hrow).
  rewrite Hplan in Hplan'. injection Hplan' as <-.
  etransitivity; [|exact (f_equal (map (fun p => row_of (Some (ext p)) p)) Hcat)].
  rewrite concat_map, map_map. f_equal. apply map_ext_in. intros b Hb. apply map_ext_in. intros p Hp.
  rewrite (stmt_ext_uniform c ps bl b p Hg Hcat Hb); [reflexivity| |exact Hp].
  intros Hm. eapply Forall_forall in Hrow; [exact Hrow|exact Hm|exact Hb].
Qed.

(* the n-th returned row belongs to the n-th parameter set *)
Theorem execute_sorted_guarded (c : config) (ps : list P) :
  1 <= c_batch_size c -> clamp_pre c -> wf_config c ->
  c_is_returning c = true -> c_imv_sbo c = true -> result_columns (c_flags c) = true ->
  sentinel_hyp c ps -> ext_guard c ps ->
  o_result (execute c ps) = Ok (map (fun p => row_of (Some (ext p)) p) ps) /\
  concat (map b_items (o_executed (execute c ps))) = ps.
Proof.
  intros Hbs Hpre Hwf Hret Hsbo Hrc Hsent Hu.
  destruct (execute_sorted_general c ps Hbs Hpre Hwf Hret Hsbo Hrc Hsent) as (bl & Hplan & Hcat & ->).
  cbn [o_result o_executed]. rewrite (guarded_rows c ps bl Hbs Hpre Hplan Hu). split; [reflexivity|exact Hcat].
Qed.

(* without sentinel columns the rows are delivered as fetched: exactly one per parameter set, in
   some order *)
Theorem execute_unsorted_perm (c : config) (ps : list P) :
  1 <= c_batch_size c -> clamp_pre c -> c_is_returning c = true -> c_num_sentinel c = 0 -> ext_guard c ps ->
  exists rows, o_result (execute c ps) = Ok rows /\
    Permutation (map (fun p => row_of (Some (ext p)) p) ps) rows /\
    concat (map b_items (o_executed (execute c ps))) = ps.
Proof.
  intros Hbs Hpre Hret H0 Hu. destruct (plan_spec c ps Hbs Hpre) as (bl & Hplan & Hcat & _).
  unfold IMV.execute. rewrite Hplan.
  destruct (deliver_rel c ps (fun b => map (row_of (stmt_ext ext c ps b)) (b_items b)) (@Permutation R)
              (perm_nil R) (@Permutation_app R) Hret bl 0%nat [] []) as (rows & -> & Hperm).
  { intros k b _. eexists; split; [apply merge_passthrough; left; exact H0|apply fetch_perm]. }
  rewrite (guarded_rows c ps bl Hbs Hpre Hplan Hu) in Hperm.
  exists rows. cbn [o_result o_executed rev app]. auto.
Qed.

End Whole.
