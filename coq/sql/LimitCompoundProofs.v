(* C18 - compound selects: the limit is either rendered as for a plain select, or silently dropped *)
From Coq Require Import List ZArith Bool Lia Permutation Sorted.
Import ListNotations.
From SAV.sql Require Import Limit LimitListProofs LimitFormProofs LimitWhichProofs.
Open Scope Z_scope.

Lemma compound_dropped_iff : forall d s,
  compound_dropped d s = true <->
  has_row_limiting s = true /\
  ((exists b, d = MSSQL b /\ (use_top s = true \/ b = false)) \/
   (d = Oracle false /\ fetch_clause s = None)).
Proof.
  intros d s. unfold compound_dropped. split.
  - intros H. apply andb_prop in H. destruct H as [H1 H2]. split; [exact H1|].
    assert (N := native_form d s). destruct d as [| | | |b|b]; cbn [compound_form] in H2.
    1-4: exfalso; destruct (which_form _ s); try discriminate; now apply (N I).
    + left. exists b. split; [reflexivity|]. rewrite H1 in H2. cbn [negb] in H2.
      destruct b; [|now right]. destruct (use_top s); [now left|]. cbn [andb negb] in H2.
      destruct (check_can_use_fetch_limit s); discriminate.
    + right. rewrite H1 in H2. cbn [negb] in H2. destruct (fetch_clause s); [discriminate|].
      destruct b; [discriminate|]. split; reflexivity.
  - intros [H1 [[b [-> Hb]]|[-> Hf]]]; rewrite H1; cbn [andb compound_form]; rewrite H1; cbn [negb].
    + destruct Hb as [Hb| ->]; [rewrite Hb; now rewrite andb_false_r|reflexivity].
    + now rewrite Hf.
Qed.

Lemma compound_form_kept : forall d s, compound_dropped d s = false -> compound_form d s = which_form d s.
Proof.
  intros d s H. unfold compound_dropped in H.
  destruct d as [| | | |b|b]; try reflexivity; cbn [compound_form which_form] in *.
  - unfold mssql_form. destruct (has_row_limiting s) eqn:E; cbn [negb andb] in *; [|reflexivity].
    destruct (use_top s), b; cbn [andb negb] in *; try discriminate.
    destruct (check_can_use_fetch_limit s); reflexivity.
  - unfold oracle_form. destruct (has_row_limiting s) eqn:E; cbn [negb andb] in *; [|reflexivity].
    destruct (fetch_clause s); [reflexivity|]. destruct b; [reflexivity|discriminate].
Qed.

Lemma compound_not_wrapped : forall d s, wrapped (compound_form d s) = false.
Proof.
  intros d s. assert (N := native_form d s). destruct d as [| | | |b|b]; cbn [compound_form].
  1-4: apply (N I).
  - destruct (negb (has_row_limiting s)); [reflexivity|]. destruct (b && negb (use_top s)); [|reflexivity].
    destruct (check_can_use_fetch_limit s); reflexivity.
  - destruct (negb (has_row_limiting s)); [reflexivity|]. destruct (fetch_clause s); [reflexivity|].
    destruct b; reflexivity.
Qed.

Section Compound.
Variable A : Type.
Variable eqA : A -> A -> bool.
Variable eqk : A -> A -> bool.
Variable reorder : list A -> list A.
Variable lek : A -> A -> bool.
Hypothesis lek_trans : forall a b c, lek a b = true -> lek b c = true -> lek a c = true.
Hypothesis eqk_def : forall a b, eqk a b = lek a b && lek b a.

(* guarded: where the clause is rendered at all, the rows are the slice - as a list, a compound select
   is never wrapped *)
Theorem compound_rows_guarded : forall d s pre,
  compound_dropped d s = false ->
  nonneg s = true ->
  is_error (compound_form d s) = false ->
  (d = MySQL -> Z.of_nat (length (result A eqA (s_distinct s) pre)) <= mysql_no_limit) ->
  (fetch_ties s = true -> StronglySorted (fun a b => lek a b = true) pre) ->
  exec A eqA eqk reorder (compound_form d s) (s_distinct s) pre = spec A eqA eqk s pre.
Proof.
  intros d s pre Hd Hn He Hm Hs.
  assert (W := compound_not_wrapped d s). rewrite (compound_form_kept d s Hd) in *.
  apply (which_form_list A eqA eqk reorder lek lek_trans eqk_def); auto.
  - intros Hw. rewrite W in Hw. discriminate.
  - unfold guard. destruct (which_form d s); try reflexivity; discriminate W.
Qed.

Theorem compound_dropped_all_rows : forall d s pre,
  compound_dropped d s = true ->
  exec A eqA eqk reorder (compound_form d s) (s_distinct s) pre = result A eqA (s_distinct s) pre.
Proof.
  intros d s pre H. unfold compound_dropped in H. apply andb_prop in H. destruct H as [_ H].
  destruct (compound_form d s); try discriminate. reflexivity.
Qed.
End Compound.

(* DEFECT: union(...).order_by(x).limit(1) on MSSQL (TOP is never rendered for a compound select) *)
Theorem compound_limit_dropped_refuted :
  exists d s (pre : list Z), nonneg s = true /\ s_ordered s = true /\ compound_dropped d s = true /\
    forall reorder,
      exec Z Z.eqb Z.eqb reorder (compound_form d s) (s_distinct s) pre <> spec Z Z.eqb Z.eqb s pre.
Proof.
  exists (MSSQL true), (Sel (Limit (Clause true 1)) None true false), [1; 2; 3].
  repeat split; try reflexivity. intros reorder. vm_compute. discriminate.
Qed.
