(* C21 - anonymous bind parameters never conflict; the counter of fresh over-long names and the point where
   label_length is exceeded; DefaultDialect.initialize; the witnesses of the refuted statements *)
From Coq Require Import List NArith ZArith Bool Lia FinFun.
Import ListNotations.
From SAV.sql Require Import Trunc TruncDigits TruncMaxlen TruncLabels TruncRunProofs.

Local Open Scope Z_scope.

Section AnonBinds.
  Variable benv : N -> bindrec.
  (* every bind parameter of the statement is anonymous: its key is "%(<its own id> <body>)s"
     (what  col == value  and  bindparam(name, unique=True)  produce) *)
  Hypothesis all_anon : forall oid, exists b, b_key (benv oid) = BTrunc [Anon oid b].

  Lemma visit_anon_never_raises : forall ll st oid e, BInv benv ll st ->
    visit_bindparam benv ll st oid = Raise e -> False.
  Proof.
    intros ll st oid e I H. destruct (truncate_bindparam benv ll st oid) as [st1 nm1] eqn:T.
    destruct (truncate_bindparam_spec benv _ _ _ _ _ I T) as (I1 & NO & MM & BM & EB & FB & OLD & _).
    pose proof (visit_bindparam_cases benv _ _ _ _ _ T) as V. rewrite H in V. destruct V as (ex & Fb & E1).
    (* ex was named nm1 before *)
    assert (Hex : bn_find st1 ex = Some nm1).
    { apply BM. apply (bi_back _ _ _ I). unfold b_find in *. rewrite <- EB. exact Fb. }
    pose proof (NO _ _ Hex) as Q1. pose proof (NO _ _ FB) as Q2.
    destruct (all_anon ex) as (b1 & K1). destruct (all_anon oid) as (b2 & K2). rewrite K1 in Q1. rewrite K2 in Q2.
    pose proof (memo_anon_injective _ _ _ _ _ _ _ _ I1 Q1 Q2) as K. inversion K. contradiction.
  Qed.

  Theorem anon_binds_never_conflict : forall ll rs, exists st os, run benv ll init_state rs = Ok (st, os).
  Proof.
    intros ll rs. assert (G : forall st, BInv benv ll st -> exists st' os, run benv ll st rs = Ok (st', os)).
    { induction rs as [|r rs IH]; intros st I; cbn [run].
      - eauto.
      - destruct (step benv ll st r) as [[st1 o]|e] eqn:S1.
        + destruct (step_spec benv _ _ _ _ _ I S1) as (I1 & _). destruct (IH _ I1) as (st2 & os & ->). eauto.
        + exfalso. destruct r as [cls n|oid]; cbn [step] in S1; [discriminate|].
          exact (visit_anon_never_raises _ _ _ _ I S1). }
    apply G. apply BInv_init.
  Qed.
End AnonBinds.

Section Counter.
  Variable benv : N -> bindrec.

  Fixpoint outs_from (ll : Z) (c : N) (names : list str) : list str :=
    match names with
    | [] => []
    | s :: r => truncname ll s c :: outs_from ll (c + 1)%N r
    end.
  Definition reqs_of (cls : N) (names : list str) : list req :=
    map (fun s => RName cls (LTrunc [Lit s])) names.

  Lemma fresh_long_run : forall ll cls names st,
    (forall s, In s names -> label_too_long (slen s) ll = true) -> NoDup names ->
    (forall s, In s names -> memo_find st cls [Lit s] = None) ->
    exists st', run benv ll st (reqs_of cls names) = Ok (st', outs_from ll (tcounter st cls) names)
                /\ tcounter st' cls = (tcounter st cls + N.of_nat (length names))%N.
  Proof.
    intros ll cls. induction names as [|s r IH]; intros st Hl Hnd Hfresh.
    - exists st. split; [reflexivity|]. cbn. lia.
    - pose proof (Hfresh s (or_introl eq_refl)) as F.
      set (o := truncname ll s (tcounter st cls)).
      set (st1 := memo_add st (st_am st) cls [Lit s] o true).
      assert (Hstep : step benv ll st (RName cls (LTrunc [Lit s])) = Ok (st1, o)).
      { cbn [step element_name]. rewrite truncated_identifier_eq, F. cbn [apply_map].
        rewrite app_nil_r, (Hl s (or_introl eq_refl)). reflexivity. }
      inversion Hnd as [|? ? Hnotin Hnd']; subst.
      assert (Hc1 : tcounter st1 cls = (tcounter st cls + 1)%N).
      { unfold st1. rewrite tcounter_add, N.eqb_refl. reflexivity. }
      destruct (IH st1) as (st2 & R & C).
      + intros s' Hin. apply Hl. right. exact Hin.
      + exact Hnd'.
      + intros s' Hin. unfold st1. rewrite memo_find_add. destruct (ckey_eqb _ _) eqn:E.
        * apply ckey_eqb_eq in E. inversion E; subst. contradiction.
        * apply (Hfresh s'). right. exact Hin.
      + change (reqs_of cls (s :: r)) with (RName cls (LTrunc [Lit s]) :: reqs_of cls r).
        cbn [run]. rewrite Hstep. rewrite Hc1 in R. rewrite R. exists st2. split; [reflexivity|].
        rewrite C, Hc1. cbn [length]. lia.
  Qed.

  Lemma outs_from_app : forall ll names c s,
    outs_from ll c (names ++ [s]) = outs_from ll c names ++ [truncname ll s (c + N.of_nat (length names))%N].
  Proof.
    intros ll. induction names as [|x r IH]; intros c s; cbn [outs_from app length].
    - rewrite N.add_0_r. reflexivity.
    - rewrite IH. replace (c + 1 + N.of_nat (length r))%N with (c + N.of_nat (S (length r)))%N by lia. reflexivity.
  Qed.

  (* a family of pairwise different names, each longer than label_length *)
  Definition long_name (ll : Z) (i : nat) : str := repeat 97%N (Z.to_nat ll) ++ py_dec (N.of_nat i).
  Definition family (ll : Z) (n : nat) : list str := map (long_name ll) (seq 0 n).

  Lemma long_name_long : forall ll i, label_too_long (slen (long_name ll i)) ll = true.
  Proof.
    intros. unfold label_too_long, long_name. apply Z.gtb_lt. rewrite slen_app. unfold slen at 1.
    rewrite repeat_length. pose proof (slen_nonneg (py_dec (N.of_nat i))). lia.
  Qed.
  Lemma family_nodup : forall ll n, NoDup (family ll n).
  Proof.
    intros. unfold family. apply Injective_map_NoDup; [|apply seq_NoDup].
    intros i j E. unfold long_name in E. apply app_inv_head in E. apply py_dec_inj in E. lia.
  Qed.

  Theorem kth_truncated_name : forall ll cls m, exists st os,
    run benv ll init_state (reqs_of cls (family ll (S m))) = Ok (st, os)
    /\ length os = S m
    /\ slen (last os []) = label_cut ll + 1 + slen (hexs (N.of_nat (S m))).
  Proof.
    intros ll cls m.
    destruct (fresh_long_run ll cls (family ll (S m)) init_state) as (st & R & _).
    - intros s Hin. unfold family in Hin. apply in_map_iff in Hin. destruct Hin as (i & <- & _).
      apply long_name_long.
    - apply family_nodup.
    - intros. reflexivity.
    - exists st, (outs_from ll (tcounter init_state cls) (family ll (S m))). split; [exact R|]. split.
      + destruct (run_spec benv _ _ _ _ _ (BInv_init benv ll) R) as (_ & _ & _ & -> & _).
        unfold reqs_of, family. rewrite !map_length. apply seq_length.
      + unfold family. rewrite seq_S, map_app. cbn [map]. rewrite outs_from_app, last_last. rewrite truncname_len by apply long_name_long.
        rewrite map_length, seq_length. unfold tcounter, counter_start. cbn [init_state st_tctr assoc].
        replace (1 + N.of_nat m)%N with (N.of_nat (S m)) by lia. reflexivity.
  Qed.

  (* with label_length >= 6, the 1 048 576th over-long name of one class in one statement is rendered one
     character longer than label_length (6 hex digits); no earlier one is (run_len_bounded) *)
  Theorem label_overflow_at_16_pow_5 : forall ll cls, 6 <= ll -> exists names st os,
    N.of_nat (length names) = hex_limit /\ NoDup names
    /\ run benv ll init_state (reqs_of cls names) = Ok (st, os)
    /\ slen (last os []) = ll + 1.
  Proof.
    intros ll cls Hl.
    (* [m] stays a variable: a unary numeral of this size must not be computed *)
    assert (exists m, N.of_nat (S m) = hex_limit) as (m & E).
    { exists (N.to_nat 1048575%N). rewrite Nat2N.inj_succ, N2Nat.id. reflexivity. }
    destruct (kth_truncated_name ll cls m) as (st & os & R & _ & L).
    exists (family ll (S m)), st, os. split; [|split; [apply family_nodup|split; [exact R|]]].
    - unfold family. rewrite map_length, seq_length. exact E.
    - rewrite L, E. pose proof (hexs_len_gt5 hex_limit ltac:(lia)).
      pose proof (proj2 (hexs_len_iff hex_limit 6 ltac:(lia)) eq_refl). unfold label_cut. lia.
  Qed.
End Counter.

Lemma initialize_ok : forall cls user ll det m, initialize cls user ll det = Ok m ->
  m = (if truthy user then py_or user cls else py_or det (py_or user cls)) /\ py_or ll m <= m.
Proof.
  intros cls user ll det m H. unfold initialize in H.
  set (m1 := if truthy user then py_or user cls else py_or det (py_or user cls)) in *.
  destruct (truthy ll && (py_or ll 0 >? m1)) eqn:E; inversion H; subst m. split; [reflexivity|].
  destruct ll as [z|]; cbn [py_or truthy] in *; [|lia].
  destruct (Z.eqb_spec z 0); [lia|]. destruct (Z.gtb_spec z m1); [discriminate|lia].
Qed.
Lemma initialize_error_iff : forall cls user ll det e, initialize cls user ll det = Raise e <->
  (e = ArgumentError /\ exists l, ll = Some l /\ l <> 0
     /\ (if truthy user then py_or user cls else py_or det (py_or user cls)) < l).
Proof.
  intros cls user ll det e. unfold initialize.
  set (m1 := if truthy user then py_or user cls else py_or det (py_or user cls)).
  destruct ll as [z|]; cbn [truthy py_or andb];
    [destruct (Z.eqb_spec z 0); cbn [negb andb]; [|destruct (Z.gtb_spec z m1)]|];
    (split; [intros [= <-]; eauto 6|intros (-> & l & [= <-] & ? & ?); (reflexivity || lia)]).
Qed.

Section EngineLabels.
  Variable benv : N -> bindrec.
  Theorem engine_labels_within_identifier_limit : forall cls user ll det m rs st os,
    initialize cls user ll det = Ok m -> 6 <= py_or ll m -> (N.of_nat (length rs) < hex_limit)%N ->
    run benv (py_or ll m) init_state rs = Ok (st, os) ->
    (forall c n o, In (RName c (LTrunc n), o) (combine rs os) -> slen o <= m)
    /\ (forall oid t o, In (RBind oid, o) (combine rs os) -> b_key (benv oid) = BTrunc t -> slen o <= m).
  Proof.
    intros cls user ll det m rs st os Hi H6 Hn Hr. destruct (initialize_ok _ _ _ _ _ Hi) as (_ & Hle).
    destruct (run_len_bounded benv _ _ _ _ H6 Hn Hr) as (A & B). split.
    - intros c n o Hin. specialize (A c n o Hin). lia.
    - intros oid t o Hin K. specialize (B oid t o Hin K). lia.
  Qed.
End EngineLabels.

(* concrete refutations: the witnesses are evaluated by the kernel *)
Definition no_binds : N -> bindrec := fun _ => {| b_key := BPlain []; b_unique := false; b_expanding := false |}.
Definition s_of (l : list N) : str := l.

(* "x_y" / "x_y_1" *)
Definition w_xy : str := [120; 95; 121]%N.
Definition w_xy1 : str := [120; 95; 121; 95; 49]%N.

(* an anonymous label (element named x_y) and a literal truncatable label "x_y_1" (table x, column y_1
   under LABEL_STYLE_TABLENAME_PLUS_COL) are rendered identically *)
Lemma anon_vs_literal_collision :
  exists rs st os n1 n2 o, run no_binds 30 init_state rs = Ok (st, os)
    /\ In (RName cls_colident (LTrunc n1), o) (combine rs os)
    /\ In (RName cls_colident (LTrunc n2), o) (combine rs os) /\ n1 <> n2.
Proof.
  exists [RName cls_colident (LTrunc [Anon 1 w_xy]); RName cls_colident (LTrunc [Lit w_xy1])].
  eexists. eexists. exists [Anon 1%N w_xy], [Lit w_xy1], w_xy1.
  split; [vm_compute; reflexivity|]. split; [left; reflexivity|]. split; [right; left; reflexivity|discriminate].
Qed.
(* ... and so are an anonymous label and an explicit plain-str label of the same text *)
Lemma anon_vs_plain_collision :
  exists rs st os n s, run no_binds 30 init_state rs = Ok (st, os)
    /\ In (RName cls_colident (LTrunc n), s) (combine rs os)
    /\ In (RName cls_colident (LStr s), s) (combine rs os).
Proof.
  exists [RName cls_colident (LTrunc [Anon 1 w_xy]); RName cls_colident (LStr w_xy1)].
  eexists. eexists. exists [Anon 1%N w_xy], w_xy1.
  split; [vm_compute; reflexivity|]. split; [left; reflexivity|right; left; reflexivity].
Qed.

Definition mysql_like : dialect := {| d_maxid := 255; d_idx := Some 64; d_con := Some 64 |}.
Definition env0 : cenv := {| e_table := [116%N]; e_cols := [[99%N]]; e_ref := [] |}.

(* a user-given (plain) index name of 100 characters passes validate_identifier (255) and is rendered
   although max_index_name_length is 64 *)
Lemma plain_name_exceeds_specific_limit : forall md5,
  dialect_ok mysql_like = true /\
  exists s, ddl_name md5 mysql_like true None (GPlain (repeat 105%N 100)) env0 = Ok (Some s)
            /\ max_for mysql_like true < slen s.
Proof.
  intros md5. split; [reflexivity|]. exists (repeat 105%N 100). split; [reflexivity|].
  vm_compute. reflexivity.
Qed.

(* max_ < 8: the slice end max_ - 8 is negative and Python drops only the last 8 - max_ characters *)
Lemma small_max_overlong : forall md5, (forall s, 4 <= slen (md5 s)) ->
  exists name max_, 0 < max_ < 8 /\ max_ < slen (truncate_maxlen md5 name max_)
                    /\ slen name < slen (truncate_maxlen md5 name max_).
Proof.
  intros md5 Hm. exists (repeat 97%N 100), 5. split; [lia|].
  unfold truncate_maxlen, maxlen_too_long, maxlen_cut, md5_tail.
  assert (E : slen (repeat 97%N 100) = 100) by reflexivity. rewrite E.
  change (100 >? 5) with true. cbv iota. rewrite !slen_app.
  rewrite slice_to_len_neg by lia. rewrite slice_from_len_neg by lia. rewrite E.
  specialize (Hm (repeat 97%N 100)). unfold underscore, slen at 1 3. cbn [length]. lia.
Qed.
