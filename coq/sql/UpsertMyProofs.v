(* C56 - MySQL ON DUPLICATE KEY UPDATE: which assignments are rendered, and in which order. *)
From Coq Require Import List ZArith Bool.
Import ListNotations.
From SAV.sql Require Import Upsert UpsertAsm UpsertParse UpsertSpec UpsertSynProofs UpsertAsmProofs.

Lemma my_lookup_none : forall k upd, ~ In k (map fst upd) -> my_lookup k upd = None.
Proof.
  induction upd as [|[k' v] upd IH]; intros H; [reflexivity|]. cbn [my_lookup].
  rewrite IH by (intros X; apply H; right; exact X).
  destruct (Z.eqb k k') eqn:E; [|reflexivity]. apply Z.eqb_eq in E. exfalso. apply H. left. symmetry. exact E.
Qed.

Lemma my_lookup_nodup : forall k e upd, NoDup (map fst upd) -> In (k, e) upd -> my_lookup k upd = Some e.
Proof.
  induction upd as [|[k' v] upd IH]; intros Hnd Hin; [destruct Hin|].
  cbn [map fst] in Hnd. inversion Hnd as [|? ? Hnin Hnd']; subst. cbn [my_lookup].
  destruct Hin as [Heq|Hin].
  - injection Heq as -> ->. rewrite my_lookup_none by exact Hnin. rewrite Z.eqb_refl. reflexivity.
  - rewrite (IH Hnd' Hin). reflexivity.
Qed.

Lemma col_by_key_idx : forall cols k,
  col_by_key cols k = match key_idx cols k with Some i => Some (nth i cols dflt_col) | None => None end.
Proof.
  induction cols as [|c cs IH]; intros k; [reflexivity|]. cbn [col_by_key key_idx].
  destruct (Z.eqb (ckey c) k); [reflexivity|]. rewrite IH. destruct (key_idx cs k); reflexivity.
Qed.

Section My.
  Variable cols : list coldesc.
  Hypothesis Hwf : wf_cols cols.

  (* the assignment rendered for one table column *)
  Definition my_items (upd : list (Z * expr)) (c : coldesc) : list (lhs * expr) :=
    match my_lookup (ckey c) upd with Some e => [(LName (cname c), e)] | None => [] end.

  (* the columns appended after the user's keys are those without a value *)
  Lemma my_items_unkeyed : forall upd l,
    flat_map (my_items upd) (filter (fun c => negb (key_mem (ckey c) (map fst upd))) l) = [].
  Proof.
    induction l as [|c cs IH]; [reflexivity|]. cbn [filter].
    destruct (key_mem (ckey c) (map fst upd)) eqn:E; cbn [negb]; [exact IH|].
    cbn [flat_map]. rewrite IH, app_nil_r. unfold my_items. rewrite my_lookup_none; [reflexivity|].
    intros Hin. apply not_true_iff_false in E. apply E. apply existsb_exists.
    exists (ckey c). split; [exact Hin|apply Z.eqb_refl].
  Qed.

  (* key by key, for any part [l] of the user's list *)
  Lemma my_asm_keys : forall upd, NoDup (map fst upd) -> forall l, incl l upd ->
    map (A cols) (flat_map (my_items upd)
                    (flat_map (fun k => match col_by_key cols k with Some c => [c] | None => [] end) (map fst l)))
    = flat_map (fun kv => match key_idx cols (fst kv) with
                          | Some i => [set_item (length cols) (Some i) (snd kv)] | None => [] end) l.
  Proof.
    intros upd Hnd. induction l as [|[k e] l IH]; intros Hincl; [reflexivity|].
    cbn [map fst flat_map snd]. rewrite flat_map_app, map_app.
    rewrite IH by (intros x Hx; apply Hincl; right; exact Hx). f_equal.
    rewrite col_by_key_idx. destruct (key_idx cols k) as [i|] eqn:Ek; [|reflexivity].
    destruct (key_idx_some _ _ _ Ek) as [Hi Hkey]. cbn [flat_map]. rewrite app_nil_r. unfold my_items.
    rewrite Hkey, (my_lookup_nodup k e upd Hnd) by (apply Hincl; left; reflexivity).
    cbn [map]. f_equal. apply (A_col cols Hwf). exact Hi.
  Qed.

  (* ordered form (list of tuples): the assignments are rendered in the order given *)
  Theorem my_asm_ordered : forall upd, NoDup (map fst upd) ->
    map (A cols) (my_asm cols true upd) = my_spec_ordered cols upd.
  Proof.
    intros upd Hnd. unfold my_asm, my_cols. fold (my_items upd).
    rewrite flat_map_app, my_items_unkeyed, app_nil_r. apply (my_asm_keys upd Hnd), incl_refl.
  Qed.

  (* column by column, for any tail [cs] of the table's columns *)
  Lemma my_asm_dict_from : forall upd cs i, suffix_at cols cs i ->
    map (A cols) (flat_map (my_items upd) cs) =
    flat_map (fun i => match my_lookup (ckey (nth i cols dflt_col)) upd with
                       | Some e => [set_item (length cols) (Some i) e]
                       | None => []
                       end) (seq i (length cs)).
  Proof.
    induction cs as [|c cs IH]; intros i Hsuf; [reflexivity|].
    destruct (suffix_hd _ _ _ _ Hsuf) as [-> Hi]. apply suffix_tl in Hsuf.
    cbn [flat_map length seq]. rewrite map_app, (IH (S i) Hsuf). f_equal.
    unfold my_items. destruct (my_lookup _ upd) as [e|]; [|reflexivity].
    cbn [map]. f_equal. apply (A_col cols Hwf). exact Hi.
  Qed.

  (* dict form: table column order *)
  Theorem my_asm_dict : forall upd,
    map (A cols) (my_asm cols false upd) =
    flat_map (fun i => match my_lookup (ckey (nth i cols dflt_col)) upd with
                       | Some e => [set_item (length cols) (Some i) e]
                       | None => []
                       end) (seq 0 (length cols)).
  Proof. intros upd. apply my_asm_dict_from, suffix_all. Qed.
End My.
