(* C06 - proofs about Ident.v: what quote() emits is read back by the backend lexer as the stored name, and
   unformat_identifiers splits a dotted form into its components up to the "%" doubling ([pctd]). *)
From Coq Require Import List NArith Bool Lia.
Import ListNotations.
From SAV.sql Require Import Ident.
Open Scope N_scope.

Lemma str_eqb_eq : forall a b, str_eqb a b = true <-> a = b.
Proof.
  induction a as [|x a IH]; destruct b as [|y b]; cbn [str_eqb]; split; intro H; try discriminate; auto.
  - apply andb_prop in H. destruct H as [H1 H2]. apply N.eqb_eq in H1. apply IH in H2. now subst.
  - inversion H; subst. rewrite N.eqb_refl. cbn. now apply IH.
Qed.
Lemma str_eqb_refl : forall a, str_eqb a a = true.
Proof. intro a. now apply str_eqb_eq. Qed.

Lemma existsb_eqb_In : forall {A} (eqb : A -> A -> bool), (forall a b, eqb a b = true <-> a = b) ->
  forall c l, existsb (eqb c) l = true <-> In c l.
Proof.
  intros A eqb Heq c l. rewrite existsb_exists. split.
  - intros [x [Hx He]]. apply Heq in He. now subst.
  - intro H. exists c. split; auto. now apply Heq.
Qed.
Lemma memN_In : forall c l, memN c l = true <-> In c l.
Proof. exact (existsb_eqb_In N.eqb N.eqb_eq). Qed.
Lemma mem_str_In : forall s l, mem_str s l = true <-> In s l.
Proof. exact (existsb_eqb_In str_eqb str_eqb_eq). Qed.
Lemma memN_false : forall c l, memN c l = false <-> ~ In c l.
Proof. intros c l. rewrite <- memN_In. symmetry. apply not_true_iff_false. Qed.

Lemma enum_range_In : forall r c, N.leb (fst r) c && N.leb c (snd r) = true -> In c (enum_range r).
Proof.
  intros [lo hi] c H. cbn [fst snd] in *. apply andb_prop in H. destruct H as [H1 H2].
  apply N.leb_le in H1. apply N.leb_le in H2. unfold enum_range. cbn [fst snd].
  apply in_map_iff. exists (N.to_nat (c - lo)). split.
  - rewrite N2Nat.id. lia.
  - apply in_seq. lia.
Qed.
Lemma enum_ranges_In : forall rs c, in_ranges rs c = true -> In c (enum_ranges rs).
Proof.
  intros rs c H. apply existsb_exists in H. destruct H as [r [Hr Hc]].
  apply in_flat_map. exists r. split; auto. now apply enum_range_In.
Qed.

Lemma double_cons : forall c x s, double c (x :: s) = (if N.eqb x c then [c; c] else [x]) ++ double c s.
Proof. reflexivity. Qed.

Lemma double_app : forall c a b, double c (a ++ b) = double c a ++ double c b.
Proof. intros. apply flat_map_app. Qed.

Lemma double_notin : forall c s, ~ In c s -> double c s = s.
Proof.
  intros c s. induction s as [|x s IH]; intro H; [reflexivity|].
  rewrite double_cons, IH by (intro; apply H; now right).
  destruct (N.eqb_spec x c) as [E|E]; [|reflexivity]. exfalso. apply H. now left.
Qed.

(* The four readers of a doubled string (the two unescapers, the backend's delimited-identifier lexer
   and the splitter's quoted-body scanner) all consume [double c s] in step with [s]: a doubled [c]
   is one [c], any other character is itself. *)
Lemma undouble_double_app : forall c s t, undouble c (double c s ++ t) = s ++ undouble c t.
Proof.
  intros c s t. induction s as [|x s IH]; [reflexivity|].
  rewrite double_cons. destruct (N.eqb x c) eqn:E; cbn [app undouble].
  - apply N.eqb_eq in E. subst x. now rewrite !N.eqb_refl, IH.
  - now rewrite E, IH.
Qed.
Lemma undouble_double : forall c s, undouble c (double c s) = s.
Proof. intros c s. rewrite <- (app_nil_r (double c s)), undouble_double_app. apply app_nil_r. Qed.

Lemma undouble_strict_double_app : forall c s t u, undouble_strict c t = Some u ->
  undouble_strict c (double c s ++ t) = Some (s ++ u).
Proof.
  intros c s t u Ht. induction s as [|x s IH]; [exact Ht|].
  rewrite double_cons. destruct (N.eqb x c) eqn:E; cbn [app undouble_strict].
  - apply N.eqb_eq in E. subst x. now rewrite !N.eqb_refl, IH.
  - now rewrite E, IH.
Qed.

Lemma delim_body_double : forall fq v, delim_body fq (double fq v ++ [fq]) = Some (v, []).
Proof.
  intros fq v. induction v as [|x v IH]; [cbn; now rewrite N.eqb_refl|].
  rewrite double_cons. destruct (N.eqb x fq) eqn:E; cbn [app delim_body].
  - apply N.eqb_eq in E. subst x. now rewrite !N.eqb_refl, IH.
  - now rewrite E, IH.
Qed.

Lemma qbody_double : forall fq v t, (forall t', t <> fq :: t') ->
  qbody fq (double fq v ++ fq :: t) = (double fq v, fq :: t).
Proof.
  intros fq v t Ht. induction v as [|x v IH].
  - cbn [double flat_map app qbody]. rewrite N.eqb_refl. destruct t as [|y t']; auto.
    destruct (N.eqb_spec y fq) as [E|E]; auto. subst y. now destruct (Ht t').
  - rewrite double_cons. destruct (N.eqb x fq) eqn:E; cbn [app qbody].
    + apply N.eqb_eq in E. subst x. now rewrite !N.eqb_refl, IH.
    + now rewrite E, IH.
Qed.

Lemma undouble_notin : forall c s, ~ In c s -> undouble c s = s.
Proof. intros c s H. rewrite <- (double_notin c s H) at 1. apply undouble_double. Qed.
Lemma undouble_strict_notin : forall c s, ~ In c s -> undouble_strict c s = Some s.
Proof.
  intros c s H. rewrite <- (double_notin c s H) at 1. rewrite <- (app_nil_r (double c s)).
  rewrite (undouble_strict_double_app c s [] [] eq_refl). now rewrite app_nil_r.
Qed.

Lemma double_In_other : forall c d s, In d (double c s) -> In d s.
Proof.
  intros c d s. induction s as [|x s IH]; [auto|]. rewrite double_cons. intro H.
  apply in_app_or in H. destruct H as [H|H]; [left|right; auto].
  destruct (N.eqb_spec x c) as [E|E]; [subst x; destruct H as [H|[H|[]]]|destruct H as [H|[]]]; auto.
Qed.

Lemma double_nonempty : forall c s, s <> [] -> double c s <> [].
Proof.
  intros c [|x s] H; [contradiction|]. rewrite double_cons. destruct (N.eqb x c); discriminate.
Qed.

(* the two escapes of _escape_identifier can be read in either order *)
Lemma double_comm : forall c d s, c <> d -> double c (double d s) = double d (double c s).
Proof.
  intros c d s Hcd. induction s as [|x s IH]; [reflexivity|].
  rewrite (double_cons d x s), (double_cons c x s), !double_app, IH. f_equal.
  apply N.eqb_neq in Hcd. destruct (N.eqb_spec x d) as [Ed|Ed], (N.eqb_spec x c) as [Ec|Ec]; subst; cbn.
  - now rewrite N.eqb_refl in Hcd.
  - now rewrite (N.eqb_sym d c), Hcd, N.eqb_refl.
  - now rewrite Hcd, N.eqb_refl.
  - apply N.eqb_neq in Ed, Ec. now rewrite Ed, Ec.
Qed.

Lemma double_length_le : forall c s, (length s <= length (double c s))%nat.
Proof.
  intros c s. induction s as [|x s IH]; [auto|]. rewrite double_cons, app_length. cbn [length].
  destruct (N.eqb x c); cbn [length]; lia.
Qed.
Lemma double_length_lt : forall c s, In c s -> (length s < length (double c s))%nat.
Proof.
  intros c s. induction s as [|x s IH]; intro H; [destruct H|].
  rewrite double_cons, app_length. cbn [length]. destruct (N.eqb_spec x c) as [E|E]; cbn [length].
  - pose proof (double_length_le c s). lia.
  - destruct H as [H|H]; [congruence|]. specialize (IH H). lia.
Qed.

Lemma assoc_lower_notin : forall t c, memN c (map fst t) = false -> assoc_lower t c = [c].
Proof.
  induction t as [|[k v] t IH]; intros c H; [reflexivity|].
  cbn [assoc_lower]. cbn [map fst memN existsb] in H.
  apply orb_false_iff in H. destruct H as [H1 H2]. rewrite N.eqb_sym, H1. now apply IH.
Qed.
Lemma assoc_lower_in : forall t c, forallb lower_entry_ok t = true -> memN c (map fst t) = true ->
  exists h r, assoc_lower t c = h :: r /\ h <> c.
Proof.
  induction t as [|[k v] t IH]; intros c Hok H; [discriminate|].
  cbn [forallb] in Hok. apply andb_prop in Hok. destruct Hok as [Hk Hok].
  cbn [assoc_lower]. destruct (N.eqb_spec k c) as [E|E].
  - subst k. unfold lower_entry_ok in Hk. cbn [fst snd] in Hk. destruct v as [|h r]; [discriminate|].
    exists h, r. split; auto. apply negb_true_iff in Hk. now apply N.eqb_neq in Hk.
  - apply IH; auto. cbn [map fst memN existsb] in H. apply orb_prop in H. destruct H as [H|H]; auto.
    apply N.eqb_eq in H. congruence.
Qed.

(* a string that str.lower() leaves alone has no character with a table entry: every entry changes
   the first character *)
Lemma lower_fix_notin : forall p s, forallb lower_entry_ok (p_lower p) = true -> lower p s = s ->
  Forall (fun c => memN c (map fst (p_lower p)) = false) s.
Proof.
  intros p s Hok. unfold lower. induction s as [|c s IH]; intro H; [constructor|].
  cbn [flat_map] in H. destruct (memN c (map fst (p_lower p))) eqn:Hm.
  - destruct (assoc_lower_in _ _ Hok Hm) as [h [r [Ha Hne]]]. rewrite Ha in H. now inversion H.
  - rewrite (assoc_lower_notin _ _ Hm) in H. inversion H as [H']. rewrite H'. auto.
Qed.

Definition no_upper (s : str) : Prop := Forall (fun c => N.leb 65 c && N.leb c 90 = false) s.

Lemma ascii_lower_id : forall s, no_upper s -> map ascii_lower1 s = s.
Proof.
  intros s H. rewrite <- (map_id s) at 2. apply map_ext_Forall. eapply Forall_impl; [|exact H].
  intros c Hc. unfold ascii_lower1. now rewrite Hc.
Qed.

(* upper-folding backends (Oracle): the stored name is the name up to ASCII case - lower-casing it, as
   normalize_name does for all-upper-case reflected names, gives the name back *)
Lemma ascii_lower_upper : forall s, no_upper s -> map ascii_lower1 (map ascii_upper1 s) = s.
Proof.
  intros s H. rewrite map_map. transitivity (map (fun c => c) s); [|apply map_id].
  apply map_ext_Forall. eapply Forall_impl; [|exact H].
  intros c Hc. unfold ascii_upper1, ascii_lower1. destruct (N.leb 97 c && N.leb c 122) eqn:E; [|now rewrite Hc].
  apply andb_prop in E. destruct E as [E1 E2]. apply N.leb_le in E1, E2.
  replace (N.leb 65 (c - 32) && N.leb (c - 32) 90) with true; [lia|].
  symmetry. apply andb_true_intro. split; apply N.leb_le; lia.
Qed.

Lemma all_legal_forall : forall p s, all_legal p s = true -> s <> [] /\ Forall (fun c => in_ranges (p_legal p) c = true) s.
Proof.
  intros p [|c s] H; [discriminate|]. split; [discriminate|].
  apply Forall_forall. now apply forallb_forall.
Qed.

Lemma legal_notin : forall p v x, Forall (fun c => in_ranges (p_legal p) c = true) v ->
  in_ranges (p_legal p) x = false -> ~ In x v.
Proof. intros p v x Hall Hx Hin. rewrite Forall_forall in Hall. rewrite (Hall x Hin) in Hx. discriminate. Qed.

Lemma requires_quotes_nonempty : forall p c r, requires_quotes p (c :: r) <> RaiseIndexError.
Proof. intros p c r. unfold requires_quotes. destruct (mem_str _ _); discriminate. Qed.

Lemma requires_quotes_empty : forall p, mem_str [] (p_reserved p) = false -> requires_quotes p [] = RaiseIndexError.
Proof. intros p H. unfold requires_quotes. cbn. now rewrite H. Qed.

Lemma requires_quotes_false : forall p v, requires_quotes p v = Ok false ->
  exists c r, v = c :: r /\ mem_str v (p_reserved p) = false /\ memN c (p_illegal_initial p) = false /\
              legal_match p v = true /\ lower p v = v.
Proof.
  intros p v H. unfold requires_quotes in H. remember (lower p v) as lc eqn:Hlc.
  destruct (mem_str lc (p_reserved p)) eqn:Hr; [discriminate|].
  destruct v as [|c r]; [discriminate|]. injection H as H.
  apply orb_false_iff in H. destruct H as [H H3]. apply orb_false_iff in H. destruct H as [H1 H2].
  apply negb_false_iff in H2, H3. apply str_eqb_eq in H3. subst lc. rewrite H3 in *. eauto 8.
Qed.

Lemma requires_quotes_not_legal : forall p v, v <> [] -> legal_match p v = false -> requires_quotes p v = Ok true.
Proof.
  intros p v Hne Hl. unfold requires_quotes. destruct (mem_str _ _); auto. destruct v; [contradiction|].
  rewrite Hl. cbn. now rewrite orb_true_r.
Qed.

Lemma drop_ws_head : forall c s, is_ws c = false -> drop_ws (c :: s) = c :: s.
Proof. intros c s H. cbn [drop_ws]. now rewrite H. Qed.

Lemma drop_ws_nows : forall s, Forall (fun c => is_ws c = false) s -> drop_ws s = s.
Proof. intros s [|c r Hc _]; [reflexivity|now apply drop_ws_head]. Qed.

Lemma trim_ws_ends : forall a m z, is_ws a = false -> is_ws z = false -> trim_ws (a :: m ++ [z]) = a :: m ++ [z].
Proof.
  intros a m z Ha Hz. unfold trim_ws.
  rewrite drop_ws_head, app_comm_cons, rev_unit, drop_ws_head, <- rev_unit by assumption. apply rev_involutive.
Qed.

Lemma trim_ws_nows : forall s, Forall (fun c => is_ws c = false) s -> trim_ws s = s.
Proof.
  intros s H. unfold trim_ws. rewrite (drop_ws_nows s H), (drop_ws_nows _ (Forall_rev H)). apply rev_involutive.
Qed.

Lemma trim_ws_final_ws : forall w z, w <> [] -> Forall (fun c => is_ws c = false) w -> is_ws z = true ->
  trim_ws (w ++ [z]) = w.
Proof.
  intros w z Hne Hw Hz. unfold trim_ws. destruct Hw as [|a w Ha Hw]; [contradiction|].
  cbn [app]. rewrite drop_ws_head, app_comm_cons, rev_unit by assumption. cbn [drop_ws]. rewrite Hz.
  rewrite drop_ws_nows by (apply Forall_rev; now constructor). apply rev_involutive.
Qed.

Ltac bsplit :=
  repeat match goal with
         | H : _ && _ = true |- _ => apply andb_prop in H; destruct H
         | H : negb _ = true |- _ => apply negb_true_iff in H
         | H : N.eqb _ _ = true |- _ => apply N.eqb_eq in H
         | H : N.eqb _ _ = false |- _ => apply N.eqb_neq in H
         end.

Section WithTables.
Variable p : prep.
Variable b : backend.
Hypothesis Hwf : wf_prep p = true.
Hypothesis Hc : compat p b = true.

Lemma wf_facts :
  p_esc p = p_fq p /\ p_unesc p = p_fq p /\
  p_fq p <> dot /\ p_fq p <> pct /\ p_iq p <> dot /\ p_iq p <> pct /\
  is_ws (p_iq p) = false /\ is_ws (p_fq p) = false /\
  forallb lower_entry_ok (p_lower p) = true /\ mem_str [] (p_reserved p) = false.
Proof.
  pose proof Hwf as H. unfold wf_prep in H. bsplit. repeat split; assumption.
Qed.

Lemma wf_legal : forall x, x = p_iq p \/ x = p_fq p \/ x = dot \/ x = pct \/ is_ws x = true ->
  in_ranges (p_legal p) x = false.
Proof.
  intros x Hx. pose proof Hwf as H. unfold wf_prep in H. bsplit.
  destruct Hx as [->|[->|[->|[->|Hx]]]]; try assumption.
  apply memN_In in Hx. destruct (in_ranges (p_legal p) x) eqn:E; auto.
  match goal with H : existsb _ _ = false |- _ => rewrite <- H end. symmetry. apply existsb_exists. eauto.
Qed.

Lemma compat_facts :
  b_iq b = p_iq p /\ b_fq b = p_fq p /\
  (forall c, in_ranges (p_legal p) c = true -> memN c (p_illegal_initial p) = false -> in_ranges (b_start b) c = true) /\
  (forall c, in_ranges (p_legal p) c = true -> in_ranges (b_cont b) c = true) /\
  (forall w, In w (b_kw b) -> In w (p_reserved p)) /\
  (forall c, N.leb 65 c && N.leb c 90 = true -> memN c (map fst (p_lower p)) = true) /\
  p_esc_pct p = b_pct b.
Proof.
  pose proof Hc as H. unfold compat in H. bsplit.
  repeat match goal with H : forallb _ _ = true |- _ => rewrite forallb_forall in H end.
  repeat split; auto using enum_ranges_In, enum_range_In, eqb_prop.
  - intros c Hl Hi. rewrite <- (orb_false_l (in_ranges _ c)), <- Hi. auto using enum_ranges_In.
  - intros w Hw. apply mem_str_In. auto.
Qed.

(* a name that quote() leaves bare: legal characters only, and none of them an upper-case ASCII letter
   (each of those has a str.lower() entry, and lower() leaves the name alone) *)
Lemma bare_legal : forall v, requires_quotes p v = Ok false -> Forall (fun c => in_ranges (p_legal p) c = true) v.
Proof. intros v Hq. destruct (requires_quotes_false _ _ Hq) as (_ & _ & _ & _ & _ & Hl & _). now apply all_legal_forall in Hl. Qed.

Lemma bare_no_upper : forall v, requires_quotes p v = Ok false -> no_upper v.
Proof.
  intros v Hq. destruct (requires_quotes_false _ _ Hq) as (_ & _ & _ & _ & _ & _ & Hlow).
  eapply Forall_impl; [|apply (lower_fix_notin p v); [apply wf_facts|exact Hlow]].
  intros c Hn. cbn beta in Hn. destruct (N.leb 65 c && N.leb c 90) eqn:E; auto.
  destruct compat_facts as (_ & _ & _ & _ & _ & Hdom & _). rewrite (Hdom c E) in Hn. discriminate.
Qed.

Lemma quote_identifier_lexes_back : forall v,
  lex_sent b (quote_identifier p v) = Some v.
Proof.
  intro v. destruct wf_facts as (He & _). destruct compat_facts as (Hbi & Hbf & _ & _ & _ & _ & Hpct).
  assert (Hd : driver b (quote_identifier p v) = Some (p_iq p :: double (p_fq p) v ++ [p_fq p])).
  { unfold driver, quote_identifier, escape_identifier. rewrite He, <- Hpct. destruct (p_esc_pct p); auto.
    cbn [undouble_strict]. rewrite (proj2 (N.eqb_neq _ _)) by apply wf_facts.
    rewrite (undouble_strict_double_app pct _ [p_fq p] [p_fq p]); auto.
    cbn [undouble_strict]. now rewrite (proj2 (N.eqb_neq _ _)) by apply wf_facts. }
  unfold lex_sent. rewrite Hd. unfold lex_ident. rewrite trim_ws_ends by apply wf_facts.
  rewrite Hbi, N.eqb_refl, Hbf, delim_body_double. reflexivity.
Qed.

Lemma bare_lexes_back : forall v, requires_quotes p v = Ok false -> lex_sent b v = Some (fold b v).
Proof.
  intros v Hq. pose proof (bare_legal v Hq) as Hall. pose proof (ascii_lower_id v (bare_no_upper v Hq)) as Hal.
  destruct compat_facts as (Hbi & _ & Hst & Hco & Hkw & _).
  destruct (requires_quotes_false _ _ Hq) as (c & r & -> & Hres & Hini & _).
  assert (Hd : driver b (c :: r) = Some (c :: r)).
  { unfold driver. destruct (b_pct b); auto. apply undouble_strict_notin, (legal_notin p _ _ Hall), wf_legal. auto 6. }
  unfold lex_sent. rewrite Hd. unfold lex_ident. rewrite trim_ws_nows.
  2:{ eapply Forall_impl; [|exact Hall]. cbn beta. intros a Ha. destruct (is_ws a) eqn:E; auto.
      rewrite wf_legal in Ha by auto 6. discriminate. }
  rewrite Hal, Hbi, (proj2 (N.eqb_neq c _)).
  2:{ intros ->. apply (legal_notin p _ (p_iq p) Hall); [apply wf_legal; auto|now left]. }
  inversion Hall as [|? ? Hcl Hrl]; subst. rewrite (Hst c Hcl Hini). cbn [andb].
  replace (forallb (in_ranges (b_cont b)) r) with true.
  2:{ symmetry. apply forallb_forall. intros x Hx. rewrite Forall_forall in Hrl. auto. }
  destruct (mem_str (c :: r) (b_kw b)) eqn:Ek; auto.
  apply mem_str_In in Ek. apply Hkw in Ek. apply mem_str_In in Ek. congruence.
Qed.

Lemma quote_lexes_back : forall v, v <> [] ->
  exists q, quote p v = Ok q /\ lex_sent b q = Some (stored p b v).
Proof.
  intros v Hne. unfold quote, quote_force, stored.
  destruct (requires_quotes p v) as [[|]|] eqn:Hq.
  - eexists. split; [reflexivity|]. apply quote_identifier_lexes_back.
  - eexists. split; [reflexivity|]. now apply bare_lexes_back.
  - destruct v; [contradiction|]. now apply requires_quotes_nonempty in Hq.
Qed.

Lemma bare_fold_identity : forall v, requires_quotes p v = Ok false -> b_fold b <> FoldUpper -> fold b v = v.
Proof.
  intros v Hq Hf. unfold fold. destruct (b_fold b); auto; [|contradiction].
  apply ascii_lower_id. now apply bare_no_upper.
Qed.

Lemma bare_fold_upper_lower : forall v, requires_quotes p v = Ok false ->
  map ascii_lower1 (map ascii_upper1 v) = v.
Proof. intros v Hq. apply ascii_lower_upper. now apply bare_no_upper. Qed.

Lemma stored_identity : forall v, b_fold b <> FoldUpper -> stored p b v = v.
Proof.
  intros v Hf. unfold stored. destruct (requires_quotes p v) as [[|]|] eqn:E; auto. now apply bare_fold_identity.
Qed.
End WithTables.

(* what may follow a component in a dotted form *)
Definition good_tail (t : str) : Prop := t = [] \/ exists t', t = dot :: t'.

Lemma span_nodot_app : forall v t, ~ In dot v -> good_tail t -> span_nodot (v ++ t) = (v, t).
Proof.
  intros v t Hv Ht. induction v as [|x v IH].
  - destruct Ht as [->|[t' ->]]; reflexivity.
  - cbn [app span_nodot]. rewrite (proj2 (N.eqb_neq x dot)), IH; auto; intro; apply Hv; [now right|now left].
Qed.

Lemma qbody_snd_le : forall fq s, (length (snd (qbody fq s)) <= length s)%nat.
Proof.
  intro fq. fix IH 1. intros [|c r]; [reflexivity|].
  cbn [qbody]. destruct (N.eqb c fq).
  - destruct r as [|c2 r2]; [reflexivity|]. destruct (N.eqb c2 fq); [|reflexivity].
    specialize (IH r2). destruct (qbody fq r2). cbn [snd length] in *. lia.
  - specialize (IH r). destruct (qbody fq r). cbn [snd length] in *. lia.
Qed.
Lemma span_nodot_snd_le : forall s, (length (snd (span_nodot s)) <= length s)%nat.
Proof.
  induction s as [|c r IH]; [reflexivity|]. cbn [span_nodot]. destruct (N.eqb c dot); [reflexivity|].
  destruct (span_nodot r). cbn [snd length] in *. lia.
Qed.

(* one match of the regex: the component as written and the text after it *)
Definition regex_step (p : prep) (s : str) : str * str :=
  match try_quoted p s with Some ar => ar | None => span_nodot s end.

Lemma unformat_fuel_unfold : forall f p c r,
  unformat_fuel (S f) p (c :: r) =
  if N.eqb c dot then unformat_fuel f p r
  else option_map (cons (unescape_identifier p (fst (regex_step p (c :: r))))) (unformat_fuel f p (snd (regex_step p (c :: r)))).
Proof.
  intros f p c r. cbn [unformat_fuel]. destruct (N.eqb c dot); auto. unfold regex_step.
  destruct (try_quoted p (c :: r)) as [[a rest]|]; [|destruct (span_nodot (c :: r)) as [a rest]];
    cbn [fst snd]; now destruct (unformat_fuel f p rest).
Qed.

Lemma step_shrinks : forall p c r, c <> dot -> (length (snd (regex_step p (c :: r))) <= length r)%nat.
Proof.
  intros p c r Hc. unfold regex_step. destruct (try_quoted p (c :: r)) as [[a rest]|] eqn:E.
  - unfold try_quoted in E. destruct (N.eqb c (p_iq p)); [|discriminate].
    pose proof (qbody_snd_le (p_fq p) r) as HL.
    destruct (qbody (p_fq p) r) as [[|b0 bb] [|f0 [|x r']]]; try discriminate; cbn [snd length] in *.
    + inversion E. cbn. lia.
    + destruct (N.eqb x dot); [|destruct (N.eqb x nl); [destruct r'|]]; inversion E; cbn [snd length]; lia.
  - cbn [span_nodot]. rewrite (proj2 (N.eqb_neq c dot) Hc).
    pose proof (span_nodot_snd_le r). now destruct (span_nodot r).
Qed.

Lemma unformat_fuel_total : forall p fuel s, (length s < fuel)%nat -> unformat_fuel fuel p s <> None.
Proof.
  intros p fuel. induction fuel as [|f IH]; intros s H; [lia|].
  destruct s as [|c r]; [discriminate|]. rewrite unformat_fuel_unfold. cbn [length] in H.
  destruct (N.eqb_spec c dot) as [E|E]; [apply IH; lia|].
  pose proof (step_shrinks p c r E) as Hs.
  destruct (unformat_fuel f p (snd (regex_step p (c :: r)))) eqn:Eu; [discriminate|].
  exfalso. eapply IH; [|exact Eu]. lia.
Qed.
Lemma unformat_total : forall p s, unformat p s <> None.
Proof. intros p s. apply unformat_fuel_total. lia. Qed.

(* any fuel above the length of the text gives the same result, so [unformat] satisfies the equations of
   the splitter without fuel *)
Lemma unformat_fuel_enough : forall p f f' s, (length s < f)%nat -> (length s < f')%nat ->
  unformat_fuel f p s = unformat_fuel f' p s.
Proof.
  intros p f. induction f as [|f IH]; intros [|f'] s H H'; try lia.
  destruct s as [|c r]; [reflexivity|]. rewrite !unformat_fuel_unfold. cbn [length] in *.
  destruct (N.eqb_spec c dot) as [E|E]; [apply IH; lia|].
  pose proof (step_shrinks p c r E). now rewrite (IH f') by lia.
Qed.

Lemma unformat_dot : forall p r, unformat p (dot :: r) = unformat p r.
Proof. reflexivity. Qed.
Lemma unformat_cons : forall p c r, c <> dot ->
  unformat p (c :: r) =
  option_map (cons (unescape_identifier p (fst (regex_step p (c :: r))))) (unformat p (snd (regex_step p (c :: r)))).
Proof.
  intros p c r Hc. unfold unformat. rewrite unformat_fuel_unfold, (proj2 (N.eqb_neq c dot) Hc).
  pose proof (step_shrinks p c r Hc). f_equal. apply unformat_fuel_enough; cbn [length]; lia.
Qed.

(* what unformat_identifiers gives back for a component: the name with every "%" doubled when the
   dialect doubles percent signs (the escape of "%" is never undone), the name itself otherwise *)
Definition pctd (p : prep) (v : str) : str := if p_esc_pct p then double pct v else v.

Section Unformat.
Variable p : prep.
Hypothesis Hwf : wf_prep p = true.

Lemma escape_as_double : forall v, escape_identifier p v = double (p_fq p) (pctd p v).
Proof.
  intro v. destruct (wf_facts p Hwf) as (He & _ & _ & Hfp & _).
  unfold escape_identifier, pctd. rewrite He. destruct (p_esc_pct p); auto. apply double_comm. auto.
Qed.

Lemma step_quoted : forall v t, v <> [] -> good_tail t ->
  snd (regex_step p (quote_identifier p v ++ t)) = t /\
  unescape_identifier p (fst (regex_step p (quote_identifier p v ++ t))) = pctd p v.
Proof.
  intros v t Hne Ht. destruct (wf_facts p Hwf) as (_ & Hu & Hfd & _).
  assert (Hs : regex_step p (quote_identifier p v ++ t) = (double (p_fq p) (pctd p v), t)).
  { unfold regex_step, try_quoted, quote_identifier. rewrite escape_as_double. cbn [app]. rewrite N.eqb_refl.
    rewrite <- app_assoc. cbn [app]. rewrite qbody_double.
    2:{ intros t' Hx. destruct Ht as [->|[t'' ->]]; [discriminate|]. inversion Hx; subst. auto. }
    assert (Hd : double (p_fq p) (pctd p v) <> []).
    { apply double_nonempty. unfold pctd. destruct (p_esc_pct p); auto. now apply double_nonempty. }
    destruct (double (p_fq p) (pctd p v)); [contradiction|]. destruct Ht as [->|[t' ->]]; reflexivity. }
  rewrite Hs. split; [reflexivity|]. unfold unescape_identifier. rewrite Hu. apply undouble_double.
Qed.

(* a bare output has none of the characters the splitter or the escapes look at *)
Lemma step_bare : forall v t, requires_quotes p v = Ok false -> good_tail t ->
  snd (regex_step p (v ++ t)) = t /\ unescape_identifier p (fst (regex_step p (v ++ t))) = pctd p v.
Proof.
  intros v t Hq Ht. destruct (wf_facts p Hwf) as (_ & Hu & _).
  assert (Hnot : forall x, x = p_iq p \/ x = p_fq p \/ x = dot \/ x = pct \/ is_ws x = true -> ~ In x v).
  { intros x Hx. apply (legal_notin p); [now apply bare_legal|now apply wf_legal]. }
  assert (Hs : regex_step p (v ++ t) = (v, t)).
  { transitivity (span_nodot (v ++ t)); [|apply span_nodot_app; auto 6].
    destruct (requires_quotes_false _ _ Hq) as (c & r & -> & _).
    unfold regex_step, try_quoted. cbn [app]. rewrite (proj2 (N.eqb_neq c (p_iq p))); auto.
    intros ->. apply (Hnot (p_iq p)); auto. now left. }
  rewrite Hs. split; [reflexivity|]. unfold unescape_identifier, pctd. cbn [fst]. rewrite Hu, undouble_notin by auto 6.
  destruct (p_esc_pct p); auto. symmetry. apply double_notin. auto 6.
Qed.

Lemma quote_head_not_dot : forall v q, quote p v = Ok q -> exists c r, q = c :: r /\ c <> dot.
Proof.
  intros v q H. unfold quote, quote_force in H. destruct (requires_quotes p v) as [[|]|] eqn:Hq; inversion H; subst.
  - exists (p_iq p). eexists. split; [reflexivity|apply (wf_facts p Hwf)].
  - pose proof (bare_legal p q Hq) as Hall. destruct (requires_quotes_false _ _ Hq) as (c & r & -> & _).
    exists c, r. split; auto. intros ->. apply (legal_notin p _ dot Hall); [apply wf_legal; auto|now left].
Qed.

Lemma join_dot_cons : forall q qs, join_dot (q :: qs) = q ++ flat_map (cons dot) qs.
Proof.
  intros q qs. revert q. induction qs as [|a qs IH]; intro q; [cbn; now rewrite app_nil_r|].
  change (join_dot (q :: a :: qs)) with (q ++ dot :: join_dot (a :: qs)). now rewrite IH.
Qed.

Lemma unformat_quote : forall v q t, v <> [] -> quote p v = Ok q -> good_tail t ->
  unformat p (q ++ t) = option_map (cons (pctd p v)) (unformat p t).
Proof.
  intros v q t Hv Hq Ht.
  assert (H : snd (regex_step p (q ++ t)) = t /\ unescape_identifier p (fst (regex_step p (q ++ t))) = pctd p v).
  { unfold quote, quote_force in Hq. destruct (requires_quotes p v) as [[|]|] eqn:Hr; inversion Hq; subst q;
      [now apply step_quoted|now apply step_bare]. }
  destruct H as [H1 H2]. destruct (quote_head_not_dot v q Hq) as (c & r & -> & Hc). cbn [app] in *.
  now rewrite unformat_cons, H1, H2.
Qed.

Lemma unformat_format_exact : forall names text, format_path p names = Ok text ->
  Forall (fun v => v <> []) names -> unformat p text = Some (map (pctd p) names).
Proof.
  intros names text H Hne. unfold format_path in H.
  destruct (quote_all p names) as [qs|] eqn:Hqs; [|discriminate]. injection H as <-.
  revert qs Hqs. induction Hne as [|v names Hv _ IH]; cbn [quote_all]; intros qs Hqs; [now inversion Hqs|].
  destruct (quote p v) as [q|] eqn:Hq; [|discriminate].
  destruct (quote_all p names) as [qr|]; [|discriminate]. injection Hqs as <-.
  specialize (IH qr eq_refl). apply (f_equal (option_map (cons (pctd p v)))) in IH.
  rewrite join_dot_cons. destruct qr as [|q2 qr]; cbn [flat_map app].
  - now rewrite (unformat_quote v q [] Hv Hq) by now left.
  - now rewrite <- join_dot_cons, (unformat_quote v q _ Hv Hq), unformat_dot by (right; eauto).
Qed.

Definition pct_guard (names : list str) : Prop := p_esc_pct p = false \/ Forall (fun v => ~ In pct v) names.

Lemma unformat_format_guarded : forall names text, format_path p names = Ok text ->
  pct_guard names -> Forall (fun v => v <> []) names -> unformat p text = Some names.
Proof.
  intros names text H Hg Hne. rewrite (unformat_format_exact names text H Hne). f_equal.
  rewrite <- (map_id names) at 2. apply map_ext_Forall. unfold pctd.
  destruct Hg as [->|Hg]; [now apply Forall_forall|]. eapply Forall_impl; [|exact Hg].
  intros v Hv. destruct (p_esc_pct p); auto using double_notin.
Qed.

Lemma unformat_format_refuted_all : forall names text, format_path p names = Ok text ->
  Forall (fun v => v <> []) names -> p_esc_pct p = true -> Exists (fun v => In pct v) names ->
  unformat p text <> Some names.
Proof.
  intros names text H Hne Hp Hex. rewrite (unformat_format_exact names text H Hne). unfold pctd. rewrite Hp.
  intro E. injection E as E. clear H Hne.
  induction Hex as [v l Hv|v l _ IH]; cbn [map] in E; injection E as E1 E2; auto.
  pose proof (double_length_lt pct v Hv) as HL. rewrite E1 in HL. lia.
Qed.
End Unformat.

Lemma format_column_path : forall p s t c x, s <> [] -> format_column p (Some s) t c = Ok x ->
  format_path p [s; t; c] = Ok x.
Proof.
  intros p s t c x Hs H. unfold format_column, format_table in H. unfold format_path. cbn [quote_all].
  destruct (quote p t) as [qt|]; [|discriminate]. destruct s as [|s0 s']; [contradiction|].
  destruct (quote p (s0 :: s')) as [qs|]; [|discriminate]. destruct (quote p c) as [qc|]; [|discriminate].
  inversion H; subst. cbn [join_dot]. rewrite <- app_assoc. reflexivity.
Qed.
Lemma format_column_path_noschema : forall p t c x, format_column p None t c = Ok x ->
  format_path p [t; c] = Ok x.
Proof.
  intros p t c x H. unfold format_column, format_table in H. unfold format_path. cbn [quote_all].
  destruct (quote p t) as [qt|]; [|discriminate]. destruct (quote p c) as [qc|]; [|discriminate].
  inversion H; subst. reflexivity.
Qed.
Lemma format_table_path : forall p s t x, s <> [] -> format_table p (Some s) t = Ok x -> format_path p [s; t] = Ok x.
Proof.
  intros p s t x Hs H. unfold format_table in H. unfold format_path. cbn [quote_all].
  destruct (quote p t) as [qt|]; [|discriminate]. destruct s as [|s0 s']; [contradiction|].
  destruct (quote p (s0 :: s')) as [qs|]; [|discriminate]. inversion H; subst. reflexivity.
Qed.

(* DDLCompiler._prepared_index_name: the schema-qualified index name is the dotted form of its two
   components, each the output of quote() *)
Lemma prepared_index_name_components : forall p s i x, s <> [] ->
  prepared_index_name p true (Some s) i = Ok x ->
  exists qs qi, quote p s = Ok qs /\ quote p i = Ok qi /\ x = qs ++ dot :: qi.
Proof.
  intros p s i x Hs H. unfold prepared_index_name, format_index in H. destruct s as [|c s']; [contradiction|].
  destruct (quote p (c :: s')) as [qs|]; [|discriminate]. destruct (quote p i) as [qi|]; [|discriminate].
  inversion H; subst. eauto.
Qed.
Lemma prepared_index_name_noschema : forall p sch i, (sch = None \/ sch = Some []) ->
  prepared_index_name p true sch i = quote p i /\ forall sch', prepared_index_name p false sch' i = quote p i.
Proof. intros p sch i [->| ->]; split; reflexivity. Qed.
Lemma prepared_index_name_path : forall p s i x, s <> [] ->
  prepared_index_name p true (Some s) i = Ok x -> format_path p [s; i] = Ok x.
Proof.
  intros p s i x Hs H. destruct (prepared_index_name_components p s i x Hs H) as (qs & qi & H1 & H2 & ->).
  unfold format_path. cbn [quote_all]. rewrite H1, H2. reflexivity.
Qed.
Lemma prepared_index_name_lexes_back : forall p b, wf_prep p = true -> compat p b = true ->
  forall s i, s <> [] -> i <> [] ->
  exists qs qi, prepared_index_name p true (Some s) i = Ok (qs ++ dot :: qi) /\
                lex_sent b qs = Some (stored p b s) /\ lex_sent b qi = Some (stored p b i).
Proof.
  intros p b Hw Hc s i Hs Hi.
  destruct (quote_lexes_back p b Hw Hc s Hs) as (qs & Hqs & Hls).
  destruct (quote_lexes_back p b Hw Hc i Hi) as (qi & Hqi & Hli).
  exists qs, qi. split; auto. unfold prepared_index_name, format_index. destruct s as [|c s']; [contradiction|].
  now rewrite Hqs, Hqi.
Qed.

(* applied to the measured SQLite keyword list by the per-run obligation reserved_complete_sqlite *)
Lemma reserved_complete : forall (kw reserved : list str),
  forallb (fun w => mem_str w reserved) kw = true -> forall w, In w kw -> In w reserved.
Proof. intros kw reserved H w Hw. rewrite forallb_forall in H. apply mem_str_In. auto. Qed.

Lemma empty_name_index_error : forall p, wf_prep p = true -> quote p [] = RaiseIndexError.
Proof.
  intros p Hwf. unfold quote, quote_force. rewrite requires_quotes_empty; [reflexivity|apply (wf_facts p Hwf)].
Qed.

(* for the per-run obligations quote_lexes_back_<dialect> (generated by specs/c06.py): the backend's keyword
   set may be any set the dialect's reserved_words covers *)
Definition set_kw (b : backend) (kw : list str) : backend :=
  {| b_iq := b_iq b; b_fq := b_fq b; b_start := b_start b; b_cont := b_cont b; b_kw := kw; b_fold := b_fold b;
     b_pct := b_pct b |}.
Lemma compat_kw_incl : forall p b, compat p b = true -> forall kw,
  (forall w, In w kw -> In w (p_reserved p)) -> compat p (set_kw b kw) = true.
Proof.
  intros p b H kw Hkw. unfold compat in *. cbn [set_kw b_iq b_fq b_start b_cont b_kw b_fold b_pct].
  apply andb_prop in H. destruct H as [H HG]. apply andb_prop in H. destruct H as [H HF].
  apply andb_prop in H. destruct H as [H _]. rewrite H, HF, HG, !andb_true_r.
  apply forallb_forall. intros w Hw. apply mem_str_In. auto.
Qed.
