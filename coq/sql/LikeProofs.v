(* C08 - proofs about the LIKE model: an escaped operand matches exactly itself. *)
From Coq Require Import List PeanoNat NArith Bool.
Import ListNotations.
From SAV.sql Require Import Like.
Open Scope N_scope.

Lemma eqb_false a b : a <> b -> N.eqb a b = false.
Proof. apply N.eqb_neq. Qed.

Lemma fm_cons {A B} (f : A -> list B) x l : flat_map f (x :: l) = f x ++ flat_map f l.
Proof. reflexivity. Qed.

Lemma flat_map_comp {A B C} (f : A -> list B) (g : B -> list C) s :
  flat_map g (flat_map f s) = flat_map (fun x => flat_map g (f x)) s.
Proof. induction s as [|x s IH]; [reflexivity|]. cbn [flat_map]. rewrite flat_map_app, IH. reflexivity. Qed.

Fixpoint strip_prefix (x s : list chr) : option (list chr) :=
  match x, s with
  | [], _ => Some s
  | a :: x', b :: s' => if N.eqb a b then strip_prefix x' s' else None
  | _ :: _, [] => None
  end.

Lemma strip_prefix_is_prefix x : forall s,
  is_prefix x s = match strip_prefix x s with Some _ => true | None => false end.
Proof. induction x as [|a x IH]; intros s; [reflexivity|]. destruct s as [|b s]; [reflexivity|].
  cbn [is_prefix strip_prefix]. destruct (N.eqb a b); [apply IH|reflexivity]. Qed.

Lemma strip_prefix_eqb x : forall s,
  list_eqb x s = match strip_prefix x s with Some [] => true | _ => false end.
Proof. induction x as [|a x IH]; intros s; [destruct s; reflexivity|]. destruct s as [|b s]; [reflexivity|].
  cbn [list_eqb strip_prefix]. destruct (N.eqb a b); [apply IH|reflexivity]. Qed.

Lemma star_ext k1 k2 : (forall s, k1 s = k2 s) -> forall s, star_of k1 s = star_of k2 s.
Proof. intros H s. induction s as [|b s IH]; cbn [star_of]; rewrite H; [reflexivity|]. rewrite IH. reflexivity. Qed.

Lemma suffix_star x s : is_suffix x s = star_of (list_eqb x) s.
Proof. induction s as [|b s IH]; cbn [is_suffix star_of]; [reflexivity|]. rewrite IH. reflexivity. Qed.

Lemma infix_star x s : is_infix x s = star_of (is_prefix x) s.
Proof. induction s as [|b s IH]; cbn [is_infix star_of]; [reflexivity|]. rewrite IH. reflexivity. Qed.

Section Seg.
Variable esc : option chr.
Hypothesis pct_plain : is_esc esc pct = false.   (* used from [like_pct] on *)

(* the pattern fragment [q] matches exactly the text [x], whatever follows *)
Definition lit_seg (q x : list chr) : Prop :=
  forall p s, like esc (q ++ p) s =
              match strip_prefix x s with Some s' => like esc p s' | None => false end.

Lemma seg_nil : lit_seg [] [].
Proof. intros p s. reflexivity. Qed.

Lemma seg_cons q a q' x : lit_seg q [a] -> lit_seg q' x -> lit_seg (q ++ q') (a :: x).
Proof.
  intros H1 H2 p s. rewrite <- app_assoc, H1. destruct s as [|b s]; [reflexivity|].
  cbn [strip_prefix]. destruct (N.eqb a b); [apply H2|reflexivity].
Qed.

(* [q] consumes one character of the text, which has to be [c] *)
Lemma seg_char q c :
  (forall p s, like esc (q ++ p) s = match s with b :: s' => N.eqb b c && like esc p s' | [] => false end) ->
  lit_seg q [c].
Proof.
  intros H p s. rewrite H. destruct s as [|b s]; [reflexivity|].
  cbn [strip_prefix]. rewrite (N.eqb_sym b c). destruct (N.eqb c b); reflexivity.
Qed.

Lemma plain_char c : is_esc esc c = false -> N.eqb c pct = false -> N.eqb c und = false -> lit_seg [c] [c].
Proof. intros He Hp Hu. apply seg_char. intros p s. cbn [app like]. rewrite He, Hp, Hu. reflexivity. Qed.

(* after the escape character every character stands for itself, wildcards and the escape
   character included *)
Lemma escaped_char e c : is_esc esc e = true -> lit_seg [e; c] [c].
Proof. intros He. apply seg_char. intros p s. cbn [app like]. rewrite He. reflexivity. Qed.

Lemma plain_seg x : plain_ok esc x = true -> lit_seg x x.
Proof.
  induction x as [|a x IH]; intros Hp; [apply seg_nil|].
  cbn [plain_ok forallb] in Hp. apply andb_true_iff in Hp. destruct Hp as [Ha Hx].
  apply negb_true_iff in Ha. apply orb_false_elim in Ha. destruct Ha as [Ha He].
  apply orb_false_elim in Ha. destruct Ha as [Hpc Hun].
  exact (seg_cons [a] a x x (plain_char a He Hpc Hun) (IH Hx)).
Qed.

Lemma seg_exact q x : lit_seg q x -> forall s, like esc q s = list_eqb x s.
Proof. intros H s. rewrite <- (app_nil_r q). rewrite H, strip_prefix_eqb.
  destruct (strip_prefix x s) as [[|b r]|]; reflexivity. Qed.

Lemma like_pct p s : like esc (pct :: p) s = star_of (like esc p) s.
Proof. cbn [like]. rewrite pct_plain. reflexivity. Qed.

Lemma like_pct_nil s : like esc [pct] s = true.
Proof. rewrite like_pct. induction s as [|b s IH]; [reflexivity|]. cbn [star_of like]. exact IH. Qed.

Lemma seg_prefix q x : lit_seg q x -> forall s, like esc (q ++ [pct]) s = is_prefix x s.
Proof. intros H s. rewrite H, strip_prefix_is_prefix.
  destruct (strip_prefix x s); [apply like_pct_nil|reflexivity]. Qed.

Lemma seg_suffix q x : lit_seg q x -> forall s, like esc (pct :: q) s = is_suffix x s.
Proof. intros H s. rewrite like_pct, suffix_star. apply star_ext. apply seg_exact. exact H. Qed.

Lemma seg_infix q x : lit_seg q x -> forall s, like esc (pct :: q ++ [pct]) s = is_infix x s.
Proof. intros H s. rewrite like_pct, infix_star. apply star_ext. apply seg_prefix. exact H. Qed.

Lemma wrapped_seg q (o : op) x s : lit_seg q (fold_case o x) ->
  like esc (build_pattern (w_pieces (model_render o)) q) (fold_case o s) = py_test o x s.
Proof.
  intros Hq. destruct o; cbn [model_render w_pieces build_pattern flat_map app py_test].
  1, 4: apply seg_infix; exact Hq.
  1, 3: apply seg_prefix; exact Hq.
  all: rewrite app_nil_r; apply seg_suffix; exact Hq.
Qed.
End Seg.

Lemma lower_nonletter c : is_letter c = false -> lower_chr c = c.
Proof. unfold is_letter, lower_chr. intros H. apply orb_false_elim in H. destruct H as [H _].
  rewrite H. reflexivity. Qed.

Lemma upper_lower a : is_upper a = true -> is_lower (a + 32) = true.
Proof.
  unfold is_upper, is_lower. intros H. apply andb_true_iff in H. destruct H as [H1 H2].
  apply N.leb_le in H1, H2. apply andb_true_iff. split; apply N.leb_le.
  - exact (proj1 (N.add_le_mono_r 65 a 32) H1).
  - exact (proj1 (N.add_le_mono_r a 90 32) H2).
Qed.

Lemma lower_eq_nonletter a c : is_letter c = false -> N.eqb (lower_chr a) c = N.eqb a c.
Proof.
  intros H. unfold lower_chr. destruct (is_upper a) eqn:U; [|reflexivity].
  rewrite !eqb_false; [reflexivity| |]; intros E; subst c; unfold is_letter in H.
  - rewrite U in H. discriminate.
  - rewrite (upper_lower a U), orb_true_r in H. discriminate.
Qed.

Section Esc.
Variable e : chr.
Hypothesis e_pct : e <> pct.   (* these two are used by [autoescape_charwise] and what follows it *)
Hypothesis e_und : e <> und.

(* what autoescape does to one character *)
Definition esc1 (x : chr) : list chr :=
  if N.eqb x e then [e; e] else if N.eqb x pct then [e; pct] else if N.eqb x und then [e; und] else [x].

Lemma esc1_alt a : esc1 a = if N.eqb a e || N.eqb a pct || N.eqb a und then [e; a] else [a].
Proof.
  unfold esc1. destruct (N.eqb_spec a e) as [->|]; [reflexivity|].
  destruct (N.eqb_spec a pct) as [->|]; [reflexivity|].
  destruct (N.eqb_spec a und) as [->|]; reflexivity.
Qed.

(* an escaped character matches exactly that character, whatever [e] is *)
Lemma esc1_seg a : lit_seg (Some e) (esc1 a) [a].
Proof.
  rewrite esc1_alt. destruct (N.eqb a e || N.eqb a pct || N.eqb a und) eqn:E.
  - apply escaped_char. apply N.eqb_refl.
  - apply orb_false_elim in E. destruct E as [E Hu]. apply orb_false_elim in E. destruct E as [He Hp].
    exact (plain_char (Some e) a He Hp Hu).
Qed.

Lemma escaped_seg x : lit_seg (Some e) (flat_map esc1 x) x.
Proof. induction x as [|a x IH]; [apply seg_nil|]. exact (seg_cons _ _ _ _ _ (esc1_seg a) IH). Qed.

Lemma wf_escaped x q : wf_pattern e (flat_map esc1 x ++ q) = wf_pattern e q.
Proof.
  induction x as [|a x IH]; [reflexivity|]. rewrite fm_cons, <- app_assoc, esc1_alt.
  destruct (N.eqb a e || N.eqb a pct || N.eqb a und) eqn:E; cbn [app wf_pattern].
  - rewrite N.eqb_refl, E. exact IH.
  - apply orb_false_elim in E. destruct E as [E _]. apply orb_false_elim in E. destruct E as [E _].
    rewrite E. exact IH.
Qed.

(* the three sequential str.replace calls amount to one character-wise substitution *)
Lemma autoescape_charwise s : autoescape e s = flat_map esc1 s.
Proof.
  unfold autoescape, model_replaces. cbn [fold_left]. unfold apply_repl.
  cbn [r_unless r_from r_to existsb tok_val map].
  rewrite (eqb_false _ _ e_pct), (eqb_false _ _ e_und). cbn [orb]. unfold replace1.
  rewrite !flat_map_comp. apply flat_map_ext. intros x.
  unfold esc1. destruct (N.eqb_spec x e) as [->|E1]; cbn [flat_map app].
  - rewrite (eqb_false _ _ e_pct). cbn [flat_map app]. rewrite (eqb_false _ _ e_und). reflexivity.
  - destruct (N.eqb_spec x pct) as [->|E2]; cbn [flat_map app]; [rewrite (eqb_false _ _ e_und); reflexivity|].
    destruct (N.eqb x und); reflexivity.
Qed.

(* case folding commutes with the escaping when the escape character is not a letter *)
Hypothesis e_letter : is_letter e = false.

Lemma lower_esc1 a : map lower_chr (esc1 a) = esc1 (lower_chr a).
Proof.
  rewrite !esc1_alt, (lower_eq_nonletter a e e_letter).
  rewrite (lower_eq_nonletter a pct eq_refl), (lower_eq_nonletter a und eq_refl).
  destruct (N.eqb a e || N.eqb a pct || N.eqb a und); cbn [map];
    [rewrite (lower_nonletter e e_letter)|]; reflexivity.
Qed.

Lemma lower_autoescape x : lower (autoescape e x) = autoescape e (lower x).
Proof. rewrite !autoescape_charwise. unfold lower.
  induction x as [|a x IH]; [reflexivity|].
  cbn [map]. rewrite !fm_cons, map_app, IH, lower_esc1. reflexivity. Qed.
End Esc.

Lemma esc_ok_neq e : esc_ok e = true -> e <> pct /\ e <> und.
Proof. unfold esc_ok. intros H. apply negb_true_iff in H. apply orb_false_elim in H.
  destruct H as [H1 H2]. split; apply N.eqb_neq; assumption. Qed.

Lemma esc_ok_pct e : esc_ok e = true -> is_esc (Some e) pct = false.
Proof. intros H. apply eqb_false, not_eq_sym, (esc_ok_neq e H). Qed.

Lemma autoescape_seg e x : esc_ok e = true -> lit_seg (Some e) (autoescape e x) x.
Proof. intros H. destruct (esc_ok_neq e H) as [Hp Hu]. rewrite (autoescape_charwise e Hp Hu). apply escaped_seg. Qed.

Lemma fold_autoescape o e x : guard o e = true ->
  esc_ok e = true /\ fold_case o (autoescape e x) = autoescape e (fold_case o x).
Proof.
  unfold guard, fold_case. intros G. apply andb_true_iff in G. destruct G as [G1 G2]. split; [exact G1|].
  destruct (w_lower (model_render o)); [|reflexivity].
  destruct (esc_ok_neq e G1) as [Hp Hu]. apply negb_true_iff in G2. exact (lower_autoescape e Hp Hu G2 x).
Qed.

Theorem autoescape_literal o escape x s :
  guard o (eff_escape escape) = true -> op_match o true escape x s = py_test o x s.
Proof.
  intros G. destruct (fold_autoescape o _ x G) as [G1 E].
  unfold op_match, op_pattern, escaped_like_impl. cbn [fst snd]. rewrite E.
  exact (wrapped_seg _ (esc_ok_pct _ G1) _ o x s (autoescape_seg _ _ G1)).
Qed.

Theorem plain_literal o escape x s :
  is_esc escape pct = false -> plain_ok escape (fold_case o x) = true ->
  op_match o false escape x s = py_test o x s.
Proof. intros Hp Hx. exact (wrapped_seg escape Hp _ o x s (plain_seg escape _ Hx)). Qed.

Theorem autoescape_is_charwise e x : esc_ok e = true ->
  autoescape e x = flat_map (fun c => if N.eqb c e || N.eqb c pct || N.eqb c und then [e; c] else [c]) x.
Proof. intros G. destruct (esc_ok_neq _ G) as [Hp Hu]. rewrite (autoescape_charwise e Hp Hu).
  apply flat_map_ext, esc1_alt. Qed.

Lemma wf_build e ps y : e <> pct -> wf_pattern e (build_pattern ps (flat_map (esc1 e) y)) = true.
Proof.
  intros Hp. induction ps as [|[|] ps IH]; [reflexivity| |]; unfold build_pattern; rewrite fm_cons.
  - cbn [app wf_pattern]. rewrite (eqb_false _ _ (not_eq_sym Hp)). exact IH.
  - rewrite wf_escaped. exact IH.
Qed.

Theorem autoescape_wellformed o escape x :
  guard o (eff_escape escape) = true -> wf_pattern (eff_escape escape) (op_pattern o true escape x) = true.
Proof.
  intros G. destruct (fold_autoescape o _ x G) as [G1 E]. destruct (esc_ok_neq _ G1) as [Hp Hu].
  unfold op_pattern, escaped_like_impl. cbn [snd]. rewrite E, (autoescape_charwise _ Hp Hu).
  apply wf_build, Hp.
Qed.

Definition differs (o : op) (e : chr) (x s : list chr) : bool :=
  negb (Bool.eqb (op_match o true (Some e) x s) (py_test o x s)).

Lemma differs_neq o e x s : differs o e x s = true -> op_match o true (Some e) x s <> py_test o x s.
Proof. unfold differs. intros H E. rewrite E, Bool.eqb_reflx in H. discriminate. Qed.

(* a%b as operand *)
Definition wx : list chr := [97; 37; 98].
Definition wild_witness (o : op) (e : chr) : list chr :=
  if N.eqb e pct then
    match o with
    | Endswith | IEndswith => [120; 97; 37; 98] (* xa%b *)
    | _ => [97; 37; 98] (* a%b *)
    end
  else [97; 95; 98] (* a_b *).

Lemma wild_escape_differs o e : esc_ok e = false -> differs o e wx (wild_witness o e) = true.
Proof.
  unfold esc_ok. intros H. apply negb_false_iff in H. apply orb_true_iff in H.
  destruct H as [H|H]; apply N.eqb_eq in H; subst e; destruct o; vm_compute; reflexivity. Qed.

Lemma below_in e n : e < N.of_nat n -> In e (map N.of_nat (seq 0 n)).
Proof.
  intros H. apply in_map_iff. exists (N.to_nat e). split; [apply N2Nat.id|].
  apply in_seq. split; [apply le_0_n|]. cbn [plus]. rewrite <- (Nat2N.id n).
  apply Nat.compare_lt_iff. rewrite <- N2Nat.inj_compare. exact H.
Qed.

Lemma letter_below e : is_letter e = true -> e < N.of_nat 123.
Proof. unfold is_letter, is_upper, is_lower. intros H. apply orb_true_iff in H.
  destruct H as [H|H]; apply andb_true_iff in H; destruct H as [_ H]; apply N.leb_le in H;
    apply (N.le_lt_trans _ _ _ H); reflexivity. Qed.

Definition letter_chk (o : op) (e : chr) : bool :=
  implb (is_letter e) (differs o e [upper_chr e] [lower_chr e]).

(* by enumeration: every letter is a code point below 123, and all of those are tried *)
Lemma letter_escape_differs o e : w_lower (model_render o) = true -> is_letter e = true ->
  differs o e [upper_chr e] [lower_chr e] = true.
Proof.
  intros Hl He.
  assert (A : forallb (letter_chk o) (map N.of_nat (seq 0 123)) = true).
  { destruct o; try discriminate Hl; vm_compute; reflexivity. }
  rewrite forallb_forall in A. specialize (A e (below_in e 123 (letter_below e He))).
  unfold letter_chk in A. rewrite He in A. exact A. Qed.

Theorem guard_exact o e : guard o e = false ->
  exists x s, op_match o true (Some e) x s <> py_test o x s.
Proof.
  unfold guard. intros G. apply andb_false_iff in G. destruct G as [G|G].
  - exists wx, (wild_witness o e). apply differs_neq. apply wild_escape_differs. exact G.
  - destruct (w_lower (model_render o)) eqn:Hl; [|discriminate G]. apply negb_false_iff in G.
    exists [upper_chr e], [lower_chr e]. apply differs_neq. apply letter_escape_differs; assumption. Qed.
