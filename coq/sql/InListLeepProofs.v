(* C07: what _literal_execute_expanding_parameter (leep) returns, in closed form. *)
From Coq Require Import List ZArith NArith Bool Lia.
Import ListNotations.
From SAV.sql Require Import Val3 InList InListSpecProofs InListCloseProofs.

(* the list as scalars (a tuple where a scalar is expected does not get this far) *)
Definition scalars (vals : list value) : list sv :=
  map (fun v => match v with VScalar s => s | VTuple _ => SNull end) vals.

(* the (name, value) pairs added to the parameter dictionary *)
Definition tu_scalar (ss : list sv) : list (key * sv) :=
  map (fun iv => ((fst iv, 0%N), snd iv)) (enum_from 1 ss).
Definition blocks_from (n : N) (ts : list (list sv)) : list (list (key * sv)) :=
  map (fun it => map (fun jv => ((fst it, fst jv), snd jv)) (enum_from 1 (snd it))) (enum_from n ts).
Definition bind_items (d : dialect) (ents : list (key * sv)) : list tok :=
  join [TComma] (map (fun kv => [render_bindtemplate d (fst kv)]) ents).
Definition bind_rows (d : dialect) (blks : list (list (key * sv))) : list tok :=
  join [TComma] (map (fun blk => [TLp] ++ bind_items d blk ++ [TRp]) blks).

Lemma all_scalar_in vals v : all_scalar vals = true -> In v vals -> exists s, v = VScalar s.
Proof.
  unfold all_scalar. rewrite forallb_forall. intros H Hin. specialize (H v Hin).
  destruct v; [now eexists|discriminate].
Qed.
Lemma all_tuple_in k vals v : all_tuple k vals = true -> In v vals -> exists l, v = VTuple l /\ length l = k.
Proof.
  unfold all_tuple. rewrite forallb_forall. intros H Hin. specialize (H v Hin).
  destruct v; [discriminate|]. apply Nat.eqb_eq in H. now eexists.
Qed.

Lemma all_scalar_ok vals : all_scalar vals = true ->
  all_ok (map (fun v => match v with VScalar s => Ok s | VTuple _ => Raise TypeError end) vals)
  = Ok (scalars vals).
Proof. intros H. apply all_ok_map. intros a Ha. now destruct (all_scalar_in _ _ H Ha) as (s & ->). Qed.
Lemma all_scalar_rows vals : all_scalar vals = true ->
  map value_row vals = map (fun v => [v]) (scalars vals).
Proof.
  intros H. unfold scalars. rewrite map_map. apply map_ext_in. intros a Ha.
  now destruct (all_scalar_in _ _ H Ha) as (s & ->).
Qed.

Lemma all_tuple_ok k vals : all_tuple k vals = true -> all_ok (map tuple_items vals) = Ok (map value_row vals).
Proof. intros H. apply all_ok_map. intros a Ha. now destruct (all_tuple_in _ _ _ H Ha) as (l & -> & _). Qed.
Lemma all_tuple_len k vals : all_tuple k vals = true -> Forall (fun te => length te = k) (map value_row vals).
Proof.
  intros H. apply Forall_forall. intros te Hin. apply in_map_iff in Hin as (v & <- & Hv).
  now destruct (all_tuple_in _ _ _ H Hv) as (l & -> & Hl).
Qed.

Lemma tu_scalar_snd ss : map snd (tu_scalar ss) = ss.
Proof. unfold tu_scalar. rewrite map_map. cbn [snd]. apply enum_from_snd. Qed.
Lemma blocks_snd n ts : map (map snd) (blocks_from n ts) = ts.
Proof.
  unfold blocks_from. rewrite map_map.
  rewrite <- (enum_from_snd n ts) at 2. apply map_ext. intros [i te]. cbn [fst snd].
  rewrite map_map. cbn [snd]. apply enum_from_snd.
Qed.

Lemma leep_scalar d b vals : vals <> [] -> all_scalar vals = true -> tuple_branch b vals = false ->
  leep d b vals = Ok (tu_scalar (scalars vals), bind_items d (tu_scalar (scalars vals))).
Proof.
  intros Hne Hs Hb. unfold leep. destruct vals as [|v0 vals]; [congruence|].
  rewrite Hb. rewrite (all_scalar_ok _ Hs). reflexivity.
Qed.

Lemma enum_from_nth {A} n (l : list A) j :
  nth_error (enum_from n l) j = option_map (fun a => ((n + N.of_nat j)%N, a)) (nth_error l j).
Proof.
  revert n j. induction l as [|a l IH]; intros n j.
  - destruct j; reflexivity.
  - destruct j as [|j]; cbn [enum_from nth_error option_map].
    + f_equal. f_equal. lia.
    + rewrite IH. destruct (nth_error l j); cbn [option_map]; [|reflexivity]. f_equal. f_equal. lia.
Qed.

Lemma nth_error_concat_blocks k ts : Forall (fun te => length te = k) ts ->
  forall n i te j, nth_error ts i = Some te -> (j < k)%nat ->
  nth_error (A := (N * N * sv)) (concat (blocks_from n ts)) (i * k + j)
  = Some (((n + N.of_nat i)%N, (1 + N.of_nat j)%N), nth j te SNull).
Proof.
  intros H. induction H as [|t0 ts Ht0 H IH]; intros n i te j Hi Hj.
  - destruct i; discriminate.
  - unfold blocks_from. cbn [enum_from map concat fst snd]. fold (blocks_from (N.succ n) ts).
    remember (map (fun jv : N * sv => ((n, fst jv), snd jv)) (enum_from 1 t0)) as b0 eqn:Eb0.
    assert (Hb0 : length b0 = k) by (subst b0; now rewrite map_length, enum_from_length).
    destruct i as [|i].
    + cbn [nth_error] in Hi. inversion Hi; subst te. cbn [Nat.mul Nat.add].
      rewrite nth_error_app1 by lia. subst b0. rewrite nth_error_map, enum_from_nth.
      destruct (nth_error t0 j) as [a|] eqn:E.
      * cbn [option_map fst snd]. f_equal. f_equal; [f_equal; lia|]. symmetry. now apply nth_error_nth.
      * apply nth_error_None in E. lia.
    + cbn [nth_error] in Hi.
      replace (S i * k + j)%nat with (length b0 + (i * k + j))%nat by (rewrite Hb0; cbn [Nat.mul]; lia).
      rewrite nth_error_app2 by lia.
      replace (length b0 + (i * k + j) - length b0)%nat with (i * k + j)%nat by lia.
      rewrite (IH (N.succ n) i te j Hi Hj). f_equal. f_equal. f_equal. lia.
Qed.

Lemma enum_map_seq {A B} (f : N -> B) m (l : list A) :
  map (fun jv => f (fst jv)) (enum_from m l) = map (fun j => f (m + N.of_nat j)%N) (seq 0 (length l)).
Proof.
  revert m. induction l as [|a l IH]; intro m; [reflexivity|].
  cbn [enum_from map length seq fst]. f_equal; [f_equal; lia|].
  rewrite IH. rewrite <- seq_shift, map_map. apply map_ext. intros j. f_equal. lia.
Qed.

Lemma in_combine_seq {A} (l : list A) s i a : In (i, a) (combine (seq s (length l)) l) -> nth_error l (i - s) = Some a /\ (s <= i)%nat.
Proof.
  revert s. induction l as [|x l IH]; intros s H; [destruct H|].
  cbn [length seq combine] in H. destruct H as [H|H].
  - inversion H; subst. rewrite Nat.sub_diag. split; [reflexivity|lia].
  - apply IH in H as [H1 H2]. split; [|lia]. replace (i - s)%nat with (S (i - S s)) by lia. exact H1.
Qed.

Lemma rows_eq_blocks d k ts : Forall (fun te => length te = k) ts -> forall s,
  map (fun it : nat * list sv =>
         [TLp] ++ join [TComma] (map (fun c => [c])
             (map (fun j => render_bindtemplate d ((1 + N.of_nat (fst it))%N, (1 + N.of_nat j)%N)) (seq 0 (length (snd it))))) ++ [TRp])
      (combine (seq s (length ts)) ts)
  = map (fun blk => [TLp] ++ bind_items d blk ++ [TRp]) (blocks_from (1 + N.of_nat s) ts).
Proof.
  intros H. induction H as [|t0 ts Ht0 H IH]; intro s; [reflexivity|].
  cbn [length seq combine map]. unfold blocks_from. cbn [enum_from map]. fold (blocks_from (N.succ (1 + N.of_nat s)) ts).
  f_equal.
  - cbn [fst snd]. f_equal. f_equal. unfold bind_items. f_equal. rewrite !map_map. cbn [fst].
    rewrite (enum_map_seq (fun j => [render_bindtemplate d ((1 + N.of_nat s)%N, j)]) 1 t0). reflexivity.
  - rewrite IH. f_equal. f_equal. lia.
Qed.

Lemma leep_tuple d b vals k : vals <> [] -> all_tuple k vals = true -> tuple_branch b vals = true ->
  leep d b vals =
  Ok (concat (blocks_from 1 (map value_row vals)),
      (if d.(d_tuple_in_values) then [TValues] else []) ++ bind_rows d (blocks_from 1 (map value_row vals))).
Proof.
  intros Hne Ht Hb. unfold leep. destruct vals as [|v0 vals]; [congruence|].
  rewrite Hb. rewrite (all_tuple_ok _ _ Ht). cbn [bind].
  set (ts := map value_row (v0 :: vals)).
  pose proof (all_tuple_len _ _ Ht) as Hlen. fold ts in Hlen.
  rewrite flat_map_concat_map. fold (blocks_from 1 ts).
  erewrite (all_ok_map _ (fun it : nat * list sv =>
         [TLp] ++ join [TComma] (map (fun c => [c])
             (map (fun j => render_bindtemplate d ((1 + N.of_nat (fst it))%N, (1 + N.of_nat j)%N)) (seq 0 (length (snd it))))) ++ [TRp])).
  - cbn [bind]. cbv zeta. f_equal. f_equal. f_equal. unfold bind_rows. f_equal.
    apply (rows_eq_blocks d k ts Hlen 0%nat).
  - intros [i te] Hin. cbn [fst snd]. apply in_combine_seq in Hin as [Hnth _]. rewrite Nat.sub_0_r in Hnth.
    erewrite (all_ok_map _ (fun j => render_bindtemplate d ((1 + N.of_nat i)%N, (1 + N.of_nat j)%N))); [reflexivity|].
    intros j Hj. apply in_seq in Hj.
    assert (Hte : length te = k).
    { rewrite Forall_forall in Hlen. apply Hlen. eapply nth_error_In; eauto. }
    rewrite Hte. pose proof (nth_error_concat_blocks k ts Hlen 1%N i te j Hnth) as HH.
    rewrite HH by lia. reflexivity.
Qed.
