(* C16 - rendering the symbolic compilation with a map = compiling the translated construct. *)
From Coq Require Import List ZArith Bool Lia.
Import ListNotations.
From SAV.sql Require Import SchemaTr SchemaTrScanProofs.
Open Scope Z_scope.

Lemma str_eqb_refl : forall a, str_eqb a a = true.
Proof. induction a as [|x a IH]; [reflexivity|]. cbn [str_eqb]. rewrite Z.eqb_refl. exact IH. Qed.
Lemma str_eqb_eq : forall a b, str_eqb a b = true -> a = b.
Proof.
  induction a as [|x a IH]; intros [|y b] H; try discriminate H; [reflexivity|].
  cbn [str_eqb] in H. apply andb_prop in H. destruct H as [H1 H2].
  apply Z.eqb_eq in H1. subst. f_equal. apply IH, H2.
Qed.

Lemma has_key_assoc : forall k m, has_key k m = true -> exists v, assoc k m = Some v.
Proof. intros k m H. unfold has_key in H. destruct (assoc k m) as [v|]; [eauto|discriminate H]. Qed.
Lemma has_key_false : forall k m, has_key k m = false -> assoc k m = None.
Proof. intros k m H. unfold has_key in H. destruct (assoc k m); [discriminate H|reflexivity]. Qed.

Section P.
Variable quote : option bool -> str -> str.
Variable dflt : str.

Notation prefix_plain := (prefix_plain quote).
Notation compile_plain := (compile_plain quote).
Notation compile_sym := (compile_sym quote).
Notation segs_of := (segs_of quote).
Notation replace := (replace quote dflt).
Notation render_translates := (render_translates quote dflt).
Notation target := (target dflt).
Notation direct_inc := (direct_inc dflt).
Notation direct := (direct quote dflt).
Notation subst_schemas := (subst_schemas dflt).

Lemma or_default_truthy : forall o n, or_default dflt o = Ok n -> truthy (Some n) = Some n.
Proof.
  intros o n H. unfold or_default in H. destruct (truthy o) as [k|] eqn:E.
  - inversion H; subst. destruct o as [[|c s]|]; cbn in E; try discriminate E. inversion E. reflexivity.
  - destruct dflt as [|c s] eqn:D; [discriminate H|]. inversion H. reflexivity.
Qed.

(* the token written for the schema [nm] is replaced by what the map holds under the key [nm]: inside the
   guards "_none" stands for the key None and for nothing else *)
Lemma replace_or_none : forall m nm,
  match nm with Some n => negb (str_eqb n none_name) && negb (str_eqb n []) | None => true end = true ->
  map_ok m = true ->
  replace m (or_none nm) =
    match assoc nm m with
    | Some v => bind (or_default dflt v) (fun k => Ok (quote None k))
    | None => match nm with Some n => Ok (quote None n) | None => Err ENoneRemoved end
    end.
Proof.
  intros m nm Hn Hm.
  unfold SchemaTr.replace, effective, d_has, d_get, has_none, has_key. destruct nm as [n|].
  - apply andb_prop in Hn as [H1 H2]. apply negb_true_iff in H1.
    destruct n as [|c n]; [discriminate H2|]. cbn [or_none]. rewrite H1, !andb_false_r.
    destruct (assoc _ m); reflexivity.
  - cbn [or_none]. rewrite str_eqb_refl, andb_true_r.
    apply negb_true_iff, has_key_false in Hm. rewrite Hm. destruct (assoc None m); reflexivity.
Qed.

(* a mapped schema: the replacement followed by "." is the prefix of the translated table *)
Lemma mapped_prefix : forall v,
  bind (bind (or_default dflt v) (fun k => Ok (quote None k))) (fun t => Ok (t ++ [c_dot]))
  = bind (bind (or_default dflt v) (fun k => Ok {| r_map := true; r_name := Some k; r_force := None |}))
         (fun x' => Ok (prefix_plain x')).
Proof.
  intros v. destruct (or_default dflt v) as [k|e] eqn:E; [|reflexivity].
  cbn [bind]. unfold SchemaTr.prefix_plain. cbn [r_name r_force]. rewrite (or_default_truthy _ _ E). reflexivity.
Qed.

(* per reference: what the scanner makes of its segments is the prefix of the translated table, or the
   documented error for a schema-less table compiled with a None key that the map no longer has *)
Lemma piece_trans : forall inc m x g,
  piece_sym quote inc (Sch x) = Ok g ->
  names_ok [Sch x] = true -> force_ok m [Sch x] = true -> map_ok m = true ->
  has_none m && negb inc = false ->
  trans (replace m) g =
    bind (if r_map x && inc && negb (has_none m) && match r_name x with None => true | _ => false end
          then Err ENoneRemoved else target m x)
         (fun x' => Ok (prefix_plain x')).
Proof.
  intros inc m [mp nm fc] g Hp Hn Hf Hm Hc.
  unfold names_ok, force_ok in Hn, Hf. cbn [forallb r_map r_name r_force] in Hn, Hf.
  rewrite andb_true_r in Hn, Hf.
  cbn [piece_sym] in Hp. unfold symbolic, SchemaTr.target in *. cbn [r_map r_name r_force] in *.
  destruct mp; cbn [andb negb orb] in *.
  2:{ (* table() clause: rendered literally on both sides *)
      injection Hp as <-. cbn [trans seg_out bind]. rewrite app_nil_r. reflexivity. }
  pose proof (replace_or_none m nm Hn Hm) as R. unfold has_none, has_key in *.
  destruct nm as [n|]; [destruct (has_bracket n); [discriminate Hp|] | destruct inc];
    injection Hp as <-; cbn [trans seg_out bind or_none] in *.
  - rewrite R, andb_false_r. destruct (assoc (Some n) m) as [v|]; [exact (mapped_prefix v)|].
    (* not in the map: the name is kept, and it is quoted alike because it carries no quote flag *)
    destruct n; [apply andb_prop in Hn as [_ Hn]; discriminate Hn|].
    destruct fc; [discriminate Hf|reflexivity].
  - rewrite R. destruct (assoc None m) as [v|]; [exact (mapped_prefix v)|reflexivity].
  - (* compiled without the None key: no prefix, and the map still has no None key *)
    rewrite andb_true_r in Hc. destruct (assoc None m); [discriminate Hc|reflexivity].
Qed.

Lemma names_ok_cons : forall i s, names_ok (i :: s) = names_ok [i] && names_ok s.
Proof. intros. unfold names_ok. cbn [forallb]. rewrite andb_true_r. reflexivity. Qed.
Lemma force_ok_cons : forall m i s, force_ok m (i :: s) = force_ok m [i] && force_ok m s.
Proof. intros. unfold force_ok. cbn [forallb]. rewrite andb_true_r. reflexivity. Qed.

Lemma segs_of_cons_inv : forall inc i s g, segs_of inc (i :: s) = Ok g ->
  exists a b, piece_sym quote inc i = Ok a /\ segs_of inc s = Ok b /\ g = a ++ b.
Proof.
  intros inc i s g H. cbn [SchemaTr.segs_of] in H.
  apply bind_ok_inv in H as (a & Ea & H). apply bind_ok_inv in H as (b & Eb & H).
  injection H as <-. eauto.
Qed.

Lemma segs_trans : forall inc m s g,
  segs_of inc s = Ok g ->
  names_ok s = true -> force_ok m s = true -> map_ok m = true -> has_none m && negb inc = false ->
  trans (replace m) g = bind (direct_inc inc m s) (fun s' => Ok (compile_plain s')).
Proof.
  intros inc m. induction s as [|i s IH]; intros g Hs Hn Hf Hm Hc.
  - injection Hs as <-. reflexivity.
  - apply segs_of_cons_inv in Hs as (a & b & Ea & Eb & ->).
    rewrite names_ok_cons in Hn. rewrite force_ok_cons in Hf.
    apply andb_prop in Hn as [Hn1 Hn2]. apply andb_prop in Hf as [Hf1 Hf2].
    rewrite trans_app, (IH b Eb Hn2 Hf2 Hm Hc). cbn [SchemaTr.direct_inc].
    destruct i as [t|x].
    + injection Ea as <-. destruct (direct_inc inc m s); cbn; rewrite ?app_nil_r; reflexivity.
    + rewrite (piece_trans inc m x a Ea Hn1 Hf1 Hm Hc).
      destruct (if _ : bool then _ else target m x); [|reflexivity]. destruct (direct_inc inc m s); reflexivity.
Qed.

Lemma has_bracket_no_rb : forall n, has_bracket n = false -> no_rb n = true.
Proof.
  unfold has_bracket, no_rb. induction n as [|c n IH]; intros H; [reflexivity|].
  cbn [existsb] in *. apply orb_false_iff in H as [H1 H2].
  apply orb_false_iff in H1 as [_ H1]. rewrite H1. apply IH, H2.
Qed.
Lemma segs_tok_ok : forall inc s g, segs_of inc s = Ok g -> forallb tok_ok g = true.
Proof.
  intros inc. induction s as [|i s IH]; intros g Hs.
  - injection Hs as <-. reflexivity.
  - apply segs_of_cons_inv in Hs as (a & b & Ea & Eb & ->).
    rewrite forallb_app, (IH b Eb), andb_true_r.
    destruct i as [t|x]; cbn [piece_sym] in Ea; [injection Ea as <-; reflexivity|].
    destruct (symbolic inc x); [|injection Ea as <-; reflexivity].
    destruct (r_name x) as [n|]; [|injection Ea as <-; reflexivity].
    destruct (has_bracket n) eqn:Hb; [discriminate Ea|]. injection Ea as <-.
    cbn [forallb tok_ok]. rewrite andb_true_r. destruct n as [|c n]; [reflexivity|].
    exact (has_bracket_no_rb _ Hb).
Qed.

Theorem render_sym_general : forall inc m s text,
  marker_free quote inc s = true -> names_ok s = true -> force_ok m s = true -> map_ok m = true ->
  compile_sym inc s = Ok text ->
  render_translates inc m text =
    if has_none m && negb inc then Err ENoneAdded
    else bind (direct_inc inc m s) (fun s' => Ok (compile_plain s')).
Proof.
  intros inc m s text Hmf Hn Hf Hm Hc. unfold SchemaTr.render_translates.
  destruct (has_none m && negb inc) eqn:Hcons; [reflexivity|].
  apply bind_ok_inv in Hc as (g & Eg & Hc). injection Hc as <-.
  unfold marker_free in Hmf. rewrite Eg in Hmf. apply negb_true_iff in Hmf.
  rewrite (scan_flat (replace m) g [] Hmf (segs_tok_ok _ _ _ Eg) : scan _ (flat g) = _), bind_ok_r.
  exact (segs_trans inc m s g Eg Hn Hf Hm Hcons).
Qed.

Lemma direct_inc_consistent : forall m s, direct_inc (has_none m) m s = subst_schemas m s.
Proof.
  intros m. induction s as [|i s IH]; [reflexivity|].
  destruct i as [t|x]; cbn [SchemaTr.direct_inc SchemaTr.subst_schemas]; rewrite IH; [reflexivity|].
  destruct (has_none m); rewrite ?andb_false_r; reflexivity.
Qed.

Theorem translate_eq_direct : forall m s text,
  marker_free quote (has_none m) s = true -> names_ok s = true -> force_ok m s = true -> map_ok m = true ->
  compile_sym (has_none m) s = Ok text ->
  render_translates (has_none m) m text = direct m s.
Proof.
  intros m s text Hmf Hn Hf Hm Hc.
  rewrite (render_sym_general _ m s text Hmf Hn Hf Hm Hc).
  rewrite andb_negb_r. rewrite direct_inc_consistent. reflexivity.
Qed.

Lemma bracketed_cons : forall i s, bracketed (i :: s) = bracketed [i] || bracketed s.
Proof. intros. unfold bracketed. cbn [existsb]. rewrite orb_false_r. reflexivity. Qed.
Lemma piece_sym_bracketed : forall inc i,
  if bracketed [i] then piece_sym quote inc i = Err EBracket else exists a, piece_sym quote inc i = Ok a.
Proof.
  intros inc [t|[[|] [n|] fc]]; cbn; eauto; [rewrite orb_false_r; destruct (has_bracket n)|destruct inc]; eauto.
Qed.
Lemma segs_of_bracketed : forall inc s,
  if bracketed s then segs_of inc s = Err EBracket else exists g, segs_of inc s = Ok g.
Proof.
  intros inc. induction s as [|i s IH]; [cbn; eauto|].
  rewrite bracketed_cons. cbn [SchemaTr.segs_of]. pose proof (piece_sym_bracketed inc i) as Hi.
  destruct (bracketed [i]); [rewrite Hi; reflexivity|]. destruct Hi as [a ->]. cbn [orb bind].
  destruct (bracketed s); [rewrite IH; reflexivity|]. destruct IH as [b ->]. cbn. eauto.
Qed.
Lemma compile_sym_bracketed : forall inc s,
  if bracketed s then compile_sym inc s = Err EBracket else exists t, compile_sym inc s = Ok t.
Proof.
  intros inc s. pose proof (segs_of_bracketed inc s) as H. unfold SchemaTr.compile_sym.
  destruct (bracketed s); [rewrite H; reflexivity|]. destruct H as [g ->]. cbn. eauto.
Qed.

Lemma compile_sym_ok : forall inc s, bracketed s = false -> exists t, compile_sym inc s = Ok t.
Proof. intros inc s Hb. pose proof (compile_sym_bracketed inc s) as B. rewrite Hb in B. exact B. Qed.
Theorem bracket_names_rejected : forall inc s, bracketed s = true <-> compile_sym inc s = Err EBracket.
Proof.
  intros inc s. pose proof (compile_sym_bracketed inc s) as B. destruct (bracketed s).
  - split; auto.
  - destruct B as [t ->]. split; discriminate.
Qed.

Lemma targets_truthy_assoc : forall m k v, targets_truthy m = true -> assoc k m = Some v ->
  exists n, truthy v = Some n.
Proof.
  unfold targets_truthy. induction m as [|[k' v'] m IH]; intros k v Ht Ha; [discriminate Ha|].
  cbn [forallb snd] in Ht. apply andb_prop in Ht as [H1 H2]. cbn [assoc] in Ha.
  destruct (ostr_eqb k k'); [|exact (IH _ _ H2 Ha)].
  injection Ha as <-. destruct (truthy v'); [eauto|discriminate H1].
Qed.
(* the documentation says of a None target "will render with no schema"; the implementation names the
   default schema, so the two agree where no target is falsy *)
Theorem direct_eq_doc : forall m s, targets_truthy m = true ->
  direct m s = Ok (compile_plain (subst_doc m s)).
Proof.
  intros m s Ht. unfold SchemaTr.direct.
  assert (subst_schemas m s = Ok (subst_doc m s)) as ->; [|reflexivity].
  induction s as [|i s IH]; [reflexivity|].
  destruct i as [t|x]; cbn [SchemaTr.subst_schemas subst_doc map]; fold (subst_doc m s); rewrite IH; [reflexivity|].
  unfold SchemaTr.target, target_doc. destruct (r_map x); [|reflexivity].
  destruct (assoc (r_name x) m) as [v|] eqn:Ea; [|reflexivity].
  destruct (targets_truthy_assoc m _ v Ht Ea) as [n Hn]. unfold or_default. rewrite Hn. reflexivity.
Qed.

Theorem stale_alias_ignored : forall d v name, has_none d = true ->
  replace ((Some none_name, v) :: d) name = replace d name.
Proof.
  intros d v name Hn. destruct (has_key_assoc _ _ Hn) as [w Hw].
  unfold SchemaTr.replace, effective, d_has, d_get, has_none, has_key.
  cbn [assoc ostr_eqb]. rewrite Hw. destruct (str_eqb name none_name); reflexivity.
Qed.

Theorem direct_untranslated : forall m s, untranslated m s = true -> direct m s = Ok (compile_plain s).
Proof.
  intros m s Hu. unfold SchemaTr.direct.
  assert (subst_schemas m s = Ok s) as ->; [|reflexivity].
  induction s as [|i s IH]; [reflexivity|].
  unfold untranslated in *. cbn [forallb] in Hu. apply andb_prop in Hu as [H1 H2].
  destruct i as [t|x]; cbn [SchemaTr.subst_schemas]; rewrite (IH H2); [reflexivity|].
  unfold SchemaTr.target. destruct (r_map x); [|reflexivity].
  apply negb_true_iff in H1. rewrite (has_key_false _ _ H1). reflexivity.
Qed.

End P.
