(* C14 - what sort_tables_and_constraints (lemma prefix stc_) returns: the final candidate sort is a topological
   sort of the fixed edges plus the mutable edges that survived; it fails a second time exactly when there is a
   cycle of fixed edges and edges that no removable constraint covers *)
From Coq Require Import List NArith Bool Lia Permutation.
Import ListNotations.
From SAV.util Require Import Topo Cycles TopoProofs TopoCycle TopoExtra CyclesSound CyclesComplete CyclesExact.
From SAV.sql Require Import DDLOrder DDLOrderBase.

Section SortSpec.
Variable filt : fk -> option bool.
Variable tables : list table.

Definition first_edges : list edge := fixed tables ++ mutable0 filt tables.

(* edges of constraints that cannot be taken out: no removable constraint of the table refers to the
   same table *)
Definition unremovable (t : table) (f : fk) : bool :=
  dep_fk filt t f && negb (existsb (fun f' => N.eqb (fk_ref f') (fk_ref f)) (can_remove filt t)).
Definition stuck_edges : list edge :=
  flat_map (fun t => map (fk_edge t) (filter (unremovable t) (t_fks t))) tables.

Lemma In_stuck e : In e stuck_edges <->
  exists t f, In t tables /\ In f (t_fks t) /\ unremovable t f = true /\ e = fk_edge t f.
Proof. apply In_fk_edges. Qed.

(* a removable constraint covers its own edge, so an unremovable one has filter_fn(fkc) = False *)
Lemma unremovable_false t f : In f (t_fks t) -> unremovable t f = true -> is_false (filt f) = true.
Proof. intros Hf Hu. apply andb_true_iff in Hu. destruct Hu as [_ Hu]. apply negb_true_iff in Hu.
  destruct (is_false (filt f)) eqn:E; [reflexivity|]. rewrite <- Hu. apply existsb_exists. exists f.
  split; [|apply N.eqb_refl]. apply filter_In. rewrite E. auto. Qed.

Lemma stuck_in_mutable1 cyc : incl stuck_edges (mutable1 filt tables cyc).
Proof. intros e H. apply In_stuck in H. destruct H as [t [f [Ht [Hf [Hu ->]]]]].
  apply andb_true_iff in Hu. destruct Hu as [Hd Hn]. apply negb_true_iff in Hn.
  apply In_mutable1. exists t, f. repeat split; try assumption. unfold discarded. rewrite Hn. apply andb_false_r. Qed.

(* The two ways sort_tables_and_constraints can go: the first sort succeeds; or it fails, err.cycles is
   exactly the set of tables on a cycle, and the sort is repeated over the edges that were not discarded. *)
Lemma stc_cases (P : res (list node * list node * bool) -> Prop) :
  (forall o, sort first_edges (names tables) = Ok o -> P (Ok (o, [], false))) ->
  (forall cyc, sort first_edges (names tables) = Circular -> (forall x, In x cyc <-> on_cycle first_edges x) ->
     P match sort (fixed tables ++ mutable1 filt tables cyc) (names tables) with
       | Ok o => Ok (o, cyc, true) | Circular => Circular | OutOfFuel => OutOfFuel
       end) ->
  P (sort_tables_and_constraints filt tables).
Proof. unfold sort_tables_and_constraints, first_edges. intros H1 H2.
  destruct (sort (fixed tables ++ mutable0 filt tables) (names tables)) eqn:S1;
    [apply H1; reflexivity| |destruct (sort_never_out_of_fuel _ _ S1)].
  destruct (cycles_of_exact (fixed tables ++ mutable0 filt tables)) as [cyc [-> Hc]]. apply H2; [reflexivity|exact Hc]. Qed.

Theorem stc_never_fuel : sort_tables_and_constraints filt tables <> OutOfFuel.
Proof. apply stc_cases; [discriminate|]. intros cyc _ _.
  destruct (sort _ (names tables)) eqn:S2; try discriminate. destruct (sort_never_out_of_fuel _ _ S2). Qed.

Theorem stc_ok o cyc w : sort_tables_and_constraints filt tables = Ok (o, cyc, w) ->
  sort (fixed tables ++ mutable1 filt tables cyc) (names tables) = Ok o /\
  (forall x, In x cyc -> on_cycle first_edges x) /\
  (w = false -> cyc = [] /\ sort first_edges (names tables) = Ok o) /\
  (w = true -> sort first_edges (names tables) = Circular).
Proof. pattern (sort_tables_and_constraints filt tables). apply stc_cases; cbv beta.
  - intros o' S1 [= <- <- <-]. rewrite mutable1_nil. split; [exact S1|]. split; [intros x []|].
    split; [auto|discriminate].
  - intros c S1 Hc. destruct (sort (fixed tables ++ mutable1 filt tables c) (names tables)) eqn:S2; try discriminate.
    intros [= <- <- <-]. split; [exact S2|]. split; [apply Hc|]. split; [discriminate|auto]. Qed.

Lemma stc_perm o cyc w : sort_tables_and_constraints filt tables = Ok (o, cyc, w) -> Permutation o (names tables).
Proof. intros Hs. exact (sort_perm _ _ _ (proj1 (stc_ok _ _ _ Hs))). Qed.

Lemma stc_nodup o cyc w : NoDup (names tables) -> sort_tables_and_constraints filt tables = Ok (o, cyc, w) -> NoDup o.
Proof. intros Hn Hs. exact (Permutation_NoDup (Permutation_sym (stc_perm _ _ _ Hs)) Hn). Qed.

Lemma stc_before_fixed o cyc w t p : sort_tables_and_constraints filt tables = Ok (o, cyc, w) ->
  In t tables -> In p (t_extra t) -> In p (names tables) -> before o p (t_name t).
Proof. intros Hs Ht Hp Hpn. apply (sort_order _ _ _ (proj1 (stc_ok _ _ _ Hs))); [|exact Hpn|apply in_map, Ht].
  apply in_or_app. left. apply In_fixed. exists t. auto. Qed.

Lemma stc_before_fk o cyc w t f : sort_tables_and_constraints filt tables = Ok (o, cyc, w) ->
  In t tables -> In f (t_fks t) -> dep_fk filt t f = true -> discarded filt tables cyc t f = false ->
  In (fk_ref f) (names tables) -> before o (fk_ref f) (t_name t).
Proof. intros Hs Ht Hf Hd Hdis Hr. apply (sort_order _ _ _ (proj1 (stc_ok _ _ _ Hs))); [|exact Hr|apply in_map, Ht].
  apply in_or_app. right. apply In_mutable1. exists t, f. auto. Qed.

Theorem stc_circular_iff : sort_tables_and_constraints filt tables = Circular <->
  exists w, cycle (fixed tables ++ stuck_edges) w /\ incl w (names tables).
Proof. split.
  - pattern (sort_tables_and_constraints filt tables). apply stc_cases; cbv beta; [discriminate|]. intros cyc _ Hc.
    destruct (sort (fixed tables ++ mutable1 filt tables cyc) (names tables)) eqn:S2; try discriminate.
    intros _. apply sort_circular_iff in S2. destruct S2 as [w [Hw Hi]]. exists w. split; [|exact Hi].
    (* every table on the second cycle was on a first one, hence hit: its surviving edges are stuck ones *)
    pose proof (cycle_on_cycle _ _ (cycle_incl _ _ _ Hw (incl_app_app (incl_refl _) (mutable1_incl filt tables cyc)))) as Hon.
    apply (cycle_mono _ _ _ Hw). intros y c He Hcw _. rewrite in_app_iff in *. destruct He as [He|He]; [left; exact He|right].
    apply In_mutable1 in He. destruct He as [t [f [Ht [Hf [Hd [Hdis Hee]]]]]].
    apply In_stuck. exists t, f. repeat split; try assumption. unfold unremovable. rewrite Hd.
    assert (Hh : hit filt tables cyc t = true).
    { eapply hit_of_edge; try eassumption. apply Hc, Hon. inversion Hee; subst. exact Hcw. }
    unfold discarded in Hdis. rewrite Hh in Hdis. simpl in *. rewrite Hdis. reflexivity.
  - (* a cycle of fixed and stuck edges survives in both sorts *)
    intros H.
    assert (S : forall cyc, sort (fixed tables ++ mutable1 filt tables cyc) (names tables) = Circular).
    { intros cyc. apply sort_circular_iff. revert H. apply has_cycle_mono; [|apply incl_refl].
      apply incl_app_app; [apply incl_refl|apply stuck_in_mutable1]. }
    apply stc_cases.
    + intros o S1. unfold first_edges in S1. rewrite <- mutable1_nil, S in S1. discriminate.
    + intros cyc _ _. rewrite S. reflexivity. Qed.
Theorem explicit_cycle_raises : (exists w, cycle (fixed tables) w /\ incl w (names tables)) ->
  sort_tables_and_constraints filt tables = Circular.
Proof. rewrite stc_circular_iff. apply has_cycle_mono; [apply incl_appl|]; apply incl_refl. Qed.
End SortSpec.
