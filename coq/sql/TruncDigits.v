(* C21 - the list facts the Trunc* proofs share; the positional rendering of counters (hex(n)[2:], str(n));
   slicing and string length *)
From Coq Require Import List NArith ZArith Bool Lia.
Import ListNotations.
From SAV.sql Require Import Trunc.

Local Open Scope N_scope.

Lemma map_inj {A B} : forall f : A -> B, (forall a b, f a = f b -> a = b) ->
  forall l m, map f l = map f m -> l = m.
Proof.
  intros f Hf. induction l as [|x l IH]; intros [|y m] [=]; [reflexivity|]. f_equal; auto.
Qed.

(* body ++ "_" ++ digits splits in one way only: were the bodies of different lengths, the separator
   of the shorter would lie among the digits of the other *)
Lemma split_last_sep : forall (c : N) (d1 d2 : str), ~ In c d1 -> ~ In c d2 ->
  forall b1 b2, b1 ++ [c] ++ d1 = b2 ++ [c] ++ d2 -> b1 = b2 /\ d1 = d2.
Proof.
  intros c d1 d2 H1 H2. induction b1 as [|x b1 IH]; intros [|y b2]; cbn; intros [=]; subst.
  - auto.
  - destruct H1. apply in_elt.
  - destruct H2. apply in_elt.
  - edestruct IH as [-> ->]; eauto.
Qed.

Lemma app_inv_len : forall (a b c d : str), length a = length b -> a ++ c = b ++ d -> a = b /\ c = d.
Proof.
  induction a as [|x a IH]; intros [|y b] c d Hl H; cbn in *; try discriminate; auto.
  inversion H. subst. destruct (IH b c d) as [-> ->]; auto.
Qed.

Definition dval (b : N) (l : list N) : N := fold_left (fun a d => a * b + d) l 0.

Lemma dval_app1 : forall b l d, dval b (l ++ [d]) = dval b l * b + d.
Proof. intros. unfold dval. rewrite fold_left_app. reflexivity. Qed.

Lemma digits_fuel_acc : forall b f n acc, digits_fuel b f n acc = digits_fuel b f n [] ++ acc.
Proof.
  induction f as [|f IH]; intros n acc; cbn [digits_fuel].
  - reflexivity.
  - destruct (n / b =? 0).
    + reflexivity.
    + rewrite (IH _ (n mod b :: acc)), (IH _ [n mod b]). rewrite <- app_assoc. reflexivity.
Qed.

Lemma div_lt_iff : forall n b q, b <> 0 -> n / b < q <-> n < b * q.
Proof.
  intros n b q Hb. split; intro H; [|apply N.div_lt_upper_bound; assumption].
  apply N.lt_le_trans with (1 := N.mul_succ_div_gt n b Hb), N.mul_le_mono_l. lia.
Qed.

(* The digits of n by repeated division, as a relation.  [digits] computes it (digits_graph: the only
   place where the fuel is looked at); what follows is by induction over the relation. *)
Inductive digits_of (b : N) : N -> list N -> Prop :=
| digits_last n : n / b = 0 -> digits_of b n [n mod b]
| digits_more n l : n / b <> 0 -> digits_of b (n / b) l -> digits_of b n (l ++ [n mod b]).

Lemma fuel_enough : forall n, n < 2 ^ N.of_nat (S (N.to_nat (N.log2 n))).
Proof.
  intros n. rewrite Nat2N.inj_succ, N2Nat.id. destruct (N.eq_dec n 0) as [->|Hn].
  - reflexivity.
  - apply N.log2_spec. lia.
Qed.

Lemma digits_graph : forall b n, 2 <= b -> digits_of b n (digits b n).
Proof.
  intros b n Hb. unfold digits. generalize (fuel_enough n). generalize (N.to_nat (N.log2 n)) as f.
  intros f. revert n. induction f as [|f IH]; intros n Hn;
    change (digits_fuel b (S ?f) n []) with
      (if n / b =? 0 then [n mod b] else digits_fuel b f (n / b) [n mod b]);
    destruct (N.eqb_spec (n / b) 0) as [E|E]; try (apply digits_last; exact E).
  - destruct E. apply N.div_small. change (n < 2) in Hn. lia.
  - (* one division by b >= 2 at least halves n: n < 2 * 2^f <= b * 2^f *)
    rewrite digits_fuel_acc. apply digits_more, IH, div_lt_iff; try lia.
    rewrite Nat2N.inj_succ, N.pow_succ_r' in Hn.
    apply N.lt_le_trans with (1 := Hn), N.mul_le_mono_r, Hb.
Qed.

Lemma digits_value : forall b n, 2 <= b -> dval b (digits b n) = n.
Proof.
  intros b n Hb. induction (digits_graph b n Hb) as [n E|n l E _ IH];
    pose proof (N.div_mod n b ltac:(lia)) as D.
  - rewrite E in D. cbn. lia.
  - rewrite dval_app1, IH. lia.
Qed.
Lemma digits_range : forall b n, 2 <= b -> Forall (fun d => d < b) (digits b n).
Proof.
  intros b n Hb. induction (digits_graph b n Hb) as [n E|n l E _ IH];
    [|apply Forall_app; split; [exact IH|]]; repeat constructor; apply N.mod_lt; lia.
Qed.

Lemma digits_inj : forall b n m, 2 <= b -> digits b n = digits b m -> n = m.
Proof. intros b n m Hb H. rewrite <- (digits_value b n Hb), <- (digits_value b m Hb), H. reflexivity. Qed.

Lemma digits_of_len_ge1 : forall b n l, digits_of b n l -> (1 <= length l)%nat.
Proof. destruct 1; rewrite ?app_length; cbn; lia. Qed.
Lemma digits_len_ge1 : forall b n, 2 <= b -> (1 <= length (digits b n))%nat.
Proof. intros b n Hb. exact (digits_of_len_ge1 _ _ _ (digits_graph b n Hb)). Qed.

(* k = 0 is left out: 0 is written "0" *)
Lemma digits_len_le_iff : forall b n k, 2 <= b -> (1 <= k)%nat ->
  (length (digits b n) <= k)%nat <-> n < b ^ N.of_nat k.
Proof.
  intros b n k Hb. revert k.
  induction (digits_graph b n Hb) as [n E|n l E G IH]; intros k Hk;
    rewrite N.div_small_iff in E by lia.
  - pose proof (N.pow_le_mono_r b 1 (N.of_nat k) ltac:(lia) ltac:(lia)) as P.
    rewrite N.pow_1_r in P. cbn [length]. lia.
  - rewrite app_length. cbn [length]. destruct k as [|[|k]]; [lia| |].
    + apply digits_of_len_ge1 in G. change (N.of_nat 1) with 1. rewrite N.pow_1_r. lia.
    + rewrite (Nat2N.inj_succ (S k)), N.pow_succ_r', <- div_lt_iff, <- IH by lia. lia.
Qed.

Lemma hexchar_inj : forall a b, hexchar a = hexchar b -> a = b.
Proof. intros a b. unfold hexchar. destruct (N.ltb_spec a 10), (N.ltb_spec b 10); lia. Qed.
Lemma hexchar_not_us : forall a, a < 16 -> hexchar a <> underscore.
Proof. intros a Ha. unfold hexchar, underscore. destruct (N.ltb_spec a 10); lia. Qed.
Lemma decchar_inj : forall a b, decchar a = decchar b -> a = b.
Proof. unfold decchar. intros. lia. Qed.
Lemma decchar_not_us : forall a, a < 10 -> decchar a <> underscore.
Proof. unfold decchar, underscore. intros. lia. Qed.

(* hex(n)[2:]; the model and props/C21.v write it slice_from (py_hex n) hex_skip, which is convertible (hex_skip_ok) *)
Definition hexs (n : N) : str := map hexchar (digits 16 n).

Lemma hexs_inj : forall n m, hexs n = hexs m -> n = m.
Proof. intros n m H. apply (digits_inj 16); [lia|]. exact (map_inj _ hexchar_inj _ _ H). Qed.
Lemma hexs_len : forall n, length (hexs n) = length (digits 16 n).
Proof. intros. apply map_length. Qed.
Lemma py_dec_inj : forall n m, py_dec n = py_dec m -> n = m.
Proof. intros n m H. apply (digits_inj 10); [lia|]. exact (map_inj _ decchar_inj _ _ H). Qed.
Lemma py_dec_no_us : forall n, ~ In underscore (py_dec n).
Proof.
  intros n H. apply in_map_iff in H. destruct H as (d & Hd & Hin).
  pose proof (digits_range 10 n ltac:(lia)) as Hr. rewrite Forall_forall in Hr.
  apply (decchar_not_us d); auto.
Qed.

Lemma hex_skip_ok : forall n, slice_from (py_hex n) hex_skip = hexs n.
Proof. intros. reflexivity. Qed.

Local Open Scope Z_scope.

Lemma slen_app : forall a b : str, slen (a ++ b) = slen a + slen b.
Proof. intros. unfold slen. rewrite app_length. lia. Qed.
Lemma slen_nonneg : forall s, 0 <= slen s.
Proof. intros. unfold slen. lia. Qed.

Lemma slice_to_len_nonneg : forall s e, 0 <= e -> slen (slice_to s e) = Z.min e (slen s).
Proof. intros s e He. unfold slice_to, slen. destruct (Z.ltb_spec e 0); rewrite firstn_length; lia. Qed.
Lemma slice_to_len_neg : forall s e, e < 0 -> slen (slice_to s e) = Z.max (slen s + e) 0.
Proof. intros s e He. unfold slice_to, slen. destruct (Z.ltb_spec e 0); rewrite firstn_length; lia. Qed.
Lemma slice_from_len_neg : forall s b, b < 0 -> slen (slice_from s b) = Z.min (slen s) (- b).
Proof. intros s b Hb. unfold slice_from, slen. destruct (Z.ltb_spec b 0); rewrite skipn_length; lia. Qed.
