(* C15: engine/reflection.py _ReflectionInfo.update - the merge that runs when a table is reflected only
   because another table's foreign key points at it (Table(child, autoload_with=...) pulling in the parent,
   MetaData.reflect(only=[...])).  A _ReflectionInfo has one dict (table key -> reflected data) per category;
   an optional category may be None.  [merged] is the set of categories the update loop visits - extracted
   from the source on every run; the theorem holds when it is all of them. *)
From Coq Require Import List NArith Bool Arith Lia.
Import ListNotations.
Open Scope N_scope.

Definition dict := list (N * N).                       (* table key -> (an identifier of) the reflected data *)
Definition info := N -> option dict.                   (* category index -> its dict, None for a missing optional one *)
Fixpoint dget (d : dict) (k : N) : option N :=
  match d with [] => None | (k', v) :: r => if k =? k' then Some v else dget r k end.
(* dict.update(other): the other's entries win *)
Definition dupdate (a b : dict) : dict := b ++ a.
Definition merge_field (v ov : option dict) : option dict :=
  match ov with
  | None => v
  | Some o => match v with None => Some o | Some d => Some (dupdate d o) end
  end.
Definition memN' (c : N) (l : list N) : bool := existsb (N.eqb c) l.
Definition update (merged : list N) (self other : info) : info :=
  fun f => if memN' f merged then merge_field (self f) (other f) else self f.
Definition lookup (i : info) (f k : N) : option N :=
  match i f with Some d => dget d k | None => None end.

Lemma dget_app : forall a b k, dget (b ++ a) k = match dget b k with Some v => Some v | None => dget a k end.
Proof.
  intros a b k. induction b as [|[k' v] b IH]; cbn [app dget]; [reflexivity|].
  destruct (k =? k'); [reflexivity|exact IH].
Qed.

Lemma update_field : forall merged self other f k, memN' f merged = true ->
  lookup (update merged self other) f k =
  match lookup other f k with Some v => Some v | None => lookup self f k end.
Proof.
  intros merged self other f k Hf. unfold lookup, update. rewrite Hf.
  unfold merge_field. destruct (other f) as [o|]; [|reflexivity].
  destruct (self f) as [d|]; [apply dget_app|destruct (dget o k); reflexivity].
Qed.

(* after the merge every category knows everything either side knew - the data of the pulled-in table included *)
Theorem update_complete : forall merged nfields, (forall f, f < nfields -> memN' f merged = true) ->
  forall self other f k, f < nfields ->
  lookup (update merged self other) f k =
  match lookup other f k with Some v => Some v | None => lookup self f k end.
Proof. intros merged nfields Hall self other f k Hf. apply update_field, Hall, Hf. Qed.

(* REFUTED when a category is left out: its data of the pulled-in table is lost (category 4 = unique_constraints) *)
Theorem update_missing_category_refuted :
  let self := fun f => Some [(1, 10 + f)] in
  let other := fun f => Some [(2, 20 + f)] in
  lookup (update [0; 1; 2; 3; 5; 6; 7; 8] self other) 4 2 = None /\
  lookup (update [0; 1; 2; 3; 4; 5; 6; 7; 8] self other) 4 2 = Some 24.
Proof. vm_compute. split; reflexivity. Qed.

(* the hypothesis of update_complete in executable form, for the per-run obligation over the extracted categories *)
Definition all_below (n : N) (merged : list N) : bool :=
  forallb (fun f => memN' f merged) (map N.of_nat (seq 0 (N.to_nat n))).
Lemma all_below_spec : forall n merged, all_below n merged = true -> forall f, f < n -> memN' f merged = true.
Proof.
  intros n merged H f Hf. unfold all_below in H. rewrite forallb_forall in H. apply H.
  apply in_map_iff. exists (N.to_nat f). split; [apply N2Nat.id|]. apply in_seq. lia.
Qed.
