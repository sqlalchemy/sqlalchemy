(* C11 - proofs about the compiler side: one result-map entry per selected column, carrying the column
   object unless the column is a repeat of an earlier equal column *)
From Coq Require Import List NArith Bool Arith Lia.
Import ListNotations.
From SAV.sql Require Import ResultMap ResultMapDict ResultMapKeymapProofs ResultMapModeProofs.

Lemma allnames_intro : forall c n,
  (exists t, d_tq c = Some (n, t)) \/ (exists t, d_nonanon c = Some (n, t)) \/ d_exprlabel c = Some n \/
  In n (anonnames c) -> In n (allnames c).
Proof.
  intros c n H. unfold allnames, effnames. rewrite !in_app_iff.
  destruct H as [(t & ->)|[(t & ->)|[->|H]]]; cbn; auto 6.
Qed.

(* What one iteration of _generate_columns_plus_names does to [names], and when it reports a repeat.
   Every branch leaves [names] alone or binds one of c's names to c's hash; [repeated] is set only after a
   name with c's hash, or one of c's anonymous names, was found in [names]. *)
Lemma cpn_step_spec : forall st afd names dh c s' p, cpn_step st afd (names, dh) c = (s', p) ->
  (fst s' = names \/ exists n, In n (allnames c) /\ fst s' = dset nm_eqb n (d_hash c) names) /\
  (p_repeated p = true ->
   (exists n h, dget nm_eqb names n = Some h /\ N.eqb h (d_hash c) = true) \/
   (exists r, In r (anonnames c) /\ nmem names r = true)).
Proof.
  intros st afd names dh c s' p H. unfold cpn_step in H.
  (* the two labelling styles differ only in which attribute is the effective name ([eff0]) and which
     anonymous label is the fallback ([r]); with these abstract, both styles are the same term *)
  set (tq := match st with StTable => true | _ => false end) in H. clearbody tq. cbv zeta in H.
  set (r := if tq then d_anon_tq c else d_anon_name c) in H.
  assert (Hr : In r (anonnames c)) by (subst r; destruct tq; cbn; auto). clearbody r.
  assert (Hall : forall n, In n (anonnames c) -> In n (allnames c)) by (intros; apply allnames_intro; auto).
  set (eff0 := if tq then d_tq c else d_nonanon c).
  assert (He0 : forall en t, eff0 = Some (en, t) -> In en (allnames c)).
  { intros en t E. apply allnames_intro. subst eff0. destruct tq; eauto. }
  replace (if tq then (d_tq c, d_tq c, d_tq c) else (d_nonanon c, None, d_nonanon c))
    with (eff0, if tq then d_tq c else None, eff0) in H by (subst eff0; now destruct tq).
  clearbody eff0.
  assert (Ha : In (d_anon_name c) (anonnames c)) by now left.
  (* first part of the loop body: an effective name that is a name of c and nothing else happens, or
     no effective name and the anonymous name is bound; the de-duplication on the effective name follows *)
  set (T := if negb (d_render c) then _ else _) in H.
  assert (C1 : let '(names1, _, eff, _, _, rep1) := T in
               names1 = names /\ rep1 = false /\ (forall en t, eff = Some (en, t) -> In en (allnames c)) \/
               eff = None /\ names1 = dset nm_eqb (d_anon_name c) (d_hash c) names /\
               (rep1 = true -> nmem names (d_anon_name c) = true)).
  { subst T. clear H. destruct (d_render c); cbn [negb]; [destruct st|].
    2,3: destruct eff0 as [[en t]|];
      [|destruct (d_exprlabel c) as [e|] eqn:Eel; [|destruct (nmem names (d_anon_name c)) eqn:Em]].
    all: try (right; now auto); left; repeat split; intros en' t' [= <- <-]; eauto.
    all: apply allnames_intro; auto. }
  destruct T as [[[[[names1 dh1] eff] req] fb] rep1].
  destruct C1 as [(-> & -> & He)|(-> & -> & Hrep)].
  - destruct eff as [[en t]|].
    + specialize (He en t eq_refl).
      destruct (dget nm_eqb names en) as [h|] eqn:Eg;
        [destruct (N.eqb h (d_hash c)) eqn:Eh; cbn [negb] in H; [destruct afd|destruct (afd && nmem names r) eqn:Em]|];
        injection H as <- <-; cbn [fst p_repeated].
      * split; [now left|intros _; left; eauto].
      * split; [now left|discriminate].
      * apply andb_true_iff in Em as [_ Em]. split; [now left|intros _; right; eauto].
      * split; [right; eauto|discriminate].
      * split; [right; eauto|discriminate].
    + injection H as <- <-. split; [now left|discriminate].
  - injection H as <- <-. split; [right; eauto|intros Ht; right; eauto].
Qed.

Lemma cpn_step_col : forall st afd s c,
  p_col (snd (cpn_step st afd s c)) = c /\ p_proxy (snd (cpn_step st afd s c)) = d_proxy c.
Proof.
  intros st afd [names dh] c. unfold cpn_step.
  repeat match goal with |- context [let '(_, _) := ?x in _] => destruct x end. now split.
Qed.

Lemma cpn_loop_length : forall st afd cols s, length (cpn_loop st afd s cols) = length cols.
Proof.
  induction cols as [|c r IH]; intros s; cbn [cpn_loop]; [reflexivity|].
  destruct (cpn_step st afd s c) as [s' p]. cbn [length]. now rewrite IH.
Qed.

Lemma cpn_loop_nth : forall st afd cols s i p, nth_error (cpn_loop st afd s cols) i = Some p ->
  nth_error cols i = Some (p_col p) /\ p_proxy p = d_proxy (p_col p).
Proof.
  induction cols as [|c r IH]; intros s i p H; cbn [cpn_loop] in H.
  - destruct i; discriminate.
  - destruct (cpn_step_col st afd s c) as [Hc Hp]. destruct (cpn_step st afd s c) as [s' p0].
    destruct i as [|i]; cbn [nth_error snd] in *; [|exact (IH _ _ _ H)].
    injection H as <-. now rewrite Hc, Hp.
Qed.

(* every name bound in [names] is a name of an earlier column, bound to that column's hash *)
Definition names_ok (done : list cdesc) (names : names_t) : Prop :=
  forall n h, dget nm_eqb names n = Some h -> exists c', In c' done /\ d_hash c' = h /\ In n (allnames c').

Lemma cpn_step_inv : forall st afd done s c s' p,
  cpn_step st afd s c = (s', p) -> names_ok done (fst s) ->
  (forall c' n, In c' done -> In n (anonnames c) -> In n (allnames c') -> d_hash c' = d_hash c) ->
  names_ok (done ++ [c]) (fst s') /\
  (p_repeated p = true -> exists c', In c' done /\ d_hash c' = d_hash c).
Proof.
  intros st afd done [names dh] c s' p H Hok Hfr. apply cpn_step_spec in H as [Hn Hrep]. split.
  - intros n h E.
    assert (Hold : dget nm_eqb names n = Some h ->
                   exists c', In c' (done ++ [c]) /\ d_hash c' = h /\ In n (allnames c')).
    { intros E'. destruct (Hok n h E') as (c' & Hc & Hh). exists c'. split; [apply in_or_app; now left|exact Hh]. }
    destruct Hn as [Hn|(n0 & Hn0 & Hn)]; rewrite Hn in E; [exact (Hold E)|].
    rewrite (dget_dset nm_eqb nm_eqb_eq) in E. destruct (nm_eqb n n0) eqn:En; [|exact (Hold E)].
    apply nm_eqb_eq in En. subst n0. injection E as <-. exists c. split; [apply in_or_app; right; now left|auto].
  - intros Ht. destruct (Hrep Ht) as [(n & h & Hg & Hh)|(r & Hr & Hm)].
    + destruct (Hok _ _ Hg) as (c' & Hc & Hh' & _). apply N.eqb_eq in Hh. exists c'. split; congruence.
    + unfold nmem, dmem in Hm. destruct (dget nm_eqb names r) as [h|] eqn:Hg; [|discriminate].
      destruct (Hok _ _ Hg) as (c' & Hc & _ & Hn'). exists c'. split; [assumption|exact (Hfr c' r Hc Hr Hn')].
Qed.

Lemma cpn_loop_repeated : forall st afd cols done s,
  anon_labels_private (done ++ cols) -> names_ok done (fst s) ->
  forall i p, nth_error (cpn_loop st afd s cols) i = Some p -> p_repeated p = true ->
  exists c', d_hash c' = d_hash (p_col p) /\ (In c' done \/ exists j, j < i /\ nth_error cols j = Some c').
Proof.
  intros st afd. induction cols as [|c r IH]; intros done s Hpriv Hok i p H Hrep; cbn [cpn_loop] in H.
  - destruct i; discriminate.
  - destruct (cpn_step_col st afd s c) as [Hcol _]. destruct (cpn_step st afd s c) as [s' p0] eqn:E.
    destruct (cpn_step_inv st afd done s c s' p0 E Hok) as [Hok' Hr0].
    { intros c' n Hc' Hn Ha. apply (Hpriv c c' n); auto; apply in_or_app; [right|left]; auto using in_eq. }
    destruct i as [|i]; cbn [nth_error snd] in *.
    + injection H as <-. rewrite Hcol. destruct (Hr0 Hrep) as (c' & Hin & Hh). eauto.
    + destruct (IH (done ++ [c]) s') with (i := i) (p := p) as (c' & Hh & Hin); try assumption.
      { now rewrite <- app_assoc. }
      exists c'. split; [assumption|]. destruct Hin as [Hin|(j & Hj & Hn)].
      * apply in_app_or in Hin as [Hin|[<-|[]]]; [now left|]. right. exists 0. split; [lia|reflexivity].
      * right. exists (S j). split; [lia|exact Hn].
Qed.

Theorem repeated_has_earlier_equal : forall st afd cols i p,
  anon_labels_private cols ->
  nth_error (gen_cpn st afd cols) i = Some p -> p_repeated p = true ->
  exists j c', j < i /\ nth_error cols j = Some c' /\ d_hash c' = d_hash (p_col p).
Proof.
  intros st afd cols i p Hpriv H Hrep.
  destruct (cpn_loop_repeated st afd cols [] ([], 1%N) Hpriv) with (i := i) (p := p)
    as (c' & Hh & [[]|(j & Hj & Hn)]); try assumption; [intros n h E; discriminate|eauto].
Qed.

Theorem every_identity_has_carrier : forall st afd cols, anon_labels_private cols ->
  forall i c, nth_error cols i = Some c ->
  exists j c' p', j <= i /\ nth_error cols j = Some c' /\ d_hash c' = d_hash c /\
                 nth_error (gen_cpn st afd cols) j = Some p' /\ p_col p' = c' /\ p_repeated p' = false.
Proof.
  intros st afd cols Hpriv i. induction i as [i IH] using lt_wf_ind. intros c Hc.
  assert (Hlen : i < length (gen_cpn st afd cols)).
  { unfold gen_cpn. rewrite cpn_loop_length. apply nth_error_Some. congruence. }
  destruct (nth_error (gen_cpn st afd cols) i) as [p|] eqn:Ep; [|apply nth_error_None in Ep; lia].
  destruct (cpn_loop_nth _ _ _ _ _ _ Ep) as [Hcol _]. rewrite Hc in Hcol. injection Hcol as Hcol.
  destruct (p_repeated p) eqn:Er.
  - destruct (repeated_has_earlier_equal st afd cols i p Hpriv Ep Er) as (j & c' & Hj & Hn & Hh).
    destruct (IH j Hj c' Hn) as (j' & c'' & p' & Hle & Hn' & Hh' & Hp' & Hcp & Hr').
    exists j', c'', p'. repeat split; try assumption; [lia|congruence].
  - exists i, c, p. repeat split; auto.
Qed.

(* every key under which an entry can end up in the keymap *)
Definition rc_keys (e : rc) : list key := rc_name e :: rc_keyname e :: rc_objs e.

Section LSC.
  Variable resolve : nm -> nm.

  Lemma visit_label_KO : forall lobj name alt x,
    In (KO x) (rc_keys (visit_label resolve lobj name alt)) -> x = lobj \/ In (KO x) alt.
  Proof. intros lobj name alt x H. cbn in H. intuition congruence. Qed.

  Lemma visit_text_KO : forall c x, In (KO x) (rc_keys (visit_text c)) -> x = d_obj c.
  Proof. intros c x H. cbn in H. intuition congruence. Qed.

  Lemma visit_column_KO : forall c x,
    In (KO x) (rc_keys (visit_column resolve c)) -> x = d_obj c \/ KO x = d_key c.
  Proof.
    intros c x. unfold visit_column.
    destruct (d_name c) as [[n tr]|]; [destruct (d_tq c) as [[t tt]|]|]; cbn; intuition congruence.
  Qed.

  (* _label_select_column builds one of four entries - the text clause's, the column's, the Label's own, or
     that of a _CompileLabel around the column - and for a repeated column replaces its targets by the key name *)
  Lemma lsc_shape : forall asfrom cl p,
    exists e, label_select_column resolve asfrom cl p =
                (if p_repeated p
                 then {| rc_keyname := rc_keyname e; rc_name := rc_name e; rc_objs := [rc_keyname e] |} else e) /\
      (e = visit_text (p_col p) \/ e = visit_column resolve (p_col p) \/
       (exists n, e = visit_label resolve (d_obj (p_col p)) n []) \/
       exists n alt, e = visit_label resolve cl n (KO (d_obj (p_col p)) :: p_proxy p :: alt) /\
                     incl alt [kopt (d_tq (p_col p))]).
  Proof.
    intros asfrom cl p. unfold label_select_column. eexists. split; [reflexivity|].
    destruct (d_cls (p_col p)); cbv iota;
      [destruct (d_name (p_col p)) as [n|]; [right; right; left; now exists n|now left]
      |destruct (p_required p) as [n|];
       [right; right; right; exists n, [kopt (d_tq (p_col p))]; split; [reflexivity|apply incl_refl]|]..].
    - destruct (asfrom && negb (d_lit (p_col p)) && d_table (p_col p)); [|now (right; left)].
      right; right; right. eexists _, []. split; [reflexivity|intros k []].
    - now left.
    - right; right; right. eexists _, []. split; [reflexivity|intros k []].
  Qed.

  Lemma lsc_has_obj : forall asfrom cl p, p_repeated p = false ->
    In (KO (d_obj (p_col p))) (rc_objs (label_select_column resolve asfrom cl p)).
  Proof.
    intros asfrom cl p Hr. destruct (lsc_shape asfrom cl p) as (e & -> & He). rewrite Hr.
    destruct He as [->|[->|[(n & ->)|(n & alt & -> & _)]]]; try (cbn; tauto).
    unfold visit_column. destruct (d_name (p_col p)) as [[n tr]|]; now left.
  Qed.

  Lemma lsc_KO : forall asfrom cl p x, is_obj (d_key (p_col p)) = false -> is_obj (p_proxy p) = false ->
    let e := label_select_column resolve asfrom cl p in
    In (KO x) (rc_name e :: rc_keyname e :: rc_objs e) -> x = d_obj (p_col p) \/ x = cl.
  Proof.
    intros asfrom cl p x Hk Hp e H. subst e. destruct (lsc_shape asfrom cl p) as (e & E & He). rewrite E in H.
    assert (H' : In (KO x) (rc_keys e)) by (destruct (p_repeated p); [cbn in H |- *; tauto|exact H]).
    destruct He as [->|[->|[(n & ->)|(n & alt & -> & Ha)]]].
    - left. exact (visit_text_KO _ _ H').
    - apply visit_column_KO in H' as [->|Ex]; [now left|]. rewrite <- Ex in Hk. discriminate.
    - apply visit_label_KO in H' as [->|[]]. now left.
    - apply visit_label_KO in H' as [->|[Ex|[Ex|Ex]]].
      + now right.
      + left. congruence.
      + rewrite Ex in Hp. discriminate.
      + apply Ha in Ex as [Ex|[]]. destruct (d_tq (p_col p)) as [[t tt]|]; discriminate.
  Qed.

  Lemma lsc_loop_length : forall asfrom ps cl, length (lsc_loop resolve asfrom cl ps) = length ps.
  Proof. induction ps as [|p r IH]; intros cl; cbn; [reflexivity|now rewrite IH]. Qed.

  Lemma lsc_loop_nth : forall asfrom ps cl i,
    nth_error (lsc_loop resolve asfrom cl ps) i =
    option_map (label_select_column resolve asfrom (cl + N.of_nat i)%N) (nth_error ps i).
  Proof.
    induction ps as [|p r IH]; intros cl i; destruct i as [|i]; cbn [lsc_loop nth_error option_map]; try reflexivity.
    - now rewrite N.add_0_r.
    - rewrite IH. do 2 f_equal. lia.
  Qed.

  Lemma lsc_loop_nth_inv : forall asfrom ps cl i e, nth_error (lsc_loop resolve asfrom cl ps) i = Some e ->
    exists p, nth_error ps i = Some p /\ e = label_select_column resolve asfrom (cl + N.of_nat i)%N p.
  Proof.
    intros asfrom ps cl i e H. rewrite lsc_loop_nth in H.
    destruct (nth_error ps i) as [p|]; [|discriminate]. injection H as <-. eauto.
  Qed.

  Lemma add_flags_textual : forall rcs f, f_textual_ordered (fold_left add_flags rcs f) = f_textual_ordered f.
  Proof.
    induction rcs as [|e r IH]; intros f; cbn [fold_left]; [reflexivity|]. rewrite IH.
    unfold add_flags. destruct (rc_keyname e) as [|[a|]|]; try reflexivity. destruct (N.eqb a a_star); reflexivity.
  Qed.

  Theorem select_entry_per_column : forall st cols,
    length (fst (compile_select resolve st cols)) = length cols.
  Proof. intros. unfold compile_select. cbn [fst]. rewrite lsc_loop_length. unfold gen_cpn. apply cpn_loop_length. Qed.

  Theorem select_entry_has_object : forall st cols i c p,
    nth_error cols i = Some c -> nth_error (gen_cpn st true cols) i = Some p -> p_repeated p = false ->
    exists e, nth_error (fst (compile_select resolve st cols)) i = Some e /\ In (KO (d_obj c)) (rc_objs e).
  Proof.
    intros st cols i c p Hc Hp Hr. unfold compile_select. cbn [fst]. rewrite lsc_loop_nth, Hp.
    eexists. split; [reflexivity|].
    destruct (cpn_loop_nth _ _ _ _ _ _ Hp) as [Hcol _]. rewrite Hc in Hcol. injection Hcol as ->.
    now apply lsc_has_obj.
  Qed.

  Theorem select_lookup_by_column_object : forall st cols desc tr i c p,
    nth_error cols i = Some c ->
    (forall j c', nth_error cols j = Some c' -> d_obj c' = d_obj c -> j = i) ->
    (forall c', In c' cols -> (d_obj c' < cl_base)%N /\ is_obj (d_key c') = false /\ is_obj (d_proxy c') = false) ->
    nth_error (gen_cpn st true cols) i = Some p -> p_repeated p = false ->
    f_ordered (snd (compile_select resolve st cols)) = true -> length desc = length cols ->
    exists md, build (fst (compile_select resolve st cols)) (snd (compile_select resolve st cols)) desc tr = Ok md /\
               lookup (md_keymap md) (KO (d_obj c)) = Ok i.
  Proof.
    intros st cols desc tr i c p Hc Honce Hwf Hp Hr Hord Hlen.
    pose proof (select_entry_per_column st cols) as Hn.
    destruct (select_entry_has_object st cols i c p Hc Hp Hr) as (e & He & Hobj).
    set (rcs := fst (compile_select resolve st cols)) in *.
    set (fl := snd (compile_select resolve st cols)) in *.
    eexists. split.
    { apply build_positional; [intros H0; rewrite H0 in He; destruct i; discriminate|assumption| |congruence].
      subst fl. unfold compile_select. cbn [snd]. now rewrite add_flags_textual. }
    cbn [md_keymap].
    apply (lookup_by_object rcs tr i e); [assumption|now right|].
    intros j e' Hj Hk. subst rcs. unfold compile_select in Hj. cbn [fst] in Hj.
    apply lsc_loop_nth_inv in Hj as (p' & Hp' & ->). destruct (cpn_loop_nth _ _ _ _ _ _ Hp') as [Hcol Hpx].
    destruct (Hwf _ (nth_error_In _ _ Hcol)) as (Hlt & Hk1 & Hk2). rewrite <- Hpx in Hk2.
    destruct (lsc_KO false (cl_base + N.of_nat j)%N p' (d_obj c) Hk1 Hk2 Hk) as [Hx|Hx].
    - apply (Honce j (p_col p') Hcol). congruence.
    - exfalso. destruct (Hwf c (nth_error_In _ _ Hc)) as (Hlt' & _). lia.
  Qed.
End LSC.
