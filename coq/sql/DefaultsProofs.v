(* C13 - one parameter set: construct_params, _process_execute_defaults, the stored row.
   [fire] is read through one equation per column ([fire_cons]): a prefetch column writes [dval], the value of
   its default, and bumps the counter of its callable; everything else follows from that equation. *)
From Coq Require Import List ZArith Bool PeanoNat.
Import ListNotations.
From SAV.sql Require Import Defaults.
Open Scope Z_scope.

Definition is_prefetch (s : slot) : bool := match s with SPrefetch => true | _ => false end.
Definition is_bind (s : slot) : bool := match s with SBind => true | _ => false end.
(* keys _process_execute_defaults writes *)
Definition touched (p0 : pset) (cols : list col) (k : nat) : bool :=
  existsb (fun c => Nat.eqb (ckey c) k && is_prefetch (plan_col p0 c)) cols.
Definition uses (p0 : pset) (f : nat) (c : col) : bool :=
  is_prefetch (plan_col p0 c) && match fn_of c with Some f' => Nat.eqb f f' | None => false end.
(* the second conjunct of [uses], and what firing column [c] does to the counters *)
Definition calls_fn (f : nat) (c : col) : bool := match fn_of c with Some f' => Nat.eqb f f' | None => false end.
Definition bump_fn (c : col) (cs : calls) : calls := match fn_of c with Some f => bump f cs | None => cs end.
Definition fn_count (c : col) (cs : calls) : nat :=
  match fn_of c with Some f => count f cs | None => O end.
(* [p0] decided the statement, [p] is this row's parameter set, with the same key set on the columns *)
Definition keys_agree (cols : list col) (p0 p : pset) : Prop :=
  forall c, In c cols -> has (ckey c) p = has (ckey c) p0.

Lemma get_set_same : forall k v p, has k p = true -> get k (set k v p) = Some v.
Proof.
  induction p as [|[k' v'] p IH]; intros H; [discriminate H|].
  unfold has in *. cbn [get set] in *. destruct (Nat.eqb k k') eqn:E; cbn [get]; rewrite E; [reflexivity|apply IH, H].
Qed.
Lemma get_set_other : forall k k' v p, k <> k' -> get k (set k' v p) = get k p.
Proof.
  induction p as [|[k2 v2] p IH]; intros H; [reflexivity|].
  cbn [set]. destruct (Nat.eqb_spec k' k2) as [<-|_]; cbn [get].
  - rewrite (proj2 (Nat.eqb_neq k k') H). reflexivity.
  - destruct (Nat.eqb k k2); [reflexivity|apply IH, H].
Qed.
Lemma has_set : forall k k' v p, has k (set k' v p) = has k p.
Proof.
  intros k k' v. induction p as [|[k2 v2] p IH]; [reflexivity|]. unfold has in *. cbn [set].
  destruct (Nat.eqb k' k2); cbn [get]; destruct (Nat.eqb k k2); auto.
Qed.

Lemma count_bump : forall f g cs, count f (bump g cs) = if Nat.eqb f g then S (count f cs) else count f cs.
Proof.
  induction cs as [|[f' n] cs IH]; cbn [bump count]; [destruct (Nat.eqb f g); reflexivity|].
  destruct (Nat.eqb_spec g f') as [->|N]; cbn [count]; [destruct (Nat.eqb f f'); reflexivity|].
  destruct (Nat.eqb_spec f f') as [->|_]; [|exact IH].
  rewrite (proj2 (Nat.eqb_neq f' g)) by auto. reflexivity.
Qed.

Lemma plan_bind : forall p0 c, plan_col p0 c = SBind <-> has (ckey c) p0 = true.
Proof.
  intros. unfold plan_col. destruct (has (ckey c) p0); split; intros H; try reflexivity; try discriminate H.
  destruct (cdef c); discriminate H.
Qed.
Lemma plan_fn : forall p0 c f, fn_of c = Some f -> is_prefetch (plan_col p0 c) = negb (has (ckey c) p0).
Proof.
  intros p0 c f. unfold fn_of, plan_col. destruct (cdef c); try discriminate; destruct (has (ckey c) p0); reflexivity.
Qed.

Lemma count_bump_fn : forall f c cs, count f (bump_fn c cs) = if calls_fn f c then S (count f cs) else count f cs.
Proof. intros. unfold bump_fn, calls_fn. destruct (fn_of c); [apply count_bump|reflexivity]. Qed.

Lemma distinct_keys_cons : forall c r, distinct_keys (c :: r) = true ->
  distinct_keys r = true /\ forall c', In c' r -> ckey c <> ckey c'.
Proof.
  intros c r H. cbn [distinct_keys] in H. apply andb_prop in H. destruct H as [H Hr]. split; [exact Hr|].
  intros c' Hin E. apply negb_true_iff, not_true_iff_false in H. apply H.
  apply existsb_exists. exists c'. split; [exact Hin|apply Nat.eqb_eq, E].
Qed.
Lemma distinct_fns_cons : forall c r, distinct_fns (c :: r) = true ->
  distinct_fns r = true /\ forall f, fn_of c = Some f -> forall c', In c' r -> calls_fn f c' = false.
Proof.
  intros c r H. cbn [distinct_fns] in H. apply andb_prop in H. destruct H as [H Hr]. split; [exact Hr|].
  intros f Hf c' Hin. rewrite Hf in H. apply negb_true_iff in H.
  destruct (calls_fn f c') eqn:E; [|reflexivity]. rewrite <- H. symmetry.
  apply existsb_exists. exists c'. split; [exact Hin|exact E].
Qed.
Lemma distinct_fns_head : forall c0 r c f, distinct_fns (c0 :: r) = true -> In c r -> fn_of c = Some f ->
  calls_fn f c0 = false.
Proof.
  intros c0 r c f H Hin Hf. unfold calls_fn. destruct (fn_of c0) as [f0|] eqn:E0; [|reflexivity].
  destruct (Nat.eqb_spec f f0) as [<-|_]; [|reflexivity].
  pose proof (proj2 (distinct_fns_cons _ _ H) f E0 c Hin) as X. unfold calls_fn in X.
  rewrite Hf, Nat.eqb_refl in X. discriminate X.
Qed.
Lemma fn_count_bump_head : forall c0 r c cs, distinct_fns (c0 :: r) = true -> In c r ->
  fn_count c (bump_fn c0 cs) = fn_count c cs.
Proof.
  intros c0 r c cs H Hin. unfold fn_count. destruct (fn_of c) as [f|] eqn:Hf; [|reflexivity].
  rewrite count_bump_fn, (distinct_fns_head c0 r c f H Hin Hf). reflexivity.
Qed.
(* no two columns share a callable: among the columns selected by [P], only [c] itself can call its [f] *)
Lemma filter_calls_fn : forall (P : col -> bool) f cols c,
  distinct_fns cols = true -> In c cols -> fn_of c = Some f ->
  length (filter (fun c' => P c' && calls_fn f c') cols) = if P c then 1%nat else 0%nat.
Proof.
  intros P f. induction cols as [|c0 r IH]; intros c Hf Hin Hfn; [destruct Hin|].
  destruct (distinct_fns_cons _ _ Hf) as [Hf' Hn]. cbn [filter]. destruct Hin as [->|Hin].
  - assert (Z : forall l, (forall c', In c' l -> calls_fn f c' = false) ->
                filter (fun c' => P c' && calls_fn f c') l = []).
    { induction l as [|a l IHl]; intros H; [reflexivity|]. cbn [filter].
      rewrite (H a (or_introl eq_refl)), andb_false_r. apply IHl. intros c' Hc'. apply H. right. exact Hc'. }
    rewrite (Z r (Hn f Hfn)). unfold calls_fn at 1. rewrite Hfn, Nat.eqb_refl, andb_true_r.
    destruct (P c); reflexivity.
  - rewrite (distinct_fns_head c0 r c f Hf Hin Hfn), andb_false_r. apply IH; auto.
Qed.

Lemma touched_cons : forall p0 c r k,
  touched p0 (c :: r) k = false <-> (is_prefetch (plan_col p0 c) = true -> ckey c <> k) /\ touched p0 r k = false.
Proof.
  intros. unfold touched. cbn [existsb]. rewrite orb_false_iff. apply and_iff_compat_r.
  destruct (is_prefetch (plan_col p0 c)); [rewrite andb_true_r, Nat.eqb_neq|rewrite andb_false_r]; split; auto; discriminate.
Qed.
Lemma touched_notin : forall p0 r k, (forall c', In c' r -> k <> ckey c') -> touched p0 r k = false.
Proof.
  intros p0 r k H. unfold touched. destruct (existsb _ r) eqn:E; [|reflexivity].
  apply existsb_exists in E. destruct E as [c' [Hin Hc]]. apply andb_prop in Hc. destruct Hc as [Hc _].
  apply Nat.eqb_eq in Hc. exfalso. apply (H c' Hin). auto.
Qed.
Lemma bind_untouched : forall p0 cols c, distinct_keys cols = true -> In c cols -> has (ckey c) p0 = true ->
  touched p0 cols (ckey c) = false.
Proof.
  intros p0. induction cols as [|c0 r IH]; intros c Hk Hin Hp; [destruct Hin|].
  destruct (distinct_keys_cons _ _ Hk) as [Hk' Hn]. apply touched_cons. destruct Hin as [->|Hin].
  - split; [rewrite (proj2 (plan_bind p0 c) Hp); discriminate|apply touched_notin, Hn].
  - split; [intros _; apply Hn, Hin|apply (IH c Hk' Hin Hp)].
Qed.

(* construct_params, one equation per column: a bind needs the set's value, a prefetch bind starts as whatever
   the set holds under the column's name, any other column is not a parameter *)
Lemma construct_cons : forall p0 g c r p,
  construct p0 g (c :: r) p =
    if has (ckey c) p0 then
      match get (ckey c) p with
      | Some v => bind (construct p0 g r p) (fun t => Ok ((ckey c, v) :: t))
      | None => Err (ERequired g (ckey c))
      end
    else if is_prefetch (plan_col p0 c) then
      bind (construct p0 g r p) (fun t => Ok ((ckey c, match get (ckey c) p with Some v => v | None => None end) :: t))
    else construct p0 g r p.
Proof.
  intros. cbn [construct]. unfold plan_col. destruct (has (ckey c) p0); [reflexivity|]. destruct (cdef c); reflexivity.
Qed.

(* it succeeds exactly when the set has every key of the first; else the first missing bind is reported *)
Lemma construct_result : forall p0 g cols p,
  match construct p0 g cols p with
  | Ok _ => forall c, In c cols -> has (ckey c) p0 = true -> has (ckey c) p = true
  | Err e => exists c, In c cols /\ e = ERequired g (ckey c) /\ has (ckey c) p0 = true /\ has (ckey c) p = false
  end.
Proof.
  intros p0 g. induction cols as [|c0 r IH]; intros p; [intros c []|].
  specialize (IH p). rewrite construct_cons. destruct (has (ckey c0) p0) eqn:H0.
  - destruct (get (ckey c0) p) as [v|] eqn:Eg.
    + destruct (construct p0 g r p); cbn [bind].
      * intros c [<-|Hin] H; [unfold has; rewrite Eg; reflexivity|apply IH; auto].
      * destruct IH as [c [Hin R]]. exists c. split; [right; exact Hin|exact R].
    + exists c0. unfold has at 2. rewrite Eg. repeat split; [left; reflexivity|exact H0].
  - (* the head is no bind: the outcome is that of the remaining columns *)
    destruct (is_prefetch (plan_col p0 c0)); destruct (construct p0 g r p); cbn [bind].
    1,3: intros c [<-|Hin] H; [rewrite H in H0; discriminate H0|apply IH; auto].
    all: destruct IH as [c [Hin R]]; exists c; split; [right; exact Hin|exact R].
Qed.
Lemma construct_ok : forall p0 g cols p,
  (forall c, In c cols -> has (ckey c) p0 = true -> has (ckey c) p = true) ->
  exists t, construct p0 g cols p = Ok t.
Proof.
  intros p0 g cols p H. pose proof (construct_result p0 g cols p) as R.
  destruct (construct p0 g cols p); [eexists; reflexivity|].
  destruct R as [c [Hin [_ [H0 Hp]]]]. rewrite (H c Hin H0) in Hp. discriminate Hp.
Qed.

Lemma construct_spec : forall p0 g cols p t c,
  distinct_keys cols = true -> construct p0 g cols p = Ok t -> In c cols ->
  (has (ckey c) p0 = true -> get (ckey c) t = get (ckey c) p) /\
  (is_prefetch (plan_col p0 c) = true -> has (ckey c) t = true).
Proof.
  intros p0 g. induction cols as [|c0 r IH]; intros p t c Hk Hc Hin; [destruct Hin|].
  destruct (distinct_keys_cons _ _ Hk) as [Hk' Hn]. rewrite construct_cons in Hc.
  (* a later column looks past the head's entry *)
  assert (Hlater : forall t' v0, construct p0 g r p = Ok t' -> In c r ->
             (has (ckey c) p0 = true -> get (ckey c) ((ckey c0, v0) :: t') = get (ckey c) p) /\
             (is_prefetch (plan_col p0 c) = true -> has (ckey c) ((ckey c0, v0) :: t') = true)).
  { intros t' v0 Ht' Hin'. unfold has. cbn [get].
    rewrite (proj2 (Nat.eqb_neq _ _) (fun E => Hn c Hin' (eq_sym E))). apply (IH p t' c Hk' Ht' Hin'). }
  destruct (has (ckey c0) p0) eqn:H0; [|destruct (is_prefetch (plan_col p0 c0)) eqn:E0].
  - destruct (get (ckey c0) p) as [v|] eqn:Eg; [|discriminate Hc].
    destruct (construct p0 g r p) as [t'|e]; [|discriminate Hc]. injection Hc as <-.
    destruct Hin as [->|Hin]; [|apply Hlater; auto]. unfold has. cbn [get]. rewrite Nat.eqb_refl, Eg. auto.
  - destruct (construct p0 g r p) as [t'|e]; [|discriminate Hc]. injection Hc as <-.
    destruct Hin as [->|Hin]; [|apply Hlater; auto]. rewrite H0. unfold has. cbn [get]. rewrite Nat.eqb_refl.
    split; [discriminate|reflexivity].
  - destruct Hin as [->|Hin]; [rewrite H0, E0; split; discriminate|apply (IH p t c Hk' Hc Hin)].
Qed.

Section P.
Variable cval : nat -> nat -> Z.
Variable ctxval : nat -> pset -> nat -> Z.
Variable sqlval : nat -> Z.
Variable srvval : nat -> Z.
Notation fire := (fire cval ctxval).
Notation stored := (stored sqlval srvval).
Notation default_ok := (default_ok cval ctxval sqlval srvval).

(* the value of the Python-side default of [c], evaluated when the row's parameters are [pr] and the call
   counters [cs] *)
Definition dval (c : col) (pr : pset) (cs : calls) : val :=
  match cdef c with
  | Scalar z => Some z
  | Callable f => Some (cval f (count f cs))
  | CtxCallable f => Some (ctxval f pr (count f cs))
  | _ => None
  end.

Lemma fire_cons : forall p0 c r params cs,
  fire p0 (c :: r) params cs =
    if is_prefetch (plan_col p0 c) then fire p0 r (set (ckey c) (dval c params cs) params) (bump_fn c cs)
    else fire p0 r params cs.
Proof.
  intros. cbn [Defaults.fire]. unfold plan_col, dval, bump_fn, fn_of.
  destruct (has (ckey c) p0); [reflexivity|]. destruct (cdef c); reflexivity.
Qed.

Lemma fire_untouched : forall p0 cols params cs k,
  touched p0 cols k = false -> get k (fst (fire p0 cols params cs)) = get k params.
Proof.
  intros p0. induction cols as [|c r IH]; intros params cs k H; [reflexivity|].
  apply touched_cons in H. destruct H as [H1 H2].
  rewrite fire_cons. destruct (is_prefetch (plan_col p0 c)); rewrite (IH _ _ _ H2); [|reflexivity].
  apply get_set_other. intros E. apply (H1 eq_refl). auto.
Qed.
Lemma fire_has : forall p0 cols params cs k, has k (fst (fire p0 cols params cs)) = has k params.
Proof.
  intros p0. induction cols as [|c r IH]; intros params cs k; [reflexivity|].
  rewrite fire_cons. destruct (is_prefetch (plan_col p0 c)); rewrite IH; [apply has_set|reflexivity].
Qed.
Lemma fire_count : forall p0 cols params cs f,
  count f (snd (fire p0 cols params cs)) = (count f cs + length (filter (uses p0 f) cols))%nat.
Proof.
  intros p0. induction cols as [|c r IH]; intros params cs f; [symmetry; apply Nat.add_0_r|].
  rewrite fire_cons. cbn [filter]. change (uses p0 f c) with (is_prefetch (plan_col p0 c) && calls_fn f c).
  destruct (is_prefetch (plan_col p0 c)); rewrite IH; [|reflexivity].
  rewrite count_bump_fn. destruct (calls_fn f c); [symmetry; apply Nat.add_succ_r|reflexivity].
Qed.

(* a prefetch column ends up with its default, evaluated on parameters [pr] that still hold every supplied
   value and on counters that show the earlier calls of its own callable only *)
Lemma fire_value : forall p0 cols params cs c,
  distinct_keys cols = true -> distinct_fns cols = true ->
  In c cols -> is_prefetch (plan_col p0 c) = true -> has (ckey c) params = true ->
  exists pr csi, get (ckey c) (fst (fire p0 cols params cs)) = Some (dval c pr csi) /\
                 fn_count c csi = fn_count c cs /\
                 (forall k, touched p0 cols k = false -> get k pr = get k params).
Proof.
  intros p0. induction cols as [|c0 r IH]; intros params cs c Hk Hf Hin Hp Hh; [destruct Hin|].
  destruct (distinct_keys_cons _ _ Hk) as [Hk' Hn]. destruct (distinct_fns_cons _ _ Hf) as [Hf' _].
  rewrite fire_cons. destruct Hin as [->|Hin].
  - (* the column itself: later columns do not write its key *)
    rewrite Hp, (fire_untouched _ _ _ _ _ (touched_notin p0 r _ Hn)), (get_set_same _ _ _ Hh).
    exists params, cs. auto.
  - (* a later column: the head writes another key and calls another callable *)
    destruct (is_prefetch (plan_col p0 c0)) eqn:E0.
    + destruct (IH (set (ckey c0) (dval c0 params cs) params) (bump_fn c0 cs) c Hk' Hf' Hin Hp)
        as [pr [csi [G [F A]]]]; [rewrite has_set; exact Hh|].
      exists pr, csi. split; [exact G|]. split; [rewrite F; apply (fn_count_bump_head c0 r c cs Hf Hin)|].
      intros k Ht. apply touched_cons in Ht. destruct Ht as [Ht1 Ht2]. rewrite (A k Ht2).
      apply get_set_other. intros E. apply (Ht1 E0). auto.
    + destruct (IH params cs c Hk' Hf' Hin Hp Hh) as [pr [csi [G [F A]]]].
      exists pr, csi. split; [exact G|]. split; [exact F|]. intros k Ht. apply A, (touched_cons p0 c0 r k), Ht.
Qed.

Lemma dval_ok : forall p0 old c p pr cs, is_prefetch (plan_col p0 c) = true ->
  default_ok old c p pr (fn_count c cs) (dval c pr cs).
Proof.
  intros p0 old c p pr cs. unfold plan_col, Defaults.default_ok, dval, fn_count, fn_of.
  destruct (has (ckey c) p0); [discriminate|]. destruct (cdef c); try discriminate; reflexivity.
Qed.

(* the FIRST parameter set [p0] decides: a column it names is stored as this row's set [p] gives it, any other
   column gets the default of its kind whatever [p] holds under its key *)
Theorem row_spec : forall p0 g cols p t cs old c,
  distinct_keys cols = true -> distinct_fns cols = true ->
  construct p0 g cols p = Ok t -> In c cols ->
  let params := fst (fire p0 cols t cs) in
  (has (ckey c) p0 = true -> get (ckey c) p = Some (stored p0 old params c)) /\
  (has (ckey c) p0 = false ->
     exists pr, default_ok old c p pr (fn_count c cs) (stored p0 old params c) /\
                (forall c', In c' cols -> has (ckey c') p0 = true -> get (ckey c') pr = get (ckey c') p)).
Proof.
  intros p0 g cols p t cs old c Hk Hf Hc Hin params.
  (* bind columns keep the row's value through construct and fire *)
  assert (Hbind : forall pr, (forall k, touched p0 cols k = false -> get k pr = get k t) ->
                  forall c', In c' cols -> has (ckey c') p0 = true -> get (ckey c') pr = get (ckey c') p).
  { intros pr Hpr c' Hin' Hb. rewrite (Hpr _ (bind_untouched p0 cols c' Hk Hin' Hb)).
    apply (construct_spec p0 g cols p t c' Hk Hc Hin'), Hb. }
  unfold Defaults.stored. split; intros Hh.
  - rewrite (proj2 (plan_bind p0 c) Hh). unfold params.
    rewrite (Hbind _ (fire_untouched p0 cols t cs) c Hin Hh).
    pose proof (construct_result p0 g cols p) as R. rewrite Hc in R. specialize (R c Hin Hh).
    unfold has in R. destruct (get (ckey c) p); [reflexivity|discriminate R].
  - destruct (plan_col p0 c) eqn:Ep.
    + apply plan_bind in Ep. rewrite Ep in Hh. discriminate Hh.
    + destruct (fire_value p0 cols t cs c Hk Hf Hin) as [pr [csi [G [F A]]]];
        [rewrite Ep; reflexivity|apply (construct_spec p0 g cols p t c Hk Hc Hin); rewrite Ep; reflexivity|].
      exists pr. split; [|apply Hbind, A]. unfold params. rewrite G, <- F. apply (dval_ok p0). rewrite Ep. reflexivity.
    + exists t. split; [|apply Hbind; auto]. unfold plan_col in Ep. rewrite Hh in Ep.
      unfold Defaults.default_ok. destruct (cdef c); try discriminate Ep. injection Ep as <-. reflexivity.
    + exists t. split; [|apply Hbind; auto]. unfold plan_col in Ep. rewrite Hh in Ep.
      unfold Defaults.default_ok. destruct (cdef c); try discriminate Ep; destruct old; reflexivity.
Qed.

End P.
