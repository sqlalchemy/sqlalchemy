(* C13 - insert().values([rows]) (crud._extend_values_for_multiparams), Update.ordered_values() (the
   "remaining columns" rule of _scan_cols) and the pre-executed primary key default *)
From Coq Require Import List ZArith Bool PeanoNat.
Import ListNotations.
From SAV.sql Require Import Defaults DefaultsProofs DefaultsManyProofs.
Open Scope Z_scope.

Section MV.
Variable cval : nat -> nat -> Z.
Variable ctxval : nat -> pset -> nat -> Z.
Variable sqlval : nat -> Z.
Variable srvval : nat -> Z.
Notation multi_row := (multi_row cval ctxval sqlval srvval).
Notation multi_rows := (multi_rows cval ctxval sqlval srvval).

Definition absent_val (c : col) : val := match cdef c with ServerSide e => Some (srvval e) | _ => None end.
(* the value column [c] gets in a row, reached with call counters [cs] *)
Definition mval (p0 : pset) (c : col) (row : pset) (cs : calls) : val :=
  if in_values0 p0 c then
    match get (ckey c) row with
    | Some v => v
    | None => match cdef c with SqlExpr e => Some (sqlval e) | _ => dval cval ctxval c row cs end
    end
  else absent_val c.
Definition mfires (p0 : pset) (row : pset) (c : col) : bool := in_values0 p0 c && negb (has (ckey c) row).
Definition mnext (p0 : pset) (c : col) (row : pset) (cs : calls) : calls :=
  if mfires p0 row c then bump_fn c cs else cs.

Lemma multi_row_cons : forall p0 c r row cs,
  multi_row p0 (c :: r) row cs =
    ((ckey c, mval p0 c row cs) :: fst (multi_row p0 r row (mnext p0 c row cs)),
     snd (multi_row p0 r row (mnext p0 c row cs))).
Proof.
  intros. cbn [Defaults.multi_row]. unfold mval, dval, mnext, mfires, has, bump_fn, fn_of, absent_val.
  destruct (in_values0 p0 c); cbn [andb].
  - destruct (get (ckey c) row) as [v|]; cbn [negb].
    + destruct (multi_row p0 r row cs); reflexivity.
    + destruct (cdef c); cbn [negb];
        match goal with |- context [Defaults.multi_row _ _ _ _ _ r row ?x] => destruct (multi_row p0 r row x) end; reflexivity.
  - destruct (multi_row p0 r row cs); reflexivity.
Qed.

(* as for [fire]: the value is computed when the scan reaches the column, and the earlier columns have called
   other callables *)
Lemma multi_row_get : forall p0 cols row cs c, distinct_keys cols = true -> distinct_fns cols = true -> In c cols ->
  exists csi, get (ckey c) (fst (multi_row p0 cols row cs)) = Some (mval p0 c row csi) /\
              fn_count c csi = fn_count c cs.
Proof.
  intros p0. induction cols as [|c0 r IH]; intros row cs c Hk Hf Hin; [destruct Hin|].
  destruct (distinct_keys_cons _ _ Hk) as [Hk' Hn]. destruct (distinct_fns_cons _ _ Hf) as [Hf' _].
  rewrite multi_row_cons. cbn [fst get]. destruct Hin as [->|Hin].
  - rewrite Nat.eqb_refl. exists cs. auto.
  - rewrite (proj2 (Nat.eqb_neq _ _) (fun E => Hn c Hin (eq_sym E))).
    destruct (IH row (mnext p0 c0 row cs) c Hk' Hf' Hin) as [csi [G C]]. exists csi. split; [exact G|].
    rewrite C. unfold mnext. destruct (mfires p0 row c0); [apply (fn_count_bump_head c0 r c cs Hf Hin)|reflexivity].
Qed.

Lemma multi_row_count : forall p0 cols row cs f,
  count f (snd (multi_row p0 cols row cs)) =
    (count f cs + length (filter (fun c => mfires p0 row c && calls_fn f c) cols))%nat.
Proof.
  intros p0. induction cols as [|c r IH]; intros row cs f; [symmetry; apply Nat.add_0_r|].
  rewrite multi_row_cons. cbn [snd filter]. rewrite IH. unfold mnext.
  destruct (mfires p0 row c); [|reflexivity].
  rewrite count_bump_fn. destruct (calls_fn f c); [symmetry; apply Nat.add_succ_r|reflexivity].
Qed.
Lemma multi_rows_run : forall p0 cols rows cs, multi_rows p0 cols rows cs = run (multi_row p0 cols) rows cs.
Proof.
  intros p0 cols. induction rows as [|row t IH]; intros cs; [reflexivity|].
  cbn [Defaults.multi_rows run]. destruct (multi_row p0 cols row cs). rewrite IH. reflexivity.
Qed.

Lemma multi_rows_count : forall p0 cols c f,
  distinct_fns cols = true -> In c cols -> fn_of c = Some f -> in_values0 p0 c = true ->
  forall rows cs, count f (snd (multi_rows p0 cols rows cs)) = (count f cs + omitting c rows)%nat.
Proof.
  intros p0 cols c f Hf Hin Hfn Hv rows cs. rewrite multi_rows_run. unfold omitting. rewrite <- sum_filter.
  (* a row calls the callable of a listed column exactly when it omits the column *)
  apply run_count. intros row cs0.
  rewrite multi_row_count, (filter_calls_fn (mfires p0 row) f cols c Hf Hin Hfn). unfold mfires. rewrite Hv. reflexivity.
Qed.

Lemma in_values0_default : forall p0 c,
  match cdef c with Scalar _ | Callable _ | CtxCallable _ | SqlExpr _ => True | _ => False end -> in_values0 p0 c = true.
Proof. intros p0 c H. unfold in_values0, plan_col. destruct (has (ckey c) p0); [reflexivity|]. destruct (cdef c); try reflexivity; destruct H. Qed.

(* every row and every column of the statement: the stored value is [mval], on counters that show one earlier
   call of the column's callable per earlier row that omits the column *)
Theorem multi_values_value : forall cols p0 rows cs i row c,
  distinct_keys cols = true -> distinct_fns cols = true -> nth_error rows i = Some row -> In c cols ->
  exists srow csi, nth_error (fst (multi_rows p0 cols rows cs)) i = Some srow /\
    get (ckey c) srow = Some (mval p0 c row csi) /\
    (forall f, fn_of c = Some f -> count f csi = (count f cs + omitting c (firstn i rows))%nat).
Proof.
  intros cols p0 rows cs i row c Hk Hf Hn Hin.
  pose proof (run_nth _ (multi_row p0 cols) rows cs i row Hn) as G. rewrite <- !multi_rows_run in G.
  destruct (multi_row_get p0 cols row (snd (multi_rows p0 cols (firstn i rows) cs)) c Hk Hf Hin) as [csi [Gc Cc]].
  eexists. exists csi. split; [exact G|]. split; [exact Gc|]. intros f Hfn.
  unfold fn_count in Cc. rewrite Hfn in Cc. rewrite Cc. apply multi_rows_count; auto.
  apply in_values0_default. unfold fn_of in Hfn. destruct (cdef c); try discriminate Hfn; exact I.
Qed.

Theorem multi_values_rule : forall cols p0 rest cs i row c,
  distinct_keys cols = true -> distinct_fns cols = true ->
  nth_error (p0 :: rest) i = Some row -> In c cols ->
  exists srow, nth_error (fst (multi_rows p0 cols (p0 :: rest) cs)) i = Some srow /\
    (* in the VALUES list and present in this row: the row's value, None included *)
    (in_values0 p0 c = true -> forall v, get (ckey c) row = Some v -> get (ckey c) srow = Some v) /\
    (* omitted in this row: the default again *)
    (get (ckey c) row = None ->
       match cdef c with
       | Scalar z => get (ckey c) srow = Some (Some z)
       | SqlExpr e => get (ckey c) srow = Some (Some (sqlval e))
       | Callable f => get (ckey c) srow = Some (Some (cval f (count f cs + omitting c (firstn i (p0 :: rest)))))
       | _ => True
       end) /\
    (* not in the VALUES list row 0 decided: the statement does not mention it, whatever the row supplies *)
    (in_values0 p0 c = false -> get (ckey c) srow = Some (absent_val c)).
Proof.
  intros cols p0 rest cs i row c Hk Hf Hn Hin.
  destruct (multi_values_value cols p0 (p0 :: rest) cs i row c Hk Hf Hn Hin) as [srow [csi [G [Gc C]]]].
  exists srow. split; [exact G|]. rewrite Gc. unfold mval, dval. split; [|split].
  - intros Hv v Hg. rewrite Hv, Hg. reflexivity.
  - intros Hg. rewrite Hg. destruct (cdef c) eqn:Ed; try exact I;
      assert (Hv : in_values0 p0 c = true) by (apply in_values0_default; rewrite Ed; exact I); rewrite Hv;
      try reflexivity.
    rewrite (C f) by (unfold fn_of; rewrite Ed; reflexivity). reflexivity.
  - intros Hv. rewrite Hv. reflexivity.
Qed.

Theorem multi_values_calls : forall cols p0 rest cs c f,
  distinct_fns cols = true -> In c cols -> cdef c = Callable f ->
  count f (snd (multi_rows p0 cols (p0 :: rest) cs)) = (count f cs + omitting c (p0 :: rest))%nat.
Proof.
  intros cols p0 rest cs c f Hf Hin Ed. apply multi_rows_count; auto.
  - unfold fn_of. rewrite Ed. reflexivity.
  - apply in_values0_default. rewrite Ed. exact I.
Qed.

(* the CompileError of _process_multiparam_default_bind: raised exactly for a row that lacks a column of the
   VALUES list which has no Python / SQL default *)
Theorem multi_check_row_spec : forall p0 i cols row,
  multi_check_row p0 i cols row = None <->
  forall c, In c cols -> in_values0 p0 c = true -> has (ckey c) row = false ->
    match cdef c with NoDefault | ServerSide _ => False | _ => True end.
Proof.
  intros p0 i. induction cols as [|c0 r IH]; intros row; cbn [multi_check_row].
  - split; [intros _ c []|reflexivity].
  - destruct (in_values0 p0 c0 && negb (has (ckey c0) row) &&
              match cdef c0 with NoDefault | ServerSide _ => true | _ => false end) eqn:E.
    + split; [discriminate|]. intros H. exfalso. apply andb_prop in E. destruct E as [E E3].
      apply andb_prop in E. destruct E as [E1 E2]. apply negb_true_iff in E2.
      specialize (H c0 (or_introl eq_refl) E1 E2). destruct (cdef c0); try discriminate E3; exact H.
    + rewrite IH. split.
      * intros H c [<-|Hin] Hv Hh; [|apply H; auto].
        rewrite Hv, Hh in E. cbn [negb andb] in E. destruct (cdef c0); try discriminate E; exact I.
      * intros H c Hin. apply H. right. exact Hin.
Qed.

Lemma ordered_cols_In : forall order cols c, In c (ordered_cols order cols) <-> In c cols.
Proof.
  intros order cols c. unfold ordered_cols. rewrite in_app_iff. split.
  - intros [H|H].
    + apply in_flat_map in H. destruct H as [k [_ H]]. apply filter_In in H. apply H.
    + apply filter_In in H. apply H.
  - intros H. destruct (existsb (Nat.eqb (ckey c)) order) eqn:E.
    + left. apply existsb_exists in E. destruct E as [k [Hk Ek]]. apply in_flat_map. exists k. split; [exact Hk|].
      apply filter_In. split; [exact H|exact Ek].
    + right. apply filter_In. split; [exact H|]. rewrite E. reflexivity.
Qed.

Theorem ordered_values_rule : forall order cols p old cs,
  distinct_keys (ordered_cols order cols) = true -> distinct_fns (ordered_cols order cols) = true ->
  exists row cs',
    core_exec cval ctxval sqlval srvval (ordered_cols order cols) [p] [old] cs = Ok ([row], cs') /\
    row_rule cval ctxval sqlval srvval old cols p (fun c => fn_count c cs) row.
Proof.
  intros order cols p old cs Hk Hf.
  destruct (single_spec cval ctxval sqlval srvval (ordered_cols order cols) p old cs Hk Hf) as [row [cs' [E R]]].
  exists row, cs'. split; [exact E|]. intros c Hin.
  destruct (R c (proj2 (ordered_cols_In order cols c) Hin)) as [A B]. split; [exact A|].
  intros Hn. destruct (B Hn) as [pr [v [G [D Ag]]]]. exists pr, v. split; [exact G|]. split; [exact D|].
  intros c' v' Hc'. apply Ag, ordered_cols_In, Hc'.
Qed.

Theorem preexec_pk_kept : forall cols p old cs z c,
  distinct_keys cols = true -> distinct_fns cols = true -> In c cols -> ckey c = O ->
  exists row cs',
    core_exec cval ctxval sqlval srvval cols [(O, preexec_param None (Some z)) :: p] [old] cs = Ok ([row], cs') /\
    get O row = Some (Some z).
Proof.
  intros cols p old cs z c Hk Hf Hin Hc.
  destruct (single_spec cval ctxval sqlval srvval cols ((O, preexec_param None (Some z)) :: p) old cs Hk Hf)
    as [row [cs' [E R]]].
  exists row, cs'. split; [exact E|]. destruct (R c Hin) as [A _]. rewrite Hc in A. apply A. reflexivity.
Qed.

End MV.
