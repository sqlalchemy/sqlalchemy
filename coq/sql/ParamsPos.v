(* C04 - qmark / format: positiontup is the text order of the binds and every "?" gets its own value *)
From Coq Require Import List NArith ZArith Bool.
Import ListNotations.
From SAV.sql Require Import Params ParamsDict ParamsEscape ParamsGuard ParamsPost ParamsInline ParamsFinal.

(* names of the binds in text order *)
Definition tok_name (t : tok) : list name := match t with Txt _ => [] | Bind n => [n] | PC n => [n] end.
Definition names_of (ts : list tok) : list name := flat_map tok_name ts.

(* the values a source token contributes to the parameter sequence of a qmark / format driver *)
Definition tok_vals (proc : N -> Z -> Z) (inp : input) (t : tok) : list pval :=
  match t with
  | Txt _ => []
  | Bind n => match dget n (i_params inp) with
              | Some (PS v) => [PS (pz proc inp n v)]
              | Some v => [v]
              | None => []
              end
  | PC n => match kind_of inp n, dget n (i_params inp) with
            | Expand, Some (PL l) => map (fun z => PS (pz proc inp n z)) l
            | _, _ => []
            end
  end.

Section Pos.
Variable tab : list (N * N).
Variable inp : input.
Hypothesis W : wf tab inp.
Notation order := (i_order inp).
Notation ebn := (ebn_of tab (i_order inp)).

Lemma names_of_order : incl (names_of (i_toks inp)) order.
Proof.
  intros n H. unfold names_of in H. apply in_flat_map in H. destruct H as [t [Ht Hn]].
  destruct t as [s|m|m]; cbn [tok_name] in Hn.
  - destruct Hn.
  - destruct Hn as [->|[]]. exact (proj1 (w_bind _ _ W n Ht)).
  - destruct Hn as [->|[]]. exact (proj1 (w_pc _ _ W n Ht)).
Qed.

Lemma positions_carrier : forall ps ts, positions (carrier tab ps ts) = map (esc tab) (names_of ts).
Proof.
  intros ps ts. unfold positions, carrier, names_of. induction ts as [|t ts IH]; [reflexivity|].
  cbn [map flat_map]. rewrite map_app, IH. destruct t; reflexivity.
Qed.

Lemma ebn_values_nodup : NoDup (map snd ebn).
Proof.
  assert (He : map snd ebn = map (esc tab) (keys ebn)).
  { unfold keys. rewrite map_map. apply map_ext_in. intros [k e] Hi. exact (proj1 (ebn_entries tab order k e Hi)). }
  rewrite He. apply NoDup_map_inj_on; [|exact (ebn_nodup tab order)].
  assert (Hk : forall a, In a (keys ebn) -> In a order).
  { intros a Ha. apply in_map_iff in Ha. destruct Ha as [[k e] [<- Hi]]. exact (proj2 (ebn_entries tab order k e Hi)). }
  intros a b Ha Hb. exact (w_inj _ _ W a b (Hk a Ha) (Hk b Hb)).
Qed.

Lemma dget_swap : forall n (d : dict name), In n order ->
  (forall k e, In (k, e) d -> e = esc tab k /\ In k order) ->
  dget (esc tab n) (map (fun kv => (snd kv, fst kv)) d) = if dmem n d then Some n else None.
Proof.
  intros n d Hn. induction d as [|[k e] d IH]; intro H; [reflexivity|].
  cbn [map fst snd dget]. unfold dmem. cbn [dget].
  destruct (H k e (or_introl eq_refl)) as [-> Hk].
  destruct (str_eqb_spec (esc tab n) (esc tab k)) as [He|He].
  - rewrite (w_inj _ _ W n k Hn Hk He), str_eqb_refl. reflexivity.
  - rewrite str_eqb_neq by (intros ->; apply He; reflexivity).
    apply IH. intros k' e' Hi. apply H. right. exact Hi.
Qed.

(* reverse_escape.get(escaped, escaped) gives back the bind's own name *)
Lemma reverse_escape_escape : forall n, In n order -> dget_or_key (reverse_dict ebn) (esc tab n) = n.
Proof.
  intros n Hn. rewrite reverse_dict_inj by exact ebn_values_nodup.
  pose proof (ebn_get_or_key_in tab order n Hn) as G.
  unfold dget_or_key in *. rewrite (dget_swap n ebn Hn (ebn_entries tab order)). unfold dmem.
  destruct (dget n ebn); [reflexivity|symmetry; exact G].
Qed.

Lemma reverse_escape_length : length (reverse_dict ebn) = length ebn.
Proof. rewrite (reverse_dict_inj ebn ebn_values_nodup). apply map_length. Qed.

(* _process_positional: the placeholders become positional and positiontup lists the binds in text order *)
Lemma positiontup_in_text_order : forall ps,
  process_positional ebn (carrier tab ps (i_toks inp)) =
  Ok (map (ctok tab ps (fun _ => OPos)) (i_toks inp), names_of (i_toks inp)).
Proof.
  intro ps. unfold process_positional.
  assert (Hts : map (fun t => match t with OPh _ => OPos | _ => t end) (carrier tab ps (i_toks inp))
                = map (ctok tab ps (fun _ => OPos)) (i_toks inp)).
  { unfold carrier. rewrite map_map. apply map_ext. intros [s|n|n]; reflexivity. }
  rewrite Hts, positions_carrier.
  assert (Hrev : map (dget_or_key (reverse_dict ebn)) (map (esc tab) (names_of (i_toks inp))) = names_of (i_toks inp)).
  { rewrite map_map. apply map_id_in. intros n Hn. apply reverse_escape_escape. exact (names_of_order n Hn). }
  pose proof reverse_escape_length as Hlen.
  destruct ebn as [|e0 er] eqn:E.
  - rewrite (map_id_in (esc tab)); [reflexivity|]. intros n Hn. exact (ebn_nil tab order n E (names_of_order n Hn)).
  - rewrite Hlen, Nat.eqb_refl, Hrev. reflexivity.
Qed.
End Pos.

Section PosRun.
Variable tab : list (N * N).
Variable lit : Z -> str.
Variable empty_expr : str.
Variable proc : N -> Z -> Z.
Variable ps : style.
Variable inp : input.
Hypothesis W : wf tab inp.
Hypothesis Hps : positional ps = true.
Hypothesis Hnum : numeric ps = false.

Notation toks := (i_toks inp).
Notation Inv := (pc_inv tab lit empty_expr ps inp).
Notation getv := (getv proc inp).
Notation bpos := (fun _ : name => OPos).
(* the driver takes the values one after the other *)
Notation Jpos := (fun (st : pcstate) (seg : list otok) (ks : list name) => inline_seq ps seg (map (getv st) ks)).

(* after the postcompile step positiontup is still the text order: an expanding bind is replaced by its names *)
Lemma newpos_names : forall ts, incl ts toks ->
  flat_map (newpos_of tab ps inp) (names_of ts) = flat_map (tok_pos tab inp) ts.
Proof.
  induction ts as [|t ts IH]; intro Hi; [reflexivity|]. unfold names_of in *. cbn [flat_map].
  rewrite flat_map_app, IH by (intros x Hx; apply Hi; right; exact Hx). f_equal.
  pose proof (Hi t (or_introl eq_refl)) as Ht.
  destruct t as [s|n|n]; cbn [tok_name tok_pos flat_map]; [reflexivity|rewrite app_nil_r; unfold newpos_of..].
  - rewrite (proj2 (w_bind _ _ W n Ht)). reflexivity.
  - rewrite Hnum. destruct (kind_of inp n) eqn:K; [destruct (proj2 (w_pc _ _ W n Ht) K)|reflexivity|].
    unfold xnames. rewrite xitems_nonexpand by congruence. reflexivity.
Qed.

Lemma pos_vals : forall done st, Inv done st -> (forall n, In (PC n) toks -> In n done) ->
  forall ts, incl ts toks -> map (getv st) (flat_map (tok_pos tab inp) ts) = flat_map (tok_vals proc inp) ts.
Proof.
  intros done st I Hd. induction ts as [|t ts IH]; intro Hi; [reflexivity|].
  cbn [flat_map]. rewrite map_app, IH by (intros x Hx; apply Hi; right; exact Hx). f_equal.
  pose proof (Hi t (or_introl eq_refl)) as Ht. destruct t as [s|n|n]; cbn [tok_pos tok_vals map].
  - reflexivity.
  - destruct (w_bind _ _ W n Ht) as [Hn K]. destruct (w_plain _ _ W n Hn K) as [v Hv].
    rewrite Hv, (proj2 (getv_plain tab lit empty_expr proc ps inp W done st n v I Hn K Hv)). reflexivity.
  - destruct (w_pc _ _ W n Ht) as [Hn K]. unfold xnames. rewrite map_map.
    rewrite (map_ext_in _ (fun kv => PS (pz proc inp n (snd kv))))
      by (intros [k v] Hx; exact (proj2 (getv_x tab lit empty_expr proc ps inp W done st n k v I (Hd n Ht) Hx))).
    rewrite <- (map_map snd (fun z => PS (pz proc inp n z))). unfold xitems, plist, expanded_names.
    destruct (kind_of inp n) eqn:K'; [destruct (K eq_refl)| |destruct (dget n (i_params inp)); reflexivity].
    destruct (w_expand _ _ W n Hn K') as [l Hl]. rewrite Hl, expand_from_snd. reflexivity.
Qed.

(* the driver receives, in text order, exactly the values of the binds (an expanding bind contributes its
   elements in order, a literal_execute bind nothing) and every placeholder consumes its own value *)
Theorem pos_ok :
  exists ts sp, run tab lit empty_expr proc ps inp = Ok (ts, FPos (flat_map (tok_vals proc inp) (i_toks inp))) /\
                inline_spec lit empty_expr proc inp = Some sp /\
                inline ps ts (FPos (flat_map (tok_vals proc inp) (i_toks inp))) = Some sp.
Proof.
  destruct (style_ok tab lit empty_expr proc ps inp W bpos (names_of toks) (0%N)) with (J := Jpos)
    as [done [st [sp [I [Hd [E [S1 S2]]]]]]].
  - intro n. exact Logic.I.
  - rewrite Hnum. discriminate.
  - unfold compile. rewrite Hnum, Hps, (positiontup_in_text_order tab inp W ps). reflexivity.
  - intros _. split; [exact (names_of_order tab inp W)|]. intros n Hn.
    unfold names_of. apply in_flat_map. exists (PC n). split; [exact Hn|left; reflexivity].
  - reflexivity.
  - intros st a ka ra c kc H. rewrite map_app. exact (inline_seq_app ps _ _ ra _ _ H).
  - intros st s. cbn [map inline_seq option_map]. rewrite unpct_pct, app_nil_r. reflexivity.
  - intros done st n v z _ _ _ _ G. cbn [map inline_seq]. rewrite G. reflexivity.
  - intros done st n k v z _ _ _ _ G. replace (bind_tok ps k) with OPos by (revert Hps Hnum; destruct ps; cbn; congruence).
    cbn [map inline_seq]. rewrite G. reflexivity.
  - intro st. unfold inline, final_toks, final_params. rewrite Hnum, Hps, app_nil_r, (newpos_names toks (incl_refl _)). reflexivity.
  - revert E S2. unfold final_toks, final_params.
    rewrite Hnum, Hps, app_nil_r, (newpos_names toks (incl_refl _)), (pos_vals done st I Hd toks (incl_refl _)).
    intros E S2. eexists _, sp. split; [exact E|]. split; [exact S1|exact S2].
Qed.
End PosRun.
