(* C18 - list lemmas: Z-indexed take/drop, numbering, ROWNUM filtering, DISTINCT *)
From Coq Require Import List ZArith Bool Lia Sorted.
Import ListNotations.
From SAV.sql Require Import Limit.
Open Scope Z_scope.

Lemma filter_and : forall (B : Type) (f g : B -> bool) (l : list B),
  filter (fun x => f x && g x) l = filter g (filter f l).
Proof.
  induction l as [|x r IH]; [reflexivity|]. cbn [filter].
  destruct (f x); cbn [andb filter]; [destruct (g x); now rewrite IH|exact IH].
Qed.

Lemma filter_all : forall (B : Type) (f : B -> bool) (l : list B),
  (forall x, In x l -> f x = true) -> filter f l = l.
Proof.
  induction l as [|x r IH]; intros H; [reflexivity|]. cbn [filter].
  rewrite (H x (or_introl eq_refl)). f_equal. apply IH. intros y Hy. apply H. now right.
Qed.

Lemma filter_none : forall (B : Type) (f : B -> bool) (l : list B),
  (forall x, In x l -> f x = false) -> filter f l = [].
Proof.
  induction l as [|x r IH]; intros H; [reflexivity|]. cbn [filter].
  rewrite (H x (or_introl eq_refl)). apply IH. intros y Hy. apply H. now right.
Qed.

Section L.
Variable A : Type.
Implicit Types l : list A.

Lemma takeZ_firstn : forall l n, takeZ n l = firstn (Z.to_nat n) l.
Proof.
  induction l as [|x r IH]; intros n; cbn [takeZ].
  - now rewrite firstn_nil.
  - destruct (n <=? 0) eqn:E.
    + replace (Z.to_nat n) with 0%nat by lia. reflexivity.
    + replace (Z.to_nat n) with (S (Z.to_nat (n - 1))) by lia. cbn [firstn]. now rewrite IH.
Qed.

Lemma dropZ_skipn : forall l n, dropZ n l = skipn (Z.to_nat n) l.
Proof.
  induction l as [|x r IH]; intros n; cbn [dropZ].
  - now rewrite skipn_nil.
  - destruct (n <=? 0) eqn:E.
    + replace (Z.to_nat n) with 0%nat by lia. reflexivity.
    + replace (Z.to_nat n) with (S (Z.to_nat (n - 1))) by lia. cbn [skipn]. now rewrite IH.
Qed.

Lemma slice_some : forall off lim l, slice off (Some lim) l = takeZ lim (dropZ off l).
Proof. intros. unfold slice. now rewrite takeZ_firstn, dropZ_skipn. Qed.
Lemma slice_none : forall off l, slice off None l = dropZ off l.
Proof. intros. unfold slice. now rewrite dropZ_skipn. Qed.
Lemma slice_opt : forall off lim l,
  slice off lim l = match lim with Some n => takeZ n (dropZ off l) | None => dropZ off l end.
Proof. intros. destruct lim; [apply slice_some|apply slice_none]. Qed.

Lemma takeZ_nonpos : forall l n, n <= 0 -> takeZ n l = [].
Proof. intros. rewrite takeZ_firstn. now replace (Z.to_nat n) with 0%nat by lia. Qed.

Lemma dropZ_nonpos : forall l n, n <= 0 -> dropZ n l = l.
Proof. intros. rewrite dropZ_skipn. now replace (Z.to_nat n) with 0%nat by lia. Qed.

Lemma dropZ_length : forall l n, 0 <= n ->
  Z.of_nat (length (dropZ n l)) = Z.max 0 (Z.of_nat (length l) - n).
Proof. intros. rewrite dropZ_skipn, skipn_length. lia. Qed.

Lemma takeZ_all_iff : forall l n, takeZ n l = l <-> Z.of_nat (length l) <= Z.max 0 n.
Proof.
  intros l n. split; intros H.
  - apply (f_equal (@length A)) in H. rewrite takeZ_firstn, firstn_length in H. lia.
  - rewrite takeZ_firstn. apply firstn_all2. lia.
Qed.

Lemma takeZ_dropZ : forall l n, takeZ n l ++ dropZ n l = l.
Proof. intros. rewrite takeZ_firstn, dropZ_skipn. apply firstn_skipn. Qed.

Lemma map_fst_number : forall l k, map fst (number k l) = l.
Proof. induction l as [|x r IH]; intros k; cbn [number map fst]; [reflexivity|]. now rewrite IH. Qed.

Lemma number_snd_ge : forall l k xr, In xr (number k l) -> k <= snd xr.
Proof.
  induction l as [|x r IH]; intros k xr H; cbn [number] in H; [destruct H|].
  destruct H as [<-|H]; [cbn; lia|]. apply IH in H. lia.
Qed.

(* mssql_rn > lo *)
Lemma number_filter_gt : forall l k lo, k <= lo + 1 ->
  filter (fun xr : A * Z => lo <? snd xr) (number k l) = number (lo + 1) (dropZ (lo + 1 - k) l).
Proof.
  induction l as [|x r IH]; intros k lo H; [reflexivity|].
  cbn [number filter snd dropZ].
  destruct (lo <? k) eqn:E.
  - assert (k = lo + 1) by lia; subst k.
    replace (lo + 1 - (lo + 1) <=? 0) with true by lia. cbn [number]. f_equal.
    apply filter_all. intros xr Hin. apply number_snd_ge in Hin. lia.
  - replace (lo + 1 - k <=? 0) with false by lia.
    rewrite IH by lia. f_equal. f_equal. lia.
Qed.

(* mssql_rn <= hi *)
Lemma number_filter_le : forall l k hi,
  filter (fun xr : A * Z => snd xr <=? hi) (number k l) = number k (takeZ (hi - k + 1) l).
Proof.
  induction l as [|x r IH]; intros k hi; [reflexivity|].
  cbn [number filter snd takeZ].
  destruct (k <=? hi) eqn:E.
  - replace (hi - k + 1 <=? 0) with false by lia. cbn [number]. f_equal.
    rewrite IH. f_equal. f_equal. lia.
  - replace (hi - k + 1 <=? 0) with true by lia.
    apply filter_none. intros xr Hin. apply number_snd_ge in Hin. lia.
Qed.

Lemma number_filter_lt_or : forall (f : A -> bool) l k n,
  map fst (filter (fun xi : A * Z => (snd xi <? n) || f (fst xi)) (number k l))
  = takeZ (n - k) l ++ filter f (dropZ (n - k) l).
Proof.
  induction l as [|x r IH]; intros k n; [reflexivity|]. cbn [number filter fst snd takeZ dropZ].
  specialize (IH (k + 1) n). destruct (k <? n) eqn:E.
  - replace (n - k <=? 0) with false by lia. cbn [orb map fst app]. rewrite IH.
    now replace (n - (k + 1)) with (n - k - 1) by lia.
  - replace (n - k <=? 0) with true by lia. rewrite takeZ_nonpos, dropZ_nonpos in IH by lia.
    cbn [orb app filter]. destruct (f x); cbn [map fst]; now rewrite IH.
Qed.

(* The slice arithmetic of both wrappers: the rows whose number, counted from 1, lies in
   (lo, lim + lo] are the slice. *)
Definition window (lo : Z) (lim : option Z) (rn : Z) : bool :=
  (lo <? rn) && match lim with Some n => rn <=? n + lo | None => true end.

Lemma number_window : forall l lo lim, 0 <= lo ->
  map fst (filter (fun xr : A * Z => window lo lim (snd xr)) (number 1 l)) = slice lo lim l.
Proof.
  intros l lo lim H. unfold window. rewrite filter_and, number_filter_gt, slice_opt by lia.
  replace (lo + 1 - 1) with lo by lia. destruct lim as [n|].
  - rewrite number_filter_le, map_fst_number. f_equal. lia.
  - rewrite filter_all by reflexivity. apply map_fst_number.
Qed.

(* Where the predicate fails the counter stops advancing and every later row is rejected with the same
   number.  A predicate that, like ROWNUM <= m, also fails on all larger numbers cannot tell: ROWNUM
   then filters like a ROW_NUMBER() column.  (ROWNUM > n is the classic predicate that can.) *)
Lemma rownum_filter_down : forall (p : Z -> bool) l k,
  (forall a b, a <= b -> p b = true -> p a = true) ->
  rownum_filter p k l = filter (fun xr => p (snd xr)) (number k l).
Proof.
  intros p l k Hp. revert k. induction l as [|x r IH]; intros k; [reflexivity|].
  cbn [rownum_filter number filter snd]. destruct (p k) eqn:E; [now rewrite IH|].
  rewrite filter_none.
  - clear IH. induction r as [|y r IH]; [reflexivity|]. cbn [rownum_filter]. now rewrite E.
  - intros xr Hin. apply number_snd_ge in Hin. destruct (p (snd xr)) eqn:E2; [|reflexivity].
    rewrite (Hp k (snd xr)) in E by (lia || assumption). discriminate.
Qed.

Variable eqA : A -> A -> bool.

(* rows that carry a row number are pairwise distinct *)
Lemma dedup_number : forall l k, dedup (eqP A eqA) (number k l) = number k l.
Proof.
  induction l as [|x r IH]; intros k; [reflexivity|].
  cbn [number dedup]. f_equal. rewrite IH.
  apply filter_all. intros xr Hin. apply number_snd_ge in Hin.
  unfold eqP. cbn [fst snd]. replace (k =? snd xr) with false by lia. now rewrite andb_false_r.
Qed.

Lemma nodupb_dedup : forall l : list A, nodupb A eqA l = true -> dedup eqA l = l.
Proof.
  induction l as [|x r IH]; intros H; [reflexivity|]. cbn [nodupb] in H. apply andb_prop in H.
  destruct H as [H1 H2]. cbn [dedup]. rewrite IH by assumption. f_equal. apply filter_all.
  intros y Hy. destruct (eqA x y) eqn:E; [|reflexivity].
  assert (existsb (eqA x) r = true) by (apply existsb_exists; eauto).
  rewrite H in H1. discriminate.
Qed.

Lemma dedup_incl : forall l x, In x (dedup eqA l) -> In x l.
Proof.
  induction l as [|y r IH]; intros x H; [exact H|]. cbn [dedup] in H. destruct H as [<-|H]; [now left|].
  right. apply filter_In in H. now apply IH.
Qed.

Lemma last_opt_In : forall (l : list A) x, last_opt l = Some x -> In x l.
Proof.
  intros [|y r] x H; [discriminate|]. cbn [last_opt] in H. injection H as <-.
  revert y. induction r as [|z r IH]; intros y; [now left|].
  destruct r as [|w r']; [right; now left|].
  change (last (z :: w :: r') y) with (last (w :: r') y).
  destruct (IH y) as [H|H]; [left; exact H|right; right; exact H].
Qed.

Variable R : A -> A -> Prop.

Lemma SSorted_app : forall (a b : list A), StronglySorted R (a ++ b) ->
  StronglySorted R b /\ forall x y, In x a -> In y b -> R x y.
Proof.
  induction a as [|h a IH]; intros b H; cbn [app] in H.
  - split; [exact H|intros x y []].
  - apply StronglySorted_inv in H. destruct H as [H1 H2]. apply IH in H1. destruct H1 as [H1 H3].
    split; [exact H1|]. intros x y [<-|Hx] Hy.
    + rewrite Forall_forall in H2. apply H2. apply in_or_app. now right.
    + now apply H3.
Qed.

Lemma SSorted_filter : forall (f : A -> bool) (l : list A),
  StronglySorted R l -> StronglySorted R (filter f l).
Proof.
  induction l as [|x r IH]; intros H; [constructor|]. apply StronglySorted_inv in H.
  destruct H as [H1 H2]. cbn [filter]. destruct (f x); [|now apply IH].
  constructor; [now apply IH|]. rewrite Forall_forall in *. intros y Hy.
  apply filter_In in Hy. now apply H2.
Qed.

Lemma SSorted_dedup : forall l,
  StronglySorted R l -> StronglySorted R (dedup eqA l).
Proof.
  induction l as [|x r IH]; intros H; [constructor|]. apply StronglySorted_inv in H.
  destruct H as [H1 H2]. cbn [dedup]. constructor; [apply SSorted_filter; now apply IH|].
  rewrite Forall_forall in *. intros y Hy. apply filter_In in Hy. apply H2.
  eapply dedup_incl. exact (proj1 Hy).
Qed.

Lemma SSorted_dropZ : forall (l : list A) n, StronglySorted R l -> StronglySorted R (dropZ n l).
Proof.
  intros l n H. rewrite <- (takeZ_dropZ l n) in H. now apply SSorted_app in H.
Qed.

End L.
