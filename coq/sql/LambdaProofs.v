(* C17 - proofs: under the guard every construction equals the directly built statement *)
From Coq Require Import List NArith ZArith Bool.
Import ListNotations.
From SAV.sql Require Import Lambda LambdaBase.

Definition is_none (v : val) : bool := match v with VNone => true | _ => false end.

(* The guard of the main theorem.
   Static, on the body of a lambda: function cells are not also used as values, no Python-level test of a cell's
   truth value (LambdaExtra: [truth_test_unshared_rejected], [shared_truth_test_stale_refuted]) *)
Definition fn_cell_ok (us : list use) (u : use) : bool :=
  match u with
  | UCall i | UCallArg i _ => negb (has_param us i)
  | UIf _ _ _ _ _ => false
  | _ => true
  end.
Definition safe_body (us : list use) : bool := forallb (fn_cell_ok us) us.

(* Dynamic, on the closure values of one construction: no None where None-ness changes the SQL structure,
   helper functions called without arguments have no closure of their own *)
Definition safe_use (e : list val) (u : use) : bool :=
  match u with
  | UCmp _ _ _ i | ULimit i => negb (is_none (cell e i))
  | UTabCmp _ _ _ j | UCallArg _ j => negb (is_none (cell e j))
  | UCall i => match cell e i with VFun _ (_ :: _) => false | _ => true end
  | UIndex _ _ _ i k => match cell e i with
                        | VList l => Nat.ltb k (length l) && negb (is_none (nth k l VNone))
                        | _ => true
                        end
  | _ => true
  end.
Definition safe_env (us : list use) (e : list val) : bool := forallb (safe_use e) us.

Section Proofs.
  Variable F : N -> fdesc.

  Lemma fill_fixed : forall e r l, r = Ok l -> exists p, fixed r = Ok p /\ fill e p = l.
  Proof.
    intros e r l ->. exists (map SFix l). split; [reflexivity|].
    unfold fill. induction l as [|x l IH]; [reflexivity|]. cbn. f_equal. exact IH.
  Qed.

  Lemma cmp_direct_ok : forall t c op v l, cmp_direct t c op v = Ok l -> negb (is_none v) = true -> [ICrit (CCmp t c op v)] = l.
  Proof. intros t c op v l H Hn. destruct v; try discriminate; cbn in H; inversion H; reflexivity. Qed.

  (* Either the use is built from the present values ([fill_fixed]), or it becomes a slot that [fill] reads from
     the same cell the direct construction reads; the guard excludes the None operand, where the two differ. *)
  Lemma build_fill_use : forall a e u its,
    safe_use e u = true -> direct_use F e u = Ok its -> exists p, build_use F a e u = Ok p /\ fill e p = its.
  Proof.
    intros a e u its Hs Hd. pose proof (fill_fixed e _ _ Hd) as Hfix.
    (* [Hfix] settles UFrom, UColCmp, UCall, UIf; left: UCmp, UIn, UTabCmp, UCallArg, ULimit, UIndex *)
    destruct u; cbn [build_use]; try exact Hfix; cbn [direct_use safe_use] in Hd, Hs.
    - destruct (wrapped a i); [|exact Hfix]. eexists. split; [reflexivity|].
      exact (cmp_direct_ok _ _ _ _ _ Hd Hs).
    - destruct (wrapped a i); [|exact Hfix]. eexists. split; [reflexivity|]. cbn.
      destruct (cell e i); try discriminate. destruct (forallb is_scalar l); [|discriminate]. inversion Hd. reflexivity.
    - destruct (cell e i); try discriminate. destruct (wrapped a j); [|exact Hfix]. eexists. split; [reflexivity|].
      exact (cmp_direct_ok _ _ _ _ _ Hd Hs).
    - destruct (cell e i); try discriminate. destruct (wrapped a j); [|exact Hfix]. eexists. split; [reflexivity|].
      exact (cmp_direct_ok _ _ _ _ _ Hd Hs).
    - destruct (wrapped a i); [|exact Hfix]. eexists. split; [reflexivity|]. cbn.
      destruct (cell e i); try discriminate; inversion Hd; reflexivity.
    - destruct (wrapped a i); [|exact Hfix]. destruct (cell e i) eqn:Ei; try discriminate.
      destruct (nth_error l k) as [v|] eqn:En; [|discriminate]. eexists. split; [reflexivity|]. cbn. rewrite Ei.
      apply andb_true_iff in Hs. destruct Hs as [_ Hs].
      rewrite (nth_error_nth l k VNone En) in *. exact (cmp_direct_ok _ _ _ _ _ Hd Hs).
  Qed.

  Lemma build_fill_uses : forall a e us its,
    forallb (safe_use e) us = true -> direct_uses F e us = Ok its ->
    exists p, build_uses F a e us = Ok p /\ fill e p = its.
  Proof.
    intros a e us. induction us as [|u r IH]; intros its Hs Hd.
    - cbn in Hd. inversion Hd. exists []. split; reflexivity.
    - cbn in Hs, Hd. apply andb_true_iff in Hs. destruct Hs as [Hs1 Hs2].
      destruct (direct_use F e u) as [l1| | |] eqn:E1; try discriminate.
      destruct (direct_uses F e r) as [l2| | |] eqn:E2; try discriminate. inversion Hd; subst.
      destruct (build_fill_use a e u l1 Hs1 E1) as (p1 & Hp1 & Hf1).
      destruct (IH l2 Hs2 eq_refl) as (p2 & Hp2 & Hf2).
      exists (p1 ++ p2). cbn. rewrite Hp1, Hp2. split; [reflexivity|].
      unfold fill in *. rewrite flat_map_app, Hf1, Hf2. reflexivity.
  Qed.

  Lemma classify_kind : forall us i v v', kind v = kind v' -> classify us i v = classify us i v'.
  Proof.
    intros us i v v' H. unfold classify. rewrite <- (kind_literal _ _ H). pose proof (kind_shape _ _ H) as C.
    destruct v, v'; try contradiction; reflexivity.
  Qed.

  Lemma classify_cells_kind : forall us e e' k, map kind e = map kind e' -> classify_cells us k e = classify_cells us k e'.
  Proof.
    intros us. induction e as [|v r IH]; destruct e'; intros k H; try discriminate; [reflexivity|].
    cbn in H. inversion H. cbn. rewrite (kind_literal _ _ H1), (classify_kind us k _ _ H1), (IH _ _ H2). reflexivity.
  Qed.

  Lemma analyze_kind : forall us e e', map kind e = map kind e' -> analyze us e = analyze us e'.
  Proof. intros us e e' H. unfold analyze. rewrite (classify_cells_kind us e e' 0 H). reflexivity. Qed.

  (* What the key of cell i (wrapped or not: [w]) lets two closure values v, v' differ in: a wrapped cell holds a
     literal, whose value the skeleton never contains; any other cell is in the key as it is; of a function cell
     that is only ever called the key holds the code object. *)
  Definition alike (us : list use) (i : nat) (w : bool) (v v' : val) : Prop :=
    kind v = kind v' /\
    (if w then deep_is_literal v = true else v = v') /\
    (has_param us i = false -> forall code cap, v = VFun code cap -> exists cap', v' = VFun code cap').

  Lemma alike_value : forall us i v v', kind v = kind v' ->
    keypart (deep_is_literal v, classify us i v) v = keypart (deep_is_literal v, classify us i v) v' ->
    alike us i (deep_is_literal v) v v'.
  Proof.
    intros us i v v' Hk Hp. unfold keypart, classify in Hp. cbn [snd] in Hp. split; [exact Hk|split].
    - destruct (deep_is_literal v) eqn:L; [reflexivity|].
      destruct v; try discriminate L; cbn in Hp; injection Hp as <-; reflexivity.
    - intros Hpar code cap ->. cbn in Hp. rewrite Hpar in Hp. destruct v'; try discriminate Hp. injection Hp as <-. eauto.
  Qed.

  (* How [build_use] reads a cell for its structure.  The statements are over an arbitrary [match] of that shape
     so that [build_use_same_key] can rewrite under the matches of [build_use] without unfolding them. *)
  Lemma literal_not_tab : forall v, deep_is_literal v = true ->
    forall A (f : N -> A) d, match v with VTab t => f t | _ => d end = d.
  Proof. intros [] L; (reflexivity || discriminate L). Qed.
  Lemma literal_not_col : forall v, deep_is_literal v = true ->
    forall A (f : N -> N -> A) d, match v with VCol t c => f t c | _ => d end = d.
  Proof. intros [] L; (reflexivity || discriminate L). Qed.

  Lemma fun_read : forall us i w v v', alike us i w v v' -> has_param us i = false ->
    forall A (f f' : N -> list val -> A) d,
    (forall code cap cap', v = VFun code cap -> v' = VFun code cap' -> f code cap = f' code cap') ->
    match v with VFun c p => f c p | _ => d end = match v' with VFun c p => f' c p | _ => d end.
  Proof.
    intros us i w v v' (C%kind_shape & _ & Hf) Hp A f f' d H. destruct v, v'; try reflexivity; try contradiction.
    destruct (Hf Hp _ _ eq_refl) as [? [= <- _]]. eauto.
  Qed.

  Lemma list_read : forall v v', same_shape v v' -> forall A (f f' : list val -> A) d,
    (forall l l', v = VList l -> v' = VList l' -> f l = f' l') ->
    match v with VList l => f l | _ => d end = match v' with VList l => f' l | _ => d end.
  Proof. intros v v' C A f f' d H. destruct v, v'; try reflexivity; try contradiction. eauto. Qed.

  (* past the end of the closure [cell] is None and [wrapped] is false on both sides *)
  Lemma alike_cells : forall us e e' k, map kind e = map kind e' ->
    keyparts (classify_cells us k e) e = keyparts (classify_cells us k e) e' ->
    forall i, alike us (k + i) (wrapped (classify_cells us k e) i) (cell e i) (cell e' i).
  Proof.
    intros us. induction e as [|v e IH]; intros [|v' e'] k HK HP i; try discriminate.
    - destruct i; (split; [reflexivity|split; [reflexivity|discriminate]]).
    - cbn in HK, HP. injection HK as Hv HK. injection HP as Hp HP. destruct i as [|i].
      + rewrite Nat.add_0_r. exact (alike_value us k v v' Hv Hp).
      + rewrite Nat.add_succ_r. exact (IH e' (S k) HK HP i).
  Qed.

  (* e0: the closure the analysis was made from; e, e': two later closures of the same kinds *)
  Section SameKey.
    Variable us : list use.
    Variables e0 e e' : list val.
    Hypothesis K : map kind e = map kind e0.
    Hypothesis K' : map kind e' = map kind e0.
    Let a := classify_cells us 0 e0.
    Hypothesis HK : keyparts a e = keyparts a e'.

    Lemma alike_at : forall i, alike us i (wrapped a i) (cell e i) (cell e' i).
    Proof.
      revert HK. unfold a. rewrite <- (classify_cells_kind us e e0 0 K). intros HK.
      apply (alike_cells us e e' 0); [congruence|exact HK].
    Qed.

    Lemma build_use_same_key : forall u, fn_cell_ok us u = true -> safe_use e u = true -> safe_use e' u = true ->
      build_use F a e u = build_use F a e' u.
    Proof.
      pose proof alike_at as A.
      (* a cell used as a value: a slot, or identical *)
      assert (V : forall i, wrapped a i = true \/ wrapped a i = false /\ cell e i = cell e' i).
      { intros i. destruct (A i) as (_ & Hw & _). destruct (wrapped a i); auto. }
      (* a cell read for its structure: identical, or a literal on both sides *)
      assert (S : forall i, cell e i = cell e' i \/ deep_is_literal (cell e i) = true /\ deep_is_literal (cell e' i) = true).
      { intros i. destruct (A i) as (Hk & Hw & _). rewrite <- (kind_literal _ _ Hk). destruct (wrapped a i); auto. }
      (* cases: UFrom, UCmp, UIn, UColCmp, UTabCmp, UCall, UCallArg, ULimit, UIf (outside the guard), UIndex *)
      intros u Hb Hs Hs'. destruct u; cbn [build_use direct_use].
      - destruct (S i) as [->|[L L']]; [|rewrite !literal_not_tab by assumption]; reflexivity.
      - destruct (V i) as [->|[-> ->]]; reflexivity.
      - destruct (V i) as [->|[-> ->]]; reflexivity.
      - destruct (S i) as [->|[L L']]; [|rewrite !literal_not_col by assumption]; reflexivity.
      - destruct (S i) as [->|[L L']]; [|rewrite !literal_not_tab by assumption; reflexivity].
        destruct (V j) as [->|[-> ->]]; reflexivity.
      - (* same code object, and the guard says neither function has a closure of its own *)
        cbn [fn_cell_ok safe_use] in Hb, Hs, Hs'. apply negb_true_iff in Hb. f_equal.
        apply (fun_read _ _ _ _ _ (A i) Hb). intros code cap cap' E E'. rewrite E in Hs. rewrite E' in Hs'.
        destruct cap; [|discriminate]. destruct cap'; [|discriminate]. reflexivity.
      - cbn [fn_cell_ok] in Hb. apply negb_true_iff in Hb.
        apply (fun_read _ _ _ _ _ (A i) Hb). intros code cap cap' E E'. rewrite E, E'.
        destruct (V j) as [->|[-> ->]]; reflexivity.
      - destruct (V i) as [->|[-> ->]]; reflexivity.
      - discriminate.
      - (* the guard says item k exists on both sides *)
        destruct (V i) as [->|[-> ->]]; [|reflexivity]. cbn [safe_use] in Hs, Hs'. destruct (A i) as (C%kind_shape & _).
        apply (list_read _ _ C). intros l l' E E'. rewrite E in Hs. rewrite E' in Hs'.
        apply andb_true_iff in Hs, Hs'. destruct Hs as [Hs _], Hs' as [Hs' _]. apply Nat.ltb_lt in Hs, Hs'.
        rewrite (nth_error_nth' l VNone Hs), (nth_error_nth' l' VNone Hs'). reflexivity.
    Qed.

    Lemma build_uses_same_key : forall us', forallb (fn_cell_ok us) us' = true ->
      forallb (safe_use e) us' = true -> forallb (safe_use e') us' = true ->
      build_uses F a e us' = build_uses F a e' us'.
    Proof.
      induction us' as [|u r IH]; intros Hb Hs Hs'; [reflexivity|].
      cbn in Hb, Hs, Hs'. apply andb_true_iff in Hb, Hs, Hs'. destruct Hb as [Hb1 Hb2], Hs as [Hs1 Hs2], Hs' as [Hs1' Hs2'].
      cbn. rewrite (build_use_same_key u Hb1 Hs1 Hs1'), (IH Hb2 Hs2 Hs2'). reflexivity.
    Qed.
  End SameKey.
End Proofs.
