(* C21 - the rendered names of a compilation do not depend on the identities (Python id()) inside
   anonymous names (Anon segments), only on which of them are equal; the ids of bind parameter objects
   (RBind) are not renamed *)
From Coq Require Import List NArith ZArith Bool Lia.
Import ListNotations.
From SAV.sql Require Import Trunc TruncDigits TruncLabels.

Lemma assoc_map_inj {K V} (eqb : K -> K -> bool) (g : K -> K) :
  (forall a b, eqb a b = true <-> a = b) -> (forall a b, g a = g b -> a = b) ->
  forall k (l : list (K * V)), assoc eqb (g k) (map (fun e => (g (fst e), snd e)) l) = assoc eqb k l.
Proof.
  intros Heq Hg k. induction l as [|[k' v] l IH]; cbn [map assoc fst snd]; [reflexivity|].
  destruct (eqb_spec_of _ Heq k k') as [->|N].
  - rewrite (eqb_refl_of _ Heq). reflexivity.
  - destruct (eqb_spec_of _ Heq (g k) (g k')) as [E|_]; [destruct N; apply Hg, E|exact IH].
Qed.

Section Rename.
  Variable f : N -> N.
  Hypothesis f_inj : forall a b, f a = f b -> a = b.

  Definition rn_seg (s : seg) : seg := match s with Lit l => Lit l | Anon i b => Anon (f i) b end.
  Definition rn_name (n : tname) : tname := map rn_seg n.
  Definition rn_akey (k : akey) : akey := (f (fst k), snd k).
  Definition rn_ckey (k : ckey) : ckey := (fst k, rn_name (snd k)).
  Definition rn_am (am : amap) : amap :=
    {| am_keys := map (fun e => (rn_akey (fst e), snd e)) (am_keys am); am_ctr := am_ctr am |}.
  Definition rn_st (st : cstate) : cstate :=
    {| st_am := rn_am (st_am st);
       st_memo := map (fun e => (rn_ckey (fst e), snd e)) (st_memo st);
       st_tctr := st_tctr st; st_binds := st_binds st; st_bind_names := st_bind_names st |}.
  Definition rn_lname (n : lname) : lname := match n with LStr s => LStr s | LTrunc t => LTrunc (rn_name t) end.
  Definition rn_req (r : req) : req := match r with RName c n => RName c (rn_lname n) | RBind o => RBind o end.
  Definition rn_bkey (k : bkey) : bkey := match k with BPlain s => BPlain s | BTrunc t => BTrunc (rn_name t) end.

  Lemma rn_seg_inj : forall a b, rn_seg a = rn_seg b -> a = b.
  Proof. intros [l|i b] [l'|i' b'] H; cbn in H; inversion H; try reflexivity. apply f_inj in H1. congruence. Qed.
  Lemma rn_name_inj : forall a b, rn_name a = rn_name b -> a = b.
  Proof. exact (map_inj _ rn_seg_inj). Qed.
  Lemma rn_akey_inj : forall a b, rn_akey a = rn_akey b -> a = b.
  Proof. intros [i s] [j t] H. unfold rn_akey in H. cbn in H. inversion H. apply f_inj in H1. congruence. Qed.
  Lemma rn_ckey_inj : forall a b, rn_ckey a = rn_ckey b -> a = b.
  Proof. intros [i s] [j t] H. unfold rn_ckey in H. cbn in H. inversion H. apply rn_name_inj in H2. congruence. Qed.

  Lemma am_get_rn : forall am i b,
    am_get (rn_am am) (f i, b) = (rn_am (fst (am_get am (i, b))), snd (am_get am (i, b))).
  Proof.
    intros am i b. unfold am_get. cbn [rn_am am_keys].
    change (f i, b) with (rn_akey (i, b)).
    rewrite (assoc_map_inj akey_eqb rn_akey akey_eqb_eq rn_akey_inj).
    destruct (assoc akey_eqb (i, b) (am_keys am)); reflexivity.
  Qed.

  Lemma apply_map_rn : forall n am,
    apply_map (rn_am am) (rn_name n) = (rn_am (fst (apply_map am n)), snd (apply_map am n)).
  Proof.
    induction n as [|[l|i b] r IH]; intros am; cbn [rn_name map rn_seg apply_map].
    - reflexivity.
    - fold (rn_name r). rewrite IH. destruct (apply_map am r). reflexivity.
    - fold (rn_name r). rewrite am_get_rn. destruct (am_get am (i, b)) as [am1 v]. cbn [fst snd].
      rewrite IH. destruct (apply_map am1 r). reflexivity.
  Qed.

  Lemma truncated_identifier_rn : forall ll st cls n,
    truncated_identifier ll (rn_st st) cls (rn_name n)
    = (rn_st (fst (truncated_identifier ll st cls n)), snd (truncated_identifier ll st cls n)).
  Proof.
    intros ll st cls n. unfold truncated_identifier. cbn [rn_st st_memo st_am].
    change (cls, rn_name n) with (rn_ckey (cls, n)).
    rewrite (assoc_map_inj ckey_eqb rn_ckey ckey_eqb_eq rn_ckey_inj).
    destruct (assoc ckey_eqb (cls, n) (st_memo st)); [reflexivity|].
    rewrite apply_map_rn. destruct (apply_map (st_am st) n) as [am' a]. cbn [fst snd].
    destruct (label_too_long (slen a) ll); reflexivity.
  Qed.

  Section WithBinds.
    Variables benv benv' : N -> bindrec.
    Hypothesis benv_rn : forall oid, b_key (benv' oid) = rn_bkey (b_key (benv oid))
                                     /\ b_unique (benv' oid) = b_unique (benv oid)
                                     /\ b_expanding (benv' oid) = b_expanding (benv oid).

    Lemma truncate_bindparam_rn : forall ll st oid,
      truncate_bindparam benv' ll (rn_st st) oid
      = (rn_st (fst (truncate_bindparam benv ll st oid)), snd (truncate_bindparam benv ll st oid)).
    Proof.
      intros ll st oid. unfold truncate_bindparam. cbn [rn_st st_bind_names].
      destruct (assoc N.eqb oid (st_bind_names st)); [reflexivity|].
      destruct (benv_rn oid) as (K & _). rewrite K. destruct (b_key (benv oid)) as [s|t]; cbn [rn_bkey].
      - reflexivity.
      - rewrite truncated_identifier_rn. destruct (truncated_identifier ll st cls_bindparam t). reflexivity.
    Qed.

    Definition rn_res (r : result (cstate * str)) : result (cstate * str) :=
      match r with Ok (st, o) => Ok (rn_st st, o) | Raise e => Raise e end.

    Lemma visit_bindparam_rn : forall ll st oid,
      visit_bindparam benv' ll (rn_st st) oid = rn_res (visit_bindparam benv ll st oid).
    Proof.
      intros ll st oid. unfold visit_bindparam. rewrite truncate_bindparam_rn.
      destruct (truncate_bindparam benv ll st oid) as [st1 nm]. cbn [fst snd rn_st st_binds].
      destruct (assoc str_eqb nm (st_binds st1)) as [ex|]; [|reflexivity].
      destruct (N.eqb ex oid); [reflexivity|].
      destruct (benv_rn ex) as (_ & U1 & X1). destruct (benv_rn oid) as (_ & U2 & X2).
      rewrite U1, U2, X1, X2.
      destruct (b_unique (benv ex) || b_unique (benv oid)); [reflexivity|].
      destruct (negb (eqb (b_expanding (benv ex)) (b_expanding (benv oid)))); reflexivity.
    Qed.

    Lemma step_rn : forall ll st r, step benv' ll (rn_st st) (rn_req r) = rn_res (step benv ll st r).
    Proof.
      intros ll st [cls [s|n]|oid]; cbn [rn_req rn_lname step element_name rn_res].
      - reflexivity.
      - rewrite truncated_identifier_rn. destruct (truncated_identifier ll st cls n). reflexivity.
      - apply visit_bindparam_rn.
    Qed.

    Lemma run_rn : forall ll rs st,
      run benv' ll (rn_st st) (map rn_req rs)
      = match run benv ll st rs with Ok (st', os) => Ok (rn_st st', os) | Raise e => Raise e end.
    Proof.
      intros ll. induction rs as [|r rs IH]; intros st; cbn [map run].
      - reflexivity.
      - rewrite step_rn. destruct (step benv ll st r) as [[st1 o]|e]; cbn [rn_res]; [|reflexivity].
        rewrite IH. destruct (run benv ll st1 rs) as [[st2 os]|e]; reflexivity.
    Qed.

    Theorem names_independent_of_ids : forall ll rs,
      match run benv ll init_state rs, run benv' ll init_state (map rn_req rs) with
      | Ok (_, os), Ok (_, os') => os = os'
      | Raise e, Raise e' => e = e'
      | _, _ => False
      end.
    Proof.
      intros ll rs. pose proof (run_rn ll rs init_state) as H. change (rn_st init_state) with init_state in H. rewrite H.
      destruct (run benv ll init_state rs) as [[st os]|e]; reflexivity.
    Qed.
  End WithBinds.
End Rename.
