(* C56 - the execution strategies of an upsert executemany refine the insert-or-update fold. *)
From Coq Require Import List ZArith Bool Lia Permutation.
Import ListNotations.
From SAV.sql Require Import Upsert UpsertAsm UpsertParse UpsertSpec UpsertSynProofs UpsertAsmProofs.

(* SET items commute when they assign different columns *)
Lemma set_nth_comm : forall i j a b r, i <> j -> set_nth i a (set_nth j b r) = set_nth j b (set_nth i a r).
Proof.
  induction i as [|i IH]; intros j a b r Hne; destruct j as [|j]; destruct r as [|x r]; try reflexivity; try congruence.
  cbn [set_nth]. f_equal. apply IH. congruence.
Qed.

Lemma fold_set_perm : forall (g : nat * expr -> option Z) s s',
  Permutation s s' -> NoDup (map fst s) ->
  forall r, fold_left (fun acc ce => set_nth (fst ce) (g ce) acc) s r =
            fold_left (fun acc ce => set_nth (fst ce) (g ce) acc) s' r.
Proof.
  intros g s s' HP. induction HP; intros Hnd r.
  - reflexivity.
  - cbn [fold_left]. apply IHHP. inversion Hnd; assumption.
  - cbn [fold_left]. f_equal. apply set_nth_comm. cbn [map] in Hnd.
    inversion Hnd as [|? ? Hnin _]; subst. intros E. apply Hnin. left. congruence.
  - rewrite IHHP1 by assumption. apply IHHP2.
    eapply Permutation_NoDup; [apply Permutation_map; exact HP1|exact Hnd].
Qed.

Lemma assign_simul_perm : forall s s' old exc bp,
  Permutation s s' -> NoDup (map fst s) -> assign_simul s old exc bp = assign_simul s' old exc bp.
Proof.
  intros. unfold assign_simul.
  apply (fold_set_perm (fun ce => ev_expr (mkenv old exc bp) (snd ce))); assumption.
Qed.

Lemma do_action_perm : forall ixs tg a tg' a' t h newr bp,
  clause_perm (tg, a) (tg', a') -> sets_nodup (tg, a) ->
  do_action ixs a t h newr bp = do_action ixs a' t h newr bp.
Proof.
  intros ixs tg a tg' a' t h newr bp [_ H] Hnd. cbn [snd] in H. unfold sets_nodup in Hnd. cbn [snd] in Hnd.
  destruct a as [|s w]; destruct a' as [|s' w']; try contradiction; [reflexivity|].
  destruct H as [HP ->]. cbn [do_action]. unfold do_update.
  rewrite (assign_simul_perm s s' _ _ _ HP Hnd). reflexivity.
Qed.

Lemma run_clauses_perm : forall ixs cls cls' t newr bp,
  Forall2 clause_perm cls cls' -> Forall sets_nodup cls ->
  run_clauses ixs cls t newr bp = run_clauses ixs cls' t newr bp.
Proof.
  intros ixs cls cls' t newr bp H. induction H as [|[tg a] [tg' a'] l l' Hc Hl IH]; intros Hnd; [reflexivity|].
  inversion Hnd as [|? ? Hn1 Hn2]; subst. cbn [run_clauses].
  assert (tg = tg') as <- by (destruct Hc as [E _]; exact E).
  destruct (clause_hit ixs tg newr t); [|apply IH; assumption].
  f_equal. eapply do_action_perm; eassumption.
Qed.

Lemma upsert_one_perm : forall ixs cls cls' t newr bp,
  Forall2 clause_perm cls cls' -> Forall sets_nodup cls ->
  upsert_one ixs cls t newr bp = upsert_one ixs cls' t newr bp.
Proof. intros. unfold upsert_one. rewrite (run_clauses_perm ixs cls cls') by assumption. reflexivity. Qed.

Lemma targets_ok_perm : forall ixs cls cls', Forall2 clause_perm cls cls' -> targets_ok ixs cls = targets_ok ixs cls'.
Proof.
  intros ixs cls cls' H. induction H as [|[tg a] [tg' a'] l l' Hc Hl IH]; [reflexivity|].
  unfold targets_ok in *. cbn [forallb fst]. destruct Hc as [E _]. cbn [fst] in E. subst tg'. rewrite IH. reflexivity.
Qed.

Lemma clause_perm_nodup : forall cls cls', Forall2 clause_perm cls cls' -> Forall sets_nodup cls' -> Forall sets_nodup cls.
Proof.
  intros cls cls' H. induction H as [|[tg a] [tg' a'] l l' Hc Hl IH]; intros Hnd; [constructor|].
  inversion Hnd as [|? ? Hn1 Hn2]; subst. constructor; [|auto].
  destruct Hc as [_ Hc]. cbn [snd] in Hc. unfold sets_nodup in *. cbn [snd] in *.
  destruct a as [|s w]; destruct a' as [|s' w']; try contradiction; [exact I|].
  destruct Hc as [HP _]. eapply Permutation_NoDup; [apply Permutation_map; apply Permutation_sym; exact HP|exact Hn1].
Qed.

(* Clauses without per-row bound parameters run the same whatever parameter set accompanies the row. *)
Definition atom_nopar (a : atom) : bool := negb (atom_is_par a).
Definition expr_nopar (e : expr) : bool := negb (expr_has_par e).
Definition pred_nopar (p : pred) : bool := negb (pred_has_par p).
Definition clause_nopar (c : clause) : bool :=
  match snd c with
  | DoNothing => true
  | DoUpdate s w => forallb (fun ce => expr_nopar (snd ce)) s && match w with Some p => pred_nopar p | None => true end
  end.

Lemma ev_atom_nopar : forall a o e bp bp', atom_nopar a = true -> ev_atom (mkenv o e bp) a = ev_atom (mkenv o e bp') a.
Proof. intros [] o e bp bp' H; try reflexivity. discriminate. Qed.

Lemma ev_expr_nopar : forall x o e bp bp', expr_nopar x = true -> ev_expr (mkenv o e bp) x = ev_expr (mkenv o e bp') x.
Proof.
  intros [a|a b] o e bp bp' H; unfold expr_nopar in H; cbn [expr_has_par ev_expr] in *.
  - apply ev_atom_nopar. exact H.
  - rewrite negb_orb in H. apply andb_prop in H as [Ha Hb].
    rewrite (ev_atom_nopar a o e bp bp' Ha), (ev_atom_nopar b o e bp bp' Hb). reflexivity.
Qed.

Lemma ev_pred_nopar : forall p o e bp bp', pred_nopar p = true -> ev_pred (mkenv o e bp) p = ev_pred (mkenv o e bp') p.
Proof.
  intros [c l r] o e bp bp' H. unfold pred_nopar in H. cbn [pred_has_par ev_pred] in *.
  rewrite negb_orb in H. apply andb_prop in H as [Hl Hr].
  rewrite (ev_expr_nopar l o e bp bp' Hl), (ev_expr_nopar r o e bp bp' Hr). reflexivity.
Qed.

Lemma assign_simul_nopar : forall s o e bp bp',
  forallb (fun ce => expr_nopar (snd ce)) s = true -> assign_simul s o e bp = assign_simul s o e bp'.
Proof.
  intros s o e bp bp'. unfold assign_simul. generalize o at 2 4 as acc.
  induction s as [|ce s IH]; intros acc H; [reflexivity|].
  cbn [forallb] in H. apply andb_prop in H as [H1 H2]. cbn [fold_left].
  rewrite (ev_expr_nopar (snd ce) o e bp bp' H1). apply IH. exact H2.
Qed.

Lemma run_clauses_nopar : forall ixs cls t r bp bp',
  forallb clause_nopar cls = true -> run_clauses ixs cls t r bp = run_clauses ixs cls t r bp'.
Proof.
  intros ixs cls t r bp bp'. induction cls as [|[tg a] cls IH]; intros H; [reflexivity|].
  cbn [forallb] in H. apply andb_prop in H as [H1 H2]. cbn [run_clauses].
  destruct (clause_hit ixs tg r t) as [h|]; [|apply IH; exact H2]. f_equal.
  destruct a as [|s w]; [reflexivity|]. unfold clause_nopar in H1. cbn [snd] in H1.
  apply andb_prop in H1 as [Hs Hw]. cbn [do_action]. unfold do_update.
  rewrite (assign_simul_nopar s _ _ bp bp' Hs).
  destruct w as [p|]; [|reflexivity]. cbn [opt_holds]. rewrite (ev_pred_nopar p _ _ bp bp' Hw). reflexivity.
Qed.

Lemma upsert_one_nopar : forall ixs cls t r bp bp',
  forallb clause_nopar cls = true -> upsert_one ixs cls t r bp = upsert_one ixs cls t r bp'.
Proof. intros. unfold upsert_one. rewrite (run_clauses_nopar ixs cls t r bp bp') by assumption. reflexivity. Qed.

(* a construct without bindparam() in SET values / WHERE denotes bindparam-free clauses *)
Lemma norm_expr_par : forall e, expr_has_par (norm_expr e) = expr_has_par e.
Proof. intros [[]|[] []]; reflexivity. Qed.
Lemma norm_pred_par : forall p, pred_has_par (norm_pred p) = pred_has_par p.
Proof. intros [c l r]. cbn [norm_pred pred_has_par]. rewrite !norm_expr_par. reflexivity. Qed.

Lemma spec_sets_nopar : forall cols s l,
  spec_sets cols s = Some l -> existsb (fun kv => expr_has_par (snd kv)) s = false ->
  forallb (fun ce => expr_nopar (snd ce)) l = true.
Proof.
  unfold spec_sets. induction s as [|[k v] s IH]; intros l H Hp; cbn [map] in H.
  - injection H as <-. reflexivity.
  - apply seq_cons_inv in H as (x & l' & Hx & Hl & ->). cbn [fst snd] in Hx. apply set_item_some in Hx as (_ & _ & Hx).
    cbn [existsb snd] in Hp. apply orb_false_elim in Hp as [Hp1 Hp2].
    cbn [forallb]. rewrite (IH l' Hl Hp2), Hx. unfold expr_nopar. rewrite norm_expr_par, Hp1. reflexivity.
Qed.

Lemma spec_of_nopar : forall cols sa cls,
  spec_of cols sa = Some cls -> existsb has_set_par sa = false -> existsb has_where_par sa = false ->
  forallb clause_nopar cls = true.
Proof.
  unfold spec_of. induction sa as [|c sa IH]; intros cls H Hs Hw; cbn [map] in H.
  - injection H as <-. reflexivity.
  - apply seq_cons_inv in H as (cl & cls' & Hc & Hl & ->).
    cbn [existsb] in Hs, Hw. apply orb_false_elim in Hs as [Hs1 Hs2]. apply orb_false_elim in Hw as [Hw1 Hw2].
    cbn [forallb]. rewrite (IH cls' Hl Hs2 Hw2), andb_true_r.
    destruct c as [t|t s w]; cbn [spec_clause] in Hc.
    + destruct (spec_target cols t); [|discriminate]. injection Hc as <-. reflexivity.
    + apply mk_update_some in Hc. destruct Hc as (tg & l & _ & Es & _ & _ & ->).
      unfold clause_nopar. cbn [snd]. rewrite (spec_sets_nopar cols s l Es Hs1). cbn [andb].
      destruct w as [p|]; [|reflexivity]. cbn [option_map has_where_par] in *.
      unfold pred_nopar. rewrite norm_pred_par, Hw1. reflexivity.
Qed.

Lemma fold_rows_ext : forall s1 s2, (forall t r bp, s1 t r bp = s2 t r bp) ->
  forall ps t, fold_rows s1 t ps = fold_rows s2 t ps.
Proof.
  intros s1 s2 H. induction ps as [|[r bp] ps IH]; intros t; [reflexivity|].
  cbn [fold_rows]. rewrite H. destruct (s2 t r bp) as [[t' o]|e]; [|reflexivity]. rewrite IH. reflexivity.
Qed.

Section Plans.
  Variable shuffle : list row -> list row.

  Lemma exec_plan_ext : forall s1 s2, (forall t r bp, s1 t r bp = s2 t r bp) ->
    forall pl t, exec_plan shuffle s1 t pl = exec_plan shuffle s2 t pl.
  Proof.
    intros s1 s2 H. induction pl as [|[bp rows] pl IH]; intros t; [reflexivity|].
    cbn [exec_plan]. unfold db_stmt. rewrite (fold_rows_ext s1 s2 H).
    destruct (fold_rows s2 t _) as [[t' rs]|e]; [|reflexivity]. rewrite IH. reflexivity.
  Qed.

  Hypothesis Hsh : forall l, Permutation (shuffle l) l.
  Variable step : table -> row -> list (option Z) -> res (table * option row).

  Lemma shuffle_small : forall l, length l <= 1 -> shuffle l = l.
  Proof.
    intros [|x [|y l]] H; [| |simpl in H; lia].
    - apply Permutation_nil. apply Permutation_sym. apply Hsh.
    - apply Permutation_length_1_inv. apply Permutation_sym. apply Hsh.
  Qed.

  (* one statement per parameter set: exactly the fold, rows in parameter order *)
  Lemma exec_rows_eq_fold : forall ps t,
    exec_plan shuffle step t (map (fun p => (snd p, [fst p])) ps) = fold_rows step t ps.
  Proof.
    induction ps as [|[r bp] ps IH]; intros t; [reflexivity|].
    cbn [map exec_plan fst snd]. unfold db_stmt. cbn [map fold_rows].
    destruct (step t r bp) as [[t' o]|e]; [|reflexivity].
    rewrite shuffle_small by (destruct o; simpl; lia).
    rewrite IH. destruct (fold_rows step t' ps) as [[t'' rs]|e]; [|reflexivity].
    destruct o; reflexivity.
  Qed.

  Hypothesis Hstep : forall t r bp bp', step t r bp = step t r bp'.

  Lemma fold_rows_bp : forall ch bp t, fold_rows step t (map (fun r => (r, bp)) (map fst ch)) = fold_rows step t ch.
  Proof.
    induction ch as [|[r bp0] ch IH]; intros bp t; [reflexivity|].
    cbn [map fst fold_rows]. rewrite (Hstep t r bp bp0).
    destruct (step t r bp0) as [[t' o]|e]; [|reflexivity]. rewrite IH. reflexivity.
  Qed.

  Lemma fold_rows_app : forall a b t,
    fold_rows step t (a ++ b) =
    match fold_rows step t a with
    | Err e => Err e
    | Ok (t', ra) => match fold_rows step t' b with Err e => Err e | Ok (t'', rb) => Ok (t'', ra ++ rb) end
    end.
  Proof.
    induction a as [|[r bp] a IH]; intros b t; cbn [app fold_rows].
    - destruct (fold_rows step t b) as [[t' rs]|e]; reflexivity.
    - destruct (step t r bp) as [[t' o]|e]; [|reflexivity]. rewrite IH.
      destruct (fold_rows step t' a) as [[t1 ra]|e]; [|reflexivity].
      destruct (fold_rows step t1 b) as [[t2 rb]|e]; [|reflexivity].
      destruct o; reflexivity.
  Qed.

  (* multi-row statements, whatever parameter set [f] takes the parameters outside VALUES from *)
  Lemma exec_chunks_equiv : forall (f : list prow -> list (option Z)) chs t,
    res_equiv (exec_plan shuffle step t (map (fun ch => (f ch, map fst ch)) chs))
              (fold_rows step t (concat chs)).
  Proof.
    induction chs as [|ch chs IH]; intros t; cbn [map exec_plan concat].
    - split; [reflexivity|apply Permutation_refl].
    - rewrite fold_rows_app. unfold db_stmt. rewrite fold_rows_bp.
      destruct (fold_rows step t ch) as [[t' ra]|e]; [|reflexivity].
      specialize (IH t').
      destruct (exec_plan shuffle step t' _) as [[t1 r1]|e1]; destruct (fold_rows step t' (concat chs)) as [[t2 r2]|e2];
        cbn [res_equiv] in *; try contradiction; try assumption.
      destruct IH as [-> HP]. split; [reflexivity|]. apply Permutation_app; [apply Hsh|exact HP].
  Qed.
End Plans.

Lemma concat_chunks : forall {A} n (l : list A) fuel, 1 <= n -> length l <= fuel -> concat (chunks fuel n l) = l.
Proof.
  intros A n l fuel Hn. revert l. induction fuel as [|fuel IH]; intros l Hl.
  - destruct l; [reflexivity|simpl in Hl; lia].
  - cbn [chunks]. destruct l as [|x l]; [reflexivity|]. cbn [concat].
    rewrite IH; [apply firstn_skipn|].
    rewrite skipn_length. cbn [length] in *. lia.
Qed.

Lemma res_equiv_refl : forall r, res_equiv r r.
Proof. intros [[t rs]|e]; cbn; auto. Qed.

(* the whole path: construct -> text -> parse -> strategy  vs  the fold over the user's clauses *)
Section Main.
  Variable shuffle : list row -> list row.
  Hypothesis Hsh : forall l, Permutation (shuffle l) l.

  (* sort_by_parameter_order without an embedded counter: never batched *)
  Lemma sorted_not_batched : forall returning n sa, batched false returning true n sa = false.
  Proof.
    intros returning n sa. unfold batched, use_row_at_a_time. destruct returning; [|reflexivity].
    cbn. apply andb_false_r.
  Qed.

  Lemma no_returning_not_batched : forall embed sorted n sa, batched embed false sorted n sa = false.
  Proof. reflexivity. Qed.

  (* without an embedded counter a batched execution has no per-row bindparam in SET / WHERE at all *)
  Lemma batched_no_row_par : forall returning sorted n sa,
    batched false returning sorted n sa = true ->
    existsb has_set_par sa = false /\ existsb has_where_par sa = false.
  Proof.
    intros returning sorted n sa H. unfold batched, use_row_at_a_time in H.
    assert (E : existsb has_row_par sa = false).
    { destruct returning, sorted, (Nat.ltb 1 n), (existsb has_row_par sa); cbn in H; try discriminate; reflexivity. }
    clear H. induction sa as [|c sa IH]; [auto|].
    cbn [existsb] in *. apply orb_false_elim in E as [E1 E2].
    unfold has_row_par in E1. apply orb_false_elim in E1 as [A B].
    destruct (IH E2) as [IH1 IH2]. rewrite A, B, IH1, IH2. auto.
  Qed.

  Theorem chain_error : forall sqlite embed cols ixs sa returning sorted page t ps,
    chain_ok sa = false ->
    exec_impl shuffle sqlite embed cols ixs sa returning sorted page t ps = Err EInvalidRequest.
  Proof. intros. unfold exec_impl. rewrite H. reflexivity. Qed.

  Section Guarded.
    Variables (sqlite : bool) (cols : list coldesc) (ixs : list uindex) (sa : list sa_clause)
              (t : table) (ps : list prow) (cls : list clause).
    Hypothesis Hwf : wf_cols cols.
    Hypothesis Hch : chain_ok sa = true.
    Hypothesis Hspec : spec_of cols sa = Some cls.
    Hypothesis Hnd : Forall sets_nodup cls.
    Hypothesis Hlit : sqlite && existsb uses_literal_execute sa && Nat.ltb 1 (length ps) = false.

    (* assembly, rendering and parsing drop out: the database runs the user's clauses over the plan *)
    Lemma exec_impl_unfold : forall embed returning sorted page,
      exec_impl shuffle sqlite embed cols ixs sa returning sorted page t ps =
      if targets_ok ixs cls
      then exec_plan shuffle (upsert_one ixs cls) t (plan sqlite (batched embed returning sorted (length ps) sa) page ps)
      else Err EOperational.
    Proof.
      intros embed returning sorted page.
      destruct (asm_clauses_perm cols Hwf sa cls Hspec Hnd) as (cls' & Habs & HP).
      unfold exec_impl. rewrite Hch, Hlit. cbn [negb].
      rewrite (parse_render_clauses cols (proj1 Hwf) _ cls' Habs), (targets_ok_perm ixs cls' cls HP).
      destruct (targets_ok ixs cls); [|reflexivity]. cbn [negb].
      apply exec_plan_ext. intros. apply upsert_one_perm; [exact HP|exact (clause_perm_nodup _ _ HP Hnd)].
    Qed.

    Theorem exec_impl_exact : forall embed returning sorted page,
      batched embed returning sorted (length ps) sa = false ->
      exec_impl shuffle sqlite embed cols ixs sa returning sorted page t ps = upsert_spec ixs cls t ps.
    Proof.
      intros embed returning sorted page Hb. rewrite exec_impl_unfold, Hb. unfold upsert_spec, plan.
      destruct (targets_ok ixs cls); [|reflexivity]. apply (exec_rows_eq_fold shuffle Hsh).
    Qed.

    (* a batched execution runs every row of a page with one parameter set's values outside VALUES: harmless
       when SET and WHERE mention no per-row parameter, whatever index_where holds *)
    Theorem exec_impl_equiv_nopar : forall embed returning sorted page,
      (batched embed returning sorted (length ps) sa = true ->
       existsb has_set_par sa = false /\ existsb has_where_par sa = false) ->
      res_equiv (exec_impl shuffle sqlite embed cols ixs sa returning sorted page t ps) (upsert_spec ixs cls t ps).
    Proof.
      intros embed returning sorted page Hsafe.
      destruct (batched embed returning sorted (length ps) sa) eqn:Hb.
      - rewrite exec_impl_unfold, Hb. unfold upsert_spec, plan. destruct (targets_ok ixs cls); [|reflexivity].
        destruct (Hsafe eq_refl) as [H1 H2]. pose proof (spec_of_nopar cols sa cls Hspec H1 H2) as Hnp.
        pose proof (exec_chunks_equiv shuffle Hsh (upsert_one ixs cls)
                      (fun t r bp bp' => upsert_one_nopar ixs cls t r bp bp' Hnp)
                      (fun ch => if sqlite then first_bp ch else first_bp ps)
                      (chunks (length ps) (Nat.max 1 page) ps) t) as HE.
        rewrite concat_chunks in HE by lia. exact HE.
      - rewrite exec_impl_exact by exact Hb. apply res_equiv_refl.
    Qed.

    (* [batch_safe] also excludes parameters inside index_where, which the model never evaluates *)
    Theorem exec_impl_equiv : forall embed returning sorted page,
      (batched embed returning sorted (length ps) sa = true -> batch_safe sa = true) ->
      res_equiv (exec_impl shuffle sqlite embed cols ixs sa returning sorted page t ps) (upsert_spec ixs cls t ps).
    Proof.
      intros embed returning sorted page Hsafe. apply exec_impl_equiv_nopar. intros Hb.
      specialize (Hsafe Hb). unfold batch_safe in Hsafe.
      apply andb_prop in Hsafe as [Hsafe _]. apply andb_prop in Hsafe as [H1 H2]. apply negb_true_iff in H1, H2. auto.
    Qed.

    Theorem returning_in_param_order : forall returning page,
      exec_impl shuffle sqlite false cols ixs sa returning true page t ps = upsert_spec ixs cls t ps.
    Proof. intros. apply exec_impl_exact, sorted_not_batched. Qed.

    Theorem no_returning_exact : forall embed sorted page,
      exec_impl shuffle sqlite embed cols ixs sa false sorted page t ps = upsert_spec ixs cls t ps.
    Proof. intros. apply exec_impl_exact, no_returning_not_batched. Qed.

    (* SQLite, and PostgreSQL without embedded counter: a batched execution has no per-row parameter in SET or
       WHERE anyway.  The hypothesis on index_where is not needed here; the statement keeps it to stay inside the
       region of the model that is validated against the database *)
    Theorem exec_impl_equiv_no_embed : forall returning sorted page,
      existsb has_iw_par sa = false ->
      res_equiv (exec_impl shuffle sqlite false cols ixs sa returning sorted page t ps) (upsert_spec ixs cls t ps).
    Proof. intros returning sorted page _. apply exec_impl_equiv_nopar, batched_no_row_par. Qed.
  End Guarded.

  Theorem exec_mysql_eq : forall cols ixs alias ordered upd sets t ps,
    NoDup (map cname cols) -> my_asm cols ordered upd <> [] ->
    abs_sets cols (my_asm cols ordered upd) = Some sets ->
    exec_mysql shuffle cols ixs alias ordered upd t ps = my_upsert_spec ixs sets t ps.
  Proof.
    intros cols ixs alias ordered upd sets t ps Hnd Hne Habs. unfold exec_mysql.
    rewrite (parse_render_mysql cols Hnd alias _ sets Hne Habs).
    unfold plan, my_upsert_spec. apply (exec_rows_eq_fold shuffle Hsh).
  Qed.
End Main.
