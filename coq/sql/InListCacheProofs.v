(* C07: re-expanding one Compiled object (engine cache hit, or after render_postcompile populated it)
   gives the same statement and parameters as a fresh compilation, for any sequence of lists. *)
From Coq Require Import List ZArith NArith Bool Lia.
Import ListNotations.
From SAV.sql Require Import Val3 InList.

(* what _process_parameters_for_postcompile reads from the Compiled object *)
Definition same (c0 c : compiled) : Prop :=
  c_dialect c = c_dialect c0 /\ c_bind c = c_bind c0 /\ c_bind_names c = c_bind_names c0 /\
  or_else (c_pre_string c) (c_string c) = or_else (c_pre_string c0) (c_string c0) /\
  (d_positional (c_dialect c0) = true ->
   or_else (c_pre_positiontup c) (c_positiontup c) = or_else (c_pre_positiontup c0) (c_positiontup c0)).

Lemma same_refl c : same c c.
Proof. repeat split; reflexivity. Qed.

Lemma process_eq c0 c others vals pop : same c0 c ->
  match process c0 others vals false, process c others vals pop with
  | Ok (x0, _), Ok (x, c') => x0 = x /\ same c0 c'
  | Raise e0, Raise e => e0 = e
  | _, _ => False
  end.
Proof.
  intros (Hd & Hb & Hn & Ht & Hp). unfold process. rewrite Hd, Hb, Hn, Ht.
  destruct (d_positional (c_dialect c0)) eqn:Ed; rewrite ?(Hp eq_refl);
    (destruct (run_names _ _ _ _ _) as [st|ex]; cbn [bind]; [|reflexivity]);
    (destruct (subst _ _) as [stmt|ex]; cbn [bind]; [|reflexivity]);
    (split; [reflexivity|]); unfold same; rewrite Ed;
    (destruct pop; [|repeat split; assumption]);
    cbn [c_dialect c_bind c_bind_names c_string c_pre_string c_positiontup c_pre_positiontup or_else];
    repeat split; try reflexivity; intros; discriminate.
Qed.

Lemma all_ok_inv {A B} (f : A -> result B) l ys :
  all_ok (map f l) = Ok ys -> Forall2 (fun a y => f a = Ok y) l ys.
Proof.
  revert ys. induction l as [|a l IH]; intros ys H; cbn [map all_ok] in H.
  - inversion H. constructor.
  - destruct (f a) as [y|] eqn:E; [|discriminate]. destruct (all_ok (map f l)) as [ys'|]; [|discriminate].
    inversion H; subst. constructor; [exact E|now apply IH].
Qed.

Definition fresh (c0 : compiled) (others : list (pname * sv)) (ex : list value * bool) : result expanded :=
  bind (process c0 others (fst ex) false) (fun xc => Ok (fst xc)).

(* a sequence of executions against one object, whatever it has been through, is the sequence of fresh
   expansions - the same results and the same first error *)
Theorem run_execs_fresh c0 others execs : forall c, same c0 c ->
  run_execs c others execs = all_ok (map (fresh c0 others) execs).
Proof.
  induction execs as [|[vals pop] execs IH]; intros c Hs; [reflexivity|].
  cbn [run_execs map all_ok]. unfold fresh at 1. cbn [fst].
  pose proof (process_eq c0 c others vals pop Hs) as H.
  destruct (process c0 others vals false) as [[x0 c0']|e0], (process c others vals pop) as [[x c']|e];
    cbn [bind fst snd]; [destruct H as [<- H]; now rewrite (IH c' H)|destruct H|destruct H|now subst].
Qed.

Theorem cached_reexpand c0 others execs xs :
  run_execs c0 others execs = Ok xs ->
  Forall2 (fun ex x => exists c0', process c0 others (fst ex) false = Ok (x, c0')) execs xs.
Proof.
  rewrite (run_execs_fresh c0 others execs c0 (same_refl c0)). intros H. apply all_ok_inv in H.
  induction H as [|ex x execs xs Hx _ IH]; constructor; [|exact IH]. unfold fresh in Hx.
  destruct (process c0 others (fst ex) false) as [[x' c0']|]; [|discriminate]. inversion Hx; subst. now exists c0'.
Qed.
