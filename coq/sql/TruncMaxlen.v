(* C21 - constraint / index names: length bound, errors, per-dialect side condition *)
From Coq Require Import List NArith ZArith Bool Lia.
Import ListNotations.
From SAV.sql Require Import Trunc TruncDigits.

Local Open Scope Z_scope.

(* the side condition the length bounds below need from a dialect (the check of this property re-extracts
   the limits from the dialect sources each time it runs and evaluates table_ok on them) *)
Definition dialect_ok (d : dialect) : bool :=
  (8 <=? max_for d true) && (8 <=? max_for d false)
  && (max_for d true <=? d_maxid d) && (max_for d false <=? d_maxid d).
Definition table_ok (tbl : list (N * dialect)) : bool := forallb (fun e => dialect_ok (snd e)) tbl.

(* the name goes through validate_identifier (it stays a plain str) *)
Definition plain_path (cv : option (list token)) (g : gname) : bool :=
  match g with
  | GPlain _ => match cv with Some tpl => negb (mentions_cname tpl) | None => true end
  | _ => false
  end.

Section Maxlen.
  Variable md5_hex : str -> str.
  (* these shadow the constants of Trunc.v, hence [unfold Trunc.truncate_maxlen] etc. in the proofs *)
  Notation truncate_maxlen := (truncate_maxlen md5_hex).
  Notation render := (truncate_and_render_maxlen_name md5_hex).
  Notation format_constraint := (format_constraint md5_hex).
  Notation ddl_name := (ddl_name md5_hex).

  Lemma truncate_maxlen_id : forall name max_, slen name <= max_ -> truncate_maxlen name max_ = name.
  Proof.
    intros. unfold Trunc.truncate_maxlen, maxlen_too_long. destruct (Z.gtb_spec (slen name) max_); [lia|reflexivity].
  Qed.
  Lemma truncate_maxlen_long : forall name max_, max_ < slen name ->
    truncate_maxlen name max_ = slice_to name (max_ - 8) ++ [underscore] ++ slice_from (md5_hex name) (-4).
  Proof.
    intros. unfold Trunc.truncate_maxlen, maxlen_too_long. destruct (Z.gtb_spec (slen name) max_); [reflexivity|lia].
  Qed.

  Lemma truncate_maxlen_len : forall name max_, max_ < slen name ->
    slen (truncate_maxlen name max_) = slen (slice_to name (max_ - 8)) + 1 + Z.min (slen (md5_hex name)) 4.
  Proof. intros. rewrite truncate_maxlen_long, !slen_app, slice_from_len_neg by lia.
    change (slen [underscore]) with 1. lia.
  Qed.

  Lemma truncate_maxlen_bounded : forall name max_, 8 <= max_ -> slen (truncate_maxlen name max_) <= max_.
  Proof.
    intros name max_ H8. destruct (Z.le_gt_cases (slen name) max_).
    - rewrite truncate_maxlen_id; assumption.
    - rewrite truncate_maxlen_len, slice_to_len_nonneg; lia.
  Qed.

  Lemma truncate_maxlen_exact : forall name max_, (forall s, 4 <= slen (md5_hex s)) ->
    8 <= max_ -> max_ < slen name -> slen (truncate_maxlen name max_) = max_ - 3.
  Proof.
    intros name max_ Hm H8 Hl. specialize (Hm name). rewrite truncate_maxlen_len, slice_to_len_nonneg; lia.
  Qed.

  Lemma truncate_maxlen_prefix : forall name max_, 8 <= max_ -> max_ < slen name ->
    exists tail, truncate_maxlen name max_ = firstn (Z.to_nat (max_ - 8)) name ++ tail.
  Proof.
    intros name max_ H8 Hl. rewrite truncate_maxlen_long by assumption. unfold slice_to.
    destruct (Z.ltb_spec (max_ - 8) 0); [lia|]. eexists. reflexivity.
  Qed.

  Lemma render_ok_cases : forall tr name max_ maxid s, render tr name max_ maxid = Ok s ->
    if tr then s = truncate_maxlen name max_ else s = name /\ slen name <= maxid.
  Proof.
    intros tr name max_ maxid s H. unfold truncate_and_render_maxlen_name, ident_too_long in H.
    destruct tr; [|destruct (Z.gtb_spec (slen name) maxid)]; inversion H; subst; cbv iota; auto.
  Qed.

  Lemma render_bounded : forall tr name max_ maxid s,
    render tr name max_ maxid = Ok s -> 8 <= max_ -> tr = true \/ maxid <= max_ -> slen s <= max_.
  Proof.
    intros tr name max_ maxid s H H8 Hg. apply render_ok_cases in H. destruct tr.
    - subst s. apply truncate_maxlen_bounded, H8.
    - destruct H as (-> & H), Hg; [discriminate|lia].
  Qed.

  Lemma render_error_iff : forall tr name max_ maxid e,
    render tr name max_ maxid = Raise e <-> (tr = false /\ maxid < slen name /\ e = IdentifierError).
  Proof.
    intros. unfold truncate_and_render_maxlen_name, ident_too_long.
    destruct tr; [|destruct (Z.gtb_spec (slen name) maxid)];
      (split; [intros [=]; auto|intros (T & L & ->); (discriminate || lia || reflexivity)]).
  Qed.

  Lemma render_short_id : forall tr name max_ maxid,
    slen name <= max_ -> slen name <= maxid -> render tr name max_ maxid = Ok name.
  Proof.
    intros. unfold truncate_and_render_maxlen_name, ident_too_long. destruct tr.
    - rewrite truncate_maxlen_id by assumption. reflexivity.
    - destruct (Z.gtb_spec (slen name) maxid); [lia|reflexivity].
  Qed.

  Lemma dialect_ok_spec : forall d, dialect_ok d = true -> forall ix,
    8 <= max_for d ix /\ max_for d ix <= d_maxid d.
  Proof.
    intros d H ix. unfold dialect_ok in H. rewrite !andb_true_iff, !Z.leb_le in H. destruct ix; lia.
  Qed.

  Lemma expand_raise : forall g env tpl e, expand g env tpl = Raise e ->
    e = InvalidRequestError /\ mentions_cname tpl = true /\ (g = GNone \/ g = GNoneName).
  Proof.
    intros g env. induction tpl as [|t r IH]; intros e H; cbn [expand] in H; [discriminate|].
    unfold mentions_cname. cbn [existsb]. destruct (expand_token g env t) eqn:T.
    - destruct (expand g env r); [discriminate|]. destruct (IH _ eq_refl) as (-> & M & G).
      inversion H. unfold mentions_cname in M. rewrite M, orb_true_r. auto.
    - destruct t; cbn in T; try discriminate. destruct g; inversion T; inversion H; subst; auto.
  Qed.
  Lemma constraint_name_raise : forall cv g env e, constraint_name_for_table cv g env = Raise e ->
    e = InvalidRequestError /\ exists tpl, cv = Some tpl /\ mentions_cname tpl = true
                                           /\ (g = GNone \/ g = GNoneName).
  Proof.
    intros cv g env e H. unfold constraint_name_for_table in H.
    destruct g, cv as [tpl|]; try discriminate;
      destruct (_ || _); try discriminate; destruct (expand _ env tpl) eqn:X; inversion H; subst;
      destruct (expand_raise _ _ _ _ X) as (-> & ? & ?); eauto.
  Qed.

  Lemma attach_plain : forall cv g env p, attach_name cv g env = Ok (GPlain p) ->
    g = GPlain p /\ plain_path cv g = true.
  Proof.
    intros cv g env p H. unfold attach_name, constraint_name_for_table, plain_path in *.
    destruct g, cv as [tpl|]; try discriminate; cbn [orb] in H;
      try destruct (mentions_cname tpl); try destruct (expand _ env tpl); inversion H; auto.
  Qed.
  Lemma plain_attach : forall cv p env, plain_path cv (GPlain p) = true ->
    attach_name cv (GPlain p) env = Ok (GPlain p).
  Proof.
    intros cv p env H. unfold attach_name, constraint_name_for_table. destruct cv as [tpl|]; [|reflexivity].
    apply negb_true_iff in H. cbn [orb plain_path] in *. rewrite H. reflexivity.
  Qed.
  Lemma attach_none_name : forall cv g env, attach_name cv g env = Ok GNoneName -> g = GNoneName.
  Proof.
    intros cv g env H. unfold attach_name in H.
    destruct g; try destruct (constraint_name_for_table cv _ env) as [[?|]|]; inversion H; reflexivity.
  Qed.
  Lemma attach_raise : forall cv g env e, attach_name cv g env = Raise e ->
    constraint_name_for_table cv g env = Raise e.
  Proof.
    intros cv g env e H. unfold attach_name in H.
    destruct g; try discriminate; destruct (constraint_name_for_table cv _ env) as [[?|]|]; inversion H; reflexivity.
  Qed.

  Lemma ddl_name_cases : forall d ix cv g env s, ddl_name d ix cv g env = Ok (Some s) ->
    (exists nm, s = truncate_maxlen nm (max_for d ix))
    \/ (g = GPlain s /\ plain_path cv g = true /\ slen s <= d_maxid d).
  Proof.
    intros d ix cv g env s H. unfold Trunc.ddl_name in H.
    destruct (attach_name cv g env) as [g'|] eqn:A; [|discriminate].
    destruct (format_constraint d ix cv g' env) as [[r|]|] eqn:F; [|destruct ix|]; inversion H; subst r.
    unfold Trunc.format_constraint in F. destruct g' as [| |p|nm]; [discriminate| | |].
    (* for a truncatable name F evaluates to Ok (Some (truncate_maxlen nm _)) = Ok (Some s) *)
    - destruct (constraint_name_for_table cv GNoneName env) as [[nm|]|]; inversion F. eauto.
    - destruct (render false p _ _) eqn:R; inversion F; subst. apply render_ok_cases in R.
      destruct R as (-> & L). apply attach_plain in A. right. tauto.
    - inversion F. eauto.
  Qed.

  Lemma ddl_name_within_maxid : forall d ix cv g env s, dialect_ok d = true ->
    ddl_name d ix cv g env = Ok (Some s) -> slen s <= d_maxid d.
  Proof.
    intros d ix cv g env s Hd H. destruct (dialect_ok_spec d Hd ix).
    destruct (ddl_name_cases _ _ _ _ _ _ H) as [(nm & ->)|(_ & _ & L)]; [|exact L].
    pose proof (truncate_maxlen_bounded nm (max_for d ix)). lia.
  Qed.

  (* a rendered name is also within the more specific max_index_name_length / max_constraint_name_length unless it is a
     user-given plain name on a dialect whose specific limit is below max_identifier_length *)
  Definition specific_guard (d : dialect) (ix : bool) (cv : option (list token)) (g : gname) : bool :=
    negb (plain_path cv g) || (d_maxid d <=? max_for d ix)
    || match g with GPlain p => slen p <=? max_for d ix | _ => true end.

  Lemma ddl_name_within_specific : forall d ix cv g env s, dialect_ok d = true ->
    specific_guard d ix cv g = true ->
    ddl_name d ix cv g env = Ok (Some s) -> slen s <= max_for d ix.
  Proof.
    intros d ix cv g env s Hd Hg H. destruct (dialect_ok_spec d Hd ix).
    destruct (ddl_name_cases _ _ _ _ _ _ H) as [(nm & ->)|(-> & P & L)].
    - apply truncate_maxlen_bounded. lia.
    - unfold specific_guard in Hg. rewrite P, !orb_true_iff, !Z.leb_le in Hg.
      destruct Hg as [[Hg|Hg]|Hg]; [discriminate|lia|exact Hg].
  Qed.

  Lemma specific_guard_exact : forall d ix cv p env,
    specific_guard d ix cv (GPlain p) = false -> slen p <= d_maxid d ->
    ddl_name d ix cv (GPlain p) env = Ok (Some p) /\ max_for d ix < slen p.
  Proof.
    intros d ix cv p env Hg Hl. unfold specific_guard in Hg.
    rewrite !orb_false_iff, negb_false_iff in Hg. destruct Hg as ((Hp & _) & Hs). split; [|apply Z.leb_gt, Hs].
    unfold Trunc.ddl_name. rewrite plain_attach by exact Hp.
    unfold Trunc.format_constraint, truncate_and_render_maxlen_name, ident_too_long.
    destruct (Z.gtb_spec (slen p) (d_maxid d)); [lia|reflexivity].
  Qed.

  Lemma ddl_name_errors : forall d ix cv g env e, ddl_name d ix cv g env = Raise e ->
    (e = IdentifierError /\ plain_path cv g = true /\ exists p, g = GPlain p /\ d_maxid d < slen p)
    \/ (e = InvalidRequestError /\ exists tpl, cv = Some tpl /\ mentions_cname tpl = true
                                               /\ (g = GNone \/ g = GNoneName))
    \/ (e = CompileError /\ ix = true).
  Proof.
    intros d ix cv g env e H. unfold Trunc.ddl_name in H.
    destruct (attach_name cv g env) as [g'|e1] eqn:A.
    - destruct (format_constraint d ix cv g' env) as [[r|]|e2] eqn:F; try discriminate.
      { destruct ix; inversion H. auto. }
      (* rendering a truncatable name evaluates to Ok, so those cases go by discriminate *)
      inversion H; subst e2. unfold Trunc.format_constraint in F. destruct g' as [| |p|nm]; try discriminate.
      + apply attach_none_name in A. subst g.
        destruct (constraint_name_for_table cv GNoneName env) as [[nm|]|e3] eqn:C; inversion F; subst.
        apply constraint_name_raise in C. tauto.
      + destruct (render false p _ _) eqn:R; inversion F; subst. apply render_error_iff in R.
        apply attach_plain in A. left. destruct A as (-> & A). intuition eauto.
    - inversion H; subst e1. apply attach_raise, constraint_name_raise in A. tauto.
  Qed.

  (* table form: the reflective check on the translated dialect table implies the bound for every
     dialect in it *)
  Lemma table_ok_spec : forall tbl id d, table_ok tbl = true -> In (id, d) tbl -> dialect_ok d = true.
  Proof. intros tbl id d Ht Hin. unfold table_ok in Ht. rewrite forallb_forall in Ht. exact (Ht _ Hin). Qed.

  Lemma table_within_maxid : forall tbl, table_ok tbl = true ->
    forall id d, In (id, d) tbl -> forall ix cv g env s,
    ddl_name d ix cv g env = Ok (Some s) -> slen s <= d_maxid d.
  Proof. intros tbl Ht id d Hin ix cv g env s. apply ddl_name_within_maxid, (table_ok_spec tbl id d Ht Hin). Qed.
  Lemma table_within_specific : forall tbl, table_ok tbl = true ->
    forall id d, In (id, d) tbl -> forall ix cv g env s, specific_guard d ix cv g = true ->
    ddl_name d ix cv g env = Ok (Some s) -> slen s <= max_for d ix.
  Proof. intros tbl Ht id d Hin ix cv g env s. apply ddl_name_within_specific, (table_ok_spec tbl id d Ht Hin). Qed.

  (* the name of a constraint does not depend on what was compiled before it: true by construction, of any
     function in place of ddl_name, since the model has no state; that the implementation has none either
     is established by the correspondence check only *)
  Definition ddl_names (d : dialect) (l : list (bool * option (list token) * gname * cenv))
    : list (result (option str)) :=
    map (fun c => match c with (ix, cv, g, env) => ddl_name d ix cv g env end) l.
  Lemma ddl_names_order_independent : forall d pre post ix cv g env,
    nth (length pre) (ddl_names d (pre ++ (ix, cv, g, env) :: post)) (Raise CompileError)
    = ddl_name d ix cv g env.
  Proof.
    intros. unfold ddl_names. rewrite map_app. rewrite app_nth2; rewrite map_length; [|lia].
    rewrite Nat.sub_diag. reflexivity.
  Qed.
End Maxlen.
