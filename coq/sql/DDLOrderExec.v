(* C14 - the reference catalog: how blocks of CREATE TABLE / ALTER ADD / ALTER DROP / DROP TABLE
   statements execute *)
From Coq Require Import List NArith Bool Lia Permutation.
Import ListNotations.
From SAV.util Require Import Topo TopoProofs.
From SAV.sql Require Import DDLOrder DDLOrderBase.

Lemma has_table_In n d : has_table n d = true <-> In n (map fst d).
Proof. unfold has_table. rewrite existsb_exists, in_map_iff. split.
  - intros [r [H1 H2]]. apply N.eqb_eq in H2. exists r. tauto.
  - intros [r [H1 H2]]. exists r. split; [exact H2|]. apply N.eqb_eq. exact H1. Qed.

Lemma has_table_false n d : has_table n d = false <-> ~ In n (map fst d).
Proof. rewrite <- has_table_In. destruct (has_table n d); split; intros H; congruence. Qed.

Lemma has_table_app n d d' : has_table n (d ++ d') = has_table n d || has_table n d'.
Proof. apply existsb_app. Qed.

Lemma fks_in_app n d d' : fks_in n (d ++ d') = if has_table n d then fks_in n d else fks_in n d'.
Proof. unfold fks_in, has_table. induction d as [|r d IH]; simpl; [reflexivity|].
  destruct (N.eqb (fst r) n); simpl; [reflexivity|exact IH]. Qed.

Lemma fks_in_none n d : has_table n d = false -> fks_in n d = [].
Proof. unfold fks_in, has_table. induction d as [|r d IH]; simpl; [reflexivity|].
  destruct (N.eqb (fst r) n); simpl; [discriminate|exact IH]. Qed.

Lemma row_fks_in u l d : NoDup (map fst d) -> In (u, l) d -> fks_in u d = l.
Proof. unfold fks_in. induction d as [|r d IH]; simpl; [tauto|]. intros Hn [->|H].
  - simpl. rewrite N.eqb_refl. reflexivity.
  - inversion Hn; subst. destruct (N.eqb (fst r) u) eqn:E.
    + apply N.eqb_eq in E. exfalso. apply H2. rewrite E. apply in_map_iff. exists (u, l). auto.
    + apply IH; assumption. Qed.

Lemma exec_app l1 : forall d l2,
  exec d (l1 ++ l2) = match exec d l1 with Some d' => exec d' l2 | None => None end.
Proof. induction l1 as [|s l1 IH]; intros d l2; simpl; [reflexivity|].
  destruct (exec1 d s); [apply IH|reflexivity]. Qed.

Lemma upd_names n g d : map fst (upd_fks n g d) = map fst d.
Proof. unfold upd_fks. rewrite map_map. apply map_ext. intros r. destruct (N.eqb (fst r) n); reflexivity. Qed.

Lemma upd_has m n g d : has_table m (upd_fks n g d) = has_table m d.
Proof. apply eq_true_iff_eq. rewrite !has_table_In, upd_names. tauto. Qed.

Lemma upd_fks_same n g d : has_table n d = true -> fks_in n (upd_fks n g d) = g (fks_in n d).
Proof. unfold fks_in, has_table, upd_fks. induction d as [|r d IH]; simpl; [discriminate|].
  destruct (N.eqb (fst r) n) eqn:E; simpl.
  - rewrite E. reflexivity.
  - rewrite E. exact IH. Qed.

Lemma upd_fks_other m n g d : m <> n -> fks_in m (upd_fks n g d) = fks_in m d.
Proof. intros Hne. unfold fks_in, upd_fks. induction d as [|r d IH]; simpl; [reflexivity|].
  destruct (N.eqb (fst r) n) eqn:E; simpl.
  - apply N.eqb_eq in E. destruct (N.eqb (fst r) m) eqn:E2; [apply N.eqb_eq in E2; congruence|exact IH].
  - destruct (N.eqb (fst r) m); [reflexivity|exact IH]. Qed.

Definition rows_of (inl : node -> list fk) (l : list node) : db := map (fun n => (n, inl n)) l.

Lemma rows_names inl l : map fst (rows_of inl l) = l.
Proof. unfold rows_of. rewrite map_map. simpl. apply map_id. Qed.

Lemma has_table_rows inl n d l : has_table n (d ++ rows_of inl l) = has_table n d || memb n l.
Proof. rewrite has_table_app. f_equal. apply eq_true_iff_eq. rewrite has_table_In, rows_names, memb_In. tauto. Qed.

Lemma fks_in_rows inl o n : In n o -> fks_in n (rows_of inl o) = inl n.
Proof. unfold fks_in, rows_of. induction o as [|m o IH]; simpl; [tauto|]. intros H.
  destruct (N.eqb_spec m n) as [->|Hne]; [reflexivity|]. apply IH. destruct H; [congruence|assumption]. Qed.

Section Creates.
Variable inl : node -> list fk.
Variable d0 : db.
Variable o : list node.
Hypothesis o_nodup : NoDup o.
Hypothesis o_new : forall n, In n o -> has_table n d0 = false.
Hypothesis o_refs : forall pre n suf, o = pre ++ n :: suf -> forall f, In f (inl n) ->
  fk_ref f = n \/ has_table (fk_ref f) d0 = true \/ In (fk_ref f) pre.

Lemma exec_creates_gen : forall suf pre, pre ++ suf = o ->
  exec (d0 ++ rows_of inl pre) (map (fun n => CreateT n (inl n)) suf) = Some (d0 ++ rows_of inl o).
Proof.
  induction suf as [|n suf IH]; intros pre E.
  - rewrite app_nil_r in E. subst. reflexivity.
  - assert (Hp : memb n pre = false).
    { apply memb_false. intros Hp. rewrite <- E in o_nodup.
      apply (NoDup_app_disj pre (n :: suf) n o_nodup Hp). left; reflexivity. }
    cbn [map exec exec1]. rewrite has_table_rows, Hp, o_new by (rewrite <- E; apply in_elt). cbn [orb].
    assert (Hf : forallb (fun f => N.eqb (fk_ref f) n || has_table (fk_ref f) (d0 ++ rows_of inl pre)) (inl n) = true).
    { apply forallb_forall. intros f Hf. rewrite has_table_rows.
      destruct (o_refs pre n suf (eq_sym E) f Hf) as [H|[H|H]].
      - rewrite H, N.eqb_refl. reflexivity.
      - rewrite H. apply orb_true_r.
      - rewrite (proj2 (memb_In _ _) H), !orb_true_r. reflexivity. }
    rewrite Hf. rewrite <- app_assoc.
    pose proof (IH (pre ++ [n])) as IH'. unfold rows_of in IH' |- *. rewrite map_app in IH'.
    cbn [map] in IH'. apply IH'. rewrite <- app_assoc. exact E. Qed.

Lemma exec_creates : exec d0 (map (fun n => CreateT n (inl n)) o) = Some (d0 ++ rows_of inl o).
Proof. pose proof (exec_creates_gen o [] eq_refl) as H. simpl in H. rewrite app_nil_r in H. exact H. Qed.
End Creates.

(* the constraints of table n that a block of ALTERs adds or drops *)
Definition alter_fks (n : N) (l : list stmt) : list fk :=
  flat_map (fun s => match s with AddFK t f | DropFK t f => if N.eqb t n then [f] else [] | _ => [] end) l.

Lemma alter_fks_perm n l l' : Permutation l l' -> Permutation (alter_fks n l) (alter_fks n l').
Proof. apply Permutation_flat_map. Qed.

Lemma has_fk_In i l : has_fk i l = true <-> In i (map fk_id l).
Proof. unfold has_fk. rewrite existsb_exists, in_map_iff. split.
  - intros [g [H1 H2]]. apply N.eqb_eq in H2. exists g. tauto.
  - intros [g [H1 H2]]. exists g. split; [exact H2|]. apply N.eqb_eq. exact H1. Qed.

Lemma exec_adds : forall l d,
  (forall s, In s l -> exists t f, s = AddFK t f /\ has_table t d = true /\ has_table (fk_ref f) d = true) ->
  (forall n, NoDup (map fk_id (fks_in n d ++ alter_fks n l))) ->
  exists d', exec d l = Some d' /\ map fst d' = map fst d /\
             forall n, has_table n d = true -> fks_in n d' = fks_in n d ++ alter_fks n l.
Proof.
  induction l as [|s l IH]; intros d Hex Hnd.
  - exists d. split; [reflexivity|]. split; [reflexivity|]. intros n _. simpl. rewrite app_nil_r. reflexivity.
  - destruct (Hex s (or_introl eq_refl)) as [t [f [-> [Ht Hr]]]].
    cbn [exec exec1]. rewrite Ht, Hr.
    assert (Hid : has_fk (fk_id f) (fks_in t d) = false).
    { specialize (Hnd t). simpl in Hnd. rewrite N.eqb_refl, map_app in Hnd. simpl in Hnd. apply NoDup_remove_2 in Hnd.
      apply not_true_iff_false. rewrite has_fk_In. intros Hin. apply Hnd, in_or_app. left. exact Hin. }
    rewrite Hid. cbn [negb andb].
    set (d1 := upd_fks t (fun l0 => l0 ++ [f]) d).
    assert (Hd1 : forall n, fks_in n d1 ++ alter_fks n l = fks_in n d ++ alter_fks n (AddFK t f :: l)).
    { intros n. unfold d1. simpl. destruct (N.eqb_spec t n) as [->|Hne].
      - rewrite upd_fks_same, <- app_assoc by exact Ht. reflexivity.
      - rewrite upd_fks_other by congruence. reflexivity. }
    destruct (IH d1) as [d' [H1 [H2 H3]]].
    + intros s Hin. unfold d1. destruct (Hex s (or_intror Hin)) as [t' [f' H]]. exists t', f'. rewrite !upd_has. exact H.
    + intros n. rewrite Hd1. apply Hnd.
    + exists d'. split; [exact H1|]. split; [rewrite H2; apply upd_names|].
      intros n Hn. rewrite H3, Hd1; [reflexivity|]. unfold d1. rewrite upd_has. exact Hn. Qed.

Lemma filter_filter {A} (p q : A -> bool) l : filter p (filter q l) = filter (fun x => q x && p x) l.
Proof. induction l as [|a l IH]; simpl; [reflexivity|]. destruct (q a); simpl; [destruct (p a); simpl; congruence|exact IH]. Qed.

Lemma exec_dropfks : forall l d,
  (forall s, In s l -> exists t f, s = DropFK t f /\ has_table t d = true /\ fk_named f = true) ->
  (forall n, NoDup (map fk_id (alter_fks n l)) /\ forall f, In f (alter_fks n l) -> has_fk (fk_id f) (fks_in n d) = true) ->
  exists d', exec d l = Some d' /\ map fst d' = map fst d /\
             forall n, fks_in n d' = filter (fun g => negb (has_fk (fk_id g) (alter_fks n l))) (fks_in n d).
Proof.
  induction l as [|s l IH]; intros d Hex Hnd.
  - exists d. split; [reflexivity|]. split; [reflexivity|]. intros n. simpl.
    induction (fks_in n d) as [|a r IHr]; simpl; congruence.
  - destruct (Hex s (or_introl eq_refl)) as [t [f [-> [Ht Hnm]]]].
    cbn [exec exec1]. rewrite Ht, Hnm.
    rewrite (proj2 (Hnd t) f) by (simpl; rewrite N.eqb_refl; left; reflexivity). cbn [andb].
    set (d1 := upd_fks t (filter (fun g => negb (N.eqb (fk_id g) (fk_id f)))) d).
    destruct (IH d1) as [d' [H1 [H2 H3]]].
    + intros s Hin. unfold d1. destruct (Hex s (or_intror Hin)) as [t' [f' H]]. exists t', f'. rewrite upd_has. exact H.
    + intros n. destruct (Hnd n) as [Hn1 Hn2]. simpl in Hn1, Hn2. unfold d1.
      destruct (N.eqb_spec t n) as [->|Hne]; [|rewrite upd_fks_other by congruence; auto].
      simpl in Hn1. apply NoDup_cons_iff in Hn1. destruct Hn1 as [H4 Hn1]. split; [exact Hn1|]. intros f' Hf'.
      (* f' is another constraint than f, so it is still there *)
      rewrite upd_fks_same by exact Ht. specialize (Hn2 f' (or_intror Hf')).
      rewrite has_fk_In, in_map_iff in Hn2 |- *. destruct Hn2 as [g [Hg1 Hg2]]. exists g. split; [exact Hg1|].
      apply filter_In. split; [exact Hg2|]. apply negb_true_iff, N.eqb_neq. intros Heq. apply H4.
      rewrite <- Heq, Hg1. apply in_map, Hf'.
    + exists d'. split; [exact H1|]. split; [rewrite H2; apply upd_names|].
      intros n. rewrite H3. unfold d1. simpl. destruct (N.eqb_spec t n) as [->|Hne].
      * rewrite upd_fks_same, filter_filter by exact Ht. apply filter_ext. intros g. simpl.
        rewrite negb_orb, N.eqb_sym. reflexivity.
      * rewrite upd_fks_other by congruence. reflexivity. Qed.

Lemma has_table_filter_names n (l : list node) d :
  has_table n (filter (fun r => negb (memb (fst r) l)) d) = has_table n d && negb (memb n l).
Proof. apply eq_true_iff_eq. rewrite andb_true_iff. unfold has_table. rewrite !existsb_exists. split.
  - intros [r [H1 H2]]. apply filter_In in H1. destruct H1 as [H1 H3]. apply N.eqb_eq in H2. subst n.
    split; [|exact H3]. exists r. split; [exact H1|apply N.eqb_refl].
  - intros [[r [H1 H2]] H3]. apply N.eqb_eq in H2. subst n. exists r. split; [|apply N.eqb_refl].
    apply filter_In. split; [exact H1|exact H3]. Qed.

Lemma filter_true {A} (l : list A) : filter (fun _ => true) l = l.
Proof. induction l as [|a r IH]; simpl; congruence. Qed.

Section Drops.
Variable d : db.
Variable l : list node.
Hypothesis l_nodup : NoDup l.
Hypothesis d_nodup : NoDup (map fst d).
Hypothesis l_has : forall n, In n l -> has_table n d = true.
Hypothesis l_order : forall pre t suf, l = pre ++ t :: suf ->
  forall u g, has_table u d = true -> u <> t -> In g (fks_in u d) -> fk_ref g = t -> In u pre.

Lemma exec_dropts_gen : forall suf pre, pre ++ suf = l ->
  exec (filter (fun r => negb (memb (fst r) pre)) d) (map DropT suf) =
  Some (filter (fun r => negb (memb (fst r) l)) d).
Proof.
  induction suf as [|t suf IH]; intros pre E.
  - rewrite app_nil_r in E. subst. reflexivity.
  - cbn [map exec exec1]. rewrite has_table_filter_names.
    rewrite l_has by (rewrite <- E; apply in_or_app; right; left; reflexivity).
    assert (Hp : memb t pre = false).
    { apply memb_false. intros Hp. rewrite <- E in l_nodup.
      apply (NoDup_app_disj pre (t :: suf) t l_nodup Hp). left; reflexivity. }
    rewrite Hp. cbn [negb andb].
    match goal with |- context [forallb ?P ?L] => assert (Hf : forallb P L = true) end.
    { apply forallb_forall. intros [u fl] Hr. apply filter_In in Hr. destruct Hr as [Hr Hu]. simpl in *.
      destruct (N.eqb_spec u t) as [|Hne]; [reflexivity|]. simpl.
      apply forallb_forall. intros g Hg. apply negb_true_iff. apply N.eqb_neq. intros Href.
      assert (Hup : In u pre).
      { apply (l_order pre t suf (eq_sym E) u g); try assumption.
        - apply has_table_In. apply in_map_iff. exists (u, fl). auto.
        - rewrite (row_fks_in u fl d d_nodup Hr). exact Hg. }
      apply negb_true_iff in Hu. apply memb_false in Hu. contradiction. }
    rewrite Hf. rewrite filter_filter.
    rewrite <- (IH (pre ++ [t])) by (rewrite <- app_assoc; exact E).
    f_equal. apply filter_ext. intros r. unfold memb. rewrite existsb_app. simpl.
    rewrite orb_false_r. rewrite negb_orb. reflexivity. Qed.

Lemma exec_dropts : exec d (map DropT l) = Some (filter (fun r => negb (memb (fst r) l)) d).
Proof. pose proof (exec_dropts_gen l [] eq_refl) as H. simpl in H.
  rewrite filter_true in H. exact H. Qed.
End Drops.
