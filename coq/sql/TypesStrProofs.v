(* C09 - digit strings: formatting a bounded field and reading it back *)
From Coq Require Import List NArith ZArith Bool Lia Zify.
Import ListNotations.
From SAV.sql Require Import Types.
Open Scope N_scope.

Lemma digs_length : forall w n, length (digs w n) = w.
Proof. induction w as [|w IH]; intros n; cbn [digs]; [reflexivity|]. rewrite app_length, IH. cbn. lia. Qed.

Lemma num_of_app : forall a b acc,
  num_of (a ++ b) acc = match num_of a acc with Some v => num_of b v | None => None end.
Proof.
  induction a as [|c r IH]; intros b acc; cbn [app num_of]; [reflexivity|].
  destruct (is_digit c); [apply IH|reflexivity].
Qed.

Lemma is_digit_char : forall d, d < 10 -> is_digit (48 + d) = true.
Proof. intros d H. unfold is_digit. apply andb_true_iff. split; apply N.leb_le; lia. Qed.

Lemma pow10_S : forall w, 10 ^ N.of_nat (S w) = 10 * 10 ^ N.of_nat w.
Proof. intro w. rewrite Nat2N.inj_succ, N.pow_succ_r'. reflexivity. Qed.

Lemma num_of_digs : forall w n acc, n < 10 ^ N.of_nat w ->
  num_of (digs w n) acc = Some (acc * 10 ^ N.of_nat w + n).
Proof.
  induction w as [|w IH]; intros n acc H.
  - cbn in *. f_equal. lia.
  - cbn [digs]. rewrite num_of_app, pow10_S in *. rewrite IH by (apply N.div_lt_upper_bound; lia).
    cbn [num_of]. rewrite is_digit_char by (apply N.mod_lt; lia). f_equal.
    zify. Z.to_euclidean_division_equations. nia.
Qed.

(* [take_num] reads a field back from the front of a string once its characters [a] are known to be digits;
   [take_run_app] below says the same of the regexp reader *)
Lemma take_num_app : forall a b v, num_of a 0 = Some v -> take_num (length a) (a ++ b) = Some (v, b).
Proof.
  intros a b v H. unfold take_num. rewrite app_length.
  replace (Nat.ltb (length a + length b) (length a)) with false by (symmetry; apply Nat.ltb_ge; lia).
  now rewrite firstn_app, skipn_app, Nat.sub_diag, firstn_all, skipn_all, app_nil_r, H.
Qed.

Lemma take_num_digs : forall w n rest, n < 10 ^ N.of_nat w -> take_num w (digs w n ++ rest) = Some (n, rest).
Proof.
  intros w n rest H. rewrite <- (digs_length w n) at 1. apply take_num_app, (num_of_digs w n 0 H).
Qed.

Lemma expect_cons : forall c rest, expect c (c :: rest) = Some rest.
Proof. intros. cbn. now rewrite N.eqb_refl. Qed.

(* ---- the maximal digit run of the regexp variant ---- *)
Definition no_digit_head (s : str) : Prop := match s with [] => True | c :: _ => is_digit c = false end.

Lemma take_run_aux_app : forall a b acc v, num_of a acc = Some v ->
  take_run_aux (a ++ b) acc = take_run_aux b v.
Proof.
  induction a as [|c r IH]; intros b acc v H; cbn [num_of app] in *.
  - now injection H as ->.
  - cbn [take_run_aux]. destruct (is_digit c); [now apply IH|discriminate].
Qed.

Lemma take_run_app : forall a b v, a <> [] -> num_of a 0 = Some v -> no_digit_head b ->
  take_run (a ++ b) = Some (v, b).
Proof.
  intros [|c r] b v Ha Hv Hb; [contradiction|]. unfold take_run. rewrite (take_run_aux_app _ _ _ _ Hv).
  cbn [app num_of] in *. destruct (is_digit c); [|discriminate].
  destruct b as [|x b]; [reflexivity|]. cbn in Hb. cbn [take_run_aux]. now rewrite Hb.
Qed.

Lemma take_run_digs : forall w n rest, w <> 0%nat -> n < 10 ^ N.of_nat w -> no_digit_head rest ->
  take_run (digs w n ++ rest) = Some (n, rest).
Proof.
  intros w n rest Hw H Hr. apply take_run_app; [|exact (num_of_digs _ n 0 H)|exact Hr].
  intro E. apply (f_equal (@length _)) in E. now rewrite digs_length in E.
Qed.
