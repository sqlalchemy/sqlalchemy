(* C20 - rendering is the assembly of componentwise encodings; decoding them gives the URL back *)
From Coq Require Import List NArith ZArith Bool Lia ZifyBool Permutation.
Import ListNotations.
From SAV.sql Require Import UrlCodec Url UrlListProofs UrlCodecProofs UrlSplitProofs.
Open Scope N_scope.

(* the value of quote(s, safe) / quote_plus(s) when s is encodable *)
Definition qt (safe : list N) (s : str) : str := flat_map (quote_byte safe) (utf8 s).
Definition qp (s : str) : str := replace 32 43 (qt [32] s).

Definition lit_host (h : str) : str := if mem 58 h then [91] ++ h ++ [93] else h.
Definition enc_pair (kv : str * str) : str := qp (fst kv) ++ 61 :: qp (snd kv).
Definition enc_query (q : list (str * qval)) : option str :=
  if is_nil q then None else Some (join 38 (map enc_pair (query_pairs q))).

(* each literal component is computed from the corresponding URL component alone *)
Definition enc (u : url) : comps :=
  mkComps (u_drv u)
          (option_map (qt SAFE_USER) (u_user u)) (option_map (qt SAFE_USER) (u_pass u))
          (option_map lit_host (u_host u)) (option_map str_of_Z (u_port u))
          (option_map (qt SAFE_DB) (u_db u)) (enc_query (u_query u)).

Lemma quote_r_scalar : forall safe s, forallb scalar s = true -> quote_r safe s = Ok (qt safe s).
Proof. intros. unfold quote_r. rewrite quote_some by assumption. reflexivity. Qed.

Lemma quote_plus_scalar : forall s, forallb scalar s = true -> quote_plus s = Some (qp s).
Proof. intros s H. unfold quote_plus. rewrite (quote_some [32] s H). reflexivity. Qed.

Lemma quote_plus_r_scalar : forall s, forallb scalar s = true -> quote_plus_r s = Ok (qp s).
Proof. intros. unfold quote_plus_r. rewrite quote_plus_scalar by assumption. reflexivity. Qed.

Definition keys (q : list (str * qval)) : list str := map fst q.

Lemma nodup_keys_NoDup : forall l, nodup_keys l = true -> NoDup l.
Proof.
  induction l as [|k l IH]; intros H; [constructor|]. cbn in H. apply andb_true_iff in H as [Hk Hl].
  constructor; [|apply IH; exact Hl]. intros Hin. apply negb_true_iff in Hk.
  assert (existsb (fun k' => str_eqb k k') l = true); [|congruence].
  apply existsb_exists. exists k. split; [exact Hin | apply str_eqb_refl].
Qed.

Lemma lookup_In : forall k q v, lookup k q = Some v -> In (k, v) q.
Proof.
  induction q as [|[k' v'] q IH]; intros v H; cbn [lookup] in H; [discriminate|].
  destruct (str_eqb_spec k k') as [->|Hne].
  - inversion H; subst. left; reflexivity.
  - right. apply IH; exact H.
Qed.

Lemma lookup_skip : forall k k' v q, k <> k' -> lookup k ((k', v) :: q) = lookup k q.
Proof. intros. cbn [lookup]. destruct (str_eqb_spec k k'); [contradiction | reflexivity]. Qed.

Lemma lookup_head : forall k v q, lookup k ((k, v) :: q) = Some v.
Proof. intros. cbn [lookup]. rewrite str_eqb_refl. reflexivity. Qed.

Lemma entries_by_key : forall q, NoDup (keys q) ->
  flat_map (fun k => match lookup k q with Some v => [(k, v)] | None => [] end) (keys q) = q.
Proof.
  induction q as [|[k v] q IH]; intros H; [reflexivity|]. cbn [keys map fst] in H. inversion H as [|? ? Hk Hq]; subst.
  cbn [keys map fst flat_map]. rewrite (lookup_head k v q). cbn [List.app]. f_equal.
  etransitivity; [|exact (IH Hq)]. apply flat_map_ext_in. intros k' Hk'.
  rewrite lookup_skip; [reflexivity|]. intros ->. contradiction.
Qed.

Theorem canon_query_perm : forall q, NoDup (keys q) -> Permutation (canon_query q) q.
Proof.
  intros q H. unfold canon_query.
  eapply Permutation_trans; [apply Permutation_flat_map, sort_keys_perm|].
  fold (keys q). rewrite (entries_by_key q H). apply Permutation_refl.
Qed.

(* adding under a key leaves the entries in front of the first entry that could hold it alone *)
Lemma dict_add_app : forall d e k v, ~ In k (keys d) -> dict_add (d ++ e) k v = d ++ dict_add e k v.
Proof.
  induction d as [|[k' old] d IH]; intros e k v H; [reflexivity|]. cbn [List.app dict_add].
  destruct (str_eqb_spec k k') as [->|Hne]; [contradiction H; left; reflexivity|].
  f_equal. apply IH. intros Hin. apply H. right; exact Hin.
Qed.

Definition acc_step (d : list (str * qval)) (kv : str * str) := dict_add d (fst kv) (snd kv).

Lemma accumulate_fold : forall ps, accumulate ps = fold_left acc_step ps [].
Proof. reflexivity. Qed.

Lemma fold_add_app : forall k xs d e, ~ In k (keys d) ->
  fold_left acc_step (map (pair k) xs) (d ++ e) = d ++ fold_left acc_step (map (pair k) xs) e.
Proof.
  induction xs as [|x xs IH]; intros d e H; [reflexivity|]. cbn [map fold_left].
  unfold acc_step at 2. cbn [fst snd]. rewrite (dict_add_app d e k x H). exact (IH d _ H).
Qed.

Lemma fold_add_seq : forall k xs l,
  fold_left acc_step (map (pair k) xs) [(k, QSeq l)] = [(k, QSeq (l ++ xs))].
Proof.
  induction xs as [|x xs IH]; intros l; cbn [map fold_left]; [rewrite app_nil_r; reflexivity|].
  unfold acc_step at 2. cbn [fst snd dict_add to_list]. rewrite str_eqb_refl, IH, <- app_assoc. reflexivity.
Qed.

(* the pairs of one entry under a new key append that entry: the first value makes a string, the second
   turns it into a sequence, the others are appended *)
Lemma fold_add_key : forall k v d, ~ In k (keys d) -> seq_len_ok v = true ->
  fold_left acc_step (map (pair k) (to_list v)) d = d ++ [(k, v)].
Proof.
  intros k v d H Hlen. rewrite <- (app_nil_r d) at 1. rewrite (fold_add_app k _ d [] H). f_equal.
  destruct v as [s|[|a [|b l]]]; try discriminate; [reflexivity|].
  cbn [to_list map fold_left]. unfold acc_step at 2 3. cbn [fst snd dict_add to_list List.app].
  rewrite str_eqb_refl. exact (fold_add_seq k l [a; b]).
Qed.

Definition expand (es : list (str * qval)) : list (str * str) :=
  flat_map (fun kv => map (pair (fst kv)) (to_list (snd kv))) es.

Lemma accumulate_entries : forall es d,
  NoDup (keys d ++ keys es) -> forallb (fun kv => seq_len_ok (snd kv)) es = true ->
  fold_left acc_step (expand es) d = d ++ es.
Proof.
  induction es as [|[k v] es IH]; intros d Hnd Hlen; [symmetry; apply app_nil_r|].
  cbn [forallb snd] in Hlen. apply andb_true_iff in Hlen as [Hv Hlen].
  assert (Hk : ~ In k (keys d)).
  { intros Hin. apply NoDup_remove_2 in Hnd. apply Hnd, in_or_app. left; exact Hin. }
  unfold expand. cbn [flat_map fst snd]. rewrite fold_left_app, (fold_add_key k v d Hk Hv). fold (expand es).
  rewrite IH; [rewrite <- app_assoc; reflexivity | | exact Hlen].
  unfold keys. rewrite map_app, <- app_assoc. exact Hnd.
Qed.

(* what is rendered are the pairs of the canonical listing *)
Lemma query_pairs_canon : forall q, query_pairs q = expand (canon_query q).
Proof.
  intros q. unfold query_pairs, canon_query, expand.
  induction (sort_keys (map fst q)) as [|k ks IH]; [reflexivity|]. cbn [flat_map]. rewrite flat_map_app, <- IH.
  destruct (lookup k q); cbn [flat_map fst snd List.app]; rewrite ?app_nil_r; reflexivity.
Qed.

Theorem accumulate_pairs : forall q, NoDup (keys q) -> forallb (fun kv => seq_len_ok (snd kv)) q = true ->
  accumulate (query_pairs q) = canon_query q.
Proof.
  intros q Hnd Hlen. pose proof (Permutation_sym (canon_query_perm q Hnd)) as HP.
  rewrite query_pairs_canon, accumulate_fold. apply (accumulate_entries (canon_query q) []).
  - exact (Permutation_NoDup (Permutation_map fst HP) Hnd).
  - exact (perm_forallb _ _ _ HP Hlen).
Qed.

Lemma query_pairs_In : forall q k v, In (k, v) (query_pairs q) ->
  exists qv, In (k, qv) q /\ In v (to_list qv).
Proof.
  intros q k v H. unfold query_pairs in H. apply in_flat_map in H as [k' [_ H]].
  destruct (lookup k' q) as [qv|] eqn:E; [|contradiction]. apply in_map_iff in H as [v' [Heq Hv']].
  inversion Heq; subst. exists qv. split; [apply lookup_In; exact E | exact Hv'].
Qed.

Definition query_scalar (q : list (str * qval)) : bool :=
  forallb (fun kv => forallb scalar (fst kv) && qval_all scalar (snd kv)) q.

Definition pairs_scalar : list (str * str) -> Prop :=
  Forall (fun kv => forallb scalar (fst kv) = true /\ forallb scalar (snd kv) = true).

Lemma query_pairs_scalar : forall q, query_scalar q = true -> pairs_scalar (query_pairs q).
Proof.
  intros q Hs. apply Forall_forall. intros [k v] H. destruct (query_pairs_In q k v H) as [qv [Hin Hv]].
  unfold query_scalar in Hs. rewrite forallb_forall in Hs. specialize (Hs _ Hin). cbn [fst snd] in *.
  apply andb_true_iff in Hs as [Hk Hqv]. split; [exact Hk|].
  destruct qv as [s|l]; cbn [to_list qval_all] in *.
  - destruct Hv as [<-|[]]. exact Hqv.
  - rewrite forallb_forall in Hqv. exact (Hqv v Hv).
Qed.

Lemma seq_results_pairs : forall ps, pairs_scalar ps ->
  seq_results (map (fun kv => render_pair (fst kv) (snd kv)) ps) = Ok (map enc_pair ps).
Proof.
  induction 1 as [|[k v] ps [Hk Hv] _ IH]; [reflexivity|]. cbn [map seq_results fst snd] in *.
  unfold render_pair at 1. rewrite (quote_plus_r_scalar k Hk), (quote_plus_r_scalar v Hv), IH. reflexivity.
Qed.

Lemma render_query_ok : forall u, query_scalar (u_query u) = true ->
  render_query u = Ok (opt_pre 63 (enc_query (u_query u))).
Proof.
  intros u Hs. unfold render_query, enc_query. destruct (is_nil (u_query u)); [reflexivity|].
  rewrite (seq_results_pairs _ (query_pairs_scalar _ Hs)). reflexivity.
Qed.

Lemma qp_chars : forall s, forallb scalar s = true -> forallb qpchar (qp s) = true.
Proof. intros s H. apply (quote_plus_chars s). apply quote_plus_scalar; exact H. Qed.

(* a rendered pair lies in every class that holds what quote_plus emits and '=' *)
Lemma enc_pairs_chars : forall (p : N -> bool) ps, (forall c, qpchar c = true -> p c = true) -> p 61 = true ->
  pairs_scalar ps -> Forall (fun x => forallb p x = true) (map enc_pair ps).
Proof.
  intros p ps Hp H61 H. apply Forall_map. revert H. apply Forall_impl. intros [k v] [Hk Hv].
  unfold enc_pair. cbn [fst snd] in *. rewrite forallb_app. cbn [forallb].
  rewrite (forallb_impl qpchar p _ Hp (qp_chars k Hk)), H61, (forallb_impl qpchar p _ Hp (qp_chars v Hv)). reflexivity.
Qed.

Lemma qsl_field_pair : forall k v, forallb scalar k = true -> forallb scalar v = true ->
  qsl_field true (enc_pair (k, v)) = [(k, v)].
Proof.
  intros k v Hk Hv. unfold qsl_field, enc_pair. cbn [fst snd].
  assert (Hnn : is_nil (qp k ++ 61 :: qp v) = false) by (destruct (qp k); reflexivity). rewrite Hnn.
  rewrite (span_here (nb 61) (qp k) (61 :: qp v)); [| |reflexivity].
  - rewrite orb_true_r. rewrite (unquote_plus_quote_plus k _ (quote_plus_scalar k Hk)).
    rewrite (unquote_plus_quote_plus v _ (quote_plus_scalar v Hv)). reflexivity.
  - apply (forallb_impl qpchar); [|exact (qp_chars k Hk)]. intros x Hx. unfold qpchar, always_safe, nb in *. lia.
Qed.

Lemma enc_pair_nonnil : forall kv, is_nil (enc_pair kv) = false.
Proof. intros kv. unfold enc_pair. destruct (qp (fst kv)); reflexivity. Qed.

Lemma parse_qsl_pairs : forall ps, pairs_scalar ps -> parse_qsl true (join 38 (map enc_pair ps)) = ps.
Proof.
  intros ps H. destruct ps as [|e ps']; [reflexivity|]. unfold parse_qsl.
  rewrite (join_nonnil 38 _ _ (enc_pair_nonnil e) : is_nil (join 38 (map enc_pair (e :: ps'))) = false).
  rewrite split_on_join; [| discriminate |].
  - induction H as [|[k v] ps [Hk Hv] _ IH]; [reflexivity|]. cbn [map flat_map fst snd] in *.
    rewrite (qsl_field_pair k v Hk Hv), IH. reflexivity.
  - apply enc_pairs_chars; [|reflexivity | exact H]. intros c Hc. unfold qpchar, always_safe, nb in *. lia.
Qed.

Theorem dec_query_enc : forall q, query_scalar q = true ->
  dec_query (enc_query q) = accumulate (query_pairs q).
Proof.
  intros q Hs. unfold enc_query. destruct q as [|e q]; [reflexivity|]. cbn [is_nil].
  unfold dec_query. rewrite (parse_qsl_pairs _ (query_pairs_scalar _ Hs)). reflexivity.
Qed.

(* accumulation never produces a sequence shorter than 2 *)
Lemma dict_add_len : forall d k v, forallb (fun kv => seq_len_ok (snd kv)) d = true ->
  forallb (fun kv => seq_len_ok (snd kv)) (dict_add d k v) = true.
Proof.
  induction d as [|[k' old] d IH]; intros k v H; [reflexivity|]. cbn [dict_add].
  cbn [forallb snd] in H. apply andb_true_iff in H as [Ho Hd].
  destruct (str_eqb k k'); cbn [forallb snd].
  - rewrite Hd, andb_true_r. cbn [seq_len_ok]. rewrite app_length. cbn [length].
    destruct old as [s|l]; cbn [to_list length]; [reflexivity|].
    cbn [seq_len_ok] in Ho. apply Nat.leb_le in Ho. apply Nat.leb_le. lia.
  - rewrite Ho, (IH k v Hd). reflexivity.
Qed.

Lemma accumulate_len : forall ps, forallb (fun kv => seq_len_ok (snd kv)) (accumulate ps) = true.
Proof.
  intros ps. rewrite accumulate_fold. generalize (eq_refl : forallb (fun kv : str * qval => seq_len_ok (snd kv)) [] = true).
  generalize (@nil (str * qval)). induction ps as [|[k v] ps IH]; intros d Hd; [exact Hd|].
  exact (IH _ (dict_add_len d k v Hd)).
Qed.

Lemma host_lit : forall h, host_ok (Some h) = true ->
  host_lit_ok (Some (lit_host h)) = true /\ dec_host (Some (lit_host h)) = Some h.
Proof.
  intros h H. cbn [host_ok] in H. apply andb_true_iff in H as [H H3]. apply andb_true_iff in H as [H1 H2].
  unfold lit_host. destruct (mem 58 h) eqn:E.
  - cbn [List.app]. split.
    + cbn [host_lit_ok]. cbn [forallb]. rewrite forallb_app, H2. cbn [forallb].
      rewrite N.eqb_refl. rewrite (rsplit_app 93 h [] eq_refl). rewrite H1. reflexivity.
    + cbn [dec_host]. rewrite (rsplit_app 93 h [] eq_refl). reflexivity.
  - cbn [orb] in H3. destruct h as [|c r]; [discriminate|]. apply negb_true_iff in H3.
    split.
    + cbn [host_lit_ok]. rewrite H2, H3. apply mem_false_forallb; exact E.
    + apply dec_host_bare. apply N.eqb_neq; exact H3.
Qed.

Lemma dec_port_str : forall p, dec_port (option_map str_of_Z p) = Ok p.
Proof. intros [z|]; [|reflexivity]. cbn [option_map dec_port]. rewrite py_int_str_of_Z. reflexivity. Qed.

Lemma dec_text_qt : forall safe o, forallb ascii safe = true -> mem 37 safe = false ->
  opt_all scalar o = true -> dec_text (option_map (qt safe) o) = o.
Proof.
  intros safe [s|] Ha H37 H; [|reflexivity]. cbn [option_map dec_text]. f_equal.
  apply (unquote_quote safe s); [exact Ha | exact H37 | apply quote_some; exact H].
Qed.

Lemma qt_chars : forall safe o (p : N -> bool), opt_all scalar o = true ->
  (forall x, qchar safe x = true -> p x = true) -> opt_all p (option_map (qt safe) o) = true.
Proof.
  intros safe [s|] p H Hp; [|reflexivity]. cbn [option_map opt_all].
  apply (forallb_impl (qchar safe)); [exact Hp|]. apply quote_bytes_chars, utf8_bytes; exact H.
Qed.

Lemma enc_query_chars : forall q, query_scalar q = true -> opt_all query_ch (enc_query q) = true.
Proof.
  intros q Hs. unfold enc_query. destruct (is_nil q); [reflexivity|]. cbn [opt_all].
  apply forallb_join; [reflexivity|]. apply enc_pairs_chars; [|reflexivity | exact (query_pairs_scalar q Hs)].
  intros c Hc. unfold qpchar, always_safe, query_ch in *. lia.
Qed.

(* What [domain] says, conjunct by conjunct.  The [_d] theorems below start from it instead of from [wf]. *)
Record domain_parts (uw : N -> bool) (u : url) : Prop := {
  dp_drv : negb (is_nil (u_drv u)) && forallb (wordch uw) (u_drv u) = true;
  dp_user : opt_all scalar (u_user u) = true;
  dp_pass : opt_all scalar (u_pass u) = true;
  dp_db : opt_all scalar (u_db u) = true;
  dp_query : query_scalar (u_query u) = true;
  dp_host : host_ok (u_host u) = true;
  dp_nodup : NoDup (keys (u_query u)) }.

Lemma domain_split : forall uw u, domain uw u = true -> domain_parts uw u.
Proof.
  intros uw u H. unfold domain in H.
  apply andb_true_iff in H as [H Hnd]. apply andb_true_iff in H as [H Hho].
  apply andb_true_iff in H as [H Hq]. apply andb_true_iff in H as [H Hdb].
  apply andb_true_iff in H as [H Hpw]. apply andb_true_iff in H as [H Hus].
  constructor; try assumption. apply nodup_keys_NoDup. exact Hnd.
Qed.

Lemma wf_domain : forall uw u, wf uw u = true ->
  domain_parts uw u /\ password_has_user u = true
  /\ forallb (fun kv => seq_len_ok (snd kv)) (u_query u) = true.
Proof.
  intros uw u H. unfold wf in H. apply andb_true_iff in H as [H H3]. apply andb_true_iff in H as [H1 H2].
  exact (conj (domain_split uw u H1) (conj H2 H3)).
Qed.

Lemma wf_nodup : forall uw u, wf uw u = true -> NoDup (keys (u_query u)).
Proof. intros uw u H. exact (dp_nodup uw u (proj1 (wf_domain uw u H))). Qed.

(* rendering is the assembly of the componentwise encodings (a password without a username is in neither) *)
Theorem render_is_assembly_d : forall uw u, domain_parts uw u -> render u = Ok (assemble (enc u)).
Proof.
  intros uw u [_ Hus Hpw Hdb Hq _ _]. unfold render.
  assert (Hui : render_userinfo u = Ok (asm_userinfo (c_user (enc u)) (c_pass (enc u)))).
  { unfold render_userinfo, enc. cbn [c_user c_pass].
    destruct (u_user u) as [us|]; cbn [option_map asm_userinfo]; [|reflexivity].
    cbn in Hus. rewrite (quote_r_scalar _ us Hus). cbn [bind].
    destruct (u_pass u) as [p|]; cbn [option_map opt_pre]; [|reflexivity].
    cbn in Hpw. rewrite (quote_r_scalar _ p Hpw). reflexivity. }
  rewrite Hui. cbn [bind].
  assert (Hd : render_db u = Ok (opt_pre 47 (c_db (enc u)))).
  { unfold render_db, enc. cbn [c_db]. destruct (u_db u) as [d|]; [|reflexivity].
    cbn in Hdb. rewrite (quote_r_scalar _ d Hdb). reflexivity. }
  rewrite Hd. cbn [bind]. rewrite (render_query_ok u Hq). cbn [bind].
  unfold assemble, enc. cbn [c_drv c_user c_pass c_host c_port c_db c_query].
  unfold render_host, render_port, lit_host.
  destruct (u_host u); destruct (u_port u); reflexivity.
Qed.

Theorem enc_comp_ok_d : forall uw u, domain_parts uw u -> password_has_user u = true -> comp_ok uw (enc u) = true.
Proof.
  intros uw u [Hdrv Hus Hpw Hdb Hq Hho _] Hpu.
  unfold comp_ok, enc. cbn [c_drv c_user c_pass c_host c_port c_db c_query].
  rewrite Hdrv. cbn [andb].
  rewrite (qt_chars SAFE_USER (u_user u) user_ch Hus)
    by (intros x Hx; unfold qchar, mem, SAFE_USER, always_safe, user_ch in *; cbn [existsb] in Hx; lia).
  rewrite (qt_chars SAFE_USER (u_pass u) (nb 64) Hpw)
    by (intros x Hx; unfold qchar, mem, SAFE_USER, always_safe, nb in *; cbn [existsb] in Hx; lia).
  rewrite (qt_chars SAFE_DB (u_db u) db_ch Hdb)
    by (intros x Hx; unfold qchar, mem, SAFE_DB, always_safe, db_ch in *; cbn [existsb] in Hx; lia).
  rewrite (enc_query_chars _ Hq). cbn [andb].
  assert (Hp1 : negb (has_some (option_map (qt SAFE_USER) (u_pass u)))
                || has_some (option_map (qt SAFE_USER) (u_user u)) = true).
  { unfold password_has_user in Hpu. destruct (u_user u); destruct (u_pass u); exact Hpu. }
  rewrite Hp1. cbn [andb].
  assert (Hh : host_lit_ok (option_map lit_host (u_host u)) = true).
  { destruct (u_host u) as [h|]; [|reflexivity]. exact (proj1 (host_lit h Hho)). }
  rewrite Hh. cbn [andb].
  destruct (u_port u) as [z|]; [|reflexivity]. cbn [option_map opt_all].
  rewrite !andb_true_r.
  apply (forallb_impl (fun c => ((48 <=? c) && (c <=? 57)) || (c =? 45))); [|exact (str_of_Z_chars z)].
  intros x Hx. unfold port_ch. lia.
Qed.

Definition decoded (u : url) : url :=
  mkUrl (u_drv u) (u_user u) (u_pass u) (u_host u) (u_port u) (u_db u) (accumulate (query_pairs (u_query u))).

Theorem decode_enc : forall uw u, domain_parts uw u -> decode (strip_host (enc u)) = Ok (decoded u).
Proof.
  intros uw u [_ Hus Hpw Hdb Hq Hho _].
  unfold decode, strip_host, enc, decoded. cbn [c_drv c_user c_pass c_host c_port c_db c_query].
  rewrite dec_port_str. cbn [bind].
  rewrite (dec_text_qt SAFE_USER (u_user u) eq_refl eq_refl Hus).
  rewrite (dec_text_qt SAFE_USER (u_pass u) eq_refl eq_refl Hpw).
  rewrite (dec_text_qt SAFE_DB (u_db u) eq_refl eq_refl Hdb).
  rewrite (dec_query_enc _ Hq).
  assert (Hh : dec_host (option_map lit_host (u_host u)) = u_host u).
  { destruct (u_host u) as [h|]; [|reflexivity]. exact (proj2 (host_lit h Hho)). }
  rewrite Hh. reflexivity.
Qed.

Theorem parse_assembled : forall uw c, comp_ok uw c = true ->
  parse uw (assemble c) = decode (strip_host c).
Proof. intros uw c H. unfold parse. rewrite (split_ok uw c H). reflexivity. Qed.

Lemma roundtrip_has_user : forall uw u, domain_parts uw u -> password_has_user u = true ->
  roundtrip uw u = Ok (decoded u).
Proof.
  intros uw u H Hpu. unfold roundtrip. rewrite (render_is_assembly_d uw u H). cbn [bind].
  rewrite (parse_assembled uw _ (enc_comp_ok_d uw u H Hpu)). exact (decode_enc uw u H).
Qed.

(* A password without a username is not rendered: the URL renders like the one without it, which
   has the username its password asks for. *)
Definition shown_pass (u : url) : option str := if has_some (u_user u) then u_pass u else None.
Definition shown (u : url) : url :=
  mkUrl (u_drv u) (u_user u) (shown_pass u) (u_host u) (u_port u) (u_db u) (u_query u).

Lemma render_shown : forall u, render (shown u) = render u.
Proof. intros [d [us|] pw ho po db q]; reflexivity. Qed.

Lemma shown_has_user : forall u, password_has_user (shown u) = true.
Proof. intros [d [us|] [pw|] ho po db q]; reflexivity. Qed.

Lemma shown_parts : forall uw u, domain_parts uw u -> domain_parts uw (shown u).
Proof.
  intros uw u [H1 H2 H3 H4 H5 H6 H7]. constructor; try assumption. cbn [shown u_pass]. unfold shown_pass.
  destruct (has_some (u_user u)); [exact H3 | reflexivity].
Qed.

Definition observed (u : url) : url := decoded (shown u).

(* the round trip on the whole domain, defects included *)
Theorem roundtrip_domain : forall uw u, domain uw u = true -> roundtrip uw u = Ok (observed u).
Proof.
  intros uw u H. unfold roundtrip. rewrite <- render_shown.
  exact (roundtrip_has_user uw (shown u) (shown_parts uw u (domain_split uw u H)) (shown_has_user u)).
Qed.

Theorem render_is_assembly : forall uw u, wf uw u = true -> render u = Ok (assemble (enc u)).
Proof. intros uw u H. exact (render_is_assembly_d uw u (proj1 (wf_domain uw u H))). Qed.

Theorem enc_comp_ok : forall uw u, wf uw u = true -> comp_ok uw (enc u) = true.
Proof.
  intros uw u H. destruct (wf_domain uw u H) as [Hd [Hpu _]]. exact (enc_comp_ok_d uw u Hd Hpu).
Qed.

Theorem roundtrip_wf : forall uw u, wf uw u = true -> roundtrip uw u = Ok (canon u).
Proof.
  intros uw u H. destruct (wf_domain uw u H) as [Hd [Hpu Hlen]].
  rewrite (roundtrip_has_user uw u Hd Hpu). unfold decoded, canon.
  rewrite (accumulate_pairs _ (wf_nodup uw u H) Hlen). reflexivity.
Qed.

(* URL.__eq__ : field-wise, the query as a dict *)
Definition url_eq (a b : url) : Prop :=
  u_drv a = u_drv b /\ u_user a = u_user b /\ u_pass a = u_pass b /\ u_host a = u_host b /\
  u_port a = u_port b /\ u_db a = u_db b /\ Permutation (u_query a) (u_query b).

Theorem canon_eq : forall uw u, wf uw u = true -> url_eq (canon u) u.
Proof.
  intros uw u H. unfold url_eq, canon. cbn [u_drv u_user u_pass u_host u_port u_db u_query].
  repeat split. exact (canon_query_perm _ (wf_nodup uw u H)).
Qed.

Theorem roundtrip_eq : forall uw u, wf uw u = true ->
  exists s u', render u = Ok s /\ parse uw s = Ok u' /\ url_eq u' u.
Proof.
  intros uw u H. exists (assemble (enc u)), (canon u). split; [exact (render_is_assembly uw u H)|]. split.
  - pose proof (roundtrip_wf uw u H) as R. unfold roundtrip in R.
    rewrite (render_is_assembly uw u H) in R. exact R.
  - exact (canon_eq uw u H).
Qed.

(* when the dict lists its keys in sorted order the canonical representative is the dict itself *)
Lemma canon_sorted : forall u, NoDup (keys (u_query u)) ->
  sort_keys (map fst (u_query u)) = map fst (u_query u) -> canon u = u.
Proof.
  intros [d us pw ho po db q] Hnd Hs. unfold canon. cbn [u_drv u_user u_pass u_host u_port u_db u_query] in *.
  f_equal. unfold canon_query. rewrite Hs. exact (entries_by_key q Hnd).
Qed.

Theorem roundtrip_sorted : forall uw u, wf uw u = true ->
  sort_keys (map fst (u_query u)) = map fst (u_query u) -> roundtrip uw u = Ok u.
Proof.
  intros uw u H Hs. rewrite (roundtrip_wf uw u H), (canon_sorted u (wf_nodup uw u H) Hs). reflexivity.
Qed.

Theorem guard_exact : forall uw u, domain uw u = true -> wf uw u = false ->
  exists u', roundtrip uw u = Ok u' /\ ~ url_eq u' u.
Proof.
  intros uw u Hd Hwf. exists (observed u). split; [exact (roundtrip_domain uw u Hd)|].
  intros [_ [_ [Hp [_ [_ [_ Hq]]]]]]. unfold wf in Hwf. rewrite Hd in Hwf. cbn [andb] in Hwf.
  apply andb_false_iff in Hwf as [Hpu|Hlen].
  - unfold observed, decoded, shown, shown_pass in Hp. cbn [u_pass u_user] in Hp. unfold password_has_user in Hpu.
    destruct (u_user u); destruct (u_pass u); cbn in Hpu; try discriminate.
  - unfold observed, decoded, shown in Hq. cbn [u_query] in Hq.
    rewrite (perm_forallb _ _ _ Hq (accumulate_len _)) in Hlen. discriminate.
Qed.

(* each defect has a URL of the domain outside the guard, and [guard_exact] says what happens to it *)
Lemma outside_guard_refuted : forall uw u, domain uw u = true -> wf uw u = false ->
  exists u0 u', domain uw u0 = true /\ roundtrip uw u0 = Ok u' /\ ~ url_eq u' u0.
Proof. intros uw u Hd Hw. destruct (guard_exact uw u Hd Hw) as [u' H]. exists u, u'. exact (conj Hd H). Qed.

(* URL.create("x", query={"a": ("x",)}) (comes back with "a": "x") and query={"a": ()} (loses the key) *)
Lemma singleton_sequence_outside : forall uw,
  let u := mkUrl [120] None None None None None [([97], QSeq [[120]])] in domain uw u = true /\ wf uw u = false.
Proof. intros uw. split; reflexivity. Qed.

Lemma empty_sequence_outside : forall uw,
  let u := mkUrl [120] None None None None None [([97], QSeq [])] in domain uw u = true /\ wf uw u = false.
Proof. intros uw. split; reflexivity. Qed.

(* URL.create("x", password="p", host="h") comes back without the password *)
Theorem password_without_user_refuted : forall uw, exists u u',
  domain uw u = true /\ roundtrip uw u = Ok u' /\ ~ url_eq u' u.
Proof.
  intros uw. apply (outside_guard_refuted uw (mkUrl [120] None (Some [112]) (Some [104]) None None [])); reflexivity.
Qed.

Theorem roundtrip_unguarded_refuted : forall uw,
  ~ (forall u, domain uw u = true -> exists u', roundtrip uw u = Ok u' /\ url_eq u' u).
Proof.
  intros uw Hall. destruct (password_without_user_refuted uw) as [u [u' [Hd [Hr Hne]]]].
  destruct (Hall u Hd) as [u'' [Hr' He]]. rewrite Hr in Hr'. inversion Hr'; subst. contradiction.
Qed.
