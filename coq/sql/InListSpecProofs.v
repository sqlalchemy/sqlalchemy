(* C07, spec side: SQL's IN is the Kleene OR of equalities; a small calculus of "phrases" for the
   evaluator [parse]; the explicit OR-of-equalities evaluates to [or_eq]. *)
From Coq Require Import List ZArith NArith Bool Lia.
Import ListNotations.
From SAV.sql Require Import Val3 Val3Proofs InList.

Theorem in_is_or_of_eq x rows : in_sem x rows = or_eq x rows.
Proof.
  unfold in_sem, or_eq. induction rows as [|r rows IH]; [reflexivity|].
  cbn [existsb fold_right]. rewrite <- IH. clear IH.
  destruct (row_eq3 x r); cbn [is_true is_unknown orb or3];
  destruct (existsb (fun r0 => is_true (row_eq3 x r0)) rows);
  destruct (existsb (fun r0 => is_unknown (row_eq3 x r0)) rows); reflexivity.
Qed.

Lemma or_eq_app x r1 r2 : or_eq x (r1 ++ r2) = or3 (or_eq x r1) (or_eq x r2).
Proof.
  unfold or_eq. induction r1 as [|r r1 IH]; cbn [app fold_right].
  - now rewrite or3_TF_l.
  - now rewrite IH, or3_assoc.
Qed.

(* [scal ts vs]: the tokens [ts] denote the scalars [vs];  [items ts] is "t1 , t2 , .." *)
Definition scal (ts : list tok) (vs : list sv) : Prop := Forall2 (fun t v => scalar_of t = Some v) ts vs.
Definition items (ts : list tok) : list tok := join [TComma] (map (fun t => [t]) ts).
Definition no_comma (rest : list tok) : Prop := match rest with TComma :: _ => False | _ => True end.

Lemma join_cons2 sep p q r : join sep (p :: q :: r) = p ++ sep ++ join sep (q :: r).
Proof. reflexivity. Qed.
Lemma join_one sep p : join sep [p] = p.
Proof. reflexivity. Qed.

Lemma forallb_join (P : tok -> bool) sep parts :
  forallb P sep = true -> Forall (fun p => forallb P p = true) parts -> forallb P (join sep parts) = true.
Proof.
  intros Hs H. induction H as [|p parts Hp H IH]; [reflexivity|].
  destruct parts as [|q parts]; [exact Hp|].
  rewrite join_cons2, !forallb_app, Hp, Hs. exact IH.
Qed.
Lemma forallb_join_map {A} (P : tok -> bool) sep (f : A -> list tok) l :
  forallb P sep = true -> (forall a, forallb P (f a) = true) -> forallb P (join sep (map f l)) = true.
Proof.
  intros Hs H. apply forallb_join; [exact Hs|]. apply Forall_forall. intros it Hit.
  apply in_map_iff in Hit as (a & <- & _). apply H.
Qed.

Lemma items_cons2 t t2 ts : items (t :: t2 :: ts) = t :: TComma :: items (t2 :: ts).
Proof. reflexivity. Qed.

Lemma scal_length ts vs : scal ts vs -> length ts = length vs.
Proof. induction 1; cbn [length]; congruence. Qed.

Lemma p_scalars_items ts vs rest :
  scal ts vs -> ts <> [] -> no_comma rest -> p_scalars (items ts ++ rest) = Some (vs, rest).
Proof.
  intros H. induction H as [|t v ts vs Ht H IH]; intros Hne Hr; [congruence|].
  destruct ts as [|t2 ts].
  - inversion H; subst. unfold items. cbn [map join app]. cbn [p_scalars]. rewrite Ht.
    destruct rest as [|[] rest]; try reflexivity. destruct Hr.
  - rewrite items_cons2. cbn [app]. cbn [p_scalars]. rewrite Ht.
    rewrite IH; [reflexivity|discriminate|assumption].
Qed.

(* what [p_rl] does after the ")" that closes the row [r] *)
Definition p_rl_next (r : list sv) (acc : list (list sv)) (rest : list tok) : option (list (list sv) * list tok) :=
  match rest with
  | TComma :: TLp :: rest' => p_rl rest' [] (acc ++ [r])
  | _ => Some (acc ++ [r], rest)
  end.
Lemma p_rl_row ts vs : scal ts vs -> ts <> [] -> forall cur acc rest,
  p_rl (items ts ++ TRp :: rest) cur acc = p_rl_next (cur ++ vs) acc rest.
Proof.
  intros H. induction H as [|t v ts vs Ht H IH]; intros Hne cur acc rest; [congruence|].
  destruct ts as [|t2 ts].
  - inversion H; subst. unfold items. cbn [map join app]. cbn [p_rl]. rewrite Ht.
    reflexivity.
  - rewrite items_cons2. cbn [app]. cbn [p_rl]. rewrite Ht.
    rewrite IH by discriminate. rewrite <- app_assoc. reflexivity.
Qed.

Definition row_toks (ts : list tok) : list tok := TLp :: items ts ++ [TRp].
Fixpoint rows_tail (rts : list (list tok)) (rest : list tok) : list tok :=
  match rts with
  | [] => rest
  | t :: r => TComma :: TLp :: items t ++ TRp :: rows_tail r rest
  end.
Lemma join_rows_tail t rts rest :
  join [TComma] (map row_toks (t :: rts)) ++ rest = TLp :: items t ++ TRp :: rows_tail rts rest.
Proof.
  revert t. induction rts as [|t2 rts IH]; intro t.
  - cbn [map join rows_tail]. unfold row_toks. cbn [app]. now rewrite <- app_assoc.
  - cbn [map]. rewrite join_cons2. cbn [map] in IH. rewrite <- !app_assoc. rewrite IH.
    unfold row_toks. cbn [app rows_tail]. now rewrite <- app_assoc.
Qed.

Lemma p_rl_rows rts rvs : Forall2 scal rts rvs -> Forall (fun t => t <> []) rts ->
  forall t v acc rest, scal t v -> t <> [] -> no_comma rest ->
  p_rl (items t ++ TRp :: rows_tail rts rest) [] acc = Some (acc ++ v :: rvs, rest).
Proof.
  intros H. induction H as [|t2 v2 rts rvs H2 H IH]; intros Hne t v acc rest Ht Htne Hr.
  - cbn [rows_tail]. rewrite (p_rl_row _ _ Ht Htne). cbn [app].
    destruct rest as [|[] rest]; try reflexivity. destruct Hr.
  - cbn [rows_tail]. rewrite (p_rl_row _ _ Ht Htne). cbn [app p_rl_next].
    inversion Hne; subst. rewrite (IH H4 t2 v2 _ rest H2 H3 Hr). now rewrite <- app_assoc.
Qed.

Lemma p_rows_join rts rvs rest : Forall2 scal rts rvs -> Forall (fun t => t <> []) rts -> rts <> [] ->
  no_comma rest -> p_rows (join [TComma] (map row_toks rts) ++ rest) = Some (rvs, rest).
Proof.
  intros H Hne Hn Hr. destruct H as [|t v rts rvs Ht H]; [congruence|].
  rewrite join_rows_tail. cbn [p_rows]. inversion Hne; subst.
  now rewrite (p_rl_rows _ _ H H3 t v [] rest Ht H2 Hr).
Qed.

Lemma p_operand_scalar t v rest : scalar_of t = Some v -> p_operand (t :: rest) = Some ([v], rest).
Proof. intros H. destruct t; cbn [scalar_of] in H; try discriminate; cbn [p_operand scalar_of]; now inversion H. Qed.

Lemma p_operand_row ts vs rest : scal ts vs -> ts <> [] ->
  p_operand (TLp :: items ts ++ TRp :: rest) = Some (vs, rest).
Proof. intros H Hne. cbn [p_operand]. now rewrite (p_scalars_items ts vs (TRp :: rest) H Hne I). Qed.

Lemma scal_map f vs : (forall v, scalar_of (f v) = Some v) -> scal (map f vs) vs.
Proof. intros Hf. induction vs; constructor; [apply Hf|assumption]. Qed.
Lemma scal_map_rows f ts : (forall v, scalar_of (f v) = Some v) -> Forall2 scal (map (map f) ts) ts.
Proof. intros Hf. induction ts; constructor; [now apply scal_map|assumption]. Qed.

Lemma items_map_TVal r : join [TComma] (map (fun v => [TVal v]) r) = items (map TVal r).
Proof. unfold items. now rewrite map_map. Qed.

Lemma operand_tokens_ok r rest : r <> [] -> p_operand (operand_tokens r ++ rest) = Some (r, rest).
Proof.
  intros Hne. destruct r as [|v [|v2 r]]; [congruence| |].
  - reflexivity.
  - unfold operand_tokens. rewrite items_map_TVal. rewrite <- !app_assoc. cbn [app].
    apply p_operand_row; [now apply scal_map|discriminate].
Qed.

(* [parse] hands fuel - 1 from each level to the next (OR > AND > NOT > atom): what a level needs beyond its sub-phrase;
   [stops]: the next token does not continue a phrase of this level *)
Definition slack (l : level) : nat := match l with LAtom => 1 | LNot => 2 | LAnd => 3 | LOr => 4 end.
Definition stops (l : level) (rest : list tok) : Prop :=
  match l with
  | LOr => match rest with TOr :: _ | TAnd :: _ => False | _ => True end
  | LAnd => match rest with TAnd :: _ => False | _ => True end
  | _ => True
  end.
(* [ph] parses at level [l] to the value [t], whatever follows (as long as it cannot extend the phrase) *)
Definition phrase (l : level) (ph : list tok) (t : tv) : Prop :=
  forall f rest, 4 * length ph + slack l <= f -> stops l rest -> parse f l (ph ++ rest) = POk t rest.

(* the fuel a phrase asks for is never 0, so [parse] can always take its first step *)
Lemma phrase_step l ph t :
  (forall f rest, 4 * length ph + slack l <= S f -> stops l rest -> parse (S f) l (ph ++ rest) = POk t rest) ->
  phrase l ph t.
Proof. intros H [|f] rest Hf; [destruct l; cbn [slack] in Hf; lia|now apply H]. Qed.

Definition no_not (ph : list tok) : Prop := match ph with TNot :: _ | [] => False | _ => True end.

Lemma phrase_atom ph t : (forall rest, p_simple (ph ++ rest) = Some (t, rest)) -> phrase LAtom ph t.
Proof. intros H. apply phrase_step. intros f rest _ _. cbn [parse]. now rewrite H. Qed.

Lemma phrase_lift_not ph t : phrase LAtom ph t -> no_not ph -> phrase LNot ph t.
Proof.
  intros H Hn. apply phrase_step. intros f rest Hf _.
  assert (G : parse f LAtom (ph ++ rest) = POk t rest) by (apply H; [cbn [slack] in *; lia|exact I]).
  destruct ph as [|[] ph]; try exact G; destruct Hn.
Qed.

Lemma phrase_not ph t : phrase LNot ph t -> phrase LNot (TNot :: ph) (not3 t).
Proof.
  intros H. apply phrase_step. intros f rest Hf _.
  cbn [parse app]. rewrite (H f rest); [reflexivity|cbn [slack length] in *; lia|exact I].
Qed.

Lemma phrase_lift_and ph t : phrase LNot ph t -> phrase LAnd ph t.
Proof.
  intros H. apply phrase_step. intros f rest Hf Hs.
  cbn [parse]. rewrite (H f rest); [|cbn [slack] in *; lia|exact I].
  destruct rest as [|[] rest]; try reflexivity. destruct Hs.
Qed.

Lemma phrase_and a ta b tb : phrase LNot a ta -> phrase LAnd b tb -> phrase LAnd (a ++ TAnd :: b) (and3 ta tb).
Proof.
  intros Ha Hb. apply phrase_step. intros f rest Hf Hs.
  rewrite app_length in Hf. cbn [length slack] in Hf.
  cbn [parse]. rewrite <- app_assoc. cbn [app].
  rewrite (Ha f (TAnd :: b ++ rest)); [|cbn [slack]; lia|exact I].
  rewrite (Hb f rest); [reflexivity|cbn [slack]; lia|exact Hs].
Qed.

Lemma phrase_lift_or ph t : phrase LAnd ph t -> phrase LOr ph t.
Proof.
  intros H. apply phrase_step. intros f rest Hf Hs.
  cbn [parse]. rewrite (H f rest); [|cbn [slack] in *; lia|];
    destruct rest as [|[] rest]; try reflexivity; try exact I; destruct Hs.
Qed.

Lemma phrase_or a ta b tb : phrase LAnd a ta -> phrase LOr b tb -> phrase LOr (a ++ TOr :: b) (or3 ta tb).
Proof.
  intros Ha Hb. apply phrase_step. intros f rest Hf Hs.
  rewrite app_length in Hf. cbn [length slack] in Hf.
  cbn [parse]. rewrite <- app_assoc. cbn [app].
  rewrite (Ha f (TOr :: b ++ rest)); [|cbn [slack]; lia|exact I].
  rewrite (Hb f rest); [reflexivity|cbn [slack]; lia|exact Hs].
Qed.

Lemma phrase_paren ph t : phrase LOr ph t -> (forall rest, p_simple (TLp :: ph ++ TRp :: rest) = None) ->
  phrase LAtom (TLp :: ph ++ [TRp]) t.
Proof.
  intros H Hn. apply phrase_step. intros f rest Hf _.
  cbn [length] in Hf. rewrite app_length in Hf. cbn [length slack] in Hf.
  cbn [parse app]. rewrite <- app_assoc. cbn [app]. rewrite Hn.
  rewrite (H f (TRp :: rest)); [reflexivity|cbn [slack]; lia|exact I].
Qed.

Lemma phrase_teval ph t : phrase LOr ph t -> teval ph = EOk t.
Proof.
  intros H. unfold teval. specialize (H (4 * length ph + 4)%nat []). rewrite app_nil_r in H.
  now rewrite H.
Qed.

Lemma phrase_conj (phs : list (list tok * tv)) : phs <> [] -> Forall (fun p => phrase LNot (fst p) (snd p)) phs ->
  phrase LAnd (join [TAnd] (map fst phs)) (and3_list (map snd phs)).
Proof.
  intros Hne H. induction H as [|p phs Hp H IH]; [congruence|].
  destruct phs as [|q phs].
  - cbn [map join and3_list fold_right]. rewrite and3_TT_r. now apply phrase_lift_and.
  - cbn [map]. rewrite join_cons2. cbn [app and3_list fold_right].
    apply phrase_and; [assumption|]. apply IH. discriminate.
Qed.

(* a parenthesised predicate is not mistaken for a row value: after "(" the scalar list either does not
   start, or stops before a token that is neither "," nor ")" *)
Definition not_row_start (ph : list tok) : Prop :=
  match ph with
  | t :: tl => match scalar_of t, tl with
               | None, _ => True
               | Some _, u :: _ => u <> TComma /\ u <> TRp
               | Some _, [] => False
               end
  | [] => False
  end.
Lemma p_simple_paren_none ph rest : not_row_start ph -> p_simple (TLp :: ph ++ rest) = None.
Proof.
  intros H. unfold p_simple. cbn [p_operand].
  destruct ph as [|t tl]; [destruct H|]. cbn [app p_scalars not_row_start] in *.
  destruct (scalar_of t); [|reflexivity].
  destruct tl as [|u tl]; [destruct H|]. destruct H as [H1 H2].
  cbn [app]. destruct u; try reflexivity; congruence.
Qed.

Lemma p_simple_cmp (ne : bool) a b rest : a <> [] -> b <> [] -> length a = length b ->
  p_simple (operand_tokens a ++ (if ne then TNe else TEq) :: operand_tokens b ++ rest)
  = Some (if ne then not3 (row_eq3 a b) else row_eq3 a b, rest).
Proof.
  intros Ha Hb Hl. unfold p_simple. rewrite (operand_tokens_ok a _ Ha).
  destruct ne; unfold p_cmp; rewrite (operand_tokens_ok a _ Ha), (operand_tokens_ok b _ Hb);
    unfold same_arity; now rewrite Hl, Nat.eqb_refl.
Qed.
Lemma p_simple_eq a b rest : a <> [] -> b <> [] -> length a = length b ->
  p_simple (operand_tokens a ++ TEq :: operand_tokens b ++ rest) = Some (row_eq3 a b, rest).
Proof. exact (p_simple_cmp false a b rest). Qed.
Lemma p_simple_ne a b rest : a <> [] -> b <> [] -> length a = length b ->
  p_simple (operand_tokens a ++ TNe :: operand_tokens b ++ rest) = Some (not3 (row_eq3 a b), rest).
Proof. exact (p_simple_cmp true a b rest). Qed.

Lemma operand_tokens_no_not r x : r <> [] -> no_not (operand_tokens r ++ x).
Proof. intros H. destruct r as [|v [|v2 r]]; [congruence| |]; exact I. Qed.

Lemma phrase_eq a b : a <> [] -> b <> [] -> length a = length b ->
  phrase LNot (operand_tokens a ++ TEq :: operand_tokens b) (row_eq3 a b).
Proof.
  intros Ha Hb Hl. apply phrase_lift_not; [|now apply operand_tokens_no_not].
  apply phrase_atom. intros rest. rewrite <- app_assoc. now apply p_simple_eq.
Qed.

Lemma explicit_or_phrase x rows : x <> [] -> Forall (fun r => length r = length x) rows ->
  phrase LOr (explicit_or x rows) (or_eq x rows).
Proof.
  intros Hx H. destruct H as [|r rows Hr H].
  - apply phrase_lift_or, phrase_lift_and, phrase_lift_not; [|exact I].
    apply phrase_atom. intros rest. reflexivity.
  - unfold explicit_or. revert r Hr. induction H as [|r2 rows Hr2 H IH]; intros r Hr.
    all: assert (E : phrase LAnd (operand_tokens x ++ [TEq] ++ operand_tokens r) (row_eq3 x r))
      by (apply phrase_lift_and, phrase_eq; [assumption|destruct r; [destruct x; [congruence|discriminate]|discriminate]|congruence]).
    + cbn [map join or_eq fold_right]. rewrite or3_TF_r. now apply phrase_lift_or.
    + cbn [map]. rewrite join_cons2. cbn [or_eq fold_right app]. apply phrase_or; [exact E|]. now apply IH.
Qed.

Theorem explicit_or_sem x rows : x <> [] -> Forall (fun r => length r = length x) rows ->
  teval (explicit_or x rows) = EOk (or_eq x rows).
Proof. intros. now apply phrase_teval, explicit_or_phrase. Qed.

Theorem explicit_not_or_sem x rows : x <> [] -> Forall (fun r => length r = length x) rows ->
  teval (explicit_not_or x rows) = EOk (not3 (or_eq x rows)).
Proof.
  intros Hx H. apply phrase_teval. unfold explicit_not_or.
  apply phrase_lift_or, phrase_lift_and. cbn [app]. apply phrase_not.
  apply phrase_lift_not; [|exact I].
  apply phrase_paren; [now apply explicit_or_phrase|].
  intros rest. apply p_simple_paren_none.
  destruct rows as [|r rows]; [cbn; split; discriminate|].
  unfold explicit_or. cbn [map]. destruct x as [|v [|v2 x]]; [congruence| |]; destruct rows; cbn; try exact I; split; discriminate.
Qed.
