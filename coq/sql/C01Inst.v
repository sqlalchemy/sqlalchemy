(* C01: a concrete SQL value semantics (NULL / integer / text, Kleene logic, exact integers) for which
   the hypotheses of [construct_sound] follow from the finite per-run check [sem_side]. *)
From Coq Require Import List Arith ZArith NArith Bool.
Import ListNotations.
From SAV.sql Require Import Prec SAExpr C01Tables C01Proofs C01Sem.

Inductive sv := SNull | SInt (z : Z) | SText (s : list N).

Definition b2v (b : bool) : sv := SInt (if b then 1 else 0)%Z.
Definition truth (v : sv) : option bool :=
  match v with SNull => None | SInt z => Some (negb (Z.eqb z 0)) | SText _ => Some false end.
Definition of_truth (t : option bool) : sv := match t with None => SNull | Some b => b2v b end.
Definition kand (a b : option bool) : option bool :=
  match a, b with
  | Some false, _ | _, Some false => Some false
  | Some true, Some true => Some true
  | _, _ => None
  end.
Definition kor (a b : option bool) : option bool :=
  match a, b with
  | Some true, _ | _, Some true => Some true
  | Some false, Some false => Some false
  | _, _ => None
  end.
Definition and3 a b := of_truth (kand (truth a) (truth b)).
Definition or3 a b := of_truth (kor (truth a) (truth b)).
Definition not3 a := of_truth (option_map negb (truth a)).

Definition arith2 (f : Z -> Z -> Z) (a b : sv) : sv :=
  match a, b with SInt x, SInt y => SInt (f x y) | _, _ => SNull end.
Definition divlike (f : Z -> Z -> Z) (a b : sv) : sv :=
  match a, b with SInt x, SInt y => if Z.eqb y 0 then SNull else SInt (f x y) | _, _ => SNull end.
Definition concat3 (a b : sv) : sv :=
  match a, b with SText x, SText y => SText (x ++ y) | _, _ => SNull end.

Fixpoint lcmp (a b : list N) : comparison :=
  match a, b with
  | [], [] => Eq | [], _ => Lt | _, [] => Gt
  | x :: a', y :: b' => match N.compare x y with Eq => lcmp a' b' | c => c end
  end.
Definition svcmp (a b : sv) : comparison :=
  match a, b with
  | SInt x, SInt y => Z.compare x y
  | SText x, SText y => lcmp x y
  | SInt _, SText _ => Lt
  | SText _, SInt _ => Gt
  | _, _ => Eq
  end.
Definition isnull (v : sv) : bool := match v with SNull => true | _ => false end.
Definition cmp3 (test : comparison -> bool) (a b : sv) : sv :=
  if isnull a || isnull b then SNull else b2v (test (svcmp a b)).
Definition is_eq c := match c with Eq => true | _ => false end.
Definition is_lt c := match c with Lt => true | _ => false end.
Definition is_gt c := match c with Gt => true | _ => false end.
Definition sveqb (a b : sv) : bool :=
  match a, b with
  | SNull, SNull => true
  | SNull, _ | _, SNull => false
  | _, _ => is_eq (svcmp a b)
  end.

Section Inst.
Variable likeb : list N -> list N -> bool.     (* the LIKE matcher: any function *)
Definition like3 (pos : bool) (a b : sv) : sv :=
  if isnull a || isnull b then SNull
  else match a, b with
       | SText s, SText p => b2v (if pos then likeb s p else negb (likeb s p))
       | _, _ => b2v (negb pos)
       end.

Definition bsem3 (o : nat) : sv -> sv -> sv :=
  if Nat.eqb o AND then and3 else if Nat.eqb o OR then or3
  else if Nat.eqb o ADD then arith2 Z.add else if Nat.eqb o SUB then arith2 Z.sub
  else if Nat.eqb o MUL then arith2 Z.mul else if Nat.eqb o MOD then divlike Z.rem
  else if Nat.eqb o FLOORDIV then divlike Z.quot else if Nat.eqb o CONCAT then concat3
  else if Nat.eqb o EQ then cmp3 is_eq else if Nat.eqb o NE then cmp3 (fun c => negb (is_eq c))
  else if Nat.eqb o LT then cmp3 is_lt else if Nat.eqb o GE then cmp3 (fun c => negb (is_lt c))
  else if Nat.eqb o GT then cmp3 is_gt else if Nat.eqb o LE then cmp3 (fun c => negb (is_gt c))
  else if Nat.eqb o LIKE then like3 true else if Nat.eqb o NOTLIKE then like3 false
  else if Nat.eqb o IS then (fun a b => b2v (sveqb a b))
  else if Nat.eqb o ISNOT then (fun a b => b2v (negb (sveqb a b)))
  else if Nat.eqb o BAND then arith2 Z.land else if Nat.eqb o BOR then arith2 Z.lor
  else if Nat.eqb o SHL then arith2 Z.shiftl else if Nat.eqb o SHR then arith2 Z.shiftr
  else fun _ _ => SNull.
Definition usem3 (u : nat) : sv -> sv :=
  if Nat.eqb u INV then not3
  else fun v => match v with SInt z => SInt (- z) | _ => SNull end.

Lemma truth_of_truth t : truth (of_truth t) = t.
Proof. destruct t as [[|]|]; reflexivity. Qed.
Lemma not3_b2v b : not3 (b2v b) = b2v (negb b).
Proof. destruct b; reflexivity. Qed.

Lemma and3_assoc a b c : and3 (and3 a b) c = and3 a (and3 b c).
Proof.
  unfold and3. rewrite !truth_of_truth.
  destruct (truth a) as [[|]|], (truth b) as [[|]|], (truth c) as [[|]|]; reflexivity.
Qed.
Lemma or3_assoc a b c : or3 (or3 a b) c = or3 a (or3 b c).
Proof.
  unfold or3. rewrite !truth_of_truth.
  destruct (truth a) as [[|]|], (truth b) as [[|]|], (truth c) as [[|]|]; reflexivity.
Qed.
Lemma arith2_assoc f : (forall x y z, f (f x y) z = f x (f y z)) ->
  forall a b c, arith2 f (arith2 f a b) c = arith2 f a (arith2 f b c).
Proof. intros H a b c. destruct a, b, c; cbn [arith2]; try reflexivity. rewrite H. reflexivity. Qed.
Lemma concat3_assoc a b c : concat3 (concat3 a b) c = concat3 a (concat3 b c).
Proof. destruct a, b, c; cbn [concat3]; try reflexivity. rewrite app_assoc. reflexivity. Qed.

Lemma assoc_sem_sound o : assoc_sem o = true ->
  forall a b c, bsem3 o (bsem3 o a b) c = bsem3 o a (bsem3 o b c).
Proof.
  intros H. unfold assoc_sem in H. cbn [existsb] in H.
  repeat (apply orb_true_iff in H; destruct H as [H|H];
          [apply Nat.eqb_eq in H; subst o; intros a b c|]); try discriminate.
  - apply (arith2_assoc Z.add). intros. symmetry. apply Z.add_assoc.
  - apply (arith2_assoc Z.mul). intros. symmetry. apply Z.mul_assoc.
  - apply concat3_assoc.
  - apply and3_assoc.
  - apply or3_assoc.
  - apply (arith2_assoc Z.land). intros. symmetry. apply Z.land_assoc.
  - apply (arith2_assoc Z.lor). intros. symmetry. apply Z.lor_assoc.
Qed.

(* covers both directions of a negation pair *)
Lemma cmp3_neg test test' a b : (forall c, test' c = negb (test c)) ->
  not3 (cmp3 test a b) = cmp3 test' a b.
Proof.
  intros H. unfold cmp3. destruct (isnull a || isnull b); [reflexivity|]. rewrite H. apply not3_b2v.
Qed.
Lemma like3_neg pos a b : not3 (like3 pos a b) = like3 (negb pos) a b.
Proof.
  unfold like3. destruct (isnull a || isnull b); [reflexivity|].
  destruct a, b; rewrite not3_b2v; destruct pos; cbn [negb]; rewrite ?negb_involutive; reflexivity.
Qed.

Lemma neg_sem_sound o n : neg_sem o n = true ->
  forall a b, usem3 INV (bsem3 o a b) = bsem3 n a b.
Proof.
  intros H. unfold neg_sem in H. cbn [existsb fst snd] in H.
  repeat (apply orb_true_iff in H; destruct H as [H|H];
          [apply andb_true_iff in H; destruct H as [H1 H2]; apply Nat.eqb_eq in H1, H2; subst o n; intros a b|]);
    try discriminate; change (usem3 INV) with not3.
  1-6: apply cmp3_neg; intros c; rewrite ?negb_involutive; reflexivity.
  - apply (like3_neg true).
  - apply (like3_neg false).
  - apply not3_b2v.
  - change (not3 (b2v (negb (sveqb a b))) = b2v (sveqb a b)). rewrite not3_b2v. apply f_equal, negb_involutive.
Qed.

(* flattening by identity (and_/or_) is always sound; flattening by the table's associativity flag is
   sound when the flag is only set on semantically associative operators *)
Theorem inst_assoc (T : satab) : sem_side T = true ->
  forall o, In o binops -> flattens T o = true -> forall a b c, bsem3 o (bsem3 o a b) c = bsem3 o a (bsem3 o b c).
Proof.
  intros Hs o Ho Hf. unfold sem_side in Hs. rewrite forallb_forall in Hs. specialize (Hs o Ho).
  apply andb_true_iff in Hs. destruct Hs as [Ha _]. unfold flattens in Hf.
  apply orb_true_iff in Hf. destruct Hf as [Hf|Hf]; [apply orb_true_iff in Hf; destruct Hf as [Hf|Hf]|].
  - rewrite Hf in Ha. cbn in Ha. apply assoc_sem_sound. exact Ha.
  - apply Nat.eqb_eq in Hf. subst o. apply and3_assoc.
  - apply Nat.eqb_eq in Hf. subst o. apply or3_assoc.
Qed.
Theorem inst_neg (T : satab) : sem_side T = true ->
  forall o no, In o binops -> negate T o = Some no -> forall a b, usem3 INV (bsem3 o a b) = bsem3 no a b.
Proof.
  intros Hs o no Ho Hn. unfold sem_side in Hs. rewrite forallb_forall in Hs. specialize (Hs o Ho).
  apply andb_true_iff in Hs. destruct Hs as [_ Hb]. rewrite Hn in Hb. apply neg_sem_sound. exact Hb.
Qed.
End Inst.
