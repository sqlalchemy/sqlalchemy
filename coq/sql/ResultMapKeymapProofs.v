(* C11 - proofs about the keymap construction of CursorResultMetaData.__init__ (any merge mode) *)
From Coq Require Import List NArith Bool Arith Lia.
Import ListNotations.
From SAV.sql Require Import ResultMap ResultMapDict.

Local Notation kget := (dget key_eqb).
Local Notation kalast := (alast key_eqb).

Lemma dict_of_NoDup : forall {V} (l : list (key * V)), NoDup (map fst (dict_of key_eqb l)).
Proof. intros V l. unfold dict_of. apply (dupdate_NoDup key_eqb key_eqb_eq). constructor. Qed.

(* the dupes loop of __init__ is one fold over all (key, cursor index) pairs, record by record *)
Definition kpairs (rw : list mrec) : list (key * option nat) :=
  flat_map (fun r => map (fun k => (k, m_idx r)) (m_rend r :: m_objs r)) rw.

Definition oeqb (a b : option nat) : bool :=
  match a, b with Some a, Some b => Nat.eqb a b | None, None => true | _, _ => false end.
Lemma oeqb_eq : forall a b, oeqb a b = true <-> a = b.
Proof. destruct a, b; cbn [oeqb]; rewrite ?Nat.eqb_eq; split; congruence. Qed.

(* the loop body of the scan for one (key, cursor index) pair *)
Definition pstep (s : list (key * option nat) * list key) (p : key * option nat) :=
  let '(ibk, dupes) := s in
  match kget ibk (fst p) with
  | Some i0 => if oeqb i0 (snd p) then (ibk, dupes) else (ibk, if memk (fst p) dupes then dupes else dupes ++ [fst p])
  | None => (dset key_eqb (fst p) (snd p) ibk, dupes)
  end.

Lemma dupes_step_flat : forall r s,
  dupes_step s r = fold_left pstep (map (fun k => (k, m_idx r)) (m_rend r :: m_objs r)) s.
Proof.
  intros r s. unfold dupes_step. revert s.
  induction (m_rend r :: m_objs r) as [|k l IH]; intros s; [reflexivity|apply IH].
Qed.

Lemma dupes_flat : forall rw s, fold_left dupes_step rw s = fold_left pstep (kpairs rw) s.
Proof.
  induction rw as [|r rest IH]; intros s; [reflexivity|].
  cbn [fold_left kpairs flat_map]. fold (kpairs rest). rewrite fold_left_app, <- dupes_step_flat. apply IH.
Qed.

(* after the pairs [done]: index_by_key holds only pairs seen, every key seen is bound, and a key is in
   [dupes] exactly when it was seen with an index other than the one it is bound to *)
Definition dinv (done : list (key * option nat)) (s : list (key * option nat) * list key) : Prop :=
  (forall k i0, kget (fst s) k = Some i0 -> In (k, i0) done) /\
  (forall k i, In (k, i) done -> exists i0, kget (fst s) k = Some i0 /\ (i0 = i \/ In k (snd s))) /\
  (forall k, In k (snd s) -> exists i1 i2, In (k, i1) done /\ In (k, i2) done /\ i1 <> i2).

Lemma pstep_inv : forall done s p, dinv done s -> dinv (done ++ [p]) (pstep s p).
Proof.
  intros done [ibk dupes] [k i] (I1 & I2 & I3). unfold pstep. cbn [fst snd] in *.
  assert (Hold : forall x, In x done -> In x (done ++ [(k, i)])) by (intros; apply in_or_app; now left).
  assert (Hnew : In (k, i) (done ++ [(k, i)])) by (apply in_or_app; right; now left).
  assert (I1' : forall k' i0, kget ibk k' = Some i0 -> In (k', i0) (done ++ [(k, i)])) by auto.
  assert (I3' : forall k', In k' dupes -> exists i1 i2,
                  In (k', i1) (done ++ [(k, i)]) /\ In (k', i2) (done ++ [(k, i)]) /\ i1 <> i2).
  { intros k' H. destruct (I3 _ H) as (i1 & i2 & H1 & H2 & Hne). exists i1, i2. auto. }
  assert (Hdup : forall k', In k' (if memk k dupes then dupes else dupes ++ [k]) <-> k' = k \/ In k' dupes).
  { intro k'. destruct (memk k dupes) eqn:Em.
    - apply memk_In in Em. split; [now right|intros [->|H]; assumption].
    - rewrite in_app_iff. cbn. split; [intros [H|[H|[]]]; auto|intros [H|H]; auto]. }
  destruct (kget ibk k) as [i0|] eqn:E; [destruct (oeqb i0 i) eqn:Eo|]; repeat split; cbn [fst snd]; try assumption.
  - (* same index again: nothing changes *)
    apply oeqb_eq in Eo. subst i0.
    intros k' i' H. apply in_app_or in H as [H|[[= <- <-]|[]]]; eauto.
  - (* another index: k becomes a duplicate *)
    intros k' i' H. apply in_app_or in H as [H|[[= <- <-]|[]]].
    + destruct (I2 _ _ H) as (j & Hj & [Hor|Hor]); exists j; (split; [assumption|]); [now left|].
      right. apply Hdup. now right.
    + exists i0. split; [assumption|]. right. apply Hdup. now left.
  - intros k' H. apply Hdup in H as [->|H]; [|auto]. exists i0, i. repeat split; auto.
    intros ->. rewrite (proj2 (oeqb_eq i i) eq_refl) in Eo. discriminate.
  - (* first occurrence of k *)
    intros k' i' H. rewrite (dget_dset key_eqb key_eqb_eq) in H. destruct (key_eqb k' k) eqn:Ek; [|auto].
    apply key_eqb_eq in Ek. subst k'. now injection H as <-.
  - intros k' i' H. rewrite (dget_dset key_eqb key_eqb_eq). apply in_app_or in H as [H|[[= <- <-]|[]]].
    + destruct (key_eqb k' k) eqn:Ek; [|auto].
      apply key_eqb_eq in Ek. subst k'. destruct (I2 _ _ H) as (j & Hj & _). congruence.
    + rewrite key_eqb_refl. eauto.
Qed.

Lemma pfold_inv : forall ps done s, dinv done s -> dinv (done ++ ps) (fold_left pstep ps s).
Proof.
  induction ps as [|p r IH]; intros done s H; cbn [fold_left].
  - now rewrite app_nil_r.
  - replace (done ++ p :: r) with ((done ++ [p]) ++ r) by (rewrite <- app_assoc; reflexivity).
    apply IH. now apply pstep_inv.
Qed.

Lemma dupes_inv : forall rw, dinv (kpairs rw) (fold_left dupes_step rw ([], [])).
Proof.
  intro rw. rewrite dupes_flat. apply (pfold_inv (kpairs rw) [] ([], [])).
  repeat split; cbn; intros; try discriminate; contradiction.
Qed.

Lemma In_kpairs : forall rw k i,
  In (k, i) (kpairs rw) <-> exists r, In r rw /\ m_idx r = i /\ In k (m_rend r :: m_objs r).
Proof.
  intros rw k i. unfold kpairs. rewrite in_flat_map. split.
  - intros (r & Hr & H). apply in_map_iff in H as (k' & E & Hk). injection E as -> <-. eauto.
  - intros (r & Hr & <- & Hk). exists r. split; [assumption|]. apply in_map_iff. eauto.
Qed.

Theorem dupes_sound : forall rw k, In k (dupes_of rw) ->
  exists r1 r2, In r1 rw /\ In r2 rw /\ m_idx r1 <> m_idx r2 /\
                In k (m_rend r1 :: m_objs r1) /\ In k (m_rend r2 :: m_objs r2).
Proof.
  intros rw k H. destruct (dupes_inv rw) as (_ & _ & I3). destruct (I3 _ H) as (i1 & i2 & H1 & H2 & Hn).
  apply In_kpairs in H1 as (r1 & ? & ? & ?). apply In_kpairs in H2 as (r2 & ? & ? & ?).
  exists r1, r2. repeat split; try assumption. congruence.
Qed.

Theorem dupes_complete : forall rw k r1 r2, In r1 rw -> In r2 rw -> m_idx r1 <> m_idx r2 ->
  In k (m_rend r1 :: m_objs r1) -> In k (m_rend r2 :: m_objs r2) -> In k (dupes_of rw).
Proof.
  intros rw k r1 r2 H1 H2 Hn K1 K2. destruct (dupes_inv rw) as (_ & I2 & _).
  assert (P1 : In (k, m_idx r1) (kpairs rw)) by (apply In_kpairs; eauto).
  assert (P2 : In (k, m_idx r2) (kpairs rw)) by (apply In_kpairs; eauto).
  destruct (I2 _ _ P1) as (a & Ha & [Ea|Da]); [|exact Da].
  destruct (I2 _ _ P2) as (b & Hb & [Eb|Db]); [|exact Db].
  congruence.
Qed.

Lemma alast_amb : forall dupes k,
  kalast (map (fun k => (k, amb_rec k)) dupes) k = if memk k dupes then Some (amb_rec k) else None.
Proof.
  induction dupes as [|d r IH]; intros k; cbn [map alast memk existsb]; [reflexivity|].
  fold (memk k r). rewrite IH. destruct (memk k r); [now rewrite orb_true_r|].
  rewrite orb_false_r. destruct (key_eqb k d) eqn:E; [|reflexivity].
  apply key_eqb_eq in E. now subst.
Qed.

Lemma In_obj_entries : forall rw excl k r,
  In (k, r) (obj_entries rw excl) <-> In r rw /\ In k (m_objs r) /\ ~ In k excl.
Proof.
  intros rw excl k r. unfold obj_entries. rewrite in_flat_map. split.
  - intros (r' & Hr & H). apply in_map_iff in H as (o & E & Ho). injection E as -> ->.
    apply filter_In in Ho as [Ho Hf]. apply negb_true_iff, memk_false in Hf. auto.
  - intros (Hr & Ho & Hx). exists r. split; [assumption|]. apply in_map_iff. exists k. split; [reflexivity|].
    apply filter_In. split; [assumption|]. now apply negb_true_iff, memk_false.
Qed.

Definition dupes_path (rw : list mrec) (n : nat) : bool :=
  negb (Nat.eqb (length (by_key_of rw)) n) || negb (Nat.eqb (length (by_key_of rw)) (length rw)).

Lemma In_by_key_of : forall rw k r, In (k, r) (by_key_of rw) -> In r rw /\ m_key r = k.
Proof.
  intros rw k r H. apply dupdate_In_sub in H as [H|[]]. apply in_map_iff in H as (r0 & [= <- <-] & Hr0). auto.
Qed.

Lemma by_key_of_keys : forall rw k, In k (map fst (by_key_of rw)) <-> In k (map m_key rw).
Proof.
  intros rw k. unfold by_key_of, dict_of. rewrite (dupdate_keys_In key_eqb key_eqb_eq), map_map. cbn. tauto.
Qed.

Lemma keymap_of_compiled : forall rw n tr, n <> 0 ->
  keymap_of rw n tr =
  if dupes_path rw n
  then dupdate key_eqb (dict_of key_eqb (obj_entries rw (dupes_of rw)))
         (dupdate key_eqb (by_key_of rw) (map (fun k => (k, amb_rec k)) (dupes_of rw)))
  else dupdate key_eqb (dict_of key_eqb (obj_entries rw [])) (by_key_of rw).
Proof. intros rw n tr Hn. unfold keymap_of. apply Nat.eqb_neq in Hn. now rewrite Hn. Qed.

(* only this layer needs the order of the updates *)
Lemma keymap_get_amb : forall rw n tr k, n <> 0 -> dupes_path rw n = true -> In k (dupes_of rw) ->
  kget (keymap_of rw n tr) k = Some (amb_rec k).
Proof.
  intros rw n tr k Hn Hd Hk. rewrite keymap_of_compiled, Hd by assumption.
  rewrite (dget_dupdate key_eqb key_eqb_eq), (alast_NoDup_dget key_eqb key_eqb_eq)
    by (apply (dupdate_NoDup key_eqb key_eqb_eq), dict_of_NoDup).
  rewrite (dget_dupdate key_eqb key_eqb_eq), alast_amb.
  apply memk_In in Hk. now rewrite Hk.
Qed.

Lemma keymap_entries : forall rw n tr k r, n <> 0 -> In (k, r) (keymap_of rw n tr) ->
  r = amb_rec k /\ In k (dupes_of rw) \/ In r rw /\ In k (m_key r :: m_objs r).
Proof.
  intros rw n tr k r Hn H. rewrite keymap_of_compiled in H by assumption.
  assert (BK : In (k, r) (by_key_of rw) -> In r rw /\ In k (m_key r :: m_objs r)).
  { intros Hp. apply In_by_key_of in Hp as [Hp <-]. split; [assumption|now left]. }
  assert (OE : forall excl, In (k, r) (dict_of key_eqb (obj_entries rw excl)) ->
                            In r rw /\ In k (m_key r :: m_objs r)).
  { intros excl Hp. apply dupdate_In_sub in Hp as [Hp|[]]. apply In_obj_entries in Hp as (Hp & Ho & _).
    split; [assumption|now right]. }
  destruct (dupes_path rw n).
  - apply dupdate_In_sub in H as [H|H]; [apply dupdate_In_sub in H as [H|H]|]; [left|right; exact (BK H)|right; exact (OE _ H)].
    apply in_map_iff in H as (k' & [= <- <-] & Hk'). auto.
  - apply dupdate_In_sub in H as [H|H]; right; [exact (BK H)|exact (OE _ H)].
Qed.

Lemma keymap_has_key : forall rw n tr k r, n <> 0 -> In r rw -> In k (m_key r :: m_objs r) ->
  ~ In k (dupes_of rw) -> exists r', kget (keymap_of rw n tr) k = Some r'.
Proof.
  intros rw n tr k r Hn Hr Hk Hd. destruct (kget (keymap_of rw n tr) k) eqn:E; [eauto|]. exfalso.
  apply (dget_None_keys key_eqb key_eqb_eq) in E. apply E. clear E. rewrite keymap_of_compiled by assumption.
  assert (BK : m_key r = k -> In k (map fst (by_key_of rw))).
  { intros <-. apply by_key_of_keys. now apply in_map. }
  assert (OE : forall excl, ~ In k excl -> In k (m_objs r) ->
                            In k (map fst (dict_of key_eqb (obj_entries rw excl)))).
  { intros excl Hx Ho. apply (dupdate_keys_In key_eqb key_eqb_eq). left. apply in_map_iff. exists (k, r).
    split; [reflexivity|]. apply In_obj_entries. auto. }
  destruct (dupes_path rw n); rewrite !(dupdate_keys_In key_eqb key_eqb_eq); destruct Hk as [Hk|Hk];
    auto using in_nil.
Qed.

Lemma lookup_of_get : forall km k r i, kget km k = Some r -> m_idx r = Some i -> lookup km k = Ok i.
Proof. intros km k r i H Hi. unfold lookup, k2i_get. now rewrite H, Hi. Qed.

Lemma lookup_Ok_get : forall km k i, lookup km k = Ok i -> exists r, kget km k = Some r /\ m_idx r = Some i.
Proof.
  intros km k i H. unfold lookup, k2i_get, dmem in H. destruct (kget km k) as [r|] eqn:E.
  - destruct (m_idx r) eqn:Ei; [injection H as ->; eauto|discriminate].
  - discriminate.
Qed.

Theorem lookup_unique_key : forall rw n tr r o i,
  n <> 0 -> In r rw -> In o (m_key r :: m_objs r) ->
  (forall r', In r' rw -> In o (m_key r' :: m_rend r' :: m_objs r') -> m_idx r' = Some i) ->
  lookup (keymap_of rw n tr) o = Ok i.
Proof.
  intros rw n tr r o i Hn Hr Ho Huniq.
  assert (Hnd : ~ In o (dupes_of rw)).
  { intros Hd. apply dupes_sound in Hd as (r1 & r2 & H1 & H2 & Hne & K1 & K2).
    apply Hne. rewrite (Huniq r1 H1), (Huniq r2 H2); [reflexivity| |]; now right. }
  destruct (keymap_has_key rw n tr o r Hn Hr Ho Hnd) as [r' G]. apply (lookup_of_get _ _ r' _ G).
  apply (dget_In key_eqb key_eqb_eq), keymap_entries in G as [(_ & Hd)|(Hr' & Ho')]; [contradiction| |assumption].
  apply Huniq; [assumption|]. destruct Ho' as [Ho'|Ho']; [now left|now (right; right)].
Qed.

Theorem ambiguous_raises_guarded : forall rw n tr k r1 r2,
  n <> 0 -> dupes_path rw n = true ->
  In r1 rw -> In r2 rw -> m_idx r1 <> m_idx r2 ->
  In k (m_rend r1 :: m_objs r1) -> In k (m_rend r2 :: m_objs r2) ->
  lookup (keymap_of rw n tr) k = Raise Ambiguous.
Proof.
  intros rw n tr k r1 r2 Hn Hd H1 H2 Hne K1 K2.
  pose proof (keymap_get_amb rw n tr k Hn Hd (dupes_complete rw k r1 r2 H1 H2 Hne K1 K2)) as G.
  unfold lookup, k2i_get, dmem. rewrite G. reflexivity.
Qed.

Theorem no_wrong_column_compiled : forall rw n tr k i, n <> 0 ->
  lookup (keymap_of rw n tr) k = Ok i ->
  exists r, In r rw /\ m_idx r = Some i /\ In k (m_key r :: m_objs r).
Proof.
  intros rw n tr k i Hn H. apply lookup_Ok_get in H as (r & G & Hi).
  apply (dget_In key_eqb key_eqb_eq), keymap_entries in G as [(-> & _)|(Hr & Hk)];
    [discriminate Hi|eauto|assumption].
Qed.

(* no compiled columns (plain text): the key is the cursor name of the column, or - on dialects that
   translate cursor names - the untranslated name of a column with the same translated name *)
Theorem no_wrong_column_plain : forall rw tr k i,
  lookup (keymap_of rw 0 tr) k = Ok i ->
  exists r, In r rw /\ m_idx r = Some i /\
            (m_key r = k \/ exists r', In r' rw /\ m_untr r' = k /\ m_key r' = m_key r).
Proof.
  intros rw tr k i H. apply lookup_Ok_get in H as (r & G & Hi). apply (dget_In key_eqb key_eqb_eq) in G.
  exists r. unfold keymap_of in G. cbn [Nat.eqb negb andb] in G.
  destruct tr; [apply dupdate_In_sub in G as [G|G]|]; try (apply In_by_key_of in G as [Hr Hk]; now auto).
  apply in_flat_map in G as (r' & Hr' & Hin).
  assert (Hin' : In (k, r) (match kget (by_key_of rw) (m_key r') with Some x => [(m_untr r', x)] | None => [] end))
    by (destruct (m_untr r'); [destruct Hin|exact Hin..]).
  destruct (kget (by_key_of rw) (m_key r')) as [x|] eqn:Ex; [|destruct Hin']. destruct Hin' as [[= <- <-]|[]].
  apply (dget_In key_eqb key_eqb_eq), In_by_key_of in Ex as [Hx Hk]. repeat split; try assumption. right. exists r'. auto.
Qed.
