(* C15: the UNIQUE constraints of a CREATE TABLE text are parsed back (ddl_parse_roundtrip) and survive the join with
   the autoindex signatures (reflect_uniques_roundtrip); then concrete tables inside and outside the guards *)
From Coq Require Import List NArith Bool Lia Arith.
Import ListNotations.
From SAV.sql Require Import Ident IdentProofs Reflect ReflectProofs.
Open Scope N_scope.

Section T.
Variable uni : N -> bool.
Variable p : prep.
Hypothesis Hdq : prep_dq p = true.

(* a created column name and its text inside UNIQUE (...) *)
Definition col_tok (v q : str) : Prop := quote p v = Ok q /\ col_ok v q = true.

(* the text has no newline and no ")", and is either the name itself, made of [a-z0-9_], or the name between
   quotes, with no quote inside *)
Lemma col_rendered_chars : forall v q, col_tok v q ->
  v <> [] /\ forallb (fun c => dotc c && negb (c =? rpar)) q = true /\
  (q = v /\ forallb sigc v = true \/
   q = dq :: v ++ [dq] /\ forallb (fun c => dotc c && negb (c =? dq)) v = true).
Proof.
  intros v q [Hq Hok]. unfold col_ok in Hok. apply andb_true_iff in Hok. destruct Hok as [Hok Hb].
  apply andb_true_iff in Hok. destruct Hok as [Hne Hp].
  assert (forallb (fun c => dotc c && negb (c =? rpar)) v = true) as Hr.
  { revert Hp. apply forallb_imp. intros c Hc. apply andb_true_iff in Hc. destruct Hc as [H1 H2].
    unfold plainc in H1. apply andb_true_iff in H1. destruct H1 as [_ Hd]. rewrite Hd, H2. reflexivity. }
  assert (forallb plainc v = true) as Hpl
    by (revert Hp; apply forallb_imp; intros c Hc; apply andb_true_iff in Hc; tauto).
  split; [destruct v; discriminate|].
  destruct (quote_cases_plain p Hdq v q Hq Hpl) as [-> | ->].
  - split; [exact Hr|]. left. rewrite str_eqb_refl in Hb. auto.
  - split; [cbn [forallb]; rewrite forallb_app, Hr; reflexivity|]. right. split; [reflexivity|].
    revert Hpl. apply forallb_imp. intros c Hc. unfold plainc in Hc. rewrite andb_comm. exact Hc.
Qed.

Definition sepc (c : N) : Prop := sigc c = false /\ (c =? dq) = false.

Lemma cols_rendered : forall cols qcols, quote_all p cols = Ok qcols -> cols_ok p cols = true ->
  Forall2 col_tok cols qcols.
Proof.
  induction cols as [|v cols IH]; intros qcols Hq Hok; cbn [quote_all cols_ok] in Hq, Hok.
  - inversion Hq. constructor.
  - destruct (quote p v) as [q|] eqn:Eq; [|discriminate]. destruct (quote_all p cols) as [qr|]; [|discriminate].
    inversion Hq; subst. apply andb_true_iff in Hok. destruct Hok as [Hv Hr].
    constructor; [split; assumption|apply IH; [reflexivity|assumption]].
Qed.

Lemma col_tok_ne : forall v q, col_tok v q -> q <> [].
Proof.
  intros v q H. destruct (col_rendered_chars v q H) as [Hne [_ [[-> _] | [-> _]]]]; [exact Hne|discriminate].
Qed.

Lemma find_cols_one : forall v q tl f, col_tok v q -> stops sigc tl ->
  find_cols (S f) (q ++ tl) = v :: find_cols f tl.
Proof.
  intros v q tl f H Htl. destruct (col_rendered_chars v q H) as [Hne [_ [[-> Hs] | [-> Hb]]]].
  - (* bare: not a quote, and the run of [a-z0-9_] is the whole name *)
    destruct v as [|c v']; [congruence|]. pose proof Hs as Hsc.
    cbn [forallb] in Hsc. apply andb_true_iff in Hsc. destruct Hsc as [Hsc _].
    cbn [app find_cols]. destruct (N.eqb_spec c dq) as [->|_]; [discriminate Hsc|]. rewrite Hsc.
    change (c :: v' ++ tl) with ((c :: v') ++ tl).
    rewrite (span_stops sigc _ tl Hs Htl). reflexivity.
  - (* delimited *)
    cbn [app find_cols]. rewrite N.eqb_refl, <- app_assoc. cbn [app].
    rewrite (lazy_dot_until_body dq v tl Hne Hb). reflexivity.
Qed.

Lemma find_cols_nil : forall f, find_cols f [] = [].
Proof. destruct f; reflexivity. Qed.

Lemma find_cols_joined : forall cols qcols, Forall2 col_tok cols qcols ->
  forall f, (length (join_cols qcols) <= f)%nat -> find_cols f (join_cols qcols) = cols.
Proof.
  (* the hypotheses of Joined in order; the scanner skips ", " and the comma is outside [a-z0-9_] by computation *)
  apply (scan_joined str col_tok sigc find_cols).
  - exact col_tok_ne.
  - exact find_cols_nil.
  - reflexivity.
  - exact find_cols_one.
  - reflexivity.
Qed.

Lemma join_cols_chars : forall cols qcols, Forall2 col_tok cols qcols -> cols <> [] ->
  join_cols qcols <> [] /\ forallb (fun c => dotc c && negb (c =? rpar)) (join_cols qcols) = true.
Proof.
  intros cols qcols H Hne. split; [exact (join_nonempty str col_tok col_tok_ne cols qcols H Hne)|].
  apply (join_forallb str col_tok _ eq_refl eq_refl) with (xs := cols); [|exact H].
  intros v q Hvq. exact (proj1 (proj2 (col_rendered_chars v q Hvq))).
Qed.

Lemma uq_at_rendered : forall n cols qn qcols rest,
  quote_opt p n = Ok qn -> quote_all p cols = Ok qcols ->
  opt_name_ok uni p n = true -> cols <> [] -> cols_ok p cols = true ->
  uq_at uni (render_unique qn qcols ++ rest) = Some (n, join_cols qcols, rest).
Proof.
  intros n cols qn qcols rest Hn Hc Hnok Hne Hcok.
  destruct (join_cols_chars cols qcols (cols_rendered cols qcols Hc Hcok) Hne) as [Hbne Hbc].
  pose proof (uq_tail_rendered (join_cols qcols) rest Hbne Hbc) as Ht.
  unfold uq_at, render_unique. destruct n as [v|]; cbn [quote_opt opt_name_ok] in Hn, Hnok.
  - destruct (quote p v) as [q|] eqn:Eq; [|discriminate]. inversion Hn; subst.
    rewrite <- !app_assoc. cbn [app].
    (* what follows the name begins with U, which is not white space *)
    assert (named uni uq_tail (lit_constraint ++ q ++ sp :: lit_unique_open ++ join_cols qcols ++ rpar :: rest)
            = Some (v, (join_cols qcols, rest))) as ->
      by exact (named_rendered uni p Hdq _ uq_tail v q 85 _ _ Eq Hnok eq_refl Ht).
    reflexivity.
  - inversion Hn; subst. rewrite <- !app_assoc. cbn [app].
    (* the text begins with U (85), not with C *)
    assert (named uni uq_tail (lit_unique_open ++ join_cols qcols ++ rpar :: rest) = None) as ->
      by exact (named_not_constraint uni _ uq_tail 85 _ eq_refl).
    rewrite Ht. reflexivity.
Qed.

Lemma scan_clean : forall s t f, clean uni s t = true -> (length (s ++ t) <= f)%nat ->
  scan_uq uni f (s ++ t) = scan_uq uni (f - length s) t.
Proof.
  induction s as [|c s IH]; intros t f Hc Hf.
  - cbn [app length]. rewrite Nat.sub_0_r. reflexivity.
  - cbn [clean] in Hc. apply andb_true_iff in Hc. destruct Hc as [Hn Hc].
    destruct f as [|f]; [cbn [length app] in Hf; lia|].
    cbn [app] in *. cbn [scan_uq]. destruct (uq_at uni (c :: s ++ t)); [discriminate|].
    cbn [length] in *. rewrite IH by (auto; lia). reflexivity.
Qed.

Lemma scan_match : forall f t nm cols rest, uq_at uni t = Some (nm, cols, rest) ->
  scan_uq uni (S f) t = (nm, cols) :: scan_uq uni f rest.
Proof. intros f [|c t] nm cols rest H; [discriminate|]. cbn [scan_uq]. rewrite H. reflexivity. Qed.

Lemma scan_nil : forall f, scan_uq uni f [] = [].
Proof. destruct f; reflexivity. Qed.

(* both loops of parse_uqs, with any fuel that covers the text: segments are skipped, each clause is matched
   at its first character and its column text split into the created names *)
Lemma scan_parts : forall ps text f, wf_parts uni p ps = true -> render_parts p ps = Ok text ->
  (length text <= f)%nat ->
  map (fun nc : option str * str => (fst nc, cols_in_sig (snd nc))) (scan_uq uni f text) = uniques_of ps.
Proof.
  induction ps as [|[s|n cols] ps IH]; intros text f Hwf Hr Hf; cbn [render_parts wf_parts] in Hr, Hwf.
  - inversion Hr. rewrite scan_nil. reflexivity.
  - destruct (render_parts p ps) as [t|]; [|discriminate]. inversion Hr; subst text.
    apply andb_true_iff in Hwf. destruct Hwf as [Hc Hw].
    rewrite (scan_clean s t f Hc Hf). apply (IH t _ Hw eq_refl). rewrite app_length in Hf. lia.
  - destruct (quote_opt p n) as [qn|] eqn:En; [|discriminate].
    destruct (quote_all p cols) as [qc|] eqn:Ec; [|discriminate].
    destruct (render_parts p ps) as [t|]; [|discriminate]. inversion Hr; subst text.
    apply andb_true_iff in Hwf. destruct Hwf as [Hwf Hw].
    apply andb_true_iff in Hwf. destruct Hwf as [Hwf Hcok]. apply andb_true_iff in Hwf. destruct Hwf as [Hnok Hne].
    assert (cols <> []) as Hne' by (destruct cols; discriminate).
    assert (1 <= length (render_unique qn qc))%nat as Hl
      by (unfold render_unique; rewrite !app_length; cbn [length lit_unique_open kwUNIQUE app]; lia).
    rewrite app_length in Hf. destruct f as [|f]; [lia|].
    rewrite (scan_match f _ _ _ _ (uq_at_rendered n cols qn qc t En Ec Hnok Hne' Hcok)).
    cbn [map uniques_of fst snd]. rewrite (IH t f Hw eq_refl) by lia.
    unfold cols_in_sig. rewrite (find_cols_joined cols qc (cols_rendered cols qc Ec Hcok) _ (le_n _)). reflexivity.
Qed.

(* DESIGN.md's parse_master_sql (render_ddl tbl) = constraints_of tbl, for the UNIQUE constraints: parse_uqs,
   render_parts, uniques_of *)
Theorem ddl_parse_roundtrip : forall ps text, wf_parts uni p ps = true -> render_parts p ps = Ok text ->
  parse_uqs uni text = uniques_of ps.
Proof. intros ps text Hwf Hr. exact (scan_parts ps text (length text) Hwf Hr (le_n _)). Qed.
End T.

(* get_unique_constraints: the join with the autoindex signatures *)
Lemma sig_eqb_spec : forall a b, reflect (a = b) (sig_eqb a b).
Proof.
  induction a as [|x a IH]; intros [|y b]; cbn [sig_eqb]; try (constructor; congruence).
  destruct (str_eqb x y) eqn:E; cbn [andb].
  - apply str_eqb_eq in E. subst y. destruct (IH b); constructor; congruence.
  - constructor. intros H. inversion H; subst. rewrite str_eqb_refl in E. discriminate.
Qed.

Lemma remove_sig_none : forall s auto, ~ In s auto -> remove_sig s auto = None.
Proof.
  intros s auto. induction auto as [|a r IH]; intros Hn; cbn [remove_sig]; [reflexivity|].
  destruct (sig_eqb_spec s a) as [->|_]; [exfalso; apply Hn; left; reflexivity|].
  rewrite IH; [reflexivity|]. intros Hi. apply Hn. right. exact Hi.
Qed.

(* a signature present once is taken out, the others stay *)
Lemma remove_sig_some : forall s auto, In s auto -> NoDup auto ->
  exists auto', remove_sig s auto = Some auto' /\ NoDup auto' /\ (forall x, In x auto' <-> In x auto /\ x <> s).
Proof.
  intros s auto. induction auto as [|a r IH]; intros Hi Hnd; [destruct Hi|].
  inversion Hnd as [|? ? Hna Hndr]; subst. cbn [remove_sig].
  destruct (sig_eqb_spec s a) as [<-|Hne].
  - exists r. split; [reflexivity|]. split; [assumption|].
    intros x. cbn [In]. split; [intros Hx; split; [right; assumption|congruence]|intros [[->|Hx] Hne]; [congruence|assumption]].
  - destruct Hi as [->|Hi]; [congruence|].
    destruct (IH Hi Hndr) as [r' [-> [Hnd' Hin]]]. exists (a :: r'). split; [reflexivity|]. split.
    + constructor; [rewrite Hin; tauto|assumption].
    + intros x. cbn [In]. rewrite Hin. split; [intros [->|H]; [split; [left; reflexivity|congruence]|tauto]|tauto].
Qed.

(* [tailp]: the INLINE matches; each is either no autoindex signature or one a parsed constraint took already *)
Lemma join_auto_all : forall parsed auto tailp,
  NoDup (map snd parsed) -> incl (map snd parsed) auto -> NoDup auto ->
  (forall e, In e tailp -> ~ In (snd e) auto \/ In (snd e) (map snd parsed)) ->
  join_auto auto (parsed ++ tailp) = parsed.
Proof.
  induction parsed as [|[n c] r IH]; intros auto tailp Hnd Hincl Hna Ht.
  - cbn [app]. induction tailp as [|[n c] tl IHt]; [reflexivity|]. cbn [join_auto].
    rewrite remove_sig_none.
    + apply IHt. intros e He. apply Ht. right. exact He.
    + destruct (Ht (n, c) (or_introl eq_refl)) as [H|[]]. exact H.
  - cbn [app join_auto map snd] in *. inversion Hnd as [|? ? Hnc Hndr]; subst.
    destruct (remove_sig_some c auto (Hincl c (or_introl eq_refl)) Hna) as [auto' [Hr [Hnd' Hin]]].
    rewrite Hr. f_equal. apply IH; [assumption| |assumption|].
    + intros x Hx. apply Hin. split; [apply Hincl; right; exact Hx|]. intros ->. contradiction.
    + intros e He. destruct (Ht e He) as [H|[H|H]].
      * left. intros Hx. apply Hin in Hx. tauto.
      * left. intros Hx. apply Hin in Hx. destruct Hx as [_ Hx]. congruence.
      * right. exact H.
Qed.

(* the created UNIQUE constraints are exactly what get_unique_constraints reports, when SQLite's autoindex
   signatures contain theirs once each (they may contain more: the PRIMARY KEY's) and no INLINE match hits
   one of the others *)
Theorem reflect_uniques_roundtrip : forall uni p, prep_dq p = true ->
  forall ps text auto inline, wf_parts uni p ps = true -> render_parts p ps = Ok text ->
  NoDup (map snd (uniques_of ps)) -> incl (map snd (uniques_of ps)) auto -> NoDup auto ->
  (forall s, In s inline -> ~ In s auto \/ In s (map snd (uniques_of ps))) ->
  reflect_uniques uni auto inline text = uniques_of ps.
Proof.
  intros uni p Hdq ps text auto inline Hwf Hr Hnd Hincl Hna Hin. unfold reflect_uniques.
  rewrite (ddl_parse_roundtrip uni p Hdq ps text Hwf Hr).
  apply join_auto_all; try assumption.
  intros e He. apply in_map_iff in He. destruct He as [s [<- Hs]]. cbn [snd]. apply Hin. exact Hs.
Qed.

Definition demo_prep : prep := {|
  p_reserved := p_reserved sample_prep; p_legal := p_legal sample_prep;
  p_illegal_initial := p_illegal_initial sample_prep; p_lower := p_lower sample_prep;
  p_iq := 34; p_fq := 34; p_esc := 34; p_unesc := 34; p_esc_pct := false |}.
Definition no_uni (c : N) : bool := false.
(* t(x) with one UNIQUE constraint called [nm] over column [col] *)
Definition demo_parts (nm : option str) (col : str) : list part :=
  [Seg [10; 67; 82; 69; 65; 84; 69; 32; 84; 65; 66; 76; 69; 32; 116; 32; 40; 10; 9; 120; 32; 73; 78; 84; 44; 32; 10; 9];
   Uq nm [col]; Seg [10; 41; 10; 10]].
Definition demo_reflect (nm : option str) (col : str) : option (list (option str * list str)) :=
  match render_parts demo_prep (demo_parts nm col) with
  | Ok text => Some (parse_uqs no_uni text)
  | RaiseIndexError => None
  end.

(* a constraint name containing a double quote comes back as it was given (/repo ae21374: the doubled quote is
   collapsed by _constraint_name) *)
Example uq_name_dquote_roundtrip : demo_reflect (Some [97; 34; 98]) [120] = Some [(Some [97; 34; 98], [[120]])].
Proof. vm_compute. reflexivity. Qed.
(* what remains outside the guard [dq_ok]: a quote followed by white space and a UNIQUE clause inside the name *)
Definition evil_name : str := [120; 34; 32; 85; 78; 73; 81; 85; 69; 32; 40; 121].        (* x, a double quote, then " UNIQUE (y" *)
Theorem uq_name_dquote_space_refuted : demo_reflect (Some evil_name) [120] <> Some [(Some evil_name, [[120]])].
Proof. vm_compute. discriminate. Qed.
(* a constraint name containing a newline comes back as None *)
Theorem uq_name_newline_refuted : demo_reflect (Some [97; 10; 98]) [120] = Some [(None, [[120]])].
Proof. vm_compute. reflexivity. Qed.
(* a bare (legal, unquoted) constraint name containing $ comes back (/repo 24f65cc: the bare group is [\w$]+) *)
Example uq_name_dollar_roundtrip : demo_reflect (Some [98; 36]) [120] = Some [(Some [98; 36], [[120]])].
Proof. vm_compute. reflexivity. Qed.
(* column names: $ in a bare name truncates it; a double quote splits it; ")" ends the list early; with a
   newline the constraint is not found at all - in each case the signature no longer equals the autoindex's
   and get_unique_constraints drops the constraint *)
Theorem uq_col_dollar_refuted : demo_reflect None [98; 36] = Some [(None, [[98]])].
Proof. vm_compute. reflexivity. Qed.
Theorem uq_col_dquote_refuted : demo_reflect None [97; 34; 98] = Some [(None, [[97]; [98]])].
Proof. vm_compute. reflexivity. Qed.
Theorem uq_col_rparen_refuted : demo_reflect None [97; 41; 98] = Some [(None, [[97]])].
Proof. vm_compute. reflexivity. Qed.
Theorem uq_col_newline_refuted : demo_reflect None [97; 10; 98] = Some [].
Proof. vm_compute. reflexivity. Qed.
Theorem uq_col_dropped_refuted :
  reflect_uniques no_uni [[[98; 36]]] []
    (match render_parts demo_prep (demo_parts None [98; 36]) with Ok t => t | RaiseIndexError => [] end) = [].
Proof. vm_compute. reflexivity. Qed.
(* the guards are satisfiable: an ordinary table *)
Example wf_demo : prep_dq demo_prep = true /\
  wf_parts no_uni demo_prep (demo_parts (Some [117; 113; 32; 49]) [97; 32; 98]) = true /\
  wf_parts no_uni demo_prep (demo_parts (Some [117; 113]) [120]) = true /\
  wf_parts no_uni demo_prep (demo_parts (Some [97; 34; 98]) [120]) = true /\
  wf_parts no_uni demo_prep (demo_parts (Some [98; 36]) [120]) = true.
Proof. vm_compute. auto 6. Qed.
