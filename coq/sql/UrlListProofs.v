(* C20 - lemmas about the list primitives of the URL model (flat_map codings, span, rsplit, split_on, join) *)
From Coq Require Import List NArith Bool Permutation.
Import ListNotations.
From SAV.sql Require Import UrlCodec.
Open Scope N_scope.

Definition stops (p : N -> bool) (b : str) : Prop :=
  match b with [] => True | x :: _ => p x = false end.

Lemma forallb_impl : forall (p q : N -> bool) l,
  (forall x, p x = true -> q x = true) -> forallb p l = true -> forallb q l = true.
Proof.
  induction l as [|x l IH]; intros Hpq H; [reflexivity|]. cbn in *.
  apply andb_true_iff in H as [Hx Hl]. rewrite (Hpq x Hx), (IH Hpq Hl). reflexivity.
Qed.

Lemma nb_eqb : forall c x, nb c x = true -> (x =? c) = false.
Proof. intros c x. apply negb_true_iff. Qed.

Lemma forallb_flat_map : forall (q p : N -> bool) (f : N -> list N),
  (forall x, q x = true -> forallb p (f x) = true) ->
  forall l, forallb q l = true -> forallb p (flat_map f l) = true.
Proof.
  intros q p f Hf. induction l as [|x l IH]; intros H; [reflexivity|]. cbn in H.
  apply andb_true_iff in H as [Hx Hl]. cbn [flat_map]. rewrite forallb_app, (Hf x Hx), (IH Hl). reflexivity.
Qed.

Lemma mem_false_forallb : forall c l, mem c l = false -> forallb (nb c) l = true.
Proof.
  induction l as [|x l IH]; intros H; [reflexivity|]. unfold mem in H. cbn [existsb] in H.
  apply orb_false_iff in H as [Hx Hl]. cbn [forallb]. rewrite (IH Hl), andb_true_r.
  unfold nb. rewrite N.eqb_sym, Hx. reflexivity.
Qed.

Lemma flat_map_ext_in : forall {A B} (f g : A -> list B) l,
  (forall a, In a l -> f a = g a) -> flat_map f l = flat_map g l.
Proof.
  induction l as [|a l IH]; intros H; [reflexivity|]. cbn [flat_map].
  rewrite (H a (or_introl eq_refl)), IH; [reflexivity|]. intros b Hb. apply H. right; exact Hb.
Qed.

Lemma perm_forallb : forall {A} (p : A -> bool) l l', Permutation l l' -> forallb p l = true -> forallb p l' = true.
Proof.
  intros A p l l' HP H. apply forallb_forall. intros x Hx. rewrite forallb_forall in H.
  apply H. apply (Permutation_in _ (Permutation_sym HP)). exact Hx.
Qed.

(* a decoder that inverts the encoding of one element, whatever follows, inverts the encoding of a list *)
Lemma flat_map_roundtrip : forall (q : N -> bool) (enc : N -> list N) (dec : list N -> list N),
  dec [] = [] -> (forall x r, q x = true -> dec (enc x ++ r) = x :: dec r) ->
  forall l, forallb q l = true -> dec (flat_map enc l) = l.
Proof.
  intros q enc dec Hnil Hx. induction l as [|x l IH]; intros H; [exact Hnil|]. cbn in H.
  apply andb_true_iff in H as [Hq Hl]. cbn [flat_map]. rewrite (Hx x _ Hq), (IH Hl). reflexivity.
Qed.

(* [span p l = (a, b)] says three things about (a, b), and they determine the pair ([span_here]) *)
Lemma span_spec : forall p l a b, span p l = (a, b) -> l = a ++ b /\ forallb p a = true /\ stops p b.
Proof.
  induction l as [|x r IH]; intros a b H; cbn [span] in H.
  - inversion H. repeat split.
  - destruct (p x) eqn:Px.
    + destruct (span p r) as [a' b'] eqn:E. inversion H; subst.
      destruct (IH a' b eq_refl) as [-> [Ha Hb]]. cbn. rewrite Px. repeat split; assumption.
    + inversion H. repeat split. exact Px.
Qed.

Lemma span_all : forall p l a b, span p l = (a, b) -> forallb p a = true.
Proof. intros p l a b H. apply (span_spec p l a b H). Qed.

Lemma span_stop : forall p l a b, span p l = (a, b) -> stops p b.
Proof. intros p l a b H. apply (span_spec p l a b H). Qed.

Lemma span_app : forall p a b, forallb p a = true ->
  span p (a ++ b) = (a ++ fst (span p b), snd (span p b)).
Proof.
  induction a as [|x a IH]; intros b H; cbn [app].
  - destruct (span p b); reflexivity.
  - cbn in H. apply andb_true_iff in H as [Hx Ha]. cbn [span]. rewrite Hx, (IH b Ha). reflexivity.
Qed.

Lemma span_here : forall p a b, forallb p a = true -> stops p b -> span p (a ++ b) = (a, b).
Proof.
  intros p a b Ha Hb. rewrite (span_app p a b Ha).
  destruct b as [|x b]; cbn in *; [|rewrite Hb; cbn]; rewrite app_nil_r; reflexivity.
Qed.

Lemma span_all_id : forall p a, forallb p a = true -> span p a = (a, []).
Proof. intros p a H. rewrite <- (app_nil_r a) at 1. apply span_here; [exact H | exact I]. Qed.

Lemma rsplit_none : forall c l, forallb (nb c) l = true -> rsplit c l = None.
Proof.
  induction l as [|x l IH]; intros H; [reflexivity|]. cbn in H. apply andb_true_iff in H as [Hx Hl].
  cbn [rsplit]. rewrite (IH Hl), (nb_eqb c x Hx). reflexivity.
Qed.

Lemma rsplit_none_inv : forall c l, rsplit c l = None -> forallb (nb c) l = true.
Proof.
  induction l as [|x l IH]; [reflexivity|]. cbn [rsplit forallb]. unfold nb at 1.
  destruct (rsplit c l) as [[a b]|]; [discriminate|]. destruct (x =? c); [discriminate|]. intros _. exact (IH eq_refl).
Qed.

Lemma rsplit_app : forall c a b, forallb (nb c) b = true -> rsplit c (a ++ c :: b) = Some (a, b).
Proof.
  induction a as [|x a IH]; intros b H; cbn [app rsplit].
  - rewrite (rsplit_none c b H), N.eqb_refl. reflexivity.
  - rewrite (IH b H). reflexivity.
Qed.

Lemma rsplit_spec : forall c l a b, rsplit c l = Some (a, b) ->
  l = a ++ c :: b /\ forallb (nb c) b = true.
Proof.
  induction l as [|x l IH]; intros a b H; cbn [rsplit] in H; [discriminate|].
  destruct (rsplit c l) as [[a' b']|] eqn:E.
  - inversion H; subst. destruct (IH a' b eq_refl) as [-> Hb]. split; [reflexivity | exact Hb].
  - destruct (N.eqb_spec x c) as [->|Hne]; [|discriminate]. inversion H; subst.
    split; [reflexivity | exact (rsplit_none_inv c b E)].
Qed.

Lemma split_on_nonnil : forall c l, split_on c l <> [].
Proof.
  induction l as [|x l IH]; cbn [split_on]; [discriminate|].
  destruct (x =? c); [discriminate|]. destruct (split_on c l); [contradiction | discriminate].
Qed.

Lemma split_on_nosep : forall c a, forallb (nb c) a = true -> split_on c a = [a].
Proof.
  induction a as [|x a IH]; intros H; [reflexivity|]. cbn in H. apply andb_true_iff in H as [Hx Ha].
  cbn [split_on]. rewrite (nb_eqb c x Hx), (IH Ha). reflexivity.
Qed.

Lemma split_on_app : forall c a b, forallb (nb c) a = true ->
  split_on c (a ++ c :: b) = a :: split_on c b.
Proof.
  induction a as [|x a IH]; intros b H; cbn [app split_on].
  - rewrite N.eqb_refl. reflexivity.
  - cbn in H. apply andb_true_iff in H as [Hx Ha]. rewrite (nb_eqb c x Hx), (IH b Ha). reflexivity.
Qed.

Lemma split_on_join : forall c ps, ps <> [] ->
  Forall (fun p => forallb (nb c) p = true) ps -> split_on c (join c ps) = ps.
Proof.
  induction ps as [|p ps IH]; intros Hne HF; [contradiction|].
  inversion HF as [|? ? Hp Hps]; subst. destruct ps as [|p2 ps].
  - cbn [join]. apply split_on_nosep; exact Hp.
  - change (join c (p :: p2 :: ps)) with (p ++ c :: join c (p2 :: ps)).
    rewrite (split_on_app c p _ Hp), IH; [reflexivity | discriminate | exact Hps].
Qed.

Lemma join_nonnil : forall c p ps, is_nil p = false -> is_nil (join c (p :: ps)) = false.
Proof. intros c [|x p] [|q ps] H; [discriminate H ..| |]; reflexivity. Qed.

Lemma forallb_app_N : forall (p : N -> bool) a b, forallb p (a ++ b) = forallb p a && forallb p b.
Proof. intros. apply forallb_app. Qed.

Lemma forallb_join : forall (p : N -> bool) c ps,
  p c = true -> Forall (fun x => forallb p x = true) ps -> forallb p (join c ps) = true.
Proof.
  induction ps as [|x ps IH]; intros Hc HF; [reflexivity|].
  inversion HF as [|? ? Hx Hps]; subst. destruct ps as [|y ps]; [exact Hx|].
  change (join c (x :: y :: ps)) with (x ++ c :: join c (y :: ps)).
  rewrite forallb_app. cbn [forallb]. rewrite Hx, Hc, (IH Hc Hps). reflexivity.
Qed.

Lemma str_eqb_spec : forall a b, reflect (a = b) (str_eqb a b).
Proof.
  induction a as [|x a IH]; destruct b as [|y b]; cbn [str_eqb]; try (constructor; congruence).
  destruct (N.eqb_spec x y) as [->|Hne]; cbn.
  - destruct (IH b) as [->|Hne]; constructor; congruence.
  - constructor; congruence.
Qed.
Lemma str_eqb_refl : forall a, str_eqb a a = true.
Proof. intros a. destruct (str_eqb_spec a a); [reflexivity | congruence]. Qed.
