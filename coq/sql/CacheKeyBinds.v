(* C02: the extracted bind parameters line up with the key *)
From Coq Require Import List NArith ZArith Bool.
Import ListNotations.
From SAV.sql Require Import CacheKey CacheKeyProofs.

Lemma run_kids_cons : forall a sh r (kf : list (N * list kfun)) st,
  run_kids ((a, sh) :: r) kf st =
  if keyshape sh then
    match kget a kf with
    | [] => run_kids r kf st
    | l => match run_list l st with
           | None => None
           | Some (ks, st1) => match run_kids r kf st1 with
                               | None => None
                               | Some (rest, st2) => Some ((a, ks) :: rest, st2)
                               end
           end
    end
  else run_kids r kf st.
Proof. intros. destruct sh; reflexivity. Qed.

Section Binds.
  Variable T : ttab.
  Definition labels (st : kstate) : list N := map blbl (binds st).
  (* a key generator appends to bindparams exactly the bind parameters its key mentions, in key order *)
  Definition KOK (f : kfun) : Prop :=
    forall st k st', f st = Some (k, st') -> labels st' = labels st ++ kbl T k.

  Lemma run_list_ok : forall fs, Forall KOK fs -> forall st ks st',
    run_list fs st = Some (ks, st') -> labels st' = labels st ++ flat_map (kbl T) ks.
  Proof.
    induction 1 as [|f r Hf Hr IH]; intros st ks st' H; cbn in H.
    - inversion H; subst. cbn. rewrite app_nil_r; reflexivity.
    - destruct (f st) as [[k st1]|] eqn:E1; [|discriminate].
      destruct (run_list r st1) as [[ks2 st2]|] eqn:E2; [|discriminate].
      inversion H; subst. cbn. rewrite (IH _ _ _ E2), (Hf _ _ _ E1), app_assoc. reflexivity.
  Qed.

  Lemma run_kids_ok : forall (kf : list (N * list kfun)), (forall a, Forall KOK (kget a kf)) ->
    forall fs st kk st', run_kids fs kf st = Some (kk, st') ->
    labels st' = labels st ++ flat_map (fun p => flat_map (kbl T) (snd p)) kk.
  Proof.
    intros kf Hkf. induction fs as [|[a sh] r IH]; intros st kk st' H.
    - inversion H; subst. cbn. rewrite app_nil_r; reflexivity.
    - rewrite run_kids_cons in H. destruct (keyshape sh); [|apply IH, H].
      pose proof (Hkf a) as Ha. destruct (kget a kf) as [|f l]; [apply IH, H|].
      destruct (run_list (f :: l) st) as [[ks st1]|] eqn:E1; [|discriminate].
      destruct (run_kids r kf st1) as [[rest st2]|] eqn:E2; [|discriminate].
      inversion H; subst. cbn [flat_map snd].
      rewrite (IH _ _ _ E2), (run_list_ok _ Ha _ _ _ E1), app_assoc. reflexivity.
  Qed.

  Lemma key_body_ok : forall lbl cls atoms kf, (forall a, Forall KOK (kget a kf)) ->
    KOK (key_body T lbl cls atoms kf).
  Proof.
    intros lbl cls atoms kf Hkf st k st' H. unfold key_body in H.
    destruct (ck (tget T cls)) eqn:Ek; [| |discriminate].
    - destruct (memN lbl (seen st)).
      + inversion H; subst. cbn. rewrite app_nil_r; reflexivity.
      + destruct (nocache_hit (cfields (tget T cls)) atoms kf); [discriminate|].
        destruct (run_kids (cfields (tget T cls)) kf _) as [[kk st2]|] eqn:E; [|discriminate].
        inversion H; subst k st'. rewrite (run_kids_ok kf Hkf _ _ _ _ E).
        cbn [kbl]. unfold labels; cbn [binds].
        destruct (cbind (tget T cls)); [rewrite map_app; cbn; rewrite <- app_assoc|]; reflexivity.
    - inversion H; subst. cbn. rewrite app_nil_r; reflexivity.
  Qed.

  Theorem key_ok : forall n, KOK (key T n).
  Proof.
    induction n as [lbl cls atoms kids IH] using node_ind'. cbn [key].
    apply key_body_ok. intro a. rewrite (kget_map (key T)). apply Forall_map, Forall_kget, IH.
  Qed.

  Theorem gen_key_labels : forall s k bs, gen_key T s = Some (k, bs) -> map blbl bs = kbl T k.
  Proof.
    intros s k bs H. unfold gen_key in H. destruct (key T s st0) as [[k' st]|] eqn:E; [|discriminate].
    inversion H; subst. exact (key_ok s _ _ _ E).
  Qed.
  Corollary key_determines_labels : forall s1 s2 k b1 b2,
    gen_key T s1 = Some (k, b1) -> gen_key T s2 = Some (k, b2) -> map blbl b1 = map blbl b2.
  Proof. intros s1 s2 k b1 b2 K1 K2. rewrite (gen_key_labels s1 k b1 K1), (gen_key_labels s2 k b2 K2). reflexivity. Qed.
End Binds.

Lemma kbl_restrict : forall T V p, incl (kbl T (restrict V p)) (kbl T p).
Proof.
  intros T V. induction p as [l c ka kk IH | l c | a] using ktree_ind'; cbn [restrict kbl]; try apply incl_refl.
  apply incl_app_app; [apply incl_refl|].
  intros x Hx. apply in_flat_map in Hx as [[a ks] [Hp Hx]]. cbn [snd] in Hx.
  apply in_flat_map in Hp as [a' [_ Hp]]. rewrite (kget_map (restrict V)) in Hp.
  destruct (map (restrict V) (kget a' kk)) as [|y ys] eqn:Em; [contradiction|].
  destruct Hp as [Hp|[]]. inversion Hp; subst a ks. rewrite <- Em in Hx.
  apply in_flat_map in Hx as [r [Hr Hx]]. apply in_map_iff in Hr as [q [<- Hq]].
  apply (proj1 (Forall_forall _ _) (Forall_kget _ _ IH a') q Hq) in Hx.
  destruct (kget_In _ _ _ Hq) as [lq [El Hq']].
  apply in_flat_map. exists (a', lq). split; [exact El|]. apply in_flat_map. exists q. split; assumption.
Qed.
