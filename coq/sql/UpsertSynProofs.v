(* C56 - the rendered clause text parses back to the clause it denotes (render / parse round trip).  First the
   inversion lemmas of UpsertSpec's sequence / set_item / mk_target / mk_update, which the later files share. *)
From Coq Require Import List ZArith Bool Lia.
Import ListNotations.
From SAV.sql Require Import Upsert UpsertAsm UpsertParse UpsertSpec.

Lemma name_idx_nth : forall cols i,
  NoDup (map cname cols) -> i < length cols -> name_idx cols (col_name cols i) = Some i.
Proof.
  unfold col_name. induction cols as [|c cs IH]; intros i Hnd Hi; [simpl in Hi; lia|].
  simpl in Hnd. inversion Hnd as [|x l Hnin Hnd']; subst.
  destruct i as [|i].
  - simpl. rewrite Z.eqb_refl. reflexivity.
  - simpl in Hi. cbn [nth name_idx].
    destruct (Z.eqb (cname c) (cname (nth i cs dflt_col))) eqn:E.
    + apply Z.eqb_eq in E. exfalso. apply Hnin. rewrite E. apply in_map. apply nth_In. lia.
    + rewrite IH by (assumption || lia). reflexivity.
Qed.

Lemma seq_cons_inv : forall {A} (o : option A) l r, sequence (o :: l) = Some r ->
  exists x r', o = Some x /\ sequence l = Some r' /\ r = x :: r'.
Proof.
  intros A [x|] l r H; cbn [sequence] in H; [|discriminate].
  destruct (sequence l) as [r'|]; [|discriminate]. injection H as <-. eauto.
Qed.

Lemma set_item_some : forall n oi e x, set_item n oi e = Some x ->
  oi = Some (fst x) /\ expr_ok n e = true /\ snd x = norm_expr e.
Proof.
  intros n [i|] e x H; unfold set_item in H; [|discriminate].
  destruct (expr_ok n e); [|discriminate]. injection H as <-. auto.
Qed.

Lemma mk_target_some : forall n ol w tg, mk_target n ol w = Some tg ->
  exists l, ol = Some l /\ l <> [] /\ opred_ok n w = true /\ tg = Some (TCols l (option_map norm_pred w)).
Proof.
  intros n [l|] w tg H; unfold mk_target in H; [|discriminate].
  destruct l as [|x l]; cbn [is_nil negb andb] in H; [discriminate|].
  destruct (opred_ok n w) eqn:E; [|discriminate]. injection H as <-.
  exists (x :: l). repeat split; congruence.
Qed.

Lemma mk_update_some : forall n otg os w cl, mk_update n otg os w = Some cl ->
  exists tg s, otg = Some tg /\ os = Some s /\ s <> [] /\ opred_ok n w = true /\
               cl = (tg, DoUpdate s (option_map norm_pred w)).
Proof.
  intros n [tg|] [s|] w cl H; unfold mk_update in H; try discriminate.
  destruct s as [|x s]; cbn [is_nil negb andb] in H; [discriminate|].
  destruct (opred_ok n w) eqn:E; [|discriminate]. injection H as <-.
  exists tg, (x :: s). repeat split; congruence.
Qed.

(* Follow sets.  What may come after an expression ([stop]), an atom ([stop2]: also "+"), a SET list ([kw_rest]:
   the end or a keyword) and a whole clause ([on_rest]: the end or the next ON CONFLICT). *)
Definition stop (rest : list tok) : bool :=
  match rest with
  | [] => true
  | TKw _ :: _ => true | TComma :: _ => true | TRp :: _ => true
  | TLt :: _ => true | TEq :: _ => true | TGt :: _ => true
  | _ => false
  end.
Definition stop2 (rest : list tok) : bool :=
  match rest with TPlus :: _ => true | _ => stop rest end.
Definition kw_rest (rest : list tok) : Prop := rest = [] \/ exists k r, rest = TKw k :: r.
Definition on_rest (rest : list tok) : Prop := rest = [] \/ exists r, rest = TKw KON :: r.

Lemma stop_stop2 : forall rest, stop rest = true -> stop2 rest = true.
Proof. intros [|[] rest]; simpl; congruence. Qed.

Lemma kw_rest_stop : forall rest, kw_rest rest -> stop rest = true.
Proof. intros rest [->|(k & r & ->)]; reflexivity. Qed.

Lemma on_kw_rest : forall rest, on_rest rest -> kw_rest rest.
Proof. intros rest [->|(r & ->)]; [left|right; eexists _, _]; reflexivity. Qed.

Section RT.
  Variable cols : list coldesc.
  Hypothesis Hnd : NoDup (map cname cols).

  Lemma p_atom_r : forall qual exs a rest,
    atom_ok (length cols) a = true -> stop2 rest = true ->
    p_atom cols (r_atom cols qual exs a ++ rest) = Some (norm_atom a, rest).
  Proof.
    intros qual exs a rest Hok Hst.
    destruct a as [b z| |i|i|k]; cbn [r_atom norm_atom app]; try reflexivity;
      cbn [atom_ok] in Hok; apply Nat.ltb_lt in Hok; pose proof (name_idx_nth cols i Hnd Hok) as Hn.
    - destruct qual; cbn [app p_atom]; [rewrite Hn; reflexivity|].
      (* after a bare identifier p_atom looks one token ahead for a dot *)
      destruct rest as [|[] rest']; try discriminate Hst; rewrite Hn; reflexivity.
    - destruct exs as [|[|exs]]; cbn [app p_atom]; rewrite Hn; reflexivity.
  Qed.

  Lemma p_expr_r : forall qual exs e rest,
    expr_ok (length cols) e = true -> stop rest = true ->
    p_expr cols (r_expr cols qual exs e ++ rest) = Some (norm_expr e, rest).
  Proof.
    intros qual exs e rest Hok Hst. unfold p_expr.
    destruct e as [a|a b]; cbn [r_expr norm_expr expr_ok] in *.
    - rewrite p_atom_r by (auto using stop_stop2).
      destruct rest as [|t rest']; [reflexivity|]. destruct t; try discriminate Hst; reflexivity.
    - apply andb_prop in Hok. destruct Hok as [Ha Hb].
      rewrite <- app_assoc. cbn [app].
      rewrite p_atom_r by (auto). rewrite p_atom_r by (auto using stop_stop2). reflexivity.
  Qed.

  Lemma r_atom_not_lp : forall qual exs a rest,
    match r_atom cols qual exs a ++ rest with TLp :: _ => False | _ => True end.
  Proof. intros qual exs a rest. destruct a; cbn [r_atom app]; auto. destruct qual; cbn; auto.
    destruct exs as [|[|?]]; cbn; auto. Qed.

  Lemma p_value_ungrouped : forall exs e rest,
    expr_ok (length cols) e = true -> stop rest = true ->
    p_value cols (r_expr cols true exs e ++ rest) = Some (norm_expr e, rest).
  Proof.
    intros exs e rest Hok Hst. unfold p_value.
    assert (H : match r_expr cols true exs e ++ rest with TLp :: _ => False | _ => True end).
    { destruct e as [a|a b]; cbn [r_expr]; [apply r_atom_not_lp|].
      rewrite <- app_assoc. apply r_atom_not_lp. }
    pose proof (p_expr_r true exs e rest Hok Hst) as HP.
    destruct (r_expr cols true exs e ++ rest) as [|t l]; [exact HP|].
    destruct t; try exact HP. contradiction.
  Qed.

  Lemma p_value_r : forall exs e rest,
    expr_ok (length cols) e = true -> stop rest = true ->
    p_value cols (r_value cols exs e ++ rest) = Some (norm_expr e, rest).
  Proof.
    intros exs e rest Hok Hst. destruct e as [a|a b].
    - apply (p_value_ungrouped exs (EAtom a) rest Hok Hst).
    - cbn [r_value]. cbn [app]. unfold p_value. rewrite <- app_assoc. cbn [app].
      rewrite p_expr_r by auto. reflexivity.
  Qed.

  Lemma p_pred_r : forall qual p rest,
    pred_ok (length cols) p = true -> stop rest = true ->
    p_pred cols (r_pred cols qual p ++ rest) = Some (norm_pred p, rest).
  Proof.
    intros qual [c l r] rest Hok Hst. cbn [pred_ok] in Hok. apply andb_prop in Hok. destruct Hok as [Hl Hr].
    cbn [r_pred norm_pred]. rewrite <- app_assoc. cbn [app]. unfold p_pred.
    rewrite p_expr_r by (auto; destruct c; reflexivity).
    destruct c; cbn [r_cmp]; rewrite p_expr_r by auto; reflexivity.
  Qed.

  Lemma p_names_r : forall names l rest,
    names <> [] -> sequence (map (name_idx cols) names) = Some l ->
    p_names cols (r_names names ++ TRp :: rest) = Some (l, rest).
  Proof.
    induction names as [|n names IH]; intros l rest Hne Hs; [congruence|].
    cbn [map] in Hs. apply seq_cons_inv in Hs as (i & l' & En & El & ->).
    destruct names as [|n2 names'].
    - injection El as <-. cbn [r_names app p_names]. rewrite En. reflexivity.
    - change (r_names (n :: n2 :: names')) with (TId n :: TComma :: r_names (n2 :: names')).
      cbn [app p_names]. rewrite En, (IH l' rest) by (congruence || assumption). reflexivity.
  Qed.

  Lemma p_target_r : forall t tg r,
    abs_target cols t = Some tg ->
    p_target cols (r_target cols t ++ TKw KDO :: r) = Some (tg, TKw KDO :: r).
  Proof.
    intros t tg r Habs.
    destruct t as [|names w|n]; cbn [abs_target] in Habs.
    - injection Habs as <-. reflexivity.
    - apply mk_target_some in Habs. destruct Habs as (l & Hs & Hne & Hw & ->).
      assert (Hnn : names <> []). { intros ->. simpl in Hs. injection Hs as <-. congruence. }
      cbn [r_target app]. unfold p_target. rewrite <- app_assoc. cbn [app]. rewrite (p_names_r names l _ Hnn Hs).
      destruct w as [p|]; cbn [option_map app]; [rewrite p_pred_r by auto|]; reflexivity.
    - injection Habs as <-. reflexivity.
  Qed.

  Lemma p_sets_item : forall exs k v i rest f,
    lhs_idx cols k = Some i -> expr_ok (length cols) v = true -> stop rest = true ->
    p_sets (S f) cols (r_item cols exs k v ++ rest) =
    match rest with
    | TComma :: r' =>
        match p_sets f cols r' with Some (l, r'') => Some ((i, norm_expr v) :: l, r'') | None => None end
    | _ => Some ([(i, norm_expr v)], rest)
    end.
  Proof.
    intros exs k v i rest f Hk Hv Hst.
    destruct k as [n|n|n]; cbn [lhs_idx] in Hk; [| |discriminate]; cbn [r_item app p_sets]; rewrite Hk.
    - rewrite p_value_r by assumption. reflexivity.
    - rewrite p_value_ungrouped by assumption. reflexivity.
  Qed.

  Lemma p_sets_r : forall exs sets l rest fuel,
    sets <> [] -> abs_sets cols sets = Some l -> kw_rest rest -> length sets <= fuel ->
    p_sets fuel cols (r_sets cols exs sets ++ rest) = Some (l, rest).
  Proof.
    unfold abs_sets. induction sets as [|[k v] sets IH]; intros l rest fuel Hne Habs Hrest Hfuel; [congruence|].
    cbn [map fst snd] in Habs. apply seq_cons_inv in Habs as ([i e] & l' & Hi & Hl & ->).
    apply set_item_some in Hi as (Hk & Hv & He). cbn [fst snd] in Hk, He. subst e.
    destruct fuel as [|fuel]; [simpl in Hfuel; lia|].
    destruct sets as [|kv2 sets'].
    - injection Hl as <-. cbn [r_sets]. rewrite (p_sets_item exs k v i rest fuel Hk Hv (kw_rest_stop _ Hrest)).
      destruct Hrest as [->|(kk & r & ->)]; reflexivity.
    - change (r_sets cols exs ((k, v) :: kv2 :: sets'))
        with (r_item cols exs k v ++ TComma :: r_sets cols exs (kv2 :: sets')).
      rewrite <- app_assoc. cbn [app]. rewrite (p_sets_item exs k v i) by (assumption || reflexivity).
      rewrite (IH l' rest fuel) by (congruence || assumption || (cbn [length] in *; lia)). reflexivity.
  Qed.

  (* the token count is fuel enough *)
  Lemma r_sets_len : forall exs sets rest, length sets <= length (r_sets cols exs sets ++ rest).
  Proof.
    intros exs sets rest. rewrite app_length. induction sets as [|[k v] sets IH]; [simpl; lia|].
    destruct sets as [|kv2 sets'].
    - cbn [r_sets]. destruct k; simpl; lia.
    - change (r_sets cols exs ((k, v) :: kv2 :: sets'))
        with (r_item cols exs k v ++ TComma :: r_sets cols exs (kv2 :: sets')).
      rewrite app_length. cbn [length] in *. lia.
  Qed.

  (* p_clause once the conflict target is read *)
  Lemma p_clause_nothing : forall r tg r',
    p_target cols r = Some (tg, TKw KDO :: TKw KNOTHING :: r') ->
    p_clause cols (TKw KON :: TKw KCONFLICT :: r) = Some ((tg, DoNothing), r').
  Proof. intros r tg r' H. cbn [p_clause]. rewrite H. reflexivity. Qed.

  Lemma p_clause_update : forall r tg r',
    p_target cols r = Some (tg, TKw KDO :: TKw KUPDATE :: TKw KSET :: r') ->
    p_clause cols (TKw KON :: TKw KCONFLICT :: r) =
    match p_sets (length r') cols r' with
    | Some (sets, TKw KWHERE :: r'') =>
        match p_pred cols r'' with
        | Some (p, r3) => Some ((tg, DoUpdate sets (Some p)), r3)
        | None => None
        end
    | Some (sets, r'') => Some ((tg, DoUpdate sets None), r'')
    | None => None
    end.
  Proof. intros r tg r' H. cbn [p_clause]. rewrite H. reflexivity. Qed.

  Lemma p_clause_r : forall c cl rest,
    abs_clause cols c = Some cl -> on_rest rest ->
    p_clause cols (r_clause cols c ++ rest) = Some (cl, rest).
  Proof.
    intros c cl rest Habs Hrest.
    destruct c as [t|t sets w]; cbn [abs_clause] in Habs; cbn [r_clause app]; rewrite <- app_assoc.
    - destruct (abs_target cols t) as [tg|] eqn:Et; [|discriminate]. injection Habs as <-.
      apply p_clause_nothing, p_target_r, Et.
    - apply mk_update_some in Habs. destruct Habs as (tg & s & Et & Es & Hne & Hw & ->).
      assert (Hsn : sets <> []). { intros ->. cbn in Es. injection Es as <-. congruence. }
      cbn [app]. rewrite (p_clause_update _ tg _ (p_target_r t tg _ Et)).
      rewrite <- app_assoc, (p_sets_r 0 sets s); [|exact Hsn|exact Es| |apply r_sets_len].
      + destruct w as [p|]; cbn [option_map app]; [rewrite p_pred_r by (auto using kw_rest_stop, on_kw_rest)|];
          destruct Hrest as [->|(r & ->)]; reflexivity.
      + destruct w as [p|]; [right; eexists _, _; reflexivity|apply on_kw_rest; exact Hrest].
  Qed.

  Lemma r_clause_starts : forall c, exists r, r_clause cols c = TKw KON :: r.
  Proof. intros [t|t s w]; cbn [r_clause]; eexists; reflexivity. Qed.

  Lemma r_clauses_on_rest : forall cs, on_rest (r_clauses cols cs).
  Proof.
    intros [|c cs]; [left; reflexivity|]. right. unfold r_clauses. cbn [flat_map].
    destruct (r_clause_starts c) as [r ->]. eexists. reflexivity.
  Qed.

  Lemma p_clauses_r : forall cs cls fuel,
    abs_clauses cols cs = Some cls -> length cs <= fuel ->
    p_clauses fuel cols (r_clauses cols cs) = Some cls.
  Proof.
    unfold abs_clauses. induction cs as [|c cs IH]; intros cls fuel Habs Hfuel; cbn [map] in Habs.
    - injection Habs as <-. destruct fuel; reflexivity.
    - apply seq_cons_inv in Habs as (cl & cls' & Ec & Ecs & ->).
      destruct fuel as [|fuel]; [simpl in Hfuel; lia|].
      unfold r_clauses. cbn [flat_map]. fold (r_clauses cols cs).
      destruct (r_clause_starts c) as [r Hr].
      assert (Hp := p_clause_r c cl (r_clauses cols cs) Ec (r_clauses_on_rest cs)).
      rewrite Hr in *. cbn [app] in *. cbn [p_clauses]. rewrite Hp.
      rewrite (IH cls' fuel) by (assumption || (simpl in Hfuel; lia)). reflexivity.
  Qed.

  Lemma r_clauses_len : forall cs, length cs <= length (r_clauses cols cs).
  Proof.
    induction cs as [|c cs IH]; [simpl; lia|].
    unfold r_clauses. cbn [flat_map]. fold (r_clauses cols cs). rewrite app_length.
    destruct (r_clause_starts c) as [r ->]. cbn [length]. lia.
  Qed.

  Theorem parse_render_clauses : forall cs cls,
    abs_clauses cols cs = Some cls -> parse_clauses cols (r_clauses cols cs) = Some cls.
  Proof.
    intros cs cls H. unfold parse_clauses. apply p_clauses_r; auto. apply r_clauses_len.
  Qed.

  (* MySQL: either way of referring to the proposed row *)
  Theorem parse_render_mysql : forall alias sets l,
    sets <> [] -> abs_sets cols sets = Some l ->
    parse_mysql cols (r_mysql cols alias sets) = Some l.
  Proof.
    intros alias sets l Hne Habs. unfold parse_mysql, r_mysql.
    pose proof (fun exs => p_sets_r exs sets l [] _ Hne Habs (or_introl eq_refl) (r_sets_len exs sets [])) as H.
    destruct alias; cbn [app]; [specialize (H 2)|specialize (H 1)]; rewrite app_nil_r in H; rewrite H; reflexivity.
  Qed.
End RT.
