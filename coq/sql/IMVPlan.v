(* C12: the batching plan of IMV.v - mode decision, clamp, total_batches, the slice-and-delete
   loop, the numbered batches built from its chunks. *)
From Coq Require Import List ZArith Bool Lia Arith ZifyBool.
Import ListNotations.
From SAV.sql Require Import IMV.
Open Scope Z_scope.

(* the if / elif / elif / else chain, read off once *)
Lemma decide_mode_cases sbo f :
  (decide_mode sbo f = (true, false) /\ mode_cond1 f = true) \/
  (decide_mode sbo f = (true, true) /\ (mode_cond2 sbo f = true \/ mode_cond3 f = true)) \/
  (decide_mode sbo f = (false, false) /\
     mode_cond1 f = false /\ mode_cond2 sbo f = false /\ mode_cond3 f = false).
Proof. unfold decide_mode. destruct (mode_cond1 f), (mode_cond2 sbo f), (mode_cond3 f); auto 6. Qed.

Lemma mode_row_or_batched sbo f :
  decide_mode sbo f = (true, false) \/ decide_mode sbo f = (true, true) \/ decide_mode sbo f = (false, false).
Proof. destruct (decide_mode_cases sbo f) as [[H _]|[[H _]|[H _]]]; auto. Qed.

(* batching is only chosen for a sorted RETURNING when a sentinel exists, and for upserts only with
   the VALUES counter *)
Lemma mode_batched_safe sbo f dg : decide_mode sbo f = (false, dg) ->
  dg = false /\ supports_multivalues_insert f = true /\
  (is_default_expr f = true -> supports_default_metavalue f = true) /\
  (sbo = true -> result_columns f = true ->
     sentinel_columns_none f = false /\ (includes_upsert_behaviors f = true -> embed_values_counter f = true)) /\
  (has_upsert_bound_parameters f = true -> result_columns f = true -> embed_values_counter f = true).
Proof.
  intros E. destruct (decide_mode_cases sbo f) as [[H _]|[[H _]|[H (H1 & H2 & H3)]]];
    rewrite H in E; try discriminate.
  injection E as <-. unfold mode_cond1, mode_cond2, mode_cond3 in *.
  apply orb_false_elim in H2 as [Hm H2].
  split; [reflexivity|]. split; [apply negb_false_iff, Hm|]. split; [|split].
  - intros Hd. rewrite Hd in H1. apply negb_false_iff, H1.
  - intros -> Hr. rewrite Hr in H2. apply orb_false_elim in H2 as [Hs Hu].
    split; [exact Hs|]. intros Hi. rewrite Hi in Hu. apply negb_false_iff, Hu.
  - intros Hu Hr. rewrite Hu, Hr, andb_true_r in H3. apply negb_false_iff, H3.
Qed.

Lemma mode_downgraded sbo f : decide_mode sbo f = (true, true) ->
  mode_cond2 sbo f = true \/ mode_cond3 f = true.
Proof. intros E. destruct (decide_mode_cases sbo f) as [[H _]|[[_ H]|[H _]]]; [congruence|exact H|congruence]. Qed.

Lemma clamp_on bs mp tot per : mp <> 0 -> per <> 0 -> clamp bs mp tot per = Ok (clamp_expr bs mp tot per).
Proof.
  intros Hmp Hper. unfold clamp, truthy.
  destruct (mp =? 0) eqn:E; [lia|]. destruct (per =? 0) eqn:E2; [lia|]. reflexivity.
Qed.

(* no limit, or one row's worth of parameters fits under it: the clamped size stays >= 1 *)
Lemma clamp_positive bs mp tot per : 1 <= bs -> mp = 0 \/ (1 <= per /\ tot <= mp) ->
  exists bs', clamp bs mp tot per = Ok bs' /\ 1 <= bs' <= bs.
Proof.
  intros Hbs H. destruct (Z.eq_dec mp 0) as [->|Hmp]; [exists bs; split; [reflexivity|lia]|].
  destruct H as [H|[Hper Htot]]; [contradiction|]. rewrite clamp_on by lia.
  eexists; split; [reflexivity|]. unfold clamp_expr.
  assert (1 <= (mp - (tot - per)) / per) by (apply Z.div_le_lower_bound; lia). lia.
Qed.

(* the purpose of the clamp: outside + size * per_row <= max_params, where per_row is the number
   the code uses (the number of VALUES elements, not of bind parameters) *)
Lemma clamp_limit bs mp tot per bs' : 1 <= per -> mp <> 0 -> clamp bs mp tot per = Ok bs' ->
  (tot - per) + bs' * per <= mp.
Proof.
  intros Hper Hmp. rewrite clamp_on by lia. intros [= <-]. unfold clamp_expr.
  pose proof (Z.mul_div_le (mp - (tot - per)) per ltac:(lia)).
  assert (Z.min bs ((mp - (tot - per)) / per) * per <= (mp - (tot - per)) / per * per)
    by (apply Z.mul_le_mono_nonneg_r; lia).
  lia.
Qed.

(* ... which bounds the parameters of the statement only if no VALUES element holds more than one
   bound parameter: k = bound parameters per VALUES row, so the statement carries
   (tot - k) + size * k parameters *)
Lemma clamp_limit_binds bs mp tot per k bs' : 1 <= per -> mp <> 0 -> 0 <= k <= per -> 1 <= bs' ->
  clamp bs mp tot per = Ok bs' -> (tot - k) + bs' * k <= mp.
Proof.
  intros Hper Hmp Hk Hbs H. pose proof (clamp_limit bs mp tot per bs' Hper Hmp H).
  assert (k * (bs' - 1) <= per * (bs' - 1)) by (apply Z.mul_le_mono_nonneg_r; lia). lia.
Qed.
(* the divisor is max(elements, bound parameters) (commit e06ceea), so the limit holds for every k *)
Lemma clamp_limit_binds_fixed bs mp tot elems k bs' : 1 <= elems -> mp <> 0 -> 0 <= k -> 1 <= bs' ->
  clamp bs mp tot (params_per_batch_expr elems k) = Ok bs' -> (tot - k) + bs' * k <= mp.
Proof. unfold params_per_batch_expr. intros. apply (clamp_limit_binds bs mp tot (Z.max elems k)); auto; lia. Qed.
(* with the number of elements alone as divisor it fails: one element `coalesce(:a, :b, :c)` (k = 3),
   page size 20000, limit 32700 *)
Lemma clamp_limit_elements_only_refuted :
  exists bs mp tot per k bs', 1 <= per /\ 1 <= bs /\ tot <= mp /\ per <= k /\
    clamp bs mp tot per = Ok bs' /\ 1 <= bs' /\ (tot - k) + bs' * k > mp.
Proof. exists 20000, 32700, 3, 1, 3, 20000. repeat split; try lia; reflexivity. Qed.

Lemma total_batches_on n bs : bs <> 0 -> total_batches n bs = Ok (total_batches_expr n bs).
Proof. intros H. unfold total_batches. destruct (bs =? 0) eqn:E; [lia|reflexivity]. Qed.
(* one batch more than for what is left once a batch is taken off *)
Lemma total_batches_rec n bs : 0 < n -> 0 < bs ->
  total_batches_expr n bs = total_batches_expr (Z.max 0 (n - bs)) bs + 1.
Proof.
  intros Hn Hbs. unfold total_batches_expr, truthy. destruct (Z.max_spec 0 (n - bs)) as [[H ->]|[H ->]].
  - replace n with (n - bs + 1 * bs) at 1 2 by lia. rewrite Z.div_add, Z.mod_add by lia. lia.
  - rewrite Z.div_0_l, Z.mod_0_l by lia. destruct (Z.eq_dec n bs) as [->|Hne].
    + rewrite Z.div_same, Z.mod_same by lia. reflexivity.
    + rewrite Z.div_small, Z.mod_small by lia. destruct (n =? 0) eqn:E; [lia|reflexivity].
Qed.
Lemma total_batches_zero bs : bs <> 0 -> total_batches_expr 0 bs = 0.
Proof. intros. unfold total_batches_expr. rewrite Z.div_0_l, Z.mod_0_l by lia. reflexivity. Qed.

Lemma py_stop_pos len bs : 1 <= bs -> py_stop len bs = Nat.min (Z.to_nat bs) len.
Proof. intros H. unfold py_stop. destruct (bs <? 0) eqn:E; lia. Qed.

Section SplitProofs.
Context {A : Type}.
Implicit Types l : list A.

(* a positive stop index needs no normalisation *)
Lemma front_pos bs l : 1 <= bs ->
  take_front bs l = firstn (Z.to_nat bs) l /\ drop_front bs l = skipn (Z.to_nat bs) l.
Proof.
  intros H. unfold take_front, drop_front. rewrite py_stop_pos by exact H.
  destruct (Nat.min_spec (Z.to_nat bs) (length l)) as [[_ ->]|[Hge ->]]; [split; reflexivity|].
  rewrite firstn_all, skipn_all, firstn_all2, skipn_all2 by exact Hge. split; reflexivity.
Qed.

Lemma split_loop_nil fuel bs : split_loop fuel bs (@nil A) = Ok [].
Proof. destruct fuel; reflexivity. Qed.

(* one round of the loop for a size >= 1.  current_batch_size is len(batch) in either branch of
   `batch_size if batches else len(batch)`: while elements remain the batch is full *)
Lemma split_loop_step bs f l : 1 <= bs -> l <> [] ->
  split_loop (S f) bs l
  = bind (split_loop f bs (skipn (Z.to_nat bs) l))
         (fun r => Ok ((firstn (Z.to_nat bs) l, Z.of_nat (Nat.min (Z.to_nat bs) (length l))) :: r)).
Proof.
  intros Hbs Hl. destruct l as [|a l']; [congruence|]. cbn [split_loop].
  destruct (front_pos bs (a :: l') Hbs) as [-> ->]. rewrite firstn_length.
  destruct (skipn (Z.to_nat bs) (a :: l')) eqn:Es; [reflexivity|].
  apply (f_equal (@length A)) in Es. rewrite skipn_length in Es. cbn [length] in Es.
  replace (Z.of_nat (Nat.min (Z.to_nat bs) (length (a :: l')))) with bs by (cbn [length]; lia).
  reflexivity.
Qed.

Fixpoint full_but_last (bs : Z) (chunks : list (list A * Z)) : Prop :=
  match chunks with
  | [] => True
  | c :: r => match r with [] => True | _ :: _ => Z.of_nat (length (fst c)) = bs end /\ full_but_last bs r
  end.

Definition chunk_ok (bs : Z) (c : list A * Z) : Prop :=
  1 <= Z.of_nat (length (fst c)) <= bs /\ snd c = Z.of_nat (length (fst c)).

Lemma split_loop_spec bs : 1 <= bs -> forall fuel l, (length l <= fuel)%nat ->
  exists chunks, split_loop fuel bs l = Ok chunks /\
    concat (map fst chunks) = l /\
    Forall (chunk_ok bs) chunks /\
    full_but_last bs chunks /\
    Z.of_nat (length chunks) = total_batches_expr (Z.of_nat (length l)) bs.
Proof.
  intros Hbs. induction fuel as [|f IH]; intros l Hl;
    (destruct l as [|a l'];
     [exists []; rewrite split_loop_nil; cbn [length]; rewrite total_batches_zero by lia;
      repeat split; constructor|]); [cbn in Hl; lia|].
  remember (a :: l') as l eqn:El. assert (Hlen : (1 <= length l)%nat) by (subst; cbn; lia).
  rewrite split_loop_step by (assumption || subst; discriminate).
  set (n := Z.to_nat bs). assert (Hn : Z.of_nat n = bs) by (subst n; lia).
  destruct (IH (skipn n l)) as (chunks & Hc & Hcat & Hall & Hfull & Hcnt); [rewrite skipn_length; lia|].
  rewrite Hc. cbn [bind]. eexists; split; [reflexivity|].
  rewrite skipn_length in Hcnt. cbn [map concat fst length full_but_last].
  split; [rewrite Hcat; apply firstn_skipn|]. split; [|split].
  - constructor; [|exact Hall]. unfold chunk_ok. cbn [fst snd]. rewrite firstn_length. lia.
  - split; [|exact Hfull]. destruct chunks as [|c r]; [exact I|].
    (* another chunk follows, so something was left *)
    destruct (Nat.le_gt_cases (length l) n) as [Hle|Hgt]; [|rewrite firstn_length; lia].
    rewrite skipn_all2, split_loop_nil in Hc by exact Hle. discriminate.
  - rewrite Nat2Z.inj_succ, Hcnt, (total_batches_rec (Z.of_nat (length l))) by lia.
    replace (Z.max 0 (Z.of_nat (length l) - bs)) with (Z.of_nat (length l - n)) by lia. reflexivity.
Qed.

(* a negative size never terminates normally on a non-empty list (the model runs out of any fuel;
   the implementation keeps yielding statements with an empty VALUES list) *)
Lemma drop_front_neg_nonempty bs l : bs < 0 -> l <> [] -> drop_front bs l <> [].
Proof.
  intros Hbs Hl. unfold drop_front, py_stop. destruct (bs <? 0) eqn:E; [|lia].
  intros H. apply (f_equal (@length A)) in H. rewrite skipn_length in H. cbn in H.
  destruct l; [congruence|]. cbn [length] in H. lia.
Qed.
Lemma split_loop_neg bs : bs < 0 -> forall fuel l, l <> [] -> split_loop fuel bs l = OutOfFuel.
Proof.
  intros Hbs. induction fuel as [|f IH]; intros l Hl; destruct l as [|a l']; try congruence; [reflexivity|].
  cbn [split_loop]. rewrite IH; [reflexivity|]. apply drop_front_neg_nonempty; [exact Hbs|congruence].
Qed.
End SplitProofs.

Section PlanProofs.
Context {P : Type}.
Implicit Types ps : list P.

Lemma row_batches_spec n t s d ps :
  concat (map b_items (row_batches n t s d ps)) = ps /\
  map b_num (row_batches n t s d ps) = zrange n (length ps) /\
  length (row_batches n t s d ps) = length ps /\
  Forall (fun b => exists p i, b = mkBatch [p] 1 i t s d) (row_batches n t s d ps).
Proof.
  revert n. induction ps as [|p r IH]; intros n; cbn; [repeat split; constructor|].
  destruct (IH (n + 1)) as (-> & -> & -> & H). repeat split. constructor; [exists p, n; reflexivity|exact H].
Qed.

(* the chunks of the loop, numbered from n; Q is whatever is known of every chunk *)
Lemma number_batches_spec n t s (chunks : list (list P * Z)) (Q : list P * Z -> Prop) : Forall Q chunks ->
  map b_items (number_batches n t s chunks) = map fst chunks /\
  map b_num (number_batches n t s chunks) = zrange n (length chunks) /\
  length (number_batches n t s chunks) = length chunks /\
  Forall (fun b => Q (b_items b, b_cbs b) /\ b_total b = t /\ b_sorted b = s /\ b_downgraded b = false)
         (number_batches n t s chunks).
Proof.
  intros H. revert n. induction H as [|[i c] r H _ IH]; intros n; cbn; [repeat split; constructor|].
  destruct (IH (n + 1)) as (-> & -> & -> & H'). repeat split. constructor; [cbn; auto|exact H'].
Qed.

(* precondition under which the clamp cannot push the size below 1 *)
Definition clamp_pre (c : config) : Prop :=
  c_max_params c = 0 \/ (1 <= c_per_batch c /\ c_total_params c <= c_max_params c).

Definition batch_ok (c : config) (total : Z) (b : batch P) : Prop :=
  b_items b <> [] /\ b_cbs b = Z.of_nat (length (b_items b)) /\ b_cbs b <= Z.max 1 (c_batch_size c) /\
  b_sorted b = c_sbo c /\ b_total b = total /\
  b_downgraded b = snd (decide_mode (c_sbo c) (c_flags c)).

(* batched mode, once the clamp has produced a size - of whatever sign *)
Lemma plan_batched (c : config) ps bs : fst (decide_mode (c_sbo c) (c_flags c)) = false ->
  clamp (c_batch_size c) (c_max_params c) (c_total_params c) (c_per_batch c) = Ok bs ->
  plan c ps = bind (total_batches (Z.of_nat (length ps)) bs) (fun total =>
              bind (split_loop (length ps) bs ps) (fun chunks =>
              Ok (number_batches 1 total (c_sbo c) chunks))).
Proof.
  intros Hm Hc. unfold plan. destruct (decide_mode (c_sbo c) (c_flags c)) as [[|] d]; [discriminate|].
  rewrite Hc. reflexivity.
Qed.

Theorem plan_spec (c : config) ps : 1 <= c_batch_size c -> clamp_pre c ->
  exists bl, plan c ps = Ok bl /\
    concat (map b_items bl) = ps /\
    map b_num bl = zrange 1 (length bl) /\
    Forall (batch_ok c (Z.of_nat (length bl))) bl /\
    (fst (decide_mode (c_sbo c) (c_flags c)) = true -> Forall (fun b => length (b_items b) = 1%nat) bl).
Proof.
  intros Hbs Hpre. unfold batch_ok.
  destruct (decide_mode (c_sbo c) (c_flags c)) as [[|] dg] eqn:Hm; cbn [fst snd].
  - unfold plan. rewrite Hm. destruct (row_batches_spec 1 (Z.of_nat (length ps)) (c_sbo c) dg ps) as (Hcat & Hnum & Hlen & H).
    eexists; split; [reflexivity|]. rewrite Hlen. split; [exact Hcat|]. split; [exact Hnum|].
    split; [|intros _]; (eapply Forall_impl; [|exact H]); cbn beta; intros b (p & i & ->);
      [cbn; repeat split; (discriminate || lia)|reflexivity].
  - assert (dg = false) as -> by (destruct (mode_row_or_batched (c_sbo c) (c_flags c)) as [H|[H|H]]; congruence).
    destruct (clamp_positive _ (c_max_params c) (c_total_params c) (c_per_batch c) Hbs Hpre) as (bs' & Hcl & Hb').
    rewrite (plan_batched c ps bs') by (assumption || rewrite Hm; reflexivity).
    rewrite total_batches_on by lia. cbn [bind].
    destruct (split_loop_spec bs' ltac:(lia) (length ps) ps (le_n _)) as (chunks & -> & Hcat & Hall & _ & Hcnt).
    destruct (number_batches_spec 1 (total_batches_expr (Z.of_nat (length ps)) bs') (c_sbo c) chunks _ Hall)
      as (Hitems & Hnum & Hlen & H).
    cbn [bind]. eexists; split; [reflexivity|]. rewrite Hlen, Hitems, Hcnt.
    split; [exact Hcat|]. split; [exact Hnum|]. split; [|discriminate].
    eapply Forall_impl; [|exact H]. cbn beta. intros b ((Hl & Hcbs) & -> & -> & ->). cbn [fst snd] in Hl, Hcbs.
    repeat split; [|exact Hcbs|lia]. intros Hn. rewrite Hn in Hl. cbn in Hl. lia.
Qed.

(* batch_size = 0: lenparams // 0 *)
Theorem plan_zero_size (c : config) ps : fst (decide_mode (c_sbo c) (c_flags c)) = false ->
  c_batch_size c = 0 -> c_max_params c = 0 -> plan c ps = Raise ZeroDivisionError.
Proof. intros Hm H0 H1. rewrite (plan_batched c ps 0 Hm) by (rewrite H0, H1; reflexivity). reflexivity. Qed.

Theorem plan_negative_size (c : config) ps : fst (decide_mode (c_sbo c) (c_flags c)) = false ->
  c_batch_size c < 0 -> c_max_params c = 0 -> ps <> [] -> plan c ps = OutOfFuel.
Proof.
  intros Hm H0 H1 Hps. rewrite (plan_batched c ps (c_batch_size c) Hm) by (rewrite H1; reflexivity).
  rewrite total_batches_on by lia. cbn [bind]. rewrite split_loop_neg by assumption. reflexivity.
Qed.
End PlanProofs.
