(* C05 - qmark / format / numeric / numeric_dollar paramstyles: the %(name)s pass of the compiler also
   runs over rendered literals (refuted), unless the value has no "%(" (guarded). *)
From Coq Require Import List NArith Bool.
Import ListNotations.
From SAV.sql Require Import Literal LiteralStrProofs.
Open Scope N_scope.

(* no  %(  anywhere *)
Fixpoint nopl (s : str) : bool :=
  match s with
  | c :: r => negb ((c =? 37) && match r with c2 :: _ => c2 =? 40 | [] => false end) && nopl r
  | [] => true
  end.

Lemma nopl_find s : nopl s = true -> find_pyformat s = None.
Proof.
  induction s as [|c r IH]; intros H; [reflexivity|].
  cbn [nopl] in H. apply andb_prop in H. destruct H as [H1 H2]. apply negb_true_iff in H1.
  cbn [find_pyformat]. unfold pyformat_at. destruct r as [|c2 r2].
  - reflexivity.
  - rewrite H1. apply IH. exact H2.
Qed.

Definition hd_or (x : chr) (s : str) : chr := match s with c :: _ => c | [] => x end.

Lemma nopl_cons c t : nopl (c :: t) = negb ((c =? 37) && (hd_or 0 t =? 40)) && nopl t.
Proof. cbn [nopl]. destruct t; reflexivity. Qed.

(* a character is encoded by itself written once or twice, and "%%" is no "%(" *)
Lemma nopl_encc dp bs c t : nopl (encc dp bs c ++ t) = nopl (c :: t).
Proof.
  destruct (encc_shape dp bs c) as [-> | ->]; [reflexivity|].
  cbn [app nopl]. destruct (N.eqb_spec c 37) as [->|]; reflexivity.
Qed.

Lemma enc_head x dp bs s : hd_or x (enc dp bs s ++ [39]) = hd_or 39 s.
Proof.
  destruct s as [|c s]; [reflexivity|]. unfold enc. cbn [flat_map hd_or].
  destruct (encc_shape dp bs c) as [-> | ->]; reflexivity.
Qed.

(* so a "%(" in the encoded text would be one in the value; the closing quote is no "(" either *)
Lemma enc_nopl dp bs s : nopl s = true -> nopl (enc dp bs s ++ [39]) = true.
Proof.
  induction s as [|c s IH]; intros H; [reflexivity|].
  rewrite nopl_cons in H. apply andb_prop in H. destruct H as [H1 H2].
  change (enc dp bs (c :: s)) with (encc dp bs c ++ enc dp bs s).
  rewrite <- app_assoc, nopl_encc, nopl_cons, (IH H2), enc_head.
  destruct s as [|c2 s2]; cbn [hd_or] in *; [rewrite andb_false_r|rewrite H1]; reflexivity.
Qed.

Lemma render_string_nopl d fl n s : nopl s = true -> nopl (render_string d fl n s) = true.
Proof.
  intros H. rewrite render_string_charwise.
  pose proof (enc_nopl (f_dp fl) (bs_active d fl) s H) as He.
  destruct n; cbn [string_prefix app]; [rewrite 2!nopl_cons|rewrite nopl_cons]; cbn [hd_or]; rewrite He; reflexivity.
Qed.

Theorem pyformat_guarded : forall d fl n s,
  nopl s = true -> find_pyformat (render_string d fl n s) = None.
Proof. intros d fl n s H. apply nopl_find, render_string_nopl, H. Qed.

Lemma pysub_none ph : forall s, find_pyformat s = None -> pysub ph 0 s = s.
Proof.
  induction s as [|c r IH]; intros H; [reflexivity|].
  cbn [find_pyformat] in H. cbn [pysub].
  destruct (pyformat_at (c :: r)) as [[nm rest]|]; [discriminate|].
  rewrite IH by exact H. reflexivity.
Qed.

Theorem positional_pass_guarded : forall d fl n s ph,
  nopl s = true -> pysub ph 0 (render_string d fl n s) = render_string d fl n s.
Proof. intros. apply pysub_none. apply pyformat_guarded. assumption. Qed.

Theorem string_literal_roundtrip_after_pass : forall d fl n s ph rest,
  (n = true -> d = MSSQL) -> no_quote_prefix rest -> nopl s = true ->
  lex_str (server d fl) (driver fl (pysub ph 0 (render_string d fl n s) ++ rest)) = Some (s, driver fl rest).
Proof.
  intros d fl n s ph rest Hn Hr H. rewrite positional_pass_guarded by exact H.
  apply string_literal_roundtrip; assumption.
Qed.

Theorem positional_pass_refuted : exists s,
  lex_str (server SQLite (default_flags SQLite))
          (pysub [63] 0 (render_string SQLite (default_flags SQLite) false s)) = Some ([63], []) /\
  s <> [63].
Proof. exists [37; 40; 120; 41; 115]. split; [vm_compute; reflexivity|discriminate]. Qed.

Theorem pyformat_refuted : exists s,
  find_pyformat (render_string PG (mkFlags (dp_of_paramstyle NumericDollar) false) false s)
  = Some [120; 95; 49].
Proof. exists [37; 40; 120; 95; 49; 41; 115]. vm_compute. reflexivity. Qed.
