(* Generic operator-precedence round trip: a fuelled precedence-climbing parser over a backend table reads
   [flat e] back as [erase e] whenever [ok 0 e], i.e. every operator occurrence not wrapped in parentheses
   binds tightly enough for the position it is printed in. *)
From Coq Require Import List Arith Lia Bool.
Import ListNotations.

Inductive tok := TA (n : nat) | TO (o : nat) | TP (u : nat) | TL | TR.
Inductive ex := A (n : nat) | B (o : nat) (l r : ex) | U (u : nat) (e : ex) | G (e : ex).
Inductive pt := PA (n : nat) | PB (o : nat) (l r : pt) | PU (u : nat) (e : pt).

Fixpoint erase (e : ex) : pt :=
  match e with
  | A n => PA n
  | B o l r => PB o (erase l) (erase r)
  | U u e1 => PU u (erase e1)
  | G e1 => erase e1
  end.

Fixpoint flat (e : ex) : list tok :=
  match e with
  | A n => [TA n]
  | B o l r => flat l ++ TO o :: flat r
  | U u e1 => TP u :: flat e1
  | G e1 => TL :: flat e1 ++ [TR]
  end.

Section Grammar.
(* backend grammar: the operator loop at minimum level p takes binary o when p <= lbp o and parses
   its right operand at minimum level rbp o; a prefix operator u parses its operand at pbp u *)
Variable lbp rbp : nat -> nat.
Variable pbp : nat -> nat.

Fixpoint parse (fuel : nat) (p : nat) (ts : list tok) {struct fuel} : option (pt * list tok) :=
  match fuel with
  | 0 => None
  | S f =>
    match ts with
    | TA n :: r => loop f p (PA n) r
    | TP u :: r =>
        match parse f (pbp u) r with Some (e, r') => loop f p (PU u e) r' | None => None end
    | TL :: r =>
        match parse f 0 r with Some (e, TR :: r') => loop f p e r' | _ => None end
    | _ => None
    end
  end
with loop (fuel : nat) (p : nat) (lhs : pt) (ts : list tok) {struct fuel} : option (pt * list tok) :=
  match fuel with
  | 0 => None
  | S f =>
    match ts with
    | TO o :: r =>
        if p <=? lbp o
        then match parse f (rbp o) r with
             | Some (rhs, r') => loop f p (PB o lhs rhs) r'
             | None => None
             end
        else Some (lhs, ts)
    | _ => Some (lhs, ts)
    end
  end.

(* printing side: the level at which the left / right operand of o and the operand of u are
   printed, and the level of a prefix expression as a whole; [binops]/[unops] is the finite
   operator vocabulary over which the table conditions are checked *)
Variable binops unops : list nat.
Variable lctx rctx : nat -> nat.
Variable uctx ulev : nat -> nat.

Definition stops (q o' : nat) : Prop :=
  (forall o, In o binops -> q <= lbp o -> lbp o' < rbp o) /\
  (forall u, In u unops -> q <= ulev u -> lbp o' < pbp u).

(* in [parse_flat]: T_rbp, T_pbp let an operand be parsed at the level it was printed at; T_rmono, T_umono
   pass [follow] on to the last operand; T_lmono passes the entry level to the left operand; T_left lets
   an operator follow its own left operand *)
Hypothesis T_rbp : forall o, In o binops -> rbp o <= rctx o.
Hypothesis T_rmono : forall o, In o binops -> lbp o <= rctx o.
Hypothesis T_lmono : forall o, In o binops -> lbp o <= lctx o.
Hypothesis T_pbp : forall u, In u unops -> pbp u <= uctx u.
Hypothesis T_umono : forall u, In u unops -> ulev u <= uctx u.
Hypothesis T_left : forall o, In o binops -> stops (lctx o) o.

Fixpoint ok (q : nat) (e : ex) : Prop :=
  match e with
  | A _ => True
  | G e1 => ok 0 e1
  | B o l r => In o binops /\ q <= lbp o /\ ok (lctx o) l /\ ok (rctx o) r
  | U u e1 => In u unops /\ q <= ulev u /\ ok (uctx u) e1
  end.

(* what may come right after a tree printed at level q *)
Definition follow (q : nat) (rest : list tok) : Prop :=
  match rest with TO o :: _ => stops q o | _ => True end.

Lemma mono : forall f,
  (forall p ts r, parse f p ts = Some r -> forall f', f <= f' -> parse f' p ts = Some r) /\
  (forall p e ts r, loop f p e ts = Some r -> forall f', f <= f' -> loop f' p e ts = Some r).
Proof.
  induction f as [|f [IHp IHl]]; split; intros; try discriminate.
  - destruct f' as [|f']; [lia|]. cbn [parse] in *.
    destruct ts as [|[n|o|u| |] ts']; try discriminate.
    + eapply IHl; [eassumption|lia].
    + destruct (parse f (pbp u) ts') as [[e0 r0]|] eqn:E; [|discriminate].
      rewrite (IHp _ _ _ E f') by lia. eapply IHl; [eassumption|lia].
    + destruct (parse f 0 ts') as [[e0 [|[ | | | | ] r0]]|] eqn:E; try discriminate.
      rewrite (IHp _ _ _ E f') by lia. eapply IHl; [eassumption|lia].
  - destruct f' as [|f']; [lia|]. cbn [loop] in *.
    destruct ts as [|[n|o|u| |] ts']; try assumption.
    destruct (p <=? lbp o); [|assumption].
    destruct (parse f (rbp o) ts') as [[rhs r']|] eqn:E; [|discriminate].
    rewrite (IHp _ _ _ E f') by lia. eapply IHl; [eassumption|lia].
Qed.

Lemma ok_weaken q q' e : q' <= q -> ok q e -> ok q' e.
Proof.
  intros Hq H. destruct e; cbn [ok] in *; try exact H;
    destruct H as (H1 & H2 & H3); exact (conj H1 (conj (Nat.le_trans _ _ _ Hq H2) H3)).
Qed.

Lemma follow_weaken q q' rest : q <= q' -> follow q rest -> follow q' rest.
Proof.
  intros Hq. destruct rest as [|[n|o|u| |] r]; simpl; auto.
  intros [H1 H2]. split; intros; [apply H1|apply H2]; auto; lia.
Qed.

(* fuel-free form of [parse]/[loop], with their equations as rules; nothing below mentions fuel *)
Definition parses (p : nat) (ts : list tok) (res : pt * list tok) : Prop :=
  exists f, parse f p ts = Some res.
Definition loops (p : nat) (lhs : pt) (ts : list tok) (res : pt * list tok) : Prop :=
  exists f, loop f p lhs ts = Some res.

Lemma parses_fun p ts r1 r2 : parses p ts r1 -> parses p ts r2 -> r1 = r2.
Proof.
  intros [f1 H1] [f2 H2].
  apply (proj1 (mono f1)) with (f' := Nat.max f1 f2) in H1; [|lia].
  apply (proj1 (mono f2)) with (f' := Nat.max f1 f2) in H2; [|lia].
  congruence.
Qed.

Lemma common_fuel p ts r p' lhs ts' r' : parses p ts r -> loops p' lhs ts' r' ->
  exists f, parse f p ts = Some r /\ loop f p' lhs ts' = Some r'.
Proof.
  intros [f1 H1] [f2 H2]. exists (Nat.max f1 f2). split.
  - apply (proj1 (mono f1) _ _ _ H1). lia.
  - apply (proj2 (mono f2) _ _ _ _ H2). lia.
Qed.

Lemma parses_atom p n r res : loops p (PA n) r res -> parses p (TA n :: r) res.
Proof. intros [f H]. exists (S f). exact H. Qed.

Lemma parses_prefix p u r e r' res :
  parses (pbp u) r (e, r') -> loops p (PU u e) r' res -> parses p (TP u :: r) res.
Proof.
  intros H1 H2. destruct (common_fuel _ _ _ _ _ _ _ H1 H2) as [f [E1 E2]].
  exists (S f). cbn [parse]. rewrite E1. exact E2.
Qed.

Lemma parses_paren p r e r' res :
  parses 0 r (e, TR :: r') -> loops p e r' res -> parses p (TL :: r) res.
Proof.
  intros H1 H2. destruct (common_fuel _ _ _ _ _ _ _ H1 H2) as [f [E1 E2]].
  exists (S f). cbn [parse]. rewrite E1. exact E2.
Qed.

Lemma loops_op p o lhs r rhs r' res : p <= lbp o ->
  parses (rbp o) r (rhs, r') -> loops p (PB o lhs rhs) r' res -> loops p lhs (TO o :: r) res.
Proof.
  intros Hp H1 H2. destruct (common_fuel _ _ _ _ _ _ _ H1 H2) as [f [E1 E2]].
  exists (S f). cbn [loop]. rewrite (proj2 (Nat.leb_le _ _) Hp), E1. exact E2.
Qed.

Lemma loops_stop m q rest e :
  follow q rest -> (forall o', stops q o' -> lbp o' < m) -> loops m e rest (e, rest).
Proof.
  intros Hf Hm. exists 1. cbn [loop]. destruct rest as [|[n|o'|u| |] r]; try reflexivity.
  specialize (Hm o' Hf). destruct (Nat.leb_spec m (lbp o')); [lia|reflexivity].
Qed.

(* continuation form: parsing the printed [e] (followed by [rest]) is resuming the operator loop
   with lhs = erase e *)
Lemma parse_flat : forall e p q rest res,
  ok q e -> p <= q -> follow q rest ->
  loops p (erase e) rest res -> parses p (flat e ++ rest) res.
Proof.
  induction e as [n | o l IHl r IHr | u e1 IHe | e1 IHg]; intros p q rest res Hok Hpq Hfo Hloop;
    cbn [ok erase flat] in *.
  - apply parses_atom, Hloop.
  - destruct Hok as (Hin & Hq & Hokl & Hokr). rewrite <- app_assoc. cbn [app].
    apply IHl with (lctx o); [exact Hokl | pose proof (T_lmono o Hin); lia | exact (T_left o Hin) |].
    apply loops_op with (erase r) rest; [lia | | exact Hloop].
    apply IHr with (rctx o); [exact Hokr | exact (T_rbp o Hin) | |].
    + apply follow_weaken with q; [pose proof (T_rmono o Hin); lia | exact Hfo].
    + apply loops_stop with q; [exact Hfo | intros o' [H _]; exact (H o Hin Hq)].
  - destruct Hok as (Hin & Hq & Hoke).
    apply parses_prefix with (erase e1) rest; [|exact Hloop].
    apply IHe with (uctx u); [exact Hoke | exact (T_pbp u Hin) | |].
    + apply follow_weaken with q; [pose proof (T_umono u Hin); lia | exact Hfo].
    + apply loops_stop with q; [exact Hfo | intros o' [_ H]; exact (H u Hin Hq)].
  - cbn [app]. rewrite <- app_assoc.
    apply parses_paren with (erase e1) rest; [|exact Hloop].
    apply IHg with 0; [exact Hok | exact (le_n 0) | exact I | exists 1; reflexivity].
Qed.

Theorem parse_flat_top : forall e, ok 0 e -> exists f, parse f 0 (flat e) = Some (erase e, []).
Proof.
  intros e Hok. rewrite <- (app_nil_r (flat e)).
  apply (parse_flat e 0 0 [] _ Hok (le_n 0) I). exists 1. reflexivity.
Qed.

Corollary parse_flat_unique : forall e, ok 0 e ->
  forall f r, parse f 0 (flat e) = Some r -> r = (erase e, []).
Proof.
  intros e Hok f r Hr. exact (parses_fun _ _ _ _ (ex_intro _ f Hr) (parse_flat_top e Hok)).
Qed.
End Grammar.
