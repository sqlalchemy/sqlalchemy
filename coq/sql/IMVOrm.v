(* C12: the ORM bulk INSERT of IMV.v (its part 7) - grouping by key set, splicing the results. *)
From Coq Require Import List Permutation.
Import ListNotations.
From SAV.sql Require Import IMV.

Section OrmProofs.
Context {A K R : Type}.
Variable key_eqb : K -> K -> bool.
Variable key : A -> K.
Local Notation group_by := (group_by key_eqb key).

(* the runs concatenate to the records, and (what the second clause of [group_by] is there for) none is empty *)
Lemma group_by_partition l : concat (group_by l) = l /\ Forall (fun g => g <> []) (group_by l).
Proof.
  induction l as [|x r [IHc IHn]]; [split; [reflexivity|constructor]|]. cbn [IMV.group_by].
  destruct (group_by r) as [|[|y g] gs].
  - cbn in IHc. subst r. split; [reflexivity|repeat constructor; discriminate].
  - inversion IHn; congruence.
  - cbn [concat app] in IHc. inversion IHn as [|? ? Hne Hrest].
    destruct (key_eqb (key x) (key y)); cbn [concat app]; rewrite <- IHc;
      (split; [reflexivity|]); repeat constructor; (discriminate || assumption).
Qed.
Lemma group_by_concat l : concat (group_by l) = l.
Proof. apply group_by_partition. Qed.

(* every group is a run of records with one and the same key *)
Lemma group_by_same_key l : (forall a b c, key_eqb a b = true -> key_eqb b c = true -> key_eqb a c = true) ->
  (forall a, key_eqb a a = true) ->
  Forall (fun g => match g with [] => True | x :: _ => Forall (fun y => key_eqb (key x) (key y) = true) g end) (group_by l).
Proof.
  intros Htr Hrefl. induction l as [|x r IH]; [constructor|]. cbn [IMV.group_by].
  destruct (group_by r) as [|[|y g] gs] eqn:E.
  - repeat constructor. apply Hrefl.
  - inversion IH; subst. constructor; [repeat constructor; apply Hrefl|assumption].
  - inversion IH; subst. destruct (key_eqb (key x) (key y)) eqn:Ek.
    + constructor; [|assumption]. constructor; [apply Hrefl|].
      eapply Forall_impl; [|exact H1]. cbn beta. intros z Hz. eapply Htr; eassumption.
    + constructor; [repeat constructor; apply Hrefl|]. constructor; assumption.
Qed.

Lemma splice_from (rs : list (list R)) a : fold_left splice_step rs (Some a) = Some (a ++ concat rs).
Proof.
  revert a. induction rs as [|r t IH]; intros a; cbn; [rewrite app_nil_r; reflexivity|].
  rewrite IH, app_assoc. reflexivity.
Qed.
Lemma splice_results_spec (rs : list (list R)) :
  splice_results rs = match rs with [] => None | _ :: _ => Some (concat rs) end.
Proof. destruct rs as [|r t]; [reflexivity|]. unfold splice_results. cbn [fold_left splice_step]. apply splice_from. Qed.

(* the spliced result is the concatenation of the groups' results, in the order of the records *)
Lemma orm_bulk_insert_spec (exec_group : list A -> list R) records :
  orm_bulk_insert key_eqb key exec_group records
  = match records with [] => None | _ :: _ => Some (concat (map exec_group (group_by records))) end.
Proof.
  unfold orm_bulk_insert. rewrite splice_results_spec. destruct records as [|x r]; [reflexivity|].
  destruct (group_by (x :: r)) eqn:E; [|reflexivity].
  apply (f_equal (@concat A)) in E. rewrite group_by_concat in E. discriminate.
Qed.

(* if every per-group executemany returns its rows in parameter order (c12_sorted_returning_guarded),
   the spliced result of the whole bulk insert is in parameter order, for every way the key sets
   alternate *)
Theorem orm_bulk_in_parameter_order (exec_group : list A -> list R) (row_of : A -> R) records :
  (forall g, In g (group_by records) -> exec_group g = map row_of g) ->
  orm_bulk_insert key_eqb key exec_group records
  = match records with [] => None | _ :: _ => Some (map row_of records) end.
Proof.
  intros H. rewrite orm_bulk_insert_spec. destruct records as [|x r]; [reflexivity|]. f_equal.
  rewrite (map_ext_in _ _ _ H), <- concat_map, group_by_concat. reflexivity.
Qed.

(* without ordering inside the groups: still exactly one row per record *)
Theorem orm_bulk_one_row_per_record (exec_group : list A -> list R) (row_of : A -> R) records rows :
  (forall g, In g (group_by records) -> Permutation (map row_of g) (exec_group g)) ->
  orm_bulk_insert key_eqb key exec_group records = Some rows ->
  Permutation (map row_of records) rows.
Proof.
  intros H. rewrite orm_bulk_insert_spec.
  assert (Hp : Permutation (map row_of records) (concat (map exec_group (group_by records)))).
  { rewrite <- (group_by_concat records) at 1. rewrite concat_map.
    induction (group_by records) as [|g gs IH]; [constructor|]. cbn [map concat].
    apply Permutation_app; [apply H; left; reflexivity|]. apply IH. intros g' Hg'. apply H. right. exact Hg'. }
  destruct records; [discriminate|]. intros [= <-]. exact Hp.
Qed.
End OrmProofs.
