(* C12 - bulk INSERT with RETURNING ("insertmanyvalues"): one returned row per parameter set, in
   parameter order.  Statements only; every proof is [exact <lemma>] or a one-line instance of one.
   Model: coq/sql/IMV.v.  P = parameter set, K = sentinel value, R = result row, X = the bound
   parameters of a parameter set that are not inside VALUES.  The database is the function
   [fetch] (rows fetched after the k-th statement); it is only assumed to return one row per VALUES
   row of a statement, in ANY order. *)
From Coq Require Import List ZArith Bool Permutation Sorted.
Import ListNotations.
From SAV.sql Require Import IMV IMVPlan IMVMerge IMVExpand IMVWhole IMVOrm IMVRun IMVRunProofs.
Open Scope Z_scope.

(* total, and "downgraded" only ever together with row-at-a-time *)
Theorem c12_mode_total : forall sbo f,
  decide_mode sbo f = (true, false) \/ decide_mode sbo f = (true, true) \/ decide_mode sbo f = (false, false).
Proof. exact mode_row_or_batched. Qed.
Print Assumptions c12_mode_total.

(* batching is chosen for a sorted RETURNING only when sentinel columns exist, for upserts only
   with the VALUES counter, for DEFAULT VALUES only with the DEFAULT metavalue *)
Theorem c12_mode_batched_safe : forall sbo f dg, decide_mode sbo f = (false, dg) ->
  dg = false /\ supports_multivalues_insert f = true /\
  (is_default_expr f = true -> supports_default_metavalue f = true) /\
  (sbo = true -> result_columns f = true ->
     sentinel_columns_none f = false /\ (includes_upsert_behaviors f = true -> embed_values_counter f = true)) /\
  (has_upsert_bound_parameters f = true -> result_columns f = true -> embed_values_counter f = true).
Proof. exact mode_batched_safe. Qed.
Print Assumptions c12_mode_batched_safe.

(* the max_params clamp keeps the size >= 1 as long as ONE row's parameters fit under the limit *)
Theorem c12_clamp_keeps_positive : forall bs mp tot per, 1 <= bs -> 1 <= per -> tot <= mp ->
  exists bs', clamp bs mp tot per = Ok bs' /\ 1 <= bs' <= bs.
Proof. intros. apply clamp_positive; auto. Qed.
Print Assumptions c12_clamp_keeps_positive.

(* ... and otherwise yields 0 and `lenparams // 0`.  Reachable only when a single-row INSERT already
   exceeds dialect.insertmanyvalues_max_parameters: 999 on SQLite < 3.32 (tables may have 2000
   columns), not with 2099 on SQL Server (1024 columns) or the default 32700 (PostgreSQL 1600) *)
Theorem c12_clamp_nonpositive_refuted :
  exists bs mp tot per, 1 <= bs /\ 1 <= per /\ clamp bs mp tot per = Ok 0 /\
    total_batches 5 0 = Raise ZeroDivisionError.
Proof. exact clamp_nonpositive_refuted. Qed.
Print Assumptions c12_clamp_nonpositive_refuted.

(* what the clamp is for: parameters outside VALUES + size * (VALUES elements) <= max_params *)
Theorem c12_clamp_respects_limit : forall bs mp tot per bs', 1 <= per -> mp <> 0 ->
  clamp bs mp tot per = Ok bs' -> (tot - per) + bs' * per <= mp.
Proof. exact clamp_limit. Qed.
Print Assumptions c12_clamp_respects_limit.

(* in terms of bound parameters (k per VALUES row, any k): since commit e06ceea the divisor is
   max(VALUES elements, bound parameters inside VALUES), so a statement never carries more than
   max_params parameters (formerly finding C12-clamp-counts-elements) *)
Theorem c12_clamp_respects_bind_limit : forall bs mp tot elems k bs', 1 <= elems -> mp <> 0 -> 0 <= k ->
  1 <= bs' -> clamp bs mp tot (params_per_batch_expr elems k) = Ok bs' -> (tot - k) + bs' * k <= mp.
Proof. exact clamp_limit_binds_fixed. Qed.
Print Assumptions c12_clamp_respects_bind_limit.
(* one element `coalesce(:a, :b, :c)`, page size 20000, limit 32700: 10900 rows = 32700 parameters *)
Example c12_ex_clamp_multibind : clamp 20000 32700 3 (params_per_batch_expr 1 3) = Ok 10900.
Proof. reflexivity. Qed.

(* the slice-and-delete loop: for every size >= 1 and every list the chunks concatenate to the
   list, each holds 1..size elements and reports its own length as current_batch_size, all but the
   last are full, and there are exactly total_batches of them; the fuel len(l) suffices *)
Theorem c12_batches_partition : forall (A : Type) bs, 1 <= bs -> forall (l : list A),
  exists chunks, split_loop (length l) bs l = Ok chunks /\
    concat (map fst chunks) = l /\
    Forall (fun c => 1 <= Z.of_nat (length (fst c)) <= bs /\ snd c = Z.of_nat (length (fst c))) chunks /\
    full_but_last bs chunks /\
    Z.of_nat (length chunks) = total_batches_expr (Z.of_nat (length l)) bs.
Proof. intros A bs H l. exact (split_loop_spec bs H (length l) l (le_n _)). Qed.
Print Assumptions c12_batches_partition.

(* the sequence of batches the compiler-level generator yields, in every mode *)
Theorem c12_plan_partition : forall (P : Type) (c : config) (ps : list P),
  1 <= c_batch_size c -> clamp_pre c ->
  exists bl, plan c ps = Ok bl /\
    concat (map b_items bl) = ps /\
    map b_num bl = zrange 1 (length bl) /\
    Forall (batch_ok c (Z.of_nat (length bl))) bl /\
    (fst (decide_mode (c_sbo c) (c_flags c)) = true -> Forall (fun b => length (b_items b) = 1%nat) bl).
Proof. exact @plan_spec. Qed.
Print Assumptions c12_plan_partition.

(* insertmanyvalues_page_size = 0 (nothing validates the option): ZeroDivisionError *)
Theorem c12_zero_page_size_raises : forall (P : Type) (c : config) (ps : list P),
  fst (decide_mode (c_sbo c) (c_flags c)) = false -> c_batch_size c = 0 -> c_max_params c = 0 ->
  plan c ps = Raise ZeroDivisionError.
Proof. exact @plan_zero_size. Qed.
Print Assumptions c12_zero_page_size_raises.

(* a negative page size never completes: `batches[0:n] = []` stops removing anything *)
Theorem c12_negative_page_size_never_completes : forall (P : Type) (c : config) (ps : list P),
  fst (decide_mode (c_sbo c) (c_flags c)) = false -> c_batch_size c < 0 -> c_max_params c = 0 -> ps <> [] ->
  plan c ps = OutOfFuel.
Proof. exact @plan_negative_size. Qed.
Print Assumptions c12_negative_page_size_never_completes.

(* the statements sent to the database carry, concatenated in order, exactly the given parameter
   sets; an exception of the merge can only cut the sequence short; without RETURNING nothing can *)
Theorem c12_every_param_once : forall (P K R X : Type) (key_eqb : K -> K -> bool)
    (sent_of_param : P -> K) (sent_of_row : R -> K) (sort_key : R -> Z) (ext : P -> X)
    (fetch : nat -> option X -> list P -> list R) (c : config) (ps : list P),
  1 <= c_batch_size c -> clamp_pre c ->
  exists rest, ps = concat (map b_items (o_executed (execute key_eqb sent_of_param sent_of_row sort_key ext fetch c ps))) ++ rest /\
    (forall rows, o_result (execute key_eqb sent_of_param sent_of_row sort_key ext fetch c ps) = Ok rows -> rest = []) /\
    (c_is_returning c = false ->
       o_result (execute key_eqb sent_of_param sent_of_row sort_key ext fetch c ps) = Ok [] /\ rest = []).
Proof. exact @execute_every_param_once. Qed.
Print Assumptions c12_every_param_once.

(* which value the database binds to which placeholder of a rewritten statement.  Positional: the
   placeholders are consumed left to right - VALUES row i receives parameter set i's VALUES slice *)
Theorem c12_positional_values : forall (ly : layout) (items : list ptuple) (cbs : Z) b0 rest,
  items = b0 :: rest -> wf_layout ly items -> cbs = Z.of_nat (length items) ->
  let lo := lower_index (l_mask ly) in let hi := upper_index (l_mask ly) in
  exists e, expand_positional ly items cbs = Ok e /\
    e_groups e = Z.of_nat (length items) /\
    db_groups lo (hi - lo) (length items) (e_params e) = map (slice lo hi) items /\
    firstn lo (e_params e) = firstn lo b0 /\
    skipn (lo + length items * (hi - lo)) (e_params e) = skipn hi b0 /\
    (l_embed ly = true -> e_counters e = zrange 0 (length items)).
Proof. exact expand_positional_values. Qed.
Print Assumptions c12_positional_values.

(* numeric: the VALUES placeholders are renumbered lo+1, lo+2, ... without gap or repetition, i.e.
   the j-th one addresses replaced_parameters[lo + j] *)
Theorem c12_numeric_renumber_contiguous : forall (ly : layout) (items : list ptuple) (cbs : Z) b0 rest,
  items = b0 :: rest -> wf_layout ly items -> cbs = Z.of_nat (length items) -> l_numeric ly = true ->
  let lo := lower_index (l_mask ly) in let k := (upper_index (l_mask ly) - lo)%nat in
  (0 < k)%nat ->
  exists e, expand_positional ly items cbs = Ok e /\
    length (e_numbers e) = (k * length items)%nat /\
    forall j, (j < k * length items)%nat -> nth j (e_numbers e) 0 = Z.of_nat (lo + j) + 1.
Proof. exact numeric_renumber_contiguous. Qed.
Print Assumptions c12_numeric_renumber_contiguous.

(* named: "<key j>__<i>" holds parameter set i's value of key j, a key outside VALUES holds the
   FIRST parameter set's value; and no key is bound twice *)
Theorem c12_named_values : forall mask first items j oi v, In (j, oi, v) (expand_named mask first items) <->
  match oi with
  | None => nth_error mask j = Some false /\ nth_error first j = Some v
  | Some i => nth_error mask j = Some true /\ exists p, nth_error items i = Some p /\ nth_error p j = Some v
  end.
Proof. exact expand_named_spec. Qed.
Print Assumptions c12_named_values.
Theorem c12_named_keys_unique : forall mask first items j oi v v',
  In (j, oi, v) (expand_named mask first items) -> In (j, oi, v') (expand_named mask first items) -> v = v'.
Proof. exact expand_named_functional. Qed.
Print Assumptions c12_named_keys_unique.

(* whatever the database returned (lost, duplicated, foreign rows included): if the sentinel match
   succeeds, the n-th delivered row carries the n-th parameter set's sentinel and was fetched *)
Theorem c12_merge_sound_for_any_database : forall (P K R : Type) (key_eqb : K -> K -> bool),
  (forall a b, key_eqb a b = true <-> a = b) ->
  forall (sent_of_param : P -> K) (sent_of_row : R -> K) (sort_key : R -> Z) (c : config) (b : batch P) rows out,
  c_num_sentinel c <> 0 -> b_downgraded b = false -> c_implicit c = false ->
  merge_rows key_eqb sent_of_param sent_of_row sort_key c b rows = Ok out ->
  map sent_of_row out = map sent_of_param (b_items b) /\ incl out rows /\ length out = length (b_items b).
Proof. exact @merge_explicit_sound. Qed.
Print Assumptions c12_merge_sound_for_any_database.

(* the rowcount guard and the KeyError guard fire exactly as written *)
Theorem c12_rowcount_guard : forall (P K R : Type) (key_eqb : K -> K -> bool)
  (sent_of_param : P -> K) (sent_of_row : R -> K) (sort_key : R -> Z) (c : config) (b : batch P) rows,
  c_num_sentinel c <> 0 -> b_downgraded b = false -> c_implicit c = false -> c_has_keys c = true ->
  dict_len key_eqb sent_of_row rows <> length (b_items b) ->
  merge_rows key_eqb sent_of_param sent_of_row sort_key c b rows = Raise RowCountMismatch.
Proof. exact @merge_rowcount_guard. Qed.
Print Assumptions c12_rowcount_guard.
Theorem c12_keyerror_guard : forall (P K R : Type) (key_eqb : K -> K -> bool),
  (forall a b, key_eqb a b = true <-> a = b) ->
  forall (sent_of_param : P -> K) (sent_of_row : R -> K) (sort_key : R -> Z) (c : config) (b : batch P) rows p,
  c_num_sentinel c <> 0 -> b_downgraded b = false -> c_implicit c = false -> c_has_keys c = true ->
  dict_len key_eqb sent_of_row rows = length (b_items b) -> In p (b_items b) ->
  (forall r, In r rows -> sent_of_row r <> sent_of_param p) ->
  merge_rows key_eqb sent_of_param sent_of_row sort_key c b rows = Raise SentinelKeyError.
Proof. exact @merge_keyerror_guard. Qed.
Print Assumptions c12_keyerror_guard.

(* the implicit-sentinel sort puts any permutation of strictly increasing rows back in order *)
Theorem c12_implicit_sort_restores : forall (R : Type) (sort_key : R -> Z) (target rows : list R),
  StronglySorted (fun a b => sort_key a < sort_key b) target -> Permutation target rows ->
  sort_rows sort_key rows = target.
Proof. exact @sort_rows_restores. Qed.
Print Assumptions c12_implicit_sort_restores.

(* RETURNING with sort_by_parameter_order: for EVERY row count, EVERY page size >= 1, EVERY mode,
   paramstyle and sentinel configuration (none - then the mode decision falls back to one row per
   statement -, client-side single or composite, implicit autoincrement) and EVERY order in which
   the database returns the rows of each statement, the n-th row of the result is the row of the
   n-th parameter set, and every parameter set was sent exactly once.
   Guard [ext_guard]: row-at-a-time mode (every statement carries one parameter set: e.g. an upsert
   whose SET clause holds a bound parameter), or the parameter sets agree on the bound parameters
   that are not inside VALUES (trivially so when there are none) - see c12_sorted_returning_refuted. *)
Theorem c12_sorted_returning_guarded : forall (P K R X : Type) (key_eqb : K -> K -> bool),
  (forall a b, key_eqb a b = true <-> a = b) ->
  forall (sent_of_param : P -> K) (sent_of_row : R -> K) (sort_key : R -> Z) (ext : P -> X)
         (fetch : nat -> option X -> list P -> list R) (row_of : option X -> P -> R),
  (forall k x items, Permutation (map (row_of x) items) (fetch k x items)) ->
  forall (c : config) (ps : list P),
  1 <= c_batch_size c -> clamp_pre c -> wf_config c ->
  c_is_returning c = true -> c_imv_sbo c = true -> result_columns (c_flags c) = true ->
  sentinel_hyp sent_of_param sent_of_row sort_key row_of c ps ->
  ext_guard ext c ps ->
  o_result (execute key_eqb sent_of_param sent_of_row sort_key ext fetch c ps)
    = Ok (map (fun p => row_of (Some (ext p)) p) ps) /\
  concat (map b_items (o_executed (execute key_eqb sent_of_param sent_of_row sort_key ext fetch c ps))) = ps.
Proof. exact @execute_sorted_guarded. Qed.
Print Assumptions c12_sorted_returning_guarded.

(* without the guard: the rows still come back in parameter order, but each is computed with the
   non-VALUES parameters of the parameter set at the head of its batch (positional paramstyles) or
   of the first parameter set of the whole call (named) *)
Theorem c12_sorted_returning_general : forall (P K R X : Type) (key_eqb : K -> K -> bool),
  (forall a b, key_eqb a b = true <-> a = b) ->
  forall (sent_of_param : P -> K) (sent_of_row : R -> K) (sort_key : R -> Z) (ext : P -> X)
         (fetch : nat -> option X -> list P -> list R) (row_of : option X -> P -> R),
  (forall k x items, Permutation (map (row_of x) items) (fetch k x items)) ->
  forall (c : config) (ps : list P),
  1 <= c_batch_size c -> clamp_pre c -> wf_config c ->
  c_is_returning c = true -> c_imv_sbo c = true -> result_columns (c_flags c) = true ->
  sentinel_hyp sent_of_param sent_of_row sort_key row_of c ps ->
  exists bl, plan c ps = Ok bl /\ concat (map b_items bl) = ps /\
    execute key_eqb sent_of_param sent_of_row sort_key ext fetch c ps
    = mkOutcome bl (Ok (concat (map (fun b => map (row_of (stmt_ext ext c ps b)) (b_items b)) bl))).
Proof. exact @execute_sorted_general. Qed.
Print Assumptions c12_sorted_returning_general.

(* finding C12-nonvalues-bind: three parameter sets with per-row values for a bound parameter of the
   RETURNING expression, page size 2: every hypothesis of the guarded theorem but the guard holds,
   and the second returned row is not the row of the second parameter set *)
Theorem c12_sorted_returning_refuted :
  exists (c : config) (mask : list bool) (rowspec : list (list Z)) (ps : list param),
    (forall k x items, Permutation (map (db_row rowspec x) items) (fetch_db rowspec [] [] k x items)) /\
    1 <= c_batch_size c /\ clamp_pre c /\ wf_config c /\ c_is_returning c = true /\ c_imv_sbo c = true /\
    result_columns (c_flags c) = true /\
    sentinel_hyp (sent_of_param [0%nat]) (sent_of_row 1) sort_key (db_row rowspec) c ps /\
    exists rows,
      o_result (execute list_eqb (sent_of_param [0%nat]) (sent_of_row 1) sort_key (ext_of mask)
                        (fetch_db rowspec [] []) c ps) = Ok rows /\
      rows <> map (fun p => db_row rowspec (Some (ext_of mask p)) p) ps.
Proof. exact sorted_returning_refuted. Qed.
Print Assumptions c12_sorted_returning_refuted.

(* RETURNING without sentinel columns (sort_by_parameter_order off): exactly one row per parameter
   set, in some order *)
Theorem c12_unsorted_one_row_per_param : forall (P K R X : Type) (key_eqb : K -> K -> bool)
    (sent_of_param : P -> K) (sent_of_row : R -> K) (sort_key : R -> Z) (ext : P -> X)
    (fetch : nat -> option X -> list P -> list R) (row_of : option X -> P -> R),
  (forall k x items, Permutation (map (row_of x) items) (fetch k x items)) ->
  forall (c : config) (ps : list P),
  1 <= c_batch_size c -> clamp_pre c -> c_is_returning c = true -> c_num_sentinel c = 0 -> ext_guard ext c ps ->
  exists rows, o_result (execute key_eqb sent_of_param sent_of_row sort_key ext fetch c ps) = Ok rows /\
    Permutation (map (fun p => row_of (Some (ext p)) p) ps) rows /\
    concat (map b_items (o_executed (execute key_eqb sent_of_param sent_of_row sort_key ext fetch c ps))) = ps.
Proof. exact @execute_unsorted_perm. Qed.
Print Assumptions c12_unsorted_one_row_per_param.

(* ORM bulk INSERT (orm/persistence.py _emit_insert_statements) *)
(* the records are executed in runs of equal key sets: the runs concatenate to the records *)
Theorem c12_orm_groups_partition : forall (A K : Type) (key_eqb : K -> K -> bool) (key : A -> K) (l : list A),
  concat (group_by key_eqb key l) = l /\ Forall (fun g => g <> []) (group_by key_eqb key l).
Proof. exact @group_by_partition. Qed.
Print Assumptions c12_orm_groups_partition.

(* if every group's executemany delivers its rows in parameter order (c12_sorted_returning_guarded),
   the spliced result is in parameter order for every sequence of key sets (None = no record) *)
Theorem c12_orm_bulk_in_parameter_order : forall (A K R : Type) (key_eqb : K -> K -> bool) (key : A -> K)
    (exec_group : list A -> list R) (row_of : A -> R) (records : list A),
  (forall g, In g (group_by key_eqb key records) -> exec_group g = map row_of g) ->
  orm_bulk_insert key_eqb key exec_group records
  = match records with [] => None | _ :: _ => Some (map row_of records) end.
Proof. exact @orm_bulk_in_parameter_order. Qed.
Print Assumptions c12_orm_bulk_in_parameter_order.

(* without sort_by_parameter_order: one row per record *)
Theorem c12_orm_bulk_one_row_per_record : forall (A K R : Type) (key_eqb : K -> K -> bool) (key : A -> K)
    (exec_group : list A -> list R) (row_of : A -> R) (records : list A) (rows : list R),
  (forall g, In g (group_by key_eqb key records) -> Permutation (map row_of g) (exec_group g)) ->
  orm_bulk_insert key_eqb key exec_group records = Some rows ->
  Permutation (map row_of records) rows.
Proof. exact @orm_bulk_one_row_per_record. Qed.
Print Assumptions c12_orm_bulk_one_row_per_record.

(* key sets a a b c c a: four executemany calls, rows a1 a2 b1 c1 c2 a3 *)
Example c12_ex_orm :
  group_by Z.eqb (fun r : orm_record => fst (snd r)) (orm_index 0 [1; 1; 0; 3; 3; 1] [11; 12; 21; 31; 32; 13])
  = [[(0%nat, (1, 11)); (1%nat, (1, 12))]; [(2%nat, (0, 21))]; [(3%nat, (3, 31)); (4%nat, (3, 32))]; [(5%nat, (1, 13))]]
  /\ orm_bulk_insert Z.eqb (fun r : orm_record => fst (snd r)) (orm_exec true) (orm_index 0 [1; 1; 0; 3; 3; 1] [11; 12; 21; 31; 32; 13])
  = Some [[1; 11]; [2; 12]; [3; 21]; [4; 31]; [5; 32]; [6; 13]].
Proof. vm_compute. split; reflexivity. Qed.

(* the hypotheses are satisfiable *)
(* the concrete database used by the correspondence check (rows of each statement sorted by
   arbitrary keys) satisfies the database hypothesis *)
Example c12_ex_database : forall rowspec keys k x items,
  Permutation (map (db_row rowspec x) items) (fetch_db rowspec keys [] k x items).
Proof. exact fetch_db_perm. Qed.
Example c12_ex_key_eqb : forall a b, list_eqb a b = true <-> a = b.
Proof. exact list_eqb_spec. Qed.

(* 5 parameter sets, page size 2, client-side integer key as sentinel, every statement's rows
   returned in reverse: three statements 2+2+1, rows back in parameter order *)
Definition ex_cfg (nsc : Z) (implicit has_keys : bool) :=
  mkConfig (mkFlags false true true true false false false false) 2 32700 2 2 2 true true nsc implicit has_keys false.
Definition ex_ps : list param :=
  [(0%nat, [7; 100]); (1%nat, [3; 101]); (2%nat, [9; 102]); (3%nat, [1; 103]); (4%nat, [5; 104])].
Example c12_ex_explicit :
  let out := execute list_eqb (sent_of_param [0%nat]) (sent_of_row 1) sort_key (ext_of [true; true])
                     (fetch_db [[1; 0]; [1; 1]; [1; 0]] [5; 4; 3; 2; 1] []) (ex_cfg 1 false true) ex_ps in
  o_result out = Ok [[7; 100; 7]; [3; 101; 3]; [9; 102; 9]; [1; 103; 1]; [5; 104; 5]] /\
  map (fun b => length (b_items b)) (o_executed out) = [2; 2; 1]%nat /\
  fetch_db [[1; 0]; [1; 1]; [1; 0]] [5; 4; 3; 2; 1] [] 0 None (firstn 2 ex_ps) = [[3; 101; 3]; [7; 100; 7]].
Proof. vm_compute. repeat split; reflexivity. Qed.
(* the same with an autoincrement key and the implicit sentinel sort *)
Example c12_ex_implicit :
  o_result (execute list_eqb (sent_of_param []) (sent_of_row 1) sort_key (ext_of [true; true])
                    (fetch_db [[0]; [1; 1]; [0]] [5; 4; 3; 2; 1] []) (ex_cfg 1 true false) ex_ps)
  = Ok [[1; 100; 1]; [2; 101; 2]; [3; 102; 3]; [4; 103; 4]; [5; 104; 5]].
Proof. vm_compute. reflexivity. Qed.
(* formerly finding C12-omitted-pk-assert: an omitted non-autoincrement integer key on SQLite.  Since
   commit 56a4cbe the compiler reports no sentinel columns for it (sentinel_columns None, 0 sentinel
   columns), the mode decision downgrades to one statement per parameter set and the rows come back
   in parameter order.  (Sentinel columns without client-side values and without implicit support -
   the configuration [sentinel_hyp] excludes - are no longer produced by the compiler.) *)
Example c12_ex_omitted_pk_downgraded :
  let c := mkConfig (mkFlags false true true true true false false false) 1000 32700 1 1 1 true true 0 false false false in
  let out := execute list_eqb (sent_of_param []) (sent_of_row 0) sort_key (ext_of [true])
                     (fetch_db [[0]; [1; 0]] [3; 2; 1] []) c [(0%nat, [100]); (1%nat, [101]); (2%nat, [102])] in
  decide_mode (c_sbo c) (c_flags c) = (true, true) /\
  o_result out = Ok [[1; 100]; [2; 101]; [3; 102]] /\ length (o_executed out) = 3%nat.
Proof. vm_compute. repeat split; reflexivity. Qed.
(* row count 0: no statement, no row *)
Example c12_ex_empty :
  execute list_eqb (sent_of_param [0%nat]) (sent_of_row 1) sort_key (ext_of [true; true])
          (fetch_db [[1; 0]; [1; 1]; [1; 0]] [] []) (ex_cfg 1 false true) []
  = mkOutcome [] (Ok []).
Proof. vm_compute. reflexivity. Qed.
(* a lost row trips the rowcount guard, a foreign sentinel the KeyError guard *)
Example c12_ex_guards :
  o_result (execute list_eqb (sent_of_param [0%nat]) (sent_of_row 1) sort_key (ext_of [true; true])
                    (fetch_db [[1; 0]; [1; 1]; [1; 0]] [] [1; 3; 0]) (ex_cfg 1 false true) ex_ps) = Raise RowCountMismatch /\
  o_result (execute list_eqb (sent_of_param [0%nat]) (sent_of_row 1) sort_key (ext_of [true; true])
                    (fetch_db [[1; 0]; [1; 1]; [1; 0]] [] [2; 3; 77]) (ex_cfg 1 false true) ex_ps) = Raise SentinelKeyError.
Proof. vm_compute. split; reflexivity. Qed.
(* numeric paramstyle with one parameter left of VALUES: ($1 outside) VALUES ($2, $3), ($4, $5) *)
Example c12_ex_numeric :
  expand_positional (mkLayout [false; true; true] 2 true false) [[50; 7; 100]; [60; 3; 101]] 2
  = Ok (mkExpanded [50; 7; 100; 3; 101] 2 [2; 3; 4; 5] []).
Proof. vm_compute. reflexivity. Qed.
Example c12_ex_wf_layout : wf_layout (mkLayout [false; true; true] 2 true false) [[50; 7; 100]; [60; 3; 101]].
Proof. split; [repeat constructor|reflexivity]. Qed.
(* the guard of the property theorem holds, e.g., whenever nothing is bound outside VALUES *)
Example c12_ex_ext_guard : ext_guard (ext_of [true; true]) (ex_cfg 1 false true) ex_ps.
Proof. right. intros p q _ _. unfold ext_of. destruct p as [i [|a [|b t]]], q as [j [|a' [|b' t']]]; reflexivity. Qed.
(* an upsert whose SET clause holds a per-row bound parameter runs row-at-a-time: every row is
   computed with its own SET value (rows [id; new value]), here for rows that all existed before *)
Example c12_ex_upsert_rowmode :
  let c := mkConfig (mkFlags false true true true true true false true) 1000 32700 3 2 3 true false 0 false false false in
  fst (decide_mode (c_sbo c) (c_flags c)) = true /\
  o_result (execute list_eqb (sent_of_param []) (sent_of_row 0) sort_key (ext_of [true; true; false])
                    (fetch_db [[1; 0]; [4]] [] []) c [(0%nat, [7; 100; 41]); (1%nat, [3; 101; 42]); (2%nat, [9; 102; 43])])
  = Ok [[7; 41]; [3; 42]; [9; 43]].
Proof. vm_compute. split; reflexivity. Qed.
Example c12_ex_sentinel_hyp :
  sentinel_hyp (sent_of_param [0%nat]) (sent_of_row 1) sort_key (db_row [[1; 0]; [1; 1]; [1; 0]]) (ex_cfg 1 false true) ex_ps.
Proof. right. left. repeat split. cbn. repeat constructor; cbn; intuition discriminate. Qed.
(* (the division of the clamp has no guard of its own; a batched statement always has >= 1 VALUES element) *)
Example c12_ex_clamp_zero_elements : clamp 1000 32700 3 0 = Raise ZeroDivisionError.
Proof. reflexivity. Qed.
