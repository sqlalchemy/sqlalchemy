(* C22 - compiling a well-formed construct never fails with an internal error.  PARTIAL.  Proved: (a) totality of
   the compiler DISPATCH over the regenerated tables of all built-in dialect compilers (Dispatch.v); (b) three places
   where the current code does raise an internal exception, each refuted and guarded: unnamed index and pickled
   comparator (DispatchFrag.v), the empty identifier (C06's model, Ident.v); (c) the CTE registry move of visit_cte
   (DispatchCte.v), where the code is right and the same statements in the other order are not.  The bodies of the
   visit_* methods are not modelled; for them specs/c22.py explores (compile fuzz), it proves nothing. *)
From Coq Require Import List NArith Bool.
Import ListNotations.
From SAV.sql Require Import Dispatch DispatchProofs DispatchFrag DispatchFragProofs DispatchCte DispatchCteProofs.
From SAV.sql Require Ident IdentProofs.

(* For any table that passes the finite check [covers] (evaluated by vm_compute on the tables regenerated from
   the source on every run: Gen_C22_obl.gen_covers), for every dialect, for EVERY construct tree - any depth,
   any visit names, known or unknown, any binary / expression-list operators, unary and clause-list operators
   from the library's own lists, custom operators with any visit_name - the chain of dispatch steps never
   ends in an internal error: it succeeds or raises the documented UnsupportedCompilationError / CompileError *)
Theorem c22_dispatch_total : forall T, covers T = true -> forall d, In d (dialects T) ->
  forall n, wf T n = true -> forall e, walk T d n <> RInt e.
Proof. exact dispatch_total. Qed.
Print Assumptions c22_dispatch_total.

Theorem c22_dispatch_ok_or_documented : forall T, covers T = true -> forall d, In d (dialects T) ->
  forall n, wf T n = true -> walk T d n = ROk \/ exists e, walk T d n = RDoc e.
Proof. exact dispatch_total_cases. Qed.
Print Assumptions c22_dispatch_ok_or_documented.

(* no dispatch step (element, binary, expression list, unary, custom operator) ever selects a method the
   visitor does not have *)
Theorem c22_selected_method_exists : forall T c o m, any_dispatch T c o -> o = Method m -> has_attr T c m = true.
Proof. exact selected_method_exists. Qed.
Print Assumptions c22_selected_method_exists.

(* a missing method is reached only through the documented path, and that path only for a missing method *)
Theorem c22_unsupported_only_for_missing_method : forall T c vn,
  elem_dispatch T c vn = Doc Unsupported -> has_attr T c vn = false /\ has_attr T c (n_unsupported T) = true.
Proof. exact unsupported_means_missing. Qed.
Print Assumptions c22_unsupported_only_for_missing_method.

(* outside the guard [wf] the statement is false: *)
(* UnaryExpression(x, operator=<op without visit_<op>_unary_operator and without OPERATORS entry>), e.g. like_op:
   visit_unary evaluates OPERATORS[op] bare -> KeyError; holds for the current tables: Gen_C22_obl.gen_unary_unlisted_refuted *)
Theorem c22_unary_unlisted_operator_keyerror_refuted : forall T d op ns e,
  has_attr T (d_sql d) (n_unary T) = true ->
  names_of T op = Some ns -> has_attr T (d_sql d) (on_unop ns) = false -> memN op (generic_ops T) = false ->
  walk T d (NUnary (Some op) None None e) = RInt KeyErr.
Proof. exact unary_unlisted_operator_keyerror. Qed.
Print Assumptions c22_unary_unlisted_operator_keyerror_refuted.

Theorem c22_clauselist_unlisted_operator_keyerror_refuted : forall T d op kids,
  has_attr T (d_sql d) (n_clist T) = true -> memN op (generic_ops T) = false ->
  walk T d (NClauseList (Some op) kids) = RInt KeyErr.
Proof. exact clauselist_unlisted_operator_keyerror. Qed.
Print Assumptions c22_clauselist_unlisted_operator_keyerror_refuted.

(* the very same operator in a BinaryExpression raises the documented error: the paths are inconsistent *)
Theorem c22_binary_unlisted_operator_documented : forall T d op ns l r,
  has_attr T (d_sql d) (n_binary T) = true ->
  names_of T op = Some ns -> has_attr T (d_sql d) (on_binary ns) = false -> memN op (generic_ops T) = false ->
  walk T d (NBinary op None l r) = RDoc Unsupported.
Proof. exact binary_unlisted_operator_documented. Qed.
Print Assumptions c22_binary_unlisted_operator_documented.

(* a Visitable without __visit_name__ (TypeEngine(), TupleType, JSON.JSONIndexType ...) has no _compiler_dispatch *)
Theorem c22_no_dispatch_attributeerror_refuted : forall T d, walk T d NNoDispatch = RInt AttributeErr.
Proof. exact nodispatch_attributeerror. Qed.
Print Assumptions c22_no_dispatch_attributeerror_refuted.

(* CREATE/DROP INDEX of an unnamed index through an override without the "index.name is None" test *)
Theorem c22_unnamed_index_assertion_refuted : visit_index_ddl false NameNone = DAssertionError.
Proof. exact index_unchecked_none_asserts. Qed.
Print Assumptions c22_unnamed_index_assertion_refuted.

Theorem c22_unnamed_index_checked_guarded : forall n, n <> NameDeferred None -> visit_index_ddl true n <> DAssertionError.
Proof. exact index_checked_no_assert. Qed.
Print Assumptions c22_unnamed_index_checked_guarded.

Theorem c22_index_assertion_exactly : forall checked n,
  visit_index_ddl checked n = DAssertionError <-> (n = NameDeferred None \/ (checked = false /\ n = NameNone)).
Proof. exact index_assert_iff. Qed.
Print Assumptions c22_index_assertion_exactly.

(* operate, pickle round trip, operate on an Integer-typed element: AttributeError on NullType *)
Theorem c22_pickled_comparator_attributeerror_refuted :
  run (fresh TInteger) [Operate; Pickle; Operate] = [OpOk; OpAttributeError].
Proof. exact pickled_comparator_attributeerror. Qed.
Print Assumptions c22_pickled_comparator_attributeerror_refuted.

(* every history in which no pickle follows an operate is fine, for every type *)
Theorem c22_pickle_before_operate_guarded : forall t h,
  operate_before_pickle false h = false -> Forall (fun o => o = OpOk) (run (fresh t) h).
Proof. exact pickle_before_operate_guarded. Qed.
Print Assumptions c22_pickle_before_operate_guarded.

(* ... and every history at all for the types without a lookup-based comparator *)
Theorem c22_pickle_nolookup_guarded : forall t h, has_lookup t = false -> Forall (fun o => o = OpOk) (run (fresh t) h).
Proof. exact pickled_comparator_nolookup_ok. Qed.
Print Assumptions c22_pickle_nolookup_guarded.

(* the empty identifier: IdentifierPreparer._requires_quotes evaluates value[0] (C06's model of the function) *)
Theorem c22_empty_identifier_indexerror_refuted : forall p,
  Ident.mem_str [] (Ident.p_reserved p) = false -> Ident.requires_quotes p [] = Ident.RaiseIndexError.
Proof. exact IdentProofs.requires_quotes_empty. Qed.
Print Assumptions c22_empty_identifier_indexerror_refuted.

Theorem c22_nonempty_identifier_guarded : forall p c r, Ident.requires_quotes p (c :: r) <> Ident.RaiseIndexError.
Proof. exact IdentProofs.requires_quotes_nonempty. Qed.
Print Assumptions c22_nonempty_identifier_guarded.

(* delete-then-set registers the CTE under its new (level, name) key for EVERY pair of old / new keys, equal ones
   included (a CTE pinned at the level where it was first seen): the later  ctes_by_level_name[cte_level_name]  finds it *)
Theorem c22_cte_move_registers : forall old new cte m, reg_get new (move old new cte m) = Some cte.
Proof. exact move_registers. Qed.
Print Assumptions c22_cte_move_registers.

Theorem c22_cte_move_unregisters_old : forall old new cte m, lkey_eqb old new = false -> reg_get old (move old new cte m) = None.
Proof. exact move_unregisters_old. Qed.
Print Assumptions c22_cte_move_unregisters_old.

Theorem c22_cte_move_frame : forall old new cte m k, lkey_eqb k old = false -> lkey_eqb k new = false ->
  reg_get k (move old new cte m) = reg_get k m.
Proof. exact move_frame. Qed.
Print Assumptions c22_cte_move_frame.

(* the two statements in the other order differ from the code exactly on equal keys, where the CTE is lost (KeyError) *)
Theorem c22_cte_move_swapped_loses_equal_key : forall k cte m, reg_get k (move_swapped k k cte m) = None.
Proof. exact move_swapped_loses_equal_key. Qed.
Print Assumptions c22_cte_move_swapped_loses_equal_key.

Theorem c22_cte_move_swapped_same_when_distinct : forall old new cte m k, lkey_eqb old new = false ->
  reg_get k (move_swapped old new cte m) = reg_get k (move old new cte m).
Proof. exact move_swapped_same_when_distinct. Qed.
Print Assumptions c22_cte_move_swapped_same_when_distinct.

Example c22_ex_cte_move : reg_get (1, 7)%N (move (1, 7)%N (1, 7)%N 42%N [((1, 7), 42); ((1, 8), 43)]%N) = Some 42%N
  /\ reg_get (1, 8)%N (move (1, 7)%N (2, 7)%N 42%N [((1, 7), 42); ((1, 8), 43)]%N) = Some 43%N.
Proof. split; vm_compute; reflexivity. Qed.

(* non-vacuity on the small table DispatchProofs.sample *)
Example c22_ex_covers : covers sample = true /\ tables_ok sample = true /\ In dA (dialects sample) /\ In dB (dialects sample).
Proof. repeat split; try (vm_compute; reflexivity); cbn; auto. Qed.

(* column + (-column) LIKE array(...) inside a comma list: fine on dialect B, Unsupported on A (no visit_array) *)
Definition ex_tree : node :=
  NClauseList (Some 4%N)
    [NBinary 1%N None (NBinary 0%N None (NElem KSql 5%N []) (NUnary (Some 2%N) None None (NElem KSql 5%N [])))
                      (NElem KSql 6%N [NElem KType 7%N []])].
Example c22_ex_walk : wf sample ex_tree = true /\ walk sample dB ex_tree = ROk /\ walk sample dA ex_tree = RDoc Unsupported.
Proof. repeat split; vm_compute; reflexivity. Qed.

(* every outcome of the model is reachable *)
Example c22_ex_outcomes :
  binary_dispatch sample 100 1 = Method 8%N /\ binary_dispatch sample 100 0 = Generic /\
  binary_dispatch sample 100 5 = Doc Unsupported /\ unary_dispatch sample 100 5 false = Int KeyErr /\
  elem_dispatch sample 103 99 = Doc Unsupported /\ elem_dispatch sample 102 99 = Doc Unsupported /\
  custom_dispatch sample 101 (Some 20%N) = Method 20%N /\ custom_dispatch sample 100 (Some 20%N) = Generic /\
  walk sample dA (NUnary (Some 2%N) (Some 3%N) None (NElem KSql 5%N [])) = RDoc CompileErr /\
  walk sample dA (NUnary None None None (NElem KSql 5%N [])) = RDoc CompileErr /\
  walk sample dA (NUnary None (Some 3%N) None (NElem KSql 5%N [])) = ROk /\
  walk sample dA (NBinary 6%N (Some 20%N) (NElem KSql 5%N []) (NElem KSql 5%N [])) = ROk /\
  walk sample dA (NExprList 0%N [NElem KSql 5%N []; NNoDispatch]) = RInt AttributeErr /\
  walk sample dA (NUnary (Some 5%N) None None (NElem KSql 5%N [])) = RInt KeyErr.
Proof. repeat split; vm_compute; reflexivity. Qed.

(* a compiler without the escape hatch is what [covers] excludes *)
Example c22_ex_no_hatch :
  elem_dispatch {| cls_methods := [(1, [5])]%N; cls_mro := [(1, [1])]%N; dialects := []; n_unsupported := 0;
                   n_binary := 1; n_unary := 2; n_elist := 3; n_clist := 4; generic_ops := []; op_table := [];
                   unary_ops := []; clist_ops := [] |} 1 6 = Int AttributeErr.
Proof. vm_compute; reflexivity. Qed.
