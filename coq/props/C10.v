(* C10 - Result objects deliver exactly the underlying rows under any access pattern.

   [run_impl strategy w rows ops]  the Gallina transcription of CursorResult (CursorFetchStrategy,
       BufferedRowCursorFetchStrategy, FullyBufferedCursorFetchStrategy) / IteratorResult with Result,
       ScalarResult, MappingResult, the memoised row getters, unique, columns, yield_per, close, freeze,
       run on an ARBITRARY list of calls; one observation (return value or exception, result.closed) per call.
   [run_spec w rows ops]  the list model: remaining rows + seen-sets.
   [guard]  excludes exactly two defects of the implementation (D1, D2, each refuted below) and sizes < 1. *)
From Coq Require Import List ZArith Bool Arith.
Import ListNotations.
From SAV.engine Require Import ResultModel ResultSpec ResultFetchProofs ResultViewProofs ResultOnlyOneProofs
  ResultRefine ResultCorollaries ResultRefuted.

(* the fetch strategies refine a plain list ([remaining] = _rowbuffer ++ cursor), whatever the buffer
   sizes and growth factor are *)
Theorem c10_strategy_fetchone_refines : forall hard f, hardc f = false ->
  match remaining f with
  | [] => exists f', fetchone_impl hard f = (f', Ok None) /\ remaining f' = [] /\ fwf f' /\
                     hardc f' = (hard && negb (softc f))
  | r :: t => exists f', fetchone_impl hard f = (f', Ok (Some r)) /\ remaining f' = t /\
                         hardc f' = false /\ softc f' = false
  end.
Proof. exact fetchone_open. Qed.
Print Assumptions c10_strategy_fetchone_refines.

Theorem c10_strategy_fetchmany_refines : forall n f, hardc f = false -> 1 <= n ->
  exists f', fetchmany_impl (Some n) f = (f', Ok (firstn n (remaining f))) /\
             remaining f' = skipn n (remaining f) /\ hardc f' = false.
Proof. exact fetchmany_open. Qed.
Print Assumptions c10_strategy_fetchmany_refines.

Theorem c10_strategy_fetchall_refines : forall f, hardc f = false ->
  exists f', fetchall_impl f = (f', Ok (remaining f)) /\ remaining f' = [] /\ hardc f' = false.
Proof. exact fetchall_open. Qed.
Print Assumptions c10_strategy_fetchall_refines.

(* the uniquing fetchmany loop (re-fetching num - len(collect) rows) delivers the first n new rows and
   reads no row beyond them *)
Theorem c10_manyrows_refetch_loop : forall cu ypv c n f h d r h',
  hardc f = false -> 1 <= n -> u_ok h cu -> adeliver cu c n (remaining f) h = (d, r, h') ->
  exists f', manyrows cu ypv c (Some n) f h = (f', h', Ok d) /\ remaining f' = r /\ hardc f' = false.
Proof. exact manyrows_some_ok. Qed.
Print Assumptions c10_manyrows_refetch_loop.

Theorem c10_step_refines : forall i s o, R i s -> op_ok i o = true ->
  snd (istep i o) = snd (sstep s o) /\ R (fst (istep i o)) (fst (sstep s o)).
Proof. exact step_sim. Qed.
Print Assumptions c10_step_refines.

(* the main theorem: any sequence of calls, any strategy, any rows *)
Theorem c10_all_sequences_guarded : forall strategy w rows ops,
  guard strategy w rows ops = true -> run_impl strategy w rows ops = run_spec w rows ops.
Proof. exact all_sequences_guarded. Qed.
Print Assumptions c10_all_sequences_guarded.

(* the unguarded statement is false for the code as it is *)
Theorem c10_all_sequences_refuted : exists strategy w rows ops,
  run_impl strategy w rows ops <> run_spec w rows ops.
Proof. exact all_sequences_refuted. Qed.
Print Assumptions c10_all_sequences_refuted.

(* D1 *)
Theorem c10_only_one_row_ignores_seen_refuted :
  run_impl StDirect 2 rows3 [Unique KRow; FetchOne; OnlyOne First] =
    [(OUnit, false); (OItem (IRow r20), false); (OItem (IRow r20), true)] /\
  run_spec 2 rows3 [Unique KRow; FetchOne; OnlyOne First] =
    [(OUnit, false); (OItem (IRow r20), false); (OItem (IRow r21), true)].
Proof. exact only_one_row_ignores_seen. Qed.
Print Assumptions c10_only_one_row_ignores_seen_refuted.

Theorem c10_one_or_none_spurious_multiple_refuted :
  run_impl StDirect 2 rows3 [Unique KRow; FetchOne; OnlyOne OneOrNone] =
    [(OUnit, false); (OItem (IRow r20), false); (OErr MultipleResultsFound, true)] /\
  run_spec 2 rows3 [Unique KRow; FetchOne; OnlyOne OneOrNone] =
    [(OUnit, false); (OItem (IRow r20), false); (OItem (IRow r21), true)].
Proof. exact one_or_none_spurious_multiple. Qed.
Print Assumptions c10_one_or_none_spurious_multiple_refuted.

(* D2 *)
Theorem c10_only_one_row_on_exhausted_cursor_not_closed_refuted :
  run_impl StDirect 1 [[VI 1]] [All; OnlyOne First; FetchOne] =
    [(OItems [IRow [VI 1]], false); (ONoRow, false); (ONoRow, false)] /\
  run_spec 1 [[VI 1]] [All; OnlyOne First; FetchOne] =
    [(OItems [IRow [VI 1]], false); (ONoRow, true); (OErr ResourceClosed, true)] /\
  run_impl StIter 1 [[VI 1]] [All; OnlyOne First; FetchOne] = run_spec 1 [[VI 1]] [All; OnlyOne First; FetchOne].
Proof. exact only_one_row_on_exhausted_cursor_not_closed. Qed.
Print Assumptions c10_only_one_row_on_exhausted_cursor_not_closed_refuted.

(* ScalarResult/MappingResult.unique are @_generative (commit 386c857): unique() after a fetch on a
   scalars() view is honoured by every getter *)
Example c10_ex_filter_unique_after_fetch_honoured :
  run_impl StDirect 1 [[VI 2]; [VI 2]; [VI 2]; [VI 2]] [Scalars 0; Next; Unique KRow; Next; Next; FetchMany (Some 2)] =
    [(OUnit, false); (OItem (IScalar (VI 2)), false); (OUnit, false);
     (OItem (IScalar (VI 2)), false); (OStop, false); (OItems [], false)] /\
  run_spec 1 [[VI 2]; [VI 2]; [VI 2]; [VI 2]] [Scalars 0; Next; Unique KRow; Next; Next; FetchMany (Some 2)] =
    [(OUnit, false); (OItem (IScalar (VI 2)), false); (OUnit, false);
     (OItem (IScalar (VI 2)), false); (OStop, false); (OItems [], false)].
Proof. exact filter_unique_after_fetch_honoured. Qed.

(* fuel exhaustion of the model's loops is unreachable *)
Theorem c10_fuel_suffices : forall strategy w rows ops,
  guard strategy w rows ops = true -> ~ In OFuel (map fst (run_impl strategy w rows ops)).
Proof. exact fuel_suffices. Qed.
Print Assumptions c10_fuel_suffices.

(* any mix of fetchone/next/iteration/fetchmany/partitions, then all() *)
Theorem c10_no_row_lost_or_duplicated : forall strategy w rows ops,
  forallb plain_op ops = true -> Forall (fun r => length r = w) rows ->
  delivered (run_impl strategy w rows (ops ++ [All])) = rows.
Proof. exact no_row_lost_or_duplicated. Qed.
Print Assumptions c10_no_row_lost_or_duplicated.

Theorem c10_unique_delivers_first_occurrences : forall strategy w rows k ops,
  forallb plain_op ops = true -> Forall (fun r => length r = w) rows ->
  delivered (run_impl strategy w rows (Unique k :: ops ++ [All])) = dedup k rows.
Proof. exact unique_delivers_first_occurrences. Qed.
Print Assumptions c10_unique_delivers_first_occurrences.

(* [dedup]: every key represented, only input rows, no key twice *)
Theorem c10_dedup_complete : forall k rows p,
  In p rows -> mem (key_of k p) (map (key_of k) (dedup k rows)) = true.
Proof. exact dedup_complete. Qed.
Print Assumptions c10_dedup_complete.
Theorem c10_dedup_incl : forall k rows p, In p (dedup k rows) -> In p rows.
Proof. exact dedup_incl. Qed.
Print Assumptions c10_dedup_incl.
Theorem c10_dedup_nodup : forall k rows l1 p l2,
  dedup k rows = l1 ++ p :: l2 -> mem (key_of k p) (map (key_of k) l1) = false.
Proof. exact dedup_nodup. Qed.
Print Assumptions c10_dedup_nodup.

(* non-vacuity: the guard rejects the defect witnesses and accepts their neighbours *)
Example c10_ex_guard_rejects :
  guard StDirect 2 rows3 [Unique KRow; FetchOne; OnlyOne First] = false /\
  guard StDirect 2 rows3 [Unique KRow; FetchOne; OnlyOne OneOrNone] = false /\
  guard StDirect 1 [[VI 1]] [All; OnlyOne First; FetchOne] = false /\
  guard (StBuffered 2) 1 [[VI 1]] [FetchMany (Some 2); OnlyOne First; FetchOne] = false.
Proof. exact guard_rejects_witnesses. Qed.
Example c10_ex_guard_accepts :
  guard StDirect 2 rows3 [Unique KRow; OnlyOne One] = true /\
  guard StIter 1 [[VI 1]] [All; OnlyOne First; FetchOne] = true /\
  guard StDirect 1 [[VI 1]] [FetchMany (Some 2); OnlyOne First; FetchOne] = true /\
  guard StDirect 1 [[VI 2]; [VI 2]; [VI 2]] [Scalars 0; Unique KRow; Next; Next] = true /\
  guard StDirect 1 [[VI 2]; [VI 2]; [VI 2]; [VI 2]] [Scalars 0; Next; Unique KRow; Next; Next; FetchMany (Some 2)] = true /\
  guard StDirect 2 rows3 [FetchOne; Unique KRow; FetchOne; FetchOne] = true /\
  guard (StBuffered 2) 2 (rows3 ++ rows3 ++ [[VI 0; VI 0]])
    [YieldPer 3; Unique KFirst; FetchMany None; Mappings; Columns [1; 0]; Partitions (Some 1) 2; ToRoot;
     IterFor 2; Scalars 1; Unique KRow; FetchMany (Some 2); Freeze; OnlyOne ScalarOne; Close; All] = true.
Proof. exact guard_accepts_neighbours. Qed.
Example c10_ex_closure_depends_on_strategy :
  run_impl StDirect 1 [[VI 1]] [FetchMany (Some 2); OnlyOne First; FetchOne] =
  run_spec 1 [[VI 1]] [FetchMany (Some 2); OnlyOne First; FetchOne] /\
  run_impl (StBuffered 2) 1 [[VI 1]] [FetchMany (Some 2); OnlyOne First; FetchOne] <>
  run_spec 1 [[VI 1]] [FetchMany (Some 2); OnlyOne First; FetchOne].
Proof. exact closure_depends_on_strategy. Qed.
(* buffer growth 5 -> 7 (max_row_buffer 7) and a uniquing fetchmany that needs three cursor round trips *)
Example c10_ex_buffered_run :
  run_impl (StBuffered 7) 1 (map (fun z => [VI z]) [1; 1; 2; 2; 3; 3; 4; 4; 5]%Z)
    [Unique KRow; FetchMany (Some 3); Scalars 0; Next; All] =
  [(OUnit, false); (OItems [IRow [VI 1]; IRow [VI 2]; IRow [VI 3]], false); (OUnit, false);
   (OItem (IScalar (VI 4)), false); (OItems [IScalar (VI 5)], false)]%Z.
Proof. vm_compute; reflexivity. Qed.
(* outside the property: a size-less fetchmany() without yield_per returns the strategy's default chunk *)
Example c10_ex_sizeless_chunk_is_strategy_specific :
  run_impl StDirect 1 [[VI 1]; [VI 2]; [VI 3]] [FetchMany None] = [(OItems [IRow [VI 1]], false)] /\
  run_impl (StBuffered 5) 1 [[VI 1]; [VI 2]; [VI 3]] [FetchMany None] =
    [(OItems [IRow [VI 1]; IRow [VI 2]; IRow [VI 3]], false)] /\
  run_impl StDirect 1 [[VI 1]; [VI 1]; [VI 3]] [Unique KRow; FetchMany None] = [(OUnit, false); (OItems [IRow [VI 1]], false)] /\
  run_impl StDirect 1 [[VI 1]; [VI 2]; [VI 3]] [YieldPer 2; FetchMany None] =
    [(OUnit, false); (OItems [IRow [VI 1]; IRow [VI 2]], false)].
Proof. exact sizeless_chunk_is_strategy_specific. Qed.
