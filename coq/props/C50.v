(* C50 - ordering lists and association proxies behave as their collection types.
   Statements only; the proofs are [exact <lemma>], except two closed examples evaluated here.

   ol_step base roa attached   one OrderingList operation (count_from = base, reorder_on_append = roa;
                               attached = the list is a relationship's collection, i.e. instrumented)
   Good base s                 positions_eq_indices: forall i, pos (nth i l) = base + i, and no entity twice
   reload s                    the members in ORDER BY position (what is read back after a flush)
   pl_step / ps_step / pd_step one operation of _AssociationList / _AssociationSet / _AssociationDict
   to_list / to_dict           the view  map getter intermediaries
   plop_ref / psop_ref / pdop_ref  the same operation on the builtin list / set / dict (C38 reference)
   ol3 roa, show s             the witnesses' list of entities 0, 1, 2 and the (entity, position) pairs of a list;
   px3, pd1                    the witnesses' list proxy [1; 2; 3] and dict proxy {0: 5}  (AssocProxyWitness) *)
From Coq Require Import List ZArith Bool Arith.
Import ListNotations.
From SAV.base Require Import PySlice.
From SAV.orm Require Import CollBase CollList CollSet CollDict OrderingList OrderingListProofs
  AssocProxy AssocProxyProofs AssocProxyWitness.
Open Scope Z_scope.

(* positions_eq_indices after EVERY guarded operation of an attached list: append / insert / remove /
   pop / l[i] = e (any index) / slice assignment (any slice) / del l[i] / del l[sl] / extend / += /
   clear / reorder; for every count_from and both reorder_on_append settings *)
Theorem c50_positions_eq_indices_guarded : forall base roa s o,
  Good base s -> ol_guard roa s o = true -> Good base (snd (ol_step base roa true s o)).
Proof. exact good_step. Qed.
Print Assumptions c50_positions_eq_indices_guarded.

Theorem c50_positions_eq_indices_history_guarded : forall base roa ops,
  ol_guarded base roa true ops ol_empty = true -> Good base (ol_run base roa true ops ol_empty).
Proof. exact (fun base roa ops => positions_eq_indices base roa ops ol_empty (good_empty base)). Qed.
Print Assumptions c50_positions_eq_indices_history_guarded.

(* "persists that order": when positions equal indices, ORDER BY position reads the list back *)
Theorem c50_persisted_order : forall base s, ordered base s -> reload s = items s.
Proof. exact reload_is_list. Qed.
Print Assumptions c50_persisted_order.

(* l[-1] = e (repaired by 60dfe78) is inside the guard *)
Example c50_setitem_negative_index_fixed :
  ol_guard false (ol3 false) (OSetItem (-1) 7) = true /\
  show (snd (ol_step 0 false true (ol3 false) (OSetItem (-1) 7))) = [(0, Some 0); (1, Some 1); (7, Some 2)].
Proof. exact setitem_negative_fixed. Qed.

Theorem c50_reverse_refuted :
  ol_guard false (ol3 false) OReverse = false /\
  show (snd (ol_step 0 false true (ol3 false) OReverse)) = [(2, Some 2); (1, Some 1); (0, Some 0)].
Proof. exact reverse_refuted. Qed.
Print Assumptions c50_reverse_refuted.

Theorem c50_sort_refuted :
  let s := snd (ol_step 0 false true (ol3 false) (OInsert 0 9)) in
  ol_guard false s OSort = false /\
  show (snd (ol_step 0 false true s OSort)) = [(0, Some 1); (1, Some 2); (2, Some 3); (9, Some 0)].
Proof. exact sort_refuted. Qed.
Print Assumptions c50_sort_refuted.

Theorem c50_imul_refuted :
  ol_guard false (ol3 false) (OIMul 2) = false /\
  show (snd (ol_step 0 false true (ol3 false) (OIMul 2))) =
    [(0, Some 0); (1, Some 1); (2, Some 2); (0, Some 0); (1, Some 1); (2, Some 2)].
Proof. exact imul_refuted. Qed.
Print Assumptions c50_imul_refuted.

Theorem c50_append_positioned_refuted :
  let s := snd (ol_step 0 false true (ol3 false) (ORemove 0)) in
  ol_guard false s (OAppend 0) = false /\
  show (snd (ol_step 0 false true s (OAppend 0))) = [(1, Some 0); (2, Some 1); (0, Some 0)].
Proof. exact append_positioned_refuted. Qed.
Print Assumptions c50_append_positioned_refuted.

(* the class's own slice loop indexes `entities` by absolute position (bare instances only; an attached
   list never reaches it - the collections wrapper decomposes the assignment, see the guarded theorem) *)
Theorem c50_bare_setslice_refuted :
  let r := ol_step 0 false false (ol3 false) (OSetSlice (mkslice (Some 1) (Some 3) None) [8; 9]) in
  fst r = Raise IndexError /\ show (snd r) = [(0, Some 0); (9, Some 1); (2, Some 2)] /\
  py_setslice [0; 1; 2] (mkslice (Some 1) (Some 3) None) [8; 9] = Ok [0; 8; 9].
Proof. exact bare_setslice_refuted. Qed.
Print Assumptions c50_bare_setslice_refuted.

(* proxy_is_view, list: every guarded operation is the builtin list's operation on the view
   (result class and contents), and keeps the intermediaries distinct *)
Theorem c50_proxy_list_is_view_guarded : forall s o, wf s -> pl_guard s o = true ->
  wf (snd (pl_step s o)) /\
  (fst (pl_step s o), to_list (snd (pl_step s o))) = plop_ref (to_list s) o.
Proof. exact proxy_list_is_view. Qed.
Print Assumptions c50_proxy_list_is_view_guarded.

(* repaired by 99130b4: slice assignment is inside the guarded theorem for EVERY slice *)
Example c50_proxy_list_setslice_fixed :
  let sl := mkslice (Some 1) (Some 10) None in
  pl_guard px3 (PSetSlice sl [7]) = true /\
  fst (pl_step px3 (PSetSlice sl [7])) = POk /\
  to_list (snd (pl_step px3 (PSetSlice sl [7]))) = [1; 7] /\
  plop_ref (to_list px3) (PSetSlice sl [7]) = (POk, [1; 7]).
Proof. exact proxy_setslice_fixed. Qed.
Example c50_proxy_list_setslice_negative_fixed :
  let sl := mkslice (Some (-2)) None None in
  pl_guard px3 (PSetSlice sl [7]) = true /\
  (fst (pl_step px3 (PSetSlice sl [7])), to_list (snd (pl_step px3 (PSetSlice sl [7])))) = (POk, [1; 7]) /\
  plop_ref (to_list px3) (PSetSlice sl [7]) = (POk, [1; 7]).
Proof. exact proxy_setslice_negative_fixed. Qed.

Theorem c50_proxy_list_imul_negative_refuted :
  pl_guard px3 (PIMul (-1)) = false /\
  to_list (snd (pl_step px3 (PIMul (-1)))) = [1; 2; 3] /\
  plop_ref (to_list px3) (PIMul (-1)) = (POk, []).
Proof. exact proxy_imul_negative_refuted. Qed.
Print Assumptions c50_proxy_list_imul_negative_refuted.

(* dict: every guarded operation (setitem / delitem / clear / pop / popitem / setdefault / update) *)
Theorem c50_proxy_dict_is_view_guarded : forall s o, wf s -> pd_guard s o = true ->
  wf (snd (pd_step s o)) /\
  (fst (pd_step s o), to_dict (snd (pd_step s o))) = pdop_ref (to_dict s) o.
Proof. exact proxy_dict_is_view. Qed.
Print Assumptions c50_proxy_dict_is_view_guarded.

(* repaired by f24ff68: pop(key, default) is inside the guarded theorem *)
Example c50_proxy_dict_pop_default_fixed :
  pd_guard pd1 (DPop 3 (Some 7)) = true /\
  pd_step pd1 (DPop 3 (Some 7)) = (DOk (Some 7), pd1) /\
  pdop_ref (to_dict pd1) (DPop 3 (Some 7)) = (DOk (Some 7), [(0, 5)]).
Proof. exact proxy_dict_pop_default_fixed. Qed.

(* set: add / discard / remove / clear / update / difference_update / |= / -= (partial: the bulk
   intersection and symmetric-difference operations are covered by the check only) *)
Theorem c50_proxy_set_is_view_partial : forall ord s o, wfs s -> ps_covered o = true ->
  wfs (snd (ps_step ord s o)) /\
  (fst (ps_step ord s o), to_list (snd (ps_step ord s o))) = psop_ref ord (to_list s) o.
Proof. exact proxy_set_is_view_partial. Qed.
Print Assumptions c50_proxy_set_is_view_partial.

(* whole-collection assignment obj.proxy = x (_bulk_replace): afterwards the view is the assigned
   collection, for EVERY old contents and every assigned value (list: case PAssign of
   c50_proxy_list_is_view_guarded; dict: as a mapping - new values of shared keys included; set: as a set) *)
Theorem c50_proxy_dict_assign_view : forall s m, wf s ->
  wf (pd_assign s m) /\
  forall k, d_get k (to_dict (pd_assign s m)) = d_get k (d_update [] m).
Proof. exact proxy_dict_assign_view. Qed.
Print Assumptions c50_proxy_dict_assign_view.

Theorem c50_proxy_set_assign_view : forall s vs, wfs s ->
  wfs (ps_assign s vs) /\ forall x, In x (to_list (ps_assign s vs)) <-> In x vs.
Proof. exact proxy_set_assign_view. Qed.
Print Assumptions c50_proxy_set_assign_view.

Example c50_dict_assign_example :
  to_dict (pd_assign (pd_setitem (pd_setitem px_empty 0 5) 1 6) [(1, 9); (2, 7)]) = [(1, 9); (2, 7)].
Proof. vm_compute. reflexivity. Qed.

(* the hypotheses are satisfiable *)
Example c50_guarded_history_example :
  let ops := [OAppend 7; OInsert 0 8; OSetSlice (mkslice (Some 1) (Some 3) None) [20; 21; 22]; ODelItem (-1);
              OSetItem 0 30; OExtend [31; 32]; OPop None; ORemove 20; ODelSlice (mkslice None None (Some 2)); OReorder] in
  ol_guarded 0 false true ops (ol3 false) = true /\
  show (ol_run 0 false true ops (ol3 false)) = [(21, Some 0); (2, Some 1)].
Proof. exact ol_guarded_example. Qed.
Example c50_wf_example : wf px3 /\ pl_guard px3 (PSetSlice (mkslice (Some 1) (Some 2) None) [7; 8]) = true.
Proof. split; [exact wf_px3|reflexivity]. Qed.
