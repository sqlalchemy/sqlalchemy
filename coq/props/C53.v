(* C53 - horizontal sharding routes reads and writes per the shard choosers.
   Statements only; every proof is [exact <lemma>], where a lemma that orm/ShardThm.v proves for every state
   satisfying the invariant [Inv] is taken at a reachable state ([reachable_inv]); the lemma behind
   c53_flush_deletes_exactly_the_deleted_identities holds of every state.  Model: coq/orm/Shard.v.
   All theorems hold for ALL chooser functions [sc] (shard_chooser), [ic] (identity_chooser),
   [ec] (execute_chooser), every initial content [d0] of the shard databases with unique primary keys per
   shard, and every program (list of session operations) - [reachable sc ic ec d0 st] says that [st] is
   the state after some program that raised no error. *)
From Coq Require Import List ZArith NArith Bool Permutation.
Import ListNotations.
From SAV.orm Require Import Shard ShardDb ShardInv ShardFlush ShardLoad ShardOps ShardDelete ShardThm ShardSticky.
Open Scope Z_scope.

(* clause 1: every flushed object is written to the shard its shard chooser selects *)

(* each pending object is INSERTed by the flush into the shard chosen for it - its preset identity token if
   it has one, otherwise shard_chooser applied to its attribute values at flush time -, becomes persistent
   with that shard as identity token, and its row is then stored in that shard *)
Theorem c53_write_goes_to_chosen_shard :
  forall (sc : row -> N) (ic : Z -> list N) (ec : qry -> list N) (d0 : dbs), wf_db d0 ->
  forall st st', reachable sc ic ec d0 st -> flush sc st = Ok st' ->
  forall o i, nth_error (insts st) o = Some i -> i_life i = Pending ->
  let s := match i_tok i with Some t => t | None => sc (i_cur i) end in
  exists i', nth_error (insts st') o = Some i' /\ i_life i' = Persistent /\ i_tok i' = Some s /\
             i_cur i' = i_cur i /\ In (i_cur i) (db st' s).
Proof. exact write_goes_to_chosen_shard. Qed.
Print Assumptions c53_write_goes_to_chosen_shard.

(* every statement written by any operation is routed: an INSERT goes to the preset token /
   shard_chooser(row) of a pending object with exactly these attribute values; an UPDATE or DELETE goes to the
   identity token of a persistent object with that primary key *)
Theorem c53_writes_are_routed :
  forall (sc : row -> N) (ic : Z -> list N) (ec : qry -> list N) (d0 : dbs), wf_db d0 ->
  forall st o st' r, reachable sc ic ec d0 st -> step sc ic ec st o = Ok (st', r) ->
  exists delta, wlog st' = wlog st ++ delta /\ Forall (routed sc (insts st)) delta.
Proof.
  exact (fun sc ic ec d0 Hwf st o st' r HR =>
           writes_are_routed sc ic ec st o st' r (reachable_inv sc ic ec d0 st Hwf HR)).
Qed.
Print Assumptions c53_writes_are_routed.

(* there is no other write: the data the session sees is the replay of the logged statements on the
   initial data *)
Theorem c53_db_is_replay_of_log :
  forall (sc : row -> N) (ic : Z -> list N) (ec : qry -> list N) (d0 : dbs), wf_db d0 ->
  forall st, reachable sc ic ec d0 st -> apply_writes (wlog st) d0 = Ok (db st).
Proof. exact (fun sc ic ec d0 Hwf st HR => proj2 (reachable_good sc ic ec d0 st Hwf HR)). Qed.
Print Assumptions c53_db_is_replay_of_log.

(* the last flushed / loaded row of every persistent object is stored in the shard named by its token *)
Theorem c53_persistent_row_in_token_shard :
  forall (sc : row -> N) (ic : Z -> list N) (ec : qry -> list N) (d0 : dbs), wf_db d0 ->
  forall st i, reachable sc ic ec d0 st -> In i (insts st) -> i_life i = Persistent ->
  exists t, i_tok i = Some t /\ In (i_old i) (db st t) /\ r_pk (i_old i) = r_pk (i_cur i).
Proof. exact (fun sc ic ec d0 Hwf st i HR => inv_row _ _ (reachable_inv sc ic ec d0 st Hwf HR) i). Qed.
Print Assumptions c53_persistent_row_in_token_shard.

(* the choice is made once: token and primary key of a persistent object never change afterwards
   (so later UPDATEs and the DELETE go to the shard of the first flush / of the load, whatever is assigned
   to the attributes the shard chooser looks at) *)
Theorem c53_token_is_sticky :
  forall (sc : row -> N) (ic : Z -> list N) (ec : qry -> list N) (d0 : dbs) st ops st' o i,
  wf_db d0 -> reachable sc ic ec d0 st -> run sc ic ec st ops = Ok st' ->
  nth_error (insts st) o = Some i -> i_life i <> Pending ->
  exists i', nth_error (insts st') o = Some i' /\ i_tok i' = i_tok i /\ r_pk (i_cur i') = r_pk (i_cur i).
Proof.
  exact (fun sc ic ec d0 st ops st' o i Hwf HR =>
           token_is_sticky sc ic ec st ops st' o i (reachable_inv sc ic ec d0 st Hwf HR)).
Qed.
Print Assumptions c53_token_is_sticky.

(* clause 2: queries return the union of the rows of the shards the query chooser selects *)

(* after the autoflush the SELECT is emitted on exactly the shards of [execute_chooser q] (or the one
   shard given by set_shard / bind argument / set_shard_id), and the objects returned are, in order, one
   per matching row of each of these shards (rows of one shard in primary-key order), each carrying the
   shard it was read from as identity token and the attribute values of that row.  The legacy Query API
   returns the same objects with repetitions removed. *)
Theorem c53_query_is_union_of_chosen_shards :
  forall (sc : row -> N) (ic : Z -> list N) (ec : qry -> list N) (d0 : dbs), wf_db d0 ->
  forall st q tgt legacy st' r,
  reachable sc ic ec d0 st -> step sc ic ec st (OQuery q tgt legacy) = Ok (st', r) ->
  exists os st1,
    r = ROids (if legacy then dedup os else os) /\
    flush sc st = Ok st1 /\ db st' = db st1 /\
    rlog st' = rlog st ++ shards_for ec q tgt /\
    map (view (insts st')) os =
      map Some (flat_map (fun s => map (pair s) (sql_select q (db st' s))) (shards_for ec q tgt)).
Proof. exact query_is_union_of_chosen_shards. Qed.
Print Assumptions c53_query_is_union_of_chosen_shards.

(* as a multiset this is the union of the matching rows of the chosen shards (the first flat_map, here and
   above, is [ShardLoad.expected] unfolded) *)
Theorem c53_query_union_as_multiset : forall q (ss : list N) (d : dbs),
  Permutation (flat_map (fun s => map (pair s) (sql_select q (d s))) ss)
              (flat_map (fun s => map (pair s) (filter (qmatch q) (d s))) ss).
Proof. exact expected_perm. Qed.
Print Assumptions c53_query_union_as_multiset.

Theorem c53_legacy_query_same_objects : forall os,
  NoDup (dedup os) /\ forall o, In o (dedup os) <-> In o os.
Proof. exact (fun os => conj (NoDup_dedup os) (in_dedup os)). Qed.
Print Assumptions c53_legacy_query_same_objects.

(* clause 3: same primary key in different shards = different objects *)

(* identity key = (class, pk, token): two different objects never agree on both pk and token *)
Theorem c53_identity_keys_distinct :
  forall (sc : row -> N) (ic : Z -> list N) (ec : qry -> list N) (d0 : dbs), wf_db d0 ->
  forall st o1 o2 i1 i2 t1 t2,
  reachable sc ic ec d0 st -> nth_error (insts st) o1 = Some i1 -> nth_error (insts st) o2 = Some i2 ->
  o1 <> o2 -> i_life i1 = Persistent -> i_life i2 = Persistent -> i_tok i1 = Some t1 -> i_tok i2 = Some t2 ->
  (r_pk (i_cur i1), t1) <> (r_pk (i_cur i2), t2).
Proof.
  exact (fun sc ic ec d0 Hwf st o1 o2 i1 i2 t1 t2 HR =>
           identity_keys_distinct st o1 o2 i1 i2 t1 t2 (reachable_inv sc ic ec d0 st Hwf HR)).
Qed.
Print Assumptions c53_identity_keys_distinct.

(* two matching rows in two different chosen shards are returned as two different objects, each
   showing its own row - in particular when both rows have the same primary key *)
Theorem c53_same_pk_different_shards_distinct :
  forall (sc : row -> N) (ic : Z -> list N) (ec : qry -> list N) (d0 : dbs), wf_db d0 ->
  forall st q tgt st' os s1 s2 r1 r2,
  reachable sc ic ec d0 st -> do_query sc ec st q tgt = Ok (st', os) ->
  In s1 (shards_for ec q tgt) -> In s2 (shards_for ec q tgt) -> s1 <> s2 ->
  In r1 (db st' s1) -> qmatch q r1 = true -> In r2 (db st' s2) -> qmatch q r2 = true ->
  exists o1 o2, In o1 os /\ In o2 os /\ o1 <> o2 /\
                view (insts st') o1 = Some (s1, r1) /\ view (insts st') o2 = Some (s2, r2).
Proof. exact same_pk_different_shards_distinct. Qed.
Print Assumptions c53_same_pk_different_shards_distinct.

(* get with an identity token consults only that shard: the identity map under (pk, token), then at most
   one SELECT, on that shard; the answer belongs to that shard, and None means the shard has no such row *)
Theorem c53_get_with_token_hits_only_that_shard :
  forall (sc : row -> N) (ic : Z -> list N) (ec : qry -> list N) (d0 : dbs), wf_db d0 ->
  forall st k t st' res,
  reachable sc ic ec d0 st -> do_get sc ic ec st k (Some t) = Ok (st', res) ->
  (rlog st' = rlog st \/ rlog st' = rlog st ++ [t]) /\
  match res with
  | Some o => exists i, nth_error (insts st') o = Some i /\ i_tok i = Some t /\ r_pk (i_cur i) = k /\
                        has_pk k (db st' t) = true
  | None => has_pk k (db st' t) = false
  end.
Proof.
  exact (fun sc ic ec d0 Hwf st k t st' res HR =>
           get_with_token_hits_only_that_shard sc ic ec st k t st' res (reachable_inv sc ic ec d0 st Hwf HR)).
Qed.
Print Assumptions c53_get_with_token_hits_only_that_shard.

(* several objects deleted in ONE flush, for ANY assignment of equal primary keys to different tokens:
   exactly the rows of the deleted identities (pk, token) disappear, each from the shard named by its
   token (a row of shard s survives iff no deleted object has token s and that pk), and one DELETE per
   deleted object is emitted, on the shard of its token *)
Theorem c53_flush_deletes_exactly_the_deleted_identities :
  forall (sc : row -> N) (ic : Z -> list N) (ec : qry -> list N) (d0 : dbs), wf_db d0 ->
  forall st os st', reachable sc ic ec d0 st -> do_delete sc st os = Ok st' ->
  exists st1, flush sc st = Ok st1 /\
    wlog st' = wlog st1 ++ flat_map (del_of st1) (dedup os) /\
    (forall o, In o os -> exists i, nth_error (insts st) o = Some i /\ i_life i = Persistent /\
                          del_of st1 o = match i_tok i with Some t => [WDel t (r_pk (i_cur i))] | None => [] end) /\
    (forall s x, In x (db st' s) <->
                 In x (db st1 s) /\ ~ exists o, In o os /\ is_identity st1 o s (r_pk x)).
Proof. exact (fun sc ic ec d0 _ st os st' _ => flush_deletes_exactly_the_deleted_identities sc st os st'). Qed.
Print Assumptions c53_flush_deletes_exactly_the_deleted_identities.

(* merge of a detached object with identity key (pk, t) looks its target up under (pk, t) only: identity
   map, then at most one SELECT, on shard t.  The returned object shows the given values and carries
   token t (shard t has that pk), or it is a NEW pending object and shard t has no such row; every other
   object - in particular the object with the same pk of another shard - is left alone *)
Theorem c53_merge_targets_pk_and_token :
  forall (sc : row -> N) (ic : Z -> list N) (ec : qry -> list N) (d0 : dbs), wf_db d0 ->
  forall st r t st' ro, reachable sc ic ec d0 st -> do_merge sc ic ec st r t = Ok (st', ro) ->
  exists st1 o i, flush sc st = Ok st1 /\ ro = Some o /\ db st' = db st1 /\
    (rlog st' = rlog st \/ rlog st' = rlog st ++ [t]) /\
    nth_error (insts st') o = Some i /\ i_cur i = r /\
    ((i_tok i = Some t /\ has_pk (r_pk r) (db st' t) = true) \/
     (i_life i = Pending /\ i_tok i = None /\ has_pk (r_pk r) (db st' t) = false /\ (length (insts st1) <= o)%nat)) /\
    (forall o' i', o' <> o -> nth_error (insts st1) o' = Some i' -> nth_error (insts st') o' = Some i').
Proof.
  exact (fun sc ic ec d0 Hwf st r t st' ro HR =>
           merge_targets_pk_and_token sc ic ec st r t st' ro (reachable_inv sc ic ec d0 st Hwf HR)).
Qed.
Print Assumptions c53_merge_targets_pk_and_token.

(* non-vacuity: attribute-based chooser, the same primary key 1 in both shards *)
Definition ex_sc (r : row) : N := if r_grp r =? 0 then 0%N else 1%N.
Definition ex_ic (k : Z) : list N := [0; 1]%N.
Definition ex_ec (q : qry) : list N := [1; 0]%N.
Definition ex_d0 : dbs := fun s => if N.eqb s 0 then [mkRow 1 0 5] else if N.eqb s 1 then [mkRow 1 1 6] else [].

Example c53_ex_wf : wf_db ex_d0.
Proof.
  intros s. unfold ex_d0. destruct (N.eqb s 0); [|destruct (N.eqb s 1)]; simpl; repeat constructor; simpl; tauto.
Qed.

(* a program that runs without error: the new object (number 0) goes to shard 1 (grp = 7); the query reads
   shard 1 then shard 0 and returns the rows with primary key 1 as two objects (numbers 1 and 2);
   get(1, token 0) finds number 2 in the identity map; assigning grp = 0 to object 0 (for which the chooser
   would now say shard 0) still UPDATEs shard 1 *)
Example c53_ex_run :
  exists st, run ex_sc ex_ic ex_ec (init ex_d0)
               [OAdd (mkRow 2 7 9) None; OQuery QAll None false; OGet 1 (Some 0%N); OSet 0 0 3; OCommit] = Ok st /\
             map (view (insts st)) [0; 1; 2; 3]%nat =
               [Some (1%N, mkRow 2 0 3); Some (1%N, mkRow 1 1 6); Some (0%N, mkRow 1 0 5); None] /\
             wlog st = [WIns None 1%N (mkRow 2 7 9); WUpd 1%N (mkRow 2 0 3)] /\
             rlog st = [1; 0]%N /\ db st 1%N = [mkRow 1 1 6; mkRow 2 0 3] /\ db st 0%N = [mkRow 1 0 5].
Proof. eexists. split; [vm_compute; reflexivity|]. vm_compute. repeat split. Qed.

(* the objects of both shards with primary key 1 deleted in one flush: both rows are gone; then a detached
   object with identity (1, shard 1) is merged: no such row -> a new pending object *)
Example c53_ex_delete_merge :
  exists st, run ex_sc ex_ic ex_ec (init ex_d0)
               [OQuery QAll None false; ODelete [0; 1]%nat; OMerge (mkRow 1 1 8) 1%N] = Ok st /\
             wlog st = [WDel 1%N 1; WDel 0%N 1] /\ db st 0%N = [] /\ db st 1%N = [] /\
             map (fun i => i_life i) (insts st) = [Gone; Gone; Pending].
Proof. eexists. split; [vm_compute; reflexivity|]. vm_compute. repeat split. Qed.
