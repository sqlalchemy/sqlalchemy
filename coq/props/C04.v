(* C04 - bound parameters reach the right placeholders in every paramstyle.
   Statements only; every proof is [exact <lemma>] or a computation on a concrete witness.

   run tab lit empty proc ps inp = the (statement tokens, parameters) pair handed to cursor.execute under paramstyle ps
   inline ps ts fp            = what a PEP-249 driver of that paramstyle makes of it (each placeholder replaced
                                by the parameter it designates: next one / k-th / the one called so)
   inline_spec lit empty proc inp = the statement with every bind replaced by the value given for ITS name,
                                converted once by ITS bind processor (proc p : the processor of a typed bind)
   guard tab inp              = escaped names of distinct binds are distinct, names created for expanding binds
                                are new, values have the bind's shape *)
From Coq Require Import List NArith ZArith Bool.
Import ListNotations.
From SAV.sql Require Import Params ParamsDict ParamsEscape ParamsGuard ParamsFinal ParamsPos ParamsNum ParamsRun ParamsMain.

(* for every token list, bind order, classification, parameter dictionary (lists of any length, also empty,
   for expanding binds) and each of the six paramstyles: the driver substitutes, for every placeholder, the value
   of the bind that placeholder stands for *)
Theorem c04_all_styles_guarded : forall tab lit empty proc ps inp, guard tab inp = true ->
  exists ts fp sp, run tab lit empty proc ps inp = Ok (ts, fp) /\
                   inline_spec lit empty proc inp = Some sp /\ inline ps ts fp = Some sp.
Proof. exact all_styles. Qed.
Print Assumptions c04_all_styles_guarded.

(* qmark / format: the sequence handed to the driver is, in text order, the value of each bind; an expanding
   bind contributes its elements in order, a literal_execute bind nothing (expansion preserves order) *)
Theorem c04_expand_preserves_order : forall tab lit empty proc ps inp, guard tab inp = true ->
  positional ps = true -> numeric ps = false ->
  exists ts, run tab lit empty proc ps inp = Ok (ts, FPos (flat_map (tok_vals proc inp) (i_toks inp))).
Proof. exact positional_sequence. Qed.
Print Assumptions c04_expand_preserves_order.

(* _process_positional: every placeholder becomes positional and positiontup is the text order of the binds
   (original, unescaped names) *)
Theorem c04_positiontup_in_text_order : forall tab ps inp, guard tab inp = true ->
  process_positional (ebn_of tab (i_order inp)) (carrier tab ps (i_toks inp)) =
  Ok (map (ctok tab ps (fun _ => OPos)) (i_toks inp), names_of (i_toks inp)).
Proof. exact positiontup_text_order. Qed.
Print Assumptions c04_positiontup_in_text_order.

(* _process_numeric: every bind exactly once in positiontup; the plain binds get the numbers 1..n in that
   order (a bijection onto a contiguous range), next_numeric_pos = n + 1 *)
Theorem c04_numeric_is_permutation : forall tab ps inp, guard tab inp = true ->
  exists ptup,
    let plain := filter (fun n => is_plain (kind_of inp n)) ptup in
    process_numeric inp (ebn_of tab (i_order inp)) (carrier tab ps (i_toks inp)) =
      Ok (map (ctok tab ps (fun n => ONum (1 + N.of_nat (index_of n plain)))) (i_toks inp),
          ptup, (1 + N.of_nat (length plain))%N) /\
    NoDup ptup /\ (forall k, In k ptup <-> In k (i_order inp)).
Proof. exact numeric_is_permutation. Qed.
Print Assumptions c04_numeric_is_permutation.

(* reverse_escape o escape = id on the binds of the statement, and the source's assertion
   len(escaped_bind_names) == len(reverse_escape) holds *)
Theorem c04_reverse_escape_after_escape : forall tab inp, guard tab inp = true ->
  forall n, In n (i_order inp) ->
  dget_or_key (reverse_dict (ebn_of tab (i_order inp))) (dget_or_key (ebn_of tab (i_order inp)) n) = n.
Proof. exact reverse_escape_id. Qed.
Print Assumptions c04_reverse_escape_after_escape.

Theorem c04_escape_assertion_holds : forall tab inp, guard tab inp = true ->
  length (reverse_dict (ebn_of tab (i_order inp))) = length (ebn_of tab (i_order inp)).
Proof. exact escape_assertion_holds. Qed.
Print Assumptions c04_escape_assertion_holds.

(* for every escape table none of whose replacement characters is itself escaped (checked on the live table on
   every run): an escaped name contains no character that needs escaping *)
Theorem c04_escaped_name_needs_no_escape : forall tab, table_closed tab = true ->
  forall n, needs_esc tab (esc tab n) = false.
Proof. exact needs_esc_esc. Qed.
Print Assumptions c04_escaped_name_needs_no_escape.

(* ... and such a table can never be injective on names: two different bind names with the same escaped name *)
Theorem c04_escape_not_injective_refuted : forall tab, table_closed tab = true -> table_nontrivial tab = true ->
  exists a b, a <> b /\ esc tab a = esc tab b.
Proof. exact esc_not_injective. Qed.
Print Assumptions c04_escape_not_injective_refuted.

(* binds "a.b" = 1 and "a b" = 2: both are rendered :a_b; the named styles silently deliver 2 to both
   placeholders, the positional styles fail the assertion of _process_positional / _process_numeric *)
Theorem c04_escape_collision_refuted :
  guard sa_tab w_esc = false /\
  inline_spec lit_dec empty0 run_proc w_esc = Some [Val 1; Ch 32; Ch 65; Ch 78; Ch 68; Ch 32; Val 2] /\
  map (fun ps => delivered ps w_esc) [Named; Pyformat] =
    [Ok (Some [Val 2; Ch 32; Ch 65; Ch 78; Ch 68; Ch 32; Val 2]); Ok (Some [Val 2; Ch 32; Ch 65; Ch 78; Ch 68; Ch 32; Val 2])] /\
  map (fun ps => delivered ps w_esc) [Qmark; Format; Numeric; NumericDollar] =
    [Raise AssertionError; Raise AssertionError; Raise AssertionError; Raise AssertionError].
Proof. vm_compute. repeat split; reflexivity. Qed.
Print Assumptions c04_escape_collision_refuted.

(* binds "a.b" = 1 and "a_b" = 2: the assertion of _process_positional passes and qmark / format silently
   deliver 1 to both placeholders (positiontup = [a.b, a.b]) *)
Theorem c04_escape_collision_positional_refuted :
  guard sa_tab w_esc2 = false /\
  inline_spec lit_dec empty0 run_proc w_esc2 = Some [Val 1; Ch 32; Ch 65; Ch 78; Ch 68; Ch 32; Val 2] /\
  map (fun ps => delivered ps w_esc2) [Qmark; Format] =
    [Ok (Some [Val 1; Ch 32; Ch 65; Ch 78; Ch 68; Ch 32; Val 1]); Ok (Some [Val 1; Ch 32; Ch 65; Ch 78; Ch 68; Ch 32; Val 1])].
Proof. vm_compute. repeat split; reflexivity. Qed.
Print Assumptions c04_escape_collision_positional_refuted.

(* x IN (expanding "x" = [1, 2]) AND ... = bind "x_1" = 7: the expansion creates the names x_1, x_2 and
   overwrites the value of the other bind: every paramstyle delivers 1 where 7 was meant *)
Theorem c04_expanded_name_collision_refuted :
  guard sa_tab w_exp = false /\
  exists pre, inline_spec lit_dec empty0 run_proc w_exp = Some (pre ++ [Val 7]) /\
              forall ps, delivered ps w_exp = Ok (Some (pre ++ [Val 1])).
Proof.
  split; [vm_compute; reflexivity|].
  exists [Ch 32; Ch 73; Ch 78; Ch 32; Ch 40; Val 1; Ch 44; Ch 32; Val 2; Ch 41; Ch 32; Ch 65; Ch 78; Ch 68; Ch 32].
  split; [vm_compute; reflexivity|]. intros []; vm_compute; reflexivity.
Qed.
Print Assumptions c04_expanded_name_collision_refuted.

(* a literal_execute bind called "a b" = 5 (the parameter is popped by its un-escaped name, /repo commit 47bdcc8): inside the guard, inlined under every paramstyle *)
Example c04_ex_literal_execute_escaped_name :
  guard sa_tab w_lit = true /\
  forall ps, delivered ps w_lit = Ok (inline_spec lit_dec empty0 run_proc w_lit).
Proof. split; [vm_compute; reflexivity|]. intros []; vm_compute; reflexivity. Qed.

(* two bind objects share the name "p" and only the second is literal_execute: the first occurrence
   keeps its placeholder but its value is removed from the parameters (numeric even renders an empty string),
   so no driver can bind the statement *)
Theorem c04_mixed_literal_execute_refuted :
  guard sa_tab w_mix = false /\
  inline_spec lit_dec empty0 run_proc w_mix = Some [Val 3; Ch 32; Ch 65; Ch 78; Ch 68; Ch 32; Ch 51] /\
  (forall ps, numeric ps = false -> delivered ps w_mix = Ok None) /\
  (forall ps, numeric ps = true -> delivered ps w_mix = Ok (Some [Ch 32; Ch 65; Ch 78; Ch 68; Ch 32; Ch 51])).
Proof.
  split; [vm_compute; reflexivity|]. split; [vm_compute; reflexivity|].
  split; intros [] H; try discriminate H; vm_compute; reflexivity.
Qed.
Print Assumptions c04_mixed_literal_execute_refuted.

(* the hypotheses are satisfiable: a statement with an escaped name used twice (typed: processor 1 sends
   v to 10 v + 1), two expanding binds (one empty, the other typed with processor 2), a literal_execute bind, a
   percent sign and the insertmanyvalues ordering of numeric *)
Example c04_ex_guard : guard sa_tab ex_good = true.
Proof. vm_compute; reflexivity. Qed.
Example c04_ex_numeric :
  match run sa_tab lit_dec empty0 run_proc Numeric ex_good with
  | Ok (ts, fp) => fp = FPos [PS 9; PS 41; PS 12; PS 22; PS 32] /\
                   filter (fun t => match t with ONum _ => true | _ => false end) ts =
                   [ONum 2; ONum 3; ONum 4; ONum 5; ONum 1; ONum 2]
  | Raise _ => False
  end.
Proof. vm_compute. split; reflexivity. Qed.
Example c04_ex_qmark :
  match run sa_tab lit_dec empty0 run_proc Qmark ex_good with
  | Ok (ts, fp) => fp = FPos [PS 41; PS 12; PS 22; PS 32; PS 9; PS 41]
  | Raise _ => False
  end.
Proof. vm_compute. reflexivity. Qed.
Example c04_ex_table : table_closed sa_tab = true /\ table_nontrivial sa_tab = true.
Proof. vm_compute. split; reflexivity. Qed.
