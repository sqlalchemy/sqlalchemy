(* C09 - column types round-trip values; bind/result processing applied exactly once.
   The theorems are proved in sql/Types*Proofs.v and only stated here; the examples at the end are concrete
   values checked by evaluation. *)
From Coq Require Import List NArith ZArith Bool Lia.
Import ListNotations.
From SAV.sql Require Import Types TypesStrProofs TypesDateProofs TypesProofs TypesOrdProofs.

(* ---------- SQLite DATETIME / DATE / TIME: storage format + result processor ---------- *)
(* the text the bind processor renders for a valid datetime (fmt_datetime; years 1..9999, leap days, all 10^6
   microsecond values) is read back to the same value by the parser of the default result processor
   (fromisoformat) ... *)
Theorem c09_datetime_roundtrip : forall d t, valid_date d = true -> valid_time t = true ->
  iso_datetime (fmt_datetime false d t) = POk (d, t).
Proof. exact (iso_datetime_roundtrip false). Qed.
Print Assumptions c09_datetime_roundtrip.

(* ... and with a custom regexp (str_to_datetime_processor_factory) *)
Theorem c09_datetime_roundtrip_regexp : forall d t, valid_date d = true -> valid_time t = true ->
  regexp_datetime (Some (fmt_datetime false d t)) = Ok (Some (d, t)).
Proof. exact (regexp_datetime_roundtrip false). Qed.
Print Assumptions c09_datetime_roundtrip_regexp.

(* truncate_microseconds=True: exactly the microseconds are dropped (the documented precision) *)
Theorem c09_datetime_roundtrip_truncate : forall d t, valid_date d = true -> valid_time t = true ->
  iso_datetime (fmt_datetime true d t) = POk (d, drop_us t) /\
  regexp_datetime (Some (fmt_datetime true d t)) = Ok (Some (d, drop_us t)).
Proof. intros d t Hd Ht. exact (conj (iso_datetime_roundtrip true d t Hd Ht) (regexp_datetime_roundtrip true d t Hd Ht)). Qed.
Print Assumptions c09_datetime_roundtrip_truncate.

Theorem c09_date_roundtrip : forall d, valid_date d = true ->
  iso_date (fmt_date d) = POk d /\ regexp_date (Some (fmt_date d)) = Ok (Some d).
Proof. intros d H. exact (conj (iso_date_roundtrip d H) (regexp_date_roundtrip d H)). Qed.
Print Assumptions c09_date_roundtrip.

Theorem c09_time_roundtrip : forall t, valid_time t = true ->
  iso_time (fmt_time false t) = POk t /\ regexp_time (Some (fmt_time false t)) = Ok (Some t) /\
  iso_time (fmt_time true t) = POk (drop_us t).
Proof.
  intros t H. exact (conj (iso_time_roundtrip false t H) (conj (regexp_time_roundtrip false t H) (iso_time_roundtrip true t H))).
Qed.
Print Assumptions c09_time_roundtrip.

(* ---------- Interval stored as epoch-relative DATETIME ---------- *)
(* CPython's _ord2ymd inverts _ymd2ord on all 3652059 ordinals of the date range (arithmetic on the position
   of the year in its 400-year cycle; the choice of the month is checked for each day of a year) *)
Theorem c09_ordinal_law : forall n, (1 <= n <= max_ord)%Z ->
  valid_date (ord2ymd n) = true /\ ymd2ord (ord2ymd n) = n.
Proof. exact ordinal_law_holds. Qed.
Print Assumptions c09_ordinal_law.

(* the law at the two years around the epoch and at both ends of the range: instances of the theorem above *)
Example c09_ex_ordinal_law_samples :
  forallb (fun n => valid_date (ord2ymd n) && (ymd2ord (ord2ymd n) =? n)%Z)
          ([1; 2; 365; 366; 1461; 36524; 36525; 146097; 146098; max_ord - 1; max_ord]
           ++ map (fun i => (epoch_ord - 366 + Z.of_nat i)%Z) (seq 0 732))%Z = true.
Proof.
  apply forallb_forall. intros n Hn.
  assert (Hr : (1 <= n <= max_ord)%Z).
  { unfold max_ord, epoch_ord in *. apply in_app_or in Hn as [Hn|Hn].
    - cbn [In] in Hn. lia.
    - apply in_map_iff in Hn as (i & <- & Hi). apply in_seq in Hi. lia. }
  destruct (ordinal_law_holds n Hr) as [-> ->]. apply Z.eqb_refl.
Qed.

(* every timedelta - negative ones included - whose epoch + td is a datetime survives the round trip *)
Theorem c09_interval_roundtrip : forall td,
  (1 <= epoch_ord + td / us_per_day <= max_ord)%Z ->
  exists w, bind_interval (Some td) = Ok (Some w) /\ result_interval (Some w) = POk (Some td).
Proof. exact interval_roundtrip. Qed.
Print Assumptions c09_interval_roundtrip.

Theorem c09_interval_out_of_range_raises : forall td,
  ~ (1 <= epoch_ord + td / us_per_day <= max_ord)%Z -> bind_interval (Some td) = Raise OverflowError.
Proof. exact interval_out_of_range. Qed.
Print Assumptions c09_interval_out_of_range_raises.

(* ---------- Boolean, Uuid, Enum, Decimal ---------- *)
Theorem c09_boolean_roundtrip : forall b : bool,
  exists w, bind_boolean (Some (if b then BTrue else BFalse)) = Ok (Some w) /\ int_to_boolean (Some w) = Some b.
Proof. exact boolean_roundtrip. Qed.
Print Assumptions c09_boolean_roundtrip.

Theorem c09_uuid_roundtrip : forall u, (u < 2 ^ 128)%N -> result_uuid (bind_uuid (Some u)) = Ok (Some u).
Proof. exact uuid_roundtrip. Qed.
Print Assumptions c09_uuid_roundtrip.

(* non-native Enum over an enum class (values_callable included): guarded by pairwise distinct db values *)
Theorem c09_enum_roundtrip_guarded : forall t o,
  NoDup (e_values t) -> length (e_values t) = length (e_objects t) ->
  In (EObj o) (e_objects t) ->
  exists v, bind_enum t (Some (EObj o)) = Ok (Some v) /\ result_enum t (Some v) = Ok (Some (EObj o)).
Proof. exact enum_roundtrip_members. Qed.
Print Assumptions c09_enum_roundtrip_guarded.

(* a values_callable that gives two members the same db value loses one of them (no error is raised) *)
Theorem c09_enum_roundtrip_duplicate_values_refuted :
  exists t o v, In (EObj o) (e_objects t) /\ length (e_values t) = length (e_objects t) /\
    bind_enum t (Some (EObj o)) = Ok (Some v) /\ result_enum t (Some v) <> Ok (Some (EObj o)).
Proof. exact enum_roundtrip_duplicate_values_refuted. Qed.
Print Assumptions c09_enum_roundtrip_duplicate_values_refuted.

Theorem c09_enum_roundtrip_strings : forall vals vs s, NoDup vals -> In s vals ->
  let t := {| e_values := vals; e_objects := map EStr vals; e_validate_strings := vs |} in
  bind_enum t (Some (EStr s)) = Ok (Some s) /\ result_enum t (Some s) = Ok (Some (EStr s)).
Proof. exact enum_roundtrip_strings. Qed.
Print Assumptions c09_enum_roundtrip_strings.

(* a Decimal with at most [scale] places comes back numerically equal, written with exactly [scale] places *)
Theorem c09_decimal_roundtrip_scale : forall s v, (d_e v <= s)%N ->
  dec_eqb (to_decimal s v) v = true /\ d_e (to_decimal s v) = s.
Proof. intros s v H. exact (conj (decimal_roundtrip_scale s v H) (to_decimal_scale s v)). Qed.
Print Assumptions c09_decimal_roundtrip_scale.

Theorem c09_numeric_processors_non_native : forall t,
  num_bind_proc false t = ToFloat /\
  num_result_proc false t = if n_asdecimal t then ToDecimal (effective_scale t) else NoProc.
Proof. exact numeric_processors_non_native. Qed.
Print Assumptions c09_numeric_processors_non_native.

(* ---------- JSON / PickleType (serializers are hypotheses) ---------- *)
Theorem c09_json_roundtrip : forall (J W : Type) (dumps : J -> W) (loads : W -> J) (jnone : J),
  (forall x, loads (dumps x) = x) -> forall nan v,
  result_json loads (bind_json dumps jnone nan v) =
  match v with
  | JDoc d => Some d | JSqlNull => None | JJsonNull => Some jnone | JPyNone => if nan then None else Some jnone
  end.
Proof. exact @json_roundtrip. Qed.
Print Assumptions c09_json_roundtrip.

Theorem c09_pickle_roundtrip : forall (J W : Type) (dumps : J -> W) (loads : W -> J),
  (forall x, loads (dumps x) = x) -> forall v, result_pickle loads (bind_pickle dumps v) = v.
Proof. exact @pickle_roundtrip. Qed.
Print Assumptions c09_pickle_roundtrip.

(* ---------- TypeDecorator processing is applied exactly once ---------- *)
(* for every nesting of labels / subqueries / CTEs / unions / scalar subqueries / RETURNING / ORM load around a
   column of a decorated type (decorators nested to any depth, pairwise distinct), the result column's
   processor contains process_result_value of each decorator exactly once *)
Theorem c09_decorator_exactly_once : forall ws t id, NoDup (dec_ids t) -> In id (res_ids t) ->
  count_result id (column_processor (nest ws (CCol t))) = 1%nat.
Proof. exact decorator_exactly_once. Qed.
Print Assumptions c09_decorator_exactly_once.

Theorem c09_decorator_exactly_once_coerced : forall ws t e id, NoDup (dec_ids t) -> In id (res_ids t) ->
  count_result id (column_processor (nest ws (CCoerce t e))) = 1%nat.
Proof. exact decorator_exactly_once_coerced. Qed.
Print Assumptions c09_decorator_exactly_once_coerced.

Theorem c09_decorator_not_applied_when_absent : forall ws t id, ~ In id (dec_ids t) ->
  count_result id (column_processor (nest ws (CCol t))) = 0%nat.
Proof. exact decorator_not_applied_when_absent. Qed.
Print Assumptions c09_decorator_not_applied_when_absent.

Theorem c09_bind_param_exactly_once : forall t id, NoDup (dec_ids t) -> In id (bind_ids t) ->
  exists p, bind_proc t = Some p /\ count_bind id p = 1%nat.
Proof. exact bind_step_once. Qed.
Print Assumptions c09_bind_param_exactly_once.

Example c09_ex_extremes :
  valid_date {| dy := 9999; dm := 12; dd := 31 |} = true /\ valid_time {| th := 23; tmi := 59; ts := 59; tus := 999999 |} = true /\
  fmt_datetime false {| dy := 1; dm := 1; dd := 1 |} {| th := 0; tmi := 0; ts := 0; tus := 1 |} =
    map (fun c => N.of_nat c) [48;48;48;49;45;48;49;45;48;49;32;48;48;58;48;48;58;48;48;46;48;48;48;48;48;49]%nat /\
  valid_date {| dy := 1900; dm := 2; dd := 29 |} = false /\ valid_date {| dy := 2000; dm := 2; dd := 29 |} = true.
Proof. vm_compute. repeat split. Qed.

(* a negative interval: -1 microsecond is stored as 1969-12-31 23:59:59.999999 *)
Example c09_ex_negative_interval :
  bind_interval (Some (-1)%Z) =
    Ok (Some (map (fun c => N.of_nat c) [49;57;54;57;45;49;50;45;51;49;32;50;51;58;53;57;58;53;57;46;57;57;57;57;57;57]%nat))
  /\ result_interval (Some (map (fun c => N.of_nat c) [49;57;54;57;45;49;50;45;51;49;32;50;51;58;53;57;58;53;57;46;57;57;57;57;57;57]%nat))
     = POk (Some (-1)%Z).
Proof. vm_compute. split; reflexivity. Qed.

(* two nested decorators over a base type with its own processor, selected through label/subquery/union *)
Example c09_ex_nested_decorators :
  let t := TDec 1 true true (TDec 2 true true (TBase true)) in
  column_processor (nest [WLabel; WSubq; WUnion (CCol (TBase false)); WCte] (CCol t)) = [SImpl; SResultValue 2; SResultValue 1]
  /\ bind_proc t = Some [SBindParam 1; SBindParam 2; SImpl].
Proof. vm_compute. split; reflexivity. Qed.
