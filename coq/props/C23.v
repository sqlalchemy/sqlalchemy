(* C23 - Connection transactions and savepoints have nested-transaction semantics.
   Statements only: each proof cites or instantiates a lemma of engine/Txn*.v or engine/RefDbProofs.v
   (the witnesses of the refuted ones are in TxnTheorems.v); the examples are evaluated.

   Model: engine/Txn.v (Connection / RootTransaction / NestedTransaction / TransactionalContext as
   written, running against the reference database engine/RefDb.v).
   Specification: engine/TxnSpec.v (reference nested-transaction model [sstep], and [guard_from]
   = the history stays outside the three defective regions (a)(b)(c) and uses with-blocks as the
   with statement does).
   [trace ops s]  = (result, state) after each operation of the history [ops] (any length, any depth).
   [strace ops p] = (raised?, reference state) after each operation. *)
From Coq Require Import List ZArith NArith Bool Arith.
Import ListNotations.
From SAV.engine Require Import RefDb RefDbProofs Txn TxnBase TxnWF TxnSpec TxnSim TxnTheorems.

(* every history, misuse included *)

(* the recursion of NestedTransaction._cancel always terminates within the model's fuel *)
Theorem c23_fuel_sufficient : forall ops d,
  Forall (fun rs => fst rs <> Some OutOfFuel) (trace ops (init d)).
Proof. intros ops d. exact (fuel_sufficient ops (init d) (WF_init d)). Qed.
Print Assumptions c23_fuel_sufficient.

(* ended_txn_raises, part 1: commit/rollback/close/__exit__ on a transaction object that is no longer
   active send nothing to the database and leave the database untouched - in ANY state *)
Theorem c23_ended_txn_sends_nothing : forall o k s, handle_of o = Some k -> active k s = false ->
  (forall j, o <> TEnter j) ->
  s_out (step_st o s) = [] /\ s_db (step_st o s) = s_db s.
Proof. exact inactive_quiet. Qed.
Print Assumptions c23_ended_txn_sends_nothing.

(* ended_txn_raises, part 2: commit() on it raises and changes nothing - in ANY state *)
Theorem c23_ended_txn_commit_raises : forall k s, k < length (txns s) -> active k s = false ->
  exists e, step (TCommit k) s = Some (Raise e, clear_log s).
Proof. exact ended_commit_raises. Qed.
Print Assumptions c23_ended_txn_commit_raises.

(* the autobegin invariant (/repo ba42825): after every operation of every history - raising `begin`
   listeners and failing DBAPI rollbacks included - __in_begin is False, so _autobegin is never
   left disabled *)
Theorem c23_in_begin_reset : forall ops d,
  Forall (fun rs => c_in_begin (snd rs) = false) (trace ops (init d)).
Proof. intros ops d. exact (in_begin_reset ops (init d) eq_refl). Qed.
Print Assumptions c23_in_begin_reset.

(* after any history, a statement that executes does so inside an active root transaction
   (never silently outside one, where commit() would be a no-op) *)
Theorem c23_statement_runs_in_transaction : forall ops d v s',
  step (OIns v) (run ops (init d)) = Some (Ok, s') -> in_transaction s' = true.
Proof. exact statement_in_transaction. Qed.
Print Assumptions c23_statement_runs_in_transaction.

(* guarded histories: full nested-transaction semantics *)

(* after every operation - so after each outer commit - other connections (and the connection
   itself) see exactly the data of the reference model *)
Theorem c23_committed_data_eq_reference_guarded : forall ops,
  guard_from ops (spec_init []) = true ->
  map (fun rs => (committed (s_db (snd rs)), work (s_db (snd rs)))) (trace ops (init db_empty)) =
  map (fun bp => (p_committed (snd bp), p_cur (snd bp))) (strace ops (spec_init [])).
Proof. exact committed_data_eq_reference. Qed.
Print Assumptions c23_committed_data_eq_reference_guarded.

Theorem c23_flags_agree_guarded : forall ops,
  guard_from ops (spec_init []) = true ->
  map (fun rs => (in_transaction (snd rs), in_nested_transaction (snd rs))) (trace ops (init db_empty)) =
  map (fun bp => (spec_in_transaction (snd bp), spec_in_nested (snd bp))) (strace ops (spec_init [])).
Proof. exact flags_agree. Qed.
Print Assumptions c23_flags_agree_guarded.

(* a handle is active exactly while the reference model keeps its frame open *)
Theorem c23_handles_agree_guarded : forall ops,
  guard_from ops (spec_init []) = true ->
  Forall2 (fun rs bp => forall k, active k (snd rs) = live k (snd bp))
    (trace ops (init db_empty)) (strace ops (spec_init [])).
Proof. exact handles_agree. Qed.
Print Assumptions c23_handles_agree_guarded.

(* ended_txn_raises, part 3: an operation raises exactly when the reference model refuses it (commit on
   an ended transaction, begin inside a transaction, anything on a closed connection or inside a
   with-block whose transaction has ended); it is skipped exactly when the handle does not exist;
   fuel is never exhausted *)
Theorem c23_ended_txn_raises_guarded : forall ops,
  guard_from ops (spec_init []) = true ->
  Forall2 (fun rs bp => res_agree (fst rs) (fst bp)) (trace ops (init db_empty)) (strace ops (spec_init [])).
Proof. exact raises_agree. Qed.
Print Assumptions c23_ended_txn_raises_guarded.

(* every command sent to the database is accepted by it: never ROLLBACK TO / RELEASE of a savepoint
   the database no longer has *)
Theorem c23_commands_well_nested_guarded : forall ops,
  guard_from ops (spec_init []) = true ->
  Forall (fun rs => forallb snd (s_out (snd rs)) = true) (trace ops (init db_empty)).
Proof. exact commands_well_nested. Qed.
Print Assumptions c23_commands_well_nested_guarded.

(* the three defective regions excluded by the guard *)

(* (a) s1 = begin_nested(); s2 = begin_nested(); s1.rollback(); s2.rollback():
   the last call sends ROLLBACK TO a savepoint the database has discarded *)
Theorem c23_commands_well_nested_refuted :
  exists ops, existsb rejected (trace ops (init db_empty)) = true.
Proof. exists witness_a. exact refuted_commands_a. Qed.
Print Assumptions c23_commands_well_nested_refuted.

(* (a) after s1.rollback() in_nested_transaction() is still True (s2 stays installed and active) *)
Theorem c23_flags_agree_refuted :
  exists ops, map flags_of (trace ops (init db_empty)) <> map sflags_of (strace ops (spec_init [])).
Proof. exists witness_a. exact refuted_flags_a. Qed.
Print Assumptions c23_flags_agree_refuted.

(* (b) rollback() of the handle of an already committed transaction cancels the savepoints of the
   current transaction (in_nested_transaction() turns False, nothing is sent to the database) *)
Theorem c23_ended_txn_raises_refuted :
  map flags_of (trace witness_b (init db_empty)) <> map sflags_of (strace witness_b (spec_init [])).
Proof. exact refuted_flags_b. Qed.
Print Assumptions c23_ended_txn_raises_refuted.

(* (c) inside a with-block whose savepoint has been committed, rollback() of the enclosing savepoint
   raises but still ends it without ROLLBACK TO; the outer commit publishes the row *)
Theorem c23_committed_data_eq_reference_refuted :
  map (fun rs => committed (s_db (snd rs))) (trace witness_c (init db_empty)) <>
  map (fun bp => p_committed (snd bp)) (strace witness_c (spec_init [])).
Proof. exact refuted_data_c. Qed.
Print Assumptions c23_committed_data_eq_reference_refuted.

(* the reference database itself (validated against SQLite on every run) *)

(* a savepoint rollback undoes exactly the work since that savepoint (and keeps the savepoint) *)
Theorem c23_refdb_savepoint_rollback_to : forall d n w',
  exec_cmd (mkDb (committed d) w' ((n, work d) :: saves d)) (RollbackTo n) =
  Some (mkDb (committed d) (work d) ((n, work d) :: saves d)).
Proof. exact savepoint_rollback_to. Qed.
Print Assumptions c23_refdb_savepoint_rollback_to.

(* ROLLBACK TO / RELEASE are rejected exactly for a savepoint the database does not have *)
Theorem c23_refdb_rejects_unknown_savepoint : forall d n,
  (exec_cmd d (RollbackTo n) = None <-> has_save n d = false) /\
  (exec_cmd d (Release n) = None <-> has_save n d = false).
Proof. intros d n. exact (conj (rollback_to_rejected_iff d n) (release_rejected_iff d n)). Qed.
Print Assumptions c23_refdb_rejects_unknown_savepoint.

(* other connections see a change only through COMMIT *)
Theorem c23_refdb_visible_changes_only_by_commit : forall d c d',
  exec_cmd d c = Some d' -> c <> Commit -> committed d' = committed d.
Proof. exact committed_changes_only_by_commit. Qed.
Print Assumptions c23_refdb_visible_changes_only_by_commit.

(* non-vacuity *)
(* a guarded history with two savepoint levels, a savepoint rollback, a release, double commit and a
   with-block; its final committed data *)
Definition c23_demo : list op :=
  [OBegin; OIns 1; ONested; OIns 2; ONested; OIns 3; TRollback 2; OIns 4; TCommit 1; TCommit 1;
   ONested; TEnter 3; OIns 5; TExit 3 true; TCommit 0; TCommit 0; OIns 6; ORollback].
Example c23_ex_demo_guarded : guard_from c23_demo (spec_init []) = true.
Proof. vm_compute. reflexivity. Qed.
Example c23_ex_demo_data :
  visible 0%N (s_db (run c23_demo (init db_empty))) = [[1]; [2]; [4]]%Z.
Proof. vm_compute. reflexivity. Qed.
Example c23_ex_witnesses_outside_guard :
  guard_from witness_a (spec_init []) = false /\ guard_from witness_b (spec_init []) = false /\
  guard_from witness_c (spec_init []) = false.
Proof. exact witnesses_unguarded. Qed.
(* faults inside the guard: a `begin` listener that raises once - the first statement raises, the next
   one autobegins normally and commit() publishes it; a DBAPI rollback that reports an error while a
   savepoint is open - the transaction and its savepoint objects are ended (/repo fff6083) *)
Definition c23_fault_begin : list op := [FBegin 1; OIns 1; OIns 2; OCommit].
Definition c23_fault_rollback : list op := [ONested; OIns 1; FRollback true; ORollback; OIns 2; TRollback 1; OCommit].
Example c23_ex_fault_begin :
  guard_from c23_fault_begin (spec_init []) = true /\
  map (fun rs => fst rs) (trace c23_fault_begin (init db_empty)) =
    [Some Ok; Some (Raise ListenerError); Some Ok; Some Ok] /\
  visible 0%N (s_db (run c23_fault_begin (init db_empty))) = [[2]]%Z.
Proof. vm_compute. auto. Qed.
Example c23_ex_fault_rollback :
  guard_from c23_fault_rollback (spec_init []) = true /\
  map flags_of (trace c23_fault_rollback (init db_empty)) =
    [(true, true); (true, true); (true, true); (false, false); (true, false); (true, false); (false, false)] /\
  visible 0%N (s_db (run c23_fault_rollback (init db_empty))) = [[2]]%Z.
Proof. vm_compute. auto. Qed.
(* an inactive handle exists in a reachable state (hypotheses of the unguarded theorems) *)
Example c23_ex_inactive_handle :
  let s := run [OBegin; OCommit] (init db_empty) in 0 < length (txns s) /\ active 0 s = false.
Proof. vm_compute. split; [apply le_n|reflexivity]. Qed.
