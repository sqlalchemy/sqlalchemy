(* C34 - the identity map holds at most one object per row (identity key).
   Statements only: each proof applies one lemma of orm/IdMap*.v (for the refutations, to its witness history).

   Model: SAV.orm.IdMap (one Session; query, get, refresh, merge, expunge, add, primary-key change, flush,
   commit, rollback, delete; identity tokens).  [Query] carries the route of the query (scalars(select),
   populate_existing, yield_per, Query.all) for the harness; [step] ignores it, every route loads through
   [do_query].  Database rows and attribute-level state are inputs of each operation ([env]) and universally
   quantified here; [ExtDelete], a row deleted behind the session, leaves the state alone: it shows in the
   [rows] of the environments that follow.
   [rerr]: 0 no exception, 1 InvalidRequestError, 2 IntegrityError, 3 PendingRollbackError, 4 StaleDataError,
   5 ObjectDeletedError, 7 DetachedInstanceError (the codes the harness gives the implementation's exceptions).
   [imap st k i]: the identity map of state [st] maps identity key [k] to object number [i]. *)
From Coq Require Import List ZArith Bool.
Import ListNotations.
From SAV.orm Require Import IdMap IdMapSpec IdMapLemmas IdMapProofs IdMapMain IdMapGuarded.
Open Scope Z_scope.

(* functional: in every reachable state (every history, every environment) an identity key is mapped to
   at most one object *)
Theorem c34_identity_map_functional : forall eoc pks h k i j,
  imap (run h (init eoc pks)) k i -> imap (run h (init eoc pks)) k j -> i = j.
Proof. intros eoc pks h. exact (reachable_functional eoc pks h). Qed.
Print Assumptions c34_identity_map_functional.

(* key_consistent, the part that holds unconditionally: what the map holds carries an identity key (the key
   it is mapped under, by definition of [imap]); what is pending has none *)
Theorem c34_mapped_objects_have_their_key : forall eoc pks h k o,
  nth_error (objs (run h (init eoc pks))) k = Some o ->
  (iimap o = true -> okey o <> None) /\ (inew o = true -> okey o = None).
Proof. exact reachable_keyed. Qed.
Print Assumptions c34_mapped_objects_have_their_key.

(* the invariant behind both is preserved by every single operation from every state satisfying it *)
Theorem c34_every_operation_preserves_the_invariant : forall e o st, Inv st -> Inv (rst (step e o st)).
Proof. exact step_inv. Qed.
Print Assumptions c34_every_operation_preserves_the_invariant.

(* key_consistent in both directions, and "never more than one object for a given identity key", on the
   guarded region.  The guard is the ghost flag [bad] of the model (never read by it): it is raised when an
   identity_map.replace() evicts another object, when _restore_snapshot re-maps a state that is not attached,
   when was_already_deleted() / get() find the row of a mapped object gone, and when Session.delete() is
   given a state carrying the _deleted flag.  For every history after which the flag is still down (every
   length, every environment): each persistent object is the mapped one, everything mapped is attached, and
   two persistent objects never share an identity key *)
Theorem c34_key_consistent_guarded : forall eoc pks h, bad (run h (init eoc pks)) = false ->
  let st := run h (init eoc pks) in
  persistent_mapped st = true /\ mapped_attached st = true /\
  (forall i j oi oj, nth_error (objs st) i = Some oi -> nth_error (objs st) j = Some oj ->
     persistent oi = true -> persistent oj = true -> okey oi = okey oj -> i = j).
Proof. exact guarded_consistent. Qed.
Print Assumptions c34_key_consistent_guarded.

(* query_returns_mapped_object: every object returned by a query that does not raise is the one the identity
   map holds afterwards, under (pk, token) for a list of primary keys [rws] in result order.  That [rws] is the
   rows visible after the autoflush, sorted, is IdMapMain.query_returns_rows, of which this is the weakening *)
Theorem c34_query_returns_mapped_object : forall e tok st,
  rerr (do_query e tok st) = 0 ->
  exists rws, Forall2 (fun pk h => imap (rst (do_query e tok st)) (pk, tok) h) rws (robjs (do_query e tok st)).
Proof. exact query_returns_mapped. Qed.
Print Assumptions c34_query_returns_mapped_object.

(* get_no_sql_when_present_and_unexpired: the mapped object is returned, no SQL is emitted, nothing changes *)
Theorem c34_get_no_sql_when_present_and_unexpired : forall e k st h,
  functional st -> imap st k h -> eexp e h = false ->
  do_get e k st = mkRes st 0 [h] true.
Proof. exact get_present_unexpired. Qed.
Print Assumptions c34_get_no_sql_when_present_and_unexpired.

(* refuted outside the guard: "what the map holds is attached to the session" (key_consistent, left to right) *)
Theorem c34_mapped_is_attached_refuted : exists eoc pks h,
  mapped_attached (run h (init eoc pks)) = false /\ bad (run h (init eoc pks)) = true.
Proof. exists false, [1], h_detached_mapped. exact (conj (proj1 detached_mapped) (proj2 (proj2 (proj2 detached_mapped)))). Qed.
Print Assumptions c34_mapped_is_attached_refuted.

(* refuted outside the guard: "a persistent object is the mapped one / one persistent object per identity"
   (key_consistent, right to left), when a row vanishes behind the session ... *)
Theorem c34_one_object_per_identity_refuted : exists eoc pks h,
  one_persistent_per_key (run h (init eoc pks)) = false /\ persistent_mapped (run h (init eoc pks)) = false /\
  bad (run h (init eoc pks)) = true.
Proof. exists true, [1], h_row_vanished. exact row_vanished. Qed.
Print Assumptions c34_one_object_per_identity_refuted.

(* ... and without any outside interference: two pending objects with the primary key of an object deleted
   in the same flush are both turned into row switches *)
Theorem c34_double_row_switch_refuted :
  let e := env_of [] false false in let e1 := env_of [1] false false in
  let s1 := rst (step e Commit (rst (step e (Add 0) (init true [1; 1; 1])))) in
  let s2 := rst (step e1 (Add 2) (rst (step e1 (Add 1) (rst (step e1 (Delete 0) s1))))) in
  let st := rst (step e1 Flush s2) in
  one_persistent_per_key st = false /\ persistent_mapped st = false /\ bad st = true.
Proof. exact double_row_switch. Qed.
Print Assumptions c34_double_row_switch_refuted.

(* the behaviour of /repo since 69ec57b: when the autoflush inside get() deletes the looked-up instance and
   maps a pending object with the same primary key, get() returns that mapped object (number 0), not the deleted one *)
Example c34_ex_get_returns_mapped_after_row_switch :
  let r := step (env_of [1] true false) (Get 1 0) (run h_get_stale (init true [1; 1])) in
  rerr r = 0 /\ robjs r = [0%nat] /\ holder (1, 0) (rst r) = Some 0%nat /\ persistent (get (rst r) 1) = false.
Proof. exact get_after_row_switch. Qed.
(* the consistency predicates are satisfiable on a history through loads and mutations *)
Example c34_ex_consistent : let st := run h_good (init true [5]) in
  mapped_attached st = true /\ persistent_mapped st = true /\ one_persistent_per_key st = true /\
  length (objs st) = 4%nat /\ bad st = false.
Proof. exact good_consistent. Qed.
Example c34_ex_imap : imap (run h_good (init true [5])) (1, 0) 1.
Proof. exact good_imap. Qed.
