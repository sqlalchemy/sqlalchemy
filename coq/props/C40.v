(* C40 - loader strategies change how data is loaded, never what is loaded.
   Statements; the proofs are in orm/Loaders*.v.

   [load nestf asg u t0 jstep path] is the model of what the ORM does for the root query [u] on table [t0]
   (PJoin/PAny going through relationship [jstep]) with loader strategy [asg_i] on the i-th relationship
   of [path]; [load_spec] is the relational meaning.  [nestf] is the subquery-wrapping decision
   ([should_nest] = context.py _should_nest_selectable). *)
From Coq Require Import List ZArith Bool.
Import ListNotations.
From SAV.orm Require Import Loaders LoadersBase LoadersJoin LoadersStmt LoadersSrc LoadersOne LoadersAttach LoadersSubq LoadersMain LoadersTheorems LoadersKeys LoadersIdent.
Open Scope Z_scope.

(* THE property: every assignment of strategies along the path - lazy, joined, subquery, immediate,
   selectin with any chunk size >= 1, mixed freely - loads exactly the relational meaning: same primary
   entities in the same order, same members of every collection in relationship order, for every data
   set; by induction on the assignment.  It holds for every wrapping decision that wraps at least where
   _should_nest_selectable does.  [guard] excludes exactly the region of the subquery-load defect below. *)
Theorem c40_all_strategies_agree : forall nestf asg u t0 jstep path,
  nest_covers nestf -> wf_query u t0 jstep path -> length asg = length path -> guard u jstep path asg = true ->
  load nestf asg u t0 jstep path = load_spec u t0 jstep path.
Proof. exact all_strategies_agree. Qed.
Print Assumptions c40_all_strategies_agree.

(* with the implementation's own wrapping decision *)
Theorem c40_all_strategies_agree_impl : forall asg u t0 jstep path,
  wf_query u t0 jstep path -> length asg = length path -> guard u jstep path asg = true ->
  load should_nest asg u t0 jstep path = load_spec u t0 jstep path.
Proof. exact all_strategies_agree_impl. Qed.
Print Assumptions c40_all_strategies_agree_impl.

(* hence any two assignments agree with one another *)
Theorem c40_any_two_assignments_agree : forall asg1 asg2 u t0 jstep path,
  wf_query u t0 jstep path -> length asg1 = length path -> length asg2 = length path ->
  guard u jstep path asg1 = true -> guard u jstep path asg2 = true ->
  load should_nest asg1 u t0 jstep path = load should_nest asg2 u t0 jstep path.
Proof.
  intros asg1 asg2 u t0 jstep path W L1 L2 G1 G2.
  exact (eq_trans (all_strategies_agree_impl asg1 u t0 jstep path W L1 G1)
                  (eq_sym (all_strategies_agree_impl asg2 u t0 jstep path W L2 G2))).
Qed.
Print Assumptions c40_any_two_assignments_agree.

(* the guard is vacuous unless a subquery load re-issues the user's own statement *)
Theorem c40_guard_only_for_root_subquery : forall u jstep path asg,
  root_subq asg = false -> guard u jstep path asg = true.
Proof. exact guard_no_root_subq. Qed.
Print Assumptions c40_guard_only_for_root_subquery.

(* the uniform assignments *)
Theorem c40_joined_eq_spec : forall u t0 jstep path, wf_query u t0 jstep path ->
  load should_nest (repeat SJoined (length path)) u t0 jstep path = load_spec u t0 jstep path.
Proof. exact joined_eq_spec. Qed.
Print Assumptions c40_joined_eq_spec.

Theorem c40_lazy_eq_spec : forall u t0 jstep path, wf_query u t0 jstep path ->
  load should_nest (repeat SLazy (length path)) u t0 jstep path = load_spec u t0 jstep path.
Proof. exact lazy_eq_spec. Qed.
Print Assumptions c40_lazy_eq_spec.

Theorem c40_immediate_eq_spec : forall u t0 jstep path, wf_query u t0 jstep path ->
  load should_nest (repeat SImmediate (length path)) u t0 jstep path = load_spec u t0 jstep path.
Proof. exact immediate_eq_spec. Qed.
Print Assumptions c40_immediate_eq_spec.

(* selectin: any chunk sizes >= 1 ([SSelectin n] = IN-lists of at most n+1 keys), one per level *)
Theorem c40_selectin_eq_spec : forall (chunks_minus_1 : list nat) u t0 jstep path,
  wf_query u t0 jstep path -> length chunks_minus_1 = length path ->
  load should_nest (map SSelectin chunks_minus_1) u t0 jstep path = load_spec u t0 jstep path.
Proof. exact selectin_eq_spec. Qed.
Print Assumptions c40_selectin_eq_spec.

Theorem c40_subquery_eq_spec_guarded : forall u t0 jstep path, wf_query u t0 jstep path ->
  guard u jstep path (repeat SSubquery (length path)) = true ->
  load should_nest (repeat SSubquery (length path)) u t0 jstep path = load_spec u t0 jstep path.
Proof. exact subquery_eq_spec_guarded. Qed.
Print Assumptions c40_subquery_eq_spec_guarded.

(* DEFECT (reproduced on the implementation): subqueryload of a many-to-one relationship re-issues the
   user's statement as SELECT DISTINCT <fk>, <order columns>; with a duplicating JOIN and an OFFSET the
   DISTINCT shifts the window, the parent row falls outside it and the attribute is loaded as None.
   The witness is outside [guard]; selectin loads it correctly. *)
Theorem c40_subquery_m2o_distinct_offset_refuted :
  exists u t0 jstep path, wf_query u t0 jstep path /\ guard u jstep path [SSubquery] = false /\
    load should_nest [SSubquery] u t0 jstep path <> load_spec u t0 jstep path /\
    load should_nest [SSelectin 0] u t0 jstep path = load_spec u t0 jstep path.
Proof. exact subquery_m2o_distinct_offset_refuted. Qed.
Print Assumptions c40_subquery_m2o_distinct_offset_refuted.

(* key lemma: grouping the ordered rows of parents LEFT OUTER JOIN children by parent identity recovers
   each parent's children in relationship order (for ANY sorted arrangement of the joined rows) *)
Theorem c40_left_join_group_roundtrip : forall s attach o0 (H : list tagged) rows,
  wf_step s -> tag_inj H -> o0 <> ONone -> sorted (hkey o0) H ->
  eqset rows (ljoin_rows [s] H) -> sorted (jkey o0 [s]) rows ->
  proc [s] attach rows =
  map (fun h => (fst h, Node (snd h) (map (fun c => Node c (attach c)) (related s (snd h))))) (uniq_by tagged_id H).
Proof. exact left_join_group_roundtrip. Qed.
Print Assumptions c40_left_join_group_roundtrip.

(* ... through any depth of eager-joined levels *)
Theorem c40_joined_chain_roundtrip : forall chain attach e tails, Forall wf_step chain ->
  eqset tails (ljoin_chain chain (Some e)) -> sorted (tail_key chain) tails ->
  build chain attach e tails = gchain chain attach e.
Proof. exact build_correct. Qed.
Print Assumptions c40_joined_chain_roundtrip.

(* LIMIT commutes with the eager join only with the wrap: without it (the un-wrapped form) joined
   loading is refuted; c40_all_strategies_agree shows that wrapping wherever _should_nest_selectable
   asks for it suffices *)
Theorem c40_limit_commutes_only_with_wrap_refuted :
  exists u t0 jstep path, wf_query u t0 jstep path /\
    load never_nest [SJoined] u t0 jstep path <> load_spec u t0 jstep path.
Proof. exact limit_commutes_only_with_wrap_refuted. Qed.
Print Assumptions c40_limit_commutes_only_with_wrap_refuted.

(* either statement form returns an ordered version of (primary rows) LEFT OUTER JOIN (eager chain) *)
Theorem c40_statement_rows : forall nestf src chain, nest_covers nestf -> Forall wf_step chain ->
  sorted (jkey (src_order src) chain) (eval_stmt nestf src chain) /\
  eqset (eval_stmt nestf src chain) (ljoin_rows chain (stmt_heads src)).
Proof. exact eval_stmt_char. Qed.
Print Assumptions c40_statement_rows.

Theorem c40_should_nest_spec : forall e m l o d don g,
  should_nest e m l o d don g = true <->
  e = true /\ ((l = true \/ o = true) /\ m = true \/ d = true \/ don = true \/ g = true).
Proof. exact should_nest_spec. Qed.
Print Assumptions c40_should_nest_spec.

(* the plan: all-joined is one statement; IN chunks partition the keys *)
Theorem c40_plan_joined_single_statement : forall nestf u t0 jstep path,
  plan nestf (repeat SJoined (length path)) u t0 jstep path = [(SrcUser u t0 jstep, path)].
Proof. exact plan_joined_single_statement. Qed.
Print Assumptions c40_plan_joined_single_statement.

Theorem c40_chunks_partition : forall (n : nat) (l : list Z), (1 <= n)%nat ->
  concat (chunks n l) = l /\ forall ch, In ch (chunks n l) -> ch <> [] /\ (length ch <= n)%nat.
Proof. exact (@chunks_partition Z). Qed.
Print Assumptions c40_chunks_partition.

(* composite keys: selectin groups the fetched rows by the FK columns listed by walking the parent's primary
   key; for EVERY order in which the join condition lists the column pairs, that key tuple equals the parent's
   identity key exactly when the join condition holds, so the collection / scalar is the related rows *)
Theorem c40_selectin_key_order_any_permutation : forall pairs pk p c, wf_pairs pairs pk -> pk_not_null pk p ->
  key_eqb (map (colval c) (fk_cols pairs pk)) (map (colval p) pk) = joined_on pairs p c.
Proof. exact key_match_iff_joined. Qed.
Print Assumptions c40_selectin_key_order_any_permutation.

Theorem c40_selectin_composite_down_eq_spec : forall pairs pk parents children, wf_pairs pairs pk ->
  Forall (pk_not_null pk) parents ->
  selectin_down (fk_cols pairs pk) pk parents children = spec_down pairs parents children.
Proof. exact selectin_down_eq_spec. Qed.
Print Assumptions c40_selectin_composite_down_eq_spec.

Theorem c40_selectin_composite_up_eq_spec : forall pairs pk parents children, wf_pairs pairs pk ->
  Forall (pk_not_null pk) parents ->
  selectin_up (fk_cols pairs pk) pk parents children = spec_up pairs parents children.
Proof. exact selectin_up_eq_spec. Qed.
Print Assumptions c40_selectin_composite_up_eq_spec.

(* ... and listing them in the join condition's own order is refuted (mirrored keys (1,2)/(2,1)) *)
Theorem c40_selectin_key_dict_order_refuted : exists pairs pk parents children,
  wf_pairs pairs pk /\ Forall (pk_not_null pk) parents /\
  selectin_down (fk_cols_dict_order pairs pk) pk parents children <> spec_down pairs parents children.
Proof. exact dict_order_refuted. Qed.
Print Assumptions c40_selectin_key_dict_order_refuted.

(* the identity-map shortcut of lazy / immediate many-to-one loading (loading.get_from_identity): an object
   found in the Session is used only if its class IS-A the relationship's target; then the result is the
   relational meaning whatever is already in the Session, for every class hierarchy *)
Theorem c40_m2o_lazy_history_independent : forall isa idmap db target fk, idmap_ok idmap db ->
  m2o_lazy isa isa idmap db target fk = m2o_spec isa db target fk.
Proof. exact m2o_lazy_history_independent. Qed.
Print Assumptions c40_m2o_lazy_history_independent.

(* accepting an object of an ANCESTOR class as well is refuted - and only with a pre-loaded Session *)
Theorem c40_m2o_lazy_accept_ancestors_refuted : exists (h : hierarchy) idmap db target fk,
  idmap_ok idmap db /\
  m2o_lazy (accept_ancestors (isa_fuel h 3)) (isa_fuel h 3) idmap db target fk <> m2o_spec (isa_fuel h 3) db target fk /\
  m2o_lazy (accept_ancestors (isa_fuel h 3)) (isa_fuel h 3) [] db target fk = m2o_spec (isa_fuel h 3) db target fk.
Proof. exact m2o_lazy_accept_ancestors_refuted. Qed.
Print Assumptions c40_m2o_lazy_accept_ancestors_refuted.

(* non-vacuity: a well-formed three-level example (one-to-many then many-to-one, NULL foreign keys,
   LIMIT/OFFSET, duplicating join + DISTINCT) on which mixed assignments are computed *)
Definition ex_p : list row := [mkRow 2 None None 1; mkRow 1 None None 0; mkRow 3 None None 1].
Definition ex_c : list row :=
  [mkRow 1 (Some 1) (Some 2) 2; mkRow 2 (Some 1) None 1; mkRow 3 (Some 3) (Some 2) 0; mkRow 4 None (Some 1) 0; mkRow 5 (Some 3) (Some 1) 2].
Definition ex_t : list row := [mkRow 1 None None 0; mkRow 2 None None 1].
Definition ex_path : list step := [mkStep Down OValId 1 ex_c; mkStep Up ONone 2 ex_t].
Definition ex_u : uquery := mkU (PJoin 1) true false OValDescId (Some 2%nat) (Some 0%nat).

Example c40_ex_wf : wf_query ex_u ex_p (hd_error ex_path) ex_path /\
                    guard ex_u (hd_error ex_path) ex_path [SSubquery; SJoined] = true.
Proof.
  assert (W : Forall wf_step ex_path).
  { constructor; [|constructor; [|constructor]];
      (split; [unfold wf_table; cbn; repeat constructor; cbn; intuition; discriminate|cbn; try discriminate; reflexivity]). }
  split; [|reflexivity]. split; [|split; [discriminate|split; [|exact W]]].
  - unfold wf_table. cbn. repeat constructor; cbn; intuition; discriminate.
  - intros s E. inversion E; subst. inversion W; auto.
Qed.
Example c40_ex_loads :
  load should_nest [SJoined; SSelectin 0] ex_u ex_p (hd_error ex_path) ex_path = load_spec ex_u ex_p (hd_error ex_path) ex_path /\
  load should_nest [SSubquery; SJoined] ex_u ex_p (hd_error ex_path) ex_path = load_spec ex_u ex_p (hd_error ex_path) ex_path /\
  length (load_spec ex_u ex_p (hd_error ex_path) ex_path) = 2%nat.
Proof. vm_compute. auto. Qed.
