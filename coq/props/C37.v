(* C37 - both sides of a bidirectional relationship always agree.
   Statements only; every proof is [exact <lemma>].  Model: orm/Backref.v; spec side: orm/BackrefSpec.v. *)
From Coq Require Import List NArith Bool.
Import ListNotations.
From SAV.orm Require Import Backref BackrefSpec BackrefBase BackrefTotal BackrefMain.
Open Scope N_scope.

(* one-to-many / many-to-one.  [inv_o2m] = the agreement
      forall p c, In c (collection of p) <-> (p <> None /\ parent of c = p)
   together with: collections hold no duplicates and no None, every parent attribute is loaded.
   Every primitive mutation on either side - append, insert, remove, pop, del l[i], l[i] = v, bulk
   replacement and del obj.collection on the collection; assignment and del on the scalar - that passes the guard (a member
   is never added to a collection that already holds it) preserves it.  An exception raised by the
   operation (ValueError, IndexError, AttributeError) leaves a state that satisfies it, too. *)
Theorem c37_agree_preserved_o2m_guarded : forall s p, inv_o2m s -> guard_o2m s p = true ->
  exists s', (step_prim O2M p s = Ok s' \/ exists e, step_prim O2M p s = Err e s') /\ inv_o2m s'.
Proof. exact o2m_step_guarded. Qed.
Print Assumptions c37_agree_preserved_o2m_guarded.

(* many-to-many: forall l r, In r (l.rs) <-> In l (r.ls), mutations on either side *)
Theorem c37_agree_preserved_m2m_guarded : forall s p, inv_m2m s -> guard_m2m s p = true ->
  exists s', (step_prim M2M p s = Ok s' \/ exists e, step_prim M2M p s = Err e s') /\ inv_m2m s'.
Proof. exact m2m_step_guarded. Qed.
Print Assumptions c37_agree_preserved_m2m_guarded.

(* all sequences (slice assignment and extend are sequences of del l[i] / insert / append): as long
   as every step passes the guard the invariant holds at the end *)
Theorem c37_agree_all_sequences_o2m_guarded : forall ps s s', inv_o2m s ->
  run_guarded O2M guard_o2m ps s = Some s' -> inv_o2m s'.
Proof. exact o2m_guarded_agree. Qed.
Print Assumptions c37_agree_all_sequences_o2m_guarded.

Theorem c37_agree_all_sequences_m2m_guarded : forall ps s s', inv_m2m s ->
  run_guarded M2M guard_m2m ps s = Some s' -> inv_m2m s'.
Proof. exact m2m_guarded_agree. Qed.
Print Assumptions c37_agree_all_sequences_m2m_guarded.

(* REFUTED (a), scalar-to-scalar pairs: the backref's own initiator token suppresses the pop on the
   old parent *)
Theorem c37_one_to_one_reassign_refuted :
  exists s, run_prims O2O [PSet SA 1 1; PSet SA 2 1] (empty_state O2O false) = Some s /\
            sa s 1 = CVal 1 /\ sa s 2 = CVal 1 /\ sb s 1 = CVal 2 /\ ~ agree_o2o s.
Proof. exact o2o_reassign_parent_side. Qed.
Print Assumptions c37_one_to_one_reassign_refuted.

Theorem c37_one_to_one_reassign_symmetric_refuted :
  exists s, run_prims O2O [PSet SB 1 1; PSet SB 2 1] (empty_state O2O false) = Some s /\
            sb s 1 = CVal 1 /\ sb s 2 = CVal 1 /\ sa s 1 = CVal 2 /\ ~ agree_o2o s.
Proof. exact o2o_reassign_child_side. Qed.
Print Assumptions c37_one_to_one_reassign_symmetric_refuted.

(* REFUTED (b), duplicates: the second append is exactly what the guard excludes *)
Theorem c37_duplicate_member_reparent_refuted :
  exists s1 s, run_prims O2M [PAppend SA 1 1] (empty_state O2M false) = Some s1 /\
    guard_o2m s1 (PAppend SA 1 1) = false /\
    run_prims O2M [PAppend SA 1 1; PSet SB 1 2] s1 = Some s /\
    coll_of s SA 1 = [1] /\ coll_of s SA 2 = [1] /\ sb s 1 = CVal 2 /\ ~ agree_o2m s.
Proof. exact o2m_duplicate_reparent. Qed.
Print Assumptions c37_duplicate_member_reparent_refuted.

Theorem c37_duplicate_member_pop_refuted :
  exists s, run_prims O2M [PAppend SA 1 1; PAppend SA 1 1; PPop SA 1 0] (empty_state O2M false) = Some s /\
    coll_of s SA 1 = [1] /\ sb s 1 = CVal 0 /\ ~ agree_o2m s.
Proof. exact o2m_duplicate_pop. Qed.
Print Assumptions c37_duplicate_member_pop_refuted.

Theorem c37_duplicate_member_m2m_refuted :
  exists s, run_prims M2M [PAppend SA 1 1; PAppend SB 1 1; PReplace SA 1 []] (empty_state M2M false) = Some s /\
    coll_of s SA 1 = [] /\ coll_of s SB 1 = [1] /\ ~ agree_m2m s.
Proof. exact m2m_duplicate_replace. Qed.
Print Assumptions c37_duplicate_member_m2m_refuted.

(* the unloaded-side exception, stated explicitly: child 1 is in p1's loaded collection, its own
   parent attribute is expired (the old value cannot be had without SQL); all loaded pairs agree and
   the guard passes, yet after  p2.cs.append(c1)  the child is in both collections *)
Theorem c37_unloaded_side_exception :
  (forall p c, sb unloaded_example c <> CUnl ->
               (In c (coll_of unloaded_example SA p) <-> p <> 0 /\ sb unloaded_example c = CVal p)) /\
  guard_o2m unloaded_example (PAppend SA 2 1) = true /\
  exists s, step_prim O2M (PAppend SA 2 1) unloaded_example = Ok s /\
            coll_of s SA 1 = [1] /\ coll_of s SA 2 = [1] /\ sb s 1 = CVal 2.
Proof. exact o2m_unloaded_side_exception. Qed.
Print Assumptions c37_unloaded_side_exception.

(* agree_after_reload: after flush + expire both sides are read from the same rows *)
Theorem c37_agree_after_reload_o2m : forall rows, functional_rows rows -> nonzero_rows rows ->
  agree_o2m (reload O2M rows).
Proof. exact reload_agree_o2m. Qed.
Print Assumptions c37_agree_after_reload_o2m.

Theorem c37_agree_after_reload_m2m : forall rows, agree_m2m (reload M2M rows).
Proof. exact reload_agree_m2m. Qed.
Print Assumptions c37_agree_after_reload_m2m.

Theorem c37_agree_after_reload_o2o_guarded : forall rows,
  functional_rows rows -> injective_rows rows -> nonzero_rows rows -> agree_o2o (reload O2O rows).
Proof. exact reload_agree_o2o. Qed.
Print Assumptions c37_agree_after_reload_o2o_guarded.

Theorem c37_agree_after_reload_o2o_refuted :
  let s := reload O2O [(1, 1); (1, 2)] in sa s 1 = CVal 1 /\ sb s 2 = CVal 1 /\ ~ agree_o2o s.
Proof. exact reload_o2o_two_children_refuted. Qed.
Print Assumptions c37_agree_after_reload_o2o_refuted.

(* after flush + commit + load the WHOLE invariant (agreement, no duplicates, everything loaded)
   holds for the state read back from the rows, so every guarded continuation preserves it *)
Theorem c37_invariant_after_commit_o2m : forall rows,
  NoDup rows -> functional_rows rows -> nonzero_rows rows -> inv_o2m (reload O2M rows).
Proof. exact reload_inv_o2m. Qed.
Print Assumptions c37_invariant_after_commit_o2m.

Theorem c37_invariant_after_commit_m2m : forall rows,
  NoDup rows -> nonzero_rows rows -> inv_m2m (reload M2M rows).
Proof. exact reload_inv_m2m. Qed.
Print Assumptions c37_invariant_after_commit_m2m.

(* the recursion between listeners and attribute implementations always terminates within the fuel
   of the model, for every relationship kind and every state (duplicates, unloaded cells included) *)
Theorem c37_fuel_sufficient : forall r p s, prim_kinded r p = true -> step_prim r p s <> OutOfFuel.
Proof. exact step_prim_total. Qed.
Print Assumptions c37_fuel_sufficient.

(* non-vacuity: the invariants, the guards and the conditions on the rows can be met *)
Example c37_ex_inv_o2m : inv_o2m (empty_state O2M false) /\ inv_m2m (empty_state M2M true).
Proof. split; [apply empty_inv_o2m|apply empty_inv_m2m]. Qed.
Example c37_ex_sequence_o2m :
  exists s, run_guarded O2M guard_o2m
    [PAppend SA 1 1; PAppend SA 1 2; PSet SB 1 2; PReplace SA 1 [3; 1]; PInsert SA 2 0 2; PPop SA 1 0;
     PSetItem SA 1 0 3; PDel SB 2; PRemove SA 2 2; PAppend SA 1 2; PDelColl SA 1] (empty_state O2M false) = Some s /\
    coll_of s SA 1 = [] /\ coll_of s SA 2 = [] /\ sb s 1 = CVal 0 /\ sb s 3 = CVal 0 /\ sb s 2 = CVal 0.
Proof. eexists. split; [vm_compute; reflexivity|]. repeat split; reflexivity. Qed.
Example c37_ex_sequence_m2m :
  exists s, run_guarded M2M guard_m2m
    [PAppend SA 1 1; PAppend SB 2 1; PReplace SA 1 [2; 3]; PRemove SB 3 1; PSetItem SA 1 0 1; PAppend SA 1 2;
     PDelColl SA 1] (empty_state M2M false) = Some s /\
    coll_of s SA 1 = [] /\ coll_of s SB 1 = [] /\ coll_of s SB 2 = [] /\ coll_of s SB 3 = [].
Proof. eexists. split; [vm_compute; reflexivity|]. repeat split; reflexivity. Qed.
Example c37_ex_rows : functional_rows [(1, 1); (1, 2); (2, 3)] /\ nonzero_rows [(1, 1); (1, 2); (2, 3)].
Proof.
  split.
  - intros x x' y H H'. cbn in *. intuition congruence.
  - intros x y H. cbn in H. intuition congruence.
Qed.
