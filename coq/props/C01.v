(* C01 - rendered SQL preserves the meaning of the expression tree (operator core).
   Statements; the proofs are applications of lemmas from SAV.sql.*, and evaluation for the closed
   examples of part 5. *)
From Coq Require Import List Arith ZArith NArith Bool.
Import ListNotations.
From SAV.sql Require Import Prec SAExpr C01Tables C01Proofs C01Main C01Sem C01Inst C01Ref.

(* 1. generic precedence-climbing round trip: for ANY grammar table and ANY printed tree whose
      unparenthesised operator occurrences bind tightly enough (ok), the parser returns the tree *)
Theorem c01_parse_print_general :
  forall (lbp rbp pbp : nat -> nat) (binops unops : list nat) (lctx rctx uctx ulev : nat -> nat),
  (forall o, In o binops -> rbp o <= rctx o) -> (forall o, In o binops -> lbp o <= rctx o) ->
  (forall o, In o binops -> lbp o <= lctx o) -> (forall u, In u unops -> pbp u <= uctx u) ->
  (forall u, In u unops -> ulev u <= uctx u) ->
  (forall o, In o binops -> stops lbp rbp pbp binops unops ulev (lctx o) o) ->
  forall e, ok lbp binops unops lctx rctx uctx ulev 0 e ->
  exists f, parse lbp rbp pbp f 0 (flat e) = Some (erase e, []).
Proof. exact parse_flat_top. Qed.
Print Assumptions c01_parse_print_general.

(* 2. SQLAlchemy side: under the finite table check, the backend grammar reads the rendered text of
      every constructed expression as its intended tree (n-ary lists read left-nested, Grouping erased).
      [uses allowed x] : every ungrouped parent/child operator pair occurring in x is in [allowed]. *)
Theorem c01_backend_reads_intended_tree :
  forall (T : satab) (Bk : btab) (allowed : nat -> nat -> bool),
  compat T Bk allowed = true -> neg_wf T = true ->
  forall t, wf_u t -> uses allowed (construct T t) ->
  exists f, parse (g_lbp Bk) (g_rbp Bk) (g_pbp Bk) f 0 (render (construct T t))
            = Some (erase (lower (construct T t)), []).
Proof. exact c01_structure. Qed.
Print Assumptions c01_backend_reads_intended_tree.

(* whatever fuel makes the parser answer, the answer is that tree *)
Theorem c01_backend_answer_unique :
  forall (T : satab) (Bk : btab) (allowed : nat -> nat -> bool),
  compat T Bk allowed = true -> neg_wf T = true ->
  forall t, wf_u t -> uses allowed (construct T t) ->
  forall f r, parse (g_lbp Bk) (g_rbp Bk) (g_pbp Bk) f 0 (render (construct T t)) = Some r ->
  r = (erase (lower (construct T t)), []).
Proof.
  intros T Bk allowed Hc Hn t Hw Hu f r Hr.
  exact (parses_fun _ _ _ _ _ _ _ (ex_intro _ f Hr) (c01_structure T Bk allowed Hc Hn t Hw Hu)).
Qed.
Print Assumptions c01_backend_answer_unique.

(* [allowed := allowed_all] discharges [uses]: no side condition on the tree *)
Theorem c01_all_trees : forall (T : satab) (Bk : btab),
  compat T Bk allowed_all = true -> neg_wf T = true -> forall t, wf_u t ->
  exists f, parse (g_lbp Bk) (g_rbp Bk) (g_pbp Bk) f 0 (render (construct T t))
            = Some (erase (lower (construct T t)), []).
Proof. intros T Bk Hc Hn t Hw. exact (c01_structure T Bk allowed_all Hc Hn t Hw (uses_all _)). Qed.
Print Assumptions c01_all_trees.

(* 3. meaning: flattening of associative operators and of and_/or_, and negation rewriting
      (NOT (a = b) -> a != b ...) preserve evaluation, for ANY operator semantics with the two laws *)
Theorem c01_meaning_preserved_general :
  forall (T : satab) (V : Type) (bsem : nat -> V -> V -> V) (usem : nat -> V -> V) (env : nat -> V),
  (forall o, In o binops -> flattens T o = true -> forall a b c, bsem o (bsem o a b) c = bsem o a (bsem o b c)) ->
  (forall o no, In o binops -> negate T o = Some no -> forall a b, usem INV (bsem o a b) = bsem no a b) ->
  neg_wf T = true -> forall t, wf_u t ->
  eval V bsem usem env (erase (lower (construct T t))) = eval V bsem usem env (full t).
Proof. exact construct_sound. Qed.
Print Assumptions c01_meaning_preserved_general.

(* ... instantiated with NULL / exact integers / text and Kleene logic: the laws follow from the
   finite per-run check [sem_side] on the regenerated table, for every LIKE matcher and every row *)
Theorem c01_meaning_preserved_3vl :
  forall (T : satab), sem_side T = true -> neg_wf T = true ->
  forall (likeb : list N -> list N -> bool) (row : nat -> sv) t, wf_u t ->
  eval sv (bsem3 likeb) usem3 row (erase (lower (construct T t))) = eval sv (bsem3 likeb) usem3 row (full t).
Proof.
  intros T Hs Hn likeb row t Hw.
  exact (construct_sound T sv (bsem3 likeb) usem3 row (inst_assoc likeb T Hs) (inst_neg likeb T Hs) Hn t Hw).
Qed.
Print Assumptions c01_meaning_preserved_3vl.

(* 4. end to end: what the backend grammar parses out of the rendered text evaluates, on every row, to
      the value of the fully parenthesised tree *)
Theorem c01_rendered_text_means_the_tree :
  forall (T : satab) (Bk : btab) (allowed : nat -> nat -> bool),
  compat T Bk allowed = true -> neg_wf T = true -> sem_side T = true ->
  forall (likeb : list N -> list N -> bool) (row : nat -> sv) t, wf_u t -> uses allowed (construct T t) ->
  forall f p rest, parse (g_lbp Bk) (g_rbp Bk) (g_pbp Bk) f 0 (render (construct T t)) = Some (p, rest) ->
  rest = [] /\ eval sv (bsem3 likeb) usem3 row p = eval sv (bsem3 likeb) usem3 row (full t).
Proof.
  intros T Bk allowed Hc Hn Hs likeb row.
  exact (rendered_sound T sv (bsem3 likeb) usem3 row (inst_assoc likeb T Hs) (inst_neg likeb T Hs) Bk allowed Hc Hn).
Qed.
Print Assumptions c01_rendered_text_means_the_tree.

(* 5. the reference table: SQLite and PostgreSQL claims hold on their allowed regions ... *)
Example c01_ref_compat_sqlite_guarded : compat T_ref B_sqlite allowed_sqlite = true.
Proof. vm_compute; reflexivity. Qed.
Example c01_ref_compat_pg_guarded : compat T_ref B_pg allowed_pg = true.
Proof. vm_compute; reflexivity. Qed.
Example c01_ref_side : neg_wf T_ref = true /\ sem_side T_ref = true.
Proof. split; vm_compute; reflexivity. Qed.

(* ... and the unrestricted SQLite claim is REFUTED: (c0 * c1) || s10 is rendered  c0 * c1 || s10 ,
   which the SQLite grammar reads as  c0 * (c1 || s10)  - not the intended tree *)
Definition c01_witness : uex := UB CONCAT (UB MUL (UA 0) (UA 1)) (UA 10).
Theorem c01_sqlite_refuted :
  compat T_ref B_sqlite allowed_all = false /\
  wf_u c01_witness /\
  parse (g_lbp B_sqlite) (g_rbp B_sqlite) (g_pbp B_sqlite) 20 0 (render (construct T_ref c01_witness))
    = Some (PB MUL (PA 0) (PB CONCAT (PA 1) (PA 10)), []) /\
  erase (lower (construct T_ref c01_witness)) = PB CONCAT (PB MUL (PA 0) (PA 1)) (PA 10).
Proof.
  split; [vm_compute; reflexivity|]. split.
  - repeat split; try discriminate; repeat first [left; reflexivity | right].
  - split; vm_compute; reflexivity.
Qed.
Print Assumptions c01_sqlite_refuted.

(* non-vacuity: a tree exercising flattening, negation rewriting, NOT over AND, unary minus *)
Definition c01_example : uex :=
  UOr (UNot (UB EQ (UB ADD (UA 0) (UB ADD (UA 1) (UNeg (UA 2)))) (UA 3)))
      (UAnd (UNot (UAnd (UB LT (UA 0) (UA 1)) (UB LIKE (UA 10) (UA 11)))) (UB IS (UA 2) (UA 99))).
Example c01_example_ok :
  wf_u c01_example /\ uses allowed_sqlite (construct T_ref c01_example) /\
  parse (g_lbp B_sqlite) (g_rbp B_sqlite) (g_pbp B_sqlite) 40 0 (render (construct T_ref c01_example))
    = Some (erase (lower (construct T_ref c01_example)), []).
Proof.
  split; [repeat split; try discriminate; repeat first [left; reflexivity | right]|].
  split; [vm_compute; repeat split|vm_compute; reflexivity].
Qed.
