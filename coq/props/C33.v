(* C33 - Session commit/rollback/savepoint keep the session consistent with the database.
   Statements only; the proofs are in orm/SessTxn*.v (one example is evaluated here), in reading order:
   SessTxn (the model), SessTxnSpec (guard, agrees); SessTxnSM (state machine, needs only Base);
   SessTxnBase, SessTxnInv (Good, Rel, the database side), SessTxnOps, SessTxnDbInv, SessTxnShift,
   SessTxnCore (the invariant); SessTxnRestore, SessTxnRestore2 (_restore_snapshot); SessTxnStmts,
   SessTxnFlush, SessTxnFlushCore (flush); SessTxnMerge, SessTxnTx, SessTxnCommit, SessTxnClose,
   SessTxnObjOps, SessTxnNested (the operations); SessTxnMain, SessTxnLaws (the theorems);
   SessTxnRefuted (witnesses). *)
From Coq Require Import List ZArith Bool Arith.
Import ListNotations.
From SAV.orm Require Import SessTxn SessTxnSpec SessTxnSM SessTxnRefuted SessTxnInv SessTxnCore SessTxnMain SessTxnLaws.

(* ---- state_machine_closed: for EVERY history (no guard), every operation
   - never ends in IllegalStateChangeError (each decorated method ends in the state it declares),
   - leaves every transaction on the stack ACTIVE, except possibly the innermost one which may be
     DEACTIVE (ids strictly decreasing outwards: no transaction is ever re-entered),
   - moves every existing transaction only along ACTIVE -> DEACTIVE -> CLOSED (a transaction that left
     the stack is CLOSED). *)
Theorem c33_state_machine_closed : forall e st p r st',
  Reach e st -> do_op p st = (r, st') -> r <> Unmodelled ->
  r <> Err E_ILLEGAL /\
  Kwf (nfid st') (stk st') /\
  (forall n, (n < nfid st)%nat -> allowed (frame_state st n) (frame_state st' n)).
Proof. exact sm_transitions. Qed.
Print Assumptions c33_state_machine_closed.

(* illegal calls raise the documented error and change nothing: commit needs ACTIVE/PREPARED, rollback
   ACTIVE/DEACTIVE/PREPARED, a flush (hence begin_nested, refresh, commit) an ACTIVE innermost transaction *)
Theorem c33_illegal_commit_raises : forall st h n, nth_error (handles st) h = Some (Some n) ->
  prereq_ok M_commit (frame_state st n) = false ->
  exists c, do_op (OTCommit h) st = (Err c, st) /\ (c = E_INV \/ c = E_PENDING \/ c = E_CLOSED).
Proof. exact sm_illegal_commit. Qed.
Print Assumptions c33_illegal_commit_raises.

Theorem c33_illegal_rollback_raises : forall st h n, nth_error (handles st) h = Some (Some n) ->
  prereq_ok M_rollback (frame_state st n) = false ->
  exists c, do_op (OTRollback h) st = (Err c, st) /\ (c = E_INV \/ c = E_PENDING \/ c = E_CLOSED).
Proof. exact sm_illegal_rollback. Qed.
Print Assumptions c33_illegal_rollback_raises.

Theorem c33_illegal_flush_raises : forall st f rest, stack st = f :: rest -> prereq_ok M_begin (fstate f) = false ->
  is_clean st = false ->
  exists c, do_op OFlush st = (Err c, st) /\ (c = E_INV \/ c = E_PENDING \/ c = E_CLOSED).
Proof. exact sm_illegal_flush. Qed.
Print Assumptions c33_illegal_flush_raises.

Example c33_ex_prereq : prereq_ok M_commit DEACTIVE = false /\ prereq_ok M_rollback DEACTIVE = true /\
  prereq_ok M_rollback CLOSED = false /\ prereq_ok M_begin DEACTIVE = false.
Proof. vm_compute. repeat split. Qed.

(* ---- session_agrees_with_db_after_each_boundary: REFUTED for the unrestricted alphabet: three
   histories (expire_on_commit, operations), one per remaining defect of the implementation, each ending
   in a successful commit/rollback after which [agrees] is false; each leaves the guard of the guarded
   theorem *)
Theorem c33_session_agrees_with_db_after_each_boundary_refuted : forall w, In w witnesses ->
  is_boundary (last (snd w) OFlush) = true /\ fst (final (fst w) (snd w)) = Ok /\
  agrees (snd (final (fst w) (snd w))) = false /\
  first_unguarded (sess0 (fst w)) (snd w) 0 <> None.
Proof. exact agreement_refuted. Qed.
Print Assumptions c33_session_agrees_with_db_after_each_boundary_refuted.

(* the histories through the three defects repaired in /repo (key-switch merge f8f802f, stale _deleted flag
   0c90c34, close() and deleted objects 9732dc8) are guarded and end in agreement *)
Example c33_ex_repaired_witnesses_agree : forall ps, In ps repaired ->
  fst (final true ps) = Ok /\ agrees (snd (final true ps)) = true /\ first_unguarded (sess0 true) ps 0 = None.
Proof. exact repaired_agree. Qed.

(* ---- session_agrees_with_db_after_each_boundary, GUARDED: for EVERY history whose operations pass
   the guard (SessTxnSpec.guard: outside the three defective regions g1 g5 g6, object operations not
   while a failed flush waits for its rollback) and stay inside the model:
   after EVERY operation - not only at the boundaries - every persistent object has its row in the
   transaction's view of the database and its loaded, unmodified attribute values equal that row, and no
   object is in the deleted state while its row exists ([agrees]); after every successful
   Session.commit / Session.rollback / handle.commit / handle.rollback nothing is pending, modified or
   marked for deletion *)
Theorem c33_session_agrees_with_db_after_each_boundary_guarded : forall e st p r st',
  GReach e st -> guard st p = true -> do_op p st = (r, st') -> r <> Unmodelled ->
  agrees st' = true /\
  (is_boundary p = true -> r = Ok -> is_clean st' = true /\ no_pending st' = true).
Proof. exact agreement_guarded. Qed.
Print Assumptions c33_session_agrees_with_db_after_each_boundary_guarded.

(* the invariant behind it (objects vs rows, every open transaction vs its snapshot, the savepoint stack
   of the database vs the stack of transactions) holds in every state of a guarded history *)
Theorem c33_guarded_histories_keep_the_invariant : forall e st, GReach e st -> Inv st.
Proof. exact greach_inv. Qed.
Print Assumptions c33_guarded_histories_keep_the_invariant.

(* ---- outer_commits_eq_nested_reference, the part that is proven (for guarded histories):
   (a) the rows other connections see change only when the outermost transaction is committed: by
       Session.commit() - or by a handle.commit() that leaves no transaction open, which cannot happen for
       begin_nested handles (not proven, hence the disjunct);
   (b) a successful Session.commit() publishes exactly the rows the session's own connection sees, and no
       transaction and no savepoint survives it;
   (c) Session.rollback() always succeeds, restores the committed rows on the connection and leaves
       neither transaction nor savepoint;
   (d) in every state the savepoint stack of the database (engine/RefDb.v snapshot-stack semantics, the
       commands are transcribed in SessTxn.v) is exactly the list of the session's live begin_nested
       transactions that hold a connection, innermost first: SAVEPOINT / RELEASE / ROLLBACK TO keep the
       two stacks in step.
   Not proven here: that the rows written by a flush are exactly the pending object changes (the value
   side of the nested-transaction reference semantics); that is compared on the implementation after
   every operation (specs/c33.py oracle: commit / release / rollback laws on the user-visible table). *)
Theorem c33_outer_commits_eq_nested_reference_partial :
  (forall e st p r st', GReach e st -> guard st p = true -> do_op p st = (r, st') -> r <> Unmodelled -> p <> OCommit ->
     committed st' = committed st \/ (exists h, p = OTCommit h /\ r = Ok /\ stack st' = [])) /\
  (forall e st r st', GReach e st -> guard st OCommit = true -> do_op OCommit st = (r, st') -> r = Ok ->
     stack st' = [] /\ saves st' = [] /\ committed st' = work st' /\ is_clean st' = true) /\
  (forall e st, GReach e st ->
     exists st', do_op ORollback st = (Ok, st') /\ stack st' = [] /\ saves st' = [] /\
       committed st' = committed st /\ work st' = committed st /\ is_clean st' = true) /\
  (forall e st, GReach e st -> map fst (saves st) = map fid (filter live_conn (stack st))).
Proof. exact db_laws. Qed.
Print Assumptions c33_outer_commits_eq_nested_reference_partial.
