(* C39 - cascades follow their configured rules.  The statements, each an instance or a short consequence of the
   theorems of coq/orm/Cascade*.v.
   Model: coq/orm/Cascade.v (objects = nat, relationships = one-to-many + optional many-to-one backref). *)
From Coq Require Import List Bool Arith.
From SAV.orm Require Import Cascade CascadeBase CascadeOpts CascadeOptsProofs CascadeIterProofs CascadeOpsProofs
  CascadeFlushProofs CascadeFlushMain CascadeAppendProofs CascadeHistory CascadeFuel.
Import ListNotations.

(* CascadeOptions, option names -> flags; names: 0 save-update 1 merge 2 expunge 3 delete 4 delete-orphan 5 refresh-expire 6 all 7 none *)
Theorem c39_opts_invalid_iff : forall vs, parse_options vs = None <-> exists v, In v vs /\ v > 7.
Proof. exact opts_invalid_iff. Qed.
Print Assumptions c39_opts_invalid_iff.

Theorem c39_opts_all : forall vs, valid vs -> In 6 vs -> ~ In 7 vs ->
  exists w, parse_options vs = Some (mkCasc true true true true (mem 4 vs) true, w).
Proof.
  intros vs Hv H6 H7. rewrite (opts_flags vs Hv). unfold flag_spec.
  apply mem_In in H6. apply mem_false_notIn in H7. rewrite H6, H7. eexists. reflexivity.
Qed.
Print Assumptions c39_opts_all.

Theorem c39_opts_none : forall vs, valid vs -> In 7 vs -> parse_options vs = Some (no_casc, false).
Proof.
  intros vs Hv H7. rewrite (opts_flags vs Hv). unfold flag_spec. apply mem_In in H7. rewrite H7. reflexivity.
Qed.
Print Assumptions c39_opts_none.

Theorem c39_opts_plain : forall vs, valid vs -> ~ In 6 vs -> ~ In 7 vs ->
  parse_options vs = Some (mkCasc (mem 0 vs) (mem 1 vs) (mem 2 vs) (mem 3 vs) (mem 4 vs) (mem 5 vs),
                           mem 4 vs && negb (mem 3 vs)).
Proof.
  intros vs Hv H6 H7. rewrite (opts_flags vs Hv). unfold flag_spec.
  apply mem_false_notIn in H6. apply mem_false_notIn in H7. rewrite H6, H7. reflexivity.
Qed.
Print Assumptions c39_opts_plain.

Theorem c39_opts_delete_orphan_requires_delete : forall vs c w,
  parse_options vs = Some (c, w) -> w = (c_do c && negb (c_dl c)).
Proof. exact opts_warning. Qed.
Print Assumptions c39_opts_delete_orphan_requires_delete.

Theorem c39_opts_every_combination : forall c : casc, exists vs, valid vs /\ exists w, parse_options vs = Some (c, w).
Proof. exact opts_every_combination. Qed.
Print Assumptions c39_opts_every_combination.

(* for every configuration, every state (cyclic object graphs included), every cascade type and halt predicate *)
Theorem c39_cascade_iterator_eq_reach : forall cfg s t halt o x,
  In x (cascade_iter cfg s t halt o) <-> creach cfg s t halt o x.
Proof. exact cascade_iter_reach. Qed.
Print Assumptions c39_cascade_iterator_eq_reach.

Theorem c39_cascade_iterator_visits_once : forall cfg s t halt o, NoDup (cascade_iter cfg s t halt o).
Proof. exact cascade_iter_nodup. Qed.
Print Assumptions c39_cascade_iterator_visits_once.

(* for any state: in_session after add(o) = before + o + what the save-update cascade reaches from o
   (the iterator halts at objects that are already in the session) *)
Theorem c39_save_update_closure : forall cfg s o,
  was_deleted s o = false ->
  (forall x, creach cfg (add_lead s o) TSU (in_session (add_lead s o)) o x -> was_deleted s x = false) ->
  let s' := fst (op_add cfg s o) in
  snd (op_add cfg s o) = 0 /\ poison s' = poison s /\
  (forall x, in_session s' x = true <->
             in_session s x = true \/ x = o \/ creach cfg (add_lead s o) TSU (in_session (add_lead s o)) o x) /\
  (forall x, x <> o -> ~ creach cfg (add_lead s o) TSU (in_session (add_lead s o)) o x -> st s' x = st s x).
Proof. exact add_closure. Qed.
Print Assumptions c39_save_update_closure.

(* delete marks exactly o and the objects with an identity that the delete cascade reaches *)
Theorem c39_delete_closure_marked : forall cfg s o,
  has_key s o = true -> was_deleted s o = false -> marked s o = false ->
  (forall x, creach cfg s TDL no_halt o x -> was_deleted s x = false) ->
  let s' := fst (op_delete cfg s o) in
  snd (op_delete cfg s o) = 0 /\ poison s' = poison s /\
  (forall x, marked s' x = true <->
             marked s x = true \/ x = o \/ (creach cfg s TDL no_halt o x /\ has_key s x = true)).
Proof. exact delete_closure. Qed.
Print Assumptions c39_delete_closure_marked.

Theorem c39_expunge_closure : forall cfg s o, attached s o = true ->
  let s' := fst (op_expunge cfg s o) in
  snd (op_expunge cfg s o) = 0 /\ poison s' = poison s /\
  (forall x, (x = o \/ creach cfg s TEX no_halt o x) -> st s' x = expunged (st s x)) /\
  (forall x, x <> o -> ~ creach cfg s TEX no_halt o x -> st s' x = st s x) /\
  (forall x, attached s' x = true <-> attached s x = true /\ x <> o /\ ~ creach cfg s TEX no_halt o x).
Proof. exact expunge_closure. Qed.
Print Assumptions c39_expunge_closure.

Theorem c39_refresh_expire_closure : forall cfg s o, st s o = Persistent ->
  let s' := fst (op_expire cfg s o) in
  snd (op_expire cfg s o) = 0 /\ poison s' = poison s /\
  (forall x, expired s' x = true <->
             expired s x = true \/ ((x = o \/ creach cfg s TRE no_halt o x) /\ has_key s x = true)) /\
  (forall x, st s' x = if is_pending s x then
                         (if mem x (cascade_iter cfg s TRE no_halt o) then Transient else Pending)
                       else st s x).
Proof. exact expire_closure. Qed.
Print Assumptions c39_refresh_expire_closure.

(* save-update on append: the known defect *)
Theorem c39_append_save_update_guarded : forall cfg s p ri c,
  attached s p = true -> c_su (fwd (getrel cfg ri)) = true -> mem c (coll s p ri) = false ->
  was_deleted s c = false -> moves_unsaved_child cfg s p ri c = false ->
  in_session (op_append cfg s p ri c) c = true /\ In c (coll (op_append cfg s p ri c) p ri).
Proof. exact append_save_update_guarded. Qed.
Print Assumptions c39_append_save_update_guarded.

Theorem c39_append_save_update_refuted :
  exists cfg s p ri c,
    attached s p = true /\ c_su (fwd (getrel cfg ri)) = true /\ mem c (coll s p ri) = false /\
    was_deleted s c = false /\ in_session s c = true /\ poison (op_append cfg s p ri c) = false /\
    In c (coll (op_append cfg s p ri c) p ri) /\ in_session (op_append cfg s p ri c) c = false /\
    rowp (fst (op_flush cfg (op_append cfg s p ri c))) c = false /\
    rowp (fst (op_flush cfg (op_append cfg s p ri c))) p = true.
Proof. exists wit_cfg, wit_state, 0, 0, 2. vm_compute. repeat split; auto. Qed.
Print Assumptions c39_append_save_update_refuted.

Example c39_guard_is_satisfiable_and_excludes_the_witness :
  moves_unsaved_child wit_cfg wit_state 0 0 2 = true /\
  moves_unsaved_child wit_cfg (run wit_cfg [OAdd 0; OAdd 1; OAppend 1 0 2; OFlush]) 0 0 2 = false.
Proof. exact (conj guard_excludes_witness (proj2 (proj2 append_persistent_child_moves))). Qed.

(* flush, for every processor order [procs].  flush_regs cfg procs s u : the unit of work ended its presort loop with
   registrations u (reg u x = Some true: DELETE, Some false: INSERT/UPDATE); the existsb hypothesis (no_flush_error
   in CascadeFlushProofs.v): no FlushError, i.e. no DELETE registered for a pending object *)
Theorem c39_flush_outcome : forall cfg procs s u,
  flush_regs cfg procs s u ->
  existsb (fun o => is_del u o && negb (has_key (fst (flush_top cfg s)) o)) (order u) = false ->
  let s' := fst (flush_with cfg procs s) in
  snd (flush_with cfg procs s) = 0 /\ poison s' = poison s /\
  (forall x, st s' x = match reg u x with
                       | Some true => Deleted | Some false => Persistent | None => st (fst (flush_top cfg s)) x end) /\
  (forall x, rowp s' x = match reg u x with Some b => negb b | None => rowp s x end).
Proof. exact flush_outcome. Qed.
Print Assumptions c39_flush_outcome.

(* the presort loop never runs out of fuel (the distinguished "unmodelled" result is unreachable through it) *)
Theorem c39_flush_fuel_suffices : forall cfg procs s,
  incl procs (all_procs cfg) -> (forall x, in_session s x = true -> x < nobj cfg) ->
  presort cfg (fst (flush_top cfg s)) procs (presort_fuel cfg) (snd (flush_top cfg s)) <> None.
Proof. exact flush_fuel_suffices. Qed.
Print Assumptions c39_flush_fuel_suffices.

(* orphan rule: removed from a delete-orphan collection (flag cleared: _is_orphan) and not re-associated => deleted *)
Theorem c39_orphan_rule : forall cfg procs s u c,
  flush_regs cfg procs s u ->
  existsb (fun o => is_del u o && negb (has_key (fst (flush_top cfg s)) o)) (order u) = false ->
  In c (top_proc cfg s) -> has_key s c = true -> is_orphan cfg s c = true ->
  (forall p ri, ~ In c (h_added (hist_coll s p ri))) ->
  st (fst (flush_with cfg procs s)) c = Deleted /\ rowp (fst (flush_with cfg procs s)) c = false.
Proof.
  intros cfg procs s u c Hr Hnp Hc Hk Ho Hno.
  exact (flush_registered cfg procs s u c true Hr Hnp (flush_orphan_registered cfg procs s u c Hr Hc Hk Ho Hno)).
Qed.
Print Assumptions c39_orphan_rule.

(* whatever Session.delete marked is deleted by the flush *)
Theorem c39_flush_marked_deleted : forall cfg procs s u x,
  flush_regs cfg procs s u ->
  existsb (fun o => is_del u o && negb (has_key (fst (flush_top cfg s)) o)) (order u) = false ->
  x < nobj cfg -> marked s x = true -> st s x = Persistent ->
  (forall p ri, ~ In x (h_added (hist_coll s p ri))) ->
  st (fst (flush_with cfg procs s)) x = Deleted /\ rowp (fst (flush_with cfg procs s)) x = false.
Proof.
  intros cfg procs s u x Hr Hnp Hx Hm Hst Hno.
  exact (flush_registered cfg procs s u x true Hr Hnp (flush_marked_registered cfg procs s u x Hr Hx Hm Hst Hno)).
Qed.
Print Assumptions c39_flush_marked_deleted.

(* ... and the hypothesis "not added to another collection" is necessary: register_object(cancel_delete=True) *)
Theorem c39_flush_marked_deleted_refuted :
  exists cfg s x,
    poison s = false /\ marked s x = true /\ st s x = Persistent /\ snd (op_flush cfg s) = 0 /\
    st (fst (op_flush cfg s)) x = Persistent /\ rowp (fst (op_flush cfg s)) x = true /\
    marked (fst (op_flush cfg s)) x = true /\
    (exists p ri, In x (h_added (hist_coll s p ri))) /\
    (exists ri p, rowfk (fst (op_flush cfg s)) x ri = Some p /\ c_do (fwd (getrel cfg ri)) = true /\
                  rowp (fst (op_flush cfg s)) p = false).
Proof.
  exists wit_cfg2, (run wit_cfg2 [OAdd 1; OAppend 1 0 2; OFlush; OAppend 0 1 2; ODelete 1; OAdd 0]), 2.
  vm_compute. repeat split; auto. exists 0, 1. left. reflexivity.
  exists 0, 1. repeat split; reflexivity.
Qed.
Print Assumptions c39_flush_marked_deleted_refuted.

(* conversely: deleted at flush  is included in  marked + orphans + reach_delete(orphans)
   (+ the targets of a many-to-one delete cascade) *)
Theorem c39_flush_deletes_only_justified : forall cfg procs s u x,
  flush_regs cfg procs s u -> reg u x = Some true ->
  marked s x = true \/ (is_orphan cfg s x = true /\ has_key s x = true) \/
  exists y, (orphan_of cfg s y \/ m2o_target cfg s y) /\ (x = y \/ creach cfg s TDL no_halt y x).
Proof. exact flush_deletes_justified. Qed.
Print Assumptions c39_flush_deletes_only_justified.

(* rows after a flush match the object states: deleted objects have no row, saved ones have one *)
Theorem c39_flush_rows_match_states : forall cfg procs s u,
  flush_regs cfg procs s u ->
  existsb (fun o => is_del u o && negb (has_key (fst (flush_top cfg s)) o)) (order u) = false ->
  forall x, reg u x <> None ->
  (st (fst (flush_with cfg procs s)) x = Deleted /\ rowp (fst (flush_with cfg procs s)) x = false) \/
  (st (fst (flush_with cfg procs s)) x = Persistent /\ rowp (fst (flush_with cfg procs s)) x = true).
Proof. exact flush_rows_match_states. Qed.
Print Assumptions c39_flush_rows_match_states.

(* a row can be left pointing to a deleted delete-orphan parent: appending to a parent that is marked for deletion *)
Theorem c39_no_dangling_orphan_rows_refuted :
  exists cfg ops, poison (run cfg ops) = false /\
    exists c ri p, rowp (run cfg ops) c = true /\ rowfk (run cfg ops) c ri = Some p /\
                   c_do (fwd (getrel cfg ri)) = true /\ rowp (run cfg ops) p = false.
Proof.
  exists wit_cfg, [OAdd 0; OAppend 0 0 2; OFlush; ODelete 0; OAppend 0 0 3; OFlush].
  split; [vm_compute; reflexivity|]. exists 3, 0, 0. vm_compute. repeat split.
Qed.
Print Assumptions c39_no_dangling_orphan_rows_refuted.

(* over all histories (induction over the operation list): a row exists exactly for the persistent and detached objects; session.deleted holds persistent objects only *)
Theorem c39_rows_iff_identity_all_histories : forall cfg ops x,
  rowp (run cfg ops) x = has_row_state (st (run cfg ops) x) /\
  (marked (run cfg ops) x = true -> st (run cfg ops) x = Persistent).
Proof. intros cfg ops x. exact (conj (proj1 (run_Inv cfg ops) x) (proj2 (run_Inv cfg ops) x)). Qed.
Print Assumptions c39_rows_iff_identity_all_histories.

(* hypotheses of the flush theorems are satisfiable: a history that orphans a persistent child *)
Example c39_orphan_rule_example :
  let s := run wit_cfg [OAdd 0; OAppend 0 0 2; OFlush; ORemove 0 0 2] in
  In 2 (top_proc wit_cfg s) /\ has_key s 2 = true /\ is_orphan wit_cfg s 2 = true /\
  st (fst (op_flush wit_cfg s)) 2 = Deleted /\ rowp (fst (op_flush wit_cfg s)) 2 = false /\ rowp s 2 = true.
Proof. vm_compute. repeat split; auto. Qed.
