(* C26 - the pool recovers from any fault without leaking or reusing dead connections.
   Statements only; the proofs are [exact <lemma>] or computations on a witness.
   Model: engine/PoolSeq.v (sequential record/fairy life cycle of the five pool classes, every DBAPI
   call consulting a fault script). *)
From Coq Require Import List ZArith Bool Arith.
Import ListNotations.
From SAV.engine Require Import PoolSeq PoolSeqFrame PoolSeqLeakProofs PoolSeqAccProofs PoolSeqAcc2Proofs PoolSeqKernelProofs.
Open Scope Z_scope.

(* no_leak: every pool class, every configuration, every history of harness operations, every fault script
   (Exception and BaseException faults at connect, ping, checkout listener, rollback/commit and close):
   once every holder has dropped its reference no record is checked out - unless a BaseException
   escaped close() INSIDE the `except BaseException` handler of _finalize_fairy (its
   connection_record.invalidate(e)) while that ran as weakref callback (ghost taint_gc).  With the repairs
   51edfd0 / 356c0aa / d50803e in /repo this is the only excluded region. *)
Theorem c26_no_leak : forall cf fl ops,
  let s := run cf ops (init cf fl) in
  taint_gc s = false -> all_released s -> inuse_count s = O.
Proof. exact no_leak. Qed.
Print Assumptions c26_no_leak.

(* the excluded region is real: the garbage collector finalises a dropped checkout, the rollback
   raises, the handler's invalidate() calls close(), which raises BaseException: the check-in (and
   everything else in the handler) is skipped and the interpreter swallows the error *)
Theorem c26_no_leak_refuted_baseexception_from_close_in_gc_handler : exists cf fl ops,
  let s := run cf ops (init cf fl) in
  all_released s /\ inuse_count s = 1%nat /\ checkedout cf s = 1.
Proof.
  exists (mkcfg KQueue 1 1 false (-1) false false RRollback true), [0; 1; 2], [(OConnect, 1); (ODel 0, 1)].
  vm_compute. repeat split; auto. intros h [H|[]]; auto.
Qed.
Print Assumptions c26_no_leak_refuted_baseexception_from_close_in_gc_handler.

(* regions repaired in /repo: BaseException out of the rollback run by the weakref callback (51edfd0); two
   BaseExceptions out of close() during one checkout (d50803e) *)
Example c26_ex_fixed_leaks :
  (let cf := mkcfg KQueue 1 1 false (-1) false false RRollback true in
   let s := run cf [(OConnect, 1); (ODel 0, 1)] (init cf [0; 2]) in
   all_released s /\ inuse_count s = O /\ checkedout cf s = 0) /\
  (let cf := mkcfg KQueue 1 (-1) true 0 true false RCommit true in
   let s := run cf [(OConnect, 1)] (init cf [0; 2; 2]) in
   all_released s /\ inuse_count s = O /\ checkedout cf s = 0).
Proof. vm_compute. repeat split; auto; intros h []; auto; contradiction. Qed.

(* overflow_consistent (QueuePool): on every path (connect failures, failing pre-ping / checkout listener,
   errors during reset and close, invalidation, detach, garbage-collected checkouts) the increments and decrements of the
   overflow counter balance: checkedout() is exactly the number of records in use, idle records never
   exceed pool_size, overflow stays within [-pool_size, max_overflow] - unless a BaseException has
   escaped a DBAPI close() ([taint] = taint_close || taint_gc; the one place that sets taint_gc is the first case of
   PoolSeqOpOn.finalized, where taint_close is set already).  The guard is coarser than what still fails: the remaining defect is the one of the
   refutation below. *)
Theorem c26_overflow_consistent : forall cf, kind cf = KQueue -> 0 <= psize cf -> -1 <= maxov cf ->
  forall fl ops, let s := run cf ops (init cf fl) in
  taint s = false ->
  checkedout cf s = Z.of_nat (inuse_count s) /\
  (0 < psize cf -> checkedin s <= psize cf) /\
  - psize cf <= overflow s /\ (0 <= maxov cf -> overflow s <= maxov cf).
Proof. intros cf KQ PS MO. exact (overflow_consistent cf KQ PS MO). Qed.
Print Assumptions c26_overflow_consistent.

(* consequence of the two: all holders released => checkedout() = 0 *)
Theorem c26_no_leak_checkedout : forall cf, kind cf = KQueue -> 0 <= psize cf -> -1 <= maxov cf ->
  forall fl ops, let s := run cf ops (init cf fl) in
  taint s = false -> all_released s -> checkedout cf s = 0.
Proof. intros cf KQ PS MO. exact (no_leak_checkedout cf KQ PS MO). Qed.
Print Assumptions c26_no_leak_checkedout.

(* what still fails: the queue is full, so returning the second connection closes it; close() raises a
   BaseException out of connection_record.checkin() at the end of _finalize_fairy, the lines that detach
   the fairy are skipped; detach() through the stale fairy returns the (discarded) record again *)
Theorem c26_overflow_refuted_baseexception_from_close_at_checkin : exists cf fl ops,
  kind cf = KQueue /\ 0 <= psize cf /\ -1 <= maxov cf /\
  let s := run cf ops (init cf fl) in
  inuse_count s = O /\ checkedout cf s = -1.
Proof.
  exists (mkcfg KQueue 1 1 false (-1) false false RRollback true), [0; 0; 0; 0; 2],
    [(OConnect, 1); (OConnect, 1); (OClose 0, 1); (OClose 1, 1); (ODetach 1, 1)].
  vm_compute. repeat split; auto; try easy.
Qed.
Print Assumptions c26_overflow_refuted_baseexception_from_close_at_checkin.

(* repaired in /repo by 356c0aa: BaseException out of the rollback of an explicit close(), then detach() *)
Example c26_ex_fixed_stale_fairy :
  let cf := mkcfg KQueue 1 1 false (-1) false false RRollback true in
  let s := run cf [(OConnect, 1); (OClose 0, 1); (ODetach 0, 1)] (init cf [0; 2]) in
  taint s = false /\ inuse_count s = O /\ checkedout cf s = 0.
Proof. vm_compute. auto. Qed.

(* no_dead_reuse, PARTIAL: only the decision kernel is proved for all states: whenever get_connection hands back the
   connection the record already holds (no new DBAPI connection is made), none of the three staleness
   tests fired, i.e. it is not older than the pool's invalidation stamp, not soft-invalidated after its
   start, and within the recycle time.  Missing: the invariant that lifts this to whole histories (the
   record's start stamp is the connection's creation stamp; a closed connection is in no record; every
   pool-wide invalidation / soft invalidation leaves a stamp strictly greater than the start stamps of
   the connections it concerns under a strictly increasing clock) - see the level note in specs/c26.py.  The refutation
   below shows the region where the full statement fails (equal time stamps). *)
Theorem c26_no_dead_reuse_kernel_partial : forall cf r s c s',
  get_connection cf r s = (Ok c, s') -> nconns s' = nconns s ->
  r_dbc s r = Some c /\ r_dbc s' r = Some c /\
  ~ (r_start s' r < inv_time s') /\ ~ (r_start s' r < r_soft s' r) /\
  (-1 < recycle cf -> clock s' - r_start s' r <= recycle cf).
Proof. exact get_connection_kernel. Qed.
Print Assumptions c26_no_dead_reuse_kernel_partial.

(* repaired in /repo by d50803e: the checkout listener raises InvalidatePoolError,
   the invalidation's close() raises BaseException; the next checkout no longer gets that connection *)
Example c26_ex_fixed_closed_connection_not_reused :
  let cf := mkcfg KQueue 2 0 false (-1) true true RRollback true in
  exists c s', step cf OConnect 1 (run cf [(OConnect, 1)] (init cf [0; 4; 2])) = (Ok (Z.of_nat c), s') /\
               c_nclose s' c = 0 /\ c_nclose s' 0 = 1.
Proof. eexists 1%nat. eexists. split; [vm_compute; reflexivity|vm_compute; auto]. Qed.

(* equal time stamps (the clock does not advance between the state changes): a soft-invalidated
   connection, and one older than a pool-wide invalidation, are handed out again - the weakness the
   comment in get_connection concedes *)
Theorem c26_equal_stamp_reuse_possible :
  (exists cf fl ops c s', tick cf = false /\
     step cf OConnect 1 (run cf ops (init cf fl)) = (Ok (Z.of_nat c), s') /\
     c_soft s' c = true /\ c_nclose s' c = 0) /\
  (exists cf fl ops c s', tick cf = false /\
     step cf OConnect 1 (run cf ops (init cf fl)) = (Ok (Z.of_nat c), s') /\
     c_mark s' c = true /\ c_nclose s' c = 0).
Proof.
  split.
  - exists (mkcfg KQueue 1 0 false (-1) false false RRollback false), [],
      [(OConnect, 1); (OInvalidate 0 true, 0); (OClose 0, 1)], 0%nat.
    eexists. split; [reflexivity|]. split; [vm_compute; reflexivity|]. split; vm_compute; reflexivity.
  - exists (mkcfg KQueue 2 0 false (-1) false false RRollback false), [],
      [(OConnect, 1); (OConnect, 0); (OClose 1, 0); (OPoolInvalidate 0, 0)], 1%nat.
    eexists. split; [reflexivity|]. split; [vm_compute; reflexivity|]. split; vm_compute; reflexivity.
Qed.
Print Assumptions c26_equal_stamp_reuse_possible.

(* the ledger clause (every opened DBAPI connection is idle in the pool, held, detached or closed) fails:
   StaticPool drops its record when it finds it soft-invalidated (or older than a pool invalidation)
   and never closes the connection the record still holds: open, not idle, not held *)
Theorem c26_ledger_refuted_staticpool : exists cf fl ops,
  kind cf = KStatic /\
  let s := run cf ops (init cf fl) in
  taint s = false /\ c_nclose s 0 = 0 /\ c_det s 0 = false /\
  (forall r, (r < nrecs s)%nat -> r_dbc s r = Some 0%nat -> static s <> Some r /\ r_fairy s r = None).
Proof.
  exists (mkcfg KStatic 1 0 false (-1) false false RRollback true), [],
    [(OConnect, 1); (OInvalidate 0 true, 1); (OClose 0, 1); (OConnect, 1)].
  split; [reflexivity|]. cbv zeta.
  split; [vm_compute; reflexivity|]. split; [vm_compute; reflexivity|]. split; [vm_compute; reflexivity|].
  intros r Hr Hd. destruct r as [|[|r]].
  - vm_compute. split; [discriminate|reflexivity].
  - vm_compute in Hd. discriminate.
  - vm_compute in Hr. exfalso. apply le_S_n, le_S_n in Hr. inversion Hr.
Qed.
Print Assumptions c26_ledger_refuted_staticpool.

(* an untainted history with faults at connect, reset, ping and the listener, every holder released *)
Example c26_ex_history :
  let cf := mkcfg KQueue 1 1 false 3 true true RRollback true in
  let s := run cf [(OConnect, 1); (OConnect, 1); (OClose 0, 5); (OConnect, 1); (ODel 1, 1); (OClose 2, 1); (ODel 0, 1); (ODel 2, 1)]
               (init cf [0; 3; 0; 0; 1; 0; 4; 0; 0; 1]) in
  taint s = false /\ all_released s /\ (nconns s = 4)%nat /\ checkedout cf s = 0.
Proof.
  vm_compute. repeat split; auto. intros h Hin.
  repeat (destruct Hin as [Hin|Hin]; [symmetry; exact Hin|]). destruct Hin.
Qed.
