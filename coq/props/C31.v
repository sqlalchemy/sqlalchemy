(* C31 - flush emits statements in an order that satisfies every constraint.
   Statements only; every proof is [exact <lemma>] (the last example is by evaluation).

   Vocabulary.  orm/FlushOrder.v (model of unitofwork.py / dependency.py after the presort phase):
   [graph] = the dependency processors (kind, parent / child base mapper, post_update, active, fk
   column), the objects (base mapper, has a row, role 0 = not in the flush / 1 = save / 2 = delete), the
   get_all_pending lists, and - database level - the fk references and secondary rows before and after
   the flush and the NOT NULL columns.  [plan T g] = Layers (the layers of sort_as_subsets over the final
   records and the final dependency set of _generate_actions, per-state break-up included) | PCircular |
   PFuel | PAssert; [std_tables] = the dependency tuples of per_property_dependencies /
   per_state_dependencies (regenerated from the source on every run and compared).
   orm/FlushOrderSpec.v (spec side): [events g] = the INSERT / UPDATE / post_update UPDATE / DELETE /
   secondary INSERT / DELETE statements of the flush, [stmt_of g e] their content, [homes g cy e] the
   record(s) that emit e, [exec nn db stmts] the reference database with IMMEDIATE foreign key and NOT
   NULL checks ([None] = a statement was rejected), [needs g] = the ordering needs that follow from the
   constraints alone.  [linearizes layers g cy tr] (orm/FlushOrderMain.v) = tr contains every statement
   once, in layer order, in ANY order inside a layer (the code's order there is sort_key order without
   cycles and set.pop() order with cycles).
   Hypotheses (all decidable, evaluated on every case of the correspondence): [wf] ids unique, the
   reference lists are functional, deleted objects have rows; [consistent] = the state after the flush
   satisfies every foreign key and NOT NULL constraint and rows the flush does not write keep their
   values (the hypothesis of the property); [managed] = every foreign key reference that
   matters is handled by an active relationship whose get_all_pending list links the two rows, EXCEPT
   the regions refuted below. *)
From Coq Require Import List NArith Bool Permutation Sorted.
Import ListNotations.
From SAV.util Require Import Topo Cycles TopoRun TopoProofs TopoCycle TopoExtra CyclesSound CyclesComplete CyclesExact.
From SAV.orm Require Import FlushOrder FlushOrderSpec FlushOrderBase FlushOrderSort FlushOrderCover FlushOrderNeeds
  FlushOrderCovered FlushOrderExec FlushOrderMain FlushOrderRefuted FlushOrderTotal FlushOrderCyc FlushOrderFinal FlushOrderLate.

(* ANY object graph (any number of mappers and relationships of the three kinds, with or without
   post_update, mapper-level cycles broken up into per-state records on either side, inserts, updates,
   deletes and secondary rows mixed): if the state after the flush satisfies the constraints, every
   statement sequence the plan allows is accepted by a database that checks foreign keys and NOT NULL
   immediately *)
Theorem c31_plan_respects_fk_guarded : forall g cy layers tr,
  wf g = true -> consistent g = true ->
  cycles std_tables g = Some cy -> managed g cy = true ->
  plan std_tables g = Layers layers -> linearizes layers g cy tr ->
  exists d', exec (g_notnull g) (db0 g) (map (stmt_of g) tr) = Some d'.
Proof. exact plan_respects_fk_guarded_final. Qed.
Print Assumptions c31_plan_respects_fk_guarded.

(* its three parts.  A (from C19): the layers respect every path of the final dependency set *)
Theorem c31_layers_respect_paths : forall T g cy r,
  sort_as_subsets (cedges (final_edges T g cy)) (dedup (map code (final_items g cy))) = Ok r ->
  forall a b, fpath T g cy a b ->
  exists i j, lidx r (code a) = Some i /\ lidx r (code b) = Some j /\ i < j.
Proof. exact fpath_rank. Qed.
Print Assumptions c31_layers_respect_paths.

(* B (edges_cover_fk): every ordering need that follows from the constraints is covered by a path
   between the records that emit the two statements *)
Theorem c31_edges_cover_fk : forall g cy,
  wf g = true -> cyc_ok g cy = true -> managed g cy = true -> consistent g = true ->
  forall e1 e2, In (e1, e2) (needs g) ->
  forall h1 h2, In h1 (homes g cy e1) -> In h2 (homes g cy e2) -> fpath std_tables g cy h1 h2.
Proof. exact needs_covered. Qed.
Print Assumptions c31_edges_cover_fk.

(* C (database only): a sequence that contains each statement at most once and meets the needs is
   accepted; no reference to the unit of work *)
Theorem c31_needs_suffice : forall g, wf g = true -> consistent g = true ->
  forall tr, NoDup tr -> incl tr (events g) ->
  (forall e1 e2, In (e1, e2) (needs g) -> In e2 tr -> before tr e1 e2) ->
  exists d', exec (g_notnull g) (db0 g) (map (stmt_of g) tr) = Some d' /\ Inv g tr d'.
Proof. exact exec_ok. Qed.
Print Assumptions c31_needs_suffice.

(* without [managed] the claim is false.  1: mappers A, B that depend on each other through two
   many-to-one relationships; a1.b = None; delete(b1).  When the old target b1 is LOADED the per-state edge
   (save_parent, child_action) registered since a8ba61d orders the UPDATE before the DELETE: the case is inside
   [managed], all hypotheses hold and the dependency is in the final set *)
Example c31_m2o_unset_delete_repaired : exists cy layers,
  wf g_m2o = true /\ consistent g_m2o = true /\ cycles std_tables g_m2o = Some cy /\ managed g_m2o cy = true /\
  plan std_tables g_m2o = Layers layers /\ linearizes layers g_m2o cy [ESave 0; EDel 1]%N /\
  exec (g_notnull g_m2o) (db0 g_m2o) (map (stmt_of g_m2o) [ESave 0; EDel 1]%N) <> None /\
  In (code (SaveSt 0), code (DelSt 1)) (cedges (final_edges std_tables g_m2o cy)).
Proof. exact m2o_unset_delete_repaired. Qed.

(* when a1.b was expired / never loaded at the time it is reset, the old target is not in get_all_pending, the
   unit of work does not know it and (the mapper-level edge being dropped by the break-up) DELETE b1 is in the
   first layer, UPDATE a1 in the second.  Every other hypothesis holds, the plan exists, the sequence is
   rejected, another order is accepted *)
Theorem c31_m2o_unset_delete_unloaded_refuted : refuted g_m2o_unloaded tr_m2o.
Proof. exact m2o_unset_delete_unloaded_refuted. Qed.
Print Assumptions c31_m2o_unset_delete_unloaded_refuted.

(* 2: one-to-many with post_update, the parent is deleted and the child survives: the UPDATE that sets
   the fk to NULL is emitted by PostUpdateAll(child, isdelete=False), which nothing orders before
   DeleteAll(parent) *)
Theorem c31_post_update_o2m_delete_parent_refuted : refuted g_post tr_post.
Proof. exact post_update_o2m_delete_parent_refuted. Qed.
Print Assumptions c31_post_update_o2m_delete_parent_refuted.

(* three facts about find_cycles on these dependency tables that the code relies on, for EVERY graph: only
   per-mapper save / delete / save-processor records are on cycles ([cyc_shape]); the saves and the deletes
   of a mapper are on cycles together ([paired] - the assertion in per_state_flush_actions, which therefore
   never fires); a processor is on a cycle only together with the save record of its parent mapper
   ([procs_follow]).  B uses them as [cyc_ok]; here they are discharged *)
Theorem c31_cycle_set_facts : forall g cy, wf g = true -> cycles std_tables g = Some cy -> cyc_ok g cy = true.
Proof. exact cyc_ok_always. Qed.
Print Assumptions c31_cycle_set_facts.

Theorem c31_assertion_never_fires : forall g, wf g = true -> plan std_tables g <> PAssert.
Proof. exact plan_never_asserts. Qed.
Print Assumptions c31_assertion_never_fires.

(* no dependency of the final set leads from a delete record back to a save record: the records reachable
   from a delete are deletes, post_update UPDATEs of surviving rows and the save-processors of post_update
   one-to-many relationships ([late]).  So a save -> delete dependency - in particular the
   (save_parent, child_action) edge of the repair - lies on no cycle and cannot cause a CircularDependencyError *)
Theorem c31_no_dependency_from_delete_to_save : forall g cy, NoDup (map d_id (g_deps g)) ->
  forall a b, In (a, b) (final_edges std_tables g cy) -> late g a = true -> late g b = true.
Proof. exact final_edges_late. Qed.
Print Assumptions c31_no_dependency_from_delete_to_save.

Theorem c31_save_to_delete_edge_on_no_cycle : forall g cy, NoDup (map d_id (g_deps g)) ->
  forall a b, late g a = false -> late g b = true -> ~ freach g cy b a.
Proof. exact save_to_delete_edge_on_no_cycle. Qed.
Print Assumptions c31_save_to_delete_edge_on_no_cycle.

Theorem c31_find_cycles_exact : forall T g,
  exists cy, cycles T g = Some cy /\ forall x, In x cy <-> on_cycle (cedges (edges0 T g)) x.
Proof. exact cycles_exact. Qed.
Print Assumptions c31_find_cycles_exact.

Theorem c31_fuel_suffices : forall T g, plan T g <> PFuel.
Proof. exact plan_never_out_of_fuel. Qed.
Print Assumptions c31_fuel_suffices.

(* CircularDependencyError exactly when the final dependency set has a cycle among the final records *)
Theorem c31_circular_iff : forall T g cy, cycles T g = Some cy ->
  forallb (expand_assert g cy) (cyc_actions g cy) = true ->
  (plan T g = PCircular <->
   exists w, cycle (cedges (final_edges T g cy)) w /\ incl w (dedup (map code (final_items g cy)))).
Proof. exact plan_circular_iff. Qed.
Print Assumptions c31_circular_iff.

Local Open Scope N_scope.
(* an adjacency list (self-referential one-to-many + many-to-one on one column: cycle regime): n0
   persistent, n1 pending child of n0, n2 pending child of n1; all hypotheses hold *)
Definition ex_tree : graph := {|
  g_deps := [mkdep 0 0 0 0 false true 0; mkdep 1 1 0 0 false true 0];
  g_sts := [mkst 0 0 true 1; mkst 1 0 false 1; mkst 2 0 false 1];
  g_links := [(0, 0, Some 1); (0, 1, Some 2); (1, 1, Some 0); (1, 2, Some 1); (1, 0, None)];
  g_ref0 := []; g_ref1 := [(1, 0, 0); (2, 0, 1)];
  g_sec0 := []; g_sec1 := []; g_notnull := [] |}.
Example c31_ex_tree : exists cy layers,
  wf ex_tree = true /\ consistent ex_tree = true /\ cycles std_tables ex_tree = Some cy /\ cy <> [] /\
  cyc_ok ex_tree cy = true /\ managed ex_tree cy = true /\ plan std_tables ex_tree = Layers layers /\
  needs ex_tree = [(ESave 1, ESave 2)].
Proof. eexists. eexists. split; [vm_compute; reflexivity|]. split; [vm_compute; reflexivity|].
  split; [vm_compute; reflexivity|]. split; [discriminate|]. split; [vm_compute; reflexivity|].
  split; [vm_compute; reflexivity|]. split; [vm_compute; reflexivity|]. vm_compute; reflexivity. Qed.
