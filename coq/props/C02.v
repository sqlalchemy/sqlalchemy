(* C02 - the compiled-statement cache is transparent.
   Statements only; proofs are applications of lemmas from SAV.sql.CacheKey*. *)
From Coq Require Import List NArith ZArith Bool.
Import ListNotations.
From SAV.sql Require Import CacheKey CacheExec CacheKeyProofs CacheKeyBinds CacheExecProofs CacheKeyMain CacheKeyRef CacheKeyTypes.

(* 1. T1 theorem.  T: per class, what the cache key records (from _traverse_internals / the custom
      _gen_cache_key methods); V: per class, the attributes the compiler's output depends on.
      If every attribute in V is keyed ([covers]), two statements with equal cache keys look the same to
      ANY compiler that reads only V-attributes: identical output (SQL text, bind types, positions), and
      their extracted parameters line up one to one. *)
Theorem c02_key_determines_sql :
  forall (T : ttab) (V : vtab), covers T V = true ->
  forall (OUT : Type) (compile_direct : ktree -> OUT) (s1 s2 : node) k b1 b2,
  wf T s1 = true -> wf T s2 = true -> gen_key T s1 = Some (k, b1) -> gen_key T s2 = Some (k, b2) ->
  compile_direct (view T V s1) = compile_direct (view T V s2) /\ map blbl b1 = map blbl b2.
Proof. exact key_determines_sql. Qed.
Print Assumptions c02_key_determines_sql.

(* the real tables do NOT satisfy [covers]: visit_label reads label.type, which Label._cache_key_traversal
   leaves out.  Witness on the reference excerpt: equal keys, different view *)
Theorem c02_key_determines_sql_refuted :
  covers T_ref V_ref = false /\
  wf T_ref s_label_default = true /\ wf T_ref s_label_boolean = true /\
  (exists k b1 b2, gen_key T_ref s_label_default = Some (k, b1) /\ gen_key T_ref s_label_boolean = Some (k, b2)) /\
  view T_ref V_ref s_label_default <> view T_ref V_ref s_label_boolean.
Proof.
  split; [vm_compute; reflexivity|]. split; [vm_compute; reflexivity|]. split; [vm_compute; reflexivity|].
  split; [eexists; eexists; eexists; split; vm_compute; reflexivity | vm_compute; discriminate].
Qed.
Print Assumptions c02_key_determines_sql_refuted.

(* bindparam.expanding was such a gap until f7c5c02: it is keyed now, the two statements get different keys *)
Example c02_expanding_is_keyed :
  keyed (tget T_ref c_bind) a_expanding = true /\ wf T_ref s_expanding = true /\
  (forall k1 b1 k2 b2, gen_key T_ref s_9 = Some (k1, b1) -> gen_key T_ref s_expanding = Some (k2, b2) -> k1 <> k2).
Proof.
  split; [vm_compute; reflexivity|]. split; [vm_compute; reflexivity|].
  intros k1 b1 k2 b2 H1 H2 E.
  assert (option_map fst (gen_key T_ref s_9) = option_map fst (gen_key T_ref s_expanding)) as D
    by (rewrite H1, H2, E; reflexivity).
  vm_compute in D. discriminate D.
Qed.

(* ... and it holds for all statements in which the gap attributes G are unset *)
Theorem c02_key_determines_sql_guarded :
  forall (T : ttab) (V : vtab) (G : list (N * N)), covers T (vminus V G) = true ->
  forall (OUT : Type) (compile_direct : ktree -> OUT) (s1 s2 : node) k b1 b2,
  gapfree G s1 = true -> gapfree G s2 = true ->
  wf T s1 = true -> wf T s2 = true -> gen_key T s1 = Some (k, b1) -> gen_key T s2 = Some (k, b2) ->
  compile_direct (view T V s1) = compile_direct (view T V s2) /\ map blbl b1 = map blbl b2.
Proof. exact key_determines_sql_guarded. Qed.
Print Assumptions c02_key_determines_sql_guarded.

(* what the compiler sees is a function of the (un-pruned) key *)
Theorem c02_view_is_a_function_of_the_key :
  forall (T : ttab) (V : vtab), covers T V = true -> forall s, view T V s = restrict V (proj T s).
Proof. exact view_restrict. Qed.
Print Assumptions c02_view_is_a_function_of_the_key.

(* the labels (positions in the key numbering) of the extracted parameters depend on the key only *)
Theorem c02_extracted_parameters_follow_the_key :
  forall (T : ttab) (s : node) k bs, gen_key T s = Some (k, bs) -> map blbl bs = kbl T k.
Proof. exact gen_key_labels. Qed.
Print Assumptions c02_extracted_parameters_follow_the_key.

(* the type component: TypeEngine._static_cache_key with the "is not None" skip test is injective in
   the constructor arguments of a class (0 / False / '' are kept apart from "not given") ... *)
Theorem c02_type_key_injective :
  forall a1 a2 : list targ, length a1 = length a2 ->
  tkey SkipNone a1 = tkey SkipNone a2 -> map eff a1 = map eff a2.
Proof. exact tkey_injective. Qed.
Print Assumptions c02_type_key_injective.
(* ... and is not with a truthiness test: Numeric(10, 0) / Numeric(10) *)
Theorem c02_type_key_truthiness_refuted :
  tkey SkipFalsy numeric_10_0 = tkey SkipFalsy numeric_10 /\ map eff numeric_10_0 <> map eff numeric_10 /\
  tkey SkipNone numeric_10_0 <> tkey SkipNone numeric_10.
Proof. exact tkey_falsy_not_injective. Qed.
Print Assumptions c02_type_key_truthiness_refuted.

(* 2. construct_params(extracted_parameters=...) on a Compiled made from s0 returns, in order, the
      values of the statement s being executed - never those of s0 - for EVERY parameter set of the
      execution (one for a plain execution, n for an executemany); a set may override a statement bind *)
Theorem c02_rebind_positional_guarded :
  forall (T : ttab) (V : vtab) (G : list (N * N)), covers T (vminus V G) = true ->
  forall (SQL : Type) (render : atom -> ktree -> SQL * list N),
  (forall ctx v, incl (snd (render ctx v)) (kbl T v)) ->
  forall ctx s0 s k b0 b (sets : list pset),
  wf T s0 = true -> wf T s = true -> gapfree G s0 = true -> gapfree G s = true ->
  gen_key T s0 = Some (k, b0) -> gen_key T s = Some (k, b) -> map bcall b0 = map bcall b ->
  (tsql SQL (compile T V SQL render ctx s0 b0), rebind_many SQL (compile T V SQL render ctx s0 b0) b sets)
  = exec_direct T V SQL render ctx s sets.
Proof. exact rebind_positional_gaps. Qed.
Print Assumptions c02_rebind_positional_guarded.

(* 3. every history, every cache state reachable by executing a prefix h1 (cold: h1 = [], warm,
      evicted: any eviction choice per step, disabled: per step flag): executing h2 through the cache
      returns, step by step, the text and the parameter values of uncached execution *)
Theorem c02_cached_exec_eq_direct_guarded :
  forall (T : ttab) (V : vtab) (G : list (N * N)), covers T (vminus V G) = true ->
  forall (SQL : Type) (render : atom -> ktree -> SQL * list N),
  (forall ctx v, incl (snd (render ctx v)) (kbl T v)) ->
  forall h1 h2 : list step,
  (forall s, In s (stmts (h1 ++ h2)) -> wf T s = true /\ gapfree G s = true) ->
  cunib T (stmts (h1 ++ h2)) = true ->
  fst (run T V SQL render (snd (run T V SQL render [] h1)) h2)
  = map (fun x => exec_direct T V SQL render (s_ctx x) (s_stmt x) (s_sets x)) h2.
Proof.
  intros T V G Hc SQL render Hh h1 h2 HU Hg.
  exact (cached_exec_eq_direct_gaps T V G Hc SQL render Hh h1 h2 HU (cunib_sound T _ Hg)).
Qed.
Print Assumptions c02_cached_exec_eq_direct_guarded.

(* with a table that covers everything there is no condition on the statements except the callable one *)
Theorem c02_cached_exec_eq_direct_full_table_guarded :
  forall (T : ttab) (V : vtab), covers T V = true ->
  forall (SQL : Type) (render : atom -> ktree -> SQL * list N),
  (forall ctx v, incl (snd (render ctx v)) (kbl T v)) ->
  forall h1 h2 : list step,
  (forall s, In s (stmts (h1 ++ h2)) -> wf T s = true) ->
  cunib T (stmts (h1 ++ h2)) = true ->
  fst (run T V SQL render (snd (run T V SQL render [] h1)) h2)
  = map (fun x => exec_direct T V SQL render (s_ctx x) (s_stmt x) (s_sets x)) h2.
Proof.
  intros T V Hc SQL render Hh h1 h2 HU Hg.
  exact (cached_exec_eq_direct T V Hc SQL render Hh h1 h2 HU (cunib_sound T _ Hg)).
Qed.
Print Assumptions c02_cached_exec_eq_direct_full_table_guarded.

(* the callable guard cannot be dropped: construct_params consults the CACHED statement's
   bindparam.callable.  Warm the cache with bindparam("p", 3), then execute the same statement with
   bindparam("p", callable_=lambda: 4): the cached execution sends None, the direct one sends 4.
   Every other hypothesis of the guarded theorem holds for this history. *)
Theorem c02_cached_exec_refuted :
  let h := [step_of s_3; step_of s_callable] in
  covers T_ref (vminus V_ref G_ref) = true /\
  (forall ctx v, incl (snd (render_ref ctx v)) (kbl T_ref v)) /\
  (forall s, In s (stmts h) -> wf T_ref s = true /\ gapfree G_ref s = true) /\
  cunib T_ref (stmts h) = false /\
  map snd (fst (run T_ref V_ref ktree render_ref [] h)) = [[[A 3]]; [[ANone]]] /\
  map (fun x => snd (exec_direct T_ref V_ref ktree render_ref (s_ctx x) (s_stmt x) (s_sets x))) h = [[[A 3]]; [[A 4]]].
Proof.
  cbv zeta. split; [vm_compute; reflexivity|]. split; [intros ctx v; apply incl_refl|].
  split; [intros s [<-|[<-|[]]]; vm_compute; split; reflexivity|].
  split; [vm_compute; reflexivity|]. split; vm_compute; reflexivity.
Qed.
Print Assumptions c02_cached_exec_refuted.

(* statements without a cache key (a VALUES with data; an element class that has none) are compiled
   on every execution and never enter the cache *)
Example c02_uncacheable_statements :
  gen_key T_ref s_values = None /\ gen_key T_ref s_nokey = None /\ wf T_ref s_values = true /\
  map snd (fst (run T_ref V_ref ktree render_ref [] [step_of s_values; step_of s_3; step_of s_values])) = [[[A 5]]; [[A 3]]; [[A 5]]] /\
  length (snd (run T_ref V_ref ktree render_ref [] [step_of s_values; step_of s_3; step_of s_values])) = 1%nat.
Proof. repeat split; vm_compute; reflexivity. Qed.

(* non-vacuity: a history over the reference table (cold, warm with a different literal, disabled,
   evicted) satisfying every hypothesis of the guarded theorem; the column object is shared *)
Example c02_hypotheses_satisfiable :
  let h1 := [step_of s_3] in
  let h2 := [step_of s_9; mkStep ctx0 s_3 false (fun _ => false) [[]]; mkStep ctx0 s_9 true (fun _ => true) [[]]; step_of s_3;
             many_of s_9] in
  covers T_ref (vminus V_ref G_ref) = true /\
  (forall s, In s (stmts (h1 ++ h2)) -> wf T_ref s = true /\ gapfree G_ref s = true) /\
  cunib T_ref (stmts (h1 ++ h2)) = true /\
  map snd (fst (run T_ref V_ref ktree render_ref (snd (run T_ref V_ref ktree render_ref [] h1)) h2))
  = [[[A 9]]; [[A 3]]; [[A 9]]; [[A 3]]; [[A 9]; [A 55]; [A 9]]].     (* last: an executemany on a warm cache *)
Proof.
  cbv zeta. split; [vm_compute; reflexivity|]. set (U := stmts _).
  (* the six steps execute two statements *)
  assert (incl U [s_3; s_9]) as Hin by (unfold U; intros s [<-|[<-|[<-|[<-|[<-|[<-|[]]]]]]]; cbn; auto).
  assert (forall s, In s [s_3; s_9] -> wf T_ref s = true /\ gapfree G_ref s = true) as W
    by (intros s [<-|[<-|[]]]; vm_compute; split; reflexivity).
  split; [intros s Hs; exact (W s (Hin s Hs))|].
  split; [apply (cunib_incl T_ref U [s_3; s_9] Hin)|]; vm_compute; reflexivity.
Qed.
