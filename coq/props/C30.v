(* C30 - flush writes exactly the in-memory object graph to the database.
   Statements only; the proofs are in orm/FlushProofs.v and orm/FlushSyncProofs.v.

   Vocabulary (orm/Flush.v).  [state] = the objects of a session (class, lifecycle state 0 not in the session
   / 1 pending / 2 persistent / 3 marked deleted, scalar value, parent per relationship, and the HISTORY flags:
   scalar / relationship set since the last flush), the many-to-many members with their collection history,
   and the database (one row per object, secondary rows).  [apply rs s h] runs an operation history
   (new object, scalar assignment, re-parenting through either side of a relationship, many-to-many
   append/remove, delete, flush).  [flush] is history driven like the code: INSERT of every attribute of a
   pending object, UPDATE of the attributes with history, foreign keys written only from
   relationship history, the loaded children of a deleted parent cleared, secondary rows from collection
   history, DELETE.  Spec: [rows_of_graph s] = one row per object that is in the session and not deleted, with
   its current scalar value and the identity of each current parent that is such an object; [load] = what a
   new session makes of the rows; [row_equiv] = same class, same scalar, same value in every foreign key
   column. *)
From Coq Require Import List NArith ZArith Bool.
Import ListNotations.
From SAV.orm Require Import Flush FlushProofs FlushSync FlushSyncProofs.

(* the database after a flush at the end of ANY operation history, over ANY set of relationships, is the
   rows of the object graph: row by row, and the secondary rows are exactly the many-to-many members *)
Theorem c30_flush_writes_graph : forall rs h,
  let s := flush (apply rs empty h) in
  (forall i, row_equiv (assoc i (rows s)) (assoc i (rows_of_graph s))) /\
  (forall x, In x (secs s) <-> In x (pairs s)).
Proof. exact flush_writes_graph_main. Qed.
Print Assumptions c30_flush_writes_graph.

(* the invariant behind it - "the database is the rows of the committed view, and whatever differs in the
   current view is recorded as history" - holds after every history (flushes anywhere inside it) *)
Theorem c30_invariant_all_histories : forall rs h, Inv (apply rs empty h).
Proof. intros rs h. exact (inv_history rs h empty inv_empty). Qed.
Print Assumptions c30_invariant_all_histories.

(* one flush from any state satisfying the invariant: the rows become the rows of the graph, and the
   invariant holds again with an empty history *)
Theorem c30_flush_reestablishes : forall s, Inv s ->
  (forall i, row_equiv (assoc i (rows (flush s))) (spec_row (flush s) i)) /\
  (forall x, In x (secs (flush s)) <-> In x (pairs (flush s))) /\ Inv (flush s).
Proof. intros s H. destruct (flush_spec s H) as [A B]. exact (conj A (conj B (inv_flush s H))). Qed.
Print Assumptions c30_flush_reestablishes.

(* loading the rows of a graph in a new session reproduces the graph *)
Theorem c30_reload_equiv : forall s, NoDup (map o_id (objs s)) -> load (rows_of_graph s) = graph_of s.
Proof. exact reload_equiv_main. Qed.
Print Assumptions c30_reload_equiv.

(* orm/FlushSync.v: parents with a natural key of ANY number of columns, passive_updates=False; operations:
   new parent / child, re-parenting, assignment to ONE key column, flush.  After a flush at the end of any
   history the parent rows carry the current keys and every child row carries, in every column, the current
   key of its parent (or NULL) *)
Theorem c30_key_change_writes_graph : forall n h, let s := nflush (napply n nempty h) in
  prow s = spec_prow s /\ crow s = spec_crow s.
Proof. exact key_change_writes_graph_main. Qed.
Print Assumptions c30_key_change_writes_graph.

(* the rule it rests on (sync._source_modified: some synchronize pair has a deleted history): if it answers
   "not modified" the whole key is unchanged, whatever the number of pairs ... *)
Theorem c30_source_modified_complete : forall old new, length old = length new ->
  source_modified old new = false -> old = new.
Proof. exact source_modified_false. Qed.
Print Assumptions c30_source_modified_complete.

(* ... which a rule that looks at the first pair only does not give *)
Theorem c30_first_pair_only_insufficient :
  exists old new, length old = length new /\ first_pair_only old new = false /\ old <> new.
Proof. exact first_pair_only_insufficient. Qed.
Print Assumptions c30_first_pair_only_insufficient.

(* non-vacuity: a child re-parented after a flush, its old parent deleted, a scalar changed *)
Local Open Scope N_scope.
Definition ex_rels : list rel := [{| r_id := 0; r_kind := 0; r_a := 1; r_b := 0; r_o2m := true |}].
Definition ex_hist : list op :=
  [ONew 0 0 1%Z; ONew 1 0 2%Z; ONew 2 1 3%Z; OPar 0 2 (Some 0); OFlush; OPar 0 2 (Some 1); OData 2 9%Z; ODel 0; OFlush].
Example c30_ex : rows (apply ex_rels empty ex_hist) =
  [(1, {| w_cls := 0; w_data := 2%Z; w_fk := [] |}); (2, {| w_cls := 1; w_data := 9%Z; w_fk := [(0, 1)] |})].
Proof. vm_compute. reflexivity. Qed.
