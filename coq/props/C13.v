(* C13 - column defaults and onupdate fire exactly when the value is omitted.
   Statements only; every proof is [exact <lemma>], a one-line consequence, or a computation on a concrete witness.
   The Python callables ([cval f n]: n-th call of callable f; [ctxval f params n]: context-sensitive callable
   seeing get_current_parameters() = params), the SQL-expression and server default values are universally
   quantified.  [core_exec cols psets olds cs]: the rows handed to the database and the call counters after
   Connection.execute(stmt, psets); [olds] = None per set for INSERT (absent column: server default or
   NULL), the matched row for UPDATE (absent column: unchanged, onupdate kinds instead of default kinds). *)
From Coq Require Import List ZArith Bool.
Import ListNotations.
From SAV.sql Require Import Defaults DefaultsProofs DefaultsManyProofs DefaultsMultiProofs DefaultsWitness.
Open Scope Z_scope.

(* default_iff_omitted, single execution: a supplied key (None included) is stored as given, an omitted
   column gets the default of its kind (callables: their next call; the context callable sees the row's own
   supplied parameters) *)
Theorem c13_default_iff_omitted_single : forall cval ctxval sqlval srvval cols p old cs,
  distinct_keys cols = true -> distinct_fns cols = true ->
  exists row cs',
    core_exec cval ctxval sqlval srvval cols [p] [old] cs = Ok ([row], cs') /\
    forall c, In c cols ->
      (forall v, get (ckey c) p = Some v -> get (ckey c) row = Some v) /\
      (get (ckey c) p = None ->
         exists pr v, get (ckey c) row = Some v /\
                      default_ok cval ctxval sqlval srvval old c p pr (fn_count c cs) v /\
                      (forall c' v', In c' cols -> get (ckey c') p = Some v' -> get (ckey c') pr = Some v')).
Proof. exact single_spec. Qed.
Print Assumptions c13_default_iff_omitted_single.

(* ... and executemany of any length under the documented precondition "every parameter set has the key set
   of the first": row i is stored as given / gets the i-th next call of its callables *)
Theorem c13_default_iff_omitted_executemany_guarded : forall cval ctxval sqlval srvval cols p0 rest olds cs,
  distinct_keys cols = true -> distinct_fns cols = true ->
  (forall p, In p (p0 :: rest) -> keys_agree cols p0 p) ->
  length olds = length (p0 :: rest) ->
  exists rows cs',
    core_exec cval ctxval sqlval srvval cols (p0 :: rest) olds cs = Ok (rows, cs') /\
    length rows = length (p0 :: rest) /\
    (forall f, count f cs' = (count f cs + length (p0 :: rest) * nuses p0 cols f)%nat) /\
    (forall i p old, nth_error (p0 :: rest) i = Some p -> nth_error olds i = Some old ->
       exists row, nth_error rows i = Some row /\
         forall c, In c cols ->
           (forall v, get (ckey c) p = Some v -> get (ckey c) row = Some v) /\
           (get (ckey c) p = None ->
              exists pr v, get (ckey c) row = Some v /\
                           default_ok cval ctxval sqlval srvval old c p pr (fn_count c cs + i) v /\
                           (forall c' v', In c' cols -> get (ckey c') p = Some v' -> get (ckey c') pr = Some v'))).
Proof. exact executemany_spec. Qed.
Print Assumptions c13_default_iff_omitted_executemany_guarded.

Theorem c13_supplied_none_not_overridden_core : forall cval ctxval sqlval srvval cols p0 rest olds cs i p old c,
  distinct_keys cols = true -> distinct_fns cols = true ->
  (forall q, In q (p0 :: rest) -> keys_agree cols p0 q) ->
  length olds = length (p0 :: rest) ->
  nth_error (p0 :: rest) i = Some p -> nth_error olds i = Some old -> In c cols ->
  get (ckey c) p = Some None ->
  exists rows cs' row, core_exec cval ctxval sqlval srvval cols (p0 :: rest) olds cs = Ok (rows, cs') /\
                       nth_error rows i = Some row /\ get (ckey c) row = Some None.
Proof. exact supplied_none_kept. Qed.
Print Assumptions c13_supplied_none_not_overridden_core.

Theorem c13_callable_called_once_per_omitting_row : forall cval ctxval sqlval srvval cols p0 rest olds cs c f,
  distinct_keys cols = true -> distinct_fns cols = true ->
  (forall p, In p (p0 :: rest) -> keys_agree cols p0 p) ->
  length olds = length (p0 :: rest) -> In c cols -> fn_of c = Some f ->
  exists rows cs', core_exec cval ctxval sqlval srvval cols (p0 :: rest) olds cs = Ok (rows, cs') /\
    count f cs' = (count f cs + if has (ckey c) p0 then 0 else length (p0 :: rest))%nat.
Proof. exact calls_once_per_row. Qed.
Print Assumptions c13_callable_called_once_per_omitting_row.

(* a later parameter set lacking a key of the first: "A value is required for bind parameter", raised while
   the parameters are constructed, i.e. before any default fires and before anything is stored *)
Theorem c13_missing_key_raises : forall cval ctxval sqlval srvval cols p0 p olds cs,
  (exists c, In c cols /\ has (ckey c) p0 = true /\ has (ckey c) p = false) ->
  exists k, core_exec cval ctxval sqlval srvval cols [p0; p] olds cs = Err (ERequired 1 k) /\
            has k p0 = true /\ has k p = false.
Proof. exact missing_key_error. Qed.
Print Assumptions c13_missing_key_raises.

(* heterogeneous executemany: [{"id":4}, {"id":5,"a":2,"b":5}] - the values supplied by the second set
   are replaced by the defaults (and its callable is called) *)
Theorem c13_heterogeneous_executemany_refuted : exists cols p0 p c v rows cs',
  distinct_keys cols = true /\ distinct_fns cols = true /\ In c cols /\ get (ckey c) p = Some v /\
  core_exec w_cval w_ctxval w_sqlval w_srvval cols [p0; p] [None; None] [] = Ok (rows, cs') /\
  match nth_error rows 1 with Some row => get (ckey c) row <> Some v | None => False end /\
  count 2 cs' = 2%nat.
Proof. exists w_cols, w_p4, w_p5, {| ckey := 1; cdef := Scalar 101 |}, (Some 2).
  eexists. eexists. vm_compute. repeat split; auto. discriminate. Qed.
Print Assumptions c13_heterogeneous_executemany_refuted.

(* returned_defaults_eq_stored: what return_defaults() hands back are values of the row just written *)
Theorem c13_returned_defaults_eq_stored : forall p0 cols row kv,
  In kv (returned_defaults p0 cols row) -> In kv row.
Proof. intros p0 cols row kv H. exact (proj1 (proj1 (filter_In _ _ _) H)). Qed.
Print Assumptions c13_returned_defaults_eq_stored.

(* what the unit of work sends for an INSERT: non-None attributes; None only for columns without any
   default; so an explicit None on a column with a default is NOT sent *)
Theorem c13_orm_insert_params : forall cols attrs c, distinct_keys cols = true -> In c cols ->
  get (ckey c) (orm_insert_params cols attrs) =
    match get (ckey c) attrs with
    | Some (Some z) => Some (Some z)
    | _ => if no_default c && negb (Nat.eqb (ckey c) O) then Some None else None
    end.
Proof. exact orm_insert_params_get. Qed.
Print Assumptions c13_orm_insert_params.
Theorem c13_orm_insert_none_refuted : exists cols attrs c row cs',
  distinct_keys cols = true /\ distinct_fns cols = true /\ In c cols /\ get (ckey c) attrs = Some None /\
  core_exec w_cval w_ctxval w_sqlval w_srvval cols [orm_insert_params cols attrs] [None] [] = Ok ([row], cs') /\
  get (ckey c) row <> Some None.
Proof. exists w_cols, w_attrs, {| ckey := 1; cdef := Scalar 101 |}. eexists. eexists. vm_compute.
  repeat split; auto. discriminate. Qed.
Print Assumptions c13_orm_insert_none_refuted.
(* what it sends for an UPDATE: exactly the changed attributes, None included *)
Theorem c13_orm_update_params : forall cols old attrs c, distinct_keys cols = true -> In c cols -> ckey c <> O ->
  get (ckey c) (orm_update_params cols old attrs) =
    match get (ckey c) attrs with
    | Some v => if val_eqb v (match get (ckey c) old with Some o => o | None => None end) then None else Some v
    | None => None
    end.
Proof. exact orm_update_params_get. Qed.
Print Assumptions c13_orm_update_params.
(* the bulk UPDATE by primary key (session.execute(update(Entity), [mappings]), bulk_update_mappings) sends
   every key of the mapping as given - an explicit None included - so by the executemany theorem an explicit
   None is stored as NULL and onupdate fires only for the columns a mapping omits *)
Theorem c13_orm_bulk_update_params : forall cols m c, distinct_keys cols = true -> In c cols ->
  get (ckey c) (orm_bulk_update_params cols m) = get (ckey c) m.
Proof. exact orm_bulk_update_params_get. Qed.
Print Assumptions c13_orm_bulk_update_params.
(* records are executed in groups of equal key sets: every statement the unit of work emits satisfies the
   precondition of c13_default_iff_omitted_executemany_guarded *)
Theorem c13_orm_groups_homogeneous : forall cols p0 ps g t, take_group cols p0 ps = (g, t) ->
  (forall x, In x g -> keys_agree cols p0 (fst x)) /\ ps = g ++ t.
Proof. intros cols p0 ps g t H. destruct (take_group_same cols p0 ps g t H) as [A B].
  split; [intros x Hx; exact (same_keys_agree cols p0 (fst x) (A x Hx))|exact B]. Qed.
Print Assumptions c13_orm_groups_homogeneous.

(* insert(t).values([row0; row1; ...]) (crud._extend_values_for_multiparams).  The per-row presence rule, for EVERY row and column: a column of the VALUES list that the row has is stored
   as the row gives it (an explicit None included, also in rows after the first); omitted, its default fires
   again (callables: their next call); a column outside the list row 0 decided is not in the statement *)
Theorem c13_multi_values_rule : forall cval ctxval sqlval srvval cols p0 rest cs i row c,
  distinct_keys cols = true -> distinct_fns cols = true ->
  nth_error (p0 :: rest) i = Some row -> In c cols ->
  exists srow, nth_error (fst (multi_rows cval ctxval sqlval srvval p0 cols (p0 :: rest) cs)) i = Some srow /\
    (in_values0 p0 c = true -> forall v, get (ckey c) row = Some v -> get (ckey c) srow = Some v) /\
    (get (ckey c) row = None ->
       match cdef c with
       | Scalar z => get (ckey c) srow = Some (Some z)
       | SqlExpr e => get (ckey c) srow = Some (Some (sqlval e))
       | Callable f => get (ckey c) srow = Some (Some (cval f (count f cs + omitting c (firstn i (p0 :: rest)))%nat))
       | _ => True
       end) /\
    (in_values0 p0 c = false -> get (ckey c) srow = Some (absent_val srvval c)).
Proof. exact multi_values_rule. Qed.
Print Assumptions c13_multi_values_rule.
(* callables fire once per row that omits the column, not more *)
Theorem c13_multi_values_calls : forall cval ctxval sqlval srvval cols p0 rest cs c f,
  distinct_fns cols = true -> In c cols -> cdef c = Callable f ->
  count f (snd (multi_rows cval ctxval sqlval srvval p0 cols (p0 :: rest) cs))
  = (count f cs + omitting c (p0 :: rest))%nat.
Proof. exact multi_values_calls. Qed.
Print Assumptions c13_multi_values_calls.
(* the CompileError: exactly for a row lacking a listed column without Python / SQL default *)
Theorem c13_multi_values_compile_error : forall p0 i cols row,
  multi_check_row p0 i cols row = None <->
  forall c, In c cols -> in_values0 p0 c = true -> has (ckey c) row = false ->
    match cdef c with NoDefault | ServerSide _ => False | _ => True end.
Proof. exact multi_check_row_spec. Qed.
Print Assumptions c13_multi_values_compile_error.
(* row 0 decides the column list: a later row's value for a server-default / no-default column is dropped *)
Theorem c13_multi_values_first_row_refuted : exists cols p0 row c v rows cs',
  distinct_keys cols = true /\ distinct_fns cols = true /\ In c cols /\ get (ckey c) row = Some v /\
  multi_exec w_cval w_ctxval w_sqlval w_srvval cols [p0; row] [] = inl (rows, cs') /\
  match nth_error rows 1 with Some srow => get (ckey c) srow <> Some v | None => False end.
Proof. exists w_noctx, w_m0, w_m1, {| ckey := 5; cdef := ServerSide 5 |}, (Some 7).
  eexists. eexists. vm_compute. repeat split; auto 10. discriminate. Qed.
Print Assumptions c13_multi_values_first_row_refuted.

(* Update.ordered_values(): the columns named first, then EVERY other column of the table *)
Theorem c13_ordered_cols_complete : forall order cols c, In c (ordered_cols order cols) <-> In c cols.
Proof. exact ordered_cols_In. Qed.
Print Assumptions c13_ordered_cols_complete.
(* ... so onupdate fires for every column outside the list *)
Theorem c13_ordered_values_rule : forall cval ctxval sqlval srvval order cols p old cs,
  distinct_keys (ordered_cols order cols) = true -> distinct_fns (ordered_cols order cols) = true ->
  exists row cs',
    core_exec cval ctxval sqlval srvval (ordered_cols order cols) [p] [old] cs = Ok ([row], cs') /\
    forall c, In c cols ->
      (forall v, get (ckey c) p = Some v -> get (ckey c) row = Some v) /\
      (get (ckey c) p = None ->
         exists pr v, get (ckey c) row = Some v /\
                      default_ok cval ctxval sqlval srvval old c p pr (fn_count c cs) v /\
                      (forall c' v', In c' cols -> get (ckey c') p = Some v' -> get (ckey c') pr = Some v')).
Proof. exact ordered_values_rule. Qed.
Print Assumptions c13_ordered_values_rule.

(* a pre-executed primary key default (implicit_returning=False): "if val is not None" - every fetched value,
   0 included, becomes the key *)
Theorem c13_preexecuted_pk_default_kept : forall cval ctxval sqlval srvval cols p old cs z c,
  distinct_keys cols = true -> distinct_fns cols = true -> In c cols -> ckey c = O ->
  exists row cs',
    core_exec cval ctxval sqlval srvval cols [(O, preexec_param None (Some z)) :: p] [old] cs = Ok ([row], cs') /\
    get O row = Some (Some z).
Proof. exact preexec_pk_kept. Qed.
Print Assumptions c13_preexecuted_pk_default_kept.

Example c13_ex_multi_values :
  multi_exec w_cval w_ctxval w_sqlval w_srvval w_noctx [w_m0; w_m1; w_m2] []
  = inl ([ [(0%nat, Some 5); (1%nat, Some 101); (2%nat, Some 3000); (4%nat, Some 3004); (5%nat, Some 4005); (6%nat, None)];
           [(0%nat, Some 6); (1%nat, None); (2%nat, Some 3001); (4%nat, Some 3004); (5%nat, Some 4005); (6%nat, None)];
           [(0%nat, Some 7); (1%nat, Some 101); (2%nat, Some 3002); (4%nat, Some 3004); (5%nat, Some 4005); (6%nat, None)] ],
         [(2%nat, 3%nat)]).
Proof. vm_compute. reflexivity. Qed.
Example c13_ex_multi_values_error :
  multi_exec w_cval w_ctxval w_sqlval w_srvval w_noctx [w_m1; w_m0] [] = inr (EMultiDefault 1 5).
Proof. vm_compute. reflexivity. Qed.
Example c13_ex_ordered :
  distinct_keys (ordered_cols w_order w_cols) = true /\ distinct_fns (ordered_cols w_order w_cols) = true /\
  map ckey (ordered_cols w_order w_cols) = [6; 1; 0; 2; 3; 4; 5]%nat /\
  w_exec (ordered_cols w_order w_cols) [w_ord_p] [Some w_old] []
  = Ok ([ [(6%nat, Some 9); (1%nat, None); (0%nat, Some 1); (2%nat, Some 3000); (3%nat, Some 200001);
           (4%nat, Some 3004); (5%nat, Some 50)] ], [(2%nat, 1%nat); (3%nat, 1%nat)]).
Proof. vm_compute. repeat split; reflexivity. Qed.
Example c13_ex_preexec_zero :
  w_exec w_cols [(0%nat, preexec_param None (Some 0)) :: [(1%nat, Some 8)]] [None] []
  = Ok ([ [(0%nat, Some 0); (1%nat, Some 8); (2%nat, Some 3000); (3%nat, Some 200000); (4%nat, Some 3004);
           (5%nat, Some 4005); (6%nat, None)] ], [(2%nat, 1%nat); (3%nat, 1%nat)]).
Proof. vm_compute. reflexivity. Qed.

Example c13_ex_wf : distinct_keys w_cols = true /\ distinct_fns w_cols = true.
Proof. vm_compute. auto. Qed.
(* two homogeneous rows: a supplied (9, then None - kept), everything else by default *)
Example c13_ex_homogeneous :
  w_exec w_cols [w_h1; w_h2] [None; None] []
  = Ok ([ [(0%nat, Some 7); (1%nat, Some 9); (2%nat, Some 3000); (3%nat, Some 200007); (4%nat, Some 3004);
           (5%nat, Some 4005); (6%nat, None)];
          [(0%nat, Some 8); (1%nat, None); (2%nat, Some 3001); (3%nat, Some 200009); (4%nat, Some 3004);
           (5%nat, Some 4005); (6%nat, None)] ],
        [(2%nat, 2%nat); (3%nat, 2%nat)]).
Proof. vm_compute. reflexivity. Qed.
Example c13_ex_heterogeneous :
  w_exec w_cols [w_p4; w_p5] [None; None] []
  = Ok ([ [(0%nat, Some 4); (1%nat, Some 101); (2%nat, Some 3000); (3%nat, Some 200004); (4%nat, Some 3004);
           (5%nat, Some 4005); (6%nat, None)];
          [(0%nat, Some 5); (1%nat, Some 101); (2%nat, Some 3001); (3%nat, Some 200006); (4%nat, Some 3004);
           (5%nat, Some 4005); (6%nat, None)] ],
        [(2%nat, 2%nat); (3%nat, 2%nat)]).
Proof. vm_compute. reflexivity. Qed.
Example c13_ex_missing : w_exec w_cols [w_p5; w_p4] [None; None] [] = Err (ERequired 1 1).
Proof. vm_compute. reflexivity. Qed.
Example c13_ex_orm_params : orm_insert_params w_cols w_attrs = [(0%nat, Some 5); (6%nat, None)].
Proof. vm_compute. reflexivity. Qed.
