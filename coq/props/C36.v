(* C36 - attribute history reports exactly the net change since load.
   Statements only: each theorem applies one lemma of orm/History*.v, the examples are computed.
   Model: orm/History.v; spec side: orm/HistorySpec.v. *)
From Coq Require Import List NArith Bool.
Import ListNotations.
From SAV.orm Require Import History HistorySpec HistoryProofs HistoryWf HistoryTrack HistoryFlush
  HistoryFail HistoryMain.
Open Scope N_scope.

(* the three History constructors implement the documented conventions ([net_diff_...] is the
   declarative difference; [Unknown] = the previous value was not loaded) *)
Theorem c36_constructors_follow_conventions :
  (forall p cur, from_scalar (CVal p) cur = net_diff_scalar (Known p) cur) /\
  (forall o cur, is_nostate o = true -> from_scalar o cur = net_diff_scalar Unknown cur) /\
  (forall p cur, from_object (CVal p) cur = net_diff_object (Known p) cur) /\
  (forall o cur, is_nostate o = true -> from_object o cur = net_diff_object Unknown cur) /\
  (forall o cur, from_collection (CVal o) cur = net_diff_coll (Known o) cur).
Proof.
  exact (conj from_scalar_known (conj from_scalar_unknown (conj from_object_known
          (conj from_object_unknown from_collection_known)))).
Qed.
Print Assumptions c36_constructors_follow_conventions.

(* history_is_net_diff: an attribute loaded with value v0 ([tracks_x]: present and clean, or already
   captured) reports, after ANY sequence of assignments, deletions, reads and collection mutations
   on any attribute (no flush / expire in between), exactly diff(v0, current) *)
Theorem c36_history_is_net_diff_scalar : forall k ops s0 v0,
  wf s0 -> tracks_x v0 s0 -> nosync ops = true ->
  let s := fst (run k ops s0) in hist_x s = net_diff_scalar (Known v0) (x_d s).
Proof. exact net_diff_scalar_run. Qed.
Print Assumptions c36_history_is_net_diff_scalar.

Theorem c36_history_is_net_diff_object : forall k ops s0 v0,
  tracks_b v0 s0 -> nosync ops = true ->
  let s := fst (run k ops s0) in hist_b s = net_diff_object (Known v0) (b_d s).
Proof. exact net_diff_object_run. Qed.
Print Assumptions c36_history_is_net_diff_object.

(* collections: identity-based difference against the collection as loaded, for list, set and dict *)
Theorem c36_history_is_net_diff_collection : forall k ops s0 l0,
  tracks_c l0 s0 -> nosync ops = true ->
  let s := fst (run k ops s0) in hist_c s = net_diff_coll (Known l0) (c_d s).
Proof. exact net_diff_coll_run. Qed.
Print Assumptions c36_history_is_net_diff_collection.

(* the missing-previous-value cases: the first change found the attribute unloaded (NO_VALUE /
   PASSIVE_NO_RESULT captured); nothing is ever reported deleted *)
Theorem c36_history_missing_previous_scalar : forall k ops s0,
  is_nostate (x_c s0) = true -> nosync ops = true ->
  let s := fst (run k ops s0) in hist_x s = net_diff_scalar Unknown (x_d s).
Proof. exact unknown_scalar_run. Qed.
Print Assumptions c36_history_missing_previous_scalar.

Theorem c36_history_missing_previous_object : forall k ops s0,
  b_c s0 = CNoResult -> nosync ops = true ->
  let s := fst (run k ops s0) in hist_b s = net_diff_object Unknown (b_d s).
Proof. exact unknown_object_nr_run. Qed.
Print Assumptions c36_history_missing_previous_object.

(* with NO_VALUE captured for a related object a deletion is reported as nothing at all; a later
   read may load the attribute, after which the difference is against the database value *)
Theorem c36_history_never_set_object : forall k ops s0,
  wf s0 -> b_c s0 = CNoValue -> nosync ops = true ->
  let s := fst (run k ops s0) in
  hist_b s = match b_d s with Some c => ([c], [], []) | None => blank end \/
  hist_b s = net_diff_object (Known (db_b s0)) (b_d s).
Proof. exact unknown_object_nv_run. Qed.
Print Assumptions c36_history_never_set_object.

(* set_back_restores_unchanged *)
Theorem c36_set_back_restores_unchanged_scalar : forall k ops s0 v0,
  wf s0 -> tracks_x v0 s0 -> nosync ops = true ->
  let s := fst (run k ops s0) in x_d s = Some v0 -> hist_x s = ([], [v0], []).
Proof. exact set_back_scalar. Qed.
Print Assumptions c36_set_back_restores_unchanged_scalar.

Theorem c36_set_back_restores_unchanged_object : forall k ops s0 v0,
  tracks_b v0 s0 -> nosync ops = true ->
  let s := fst (run k ops s0) in b_d s = Some v0 -> hist_b s = ([], [v0], []).
Proof. exact set_back_object. Qed.
Print Assumptions c36_set_back_restores_unchanged_object.

Theorem c36_set_back_restores_unchanged_collection : forall k ops s0 l0,
  tracks_c l0 s0 -> nosync ops = true ->
  let s := fst (run k ops s0) in
  forall l, c_d s = Some l -> same_set l l0 -> changes (hist_c s) = ([], []).
Proof. exact set_back_coll. Qed.
Print Assumptions c36_set_back_restores_unchanged_collection.

(* across synchronisation points: in every reachable state (any operations, flush and expire
   included, from a new / loaded / partially loaded object) a captured value IS the database value
   and a clean loaded value IS the database value - so "v0" above is the committed value *)
Theorem c36_committed_value_is_database_value : forall ok x0 b0 c0 k ops,
  let s := fst (run k ops (init ok x0 b0 c0)) in
  (forall p, x_c s = CVal p -> p = db_x s) /\ (forall v, x_c s = NoHist -> x_d s = Some v -> v = db_x s) /\
  (forall p, b_c s = CVal p -> p = db_b s) /\ (forall v, b_c s = NoHist -> b_d s = Some v -> v = db_b s) /\
  (forall l, c_c s = CVal l -> same_set l (db_c s)) /\
  (forall l, c_c s = NoHist -> c_d s = Some l -> same_set l (db_c s)).
Proof.
  intros ok x0 b0 c0 k ops s.
  exact (let W := wf_reachable ok x0 b0 c0 k ops in
         conj (wf_x_comm _ W) (conj (wf_x_clean _ W) (conj (wf_b_comm _ W) (conj (wf_b_clean _ W)
           (conj (wf_c_comm _ W) (wf_c_clean _ W)))))).
Qed.
Print Assumptions c36_committed_value_is_database_value.

(* flush (_commit_all) resets the history *)
Theorem c36_flush_resets_history : forall s s' r, wf s -> flush s = (s', Done r) ->
  modified s' = false /\
  changes (hist_x s') = ([], []) /\ changes (hist_b s') = ([], []) /\ changes (hist_c s') = ([], []).
Proof. exact flush_resets_history. Qed.
Print Assumptions c36_flush_resets_history.

(* a flush persists exactly the difference: afterwards the row holds the current value of every
   changed attribute ([exp_...], NULL for a deleted one: /repo f879cdb) and the old value of every
   unchanged one.  The guard excludes one region, a deleted collection attribute (witness below) *)
Theorem c36_flush_persists_current_guarded : forall s, wf s -> flush_guard s = true ->
  exists s', flush s = (s', Done (RDb (exp_x s) (exp_b s) (db_c s'))) /\
             db_x s' = exp_x s /\ db_b s' = exp_b s /\ same_set (db_c s') (exp_c s).
Proof. exact flush_persists_guarded. Qed.
Print Assumptions c36_flush_persists_current_guarded.

Theorem c36_flush_never_raises : forall s, failed (snd (flush s)) = false.
Proof. exact flush_never_fails. Qed.
Print Assumptions c36_flush_never_raises.

(* outside the guard: loaded collection [c1; c2], [del a.cs]: the attribute reads as empty, the
   history is blank and the flush leaves both rows attached *)
Theorem c36_flush_persists_current_refuted_del_collection :
  let s := fst (run KList [CDel] (init OLoaded 5 1 [1; 2])) in
  wf s /\ snd (c_get s) = Done (RColl None) /\ exp_c s = [] /\ hist_c s = blank /\
  snd (flush s) = Done (RDb 5 1 [1; 2]).
Proof. exact flush_after_coll_del_keeps_rows. Qed.
Print Assumptions c36_flush_persists_current_refuted_del_collection.

(* an operation that raises leaves the reported changes alone - for EVERY operation and state:
   [wf s] is not used (HistoryFail.failed_op_keeps_changes).  [del a.x] raises before any event
   (/repo 09dadee); a failing list.remove fires no event (/repo b1144f3) *)
Theorem c36_failed_op_keeps_history : forall k o s s' e,
  wf s -> step k o s = (s', Fail e) ->
  changes (hist_x s') = changes (hist_x s) /\ changes (hist_b s') = changes (hist_b s) /\
  changes (hist_c s') = changes (hist_c s).
Proof. intros k o s s' e _. apply failed_op_keeps_changes. Qed.
Print Assumptions c36_failed_op_keeps_history.

(* totality: the "unreachable" result of the model is never produced, from any state ([wf s] is not
   used: HistoryFail.step_never_unreachable) *)
Theorem c36_model_total : forall k ops s, wf s ->
  forall o, In o (snd (run k ops s)) -> o_res o <> Fail Unreachable.
Proof. intros k ops s _. apply run_never_unreachable. Qed.
Print Assumptions c36_model_total.

Example c36_ex_tracked : let s0 := init OLoaded 5 1 [1; 2] in
  wf s0 /\ tracks_x 5 s0 /\ tracks_b 1 s0 /\ tracks_c [1; 2] s0.
Proof. split; [apply init_wf|]. cbn. unfold tracks_x, tracks_b, tracks_c. cbn. auto. Qed.
Example c36_ex_sequence :
  let ops := [SetX 6; CRem 1; SetB 2; GetX; CAdd 3; SetX 5; DelB; CAdd 1] in
  let s := fst (run KList ops (init OLoaded 5 1 [1; 2])) in
  nosync ops = true /\ hist_x s = ([], [5], []) /\ hist_b s = ([], [], [1]) /\
  hist_c s = ([3], [2; 1], []).
Proof. vm_compute. auto. Qed.
Example c36_ex_unknown :
  let s0 := fst (run KList [Expire; SetX 6; SetB 2] (init OLoaded 5 1 [])) in
  is_nostate (x_c s0) = true /\ b_c s0 = CNoResult /\
  hist_x (fst (run KList [DelX] s0)) = ([0], [], []).
Proof. vm_compute. auto. Qed.
Example c36_ex_never_set : b_c (fst (run KList [SetB 2] (init ONew 0 0 []))) = CNoValue.
Proof. vm_compute. reflexivity. Qed.
Example c36_ex_flush :
  let s := fst (run KSet [SetX 6; SetB 0; CReplace [2; 3]] (init OLoaded 5 1 [1; 2])) in
  flush_guard s = true /\ snd (flush s) = Done (RDb 6 0 [2; 3]).
Proof. vm_compute. auto. Qed.
(* keyed dict: pop / popitem / del d[k] / setdefault / update / clear as FIRST mutation after load *)
Example c36_ex_dict_first_mutation :
  let s0 := init OLoaded 5 1 [1; 2] in
  hist_c (fst (run KDict [CPop 1] s0)) = ([], [2], [1]) /\
  hist_c (fst (run KDict [CPopD 2] s0)) = ([], [1], [2]) /\
  hist_c (fst (run KDict [CPopItem] s0)) = ([], [1], [2]) /\
  hist_c (fst (run KDict [CDelKey 1] s0)) = ([], [2], [1]) /\
  hist_c (fst (run KDict [CSetDefault 4] s0)) = ([4], [1; 2], []) /\
  hist_c (fst (run KDict [CUpdate [3; 2]] s0)) = ([3], [2], [1]) /\
  hist_c (fst (run KDict [CClear] s0)) = ([], [], [1; 2]) /\
  snd (flush (fst (run KDict [CPop 1] s0))) = Done (RDb 5 1 [2]).
Proof. vm_compute. repeat split; reflexivity. Qed.
(* a failed [del a.x] changes nothing; flush after [del a.x] writes NULL *)
Example c36_ex_failed_delete_keeps_state :
  let s := init ONew 0 0 [] in
  wf s /\ step KList DelX s = (s, Fail AttributeError) /\
  hist_x (fst (step KList DelX s)) = blank /\ modified (fst (step KList DelX s)) = false.
Proof. exact failed_del_keeps_state. Qed.
Example c36_ex_flush_after_del_persists_null :
  let s := fst (run KList [DelX] (init OLoaded 5 1 [1; 2])) in
  wf s /\ hist_x s = ([], [], [5]) /\ snd (flush s) = Done (RDb 0 1 [1; 2]).
Proof. exact flush_after_del_persists_null. Qed.
Example c36_ex_failed_op : snd (step KList (CRem 3) (init OLoaded 5 1 [1; 2])) = Fail ValueError.
Proof. vm_compute. reflexivity. Qed.
