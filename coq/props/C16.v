(* C16 - schema_translate_map renders the mapped schemas regardless of cache state.
   Statements only; every proof is [exact <lemma>] or a computation on a concrete witness.
   [quote] (IdentifierPreparer.quote) and [dflt] (dialect.default_schema_name) are universally
   quantified.  Guards (boolean, see sql/SchemaTr.v): marker_free - the SQL text around the schema
   prefixes does not contain "__[SCHEMA"; names_ok - no translatable schema is called "_none" or "";
   map_ok - the map has no key "_none"; force_ok - an explicit quoted_name(quote=...) flag only on schemas
   the map translates.  Each guard excludes a region where the implementation deviates (the _refuted
   theorems below give the witnesses). *)
From Coq Require Import List ZArith Bool.
Import ListNotations.
From SAV.sql Require Import SchemaTr SchemaTrScanProofs SchemaTrProofs SchemaTrHistProofs SchemaTrWitness.
Open Scope Z_scope.

(* translate_eq_direct: rendering the symbolic compilation with the map it was compiled for gives the
   SQL of the construct whose tables carry the translated schema names *)
Theorem c16_translate_eq_direct_guarded : forall quote dflt m s text,
  marker_free quote (has_none m) s = true -> names_ok s = true -> force_ok m s = true -> map_ok m = true ->
  compile_sym quote (has_none m) s = Ok text ->
  render_translates quote dflt (has_none m) m text = direct quote dflt m s.
Proof. exact translate_eq_direct. Qed.
Print Assumptions c16_translate_eq_direct_guarded.

(* ... and with a compilation made when the None key was [inc]: the documented errors when the presence
   of the None key differs, the translated construct otherwise *)
Theorem c16_render_any_compilation_guarded : forall quote dflt inc m s text,
  marker_free quote inc s = true -> names_ok s = true -> force_ok m s = true -> map_ok m = true ->
  compile_sym quote inc s = Ok text ->
  render_translates quote dflt inc m text =
    if has_none m && negb inc then Err ENoneAdded
    else bind (direct_inc dflt inc m s) (fun s' => Ok (compile_plain quote s')).
Proof. exact render_sym_general. Qed.
Print Assumptions c16_render_any_compilation_guarded.

(* cache_history_transparent: in ANY history of executions, DDL executions, pre-executed defaults and
   evictions over one compiled cache, an execution of statement [sid] with map [m] yields what the
   specification says for the compilation that governs it: the first one with a non-empty map since the
   statement was last evicted ([gov_flag]) *)
Theorem c16_cache_history_transparent_guarded : forall quote dflt stmts,
  (forall sid, stmt_ok quote (stmts sid) = true) ->
  forall pre sid m post, op_ok stmts (Exec sid m) = true ->
  nth (length pre) (run_hist quote dflt stmts [] (pre ++ Exec sid m :: post)) None
  = Some (spec_exec quote dflt (gov_flag stmts pre sid m) m (stmts sid)).
Proof. intros quote dflt stmts Hs pre sid m. exact (cache_history_transparent quote dflt stmts Hs pre (Exec sid m)). Qed.
Print Assumptions c16_cache_history_transparent_guarded.

(* when the maps used with the statement so far agree with [m] on the presence of the None key, the
   execution yields the directly translated construct, whatever the cache holds *)
Theorem c16_consistent_history_is_direct_guarded : forall quote dflt stmts,
  (forall sid, stmt_ok quote (stmts sid) = true) ->
  forall pre sid m post, op_ok stmts (Exec sid m) = true ->
  forallb (agrees sid (has_none m)) pre = true ->
  nth (length pre) (run_hist quote dflt stmts [] (pre ++ Exec sid m :: post)) None
  = Some (spec_exec quote dflt (has_none m) m (stmts sid)).
Proof. exact history_consistent. Qed.
Print Assumptions c16_consistent_history_is_direct_guarded.

Theorem c16_spec_consistent_is_direct : forall quote dflt m s, is_empty m = false -> bracketed s = false ->
  spec_exec quote dflt (has_none m) m s = direct quote dflt m s.
Proof. exact spec_exec_consistent. Qed.
Print Assumptions c16_spec_consistent_is_direct.

(* DDL is compiled on every execution: always the translated construct *)
Theorem c16_ddl_history_guarded : forall quote dflt stmts,
  (forall sid, stmt_ok quote (stmts sid) = true) ->
  forall pre sid m post, op_ok stmts (Ddl sid m) = true ->
  nth (length pre) (run_hist quote dflt stmts [] (pre ++ Ddl sid m :: post)) None
  = Some (spec_exec quote dflt (has_none m) m (stmts sid)).
Proof. intros quote dflt stmts Hs pre sid m. exact (cache_history_transparent quote dflt stmts Hs pre (Ddl sid m)). Qed.
Print Assumptions c16_ddl_history_guarded.

Theorem c16_bracket_names_rejected : forall quote inc s,
  bracketed s = true <-> compile_sym quote inc s = Err EBracket.
Proof. exact bracket_names_rejected. Qed.
Print Assumptions c16_bracket_names_rejected.

(* the scanner: a token is replaced where it starts and the replacement is never rescanned *)
Theorem c16_scan_token : forall repl n r, n <> [] -> no_rb n = true ->
  scan repl (token n ++ r) = bind (repl n) (fun t => bind (scan repl r) (fun u => Ok (t ++ u))).
Proof. exact scan_token. Qed.
Print Assumptions c16_scan_token.
Theorem c16_scan_marker_free_text : forall repl t, occurs marker t = false -> scan repl t = Ok t.
Proof. exact scan_plain. Qed.
Print Assumptions c16_scan_marker_free_text.

(* an entry "_none" in a map that also has a None key is never consulted: the current None entry wins.
   (Rendering makes its alias entry in a copy of the caller's dict, fix a436594.) *)
Theorem c16_stale_alias_ignored : forall quote dflt d v name, has_none d = true ->
  replace quote dflt ((Some none_name, v) :: d) name = replace quote dflt d name.
Proof. exact stale_alias_ignored. Qed.
Print Assumptions c16_stale_alias_ignored.

(* ---- a None (falsy) target: the default schema is named explicitly; the documentation says
   "will render with no schema" ---- *)
Theorem c16_none_target_doc_refuted : exists quote dflt m s text,
  marker_free quote (has_none m) s = true /\ names_ok s = true /\ force_ok m s = true /\ map_ok m = true /\
  compile_sym quote (has_none m) s = Ok text /\
  render_translates quote dflt (has_none m) m text <> Ok (compile_plain quote (subst_doc m s)).
Proof. exists wq, wmain, w_to_none, w_one, w_txt0. vm_compute.
  repeat split; discriminate. Qed.
Print Assumptions c16_none_target_doc_refuted.
Theorem c16_none_target_doc_guarded : forall quote dflt m s, targets_truthy m = true ->
  direct quote dflt m s = Ok (compile_plain quote (subst_doc m s)).
Proof. exact direct_eq_doc. Qed.
Print Assumptions c16_none_target_doc_guarded.

(* ---- the defective regions excluded by the guards ---- *)
(* names_ok / map_ok: a schema called "_none" shares the token of the schema-less tables *)
Theorem c16_none_name_collision_refuted : exists quote dflt m s text,
  marker_free quote (has_none m) s = true /\ force_ok m s = true /\
  compile_sym quote (has_none m) s = Ok text /\
  render_translates quote dflt (has_none m) m text <> direct quote dflt m s.
Proof. exists wq, wmain, w_none_map, w_none_name, w_txt1.
  vm_compute. repeat split; discriminate. Qed.
Print Assumptions c16_none_name_collision_refuted.
(* map_ok: a key "_none" stands in for a removed None key instead of the documented error *)
Theorem c16_none_key_name_refuted : exists quote dflt stmts pre sid m post,
  (forall sid, stmt_ok quote (stmts sid) = true) /\ force_ok m (stmts sid) = true /\
  nth (length pre) (run_hist quote dflt stmts [] (pre ++ Exec sid m :: post)) None
  <> Some (spec_exec quote dflt (gov_flag stmts pre sid m) m (stmts sid)).
Proof. exists wq, wmain, w_stmts, [Exec 0 w_s1], 0%nat, w_key_none_name, [].
  split; [intros [|[|[|[|n]]]]; vm_compute; reflexivity|]. vm_compute. split; [reflexivity|discriminate]. Qed.
Print Assumptions c16_none_key_name_refuted.
(* marker_free: text that looks like a token is rewritten *)
Theorem c16_marker_in_text_refuted : exists quote dflt m s text,
  names_ok s = true /\ force_ok m s = true /\ map_ok m = true /\
  compile_sym quote (has_none m) s = Ok text /\
  render_translates quote dflt (has_none m) m text <> direct quote dflt m s.
Proof. exists wq, wmain, w_ab, w_marker, w_txt2.
  vm_compute. repeat split; discriminate. Qed.
Print Assumptions c16_marker_in_text_refuted.
(* force_ok: the quote flag of a schema the map does not mention is lost *)
Theorem c16_quote_flag_lost_refuted : exists quote dflt m s text,
  marker_free quote (has_none m) s = true /\ names_ok s = true /\ map_ok m = true /\
  compile_sym quote (has_none m) s = Ok text /\
  render_translates quote dflt (has_none m) m text <> direct quote dflt m s.
Proof. exists wq, wmain, w_xy, w_forced, w_txt0.
  vm_compute. repeat split; discriminate. Qed.
Print Assumptions c16_quote_flag_lost_refuted.

(* ---- a pre-executed SQL default (DefaultExecutionContext._exec_default_clause_element) is compiled with
   the map in effect (fix d3878ef) and rendered by _execute_scalar: it is emitted translated, whatever the
   cache holds for the parent statement; only the "None now present" check is the parent's ---- *)
Theorem c16_scalar_default_translated_guarded : forall quote dflt stmts,
  (forall sid, stmt_ok quote (stmts sid) = true) ->
  forall pre sid dsid m post, op_ok stmts (ScalarDefault sid dsid m) = true ->
  nth (length pre) (run_hist quote dflt stmts [] (pre ++ ScalarDefault sid dsid m :: post)) None
  = Some (spec_scalar_default quote dflt (gov_flag stmts pre sid m) m (stmts sid) (stmts dsid)).
Proof.
  intros quote dflt stmts Hs pre sid dsid m. exact (cache_history_transparent quote dflt stmts Hs pre (ScalarDefault sid dsid m)).
Qed.
Print Assumptions c16_scalar_default_translated_guarded.
Theorem c16_untranslated_is_direct : forall quote dflt m s, untranslated m s = true ->
  direct quote dflt m s = Ok (compile_plain quote s).
Proof. exact direct_untranslated. Qed.
Print Assumptions c16_untranslated_is_direct.
(* a witness: the default's SELECT is the directly translated construct *)
Example c16_ex_scalar_default_translated :
  nth 0 (run_hist wq wmain w_stmts [] [ScalarDefault 1 2 w_ab]) None = Some (direct wq wmain w_ab (w_stmts 2)) /\
  direct wq wmain w_ab (w_stmts 2) = Ok w_txt_default.
Proof. vm_compute. split; reflexivity. Qed.

(* ---- non-vacuity ---- *)
(* a chained map a -> b -> c does not cascade; the table() clause keeps its schema; None -> n *)
Example c16_ex_chain :
  stmt_ok wq w_join = true /\ force_ok w_chain w_join = true /\ map_ok w_chain = true /\
  compile_sym wq true w_join
    = Ok w_txt3 /\
  direct wq wmain w_chain w_join = Ok w_txt4.
Proof. vm_compute. repeat split; reflexivity. Qed.
(* a history: compile with {None: s1}, then a map without None (documented error), evict, again *)
Example c16_ex_history :
  run_hist wq wmain w_stmts [] [Exec 0 w_s1; Exec 0 w_ab; Exec 0 []; Evict [0%nat]; Exec 0 w_ab; Exec 0 w_s1;
                                 Ddl 0 w_s1; Exec 3 w_ab]
  = [Some (Ok w_txt5); Some (Err ENoneRemoved); Some (Ok w_txt6); None;
     Some (Ok w_txt6); Some (Err ENoneAdded); Some (Ok w_txt5);
     Some (Err EBracket)].
Proof. vm_compute. reflexivity. Qed.
Example c16_ex_bracketed : bracketed (w_stmts 3) = true.
Proof. vm_compute. reflexivity. Qed.
Example c16_ex_none_target : direct wq wmain w_to_none w_one = Ok w_txt7.
Proof. vm_compute. reflexivity. Qed.
