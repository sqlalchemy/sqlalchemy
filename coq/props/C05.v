(* C05 - literal rendering (literal_binds / literal_execute) is equivalent to binding and cannot
   change the shape of the statement.  Statements only; every proof is [exact <lemma>]. *)
From Coq Require Import List NArith ZArith Bool.
Import ListNotations.
From SAV.sql Require Import Literal LiteralStrProofs LiteralNumProofs LiteralListProofs LiteralPyfmtProofs LiteralPostcompileProofs.
Open Scope N_scope.

(* For EVERY code point sequence s, every dialect, every setting of the two flags and every string
   type: what render_literal_value puts into the statement is, for the server (and after the
   format/pyformat driver's %% collapse), exactly ONE string-literal token, it denotes exactly s,
   and the remainder of the statement is what it was. *)
Theorem c05_string_literal_roundtrip : forall d fl t s rest lit,
  render_value d fl (VStr t s) = Ok lit ->
  no_quote_prefix rest ->
  lex_str (server d fl) (driver fl (lit ++ rest)) = Some (s, driver fl rest).
Proof. exact string_value_roundtrip. Qed.
Print Assumptions c05_string_literal_roundtrip.

(* the same at the level of the processor + dialect override, N prefix explicit *)
Theorem c05_string_literal_roundtrip_processor : forall d fl n s rest,
  (n = true -> d = MSSQL) ->
  no_quote_prefix rest ->
  lex_str (server d fl) (driver fl (render_string d fl n s ++ rest)) = Some (s, driver fl rest).
Proof. exact string_literal_roundtrip. Qed.
Print Assumptions c05_string_literal_roundtrip_processor.

(* the ordered .replace() calls amount to one character-wise encoding between the quotes *)
Theorem c05_replace_chain_is_charwise : forall d fl n s,
  render_string d fl n s = string_prefix n ++ 39 :: enc (f_dp fl) (bs_active d fl) s ++ [39].
Proof. exact render_string_charwise. Qed.
Print Assumptions c05_replace_chain_is_charwise.

(* why the flags must describe the server / driver: with the backslash flag off against a server
   that honours backslash escapes the value  \' OR 1=1 --  ends the literal after one character;
   with percent doubling against a driver that does not collapse, % becomes %% *)
Theorem c05_backslash_flag_mismatch_injects :
  lex_str (mkLex EscMySQL false) (render_string MySQL (mkFlags false false) false inj_value)
  = Some ([39], [32; 79; 82; 32; 49; 61; 49; 32; 45; 45; 32; 39]).
Proof. exact backslash_flag_mismatch_injects. Qed.
Print Assumptions c05_backslash_flag_mismatch_injects.

Theorem c05_percent_flag_mismatch_changes_value :
  lex_str (mkLex EscNone false) (render_string SQLite (mkFlags true false) false [37]) = Some ([37; 37], []).
Proof. exact percent_flag_mismatch_changes_value. Qed.
Print Assumptions c05_percent_flag_mismatch_changes_value.

(* the rendered IN list is the list of tokens denoting exactly the values, up to the closing paren *)
Theorem c05_in_list_tokens : forall d fl n xs rest,
  (n = true -> d = MSSQL) -> xs <> [] ->
  lex_list (length xs) (server d fl)
           (driver fl (render_in_list (map (render_string d fl n) xs) ++ 41 :: rest))
  = LOk xs (driver fl (41 :: rest)).
Proof. exact in_list_tokens. Qed.
Print Assumptions c05_in_list_tokens.

(* IN list of a type with a bind_expression, literal_execute (fix 550a51d): every rendered literal is
   wrapped as a whole, whatever it contains - same text as literal_binds *)
Theorem c05_process_expanding_literal : forall l r lits,
  process_expanding_be l r lits = render_in_list_be l r lits.
Proof. exact process_expanding_literal. Qed.
Print Assumptions c05_process_expanding_literal.

(* the remaining text split (bound expanding parameters) is harmless: placeholders contain no ", " *)
Theorem c05_process_expanding_bound_ok : forall l r phs,
  phs <> [] -> forallb no_sep phs = true ->
  process_expanding_bound l r phs = render_in_list_be l r phs.
Proof. exact process_expanding_bound_ok. Qed.
Print Assumptions c05_process_expanding_bound_ok.

(* _process_parameters_for_postcompile substitutes every __[POSTCOMPILE_<name>] in ONE pass over the
   original text: for a template of admissible text chunks and parameter tokens the result is the
   template with each token replaced by its value VERBATIM - the values (rendered literals) are never
   scanned, so token-like text inside a value cannot be expanded *)
Theorem c05_postcompile_single_pass : forall f ps,
  forallb piece_ok ps = true -> pcsub f 0 (tmpl_text ps) = tmpl_fill f ps.
Proof. exact postcompile_single_pass. Qed.
Print Assumptions c05_postcompile_single_pass.

(* qmark / format paramstyles (the default SQLite dialect): _process_positional rewrites every
   %(name)s of the finished text into the placeholder - with literal_binds the literals are part of
   that text: the value  %(x)s  is rendered  '?' *)
Theorem c05_positional_pass_refuted : exists s,
  lex_str (server SQLite (default_flags SQLite))
          (pysub [63] 0 (render_string SQLite (default_flags SQLite) false s)) = Some ([63], []) /\
  s <> [63].
Proof. exact positional_pass_refuted. Qed.
Print Assumptions c05_positional_pass_refuted.

Theorem c05_positional_pass_guarded : forall d fl n s ph,
  nopl s = true -> pysub ph 0 (render_string d fl n s) = render_string d fl n s.
Proof. exact positional_pass_guarded. Qed.
Print Assumptions c05_positional_pass_guarded.

(* the complete pipeline for a value without "%(": processor, dialect override, compiler pass, driver,
   server lexer *)
Theorem c05_string_literal_roundtrip_after_positional_pass_guarded : forall d fl n s ph rest,
  (n = true -> d = MSSQL) -> no_quote_prefix rest -> nopl s = true ->
  lex_str (server d fl) (driver fl (pysub ph 0 (render_string d fl n s) ++ rest)) = Some (s, driver fl rest).
Proof. exact string_literal_roundtrip_after_pass. Qed.
Print Assumptions c05_string_literal_roundtrip_after_positional_pass_guarded.

(* paramstyle numeric / numeric_dollar (asyncpg): the  %(name)s -> positional marker  pass; a value
   containing  %(x_1)s  keeps that pattern inside its literal (KeyError, or the marker of parameter
   x_1 lands in the string) *)
Theorem c05_numeric_paramstyle_refuted : exists s,
  find_pyformat (render_string PG (mkFlags (dp_of_paramstyle NumericDollar) false) false s)
  = Some [120; 95; 49].
Proof. exact pyformat_refuted. Qed.
Print Assumptions c05_numeric_paramstyle_refuted.

Theorem c05_numeric_paramstyle_guarded : forall d fl n s,
  nopl s = true -> find_pyformat (render_string d fl n s) = None.
Proof. exact pyformat_guarded. Qed.
Print Assumptions c05_numeric_paramstyle_guarded.

Theorem c05_int_literal_token : forall z rest, num_follow_ok rest = true ->
  lex_signed (render_int z ++ rest) = Some (render_int z, rest).
Proof. exact int_literal_token. Qed.
Print Assumptions c05_int_literal_token.

Theorem c05_int_literal_value : forall z, parse_int (render_int z) = Some z.
Proof. exact int_literal_value. Qed.
Print Assumptions c05_int_literal_value.

Theorem c05_int_render : forall d fl z, render_value d fl (VInt z) = Ok (render_int z).
Proof. exact int_render. Qed.
Print Assumptions c05_int_render.

(* unary minus over a literal (fix 83f298d): for EVERY operand text the rendered "-" is the minus
   operator - a blank is put in front of an operand that starts with "-" or is substituted later *)
Theorem c05_unary_minus_operand_is_operator : forall le lit rest, lit <> [] ->
  lex_minus (render_neg le lit ++ rest) = OpMinus (tl (render_neg le lit) ++ rest).
Proof. exact neg_operand_is_operator. Qed.
Print Assumptions c05_unary_minus_operand_is_operator.

(* why the blank is needed: "-" directly followed by a negative literal is a comment that swallows
   the literal and the rest of the line *)
Theorem c05_minus_directly_before_negative_is_comment : forall p rest,
  lex_minus (45 :: render_int (Zneg p) ++ rest) = Comment (render_int (Zpos p) ++ rest).
Proof. exact minus_then_negative. Qed.
Print Assumptions c05_minus_directly_before_negative_is_comment.

(* Decimal() accepts, and the processor renders verbatim, texts that are no numeric literal:
   NaN, Infinity, 1_0, non-ASCII digits, Decimal('NaN') *)
Theorem c05_numeric_literal_refuted :
  (numeric_process KStr s_NaN = Ok s_NaN /\ lex_signed (s_NaN ++ [32]) = None /\ is_identifier s_NaN = true) /\
  (numeric_process KStr s_Infinity = Ok s_Infinity /\ lex_signed (s_Infinity ++ [32]) = None
     /\ is_identifier s_Infinity = true) /\
  (numeric_process KStr s_1_0 = Ok s_1_0 /\ lex_signed (s_1_0 ++ [32]) = None) /\
  (numeric_process KStr s_arabic_12 = Ok s_arabic_12 /\ lex_signed (s_arabic_12 ++ [32]) = None
     /\ is_identifier s_arabic_12 = true) /\
  (numeric_process KDecimal s_NaN = Ok s_NaN).
Proof. exact numeric_literal_refuted. Qed.
Print Assumptions c05_numeric_literal_refuted.

(* str(float("inf")) / str(float("nan")) are bare words *)
Theorem c05_float_literal_refuted :
  (numeric_process KFloat s_inf = Ok s_inf /\ lex_signed (s_inf ++ [32]) = None /\ is_identifier s_inf = true) /\
  (numeric_process KFloat s_nan = Ok s_nan /\ lex_signed (s_nan ++ [32]) = None /\ is_identifier s_nan = true).
Proof. exact float_literal_refuted. Qed.
Print Assumptions c05_float_literal_refuted.

(* whenever the text of the value is one (signed) numeric literal, the rendering is that token *)
Theorem c05_numeric_literal_guarded : forall k text out rest,
  numeric_process k text = Ok out -> sql_numeric text = true -> num_follow_ok rest = true ->
  lex_signed (out ++ rest) = Some (text, rest).
Proof. exact numeric_literal_guarded. Qed.
Print Assumptions c05_numeric_literal_guarded.

Theorem c05_temporal_render : forall d fl v,
  render_value d fl (VTemporal v) =
  Ok (fst (temporal_wrap d v) ++ [39] ++ temporal_text d v ++ [39] ++ snd (temporal_wrap d v)).
Proof. exact temporal_render. Qed.
Print Assumptions c05_temporal_render.

Theorem c05_temporal_literal_token : forall d fl v rest, no_quote_prefix rest ->
  lex_str (server d fl) (driver fl (([39] ++ temporal_text d v ++ [39]) ++ rest))
  = Some (temporal_text d v, driver fl rest).
Proof. exact temporal_literal_token. Qed.
Print Assumptions c05_temporal_literal_token.

Theorem c05_bool_null_render : forall d fl b,
  render_value d fl VNone = Ok null_text /\
  render_value d fl (VBool b) = Ok (bool_text d b) /\
  In (bool_text d b) [[49]; [48]; s_true; s_false].
Proof. exact bool_null_render. Qed.
Print Assumptions c05_bool_null_render.

(* non-vacuity: the renderings and guards above on concrete values *)

(* a'b\c%d  on MySQL (format paramstyle, backslash escapes):  'a''b\\c%%d' *)
Example c05_ex_mysql :
  render_value MySQL (default_flags MySQL) (VStr TString [97; 39; 98; 92; 99; 37; 100])
  = Ok [39; 97; 39; 39; 98; 92; 92; 99; 37; 37; 100; 39] /\
  no_quote_prefix [32; 65; 78; 68].
Proof. split; [vm_compute; reflexivity|cbn; discriminate]. Qed.
(* a non-ASCII string without an explicit type on SQL Server: N'...' *)
Example c05_ex_mssql :
  render_value MSSQL (default_flags MSSQL) (VStr TAuto [233; 39]) = Ok [78; 39; 233; 39; 39; 39].
Proof. vm_compute. reflexivity. Qed.
Example c05_ex_in_list :
  render_in_list (map (render_string SQLite (default_flags SQLite) false) [[97; 44; 32; 98]; [39]])
  = [39; 97; 44; 32; 98; 39; 44; 32; 39; 39; 39; 39].
Proof. vm_compute. reflexivity. Qed.
(* the value 'A, B' under lower(...): wrapped as a whole (550a51d); placeholders split harmlessly *)
Example c05_ex_process_expanding :
  process_expanding_be s_lower_open [41] [lit_A_B] = s_lower_open ++ lit_A_B ++ [41] /\
  forallb no_sep [[63]; [63]] = true /\
  process_expanding_bound s_lower_open [41] [[63]; [63]]
  = s_lower_open ++ [63; 41; 44; 32] ++ s_lower_open ++ [63; 41].
Proof. vm_compute. repeat split; reflexivity. Qed.
(* -literal(-5) renders "- -5"; -literal(5) renders "-5" (83f298d) *)
Example c05_ex_negated_negative :
  render_neg false (render_int (-5)) = [45; 32; 45; 53] /\ render_neg false (render_int 5) = [45; 53] /\
  render_neg true (render_int 5) = [45; 32; 53].
Proof. vm_compute. repeat split; reflexivity. Qed.
(* WHERE a = __[POSTCOMPILE_zq] AND b IN (__[POSTCOMPILE_x]) : an admissible template; the value of zq
   spells the token of x and stays as it is *)
Example c05_ex_postcompile :
  let ps := [Txt [97; 32; 61; 32]; Hole [122; 113]; Txt [32; 73; 78; 32; 40]; Hole [120]; Txt [41]] in
  let f := fun n => if str_eqb n [122; 113] then Some (39 :: tok [120] ++ [39])
                    else if str_eqb n [120] then Some [39; 118; 39] else None in
  forallb piece_ok ps = true /\
  tmpl_fill f ps = POk ([97; 32; 61; 32] ++ (39 :: tok [120] ++ [39]) ++ [32; 73; 78; 32; 40] ++ [39; 118; 39] ++ [41]).
Proof. vm_compute. split; reflexivity. Qed.
Example c05_ex_nopl : nopl [37; 32; 40; 97; 41; 115; 37] = true.
Proof. vm_compute. reflexivity. Qed.
Example c05_ex_numeric :
  numeric_process KStr [45; 49; 46; 53; 48; 101; 43; 51] = Ok [45; 49; 46; 53; 48; 101; 43; 51] /\
  sql_numeric [45; 49; 46; 53; 48; 101; 43; 51] = true /\ num_follow_ok [32] = true /\
  numeric_process KStr [49; 59; 68] = CompileError.
Proof. vm_compute. repeat split; reflexivity. Qed.
Example c05_ex_int : render_int (-120)%Z = [45; 49; 50; 48] /\ num_follow_ok [41] = true.
Proof. vm_compute. split; reflexivity. Qed.
Example c05_ex_temporal :
  render_value Oracle (default_flags Oracle)
    (VTemporal (VDateTime (mkDate 2020 1 2) (mkTime 3 4 5 6)))
  = Ok (s_TO_TIMESTAMP ++ [39; 50; 48; 50; 48; 45; 48; 49; 45; 48; 50; 32; 48; 51; 58; 48; 52; 58; 48; 53;
                           46; 48; 48; 48; 48; 48; 54; 39] ++ s_fmt_ts) /\
  temporal_text SQLite (VTime (mkTime 3 4 5 0)) = [48; 51; 58; 48; 52; 58; 48; 53; 46; 48; 48; 48; 48; 48; 48].
Proof. vm_compute. split; reflexivity. Qed.
