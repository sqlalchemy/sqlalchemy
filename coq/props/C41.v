(* C41 - ORM queries return the rows their relational meaning specifies.
   Statements only; every proof is [exact <lemma>].  Model: coq/orm/Query.v. *)
From Coq Require Import List ZArith Bool Arith.
Import ListNotations.
From SAV.sql Require Import Val3.
From SAV.orm Require Import Query QueryCrit QueryShapes QueryAsm QueryExtra.

(* the entities (primary keys) and values of the ORM result correspond one-to-one, in order, with the rows of
   the Core query the ORM compiles: for every database and every query of the grammar *)
Theorem c41_orm_rows_biject_core_rows : forall d q,
  map (map item_val) (orm_exec d q false) = core_exec d (orm_to_core d q).
Proof. exact orm_rows_biject_core_rows. Qed.
Print Assumptions c41_orm_rows_biject_core_rows.

(* and that Core query (joins along the relationship, of_type criterion in the ON clause, correlated EXISTS,
   IN subquery, GROUP BY, UNION; three-valued logic) computes the relational meaning of the ORM query stated on
   the object graph - guarded: every object given to contains() has a parent *)
Theorem c41_core_query_has_relational_meaning_guarded : forall d q, query_ok d q = true ->
  core_exec d (orm_to_core d q) = meaning d q.
Proof. exact core_exec_meaning. Qed.
Print Assumptions c41_core_query_has_relational_meaning_guarded.

Theorem c41_orm_rows_have_relational_meaning_guarded : forall d q, query_ok d q = true ->
  map (map item_val) (orm_exec d q false) = meaning d q.
Proof. exact (fun d q => orm_rows_meaning_sl d q 0 None). Qed.
Print Assumptions c41_orm_rows_have_relational_meaning_guarded.

(* the excluded region is a real deviation: NOT contains(child whose foreign key is NULL) returns no parent *)
Theorem c41_core_query_has_relational_meaning_refuted : exists d q,
  core_exec d (orm_to_core d q) = [] /\ meaning d q = [[Some 4%Z]] /\ query_ok d q = false.
Proof. exact core_meaning_refuted. Qed.
Print Assumptions c41_core_query_has_relational_meaning_refuted.

(* any(crit) == EXISTS (SELECT 1 FROM child WHERE fk = pk AND crit), has(crit) likewise, of_type(Sub).any adds the
   single-table criterion; all two-valued, and a NULL foreign key relates the child to no parent *)
Theorem c41_any_has_semantics : forall d,
  (forall e pa p s, lookup e pa = grow_p p -> pa <> sub_alias ->
     beval d e (tr_pcrit d pa (PAny s)) =
     tv_of_bool (existsb (fun c => child_of c p && is_true (sxeval s (c_y c))) (cs d))) /\
  (forall e pa p s, lookup e pa = grow_p p -> pa <> sub_alias ->
     beval d e (tr_pcrit d pa (PAnySub s)) =
     tv_of_bool (existsb (fun c => child_of c p && (is_sub c && is_true (sxeval s (c_y c)))) (cs d))) /\
  (forall e ca c s, lookup e ca = grow_c c -> ca <> sub_alias ->
     beval d e (tr_ccrit ca (CHas s)) =
     tv_of_bool (existsb (fun p => child_of c p && is_true (sxeval s (p_x p))) (ps d))) /\
  (forall c p, c_pid c = None -> child_of c p = false).
Proof. exact any_has_semantics. Qed.
Print Assumptions c41_any_has_semantics.

(* the whole criterion language on P evaluates, inside any enclosing query, to its meaning (3VL) *)
Theorem c41_criterion_meaning_guarded : forall d e pa p c,
  lookup e pa = grow_p p -> pa < sub_alias -> contains_ok d c = true ->
  beval d e (tr_pcrit d pa c) = peval d p c.
Proof. exact pcrit_tr. Qed.
Print Assumptions c41_criterion_meaning_guarded.

(* identity map: within one result the same (class, primary key) is the same object, different keys are
   different objects, whatever row / column they appear in *)
Theorem c41_identity_map_one_object_per_key : forall d q, exists M,
  Forall (items_ok M (col_kinds q)) (orm_exec d q false) /\
  forall t o pk t' o' pk', nth_error M o = Some ((t, pk), o) -> nth_error M o' = Some ((t', pk'), o') ->
    (o = o' <-> (t = t' /\ pk = pk')).
Proof. exact identity_map_one_object_per_key. Qed.
Print Assumptions c41_identity_map_one_object_per_key.

(* count() and exists() agree with the rows returned by select() + Session.execute() *)
Theorem c41_count_exists_agree : forall d q,
  orm_count d q = length (orm_exec d q false) /\
  orm_exists d q = negb (Nat.eqb (length (orm_exec d q false)) 0).
Proof. exact count_exists_agree. Qed.
Print Assumptions c41_count_exists_agree.

(* legacy Query.all() applies Result.unique(): refuted in general, proved when no two rows are the same
   (objects compared by identity), and never more rows than count() *)
Theorem c41_count_agree_legacy_refuted : exists d q,
  orm_count d q = 3 /\ length (orm_exec d q true) = 2 /\ length (core_exec d (orm_to_core d q)) = 3.
Proof. exact count_agree_legacy_refuted. Qed.
Print Assumptions c41_count_agree_legacy_refuted.

Theorem c41_count_agree_legacy_guarded : forall d q,
  distinct_items (orm_exec d q false) [] = true ->
  orm_exec d q true = orm_exec d q false /\ orm_count d q = length (orm_exec d q true).
Proof. exact count_agree_legacy_guarded. Qed.
Print Assumptions c41_count_agree_legacy_guarded.

Theorem c41_legacy_rows_le_count : forall d q, length (orm_exec d q true) <= orm_count d q.
Proof. exact (fun d q => legacy_rows_le_count_sl d q 0 None). Qed.
Print Assumptions c41_legacy_rows_le_count.

(* with LIMIT / OFFSET on the statement: the rows are the slice of the Core rows (and of the meaning), and
   count() / exists() - computed over the statement including its LIMIT / OFFSET - agree with them *)
Theorem c41_orm_rows_biject_core_rows_sliced : forall d q off lim,
  map (map item_val) (orm_exec_sl d q off lim false) = slice off lim (core_exec d (orm_to_core d q)).
Proof. exact orm_rows_biject_core_rows_sl. Qed.
Print Assumptions c41_orm_rows_biject_core_rows_sliced.

Theorem c41_orm_rows_have_relational_meaning_sliced_guarded : forall d q off lim, query_ok d q = true ->
  map (map item_val) (orm_exec_sl d q off lim false) = slice off lim (meaning d q).
Proof. exact orm_rows_meaning_sl. Qed.
Print Assumptions c41_orm_rows_have_relational_meaning_sliced_guarded.

Theorem c41_count_exists_agree_sliced : forall d q off lim,
  orm_count_sl d q off lim = length (orm_exec_sl d q off lim false) /\
  orm_exists_sl d q off lim = negb (Nat.eqb (length (orm_exec_sl d q off lim false)) 0).
Proof. exact count_exists_agree_sl. Qed.
Print Assumptions c41_count_exists_agree_sliced.

Theorem c41_legacy_rows_le_count_sliced : forall d q off lim,
  length (orm_exec_sl d q off lim true) <= orm_count_sl d q off lim.
Proof. exact legacy_rows_le_count_sl. Qed.
Print Assumptions c41_legacy_rows_le_count_sliced.

(* self-referential any() / has() (expression and keyword form): the criterion speaks about the related row *)
Theorem c41_self_referential_criterion_meaning : forall d e na n c,
  lookup e na = grow_c n -> na <> sub_alias -> beval d e (tr_ncrit na c) = neval d n c.
Proof. exact ncrit_tr. Qed.
Print Assumptions c41_self_referential_criterion_meaning.

(* the criteria on C: has(), == None on the many-to-one (IS NULL, negation IS NOT NULL), has(any()) nested *)
Theorem c41_child_criterion_meaning : forall d e ca c k,
  lookup e ca = grow_c c -> ca < sub_alias -> beval d e (tr_ccrit ca k) = ceval d c k.
Proof. exact ccrit_tr. Qed.
Print Assumptions c41_child_criterion_meaning.

(* ---- non-vacuity ---- *)
Definition ex_db : db :=
  {| ps := [ {| p_id := 1; p_x := Some 1%Z |}; {| p_id := 2; p_x := None |}; {| p_id := 3; p_x := Some 2%Z |} ];
     cs := [ {| c_id := 4; c_pid := Some 1%Z; c_y := Some 1%Z; c_kind := 0 |};
             {| c_id := 5; c_pid := Some 1%Z; c_y := Some 1%Z; c_kind := 1 |};
             {| c_id := 6; c_pid := Some 2%Z; c_y := None; c_kind := 1 |};
             {| c_id := 9; c_pid := None; c_y := Some 1%Z; c_kind := 1 |} ]; ns := []; pn := [] |}.

(* outer join to of_type(Sub): parent 3 (no children) and nobody else gets the None entity; parent 1 twice
   would be the same object *)
Example c41_ex_outer_join :
  orm_exec ex_db (QJoinPC true TgSub STrue STrue BothEnt) false =
  [ [IEnt 0 1; IEnt 1 5]; [IEnt 2 2; IEnt 3 6]; [IEnt 4 3; INone] ]%Z
  /\ query_ok ex_db (QJoinPC true TgSub STrue STrue BothEnt) = true.
Proof. split; vm_compute; reflexivity. Qed.

(* NOT any(y = 1): parents 2 (child with NULL y) and 3 (no child); the orphan child 9 counts for nobody *)
Example c41_ex_not_any :
  meaning ex_db (QP (PNot (PAny (SCmp OEq 1)))) = [[Some 2]; [Some 3]]%Z /\
  core_exec ex_db (orm_to_core ex_db (QP (PNot (PAny (SCmp OEq 1))))) = [[Some 2]; [Some 3]]%Z.
Proof. split; vm_compute; reflexivity. Qed.

(* a guarded contains(): child 6 belongs to parent 2 *)
Example c41_ex_contains :
  query_ok ex_db (QP (PNot (PContains 6))) = true /\
  meaning ex_db (QP (PNot (PContains 6))) = [[Some 1]; [Some 3]]%Z.
Proof. split; vm_compute; reflexivity. Qed.

(* the same parent in several rows is one object (oid 0) *)
Example c41_ex_identity :
  orm_exec ex_db (QJoinPC false TgC STrue STrue BothEnt) false =
  [ [IEnt 0 1; IEnt 1 4]; [IEnt 0 1; IEnt 2 5]; [IEnt 3 2; IEnt 4 6] ]%Z.
Proof. vm_compute; reflexivity. Qed.

Example c41_ex_legacy_guard :
  distinct_items (orm_exec ex_db (QJoinPC false TgC STrue STrue BothEnt) false) [] = true.
Proof. vm_compute; reflexivity. Qed.

(* nodes 1 <- 2 <- 3 (data 7, 8, 7), 4 an orphan with data 8: children.any(data=8) holds for node 1 only,
   parent.has(data=7) for node 2 only (node 3's parent has 8; the outer row's own data is irrelevant) *)
Definition ex_nodes : db :=
  {| ps := []; cs := [];
     ns := [ {| c_id := 1; c_pid := None; c_y := Some 7%Z; c_kind := 0 |};
             {| c_id := 2; c_pid := Some 1%Z; c_y := Some 8%Z; c_kind := 0 |};
             {| c_id := 3; c_pid := Some 2%Z; c_y := Some 7%Z; c_kind := 0 |};
             {| c_id := 4; c_pid := None; c_y := Some 8%Z; c_kind := 0 |} ]; pn := [] |}.
Example c41_ex_self_referential :
  core_exec ex_nodes (orm_to_core ex_nodes (QN (NAny (SCmp OEq 8)))) = [[Some 1%Z]] /\
  core_exec ex_nodes (orm_to_core ex_nodes (QN (NHas (SCmp OEq 7)))) = [[Some 2%Z]] /\
  meaning ex_nodes (QN (NNot (NAny (SCmp OEq 8)))) = [[Some 2]; [Some 3]; [Some 4]]%Z.
Proof. repeat split; vm_compute; reflexivity. Qed.

(* the single-table subclass twice: only Sub rows on both sides (5 and 6 have different parents; 9 has none) *)
Example c41_ex_siblings :
  core_exec ex_db (orm_to_core ex_db (QSibs false STrue)) = [[Some 5; Some 5]; [Some 6; Some 6]]%Z.
Proof. vm_compute; reflexivity. Qed.

Example c41_ex_slice :
  orm_count_sl ex_db (QJoinPC false TgC STrue STrue BothEnt) 2 None = 1 /\
  orm_exec_sl ex_db (QJoinPC false TgC STrue STrue BothEnt) 1 (Some 1) false = [ [IEnt 0 1; IEnt 1 5] ]%Z.
Proof. split; vm_compute; reflexivity. Qed.

(* Query.union().offset(1).exists(), the case /repo 2942091 repaired (it tested union x p): exists() agrees with the
   rows for the legacy union as for every other query (c41_count_exists_agree_sliced) *)
Example c41_ex_legacy_union_exists :
  orm_exec_sl wit_db3 wit_q3 1 None true = [] /\ orm_count_sl wit_db3 wit_q3 1 None = 0 /\
  orm_exists_sl wit_db3 wit_q3 1 None = false /\ orm_exists_sl wit_db3 wit_q3 0 None = true.
Proof. repeat split; vm_compute; reflexivity. Qed.

(* many-to-many P.tags <-> Node.holders over pn: parents 1 and 2 share tag 7, parent 3 has tag 8 only.
   tags.any(holders.any(x = 5)) : a parent sharing a tag with a parent whose x is 5 -> parents 1 and 2 *)
Definition ex_m2m : db :=
  {| ps := [ {| p_id := 1; p_x := Some 5%Z |}; {| p_id := 2; p_x := Some 0%Z |}; {| p_id := 3; p_x := Some 0%Z |} ];
     cs := [ {| c_id := 1; c_pid := Some 1%Z; c_y := Some 9%Z; c_kind := 0 |};
             {| c_id := 2; c_pid := Some 1%Z; c_y := Some 0%Z; c_kind := 0 |};
             {| c_id := 3; c_pid := None; c_y := Some 9%Z; c_kind := 0 |} ];
     ns := [ {| c_id := 7; c_pid := None; c_y := Some 1%Z; c_kind := 0 |};
             {| c_id := 8; c_pid := None; c_y := Some 2%Z; c_kind := 0 |} ];
     pn := [ (1, 7); (2, 7); (3, 8) ]%Z |}.
Example c41_ex_nested_m2m :
  core_exec ex_m2m (orm_to_core ex_m2m (QP (PTagNested (SCmp OEq 5)))) = [[Some 1]; [Some 2]]%Z /\
  meaning ex_m2m (QP (PTagAny (SCmp OEq 2))) = [[Some 3%Z]].
Proof. split; vm_compute; reflexivity. Qed.

(* != None on the many-to-one: children 1 and 2; union over C, then has(any(y = 9)) added after the union:
   child 2 (y = 0) qualifies because its sibling 1 has y = 9 *)
Example c41_ex_none_and_union :
  meaning ex_m2m (QC (CNot CNoParent)) = [[Some 1]; [Some 2]]%Z /\
  core_exec ex_m2m (orm_to_core ex_m2m (QUnionC (SCmp OEq 0) (SCmp OEq 9) (CHasAny (SCmp OEq 9)))) = [[Some 1]; [Some 2]]%Z.
Proof. split; vm_compute; reflexivity. Qed.
