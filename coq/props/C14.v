(* C14 - DDL (create_all / drop_all) is emitted in dependency order for any foreign-key graph, cycles
   broken by ALTER; sorted_tables lists referenced tables first.  Statements only; the proofs are in sql/DDLOrder*.v.

   Vocabulary (sql/DDLOrder.v): [metadata] = list of tables (name, ForeignKeyConstraints (id, referred
   table, use_alter, named), add_is_dependent_on parents); [create_plan]/[drop_plan existing checkfirst
   md] = Plan ordered unordered | ErrCircular | ErrCompile; the unordered block is what the code emits
   from list(remaining_fkcs) (a set) - theorems hold for EVERY order of it; [exec db script] runs a
   script on the reference catalog ([None] = some statement rejected); [wf] = table names unique, FKs
   resolve, constraints of a table distinct; [consistent db md] = db holds a referentially closed part
   of md; [cat_equiv db md] = db is exactly md. *)
From Coq Require Import List NArith Bool Permutation.
Import ListNotations.
From SAV.util Require Import Topo Cycles TopoProofs TopoCycle TopoExtra CyclesSound CyclesComplete CyclesExact.
From SAV.sql Require Import DDLOrder DDLOrderBase DDLOrderSort DDLOrderExec DDLOrderCreate DDLOrderDrop DDLOrderSorted DDLOrderHistory DDLOrderExplicit.

(* ANY foreign-key graph (self references, parallel constraints, cycles of any shape, use_alter or
   not), any set of already existing tables with checkfirst: unless the add_is_dependent_on edges
   themselves form a cycle, every statement of the plan is accepted and the catalog ends up being
   exactly the metadata *)
Theorem c14_create_all_succeeds : forall md db0 checkfirst,
  wf md -> consistent db0 md -> (checkfirst = false -> db0 = []) ->
  ~ (exists w, cycle (fixed md) w /\ incl w (names md)) ->
  exists o u, create_plan (map fst db0) checkfirst md = Plan o u /\
    forall u', Permutation u' u ->
    exists db', exec db0 (o ++ u') = Some db' /\ cat_equiv db' md.
Proof. exact create_all_succeeds. Qed.
Print Assumptions c14_create_all_succeeds.

(* ... and it raises CircularDependencyError exactly on a cycle of add_is_dependent_on edges among the
   tables to create; no other error, the model's fuel always suffices *)
Theorem c14_create_all_raises_iff_fixed_cycle : forall existing checkfirst md,
  create_plan existing checkfirst md = ErrCircular <->
  exists w, cycle (fixed (create_tables existing checkfirst md)) w /\
            incl w (names (create_tables existing checkfirst md)).
Proof. exact create_plan_circular_iff. Qed.
Print Assumptions c14_create_all_raises_iff_fixed_cycle.

Theorem c14_create_all_no_other_error : forall existing checkfirst md,
  create_plan existing checkfirst md <> ErrFuel /\ create_plan existing checkfirst md <> ErrCompile.
Proof. exact create_plan_total. Qed.
Print Assumptions c14_create_all_no_other_error.

(* guarded: use_alter constraints are named (documented), the dependencies that ALTER cannot remove
   (unnamed constraints, add_is_dependent_on) are acyclic (documented), and no table has a named and
   an unnamed constraint to the same table (NOT documented: see the refutation below) *)
Theorem c14_drop_all_succeeds_guarded : forall md db0 checkfirst,
  wf md -> consistent db0 md ->
  (checkfirst = false -> forall t, In t md -> has_table (t_name t) db0 = true) ->
  alter_named md -> siblings_agree md ->
  ~ (exists w, cycle (fixed md ++ unnamed_deps md) w /\ incl w (names md)) ->
  exists o u, drop_plan (map fst db0) checkfirst md = Plan o u /\
    forall u', Permutation u' u -> exec db0 (u' ++ o) = Some [].
Proof. exact drop_all_succeeds_guarded. Qed.
Print Assumptions c14_drop_all_succeeds_guarded.

(* without [siblings_agree] the claim is false: t0 with a named and an unnamed FK to t1, t1 with a
   named FK to t0.  drop_all emits ALTER..DROP for the two named constraints and then DROP TABLE t1
   while the unnamed constraint of t0 still references it; the other DROP order would be accepted *)
Theorem c14_drop_all_unguarded_refuted :
  exists md s, wf md /\ alter_named md /\
    ~ (exists w, cycle (fixed md ++ unnamed_deps md) w /\ incl w (names md)) /\
    drop_script (drop_plan (names md) false md) = Some s /\
    exec (catalog_of md) s = None /\
    exists s', Permutation s' s /\ exec (catalog_of md) s' = Some [].
Proof. exact drop_all_unguarded_refuted. Qed.
Print Assumptions c14_drop_all_unguarded_refuted.

(* the documented errors of drop_all happen only for their documented reasons *)
Theorem c14_drop_all_circular_only_on_unnamed_cycle : forall existing checkfirst md,
  drop_plan existing checkfirst md = ErrCircular ->
  exists w, cycle (fixed md ++ unnamed_deps md) w /\ incl w (names md).
Proof. exact drop_plan_circular_unnamed. Qed.
Print Assumptions c14_drop_all_circular_only_on_unnamed_cycle.

Theorem c14_drop_all_circular_iff : forall existing checkfirst md,
  drop_plan existing checkfirst md = ErrCircular <->
  exists w, cycle (fixed (drop_tables existing checkfirst md) ++
                   stuck_edges drop_filter (drop_tables existing checkfirst md)) w /\
            incl w (names (drop_tables existing checkfirst md)).
Proof. exact drop_plan_circular_iff. Qed.
Print Assumptions c14_drop_all_circular_iff.

Theorem c14_drop_all_compile_error_only_on_unnamed_use_alter : forall existing checkfirst md,
  drop_plan existing checkfirst md = ErrCompile ->
  exists t f, In t md /\ In f (t_fks t) /\ fk_alter f = true /\ fk_named f = false.
Proof. exact drop_plan_compile_error. Qed.
Print Assumptions c14_drop_all_compile_error_only_on_unnamed_use_alter.

Theorem c14_drop_all_fuel_suffices : forall existing checkfirst md,
  drop_plan existing checkfirst md <> ErrFuel.
Proof. exact drop_plan_total. Qed.
Print Assumptions c14_drop_all_fuel_suffices.

(* create_all then drop_all on an empty database leaves it empty *)
Theorem c14_create_then_drop : forall md, wf md -> alter_named md -> siblings_agree md ->
  ~ (exists w, cycle (fixed md ++ unnamed_deps md) w /\ incl w (names md)) ->
  exists c d, create_script (create_plan [] false md) = Some c /\
              drop_script (drop_plan (names md) false md) = Some d /\
              exec [] (c ++ d) = Some [].
Proof. exact create_then_drop. Qed.
Print Assumptions c14_create_then_drop.

(* [deps md] = add_is_dependent_on edges + one edge per constraint without use_alter to another
   table.  sorted_tables is a permutation of the tables; a referred table precedes the referring one
   for every dependency whose referring table lies on no dependency cycle (all of them when there is
   no cycle, which is also exactly when no warning is emitted); add_is_dependent_on edges are always
   respected *)
Theorem c14_sorted_tables_respects_acyclic_deps : forall md o w,
  wf md -> sorted_tables md = Ok (o, w) ->
  Permutation o (names md) /\
  (forall t f, In t md -> In f (t_fks t) -> fk_alter f = false -> fk_ref f <> t_name t ->
     ~ on_cycle (deps md) (t_name t) -> before o (fk_ref f) (t_name t)) /\
  (forall t p, In t md -> In p (t_extra t) -> In p (names md) -> before o p (t_name t)) /\
  (w = false <-> ~ exists c, cycle (deps md) c /\ incl c (names md)) /\
  (w = false -> forall t f, In t md -> In f (t_fks t) -> fk_alter f = false -> fk_ref f <> t_name t ->
     before o (fk_ref f) (t_name t)).
Proof. exact sorted_tables_spec. Qed.
Print Assumptions c14_sorted_tables_respects_acyclic_deps.

Theorem c14_sorted_tables_raises_iff_fixed_cycle : forall md,
  sorted_tables md = Circular <-> exists c, cycle (fixed md) c /\ incl c (names md).
Proof. exact sorted_tables_circular_iff. Qed.
Print Assumptions c14_sorted_tables_raises_iff_fixed_cycle.

Theorem c14_sorted_tables_fuel_suffices : forall md, sorted_tables md <> OutOfFuel.
Proof. exact sorted_tables_total. Qed.
Print Assumptions c14_sorted_tables_fuel_suffices.

(* the stronger reading "every dependency EDGE that is on no cycle is respected" is false (and
   documented as such: all foreign keys of a table on a cycle are left out of the sort): t1 <-> t2,
   t1 -> t3 gives [t1; t2; t3] *)
Theorem c14_sorted_tables_edge_reading_refuted :
  exists md t f o, wf md /\ In t md /\ In f (t_fks t) /\ fk_alter f = false /\ fk_ref f <> t_name t /\
    ~ on_cycle (deps md) (fk_ref f) /\
    sorted_tables md = Ok (o, true) /\ ~ before o (fk_ref f) (t_name t).
Proof. exact sorted_tables_edge_reading_refuted. Qed.
Print Assumptions c14_sorted_tables_edge_reading_refuted.

(* Table.add_is_dependent_on edges are never taken out of the sort - not even when the same (referred,
   table) pair is also an FK edge that the cycle handling removes: CREATE TABLE follows them, DROP TABLE
   follows them in reverse (sorted_tables: third clause of c14_sorted_tables_respects_acyclic_deps),
   and a cycle made of them always raises *)
Theorem c14_create_order_respects_explicit_deps : forall existing checkfirst md o u,
  create_plan existing checkfirst md = Plan o u ->
  forall t p, In t (create_tables existing checkfirst md) -> In p (t_extra t) ->
    In p (names (create_tables existing checkfirst md)) -> before (created_order o) p (t_name t).
Proof. exact create_order_respects_explicit. Qed.
Print Assumptions c14_create_order_respects_explicit_deps.

Theorem c14_drop_order_respects_explicit_deps : forall existing checkfirst md o u,
  drop_plan existing checkfirst md = Plan o u ->
  forall t p, In t (drop_tables existing checkfirst md) -> In p (t_extra t) ->
    In p (names (drop_tables existing checkfirst md)) -> before (dropped_order o) (t_name t) p.
Proof. exact drop_order_respects_explicit. Qed.
Print Assumptions c14_drop_order_respects_explicit_deps.

Theorem c14_drop_all_explicit_cycle_raises : forall existing checkfirst md,
  (exists w, cycle (fixed (drop_tables existing checkfirst md)) w /\
             incl w (names (drop_tables existing checkfirst md))) ->
  drop_plan existing checkfirst md = ErrCircular.
Proof. exact drop_explicit_cycle_raises. Qed.
Print Assumptions c14_drop_all_explicit_cycle_raises.

Example c14_ex_explicit_on_cycle_edge :
  let md := [mktable 1 [mkfk 0 2 false true] [2]; mktable 2 [mkfk 0 1 false true] []]%N in
  create_plan [] false md =
    Plan [CreateT 2 []; CreateT 1 []]%N [AddFK 1 (mkfk 0 2 false true); AddFK 2 (mkfk 0 1 false true)]%N /\
  drop_plan [] false md =
    Plan [DropT 1; DropT 2]%N [DropFK 1 (mkfk 0 2 false true); DropFK 2 (mkfk 0 1 false true)]%N /\
  sorted_tables md = Ok ([2; 1]%N, true).
Proof. exact explicit_on_cycle_edge. Qed.

(* The MetaData may be the result of any history of Table(...) definitions, MetaData.remove and
   Table(..., extend_existing=True) ([run_history]/[current]: dict semantics, a re-definition goes to
   the end, extend_existing replaces the re-specified constraints).  The plans are functions of the
   metadata the history leaves behind - the tables in it NOW, every foreign key referring to the table
   that has the referred name NOW - and of nothing else.  This is how [create_after] & co. are defined (foreign
   keys are names, resolved when the plan is made); the statement records that modelling decision *)
Theorem c14_plans_depend_on_current_metadata_only : forall h h', current h = current h' ->
  (forall ex cf, create_after ex cf h = create_after ex cf h') /\
  (forall ex cf, drop_after ex cf h = drop_after ex cf h') /\
  sorted_after h = sorted_after h'.
Proof. exact plans_depend_on_current_only. Qed.
Print Assumptions c14_plans_depend_on_current_metadata_only.

(* a history keeps table names unique and the constraints of each table distinct: the metadata it
   leaves is well-formed as soon as its foreign keys resolve against the tables it contains now *)
Theorem c14_history_leaves_wellformed_metadata : forall h md,
  Forall step_ok h -> current h = Some md ->
  (forall t f, In t md -> In f (t_fks t) -> In (fk_ref f) (names md)) -> wf md.
Proof. exact history_wf. Qed.
Print Assumptions c14_history_leaves_wellformed_metadata.

(* hence create_all after ANY history is accepted and produces exactly the current metadata *)
Theorem c14_create_all_after_history : forall h md db0 checkfirst,
  Forall step_ok h -> current h = Some md ->
  (forall t f, In t md -> In f (t_fks t) -> In (fk_ref f) (names md)) ->
  consistent db0 md -> (checkfirst = false -> db0 = []) ->
  ~ (exists w, cycle (fixed md) w /\ incl w (names md)) ->
  exists o u, create_after (map fst db0) checkfirst h = Some (Plan o u) /\
    forall u', Permutation u' u -> exists db', exec db0 (o ++ u') = Some db' /\ cat_equiv db' md.
Proof. exact create_all_after_history. Qed.
Print Assumptions c14_create_all_after_history.

(* referred table defined first, referring table second, referred table removed and defined again *)
Example c14_ex_history_redefine_parent :
  let h := [Define (mktable 0 [] []); Define (mktable 1 [mkfk 0 0 false false] []);
            Remove 0; Define (mktable 0 [] [])]%N in
  current h = Some [mktable 1 [mkfk 0 0 false false] []; mktable 0 [] []]%N /\
  create_after [] false h = Some (Plan [CreateT 0 []; CreateT 1 [mkfk 0 0 false false]]%N []) /\
  drop_after [] false h = Some (Plan [DropT 1; DropT 0]%N []) /\
  sorted_after h = Some (Ok ([0; 1]%N, false)).
Proof. exact history_redefine_parent. Qed.

(* the model evaluates find_cycles with one canonical iteration order of the Python sets; every other
   order yields the same set of tables, so the plans do not depend on it (C19) *)
Theorem c14_cycles_independent_of_set_order : forall ts (ord : node -> list node) (starts : list node),
  (forall a b, In b (ord a) <-> In (a, b) ts) ->
  (forall a, In a starts <-> exists b, In (a, b) ts) ->
  exists out out', find_cycles ord starts = Some out /\ cycles_of ts = Some out' /\
                   forall x, In x out <-> In x out'.
Proof. exact cycles_of_any_order. Qed.
Print Assumptions c14_cycles_independent_of_set_order.

(* a 3-cycle t1 -> t2 -> t3 -> t1 (all named), t3 self-referential (unnamed; deferred with the others
   on CREATE, kept on DROP), t4 -> t1 with use_alter, t2 with two constraints to t3: satisfies every
   hypothesis above *)
Definition ex_md : metadata :=
  [ mktable 1 [mkfk 0 2 false true] [];
    mktable 2 [mkfk 0 3 false true; mkfk 1 3 false true] [];
    mktable 3 [mkfk 0 1 false true; mkfk 1 3 false false] [];
    mktable 4 [mkfk 0 1 true true] [1] ]%N.

Example c14_ex_create :
  create_plan [] false ex_md =
  Plan [CreateT 1 []; CreateT 2 []; CreateT 3 []; CreateT 4 []]%N
       [AddFK 1 (mkfk 0 2 false true); AddFK 2 (mkfk 0 3 false true); AddFK 2 (mkfk 1 3 false true);
        AddFK 3 (mkfk 0 1 false true); AddFK 3 (mkfk 1 3 false false); AddFK 4 (mkfk 0 1 true true)]%N.
Proof. vm_compute; reflexivity. Qed.

Example c14_ex_drop :
  drop_plan [] false ex_md =
  Plan [DropT 4; DropT 3; DropT 2; DropT 1]%N
       [DropFK 1 (mkfk 0 2 false true); DropFK 2 (mkfk 0 3 false true); DropFK 2 (mkfk 1 3 false true);
        DropFK 3 (mkfk 0 1 false true); DropFK 4 (mkfk 0 1 true true)]%N.
Proof. vm_compute; reflexivity. Qed.

Example c14_ex_hyps :
  wf ex_md /\ alter_named ex_md /\ siblings_agree ex_md /\ consistent [] ex_md /\
  ~ (exists w, cycle (fixed ex_md ++ unnamed_deps ex_md) w /\ incl w (names ex_md)) /\
  ~ (exists w, cycle (fixed ex_md) w /\ incl w (names ex_md)) /\
  (exists c, cycle (deps ex_md) c /\ incl c (names ex_md)).
Proof.
  split; [apply wfb_ok; reflexivity|]. split; [apply alter_named_by_eval; reflexivity|].
  split; [apply siblings_agree_by_eval; reflexivity|]. split; [apply consistent_nil|].
  split; [apply no_cycle_by_sort; vm_compute; discriminate|].
  split; [apply no_cycle_by_sort; vm_compute; discriminate|].
  apply sort_circular_iff. vm_compute. reflexivity.
Qed.

(* a sorted_tables result with an emitted warning and a respected acyclic dependency (t4 -> t1 is
   use_alter but add_is_dependent_on(t1) is a fixed edge) *)
Example c14_ex_sorted : sorted_tables ex_md = Ok ([1; 2; 3; 4]%N, true).
Proof. vm_compute; reflexivity. Qed.

(* the unbreakable cycle: add_is_dependent_on both ways *)
Example c14_ex_fixed_cycle :
  create_plan [] false [mktable 1 [] [2]; mktable 2 [] [1]]%N = ErrCircular.
Proof. vm_compute; reflexivity. Qed.

(* the documented drop errors *)
Example c14_ex_drop_unnamed_cycle :
  drop_plan [] false [mktable 1 [mkfk 0 2 false false] []; mktable 2 [mkfk 0 1 false false] []]%N = ErrCircular.
Proof. vm_compute; reflexivity. Qed.
Example c14_ex_drop_unnamed_use_alter :
  drop_plan [] false [mktable 1 [mkfk 0 2 true false] []; mktable 2 [] []]%N = ErrCompile.
Proof. vm_compute; reflexivity. Qed.
