(* C18 - LIMIT/OFFSET and their dialect emulations return exactly the requested slice.
   Statements only; every proof is a lemma of coq/sql/Limit*Proofs.v or a line or two from one.

   Vocabulary (coq/sql/Limit.v): [pre] = the projected rows in ORDER BY order before DISTINCT;
   [result distinct pre] = the fully ordered result; [slice off lim rows] = firstn lim (skipn off rows)
   with [None] = unbounded; [which_form d s] = the row limiting form dialect [d] renders for statement
   [s]; [exec plan distinct pre] = what a database returns for it; [spec s pre] = what was asked for;
   [reorder] = the order in which the outer SELECT of a wrapper (no ORDER BY) returns its rows. *)
From Coq Require Import List ZArith Bool Permutation Sorted.
Import ListNotations.
From SAV.sql Require Import Limit LimitListProofs LimitFormProofs LimitWhichProofs LimitCacheProofs LimitCompoundProofs.
Open Scope Z_scope.

Theorem c18_slice_is_take_drop : forall A off lim (rows : list A),
  slice off lim rows = match lim with Some l => takeZ l (dropZ off rows) | None => dropZ off rows end.
Proof. exact slice_opt. Qed.
Print Assumptions c18_slice_is_take_drop.

(* MSSQL: SELECT TOP n *)
Theorem c18_top_eq_slice : forall A eqA eqk reorder n distinct (pre : list A),
  exec A eqA eqk reorder (PTop n false false) distinct pre = slice 0 (Some n) (result A eqA distinct pre).
Proof. exact top_eq_slice. Qed.
Print Assumptions c18_top_eq_slice.

(* [OFFSET o ROWS] [FETCH FIRST f ROWS ONLY]  (MSSQL >= 2012, Oracle >= 12c, PG, generic) *)
Theorem c18_offset_fetch_eq_slice : forall A eqA eqk reorder o f distinct (pre : list A),
  exec A eqA eqk reorder (PFetch o f false false) distinct pre
  = slice (opt0 o) f (result A eqA distinct pre).
Proof. exact offset_fetch_eq_slice. Qed.
Print Assumptions c18_offset_fetch_eq_slice.

(* LIMIT l [OFFSET o]  (generic, SQLite incl. its "OFFSET 0", PG) *)
Theorem c18_limit_offset_eq_slice : forall A eqA eqk reorder l o distinct (pre : list A), 0 <= l ->
  exec A eqA eqk reorder (PLimit l o) distinct pre = slice (opt0 o) (Some l) (result A eqA distinct pre).
Proof. exact limit_eq_slice. Qed.
Print Assumptions c18_limit_offset_eq_slice.

(* SQLite / generic: LIMIT -1 OFFSET n *)
Theorem c18_sqlite_limit_minus_one_eq_slice : forall A eqA eqk reorder o distinct (pre : list A),
  exec A eqA eqk reorder (PLimit sqlite_no_limit (Some o)) distinct pre
  = slice o None (result A eqA distinct pre).
Proof. intros. exact (limit_negative_eq_slice A eqA eqk reorder sqlite_no_limit (Some o) distinct pre eq_refl). Qed.
Print Assumptions c18_sqlite_limit_minus_one_eq_slice.

(* PostgreSQL: LIMIT ALL OFFSET n *)
Theorem c18_pg_limit_all_eq_slice : forall A eqA eqk reorder o distinct (pre : list A),
  exec A eqA eqk reorder (PLimitAll o) distinct pre = slice o None (result A eqA distinct pre).
Proof. exact limit_all_eq_slice. Qed.
Print Assumptions c18_pg_limit_all_eq_slice.

(* MySQL: LIMIT [o,] l *)
Theorem c18_mysql_limit_eq_slice : forall A eqA eqk reorder o l distinct (pre : list A),
  exec A eqA eqk reorder (PMySQL o l) distinct pre = slice (opt0 o) (Some l) (result A eqA distinct pre).
Proof. exact mysql_eq_slice. Qed.
Print Assumptions c18_mysql_limit_eq_slice.

(* MySQL: LIMIT o, 18446744073709551615 means "no limit" exactly while the remaining rows fit *)
Theorem c18_mysql_huge_limit_iff : forall A eqA eqk reorder o distinct (pre : list A), 0 <= o ->
  exec A eqA eqk reorder (PMySQL (Some o) mysql_no_limit) distinct pre
    = slice o None (result A eqA distinct pre)
  <-> Z.of_nat (length (result A eqA distinct pre)) - o <= 18446744073709551615.
Proof. exact mysql_no_limit_iff. Qed.
Print Assumptions c18_mysql_huge_limit_iff.

(* MSSQL < 2012: the ROW_NUMBER() wrapper, as a multiset, for every behaviour of the outer SELECT;
   guarded: no DISTINCT, or no duplicate rows for DISTINCT to remove *)
Theorem c18_mssql_rownumber_eq_slice_guarded : forall A eqA eqk reorder lim off distinct (pre : list A),
  (forall l, Permutation (reorder l) l) ->
  is_some lim || is_some off = true -> 0 <= opt0 lim -> 0 <= opt0 off ->
  negb distinct || nodupb A eqA pre = true ->
  Permutation (exec A eqA eqk reorder (mssql_plan lim off) distinct pre)
              (slice (opt0 off) lim (result A eqA distinct pre)).
Proof. intros. rewrite mssql_plan_guarded by assumption. auto. Qed.
Print Assumptions c18_mssql_rownumber_eq_slice_guarded.

(* PARTIAL: list equality (the order too) only under the extra hypothesis that the outer SELECT, which
   the wrapper renders without ORDER BY, returns the derived table's rows in their order.  What is
   missing: nothing in SQL guarantees that hypothesis. *)
Theorem c18_mssql_rownumber_outer_order_partial : forall A eqA eqk reorder lim off distinct (pre : list A),
  (forall l, reorder l = l) ->
  is_some lim || is_some off = true -> 0 <= opt0 lim -> 0 <= opt0 off ->
  negb distinct || nodupb A eqA pre = true ->
  exec A eqA eqk reorder (mssql_plan lim off) distinct pre
  = slice (opt0 off) lim (result A eqA distinct pre).
Proof. intros. rewrite mssql_plan_guarded by assumption. auto. Qed.
Print Assumptions c18_mssql_rownumber_outer_order_partial.

(* what the wrapper really computes: the slice of the rows BEFORE DISTINCT *)
Theorem c18_mssql_rownumber_slices_before_distinct : forall A eqA eqk reorder lim off distinct (pre : list A),
  is_some lim || is_some off = true -> 0 <= opt0 lim -> 0 <= opt0 off ->
  exec A eqA eqk reorder (mssql_plan lim off) distinct pre = reorder (slice (opt0 off) lim pre).
Proof. intros. now apply mssql_plan_before_distinct. Qed.
Print Assumptions c18_mssql_rownumber_slices_before_distinct.

(* DEFECT: SELECT DISTINCT x FROM t ORDER BY x LIMIT 3 OFFSET 4 through the wrapper is not even a
   permutation of the slice of the distinct ordered result, whatever the outer SELECT does *)
Theorem c18_mssql_rownumber_distinct_refuted :
  exists (s : sel) (pre : list Z), nonneg s = true /\ s_ordered s = true /\
    StronglySorted (fun a b => (a <=? b) = true) pre /\
    forall reorder, (forall l, Permutation (reorder l) l) ->
      ~ Permutation (exec Z Z.eqb Z.eqb reorder (which_form (MSSQL false) s) (s_distinct s) pre)
                    (spec Z Z.eqb Z.eqb s pre).
Proof. exact mssql_rownumber_distinct_refuted. Qed.
Print Assumptions c18_mssql_rownumber_distinct_refuted.

(* Oracle < 12c: ROWNUM <= lim + off inside, ora_rn > off outside, ROWNUM assigned while filtering *)
Theorem c18_oracle_rownum_eq_slice : forall A eqA eqk reorder lim off distinct (pre : list A),
  (forall l, Permutation (reorder l) l) ->
  is_some lim || is_some off = true -> 0 <= opt0 lim -> 0 <= opt0 off ->
  Permutation (exec A eqA eqk reorder (oracle_plan lim off) distinct pre)
              (slice (opt0 off) lim (result A eqA distinct pre)).
Proof. intros. rewrite oracle_plan_slice by assumption. auto. Qed.
Print Assumptions c18_oracle_rownum_eq_slice.

(* PARTIAL: as a list only if the outer SELECT keeps the derived table's order (see above) *)
Theorem c18_oracle_rownum_outer_order_partial : forall A eqA eqk reorder lim off distinct (pre : list A),
  (forall l, reorder l = l) ->
  is_some lim || is_some off = true -> 0 <= opt0 lim -> 0 <= opt0 off ->
  exec A eqA eqk reorder (oracle_plan lim off) distinct pre
  = slice (opt0 off) lim (result A eqA distinct pre).
Proof. intros. rewrite oracle_plan_slice by assumption. auto. Qed.
Print Assumptions c18_oracle_rownum_outer_order_partial.

(* WITH TIES: the database's reading (prefix, then the run of rows tied with its last row) is the
   declarative one (positions < n plus every row with the key of the n-th) on rows sorted by the key *)
Theorem c18_with_ties_eq : forall A (lek eqk : A -> A -> bool),
  (forall a b c, lek a b = true -> lek b c = true -> lek a c = true) ->
  (forall a b, eqk a b = lek a b && lek b a) ->
  forall n (rows : list A), StronglySorted (fun a b => lek a b = true) rows ->
  ties_ext A eqk n rows = with_ties_spec eqk n rows.
Proof. exact ties_ext_spec. Qed.
Print Assumptions c18_with_ties_eq.

(* PERCENT: the row count is the ceiling of p % of the total *)
Theorem c18_percent_eq : forall p total, 0 <= p -> 0 <= total ->
  p * total <= 100 * pct_count p total < p * total + 100.
Proof. exact pct_count_ceil. Qed.
Print Assumptions c18_percent_eq.

(* [OFFSET o ROWS] FETCH FIRST n [PERCENT] ROWS ONLY | WITH TIES, and TOP n [PERCENT] [WITH TIES] *)
Theorem c18_fetch_percent_ties_eq : forall A (eqk lek : A -> A -> bool),
  (forall a b c, lek a b = true -> lek b c = true -> lek a c = true) ->
  (forall a b, eqk a b = lek a b && lek b a) ->
  forall o n percent ties (rows : list A),
  (ties = true -> StronglySorted (fun a b => lek a b = true) rows) ->
  fetch_sem A eqk o (Some n) percent ties rows = fetch_spec A eqk (opt0 o) n percent ties rows.
Proof. exact fetch_sem_spec. Qed.
Print Assumptions c18_fetch_percent_ties_eq.

(* the decision is total and fails exactly where the code raises CompileError *)
Theorem c18_which_form_error_iff : forall d s,
  is_error (which_form d s) = true <->
  exists b, d = MSSQL b /\ has_row_limiting s = true /\ use_top s = false /\
            (s_ordered s = false \/ fetch_percent s || fetch_ties s = true).
Proof. exact which_form_error_iff. Qed.
Print Assumptions c18_which_form_error_iff.

(* whatever form the dialect picks, the rows are the requested slice (multiset;
   guarded against the DISTINCT defect; MySQL within its 2^64-1 row bound; WITH TIES on sorted rows) *)
Theorem c18_rows_are_the_slice_guarded : forall A (eqA eqk : A -> A -> bool) reorder (lek : A -> A -> bool),
  (forall a b c, lek a b = true -> lek b c = true -> lek a c = true) ->
  (forall a b, eqk a b = lek a b && lek b a) ->
  forall d s (pre : list A),
  (forall l, Permutation (reorder l) l) ->
  nonneg s = true ->
  is_error (which_form d s) = false ->
  guard eqA d s pre = true ->
  (d = MySQL -> Z.of_nat (length (result A eqA (s_distinct s) pre)) <= mysql_no_limit) ->
  (fetch_ties s = true -> StronglySorted (fun a b => lek a b = true) pre) ->
  Permutation (exec A eqA eqk reorder (which_form d s) (s_distinct s) pre) (spec A eqA eqk s pre).
Proof.
  intros A eqA eqk reorder lek Ht Hk d s pre Hr Hn Herr Hg Hmy Hs.
  rewrite (which_form_exec A eqA eqk reorder lek Ht Hk) by assumption.
  unfold via_outer_select. destruct (wrapped (which_form d s)); [apply Hr|apply Permutation_refl].
Qed.
Print Assumptions c18_rows_are_the_slice_guarded.

(* exactly (as a list) for every native form; PARTIAL for the two wrappers: needs the outer SELECT to
   keep the derived table's order, which SQL does not promise *)
Theorem c18_rows_are_the_slice_in_order_partial : forall A (eqA eqk : A -> A -> bool) reorder (lek : A -> A -> bool),
  (forall a b c, lek a b = true -> lek b c = true -> lek a c = true) ->
  (forall a b, eqk a b = lek a b && lek b a) ->
  forall d s (pre : list A),
  (wrapped (which_form d s) = true -> forall l, reorder l = l) ->
  nonneg s = true ->
  is_error (which_form d s) = false ->
  guard eqA d s pre = true ->
  (d = MySQL -> Z.of_nat (length (result A eqA (s_distinct s) pre)) <= mysql_no_limit) ->
  (fetch_ties s = true -> StronglySorted (fun a b => lek a b = true) pre) ->
  exec A eqA eqk reorder (which_form d s) (s_distinct s) pre = spec A eqA eqk s pre.
Proof. exact which_form_list. Qed.
Print Assumptions c18_rows_are_the_slice_in_order_partial.

(* the compiled cache: the form is a template fixed by the cache key (presence of each clause,
   plain int or not, FETCH options, ORDER BY, DISTINCT - not the values), instantiated with the
   values of the statement being executed *)
Theorem c18_form_is_value_free_template : forall d s,
  which_form d s = subst (lim_val s) (opt0 (val (s_off s))) (which_form d (markers s)).
Proof. exact which_form_template. Qed.
Print Assumptions c18_form_is_value_free_template.

(* the SQL cached for ANY statement [s] of the same key, re-bound with the values of [s'], is the form
   a fresh compilation of [s'] picks - so c18_rows_are_the_slice_guarded applies to every execution *)
Theorem c18_cache_transparent : forall d s s', same_key s s' = true ->
  which_form d s' = subst (lim_val s') (opt0 (val (s_off s'))) (which_form d (markers s)).
Proof. intros d s s' H. rewrite (markers_key s s' H). apply which_form_template. Qed.
Print Assumptions c18_cache_transparent.

(* compound selects (UNION ...): only _row_limit_clause is consulted, so where the dialect relies
   on TOP or on a wrapper the clause is silently not rendered *)
Theorem c18_compound_dropped_iff : forall d s,
  compound_dropped d s = true <->
  has_row_limiting s = true /\
  ((exists b, d = MSSQL b /\ (use_top s = true \/ b = false)) \/
   (d = Oracle false /\ fetch_clause s = None)).
Proof. exact compound_dropped_iff. Qed.
Print Assumptions c18_compound_dropped_iff.

(* DEFECT: a dropped clause returns every row *)
Theorem c18_compound_limit_dropped_refuted :
  exists d s (pre : list Z), nonneg s = true /\ s_ordered s = true /\ compound_dropped d s = true /\
    forall reorder,
      exec Z Z.eqb Z.eqb reorder (compound_form d s) (s_distinct s) pre <> spec Z Z.eqb Z.eqb s pre.
Proof. exact compound_limit_dropped_refuted. Qed.
Print Assumptions c18_compound_limit_dropped_refuted.

Theorem c18_compound_dropped_returns_all_rows : forall A eqA eqk reorder d s (pre : list A),
  compound_dropped d s = true ->
  exec A eqA eqk reorder (compound_form d s) (s_distinct s) pre = result A eqA (s_distinct s) pre.
Proof. exact compound_dropped_all_rows. Qed.
Print Assumptions c18_compound_dropped_returns_all_rows.

(* everywhere else a compound select gets the slice, in order (it is never wrapped) *)
Theorem c18_compound_rows_are_the_slice_guarded : forall A (eqA eqk : A -> A -> bool) reorder (lek : A -> A -> bool),
  (forall a b c, lek a b = true -> lek b c = true -> lek a c = true) ->
  (forall a b, eqk a b = lek a b && lek b a) ->
  forall d s (pre : list A),
  compound_dropped d s = false ->
  nonneg s = true ->
  is_error (compound_form d s) = false ->
  (d = MySQL -> Z.of_nat (length (result A eqA (s_distinct s) pre)) <= mysql_no_limit) ->
  (fetch_ties s = true -> StronglySorted (fun a b => lek a b = true) pre) ->
  exec A eqA eqk reorder (compound_form d s) (s_distinct s) pre = spec A eqA eqk s pre.
Proof. exact compound_rows_guarded. Qed.
Print Assumptions c18_compound_rows_are_the_slice_guarded.

(* beyond the end, zero, and the guard / hypotheses are satisfiable *)
Example c18_ex_mssql_wrapper :
  let s := Sel (Limit (Clause false 3)) (Some (Clause true 4)) true false in
  nonneg s = true /\ is_error (which_form (MSSQL false) s) = false /\
  guard Z.eqb (MSSQL false) s [5;6;7;8;9;10] = true /\
  exec Z Z.eqb Z.eqb (fun l => l) (which_form (MSSQL false) s) false [5;6;7;8;9;10] = [9;10].
Proof. vm_compute. repeat split; reflexivity. Qed.
Example c18_ex_oracle_wrapper :
  exec Z Z.eqb Z.eqb (fun l => l)
    (which_form (Oracle false) (Sel (Limit (Clause true 2)) (Some (Clause true 1)) true true))
    true [1;1;2;3;3;4] = [2;3].
Proof. vm_compute. reflexivity. Qed.
Example c18_ex_distinct_guard_holds :
  guard Z.eqb (MSSQL false) (Sel (Limit (Clause true 0)) (Some (Clause true 7)) true true) [1;2;3] = true.
Proof. vm_compute. reflexivity. Qed.
Example c18_ex_with_ties :
  exec Z Z.eqb (fun a b => a / 10 =? b / 10) (fun l => l)
    (which_form (MSSQL true) (Sel (Fetch (Clause true 2) false true) None true false))
    false [10;11;12;20;30] = [10;11;12]
  /\ StronglySorted (fun a b => (a / 10 <=? b / 10) = true) [10;11;12;20;30].
Proof. split; [vm_compute; reflexivity|]. repeat (constructor; [|repeat (constructor; [reflexivity|]); constructor]). constructor. Qed.
Example c18_ex_percent :
  exec Z Z.eqb Z.eqb (fun l => l)
    (which_form (MSSQL false) (Sel (Fetch (Clause true 34) true false) None true false))
    false [1;2;3;4;5;6] = [1;2;3].
Proof. vm_compute. reflexivity. Qed.
Example c18_ex_error :
  which_form (MSSQL true) (Sel (Limit (Clause true 3)) (Some (Clause true 4)) false false) = PError 1.
Proof. reflexivity. Qed.
Example c18_ex_cache_offset_zero_then_five :
  let a := Sel (Limit (Clause true 4)) (Some (Clause true 0)) true false in
  let b := Sel (Limit (Clause true 4)) (Some (Clause true 5)) true false in
  same_key a b = true /\
  subst 4 5 (which_form (Oracle false) (markers a)) = which_form (Oracle false) b /\
  exec Z Z.eqb Z.eqb (fun l => l) (which_form (Oracle false) b) false [1;2;3;4;5;6;7;8;9;10;11] = [6;7;8;9].
Proof. vm_compute. repeat split; reflexivity. Qed.
Example c18_ex_compound_kept :
  compound_dropped (MSSQL true) (Sel (Limit (Clause true 2)) (Some (Clause true 1)) true false) = false /\
  exec Z Z.eqb Z.eqb (fun l => l)
    (compound_form (MSSQL true) (Sel (Limit (Clause true 2)) (Some (Clause true 1)) true false)) false [1;2;3;4] = [2;3].
Proof. vm_compute. split; reflexivity. Qed.
