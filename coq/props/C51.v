(* C51 - pickling and serializer round trips preserve state and results (PARTIAL: the SQLAlchemy codecs;
   pickle itself and class lookup by name are CPython's and enter as Section variables / hypotheses).
   Statements only; every proof is [exact <lemma>].  Model: coq/orm/Pickle.v. *)
From Coq Require Import List ZArith Bool String.
Import ListNotations.
From SAV.orm Require Import Pickle PickleProofs.
Open Scope Z_scope.

(* ---------- InstanceState.__getstate__ / __setstate__ ---------- *)

(* For EVERY pair of key tables (what __getstate__ writes and when; what __setstate__ reads and how) that
   satisfies the boolean side condition [codec_ok], and every instance state [s] (any lifecycle: which
   attributes are set on the instance is arbitrary; values are arbitrary plain data or well-formed load
   paths): __setstate__ succeeds on the pickled dict and "equivalent" means
     - every attribute named in the tables has the value the original had (getattr semantics: an attribute
       not set on the instance reads as its class default), load paths up to replacing aliased classes by
       their mappers ([norm]);
     - every other attribute (session_id, identity_token, insert_order, runid, ...) is NOT kept: it reads as
       its class default afterwards.
   [pickle] is any function with a left inverse on the plain dict. *)
Theorem c51_state_roundtrip :
  forall (B : Type) (pickle : dict -> B) (unpickle : B -> dict),
  (forall d, unpickle (pickle d) = d) ->
  forall w r s, codec_ok w r = true -> state_ok s ->
  exists s', setstate r (unpickle (pickle (getstate w s))) = Some s' /\
    (forall k, mem k (rkeys r) = true -> getattr s' k = norm (getattr s k)) /\
    (forall k, mem k (rkeys r) = false -> getattr s' k = class_default k).
Proof. intros B pickle unpickle Hp w r s. rewrite Hp. exact (state_roundtrip_tables w r s). Qed.
Print Assumptions c51_state_roundtrip.

(* the tables transcribed from the source satisfy the side condition (the tables extracted from the
   CURRENT source are checked against these, and against codec_ok, by the per-run file C51_keys.v) *)
Theorem c51_model_tables_ok : codec_ok model_writes model_reads = true.
Proof. exact model_tables_ok. Qed.
Print Assumptions c51_model_tables_ok.

(* the side condition is not vacuous: a fallback that differs from the class default, or a key that is
   read but never written, changes the state *)
Theorem c51_state_roundtrip_needs_side_condition : exists w r s,
  codec_ok w r = false /\ exists s', setstate r (getstate w s) = Some s' /\
  getattr s' "modified"%string <> getattr s "modified"%string.
Proof. exact state_roundtrip_needs_side_condition. Qed.
Print Assumptions c51_state_roundtrip_needs_side_condition.

Theorem c51_state_roundtrip_dropped_key_lost : exists w r s,
  codec_ok w r = false /\ exists s', setstate r (getstate w s) = Some s' /\
  getattr s' "modified"%string <> getattr s "modified"%string.
Proof. exact state_roundtrip_dropped_key_lost. Qed.
Print Assumptions c51_state_roundtrip_dropped_key_lost.

(* ---------- PathRegistry.serialize / deserialize ---------- *)
Theorem c51_path_roundtrip : forall p, wf_path p = true -> deserialize (serialize p) = Some (map erase p).
Proof. exact path_roundtrip. Qed.
Print Assumptions c51_path_roundtrip.

Theorem c51_path_roundtrip_guarded : forall p, wf_path p = true -> alias_free p = true ->
  deserialize (serialize p) = Some p.
Proof. exact path_roundtrip_guarded. Qed.
Print Assumptions c51_path_roundtrip_guarded.

(* an aliased class in a load path comes back as the plain mapper *)
Theorem c51_path_roundtrip_refuted : exists p, wf_path p = true /\ deserialize (serialize p) <> Some p.
Proof. exact path_roundtrip_refuted. Qed.
Print Assumptions c51_path_roundtrip_refuted.

(* ---------- Row / FrozenResult ---------- *)
(* the unpickled Row has the same data and keys, answers every string / integer key as before, and no
   longer answers Column-object keys *)
Theorem c51_row_roundtrip : forall r,
  row_data (row_roundtrip r) = row_data r /\
  md_keys (row_md (row_roundtrip r)) = md_keys (row_md r) /\
  (forall k, picklable_key k = true -> row_get (row_roundtrip r) k = row_get r k) /\
  (forall z, row_get (row_roundtrip r) (KObj z) = None).
Proof. exact row_roundtrip_spec. Qed.
Print Assumptions c51_row_roundtrip.

(* the thawed unpickled FrozenResult yields the same keys and rows *)
Theorem c51_frozen_result_roundtrip : forall f,
  thaw (frozen_roundtrip f) = thaw f /\ fr_scalars (frozen_roundtrip f) = fr_scalars f.
Proof. exact frozen_roundtrip_spec. Qed.
Print Assumptions c51_frozen_result_roundtrip.

(* every STRING key the frozen result answered - the result keys and aliases such as Column.key or the
   "table_column" label - resolves to the same position on rows of the unpickled frozen result (as for a
   directly pickled Row, c51_row_roundtrip); Column-object keys are lost *)
Theorem c51_frozen_string_lookup_kept : forall f z,
  frozen_index (frozen_roundtrip f) (KStr z) = frozen_index f (KStr z).
Proof. exact (fun f z => frozen_index_roundtrip f (KStr z)). Qed.
Print Assumptions c51_frozen_string_lookup_kept.

Theorem c51_frozen_object_lookup_lost : forall f z, frozen_index (frozen_roundtrip f) (KObj z) = None.
Proof. exact (fun f z => frozen_index_roundtrip f (KObj z)). Qed.
Print Assumptions c51_frozen_object_lookup_lost.

(* finding C51-frozen-result-loses-string-aliases, fixed in /repo dd3ca1b: the alias 3 of the second column is
   still answered after the round trip *)
Example c51_ex_frozen_alias_kept :
  let f := mkFrozen (mkMd [1; 2] [(KStr 1, 0%nat); (KStr 2, 1%nat); (KStr 3, 1%nat); (KObj 9, 1%nat)]) false [[10; 20]] in
  frozen_index (frozen_roundtrip f) (KStr 3) = Some 1%nat /\ frozen_index (frozen_roundtrip f) (KObj 9) = None.
Proof. split; reflexivity. Qed.

(* ---------- ext.serializer ---------- *)
(* every persistent id resolves to the same table / column / mapper / property / mapped selectable, hence
   loads (dumps stmt) = stmt, for every statement whose persistent objects exist in the target environment
   and whose column / property keys (and the keys of tables referenced through a column) contain no ':'.  [b64] is
   b64encode(pickle.dumps(cls)): any function into the base64 alphabet with a left inverse. *)
Theorem c51_serializer_roundtrip_guarded :
  forall (b64 : Z -> str) (unb64 : str -> option Z) (tables : list (str * list str)) (props : Z -> list str),
  (forall c, no_colon (b64 c) = true) -> (forall c, unb64 (b64 c) = Some c) ->
  forall s, stmt_ok tables props s = true -> loads unb64 tables props (dumps b64 s) = LOk s.
Proof. exact serializer_roundtrip_guarded. Qed.
Print Assumptions c51_serializer_roundtrip_guarded.

(* ... and it fails for a column key "a:b" / a table key "u:v" (ValueError) *)
Theorem c51_serializer_roundtrip_refuted_colon :
  load_id (fun _ => None) ex_tables (fun _ => []) (id_of (fun _ => []) (LColumn [116] [97; 58; 98])) = LErr EUnpack /\
  load_id (fun _ => None) ex_tables (fun _ => []) (id_of (fun _ => []) (LColumn [117; 58; 118] [121])) = LErr EUnpack.
Proof. exact serializer_roundtrip_refuted_colon. Qed.
Print Assumptions c51_serializer_roundtrip_refuted_colon.

(* finding C51-serializer-newline-in-name, fixed in /repo 973ce94: keys with a newline resolve *)
Example c51_ex_serializer_newline_ok :
  load_id (fun _ => None) [([119; 10; 122], [[105; 100]; [110; 10; 109]])] (fun _ => []) (id_of (fun _ => []) (LTable [119; 10; 122]))
    = LOk (LTable [119; 10; 122]) /\
  load_id (fun _ => None) [([119; 10; 122], [[105; 100]; [110; 10; 109]])] (fun _ => [])
          (id_of (fun _ => []) (LColumn [119; 10; 122] [110; 10; 109])) = LOk (LColumn [119; 10; 122] [110; 10; 109]).
Proof. split; vm_compute; reflexivity. Qed.

(* ---------- non-vacuity ---------- *)
(* a persistent object with an expired attribute, a pending collection mutation, loader options and an
   aliased load path: everything is kept, the alias is erased, session_id is dropped *)
Example c51_ex_state :
  let s := [("key", Opaque 500); ("expired_attributes", Opaque 501); ("_pending_mutations", Opaque 502);
            ("load_options", Opaque 503); ("load_path", VPath [PAlias 0; PProp 0; PMapper 1]);
            ("modified", Opaque 504); ("session_id", Opaque 7); ("instance", Opaque 505); ("class_", Opaque 506);
            ("committed_state", Opaque 507); ("manager", Opaque 508)]%string in
  exists s', setstate model_reads (getstate model_writes s) = Some s' /\
             getattr s' "load_path"%string = VPath [PMapper 0; PProp 0; PMapper 1] /\
             getattr s' "_pending_mutations"%string = Opaque 502 /\ getattr s' "expired_attributes"%string = Opaque 501 /\
             getattr s' "load_options"%string = Opaque 503 /\ getattr s' "session_id"%string = Opaque c_none /\
             getattr s' "parents"%string = Opaque c_empty_dict.
Proof. eexists. split; [vm_compute; reflexivity|]. vm_compute. repeat split. Qed.

Example c51_ex_serializer :
  loads (fun s => if str_eqb s [65] then Some 0 else None) [([116], [[105; 100]; [120]])] (fun _ => [[98; 115]])
        (dumps (fun _ => [65]) (SNode 1 [SLeaf (LColumn [116] [120]); SLeaf (LMapper 0); SNode 2 [SLeaf (LProp 0 [98; 115])]]))
  = LOk (SNode 1 [SLeaf (LColumn [116] [120]); SLeaf (LMapper 0); SNode 2 [SLeaf (LProp 0 [98; 115])]]).
Proof. vm_compute. reflexivity. Qed.

(* schema-qualified tables: "archive.item" next to a table "item" in the default schema - the column id
   carries the table KEY, so each column resolves to its own table *)
Example c51_ex_serializer_schema :
  let arch := [97; 114; 99; 104; 105; 118; 101; 46; 105; 116; 101; 109] in
  let item := [105; 116; 101; 109] in
  let tabs := [(item, [[105; 100]; [120]]); (arch, [[105; 100]; [120]])] in
  loads (fun _ => None) tabs (fun _ => [])
        (dumps (fun _ => []) (SNode 1 [SLeaf (LColumn arch [120]); SLeaf (LColumn item [120]); SLeaf (LTable arch)]))
  = LOk (SNode 1 [SLeaf (LColumn arch [120]); SLeaf (LColumn item [120]); SLeaf (LTable arch)]).
Proof. vm_compute. reflexivity. Qed.
