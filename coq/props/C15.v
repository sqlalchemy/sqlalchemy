(* C15 - reflection reproduces the schema that was created (PARTIAL: SQLite; the UNIQUE-constraint parser,
   the constraint-name group it shares with the FOREIGN KEY / PRIMARY KEY patterns, and type affinity are
   modelled; see coq/sql/Reflect.v).  On every run specs/c15.py writes the tables extracted from
   the current source into Gen_C15.v, and Gen_C15_obl.v re-instantiates ddl_parse_roundtrip and type_affinity_stable
   with them. *)
From Coq Require Import List NArith Bool.
Import ListNotations.
From SAV.sql Require Import Ident Reflect ReflectProofs ReflectAffinity ReflectTheorems ReflectIndex ReflectInfo.
Open Scope N_scope.

(* DESIGN.md's parse_master_sql (render_ddl tbl) = constraints_of tbl, here parse_uqs / render_parts / uniques_of:
   for EVERY text made of arbitrary segments (header,
   column specifications, other clauses, separators) and rendered UNIQUE clauses, the regex parser of
   get_unique_constraints returns exactly the created constraints - names and column lists - provided the
   boolean guard holds: names contain no newline and no double quote followed by white space, names left bare
   consist of [\w$]; columns contain no double quote / newline / ")" and bare ones consist of [a-z0-9_]; no match
   starts inside a segment *)
Theorem c15_ddl_parse_roundtrip : forall uni p, prep_dq p = true ->
  forall ps text, wf_parts uni p ps = true -> render_parts p ps = Ok text ->
  parse_uqs uni text = uniques_of ps.
Proof. exact ddl_parse_roundtrip. Qed.
Print Assumptions c15_ddl_parse_roundtrip.
Example c15_wf_satisfiable : prep_dq demo_prep = true /\
  wf_parts no_uni demo_prep (demo_parts (Some [117; 113; 32; 49]) [97; 32; 98]) = true /\
  wf_parts no_uni demo_prep (demo_parts (Some [117; 113]) [120]) = true /\
  wf_parts no_uni demo_prep (demo_parts (Some [97; 34; 98]) [120]) = true /\
  wf_parts no_uni demo_prep (demo_parts (Some [98; 36]) [120]) = true.
Proof. exact wf_demo. Qed.

(* ... and get_unique_constraints (the join with SQLite's sqlite_autoindex signatures) reports them all *)
Theorem c15_reflect_uniques_roundtrip : forall uni p, prep_dq p = true ->
  forall ps text auto inline, wf_parts uni p ps = true -> render_parts p ps = Ok text ->
  NoDup (map snd (uniques_of ps)) -> incl (map snd (uniques_of ps)) auto -> NoDup auto ->
  (forall s, In s inline -> ~ In s auto \/ In s (map snd (uniques_of ps))) ->
  reflect_uniques uni auto inline text = uniques_of ps.
Proof. exact reflect_uniques_roundtrip. Qed.
Print Assumptions c15_reflect_uniques_roundtrip.

(* one clause: whatever follows it, the attempt at its first character yields name, column text and the rest *)
Theorem c15_unique_clause_matched : forall uni p, prep_dq p = true ->
  forall n cols qn qcols rest, quote_opt p n = Ok qn -> quote_all p cols = Ok qcols ->
  opt_name_ok uni p n = true -> cols <> [] -> cols_ok p cols = true ->
  uq_at uni (render_unique qn qcols ++ rest) = Some (n, join_cols qcols, rest).
Proof. exact uq_at_rendered. Qed.
Print Assumptions c15_unique_clause_matched.

(* the CONSTRAINT-name group (shared by UNIQUE_PATTERN, FK_PATTERN and PK_PATTERN) reads a rendered name back,
   whatever keyword clause follows *)
Theorem c15_constraint_name_group : forall uni p, prep_dq p = true ->
  forall R (tail : str -> option R) v q X x, quote p v = Ok q -> name_ok uni v q = true ->
  (forall c X', X = c :: X' -> is_space c = false) -> X <> [] -> tail X = Some x ->
  named uni tail (lit_constraint ++ q ++ sp :: X) = Some (v, x).
Proof.
  intros uni p Hdq R tail v q [|c X] x Hq Hok HX HXne Ht; [congruence|].
  exact (named_rendered uni p Hdq R tail v q c X x Hq Hok (HX c X eq_refl) Ht).
Qed.
Print Assumptions c15_constraint_name_group.

(* inside the guard since /repo ae21374, 24f65cc: names containing a double quote, bare names containing $ *)
Example c15_uq_name_dquote_roundtrip : demo_reflect (Some [97; 34; 98]) [120] = Some [(Some [97; 34; 98], [[120]])].
Proof. exact uq_name_dquote_roundtrip. Qed.
Example c15_uq_name_dollar_roundtrip : demo_reflect (Some [98; 36]) [120] = Some [(Some [98; 36], [[120]])].
Proof. exact uq_name_dollar_roundtrip. Qed.
(* REFUTED outside the guard (each reproduced on live SQLite on every run) *)
Theorem c15_uq_name_dquote_space_refuted : demo_reflect (Some evil_name) [120] <> Some [(Some evil_name, [[120]])].
Proof. exact uq_name_dquote_space_refuted. Qed.
Theorem c15_uq_name_newline_refuted : demo_reflect (Some [97; 10; 98]) [120] = Some [(None, [[120]])].
Proof. exact uq_name_newline_refuted. Qed.
Theorem c15_uq_col_dollar_refuted : demo_reflect None [98; 36] = Some [(None, [[98]])].
Proof. exact uq_col_dollar_refuted. Qed.
Theorem c15_uq_col_dquote_refuted : demo_reflect None [97; 34; 98] = Some [(None, [[97]; [98]])].
Proof. exact uq_col_dquote_refuted. Qed.
Theorem c15_uq_col_rparen_refuted : demo_reflect None [97; 41; 98] = Some [(None, [[97]])].
Proof. exact uq_col_rparen_refuted. Qed.
Theorem c15_uq_col_newline_refuted : demo_reflect None [97; 10; 98] = Some [].
Proof. exact uq_col_newline_refuted. Qed.
Theorem c15_uq_col_dropped_refuted :
  reflect_uniques no_uni [[[98; 36]]] []
    (match render_parts demo_prep (demo_parts None [98; 36]) with Ok t => t | RaiseIndexError => [] end) = [].
Proof. exact uq_col_dropped_refuted. Qed.
Print Assumptions c15_uq_name_newline_refuted.
Print Assumptions c15_uq_col_dropped_refuted.

(* type_affinity_stable: reflect -> re-create -> reflect is a fixed point: the type the dialect reflects,
   rendered by the type compiler, reflects to the same class and renders to the same text - for every type
   table passing the boolean check (evaluated per run on the table regenerated from the dialect) *)
Theorem c15_type_affinity_stable : forall tab, aff_ok tab = true ->
  forall t text, canon_args t -> render_type tab t = Some text ->
  rt_class (affinity tab text) = rt_class t /\ render_type tab (affinity tab text) = Some text.
Proof. exact type_affinity_stable. Qed.
Print Assumptions c15_type_affinity_stable.
(* every reflected type satisfies the hypothesis *)
Theorem c15_reflected_types_canonical : forall tab s, canon_args (affinity tab s).
Proof. exact affinity_canon. Qed.
Print Assumptions c15_reflected_types_canonical.

(* attributes that do not come from the CREATE TABLE text *)
(* nullable: reflect(create(T)) = T for EVERY column, primary key members included, for every rule that ignores
   the primary key flag (the rule is extracted from get_columns on every run: gen_nullable_rule_ok) *)
Theorem c15_nullable_roundtrip : forall rule, (forall nn pk, rule nn pk = negb nn) ->
  forall c, reflect_nullable rule c = c_nullable c.
Proof. exact nullable_roundtrip. Qed.
Print Assumptions c15_nullable_roundtrip.
Theorem c15_nullable_pk_rule_refuted :
  reflect_nullable (fun nn pk => negb nn && negb pk) {| c_nullable := true; c_pk := 2 |} = false.
Proof. exact nullable_pk_rule_refuted. Qed.

(* partial indexes: the WHERE predicate of the rendered CREATE INDEX is read back ... *)
Theorem c15_index_pred_roundtrip : forall unique qname qtable qcols w,
  pred_ok w = true ->
  iclean (render_index_head unique qname qtable qcols) (rpar :: [sp] ++ kwWHERE ++ [sp] ++ w) = true ->
  pred_search (render_index unique qname qtable qcols (Some w)) = Some w.
Proof. exact index_pred_roundtrip. Qed.
Print Assumptions c15_index_pred_roundtrip.
Example c15_index_guard_satisfiable : pred_ok [120; 32; 62; 32; 48] = true /\
  iclean (render_index_head true [117; 113] [116] [[120]]) (rpar :: [sp] ++ kwWHERE ++ [sp] ++ [120; 32; 62; 32; 48]) = true.
Proof. vm_compute. auto. Qed.
(* ... through the catalog of the schema the table lives in (sqlite_where and its absence), provided the
   lookup query names that schema (extracted from get_indexes on every run: gen_index_query_qualified_ok) *)
Theorem c15_reflect_where_roundtrip : forall ms schema m iname unique qname qtable qcols where_,
  assoc_s ms (query_schema true schema) = Some m ->
  assoc_s m iname = Some (render_index unique qname qtable qcols where_) ->
  match where_ with
  | Some w => pred_ok w = true /\
              iclean (render_index_head unique qname qtable qcols) (rpar :: [sp] ++ kwWHERE ++ [sp] ++ w) = true
  | None => iclean (render_index_head unique qname qtable qcols) [rpar] = true
  end ->
  reflect_where true ms schema iname = where_.
Proof. exact reflect_where_roundtrip. Qed.
Print Assumptions c15_reflect_where_roundtrip.
Theorem c15_unqualified_index_query_refuted :
  reflect_where true demo_masters (Some [97; 117; 120]) [117; 113] = Some [120; 32; 62; 32; 48] /\
  reflect_where false demo_masters (Some [97; 117; 120]) [117; 113] = None.
Proof. exact unqualified_index_query_refuted. Qed.
Example c15_index_pred_newline_roundtrip :
  pred_search (render_index false [105] [116] [[120]] (Some [34; 97; 10; 98; 34; 32; 62; 32; 48])) =
  Some [34; 97; 10; 98; 34; 32; 62; 32; 48].
Proof. exact index_pred_newline_roundtrip. Qed.

(* _ReflectionInfo.update: the merge used when a table is reflected because a foreign key points at it keeps
   EVERY category of the pulled-in table (unique constraints included), when update() visits every category
   (extracted from the source on every run: gen_info_merged_ok) *)
Theorem c15_reflection_info_update_complete : forall merged nfields, (forall f, f < nfields -> memN' f merged = true) ->
  forall self other f k, f < nfields ->
  lookup (update merged self other) f k =
  match lookup other f k with Some v => Some v | None => lookup self f k end.
Proof. exact update_complete. Qed.
Print Assumptions c15_reflection_info_update_complete.
Theorem c15_update_missing_category_refuted :
  let self := fun f => Some [(1, 10 + f)] in
  let other := fun f => Some [(2, 20 + f)] in
  lookup (update [0; 1; 2; 3; 5; 6; 7; 8] self other) 4 2 = None /\
  lookup (update [0; 1; 2; 3; 4; 5; 6; 7; 8] self other) 4 2 = Some 24.
Proof. exact update_missing_category_refuted. Qed.
