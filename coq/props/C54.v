(* C54 - utility collections conform to their reference models.
   Statements only: each is a lemma of util/*Proofs.v, the examples are evaluated. *)
From Coq Require Import List ZArith Bool.
Import ListNotations.
From SAV.util Require Import OrderedSet OrderedSetProofs IdentitySet IdentitySetProofs
  ImmDict ImmDictProofs LRU LRUProofs.
Open Scope Z_scope.

(* the constructor, for every argument kind (set/dict taking the fast path, list with duplicates,
   iterator, another OrderedSet): invariant (NoDup _list, NoDup set, same elements) and the reference
   content *)
Theorem c54_oset_constructor : forall d, match d with Some a => wf_arg a | None => True end ->
  inv (oinit d) /\ ol (oinit d) = rinit d.
Proof. exact oinit_ref. Qed.
Print Assumptions c54_oset_constructor.

(* EVERY method, operator alias and argument kind: invariant preserved, _list = the reference
   (duplicate-free list) result, same return value / exception; returned sets satisfy the invariant *)
Theorem c54_oset_step_refines_reference : forall st op, inv st -> wf_op op ->
  inv (fst (ostep st op)) /\ ol (fst (ostep st op)) = fst (rstep (ol st) op) /\
  abs_ret (snd (ostep st op)) = snd (rstep (ol st) op) /\ ret_inv (snd (ostep st op)).
Proof. exact ostep_ref. Qed.
Print Assumptions c54_oset_step_refines_reference.

(* every history of any length *)
Theorem c54_oset_history : forall d ops,
  match d with Some a => wf_arg a | None => True end -> Forall wf_op ops ->
  let '(st, outs) := orun (oinit d) ops in
  let '(l, outs') := rrun (rinit d) ops in
  inv st /\ ol st = l /\ map abs_ret outs = outs' /\ Forall ret_inv outs.
Proof. exact oset_history. Qed.
Print Assumptions c54_oset_history.

(* the reference model IS "Python set contents + first-insertion order" *)
Theorem c54_ref_union_is_set_union : forall l seqs x,
  In x (r_update l seqs) <-> In x l \/ exists s, In s seqs /\ In x s.
Proof. exact r_update_In. Qed.
Print Assumptions c54_ref_union_is_set_union.
Theorem c54_ref_union_order_first_insertion : forall l seqs,
  r_update l seqs = l ++ unique_list (filter (fun a => negb (memz a l)) (concat seqs)).
Proof. exact r_update_closed. Qed.
Print Assumptions c54_ref_union_order_first_insertion.
Theorem c54_ref_intersection_is_set_intersection : forall l sets x,
  In x (r_inter l sets) <-> In x l /\ forall s, In s sets -> In x s.
Proof. exact r_inter_In. Qed.
Print Assumptions c54_ref_intersection_is_set_intersection.
Theorem c54_ref_difference_is_set_difference : forall l sets x,
  In x (r_diff l sets) <-> In x l /\ forall s, In s sets -> ~ In x s.
Proof. exact r_diff_In. Qed.
Print Assumptions c54_ref_difference_is_set_difference.
Theorem c54_ref_symmetric_difference_is_set_xor : forall l c x,
  In x (r_sym l c) <-> (In x l /\ ~ In x c) \/ (In x c /\ ~ In x l).
Proof. exact r_sym_In. Qed.
Print Assumptions c54_ref_symmetric_difference_is_set_xor.
(* survivors keep their order; for the symmetric difference the new elements follow in the order of
   their first occurrence in the argument *)
Theorem c54_ref_order_of_survivors : forall l sets c,
  r_inter l sets = filter (in_all sets) l /\ r_diff l sets = filter (in_none sets) l /\
  r_sym l c = filter (fun a => negb (memz a c)) l ++ unique_list (filter (fun a => negb (memz a l)) c).
Proof. intros; exact (conj eq_refl (conj eq_refl eq_refl)). Qed.
Print Assumptions c54_ref_order_of_survivors.
Theorem c54_ref_stays_duplicate_free : forall l op, NoDup l -> NoDup (fst (rstep l op)).
Proof. exact rstep_NoDup. Qed.
Print Assumptions c54_ref_stays_duplicate_free.
(* list.remove after set.remove always finds its element: no ValueError escapes ([ostep] has no
   branch that produces TypeError at all) *)
Theorem c54_oset_no_internal_error : forall st op, inv st -> wf_op op ->
  snd (ostep st op) <> RExc ValueError /\ snd (ostep st op) <> RExc TypeError.
Proof. exact ostep_no_internal_error. Qed.
Print Assumptions c54_oset_no_internal_error.

(* the repaired defect (3021dc0): a duplicated iterable no longer duplicates members *)
Example c54_ex_symdiff_update_duplicates :
  ol (fst (ostep (oinit (Some (mka KList [1;2;3]))) (OSymUpd (mka KList [3;4;4;5])))) = [1;2;4;5].
Proof. vm_compute; reflexivity. Qed.
Example c54_ex_wf : wf_op (OInterUpd [mka KSet [1;2]; mka KList [2;2;7]; mka KSelf []]).
Proof. repeat constructor; simpl; intuition discriminate. Qed.

(* every history: every key is the identity of the member stored under it, no identity twice, and
   contents / order / results are those of the reference model over identities (the set operations
   of the reference are the c54_ref_* theorems above; comparisons are subset tests) *)
Theorem c54_iset_history : forall valof objs ops,
  let '(m, outs) := irun valof (i_init objs) ops in
  let '(l, outs') := qrun (unique_list objs) ops in
  iinv m /\ map snd m = l /\ map abs_iret outs = outs' /\ Forall iret_inv outs.
Proof. exact iset_history. Qed.
Print Assumptions c54_iset_history.
(* members are told apart by identity only: their values (== / hash) never matter *)
Theorem c54_iset_values_irrelevant : forall valof valof' objs ops,
  irun valof (i_init objs) ops = irun valof' (i_init objs) ops.
Proof. exact iset_values_irrelevant. Qed.
Print Assumptions c54_iset_values_irrelevant.
Theorem c54_iset_subset_is_inclusion : forall l1 l2, subset l1 l2 = true <-> incl l1 l2.
Proof. exact subset_spec. Qed.
Print Assumptions c54_iset_subset_is_inclusion.

(* two equal-but-not-identical members are both kept *)
Example c54_ex_iset_equal_not_identical :
  snd (irun (fun _ => 0) (i_init [10; 11]) [ILen]) = [JNum 2].
Proof. vm_compute; reflexivity. Qed.
(* the repaired defect (3021dc0): a ^= b updates a in place *)
Example c54_ex_iset_ixor :
  map snd (fst (istep (fun _ => 0) (i_init [0; 1]) (IBin BSym FInOperator false (mkia IKISet [1; 2]))))
  = [0; 2].
Proof. vm_compute; reflexivity. Qed.

(* union / merge_with: whatever path _union_other takes (return self, return the only non-empty
   immutabledict, build a new one) the content is the right-biased merge of self with all arguments *)
Theorem c54_idict_union_is_merge : forall self others, wf_dict self ->
  fst (union_other self others) = fold_left merge (map content others) self.
Proof. exact union_other_is_merge. Qed.
Print Assumptions c54_idict_union_is_merge.
Theorem c54_idict_merge_right_biased : forall pairs d k,
  lookup k (merge d pairs) = match last_of k pairs with Some v => Some v | None => lookup k d end.
Proof. exact lookup_merge. Qed.
Print Assumptions c54_idict_merge_right_biased.
Theorem c54_idict_merge_key_order : forall d pairs,
  keys (merge d pairs) = keys d ++ unique_list (filter (fun k => negb (memz k (keys d))) (map fst pairs)).
Proof. exact merge_keys. Qed.
Print Assumptions c54_idict_merge_key_order.
Theorem c54_idict_or_is_merge : forall d ad a, wf_dict d -> is_dict a = true ->
  snd (dstep d (DOr ad a)) = VDict (merge d (content a)) (-1) /\
  snd (dstep d (DRor ad a)) = VDict (merge (content a) d) (-1).
Proof. exact or_is_merge. Qed.
Print Assumptions c54_idict_or_is_merge.
(* every mutator raises TypeError and leaves the dict unchanged ... *)
Theorem c54_idict_mutators_raise : forall d which, dstep d (DMutate which) = (d, VExc TypeError).
Proof. exact mutators_raise. Qed.
Print Assumptions c54_idict_mutators_raise.
(* ... and no history of operations whatsoever changes the receiver *)
Theorem c54_idict_never_mutated : forall ops d, forallb (fun op => negb (adopts op)) ops = true ->
  fst (drun d ops) = d.
Proof. exact never_mutated. Qed.
Print Assumptions c54_idict_never_mutated.
Theorem c54_idict_keys_stay_unique : forall ops d, wf_dict d -> wf_dict (fst (drun d ops)).
Proof. exact drun_wf. Qed.
Print Assumptions c54_idict_keys_stay_unique.

Example c54_ex_idict_union :
  union_other [(1, 1)] [mkd DNone []; mkd DPairs [(1, 5); (4, 4); (1, 6)]; mkd DImm [(3, 3)]]
  = ([(1, 6); (4, 4); (3, 3)], -1) /\
  union_other [] [mkd DDict []; mkd DImm [(3, 3)]] = ([(3, 3)], 2).
Proof. vm_compute; split; reflexivity. Qed.

(* after ANY history on an initially empty cache, get / [] answer only with the value most recently
   stored under the key (or the default / KeyError) *)
Theorem c54_lru_lookup_only_stored : forall c0 ops k, wf c0 -> empty_cache c0 ->
  let c := fst (lrun c0 ops) in
  (forall dflt v, snd (lstep c (LGet k dflt)) = WVal v -> v = dflt \/ last_set k ops None = Some v) /\
  (forall v, snd (lstep c (LGetitem k)) = WVal v -> last_set k ops None = Some v) /\
  (snd (lstep c (LGetitem k)) = WExc KeyError \/ exists v, snd (lstep c (LGetitem k)) = WVal v).
Proof. exact lookup_only_stored. Qed.
Print Assumptions c54_lru_lookup_only_stored.
(* size bound: len <= capacity + capacity*threshold after every history whose trims are not skipped *)
Theorem c54_lru_size_bound_history : forall c0 ops, wf c0 -> empty_cache c0 ->
  forallb unlocked ops = true -> within (fst (lrun c0 ops)).
Proof. exact history_bound. Qed.
Print Assumptions c54_lru_size_bound_history.
(* and after every unskipped __setitem__, whatever came before (a skipped trim is made up for) *)
Theorem c54_lru_size_bound_after_setitem : forall c0 ops k v, wf c0 -> empty_cache c0 ->
  within (fst (lstep (fst (lrun c0 ops)) (LSet k v false))).
Proof. exact set_bound_after_any_history. Qed.
Print Assumptions c54_lru_size_bound_after_setitem.
(* the invariants hold in every reachable state: unique keys, unique counters <= _counter *)
Theorem c54_lru_reachable_invariant : forall ops c, wf c -> cinv c ->
  wf (fst (lrun c ops)) /\ cinv (fst (lrun c ops)).
Proof. exact lrun_inv. Qed.
Print Assumptions c54_lru_reachable_invariant.
(* __setitem__ = store, then (iff over the bound) one trim *)
Theorem c54_lru_setitem_trims : forall c k v, wf c -> cinv c ->
  let c1 := with_data c (store (mke k v (counter c + 1)) (data c)) (counter c + 1) in
  cinv c1 /\
  (over c1 = true -> data (fst (lstep c (LSet k v false))) = trim_once c1) /\
  (over c1 = false -> fst (lstep c (LSet k v false)) = c1).
Proof. exact set_trims. Qed.
Print Assumptions c54_lru_setitem_trims.
(* a trim leaves exactly [capacity] entries, in their dict order, each used more recently than every
   evicted one *)
Theorem c54_lru_trim_keeps_most_recent : forall c, wf c -> cinv c -> over c = true ->
  let d' := trim_once c in
  length d' = Z.to_nat (cap c) /\
  (exists p, d' = filter p (data c)) /\
  (forall s e, In s d' -> In e (data c) -> ~ In e d' -> ec e < ec s).
Proof. exact trim_keeps_most_recent. Qed.
Print Assumptions c54_lru_trim_keeps_most_recent.
(* "recently used": every use gives the entry the strictly largest counter *)
Theorem c54_lru_use_is_most_recent : forall c k v, cinv c ->
  let c' := with_data c (store (mke k v (counter c + 1)) (data c)) (counter c + 1) in
  In (mke k v (counter c')) (data c') /\
  forall y, In y (data c') -> y <> mke k v (counter c') -> ec y < counter c'.
Proof. exact use_is_most_recent. Qed.
Print Assumptions c54_lru_use_is_most_recent.
(* the while loop of _manage_size terminates (the fuel of the model is never exhausted) *)
Theorem c54_lru_manage_size_terminates : forall c op, wf c -> cinv c -> snd (lstep c op) <> WLoop.
Proof. exact lstep_no_loop. Qed.
Print Assumptions c54_lru_manage_size_terminates.

(* non-vacuity: capacity 2, threshold 1/2: the 4th key trims to the 2 most recently used (key 1 was
   refreshed by the get) *)
Example c54_ex_lru_trim :
  let c := fst (lrun (mkl 2 1 2 false [] 0) [LSet 1 10 false; LSet 2 20 false; LSet 3 30 false;
                                              LGet 1 0; LSet 4 40 false]) in
  map ek (data c) = [1; 4] /\ wf c /\ within c.
Proof. vm_compute. repeat split; discriminate. Qed.
