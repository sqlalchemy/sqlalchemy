(* C11 - row lookup by column expression returns that expression's value.
   Statements only; every proof is [exact <lemma>]. *)
From Coq Require Import List NArith Bool Arith.
Import ListNotations.
From SAV.sql Require Import ResultMap ResultMapDict ResultMapKeymapProofs ResultMapModeProofs ResultMapCompileProofs.

(* ---------- lookup by object / by an unambiguous key ---------- *)

(* positional 1:1 mode (every compiled SELECT whose cursor has as many columns as the statement): a key -
   column object, label object, string - found among the name and the lookup objects of result column i and
   of no other column resolves to i.  For all column lists: arbitrary collisions among the other keys. *)
Theorem c11_lookup_by_object : forall rcs tr i e o,
  nth_error rcs i = Some e -> In o (rc_name e :: rc_objs e) ->
  (forall j e', nth_error rcs j = Some e' -> In o (rc_name e' :: rc_keyname e' :: rc_objs e') -> j = i) ->
  lookup (km_pos rcs tr) o = Ok i.
Proof. exact lookup_by_object. Qed.
Print Assumptions c11_lookup_by_object.

(* the same in every merge mode (textual positional, name matching), stated on the merged records *)
Theorem c11_lookup_unique_key_any_mode : forall rw n tr r o i,
  n <> 0 -> In r rw -> m_idx r = Some i -> In o (m_key r :: m_objs r) ->
  (forall r', In r' rw -> In o (m_key r' :: m_rend r' :: m_objs r') -> m_idx r' = Some i) ->
  lookup (keymap_of rw n tr) o = Ok i.
Proof. exact (fun rw n tr r o i Hn Hr _ => lookup_unique_key rw n tr r o i Hn Hr). Qed.
Print Assumptions c11_lookup_unique_key_any_mode.

(* end to end from the SELECT: for every list of selected columns with ANY assignment of names, keys,
   table-qualified labels, anonymous labels (arbitrary collisions), every label style and every
   truncation function [resolve] (any label_length): a column object that is selected once and is not a
   repeat of an earlier equal column is found at its own position *)
Theorem c11_select_lookup_by_column_object : forall (resolve : nm -> nm) st cols desc tr i c p,
  nth_error cols i = Some c ->
  (forall j c', nth_error cols j = Some c' -> d_obj c' = d_obj c -> j = i) ->
  (forall c', In c' cols -> (d_obj c' < cl_base)%N /\ is_obj (d_key c') = false /\ is_obj (d_proxy c') = false) ->
  nth_error (gen_cpn st true cols) i = Some p -> p_repeated p = false ->
  f_ordered (snd (compile_select resolve st cols)) = true -> length desc = length cols ->
  exists md, build (fst (compile_select resolve st cols)) (snd (compile_select resolve st cols)) desc tr = Ok md /\
             lookup (md_keymap md) (KO (d_obj c)) = Ok i.
Proof. exact select_lookup_by_column_object. Qed.
Print Assumptions c11_select_lookup_by_column_object.

(* one result-map entry per selected column, in order (what positional matching relies on) *)
Theorem c11_select_entry_per_column : forall (resolve : nm -> nm) st cols,
  length (fst (compile_select resolve st cols)) = length cols.
Proof. exact select_entry_per_column. Qed.
Print Assumptions c11_select_entry_per_column.

Theorem c11_select_entry_has_object : forall (resolve : nm -> nm) st cols i c p,
  nth_error cols i = Some c -> nth_error (gen_cpn st true cols) i = Some p -> p_repeated p = false ->
  exists e, nth_error (fst (compile_select resolve st cols)) i = Some e /\ In (KO (d_obj c)) (rc_objs e).
Proof. exact select_entry_has_object. Qed.
Print Assumptions c11_select_entry_has_object.

(* the de-duplication of _generate_columns_plus_names only strips the lookup objects of a column that
   repeats an earlier column with the same identity; the first occurrence keeps them *)
Theorem c11_repeated_has_earlier_equal : forall st cols i p,
  anon_labels_private cols ->
  nth_error (gen_cpn st true cols) i = Some p -> p_repeated p = true ->
  exists j c', j < i /\ nth_error cols j = Some c' /\ d_hash c' = d_hash (p_col p).
Proof. exact (fun st => repeated_has_earlier_equal st true). Qed.
Print Assumptions c11_repeated_has_earlier_equal.

Theorem c11_every_identity_has_carrier : forall st cols, anon_labels_private cols ->
  forall i c, nth_error cols i = Some c ->
  exists j c' p', j <= i /\ nth_error cols j = Some c' /\ d_hash c' = d_hash c /\
                 nth_error (gen_cpn st true cols) j = Some p' /\ p_col p' = c' /\ p_repeated p' = false.
Proof. exact (fun st => every_identity_has_carrier st true). Qed.
Print Assumptions c11_every_identity_has_carrier.

(* ---------- an ambiguous key raises ---------- *)

(* the duplicate detection is exact: a key is marked iff two merged records with different cursor indexes
   carry it *)
Theorem c11_dupes_sound : forall rw k, In k (dupes_of rw) ->
  exists r1 r2, In r1 rw /\ In r2 rw /\ m_idx r1 <> m_idx r2 /\
                In k (m_rend r1 :: m_objs r1) /\ In k (m_rend r2 :: m_objs r2).
Proof. exact dupes_sound. Qed.
Print Assumptions c11_dupes_sound.

Theorem c11_dupes_complete : forall rw k r1 r2, In r1 rw -> In r2 rw -> m_idx r1 <> m_idx r2 ->
  In k (m_rend r1 :: m_objs r1) -> In k (m_rend r2 :: m_objs r2) -> In k (dupes_of rw).
Proof. exact dupes_complete. Qed.
Print Assumptions c11_dupes_complete.

(* REFUTED at full strength: the detection only runs when the number of distinct primary names differs
   from the number of compiled columns.  Witnesses (all reproduced on SQLite, see findings/C11.json):
   select(a.c.b_z, b.c.z) with a.q keyed "b_z": row._mapping["b_z"] silently returns b.z *)
Theorem c11_ambiguous_raises_refuted :
  exists rcs tr k i j ei ej,
    nth_error rcs i = Some ei /\ nth_error rcs j = Some ej /\ i <> j /\
    In k (rc_keyname ei :: rc_objs ei) /\ In k (rc_keyname ej :: rc_objs ej) /\
    lookup (km_pos rcs tr) k = Ok j.
Proof. exact ambiguous_raises_refuted. Qed.
Print Assumptions c11_ambiguous_raises_refuted.

(* text("select 1 as x, 2 as x"): "x" returns the last column *)
Theorem c11_plain_text_duplicate_names_refuted :
  exists desc k, nth_error desc 0 = Some (k, KN) /\ nth_error desc 1 = Some (k, KN) /\
    lookup (keymap_of (raw_bynone desc) 0 true) k = Ok 1.
Proof. exact plain_text_duplicate_names_refuted. Qed.
Print Assumptions c11_plain_text_duplicate_names_refuted.

(* REPAIRED by 0c26c9c: select(a.c.x.label("foo"),
   b.c.x.label("foo"), literal_column("1 AS p, 2 AS q")) - name matching with a repeated cursor name; the
   first label object used to resolve to the second column, now every shared key raises *)
Example c11_name_matching_duplicate_names_raise :
  let km := keymap_of (raw_byname w_rcs2 false [(w_foo, KN); (w_foo, KN); (w_p, KN); (w_q, KN)]) 3 true in
  map (lookup km) [KO 1; KO 2; w_foo; w_p; w_q] = [Raise Ambiguous; Raise Ambiguous; Raise Ambiguous; Ok 2; Ok 3].
Proof. exact name_matching_duplicate_names_raise. Qed.

(* unguarded since 0c26c9c: a primary name shared by two merged records (a name repeated in
   cursor.description under name matching / textual matching, two equal labels under positional matching)
   always switches the scan on - whatever the number of compiled columns *)
Theorem c11_ambiguous_raises_shared_name : forall rw n tr k r1 r2,
  n <> 0 -> In r1 rw -> In r2 rw -> m_idx r1 <> m_idx r2 ->
  m_key r1 = m_key r2 ->
  In k (m_rend r1 :: m_objs r1) -> In k (m_rend r2 :: m_objs r2) ->
  lookup (keymap_of rw n tr) k = Raise Ambiguous.
Proof. exact ambiguous_raises_shared_name. Qed.
Print Assumptions c11_ambiguous_raises_shared_name.

(* GUARDED: whenever the detection runs ([dupes_path]: the number of distinct primary names differs from the
   number of compiled columns or from the number of merged records), every key that reaches two different
   cursor indexes raises.  What remains outside the guard: keys shared through SECONDARY names/objects while all
   primary names are distinct (c11_ambiguous_raises_refuted), and plain text (no compiled columns) *)
Theorem c11_ambiguous_raises_guarded : forall rw n tr k r1 r2,
  n <> 0 -> dupes_path rw n = true ->
  In r1 rw -> In r2 rw -> m_idx r1 <> m_idx r2 ->
  In k (m_rend r1 :: m_objs r1) -> In k (m_rend r2 :: m_objs r2) ->
  lookup (keymap_of rw n tr) k = Raise Ambiguous.
Proof. exact ambiguous_raises_guarded. Qed.
Print Assumptions c11_ambiguous_raises_guarded.

Theorem c11_ambiguous_raises_positional_guarded : forall rcs tr k i j ei ej,
  dupes_path (raw_positional rcs) (length rcs) = true ->
  nth_error rcs i = Some ei -> nth_error rcs j = Some ej -> i <> j ->
  In k (rc_keyname ei :: rc_objs ei) -> In k (rc_keyname ej :: rc_objs ej) ->
  lookup (km_pos rcs tr) k = Raise Ambiguous.
Proof. exact ambiguous_raises_positional_guarded. Qed.
Print Assumptions c11_ambiguous_raises_positional_guarded.

(* ---------- a successful lookup never returns a column the key does not denote ---------- *)

Theorem c11_no_wrong_column_positional : forall rcs tr k i,
  lookup (km_pos rcs tr) k = Ok i ->
  exists e, nth_error rcs i = Some e /\ In k (rc_name e :: rc_objs e).
Proof. exact no_wrong_column_positional. Qed.
Print Assumptions c11_no_wrong_column_positional.

(* textual positional (text().columns(...) positional, text() inside a select): the cursor name of column
   i or a lookup object of the compiled column at the same position *)
Theorem c11_no_wrong_column_textual : forall rcs desc rw tr k i,
  rcs <> [] -> raw_textual rcs desc = Ok rw ->
  lookup (keymap_of rw (length rcs) tr) k = Ok i ->
  exists cu, nth_error desc i = Some cu /\
    (k = fst cu \/ exists e, nth_error rcs i = Some e /\ In k (rc_objs e)).
Proof. exact no_wrong_column_textual. Qed.
Print Assumptions c11_no_wrong_column_textual.

(* name matching: the cursor name of column i, or a lookup object of a compiled column whose rendered name
   (with loose matching: one of whose keys) is the cursor name of column i *)
Theorem c11_no_wrong_column_byname : forall rcs loose desc tr k i,
  rcs <> [] ->
  lookup (keymap_of (raw_byname rcs loose desc) (length rcs) tr) k = Ok i ->
  exists cu, nth_error desc i = Some cu /\
    (k = fst cu \/ exists j e, nth_error rcs j = Some e /\ In k (rc_objs e) /\
                    (rc_keyname e = fst cu \/ (loose = true /\ In (fst cu) (rc_objs e)))).
Proof. exact no_wrong_column_byname. Qed.
Print Assumptions c11_no_wrong_column_byname.

Theorem c11_no_wrong_column_plain_text : forall desc tr k i,
  lookup (keymap_of (raw_bynone desc) 0 tr) k = Ok i ->
  exists cu, nth_error desc i = Some cu /\
    (k = fst cu \/ exists j cu', nth_error desc j = Some cu' /\ snd cu' = k /\ fst cu' = fst cu).
Proof. exact no_wrong_column_bynone. Qed.
Print Assumptions c11_no_wrong_column_plain_text.

(* ---------- the compiled cache: lookups by the columns of a new, equal statement ---------- *)
Theorem c11_adapt_no_wrong_column : forall rcs tr news o j,
  lookup (adapt (km_pos rcs tr) news) o = Ok j ->
  nth_error news j = Some o \/ lookup (km_pos rcs tr) o = Ok j.
Proof. exact adapt_no_wrong_column. Qed.
Print Assumptions c11_adapt_no_wrong_column.

Theorem c11_adapt_lookup_new_column : forall rcs tr news o i k0,
  nth_error news i = Some o -> (forall j, nth_error news j = Some o -> j = i) ->
  lookup (km_pos rcs tr) k0 = Ok i ->
  lookup (adapt (km_pos rcs tr) news) o = Ok i.
Proof. exact adapt_lookup_new_column. Qed.
Print Assumptions c11_adapt_lookup_new_column.

(* ---------- non-vacuity ---------- *)
(* a.id and b.id (atoms: 10 "id", 11 "a_id", 12 "b_id", 13 "id_1") *)
Definition ex_col (o : N) (tq : N) (proxy : N) : cdesc :=
  {| d_obj := o; d_hash := o; d_cls := CColumnClause; d_lit := false; d_table := true; d_render := true;
     d_name := Some (NP 10, false); d_key := KS (NP 10); d_tq := Some (NP tq, true);
     d_nonanon := Some (NP 10, false); d_anon_name := NA o 0 (NP 10); d_anon_tq := NA o 0 (NP tq);
     d_exprlabel := None; d_proxy := KS (NP proxy) |}.
Definition ex_cols := [ex_col 1 11 10; ex_col 2 12 13].
Definition ex_resolve (n : nm) : nm := match n with NA 2 0 _ => NP 13 | _ => n end.
Definition ex_desc : list dcol := [(KS (NP 10), KN); (KS (NP 13), KN)].

(* default label style: SELECT a.id, b.id AS id_1 - both objects and both names resolve *)
Example c11_ex_disambiguate :
  match build (fst (compile_select ex_resolve StDisamb ex_cols)) (snd (compile_select ex_resolve StDisamb ex_cols))
              ex_desc true with
  | Ok md => map (lookup (md_keymap md)) [KO 1; KO 2; KS (NP 10); KS (NP 13); KS (NP 12)]
             = [Ok 0; Ok 1; Ok 0; Ok 1; Ok 1]
  | Raise _ => False
  end.
Proof. vm_compute. reflexivity. Qed.

(* LABEL_STYLE_NONE: SELECT a.id, b.id - the objects resolve, the shared name raises *)
Example c11_ex_none :
  match build (fst (compile_select ex_resolve StNone ex_cols)) (snd (compile_select ex_resolve StNone ex_cols))
              [(KS (NP 10), KN); (KS (NP 10), KN)] true with
  | Ok md => map (lookup (md_keymap md)) [KO 1; KO 2; KS (NP 10); KS (NP 11)]
             = [Ok 0; Ok 1; Raise Ambiguous; Ok 0]
             /\ dupes_path (raw_positional (fst (compile_select ex_resolve StNone ex_cols))) 2 = true
  | Raise _ => False
  end.
Proof. vm_compute. split; reflexivity. Qed.

(* the same column twice under the default style: the second is a repeat and the first carries the object *)
Example c11_ex_repeat :
  map p_repeated (gen_cpn StDisamb true [ex_col 1 11 10; ex_col 1 11 10]) = [false; true]
  /\ anon_labels_private [ex_col 1 11 10; ex_col 1 11 10].
Proof.
  split; [vm_compute; reflexivity|].
  intros c c' n [<-|[<-|[]]] [<-|[<-|[]]] _ _; reflexivity.
Qed.

(* REPAIRED by 6eaf5b0 (finding C11-wrapped-column-taken-for-repeat): two different expressions that report
   the same _anon_name_label (cast(t.c.a, String), cast(t.c.a, Float)) - the second one is no repeat any more,
   gets a dedupe label and keeps its lookup objects; the same expression twice still is a repeat *)
Definition ex_wrapped (o : N) : cdesc :=
  {| d_obj := o; d_hash := o; d_cls := CUnnamed; d_lit := false; d_table := false; d_render := true;
     d_name := None; d_key := KN; d_tq := None; d_nonanon := None; d_anon_name := NP 10; d_anon_tq := NP 10;
     d_exprlabel := None; d_proxy := KS (NP 10) |}.
Example c11_ex_wrapped_not_repeat :
  map p_repeated (gen_cpn StDisamb true [ex_wrapped 1; ex_wrapped 1; ex_wrapped 2]) = [false; true; false]
  /\ map p_fallback (gen_cpn StDisamb true [ex_wrapped 1; ex_wrapped 2])
     = [Some (NP 10, true); Some (NA 2 1 (NP a_anon), true)]
  /\ In (KO 2) (rc_objs (nth 1 (fst (compile_select (fun n => n) StDisamb [ex_wrapped 1; ex_wrapped 2]))
                              {| rc_keyname := KN; rc_name := KN; rc_objs := [] |})).
Proof. vm_compute. split; [reflexivity|split; [reflexivity|]]. auto 10. Qed.

(* ---------- reuse of the metadata through the compiled cache (_safe_for_cache) ---------- *)
Theorem c11_safe_for_cache_positional_sound : forall rcs f desc desc' tr,
  rcs <> [] -> f_ordered f = true -> f_textual_ordered f = false ->
  length desc = length rcs -> length desc' = length rcs ->
  build rcs f desc tr = build rcs f desc' tr /\ safe_for_cache rcs f desc = true.
Proof. exact safe_for_cache_positional_sound. Qed.
Print Assumptions c11_safe_for_cache_positional_sound.

(* metadata built by name matching follows the cursor's column order (Example) and is never reused *)
Theorem c11_name_matching_never_safe : forall rcs f desc,
  f_textual_ordered f = false -> f_adhoc f = false ->
  (f_ordered f = false \/ length desc <> length rcs) -> safe_for_cache rcs f desc = false.
Proof. exact name_matching_never_safe. Qed.
Print Assumptions c11_name_matching_never_safe.

Example c11_ex_name_matching_order_matters :
  let rcs := [ {| rc_keyname := w_q; rc_name := w_q; rc_objs := [KO 1; w_q] |};
               {| rc_keyname := w_z; rc_name := w_z; rc_objs := [KO 2; w_z] |} ] in
  lookup (keymap_of (raw_byname rcs true [(w_q, KN); (w_z, KN)]) 2 true) (KO 1) = Ok 0 /\
  lookup (keymap_of (raw_byname rcs true [(w_z, KN); (w_q, KN)]) 2 true) (KO 1) = Ok 1.
Proof. exact name_matching_order_matters. Qed.
