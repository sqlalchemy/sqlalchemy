(* C21 - generated and truncated names are bounded, deterministic and unique.
   Statements only; each proof applies one lemma of sql/Trunc*.v.  md5 is an arbitrary function (no property
   of it is needed for the bounds); [benv] is an arbitrary assignment of bind parameter objects. *)
From Coq Require Import List NArith ZArith Bool.
Import ListNotations.
From SAV.sql Require Import Trunc TruncDigits TruncMaxlen TruncLabels TruncRunProofs TruncExtra TruncRename.
Local Open Scope Z_scope.

(* the truncation  name[0:max-8] + "_" + md5(name)[-4:]  fits whenever max >= 8 *)
Theorem c21_rendered_len_bounded : forall (md5_hex : str -> str) name max_,
  8 <= max_ -> slen (truncate_maxlen md5_hex name max_) <= max_.
Proof. exact truncate_maxlen_bounded. Qed.
Print Assumptions c21_rendered_len_bounded.

(* _truncate_and_render_maxlen_name: a rendered name fits; [truncatable] = _truncated_label *)
Theorem c21_render_bounded : forall md5_hex truncatable name max_ maxid s,
  truncate_and_render_maxlen_name md5_hex truncatable name max_ maxid = Ok s ->
  8 <= max_ -> truncatable = true \/ maxid <= max_ -> slen s <= max_.
Proof. exact render_bounded. Qed.
Print Assumptions c21_render_bounded.

(* ... otherwise IdentifierError, exactly for a non-truncatable name longer than max_identifier_length:
   never an over-long rendering *)
Theorem c21_render_error_iff : forall md5_hex truncatable name max_ maxid e,
  truncate_and_render_maxlen_name md5_hex truncatable name max_ maxid = Raise e
  <-> (truncatable = false /\ maxid < slen name /\ e = IdentifierError).
Proof. exact render_error_iff. Qed.
Print Assumptions c21_render_error_iff.

(* names that fit are rendered unchanged; truncated ones have exactly max-3 characters *)
Theorem c21_short_names_unchanged : forall md5_hex truncatable name max_ maxid,
  slen name <= max_ -> slen name <= maxid ->
  truncate_and_render_maxlen_name md5_hex truncatable name max_ maxid = Ok name.
Proof. exact render_short_id. Qed.
Print Assumptions c21_short_names_unchanged.
Theorem c21_truncated_exact_length : forall md5_hex name max_, (forall s, 4 <= slen (md5_hex s)) ->
  8 <= max_ -> max_ < slen name -> slen (truncate_maxlen md5_hex name max_) = max_ - 3.
Proof. exact truncate_maxlen_exact. Qed.
Print Assumptions c21_truncated_exact_length.

(* the whole DDL path (naming convention at attach time, conv(), _NONE_NAME, format_constraint): every
   rendered constraint / index name is within the dialect's max_identifier_length ... *)
Theorem c21_ddl_name_within_max_identifier_length : forall md5_hex d is_index convention given env s,
  dialect_ok d = true ->
  ddl_name md5_hex d is_index convention given env = Ok (Some s) -> slen s <= d_maxid d.
Proof. exact ddl_name_within_maxid. Qed.
Print Assumptions c21_ddl_name_within_max_identifier_length.

(* ... and within max_index_name_length / max_constraint_name_length, except for a user-given plain name
   on a dialect whose specific limit is smaller than max_identifier_length (validate_identifier only
   looks at max_identifier_length) *)
Theorem c21_ddl_name_within_specific_limit_guarded : forall md5_hex d is_index convention given env s,
  dialect_ok d = true -> specific_guard d is_index convention given = true ->
  ddl_name md5_hex d is_index convention given env = Ok (Some s) -> slen s <= max_for d is_index.
Proof. exact ddl_name_within_specific. Qed.
Print Assumptions c21_ddl_name_within_specific_limit_guarded.
(* the guard excludes exactly the failing names: outside it (and within max_identifier_length) the
   name is rendered unchanged and is longer than the specific limit *)
Theorem c21_specific_guard_exact : forall md5_hex d is_index convention p env, dialect_ok d = true ->
  specific_guard d is_index convention (GPlain p) = false -> slen p <= d_maxid d ->
  ddl_name md5_hex d is_index convention (GPlain p) env = Ok (Some p) /\ max_for d is_index < slen p.
Proof. intros md5_hex d is_index convention p env _. apply specific_guard_exact. Qed.
Print Assumptions c21_specific_guard_exact.
Theorem c21_ddl_name_within_specific_limit_refuted : forall md5_hex,
  dialect_ok mysql_like = true /\
  exists s, ddl_name md5_hex mysql_like true None (GPlain (repeat 105%N 100)) env0 = Ok (Some s)
            /\ max_for mysql_like true < slen s.
Proof. exact plain_name_exceeds_specific_limit. Qed.
Print Assumptions c21_ddl_name_within_specific_limit_refuted.

(* max < 8 (not the case of any dialect in the translated table): the "truncated" name is longer than
   the limit and even longer than the original *)
Theorem c21_rendered_len_small_max_refuted : forall md5_hex, (forall s, 4 <= slen (md5_hex s)) ->
  exists name max_, 0 < max_ < 8 /\ max_ < slen (truncate_maxlen md5_hex name max_)
                    /\ slen name < slen (truncate_maxlen md5_hex name max_).
Proof. exact small_max_overlong. Qed.
Print Assumptions c21_rendered_len_small_max_refuted.

(* the only failures are the documented ones, with their causes *)
Theorem c21_ddl_name_errors : forall md5_hex d is_index convention given env e,
  ddl_name md5_hex d is_index convention given env = Raise e ->
  (e = IdentifierError /\ plain_path convention given = true
     /\ exists p, given = GPlain p /\ d_maxid d < slen p)
  \/ (e = InvalidRequestError /\ exists tpl, convention = Some tpl /\ mentions_cname tpl = true
                                             /\ (given = GNone \/ given = GNoneName))
  \/ (e = CompileError /\ is_index = true).
Proof. exact ddl_name_errors. Qed.
Print Assumptions c21_ddl_name_errors.

(* the model's ddl_name is a function of the constraint alone, so this holds by construction (it would of
   any function in its place); that the implementation has no state either is what the correspondence
   check establishes, not this theorem *)
Theorem c21_ddl_name_deterministic : forall md5_hex d pre post is_index convention given env,
  nth (length pre) (ddl_names md5_hex d (pre ++ (is_index, convention, given, env) :: post))
      (Raise CompileError)
  = ddl_name md5_hex d is_index convention given env.
Proof. exact ddl_names_order_independent. Qed.
Print Assumptions c21_ddl_name_deterministic.

(* table form used by the per-run obligation on the translated dialect table *)
Theorem c21_dialect_table_bounded : forall md5_hex tbl, table_ok tbl = true ->
  forall id d, In (id, d) tbl -> forall is_index convention given env s,
  ddl_name md5_hex d is_index convention given env = Ok (Some s) -> slen s <= d_maxid d.
Proof. exact table_within_maxid. Qed.
Print Assumptions c21_dialect_table_bounded.

(* DefaultDialect.initialize: the engine starts with the detected (or user-fixed) limit and a label
   length that fits it, or refuses with ArgumentError exactly when label_length exceeds that limit *)
Theorem c21_initialize_ok : forall class_maxid user_maxid label_length detected m,
  initialize class_maxid user_maxid label_length detected = Ok m ->
  m = (if truthy user_maxid then py_or user_maxid class_maxid
       else py_or detected (py_or user_maxid class_maxid))
  /\ py_or label_length m <= m.
Proof. exact initialize_ok. Qed.
Print Assumptions c21_initialize_ok.
Theorem c21_initialize_error_iff : forall class_maxid user_maxid label_length detected e,
  initialize class_maxid user_maxid label_length detected = Raise e <->
  (e = ArgumentError /\ exists l, label_length = Some l /\ l <> 0
     /\ (if truthy user_maxid then py_or user_maxid class_maxid
         else py_or detected (py_or user_maxid class_maxid)) < l).
Proof. exact initialize_error_iff. Qed.
Print Assumptions c21_initialize_error_iff.
(* every label / alias / anonymous bind name compiled through a started engine fits the identifier limit
   in force after the first connection *)
Theorem c21_engine_labels_within_identifier_limit : forall benv class_maxid user_maxid label_length detected m rs st os,
  initialize class_maxid user_maxid label_length detected = Ok m -> 6 <= py_or label_length m ->
  (N.of_nat (length rs) < 1048576)%N ->
  run benv (py_or label_length m) init_state rs = Ok (st, os) ->
  (forall c n o, In (RName c (LTrunc n), o) (combine rs os) -> slen o <= m)
  /\ (forall oid t o, In (RBind oid, o) (combine rs os) -> b_key (benv oid) = BTrunc t -> slen o <= m).
Proof. exact engine_labels_within_identifier_limit. Qed.
Print Assumptions c21_engine_labels_within_identifier_limit.

(* hex(n)[2:] / str(n) are modelled by a real digit function: it denotes n (so the fuel suffices),
   is injective, and has at most k digits exactly below base^k *)
Theorem c21_digits_value : forall b n, (2 <= b)%N -> dval b (digits b n) = n.
Proof. exact digits_value. Qed.
Print Assumptions c21_digits_value.
Theorem c21_hex_injective : forall n m, slice_from (py_hex n) hex_skip = slice_from (py_hex m) hex_skip -> n = m.
Proof. exact hexs_inj. Qed.
Print Assumptions c21_hex_injective.
Theorem c21_counter_width : forall c,
  ((c < 1048576)%N -> slen (slice_from (py_hex c) hex_skip) <= 5)
  /\ ((1048576 <= c)%N -> 5 < slen (slice_from (py_hex c) hex_skip)).
Proof. intros c. exact (conj (hexs_len_le5 c) (hexs_len_gt5 c)). Qed.
Print Assumptions c21_counter_width.

(* for any label_length, any number of requests in any order: two different truncatable names of one
   identifier class get the same rendered name only if they anonymise to the same text and that text is
   short enough not to be truncated (<= label_length - 6); in particular a truncated name never equals
   an untruncated one and two truncated names never coincide *)
Theorem c21_truncated_labels_injective : forall benv ll rs st os cls n1 n2 o,
  run benv ll init_state rs = Ok (st, os) ->
  In (RName cls (LTrunc n1), o) (combine rs os) -> In (RName cls (LTrunc n2), o) (combine rs os) ->
  n1 = n2 \/ (anon_pure (st_am st) n1 = anon_pure (st_am st) n2
              /\ slen (anon_pure (st_am st) n1) <= ll - 6).
Proof. exact run_labels_injective. Qed.
Print Assumptions c21_truncated_labels_injective.

(* label_length < 6: every name is truncated (to "_<hex counter>", TruncLabels.small_ll_shape), hence all distinct *)
Theorem c21_truncated_labels_injective_small_label_length : forall benv ll rs st os cls n1 n2 o, ll < 6 ->
  run benv ll init_state rs = Ok (st, os) ->
  In (RName cls (LTrunc n1), o) (combine rs os) -> In (RName cls (LTrunc n2), o) (combine rs os) ->
  n1 = n2.
Proof. exact run_labels_injective_small_ll. Qed.
Print Assumptions c21_truncated_labels_injective_small_label_length.

(* anonymous elements (label(None), anonymous aliases, anonymous binds): same rendered name in a class
   only for the same element *)
Theorem c21_anon_labels_distinct : forall benv ll rs st os cls k1 k2 o,
  run benv ll init_state rs = Ok (st, os) ->
  In (RName cls (LTrunc [Anon (fst k1) (snd k1)]), o) (combine rs os) ->
  In (RName cls (LTrunc [Anon (fst k2) (snd k2)]), o) (combine rs os) -> k1 = k2.
Proof. exact run_anon_labels_distinct. Qed.
Print Assumptions c21_anon_labels_distinct.

(* the unguarded statement "different names get different rendered names" is false: a generated anonymous
   name can coincide with a literal one *)
Theorem c21_labels_injective_refuted :
  exists rs st os n1 n2 o, run no_binds 30 init_state rs = Ok (st, os)
    /\ In (RName cls_colident (LTrunc n1), o) (combine rs os)
    /\ In (RName cls_colident (LTrunc n2), o) (combine rs os) /\ n1 <> n2.
Proof. exact anon_vs_literal_collision. Qed.
Print Assumptions c21_labels_injective_refuted.
Theorem c21_anon_vs_explicit_label_refuted :
  exists rs st os n s, run no_binds 30 init_state rs = Ok (st, os)
    /\ In (RName cls_colident (LTrunc n), s) (combine rs os)
    /\ In (RName cls_colident (LStr s), s) (combine rs os).
Proof. exact anon_vs_plain_collision. Qed.
Print Assumptions c21_anon_vs_explicit_label_refuted.

(* deterministic within the statement: one element, one rendered name *)
Theorem c21_same_element_same_name : forall benv ll rs st os r o1 o2,
  run benv ll init_state rs = Ok (st, os) ->
  In (r, o1) (combine rs os) -> In (r, o2) (combine rs os) -> o1 = o2.
Proof. exact run_stable. Qed.
Print Assumptions c21_same_element_same_name.

(* same on every compilation: the identities (Python id()) inside anonymous names may be renamed by any
   injective function without changing a single rendered name or the success of the compilation (the ids
   of the bind parameter objects themselves, RBind, are kept) *)
Theorem c21_names_independent_of_object_ids : forall (f : N -> N), (forall a b, f a = f b -> a = b) ->
  forall benv benv' : N -> bindrec,
  (forall oid, b_key (benv' oid) = rn_bkey f (b_key (benv oid))
               /\ b_unique (benv' oid) = b_unique (benv oid)
               /\ b_expanding (benv' oid) = b_expanding (benv oid)) ->
  forall ll rs,
  match run benv ll init_state rs, run benv' ll init_state (map (rn_req f) rs) with
  | Ok (_, os), Ok (_, os') => os = os'
  | Raise e, Raise e' => e = e'
  | _, _ => False
  end.
Proof. exact names_independent_of_ids. Qed.
Print Assumptions c21_names_independent_of_object_ids.

(* bind parameters: no two different parameters share a name if one of them is anonymous ("unique") *)
Theorem c21_unique_binds_distinct : forall benv ll rs st os o1 o2 n1 n2,
  run benv ll init_state rs = Ok (st, os) ->
  In (RBind o1, n1) (combine rs os) -> In (RBind o2, n2) (combine rs os) ->
  o1 <> o2 -> b_unique (benv o1) = true \/ b_unique (benv o2) = true -> n1 <> n2.
Proof. exact run_binds_distinct. Qed.
Print Assumptions c21_unique_binds_distinct.
(* ... and when all are anonymous the compilation never fails with a name conflict *)
Theorem c21_anon_binds_never_conflict : forall benv,
  (forall oid, exists b, b_key (benv oid) = BTrunc [Anon oid b]) ->
  forall ll rs, exists st os, run benv ll init_state rs = Ok (st, os).
Proof. exact anon_binds_never_conflict. Qed.
Print Assumptions c21_anon_binds_never_conflict.

(* length: label_length >= 6 and fewer than 16^5 = 1048576 name requests: every rendered truncatable
   name fits label_length ... *)
Theorem c21_label_len_bounded : forall benv ll rs st os, 6 <= ll -> (N.of_nat (length rs) < 1048576)%N ->
  run benv ll init_state rs = Ok (st, os) ->
  (forall cls n o, In (RName cls (LTrunc n), o) (combine rs os) -> slen o <= ll)
  /\ (forall oid t o, In (RBind oid, o) (combine rs os) -> b_key (benv oid) = BTrunc t -> slen o <= ll).
Proof. exact run_len_bounded. Qed.
Print Assumptions c21_label_len_bounded.
(* ... the k-th over-long name of a class gets counter k ... *)
Theorem c21_kth_truncated_name : forall benv ll cls m, exists st os,
  run benv ll init_state (reqs_of cls (family ll (S m))) = Ok (st, os)
  /\ length os = S m
  /\ slen (last os []) = label_cut ll + 1 + slen (hexs (N.of_nat (S m))).
Proof. exact kth_truncated_name. Qed.
Print Assumptions c21_kth_truncated_name.
(* ... so exactly the 1048576th one is one character too long *)
Theorem c21_label_len_bounded_refuted : forall benv ll cls, 6 <= ll -> exists names st os,
  N.of_nat (length names) = 1048576%N /\ NoDup names
  /\ run benv ll init_state (reqs_of cls names) = Ok (st, os)
  /\ slen (last os []) = ll + 1.
Proof. exact label_overflow_at_16_pow_5. Qed.
Print Assumptions c21_label_len_bounded_refuted.

Definition ex_md5 : str -> str := fun _ => [48; 49; 50; 51; 97; 98; 99; 100]%N.
Example c21_ex_truncate : truncate_maxlen ex_md5 (repeat 120%N 40) 12 = [120; 120; 120; 120; 95; 97; 98; 99; 100]%N.
Proof. vm_compute; reflexivity. Qed.
Example c21_ex_dialect_ok : dialect_ok {| d_maxid := 63; d_idx := None; d_con := None |} = true
                            /\ specific_guard mysql_like true None (GConv []) = true.
Proof. split; vm_compute; reflexivity. Qed.
(* label_length 10: "aaaaaaaa" twice and "aaaaaaab" as labels, one anonymous bind *)
Example c21_ex_run :
  let a := repeat 97%N 8 in let b := repeat 97%N 7 ++ [98%N] in
  let benv := fun _ => {| b_key := BTrunc [Anon 5 a]; b_unique := true; b_expanding := false |} in
  exists st, run benv 10 init_state
        [RName 0 (LTrunc [Lit a]); RName 0 (LTrunc [Lit b]); RName 0 (LTrunc [Lit a]); RBind 5]
      = Ok (st, [[97; 97; 97; 97; 95; 49]; [97; 97; 97; 97; 95; 50]; [97; 97; 97; 97; 95; 49];
                 [97; 97; 97; 97; 95; 49]]%N).
Proof. eexists. vm_compute. reflexivity. Qed.
Example c21_ex_initialize : initialize 128 None (Some 48) (Some 30) = Raise ArgumentError
                            /\ initialize 128 None (Some 29) (Some 30) = Ok 30
                            /\ initialize 128 (Some 40) (Some 35) (Some 30) = Ok 40.
Proof. repeat split. Qed.
Example c21_ex_bind_conflict :
  let benv := fun oid => if (oid =? 0)%N
                         then {| b_key := BPlain [120; 95; 49]%N; b_unique := false; b_expanding := false |}
                         else {| b_key := BTrunc [Anon 1 [120%N]]; b_unique := true; b_expanding := false |} in
  run benv 30 init_state [RBind 0; RBind 1] = Raise CompileError.
Proof. vm_compute; reflexivity. Qed.
