(* C19 - dependency sorting is a correct topological order; cycles are exactly reported.
   Statements only; the proofs are in util/Topo*.v and util/Cycles*.v. *)
From Coq Require Import List NArith Bool Permutation.
Import ListNotations.
From SAV.util Require Import Topo Cycles TopoProofs TopoCycle TopoExtra CyclesSound CyclesComplete CyclesExact.

(* each item exactly once *)
Theorem c19_sort_each_item_once : forall ts items out,
  sort ts items = Ok out -> Permutation out items.
Proof. exact sort_perm. Qed.
Print Assumptions c19_sort_each_item_once.

(* every dependency before its dependent (both ends being items) *)
Theorem c19_sort_respects_deps : forall ts items out, sort ts items = Ok out ->
  forall p c, In (p, c) ts -> In p items -> In c items ->
  exists l1 l2, out = l1 ++ l2 /\ In p l1 /\ In c l2.
Proof. exact sort_order. Qed.
Print Assumptions c19_sort_respects_deps.

(* strict layer order for sort_as_subsets *)
Theorem c19_subsets_layer_order : forall ts items r, sort_as_subsets ts items = Ok r ->
  forall p c, In (p, c) ts -> In p items -> In c items -> earlier r p c.
Proof. intros ts items r H. exact (subsets_order _ _ _ _ H). Qed.
Print Assumptions c19_subsets_layer_order.

(* the order is determined by the input only: the dependency pairs matter as a set (no influence of
   duplicates, of their order, or of the hash order of the Python sets built from them) *)
Theorem c19_sort_depends_on_edge_set_only : forall ts ts' items,
  (forall e, In e ts <-> In e ts') -> sort ts items = sort ts' items.
Proof. exact sort_edge_set. Qed.
Print Assumptions c19_sort_depends_on_edge_set_only.

(* fails with the circular-dependency error exactly when the dependencies among the items contain a cycle *)
Theorem c19_sort_fails_iff_cycle : forall ts items,
  sort ts items = Circular <-> exists w, cycle ts w /\ incl w items.
Proof. exact sort_circular_iff. Qed.
Print Assumptions c19_sort_fails_iff_cycle.

(* the fuel of the model is always sufficient: the third result is unreachable *)
Theorem c19_sort_total : forall ts items, sort ts items <> OutOfFuel.
Proof. exact sort_never_out_of_fuel. Qed.
Print Assumptions c19_sort_total.

(* cycle detection returns precisely the nodes lying on some cycle, whatever the iteration orders
   [ord] (of each adjacency set) and [starts] (of the node set) are *)
Theorem c19_find_cycles_exact : forall (ts : list edge) (ord : node -> list node) (starts : list node),
  (forall a b, In b (ord a) <-> In (a, b) ts) ->
  (forall a, In a starts <-> exists b, In (a, b) ts) ->
  exists out, find_cycles ord starts = Some out /\ forall x, In x out <-> on_cycle ts x.
Proof. intros ts ord starts H1 H2. exact (find_cycles_exact ts ord H1 starts H2). Qed.
Print Assumptions c19_find_cycles_exact.

(* non-vacuity: a graph with two overlapping cycles and an acyclic diamond *)
Example c19_ex_cycles :
  cycle [(1,2);(2,3);(3,1);(3,4);(4,2);(5,1)]%N [1;3;2;1]%N /\
  sort [(1,2);(2,3);(3,1);(3,4);(4,2);(5,1)]%N [1;2;3;4;5]%N = Circular.
Proof. split; [|vm_compute; reflexivity]. exists 1%N, [3;2]%N. split; [reflexivity|].
  repeat (apply bwS; [simpl; tauto|]). apply bw1. Qed.
Example c19_ex_diamond : sort [(1,2);(1,3);(2,4);(3,4)]%N [4;3;2;1]%N = Ok [1;3;2;4]%N.
Proof. vm_compute; reflexivity. Qed.
