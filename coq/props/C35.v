(* C35 - object lifecycle states and events follow the documented state machine.
   Statements; the proofs are in orm/Lifecycle*.v, except where a witness is given and evaluated here.

   Model: SAV.orm.Lifecycle (one Session, growing set of objects, the operations add / delete / expunge /
   flush / commit / rollback / close / merge / make_transient / make_transient_to_detached; attribute-level
   state and database contents are inputs of each operation and universally quantified here).
   The log of a run records every change of an object's lifecycle state ([Chg i from to]) and every
   lifecycle event the code fires ([Ev i event state_of_the_object_when_fired]). *)
From Coq Require Import List ZArith Bool.
Import ListNotations.
From SAV.orm Require Import Lifecycle LifecycleSpec LifecycleLemmas LifecycleMain LifecycleRefuted.
Open Scope Z_scope.

(* exactly_one_state: the five InstanceState predicates partition every InstanceState (hence every
   reachable one): exactly one of them is true *)
Theorem c35_exactly_one_state : forall o,
  (if is_transient o then 1 else 0) + (if is_pending o then 1 else 0) + (if is_persistent o then 1 else 0)
  + (if is_deleted o then 1 else 0) + (if is_detached o then 1 else 0) = 1.
Proof. exact one_state. Qed.
Print Assumptions c35_exactly_one_state.

(* ... and the state the transition log speaks about is the one whose predicate is true *)
Theorem c35_state_is_the_true_predicate : forall o,
  match lc_of o with
  | Transient => is_transient o | Pending => is_pending o | Persistent => is_persistent o
  | Deleted => is_deleted o | Detached => is_detached o | Absent => false
  end = true.
Proof. exact state_is_lc. Qed.
Print Assumptions c35_state_is_the_true_predicate.

(* only_documented_transitions, on the guarded region: in every history (any length, any objects, any
   database / attribute environment) that stays inside the guard, every state change of every object is
   a row of the documented table *)
Theorem c35_only_documented_transitions_guarded : forall eoc pks h,
  guarded h (init eoc pks) = true ->
  forall i f t, In (Chg i f t) (slog (run h (init eoc pks))) -> exists e, documented f t e = true.
Proof. exact guarded_transitions_documented. Qed.
Print Assumptions c35_only_documented_transitions_guarded.

(* outside the guard it fails: add, flush, delete, flush, rollback moves the object deleted -> transient *)
Theorem c35_only_documented_transitions_refuted : exists eoc pks h i f t,
  In (Chg i f t) (slog (run h (init eoc pks))) /\ forall e, documented f t e = false.
Proof. exists true, [1], h_flush_delete_rollback, 0%nat, Deleted, Transient. exact flush_delete_rollback_undocumented. Qed.
Print Assumptions c35_only_documented_transitions_refuted.

(* events_iff_transitions, on the guarded region: the log is a sequence of blocks "documented transition,
   then exactly its event" / "documented event-less transition" *)
Theorem c35_events_iff_transitions_guarded : forall eoc pks h,
  guarded h (init eoc pks) = true -> wf (slog (run h (init eoc pks))).
Proof. exact guarded_log_wf. Qed.
Print Assumptions c35_events_iff_transitions_guarded.

(* what [wf] means, item by item: each transition is followed at once by the event documented for it
   (same object, object in the target state), unless it is documented without an event ... *)
Theorem c35_each_transition_fires_its_event_once : forall eoc pks h,
  guarded h (init eoc pks) = true ->
  forall l1 i f t l2, slog (run h (init eoc pks)) = l1 ++ Chg i f t :: l2 ->
  documented f t None = true \/ exists e l3, documented f t (Some e) = true /\ l2 = Ev i e t :: l3.
Proof. intros eoc pks h G. exact (wf_transition_then_event _ (guarded_log_wf eoc pks h G)). Qed.
Print Assumptions c35_each_transition_fires_its_event_once.

(* ... and no event fires otherwise: each event directly follows the transition it is documented for *)
Theorem c35_no_event_without_its_transition : forall eoc pks h,
  guarded h (init eoc pks) = true ->
  forall l1 i e t l2, slog (run h (init eoc pks)) = l1 ++ Ev i e t :: l2 ->
  exists l0 f, l1 = l0 ++ [Chg i f t] /\ documented f t (Some e) = true.
Proof. intros eoc pks h G. exact (wf_event_after_transition _ (guarded_log_wf eoc pks h G)). Qed.
Print Assumptions c35_no_event_without_its_transition.

(* refuted outside the guard: add, flush, expunge, rollback - the expunged object is still in the snapshot of the
   transaction, rollback() moves it detached -> transient and announces persistent_to_transient *)
Theorem c35_events_iff_transitions_refuted : exists eoc pks h,
  guarded h (init eoc pks) = false /\ ~ wf (slog (run h (init eoc pks))).
Proof. exists true, [1], h_expunge_rollback. split; [vm_compute; reflexivity|exact expunge_rollback_not_wf]. Qed.
Print Assumptions c35_events_iff_transitions_refuted.

(* further histories whose log is not well formed (hence, by c35_events_iff_transitions_guarded, outside the guard) *)
Theorem c35_delete_twice_refuted : ~ wf (slog (run h_redelete (init true [1]))).
Proof. exact redelete_not_wf. Qed.
Print Assumptions c35_delete_twice_refuted.
Theorem c35_delete_of_was_deleted_refuted : ~ wf (slog (run h_delete_was_deleted (init true [1]))).
Proof. exact delete_was_deleted_not_wf. Qed.
Print Assumptions c35_delete_of_was_deleted_refuted.
Theorem c35_was_already_deleted_refuted : ~ wf (slog (run h_was_already_deleted (init true [1; 1]))).
Proof. exact was_already_deleted_not_wf. Qed.
Print Assumptions c35_was_already_deleted_refuted.
Theorem c35_second_snapshot_restore_refuted : ~ wf (slog (run h_second_restore (init true [1; 2]))).
Proof. exact second_restore_not_wf. Qed.
Print Assumptions c35_second_snapshot_restore_refuted.

(* the guard is satisfiable by a history through all ten operations; its log has 26 items (evaluating it shows
   nine of the ten events, all but persistent_to_transient) *)
Example c35_ex_guarded : guarded h_good (init true [1; 2]) = true /\
  length (slog (run h_good (init true [1; 2]))) = 26%nat.
Proof. exact good_guarded. Qed.
(* delete(obj) without a flush, then rollback(): inside the guard, and neither of the two logs anything
   (the implementation fired deleted_to_persistent here, although the object never left persistent, until /repo 93a87c1) *)
Example c35_ex_delete_rollback_repaired : guarded h_delete_rollback (init true [1]) = true /\
  slog (run h_delete_rollback (init true [1])) =
    [Chg 0 Transient Pending; Ev 0 T2P Pending; Chg 0 Pending Persistent; Ev 0 P2S Persistent].
Proof. exact (conj delete_rollback_guarded delete_rollback_log). Qed.
(* ... and one of the refuting histories is outside it, by evaluation *)
Example c35_ex_unguarded : guarded h_redelete (init true [1]) = false.
Proof. vm_compute. reflexivity. Qed.
