(* C17 - lambda statements never reuse stale closure values.  Statements only; every proof is [exact <lemma>].

   Model (sql/Lambda.v): [run F U empty_state h] is what a process does with the history h of constructions
   "lambda_stmt(l0) + l1 + ..." (each link: code object + closure cell values) - analysis once per code object
   from the first closure, cache key from the structural cells, skeleton cached per chain key, bound values
   re-extracted on every construction; [direct_chain] is the same expressions built without lambda_stmt.
   F = what helper functions do, U = the body of each lambda (as a list of uses of its closure cells).
   Assumption built into the model: a code object determines the body of the lambda, including what its global
   names refer to (false for textually identical lambdas on the same line of two modules - code objects compare
   by value and ignore the file name: finding C17-equal-code-objects-share-cache, reproduced on every run). *)
From Coq Require Import List NArith ZArith Bool.
Import ListNotations.
From SAV.sql Require Import Lambda LambdaBase LambdaProofs LambdaMain LambdaExtra.

(* MAIN (guarded).  For every helper semantics F, every set of lambda bodies U, every history h of any length of
   "+=" chains of any length with any closure values: if every construction is inside the guard
     - closure cells keep their kind (literal / list / column / table / function) per code object  [Kf]
     - no None where None-ness changes the SQL (comparison operand, LIMIT); helper functions that are called
       without arguments have no closure of their own; indexed list items exist and are not None      [safe_env]
     - no Python-level truth test of a cell in the body; function cells are not also used as values   [safe_body]
   and the direct construction itself succeeds, then EVERY construction in the history yields exactly the
   statement (criteria, bound values, FROM, LIMIT) the direct construction yields, or the documented refusal
   (InvalidRequestError).  In particular a cached skeleton is never combined with stale values. *)
Theorem c17_lambda_eq_direct_guarded : forall F U Kf h,
  (forall ch, In ch h -> chain_good U Kf ch /\ exists its, direct_chain F U ch = Ok its) ->
  Forall2 (fun ch r => r = Rejected \/ r = direct_chain F U ch) h (run F U empty_state h).
Proof. exact lambda_eq_direct. Qed.
Print Assumptions c17_lambda_eq_direct_guarded.

(* a closure value that changes the SQL structure (column, table, list of columns) is part of the cache key *)
Theorem c17_structural_change_changes_key : forall us e0 e e' i,
  map kind e = map kind e0 -> map kind e' = map kind e0 ->
  wrapped (classify_cells us 0 e0) i = false -> cell e i <> cell e' i ->
  keyparts (classify_cells us 0 e0) e <> keyparts (classify_cells us 0 e0) e'.
Proof. exact structural_change_changes_key. Qed.
Print Assumptions c17_structural_change_changes_key.

Theorem c17_function_change_changes_key : forall us e0 e e' i code cap code' cap',
  map kind e = map kind e0 -> map kind e' = map kind e0 -> has_param us i = false ->
  cell e i = VFun code cap -> cell e' i = VFun code' cap' -> code <> code' ->
  keyparts (classify_cells us 0 e0) e <> keyparts (classify_cells us 0 e0) e'.
Proof. exact function_change_changes_key. Qed.
Print Assumptions c17_function_change_changes_key.

(* literal closure values become fresh bound parameters: filling a skeleton uses the CURRENT closure *)
Theorem c17_bound_values_are_current : forall F a e us its,
  forallb (safe_use e) us = true -> direct_uses F e us = Ok its ->
  exists p, build_uses F a e us = Ok p /\ fill e p = its.
Proof. exact build_fill_uses. Qed.
Print Assumptions c17_bound_values_are_current.

(* the skeleton depends on the closure only through the cache key *)
Theorem c17_skeleton_determined_by_key : forall F us e0 e e',
  map kind e = map kind e0 -> map kind e' = map kind e0 ->
  keyparts (classify_cells us 0 e0) e = keyparts (classify_cells us 0 e0) e' ->
  safe_body us = true -> safe_env us e = true -> safe_env us e' = true ->
  build_uses F (classify_cells us 0 e0) e us = build_uses F (classify_cells us 0 e0) e' us.
Proof. intros F us e0 e e' K K' HK B S S'. exact (build_uses_same_key F us e0 e e' K K' HK us B S S'). Qed.
Print Assumptions c17_skeleton_determined_by_key.

(* a cell that is only tested for truth is refused (the documented InvalidRequestError), never cached *)
Theorem c17_truth_test_unshared_rejected : forall us e t c i k1 k2,
  In (UIf t c i k1 k2) us -> has_param us i = false -> i < length e ->
  (match cell e i with VNone | VInt _ => true | _ => false end) = true ->
  forall a, analyze us e <> Ok a.
Proof. exact truth_test_unshared_rejected. Qed.
Print Assumptions c17_truth_test_unshared_rejected.

(* ---------------- outside the guard the unguarded statement is FALSE (each confirmed on the implementation) ---- *)
Theorem c17_none_operand_refuted :
  run F0 U_none empty_state [[(1%N, [VInt 1])]; [(1%N, [VNone])]] =
    [Ok [ICrit (CCmp 0 1 Ne (VInt 1))]; Ok [ICrit (CCmp 0 1 Ne VNone)]] /\
  direct_chain F0 U_none [(1%N, [VNone])] = Ok [ICrit (CIsNotNull 0 1)].
Proof. exact none_operand_refuted. Qed.
Print Assumptions c17_none_operand_refuted.

Theorem c17_none_limit_refuted :
  run F0 U_limit empty_state [[(1%N, [VNone])]] = [Ok [ILimit VNone]] /\ direct_chain F0 U_limit [(1%N, [VNone])] = Ok [].
Proof. exact none_limit_refuted. Qed.
Print Assumptions c17_none_limit_refuted.

(* STALE closure value: a helper function with its own closure *)
Theorem c17_nested_function_stale_refuted :
  run F0 U_call empty_state [[(1%N, [VFun 7 [VInt 0]])]; [(1%N, [VFun 7 [VInt 2]])]] =
    [Ok [ICrit (CCmp 0 1 Gt (VInt 0))]; Ok [ICrit (CCmp 0 1 Gt (VInt 0))]] /\
  direct_chain F0 U_call [(1%N, [VFun 7 [VInt 2]])] = Ok [ICrit (CCmp 0 1 Gt (VInt 2))].
Proof. exact nested_function_stale_refuted. Qed.
Print Assumptions c17_nested_function_stale_refuted.

(* STALE structure: a bound value that is also tested for truth *)
Theorem c17_shared_truth_test_stale_refuted :
  run F0 U_shared empty_state [[(1%N, [VInt 1])]; [(1%N, [VInt 0])]] =
    [Ok [ICrit (CCmp 0 1 Gt (VInt 1)); ICrit (CCmp 0 2 Eq (VInt 1))];
     Ok [ICrit (CCmp 0 1 Gt (VInt 0)); ICrit (CCmp 0 2 Eq (VInt 1))]] /\
  direct_chain F0 U_shared [(1%N, [VInt 0])] = Ok [ICrit (CCmp 0 1 Gt (VInt 0)); ICrit (CCmp 0 2 Eq (VInt 2))].
Proof. exact shared_truth_test_stale_refuted. Qed.
Print Assumptions c17_shared_truth_test_stale_refuted.

(* list index (as of /repo 3d569da): UIndex is inside the guard of the main theorem; the two situations as examples *)
Example c17_list_index_alone_rejected :
  run F0 U_index empty_state [[(1%N, [VList [VInt 1; VInt 2]])]] = [Rejected].
Proof. exact list_index_alone_rejected. Qed.
Example c17_list_index_with_in_fresh :
  run F0 U_index_in empty_state [[(1%N, [VList [VInt 1; VInt 2]])]; [(1%N, [VList [VInt 0; VInt 5; VInt 3]])]] =
    [Ok [ICrit (CIn 0 2 [VInt 1; VInt 2]); ICrit (CCmp 0 1 Gt (VInt 2))];
     Ok [ICrit (CIn 0 2 [VInt 0; VInt 5; VInt 3]); ICrit (CCmp 0 1 Gt (VInt 5))]] /\
  map (direct_chain F0 U_index_in) [[(1%N, [VList [VInt 1; VInt 2]])]; [(1%N, [VList [VInt 0; VInt 5; VInt 3]])]] =
    run F0 U_index_in empty_state [[(1%N, [VList [VInt 1; VInt 2]])]; [(1%N, [VList [VInt 0; VInt 5; VInt 3]])]].
Proof. exact list_index_with_in_fresh. Qed.

(* ---------------- non-vacuity: a history of four chains over three lambdas inside the guard ---------------- *)
Example c17_ex_guard : forall ch, In ch h_ex -> chain_good U_ex K_ex ch /\ exists its, direct_chain F0 U_ex ch = Ok its.
Proof. exact ex_guard. Qed.
Example c17_ex_runs : run F0 U_ex empty_state h_ex = map (direct_chain F0 U_ex) h_ex.
Proof. exact ex_runs. Qed.
