(* C08 - LIKE-based string operators with autoescape match literal semantics.
   Statements; each follows in a line or two from the lemmas of LikeProofs.  Strings are unbounded
   lists of code points. *)
From Coq Require Import List NArith Bool.
Import ListNotations.
From SAV.sql Require Import Like LikeProofs.
Open Scope N_scope.

(* THE PROPERTY on its correct region.  col.<op>(x, autoescape=True, escape=escape) matches the row
   holding s exactly when the Python test holds (x in s / s.startswith(x) / s.endswith(x); both sides
   ASCII-lowered for the i-variants), for every operand x and every text s, whatever they contain.
   [guard o e]: the effective escape character e (default "/") is neither % nor _, and for the
   i-variants it is not an ASCII letter. *)
Theorem c08_autoescape_literal_guarded : forall o escape x s,
  guard o (eff_escape escape) = true -> op_match o true escape x s = py_test o x s.
Proof. exact autoescape_literal. Qed.
Print Assumptions c08_autoescape_literal_guarded.

(* ... and the code as written VIOLATES it at every excluded point: the guard is exact.  For each of
   the six operators and each excluded escape character there is an operand and a text on which the
   operator and the Python test disagree. *)
Theorem c08_autoescape_literal_refuted : forall o e,
  guard o e = false -> exists x s, op_match o true (Some e) x s <> py_test o x s.
Proof. exact guard_exact. Qed.
Print Assumptions c08_autoescape_literal_refuted.

(* the documented witnesses: contains("a%b", autoescape=True, escape="%") does not match "a%b";
   with escape="_" it matches "a_b" *)
Theorem c08_escape_pct_refuted :
  op_match Contains true (Some pct) [97; 37; 98] [97; 37; 98] = false /\
  py_test Contains [97; 37; 98] [97; 37; 98] = true.
Proof. vm_compute. split; reflexivity. Qed.
Print Assumptions c08_escape_pct_refuted.

Theorem c08_escape_und_refuted :
  op_match Contains true (Some und) [97; 37; 98] [97; 95; 98] = true /\
  py_test Contains [97; 37; 98] [97; 95; 98] = false.
Proof. vm_compute. split; reflexivity. Qed.
Print Assumptions c08_escape_und_refuted.

(* icontains("A", autoescape=True, escape="a"): lower() turns the operand into the escape character;
   the pattern %a% ESCAPE 'a' then means "contains a literal %" *)
Theorem c08_letter_escape_ci_refuted :
  op_match IContains true (Some 97) [65] [97] = false /\ py_test IContains [65] [97] = true /\
  op_match IContains true (Some 97) [65] [37] = true /\ py_test IContains [65] [37] = false.
Proof. vm_compute. repeat split; reflexivity. Qed.
Print Assumptions c08_letter_escape_ci_refuted.

(* per operator, in the notation of the property text *)
Theorem c08_contains_guarded : forall e x s, esc_ok e = true ->
  like (Some e) (pct :: autoescape e x ++ [pct]) s = is_infix x s.
Proof. intros e x s G. exact (seg_infix _ (esc_ok_pct e G) _ _ (autoescape_seg e x G) s). Qed.
Print Assumptions c08_contains_guarded.

Theorem c08_startswith_guarded : forall e x s, esc_ok e = true ->
  like (Some e) (autoescape e x ++ [pct]) s = is_prefix x s.
Proof. intros e x s G. exact (seg_prefix _ (esc_ok_pct e G) _ _ (autoescape_seg e x G) s). Qed.
Print Assumptions c08_startswith_guarded.

Theorem c08_endswith_guarded : forall e x s, esc_ok e = true ->
  like (Some e) (pct :: autoescape e x) s = is_suffix x s.
Proof. intros e x s G. exact (seg_suffix _ (esc_ok_pct e G) _ _ (autoescape_seg e x G) s). Qed.
Print Assumptions c08_endswith_guarded.

Theorem c08_icontains_guarded : forall e x s, esc_ok e = true -> is_letter e = false ->
  like (Some e) (pct :: lower (autoescape e x) ++ [pct]) (lower s) = is_infix (lower x) (lower s).
Proof.
  intros e x s G Hl. destruct (esc_ok_neq e G) as [Hp Hu]. rewrite (lower_autoescape e Hp Hu Hl).
  exact (seg_infix _ (esc_ok_pct e G) _ _ (autoescape_seg e (lower x) G) (lower s)).
Qed.
Print Assumptions c08_icontains_guarded.

(* the escaped operand alone (col.like(escaped, escape=e)) is string equality *)
Theorem c08_like_escaped_is_equality : forall e x s,
  esc_ok e = true -> like (Some e) (autoescape e x) s = list_eqb x s.
Proof. intros e x s G. exact (seg_exact _ _ _ (autoescape_seg e x G) s). Qed.
Print Assumptions c08_like_escaped_is_equality.

(* the three sequential str.replace calls are one character-wise substitution (no re-escaping) *)
Theorem c08_autoescape_is_charwise : forall e x, esc_ok e = true ->
  autoescape e x =
  flat_map (fun c => if N.eqb c e || N.eqb c pct || N.eqb c und then [e; c] else [c]) x.
Proof. exact autoescape_is_charwise. Qed.
Print Assumptions c08_autoescape_is_charwise.

(* the pattern sent to the backend contains valid escape sequences only (escape character followed by
   the escape character, % or _; never a dangling one), so the result does not depend on how a backend
   treats invalid sequences (error vs. literal) *)
Theorem c08_autoescape_wellformed : forall o escape x,
  guard o (eff_escape escape) = true ->
  wf_pattern (eff_escape escape) (op_pattern o true escape x) = true.
Proof. exact autoescape_wellformed. Qed.
Print Assumptions c08_autoescape_wellformed.

(* autoescape=False branch: an operand containing nothing that LIKE interprets is matched literally *)
Theorem c08_plain_literal : forall o escape x s,
  is_esc escape pct = false -> plain_ok escape (fold_case o x) = true ->
  op_match o false escape x s = py_test o x s.
Proof. exact plain_literal. Qed.
Print Assumptions c08_plain_literal.

(* ---- non-vacuity *)
(* the default escape character and the usual explicit ones satisfy the guard for all six operators *)
Example c08_ex_guard_default :
  forallb (fun o => guard o (eff_escape None)) [Contains; Startswith; Endswith; IContains; IStartswith; IEndswith] = true
  /\ guard IContains 94 = true /\ guard Contains 39 = true /\ guard IEndswith 92 = true.
Proof. vm_compute. repeat split; reflexivity. Qed.
(* the excluded region is what the refutation says it is *)
Example c08_ex_guard_excluded :
  guard Contains pct = false /\ guard Startswith und = false /\ guard IContains 65 = false /\
  guard Contains 65 = true.
Proof. vm_compute. repeat split; reflexivity. Qed.
(* "a%_/b" escaped with the default: a/%/_//b ; it matches inside x..y and not when % acts as wildcard *)
Example c08_ex_escape : autoescape slash [97; 37; 95; 47; 98] = [97; 47; 37; 47; 95; 47; 47; 98]
  /\ op_match Contains true None [97; 37; 95; 47; 98] [120; 97; 37; 95; 47; 98; 121] = true
  /\ op_match Contains true None [97; 37; 95; 47; 98] [120; 97; 120; 95; 47; 98; 121] = false
  /\ op_match Contains false None [97; 37; 95; 47; 98] [120; 97; 120; 120; 120; 47; 98; 121] = true.
Proof. vm_compute. repeat split; reflexivity. Qed.
(* case-insensitive: istartswith("A_", autoescape=True) on "a_B" but not on "axB" *)
Example c08_ex_ci : op_match IStartswith true None [65; 95] [97; 95; 66] = true
  /\ op_match IStartswith true None [65; 95] [97; 120; 66] = false
  /\ op_match Startswith true None [65; 95] [97; 95; 66] = false.
Proof. vm_compute. repeat split; reflexivity. Qed.
(* plain_ok is satisfiable, also with an escape character *)
Example c08_ex_plain : plain_ok (Some slash) (fold_case IEndswith [65; 39; 92]) = true
  /\ op_match IEndswith false (Some slash) [65; 39; 92] [120; 97; 39; 92] = true.
Proof. vm_compute. split; reflexivity. Qed.
(* with escape="%" the wrapped pattern of contains("a") ends in a dangling escape character *)
Example c08_ex_illformed : op_pattern Contains true (Some pct) [97] = [37; 97; 37]
  /\ wf_pattern pct (op_pattern Contains true (Some pct) [97]) = false
  /\ wf_pattern slash (op_pattern IContains true None [65; 37; 47]) = true.
Proof. vm_compute. repeat split; reflexivity. Qed.
