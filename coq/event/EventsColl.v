(* C28 proofs, part 2: the class-level collections.  update_subclass, _do_insert_or_append and
   _ClsLevelDispatch.remove compute the lists prescribed by the registration log when the hierarchy
   has single inheritance and the log satisfies the guard. *)
From Coq Require Import List Arith Bool Lia Permutation.
Import ListNotations.
From SAV.event Require Import Events EventsWalk.

Definition lfn_of (r : reg) : lfn :=
  {| l_id := if g_once r || g_wrap r then IdW (g_id r) else IdF (g_fn r); l_fn := g_fn r; l_once := g_once r |}.
Definition ident_of (r : reg) : ident := l_id (lfn_of r).
Definition cls_regs (m : list nat) (c : nat) (log : list reg) : list reg := ordered (filter (rel_cls m c) log).
Definition cls_list (cs : list cls_rec) (log : list reg) (c : nat) : list lfn :=
  map lfn_of (cls_regs (mro cs c) c log).
Definition not_key (k : key) (r : reg) : bool := negb (key_eqb k (key_of r)).

Lemma filter_none : forall A (p : A -> bool) l, (forall x, In x l -> p x = false) -> filter p l = [].
Proof.
  induction l as [|a l IH]; intro H; cbn; [reflexivity|].
  rewrite (H a (or_introl eq_refl)). apply IH. intros; apply H; right; assumption.
Qed.
Lemma filter_all : forall A (p : A -> bool) l, (forall x, In x l -> p x = true) -> filter p l = l.
Proof.
  induction l as [|a l IH]; intro H; cbn; [reflexivity|].
  rewrite (H a (or_introl eq_refl)). f_equal. apply IH. intros; apply H; right; assumption.
Qed.
Lemma filter_comm : forall A (p q : A -> bool) l, filter p (filter q l) = filter q (filter p l).
Proof.
  induction l as [|a l IH]; cbn; [reflexivity|].
  destruct (q a) eqn:Q, (p a) eqn:P; cbn; rewrite ?Q, ?P, IH; reflexivity.
Qed.
Lemma filter_rev : forall A (p : A -> bool) l, filter p (rev l) = rev (filter p l).
Proof.
  induction l as [|a l IH]; cbn; [reflexivity|].
  rewrite filter_app, IH. cbn. destruct (p a); cbn; [reflexivity|rewrite app_nil_r; reflexivity].
Qed.
Lemma NoDup_map_filter : forall A B (f : A -> B) (p : A -> bool) l, NoDup (map f l) -> NoDup (map f (filter p l)).
Proof.
  induction l as [|a l IH]; cbn; intro H; [constructor|].
  inversion H as [|? ? Ha H']; subst. destruct (p a); cbn; [|apply IH; exact H'].
  constructor; [|apply IH; exact H']. intro X. apply Ha. apply in_map_iff in X.
  destruct X as [y [E Hy]]. apply filter_In in Hy. apply in_map_iff. exists y. tauto.
Qed.
Lemma NoDup_map_inj : forall A B (f : A -> B) l x y, NoDup (map f l) -> In x l -> In y l -> f x = f y -> x = y.
Proof.
  induction l as [|a l IH]; intros x y H Hx Hy E; [destruct Hx|].
  cbn in H. inversion H as [|? ? Ha H']; subst.
  destruct Hx as [<-|Hx], Hy as [<-|Hy]; auto.
  - exfalso. apply Ha. rewrite E. apply in_map. exact Hy.
  - exfalso. apply Ha. rewrite <- E. apply in_map. exact Hx.
Qed.

Lemma NoDup_app_disj : forall A (l1 l2 : list A), NoDup l1 -> NoDup l2 -> (forall x, In x l1 -> ~ In x l2) -> NoDup (l1 ++ l2).
Proof.
  induction l1 as [|a l1 IH]; intros l2 N1 N2 D; cbn; [exact N2|]. inversion N1 as [|? ? Ha N1']; subst.
  constructor.
  - intro X. apply in_app_or in X. destruct X as [X|X]; [contradiction|]. apply (D a (or_introl eq_refl) X).
  - apply IH; auto. intros x Hx. apply D. right. exact Hx.
Qed.
Lemma NoDup_mid_fresh : forall A (P Q : list A) c, NoDup (P ++ c :: Q) -> ~ In c P.
Proof. intros A P Q c H X. apply NoDup_remove_2 in H. apply H. apply in_or_app. left. exact X. Qed.
Lemma existsb_map : forall A B (f : A -> B) (p : B -> bool) l, existsb p (map f l) = existsb (fun x => p (f x)) l.
Proof. induction l; cbn; [reflexivity|rewrite IHl; reflexivity]. Qed.
Lemma NoDup_map_on : forall A B (f : A -> B) l, NoDup l ->
  (forall x y, In x l -> In y l -> f x = f y -> x = y) -> NoDup (map f l).
Proof.
  induction l as [|a l IH]; intros ND Hinj; cbn; [constructor|].
  inversion ND as [|? ? Ha ND']; subst. constructor.
  - intro X. apply in_map_iff in X. destruct X as [y [E Hy]].
    assert (y = a) by (apply Hinj; [right; exact Hy|left; reflexivity|exact E]). subst. contradiction.
  - apply IH; [exact ND'|]. intros x y Hx Hy. apply Hinj; right; assumption.
Qed.
Lemma NoDup_of_map : forall A B (f : A -> B) l, NoDup (map f l) -> NoDup l.
Proof.
  induction l as [|a l IH]; cbn; intro H; [constructor|]. inversion H as [|? ? Ha H']; subst.
  constructor; [|apply IH; exact H']. intro X. apply Ha. apply in_map. exact X.
Qed.
Lemma nth_error_snoc : forall A (l : list A) x i y, nth_error (l ++ [x]) i = Some y ->
  (i < length l /\ nth_error l i = Some y) \/ (i = length l /\ y = x).
Proof.
  intros A l x i y H. destruct (Nat.lt_ge_cases i (length l)) as [L|L].
  - left. split; [exact L|]. rewrite nth_error_app1 in H by exact L. exact H.
  - right. rewrite nth_error_app2 in H by exact L. destruct (i - length l) as [|k] eqn:E.
    + cbn in H. inversion H. split; [lia|reflexivity].
    + cbn in H. destruct k; discriminate.
Qed.
Lemma NoDup_app_snoc : forall A (l : list A) x, NoDup l -> ~ In x l -> NoDup (l ++ [x]).
Proof.
  intros A l x ND Hx. apply NoDup_app_disj; [exact ND|repeat constructor; intros []|].
  intros y Hy [<-|[]]. contradiction.
Qed.

Lemma ordered_snoc : forall l r,
  ordered (l ++ [r]) = if g_ins r then r :: ordered l else ordered l ++ [r].
Proof.
  intros. unfold ordered. rewrite !filter_app. cbn. destruct (g_ins r); cbn.
  - rewrite rev_app_distr. cbn. rewrite app_nil_r. reflexivity.
  - rewrite app_nil_r, app_assoc. reflexivity.
Qed.
Lemma ordered_filter : forall p l, ordered (filter p l) = filter p (ordered l).
Proof.
  intros. unfold ordered. rewrite filter_app, filter_rev. f_equal; [f_equal|]; apply filter_comm.
Qed.
Lemma ordered_perm : forall l, Permutation (ordered l) l.
Proof.
  intro l. unfold ordered. eapply Permutation_trans.
  - apply Permutation_app_tail. symmetry. apply Permutation_rev.
  - induction l as [|a l IH]; cbn; [constructor|]. destruct (g_ins a); cbn.
    + constructor. exact IH.
    + eapply Permutation_trans; [apply Permutation_sym, Permutation_middle|]. constructor. exact IH.
Qed.
Lemma NoDup_map_ordered : forall B (f : reg -> B) l, NoDup (map f l) -> NoDup (map f (ordered l)).
Proof.
  intros B f l H. eapply Permutation_NoDup; [apply Permutation_map, Permutation_sym, ordered_perm|exact H].
Qed.
Lemma In_ordered : forall r l, In r (ordered l) <-> In r l.
Proof.
  intros. split; apply Permutation_in; [apply ordered_perm|apply Permutation_sym, ordered_perm].
Qed.
Lemma rel_cls_true : forall m c r, rel_cls m c r = true <-> exists t, g_tgt r = TCls t /\ (t = c \/ In t m).
Proof.
  intros. unfold rel_cls. destruct (g_tgt r) as [t|].
  - rewrite orb_true_iff, Nat.eqb_eq, memn_In. split; [eauto|intros [t' [E H]]; inversion E; subst; exact H].
  - split; [discriminate|intros [t [E _]]; discriminate].
Qed.
Lemma rel_cls_desc : forall cs t c r, g_tgt r = TCls t -> (rel_cls (mro cs c) c r = true <-> desc cs t c).
Proof.
  intros cs t c r Hr. rewrite rel_cls_true, Hr. unfold desc. split.
  - intros [t' [E H]]. inversion E. subst t'. destruct H; auto.
  - intros [->|H]; exists t; auto.
Qed.
Lemma not_key_true : forall k r, not_key k r = true <-> key_of r <> k.
Proof.
  intros. unfold not_key. rewrite negb_true_iff. destruct (key_eqb k (key_of r)) eqn:E.
  - apply key_eqb_eq in E. split; [discriminate|congruence].
  - split; [|reflexivity]. intros _ X. rewrite X, key_eqb_refl in E. discriminate.
Qed.

(* cls_regs, and inst_regs of EventsProofs, are [ordered (filter p log)] *)
Lemma In_ordered_filter : forall p log r, In r (ordered (filter p log)) <-> In r log /\ p r = true.
Proof. intros. rewrite In_ordered, filter_In. tauto. Qed.
Lemma ordered_filter_snoc_rel : forall p log r, p r = true ->
  map lfn_of (ordered (filter p (log ++ [r]))) = place (negb (g_ins r)) (lfn_of r) (map lfn_of (ordered (filter p log))).
Proof.
  intros p log r H. rewrite filter_app. cbn. rewrite H, ordered_snoc. unfold place.
  destruct (g_ins r); cbn; [reflexivity|rewrite map_app; reflexivity].
Qed.
Lemma ordered_filter_snoc_irr : forall p log r, p r = false ->
  ordered (filter p (log ++ [r])) = ordered (filter p log).
Proof. intros p log r H. rewrite filter_app. cbn. rewrite H, app_nil_r. reflexivity. Qed.
Lemma ordered_filter_del : forall p log k,
  ordered (filter p (filter (not_key k) log)) = filter (not_key k) (ordered (filter p log)).
Proof. intros. rewrite filter_comm. apply ordered_filter. Qed.

Lemma ordered_filter_del_irr : forall p log r, NoDup (map key_of log) -> In r log -> p r = false ->
  ordered (filter p (filter (not_key (key_of r)) log)) = ordered (filter p log).
Proof.
  intros p log r ND Hr Hp. rewrite ordered_filter_del. apply filter_all. intros y Hy. apply not_key_true. intro K.
  apply In_ordered_filter in Hy. destruct Hy as [Hy Py]. assert (y = r) by (eapply NoDup_map_inj; eauto). congruence.
Qed.

Lemma In_cls_regs : forall m c log r, In r (cls_regs m c log) <-> In r log /\ rel_cls m c r = true.
Proof. intros. apply In_ordered_filter. Qed.
Lemma cls_regs_snoc_rel : forall m c log r, rel_cls m c r = true ->
  map lfn_of (cls_regs m c (log ++ [r])) = place (negb (g_ins r)) (lfn_of r) (map lfn_of (cls_regs m c log)).
Proof. intros. apply ordered_filter_snoc_rel. assumption. Qed.
Lemma cls_regs_snoc_irr : forall m c log r, rel_cls m c r = false -> cls_regs m c (log ++ [r]) = cls_regs m c log.
Proof. intros. apply ordered_filter_snoc_irr. assumption. Qed.
Lemma cls_regs_del : forall m c log k, cls_regs m c (filter (not_key k) log) = filter (not_key k) (cls_regs m c log).
Proof. intros. apply ordered_filter_del. Qed.

(* deque.remove on a registration list *)
Lemma remove_first_regs : forall L r, NoDup (map ident_of L) -> NoDup (map key_of L) -> In r L ->
  remove_first (ident_of r) (map lfn_of L) = Some (map lfn_of (filter (not_key (key_of r)) L)).
Proof.
  induction L as [|a L IH]; intros r Hi Hk Hr; [destruct Hr|].
  change (map ident_of (a :: L)) with (ident_of a :: map ident_of L) in Hi.
  change (map key_of (a :: L)) with (key_of a :: map key_of L) in Hk.
  inversion Hi as [|? ? Hia Hi']; inversion Hk as [|? ? Hka Hk']; subst.
  cbn [map remove_first filter]. change (l_id (lfn_of a)) with (ident_of a).
  destruct (ident_eqb (ident_of r) (ident_of a)) eqn:E.
  - apply ident_eqb_eq in E. assert (r = a).
    { destruct Hr as [<-|Hr]; [reflexivity|]. exfalso. apply Hia. rewrite <- E. apply in_map. exact Hr. }
    subst a. unfold not_key at 1. rewrite key_eqb_refl. cbn. f_equal. f_equal. symmetry. apply filter_all.
    intros x Hx. apply not_key_true. intro K. apply Hka. rewrite <- K. apply in_map. exact Hx.
  - assert (Hne : a <> r) by (intro; subst; rewrite ident_eqb_refl in E; discriminate).
    destruct Hr as [Hr|Hr]; [contradiction|].
    assert (Kne : not_key (key_of r) a = true).
    { apply not_key_true. intro K. apply Hka. rewrite K. apply in_map. exact Hr. }
    rewrite Kne. rewrite (IH r Hi' Hk' Hr). reflexivity.
Qed.

Lemma mem_id_nil : forall x, mem_id x [] = false.
Proof. reflexivity. Qed.
Lemma mem_id_In : forall x l, In x l -> mem_id (l_id x) l = true.
Proof. intros. unfold mem_id. apply existsb_exists. exists x. split; [assumption|apply ident_eqb_refl]. Qed.

Lemma merge_pre : forall cs pre m acc, (forall q, In q pre -> lvl cs q = None) ->
  merge_mro cs (pre ++ m) acc = merge_mro cs m acc.
Proof.
  induction pre as [|p pre IH]; intros m acc H; cbn; [reflexivity|].
  rewrite (H p (or_introl eq_refl)). apply IH. intros; apply H; right; assumption.
Qed.
Lemma merge_none : forall cs m acc, (forall q, In q m -> lvl cs q = None) -> merge_mro cs m acc = acc.
Proof. intros cs m acc H. rewrite <- (app_nil_r m). apply (merge_pre cs m [] acc H). Qed.
Lemma merge_absorb : forall cs m acc,
  (forall q lq x, In q m -> lvl cs q = Some lq -> In x lq -> mem_id (l_id x) acc = true) ->
  merge_mro cs m acc = acc.
Proof.
  induction m as [|p m IH]; intros acc H; cbn; [reflexivity|].
  destruct (lvl cs p) as [lp|] eqn:E.
  - rewrite (filter_none _ _ lp), app_nil_r.
    + apply IH. intros q lq x Hq. apply H. right. exact Hq.
    + intros x Hx. apply negb_false_iff. apply (H p lp x (or_introl eq_refl) E Hx).
  - apply IH. intros q lq x Hq. apply H. right. exact Hq.
Qed.
Lemma first_in_lvl : forall cs m,
  (forall q, In q m -> lvl cs q = None) \/
  exists pre p rest lp, m = pre ++ p :: rest /\ (forall q, In q pre -> lvl cs q = None) /\ lvl cs p = Some lp.
Proof.
  induction m as [|a m IH]; [left; intros q []|].
  destruct (lvl cs a) as [la|] eqn:E.
  - right. exists [], a, m, la. split; [reflexivity|]. split; [intros q []|exact E].
  - destruct IH as [IH|[pre [p [rest [lp [E1 [E2 E3]]]]]]].
    + left. intros q [<-|Hq]; auto.
    + right. exists (a :: pre), p, rest, lp. split; [rewrite E1; reflexivity|]. split; [|exact E3].
      intros q [<-|Hq]; auto.
Qed.

Lemma rel_cls_anc : forall cs, single cs -> forall p q r, p < length cs -> In q (mro cs p) ->
  rel_cls (mro cs q) q r = true -> rel_cls (mro cs p) p r = true.
Proof.
  intros cs Hs p q r Hp Hq H. apply rel_cls_true in H. destruct H as [t [Et H]].
  apply rel_cls_true. exists t. split; [exact Et|]. right.
  destruct H as [->|H]; [exact Hq|eapply mro_trans; eauto].
Qed.

(* update_subclass of a class that is not in _clslevel yields the list prescribed by the log,
   provided the in-_clslevel ancestors are consistent with the log and every class-level target of
   the log among the class and its ancestors is in _clslevel *)
Lemma update_subclass_spec : forall cs log d, single cs -> d < length cs -> lvl cs d = None ->
  (forall q l, In q (mro cs d) -> lvl cs q = Some l -> l = cls_list cs log q) ->
  (forall r q, In r log -> g_tgt r = TCls q -> In q (d :: mro cs d) -> lvl cs q <> None) ->
  update_subclass cs d = set_lvl cs d (cls_list cs log d).
Proof.
  intros cs log d Hs Hd Hn Hcons Htgt. unfold update_subclass, lvl_list. rewrite Hn. f_equal. fold (mro cs d).
  destruct (first_in_lvl cs (mro cs d)) as [Hall|[pre [p [rest [lp [E [Hpre Hp]]]]]]].
  - rewrite merge_none by exact Hall. unfold cls_list, cls_regs.
    rewrite filter_none; [reflexivity|].
    intros r Hr. destruct (rel_cls (mro cs d) d r) eqn:X; [|reflexivity]. exfalso.
    apply rel_cls_true in X. destruct X as [t [Et [->|X]]].
    + apply (Htgt r d Hr Et (or_introl eq_refl)). exact Hn.
    + apply (Htgt r t Hr Et (or_intror X)). apply Hall. exact X.
  - pose proof (mro_suffix cs Hs d pre p rest Hd E) as Er.
    assert (Hpm : In p (mro cs d)) by (rewrite E; apply in_or_app; right; left; reflexivity).
    assert (Hpl : p < length cs) by (pose proof (mro_lt cs Hs d p Hd Hpm); lia).
    pose proof (Hcons p lp Hpm Hp) as Elp.
    rewrite E, merge_pre by exact Hpre. cbn [merge_mro]. rewrite Hp. cbn [app].
    rewrite (filter_all _ _ lp) by (intros; reflexivity).
    rewrite merge_absorb.
    +      rewrite Elp. unfold cls_list, cls_regs. f_equal. f_equal. apply filter_ext_in.
      intros r Hr. apply eq_true_iff_eq. split.
      * intro X. eapply rel_cls_anc; eauto.
      * (* a target among d and its ancestors is in _clslevel, hence is p or an ancestor of p *)
        intro Y. apply rel_cls_true in Y. destruct Y as [t [Et Y]]. apply rel_cls_true. exists t. split; [exact Et|].
        destruct Y as [->|Y]; [destruct (Htgt r d Hr Et (or_introl eq_refl) Hn)|].
        pose proof (Htgt r t Hr Et (or_intror Y)) as Z. rewrite E in Y. apply in_app_or in Y. destruct Y as [Y|[Y|Y]].
        -- exfalso. apply Z. apply Hpre. exact Y.
        -- left. auto.
        -- right. rewrite <- Er. exact Y.
    + intros q lq x Hq Hlq Hx. rewrite Er in Hq.
      assert (Hqd : In q (mro cs d)) by (eapply mro_trans; eauto).
      rewrite (Hcons q lq Hqd Hlq) in Hx. rewrite Elp.
      unfold cls_list in *. apply in_map_iff in Hx. destruct Hx as [r [<- Hr]].
      apply mem_id_In. apply in_map. apply In_cls_regs in Hr. apply In_cls_regs. split; [tauto|].
      eapply rel_cls_anc; eauto. tauto.
Qed.

Definition same_hier (a b : list cls_rec) : Prop :=
  length a = length b /\ forall c, c_bases (get_cls a c) = c_bases (get_cls b c) /\ mro a c = mro b c.
Lemma same_hier_refl : forall a, same_hier a a.
Proof. intro a. split; auto. Qed.
Lemma same_hier_set_lvl : forall a b c l, same_hier a b -> same_hier (set_lvl a c l) b.
Proof.
  intros a b c l [H1 H2]. split; [rewrite set_lvl_length; exact H1|].
  intro d. unfold mro. rewrite bases_set_lvl, mro_set_lvl. apply H2.
Qed.
Lemma same_hier_single : forall a b, same_hier a b -> single b -> single a.
Proof.
  intros a b [H1 H2] Hs c Hc. rewrite H1 in Hc. destruct (Hs c Hc) as [[E1 E2]|[p [Hp [E1 E2]]]].
  - left. destruct (H2 c) as [-> ->]. auto.
  - right. exists p. destruct (H2 c) as [-> ->]. destruct (H2 p) as [_ ->]. auto.
Qed.
Lemma cls_list_mro : forall a b log c, mro a c = mro b c -> cls_list a log c = cls_list b log c.
Proof. intros. unfold cls_list. rewrite H. reflexivity. Qed.
Lemma same_hier_cls_list : forall a b log c, same_hier a b -> cls_list a log c = cls_list b log c.
Proof. intros a b log c [_ H]. apply cls_list_mro, H. Qed.
Lemma same_hier_subclasses : forall a b p, same_hier a b -> subclasses a p = subclasses b p.
Proof.
  intros a b p [H1 H2]. unfold subclasses. rewrite H1. apply filter_ext. intro c. destruct (H2 c) as [-> _]. reflexivity.
Qed.

(* A walk over the classes W rewrites the entry of one class after the other.  [walked cs F P csP]:
   csP is the table after the classes P have been visited - their entries are what F prescribes, the
   others are still those of cs, and the hierarchy is that of cs. *)
Definition walked (cs : list cls_rec) (F : nat -> option (list lfn)) (P : list nat) (csP : list cls_rec) : Prop :=
  same_hier csP cs /\ (forall c, In c P -> lvl csP c = F c) /\ (forall c, ~ In c P -> lvl csP c = lvl cs c).
Lemma walked_nil : forall cs F, walked cs F [] cs.
Proof. intros. split; [apply same_hier_refl|]. split; [intros c []|reflexivity]. Qed.
Lemma walked_skip : forall cs F P c csP, walked cs F P csP -> ~ In c P -> lvl cs c = F c -> walked cs F (P ++ [c]) csP.
Proof.
  intros cs F P c csP (SH & HP & HnP) HcP E. split; [exact SH|]. split.
  - intros d Hd. apply in_app_or in Hd. destruct Hd as [Hd|[<-|[]]]; [apply HP; exact Hd|]. rewrite HnP by exact HcP. exact E.
  - intros d Hd. apply HnP. intro X. apply Hd. apply in_or_app. left. exact X.
Qed.
Lemma walked_set : forall cs F P c l csP, walked cs F P csP -> ~ In c P -> c < length cs -> F c = Some l ->
  walked cs F (P ++ [c]) (set_lvl csP c l).
Proof.
  intros cs F P c l csP (SH & HP & HnP) HcP Hc E. split; [apply same_hier_set_lvl; exact SH|]. split.
  - intros d Hd. apply in_app_or in Hd. destruct Hd as [Hd|[<-|[]]].
    + rewrite lvl_set_lvl_neq by (intro; subst; contradiction). apply HP. exact Hd.
    + rewrite E. apply lvl_set_lvl_eq. destruct SH as [-> _]. exact Hc.
  - intros d Hd. assert (c <> d) by (intro; subst; apply Hd; apply in_or_app; right; left; reflexivity).
    rewrite lvl_set_lvl_neq by assumption. apply HnP. intro X. apply Hd. apply in_or_app. left. exact X.
Qed.

(* _do_insert_or_append *)
Section Insert.
Variable cs : list cls_rec.
Variable log : list reg.
Variable r : reg.
Variable t : nat.
Variable W : list nat.
Hypothesis Hs : single cs.
Hypothesis Ht : t < length cs.
Hypothesis Hr : g_tgt r = TCls t.
Hypothesis Hcons : forall c l, c < length cs -> lvl cs c = Some l -> l = cls_list cs log c.
Hypothesis Htgt : forall r' q, In r' log -> g_tgt r' = TCls q -> q < length cs /\ lvl cs q <> None.
Hypothesis WND : NoDup W.
Hypothesis Wdesc : forall d, In d W <-> d < length cs /\ desc cs t d.
Hypothesis Word : forall pre d post, W = pre ++ d :: post -> d <> t -> exists p, In p pre /\ mro cs d = p :: mro cs p.

Let log' := log ++ [r].
Let x := lfn_of r.
Let app := negb (g_ins r).

Lemma cls_list_new_desc : forall c, desc cs t c -> cls_list cs log' c = place app x (cls_list cs log c).
Proof. intros c H. unfold cls_list, log'. apply cls_regs_snoc_rel. apply (rel_cls_desc cs t c r Hr). exact H. Qed.
Lemma cls_list_new_other : forall c, ~ desc cs t c -> cls_list cs log' c = cls_list cs log c.
Proof.
  intros c H. unfold cls_list, log'. rewrite cls_regs_snoc_irr; [reflexivity|].
  destruct (rel_cls (mro cs c) c r) eqn:E; [|reflexivity]. exfalso. apply H. apply (rel_cls_desc cs t c r Hr). exact E.
Qed.

Lemma anc_not_desc : forall q, In q (mro cs t) -> ~ desc cs t q.
Proof.
  intros q Hq Hd. pose proof (mro_lt cs Hs t q Ht Hq) as H1.
  assert (q < length cs) by lia. pose proof (desc_lt cs Hs t q H Hd). lia.
Qed.

Lemma closure : forall n pre d post, length pre < n -> W = pre ++ d :: post ->
  forall q, In q (mro cs d) -> desc cs t q -> In q pre.
Proof.
  induction n as [|n IH]; intros pre d post Hn HW q Hq Hd; [lia|].
  destruct (Nat.eq_dec d t) as [->|Hne]; [exfalso; eapply anc_not_desc; eauto|].
  destruct (Word pre d post HW Hne) as [p [Hp Em]]. rewrite Em in Hq.
  destruct Hq as [<-|Hq]; [exact Hp|].
  destruct (in_split _ _ Hp) as [pre' [post' Epre]].
  assert (HW' : W = pre' ++ p :: (post' ++ d :: post)) by (rewrite HW, Epre, <- app_assoc; reflexivity).
  assert (Hl : length pre' < n) by (rewrite Epre, app_length in Hn; cbn in Hn; lia).
  pose proof (IH pre' p _ Hl HW' q Hq Hd) as X. rewrite Epre. apply in_or_app. left. exact X.
Qed.

Definition mid : list nat -> list cls_rec -> Prop := walked cs (fun c => Some (cls_list cs log' c)).

Lemma ins_step_mid : forall P c Q csP, W = P ++ c :: Q -> mid P csP ->
  mid (P ++ [c]) (ins_step t app x csP c).
Proof.
  intros P c Q csP HW (SH & HP & HnP).
  assert (HcW : In c W) by (rewrite HW; apply in_or_app; right; left; reflexivity).
  destruct (proj1 (Wdesc c) HcW) as [Hcl Hcd].
  assert (HcP : ~ In c P) by (rewrite HW in WND; eapply NoDup_mid_fresh; exact WND).
  assert (HsP : single csP) by (eapply same_hier_single; eauto).
  assert (HlP : length csP = length cs) by (destruct SH; assumption).
  assert (Hmro : forall d, mro csP d = mro cs d) by (intro d; destruct SH as [_ H]; apply H).
  assert (PW : forall q, In q P -> q < length cs /\ desc cs t q).
  { intros q Hq. apply Wdesc. rewrite HW. apply in_or_app. left. exact Hq. }
  (* the result of the step, in every case: class c gets the new list, nothing else changes *)
  assert (Step : ins_step t app x csP c = set_lvl csP c (cls_list cs log' c)).
  { unfold ins_step. destruct (Nat.eqb_spec c t) as [->|Hne]; cbn [negb andb].
    - (* the target itself *)
      rewrite (cls_list_new_desc t Hcd).
      assert (Hlt : lvl csP t = lvl cs t) by (apply HnP; exact HcP).
      unfold in_lvl. destruct (lvl csP t) as [l|] eqn:El.
      + unfold lvl_list. rewrite El. rewrite (Hcons t l Ht (eq_trans (eq_sym Hlt) eq_refl)). reflexivity.
      + rewrite (update_subclass_spec csP log t HsP); try (rewrite HlP; exact Ht); try exact El.
        * unfold lvl_list. rewrite lvl_set_lvl_eq by (rewrite HlP; exact Ht).
          rewrite (same_hier_cls_list csP cs log t SH).
          unfold set_lvl, get_cls. rewrite nth_set_nth_eq by (rewrite HlP; exact Ht). cbn.
          rewrite set_nth_set_nth. reflexivity.
        * intros q l Hq Hl. rewrite Hmro in Hq. rewrite (same_hier_cls_list csP cs log q SH).
          assert (~ In q P) by (intro X; apply (anc_not_desc q Hq); apply PW; exact X).
          rewrite HnP in Hl by assumption. apply Hcons; [|exact Hl].
          pose proof (mro_lt cs Hs t q Ht Hq). lia.
        * intros r' q Hr' Et Hq. rewrite Hmro in Hq. destruct (Htgt r' q Hr' Et) as [_ Hne].
          assert (~ In q P).
          { intro X. destruct Hq as [<-|Hq]; [contradiction|]. apply (anc_not_desc q Hq). apply PW. exact X. }
          rewrite HnP by assumption. exact Hne.
    - (* a proper descendant *)
      assert (Clo : forall q, In q (mro cs c) -> desc cs t q -> In q P).
      { intros q Hq Hd. eapply (closure (S (length P)) P c Q); eauto. }
      assert (HtP : In t P).
      { destruct Hcd as [->|Hcd]; [congruence|]. apply Clo; [exact Hcd|left; reflexivity]. }
      unfold in_lvl. destruct (lvl csP c) as [l|] eqn:El; cbn [negb andb].
      + assert (Hlc : lvl cs c = Some l) by (rewrite <- HnP by exact HcP; exact El).
        unfold lvl_list. rewrite El. rewrite (cls_list_new_desc c Hcd), (Hcons c l Hcl Hlc). reflexivity.
      + rewrite (update_subclass_spec csP log' c HsP); try (rewrite HlP; exact Hcl); try exact El.
        * rewrite (same_hier_cls_list csP cs log' c SH). reflexivity.
        * intros q l Hq Hl. rewrite Hmro in Hq. rewrite (same_hier_cls_list csP cs log' q SH).
          destruct (in_dec Nat.eq_dec q P) as [HqP|HqP].
          -- rewrite HP in Hl by exact HqP. congruence.
          -- rewrite HnP in Hl by exact HqP.
             rewrite cls_list_new_other by (intro X; apply HqP; apply Clo; assumption).
             apply Hcons; [|exact Hl]. pose proof (mro_lt cs Hs c q Hcl Hq). lia.
        * intros r' q Hr' Et Hq. rewrite Hmro in Hq. unfold log' in Hr'. apply in_app_or in Hr'.
          destruct Hr' as [Hr'|[<-|[]]].
          -- destruct (Htgt r' q Hr' Et) as [_ Hne'].
             destruct (in_dec Nat.eq_dec q P) as [HqP|HqP]; [rewrite HP by exact HqP; discriminate|].
             rewrite HnP by exact HqP. exact Hne'.
          -- rewrite Hr in Et. inversion Et. subst q. rewrite HP by exact HtP. discriminate. }
  rewrite Step. apply walked_set; [exact (conj SH (conj HP HnP))|exact HcP|exact Hcl|reflexivity].
Qed.

Lemma fold_mid : forall Q P csP, W = P ++ Q -> mid P csP -> mid W (fold_left (ins_step t app x) Q csP).
Proof.
  induction Q as [|c Q IH]; intros P csP HW HM; cbn [fold_left].
  - rewrite app_nil_r in HW. subst P. exact HM.
  - apply (IH (P ++ [c])).
    + rewrite <- app_assoc. exact HW.
    + eapply ins_step_mid; eauto.
Qed.

Lemma do_insert_mid : mid W (fold_left (ins_step t app x) W cs).
Proof.
  apply (fold_mid W [] cs); [reflexivity|apply walked_nil].
Qed.
End Insert.

(* _ClsLevelDispatch.remove *)
Section Remove.
Variable cs : list cls_rec.
Variable log : list reg.
Variable r : reg.
Variable t : nat.
Variable W : list nat.
Hypothesis Hs : single cs.
Hypothesis Ht : t < length cs.
Hypothesis Hr : g_tgt r = TCls t.
Hypothesis Hin : In r log.
Hypothesis Hkeys : NoDup (map key_of log).
Hypothesis Hids : forall c, c < length cs -> NoDup (map ident_of (cls_regs (mro cs c) c log)).
Hypothesis Hcons : forall c l, c < length cs -> lvl cs c = Some l -> l = cls_list cs log c.
Hypothesis WND : NoDup W.
Hypothesis Wdesc : forall d, In d W <-> d < length cs /\ desc cs t d.

Let log' := filter (not_key (key_of r)) log.

Definition rmid : list nat -> list cls_rec -> Prop :=
  walked cs (fun c => option_map (fun _ => cls_list cs log' c) (lvl cs c)).

Lemma keys_regs_nodup : forall c, NoDup (map key_of (cls_regs (mro cs c) c log)).
Proof.
  intro c. unfold cls_regs. apply NoDup_map_ordered, NoDup_map_filter. exact Hkeys.
Qed.

Lemma remove_walk_mid : forall Q P csP, W = P ++ Q -> rmid P csP ->
  exists cs', remove_walk csP Q (ident_of r) = (cs', true) /\ rmid W cs'.
Proof.
  induction Q as [|c Q IH]; intros P csP HW HM; cbn [remove_walk].
  - rewrite app_nil_r in HW. subst P. exists csP. auto.
  - assert (HcW : In c W) by (rewrite HW; apply in_or_app; right; left; reflexivity).
    destruct (proj1 (Wdesc c) HcW) as [Hcl Hcd].
    assert (HcP : ~ In c P) by (rewrite HW in WND; eapply NoDup_mid_fresh; exact WND).
    rewrite (proj2 (proj2 HM) c HcP).
    assert (HW' : W = (P ++ [c]) ++ Q) by (rewrite <- app_assoc; exact HW).
    destruct (lvl cs c) as [l|] eqn:El.
    + rewrite (Hcons c l Hcl El). unfold cls_list.
      assert (Hrel : In r (cls_regs (mro cs c) c log)).
      { apply In_cls_regs. split; [exact Hin|]. apply (rel_cls_desc cs t c r Hr). exact Hcd. }
      rewrite (remove_first_regs _ r (Hids c Hcl) (keys_regs_nodup c) Hrel).
      apply (IH (P ++ [c]) _ HW'). apply walked_set; auto.
      rewrite El. unfold cls_list, log'. rewrite cls_regs_del. reflexivity.
    + apply (IH (P ++ [c]) _ HW'). apply walked_skip; auto. rewrite El. reflexivity.
Qed.

Lemma remove_walk_spec : exists cs', remove_walk cs W (ident_of r) = (cs', true) /\ rmid W cs'.
Proof.
  apply (remove_walk_mid W [] cs); [reflexivity|apply walked_nil].
Qed.

Lemma cls_list_del_other : forall c, ~ desc cs t c -> cls_list cs log' c = cls_list cs log c.
Proof.
  intros c Hc. unfold cls_list, log', cls_regs. rewrite ordered_filter_del_irr; auto.
  destruct (rel_cls (mro cs c) c r) eqn:E; [|reflexivity]. destruct Hc. apply (rel_cls_desc cs t c r Hr). exact E.
Qed.
End Remove.
