(* C28: the forward and the reverse registry map agree, and every listener of every collection is
   known to the registry, after every operation of every guarded propagation history. *)
From Coq Require Import List Arith Bool Lia.
Import ListNotations.
From SAV.event Require Import Events EventsWalk EventsColl EventsProofs EventsProp.

Lemma pkey_eqb_eq : forall a b : pkey, pkey_eqb a b = true <-> a = b.
Proof.
  intros [a1 a2] [b1 b2]. unfold pkey_eqb. cbn. rewrite andb_true_iff, !Nat.eqb_eq.
  split; [intros [-> ->]; reflexivity|intro H; inversion H; auto].
Qed.
Lemma pkey_eqb_refl : forall a, pkey_eqb a a = true.
Proof. intro. apply pkey_eqb_eq. reflexivity. Qed.
Lemma pkey_eqb_neq : forall a b : pkey, pkey_eqb a b = false <-> a <> b.
Proof. intros a b. apply false_iff_not, pkey_eqb_eq. Qed.
Lemma mem_ident_In : forall a l, mem_ident a l = true <-> In a l.
Proof.
  intros. unfold mem_ident. rewrite existsb_exists. split.
  - intros [b [Hb E]]. apply ident_eqb_eq in E. subst. exact Hb.
  - intro H. exists a. split; [exact H|apply ident_eqb_refl].
Qed.
Lemma mem_ident_false : forall a l, mem_ident a l = false <-> ~ In a l.
Proof. intros a l. apply false_iff_not, mem_ident_In. Qed.
Lemma mem_id_In' : forall a l, mem_id a l = true <-> In a (map l_id l).
Proof.
  intros. unfold mem_id. rewrite existsb_exists, in_map_iff. split.
  - intros [y [Hy E]]. apply ident_eqb_eq in E. exists y. auto.
  - intros [y [E Hy]]. exists y. split; [exact Hy|]. apply ident_eqb_eq. auto.
Qed.

Lemma fwd_has_true : forall k o m, fwd_has k o m = true <-> exists a, In (k, o, a) m.
Proof.
  intros. unfold fwd_has. rewrite existsb_exists. split.
  - intros [[[k' o'] a] [H E]]. cbn in E. apply andb_true_iff in E. destruct E as [E1 E2].
    apply pkey_eqb_eq in E1. apply Nat.eqb_eq in E2. subst. exists a. exact H.
  - intros [a H]. exists (k, o, a). split; [exact H|]. cbn. rewrite pkey_eqb_refl, Nat.eqb_refl. reflexivity.
Qed.
Lemma fwd_has_false : forall k o m, fwd_has k o m = false <-> forall a, ~ In (k, o, a) m.
Proof.
  intros. destruct (fwd_has k o m) eqn:E; split; intro H; try discriminate; try reflexivity.
  - apply fwd_has_true in E. destruct E as [a Ha]. exfalso. eapply H; eauto.
  - intros a Ha. assert (fwd_has k o m = true) by (apply fwd_has_true; eauto). congruence.
Qed.
Lemma fwd_has_key_true : forall k m, fwd_has_key k m = true <-> exists o a, In (k, o, a) m.
Proof.
  intros. unfold fwd_has_key. rewrite existsb_exists. split.
  - intros [[[k' o'] a] [H E]]. cbn in E. apply pkey_eqb_eq in E. subst. eauto.
  - intros [o [a H]]. exists (k, o, a). split; [exact H|]. cbn. apply pkey_eqb_refl.
Qed.
Lemma In_fwd_of_key : forall k o a m, In (o, a) (fwd_of_key k m) <-> In (k, o, a) m.
Proof.
  intros. unfold fwd_of_key. rewrite in_map_iff. split.
  - intros [[[k' o'] a'] [E H]]. apply filter_In in H. destruct H as [H1 H2]. cbn in *.
    apply pkey_eqb_eq in H2. inversion E. subst. exact H1.
  - intro H. exists (k, o, a). split; [reflexivity|]. apply filter_In. split; [exact H|]. cbn. apply pkey_eqb_refl.
Qed.
Lemma In_fwd_del_key : forall k k' o a m, In (k', o, a) (fwd_del_key k m) <-> In (k', o, a) m /\ k' <> k.
Proof.
  intros. unfold fwd_del_key. rewrite filter_In. cbn. rewrite negb_true_iff, pkey_eqb_neq.
  split; intros [A B]; split; auto.
Qed.

Lemma rev_is_true : forall o a e, rev_is o a e = true <-> fst e = (o, a).
Proof.
  intros o a [[o' a'] k]. unfold rev_is. cbn. rewrite andb_true_iff, Nat.eqb_eq, ident_eqb_eq.
  split; [intros [-> ->]; reflexivity|intro H; inversion H; auto].
Qed.
Lemma In_rev_del : forall o a e m, In e (rev_del o a m) <-> In e m /\ fst e <> (o, a).
Proof.
  intros. unfold rev_del. rewrite filter_In, negb_true_iff. split; intros [A B]; split; auto.
  - intro X. apply rev_is_true in X. congruence.
  - destruct (rev_is o a e) eqn:E; [|reflexivity]. apply rev_is_true in E. contradiction.
Qed.
Lemma rev_lookup_In : forall o a k m, NoDup (map fst m) -> (rev_lookup o a m = Some k <-> In (o, a, k) m).
Proof.
  induction m as [|e m IH]; intro ND; cbn; [split; [discriminate|intros []]|].
  inversion ND as [|? ? Hn ND']; subst. destruct (rev_is o a e) eqn:E.
  - apply rev_is_true in E. split.
    + intro H. inversion H. left. destruct e as [oa k']. cbn in *. subst. reflexivity.
    + intros [Heq|H]; [subst e; reflexivity|]. exfalso. apply Hn. rewrite E. change (o, a) with (fst (o, a, k)).
      apply in_map. exact H.
  - rewrite (IH ND'). split; [intro H; right; exact H|].
    intros [Heq|H]; [|exact H]. subst e. unfold rev_is in E. cbn in E. rewrite Nat.eqb_refl, ident_eqb_refl in E. discriminate.
Qed.
Lemma rev_lookup_other : forall o a o' a' k m, o <> o' -> rev_lookup o a (rev_set o' a' k m) = rev_lookup o a m.
Proof.
  intros. unfold rev_set. cbn. unfold rev_is at 1. cbn.
  destruct (Nat.eqb_spec o o'); [contradiction|]. cbn.
  unfold rev_del. induction m as [|e m IH]; cbn; [reflexivity|].
  destruct (rev_is o' a' e) eqn:E; cbn.
  - rewrite IH. destruct (rev_is o a e) eqn:E2; [|reflexivity].
    apply rev_is_true in E. apply rev_is_true in E2. rewrite E in E2. inversion E2. congruence.
  - rewrite IH. reflexivity.
Qed.
Lemma rev_set_nodup : forall o a k m, NoDup (map fst m) -> NoDup (map fst (rev_set o a k m)).
Proof.
  intros. unfold rev_set. cbn. constructor.
  - intro X. apply in_map_iff in X. destruct X as [e [E He]]. apply In_rev_del in He. destruct He. congruence.
  - unfold rev_del. apply NoDup_map_filter. exact H.
Qed.
Lemma In_rev_set : forall o a k e m, In e (rev_set o a k m) <-> e = (o, a, k) \/ (In e m /\ fst e <> (o, a)).
Proof. intros. unfold rev_set. cbn. rewrite In_rev_del. intuition. Qed.

Lemma In_set_add : forall a b s, In b (set_add a s) <-> b = a \/ In b s.
Proof.
  intros. unfold set_add. destruct (mem_ident a s) eqn:E; cbn; [|intuition].
  apply mem_ident_In in E. split; [auto|intros [->|H]; auto].
Qed.
Lemma In_set_union : forall t s b, In b (set_union s t) <-> In b s \/ In b t.
Proof.
  induction t as [|a t IH]; intros s b; cbn; [tauto|]. rewrite IH, In_set_add. intuition.
Qed.
Lemma In_set_discard : forall a b s, In b (set_discard a s) <-> In b s /\ b <> a.
Proof.
  intros. unfold set_discard. rewrite filter_In, negb_true_iff, ident_eqb_neq. intuition.
Qed.
Lemma In_dedup : forall l a, In a (dedup l) <-> In a l.
Proof.
  induction l as [|b l IH]; intro a; cbn; [tauto|]. destruct (mem_ident b l) eqn:E.
  - rewrite IH. apply mem_ident_In in E. split; [auto|intros [<-|H]; auto].
  - cbn. rewrite IH. tauto.
Qed.
Lemma NoDup_dedup : forall l, NoDup (dedup l).
Proof.
  induction l as [|b l IH]; cbn; [constructor|]. destruct (mem_ident b l) eqn:E; [exact IH|].
  constructor; [|exact IH]. rewrite In_dedup. apply mem_ident_false. exact E.
Qed.

(* deque.remove on a list without repeated function objects *)
Lemma remove_first_nodup : forall a l, NoDup (map l_id l) -> In a (map l_id l) ->
  exists l', remove_first a l = Some l' /\ NoDup (map l_id l') /\
             forall b, In b (map l_id l') <-> In b (map l_id l) /\ b <> a.
Proof.
  induction l as [|y l IH]; intros ND Hin; [destruct Hin|]. cbn in ND. inversion ND as [|? ? Hy ND']; subst.
  cbn [remove_first]. destruct (ident_eqb a (l_id y)) eqn:E.
  - apply ident_eqb_eq in E. subst a. exists l. split; [reflexivity|]. split; [exact ND'|].
    intro b. cbn. split; [intro H; split; [right; exact H|intro; subst; contradiction]|].
    intros [[<-|H] N]; [contradiction|exact H].
  - apply ident_eqb_neq in E. destruct Hin as [Hin|Hin]; [congruence|].
    destruct (IH ND' Hin) as [l' [E1 [E2 E3]]]. rewrite E1. exists (y :: l'). split; [reflexivity|]. split.
    + cbn. constructor; [|exact E2]. intro X. apply E3 in X. tauto.
    + intro b. cbn. rewrite E3. split; [intros [<-|[H N]]; auto|intros [[<-|H] N]; auto].
Qed.

Definition fko (e : pkey * nat * ident) : pkey * nat := (fst (fst e), snd (fst e)).

Record PInv (st : pstate) : Prop := {
  q_coll : forall j c, get_coll st j = Some c -> NoDup (idents c) /\ (forall a, In a (c_p c) -> In a (idents c));
  (* every listener of every collection is registered for that collection, and conversely *)
  q_reg : forall j c a, get_coll st j = Some c -> (In a (idents c) <-> exists k, In (k, j, a) (p_fwd st));
  q_own : forall k o a, In (k, o, a) (p_fwd st) -> exists c, get_coll st o = Some c;
  (* a key has one entry per owner *)
  q_ko : NoDup (map fko (p_fwd st));
  (* the forward and the reverse map hold the same associations *)
  q_agree : forall k o a, In (k, o, a) (p_fwd st) <-> In (o, a, k) (p_rev st);
  (* an owner knows one key per function object *)
  q_revf : NoDup (map fst (p_rev st));
  (* wrapper closures are numbered below the counter; a key stands for one function object, registered for its own target *)
  q_fresh : forall k o w, In (k, o, IdW w) (p_fwd st) -> w < p_next st;
  q_same : forall k o o' a a', In (k, o, a) (p_fwd st) -> In (k, o', a') (p_fwd st) -> a = a';
  q_orig : forall k o a, In (k, o, a) (p_fwd st) -> In (k, fst k, a) (p_fwd st) }.

Lemma owner_ident_key : forall st, PInv st -> forall k k' o a, In (k, o, a) (p_fwd st) -> In (k', o, a) (p_fwd st) -> k = k'.
Proof.
  intros st I k k' o a H1 H2. apply (q_agree _ I) in H1. apply (q_agree _ I) in H2.
  pose proof (NoDup_map_inj _ _ fst _ _ _ (q_revf _ I) H1 H2 eq_refl) as E. inversion E. reflexivity.
Qed.

Lemma get_coll_init : forall j, get_coll pinit j = None.
Proof. intro j. unfold get_coll. cbn. destruct j; reflexivity. Qed.
Lemma PInv_init : PInv pinit.
Proof.
  constructor.
  - intros j c H. rewrite get_coll_init in H. discriminate.
  - intros j c a H. rewrite get_coll_init in H. discriminate.
  - intros k o a H. destruct H.
  - constructor.
  - intros k o a. cbn. tauto.
  - constructor.
  - intros k o w H. destruct H.
  - intros k o o' a a' H. destruct H.
  - intros k o a H. destruct H.
Qed.

Definition internal (o : pout) : bool :=
  match o with POut x => match x with OValueError | OFuel | OUnreach => true | _ => false end | PMaps _ _ => false end.

Lemma get_coll_set_eq : forall st insts' i c, nth_error (p_insts st) i <> None ->
  insts' = set_nth (p_insts st) i (Some c) ->
  forall st', p_insts st' = insts' -> get_coll st' i = Some c.
Proof.
  intros st insts' i c Hi E st' E'. unfold get_coll. rewrite E', E, nth_error_set_nth_eq; [reflexivity|].
  apply nth_error_Some. exact Hi.
Qed.
Lemma get_coll_set_neq : forall st i x j st', p_insts st' = set_nth (p_insts st) i x -> i <> j ->
  get_coll st' j = get_coll st j.
Proof. intros. unfold get_coll. rewrite H, nth_error_set_nth_neq by assumption. reflexivity. Qed.

Lemma idents_place : forall b x l a, In a (map l_id (place b x l)) <-> a = l_id x \/ In a (map l_id l).
Proof.
  intros. unfold place. destruct b; cbn.
  - rewrite map_app, in_app_iff. cbn. intuition.
  - intuition.
Qed.
Lemma nodup_place : forall b x l, NoDup (map l_id l) -> ~ In (l_id x) (map l_id l) -> NoDup (map l_id (place b x l)).
Proof.
  intros. unfold place. destruct b; cbn.
  - rewrite map_app. cbn. apply NoDup_app_snoc; assumption.
  - constructor; assumption.
Qed.

(* facts about "the collection of instance i after for_modify" *)
Lemma promoted_facts : forall st i oc, PInv st -> nth_error (p_insts st) i = Some oc ->
  let c := promoted oc in
  (NoDup (idents c) /\ (forall b, In b (c_p c) -> In b (idents c))) /\
  (forall b, In b (idents c) <-> exists k, In (k, i, b) (p_fwd st)).
Proof.
  intros st i oc I Ei c. destruct oc as [c0|].
  - assert (G : get_coll st i = Some c0) by (unfold get_coll; rewrite Ei; reflexivity).
    split; [apply (q_coll _ I i c0 G)|intro b; apply (q_reg _ I i c0 b G)].
  - split; [cbn; split; [constructor|intros b []]|]. intro b. cbn. split; [intros []|].
    intros [k H]. destruct (q_own _ I _ _ _ H) as [c0 Hc]. unfold get_coll in Hc. rewrite Ei in Hc. discriminate.
Qed.

Lemma PInv_ext : forall st st', PInv st -> (forall j, get_coll st' j = get_coll st j) ->
  p_fwd st' = p_fwd st -> p_rev st' = p_rev st -> p_next st <= p_next st' -> PInv st'.
Proof.
  intros st st' I G F R N. constructor; rewrite ?F, ?R.
  - intros j c H. rewrite G in H. apply (q_coll _ I j c H).
  - intros j c a H. rewrite G in H. apply (q_reg _ I j c a H).
  - intros k o a H. rewrite G. apply (q_own _ I k o a H).
  - apply (q_ko _ I).
  - apply (q_agree _ I).
  - apply (q_revf _ I).
  - intros k o w H. pose proof (q_fresh _ I k o w H). lia.
  - apply (q_same _ I).
  - apply (q_orig _ I).
Qed.

(* Collection j receives the function objects [els], none of which it holds, the one of a under the key
   [kf a]: a key registered for a alone, and either new with target j or already registered for its
   target.  The forward map grows by these associations, the reverse map accordingly. *)
Lemma PInv_add : forall st st' j ocj cj' els kf,
  PInv st -> nth_error (p_insts st) j = Some ocj ->
  p_insts st' = set_nth (p_insts st) j (Some cj') ->
  p_fwd st' = p_fwd st ++ map (fun a => (kf a, j, a)) els ->
  (forall e, In e (p_rev st') <-> (In e (p_rev st) /\ ~ (fst (fst e) = j /\ In (snd (fst e)) els)) \/
                                  (exists a, In a els /\ e = (j, a, kf a))) ->
  NoDup (map fst (p_rev st')) -> p_next st <= p_next st' ->
  NoDup (idents cj') -> (forall b, In b (c_p cj') -> In b (idents cj')) ->
  (forall b, In b (idents cj') <-> In b (idents (promoted ocj)) \/ In b els) ->
  (forall a, In a els -> ~ In a (idents (promoted ocj))) ->
  NoDup (map kf els) ->
  (forall a o b, In a els -> In (kf a, o, b) (p_fwd st) -> b = a) ->
  (forall a, In a els -> In (kf a, fst (kf a), a) (p_fwd st) \/ fst (kf a) = j) ->
  (forall a w, In a els -> a = IdW w -> w < p_next st') ->
  PInv st'.
Proof.
  intros st st' j ocj cj' els kf I Ej Hins Hfwd C D Hn Jnd Jp Ij Dj Kinj Hsame Horig Hfresh.
  destruct (promoted_facts st j ocj I Ej) as [_ Jr]. set (cj := promoted ocj) in *.
  assert (Gj : get_coll st' j = Some cj') by (eapply (get_coll_set_eq st); [congruence|reflexivity|exact Hins]).
  pose proof (fun o => get_coll_set_neq st j _ o st' Hins) as Go.
  set (N := map (fun a => (kf a, j, a)) els) in *.
  assert (InN : forall k o a, In (k, o, a) N <-> o = j /\ In a els /\ k = kf a).
  { intros k o a. unfold N. rewrite in_map_iff. split.
    - intros [a' [X Y]]. inversion X. subst. auto.
    - intros [-> [Y ->]]. exists a. auto. }
  assert (Knew : forall a, In a els -> forall b, ~ In (kf a, j, b) (p_fwd st)).
  { intros a Ha b X. assert (b = a) by (eapply Hsame; eauto). subst b. apply (Dj a Ha). apply Jr. eauto. }
  constructor; rewrite ?Hfwd.
  - intros o c0 H. destruct (Nat.eq_dec j o) as [<-|Nq]; [|rewrite Go in H by exact Nq; apply (q_coll _ I o c0 H)].
    rewrite Gj in H. inversion H. subst c0. auto.
  - intros o c0 b H. destruct (Nat.eq_dec j o) as [<-|Nq].
    + rewrite Gj in H. inversion H. subst c0. rewrite Ij, Jr. split.
      * intros [[k X]|X]; [exists k; apply in_or_app; left; exact X|].
        exists (kf b). apply in_or_app. right. apply InN. auto.
      * intros [k X]. apply in_app_or in X. destruct X as [X|X]; [left; eauto|]. apply InN in X. tauto.
    + rewrite Go in H by exact Nq. rewrite (q_reg _ I o c0 b H). split; intros [k X]; exists k.
      * apply in_or_app. left. exact X.
      * apply in_app_or in X. destruct X as [X|X]; [exact X|]. apply InN in X. destruct X. congruence.
  - intros k o b H. apply in_app_or in H. destruct H as [H|H].
    + destruct (Nat.eq_dec j o) as [<-|Nq]; [eauto|]. rewrite Go by exact Nq. apply (q_own _ I k o b H).
    + apply InN in H. destruct H as [-> _]. eauto.
  - rewrite map_app. apply NoDup_app_disj; [apply (q_ko _ I)| |].
    + unfold N. rewrite map_map. unfold fko. cbn.
      assert (M : map (fun x => (kf x, j)) els = map (fun k => (k, j)) (map kf els)) by (rewrite map_map; reflexivity).
      rewrite M. apply NoDup_map_on; [exact Kinj|]. intros x y _ _ Exy. inversion Exy. reflexivity.
    + intros x Hx Hy. apply in_map_iff in Hx. destruct Hx as [[[k o] b] [Ex Hx]].
      apply in_map_iff in Hy. destruct Hy as [[[k2 o2] b2] [Ey Hy]]. apply InN in Hy. destruct Hy as [-> [Hy ->]].
      unfold fko in *. cbn in *. subst x. inversion Ey. subst. eapply Knew; eauto.
  - intros k o b. rewrite in_app_iff, C, InN, <- (q_agree _ I). cbn [fst snd]. split.
    + intros [H|[-> [H ->]]]; [left; split; [exact H|]|right; exists b; auto].
      intros [-> Hb]. apply (Dj b Hb). apply Jr. eauto.
    + intros [[H _]|[a [Ha Hx]]]; [left; exact H|]. inversion Hx. subst. right. auto.
  - exact D.
  - intros k o w H. apply in_app_or in H. destruct H as [H|H]; [pose proof (q_fresh _ I k o w H); lia|].
    apply InN in H. destruct H as [_ [H _]]. apply (Hfresh _ w H eq_refl).
  - (* entries of one key carry the same function object; distinct new objects have distinct keys *)
    intros k o o' b b' H H'. apply in_app_or in H. apply in_app_or in H'.
    destruct H as [H|H], H' as [H'|H'].
    + eapply (q_same _ I); eauto.
    + apply InN in H'. destruct H' as [_ [H' ->]]. eapply Hsame; eauto.
    + apply InN in H. destruct H as [_ [H ->]]. symmetry. eapply Hsame; eauto.
    + apply InN in H. apply InN in H'. destruct H as [_ [H ->]]. destruct H' as [_ [H' E']].
      eapply NoDup_map_inj; eauto.
  - intros k o b H. apply in_app_or in H. apply in_or_app. destruct H as [H|H]; [left; apply (q_orig _ I k o b H)|].
    apply InN in H. destruct H as [-> [H ->]]. destruct (Horig b H) as [X|X]; [left; exact X|].
    right. apply InN. auto.
Qed.

Lemma pstep_listen : forall st i f fl, PInv st -> pgstep st (PListen i f fl) = true ->
  PInv (fst (pstep st (PListen i f fl))) /\ internal (snd (pstep st (PListen i f fl))) = false.
Proof.
  intros st i f fl I G. cbn [pstep]. destruct (nth_error (p_insts st) i) as [oc|] eqn:Ei; [|split; [exact I|reflexivity]].
  destruct (promoted_facts st i oc I Ei) as [[Cnd Cp] Cr].
  set (c := promoted oc) in *. set (x := mk_lfn (p_next st) f fl). set (a := l_id x).
  destruct (fwd_has (i, f) i (p_fwd st)) eqn:Hh; cbn [fst snd]; (split; [|reflexivity]).
  - (* the pair is registered for this collection already: the collection exists and nothing changes *)
    apply fwd_has_true in Hh. destruct Hh as [b Hb]. destruct (q_own _ I _ _ _ Hb) as [c0 Hc0].
    unfold get_coll in Hc0. rewrite Ei in Hc0. destruct oc as [c1|]; [|discriminate].
    apply (PInv_ext st); auto; [|cbn; lia]. intro j. unfold get_coll. cbn [p_insts promoted c].
    rewrite set_nth_id by exact Ei. reflexivity.
  - (* a new registration *)
    assert (N1 : ~ In a (idents c)).
    { intro X. apply Cr in X. destruct X as [k X]. unfold a, x, mk_lfn in X. cbn [l_id] in X.
      destruct (fl_once fl || fl_wrap fl) eqn:W.
      - pose proof (q_fresh _ I _ _ _ X). lia.
      - cbn [pgstep] in G. unfold get_coll in G. rewrite Ei in G.
        assert (Xi : In (IdF f) (idents c)) by (apply Cr; eauto).
        destruct oc as [c0|]; [|destruct Xi].
        rewrite W, Hh in G. cbn in G. apply negb_true_iff, mem_ident_false in G. contradiction. }
    assert (N2 : forall o b, ~ In ((i, f), o, b) (p_fwd st)).
    { intros o b X. apply (q_orig _ I) in X. cbn [fst] in X.
      assert (fwd_has (i, f) i (p_fwd st) = true) by (apply fwd_has_true; eauto). congruence. }
    apply (PInv_add st _ i oc {| c_l := place (negb (fl_insert fl)) x (c_l c);
                                 c_p := if fl_prop fl then set_add (l_id x) (c_p c) else c_p c |} [a] (fun _ => (i, f)) I Ei);
      cbn [p_insts p_fwd p_rev p_next map]; try reflexivity; fold c.
    + intros [[o b] k]. rewrite In_rev_set. cbn. split.
      * intros [E|[H N]]; [right; exists a; inversion E; auto|left; split; [exact H|]].
        intros [-> [<-|[]]]. apply N. reflexivity.
      * intros [[H N]|[a' [[<-|[]] E]]]; [right; split; [exact H|]|left; exact E].
        intro E. inversion E. subst. apply N. auto.
    + apply rev_set_nodup. apply (q_revf _ I).
    + lia.
    + apply nodup_place; assumption.
    + intros b Hb. apply idents_place. cbn [c_p] in Hb. destruct (fl_prop fl); [|right; auto].
      apply In_set_add in Hb. destruct Hb as [->|Hb]; [left; reflexivity|right; auto].
    + intro b. unfold idents. cbn [c_l In]. rewrite idents_place. intuition.
    + intros b [<-|[]]. exact N1.
    + repeat constructor. intros [].
    + intros b o b' _ X. destruct (N2 _ _ X).
    + intros b _. right. reflexivity.
    + intros b w [<-|[]] E. unfold a, x, mk_lfn in E. cbn [l_id] in E.
      destruct (fl_once fl || fl_wrap fl); inversion E. lia.
Qed.

(* every owner's slot is stripped of its function object, once; the other slots stay *)
Lemma remove_all_spec : forall owners insts rev,
  NoDup (map fst owners) ->
  (forall o a, In (o, a) owners -> exists c, nth_error insts o = Some (Some c) /\ NoDup (idents c) /\ In a (idents c)) ->
  exists insts' rev', remove_all owners insts rev = (insts', rev', OOk) /\
    (forall j, ~ In j (map fst owners) -> nth_error insts' j = nth_error insts j) /\
    (forall j a c, In (j, a) owners -> nth_error insts j = Some (Some c) ->
       exists l', remove_first a (c_l c) = Some l' /\
                  nth_error insts' j = Some (Some {| c_l := l'; c_p := set_discard a (c_p c) |})) /\
    (forall e, In e rev' <-> In e rev /\ ~ In (fst e) owners) /\
    (NoDup (map fst rev) -> NoDup (map fst rev')).
Proof.
  induction owners as [|[o a] r IH]; intros insts rev ND H.
  - exists insts, rev. split; [reflexivity|]. split; [auto|]. split; [intros j a c []|]. split; [intro e; cbn; tauto|auto].
  - cbn in ND. inversion ND as [|? ? Ho ND']; subst.
    destruct (H o a (or_introl eq_refl)) as [c [Hc [Cnd Ca]]].
    destruct (remove_first_nodup a (c_l c) Cnd Ca) as [l' [E1 _]].
    cbn [remove_all]. rewrite Hc, E1.
    set (c1 := {| c_l := l'; c_p := set_discard a (c_p c) |}).
    assert (Ho' : o < length insts) by (apply nth_error_Some; congruence).
    assert (Hr : forall o' a', In (o', a') r -> o <> o').
    { intros o' a' Hin ->. apply Ho. change o' with (fst (o', a')). apply in_map. exact Hin. }
    destruct (IH (set_nth insts o (Some c1)) (rev_del o a rev) ND') as [insts' [rev' [R [A [B [C D]]]]]].
    { intros o' a' Hin. rewrite nth_error_set_nth_neq by (eapply Hr; eauto). apply H. right. exact Hin. }
    exists insts', rev'. split; [exact R|]. split; [|split; [|split]].
    + intros j Hj. cbn in Hj. rewrite A by tauto. apply nth_error_set_nth_neq. tauto.
    + intros j a' c0 [X|X] Hj.
      * inversion X. subst j a'. rewrite Hc in Hj. inversion Hj. subst c0. exists l'. split; [exact E1|].
        rewrite (A o Ho). apply nth_error_set_nth_eq. exact Ho'.
      * apply (B j a' c0 X). rewrite nth_error_set_nth_neq by (eapply Hr; eauto). exact Hj.
    + intro e. rewrite C, In_rev_del. cbn. split.
      * intros [[X1 X2] X3]. split; [exact X1|]. intros [X|X]; [congruence|contradiction].
      * intros [X1 X2]. split; [split; [exact X1|intro X; apply X2; left; congruence]|]. intro X. apply X2. right. exact X.
    + intro N. apply D. unfold rev_del. apply NoDup_map_filter. exact N.
Qed.

Lemma owners_nodup : forall k m, NoDup (map fko m) -> NoDup (map fst (fwd_of_key k m)).
Proof.
  intros k m. unfold fwd_of_key. induction m as [|[[k' o] a] m IH]; cbn; intro H; [constructor|].
  inversion H as [|? ? Hn H']; subst. destruct (pkey_eqb k k') eqn:E; cbn; [|apply IH; exact H'].
  apply pkey_eqb_eq in E. subst k'. constructor; [|apply IH; exact H'].
  intro X. apply Hn. rewrite map_map in X. apply in_map_iff in X. destruct X as [[[k2 o2] a2] [E2 X]].
  apply filter_In in X. destruct X as [X1 X2]. cbn in E2, X2. apply pkey_eqb_eq in X2. subst k2 o2.
  apply in_map_iff. exists (k, o, a2). split; [reflexivity|exact X1].
Qed.

Lemma owners_registered : forall st k, PInv st -> forall o a, In (o, a) (fwd_of_key k (p_fwd st)) ->
  exists c, nth_error (p_insts st) o = Some (Some c) /\ NoDup (idents c) /\ In a (idents c).
Proof.
  intros st k I o a Hin. apply In_fwd_of_key in Hin. destruct (q_own _ I _ _ _ Hin) as [c Hc].
  exists c. pose proof Hc as G. unfold get_coll in Hc.
  destruct (nth_error (p_insts st) o) as [[c0|]|]; try discriminate. inversion Hc. subst c0.
  split; [reflexivity|]. split; [apply (q_coll _ I o c G)|]. apply (q_reg _ I o c a G). eauto.
Qed.

Lemma remove_all_length : forall owners insts rev insts' rev' o,
  remove_all owners insts rev = (insts', rev', o) -> length insts' = length insts.
Proof.
  induction owners as [|[o a] r IH]; intros insts rev insts' rev' x H; cbn [remove_all] in H.
  - inversion H. reflexivity.
  - destruct (nth_error insts o) as [[c|]|]; try (inversion H; reflexivity).
    destruct (remove_first a (c_l c)); [|inversion H; reflexivity].
    rewrite (IH _ _ _ _ _ H). apply set_nth_length.
Qed.

Lemma pstep_remove : forall st i f, PInv st ->
  PInv (fst (pstep st (PRemove i f))) /\ internal (snd (pstep st (PRemove i f))) = false.
Proof.
  intros st i f I. cbn [pstep]. destruct (Nat.ltb i (length (p_insts st))); [|split; [exact I|reflexivity]].
  destruct (fwd_has_key (i, f) (p_fwd st)) eqn:Hk; [|split; [exact I|reflexivity]].
  set (k := (i, f)) in *. set (owners := fwd_of_key k (p_fwd st)).
  assert (Ow : forall o a, In (o, a) owners <-> In (k, o, a) (p_fwd st)) by (intros; apply In_fwd_of_key).
  destruct (remove_all_spec owners (p_insts st) (p_rev st)) as [insts' [rev' [R [A [B [C D]]]]]].
  { apply owners_nodup. apply (q_ko _ I). }
  { apply owners_registered. exact I. }
  rewrite R. cbn [fst snd]. split; [|reflexivity].
  match goal with |- PInv ?s => set (st' := s) end.
  (* collections before and after: the one entry of key k, if any, is gone *)
  assert (GC : forall j c', get_coll st' j = Some c' -> exists c, get_coll st j = Some c /\
            (NoDup (idents c) -> NoDup (idents c')) /\
            (forall b, In b (idents c') <-> In b (idents c) /\ ~ In (k, j, b) (p_fwd st)) /\
            (forall b, In b (c_p c') -> In b (c_p c) /\ ~ In (k, j, b) (p_fwd st))).
  { intros j c' H. unfold get_coll in H. cbn [st' p_insts] in H.
    destruct (in_dec Nat.eq_dec j (map fst owners)) as [Hj|Hj].
    - apply in_map_iff in Hj. destruct Hj as [[j' a] [Ej Hja]]. cbn in Ej. subst j'.
      destruct (owners_registered st k I j a Hja) as [c [Ec [Cnd Ca]]].
      destruct (B j a c Hja Ec) as [l' [E1 E2]]. rewrite E2 in H. inversion H. subst c'.
      destruct (remove_first_nodup a (c_l c) Cnd Ca) as [l2 [E1' [E2' E3]]]. rewrite E1 in E1'. inversion E1'. subst l2.
      assert (U : forall b, In (k, j, b) (p_fwd st) <-> b = a).
      { intro b. split; [|intros ->; apply Ow; exact Hja]. intro X. apply Ow in Hja.
        pose proof (NoDup_map_inj _ _ fko _ _ _ (q_ko _ I) X Hja eq_refl) as Y. inversion Y. reflexivity. }
      exists c. split; [unfold get_coll; rewrite Ec; reflexivity|]. split; [intros _; exact E2'|]. split.
      + intro b. unfold idents at 1. cbn [c_l]. rewrite E3, U. tauto.
      + intros b Hb. cbn [c_p] in Hb. apply In_set_discard in Hb. rewrite U. exact Hb.
    - rewrite A in H by exact Hj. exists c'. split; [exact H|]. split; [auto|].
      assert (U : forall b, ~ In (k, j, b) (p_fwd st)).
      { intros b X. apply Hj. apply Ow in X. change j with (fst (j, b)). apply in_map. exact X. }
      split; intro b; [split; [intro X; split; [exact X|apply U]|tauto]|intro X; split; [exact X|apply U]]. }
  assert (GC2 : forall j c, get_coll st j = Some c -> exists c', get_coll st' j = Some c').
  { intros j c H. unfold get_coll in *. cbn [st' p_insts]. destruct (nth_error (p_insts st) j) as [[c0|]|] eqn:E; try discriminate.
    destruct (in_dec Nat.eq_dec j (map fst owners)) as [Hj|Hj]; [|rewrite A, E by exact Hj; eauto].
    apply in_map_iff in Hj. destruct Hj as [[j' a] [Ej Hja]]. cbn in Ej. subst j'.
    destruct (B j a c0 Hja E) as [l' [_ E2]]. rewrite E2. eauto. }
  constructor; cbn [st' p_fwd p_rev p_next p_fired].
  - intros j c' H. destruct (GC j c' H) as [c [G [F2 [F3 F4]]]]. destruct (q_coll _ I j c G) as [X1 X2].
    split; [apply F2; exact X1|]. intros b Hb. apply F4 in Hb. apply F3. split; [apply X2; tauto|tauto].
  - intros j c' b H. destruct (GC j c' H) as [c [G [F2 [F3 F4]]]]. rewrite F3, (q_reg _ I j c b G). split.
    + intros [[k' X] N]. exists k'. apply In_fwd_del_key. split; [exact X|]. intro; subst. contradiction.
    + intros [k' X]. apply In_fwd_del_key in X. destruct X as [X N]. split; [eauto|].
      intro Y. apply N. eapply (owner_ident_key _ I); eauto.
  - intros k' o b H. apply In_fwd_del_key in H. destruct H as [H _].
    destruct (q_own _ I _ _ _ H) as [c G]. apply (GC2 o c G).
  - unfold fwd_del_key. apply NoDup_map_filter. apply (q_ko _ I).
  - intros k' o b. rewrite In_fwd_del_key, C, <- (q_agree _ I). cbn [fst]. rewrite Ow. split.
    + intros [H N]. split; [exact H|]. intro Y. apply N. eapply (owner_ident_key _ I); eauto.
    + intros [H N]. split; [exact H|]. intro; subst. contradiction.
  - apply D. apply (q_revf _ I).
  - intros k' o w H. apply In_fwd_del_key in H. apply (q_fresh _ I k' o w). tauto.
  - intros k' o o' b b' H H'. apply In_fwd_del_key in H. apply In_fwd_del_key in H'.
    eapply (q_same _ I); [apply H|apply H'].
  - intros k' o b H. apply In_fwd_del_key in H. destruct H as [H N]. apply In_fwd_del_key.
    split; [apply (q_orig _ I k' o b H)|exact N].
Qed.

(* registry._stored_in_collection_multi *)
Lemma assoc_multi_spec : forall j i (kf : ident -> pkey), j <> i -> forall els fwd rev,
  NoDup (map kf els) ->
  (forall a, In a els -> rev_lookup i a rev = Some (kf a)) ->
  (forall a, In a els -> fwd_has (kf a) j fwd = false) ->
  exists rev', assoc_multi j i els fwd rev = (fwd ++ map (fun a => (kf a, j, a)) els, rev') /\
    (forall e, In e rev' <-> (In e rev /\ ~ (fst (fst e) = j /\ In (snd (fst e)) els)) \/
                             (exists a, In a els /\ e = (j, a, kf a))) /\
    (NoDup (map fst rev) -> NoDup (map fst rev')).
Proof.
  intros j i kf Hji. induction els as [|a r IH]; intros fwd rev ND HL HF.
  - exists rev. cbn. rewrite app_nil_r. split; [reflexivity|]. split; [|auto].
    intro e. split; [intro H; left; split; [exact H|intros [_ []]]|intros [[H _]|[a [[] _]]]; exact H].
  - cbn in ND. inversion ND as [|? ? Hk ND']; subst.
    cbn [assoc_multi]. rewrite (HL a (or_introl eq_refl)), (HF a (or_introl eq_refl)).
    assert (Har : ~ In a r) by (intro X; apply Hk; apply in_map; exact X).
    destruct (IH (fwd ++ [(kf a, j, a)]) (rev_set j a (kf a) rev) ND') as [rev' [E [C D]]].
    + intros a' Ha'. rewrite rev_lookup_other by (intro; subst; apply Hji; reflexivity). apply HL. right. exact Ha'.
    + intros a' Ha'. apply fwd_has_false. intros b X. apply in_app_or in X. destruct X as [X|[X|[]]].
      * pose proof (HF a' (or_intror Ha')) as F. eapply fwd_has_false in F. apply F. exact X.
      * injection X as E1 E2. apply Hk. rewrite E1. apply in_map. exact Ha'.
    + exists rev'. split; [rewrite E, <- app_assoc; reflexivity|]. split.
      * intro e. rewrite C, In_rev_set. cbn [In]. destruct e as [[o b] k]. cbn [fst snd]. split.
        -- intros [[[X|[X1 X2]] X3]|[a' [X1 X2]]].
           ++ right. exists a. split; [left; reflexivity|exact X].
           ++ left. split; [exact X1|]. intros [Y1 [Y2|Y2]]; [apply X2; cbn; congruence|apply X3; auto].
           ++ right. exists a'. split; [right; exact X1|exact X2].
        -- intros [[X1 X2]|[a' [[<-|X1] X2]]].
           ++ left. split; [right; split; [exact X1|]|].
              ** cbn. intro Y. inversion Y. subst. apply X2. auto.
              ** intros [Y1 Y2]. apply X2. auto.
           ++ left. split; [left; exact X2|]. inversion X2. subst. intros [_ Y]. contradiction.
           ++ right. exists a'. auto.
      * intro N. apply D. apply rev_set_nodup. exact N.
Qed.

(* _Dispatch._update *)
Lemma pstep_update : forall st j i p, PInv st -> pgstep st (PUpdate j i p) = true ->
  PInv (fst (pstep st (PUpdate j i p))) /\ internal (snd (pstep st (PUpdate j i p))) = false.
Proof.
  intros st j i p I G. cbn [pstep].
  destruct (nth_error (p_insts st) j) as [ocj|] eqn:Ej; [|split; [exact I|reflexivity]].
  destruct (nth_error (p_insts st) i) as [oci|] eqn:Ei; [|split; [exact I|reflexivity]].
  destruct (Nat.eqb_spec j i) as [|Hji]; [split; [exact I|reflexivity]|].
  destruct oci as [ci|]; [|split; [exact I|reflexivity]].
  assert (Gi : get_coll st i = Some ci) by (unfold get_coll; rewrite Ei; reflexivity).
  destruct (q_coll _ I i ci Gi) as [Ind Ip]. pose proof (fun b => q_reg _ I i ci b Gi) as Ir.
  destruct (promoted_facts st j ocj I Ej) as [[Jnd Jp] Jr].
  set (cj := promoted ocj) in *.
  assert (Dj : forall a, In a (idents ci) -> ~ In a (idents cj)).
  { intros a Ha Hb. cbn [pgstep] in G. rewrite Gi in G. unfold get_coll in G. rewrite Ej in G.
    destruct ocj as [cj0|]; [|destruct Hb]. apply negb_true_iff in G.
    assert (existsb (fun a0 => mem_ident a0 (idents cj0)) (idents ci) = true); [|congruence].
    apply existsb_exists. exists a. split; [exact Ha|]. apply mem_ident_In. exact Hb. }
  set (prop' := set_union (c_p cj) (c_p ci)).
  set (others := filter (fun l => (negb (mem_id (l_id l) (c_l cj)) && negb p) || mem_ident (l_id l) prop') (c_l ci)).
  set (els := dedup (c_p ci ++ map l_id others)).
  assert (Osub : forall a, In a (map l_id others) -> In a (idents ci)).
  { intros a Ha. apply in_map_iff in Ha. destruct Ha as [l [E Hl]]. apply filter_In in Hl. destruct Hl as [Hl _].
    apply in_map_iff. exists l. auto. }
  assert (Ond : NoDup (map l_id others)) by (apply NoDup_map_filter; exact Ind).
  assert (Pin : forall a, In a (c_p ci) -> In a (map l_id others)).
  { intros a Ha. pose proof (Ip a Ha) as X. apply in_map_iff in X. destruct X as [l [E Hl]].
    apply in_map_iff. exists l. split; [exact E|]. apply filter_In. split; [exact Hl|].
    apply orb_true_iff. right. apply mem_ident_In. unfold prop'. apply In_set_union. right. rewrite E. exact Ha. }
  assert (Els : forall a, In a els <-> In a (map l_id others)).
  { intro a. unfold els. rewrite In_dedup, in_app_iff. split; [intros [X|X]; auto|auto]. }
  set (kf := fun a => match rev_lookup i a (p_rev st) with Some k => k | None => (0, 0) end).
  assert (Kf : forall a, In a els -> rev_lookup i a (p_rev st) = Some (kf a) /\ In (kf a, i, a) (p_fwd st)).
  { intros a Ha. apply Els, Osub, Ir in Ha. destruct Ha as [k Hk].
    assert (L : rev_lookup i a (p_rev st) = Some k) by (apply (rev_lookup_In _ _ _ _ (q_revf _ I)); apply (q_agree _ I); exact Hk).
    unfold kf. rewrite L. auto. }
  assert (Kinj : NoDup (map kf els)).
  { apply NoDup_map_on; [apply NoDup_dedup|]. intros x y Hx Hy E.
    destruct (Kf x Hx) as [_ X]. destruct (Kf y Hy) as [_ Y]. rewrite E in X. eapply (q_same _ I); eauto. }
  assert (Knew : forall a, In a els -> forall b, ~ In (kf a, j, b) (p_fwd st)).
  { intros a Ha b X. destruct (Kf a Ha) as [_ Y]. assert (b = a) by (eapply (q_same _ I); eauto). subst b.
    apply (Dj a); [apply Osub, Els; exact Ha|]. apply Jr. eauto. }
  destruct (assoc_multi_spec j i kf Hji els (p_fwd st) (p_rev st) Kinj) as [rev' [E [C D]]].
  { intros a Ha. apply (Kf a Ha). }
  { intros a Ha. apply fwd_has_false. apply Knew. exact Ha. }
  fold cj prop' others els. rewrite E. cbn [fst snd]. split; [|reflexivity].
  apply (PInv_add st _ j ocj {| c_l := c_l cj ++ others; c_p := prop' |} els kf I Ej);
    cbn [p_insts p_fwd p_rev p_next]; try reflexivity; fold cj.
  - exact C.
  - apply D. apply (q_revf _ I).
  - unfold idents. cbn [c_l]. rewrite map_app. apply NoDup_app_disj; [exact Jnd|exact Ond|].
    intros x Hx Hy. apply (Dj x); [apply Osub; exact Hy|exact Hx].
  - intros b Hb. unfold idents. cbn [c_l c_p] in *. rewrite map_app, in_app_iff. apply In_set_union in Hb.
    destruct Hb as [Hb|Hb]; [left; apply Jp; exact Hb|right; apply Pin; exact Hb].
  - intro b. unfold idents. cbn [c_l]. rewrite map_app, in_app_iff, Els. tauto.
  - intros a Ha. apply Dj, Osub, Els. exact Ha.
  - exact Kinj.
  - intros a o b Ha X. destruct (Kf a Ha) as [_ Y]. eapply (q_same _ I); eauto.
  - intros a Ha. left. destruct (Kf a Ha) as [_ Y]. apply (q_orig _ I _ _ _ Y).
  - intros a w Ha ->. destruct (Kf _ Ha) as [_ X]. apply (q_fresh _ I _ _ _ X).
Qed.

Lemma pstep_inv : forall st op, PInv st -> pgstep st op = true ->
  PInv (fst (pstep st op)) /\ internal (snd (pstep st op)) = false.
Proof.
  intros st op I G. destruct op as [|i f fl|i f|i f|i|j i p|nf].
  - cbn [pstep fst snd]. split; [|reflexivity]. apply (PInv_ext st); auto. intro j. unfold get_coll. cbn [p_insts].
    destruct (Nat.lt_ge_cases j (length (p_insts st))) as [L|L].
    + rewrite nth_error_app1 by exact L. reflexivity.
    + rewrite nth_error_app2 by exact L. rewrite (proj2 (nth_error_None _ _) L).
      destruct (j - length (p_insts st)) as [|[|n]]; reflexivity.
  - apply pstep_listen; assumption.
  - apply pstep_remove; assumption.
  - cbn [pstep]. destruct (Nat.ltb i _); split; auto.
  - cbn [pstep]. destruct (nth_error (p_insts st) i); [|split; auto]. destruct (call_all _ _). cbn [fst snd].
    split; [|reflexivity]. apply (PInv_ext st); auto.
  - apply pstep_update; assumption.
  - cbn [pstep]. split; auto.
Qed.

Lemma prun_inv : forall ops st, PInv st -> pguard st ops = true ->
  PInv (fst (prun st ops)) /\ existsb internal (snd (prun st ops)) = false.
Proof.
  induction ops as [|o ops IH]; intros st I G; cbn [prun].
  - split; [exact I|reflexivity].
  - cbn [pguard] in G. apply andb_true_iff in G. destruct G as [G1 G2].
    destruct (pstep_inv st o I G1) as [I1 E1]. destruct (pstep st o) as [st1 x]. cbn [fst snd] in *.
    destruct (IH st1 I1 G2) as [I2 E2]. destruct (prun st1 ops) as [st2 xs]. cbn [fst snd existsb] in *.
    split; [exact I2|]. rewrite E1, E2. reflexivity.
Qed.

Theorem registry_maps_agree : forall ops, pguard pinit ops = true ->
  let st := fst (prun pinit ops) in
  forall k o a, In (k, o, a) (p_fwd st) <-> In (o, a, k) (p_rev st).
Proof. intros ops G st. apply (q_agree _ (proj1 (prun_inv ops pinit PInv_init G))). Qed.

Theorem propagated_listeners_registered : forall ops, pguard pinit ops = true ->
  let st := fst (prun pinit ops) in
  forall j c a, get_coll st j = Some c -> (In a (idents c) <-> exists k, In (k, j, a) (p_fwd st)).
Proof. intros ops G st. apply (q_reg _ (proj1 (prun_inv ops pinit PInv_init G))). Qed.

Theorem propagation_no_internal_error : forall ops, pguard pinit ops = true ->
  existsb internal (snd (prun pinit ops)) = false.
Proof. intros ops G. apply (prun_inv ops pinit PInv_init G). Qed.

Lemma bool_iff_eq : forall a b : bool, (a = true <-> b = true) -> a = b.
Proof. intros [|] [|] H; try reflexivity; [symmetry|]; apply H; reflexivity. Qed.

(* the two maps observed over any grid of owners and keys are equal *)
Theorem snapshot_maps_equal : forall ops nf l l', pguard pinit ops = true ->
  snd (pstep (fst (prun pinit ops)) (PSnapshot nf)) = PMaps l l' -> l = l'.
Proof.
  intros ops nf l l' G H. pose proof (proj1 (prun_inv ops pinit PInv_init G)) as I.
  cbn [pstep snd] in H. inversion H. subst. apply map_ext. intros [o k]. cbn [fst snd].
  apply bool_iff_eq. rewrite fwd_has_true, existsb_exists. split.
  - intros [a Ha]. apply (q_agree _ I) in Ha. exists (o, a, k). split; [exact Ha|]. cbn.
    rewrite Nat.eqb_refl, pkey_eqb_refl. reflexivity.
  - intros [[[o' a] k'] [He E]]. cbn in E. apply andb_true_iff in E. destruct E as [E1 E2].
    apply Nat.eqb_eq in E1. apply pkey_eqb_eq in E2. subst. exists a. apply (q_agree _ I). exact He.
Qed.

(* event.remove() takes the listener out of every collection it was propagated to: it succeeds, the
   pair is not registered afterwards, and every listener still held by any collection is registered
   there under another pair *)
Theorem remove_reaches_every_copy : forall ops i f, pguard pinit ops = true ->
  let st := fst (prun pinit ops) in
  snd (pstep st (PContains i f)) = POut (OBool true) ->
  let st' := fst (pstep st (PRemove i f)) in
  snd (pstep st (PRemove i f)) = POut OOk /\
  snd (pstep st' (PContains i f)) = POut (OBool false) /\
  forall j c a, get_coll st' j = Some c -> In a (idents c) -> exists k, k <> (i, f) /\ In (k, j, a) (p_fwd st').
Proof.
  intros ops i f G st C st'. pose proof (proj1 (prun_inv ops pinit PInv_init G)) as I. fold st in I.
  destruct (pstep_remove st i f I) as [I' _]. fold st' in I'.
  cbn [pstep] in C. destruct (Nat.ltb i (length (p_insts st))) eqn:L; [|discriminate].
  cbn [snd] in C. inversion C as [Hk].
  assert (F' : p_fwd st' = fwd_del_key (i, f) (p_fwd st) /\ length (p_insts st') = length (p_insts st) /\
               snd (pstep st (PRemove i f)) = POut OOk).
  { unfold st'. cbn [pstep]. rewrite L, Hk.
    destruct (remove_all_spec (fwd_of_key (i, f) (p_fwd st)) (p_insts st) (p_rev st)) as [insts' [rev' [R _]]].
    - apply owners_nodup. apply (q_ko _ I).
    - apply owners_registered. exact I.
    - rewrite R. cbn [fst snd p_fwd p_insts]. split; [reflexivity|]. split; [|reflexivity].
      exact (remove_all_length _ _ _ _ _ _ R). }
  destruct F' as (F1 & F2 & F3). split; [exact F3|]. split.
  - cbn [pstep]. rewrite F2, L, F1. cbn [snd]. f_equal. f_equal.
    destruct (fwd_has_key (i, f) (fwd_del_key (i, f) (p_fwd st))) eqn:X; [|reflexivity].
    apply fwd_has_key_true in X. destruct X as [o [a X]]. apply In_fwd_del_key in X. destruct X. congruence.
  - intros j c a Gc Ha. apply (q_reg _ I' j c a Gc) in Ha. destruct Ha as [k Hk']. exists k. split; [|exact Hk'].
    rewrite F1 in Hk'. apply In_fwd_del_key in Hk'. tauto.
Qed.
