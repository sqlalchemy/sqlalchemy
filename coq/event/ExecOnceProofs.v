(* C28 (concurrency part): invariants of the exec_once interleaving model, for every schedule of any
   number of threads. *)
From Coq Require Import List Arith Bool Lia.
Import ListNotations.
From SAV.event Require Import ExecOnce.

Lemma nth_upd_eq : forall ts i p q, nth_error ts i = Some q -> nth_error (upd ts i p) i = Some p.
Proof. induction ts; destruct i; cbn; intros; try discriminate; eauto. Qed.
Lemma nth_upd_neq : forall ts i j p, i <> j -> nth_error (upd ts i p) j = nth_error ts j.
Proof. induction ts; destruct i, j; cbn; intros; try congruence; auto. Qed.
Lemma upd_length : forall ts i p, length (upd ts i p) = length ts.
Proof. induction ts; destruct i; cbn; intros; auto. Qed.
Lemma upd_upd : forall ts i p q, upd (upd ts i p) i q = upd ts i q.
Proof. induction ts; destruct i; cbn; intros; auto. rewrite IHts. reflexivity. Qed.

(* running the listeners outside the mutex (allowed once _exec_w_sync_once is set) *)
Definition unsync (p : pc) : bool := match p with PCall _ false | PIn _ false => true | _ => false end.
(* a once-kind thread between the second check and the flag write *)
Definition crit (p : pc) : bool :=
  match p with
  | PCall k true | PIn k true => negb (is_sync k)
  | PFin k _ => negb (is_sync k)
  | _ => false
  end.
(* a once-kind thread past the listeners: they have run *)
Definition late (p : pc) : bool :=
  match p with PFin k _ | PRel k => negb (is_sync k) | _ => false end.
(* only _exec_w_sync_on_first_run calls the listeners without the mutex *)
Definition wfpc (p : pc) : bool :=
  match p with PCall k false | PIn k false => is_sync k | _ => true end.

Definition owner_pc (s : xshared) (ts : list pc) : option pc :=
  match mutex s with Some i => nth_error ts i | None => None end.
(* 1 when a once-kind thread is inside the listeners *)
Definition in_run (s : xshared) (ts : list pc) : nat :=
  match owner_pc s ts with Some (PIn k true) => if is_sync k then 0 else 1 | _ => 0 end.
(* 1 when a once-kind thread has finished the listeners and is about to set the flag *)
Definition pend (s : xshared) (ts : list pc) : nat :=
  match owner_pc s ts with
  | Some (PFin k exc) => if is_sync k then 0 else if due k exc then 1 else 0
  | _ => 0
  end.

Record XInv (s : xshared) (ts : list pc) : Prop := {
  x_own : forall i, mutex s = Some i -> exists p, nth_error ts i = Some p /\ holds p = true;
  x_excl : forall i p, nth_error ts i = Some p -> holds p = true -> mutex s = Some i;
  x_wf : forall i p, nth_error ts i = Some p -> wfpc p = true;
  x_sync : f_sync s = false -> forall i p, nth_error ts i = Some p -> unsync p = false;
  x_flag : forall i p, nth_error ts i = Some p -> crit p = true -> f_once s = false;
  x_run : n_run s = n_succ s + n_fail_o s + n_fail_u s + in_run s ts;
  x_set0 : f_once s = false -> n_succ s + n_fail_o s = pend s ts;
  x_set1 : f_once s = true -> n_succ s + n_fail_o s = 1;
  x_done : (n_done s >= 1 \/ exists i p, nth_error ts i = Some p /\ late p = true) -> n_run s >= 1 }.

(* [in_run] and [pend] read a weight off the program counter of the mutex owner; only program counters
   that hold the mutex have one *)
Definition run_w (p : pc) : nat := match p with PIn k true => if is_sync k then 0 else 1 | _ => 0 end.
Definition pend_w (p : pc) : nat :=
  match p with PFin k exc => if is_sync k then 0 else if due k exc then 1 else 0 | _ => 0 end.
Definition owner_w (w : pc -> nat) (s : xshared) (ts : list pc) : nat :=
  match owner_pc s ts with Some p => w p | None => 0 end.
Lemma in_run_owner_w : forall s ts, in_run s ts = owner_w run_w s ts.
Proof. reflexivity. Qed.
Lemma pend_owner_w : forall s ts, pend s ts = owner_w pend_w s ts.
Proof. reflexivity. Qed.

Lemma crit_holds : forall p, crit p = true -> holds p = true.
Proof. destruct p as [|k|k|k|k [|]|k [|]|k e|k]; cbn; intros; try discriminate; reflexivity. Qed.
Lemma run_w_free : forall p, holds p = false -> run_w p = 0.
Proof. destruct p as [|k|k|k|k h|k [|]|k e|k]; cbn; intros; try discriminate; reflexivity. Qed.
Lemma pend_w_free : forall p, holds p = false -> pend_w p = 0.
Proof. destruct p; cbn; intros; try discriminate; reflexivity. Qed.

Lemma owner_w_holder : forall w s ts i p, XInv s ts -> nth_error ts i = Some p -> holds p = true ->
  owner_w w s ts = w p.
Proof. intros w s ts i p I Hi Hh. unfold owner_w, owner_pc. rewrite (x_excl _ _ I i p Hi Hh), Hi. reflexivity. Qed.

(* what XInv says about one thread, in a form that computes once p is known *)
Lemma XInv_at : forall s ts i p, XInv s ts -> nth_error ts i = Some p ->
  wfpc p = true /\ implb (unsync p) (f_sync s) = true /\ crit p && f_once s = false /\
  Nat.b2n (late p) <= n_run s /\ run_w p <= n_run s.
Proof.
  intros s ts i p I Hi. split; [exact (x_wf _ _ I i p Hi)|]. split; [|split; [|split]].
  - destruct (f_sync s) eqn:F; [apply implb_true_r|]. rewrite (x_sync _ _ I F i p Hi). reflexivity.
  - destruct (crit p) eqn:C; [exact (x_flag _ _ I i p Hi C)|reflexivity].
  - destruct (late p) eqn:L; [|apply Nat.le_0_l]. apply (x_done _ _ I). right. exists i, p. auto.
  - destruct (holds p) eqn:Hh; [|rewrite (run_w_free p Hh); apply Nat.le_0_l].
    pose proof (x_run _ _ I) as R. rewrite in_run_owner_w, (owner_w_holder _ s ts i p I Hi Hh) in R. lia.
Qed.

Lemma ran_if_flag : forall s ts, XInv s ts -> f_once s = true -> n_run s >= 1.
Proof. intros s ts I F. pose proof (x_set1 _ _ I F). pose proof (x_run _ _ I). lia. Qed.

Lemma xinit_inv : forall n, XInv (fst (xinit n)) (snd (xinit n)).
Proof.
  intro n. assert (R : forall i p, nth_error (repeat Idle n) i = Some p -> p = Idle).
  { intros i p H. apply nth_error_In in H. apply repeat_spec in H. exact H. }
  constructor; cbn [xinit fst snd f_once f_sync mutex n_run n_run_sync n_succ n_fail_o n_fail_u n_done].
  - intros i H. discriminate.
  - intros i p H Hh. rewrite (R i p H) in Hh. discriminate.
  - intros i p H. rewrite (R i p H). reflexivity.
  - intros _ i p H. rewrite (R i p H). reflexivity.
  - intros i p H Hc. rewrite (R i p H) in Hc. discriminate.
  - reflexivity.
  - reflexivity.
  - discriminate.
  - intros [H|[i [p [H Hl]]]]; [lia|]. rewrite (R i p H) in Hl. discriminate.
Qed.

(* Every step moves one thread i from a program counter p to p' and the shared state from s to s'.
   The mutex follows the program counters: it is taken when p' holds it and p does not, released in
   the opposite case, and untouched otherwise. *)
Definition next_mutex (i : nat) (p p' : pc) (m : option nat) : option nat :=
  match holds p, holds p' with
  | false, true => Some i
  | true, false => None
  | _, _ => m
  end.

Section Move.
Variables (s : xshared) (ts : list pc) (i : nat) (p : pc) (s' : xshared) (p' : pc).
Hypothesis I : XInv s ts.
Hypothesis Hi : nth_error ts i = Some p.
Hypothesis Hm : mutex s' = next_mutex i p p' (mutex s).
Hypothesis Hacq : holds p = false -> holds p' = true -> mutex s = None.

Lemma upd_cases : forall j q, nth_error (upd ts i p') j = Some q ->
  j = i /\ q = p' \/ j <> i /\ nth_error ts j = Some q.
Proof.
  intros j q H. destruct (Nat.eq_dec i j) as [<-|N].
  - left. rewrite (nth_upd_eq _ _ p' _ Hi) in H. inversion H. auto.
  - right. rewrite nth_upd_neq in H by exact N. auto.
Qed.

Lemma owner_move :
  owner_pc s' (upd ts i p') = if holds p' then Some p' else if holds p then None else owner_pc s ts.
Proof.
  unfold owner_pc. rewrite Hm. unfold next_mutex. destruct (holds p) eqn:Hp, (holds p') eqn:Hp'; try reflexivity.
  - rewrite (x_excl _ _ I i p Hi Hp). exact (nth_upd_eq _ _ p' _ Hi).
  - exact (nth_upd_eq _ _ p' _ Hi).
  - destruct (mutex s) as [j|] eqn:E; [|reflexivity]. apply nth_upd_neq. intros <-.
    destruct (x_own _ _ I i E) as [q [Hq Hh]]. congruence.
Qed.

Lemma owner_w_move : forall w, (forall q, holds q = false -> w q = 0) ->
  owner_w w s' (upd ts i p') + w p = owner_w w s ts + w p'.
Proof.
  intros w Hw. unfold owner_w at 1. rewrite owner_move. destruct (holds p) eqn:Hp.
  - rewrite (owner_w_holder w s ts i p I Hi Hp). destruct (holds p') eqn:Hp'; [lia|]. rewrite (Hw p' Hp'). lia.
  - rewrite (Hw p Hp). destruct (holds p') eqn:Hp'; [|rewrite (Hw p' Hp'); unfold owner_w; lia].
    unfold owner_w, owner_pc. rewrite (Hacq eq_refl eq_refl). lia.
Qed.

(* The move preserves XInv under conditions on p, p', s and s' alone: on the program counter reached
   (first line), on the flags, and on the counters, each compared with its old value and with the
   weights of p and p'. *)
Lemma XInv_move :
  wfpc p' = true -> (f_sync s' = false -> unsync p' = false) -> (crit p' = true -> f_once s' = false) ->
  (f_sync s' = false -> f_sync s = false) -> (holds p = false -> f_once s' = f_once s) ->
  (late p' = true -> n_run s' >= 1) -> (n_done s' = n_done s \/ n_run s' >= 1) -> n_run s <= n_run s' ->
  n_run s' + (n_succ s + n_fail_o s + n_fail_u s) + run_w p
    = n_run s + (n_succ s' + n_fail_o s' + n_fail_u s') + run_w p' ->
  (f_once s' = false -> f_once s = false) ->
  (f_once s' = false -> n_succ s' + n_fail_o s' + pend_w p = n_succ s + n_fail_o s + pend_w p') ->
  (f_once s' = true -> n_succ s' + n_fail_o s' = n_succ s + n_fail_o s) ->
  (f_once s' = true -> f_once s = false -> pend_w p = 1) ->
  XInv s' (upd ts i p').
Proof.
  intros Hw Hu Hc Hs Hf Hl Hd Hn Hr H0 H0' H1 H1'.
  assert (Mr : in_run s' (upd ts i p') + run_w p = in_run s ts + run_w p') by exact (owner_w_move run_w run_w_free).
  assert (Mp : pend s' (upd ts i p') + pend_w p = pend s ts + pend_w p') by exact (owner_w_move pend_w pend_w_free).
  constructor.
  - intros j Hj. rewrite Hm in Hj. unfold next_mutex in Hj. destruct (holds p') eqn:Hp'.
    + assert (j = i) by (destruct (holds p) eqn:Hp; [rewrite (x_excl _ _ I i p Hi Hp) in Hj|]; congruence).
      subst j. exists p'. split; [exact (nth_upd_eq _ _ p' _ Hi)|exact Hp'].
    + destruct (holds p) eqn:Hp; [discriminate|]. destruct (x_own _ _ I j Hj) as [q [Hq Hh]]. exists q. split; [|exact Hh].
      rewrite nth_upd_neq; [exact Hq|]. intros <-. congruence.
  - intros j q Hq Hh. rewrite Hm. unfold next_mutex. destruct (upd_cases j q Hq) as [[-> ->]|[N Hq']].
    + rewrite Hh. destruct (holds p) eqn:Hp; [exact (x_excl _ _ I i p Hi Hp)|reflexivity].
    + pose proof (x_excl _ _ I j q Hq' Hh) as Ej. destruct (holds p) eqn:Hp.
      * rewrite (x_excl _ _ I i p Hi Hp) in Ej. congruence.
      * destruct (holds p') eqn:Hp'; [rewrite (Hacq eq_refl eq_refl) in Ej; discriminate|exact Ej].
  - intros j q Hq. destruct (upd_cases j q Hq) as [[-> ->]|[N Hq']]; [exact Hw|exact (x_wf _ _ I j q Hq')].
  - intros F j q Hq. destruct (upd_cases j q Hq) as [[-> ->]|[N Hq']]; [exact (Hu F)|exact (x_sync _ _ I (Hs F) j q Hq')].
  - (* another thread in its critical section owns the mutex, so p does not hold it and the flag is unchanged *)
    intros j q Hq C. destruct (upd_cases j q Hq) as [[-> ->]|[N Hq']]; [exact (Hc C)|].
    destruct (holds p) eqn:Hp; [|rewrite (Hf eq_refl); exact (x_flag _ _ I j q Hq' C)].
    pose proof (x_excl _ _ I i p Hi Hp). pose proof (x_excl _ _ I j q Hq' (crit_holds q C)). congruence.
  - pose proof (x_run _ _ I). lia.
  - intro F. pose proof (x_set0 _ _ I (H0 F)). pose proof (H0' F). lia.
  - (* the flag is set now: it was set before, or this step is the pending write of the owner *)
    intro F. rewrite (H1 F). destruct (f_once s) eqn:F0; [exact (x_set1 _ _ I F0)|].
    pose proof (H1' F eq_refl) as P1. rewrite (x_set0 _ _ I F0), pend_owner_w.
    destruct (holds p) eqn:Hp; [|rewrite (pend_w_free p Hp) in P1; discriminate].
    rewrite (owner_w_holder _ s ts i p I Hi Hp). exact P1.
  - intros [D|[j [q [Hq L]]]].
    + destruct Hd as [E|E]; [|exact E]. rewrite E in D. pose proof (x_done _ _ I (or_introl D)). lia.
    + destruct (upd_cases j q Hq) as [[-> ->]|[N Hq']]; [exact (Hl L)|].
      assert (n_run s >= 1) by (apply (x_done _ _ I); right; exists j, q; auto). lia.
Qed.
End Move.

(* With the program counters p, p' and the kind of call known, [cbn] computes [holds], [crit], ...
   and the fields of the new shared state, and each premise of XInv_move becomes an identity, a
   consequence of equations between booleans, or linear arithmetic over the facts about s and p in
   the context. *)
Ltac by_move I Ei := apply (XInv_move _ _ _ _ _ _ I Ei); cbn; first [reflexivity | congruence | lia].

Lemma step_inv : forall s ts e s' ts', XInv s ts -> stepf (s, ts) e = Some (s', ts') -> XInv s' ts'.
Proof.
  intros s ts e s' ts' I H. unfold stepf in H.
  destruct e as [i k|i w b|i|i|i exc|i|i];
    (destruct (nth_error ts i) as [p|] eqn:Ei; [|discriminate]);
    destruct (XInv_at s ts i p I Ei) as (Pw & Ps & Pf & Pl & Pr);
    destruct p as [|k0|k0|k0|k0 h|k0 h|k0 e0|k0]; try discriminate.
  - (* ECall *) injection H as <- <-. by_move I Ei.
  - (* ERead outside the mutex; a flag seen set means that the listeners have run *)
    destruct (Bool.eqb w (is_sync k0) && Bool.eqb b (if is_sync k0 then f_sync s else f_once s)) eqn:C; [|discriminate].
    apply andb_true_iff in C. destruct C as [_ C]. apply eqb_prop in C. symmetry in C.
    destruct b; [destruct k0; cbn in C; try pose proof (ran_if_flag s ts I C)|]; injection H as <- <-; by_move I Ei.
  - (* ERead inside the mutex *)
    destruct (negb w && Bool.eqb b (f_once s)) eqn:C; [|discriminate].
    apply andb_true_iff in C. destruct C as [_ C]. apply eqb_prop in C. symmetry in C.
    destruct b; injection H as <- <-; [pose proof (ran_if_flag s ts I C)|]; by_move I Ei.
  - (* ELock *) destruct (mutex s) as [o|] eqn:Em; [discriminate|]. injection H as <- <-. destruct k0; by_move I Ei.
  - (* EBegin; PCall k false is reached by KSync only (Pw) and with _exec_w_sync_once set (Ps) *)
    injection H as <- <-. destruct h, k0; cbn in Pw, Ps, Pf; by_move I Ei.
  - (* EEnd; a once-kind thread inside the listeners is counted by in_run (Pr) and has not set the flag (Pf) *)
    destruct h; injection H as <- <-; [destruct k0, exc; cbn in Pf, Pr|]; by_move I Ei.
  - (* EWrite; the flag was unset (Pf), so the run just finished is the pending one *)
    destruct k0, e0; try discriminate; injection H as <- <-; cbn in Pf, Pl; by_move I Ei.
  - (* EUnlock without a write *) destruct k0, e0; try discriminate; injection H as <- <-; cbn in Pl; by_move I Ei.
  - (* EUnlock *) injection H as <- <-. destruct k0; cbn in Pl; by_move I Ei.
Qed.

Lemma run_inv : forall tr s ts s' ts', XInv s ts -> xrun (s, ts) tr = Some (s', ts') -> XInv s' ts'.
Proof.
  induction tr as [|e tr IH]; intros s ts s' ts' I H; cbn [xrun] in H.
  - inversion H. subst. exact I.
  - destruct (stepf (s, ts) e) as [[s1 ts1]|] eqn:E; [|discriminate].
    eapply IH; [|exact H]. eapply step_inv; eauto.
Qed.
Lemma reach_xinv : forall s ts, xreach (s, ts) -> XInv s ts.
Proof.
  intros s ts [n [tr H]]. pose proof (xinit_inv n) as I. destruct (xinit n) as [s0 ts0] eqn:E.
  eapply run_inv; eauto.
Qed.

(* the mutex: at most one thread is between acquire and release *)
Theorem mutex_exclusive : forall s ts, xreach (s, ts) -> forall i j p q,
  nth_error ts i = Some p -> nth_error ts j = Some q -> holds p = true -> holds q = true -> i = j.
Proof.
  intros s ts R i j p q Hp Hq H1 H2. pose proof (reach_xinv _ _ R) as I.
  pose proof (x_excl _ _ I i p Hp H1). pose proof (x_excl _ _ I j q Hq H2). congruence.
Qed.

(* the owner is inside the listeners or about to set the flag, not both, and in the first case the
   flag is unset *)
Lemma owner_counts : forall s ts, XInv s ts ->
  in_run s ts + pend s ts <= 1 /\ (in_run s ts = 1 -> f_once s = false).
Proof.
  intros s ts I. rewrite in_run_owner_w, pend_owner_w. unfold owner_w, owner_pc.
  destruct (mutex s) as [i|]; [|split; [lia|discriminate]].
  destruct (nth_error ts i) as [p|] eqn:E; [|split; [lia|discriminate]].
  pose proof (x_flag _ _ I i p E) as F.
  destruct p as [|k|k|k|k h|k [|]|k e|k]; cbn in *; try (split; [lia|discriminate]).
  - destruct (is_sync k); split; auto; lia.
  - destruct (is_sync k), (due k e); split; auto; discriminate.
Qed.

(* at most one run of the listeners sets the flag; every other run is a failed
   exec_once_unless_exception run (which is to be retried) *)
Theorem exec_once_at_most_once : forall s ts, xreach (s, ts) ->
  n_succ s + n_fail_o s <= 1 /\ n_run s <= 1 + n_fail_u s.
Proof.
  intros s ts R. pose proof (reach_xinv _ _ R) as I. pose proof (x_run _ _ I) as XR.
  destruct (owner_counts s ts I) as [L F0]. destruct (f_once s) eqn:F.
  - pose proof (x_set1 _ _ I F). assert (in_run s ts <> 1) by (intro E; specialize (F0 E); discriminate). lia.
  - pose proof (x_set0 _ _ I F). lia.
Qed.

Lemma quiescent_free : forall s ts, XInv s ts -> quiescent ts -> mutex s = None.
Proof.
  intros s ts I Q. destruct (mutex s) as [i|] eqn:E; [|reflexivity].
  destruct (x_own _ _ I i E) as [p [Hp Hh]]. rewrite (Q p (nth_error_In _ _ Hp)) in Hh. discriminate.
Qed.

(* when every thread has returned and at least one call was made, the listeners have run; if no
   listener raised they have run exactly once *)
Theorem exec_once_exactly_once : forall s ts, xreach (s, ts) -> quiescent ts -> n_done s >= 1 ->
  n_run s >= 1 /\ (n_fail_o s = 0 -> n_fail_u s = 0 -> n_run s = 1).
Proof.
  intros s ts R Q D. pose proof (reach_xinv _ _ R) as I.
  assert (R1 : n_run s >= 1) by (apply (x_done _ _ I); left; exact D).
  split; [exact R1|]. intros F1 F2. destruct (exec_once_at_most_once s ts R). lia.
Qed.

(* once _exec_once is set no thread is or will be inside the listeners through exec_once /
   exec_once_unless_exception: the run counter is frozen *)
Lemma step_frozen : forall s ts e s' ts', XInv s ts -> f_once s = true -> stepf (s, ts) e = Some (s', ts') ->
  f_once s' = true /\ n_run s' = n_run s.
Proof.
  intros s ts e s' ts' I F H. unfold stepf in H.
  destruct e as [i k|i w b|i|i|i exc|i|i];
    (destruct (nth_error ts i) as [p|] eqn:Ei; [|discriminate]);
    destruct (XInv_at s ts i p I Ei) as (Pw & _ & Pf & _);
    destruct p as [|k0|k0|k0|k0 h|k0 h|k0 e0|k0]; try discriminate.
  - injection H as <- _. auto.
  - destruct (_ && _); [|discriminate]. destruct b; [destruct (is_sync k0)|]; injection H as <- _; auto.
  - destruct (_ && _); [|discriminate]. destruct b; injection H as <- _; auto.
  - destruct (mutex s); [discriminate|]. injection H as <- _. auto.
  - (* EBegin: a once-kind thread about to call the listeners contradicts the set flag *)
    injection H as <- _. split; [exact F|]. destruct h, k0; cbn in *; congruence.
  - destruct h; injection H as <- _; auto.
  - destruct (due k0 e0); [|discriminate]. injection H as <- _. destruct (is_sync k0); auto.
  - destruct (due k0 e0); [discriminate|]. injection H as <- _. auto.
  - injection H as <- _. auto.
Qed.
Theorem no_run_after_flag : forall tr s ts s' ts', xreach (s, ts) -> f_once s = true ->
  xrun (s, ts) tr = Some (s', ts') -> n_run s' = n_run s.
Proof.
  intros tr s ts s' ts' R. pose proof (reach_xinv _ _ R) as I. clear R. revert s ts I.
  induction tr as [|e tr IH]; intros s ts I F H; cbn [xrun] in H.
  - inversion H. reflexivity.
  - destruct (stepf (s, ts) e) as [[s1 ts1]|] eqn:E; [|discriminate].
    destruct (step_frozen _ _ _ _ _ I F E) as [F1 N1]. rewrite <- N1.
    apply (IH s1 ts1); auto. eapply step_inv; eauto.
Qed.

(* _exec_w_sync_on_first_run: until a first run has succeeded, runs of the listeners are mutually
   exclusive *)
Theorem sync_first_run_exclusive : forall s ts, xreach (s, ts) -> f_sync s = false -> forall i j p q,
  nth_error ts i = Some p -> nth_error ts j = Some q -> inside p = true -> inside q = true -> i = j.
Proof.
  intros s ts R F i j p q Hp Hq H1 H2. pose proof (reach_xinv _ _ R) as I.
  assert (A : forall n x, nth_error ts n = Some x -> inside x = true -> holds x = true).
  { intros n x Hx Hi. pose proof (x_sync _ _ I F n x Hx) as U.
    destruct x as [|k|k|k|k h|k [|]|k e|k]; try discriminate; auto. }
  eapply mutex_exclusive; eauto.
Qed.

Lemma xrun_app : forall a b st, xrun st (a ++ b) = match xrun st a with Some st' => xrun st' b | None => None end.
Proof. induction a as [|e a IH]; intros b st; cbn [xrun app]; [reflexivity|]. destruct (stepf st e); auto. Qed.

(* one call that finds the flag unset and the mutex free runs the listeners *)
Lemma call_runs : forall s ts i k, is_sync k = false -> nth_error ts i = Some Idle -> mutex s = None ->
  f_once s = false ->
  xrun (s, ts) [ECall i k; ERead i false false; ELock i; ERead i false false; EBegin i]
  = Some (bump_run k (set_sh s false (f_sync s) (Some i)), upd ts i (PIn k true)).
Proof.
  intros s ts i k Ek Hi Hm Hf. cbn [xrun]. unfold stepf at 1. rewrite Hi.
  unfold stepf at 1. rewrite (nth_upd_eq ts i (PRead k) Idle Hi), Ek, Hf. cbn [Bool.eqb andb].
  unfold stepf at 1. rewrite upd_upd, (nth_upd_eq ts i (PLock k) Idle Hi), Hm, Ek.
  unfold stepf at 1. rewrite upd_upd, (nth_upd_eq ts i (PRead2 k) Idle Hi). cbn [set_sh f_once negb andb]. rewrite Hf.
  cbn [Bool.eqb]. unfold stepf at 1. rewrite upd_upd, (nth_upd_eq ts i (PCall k true) Idle Hi), upd_upd.
  reflexivity.
Qed.

(* after an exception in exec_once_unless_exception the flag stays unset and the next call runs the
   listeners again *)
Theorem unless_exception_retries : forall s ts i j, nth_error ts i = Some Idle -> nth_error ts j = Some Idle ->
  mutex s = None -> f_once s = false ->
  exists s' ts',
    xrun (s, ts) ([ECall i KUnless; ERead i false false; ELock i; ERead i false false; EBegin i; EEnd i true; EUnlock i]
                  ++ [ECall j KUnless; ERead j false false; ELock j; ERead j false false; EBegin j]) = Some (s', ts')
    /\ f_once s' = false /\ n_run s' = 2 + n_run s.
Proof.
  intros s ts i j Hi Hj Hm Hf.
  assert (Hj' : nth_error (upd ts i Idle) j = Some Idle).
  { destruct (Nat.eq_dec i j) as [<-|N]; [eapply nth_upd_eq; eauto|rewrite nth_upd_neq by exact N; exact Hj]. }
  rewrite xrun_app.
  change [ECall i KUnless; ERead i false false; ELock i; ERead i false false; EBegin i; EEnd i true; EUnlock i]
    with ([ECall i KUnless; ERead i false false; ELock i; ERead i false false; EBegin i] ++ [EEnd i true; EUnlock i]).
  rewrite xrun_app, (call_runs s ts i KUnless eq_refl Hi Hm Hf).
  assert (E : xrun (bump_run KUnless (set_sh s false (f_sync s) (Some i)), upd ts i (PIn KUnless true))
                [EEnd i true; EUnlock i]
              = Some (bump_done KUnless (set_sh (bump_end KUnless true (bump_run KUnless (set_sh s false (f_sync s) (Some i))))
                                          false (f_sync s) None), upd ts i Idle)).
  { cbn [xrun]. unfold stepf at 1. rewrite (nth_upd_eq ts i _ Idle Hi).
    unfold stepf at 1. rewrite upd_upd, (nth_upd_eq ts i _ Idle Hi). cbn [due negb]. rewrite upd_upd. reflexivity. }
  rewrite E. rewrite call_runs; [|reflexivity|exact Hj'|reflexivity|reflexivity].
  eexists. eexists. split; [reflexivity|]. split; reflexivity.
Qed.

(* after an exception in exec_once the flag is set: the next call returns without running *)
Theorem once_exception_no_retry : forall s ts i j k, is_sync k = false ->
  nth_error ts i = Some Idle -> nth_error ts j = Some Idle -> mutex s = None -> f_once s = false ->
  exists s' ts',
    xrun (s, ts) ([ECall i KOnce; ERead i false false; ELock i; ERead i false false; EBegin i; EEnd i true; EWrite i; EUnlock i]
                  ++ [ECall j k; ERead j false true]) = Some (s', ts')
    /\ f_once s' = true /\ n_run s' = 1 + n_run s /\ nth_error ts' j = Some Idle.
Proof.
  intros s ts i j k Ek Hi Hj Hm Hf.
  assert (Hj' : nth_error (upd ts i Idle) j = Some Idle).
  { destruct (Nat.eq_dec i j) as [<-|N]; [eapply nth_upd_eq; eauto|rewrite nth_upd_neq by exact N; exact Hj]. }
  rewrite xrun_app.
  change [ECall i KOnce; ERead i false false; ELock i; ERead i false false; EBegin i; EEnd i true; EWrite i; EUnlock i]
    with ([ECall i KOnce; ERead i false false; ELock i; ERead i false false; EBegin i] ++ [EEnd i true; EWrite i; EUnlock i]).
  rewrite xrun_app, (call_runs s ts i KOnce eq_refl Hi Hm Hf).
  assert (E : xrun (bump_run KOnce (set_sh s false (f_sync s) (Some i)), upd ts i (PIn KOnce true))
                [EEnd i true; EWrite i; EUnlock i]
              = Some (bump_done KOnce (set_sh (bump_end KOnce true (bump_run KOnce (set_sh s false (f_sync s) (Some i))))
                                          true (f_sync s) None), upd ts i Idle)).
  { cbn [xrun]. unfold stepf at 1. rewrite (nth_upd_eq ts i _ Idle Hi).
    unfold stepf at 1. rewrite upd_upd, (nth_upd_eq ts i _ Idle Hi). cbn [due is_sync].
    unfold stepf at 1. rewrite upd_upd, (nth_upd_eq ts i _ Idle Hi). rewrite upd_upd. reflexivity. }
  rewrite E. cbn [xrun]. unfold stepf at 1. rewrite Hj'. unfold stepf at 1. rewrite (nth_upd_eq _ j _ Idle Hj'), Ek.
  cbn [Bool.eqb andb bump_done set_sh bump_end bump_run f_once]. rewrite upd_upd.
  eexists. eexists. split; [reflexivity|]. cbn. split; [reflexivity|]. split; [reflexivity|].
  eapply nth_upd_eq; eauto.
Qed.
