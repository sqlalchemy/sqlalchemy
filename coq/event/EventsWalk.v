(* C28 proofs, part 1: equality tests, list updates, util.walk_subclasses (fuel is always sufficient;
   for single-inheritance hierarchies the walk lists exactly the descendants, each once, every class
   after its base). *)
From Coq Require Import List Arith Bool Lia.
Import ListNotations.
From SAV.event Require Import Events.

Lemma false_iff_not : forall (b : bool) (P : Prop), (b = true <-> P) -> (b = false <-> ~ P).
Proof.
  intros [|] P [H1 H2]; split; intro X; try discriminate; try reflexivity.
  - destruct (X (H1 eq_refl)).
  - intro p. discriminate (H2 p).
Qed.

Lemma ident_eqb_eq : forall a b, ident_eqb a b = true <-> a = b.
Proof. destruct a, b; cbn; rewrite ?Nat.eqb_eq; split; congruence. Qed.
Lemma ident_eqb_refl : forall a, ident_eqb a a = true.
Proof. intro a. apply ident_eqb_eq. reflexivity. Qed.
Lemma ident_eqb_neq : forall a b, ident_eqb a b = false <-> a <> b.
Proof. intros a b. apply false_iff_not, ident_eqb_eq. Qed.
Lemma target_eqb_eq : forall a b, target_eqb a b = true <-> a = b.
Proof. destruct a, b; cbn; rewrite ?Nat.eqb_eq; split; congruence. Qed.
Lemma key_eqb_eq : forall a b : key, key_eqb a b = true <-> a = b.
Proof.
  intros [t f] [t' f']. unfold key_eqb. cbn [fst snd]. rewrite andb_true_iff, target_eqb_eq, Nat.eqb_eq.
  split; [intros [-> ->]; reflexivity|intro H; inversion H; auto].
Qed.
Lemma key_eqb_refl : forall a, key_eqb a a = true.
Proof. intro a. apply key_eqb_eq. reflexivity. Qed.
Lemma key_eqb_sym : forall a b, key_eqb a b = key_eqb b a.
Proof.
  intros a b. destruct (key_eqb a b) eqn:E.
  - apply key_eqb_eq in E. subst. symmetry. apply key_eqb_refl.
  - destruct (key_eqb b a) eqn:E'; [|reflexivity]. apply key_eqb_eq in E'. subst.
    rewrite key_eqb_refl in E. discriminate.
Qed.

Lemma memn_In : forall x l, memn x l = true <-> In x l.
Proof.
  intros x l. unfold memn. rewrite existsb_exists. split.
  - intros [y [Hy E]]. apply Nat.eqb_eq in E. subst. exact Hy.
  - intro H. exists x. split; [exact H|apply Nat.eqb_refl].
Qed.
Lemma memn_false : forall x l, memn x l = false <-> ~ In x l.
Proof. intros x l. apply false_iff_not, memn_In. Qed.

Lemma set_nth_length : forall A (l : list A) n x, length (set_nth l n x) = length l.
Proof. induction l; destruct n; cbn; intros; auto. Qed.
Lemma nth_set_nth_eq : forall A (l : list A) n x d, n < length l -> nth n (set_nth l n x) d = x.
Proof. induction l; destruct n; cbn; intros; try lia; auto. apply IHl. lia. Qed.
Lemma nth_set_nth_neq : forall A (l : list A) n m x d, n <> m -> nth m (set_nth l n x) d = nth m l d.
Proof. induction l; destruct n, m; cbn; intros; try congruence; auto. Qed.
Lemma nth_error_set_nth_eq : forall A (l : list A) n x, n < length l -> nth_error (set_nth l n x) n = Some x.
Proof. induction l; destruct n; cbn; intros; try lia; auto. apply IHl. lia. Qed.
Lemma nth_error_set_nth_neq : forall A (l : list A) n m x, n <> m -> nth_error (set_nth l n x) m = nth_error l m.
Proof. induction l; destruct n, m; cbn; intros; try congruence; auto. Qed.
Lemma map_set_nth : forall A B (f : A -> B) (l : list A) n x,
  map f (set_nth l n x) = set_nth (map f l) n (f x).
Proof. induction l; destruct n; cbn; intros; auto. rewrite IHl. reflexivity. Qed.
Lemma set_nth_set_nth : forall A (l : list A) n a b, set_nth (set_nth l n a) n b = set_nth l n b.
Proof. induction l; destruct n; cbn; intros; auto. rewrite IHl. reflexivity. Qed.
Lemma set_nth_same : forall A (l : list A) n d, set_nth l n (nth n l d) = l \/ length l <= n.
Proof.
  induction l; destruct n; cbn; intros; auto; try (right; lia).
  destruct (IHl n d) as [H|H]; [left; rewrite H; reflexivity|right; lia].
Qed.
Lemma set_nth_id : forall A (l : list A) n x, nth_error l n = Some x -> set_nth l n x = l.
Proof.
  induction l; destruct n; cbn; intros; try discriminate.
  - inversion H. reflexivity.
  - rewrite IHl; auto.
Qed.

Section Cls.
Variable cs : list cls_rec.

Lemma lvl_set_lvl_eq : forall c l, c < length cs -> lvl (set_lvl cs c l) c = Some l.
Proof. intros. unfold lvl, set_lvl, get_cls. rewrite nth_set_nth_eq; auto. Qed.
Lemma lvl_set_lvl_neq : forall c d l, c <> d -> lvl (set_lvl cs c l) d = lvl cs d.
Proof. intros. unfold lvl, set_lvl, get_cls. rewrite nth_set_nth_neq; auto. Qed.
Lemma set_lvl_length : forall c l, length (set_lvl cs c l) = length cs.
Proof. intros. unfold set_lvl. apply set_nth_length. Qed.
Lemma hier_set_lvl : forall c l,
  map (fun r => (c_bases r, c_mro r)) (set_lvl cs c l) = map (fun r => (c_bases r, c_mro r)) cs.
Proof.
  intros. unfold set_lvl. rewrite map_set_nth. cbn.
  destruct (Nat.lt_ge_cases c (length cs)).
  - apply set_nth_id. rewrite nth_error_map. unfold get_cls.
    rewrite (nth_error_nth' cs dflt_cls H). reflexivity.
  - clear -H. revert c H. induction cs; destruct c; cbn; intros; auto; try lia. rewrite IHl; auto. lia.
Qed.
Lemma bases_mro_set_lvl : forall c l d,
  c_bases (get_cls (set_lvl cs c l) d) = c_bases (get_cls cs d) /\
  c_mro (get_cls (set_lvl cs c l) d) = c_mro (get_cls cs d).
Proof.
  intros. pose proof (f_equal (fun h => nth d h ([], [])) (hier_set_lvl c l)) as E. cbn beta in E.
  rewrite !(map_nth (fun r => (c_bases r, c_mro r)) _ dflt_cls) in E. injection E as E1 E2. split; assumption.
Qed.
Lemma bases_set_lvl : forall c l d, c_bases (get_cls (set_lvl cs c l) d) = c_bases (get_cls cs d).
Proof. intros. apply bases_mro_set_lvl. Qed.
Lemma mro_set_lvl : forall c l d, c_mro (get_cls (set_lvl cs c l) d) = c_mro (get_cls cs d).
Proof. intros. apply bases_mro_set_lvl. Qed.
End Cls.

Lemma subclasses_set_lvl : forall cs c l p, subclasses (set_lvl cs c l) p = subclasses cs p.
Proof.
  intros. unfold subclasses. rewrite set_lvl_length. apply filter_ext. intro d. rewrite bases_set_lvl. reflexivity.
Qed.

Fixpoint sumf (g : nat -> nat) (l : list nat) : nat :=
  match l with [] => 0 | x :: r => g x + sumf g r end.
Definition weight (cs : list cls_rec) (seen : list nat) : nat :=
  sumf (fun c => if memn c seen then 0 else length (subclasses cs c)) (seq 0 (length cs)).

Lemma sumf_fold : forall g l, fold_right (fun x a => g x + a) 0 l = sumf g l.
Proof. induction l; cbn; auto. Qed.

Lemma memn_cons_neq : forall a c seen, a <> c -> memn a (c :: seen) = memn a seen.
Proof. intros. unfold memn. cbn. destruct (Nat.eqb_spec a c); [contradiction|reflexivity]. Qed.

Lemma sumf_mark : forall (g : nat -> nat) seen c l, NoDup l -> memn c seen = false ->
  sumf (fun x => if memn x (c :: seen) then 0 else g x) l + (if memn c l then g c else 0)
  = sumf (fun x => if memn x seen then 0 else g x) l.
Proof.
  intros g seen c. induction l as [|a l IH]; intros ND Hc; [reflexivity|].
  inversion ND as [|? ? Ha ND']; subst. specialize (IH ND' Hc). cbn [sumf].
  destruct (Nat.eq_dec c a) as [<-|N].
  - apply memn_false in Ha. rewrite Ha in IH. unfold memn at 1 3. cbn [existsb]. rewrite Nat.eqb_refl, Hc. cbn [orb]. lia.
  - rewrite (memn_cons_neq a c seen) by auto. rewrite (memn_cons_neq c a l N). lia.
Qed.

Lemma weight_cons : forall cs seen c, c < length cs -> memn c seen = false ->
  weight cs (c :: seen) + length (subclasses cs c) = weight cs seen.
Proof.
  intros cs seen c Hc Hs. unfold weight.
  rewrite <- (sumf_mark (fun x => length (subclasses cs x)) seen c _ (seq_NoDup _ _) Hs).
  rewrite (proj2 (memn_In c _)) by (apply in_seq; lia). reflexivity.
Qed.

Lemma subclasses_lt : forall cs p d, In d (subclasses cs p) -> d < length cs.
Proof. intros cs p d H. unfold subclasses in H. apply filter_In in H. destruct H as [H _]. apply in_seq in H. lia. Qed.

Lemma walk_some : forall cs fuel stack seen,
  (forall c, In c stack -> c < length cs) -> length stack + weight cs seen < fuel ->
  exists w, walk cs fuel stack seen = Some w.
Proof.
  intros cs. induction fuel as [|f IH]; intros stack seen Hlt Hm; [lia|].
  destruct stack as [|c rest]; [exists []; reflexivity|].
  cbn [walk]. destruct (memn c seen) eqn:Hc.
  - apply IH; [intros; apply Hlt; right; auto|cbn in Hm; lia].
  - destruct (IH (rev (subclasses cs c) ++ rest) (c :: seen)) as [w Hw].
    + intros d Hd. apply in_app_or in Hd. destruct Hd as [Hd|Hd].
      * apply in_rev in Hd. eapply subclasses_lt; eauto.
      * apply Hlt. right. exact Hd.
    + rewrite app_length, rev_length. pose proof (weight_cons cs seen c (Hlt c (or_introl eq_refl)) Hc).
      cbn in Hm. lia.
    + rewrite Hw. eexists. reflexivity.
Qed.

Lemma walk_subclasses_some : forall cs t, t < length cs -> exists w, walk_subclasses cs t = Some w.
Proof.
  intros cs t H. unfold walk_subclasses, walk_fuel. apply walk_some.
  - intros c [<-|[]]. exact H.
  - cbn [length]. assert (E : weight cs [] = edges cs).
    { unfold weight, edges. rewrite sumf_fold. reflexivity. }
    rewrite E. lia.
Qed.

(* in this order: each class once, none already seen, the stack is covered, the result is closed under
   subclasses, and every class other than a stack entry comes after a class it is a subclass of *)
Lemma walk_props : forall cs fuel stack seen w, walk cs fuel stack seen = Some w ->
  NoDup w /\
  (forall d, In d w -> ~ In d seen) /\
  (forall s, In s stack -> In s seen \/ In s w) /\
  (forall d ch, In d w -> In ch (subclasses cs d) -> In ch seen \/ In ch w) /\
  (forall pre d post, w = pre ++ d :: post -> In d stack \/ exists p, In p pre /\ In d (subclasses cs p)).
Proof.
  intros cs. induction fuel as [|f IH]; intros stack seen w H.
  - destruct stack; [|discriminate]. inversion H. subst. repeat split; try constructor; intros; try contradiction.
    destruct pre; discriminate.
  - destruct stack as [|c rest].
    { inversion H. subst. repeat split; try constructor; intros; try contradiction. destruct pre; discriminate. }
    cbn [walk] in H. destruct (memn c seen) eqn:Hc.
    + destruct (IH _ _ _ H) as (A & B & C & D & E). repeat split; auto.
      * intros s [<-|Hs]; [left; apply memn_In; exact Hc|apply C; exact Hs].
      * intros pre d post Hw. destruct (E pre d post Hw) as [X|X]; [left; right; exact X|right; exact X].
    + destruct (walk cs f (rev (subclasses cs c) ++ rest) (c :: seen)) as [w'|] eqn:Hw'; [|discriminate].
      cbn in H. inversion H. subst w. clear H.
      destruct (IH _ _ _ Hw') as (A & B & C & D & E).
      apply memn_false in Hc.
      repeat split.
      * constructor; [|exact A]. intro X. apply (B c X). left. reflexivity.
      * intros d [<-|Hd]; [exact Hc|]. intro X. apply (B d Hd). right. exact X.
      * intros s [<-|Hs]; [right; left; reflexivity|].
        destruct (C s (in_or_app _ _ _ (or_intror Hs))) as [[<-|X]|X]; [right; left; reflexivity|left; exact X|right; right; exact X].
      * intros d ch [<-|Hd] Hch.
        -- destruct (C ch (in_or_app _ _ _ (or_introl (proj1 (in_rev _ _) Hch)))) as [[<-|X]|X];
             [right; left; reflexivity|left; exact X|right; right; exact X].
        -- destruct (D d ch Hd Hch) as [[<-|X]|X]; [right; left; reflexivity|left; exact X|right; right; exact X].
      * intros pre d post Hw. destruct pre as [|a pre].
        -- cbn in Hw. inversion Hw. left. left. reflexivity.
        -- cbn in Hw. inversion Hw. subst a.
           destruct (E pre d post H1) as [X|[p [Hp Hd]]].
           ++ apply in_app_or in X. destruct X as [X|X].
              ** right. exists c. split; [left; reflexivity|apply in_rev; exact X].
              ** left. right. exact X.
           ++ right. exists p. split; [right; exact Hp|exact Hd].
Qed.

Definition mro (cs : list cls_rec) (c : nat) : list nat := c_mro (get_cls cs c).
Definition single (cs : list cls_rec) : Prop :=
  forall c, c < length cs ->
    (c_bases (get_cls cs c) = [] /\ mro cs c = []) \/
    (exists b, b < c /\ c_bases (get_cls cs c) = [b] /\ mro cs c = b :: mro cs b).
Definition desc (cs : list cls_rec) (t d : nat) : Prop := d = t \/ In t (mro cs d).

Section Single.
Variable cs : list cls_rec.
Hypothesis Hs : single cs.

Lemma mro_lt : forall c q, c < length cs -> In q (mro cs c) -> q < c.
Proof.
  induction c as [c IH] using lt_wf_ind. intros q Hc Hq.
  destruct (Hs c Hc) as [[_ E]|[b [Hb [_ E]]]]; rewrite E in Hq; [destruct Hq|].
  destruct Hq as [<-|Hq]; [exact Hb|]. assert (q < b) by (apply IH; auto; lia). lia.
Qed.

Lemma mro_suffix : forall c pre p rest, c < length cs -> mro cs c = pre ++ p :: rest -> rest = mro cs p.
Proof.
  induction c as [c IH] using lt_wf_ind. intros pre p rest Hc E.
  destruct (Hs c Hc) as [[_ E']|[b [Hb [_ E']]]]; rewrite E' in E.
  - destruct pre; discriminate.
  - destruct pre as [|a pre]; cbn in E; inversion E; subst.
    + reflexivity.
    + apply (IH a Hb pre p rest); [lia|assumption].
Qed.

Lemma mro_trans : forall c p q, c < length cs -> In p (mro cs c) -> In q (mro cs p) -> In q (mro cs c).
Proof.
  intros c p q Hc Hp Hq. destruct (in_split _ _ Hp) as [pre [rest E]].
  rewrite E. rewrite (mro_suffix c pre p rest Hc E). apply in_or_app. right. right. exact Hq.
Qed.

Lemma mro_comparable : forall c a b, c < length cs -> In a (c :: mro cs c) -> In b (c :: mro cs c) ->
  a = b \/ In a (mro cs b) \/ In b (mro cs a).
Proof.
  intros c a b Hc Ha Hb.
  destruct Ha as [<-|Ha], Hb as [<-|Hb]; auto.
  destruct (in_split _ _ Ha) as [pre [rest E]].
  pose proof (mro_suffix c pre a rest Hc E) as Er. rewrite E in Hb.
  apply in_app_or in Hb. destruct Hb as [Hb|[<-|Hb]]; auto.
  - (* b before a: a is an ancestor of b *)
    destruct (in_split _ _ Hb) as [pre' [rest' E']]. rewrite E' in E. rewrite <- app_assoc in E. cbn in E.
    pose proof (mro_suffix c pre' b (rest' ++ a :: rest) Hc E) as Er'.
    right. left. rewrite <- Er'. apply in_or_app. right. left. reflexivity.
  - right. right. rewrite <- Er. exact Hb.
Qed.

Lemma desc_lt : forall t d, d < length cs -> desc cs t d -> t <= d.
Proof. intros t d Hd [->|H]; [lia|]. pose proof (mro_lt d t Hd H). lia. Qed.

Lemma sub_parent : forall p d, In d (subclasses cs p) -> d < length cs /\ mro cs d = p :: mro cs p /\ p < d.
Proof.
  intros p d H. unfold subclasses in H. apply filter_In in H. destruct H as [H1 H2].
  apply in_seq in H1. assert (Hd : d < length cs) by lia. split; [exact Hd|].
  destruct (Hs d Hd) as [[E _]|[b [Hb [E E']]]]; rewrite E in H2; [discriminate|].
  apply memn_In in H2. destruct H2 as [<-|[]]. auto.
Qed.

Lemma parent_sub : forall p d, d < length cs -> mro cs d = p :: mro cs p -> In d (subclasses cs p).
Proof.
  intros p d Hd E. unfold subclasses. apply filter_In. split; [apply in_seq; lia|].
  destruct (Hs d Hd) as [[_ E']|[b [Hb [Eb E']]]]; rewrite E' in E; [discriminate|].
  inversion E. subst. rewrite Eb. apply memn_In. left. reflexivity.
Qed.

Lemma walk_single : forall t w, t < length cs -> walk_subclasses cs t = Some w ->
  NoDup w /\
  (forall d, In d w <-> d < length cs /\ desc cs t d) /\
  (forall pre d post, w = pre ++ d :: post -> d <> t -> exists p, In p pre /\ mro cs d = p :: mro cs p).
Proof.
  intros t w Ht Hw. unfold walk_subclasses in Hw.
  destruct (walk_props _ _ _ _ _ Hw) as (A & _ & C & D & E).
  assert (Ord : forall pre d post, w = pre ++ d :: post -> d <> t -> exists p, In p pre /\ mro cs d = p :: mro cs p).
  { intros pre d post Hpre Hne. destruct (E pre d post Hpre) as [[<-|[]]|[p [Hp Hd]]]; [congruence|].
    exists p. split; [exact Hp|]. apply sub_parent in Hd. tauto. }
  split; [exact A|]. split; [|exact Ord].
  intro d. split.
  - (* soundness: by induction on the position *)
    intro Hd. destruct (in_split _ _ Hd) as [pre [post Hpre]].
    assert (Aux : forall n pre d post, length pre < n -> w = pre ++ d :: post -> d < length cs /\ desc cs t d).
    { clear d pre post Hd Hpre. induction n as [|n IH]; intros pre d post Hn Hpre; [lia|].
      destruct (Nat.eq_dec d t) as [->|Hne]; [split; [exact Ht|left; reflexivity]|].
      destruct (E pre d post Hpre) as [[<-|[]]|[p [Hp Hdp]]]; [congruence|].
      destruct (in_split _ _ Hp) as [pre' [post' Hpre']].
      assert (Hw' : w = pre' ++ p :: (post' ++ d :: post)).
      { rewrite Hpre, Hpre'. rewrite <- app_assoc. reflexivity. }
      assert (Hl : length pre' < n) by (rewrite Hpre', app_length in Hn; cbn in Hn; lia).
      destruct (IH pre' p _ Hl Hw') as [Hpl Hpd].
      apply sub_parent in Hdp. destruct Hdp as (Hdl & Em & _). split; [exact Hdl|].
      right. rewrite Em. destruct Hpd as [->|Hpd]; [left; reflexivity|right; exact Hpd]. }
    exact (Aux (S (length pre)) pre d post (Nat.lt_succ_diag_r _) Hpre).
  - (* completeness: by induction on d *)
    intros [Hdl Hd]. revert Hdl Hd. induction d as [d IH] using lt_wf_ind. intros Hdl Hd.
    destruct Hd as [->|Hd].
    + destruct (C t (or_introl eq_refl)) as [[]|X]. exact X.
    + destruct (Hs d Hdl) as [[_ Em]|[b [Hb [_ Em]]]]; rewrite Em in Hd; [destruct Hd|].
      assert (Hbw : In b w).
      { apply IH; [exact Hb|lia|]. destruct Hd as [->|Hd]; [left; reflexivity|right; exact Hd]. }
      destruct (D b d Hbw (parent_sub b d Hdl Em)) as [[]|X]. exact X.
Qed.

End Single.
