(* C28 proofs, part 3: the refinement invariant INV between the model and the registration-log
   specification, and its preservation by every operation (step_refines, run_refines). *)
From Coq Require Import List Arith Bool Lia Permutation.
Import ListNotations.
From SAV.event Require Import Events EventsWalk EventsColl.

Definition hpair (r : cls_rec) : list nat * list nat := (c_bases r, c_mro r).
Definition hier_of (cs : list cls_rec) : list (list nat * list nat) := map hpair cs.
Definition inst_regs (i : nat) (log : list reg) : list reg := ordered (filter (rel_inst i) log).
Definition kv (r : reg) : key * lfn := (key_of r, lfn_of r).

(* inv_lvl: every list in _clslevel is the one the log prescribes; inv_tgt_c / inv_tgt_i: the targets of the log exist,
   class targets are in _clslevel; inv_inst: instances know an existing class that is in _clslevel, and hold the prescribed
   list; inv_idlt / inv_idnd: the running numbers that name wrapper closures are fresh and distinct; inv_clash: guard
   clause (g3) as a property of the log - an unwrapped function is registered once among comparable classes. *)
Record INV (st : state) (sp : sstate) : Prop := {
  inv_hier : hier_of (classes st) = s_hier sp;
  inv_single : single (classes st);
  inv_lvl : forall c l, c < length (classes st) -> lvl (classes st) c = Some l ->
            l = cls_list (classes st) (s_log sp) c;
  inv_tgt_c : forall r q, In r (s_log sp) -> g_tgt r = TCls q ->
              q < length (classes st) /\ lvl (classes st) q <> None;
  inv_tgt_i : forall r i, In r (s_log sp) -> g_tgt r = TInst i -> i < length (insts st);
  inv_icls : map i_cls (insts st) = s_insts sp;
  inv_inst : forall i ir, nth_error (insts st) i = Some ir ->
             i_cls ir < length (classes st) /\ lvl (classes st) (i_cls ir) <> None /\
             coll_list ir = map lfn_of (inst_regs i (s_log sp));
  inv_k2c : k2c st = map kv (s_log sp);
  inv_next : next_w st = s_next sp;
  inv_fired : fired st = map IdW (s_fired sp);
  inv_keys : NoDup (map key_of (s_log sp));
  inv_idlt : forall r, In r (s_log sp) -> g_id r < s_next sp;
  inv_idnd : NoDup (map g_id (s_log sp));
  inv_clash : forall r1 r2 t1 t2, In r1 (s_log sp) -> In r2 (s_log sp) -> plain r1 = true -> plain r2 = true ->
              g_fn r1 = g_fn r2 -> g_tgt r1 = TCls t1 -> g_tgt r2 = TCls t2 ->
              (t1 = t2 \/ In t1 (mro (classes st) t2) \/ In t2 (mro (classes st) t1)) -> r1 = r2 }.

Lemma has_key_live : forall k log, has_key k (map kv log) = live k log.
Proof. intros. unfold has_key, live. rewrite existsb_map. reflexivity. Qed.

Lemma lookup_key_none : forall k log, live k log = false -> lookup_key k (map kv log) = None.
Proof.
  induction log as [|a log IH]; cbn; intro H; [reflexivity|].
  apply orb_false_iff in H. destruct H as [H1 H2]. rewrite H1. apply IH. exact H2.
Qed.
Lemma lookup_key_some : forall k log, live k log = true ->
  exists r, In r log /\ key_of r = k /\ lookup_key k (map kv log) = Some (lfn_of r).
Proof.
  induction log as [|a log IH]; cbn; intro H; [discriminate|].
  destruct (key_eqb k (key_of a)) eqn:E.
  - exists a. split; [left; reflexivity|]. split; [symmetry; apply key_eqb_eq; exact E|reflexivity].
  - cbn in H. destruct (IH H) as [r [H1 [H2 H3]]]. exists r. split; [right; exact H1|]. split; assumption.
Qed.
Lemma del_key_log : forall k log, del_key k (map kv log) = map kv (filter (not_key k) log).
Proof.
  intros k log. unfold del_key. induction log as [|a log IH]; cbn [map filter]; [reflexivity|].
  unfold not_key at 1. cbn [kv fst]. destruct (key_eqb k (key_of a)); cbn [negb map]; rewrite IH; reflexivity.
Qed.
Lemma live_In : forall k log, live k log = true <-> exists r, In r log /\ key_of r = k.
Proof.
  intros. unfold live. rewrite existsb_exists. split; intros [r [H1 H2]]; exists r; split; auto.
  - symmetry. apply key_eqb_eq. exact H2.
  - apply key_eqb_eq. symmetry. exact H2.
Qed.
Lemma filter_not_key_id : forall k L, (forall y, In y L -> key_of y <> k) -> filter (not_key k) L = L.
Proof.
  intros. apply filter_all. intros y Hy. apply not_key_true. apply H. exact Hy.
Qed.

Lemma mem_ident_IdW : forall k F, mem_ident (IdW k) (map IdW F) = memn k F.
Proof. intros. unfold mem_ident, memn. rewrite existsb_map. reflexivity. Qed.

Lemma call_all_spec : forall L F,
  call_all (map lfn_of L) (map IdW F) = (fst (spec_call L F), map IdW (snd (spec_call L F))).
Proof.
  induction L as [|r L IH]; intro F; cbn [map call_all spec_call]; [reflexivity|].
  change (l_once (lfn_of r)) with (g_once r). change (l_fn (lfn_of r)) with (g_fn r).
  destruct (g_once r) eqn:Eo.
  - assert (Ei : l_id (lfn_of r) = IdW (g_id r)) by (unfold lfn_of; cbn; rewrite Eo; reflexivity).
    rewrite Ei, mem_ident_IdW. destruct (memn (g_id r) F).
    + apply IH.
    + change (IdW (g_id r) :: map IdW F) with (map IdW (g_id r :: F)). rewrite IH.
      destruct (spec_call L (g_id r :: F)). reflexivity.
  - rewrite IH. destruct (spec_call L F). reflexivity.
Qed.

Lemma s_mro_eq : forall st sp c, hier_of (classes st) = s_hier sp -> s_mro sp c = mro (classes st) c.
Proof.
  intros st sp c H. unfold s_mro, mro, get_cls. rewrite <- H. unfold hier_of.
  change (@nil nat, @nil nat) with (hpair dflt_cls). rewrite map_nth. reflexivity.
Qed.
Lemma hier_len : forall st sp, hier_of (classes st) = s_hier sp -> length (s_hier sp) = length (classes st).
Proof. intros st sp H. rewrite <- H. unfold hier_of. apply map_length. Qed.
Lemma hier_same : forall a b, same_hier a b -> hier_of a = hier_of b.
Proof.
  intros a b [H1 H2]. unfold hier_of.
  apply nth_ext with (d := hpair dflt_cls) (d' := hpair dflt_cls).
  - rewrite !map_length. exact H1.
  - intros n Hn. rewrite !map_nth. unfold hpair. destruct (H2 n) as [E1 E2]. unfold mro, get_cls in *.
    rewrite E1, E2. reflexivity.
Qed.

Lemma get_cls_app_old : forall cs x c, c < length cs -> get_cls (cs ++ [x]) c = get_cls cs c.
Proof. intros. unfold get_cls. apply app_nth1. exact H. Qed.
Lemma get_cls_app_new : forall cs x, get_cls (cs ++ [x]) (length cs) = x.
Proof. intros. unfold get_cls. rewrite app_nth2 by lia. rewrite Nat.sub_diag. reflexivity. Qed.

Lemma list_eq_nat_eq : forall a b, list_eq_nat a b = true -> a = b.
Proof.
  induction a as [|x a IH]; destruct b as [|y b]; cbn; intro H; try discriminate; [reflexivity|].
  apply andb_true_iff in H. destruct H as [H1 H2]. apply Nat.eqb_eq in H1. rewrite (IH b H2), H1. reflexivity.
Qed.

Lemma ident_of_plain : forall r, plain r = true -> ident_of r = IdF (g_fn r).
Proof. intros r H. unfold ident_of, lfn_of, plain in *. cbn. apply negb_true_iff in H. rewrite H. reflexivity. Qed.
Lemma ident_of_wrapped : forall r, plain r = false -> ident_of r = IdW (g_id r).
Proof. intros r H. unfold ident_of, lfn_of, plain in *. cbn. apply negb_false_iff in H. rewrite H. reflexivity. Qed.

Section Idents.
Variable st : state.
Variable sp : sstate.
Hypothesis I : INV st sp.

Lemma ident_inj_log : forall x y, In x (s_log sp) -> In y (s_log sp) -> ident_of x = ident_of y ->
  (plain x = true -> plain y = true -> g_fn x = g_fn y -> x = y) -> x = y.
Proof.
  intros x y Hx Hy E Hp. destruct (plain x) eqn:Px, (plain y) eqn:Py.
  - apply Hp; auto. rewrite !ident_of_plain in E by assumption. congruence.
  - rewrite ident_of_plain, ident_of_wrapped in E by assumption. discriminate.
  - rewrite ident_of_wrapped, ident_of_plain in E by assumption. discriminate.
  - rewrite !ident_of_wrapped in E by assumption. inversion E.
    eapply NoDup_map_inj; [apply (inv_idnd _ _ I)| | |]; eauto.
Qed.

Lemma cls_idents_nodup : forall c, c < length (classes st) ->
  NoDup (map ident_of (cls_regs (mro (classes st) c) c (s_log sp))).
Proof.
  intros c Hc. unfold cls_regs. apply NoDup_map_ordered, NoDup_map_on.
  - apply NoDup_filter. eapply NoDup_of_map. apply (inv_keys _ _ I).
  - intros x y Hx Hy E. apply filter_In in Hx. apply filter_In in Hy.
    destruct Hx as [Hx Rx], Hy as [Hy Ry]. apply ident_inj_log; auto.
    intros Px Py Ef. apply rel_cls_true in Rx. apply rel_cls_true in Ry.
    destruct Rx as [t1 [T1 Rx]]. destruct Ry as [t2 [T2 Ry]].
    apply (inv_clash _ _ I x y t1 t2); auto.
    apply (mro_comparable _ (inv_single _ _ I) c); auto.
    + destruct Rx as [->|Rx]; [left; reflexivity|right; exact Rx].
    + destruct Ry as [->|Ry]; [left; reflexivity|right; exact Ry].
Qed.

Lemma inst_idents_nodup : forall i, NoDup (map ident_of (inst_regs i (s_log sp))).
Proof.
  intro i. unfold inst_regs. apply NoDup_map_ordered, NoDup_map_on.
  - apply NoDup_filter. eapply NoDup_of_map. apply (inv_keys _ _ I).
  - intros x y Hx Hy E. apply filter_In in Hx. apply filter_In in Hy.
    destruct Hx as [Hx Rx], Hy as [Hy Ry]. apply ident_inj_log; auto.
    intros Px Py Ef. unfold rel_inst in Rx, Ry.
    destruct (g_tgt x) as [|j1] eqn:T1; [discriminate|]. destruct (g_tgt y) as [|j2] eqn:T2; [discriminate|].
    apply Nat.eqb_eq in Rx. apply Nat.eqb_eq in Ry. subst.
    eapply NoDup_map_inj; [apply (inv_keys _ _ I)| | |]; eauto. unfold key_of. congruence.
Qed.
Lemma inst_keys_nodup : forall i, NoDup (map key_of (inst_regs i (s_log sp))).
Proof.
  intro i. unfold inst_regs. apply NoDup_map_ordered, NoDup_map_filter. apply (inv_keys _ _ I).
Qed.
End Idents.

Lemma rel_inst_cls : forall i r c, g_tgt r = TCls c -> rel_inst i r = false.
Proof. intros. unfold rel_inst. rewrite H. reflexivity. Qed.
Lemma rel_cls_inst : forall m c r i, g_tgt r = TInst i -> rel_cls m c r = false.
Proof. intros. unfold rel_cls. rewrite H. reflexivity. Qed.

Lemma inst_regs_snoc_irr : forall i log r, rel_inst i r = false -> inst_regs i (log ++ [r]) = inst_regs i log.
Proof. intros. apply ordered_filter_snoc_irr. assumption. Qed.
Lemma inst_regs_snoc_rel : forall i log r, rel_inst i r = true ->
  map lfn_of (inst_regs i (log ++ [r])) = place (negb (g_ins r)) (lfn_of r) (map lfn_of (inst_regs i log)).
Proof. intros. apply ordered_filter_snoc_rel. assumption. Qed.
Lemma inst_regs_del : forall i log k, inst_regs i (filter (not_key k) log) = filter (not_key k) (inst_regs i log).
Proof. intros. apply ordered_filter_del. Qed.
Lemma In_inst_regs : forall i log r, In r (inst_regs i log) <-> In r log /\ rel_inst i r = true.
Proof. intros. apply In_ordered_filter. Qed.

Lemma map_icls_set : forall (l : list inst_rec) i ir x, nth_error l i = Some ir ->
  map i_cls (set_nth l i {| i_cls := i_cls ir; i_coll := x |}) = map i_cls l.
Proof.
  intros. rewrite map_set_nth. cbn. apply set_nth_id. rewrite nth_error_map, H. reflexivity.
Qed.

Definition log_ok (log : list reg) (n : nat) : Prop :=
  NoDup (map key_of log) /\ (forall r, In r log -> g_id r < n) /\ NoDup (map g_id log).

(* INV after a change of the class-level collections: the class table keeps its hierarchy, the log
   changes in registrations with class targets only, the instances stay as they are *)
Lemma INV_cls_change : forall st sp cs' log' m' nw' n',
  INV st sp -> same_hier cs' (classes st) -> m' = map kv log' -> nw' = n' -> log_ok log' n' ->
  (forall d l, d < length (classes st) -> lvl cs' d = Some l -> l = cls_list (classes st) log' d) ->
  (forall d, lvl (classes st) d <> None -> lvl cs' d <> None) ->
  (forall r q, In r log' -> g_tgt r = TCls q -> q < length (classes st) /\ lvl cs' q <> None) ->
  (forall r i, In r log' -> g_tgt r = TInst i -> In r (s_log sp)) ->
  (forall j, inst_regs j log' = inst_regs j (s_log sp)) ->
  (forall r1 r2 t1 t2, In r1 log' -> In r2 log' -> plain r1 = true -> plain r2 = true ->
     g_fn r1 = g_fn r2 -> g_tgt r1 = TCls t1 -> g_tgt r2 = TCls t2 ->
     (t1 = t2 \/ In t1 (mro (classes st) t2) \/ In t2 (mro (classes st) t1)) -> r1 = r2) ->
  INV {| classes := cs'; insts := insts st; k2c := m'; next_w := nw'; fired := fired st |}
      {| s_hier := s_hier sp; s_insts := s_insts sp; s_log := log'; s_next := n'; s_fired := s_fired sp |}.
Proof.
  intros st sp cs' log' m' nw' n' I SH -> -> (K1 & K2 & K3) Hl Hm Htc Hti Hir Hcl. pose proof SH as [SL SM].
  constructor; cbn [classes insts k2c next_w fired s_hier s_insts s_log s_next s_fired]; try reflexivity.
  - rewrite (hier_same _ _ SH). apply (inv_hier _ _ I).
  - eapply same_hier_single; eauto. apply (inv_single _ _ I).
  - intros c l Hc E. rewrite SL in Hc. rewrite (same_hier_cls_list _ _ _ _ SH). apply Hl; assumption.
  - rewrite SL. exact Htc.
  - intros r i Hr Et. apply (inv_tgt_i _ _ I r i (Hti r i Hr Et) Et).
  - apply (inv_icls _ _ I).
  - intros i ir Hi. destruct (inv_inst _ _ I i ir Hi) as (A & B & C). rewrite SL, Hir. repeat split; auto.
  - apply (inv_fired _ _ I).
  - exact K1.
  - exact K2.
  - exact K3.
  - intros r1 r2 t1 t2 H1 H2 P1 P2 Ef T1 T2 Hc. apply (Hcl r1 r2 t1 t2); auto.
    destruct (SM t1) as [_ <-]. destruct (SM t2) as [_ <-]. exact Hc.
Qed.

(* INV after a change of the collection of instance i: the log changes in registrations with
   target i only *)
Lemma INV_inst_change : forall st sp i ir l' log' m' nw' n',
  INV st sp -> nth_error (insts st) i = Some ir -> m' = map kv log' -> nw' = n' -> log_ok log' n' ->
  (forall r, In r log' -> In r (s_log sp) \/ g_tgt r = TInst i) ->
  (forall m c, cls_regs m c log' = cls_regs m c (s_log sp)) ->
  (forall j, i <> j -> inst_regs j log' = inst_regs j (s_log sp)) ->
  l' = map lfn_of (inst_regs i log') ->
  INV {| classes := classes st; insts := set_nth (insts st) i {| i_cls := i_cls ir; i_coll := Some l' |};
         k2c := m'; next_w := nw'; fired := fired st |}
      {| s_hier := s_hier sp; s_insts := s_insts sp; s_log := log'; s_next := n'; s_fired := s_fired sp |}.
Proof.
  intros st sp i ir l' log' m' nw' n' I Ei -> -> (K1 & K2 & K3) Hsub Hcr Hir ->.
  assert (Hi : i < length (insts st)) by (apply nth_error_Some; congruence).
  destruct (inv_inst _ _ I i ir Ei) as (A & B & _).
  constructor; cbn [classes insts k2c next_w fired s_hier s_insts s_log s_next s_fired]; try reflexivity.
  - apply (inv_hier _ _ I).
  - apply (inv_single _ _ I).
  - intros c l Hc El. unfold cls_list. rewrite Hcr. apply (inv_lvl _ _ I); assumption.
  - intros r q Hr Et. destruct (Hsub r Hr) as [Hr'|X]; [apply (inv_tgt_c _ _ I r q Hr' Et)|congruence].
  - intros r j Hr Et. rewrite set_nth_length. destruct (Hsub r Hr) as [Hr'|X]; [apply (inv_tgt_i _ _ I r j Hr' Et)|congruence].
  - rewrite map_icls_set by exact Ei. apply (inv_icls _ _ I).
  - intros j jr Hj. destruct (Nat.eq_dec i j) as [<-|N].
    + rewrite nth_error_set_nth_eq in Hj by exact Hi. inversion Hj. repeat split; auto.
    + rewrite nth_error_set_nth_neq in Hj by exact N. rewrite (Hir j N). apply (inv_inst _ _ I j jr Hj).
  - apply (inv_fired _ _ I).
  - exact K1.
  - exact K2.
  - exact K3.
  - intros r1 r2 t1 t2 H1 H2 P1 P2 Ef T1 T2 Hc.
    destruct (Hsub r1 H1) as [H1'|X]; [|congruence]. destruct (Hsub r2 H2) as [H2'|X]; [|congruence].
    apply (inv_clash _ _ I r1 r2 t1 t2); auto.
Qed.

Lemma log_ok_S : forall log n, log_ok log n -> log_ok log (S n).
Proof. intros log n (K1 & K2 & K3). split; [exact K1|]. split; [|exact K3]. intros r Hr. pose proof (K2 r Hr). lia. Qed.
Lemma log_ok_inv : forall st sp, INV st sp -> log_ok (s_log sp) (s_next sp).
Proof. intros st sp I. split; [apply (inv_keys _ _ I)|]. split; [apply (inv_idlt _ _ I)|apply (inv_idnd _ _ I)]. Qed.
Lemma log_ok_filter : forall log n p, log_ok log n -> log_ok (filter p log) n.
Proof.
  intros log n p (K1 & K2 & K3). split; [apply NoDup_map_filter; exact K1|]. split; [|apply NoDup_map_filter; exact K3].
  intros r Hr. apply filter_In in Hr. apply K2. tauto.
Qed.

Lemma touch_class : forall st sp c, INV st sp -> c < length (classes st) ->
  let cs := classes st in
  let cs' := if in_lvl cs c then cs else update_subclass cs c in
  same_hier cs' cs /\ lvl cs' c <> None /\
  (forall d l, d < length cs -> lvl cs' d = Some l -> l = cls_list cs (s_log sp) d) /\
  (forall d, lvl cs d <> None -> lvl cs' d <> None).
Proof.
  intros st sp c I Hc cs cs'. unfold cs'. unfold in_lvl. destruct (lvl cs c) as [l|] eqn:E.
  - split; [apply same_hier_refl|]. split; [congruence|]. split; [apply (inv_lvl _ _ I)|auto].
  - rewrite (update_subclass_spec cs (s_log sp) c (inv_single _ _ I) Hc E).
    + split; [apply same_hier_set_lvl, same_hier_refl|]. split; [rewrite lvl_set_lvl_eq by exact Hc; discriminate|].
      split.
      * intros d l Hd El. destruct (Nat.eq_dec c d) as [<-|N].
        -- rewrite lvl_set_lvl_eq in El by exact Hc. congruence.
        -- rewrite lvl_set_lvl_neq in El by exact N. apply (inv_lvl _ _ I); assumption.
      * intros d Hd. destruct (Nat.eq_dec c d) as [<-|N]; [contradiction|]. rewrite lvl_set_lvl_neq by exact N. exact Hd.
    + intros q l Hq El. apply (inv_lvl _ _ I); [|exact El].
      pose proof (mro_lt _ (inv_single _ _ I) c q Hc Hq). fold cs in H. lia.
    + intros r q Hr Et _. apply (inv_tgt_c _ _ I r q Hr Et).
Qed.

Lemma step_newinst : forall st sp c, INV st sp ->
  snd (step st (NewInst c)) = snd (sstep sp (NewInst c)) /\
  INV (fst (step st (NewInst c))) (fst (sstep sp (NewInst c))).
Proof.
  intros st sp c I. cbn [step sstep]. rewrite (hier_len _ _ (inv_hier _ _ I)).
  destruct (Nat.ltb_spec c (length (classes st))) as [Hc|Hc]; cbn [fst snd]; [|split; [reflexivity|exact I]].
  split; [reflexivity|].
  destruct (touch_class st sp c I Hc) as (SH & Hne & Hl & Hm).
  set (cs' := if in_lvl (classes st) c then classes st else update_subclass (classes st) c) in *.
  assert (I' := INV_cls_change st sp cs' (s_log sp) _ _ _ I SH (inv_k2c _ _ I) (inv_next _ _ I) (log_ok_inv _ _ I) Hl Hm
                  (fun r q Hr Et => let (A, B) := inv_tgt_c _ _ I r q Hr Et in conj A (Hm q B))
                  (fun r i Hr _ => Hr) (fun j => eq_refl) (inv_clash _ _ I)).
  pose proof SH as [SL _].
  constructor; cbn [classes insts k2c next_w fired s_hier s_insts s_log s_next s_fired]; try solve [apply I'].
  - intros r i Hr Et. rewrite app_length. pose proof (inv_tgt_i _ _ I r i Hr Et). lia.
  - rewrite map_app. cbn. rewrite (inv_icls _ _ I). reflexivity.
  - intros i ir Hi. apply nth_error_snoc in Hi. destruct Hi as [[Hi1 Hi2]|[-> ->]].
    + apply (inv_inst _ _ I' i ir Hi2).
    + cbn [i_cls coll_list i_coll]. rewrite SL. split; [exact Hc|]. split; [exact Hne|].
      unfold inst_regs. rewrite filter_none; [reflexivity|].
      intros r Hr. unfold rel_inst. destruct (g_tgt r) as [|j] eqn:Et; [reflexivity|].
      pose proof (inv_tgt_i _ _ I r j Hr Et). apply Nat.eqb_neq. lia.
Qed.

Lemma step_newclass : forall st sp bases m, INV st sp -> gstep sp (NewClass bases m) = true ->
  snd (step st (NewClass bases m)) = snd (sstep sp (NewClass bases m)) /\
  INV (fst (step st (NewClass bases m))) (fst (sstep sp (NewClass bases m))).
Proof.
  intros st sp bases m I G. cbn [step sstep]. rewrite (hier_len _ _ (inv_hier _ _ I)).
  destruct (all_lt (length (classes st)) bases && all_lt (length (classes st)) m) eqn:V; cbn [fst snd];
    [|split; [reflexivity|exact I]].
  split; [reflexivity|].
  set (cs := classes st). set (new := {| c_bases := bases; c_mro := m; c_lvl := None |}).
  assert (Hold : forall c, c < length cs -> get_cls (cs ++ [new]) c = get_cls cs c) by (intros; apply get_cls_app_old; assumption).
  assert (Hmro : forall c, c < length cs -> mro (cs ++ [new]) c = mro cs c) by (intros c Hc; unfold mro; rewrite Hold by exact Hc; reflexivity).
  assert (Hlvl : forall c, c < length cs -> lvl (cs ++ [new]) c = lvl cs c) by (intros c Hc; unfold lvl; rewrite Hold by exact Hc; reflexivity).
  constructor; cbn [classes insts k2c next_w fired s_hier s_insts s_log s_next s_fired]; try solve [apply I]; fold cs.
  - unfold hier_of. rewrite map_app. cbn. fold (hier_of cs). unfold cs. rewrite (inv_hier _ _ I). reflexivity.
  - intros c Hc. rewrite app_length in Hc. cbn in Hc.
    destruct (Nat.eq_dec c (length cs)) as [->|N].
    + unfold mro. rewrite get_cls_app_new. cbn [c_bases c_mro new].
      cbn [gstep] in G. destruct bases as [|b [|b' bs]]; [| |discriminate].
      * destruct m; [left; auto|discriminate].
      * apply andb_true_iff in G. destruct G as [G1 G2]. apply Nat.ltb_lt in G1.
        rewrite (hier_len _ _ (inv_hier _ _ I)) in G1. apply list_eq_nat_eq in G2.
        right. exists b. split; [exact G1|]. split; [reflexivity|].
        rewrite G2, (s_mro_eq st sp b (inv_hier _ _ I)). fold cs. fold (mro (cs ++ [new]) b).
        rewrite Hmro by exact G1. reflexivity.
    + assert (Hc' : c < length cs) by lia.
      destruct (inv_single _ _ I c Hc') as [[E1 E2]|[b [Hb [E1 E2]]]]; fold cs in E1, E2.
      * left. rewrite Hmro, Hold by exact Hc'. auto.
      * right. exists b. rewrite Hmro, Hold by exact Hc'. rewrite Hmro by lia. auto.
  - intros c l Hc E. rewrite app_length in Hc. cbn in Hc. destruct (Nat.eq_dec c (length cs)) as [->|N].
    + unfold lvl in E. rewrite get_cls_app_new in E. discriminate.
    + assert (Hc' : c < length cs) by lia. rewrite Hlvl in E by exact Hc'.
      rewrite (cls_list_mro _ cs _ c (Hmro c Hc')). apply (inv_lvl _ _ I); assumption.
  - intros r q Hr Et. destruct (inv_tgt_c _ _ I r q Hr Et) as [A B]. fold cs in A, B.
    rewrite app_length, Hlvl by exact A. split; [lia|exact B].
  - intros i ir Hi. destruct (inv_inst _ _ I i ir Hi) as (A & B & C). fold cs in A, B.
    rewrite app_length, Hlvl by exact A. split; [lia|]. split; assumption.
  - intros r1 r2 t1 t2 H1 H2 P1 P2 Ef T1 T2 Hc. apply (inv_clash _ _ I r1 r2 t1 t2); auto.
    destruct (inv_tgt_c _ _ I r1 t1 H1 T1) as [A1 _]. destruct (inv_tgt_c _ _ I r2 t2 H2 T2) as [A2 _].
    fold cs in A1, A2 |- *. rewrite <- (Hmro t1 A1), <- (Hmro t2 A2). exact Hc.
Qed.

Lemma valid_target_eq : forall st sp t, INV st sp ->
  valid_target (length (s_hier sp)) (length (s_insts sp)) t =
  valid_target (length (classes st)) (length (insts st)) t.
Proof.
  intros st sp t I. rewrite (hier_len _ _ (inv_hier _ _ I)). rewrite <- (inv_icls _ _ I), map_length. reflexivity.
Qed.

Lemma step_contains : forall st sp t f, INV st sp ->
  snd (step st (Contains t f)) = snd (sstep sp (Contains t f)) /\
  INV (fst (step st (Contains t f))) (fst (sstep sp (Contains t f))).
Proof.
  intros st sp t f I. cbn [step sstep]. rewrite (valid_target_eq st sp t I).
  destruct (valid_target (length (classes st)) (length (insts st)) t); cbn [fst snd]; [|split; [reflexivity|exact I]].
  split; [|exact I]. rewrite (inv_k2c _ _ I), has_key_live. reflexivity.
Qed.

Lemma step_dispatch : forall st sp i, INV st sp ->
  snd (step st (Dispatch i)) = snd (sstep sp (Dispatch i)) /\
  INV (fst (step st (Dispatch i))) (fst (sstep sp (Dispatch i))).
Proof.
  intros st sp i I. cbn [step sstep].
  assert (Li : length (s_insts sp) = length (insts st)) by (rewrite <- (inv_icls _ _ I), map_length; reflexivity).
  rewrite Li. destruct (nth_error (insts st) i) as [ir|] eqn:Ei.
  - assert (Hi : i < length (insts st)) by (apply nth_error_Some; congruence).
    destruct (Nat.ltb_spec i (length (insts st))) as [_|X]; [|lia].
    destruct (inv_inst _ _ I i ir Ei) as (A & B & C).
    assert (Ec : nth i (s_insts sp) 0 = i_cls ir).
    { rewrite <- (inv_icls _ _ I). change 0 with (i_cls {| i_cls := 0; i_coll := None |}). rewrite map_nth.
      f_equal. apply nth_error_nth. exact Ei. }
    assert (El : lvl_list (classes st) (i_cls ir) ++ coll_list ir = map lfn_of (spec_list sp i)).
    { unfold spec_list. rewrite Ec, map_app. f_equal; [|exact C].
      unfold lvl_list. destruct (lvl (classes st) (i_cls ir)) as [l|] eqn:E; [|congruence].
      rewrite (inv_lvl _ _ I _ l A E). unfold cls_list, cls_regs.
      rewrite (s_mro_eq st sp _ (inv_hier _ _ I)). reflexivity. }
    rewrite El, (inv_fired _ _ I), call_all_spec.
    destruct (spec_call (spec_list sp i) (s_fired sp)) as [cl fd'] eqn:Es. cbn [fst snd].
    split; [reflexivity|].
    constructor; cbn [classes insts k2c next_w fired s_hier s_insts s_log s_next s_fired]; try apply I. reflexivity.
  - assert (Hi : length (insts st) <= i) by (apply nth_error_None; exact Ei).
    destruct (Nat.ltb_spec i (length (insts st))) as [X|_]; [lia|]. cbn [fst snd]. split; [reflexivity|exact I].
Qed.

Definition new_reg (sp : sstate) (t : target) (f : nat) (fl : flags) : reg :=
  {| g_id := s_next sp; g_tgt := t; g_fn := f; g_ins := fl_insert fl; g_once := fl_once fl; g_wrap := fl_wrap fl |}.

(* the proofs about listen() use the new registration through these equations only *)
Lemma new_reg_eqs : forall st sp t f fl, INV st sp -> let r := new_reg sp t f fl in
  mk_lfn (next_w st) f fl = lfn_of r /\ g_tgt r = t /\ g_id r = s_next sp /\ fl_insert fl = g_ins r /\
  g_fn r = f /\ plain r = negb (fl_once fl || fl_wrap fl) /\ (t, f) = key_of r.
Proof. intros st sp t f fl I r. rewrite (inv_next _ _ I). repeat split. Qed.

Lemma log_snoc_inv : forall st sp r, INV st sp -> g_id r = s_next sp -> live (key_of r) (s_log sp) = false ->
  log_ok (s_log sp ++ [r]) (S (s_next sp)).
Proof.
  intros st sp r I Hid Hl. split; [|split].
  - rewrite map_app. cbn. apply NoDup_app_snoc; [apply (inv_keys _ _ I)|].
    intro X. apply in_map_iff in X. destruct X as [y [E Hy]].
    assert (live (key_of r) (s_log sp) = true) by (apply live_In; exists y; auto). congruence.
  - intros r' Hr'. apply in_app_or in Hr'. destruct Hr' as [Hr'|[<-|[]]]; [|lia].
    pose proof (inv_idlt _ _ I r' Hr'). lia.
  - rewrite map_app. cbn. apply NoDup_app_snoc; [apply (inv_idnd _ _ I)|].
    intro X. apply in_map_iff in X. destruct X as [y [E Hy]]. pose proof (inv_idlt _ _ I y Hy). lia.
Qed.

Lemma step_listen_inst : forall st sp i f fl, INV st sp ->
  snd (step st (Listen (TInst i) f fl)) = snd (sstep sp (Listen (TInst i) f fl)) /\
  INV (fst (step st (Listen (TInst i) f fl))) (fst (sstep sp (Listen (TInst i) f fl))).
Proof.
  intros st sp i f fl I. cbn [step sstep]. rewrite (valid_target_eq st sp (TInst i) I). cbn [valid_target].
  destruct (nth_error (insts st) i) as [ir|] eqn:Ei.
  2:{ assert (Hi : length (insts st) <= i) by (apply nth_error_None; exact Ei).
      destruct (Nat.ltb_spec i (length (insts st))) as [X|_]; [lia|]. cbn [fst snd]. split; [reflexivity|exact I]. }
  assert (Hi : i < length (insts st)) by (apply nth_error_Some; congruence).
  destruct (Nat.ltb_spec i (length (insts st))) as [_|X]; [|lia].
  destruct (inv_inst _ _ I i ir Ei) as (A & B & C).
  rewrite (inv_k2c _ _ I), has_key_live.
  destruct (live (TInst i, f) (s_log sp)) eqn:Lv; cbn [fst snd]; (split; [reflexivity|]).
  - (* the pair is registered already: only the promotion of the _EmptyListener *)
    rewrite (inv_next _ _ I).
    apply (INV_inst_change st sp i ir _ (s_log sp) _ _ _ I Ei); auto.
    apply log_ok_S, (log_ok_inv _ _ I).
  - (* a new registration *)
    fold (new_reg sp (TInst i) f fl). destruct (new_reg_eqs st sp (TInst i) f fl I) as (Ex & Et & Eid & Eins & _ & _ & Ekey).
    set (r := new_reg sp (TInst i) f fl) in *. clearbody r.
    rewrite Ekey in Lv. rewrite Eins, Ekey, Ex, (inv_next _ _ I).
    apply (INV_inst_change st sp i ir _ (s_log sp ++ [r]) _ _ _ I Ei).
    + rewrite map_app. reflexivity.
    + reflexivity.
    + exact (log_snoc_inv st sp r I Eid Lv).
    + intros r' Hr'. apply in_app_or in Hr'. destruct Hr' as [Hr'|[<-|[]]]; auto.
    + intros m c. apply cls_regs_snoc_irr. eapply rel_cls_inst; eauto.
    + intros j N. apply inst_regs_snoc_irr. unfold rel_inst. rewrite Et. apply Nat.eqb_neq. auto.
    + rewrite inst_regs_snoc_rel by (unfold rel_inst; rewrite Et; apply Nat.eqb_refl). rewrite C. reflexivity.
Qed.

Lemma comparable_true : forall st sp a b, INV st sp ->
  (a = b \/ In a (mro (classes st) b) \/ In b (mro (classes st) a)) -> comparable sp a b = true.
Proof.
  intros st sp a b I H. unfold comparable. rewrite !(s_mro_eq st sp _ (inv_hier _ _ I)).
  destruct H as [->|[H|H]].
  - rewrite Nat.eqb_refl. reflexivity.
  - apply memn_In in H. rewrite H. apply orb_true_iff. left. apply orb_true_r.
  - apply memn_In in H. rewrite H. apply orb_true_r.
Qed.

Lemma step_listen_cls : forall st sp t f fl, INV st sp -> gstep sp (Listen (TCls t) f fl) = true ->
  snd (step st (Listen (TCls t) f fl)) = snd (sstep sp (Listen (TCls t) f fl)) /\
  INV (fst (step st (Listen (TCls t) f fl))) (fst (sstep sp (Listen (TCls t) f fl))).
Proof.
  intros st sp t f fl I G. cbn [gstep] in G.
  apply andb_true_iff in G. destruct G as [G1 G3].
  apply Nat.ltb_lt in G1. rewrite (hier_len _ _ (inv_hier _ _ I)) in G1.
  cbn [step sstep]. rewrite (valid_target_eq st sp (TCls t) I). cbn [valid_target].
  destruct (Nat.ltb_spec t (length (classes st))) as [_|X]; [|lia].
  rewrite (inv_k2c _ _ I), has_key_live.
  destruct (live (TCls t, f) (s_log sp)) eqn:G2.
  { (* the pair is established already: ignored *)
    cbn [fst snd]. split; [reflexivity|].
    constructor; cbn [classes insts k2c next_w fired s_hier s_insts s_log s_next s_fired]; try apply I;
      try reflexivity.
    - rewrite (inv_next _ _ I). reflexivity.
    - intros r Hr. pose proof (inv_idlt _ _ I r Hr). lia. }
  cbn [orb] in G3.
  set (cs := classes st) in *. set (log := s_log sp) in *.
  fold (new_reg sp (TCls t) f fl). destruct (new_reg_eqs st sp (TCls t) f fl I) as (Ex & Et & Eid & Eins & Efn & Epl & Ekey).
  set (r := new_reg sp (TCls t) f fl) in *. clearbody r.
  rewrite Ekey in G2. rewrite Eins, Ekey.
  destruct (walk_subclasses_some cs t G1) as [W HW].
  destruct (walk_single cs (inv_single _ _ I) t W G1 HW) as (WND & Wdesc & Word).
  unfold do_insert. rewrite HW, Ex.
  pose proof (do_insert_mid cs log r t W (inv_single _ _ I) G1 Et (inv_lvl _ _ I) (inv_tgt_c _ _ I) WND Wdesc Word)
    as (SH & HP & HnP).
  set (cs' := fold_left (ins_step t (negb (g_ins r)) (lfn_of r)) W cs) in *.
  cbn [fst snd]. split; [reflexivity|].
  assert (HtW : In t W) by (apply Wdesc; split; [exact G1|left; reflexivity]).
  assert (Mono : forall q, lvl cs q <> None -> lvl cs' q <> None).
  { intros q B. destruct (in_dec Nat.eq_dec q W) as [HqW|HqW]; [rewrite HP by exact HqW; discriminate|].
    rewrite HnP by exact HqW. exact B. }
  rewrite (inv_next _ _ I).
  apply (INV_cls_change st sp cs' (log ++ [r]) _ _ _ I SH).
  - rewrite map_app. reflexivity.
  - reflexivity.
  - exact (log_snoc_inv st sp r I Eid G2).
  - fold cs. intros c l Hc El. destruct (in_dec Nat.eq_dec c W) as [HcW|HcW].
    + rewrite HP in El by exact HcW. congruence.
    + rewrite HnP in El by exact HcW.
      rewrite (cls_list_new_other cs log r t Et) by (intro D; apply HcW; apply Wdesc; split; assumption).
      apply (inv_lvl _ _ I); assumption.
  - exact Mono.
  - intros r' q Hr' Et'. apply in_app_or in Hr'. destruct Hr' as [Hr'|[<-|[]]].
    + destruct (inv_tgt_c _ _ I r' q Hr' Et') as [A B]. split; [exact A|apply Mono; exact B].
    + rewrite Et in Et'. inversion Et'. subst q. split; [exact G1|]. rewrite HP by exact HtW. discriminate.
  - intros r' j Hr' Et'. apply in_app_or in Hr'. destruct Hr' as [Hr'|[<-|[]]]; [exact Hr'|congruence].
  - intro j. apply inst_regs_snoc_irr. eapply rel_inst_cls; eauto.
  - intros r1 r2 t1 t2 H1 H2 P1 P2 Ef T1 T2 Hc.
    assert (NoClash : plain r = true -> forall r2 t2, In r2 log -> plain r2 = true -> g_fn r2 = f ->
              g_tgt r2 = TCls t2 -> (t = t2 \/ In t (mro cs t2) \/ In t2 (mro cs t)) -> False).
    { intros Pr r0 t0 H0 P0 F0 T0 C0. rewrite Epl in Pr.
      apply negb_true_iff in Pr. rewrite Pr in G3. cbn [orb] in G3. apply negb_true_iff in G3.
      assert (existsb (clash sp t f) log = true); [|congruence].
      apply existsb_exists. exists r0. split; [exact H0|]. unfold clash. rewrite T0, P0, F0, Nat.eqb_refl.
      cbn [andb]. apply (comparable_true st sp t t0 I). exact C0. }
    apply in_app_or in H1. apply in_app_or in H2.
    destruct H1 as [H1|[<-|[]]], H2 as [H2|[<-|[]]].
    + apply (inv_clash _ _ I r1 r2 t1 t2); auto.
    + exfalso. rewrite Et in T2. inversion T2. subst t2.
      apply (NoClash P2 r1 t1 H1 P1 (eq_trans Ef Efn) T1). intuition.
    + exfalso. rewrite Et in T1. inversion T1. subst t1.
      apply (NoClash P1 r2 t2 H2 P2 (eq_trans (eq_sym Ef) Efn) T2). intuition.
    + reflexivity.
Qed.

Lemma step_remove : forall st sp t f, INV st sp ->
  snd (step st (Remove t f)) = snd (sstep sp (Remove t f)) /\
  INV (fst (step st (Remove t f))) (fst (sstep sp (Remove t f))).
Proof.
  intros st sp t f I. cbn [step sstep]. rewrite (valid_target_eq st sp t I).
  destruct (valid_target (length (classes st)) (length (insts st)) t) eqn:V; cbn [fst snd];
    [|split; [reflexivity|exact I]].
  rewrite (inv_k2c _ _ I).
  destruct (live (t, f) (s_log sp)) eqn:Lv.
  2:{ rewrite lookup_key_none by exact Lv. cbn [fst snd]. split; [reflexivity|exact I]. }
  destruct (lookup_key_some _ _ Lv) as [r [Hr [Ek El]]]. rewrite El, del_key_log.
  change (fun r0 => negb (key_eqb (t, f) (key_of r0))) with (not_key (t, f)).
  rewrite <- Ek. change (l_id (lfn_of r)) with (ident_of r).
  set (cs := classes st) in *. set (log := s_log sp) in *. set (log' := filter (not_key (key_of r)) log).
  pose proof (log_ok_filter _ _ (not_key (key_of r)) (log_ok_inv _ _ I)) as K. fold log in K. fold log' in K.
  assert (Sub : forall y, In y log' -> In y log) by (intros y Hy; apply filter_In in Hy; tauto).
  rewrite (inv_next _ _ I).
  destruct t as [c|i]; cbn [valid_target] in V.
  - (* class target *)
    apply Nat.ltb_lt in V. assert (Et : g_tgt r = TCls c) by (unfold key_of in Ek; inversion Ek; reflexivity).
    destruct (walk_subclasses_some cs c V) as [W HW]. rewrite HW.
    destruct (walk_single cs (inv_single _ _ I) c W V HW) as (WND & Wdesc & _).
    destruct (remove_walk_spec cs log r c W Et Hr (inv_keys _ _ I) (cls_idents_nodup st sp I) (inv_lvl _ _ I) WND Wdesc)
      as [cs' [E (SH & R12 & R3)]].
    rewrite E. cbn [fst snd]. split; [reflexivity|]. fold log'.
    assert (Mono : forall q, lvl cs q <> None -> lvl cs' q <> None).
    { intros q Hq. destruct (in_dec Nat.eq_dec q W) as [HqW|HqW]; [|rewrite R3 by exact HqW; exact Hq].
      rewrite (R12 q HqW). destruct (lvl cs q); [discriminate|congruence]. }
    apply (INV_cls_change st sp cs' log' _ _ _ I SH); try reflexivity; try exact K; try exact Mono; fold cs.
    + intros d l Hd Ed. destruct (in_dec Nat.eq_dec d W) as [HdW|HdW].
      * rewrite (R12 d HdW) in Ed. destruct (lvl cs d); [injection Ed as <-; reflexivity|discriminate].
      * rewrite R3 in Ed by exact HdW.
        unfold log'. rewrite (cls_list_del_other cs log r c Et Hr (inv_keys _ _ I))
          by (intro D; apply HdW; apply Wdesc; split; assumption).
        apply (inv_lvl _ _ I); assumption.
    + intros r' q Hr' Et'. destruct (inv_tgt_c _ _ I r' q (Sub r' Hr') Et') as [A B]. split; [exact A|apply Mono; exact B].
    + intros r' j Hr' _. exact (Sub r' Hr').
    + intro j. apply (ordered_filter_del_irr _ log r (inv_keys _ _ I) Hr). eapply rel_inst_cls; eauto.
    + intros r1 r2 t1 t2 H1 H2. apply (inv_clash _ _ I r1 r2 t1 t2); auto.
  - (* instance target *)
    apply Nat.ltb_lt in V. assert (Et : g_tgt r = TInst i) by (unfold key_of in Ek; inversion Ek; reflexivity).
    destruct (nth_error (insts st) i) as [ir|] eqn:Ei; [|apply nth_error_None in Ei; lia].
    destruct (inv_inst _ _ I i ir Ei) as (A & B & C).
    assert (Hrel : In r (inst_regs i log)).
    { apply In_inst_regs. split; [exact Hr|]. unfold rel_inst. rewrite Et. apply Nat.eqb_refl. }
    destruct (i_coll ir) as [l|] eqn:Ec.
    2:{ exfalso. unfold coll_list in C. rewrite Ec in C. fold log in C.
        destruct (inst_regs i log); [destruct Hrel|discriminate]. }
    assert (El' : l = map lfn_of (inst_regs i log)) by (unfold coll_list in C; rewrite Ec in C; exact C).
    pose proof (remove_first_regs _ r (inst_idents_nodup st sp I i) (inst_keys_nodup st sp I i) Hrel) as RF.
    fold log in RF. rewrite El', RF.
    cbn [fst snd]. split; [reflexivity|]. fold log'.
    apply (INV_inst_change st sp i ir _ log' _ _ _ I Ei); try reflexivity; try exact K.
    + intros r' Hr'. left. exact (Sub r' Hr').
    + intros m d. apply (ordered_filter_del_irr _ log r (inv_keys _ _ I) Hr). eapply rel_cls_inst; eauto.
    + intros j N. apply (ordered_filter_del_irr _ log r (inv_keys _ _ I) Hr). unfold rel_inst. rewrite Et.
      apply Nat.eqb_neq. auto.
    + unfold log'. rewrite inst_regs_del. reflexivity.
Qed.

Lemma INV_init : INV init sinit.
Proof.
  constructor; cbn [init sinit classes insts k2c next_w fired s_hier s_insts s_log s_next s_fired];
    try reflexivity; try (intros; contradiction).
  - intros c Hc. cbn in Hc. lia.
  - intros c l Hc. cbn in Hc. lia.
  - intros i ir Hi. destruct i; discriminate.
  - constructor.
  - constructor.
Qed.

Lemma step_refines : forall st sp o, INV st sp -> gstep sp o = true ->
  snd (step st o) = snd (sstep sp o) /\ INV (fst (step st o)) (fst (sstep sp o)).
Proof.
  intros st sp o I G. destruct o as [bases m|c|t f fl|t f|t f|i].
  - apply step_newclass; assumption.
  - apply step_newinst; assumption.
  - destruct t; [apply step_listen_cls; assumption|apply step_listen_inst; assumption].
  - apply step_remove; assumption.
  - apply step_contains; assumption.
  - apply step_dispatch; assumption.
Qed.

Lemma run_refines : forall ops st sp, INV st sp -> guard sp ops = true ->
  snd (run st ops) = snd (srun sp ops) /\ INV (fst (run st ops)) (fst (srun sp ops)).
Proof.
  induction ops as [|o ops IH]; intros st sp I G; cbn [run srun].
  - split; [reflexivity|exact I].
  - cbn [guard] in G. apply andb_true_iff in G. destruct G as [G1 G2].
    destruct (step_refines st sp o I G1) as [E I'].
    destruct (step st o) as [st1 x] eqn:Es. destruct (sstep sp o) as [sp1 y] eqn:Ess.
    cbn [fst snd] in *. destruct (IH st1 sp1 I' G2) as [E' I''].
    destruct (run st1 ops) as [st2 xs]. destruct (srun sp1 ops) as [sp2 ys]. cbn [fst snd] in *.
    split; [congruence|exact I''].
Qed.
