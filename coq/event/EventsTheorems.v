(* C28 proofs, part 4: the theorems that props/C28.v states, from the refinement of EventsProofs *)
From Coq Require Import List Arith Bool Lia.
Import ListNotations.
From SAV.event Require Import Events EventsWalk EventsColl EventsProofs.

Lemma run_app : forall a b st,
  run st (a ++ b) = (fst (run (fst (run st a)) b), snd (run st a) ++ snd (run (fst (run st a)) b)).
Proof.
  induction a as [|o a IH]; intros b st; cbn [run app].
  - cbn. destruct (run st b). reflexivity.
  - destruct (step st o) as [st1 x]. rewrite IH. destruct (run st1 a) as [st2 xs]. cbn [fst snd].
    destruct (run st2 b). reflexivity.
Qed.
Lemma srun_app : forall a b sp,
  srun sp (a ++ b) = (fst (srun (fst (srun sp a)) b), snd (srun sp a) ++ snd (srun (fst (srun sp a)) b)).
Proof.
  induction a as [|o a IH]; intros b sp; cbn [srun app].
  - cbn. destruct (srun sp b). reflexivity.
  - destruct (sstep sp o) as [sp1 x]. rewrite IH. destruct (srun sp1 a) as [sp2 xs]. cbn [fst snd].
    destruct (srun sp2 b). reflexivity.
Qed.
Lemma guard_app : forall a b sp, guard sp (a ++ b) = guard sp a && guard (fst (srun sp a)) b.
Proof.
  induction a as [|o a IH]; intros b sp; cbn [guard app srun]; [reflexivity|].
  rewrite IH. destruct (sstep sp o) as [sp1 x]. cbn [fst]. destruct (srun sp1 a). cbn [fst].
  rewrite andb_assoc. reflexivity.
Qed.

Theorem dispatch_calls_exactly_registered_guarded : forall ops, guard sinit ops = true ->
  snd (run init ops) = snd (srun sinit ops).
Proof. intros ops G. apply (run_refines ops init sinit INV_init G). Qed.

Lemma reach_inv : forall ops, guard sinit ops = true -> INV (fst (run init ops)) (fst (srun sinit ops)).
Proof. intros ops G. apply (run_refines ops init sinit INV_init G). Qed.

Theorem dispatch_is_spec_calls : forall ops i, guard sinit ops = true ->
  i < length (insts (fst (run init ops))) ->
  snd (step (fst (run init ops)) (Dispatch i)) = OCalls (spec_calls (fst (srun sinit ops)) i).
Proof.
  intros ops i G Hi. pose proof (reach_inv ops G) as I.
  destruct (step_dispatch _ _ i I) as [E _]. rewrite E. cbn [sstep].
  assert (L : length (s_insts (fst (srun sinit ops))) = length (insts (fst (run init ops)))).
  { rewrite <- (inv_icls _ _ I), map_length. reflexivity. }
  rewrite L. destruct (Nat.ltb_spec i (length (insts (fst (run init ops))))) as [_|X]; [|lia].
  unfold spec_calls. destruct (spec_call _ _). reflexivity.
Qed.

Theorem fuel_sufficient : forall st o, snd (step st o) <> OFuel.
Proof.
  intros st o. destruct o as [bases m|c|t f fl|t f|t f|i]; cbn [step].
  - destruct (all_lt _ bases && all_lt _ m); cbn; discriminate.
  - destruct (Nat.ltb c _); cbn; discriminate.
  - destruct t as [t|i].
    + destruct (Nat.ltb_spec t (length (classes st))) as [H|H]; [|cbn; discriminate].
      destruct (has_key _ _); [cbn; discriminate|].
      unfold do_insert. destruct (walk_subclasses_some _ t H) as [w ->]. cbn. discriminate.
    + destruct (nth_error (insts st) i); [|cbn; discriminate].
      destruct (has_key _ _); cbn; discriminate.
  - destruct (valid_target _ _ t) eqn:V; [|cbn; discriminate].
    destruct (lookup_key _ _); [|cbn; discriminate].
    destruct t as [c|i].
    + cbn [valid_target] in V. apply Nat.ltb_lt in V. destruct (walk_subclasses_some _ c V) as [w ->].
      destruct (remove_walk _ _ _) as [cs' [|]]; cbn; discriminate.
    + destruct (nth_error (insts st) i); [|cbn; discriminate].
      destruct (i_coll i0); [|cbn; discriminate]. destruct (remove_first _ l0); cbn; discriminate.
  - destruct (valid_target _ _ t); cbn; discriminate.
  - destruct (nth_error (insts st) i); [|cbn; discriminate]. destruct (call_all _ _). cbn. discriminate.
Qed.

Definition internal_error (x : out) : bool :=
  match x with OValueError | OFuel | OUnreach => true | _ => false end.
Lemma sstep_no_internal : forall sp o, internal_error (snd (sstep sp o)) = false.
Proof.
  intros sp o. destruct o as [bases m|c|t f fl|t f|t f|i]; cbn [sstep].
  - destruct (all_lt _ bases && all_lt _ m); reflexivity.
  - destruct (Nat.ltb c _); reflexivity.
  - destruct (valid_target _ _ t); reflexivity.
  - destruct (valid_target _ _ t); [|reflexivity]. destruct (live _ _); reflexivity.
  - destruct (valid_target _ _ t); reflexivity.
  - destruct (Nat.ltb i _); [|reflexivity]. destruct (spec_call _ _). reflexivity.
Qed.
Lemma srun_no_internal : forall ops sp, existsb internal_error (snd (srun sp ops)) = false.
Proof.
  induction ops as [|o ops IH]; intro sp; cbn [srun]; [reflexivity|].
  pose proof (sstep_no_internal sp o) as H. destruct (sstep sp o) as [sp1 x]. specialize (IH sp1).
  destruct (srun sp1 ops). cbn [snd existsb] in *. rewrite H, IH. reflexivity.
Qed.
Theorem guarded_no_internal_error : forall ops, guard sinit ops = true ->
  existsb internal_error (snd (run init ops)) = false.
Proof. intros ops G. rewrite (dispatch_calls_exactly_registered_guarded ops G). apply srun_no_internal. Qed.

(* propagate=True has no effect on the modelled operations *)
Theorem propagate_inert : forall st t f fl b,
  step st (Listen t f {| fl_insert := fl_insert fl; fl_prop := b; fl_once := fl_once fl; fl_wrap := fl_wrap fl |})
  = step st (Listen t f fl).
Proof. intros st t f [a p o w] b. destruct t; reflexivity. Qed.

Lemma filter_not_key_snoc : forall k log r, live k log = false -> key_of r = k ->
  filter (not_key k) (log ++ [r]) = log.
Proof.
  intros k log r Hl Hk. rewrite filter_app. cbn. unfold not_key at 2. rewrite Hk, key_eqb_refl. cbn.
  rewrite app_nil_r. apply filter_not_key_id. intros y Hy E.
  assert (live k log = true) by (apply live_In; exists y; auto). congruence.
Qed.

Lemma spec_dispatch_ext : forall sp sp' i, s_hier sp' = s_hier sp -> s_insts sp' = s_insts sp ->
  s_log sp' = s_log sp -> s_fired sp' = s_fired sp ->
  snd (sstep sp' (Dispatch i)) = snd (sstep sp (Dispatch i)).
Proof.
  intros sp sp' i H1 H2 H3 H4. cbn [sstep]. unfold spec_list, s_mro. rewrite H1, H2, H3, H4.
  destruct (Nat.ltb i _); [|reflexivity]. destruct (spec_call _ _). reflexivity.
Qed.

Theorem remove_is_inverse : forall ops t f fl,
  let st := fst (run init ops) in
  let sp := fst (srun sinit ops) in
  guard sinit (ops ++ [Listen t f fl; Remove t f]) = true ->
  valid_target (length (classes st)) (length (insts st)) t = true ->
  snd (step st (Contains t f)) = OBool false ->
  let st1 := fst (step st (Listen t f fl)) in
  let st2 := fst (step st1 (Remove t f)) in
  snd (step st1 (Remove t f)) = OOk /\
  snd (step st2 (Contains t f)) = OBool false /\
  forall i, snd (step st2 (Dispatch i)) = snd (step st (Dispatch i)).
Proof.
  intros ops t f fl st sp G V C st1 st2.
  rewrite guard_app in G. apply andb_true_iff in G. destruct G as [G0 G]. fold sp in G.
  cbn [guard] in G. apply andb_true_iff in G. destruct G as [G1 _].
  pose proof (reach_inv ops G0) as I. fold st sp in I.
  assert (Lv : live (t, f) (s_log sp) = false).
  { destruct (step_contains st sp t f I) as [E _]. rewrite C in E. cbn [sstep] in E.
    rewrite (valid_target_eq st sp t I), V in E. cbn in E. inversion E. reflexivity. }
  destruct (step_refines st sp (Listen t f fl) I G1) as [_ I1]. fold st1 in I1.
  set (sp1 := fst (sstep sp (Listen t f fl))) in *.
  destruct (step_remove st1 sp1 t f I1) as [E2 I2]. fold st2 in I2.
  set (sp2 := fst (sstep sp1 (Remove t f))) in *.
  assert (S1 : s_hier sp1 = s_hier sp /\ s_insts sp1 = s_insts sp /\ s_fired sp1 = s_fired sp /\
               exists r, key_of r = (t, f) /\ s_log sp1 = s_log sp ++ [r]).
  { unfold sp1. cbn [sstep]. rewrite (valid_target_eq st sp t I), V, Lv. cbn [fst s_hier s_insts s_fired s_log].
    repeat split. eexists. split; [|reflexivity]. reflexivity. }
  destruct S1 as (H1 & H2 & H3 & r & Hk & H4).
  assert (V1 : valid_target (length (s_hier sp1)) (length (s_insts sp1)) t = true).
  { rewrite H1, H2, (valid_target_eq st sp t I). exact V. }
  assert (Lv1 : live (t, f) (s_log sp1) = true).
  { rewrite H4. apply live_In. exists r. split; [apply in_or_app; right; left; reflexivity|exact Hk]. }
  assert (S2 : snd (sstep sp1 (Remove t f)) = OOk /\ s_hier sp2 = s_hier sp /\ s_insts sp2 = s_insts sp /\
               s_fired sp2 = s_fired sp /\ s_log sp2 = s_log sp).
  { unfold sp2. cbn [sstep]. rewrite V1, Lv1. cbn [fst snd s_hier s_insts s_fired s_log].
    repeat split; auto. rewrite H4.
    change (fun r0 => negb (key_eqb (t, f) (key_of r0))) with (not_key (t, f)).
    apply filter_not_key_snoc; assumption. }
  destruct S2 as (O2 & J1 & J2 & J3 & J4).
  split; [rewrite E2; exact O2|]. split.
  - destruct (step_contains st2 sp2 t f I2) as [E _]. rewrite E. cbn [sstep].
    rewrite J1, J2, (valid_target_eq st sp t I), V, J4, Lv. reflexivity.
  - intro i. destruct (step_dispatch st2 sp2 i I2) as [E _]. destruct (step_dispatch st sp i I) as [E' _].
    rewrite E, E'. apply spec_dispatch_ext; assumption.
Qed.

Lemma list_eq_nat_refl : forall a, list_eq_nat a a = true.
Proof. induction a; cbn; [reflexivity|rewrite Nat.eqb_refl; exact IHa]. Qed.

Lemma all_lt_spec : forall n l, (forall x, In x l -> x < n) -> all_lt n l = true.
Proof. intros. unfold all_lt. apply forallb_forall. intros x Hx. apply Nat.ltb_lt. auto. Qed.

(* the class-level listeners a fresh instance of class b is called with, by the specification *)
Definition class_calls (sp : sstate) (b : nat) : list nat :=
  fst (spec_call (ordered (filter (rel_cls (s_mro sp b) b) (s_log sp))) (s_fired sp)).

Lemma srun_cons_snd : forall sp o r, snd (srun sp (o :: r)) = snd (sstep sp o) :: snd (srun (fst (sstep sp o)) r).
Proof. intros. cbn [srun]. destruct (sstep sp o) as [sp1 x]. cbn [fst snd]. destruct (srun sp1 r). reflexivity. Qed.

(* by the specification, the first dispatch on a new instance of class c calls the class-level listeners of c *)
Lemma spec_fresh_instance : forall sp c, c < length (s_hier sp) ->
  filter (rel_inst (length (s_insts sp))) (s_log sp) = [] ->
  snd (srun sp [NewInst c; Dispatch (length (s_insts sp))]) = [OOk; OCalls (class_calls sp c)].
Proof.
  intros sp c Hc NoInst. cbn [srun sstep]. destruct (Nat.ltb_spec c (length (s_hier sp))) as [_|X]; [|lia].
  cbn [fst snd s_hier s_insts s_log s_next s_fired]. rewrite app_length. cbn [length].
  destruct (Nat.ltb_spec (length (s_insts sp)) (length (s_insts sp) + 1)) as [_|X]; [|lia].
  unfold spec_list. cbn [s_insts s_log s_hier s_fired]. rewrite app_nth2 by lia. rewrite Nat.sub_diag. cbn [nth].
  unfold s_mro at 1. cbn [s_hier]. fold (s_mro sp c).
  rewrite NoInst. cbn [ordered filter rev app]. rewrite app_nil_r. unfold class_calls. destruct (spec_call _ _). reflexivity.
Qed.

Theorem later_subclass_inherits : forall ops b,
  let st := fst (run init ops) in
  let sp := fst (srun sinit ops) in
  guard sinit ops = true -> b < length (classes st) ->
  let d := length (classes st) in
  let j := length (insts st) in
  snd (run st [NewClass [b] (b :: mro (classes st) b); NewInst d; Dispatch j])
    = [OOk; OOk; OCalls (class_calls sp b)] /\
  snd (run st [NewInst b; Dispatch j]) = [OOk; OCalls (class_calls sp b)].
Proof.
  intros ops b st sp G Hb d j. pose proof (reach_inv ops G) as I. fold st sp in I.
  assert (Ln : length (s_hier sp) = d) by (apply (hier_len _ _ (inv_hier _ _ I))).
  assert (Li : length (s_insts sp) = j) by (rewrite <- (inv_icls _ _ I), map_length; reflexivity).
  assert (Em : s_mro sp b = mro (classes st) b) by (apply (s_mro_eq st sp b (inv_hier _ _ I))).
  assert (NoInst : filter (rel_inst j) (s_log sp) = []).
  { apply filter_none. intros r Hr. unfold rel_inst. destruct (g_tgt r) as [|k] eqn:Et; [reflexivity|].
    pose proof (inv_tgt_i _ _ I r k Hr Et). apply Nat.eqb_neq. fold j in H. lia. }
  rewrite <- Li in *. split.
  - (* the late subclass *)
    set (ops3 := [NewClass [b] (b :: mro (classes st) b); NewInst d; Dispatch (length (s_insts sp))]).
    assert (G3 : guard sp ops3 = true).
    { cbn [guard ops3 gstep]. rewrite Ln. destruct (Nat.ltb_spec b d) as [_|X]; [|unfold d in X; lia].
      rewrite Em, list_eq_nat_refl. reflexivity. }
    destruct (run_refines ops3 st sp I G3) as [E _]. rewrite E. clear E.
    assert (V : all_lt d [b] && all_lt d (b :: mro (classes st) b) = true).
    { apply andb_true_iff. split; apply all_lt_spec.
      - intros x [<-|[]]. exact Hb.
      - intros x [<-|Hx]; [exact Hb|]. pose proof (mro_lt _ (inv_single _ _ I) b x Hb Hx). unfold d. lia. }
    unfold ops3. rewrite srun_cons_snd. cbn [sstep]. rewrite Ln, V. cbn [fst snd]. f_equal.
    match goal with |- snd (srun ?sp1 _) = _ => transitivity [OOk; OCalls (class_calls sp1 d)];
      [apply (spec_fresh_instance sp1 d); [cbn [s_hier]; rewrite app_length, Ln; cbn; lia|exact NoInst]|] end.
    f_equal. f_equal. unfold class_calls. cbn [s_log s_fired]. unfold s_mro at 1. cbn [s_hier].
    rewrite app_nth2 by lia. rewrite Ln, Nat.sub_diag. cbn [nth snd]. do 4 f_equal.
    (* no registration has the new class as its target *)
    apply filter_ext_in. intros r Hr. unfold rel_cls. destruct (g_tgt r) as [t|] eqn:Et; [|reflexivity].
    destruct (inv_tgt_c _ _ I r t Hr Et) as [Ht _]. fold d in Ht.
    destruct (Nat.eqb_spec t d) as [->|_]; [lia|]. rewrite Em. cbn [orb].
    unfold memn. cbn [existsb]. reflexivity.
  - (* a fresh instance of the base itself *)
    destruct (run_refines [NewInst b; Dispatch (length (s_insts sp))] st sp I eq_refl) as [E _]. rewrite E.
    apply spec_fresh_instance; [rewrite Ln; exact Hb|exact NoInst].
Qed.
