(* sort_as_subsets: each item once, dependencies respected across layers, fuel suffices *)
From Coq Require Import List NArith Bool Lia Permutation Arith.
Import ListNotations.
From SAV.util Require Import Topo.

Lemma memb_In x l : memb x l = true <-> In x l.
Proof. unfold memb. rewrite existsb_exists. split.
 - intros [y [Hy He]]. apply N.eqb_eq in He. subst. exact Hy.
 - intros H. exists x. split; [exact H| apply N.eqb_refl]. Qed.

Lemma memb_false x l : memb x l = false <-> ~ In x l.
Proof. rewrite <- memb_In. symmetry. apply not_true_iff_false. Qed.

Lemma In_parents ts n p : In p (parents_of ts n) <-> In (p, n) ts.
Proof. unfold parents_of. rewrite in_map_iff. split.
 - intros [[a b] [<- H]]. apply filter_In in H. destruct H as [H E]. apply N.eqb_eq in E. simpl in *. subst. exact H.
 - intros H. exists (p, n). split; [reflexivity|]. apply filter_In. split; [exact H|apply N.eqb_refl]. Qed.

Lemma blocked_true ts todo n : blocked ts todo n = true <-> exists p, In (p, n) ts /\ In p todo.
Proof. unfold blocked. rewrite existsb_exists. split; intros [p [H1 H2]]; exists p;
  (split; [apply In_parents; exact H1 | apply memb_In; exact H2]). Qed.

Lemma In_ready ts todo n : In n (ready ts todo) <-> In n todo /\ blocked ts todo n = false.
Proof. unfold ready. rewrite filter_In, negb_true_iff. tauto. Qed.

(* what one round of the loop leaves for the next *)
Definition rest (ts : list edge) (todo : list node) : list node :=
  filter (fun t => negb (memb t (ready ts todo))) todo.

Lemma In_rest ts todo n : In n (rest ts todo) <-> In n todo /\ ~ In n (ready ts todo).
Proof. unfold rest. rewrite filter_In, negb_true_iff, memb_false. tauto. Qed.

(* the four ways a call of [subsets] can go *)
Lemma subsets_cases ts (P : nat -> list node -> res (list (list node)) -> Prop) :
  (forall fuel, P fuel [] (Ok [])) ->
  (forall todo, todo <> [] -> P 0 todo OutOfFuel) ->
  (forall f todo, todo <> [] -> ready ts todo = [] -> P (S f) todo Circular) ->
  (forall f todo, ready ts todo <> [] -> P f (rest ts todo) (subsets f ts (rest ts todo)) ->
     P (S f) todo match subsets f ts (rest ts todo) with
                  | Ok r => Ok (ready ts todo :: r) | Circular => Circular | OutOfFuel => OutOfFuel
                  end) ->
  forall fuel todo, P fuel todo (subsets fuel ts todo).
Proof.
  intros Hnil H0 Hcirc Hstep. induction fuel as [|f IH]; intros [|t0 todo0]; try apply Hnil.
  - apply H0. discriminate.
  - cbn [subsets]. set (todo := t0 :: todo0). destruct (ready ts todo) as [|o out] eqn:Hr.
    + apply Hcirc; [discriminate|exact Hr].
    + rewrite <- Hr. apply Hstep; [rewrite Hr; discriminate|apply IH]. Qed.

Lemma filter_split_perm {A} (f : A -> bool) l :
  Permutation (filter f l ++ filter (fun x => negb (f x)) l) l.
Proof. induction l as [|a l IH]; simpl; [constructor|].
  destruct (f a); simpl; [constructor; exact IH|].
  apply Permutation_sym, Permutation_cons_app, Permutation_sym, IH. Qed.

(* the members of todo that occur in [ready] are [ready] itself, duplicates included *)
Lemma step_perm ts todo : Permutation (ready ts todo ++ rest ts todo) todo.
Proof. replace (ready ts todo) with (filter (fun t => memb t (ready ts todo)) todo) at 1; [apply filter_split_perm|].
  apply filter_ext_in. intros x Hx. apply eq_true_iff_eq. rewrite memb_In, In_ready, negb_true_iff. tauto. Qed.

Theorem subsets_perm fuel ts : forall todo r, subsets fuel ts todo = Ok r -> Permutation (concat r) todo.
Proof.
  revert fuel. apply (subsets_cases ts (fun _ todo res => forall r, res = Ok r -> Permutation (concat r) todo));
    try discriminate.
  - intros _ r [= <-]. constructor.
  - intros f todo _ IH r H. destruct (subsets f ts _) as [r'| |]; try discriminate. injection H as <-.
    etransitivity; [apply Permutation_app_head, IH; reflexivity|apply step_perm]. Qed.

Lemma filter_length_lt {A} (f : A -> bool) l x : In x l -> f x = false -> length (filter f l) < length l.
Proof. intros Hx Hf. pose proof (Permutation_length (filter_split_perm f l)) as E. rewrite app_length in E.
  enough (In x (filter (fun x => negb (f x)) l)) by (destruct (filter (fun x => negb (f x)) l); [contradiction|simpl in E; lia]).
  apply filter_In. rewrite Hf. auto. Qed.

(* fuel = length items always suffices, since every round emits at least one item *)
Theorem subsets_fuel_ok fuel ts : forall todo, length todo <= fuel -> subsets fuel ts todo <> OutOfFuel.
Proof.
  revert fuel. apply (subsets_cases ts (fun fuel todo res => length todo <= fuel -> res <> OutOfFuel));
    try discriminate.
  - intros [|t todo] Hne Hl; [congruence|simpl in Hl; lia].
  - intros f todo Hr IH Hl. destruct (ready ts todo) as [|o out] eqn:E; [congruence|].
    assert (Ho : In o (ready ts todo)) by (rewrite E; left; reflexivity).
    assert (length (rest ts todo) < length todo).
    { apply (filter_length_lt _ _ o); [apply In_ready in Ho; tauto|]. apply negb_false_iff, memb_In, Ho. }
    destruct (subsets f ts _); try discriminate. intros _. apply IH; [lia|reflexivity]. Qed.

Definition earlier (r : list (list node)) (p c : node) : Prop :=
  exists r1 L r2, r = r1 ++ L :: r2 /\ In c L /\ In p (concat r1).

Theorem subsets_order fuel ts : forall todo r, subsets fuel ts todo = Ok r ->
  forall p c, In (p, c) ts -> In p todo -> In c todo -> earlier r p c.
Proof.
  revert fuel. apply (subsets_cases ts (fun _ todo res => forall r, res = Ok r ->
    forall p c, In (p, c) ts -> In p todo -> In c todo -> earlier r p c)); try discriminate.
  - intros _ r _ p c _ [].
  - intros f todo _ IH r H p c He Hp Hc.
    destruct (subsets f ts (rest ts todo)) as [r'| |] eqn:Hs; try discriminate. injection H as <-.
    (* c is blocked by p, so it is not in the first layer *)
    assert (Hc' : In c (rest ts todo)).
    { apply In_rest. split; [exact Hc|]. rewrite In_ready. intros [_ Hb].
      rewrite (proj2 (blocked_true ts todo c)) in Hb by eauto. discriminate. }
    assert (G : forall r1 L r2, r' = r1 ++ L :: r2 -> In c L -> In p (ready ts todo ++ concat r1) ->
                earlier (ready ts todo :: r') p c).
    { intros r1 L r2 -> HL Hp'. exists (ready ts todo :: r1), L, r2. auto. }
    destruct (in_dec N.eq_dec p (ready ts todo)) as [Hpr|Hpr].
    + apply (Permutation_in _ (Permutation_sym (subsets_perm _ _ _ _ Hs))), in_concat in Hc'.
      destruct Hc' as [L [HL HcL]]. apply in_split in HL. destruct HL as [r1 [r2 E]].
      apply (G r1 L r2 E HcL), in_or_app. left. exact Hpr.
    + destruct (IH r' eq_refl p c He (proj2 (In_rest _ _ _) (conj Hp Hpr)) Hc') as [r1 [L [r2 [E [H1 H2]]]]].
      apply (G r1 L r2 E H1), in_or_app. right. exact H2. Qed.
