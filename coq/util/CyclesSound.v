(* find_cycles reports only nodes that lie on a cycle; at the end, every node of a closed backward walk
   ([TopoCycle.cycle]) is [on_cycle] (the converse is not needed and not proved) *)
From Coq Require Import List NArith Bool Lia Arith.
Import ListNotations.
From SAV.util Require Import Topo TopoProofs TopoCycle Cycles.

Lemma In_minus x l c : In x (minus l c) <-> In x l /\ ~ In x c.
Proof. unfold minus. rewrite filter_In, negb_true_iff, memb_false. tauto. Qed.

(* what the loop body records for a child n: the stack down to n, when n is on it *)
Definition seg (n : node) (st : list node) : list node := if memb n st then upto n st else [].

Lemma seg_incl n st : incl (seg n st) st.
Proof. unfold seg. destruct (memb n st); [|intros x []].
  induction st as [|y r IH]; simpl; [intros x []|]. destruct (N.eqb y n); intros x [->|H]; simpl; auto. destruct H. Qed.

Lemma seg_has n st : In n st -> In n (seg n st).
Proof. intros H. unfold seg. rewrite (proj2 (memb_In n st) H).
  induction st as [|y r IH]; simpl; [destruct H|]. destruct (N.eqb_spec y n) as [->|Hne]; [left; reflexivity|].
  right. apply IH. destruct H; [contradiction|assumption]. Qed.

(* the three ways the inner for-loop can go *)
Lemma scan_cases st (P : list node -> list node -> list node -> option node * list node * list node -> Prop) :
  (forall todo out, P [] todo out (None, todo, out)) ->
  (forall n cs todo out, In n (minus todo (seg n st)) ->
     P (n :: cs) todo out (Some n, minus (minus todo (seg n st)) [n], seg n st ++ out)) ->
  (forall n cs todo out, ~ In n (minus todo (seg n st)) ->
     P cs (minus todo (seg n st)) (seg n st ++ out) (scan cs st (minus todo (seg n st)) (seg n st ++ out)) ->
     P (n :: cs) todo out (scan cs st (minus todo (seg n st)) (seg n st ++ out))) ->
  forall cs todo out, P cs todo out (scan cs st todo out).
Proof. intros H0 H1 H2. induction cs as [|n cs IH]; intros todo out; [apply H0|]. cbn [scan]. fold (seg n st).
  destruct (memb n (minus todo (seg n st))) eqn:M.
  - apply H1, memb_In, M.
  - apply H2; [apply memb_false, M|apply IH]. Qed.

Section Sound.
Variable ts : list edge.
Variable ord : node -> list node.
Hypothesis ord_spec : forall a b, In b (ord a) <-> In (a, b) ts.
Variable starts : list node.

Inductive reach : node -> node -> Prop :=
| r1 a b : In (a, b) ts -> reach a b
| rS a b c : In (a, b) ts -> reach b c -> reach a c.
Definition on_cycle (x : node) := reach x x.
Definition req (a b : node) := a = b \/ reach a b.

Lemma reach_trans a b c : reach a b -> reach b c -> reach a c.
Proof. induction 1; intros; [eapply rS; eassumption | eapply rS; [eassumption|auto]]. Qed.
Lemma req_reach a b c : req a b -> reach b c -> reach a c.
Proof. intros [->|H] H2; [exact H2|eapply reach_trans; eassumption]. Qed.
Lemma reach_req a b c : reach a b -> req b c -> reach a c.
Proof. intros H [<-|H2]; [exact H|eapply reach_trans; eassumption]. Qed.
Lemma req_trans a b c : req a b -> req b c -> req a c.
Proof. intros [->|H] H2; [exact H2|]. right. eapply reach_req; eassumption. Qed.

(* stack, top first: each element is a child of the one below it *)
Fixpoint chain (st : list node) : Prop :=
  match st with
  | b :: ((a :: _) as r) => In (a, b) ts /\ chain r
  | _ => True
  end.

Lemma upto_head n y r : exists l, upto n (y :: r) = y :: l.
Proof. simpl. destruct (N.eqb y n); eauto. Qed.

Lemma upto_from_n n : forall st, chain st -> In n st -> forall x, In x (upto n st) -> req n x.
Proof.
  induction st as [|y r IH]; intros Hc Hn x Hx; [destruct Hn|].
  simpl in Hx. destruct (N.eqb y n) eqn:E.
  - apply N.eqb_eq in E. subst y. destruct Hx as [->|[]]. left; reflexivity.
  - assert (Hnr : In n r). { destruct Hn as [->|Hn]; [rewrite N.eqb_refl in E; discriminate|exact Hn]. }
    destruct r as [|a r']; [destruct Hnr|].
    destruct Hc as [He Hc'].
    destruct Hx as [->|Hx].
    + (* x = y, child of a; a is the head of upto n (a::r') *)
      destruct (upto_head n a r') as [l Hl].
      assert (req n a) by (apply (IH Hc' Hnr); rewrite Hl; left; reflexivity).
      right. eapply req_reach; [exact H|]. apply r1. exact He.
    + apply (IH Hc' Hnr). exact Hx. Qed.

Lemma stack_to_top : forall r top, chain (top :: r) -> forall x, In x (top :: r) -> req x top.
Proof. induction r as [|a r IH]; intros top Hc x [->|Hx]; try (left; reflexivity); [destruct Hx|].
  destruct Hc as [He Hc]. right. eapply req_reach; [apply (IH a Hc x Hx)|apply r1, He]. Qed.

(* the recorded segment runs from n up to the top, and top -> n closes the cycle *)
Lemma segment_on_cycle top r n : chain (top :: r) -> In (top, n) ts ->
  forall x, In x (seg n (top :: r)) -> on_cycle x.
Proof.
  intros Hc He x Hx. pose proof (stack_to_top r top Hc x (seg_incl n _ x Hx)) as H1. unfold seg in Hx.
  destruct (memb n (top :: r)) eqn:Hn; [apply memb_In in Hn|destruct Hx].
  eapply req_reach; [exact H1|]. eapply reach_req; [apply r1, He|]. eapply upto_from_n; eassumption. Qed.

Definition out_ok (out : list node) := forall x, In x out -> on_cycle x.

Lemma scan_sound top r : chain (top :: r) ->
  forall cs todo out res todo' out', (forall c, In c cs -> In (top, c) ts) -> out_ok out ->
  scan cs (top :: r) todo out = (res, todo', out') ->
  out_ok out' /\ (forall n, res = Some n -> In (top, n) ts).
Proof.
  intros Hc cs todo out res todo' out' Hcs Hok H. revert cs todo out Hcs Hok res todo' out' H.
  assert (Hseg : forall n out, In (top, n) ts -> out_ok out -> out_ok (seg n (top :: r) ++ out)).
  { intros n out He Hok x Hx. apply in_app_or in Hx. destruct Hx as [Hx|Hx]; [|apply Hok, Hx].
    eapply segment_on_cycle; eassumption. }
  apply (scan_cases (top :: r) (fun cs _ out r => (forall c, In c cs -> In (top, c) ts) -> out_ok out ->
    forall res todo' out', r = (res, todo', out') -> out_ok out' /\ (forall n, res = Some n -> In (top, n) ts))).
  - intros todo out _ Hok ? ? ? [= <- _ <-]. split; [exact Hok|discriminate].
  - intros n cs todo out _ Hcs Hok ? ? ? [= <- _ <-]. pose proof (Hcs n (or_introl eq_refl)) as He.
    split; [apply Hseg; assumption|]. intros ? [= <-]. exact He.
  - intros n cs todo out _ IH Hcs Hok. apply IH; [|apply Hseg; [apply Hcs; left; reflexivity|exact Hok]].
    intros c Hc0. apply Hcs. right. exact Hc0. Qed.

Theorem dfs_sound : forall fuel st todo out todo' out', chain st -> out_ok out ->
  dfs ord fuel st todo out = Some (todo', out') -> out_ok out'.
Proof.
  induction fuel as [|f IH]; intros [|top r] todo out todo' out' Hc Hok H; simpl in H; try discriminate;
    try (injection H as <- <-; exact Hok).
  destruct (scan (ord top) (top :: r) todo out) as [[res t1] o1] eqn:S.
  destruct (scan_sound top r Hc _ _ _ _ _ _ (fun c => proj1 (ord_spec top c)) Hok S) as [Hok1 Hres].
  destruct res as [n|]; (eapply IH; [|exact Hok1|exact H]).
  - split; [apply Hres; reflexivity|exact Hc].
  - destruct r as [|a r']; [exact I|apply Hc]. Qed.

Theorem find_cycles_sound : forall out, find_cycles ord starts = Some out -> forall x, In x out -> on_cycle x.
Proof.
  unfold find_cycles. assert (G : forall ss out0 out, out_ok out0 -> outer ord starts ss out0 = Some out -> out_ok out).
  { induction ss as [|v ss IH]; intros out0 out Hok H; simpl in H; [inversion H; subst; exact Hok|].
    destruct (dfs ord _ [v] _ out0) as [[t o]|] eqn:D; [|discriminate].
    eapply IH; [|exact H]. eapply dfs_sound; [|exact Hok|exact D]. exact I. }
  intros out H. eapply G; [|exact H]. intros x []. Qed.
End Sound.

Lemma reach_ext ts ts' a b : (forall e, In e ts -> In e ts') -> reach ts a b -> reach ts' a b.
Proof. intros H. induction 1; [apply r1; auto|eapply rS; [apply H; eassumption|assumption]]. Qed.

Lemma bwalk_reach ts : forall l a b, bwalk ts (a :: l ++ [b]) ->
  reach ts b a /\ forall y, In y l -> reach ts b y /\ reach ts y a.
Proof. induction l as [|c l IH]; intros a b H; inversion H as [|? ? ? He Hw]; subst.
  - split; [apply r1, He|intros y []].
  - destruct (IH c b Hw) as [Hbc Hl]. pose proof (r1 ts c a He) as Hca. split; [eapply reach_trans; eassumption|].
    intros y [<-|Hy]; [auto|]. destruct (Hl y Hy). split; [|eapply reach_trans]; eassumption. Qed.

Lemma cycle_on_cycle ts w : cycle ts w -> forall x, In x w -> on_cycle ts x.
Proof. intros [x [m [-> Hw]]] y Hy. destruct (bwalk_reach ts m x x Hw) as [Hxx Hm].
  destruct Hy as [<-|Hy]; [exact Hxx|]. apply in_app_or in Hy. destruct Hy as [Hy|[<-|[]]]; [|exact Hxx].
  destruct (Hm y Hy). eapply reach_trans; eassumption. Qed.

