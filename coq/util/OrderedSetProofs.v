(* C54 - OrderedSet: the (list, set) model refines the duplicate-free-list reference model.  The facts
   about [memz], [unique_list], [r_add] (append if absent) also serve IdentitySet, immutabledict, LRUCache. *)
From Coq Require Import List ZArith Bool Lia.
Import ListNotations.
From SAV.util Require Import OrderedSet.
Open Scope Z_scope.

Lemma memz_In : forall x l, memz x l = true <-> In x l.
Proof.
  intros x l. unfold memz. rewrite existsb_exists. split.
  - intros [y [Hy He]]. apply Z.eqb_eq in He. subst. exact Hy.
  - intros H. exists x. split; [exact H|apply Z.eqb_refl].
Qed.
Lemma memz_false : forall x l, memz x l = false <-> ~ In x l.
Proof. intros. rewrite <- memz_In. symmetry. apply not_true_iff_false. Qed.
Lemma memz_ext : forall l1 l2, (forall x, In x l1 <-> In x l2) -> forall x, memz x l1 = memz x l2.
Proof. intros l1 l2 H x. apply eq_true_iff_eq. rewrite !memz_In. apply H. Qed.
Lemma memz_app : forall x a b, memz x (a ++ b) = memz x a || memz x b.
Proof. intros. apply existsb_app. Qed.
Lemma memz_cons : forall x y l, memz x (y :: l) = (x =? y) || memz x l.
Proof. reflexivity. Qed.
Lemma memz_filter : forall (P : Z -> bool) s a, memz a (filter P s) = memz a s && P a.
Proof. intros. apply eq_true_iff_eq. rewrite andb_true_iff, !memz_In. apply filter_In. Qed.

Lemma filter_id : forall {A} (f : A -> bool) l, (forall a, In a l -> f a = true) -> filter f l = l.
Proof.
  induction l as [|a l IH]; intros H; simpl; [reflexivity|].
  rewrite (H a (or_introl eq_refl)), IH; [reflexivity|]. intros; apply H; right; assumption.
Qed.
Lemma NoDup_app_iff : forall {A} (a b : list A),
  NoDup (a ++ b) <-> NoDup a /\ NoDup b /\ forall x, In x a -> ~ In x b.
Proof.
  induction a as [|x a IH]; intros b; simpl.
  - split; [intros H; repeat split; [constructor|exact H|tauto]|tauto].
  - rewrite !NoDup_cons_iff, IH, in_app_iff. firstorder (subst; auto).
Qed.
Lemma filter_notin_In : forall s t x,
  In x (filter (fun a => negb (memz a t)) s) <-> In x s /\ ~ In x t.
Proof. intros. rewrite filter_In, negb_true_iff, memz_false. tauto. Qed.

Lemma set_add_In : forall x s y, In y (set_add x s) <-> y = x \/ In y s.
Proof.
  intros. unfold set_add. destruct (memz x s) eqn:E; simpl.
  - apply memz_In in E. split; [tauto|]. intros [->|H]; auto.
  - split; intros [H|H]; auto.
Qed.
Lemma set_add_NoDup : forall x s, NoDup s -> NoDup (set_add x s).
Proof.
  intros. unfold set_add. destruct (memz x s) eqn:E; [assumption|].
  constructor; [apply memz_false; exact E|assumption].
Qed.
Lemma set_update_In : forall l s y, In y (set_update s l) <-> In y s \/ In y l.
Proof.
  unfold set_update. induction l as [|x l IH]; intros s y; simpl; [tauto|].
  rewrite IH, set_add_In. split; [intros [[->|H]|H]|intros [H|[->|H]]]; auto.
Qed.
Lemma set_update_NoDup : forall l s, NoDup s -> NoDup (set_update s l).
Proof.
  unfold set_update. induction l as [|x l IH]; intros s H; simpl; [exact H|].
  apply IH, set_add_NoDup, H.
Qed.
Lemma set_del_In : forall x s y, In y (set_del x s) <-> In y s /\ y <> x.
Proof.
  intros. unfold set_del. rewrite filter_In, negb_true_iff, Z.eqb_neq.
  split; intros [H Hn]; (split; [exact H|congruence]).
Qed.
Lemma set_toggle_In : forall s t y,
  In y (set_toggle s t) <-> (In y s /\ ~ In y t) \/ (In y t /\ ~ In y s).
Proof.
  intros. unfold set_toggle. rewrite in_app_iff, !filter_notin_In. tauto.
Qed.
Lemma set_toggle_NoDup : forall s t, NoDup s -> NoDup t -> NoDup (set_toggle s t).
Proof.
  intros s t Hs Ht. apply NoDup_app_iff. repeat split; try (apply NoDup_filter; assumption).
  intros x. rewrite !filter_notin_In. tauto.
Qed.
Lemma set_toggle_mem : forall s t a, memz a (set_toggle s t) = xorb (memz a s) (memz a t).
Proof.
  intros. unfold set_toggle. rewrite memz_app, !memz_filter.
  destruct (memz a s), (memz a t); reflexivity.
Qed.

Lemma uniq_from_ext : forall l s1 s2, (forall y, memz y s1 = memz y s2) ->
  uniq_from s1 l = uniq_from s2 l.
Proof.
  induction l as [|x l IH]; intros s1 s2 H; simpl; [reflexivity|]. rewrite (H x).
  destruct (memz x s2); [apply IH, H|]. f_equal. apply IH. intros y.
  rewrite !memz_cons, (H y). reflexivity.
Qed.
Lemma uniq_from_In : forall l s y, In y (uniq_from s l) <-> In y l /\ ~ In y s.
Proof.
  induction l as [|x l IH]; intros s y; simpl; [tauto|].
  destruct (memz x s) eqn:E; simpl; rewrite IH; simpl.
  - apply memz_In in E. split; [tauto|]. intros [[<-|H] Hn]; tauto.
  - apply memz_false in E. destruct (Z.eq_dec x y) as [<-|]; tauto.
Qed.
Lemma uniq_from_NoDup : forall l s, NoDup (uniq_from s l).
Proof.
  induction l as [|x l IH]; intros s; simpl; [constructor|].
  destruct (memz x s); [apply IH|]. constructor; [|apply IH].
  rewrite uniq_from_In. simpl. tauto.
Qed.
Lemma uniq_from_id : forall l s, NoDup l -> (forall x, In x l -> ~ In x s) -> uniq_from s l = l.
Proof.
  induction l as [|x l IH]; intros s Hn Hd; simpl; [reflexivity|]. inversion Hn; subst.
  destruct (memz x s) eqn:E; [apply memz_In in E; exfalso; apply (Hd x); simpl; auto|].
  f_equal. apply IH; [assumption|]. intros y Hy [->|H]; [tauto|]. apply (Hd y); simpl; auto.
Qed.
Lemma unique_list_In : forall l y, In y (unique_list l) <-> In y l.
Proof. intros. unfold unique_list. rewrite uniq_from_In. simpl. tauto. Qed.
Lemma unique_list_NoDup : forall l, NoDup (unique_list l).
Proof. intros. apply uniq_from_NoDup. Qed.
Lemma unique_list_id : forall l, NoDup l -> unique_list l = l.
Proof. intros. apply uniq_from_id; auto. Qed.
(* Filtering commutes with de-duplication.  For the induction the two seen-lists only have to agree
   on the elements that pass the filter: a dropped element enters [s] but not [s']. *)
Lemma filter_uniq_from_seen : forall (P : Z -> bool) l s s',
  (forall y, P y = true -> memz y s = memz y s') ->
  filter P (uniq_from s l) = uniq_from s' (filter P l).
Proof.
  induction l as [|x l IH]; intros s s' H; simpl; [reflexivity|].
  destruct (P x) eqn:EP; simpl.
  - rewrite <- (H x EP). destruct (memz x s); [apply IH, H|]. simpl. rewrite EP. f_equal.
    apply IH. intros y Hy. rewrite !memz_cons, (H y Hy). reflexivity.
  - destruct (memz x s); [apply IH, H|]. simpl. rewrite EP. apply IH. intros y Hy.
    rewrite memz_cons, <- (H y Hy). destruct (Z.eqb_spec y x); [congruence|reflexivity].
Qed.
Lemma filter_uniq_from : forall (P : Z -> bool) l s,
  filter P (uniq_from s l) = uniq_from s (filter P l).
Proof. intros. apply filter_uniq_from_seen. reflexivity. Qed.
Lemma uniq_from_skip : forall l s x, ~ In x l -> uniq_from (x :: s) l = uniq_from s l.
Proof.
  intros l s x H.
  assert (Hf : forall l', (forall y, In y l' -> In y l) -> filter (fun y => negb (y =? x)) l' = l')
    by (intros l' Hl; apply filter_id; intros y Hy; apply negb_true_iff, Z.eqb_neq; intros ->; auto).
  rewrite <- (Hf (uniq_from (x :: s) l)) by (intros y Hy; apply uniq_from_In in Hy; tauto).
  rewrite <- (Hf l) at 2 by auto. apply filter_uniq_from_seen. intros y Hy.
  rewrite memz_cons. apply negb_true_iff in Hy. rewrite Hy. reflexivity.
Qed.
Lemma uniq_from_app_seen : forall c s l,
  uniq_from (s ++ l) c = uniq_from s (filter (fun a => negb (memz a l)) c).
Proof.
  induction c as [|x c IH]; intros s l; simpl; [reflexivity|].
  rewrite memz_app. destruct (memz x l) eqn:El; simpl.
  - rewrite orb_true_r. apply IH.
  - rewrite orb_false_r. destruct (memz x s); [apply IH|]. f_equal. apply (IH (x :: s) l).
Qed.

Lemma Add_snoc : forall {A} (x : A) l, Add x l (l ++ [x]).
Proof. intros. rewrite <- (app_nil_r l) at 1. apply Add_app. Qed.
Lemma r_add_NoDup : forall l x, NoDup l -> NoDup (r_add l x).
Proof.
  intros l x H. unfold r_add. destruct (memz x l) eqn:E; [exact H|]. apply memz_false in E.
  apply (NoDup_Add (Add_snoc x l)). tauto.
Qed.
Lemma r_update_fold : forall c l, fold_left r_add c l = l ++ uniq_from l c.
Proof.
  induction c as [|x c IH]; intros l; simpl; [rewrite app_nil_r; reflexivity|].
  unfold r_add at 2. destruct (memz x l) eqn:E; [apply IH|].
  rewrite IH, <- app_assoc. simpl. do 2 f_equal. apply uniq_from_ext.
  intros y. rewrite memz_app, memz_cons. simpl. rewrite orb_false_r. apply orb_comm.
Qed.
(* order = first insertion: the old elements keep their places, the new ones follow in the order of
   their first occurrence in the arguments *)
Lemma fold_r_add_closed : forall c l,
  fold_left r_add c l = l ++ unique_list (filter (fun a => negb (memz a l)) c).
Proof. intros. rewrite r_update_fold. f_equal. apply (uniq_from_app_seen _ [] l). Qed.
Lemma r_update_closed : forall l seqs,
  r_update l seqs = l ++ unique_list (filter (fun a => negb (memz a l)) (concat seqs)).
Proof. intros. apply fold_r_add_closed. Qed.
Lemma r_update_In : forall l seqs x,
  In x (r_update l seqs) <-> In x l \/ exists s, In s seqs /\ In x s.
Proof.
  intros. rewrite r_update_closed, in_app_iff, unique_list_In, filter_notin_In, in_concat. destruct (in_dec Z.eq_dec x l); tauto.
Qed.
Lemma r_update_NoDup : forall l seqs, NoDup l -> NoDup (r_update l seqs).
Proof.
  intros l seqs H. rewrite r_update_closed. apply NoDup_app_iff.
  split; [exact H|]. split; [apply unique_list_NoDup|].
  intros x Hx. rewrite unique_list_In, filter_notin_In. tauto.
Qed.
Lemma in_all_spec : forall sets a, in_all sets a = true <-> forall s, In s sets -> In a s.
Proof.
  intros. unfold in_all. rewrite forallb_forall. split; intros H s Hs; apply memz_In, H, Hs.
Qed.
Lemma in_none_spec : forall sets a, in_none sets a = true <-> forall s, In s sets -> ~ In a s.
Proof.
  intros. unfold in_none. rewrite negb_true_iff, <- not_true_iff_false, existsb_exists. split.
  - intros H s Hs Ha. apply H. exists s. split; [exact Hs|apply memz_In, Ha].
  - intros H [s [Hs Ha]]. apply memz_In in Ha. exact (H s Hs Ha).
Qed.
Lemma r_inter_In : forall l sets x,
  In x (r_inter l sets) <-> In x l /\ forall s, In s sets -> In x s.
Proof. intros. unfold r_inter. rewrite filter_In, in_all_spec. tauto. Qed.
Lemma r_diff_In : forall l sets x,
  In x (r_diff l sets) <-> In x l /\ forall s, In s sets -> ~ In x s.
Proof. intros. unfold r_diff. rewrite filter_In, in_none_spec. tauto. Qed.
Lemma r_sym_In : forall l c x,
  In x (r_sym l c) <-> (In x l /\ ~ In x c) \/ (In x c /\ ~ In x l).
Proof.
  intros. unfold r_sym. rewrite in_app_iff, unique_list_In, !filter_notin_In. tauto.
Qed.
Lemma r_sym_NoDup : forall l c, NoDup l -> NoDup (r_sym l c).
Proof.
  intros l c H. apply NoDup_app_iff.
  split; [apply NoDup_filter, H|]. split; [apply unique_list_NoDup|].
  intros x. rewrite unique_list_In, !filter_notin_In. tauto.
Qed.
Lemma r_del_In : forall l x y, In y (r_del l x) <-> In y l /\ y <> x.
Proof. exact (fun l x => set_del_In x l). Qed.
Lemma r_del_notin : forall l x, ~ In x l -> r_del l x = l.
Proof.
  intros l x H. apply filter_id. intros a Ha. apply negb_true_iff, Z.eqb_neq. intros ->. tauto.
Qed.

Lemma list_remove_NoDup : forall x l, NoDup l -> In x l -> list_remove x l = Some (r_del l x).
Proof.
  induction l as [|y l IH]; intros Hn Hi; [destruct Hi|]. inversion Hn; subst. simpl.
  destruct (Z.eqb_spec x y) as [<-|E]; simpl.
  - rewrite (r_del_notin l x); auto.
  - destruct Hi as [->|Hi]; [congruence|]. rewrite (IH H2 Hi). reflexivity.
Qed.
Lemma list_insert_Add : forall pos x l, Add x l (list_insert pos x l).
Proof.
  intros. unfold list_insert. set (p := Z.to_nat _). rewrite <- (firstn_skipn p l) at 1. apply Add_app.
Qed.
Lemma pop_NoDup : forall (l r : list Z) v, NoDup l -> rev l = v :: r ->
  NoDup (rev r) /\ forall y, In y (rev r) <-> In y l /\ y <> v.
Proof.
  intros l r v H E. apply (f_equal (@rev Z)) in E. rewrite rev_involutive in E. simpl in E. subst l.
  apply NoDup_app_iff in H. destruct H as [Hr [_ Hd]]. split; [exact Hr|].
  intros y. rewrite in_app_iff. simpl. split.
  - intros Hy. split; [tauto|]. intros ->. apply (Hd v Hy). left; reflexivity.
  - intros [[Hy|[->|[]]] Hne]; tauto.
Qed.

Lemma from_list_inv : forall l, NoDup l -> inv (from_list l).
Proof.
  intros l H. split; [exact H|]. split; [apply set_update_NoDup; constructor|].
  intros x. simpl. rewrite set_update_In. simpl. tauto.
Qed.
Lemma inv_mem : forall st x, inv st -> memz x (os st) = memz x (ol st).
Proof. intros st x [_ [_ H]]. apply memz_ext. intros y. symmetry. apply H. Qed.
Lemma remove_inv : forall st x l', inv st -> NoDup l' ->
  (forall y, In y l' <-> In y (ol st) /\ y <> x) -> inv (mk l' (set_del x (os st))).
Proof.
  intros st x l' [_ [H2 H3]] Hn Hl. split; [exact Hn|]. split; [apply NoDup_filter, H2|].
  intros y. simpl. rewrite Hl, set_del_In, (H3 y). tauto.
Qed.

Lemma add_inv : forall st x l', inv st -> ~ In x (ol st) -> Add x (ol st) l' ->
  inv (mk l' (set_add x (os st))).
Proof.
  intros st x l' [H1 [H2 H3]] Hx Ha. split; [apply (NoDup_Add Ha); tauto|].
  split; [apply set_add_NoDup, H2|]. intros y. simpl.
  rewrite (Add_in Ha), set_add_In, <- (H3 y). simpl. intuition.
Qed.

Lemma o_add_ref : forall st x, inv st -> inv (o_add st x) /\ ol (o_add st x) = r_add (ol st) x.
Proof.
  intros st x Hi. unfold o_add, r_add. rewrite (inv_mem st x Hi).
  destruct (memz x (ol st)) eqn:E; [tauto|]. split; [|reflexivity].
  apply add_inv; [exact Hi|apply memz_false, E|apply Add_snoc].
Qed.
Lemma o_update_ref : forall seqs st, inv st ->
  inv (o_update st seqs) /\ ol (o_update st seqs) = r_update (ol st) seqs.
Proof.
  intros seqs. unfold o_update, r_update. induction (concat seqs) as [|x c IH]; intros st Hi; simpl.
  - tauto.
  - destruct (o_add_ref st x Hi) as [Hi' He]. rewrite <- He. apply IH, Hi'.
Qed.

Definition mem_eq (s s' : list Z) : Prop := forall x, memz x s = memz x s'.
Lemma in_all_cong : forall sets sets' a, Forall2 mem_eq sets sets' -> in_all sets a = in_all sets' a.
Proof.
  intros sets sets' a H. unfold in_all. induction H; simpl; [reflexivity|]. rewrite (H a), IHForall2. reflexivity.
Qed.
Lemma in_none_cong : forall sets sets' a, Forall2 mem_eq sets sets' -> in_none sets a = in_none sets' a.
Proof.
  intros sets sets' a H. unfold in_none. f_equal. induction H; simpl; [reflexivity|].
  rewrite (H a), IHForall2. reflexivity.
Qed.

(* intersection, difference and their _update forms all filter the set by some [P] and then keep
   the list elements found in the filtered set: that is filtering the list by [P] *)
Lemma filter_both_ref : forall (P P' : Z -> bool) st, inv st -> (forall a, P a = P' a) ->
  let s' := filter P (os st) in let l' := filter (fun a => memz a s') (ol st) in
  inv (mk l' s') /\ l' = filter P' (ol st).
Proof.
  intros P P' st Hi He s' l'.
  assert (El : l' = filter P' (ol st)).
  { apply filter_ext_in. intros a Ha. unfold s'. rewrite memz_filter, (inv_mem st a Hi).
    apply memz_In in Ha. rewrite Ha, He. reflexivity. }
  split; [|exact El]. destruct Hi as [H1 [H2 H3]].
  split; [apply NoDup_filter, H1|]. split; [apply NoDup_filter, H2|].
  intros x. simpl. rewrite El. unfold s'. rewrite !filter_In, (H3 x), He. tauto.
Qed.
Lemma o_intersection_update_ref : forall st sets sets', inv st -> Forall2 mem_eq sets sets' ->
  inv (o_intersection_update st sets) /\ ol (o_intersection_update st sets) = r_inter (ol st) sets'.
Proof.
  intros st sets sets' Hi Hs. apply (filter_both_ref _ _ st Hi). intros a. apply in_all_cong, Hs.
Qed.
Lemma o_difference_update_ref : forall st sets sets', inv st -> Forall2 mem_eq sets sets' ->
  inv (o_difference_update st sets) /\ ol (o_difference_update st sets) = r_diff (ol st) sets'.
Proof.
  intros st sets sets' Hi Hs. apply (filter_both_ref _ _ st Hi). intros a. apply in_none_cong, Hs.
Qed.
(* copy and the non-updating intersection / difference rebuild the set from the list the _update
   form computes; a conjunction in and out, to chain under [apply] after the method lemmas *)
Lemma from_list_ref : forall st l', inv st /\ ol st = l' ->
  inv (from_list (ol st)) /\ ol (from_list (ol st)) = l'.
Proof. intros st l' [[H _] He]. split; [apply from_list_inv, H|exact He]. Qed.

Lemma o_symmetric_difference_ref : forall st c cs, inv st -> mem_eq cs c ->
  inv (o_symmetric_difference st c cs) /\ ol (o_symmetric_difference st c cs) = r_sym (ol st) c.
Proof.
  intros st c cs Hi Hc. unfold o_symmetric_difference.
  set (l0 := filter (fun a => negb (memz a cs)) (ol st)).
  destruct (o_update_ref [filter (fun a => negb (memz a (os st))) c] (from_list l0)) as [Hi1 He];
    [apply from_list_inv, NoDup_filter, Hi|].
  split; [exact Hi1|]. rewrite He, r_update_closed. simpl. rewrite app_nil_r. unfold r_sym. f_equal.
  - apply filter_ext_in. intros a _. rewrite (Hc a). reflexivity.
  - (* what is not in [os st] is not in [l0] either *)
    f_equal. rewrite filter_id.
    + apply filter_ext_in. intros a _. rewrite (inv_mem st a Hi). reflexivity.
    + intros a Ha. apply filter_In in Ha. destruct Ha as [_ Ha]. unfold l0.
      rewrite memz_filter, <- (inv_mem st a Hi). rewrite negb_true_iff in Ha. rewrite Ha. reflexivity.
Qed.

Lemma o_symmetric_difference_update_ref : forall st c cs, inv st -> mem_eq cs c -> NoDup cs ->
  inv (o_symmetric_difference_update st c cs) /\
  ol (o_symmetric_difference_update st c cs) = r_sym (ol st) c.
Proof.
  intros st c cs Hi Hc Hn. unfold o_symmetric_difference_update.
  set (s' := set_toggle (os st) cs).
  assert (Hm : forall a, memz a s' = xorb (memz a (ol st)) (memz a c)).
  { intros a. unfold s'. rewrite set_toggle_mem, (Hc a), (inv_mem st a Hi). reflexivity. }
  assert (Hl : filter (fun a => memz a s') (ol st) ++ filter (fun a => memz a s') (unique_list c)
               = r_sym (ol st) c).
  { unfold r_sym. f_equal.
    - apply filter_ext_in. intros a Ha. apply memz_In in Ha. rewrite Hm, Ha. reflexivity.
    - unfold unique_list. rewrite <- filter_uniq_from. apply filter_ext_in. intros a Ha.
      apply uniq_from_In in Ha. destruct Ha as [Ha _]. apply memz_In in Ha. rewrite Hm, Ha.
      apply xorb_true_r. }
  split; [|exact Hl]. destruct Hi as [H1 [H2 H3]]. unfold inv. simpl. rewrite Hl.
  split; [apply r_sym_NoDup, H1|]. split; [apply set_toggle_NoDup; assumption|].
  intros x. unfold s'. rewrite r_sym_In, set_toggle_In, <- (H3 x), <- !memz_false, <- !memz_In, (Hc x). tauto.
Qed.

Lemma aseq_rseq : forall st a, aseq st a = rseq (ol st) a.
Proof. intros st [k e]. destruct k; reflexivity. Qed.
Lemma aset_mem : forall st a, inv st -> mem_eq (aset st a) (rseq (ol st) a).
Proof.
  intros st [k e] Hi x. destruct k; unfold aset, rseq; simpl; try reflexivity;
    [apply memz_ext; intros y; rewrite set_update_In; simpl; tauto ..|apply inv_mem, Hi].
Qed.
Lemma aset_NoDup : forall st a, inv st -> wf_arg a -> NoDup (aset st a).
Proof.
  intros st [k e] Hi Hw. destruct k; unfold aset; simpl; try exact Hw;
    try (apply set_update_NoDup; constructor). apply Hi.
Qed.
Lemma asets_mem : forall st args, inv st ->
  Forall2 mem_eq (map (aset st) args) (map (rseq (ol st)) args).
Proof. intros st args Hi. induction args; simpl; constructor; [apply aset_mem, Hi|assumption]. Qed.

Lemma oinit_ref : forall d, match d with Some a => wf_arg a | None => True end ->
  inv (oinit d) /\ ol (oinit d) = rinit d.
Proof.
  intros [[k e]|] Hw; [|split; [apply (from_list_inv []); constructor|reflexivity]].
  unfold oinit, oinit_seq, rinit, aseq, rseq; destruct k; simpl in *;
    rewrite ?(unique_list_id e Hw), ?(unique_list_id _ (unique_list_NoDup e));
    (split; [apply from_list_inv|reflexivity]); auto using unique_list_NoDup; constructor.
Qed.

Lemma o_remove_ref : forall st x, inv st -> In x (ol st) ->
  o_remove st x = (mk (r_del (ol st) x) (set_del x (os st)), RNone).
Proof.
  intros st x Hi Hx. unfold o_remove. rewrite (inv_mem st x Hi).
  replace (memz x (ol st)) with true by (symmetry; apply memz_In, Hx).
  rewrite (list_remove_NoDup x (ol st)); [reflexivity|apply Hi|exact Hx].
Qed.

Definition refines (p : oset * oret) (q : list Z * rret) : Prop :=
  inv (fst p) /\ ol (fst p) = fst q /\ abs_ret (snd p) = snd q /\ ret_inv (snd p).
Lemma refines_mut : forall st' l', inv st' /\ ol st' = l' -> refines (st', RNone) (l', QNone).
Proof. intros st' l' [Hi He]. unfold refines. simpl. auto. Qed.
Lemma refines_pure : forall st ad r l', inv st -> inv r /\ ol r = l' ->
  refines (pure st ad r) (rpure (ol st) ad l').
Proof. intros st ad r l' Hi [Hr <-]. unfold refines. destruct ad; simpl; auto. Qed.
Lemma refines_same : forall st r q, inv st -> abs_ret r = q -> ret_inv r -> refines (st, r) (ol st, q).
Proof. intros st r q Hi Hr Hv. unfold refines. simpl. auto. Qed.

Lemma ostep_ref : forall st op, inv st -> wf_op op -> refines (ostep st op) (rstep (ol st) op).
Proof.
  intros st op Hi Hw. pose proof Hi as [H1 [H2 H3]].
  assert (Hdel : forall x, inv (mk (r_del (ol st) x) (set_del x (os st))))
    by (intros x; apply remove_inv; [exact Hi|apply NoDup_filter, H1|apply r_del_In]).
  destruct op; cbn [ostep rstep]; rewrite ?aseq_rseq, ?(map_ext _ _ (aseq_rseq st)).
  - apply refines_mut, o_add_ref, Hi.
  - destruct (memz x (ol st)) eqn:E.
    + apply memz_In in E. rewrite (o_remove_ref st x Hi E). apply refines_mut. auto.
    + unfold o_remove. rewrite (inv_mem st x Hi), E. apply refines_same; simpl; auto.
  - unfold o_pop. destruct (rev (ol st)) as [|v r] eqn:E; [apply refines_same; simpl; auto|].
    destruct (pop_NoDup _ _ _ H1 E) as [Hn Hl].
    assert (Hv : In v (ol st)) by (apply in_rev; rewrite E; left; reflexivity).
    rewrite (inv_mem st v Hi), (proj2 (memz_In v _) Hv).
    split; [apply remove_inv; assumption|simpl; auto].
  - unfold o_insert. rewrite (inv_mem st x Hi). apply refines_mut.
    destruct (memz x (ol st)) eqn:E; [tauto|]. split; [|reflexivity].
    apply add_inv; [exact Hi|apply memz_false, E|apply list_insert_Add].
  - unfold o_discard. rewrite (inv_mem st x Hi). destruct (memz x (ol st)) eqn:E.
    + apply memz_In in E. rewrite (o_remove_ref st x Hi E). apply refines_mut. auto.
    + apply memz_false in E. rewrite (r_del_notin _ _ E). apply refines_mut. auto.
  - (* clear *) apply refines_mut. split; [apply (from_list_inv []); constructor|reflexivity].
  - destruct (list_index k (ol st)); apply refines_same; simpl; auto.
  - (* contains *) rewrite (inv_mem st x Hi). apply refines_same; simpl; auto.
  - (* len *) apply refines_same; simpl; auto. do 2 f_equal.
    apply Nat.le_antisymm; apply NoDup_incl_length; auto; intros y; apply H3.
  - apply refines_mut, o_update_ref, Hi.
  - apply refines_mut, o_intersection_update_ref, asets_mem; exact Hi.
  - apply refines_mut, o_difference_update_ref, asets_mem; exact Hi.
  - apply refines_mut, o_symmetric_difference_update_ref; auto using aset_mem.
    apply aset_NoDup; [exact Hi|exact (Forall_inv Hw)].
  - (* copy *) apply refines_pure, (from_list_ref st); auto.
  - (* union *) apply refines_pure; [exact Hi|].
    exact (o_update_ref _ (from_list (ol st)) (from_list_inv _ H1)).
  - apply refines_pure; [exact Hi|].
    apply (from_list_ref (o_intersection_update st (map (aset st) args))),
      o_intersection_update_ref, asets_mem; exact Hi.
  - apply refines_pure; [exact Hi|].
    apply (from_list_ref (o_difference_update st (map (aset st) args))),
      o_difference_update_ref, asets_mem; exact Hi.
  - apply refines_pure, o_symmetric_difference_ref; auto using aset_mem.
Qed.

Lemma orun_ref : forall ops st, inv st -> Forall wf_op ops ->
  inv (fst (orun st ops)) /\ ol (fst (orun st ops)) = fst (rrun (ol st) ops) /\
  map abs_ret (snd (orun st ops)) = snd (rrun (ol st) ops) /\ Forall ret_inv (snd (orun st ops)).
Proof.
  induction ops as [|op ops IH]; intros st Hi Hw; simpl; [auto|].
  destruct (ostep_ref st op Hi (Forall_inv Hw)) as [Ha [Hb [Hc Hd]]].
  destruct (ostep st op) as [st1 o]. destruct (rstep (ol st) op) as [l1 o']. simpl in *. subst l1.
  destruct (IH st1 Ha (Forall_inv_tail Hw)) as [Ia [Ib [Ic Id]]].
  destruct (orun st1 ops) as [st2 os']. destruct (rrun (ol st1) ops) as [l2 os'']. simpl in *.
  split; [exact Ia|]. split; [exact Ib|]. split; [congruence|constructor; assumption].
Qed.

Theorem oset_history : forall d ops,
  match d with Some a => wf_arg a | None => True end -> Forall wf_op ops ->
  let '(st, outs) := orun (oinit d) ops in
  let '(l, outs') := rrun (rinit d) ops in
  inv st /\ ol st = l /\ map abs_ret outs = outs' /\ Forall ret_inv outs.
Proof.
  intros d ops Hd Hw. destruct (oinit_ref d Hd) as [Hi He].
  pose proof (orun_ref ops (oinit d) Hi Hw) as H. rewrite He in H.
  destruct (orun (oinit d) ops), (rrun (rinit d) ops). exact H.
Qed.

(* the reference model never leaves the duplicate-free lists, and never raises ValueError (so the
   model cannot either: list.remove after set.remove always finds its element) *)
Lemma rstep_NoDup : forall l op, NoDup l -> NoDup (fst (rstep l op)).
Proof.
  intros l op H. assert (Hp : forall ad r, NoDup r -> NoDup (fst (rpure l ad r)))
    by (intros [|] r Hr; assumption).
  destruct op; cbn [rstep fst]; unfold r_del, r_inter, r_diff; try exact H;
    auto using r_add_NoDup, r_update_NoDup, r_sym_NoDup, NoDup_filter, NoDup_nil.
  - destruct (memz x l); [apply NoDup_filter|]; exact H.
  - destruct (rev l) as [|v r] eqn:E; [exact H|]. apply (pop_NoDup l r v H E).
  - simpl. destruct (memz x l) eqn:E; [exact H|]. apply memz_false in E. apply (NoDup_Add (list_insert_Add pos x l)). tauto.
Qed.
Lemma rstep_no_internal_error : forall l op, snd (rstep l op) <> QExc ValueError /\ snd (rstep l op) <> QExc TypeError.
Proof.
  intros l op. destruct op; cbn [rstep rpure snd]; try (split; discriminate).
  - destruct (memz x l); split; discriminate.
  - destruct (rev l); split; discriminate.
  - destruct (list_index k l); split; discriminate.
Qed.
Lemma ostep_no_internal_error : forall st op, inv st -> wf_op op ->
  snd (ostep st op) <> RExc ValueError /\ snd (ostep st op) <> RExc TypeError.
Proof.
  intros st op Hi Hw. destruct (ostep_ref st op Hi Hw) as [_ [_ [H _]]].
  destruct (rstep_no_internal_error (ol st) op) as [H1 H2].
  split; intros E; rewrite E in H; simpl in H; congruence.
Qed.
