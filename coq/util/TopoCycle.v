(* sort_as_subsets raises CircularDependencyError exactly when the items hold a cycle: Circular <-> a stuck set
   (non-empty, every member has a parent inside) <-> a closed backward walk [cycle]. *)
From Coq Require Import List NArith Bool Lia Permutation Arith.
Import ListNotations.
From SAV.util Require Import Topo TopoProofs.

Definition stuck (ts : list edge) (C : list node) : Prop :=
  C <> [] /\ forall c, In c C -> exists p, In p C /\ In (p, c) ts.

Theorem circular_gives_stuck fuel ts : forall todo,
  subsets fuel ts todo = Circular -> exists C, incl C todo /\ stuck ts C.
Proof.
  revert fuel. apply (subsets_cases ts (fun _ todo res => res = Circular -> exists C, incl C todo /\ stuck ts C));
    try discriminate.
  - intros _ todo Hne Hr _. exists todo. split; [apply incl_refl|]. split; [exact Hne|].
    intros c Hc. destruct (blocked ts todo c) eqn:B.
    + apply blocked_true in B. destruct B as [p [H1 H2]]. eauto.
    + assert (H : In c (ready ts todo)) by (apply In_ready; auto). rewrite Hr in H. destruct H.
  - intros f todo _ IH H. destruct (subsets f ts _); try discriminate.
    destruct (IH eq_refl) as [C [Hi Hst]]. exists C. split; [|exact Hst].
    intros x Hx. apply Hi, In_rest in Hx. tauto. Qed.

Theorem stuck_blocks_ok ts C : stuck ts C -> forall fuel todo r, incl C todo -> subsets fuel ts todo <> Ok r.
Proof.
  intros [Hne Hst] fuel todo r. revert fuel todo r.
  apply (subsets_cases ts (fun _ todo res => forall r, incl C todo -> res <> Ok r)); try discriminate.
  - intros _ r Hi. destruct C as [|c C']; [congruence|]. destruct (Hi c (or_introl eq_refl)).
  - intros f todo _ IH r Hi. destruct (subsets f ts _) as [r'| |]; try discriminate.
    destruct (IH r') ; [|reflexivity].
    (* every member of C is blocked by its parent in C *)
    intros c Hc. apply In_rest. split; [apply Hi, Hc|]. rewrite In_ready. intros [_ Hb].
    destruct (Hst c Hc) as [p [Hp He]]. rewrite (proj2 (blocked_true ts todo c)) in Hb by eauto. discriminate. Qed.

(* backward walk: each element is a parent of the previous one *)
Inductive bwalk (ts : list edge) : list node -> Prop :=
| bw1 x : bwalk ts [x]
| bwS x y l : In (y, x) ts -> bwalk ts (y :: l) -> bwalk ts (x :: y :: l).

Definition cycle (ts : list edge) (w : list node) : Prop :=
  exists x m, w = x :: m ++ [x] /\ bwalk ts w.

(* a walk needs only the edges between its own members *)
Lemma cycle_mono ts ts' w : cycle ts w ->
  (forall y x, In (y, x) ts -> In x w -> In y w -> In (y, x) ts') -> cycle ts' w.
Proof. intros [x [m [E H]]] Hm. exists x, m. split; [exact E|]. clear E. induction H as [x0|x0 y l He Hw IH]; constructor.
  - apply Hm; [exact He|left; reflexivity|right; left; reflexivity].
  - apply IH. intros a b H1 H2 H3. apply Hm; [exact H1|right; exact H2|right; exact H3]. Qed.

Lemma cycle_incl ts ts' w : cycle ts w -> incl ts ts' -> cycle ts' w.
Proof. intros H Hi. apply (cycle_mono ts ts' w H). intros y x He _ _. apply Hi, He. Qed.

Lemma has_cycle_mono ts ts' items items' : incl ts ts' -> incl items items' ->
  (exists w, cycle ts w /\ incl w items) -> exists w, cycle ts' w /\ incl w items'.
Proof. intros He Hi [w [Hw Hwi]]. exists w. split; [eapply cycle_incl; eassumption|eapply incl_tran; eassumption]. Qed.

Lemma bwalk_app_l ts l1 x l2 : bwalk ts (l1 ++ x :: l2) -> bwalk ts (l1 ++ [x]).
Proof. induction l1 as [|a l1 IH]; simpl; intros H; [constructor|].
  destruct l1 as [|b l1']; simpl in *.
  - inversion H; subst. constructor; [assumption|constructor].
  - inversion H; subst. constructor; [assumption|]. apply IH. assumption. Qed.

Lemma stuck_walk ts C : stuck ts C -> forall k c, In c C ->
  (exists w, cycle ts w /\ incl w C) \/
  (exists w, length w = S k /\ hd_error w = Some c /\ NoDup w /\ bwalk ts w /\ incl w C).
Proof.
  intros [_ Hst]. induction k as [|k IH]; intros c Hc.
  - right. exists [c]. repeat split; [repeat constructor; intros []|constructor|]. intros x [->|[]]. exact Hc.
  - destruct (Hst c Hc) as [p [Hp He]]. destruct (IH p Hp) as [Hcyc|[w [Hl [Hh [Hn [Hw Hi]]]]]]; [left; exact Hcyc|].
    destruct w as [|y w']; [discriminate|]. injection Hh as ->.
    assert (Hw' : bwalk ts (c :: p :: w')) by (constructor; assumption).
    assert (Hi' : incl (c :: p :: w') C) by (intros x [->|Hx]; [exact Hc|apply Hi, Hx]).
    destruct (in_dec N.eq_dec c (p :: w')) as [Hin|Hnin].
    + left. apply in_split in Hin. destruct Hin as [l1 [l2 E]]. rewrite E in Hw', Hi'. exists (c :: l1 ++ [c]). split.
      * exists c, l1. split; [reflexivity|]. apply (bwalk_app_l ts (c :: l1) c l2), Hw'.
      * intros x Hx. apply Hi'. simpl in *. rewrite in_app_iff in *. simpl in *. tauto.
    + right. exists (c :: p :: w'). repeat split; [simpl in *; lia|constructor; assumption|exact Hw'|exact Hi']. Qed.

Theorem stuck_has_cycle ts C : stuck ts C -> exists w, cycle ts w /\ incl w C.
Proof.
  intros Hst. pose proof Hst as [Hne _]. destruct C as [|c0 C']; [congruence|]. set (C := c0 :: C') in *.
  destruct (stuck_walk ts C Hst (length (nodup N.eq_dec C)) c0 (or_introl eq_refl)) as [H|[w [Hl [_ [Hn [_ Hi]]]]]];
    [exact H|].
  (* pigeonhole: w would have more distinct nodes than C has *)
  assert (H : incl w (nodup N.eq_dec C)) by (intros x Hx; apply nodup_In, Hi, Hx).
  apply (NoDup_incl_length Hn) in H. rewrite Hl in H. destruct (Nat.nle_succ_diag_l _ H). Qed.

Lemma cycle_is_stuck ts w : cycle ts w -> stuck ts w.
Proof.
  intros [x [m [-> Hw]]]. split; [discriminate|].
  (* every element of a backward walk except the last is followed by a parent; the last one, x, is also the first *)
  assert (G : forall l, bwalk ts l -> forall c, In c (removelast l) -> exists p, In p l /\ In (p, c) ts).
  { induction 1 as [x0 | x0 y l He Hb IH]; intros c Hc; simpl in Hc; [destruct Hc|].
    destruct Hc as [->|Hc].
    - exists y. split; [right; left; reflexivity|exact He].
    - destruct (IH c Hc) as [p [Hp Hpe]]. exists p. split; [right; exact Hp|exact Hpe]. }
  intros c Hc. apply (G _ Hw). change (x :: m ++ [x]) with ((x :: m) ++ [x]) in *. rewrite removelast_last.
  apply in_app_or in Hc. destruct Hc as [Hc|[<-|[]]]; [exact Hc|left; reflexivity]. Qed.

Theorem sort_fails_iff_cycle ts items :
  sort_as_subsets ts items = Circular <-> exists w, cycle ts w /\ incl w items.
Proof.
  unfold sort_as_subsets. split.
  - intros H. destruct (circular_gives_stuck _ _ _ H) as [C [Hi Hst]].
    destruct (stuck_has_cycle _ _ Hst) as [w [Hc Hw]]. exists w. split; [exact Hc|].
    intros x Hx. apply Hi, Hw, Hx.
  - intros [w [Hc Hi]]. pose proof (cycle_is_stuck _ _ Hc) as Hst.
    destruct (subsets (length items) ts items) as [r| |] eqn:E; [|reflexivity|].
    + exfalso. exact (stuck_blocks_ok _ _ Hst _ _ r Hi E).
    + exfalso. exact (subsets_fuel_ok _ ts items (le_n _) E). Qed.
