(* C54 - LRUCache: every step keeps keys and counters unique; from that: lookups answer from what was
   stored, _manage_size terminates, the size bound, what a trim keeps.  Keys via OrderedSet's [r_add]. *)
From Coq Require Import List ZArith Bool Lia Permutation Sorted.
Import ListNotations.
From SAV.util Require Import OrderedSet OrderedSetProofs LRU.
Open Scope Z_scope.

Definition empty_cache (c : lru) : Prop := data c = [] /\ 0 <= counter c.
Definition stored_inv (h : list lop) (c : lru) : Prop :=
  forall e, In e (data c) -> last_set (ek e) h None = Some (ev e).

Definition ge_c (a b : entry) : Prop := ec b <= ec a.
Lemma insert_desc_perm : forall x l, Permutation (insert_desc x l) (x :: l).
Proof.
  induction l as [|y r IH]; simpl; [apply Permutation_refl|].
  destruct (ec y <=? ec x); [apply Permutation_refl|].
  eapply Permutation_trans; [apply perm_skip, IH|apply perm_swap].
Qed.
Lemma sort_desc_perm : forall l, Permutation (sort_desc l) l.
Proof.
  induction l as [|x l IH]; simpl; [constructor|].
  eapply Permutation_trans; [apply insert_desc_perm|apply perm_skip, IH].
Qed.
Lemma insert_desc_sorted : forall x l, StronglySorted ge_c l -> StronglySorted ge_c (insert_desc x l).
Proof.
  induction l as [|y r IH]; intros H; simpl; [repeat constructor|].
  inversion H as [|? ? Hr Hy]; subst. destruct (ec y <=? ec x) eqn:E.
  - apply Z.leb_le in E. constructor; [exact H|]. constructor; [exact E|].
    rewrite Forall_forall in *. intros z Hz. specialize (Hy z Hz). unfold ge_c in *. lia.
  - apply Z.leb_gt in E. constructor; [apply IH, Hr|].
    rewrite Forall_forall in *. intros z Hz.
    apply (Permutation_in _ (insert_desc_perm x r)) in Hz. destruct Hz as [<-|Hz].
    + unfold ge_c. lia.
    + apply Hy, Hz.
Qed.
Lemma sort_desc_sorted : forall l, StronglySorted ge_c (sort_desc l).
Proof. induction l; simpl; [constructor|apply insert_desc_sorted; assumption]. Qed.
Lemma sorted_app : forall l1 l2, StronglySorted ge_c (l1 ++ l2) ->
  forall a b, In a l1 -> In b l2 -> ec b <= ec a.
Proof.
  induction l1 as [|x l1 IH]; intros l2 H a b Ha Hb; [destruct Ha|].
  simpl in H. inversion H as [|? ? Hr Hx]; subst. destruct Ha as [<-|Ha].
  - rewrite Forall_forall in Hx. apply (Hx b). apply in_or_app. right. exact Hb.
  - exact (IH l2 Hr a b Ha Hb).
Qed.

Lemma fold_del : forall victims d,
  fold_left (fun d item => del_key (ek item) d) victims d
  = filter (fun e => negb (memz (ek e) (map ek victims))) d.
Proof.
  induction victims as [|v r IH]; intros d; cbn [fold_left map]; [symmetry; apply filter_id; reflexivity|].
  rewrite IH. unfold del_key. clear IH. induction d as [|e d IHd]; cbn [filter]; [reflexivity|].
  rewrite memz_cons. destruct (ek e =? ek v); cbn [negb orb filter]; [exact IHd|].
  destruct (memz (ek e) (map ek r)); cbn [negb]; rewrite IHd; reflexivity.
Qed.
Lemma NoDup_map_inj : forall (f : entry -> Z) l a b, NoDup (map f l) -> In a l -> In b l -> f a = f b -> a = b.
Proof.
  induction l as [|x l IH]; intros a b Hn Ha Hb E; [destruct Ha|]. simpl in Hn. inversion Hn; subst.
  destruct Ha as [<-|Ha], Hb as [<-|Hb]; auto.
  - exfalso. apply H1. rewrite E. apply in_map, Hb.
  - exfalso. apply H1. rewrite <- E. apply in_map, Ha.
Qed.
Lemma NoDup_map_filter : forall (f : entry -> Z) p l, NoDup (map f l) -> NoDup (map f (filter p l)).
Proof.
  induction l as [|x l IH]; intros H; simpl; [constructor|]. simpl in H. inversion H; subst.
  destruct (p x); simpl; [|apply IH, H3]. constructor; [|apply IH, H3].
  rewrite in_map_iff. intros [y [Ey Hy]]. apply filter_In in Hy. apply H2. rewrite <- Ey.
  apply in_map. tauto.
Qed.

Section Trim.
Variable c : lru.
Hypothesis Hkeys : NoDup (map ek (data c)).
Let n := Z.to_nat (cap c).
Let sl := sort_desc (data c).

(* the sorted values split into the [capacity] most recent and the victims *)
Lemma sl_In : forall e, In e (data c) <-> In e (firstn n sl) \/ In e (skipn n sl).
Proof.
  intros e. rewrite <- in_app_iff, firstn_skipn.
  split; apply Permutation_in; [apply Permutation_sym|]; apply sort_desc_perm.
Qed.
Lemma sl_NoDup :
  NoDup (firstn n sl) /\ NoDup (skipn n sl) /\ forall e, In e (firstn n sl) -> ~ In e (skipn n sl).
Proof.
  apply NoDup_app_iff. rewrite firstn_skipn.
  apply (Permutation_NoDup (Permutation_sym (sort_desc_perm _))), (NoDup_map_inv ek), Hkeys.
Qed.
(* deleting the victims' keys deletes exactly the victims, keys being unique *)
Lemma trim_once_In : forall e, In e (trim_once c) <-> In e (firstn n sl).
Proof.
  intros e. unfold trim_once. fold sl. fold n.
  rewrite fold_del, filter_In, negb_true_iff, memz_false, sl_In, in_map_iff.
  destruct sl_NoDup as [_ [_ Hd]]. split.
  - intros [[H|H] Hv]; [exact H|]. destruct Hv. exists e. tauto.
  - intros H. split; [tauto|]. intros [v [Ev Hv]].
    assert (v = e) by (apply (NoDup_map_inj ek (data c)); auto; apply sl_In; tauto).
    subst v. exact (Hd e H Hv).
Qed.
Lemma trim_once_filter : exists p, trim_once c = filter p (data c).
Proof. unfold trim_once. rewrite fold_del. eexists. reflexivity. Qed.
Lemma trim_once_length : length (trim_once c) = Nat.min n (length (data c)).
Proof.
  assert (Hn : NoDup (trim_once c)).
  { destruct trim_once_filter as [p ->]. apply NoDup_filter, (NoDup_map_inv ek), Hkeys. }
  rewrite (Permutation_length (NoDup_Permutation Hn (proj1 sl_NoDup) trim_once_In)), firstn_length.
  unfold sl. rewrite (Permutation_length (sort_desc_perm _)). reflexivity.
Qed.
Lemma trim_once_recent : NoDup (map ec (data c)) ->
  forall s e, In s (trim_once c) -> In e (data c) -> ~ In e (trim_once c) -> ec e < ec s.
Proof.
  intros Hc s e Hs He Hne. rewrite trim_once_In in Hs, Hne.
  assert (Hv : In e (skipn n sl)) by (apply sl_In in He; tauto).
  pose proof (sort_desc_sorted (data c)) as Hso. fold sl in Hso. rewrite <- (firstn_skipn n sl) in Hso.
  pose proof (sorted_app _ _ Hso s e Hs Hv) as Hle.
  assert (ec e <> ec s); [|lia]. intros E. apply Hne.
  rewrite (NoDup_map_inj ec (data c) e s Hc He); auto. apply sl_In. tauto.
Qed.
End Trim.

Lemma over_false_within : forall c, over c = false <-> within c.
Proof. intros. unfold over, within. rewrite Z.ltb_ge. tauto. Qed.
Lemma trimmed_within : forall c, wf c -> NoDup (map ek (data c)) ->
  within (with_data c (trim_once c) (counter c)).
Proof.
  intros c [H1 [H2 H3]] Hk. unfold within. simpl. rewrite (trim_once_length c Hk).
  assert (Z.of_nat (Nat.min (Z.to_nat (cap c)) (length (data c))) <= cap c) by lia. nia.
Qed.
(* _manage_size with the fuel [lstep] gives it: one trim re-establishes the bound, so the second
   test of the while loop fails *)
Lemma manage_spec : forall c al, wf c -> NoDup (map ek (data c)) ->
  manage 2 c al false =
    if over c then Some (with_data c (trim_once c) (counter c), al) else Some (c, false).
Proof.
  intros c al Hw Hk. simpl. destruct (over c) eqn:E; [|reflexivity].
  pose proof (trimmed_within c Hw Hk) as Hin. apply over_false_within in Hin. rewrite Hin. reflexivity.
Qed.

Lemma find_In : forall k d e, find k d = Some e -> In e d /\ ek e = k.
Proof.
  induction d as [|x r IH]; intros e H; simpl in H; [discriminate|].
  destruct (ek x =? k) eqn:E.
  - inversion H; subst. apply Z.eqb_eq in E. simpl. tauto.
  - destruct (IH e H). simpl. tauto.
Qed.
Lemma find_None : forall k d, find k d = None -> forall e, In e d -> ek e <> k.
Proof.
  induction d as [|x r IH]; intros H e He; [destruct He|]. simpl in H.
  destruct (ek x =? k) eqn:E; [discriminate|]. apply Z.eqb_neq in E.
  destruct He as [<-|He]; [exact E|exact (IH H e He)].
Qed.
Lemma store_In_new : forall e d, In e (store e d).
Proof. induction d as [|x r IH]; simpl; [tauto|]. destruct (ek x =? ek e); simpl; tauto. Qed.
Lemma In_store_weak : forall e d y, In y (store e d) -> y = e \/ In y d.
Proof.
  induction d as [|z r IH]; intros y Hy; simpl in *; [destruct Hy as [<-|[]]; tauto|].
  destruct (ek z =? ek e); simpl in *; [destruct Hy as [<-|Hy]; tauto|].
  destruct Hy as [<-|Hy]; [tauto|]. destruct (IH y Hy); tauto.
Qed.
Lemma store_keys : forall e d, map ek (store e d) = r_add (map ek d) (ek e).
Proof.
  induction d as [|x r IH]; [reflexivity|]. simpl. unfold r_add. rewrite memz_cons.
  rewrite (Z.eqb_sym (ek e) (ek x)). destruct (Z.eqb_spec (ek x) (ek e)) as [E|E]; simpl.
  - rewrite E. reflexivity.
  - rewrite IH. unfold r_add. destruct (memz (ek e) (map ek r)); reflexivity.
Qed.
(* with unique keys the new entry is the only one under its key *)
Lemma In_store : forall e d y, NoDup (map ek d) -> In y (store e d) ->
  y = e \/ (In y d /\ ek y <> ek e).
Proof.
  intros e d y Hn Hy. destruct (Z.eq_dec (ek y) (ek e)) as [E|E].
  - left. apply (NoDup_map_inj ek (store e d)); auto using store_In_new.
    rewrite store_keys. apply r_add_NoDup, Hn.
  - destruct (In_store_weak _ _ _ Hy) as [->|Hd]; tauto.
Qed.
Lemma store_length_le : forall e d, (length (store e d) <= S (length d))%nat.
Proof. induction d as [|x r IH]; simpl; [lia|]. destruct (ek x =? ek e); simpl; lia. Qed.
Lemma store_same_length : forall e d x, find (ek e) d = Some x -> length (store e d) = length d.
Proof.
  induction d as [|y r IH]; intros x H; simpl in *; [discriminate|].
  destruct (ek y =? ek e); simpl; [reflexivity|]. f_equal. exact (IH x H).
Qed.

(* the fresh counter is above every counter handed out so far *)
Lemma store_counters : forall k v n d, NoDup (map ec d) -> (forall e, In e d -> ec e <= n) ->
  NoDup (map ec (store (mke k v (n + 1)) d)).
Proof.
  intros k v n. induction d as [|x r IH]; intros H2 H3; simpl; [repeat constructor; simpl; tauto|].
  simpl in H2. inversion H2; subst.
  assert (Hr : forall y, In y r -> ec y <= n) by (intros; apply H3; right; assumption).
  destruct (ek x =? k); simpl.
  - constructor; [|assumption]. rewrite in_map_iff. intros [y [Ey Hy]]. specialize (Hr y Hy). lia.
  - constructor; [|apply IH; assumption]. rewrite in_map_iff. intros [y [Ey Hy]].
    destruct (In_store_weak _ _ _ Hy) as [->|Hy'].
    + simpl in Ey. specialize (H3 x (or_introl eq_refl)). lia.
    + apply H1. rewrite <- Ey. apply in_map, Hy'.
Qed.
Lemma store_cinv : forall c k v, cinv c ->
  cinv (with_data c (store (mke k v (counter c + 1)) (data c)) (counter c + 1)).
Proof.
  intros c k v [H1 [H2 H3]]. unfold cinv. simpl.
  split; [rewrite store_keys; apply r_add_NoDup, H1|]. split; [apply store_counters; assumption|].
  intros y Hy. destruct (In_store_weak _ _ _ Hy) as [->|Hd]; [simpl; lia|]. specialize (H3 y Hd). lia.
Qed.
Lemma filter_cinv : forall c p, cinv c -> cinv (with_data c (filter p (data c)) (counter c)).
Proof.
  intros c p [H1 [H2 H3]]. unfold cinv. simpl. split; [apply NoDup_map_filter, H1|].
  split; [apply NoDup_map_filter, H2|]. intros e He. apply filter_In in He. apply H3. tauto.
Qed.

Lemma set_state : forall c k v locked, wf c -> cinv c ->
  let c1 := with_data c (store (mke k v (counter c + 1)) (data c)) (counter c + 1) in
  lstep c (LSet k v locked) =
    if locked then (c1, WSet false)
    else if over c1 then (with_data c1 (trim_once c1) (counter c1), WSet (alert c))
    else (c1, WSet false).
Proof.
  intros c k v locked Hw Hc c1. cbn [lstep]. fold c1. destruct locked; [reflexivity|].
  pose proof (store_cinv c k v Hc) as [Hk _]. fold c1 in Hk.
  rewrite (manage_spec c1 (alert c1) Hw Hk). destruct (over c1); reflexivity.
Qed.

Theorem set_trims : forall c k v, wf c -> cinv c ->
  let c1 := with_data c (store (mke k v (counter c + 1)) (data c)) (counter c + 1) in
  cinv c1 /\
  (over c1 = true -> data (fst (lstep c (LSet k v false))) = trim_once c1) /\
  (over c1 = false -> fst (lstep c (LSet k v false)) = c1).
Proof.
  intros c k v Hw Hc c1. split; [apply store_cinv, Hc|].
  rewrite (set_state c k v false Hw Hc). fold c1. cbv zeta.
  split; intros Ho; rewrite Ho; reflexivity.
Qed.

(* [with_data] leaves the parameters alone, so [wf] carries over by conversion *)
Lemma lstep_inv : forall c op, wf c -> cinv c -> wf (fst (lstep c op)) /\ cinv (fst (lstep c op)).
Proof.
  intros c op Hw Hc. destruct op.
  2-4: (cbn [lstep]; destruct (find k (data c)); [exact (conj Hw (store_cinv c _ _ Hc))|tauto]).
  - rewrite (set_state c k v locked Hw Hc). pose proof (store_cinv c k v Hc) as H1. cbv zeta.
    set (c1 := with_data c _ _) in *. destruct locked; [exact (conj Hw H1)|].
    destruct (over c1); [|exact (conj Hw H1)]. split; [exact Hw|]. simpl.
    destruct (trim_once_filter c1) as [p ->]. apply (filter_cinv c1 p H1).
  - cbn [lstep]. destruct (find k (data c)); [exact (conj Hw (filter_cinv c _ Hc))|tauto].
  - tauto.
Qed.
(* the invariant may speak of the history so far: one induction for the size bound, the stored
   values and the bare invariants *)
Lemma lrun_invariant : forall (P : list lop -> lru -> Prop),
  (forall h c op, wf c -> cinv c -> P h c -> P (h ++ [op]) (fst (lstep c op))) ->
  forall ops h c, wf c -> cinv c -> P h c ->
  wf (fst (lrun c ops)) /\ cinv (fst (lrun c ops)) /\ P (h ++ ops) (fst (lrun c ops)).
Proof.
  intros P Hstep. induction ops as [|op ops IH]; intros h c Hw Hc Hp; simpl.
  - rewrite app_nil_r. tauto.
  - destruct (lstep_inv c op Hw Hc) as [Hw1 Hc1]. pose proof (Hstep h c op Hw Hc Hp) as Hp1.
    destruct (lstep c op) as [c1 o]. specialize (IH (h ++ [op]) c1 Hw1 Hc1 Hp1).
    rewrite <- app_assoc in IH. destruct (lrun c1 ops). exact IH.
Qed.
Theorem lrun_inv : forall ops c, wf c -> cinv c ->
  wf (fst (lrun c ops)) /\ cinv (fst (lrun c ops)).
Proof.
  intros ops c Hw Hc.
  destruct (lrun_invariant (fun _ _ => True) (fun _ _ _ _ _ _ => I) ops [] c Hw Hc I) as [H1 [H2 _]].
  exact (conj H1 H2).
Qed.
Theorem lstep_no_loop : forall c op, wf c -> cinv c -> snd (lstep c op) <> WLoop.
Proof.
  intros c op Hw Hc. destruct op; try (cbn [lstep]; destruct (find k (data c)); discriminate);
    try discriminate.
  rewrite (set_state c k v locked Hw Hc). destruct locked; [discriminate|].
  destruct (over _); discriminate.
Qed.

Theorem set_within : forall c k v, wf c -> cinv c -> within (fst (lstep c (LSet k v false))).
Proof.
  intros c k v Hw Hc. rewrite (set_state c k v false Hw Hc). cbv zeta.
  set (c1 := with_data c _ _). destruct (over c1) eqn:E; simpl.
  - apply (trimmed_within c1 Hw). apply (store_cinv c k v Hc).
  - apply over_false_within, E.
Qed.
Lemma filter_length_le : forall (p : entry -> bool) l, (length (filter p l) <= length l)%nat.
Proof. induction l; simpl; [lia|]. destruct (p a); simpl; lia. Qed.
(* a use replaces the entry in place *)
Lemma touch_within : forall c k e, find k (data c) = Some e -> within c -> within (touch c e).
Proof.
  intros c k e E Hin. unfold within in *. simpl. destruct (find_In _ _ _ E) as [_ Ek].
  rewrite (store_same_length _ (data c) e); [exact Hin|]. simpl. rewrite Ek. exact E.
Qed.
Lemma lstep_within : forall c op, wf c -> cinv c -> unlocked op = true -> within c ->
  within (fst (lstep c op)).
Proof.
  intros c op Hw Hc Hu Hin. destruct op.
  2-4: (cbn [lstep]; destruct (find k (data c)) eqn:E; [exact (touch_within c k _ E Hin)|exact Hin]).
  - destruct locked; [discriminate|]. apply set_within; assumption.
  - cbn [lstep]. destruct (find k (data c)); [|exact Hin]. unfold within in *. simpl.
    pose proof (filter_length_le (fun e => negb (ek e =? k)) (data c)). destruct Hw as [? [? ?]].
    unfold del_key. nia.
  - exact Hin.
Qed.

Lemma last_set_app : forall k a b acc, last_set k (a ++ b) acc = last_set k b (last_set k a acc).
Proof.
  induction a as [|op a IH]; intros b acc; simpl; [reflexivity|]. destruct op; apply IH.
Qed.

(* an operation that stores and deletes nothing *)
Lemma stored_neutral : forall h c op, (forall k acc, last_set k [op] acc = acc) ->
  stored_inv h c -> stored_inv (h ++ [op]) c.
Proof. intros h c op Hop Hs y Hy. rewrite last_set_app, Hop. apply Hs, Hy. Qed.
Lemma touch_stored : forall h c k e, stored_inv h c -> find k (data c) = Some e ->
  stored_inv h (touch c e).
Proof.
  intros h c k e Hs Hf y Hy. destruct (find_In _ _ _ Hf) as [He _].
  destruct (In_store_weak _ _ _ Hy) as [->|Hd]; [apply (Hs e He)|apply Hs, Hd].
Qed.
Lemma lstep_stored : forall h c op, wf c -> cinv c -> stored_inv h c ->
  stored_inv (h ++ [op]) (fst (lstep c op)).
Proof.
  intros h c op Hw Hc Hs. pose proof Hc as [Hk _].
  destruct op.
  2-4: (apply stored_neutral; [reflexivity|]; cbn [lstep];
        destruct (find k (data c)) eqn:E; [exact (touch_stored h c k _ Hs E)|exact Hs]).
  - rewrite (set_state c k v locked Hw Hc). cbv zeta. set (c1 := with_data c _ _).
    assert (Hst : stored_inv (h ++ [LSet k v locked]) c1).
    { intros y Hy. rewrite last_set_app. simpl.
      destruct (In_store _ _ _ Hk Hy) as [->|[Hd Hne]]; simpl in *.
      - rewrite Z.eqb_refl. reflexivity.
      - rewrite (proj2 (Z.eqb_neq k (ek y))) by congruence. apply Hs, Hd. }
    destruct locked; [exact Hst|]. destruct (over c1); [|exact Hst].
    intros y Hy. simpl in Hy. destruct (trim_once_filter c1) as [p Hp]. rewrite Hp in Hy.
    apply filter_In in Hy. apply Hst, Hy.
  - intros y Hy. rewrite last_set_app. simpl.
    assert (Hne : ek y <> k /\ In y (data c)).
    { cbn [lstep] in Hy. destruct (find k (data c)) eqn:E; simpl in Hy.
      - apply filter_In in Hy. rewrite negb_true_iff, Z.eqb_neq in Hy. tauto.
      - split; [exact (find_None _ _ E y Hy)|exact Hy]. }
    rewrite (proj2 (Z.eqb_neq k (ek y))) by (intros ->; tauto). apply Hs, Hne.
  - apply stored_neutral; [reflexivity|exact Hs].
Qed.

Lemma empty_cinv : forall c, empty_cache c -> cinv c.
Proof. intros c [H _]. unfold cinv. rewrite H. simpl. repeat split; try constructor. intros e []. Qed.

Theorem lookup_only_stored : forall c0 ops k, wf c0 -> empty_cache c0 ->
  let c := fst (lrun c0 ops) in
  (forall dflt v, snd (lstep c (LGet k dflt)) = WVal v -> v = dflt \/ last_set k ops None = Some v) /\
  (forall v, snd (lstep c (LGetitem k)) = WVal v -> last_set k ops None = Some v) /\
  (snd (lstep c (LGetitem k)) = WExc KeyError \/ exists v, snd (lstep c (LGetitem k)) = WVal v).
Proof.
  intros c0 ops k Hw He c.
  assert (Hs : stored_inv ops c).
  { apply (lrun_invariant stored_inv lstep_stored ops [] c0 Hw (empty_cinv c0 He)).
    intros e Hin. rewrite (proj1 He) in Hin. destruct Hin. }
  cbn [lstep]. destruct (find k (data c)) as [e|] eqn:E; simpl.
  - destruct (find_In _ _ _ E) as [Hin Hk]. pose proof (Hs e Hin) as H. rewrite Hk in H.
    split; [intros dflt v Hv; inversion Hv; subst; right; exact H|].
    split; [intros v Hv; inversion Hv; subst; exact H|right; exists (ev e); reflexivity].
  - split; [intros dflt v Hv; inversion Hv; left; reflexivity|]. split; [discriminate|left; reflexivity].
Qed.

Theorem use_is_most_recent : forall c k v, cinv c ->
  let c' := with_data c (store (mke k v (counter c + 1)) (data c)) (counter c + 1) in
  In (mke k v (counter c' )) (data c') /\
  forall y, In y (data c') -> y <> mke k v (counter c') -> ec y < counter c'.
Proof.
  intros c k v [_ [_ Hc]] c'. simpl. split; [apply store_In_new|].
  intros y Hy Hne. destruct (In_store_weak _ _ _ Hy) as [->|Hd]; [congruence|]. specialize (Hc y Hd). lia.
Qed.
Theorem trim_keeps_most_recent : forall c, wf c -> cinv c -> over c = true ->
  let d' := trim_once c in
  length d' = Z.to_nat (cap c) /\
  (exists p, d' = filter p (data c)) /\
  (forall s e, In s d' -> In e (data c) -> ~ In e d' -> ec e < ec s).
Proof.
  intros c [H1 [H2 H3]] [Hk [Hc _]] Ho d'. split; [|split].
  - unfold d'. rewrite (trim_once_length c Hk). unfold over in Ho. apply Z.ltb_lt in Ho.
    apply Nat.min_l. nia.
  - apply trim_once_filter.
  - apply (trim_once_recent c Hk Hc).
Qed.

Lemma empty_within : forall c, wf c -> empty_cache c -> within c.
Proof. intros c [H1 [H2 H3]] [Hd _]. unfold within. rewrite Hd. simpl. nia. Qed.
Theorem history_bound : forall c0 ops, wf c0 -> empty_cache c0 -> forallb unlocked ops = true ->
  within (fst (lrun c0 ops)).
Proof.
  intros c0 ops Hw He Hu.
  apply (lrun_invariant (fun h c => forallb unlocked h = true -> within c)) with (h := []) (c := c0);
    auto using empty_cinv, empty_within.
  intros h c op Hwc Hc Hin Huh. rewrite forallb_app, andb_true_iff in Huh. simpl in Huh.
  rewrite andb_true_r in Huh. apply lstep_within; tauto.
Qed.
Theorem set_bound_after_any_history : forall c0 ops k v, wf c0 -> empty_cache c0 ->
  within (fst (lstep (fst (lrun c0 ops)) (LSet k v false))).
Proof.
  intros c0 ops k v Hw He. destruct (lrun_inv ops c0 Hw (empty_cinv c0 He)) as [H1 H2].
  apply set_within; assumption.
Qed.
