(* find_cycles reports every node that lies on a cycle *)
From Coq Require Import List NArith Bool Lia Arith.
Import ListNotations.
From SAV.util Require Import Topo TopoProofs Cycles CyclesSound.

Section Complete.
Variable ts : list edge.
Variable ord : node -> list node.
Hypothesis ord_spec : forall a b, In b (ord a) <-> In (a, b) ts.
Variable starts : list node.
Hypothesis starts_spec : forall a, In a starts <-> exists b, In (a, b) ts.
Variable v : node.

Notation reach := (reach ts).
Notation req := (req ts).
Notation on_cycle := (on_cycle ts).

Lemma scan_mono st : forall cs todo out res todo' out',
  scan cs st todo out = (res, todo', out') -> incl todo' todo /\ incl out out'.
Proof.
  apply (scan_cases st (fun _ todo out r => forall res todo' out', r = (res, todo', out') ->
    incl todo' todo /\ incl out out')).
  - intros todo out ? ? ? [= _ <- <-]. split; apply incl_refl.
  - intros n cs todo out _ ? ? ? [= _ <- <-]. split; [|apply incl_appr, incl_refl].
    eapply incl_tran; apply incl_filter.
  - intros n cs todo out _ IH res todo' out' E. destruct (IH _ _ _ E) as [H1 H2]. split.
    + eapply incl_tran; [exact H1|apply incl_filter].
    + eapply incl_tran; [apply incl_appr, incl_refl|exact H2]. Qed.

Lemma scan_some st : forall cs todo out n todo' out',
  scan cs st todo out = (Some n, todo', out') -> ~ In n todo'.
Proof.
  apply (scan_cases st (fun _ _ _ r => forall n todo' out', r = (Some n, todo', out') -> ~ In n todo'));
    try discriminate.
  - intros n cs todo out _ ? ? ? [= <- <- _]. rewrite In_minus. intros [_ H]. apply H. left; reflexivity.
  - intros c cs todo out _ IH. exact IH. Qed.

Lemma scan_none st : forall cs todo out todo' out',
  scan cs st todo out = (None, todo', out') ->
  forall c, In c cs -> ~ In c todo' /\ (In c st -> In c out').
Proof.
  apply (scan_cases st (fun cs todo out r => forall todo' out', r = (None, todo', out') ->
    forall c, In c cs -> ~ In c todo' /\ (In c st -> In c out'))); try discriminate.
  - intros todo out ? ? _ c [].
  - intros n cs todo out M IH todo' out' E c [<-|Hc]; [|eapply IH; eassumption].
    destruct (scan_mono st _ _ _ _ _ _ E) as [Hm1 Hm2]. split.
    + intros Hin. apply M, Hm1, Hin.
    + intros Hst. apply Hm2, in_or_app. left. apply seg_has, Hst. Qed.

(* todo only ever loses stack members and the pushed child *)
Lemma scan_keeps st : forall cs todo out res todo' out',
  scan cs st todo out = (res, todo', out') ->
  forall x, In x todo -> ~ In x st -> res <> Some x -> In x todo'.
Proof.
  assert (Hseg : forall n todo x, In x todo -> ~ In x st -> In x (minus todo (seg n st))).
  { intros n todo x Hx Hst. apply In_minus. split; [exact Hx|]. intros Hc. apply Hst, (seg_incl n), Hc. }
  apply (scan_cases st (fun _ todo _ r => forall res todo' out', r = (res, todo', out') ->
    forall x, In x todo -> ~ In x st -> res <> Some x -> In x todo')).
  - intros todo out ? ? ? [= _ <- _] x Hx _ _. exact Hx.
  - intros n cs todo out _ ? ? ? [= <- <- _] x Hx Hst Hres. apply In_minus. split; [apply Hseg; assumption|].
    intros [->|[]]. apply Hres. reflexivity.
  - intros n cs todo out _ IH res todo' out' E x Hx Hst. apply (IH _ _ _ E); [apply Hseg; assumption|exact Hst]. Qed.

(* A node is finished when it has left both todo and the stack: then all its children have left todo, and if it
   points at the root v of the search, v is already in out.  The invariant: v is the bottom of the stack, stack
   members and v are not in todo, finished nodes are as said. *)
Definition finished_ok (st todo out : list node) : Prop :=
  forall x, In x starts -> ~ In x todo -> ~ In x st ->
    (forall y, In (x, y) ts -> In y starts -> ~ In y todo) /\ (In (x, v) ts -> In v out).

Definition Inv (st todo out : list node) : Prop :=
  (st <> [] -> last st v = v /\ In v st) /\
  (forall x, In x st -> ~ In x todo) /\
  ~ In v todo /\
  finished_ok st todo out.

Lemma last_cons_ne (x : node) l d : l <> [] -> last (x :: l) d = last l d.
Proof. destruct l; [congruence|reflexivity]. Qed.

Lemma last_in (l : list node) d : l <> [] -> In (last l d) l.
Proof. intros H. destruct (exists_last H) as [l' [a ->]]. rewrite last_last. apply in_elt. Qed.

Lemma inv_step top r todo out res t1 o1 : Inv (top :: r) todo out ->
  scan (ord top) (top :: r) todo out = (res, t1, o1) ->
  Inv (match res with Some n => n :: top :: r | None => r end) t1 o1 /\ incl out o1.
Proof.
  intros [Ha [Hb [Hv Hf]]] S. destruct (Ha ltac:(discriminate)) as [Hlast Hvin].
  destruct (scan_mono _ _ _ _ _ _ _ S) as [Hm1 Hm2]. split; [|exact Hm2].
  (* nodes finished before this step stay finished: todo shrinks, out grows *)
  assert (Hkeep : forall x, In x starts -> ~ In x t1 -> ~ In x (top :: r) -> res <> Some x ->
            (forall y, In (x, y) ts -> In y starts -> ~ In y t1) /\ (In (x, v) ts -> In v o1)).
  { intros x Hxs Hxt Hxst Hres.
    assert (Hxt0 : ~ In x todo) by (intros Hc; apply Hxt; eapply scan_keeps; eassumption).
    destruct (Hf x Hxs Hxt0 Hxst) as [F1 F2].
    split; [intros y Hy Hys Hc; exact (F1 y Hy Hys (Hm1 _ Hc))|intros He; exact (Hm2 _ (F2 He))]. }
  destruct res as [n|].
  - (* push n *)
    pose proof (scan_some _ _ _ _ _ _ _ S) as Hn3.
    split; [intros _; split; [rewrite last_cons_ne by discriminate; exact Hlast|right; exact Hvin]|].
    split; [intros x [->|Hx]; [exact Hn3|intros Hc; apply Hm1 in Hc; exact (Hb x Hx Hc)]|].
    split; [intros Hc; apply Hm1 in Hc; contradiction|].
    intros x Hxs Hxt Hxst. apply Hkeep; try assumption.
    + intros Hc. apply Hxst. right. exact Hc.
    + intros [= ->]. apply Hxst. left; reflexivity.
  - (* pop top : top becomes finished *)
    pose proof (scan_none _ _ _ _ _ _ S) as Hnone.
    split; [intros Hr; rewrite last_cons_ne in Hlast by exact Hr; split; [exact Hlast|]; rewrite <- Hlast; apply last_in, Hr|].
    split; [intros x Hx Hc; apply Hm1 in Hc; exact (Hb x (or_intror Hx) Hc)|].
    split; [intros Hc; apply Hm1 in Hc; contradiction|].
    intros x Hxs Hxt Hxst.
    destruct (N.eq_dec x top) as [->|Hne].
    + (* the node just popped: all its children were looked at *)
      split.
      * intros y Hy Hys. apply (Hnone y). apply ord_spec. exact Hy.
      * intros He. apply (Hnone v); [apply ord_spec; exact He|exact Hvin].
    + apply Hkeep; try assumption; [intros [E|Hc]; [congruence|contradiction]|discriminate].
Qed.

Theorem dfs_inv : forall fuel st todo out todo' out', Inv st todo out ->
  dfs ord fuel st todo out = Some (todo', out') -> Inv [] todo' out' /\ incl out out'.
Proof.
  induction fuel as [|f IH]; intros [|top r] todo out todo' out' HI H; simpl in H; try discriminate;
    try (injection H as <- <-; split; [exact HI|apply incl_refl]).
  destruct (scan (ord top) (top :: r) todo out) as [[res t1] o1] eqn:S.
  destruct (inv_step _ _ _ _ _ _ _ HI S) as [HI' Hm].
  destruct res; destruct (IH _ _ _ _ _ HI' H) as [R1 R2]; (split; [exact R1|eapply incl_tran; eassumption]).
Qed.

Lemma reach_last a b : reach a b -> exists x, req a x /\ In (x, b) ts.
Proof. induction 1 as [a b He|a b c He Hr [x [Hx1 Hx2]]].
  - exists a. split; [left; reflexivity|exact He].
  - exists x. split; [|exact Hx2]. right. destruct Hx1 as [<-|Hx1]; [apply r1; exact He|eapply rS; eassumption]. Qed.

Lemma final_closed todo out : Inv [] todo out ->
  forall a b, reach a b -> In a starts -> ~ In a todo -> In b starts -> ~ In b todo.
Proof.
  intros [_ [_ [_ Hf]]]. induction 1 as [a b He|a b c He Hr IHr]; intros Ha Hat Hb.
  - exact (proj1 (Hf a Ha Hat (fun x => x)) b He Hb).
  - assert (Hbs : In b starts). { apply starts_spec. inversion Hr; subst; eauto. }
    apply IHr; [exact Hbs| |exact Hb]. exact (proj1 (Hf a Ha Hat (fun x => x)) b He Hbs). Qed.

Theorem dfs_complete : forall fuel todo0 out0 todo out,
  In v starts -> ~ In v todo0 ->
  (forall x, In x starts -> x <> v -> In x todo0) ->
  dfs ord fuel [v] todo0 out0 = Some (todo, out) ->
  incl out0 out /\ (on_cycle v -> In v out).
Proof.
  intros fuel todo0 out0 todo out Hvs Hvt Hall H.
  assert (HI : Inv [v] todo0 out0).
  { split; [intros _; split; [reflexivity|left; reflexivity]|].
    split; [intros x [->|[]]; exact Hvt|]. split; [exact Hvt|].
    intros x Hxs Hxt Hxst. exfalso. apply Hxt. apply Hall; [exact Hxs|]. intros ->. apply Hxst. left; reflexivity. }
  destruct (dfs_inv _ _ _ _ _ _ HI H) as [HF Hinc]. split; [exact Hinc|].
  intros Hcyc. destruct (reach_last _ _ Hcyc) as [x [Hx1 Hx2]].
  pose proof HF as [_ [_ [Hvt' Hf]]].
  assert (Hxs : In x starts) by (apply starts_spec; eauto).
  assert (Hxt : ~ In x todo).
  { destruct Hx1 as [<-|Hx1]; [exact Hvt'|]. eapply final_closed; [exact HF|exact Hx1|exact Hvs|exact Hvt'|exact Hxs]. }
  exact (proj2 (Hf x Hxs Hxt (fun z => z)) Hx2).
Qed.
End Complete.
