(* C52: a scope's entry persists and is what every call of that scope returns; scopes never share a
   Session; a step touches only its own scope's entry; remove() closes only its own scope's Session -
   for every schedule of any number of threads and any assignment of scope keys. *)
From Coq Require Import List Arith Bool.
Import ListNotations.
From SAV.util Require Import Registry.

Lemma nth_error_upd ts : forall i j p,
  nth_error (upd ts i p) j =
  if Nat.eqb j i then (match nth_error ts i with Some _ => Some p | None => None end) else nth_error ts j.
Proof.
  induction ts as [|x r IH]; intros i j p.
  - destruct i, j; cbn; try reflexivity; destruct (Nat.eqb _ _); reflexivity.
  - destruct i as [|i], j as [|j]; cbn; try reflexivity. apply IH.
Qed.

Lemma lookup_rdel k k' r : lookup k (rdel k' r) = if Nat.eqb k k' then None else lookup k r.
Proof.
  induction r as [|[a v] r IH]; cbn [rdel filter lookup fst]; [destruct (Nat.eqb k k'); reflexivity|].
  fold (rdel k' r). destruct (Nat.eqb_spec a k') as [->|Hn]; cbn [negb lookup]; rewrite IH.
  - rewrite (Nat.eqb_sym k' k). destruct (Nat.eqb k k'); reflexivity.
  - destruct (Nat.eqb_spec a k) as [->|]; [|reflexivity]. rewrite (proj2 (Nat.eqb_neq k k') Hn). reflexivity.
Qed.

Lemma fst_functional {A B} (l : list (A * B)) a b b' :
  NoDup (map fst l) -> In (a, b) l -> In (a, b') l -> b = b'.
Proof.
  induction l as [|[x y] l IH]; intros Hn H1 H2; [destruct H1|].
  inversion Hn as [|? ? Hx Hn']; subst.
  destruct H1 as [E1|H1], H2 as [E2|H2]; [congruence| | |auto].
  - inversion E1; subst. destruct Hx. exact (in_map fst _ _ H2).
  - inversion E2; subst. destruct Hx. exact (in_map fst _ _ H1).
Qed.

Section P.
Variable keys : list key.
Notation keyof := (keyof keys).
Notation stepf := (stepf keys).
Notation run := (run keys).

Definition is_del (e : ev) : bool := match e with EDel _ => true | _ => false end.

(* the session a thread holds in a local variable *)
Definition carries (p : option pc) (v : sess) : Prop :=
  match p with Some (C3 _ w) | Some (RC w) => w = v | _ => False end.

Lemma carries_after x w v : carries (Some (after x w)) v -> w = v.
Proof. destruct x; [intros []|exact id]. Qed.

Lemma carries_upd ts i q j v : carries (nth_error (upd ts i q) j) v ->
  carries (nth_error ts j) v \/ j = i /\ carries (Some q) v.
Proof.
  rewrite nth_error_upd. destruct (Nat.eqb_spec j i) as [->|]; [|auto].
  destruct (nth_error ts i); [auto|intros []].
Qed.

(* What one step does, seen from the scope [k] of the thread [i] that takes it: which session the thread
   holds afterwards, how [reg] and [created] change, and what a finished __call__ returns. *)
Definition scope_effect (s : shared) (ts : list pc) (e : ev) (s' : shared) (ts' : list pc) : Prop :=
  let i := actor e in let k := keyof i in
  (exists q, ts' = upd ts i q /\
     forall v, carries (Some q) v -> lookup k (reg s') = Some v \/ In (v, k) (created s')) /\
  (reg s' = reg s \/ is_del e = true /\ reg s' = rdel k (reg s) \/
   exists v, carries (nth_error ts i) v /\ lookup k (reg s) = None /\ reg s' = (k, v) :: reg s) /\
  (created s' = created s \/
   exists v, ~ In v (map fst (created s)) /\ created s' = (v, k) :: created s) /\
  (forall w, returned e = Some w -> lookup k (reg s') = Some w).

(* a step that leaves [reg] and [created] alone: the session its thread then holds or returns, if any,
   is the one it has just seen in the registry *)
Lemma effect_read s ts e s' q : reg s' = reg s -> created s' = created s ->
  (forall v, carries (Some q) v \/ returned e = Some v -> lookup (keyof (actor e)) (reg s) = Some v) ->
  scope_effect s ts e s' (upd ts (actor e) q).
Proof.
  intros Er Ec Hv. unfold scope_effect. rewrite Er, Ec.
  split; [exists q; split; [reflexivity|]|]; auto.
Qed.

(* [H : Some (s, upd ts i q) = Some (s', ts')] from such a step: what is left to show is the third premise *)
Ltac reads H := injection H as <- <-; apply effect_read; [reflexivity..|].

Lemma stepf_effect s ts e s' ts' : stepf (s, ts) e = Some (s', ts') -> scope_effect s ts e s' ts'.
Proof.
  intros H. destruct e; cbn in H; destruct (nth_error ts i) as [[]|] eqn:En; try discriminate H.
  - (* EStartCall *) reads H. intros v [[]|[=]].
  - (* EStartRemove *) reads H. intros v [[]|[=]].
  - (* EHas *) destruct (lookup (keyof i) (reg s)); destruct b; try discriminate H; reads H; intros v [[]|[=]].
  - (* ELookup *) destruct (lookup (keyof i) (reg s)) as [v|] eqn:El; destruct r as [w|]; try discriminate H.
    + destruct (Nat.eqb_spec v w) as [<-|]; [|discriminate H]. reads H.
      intros u [Hc|[= <-]]; [apply carries_after in Hc; subst u|]; exact El.
    + reads H. intros v [[]|[=]].
  - (* ECreate *) destruct (existsb _ _) eqn:Ex; [discriminate H|]. injection H as <- <-.
    unfold scope_effect. cbn [reg created actor returned].
    split; [eexists; split; [reflexivity|]; intros u <-; right; left; reflexivity|].
    split; [auto|]. split; [right; exists v; split; [|reflexivity]|intros; discriminate].
    intros Hin. apply in_map_iff in Hin. destruct Hin as [[a b] [Ea Hin]]. cbn in Ea; subst a.
    apply not_true_iff_false in Ex. apply Ex. apply existsb_exists. exists (v, b). split; [exact Hin|apply Nat.eqb_refl].
  - (* ESetdefault *) destruct (lookup (keyof i) (reg s)) as [w|] eqn:El.
    + destruct (Nat.eqb_spec w r) as [<-|]; [|discriminate H]. reads H.
      intros u [Hc|[= <-]]; [apply carries_after in Hc; subst u|]; exact El.
    + destruct (Nat.eqb_spec v r) as [<-|]; [|discriminate H]. injection H as <- <-.
      unfold scope_effect. cbn [reg created lookup actor returned]. rewrite Nat.eqb_refl, En.
      split; [eexists; split; [reflexivity|]; intros u Hc; apply carries_after in Hc; subst u; auto|].
      split; [right; right; exists v; repeat split; exact El|]. split; [auto|]. intros w [= <-]. reflexivity.
  - (* EClose *) destruct (Nat.eqb v v0); [|discriminate H]. reads H. intros u [[]|[=]].
  - (* EDel *) injection H as <- <-. unfold scope_effect. cbn [reg created actor returned is_del].
    split; [eexists; split; [reflexivity|intros v []]|]. split; [auto|]. split; [auto|]. intros; discriminate.
Qed.

Lemma stepf_lookup s ts e s' ts' k : stepf (s, ts) e = Some (s', ts') ->
  lookup k (reg s') = lookup k (reg s) \/
  keyof (actor e) = k /\ (is_del e = true \/ lookup k (reg s) = None).
Proof.
  intros H. destruct (stepf_effect _ _ _ _ _ H) as (_ & [->|[[Hd ->]|(v & _ & Hn & ->)]] & _); [auto| |].
  - rewrite lookup_rdel. destruct (Nat.eqb_spec k (keyof (actor e))) as [->|]; auto.
  - cbn [lookup]. destruct (Nat.eqb_spec (keyof (actor e)) k) as [<-|]; auto.
Qed.

(* every Session registered or held by a thread was created for that scope, and for no other *)
Definition Inv (st : state) : Prop :=
  let (s, ts) := st in
  (forall k v, lookup k (reg s) = Some v -> In (v, k) (created s)) /\
  NoDup (map fst (created s)) /\
  (forall i v, carries (nth_error ts i) v -> In (v, keyof i) (created s)).

Lemma Inv_init : Inv (init keys).
Proof.
  split; [discriminate|]. split; [constructor|]. cbn [snd init].
  induction (length keys) as [|n IH]; intros [|i] v; cbn; auto. apply IH.
Qed.

Lemma stepf_inv st e st' : Inv st -> stepf st e = Some st' -> Inv st'.
Proof.
  destruct st as [s ts], st' as [s' ts']. intros (H1 & H2 & H3) Hs.
  destruct (stepf_effect _ _ _ _ _ Hs) as ((q & -> & Hq) & Hreg & Hcr & _).
  assert (Hsub : forall x, In x (created s) -> In x (created s')).
  { destruct Hcr as [->|(v & _ & ->)]; [auto|intros x Hx; right; exact Hx]. }
  assert (H1' : forall k v, lookup k (reg s') = Some v -> In (v, k) (created s')).
  { intros k v Hl. apply Hsub. destruct Hreg as [E|[[_ E]|(w & Hw & _ & E)]]; rewrite E in Hl.
    - apply H1, Hl.
    - rewrite lookup_rdel in Hl. destruct (Nat.eqb k _); [discriminate|]. apply H1, Hl.
    - cbn [lookup] in Hl. destruct (Nat.eqb_spec (keyof (actor e)) k) as [<-|]; [|apply H1, Hl].
      injection Hl as <-. apply H3, Hw. }
  split; [exact H1'|]. split.
  - destruct Hcr as [->|(v & Hv & ->)]; [exact H2|constructor; assumption].
  - intros j v Hc. apply carries_upd in Hc. destruct Hc as [Hc|[-> Hc]]; [apply Hsub, H3, Hc|].
    destruct (Hq v Hc); auto.
Qed.

Lemma reach_inv st : reach keys st -> Inv st.
Proof.
  intros [tr H]. revert H. generalize (init keys), Inv_init. induction tr as [|e tr IH]; intros st0 Hi Hr; cbn in Hr.
  - inversion Hr; subst. exact Hi.
  - destruct (stepf st0 e) as [st1|] eqn:E; [|discriminate]. eapply IH; [|exact Hr]. eapply stepf_inv; eassumption.
Qed.

(* different scopes hold different Sessions *)
Theorem distinct_scopes_distinct_sessions s ts : reach keys (s, ts) ->
  forall k1 k2 v, lookup k1 (reg s) = Some v -> lookup k2 (reg s) = Some v -> k1 = k2.
Proof.
  intros Hr k1 k2 v L1 L2. apply reach_inv in Hr. destruct Hr as [H1 [H2 _]].
  eapply fst_functional; [exact H2|apply H1; exact L1|apply H1; exact L2].
Qed.

(* frame: a step of a thread of another scope leaves this scope's entry untouched *)
Theorem other_scopes_untouched st e st' k : stepf st e = Some st' ->
  keyof (actor e) <> k -> lookup k (reg (fst st')) = lookup k (reg (fst st)).
Proof.
  destruct st, st'. intros Hs Hk. destruct (stepf_lookup _ _ _ _ _ k Hs) as [E|[E _]]; [exact E|contradiction].
Qed.

(* repeated calls within one scope return the same Session: as long as no remove() of that scope
   deletes the entry, the entry stays and every __call__ of that scope returns it - whatever the
   other threads do in between *)
Theorem same_scope_same_session k v : forall tr st st',
  lookup k (reg (fst st)) = Some v -> run st tr = Some st' ->
  (forall e, In e tr -> is_del e = true -> keyof (actor e) <> k) ->
  lookup k (reg (fst st')) = Some v /\
  forall e w, In e tr -> keyof (actor e) = k -> returned e = Some w -> w = v.
Proof.
  induction tr as [|e tr IH]; intros st st' Hl Hr Hnd; cbn in Hr.
  - inversion Hr; subst. split; [exact Hl|]. intros e w [].
  - destruct (stepf st e) as [[s1 ts1]|] eqn:E; [|discriminate]. destruct st as [s ts]. cbn [fst] in Hl.
    assert (Hl1 : lookup k (reg s1) = Some v).
    { destruct (stepf_lookup _ _ _ _ _ k E) as [->|[Hk [Hd|Hn]]]; [exact Hl| |congruence].
      destruct (Hnd e (or_introl eq_refl) Hd Hk). }
    destruct (IH (s1, ts1) st' Hl1 Hr (fun e0 H0 => Hnd e0 (or_intror H0))) as [Hfin Hall].
    split; [exact Hfin|]. intros e0 w [<-|Hin] Hk Hw; [|eapply Hall; eassumption].
    (* a __call__ returns what is registered under its scope once its step is done *)
    destruct (stepf_effect _ _ _ _ _ E) as (_ & _ & _ & Hret). apply Hret in Hw. congruence.
Qed.

(* remove() closes only a Session of its own scope: the Session a remove() is about to close was
   created for the removing thread's scope and is not the Session registered under any other scope *)
Theorem remove_closes_own_scope_only s ts i v : reach keys (s, ts) -> nth_error ts i = Some (RC v) ->
  In (v, keyof i) (created s) /\ forall k', lookup k' (reg s) = Some v -> k' = keyof i.
Proof.
  intros Hr En. apply reach_inv in Hr. destruct Hr as [H1 [H2 H4]].
  assert (Hv : In (v, keyof i) (created s)) by (apply H4; rewrite En; reflexivity).
  split; [exact Hv|]. intros k' Hl. eapply fst_functional; [exact H2|apply H1; exact Hl|exact Hv].
Qed.
End P.
