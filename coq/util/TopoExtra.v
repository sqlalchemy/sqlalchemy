(* Extra statements for C19: the sort depends on the dependency pairs only as a set
   (so neither duplicates nor the hash order of Python sets can influence the result), and the
   flat [sort] inherits permutation / ordering from [sort_as_subsets]. *)
From Coq Require Import List NArith Bool Lia Permutation Arith.
Import ListNotations.
From SAV.util Require Import Topo TopoProofs TopoCycle.

Lemma ready_ext ts ts' todo : (forall e, In e ts <-> In e ts') -> ready ts todo = ready ts' todo.
Proof.
  intros H. apply filter_ext. intros n. f_equal. apply eq_true_iff_eq. rewrite !blocked_true.
  split; intros [p [H1 H2]]; exists p; (split; [apply H, H1|exact H2]).
Qed.

Theorem subsets_edge_set fuel ts ts' : (forall e, In e ts <-> In e ts') ->
  forall todo, subsets fuel ts todo = subsets fuel ts' todo.
Proof.
  intros H. induction fuel as [|f IH]; intros todo.
  - destruct todo; reflexivity.
  - destruct todo as [|t0 todo0]; [reflexivity|]. cbn [subsets].
    rewrite (ready_ext ts ts' _ H). destruct (ready ts' (t0 :: todo0)) as [|o out]; [reflexivity|].
    rewrite IH. reflexivity.
Qed.

Theorem sort_edge_set ts ts' items : (forall e, In e ts <-> In e ts') -> sort ts items = sort ts' items.
Proof. intros H. unfold sort, sort_as_subsets. rewrite (subsets_edge_set _ ts ts' H). reflexivity. Qed.

Theorem sort_perm ts items out : sort ts items = Ok out -> Permutation out items.
Proof.
  unfold sort, sort_as_subsets. destruct (subsets _ ts items) as [r| |] eqn:E; try discriminate.
  intros H; inversion H; subst. eapply subsets_perm; exact E.
Qed.

Theorem sort_nodup ts items out : NoDup items -> sort ts items = Ok out -> NoDup out.
Proof. intros Hn H. eapply Permutation_NoDup; [apply Permutation_sym, (sort_perm _ _ _ H)|exact Hn]. Qed.

Theorem sort_order ts items out : sort ts items = Ok out ->
  forall p c, In (p, c) ts -> In p items -> In c items ->
  exists l1 l2, out = l1 ++ l2 /\ In p l1 /\ In c l2.
Proof.
  unfold sort, sort_as_subsets. destruct (subsets _ ts items) as [r| |] eqn:E; try discriminate.
  intros H p c He Hp Hc; inversion H; subst.
  destruct (subsets_order _ _ _ _ E p c He Hp Hc) as [r1 [Lc [r2 [-> [H1 H2]]]]].
  exists (concat r1), (concat (Lc :: r2)). split; [rewrite concat_app; reflexivity|].
  split; [exact H2|]. simpl. apply in_or_app. left. exact H1.
Qed.

Theorem sort_never_out_of_fuel ts items : sort ts items <> OutOfFuel.
Proof.
  unfold sort, sort_as_subsets. destruct (subsets _ ts items) eqn:E; try discriminate.
  exfalso. exact (subsets_fuel_ok _ ts items (le_n _) E).
Qed.

Theorem sort_circular_iff ts items :
  sort ts items = Circular <-> exists w, cycle ts w /\ incl w items.
Proof.
  rewrite <- sort_fails_iff_cycle. unfold sort. destruct (sort_as_subsets ts items); split; intros; try discriminate; reflexivity.
Qed.
