(* C54 - IdentitySet: the dict-of-ids model refines the OrderedSet reference model (a duplicate-free
   list) over identities; [lift] is the dict such a list stands for. *)
From Coq Require Import List ZArith Bool Lia Arith.
Import ListNotations.
From SAV.util Require Import OrderedSet OrderedSetProofs IdentitySet.
Open Scope Z_scope.

Lemma lift_fst : forall l, map fst (lift l) = l.
Proof. unfold lift, get_id. induction l; simpl; congruence. Qed.
Lemma lift_snd : forall l, map snd (lift l) = l.
Proof. unfold lift, get_id. induction l; simpl; congruence. Qed.
Lemma lift_length : forall l, length (lift l) = length l.
Proof. intros. unfold lift. apply map_length. Qed.
Lemma lift_app : forall a b, lift (a ++ b) = lift a ++ lift b.
Proof. intros. unfold lift. apply map_app. Qed.
Lemma lift_rev : forall l, rev (lift l) = lift (rev l).
Proof. intros. unfold lift. symmetry. apply map_rev. Qed.
Lemma iinv_lift : forall l, NoDup l -> iinv (lift l).
Proof. intros l H. unfold iinv. rewrite lift_snd. tauto. Qed.

Lemma d_has_lift : forall k l, d_has k (lift l) = memz k l.
Proof. intros. unfold d_has. rewrite lift_fst. reflexivity. Qed.
Lemma d_get_lift : forall k l, d_get k (lift l) = if memz k l then Some k else None.
Proof.
  induction l as [|y l IH]; [reflexivity|]. rewrite memz_cons, (Z.eqb_sym k y). simpl. unfold get_id.
  destruct (Z.eqb_spec y k) as [->|_]; [reflexivity|exact IH].
Qed.
Lemma d_set_lift : forall o l, d_set (get_id o) o (lift l) = lift (r_add l o).
Proof.
  intros o. unfold get_id. induction l as [|y l IH]; [reflexivity|].
  unfold r_add. rewrite memz_cons, (Z.eqb_sym o y). simpl. unfold get_id.
  destruct (Z.eqb_spec y o) as [->|_]; simpl; [reflexivity|].
  fold (lift l). rewrite IH. unfold r_add. destruct (memz o l); reflexivity.
Qed.
Lemma d_of_objs_lift : forall objs l, d_of_objs (lift l) objs = lift (fold_left r_add objs l).
Proof.
  unfold d_of_objs. induction objs as [|o objs IH]; intros l; simpl; [reflexivity|].
  rewrite d_set_lift. apply IH.
Qed.
Lemma d_update_lift : forall l2 l, d_update (lift l) (lift l2) = lift (fold_left r_add l2 l).
Proof.
  unfold d_update. induction l2 as [|o l2 IH]; intros l; simpl; [reflexivity|].
  rewrite d_set_lift. apply IH.
Qed.
Lemma filter_lift : forall (P : Z -> bool) l, filter (fun e => P (fst e)) (lift l) = lift (filter P l).
Proof.
  induction l as [|y l IH]; simpl; [reflexivity|]. unfold get_id at 1.
  destruct (P y); simpl; rewrite IH; reflexivity.
Qed.
Lemma filter_has_lift : forall s t,
  filter (fun e => negb (d_has (fst e) (lift t))) (lift s) = lift (filter (fun a => negb (memz a t)) s).
Proof.
  intros. rewrite <- (filter_lift (fun a => negb (memz a t))). apply filter_ext. intros e.
  rewrite d_has_lift. reflexivity.
Qed.
Lemma keys_le_lift : forall l1 l2, keys_le (lift l1) (lift l2) = subset l1 l2.
Proof.
  intros. unfold keys_le, subset, d_keys. rewrite lift_fst.
  induction l1 as [|x l1 IH]; simpl; [reflexivity|]. rewrite d_has_lift, IH. reflexivity.
Qed.

(* de-duplicating an argument first changes nothing for the reference operations *)
Lemma uniq_from_unique : forall s c, uniq_from s (unique_list c) = uniq_from s c.
Proof.
  intros.
  assert (H : forall c0, uniq_from s c0 = uniq_from [] (filter (fun a => negb (memz a s)) c0))
    by (intros c0; exact (uniq_from_app_seen c0 [] s)).
  rewrite (H (unique_list c)), (H c). unfold unique_list. rewrite filter_uniq_from.
  apply (uniq_from_id _ []); [apply uniq_from_NoDup|intros x _ []].
Qed.
Lemma fold_r_add_unique : forall c l, fold_left r_add (unique_list c) l = fold_left r_add c l.
Proof. intros. rewrite !r_update_fold, uniq_from_unique. reflexivity. Qed.
Lemma fold_r_add_nil : forall c, fold_left r_add c [] = unique_list c.
Proof. intros. rewrite r_update_fold. reflexivity. Qed.
Lemma subset_spec : forall l1 l2, subset l1 l2 = true <-> incl l1 l2.
Proof.
  intros. unfold subset. rewrite forallb_forall. unfold incl.
  split; intros H x Hx; [apply memz_In|apply memz_In]; auto.
Qed.
Lemma subset_ext : forall a a' b b', (forall x, In x a <-> In x a') -> (forall x, In x b <-> In x b') ->
  subset a b = subset a' b'.
Proof.
  intros a a' b b' Ha Hb. apply eq_true_iff_eq. rewrite !subset_spec. unfold incl.
  split; intros H x Hx; apply Hb, H, Ha, Hx.
Qed.
Lemma subset_unique_r : forall l c, subset l (unique_list c) = subset l c.
Proof. intros. apply subset_ext; [tauto|apply unique_list_In]. Qed.
Lemma subset_unique_l : forall l c, subset (unique_list c) l = subset c l.
Proof. intros. apply subset_ext; [apply unique_list_In|tauto]. Qed.

Lemma i_init_lift : forall objs, i_init objs = lift (unique_list objs).
Proof. intros. unfold i_init. change (@nil (Z * Z)) with (lift []). rewrite d_of_objs_lift, fold_r_add_nil. reflexivity. Qed.
Lemma amembers_lift : forall l a, NoDup l -> amembers (lift l) a = lift (unique_list (aobjs l a)).
Proof.
  intros l [k objs] Hn. unfold amembers, aobjs. destruct k; simpl; try apply i_init_lift.
  rewrite (unique_list_id l Hn). reflexivity.
Qed.
Lemma aobjs_nonself : forall l a, is_iset a = false -> aobjs l a = io a.
Proof. intros l [k objs]. destruct k; unfold is_iset, aobjs; simpl; intros H; try discriminate H; reflexivity. Qed.
Lemma other_keys_mem : forall l a, NoDup l -> forall x, memz x (other_keys (lift l) a) = memz x (aobjs l a).
Proof.
  intros l a Hn x. unfold other_keys. destruct (is_iset a) eqn:E.
  - unfold d_keys. rewrite (amembers_lift l a Hn), lift_fst. apply memz_ext, unique_list_In.
  - rewrite (aobjs_nonself l a E). unfold get_id. rewrite map_id. reflexivity.
Qed.

Lemma i_update_lift : forall l a, NoDup l -> i_update (lift l) a = lift (r_update l [aobjs l a]).
Proof.
  intros l a Hn. unfold i_update, r_update. simpl concat. rewrite app_nil_r.
  destruct (is_iset a) eqn:E.
  - rewrite (amembers_lift l a Hn), d_update_lift, fold_r_add_unique. reflexivity.
  - rewrite (aobjs_nonself l a E). apply d_of_objs_lift.
Qed.
Lemma i_bin_lift : forall b l a, NoDup l -> i_bin b (lift l) a = lift (q_bin b l (aobjs l a)).
Proof.
  intros b l a Hn. destruct b; unfold i_bin, q_bin.
  - unfold i_union. change (@nil (Z * Z)) with (lift []).
    rewrite (d_update_lift l []), fold_r_add_nil, (unique_list_id l Hn).
    apply i_update_lift, Hn.
  - unfold i_difference, r_diff.
    rewrite (filter_lift (fun k => negb (memz k (other_keys (lift l) a)))). f_equal. apply filter_ext_in. intros x _.
    rewrite (other_keys_mem l a Hn). unfold in_none. simpl. rewrite orb_false_r. reflexivity.
  - unfold i_intersection, r_inter.
    rewrite (filter_lift (fun k => memz k (other_keys (lift l) a))). f_equal. apply filter_ext_in. intros x _.
    rewrite (other_keys_mem l a Hn). unfold in_all. simpl. rewrite andb_true_r. reflexivity.
  - unfold i_symmetric_difference.
    assert (Ho : (if is_iset a then amembers (lift l) a else d_of_objs [] (io a))
                 = lift (unique_list (aobjs l a))).
    { destruct (is_iset a) eqn:E; [apply amembers_lift, Hn|].
      rewrite (aobjs_nonself l a E). apply i_init_lift. }
    rewrite Ho, !filter_has_lift, d_update_lift, r_update_fold. set (c := aobjs l a).
    unfold r_sym. f_equal. f_equal.
    + apply filter_ext_in. intros x _. f_equal. apply memz_ext, unique_list_In.
    + (* the new members are already duplicate-free and disjoint from the survivors *)
      rewrite uniq_from_id.
      * apply filter_uniq_from.
      * apply NoDup_filter, unique_list_NoDup.
      * intros x. rewrite !filter_notin_In. tauto.
Qed.
Lemma i_bin_update_lift : forall b l a, NoDup l ->
  i_bin_update b (lift l) a = lift (q_bin b l (aobjs l a)).
Proof.
  intros b l a Hn. destruct b; unfold i_bin_update; try apply i_bin_lift; try assumption.
  apply i_update_lift, Hn.
Qed.
Lemma q_bin_NoDup : forall b l c, NoDup l -> NoDup (q_bin b l c).
Proof.
  intros b l c Hn. destruct b; simpl.
  - apply r_update_NoDup, Hn.
  - apply NoDup_filter, Hn.
  - apply NoDup_filter, Hn.
  - apply r_sym_NoDup, Hn.
Qed.

(* between duplicate-free lists, inclusion one way decides the other way by the lengths *)
Lemma subset_back : forall l1 l2, NoDup l1 -> NoDup l2 -> subset l1 l2 = true ->
  subset l2 l1 = (length l2 <=? length l1)%nat /\ (length l1 <= length l2)%nat.
Proof.
  intros l1 l2 H1 H2 E. apply subset_spec in E. split; [|apply NoDup_incl_length; assumption].
  apply eq_true_iff_eq. rewrite subset_spec, Nat.leb_le. split.
  - apply NoDup_incl_length, H2.
  - intros Hle. apply NoDup_length_incl; assumption.
Qed.
Lemma lt_lift : forall l1 l2, NoDup l1 -> NoDup l2 ->
  Nat.ltb (length l1) (length l2) && subset l1 l2 = subset l1 l2 && negb (subset l2 l1).
Proof.
  intros l1 l2 H1 H2. destruct (subset l1 l2) eqn:E; [|apply andb_false_r].
  destruct (subset_back l1 l2 H1 H2 E) as [-> _]. rewrite andb_true_r. apply Nat.ltb_antisym.
Qed.

Lemma q_cmp_unique : forall c b l o, q_cmp c b l (unique_list o) = q_cmp c b l o.
Proof. intros. unfold q_cmp. rewrite !subset_unique_r, !subset_unique_l. reflexivity. Qed.

Section Valof.
Variable valof : Z -> Z.
Lemma d_eq_lift : forall l1 l2, NoDup l1 -> NoDup l2 ->
  d_eq valof (lift l1) (lift l2) = subset l1 l2 && subset l2 l1.
Proof.
  intros l1 l2 H1 H2. unfold d_eq. rewrite !lift_length.
  assert (Hf : forallb (fun e => match d_get (fst e) (lift l2) with
                                 | Some v => obj_eq valof (snd e) v | None => false end) (lift l1)
               = subset l1 l2).
  { unfold subset. clear H1. induction l1 as [|x l1 IH]; simpl; [reflexivity|]. unfold get_id at 1.
    rewrite d_get_lift, IH. destruct (memz x l2); [|reflexivity]. unfold obj_eq.
    rewrite Z.eqb_refl. reflexivity. }
  rewrite Hf. destruct (subset l1 l2) eqn:E; [|apply andb_false_r].
  destruct (subset_back l1 l2 H1 H2 E) as [-> Hle]. rewrite andb_true_r. simpl.
  destruct (Nat.eqb_spec (length l1) (length l2)), (Nat.leb_spec (length l2) (length l1)); lia.
Qed.
Lemma i_cmp_lift : forall c l a, NoDup l ->
  abs_iret (i_cmp valof c (lift l) a) = q_cmp c (is_iset a) l (aobjs l a).
Proof.
  intros c l a Hn. rewrite <- q_cmp_unique. pose proof (unique_list_NoDup (aobjs l a)) as Ho.
  destruct c; cbn [i_cmp q_cmp]; unfold i_issubset, i_issuperset;
    rewrite (amembers_lift l a Hn), ?keys_le_lift, ?lift_length; destruct (is_iset a);
    cbn [abs_iret andb negb]; rewrite ?d_eq_lift, ?lt_lift by assumption; reflexivity.
Qed.

Lemma istep_ref : forall l op, NoDup l ->
  let '(m', r) := istep valof (lift l) op in
  let '(l', r') := qstep l op in
  m' = lift l' /\ NoDup l' /\ abs_iret r = r' /\ iret_inv r.
Proof.
  intros l op Hn.
  assert (Hdrop : forall o, d_drop (get_id o) (lift l) = lift (r_del l o)).
  { intros o. unfold d_drop, r_del, get_id.
    rewrite (filter_ext _ (fun e => negb (o =? fst e))) by (intros e; rewrite Z.eqb_sym; reflexivity).
    apply (filter_lift (fun y => negb (o =? y))). }
  destruct op; cbn [istep qstep].
  - rewrite d_set_lift. split; [reflexivity|]. split; [apply r_add_NoDup, Hn|].
    split; [reflexivity|exact I].
  - (* contains *) unfold get_id at 1. rewrite d_has_lift. repeat split; auto.
  - (* remove *) unfold get_id at 1. rewrite d_has_lift. destruct (memz o l); [|repeat split; auto].
    rewrite Hdrop. repeat split; auto. apply NoDup_filter, Hn.
  - (* discard *) unfold get_id at 1. rewrite d_has_lift. destruct (memz o l) eqn:E.
    + rewrite Hdrop. repeat split; auto. apply NoDup_filter, Hn.
    + apply memz_false in E. rewrite (r_del_notin l o E). repeat split; auto.
  - (* pop *) rewrite lift_rev. pose proof (rstep_NoDup l OPop Hn) as Hp. cbn [rstep] in Hp.
    destruct (rev l) as [|v r] eqn:E; simpl; [repeat split; auto|].
    unfold get_id. rewrite lift_rev. repeat split; auto.
  - (* clear *) repeat split; auto. constructor.
  - (* len *) rewrite lift_length. repeat split; auto.
  - (* copy *) destruct adopt; simpl; rewrite lift_snd; repeat split; auto; apply iinv_lift, Hn.
  - pose proof (q_bin_NoDup b l (aobjs l a) Hn) as Hq.
    destruct f; [| destruct (is_iset a) | | destruct (is_iset a)];
      rewrite ?i_bin_lift, ?i_bin_update_lift by assumption;
      try (destruct adopt); cbn [abs_iret iret_inv]; rewrite ?lift_snd; repeat split; auto;
      apply iinv_lift; assumption.
  - split; [reflexivity|]. split; [assumption|]. split; [apply i_cmp_lift, Hn|].
    unfold i_cmp. destruct c; simpl; try exact I; destruct (is_iset a); exact I.
Qed.

Lemma irun_ref : forall ops l, NoDup l ->
  let '(m', rs) := irun valof (lift l) ops in
  let '(l', rs') := qrun l ops in
  m' = lift l' /\ NoDup l' /\ map abs_iret rs = rs' /\ Forall iret_inv rs.
Proof.
  induction ops as [|op ops IH]; intros l Hn; simpl; [repeat split; auto|].
  pose proof (istep_ref l op Hn) as Hs.
  destruct (istep valof (lift l) op) as [m1 r]. destruct (qstep l op) as [l1 r'].
  destruct Hs as [-> [Hn1 [Hr Hi]]]. pose proof (IH l1 Hn1) as Hr2.
  destruct (irun valof (lift l1) ops) as [m2 rs]. destruct (qrun l1 ops) as [l2 rs'].
  destruct Hr2 as [-> [Hn2 [Hrs His]]]. repeat split; auto. simpl. congruence.
Qed.
End Valof.

Theorem iset_history : forall valof objs ops,
  let '(m, outs) := irun valof (i_init objs) ops in
  let '(l, outs') := qrun (unique_list objs) ops in
  iinv m /\ map snd m = l /\ map abs_iret outs = outs' /\ Forall iret_inv outs.
Proof.
  intros valof objs ops. rewrite i_init_lift.
  pose proof (irun_ref valof ops (unique_list objs) (unique_list_NoDup objs)) as H.
  destruct (irun valof (lift (unique_list objs)) ops) as [m outs].
  destruct (qrun (unique_list objs) ops) as [l outs'].
  destruct H as [-> [Hn [Ho Hi]]]. rewrite lift_snd.
  split; [apply iinv_lift, Hn|]. split; [reflexivity|]. split; assumption.
Qed.

Lemma istep_values_irrelevant : forall valof valof' l op, NoDup l ->
  istep valof (lift l) op = istep valof' (lift l) op.
Proof.
  intros valof valof' l op Hn. destruct op; try reflexivity. cbn [istep]. f_equal.
  destruct c; try reflexivity; cbn [i_cmp];
    rewrite (amembers_lift l a Hn), !d_eq_lift by auto using unique_list_NoDup; reflexivity.
Qed.
Lemma irun_values_irrelevant : forall valof valof' ops l, NoDup l ->
  irun valof (lift l) ops = irun valof' (lift l) ops.
Proof.
  intros valof valof'. induction ops as [|op ops IH]; intros l Hn; simpl; [reflexivity|].
  rewrite (istep_values_irrelevant valof valof' l op Hn).
  pose proof (istep_ref valof' l op Hn) as Hs.
  destruct (istep valof' (lift l) op) as [m1 r]. destruct (qstep l op) as [l1 r'].
  destruct Hs as [-> [Hn1 _]]. rewrite (IH l1 Hn1). reflexivity.
Qed.
Theorem iset_values_irrelevant : forall valof valof' objs ops,
  irun valof (i_init objs) ops = irun valof' (i_init objs) ops.
Proof. intros. rewrite i_init_lift. apply irun_values_irrelevant, unique_list_NoDup. Qed.
