(* C54 - immutabledict: union/merge_with/| are the right-biased merge whatever path _union_other
   takes; nothing changes the receiver.  Key order via OrderedSet's [r_add] (append if absent). *)
From Coq Require Import List ZArith Bool Lia.
Import ListNotations.
From SAV.util Require Import OrderedSet OrderedSetProofs ImmDict.
Open Scope Z_scope.

Definition merge_all (self : dict) (others : list darg) : dict :=
  fold_left merge (map content others) self.

Lemma lookup_put : forall d k v k', lookup k' (put k v d) = if Z.eqb k k' then Some v else lookup k' d.
Proof.
  induction d as [|[a b] d IH]; intros k v k'; simpl; [reflexivity|].
  destruct (a =? k) eqn:E; simpl.
  - apply Z.eqb_eq in E. subst a. destruct (k =? k'); reflexivity.
  - rewrite IH. destruct (a =? k') eqn:E2; [|reflexivity].
    apply Z.eqb_eq in E2. subst a. rewrite Z.eqb_sym, E. reflexivity.
Qed.
Lemma keys_put : forall d k v, keys (put k v d) = r_add (keys d) k.
Proof.
  unfold keys. induction d as [|[a b] d IH]; intros k v; [reflexivity|]. simpl.
  unfold r_add. rewrite memz_cons, (Z.eqb_sym k a). destruct (a =? k); simpl; [reflexivity|].
  rewrite IH. unfold r_add. destruct (memz k (map fst d)); reflexivity.
Qed.
Lemma keys_merge : forall pairs d, keys (merge d pairs) = fold_left r_add (map fst pairs) (keys d).
Proof.
  unfold merge. induction pairs as [|e r IH]; intros d; simpl; [reflexivity|]. rewrite IH, keys_put. reflexivity.
Qed.
Lemma wf_put : forall d k v, wf_dict d -> wf_dict (put k v d).
Proof. intros. unfold wf_dict. rewrite keys_put. apply r_add_NoDup, H. Qed.
Lemma wf_merge : forall pairs d, wf_dict d -> wf_dict (merge d pairs).
Proof.
  unfold merge. induction pairs as [|e r IH]; intros d H; simpl; [exact H|]. apply IH, wf_put, H.
Qed.
Lemma lookup_app : forall a b k,
  lookup k (a ++ b) = match lookup k a with Some v => Some v | None => lookup k b end.
Proof.
  induction a as [|[x y] a IH]; intros b k; simpl; [reflexivity|]. destruct (x =? k); [reflexivity|apply IH].
Qed.
(* right-biased: the last pair for k wins, otherwise the old value stays *)
Lemma lookup_merge : forall pairs d k,
  lookup k (merge d pairs) = match last_of k pairs with Some v => Some v | None => lookup k d end.
Proof.
  unfold merge, last_of. induction pairs as [|[a b] r IH]; intros d k; simpl; [reflexivity|].
  rewrite IH, lookup_app. destruct (lookup k (rev r)); [reflexivity|]. simpl. rewrite lookup_put.
  destruct (a =? k); reflexivity.
Qed.
Lemma put_notin : forall d k v, ~ In k (keys d) -> put k v d = d ++ [(k, v)].
Proof.
  induction d as [|[a b] d IH]; intros k v H; simpl; [reflexivity|]. simpl in H.
  destruct (a =? k) eqn:E; [apply Z.eqb_eq in E; tauto|]. rewrite IH; [reflexivity|tauto].
Qed.
Lemma merge_app_id : forall d a, wf_dict (a ++ d) -> merge a d = a ++ d.
Proof.
  unfold merge. induction d as [|[k v] d IH]; intros a H; simpl; [rewrite app_nil_r; reflexivity|].
  unfold wf_dict, keys in H. rewrite map_app in H. simpl in H.
  pose proof (NoDup_remove_2 _ _ _ H) as Hk. rewrite put_notin.
  - rewrite IH; [rewrite <- app_assoc; reflexivity|]. unfold wf_dict, keys.
    rewrite <- app_assoc, map_app. exact H.
  - intros Hi. apply Hk. apply in_or_app. left. exact Hi.
Qed.
Lemma merge_nil_id : forall d, wf_dict d -> merge [] d = d.
Proof. intros d H. apply (merge_app_id d [] H). Qed.
Lemma merge_nil_r : forall d, merge d [] = d.
Proof. reflexivity. Qed.

Lemma wf_content : forall a, is_dict a = true -> wf_dict (content a).
Proof.
  intros [k p]. unfold is_dict, content. destruct k; simpl; try discriminate; intros _;
    apply wf_merge; constructor.
Qed.
Lemma falsy_content : forall a, falsy a = true -> content a = [].
Proof. intros a. unfold falsy. destruct (content a); [reflexivity|discriminate]. Qed.


Lemma merge_all_falsy : forall others d, forallb falsy others = true -> merge_all d others = d.
Proof.
  unfold merge_all. induction others as [|a r IH]; intros d H; simpl; [reflexivity|]. simpl in H.
  apply andb_true_iff in H. destruct H as [H1 H2]. rewrite (falsy_content a H1). apply IH, H2.
Qed.
(* first loop of _union_other: an object in [only_one] is the merge of everything seen so far and
   is never replaced; [ONone] is the break, left to the second loop ([final_loop]) *)
Definition seen (oo : only) : dict := match oo with OObj _ c => c | _ => [] end.
Lemma scan_content : forall others i oo, oo <> ONone ->
  match scan oo i others with
  | OFalse => oo = OFalse /\ forallb falsy others = true
  | OObj w c => c = merge_all (seen oo) others /\ match oo with OObj w0 _ => w = w0 | _ => True end
  | ONone => True
  end.
Proof.
  induction others as [|a r IH]; intros i oo Hoo; simpl; [destruct oo; auto|].
  destruct (falsy a) eqn:Ef; simpl.
  - specialize (IH (i + 1) oo Hoo). unfold merge_all in *. simpl. rewrite (falsy_content a Ef). exact IH.
  - destruct oo as [| |w c]; [|congruence|exact I]. destruct (dk a) eqn:Ek; try exact I.
    assert (IH' := IH (i + 1) (OObj (i + 1) (content a))).
    destruct (scan (OObj (i + 1) (content a)) (i + 1) r); auto.
    + destruct IH' as [IH' _]; discriminate.
    + split; [|exact I]. unfold merge_all in *. simpl. rewrite merge_nil_id; [apply IH'; discriminate|].
      apply wf_content. unfold is_dict. rewrite Ek. reflexivity.
Qed.
Lemma final_loop : forall others d,
  fold_left (fun res a => if falsy a then res else merge res (content a)) others d = merge_all d others.
Proof.
  unfold merge_all. induction others as [|a r IH]; intros d; simpl; [reflexivity|].
  destruct (falsy a) eqn:E; [rewrite (falsy_content a E)|]; apply IH.
Qed.

Theorem union_other_is_merge : forall self others, wf_dict self ->
  fst (union_other self others) = merge_all self others.
Proof.
  intros self others Hw. unfold union_other. destruct others as [|a r]; [reflexivity|].
  set (os := a :: r). cbv zeta. set (oo := if match self with [] => true | _ => false end then OFalse else OObj 0 self).
  assert (Hoo : oo <> ONone /\ seen oo = self) by (destruct self; split; (discriminate || reflexivity)).
  pose proof (scan_content os 0 oo (proj1 Hoo)) as H. rewrite (proj2 Hoo) in H.
  destruct (scan oo 0 os); cbn [fst].
  - symmetry. apply merge_all_falsy, H.
  - rewrite final_loop. f_equal. destruct self; [reflexivity|apply merge_nil_id, Hw].
  - exact (proj1 H).
Qed.
Lemma wf_merge_all : forall others d, wf_dict d -> wf_dict (merge_all d others).
Proof.
  unfold merge_all. induction others as [|a r IH]; intros d H; simpl; [exact H|]. apply IH, wf_merge, H.
Qed.

Lemma dstep_wf : forall d op, wf_dict d -> wf_dict (fst (dstep d op)).
Proof.
  intros d op H. destruct op; simpl; try exact H.
  2-3: (destruct (is_dict a), adopt; simpl; try exact H; apply wf_merge, wf_merge; constructor).
  pose proof (union_other_is_merge d others H) as E. destruct (union_other d others) as [r who].
  simpl in *. destruct adopt; simpl; [subst r; apply wf_merge_all, H|exact H].
Qed.

Theorem mutators_raise : forall d which, dstep d (DMutate which) = (d, VExc TypeError).
Proof. reflexivity. Qed.
Lemma dstep_same : forall d op, adopts op = false -> fst (dstep d op) = d.
Proof.
  intros d op E. destruct op; simpl in *; try reflexivity; subst adopt;
    [destruct (union_other d others)|destruct (is_dict a)..]; reflexivity.
Qed.
Theorem never_mutated : forall ops d, forallb (fun op => negb (adopts op)) ops = true ->
  fst (drun d ops) = d.
Proof.
  induction ops as [|op ops IH]; intros d H; simpl; [reflexivity|]. simpl in H.
  apply andb_true_iff in H. destruct H as [H1 H2]. apply negb_true_iff in H1.
  pose proof (dstep_same d op H1) as Hs.
  destruct (dstep d op) as [d1 o]. simpl in Hs. subst d1. specialize (IH d H2).
  destruct (drun d ops). exact IH.
Qed.
Theorem drun_wf : forall ops d, wf_dict d -> wf_dict (fst (drun d ops)).
Proof.
  induction ops as [|op ops IH]; intros d H; simpl; [exact H|].
  pose proof (dstep_wf d op H) as H1. destruct (dstep d op) as [d1 o]. specialize (IH d1 H1).
  destruct (drun d1 ops). exact IH.
Qed.

Theorem or_is_merge : forall d ad a, wf_dict d -> is_dict a = true ->
  snd (dstep d (DOr ad a)) = VDict (merge d (content a)) (-1) /\
  snd (dstep d (DRor ad a)) = VDict (merge (content a) d) (-1).
Proof.
  intros d ad a Hw Ha. simpl. rewrite Ha. simpl. rewrite (merge_nil_id d Hw).
  rewrite (merge_nil_id _ (wf_content a Ha)). split; reflexivity.
Qed.
Theorem merge_keys : forall d pairs,
  keys (merge d pairs) = keys d ++ unique_list (filter (fun k => negb (memz k (keys d))) (map fst pairs)).
Proof.
  intros. rewrite keys_merge. apply fold_r_add_closed.
Qed.
