From Coq Require Import List NArith Bool Lia Arith.
Import ListNotations.
From SAV.util Require Import Topo TopoProofs Cycles CyclesSound CyclesComplete.

Section Exact.
Variable ts : list edge.
Variable ord : node -> list node.
Hypothesis ord_spec : forall a b, In b (ord a) <-> In (a, b) ts.
Variable starts : list node.
Hypothesis starts_spec : forall a, In a starts <-> exists b, In (a, b) ts.

Lemma minus_len l c : length (minus l c) <= length l.
Proof. unfold minus. induction l as [|a l IH]; simpl; [lia|]. destruct (negb (memb a c)); simpl; lia. Qed.

Lemma minus_len_lt l n : In n l -> length (minus l [n]) < length l.
Proof. intros H. apply (filter_length_lt _ l n H). simpl. rewrite N.eqb_refl. reflexivity. Qed.

Lemma scan_len st : forall cs todo out res todo' out',
  scan cs st todo out = (res, todo', out') ->
  length todo' <= length todo /\ (forall n, res = Some n -> length todo' < length todo).
Proof.
  apply (scan_cases st (fun _ todo _ r => forall res todo' out', r = (res, todo', out') ->
    length todo' <= length todo /\ (forall n, res = Some n -> length todo' < length todo))).
  - intros todo out ? ? ? [= <- <- _]. split; [lia|discriminate].
  - intros n cs todo out M ? ? ? [= _ <- _]. pose proof (minus_len todo (seg n st)). pose proof (minus_len_lt _ _ M).
    split; [lia|intros; lia].
  - intros n cs todo out _ IH res todo' out' E. pose proof (minus_len todo (seg n st)).
    destruct (IH _ _ _ E) as [H1 H2]. split; [lia|]. intros m Hm. specialize (H2 m Hm). lia. Qed.

Theorem dfs_fuel : forall fuel st todo out, 2 * length todo + length st < fuel + 1 ->
  dfs ord fuel st todo out <> None.
Proof.
  induction fuel as [|f IH]; intros [|top r] todo out Hm; simpl in *; try discriminate; try lia.
  destruct (scan (ord top) (top :: r) todo out) as [[res t1] o1] eqn:S.
  destruct (scan_len _ _ _ _ _ _ _ S) as [L1 L2].
  (* a push costs one stack slot and frees at least one todo entry; a pop frees a stack slot *)
  destruct res as [n|]; apply IH; [specialize (L2 n eq_refl)|]; simpl; lia. Qed.

Notation on_cycle := (on_cycle ts).

Lemma outer_spec : forall ss out0 ,
  incl ss starts ->
  exists out, outer ord starts ss out0 = Some out /\ incl out0 out /\
              (forall v, In v ss -> on_cycle v -> In v out).
Proof.
  induction ss as [|v ss IH]; intros out0 Hi; simpl.
  - exists out0. split; [reflexivity|]. split; [apply incl_refl|intros v []].
  - set (todo := minus starts [v]).
    destruct (dfs ord (fuel_for todo [v]) [v] todo out0) as [[t o]|] eqn:D.
    + assert (Hvs : In v starts) by (apply Hi; left; reflexivity).
      destruct (dfs_complete ts ord ord_spec starts starts_spec v (fuel_for todo [v]) todo out0 t o Hvs) as [Hinc Hcyc]; try exact D.
      * unfold todo. intros Hc. apply In_minus in Hc. destruct Hc as [_ Hc]. apply Hc. left; reflexivity.
      * intros x Hx Hne. unfold todo. apply In_minus. split; [exact Hx|]. intros [->|[]]. congruence.
      * destruct (IH o (fun x Hx => Hi x (or_intror Hx))) as [out [H1 [H2 H3]]].
        exists out. split; [exact H1|]. split; [intros x Hx; apply H2, Hinc, Hx|].
        intros w [->|Hw] Hc; [apply H2, Hcyc, Hc|apply H3; assumption].
    + exfalso. eapply dfs_fuel; [|exact D]. unfold fuel_for. simpl. lia. Qed.

(* C19: cycle detection returns precisely the items that lie on some cycle,
   whatever the iteration orders of the sets involved *)
Theorem find_cycles_exact :
  exists out, find_cycles ord starts = Some out /\ forall x, In x out <-> on_cycle x.
Proof.
  destruct (outer_spec starts [] (incl_refl _)) as [out [H1 [_ H3]]].
  exists out. split; [exact H1|]. intros x. split.
  - intros Hx. eapply find_cycles_sound; eassumption.
  - intros Hc. apply H3; [|exact Hc]. apply starts_spec. inversion Hc; subst; eauto. Qed.
End Exact.
