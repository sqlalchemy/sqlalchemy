(* The reference semantics of Python lists and slices (base/PySlice.v): bounds of slice.indices() and
   range(), what an int subscript selects, and (with a few list facts) the partition of a list by a slice. *)
From Coq Require Import List ZArith Bool Lia ZifyBool Permutation Arith FinFun.
Import ListNotations.
From SAV.base Require Import PySlice.
Open Scope Z_scope.

Lemma clamp_index_bounds : forall step len v, 0 <= len ->
  (0 < step -> 0 <= clamp_index step len v <= len) /\
  (step < 0 -> -1 <= clamp_index step len v <= len - 1).
Proof.
  intros step len v Hl. unfold clamp_index.
  destruct (v <? 0) eqn:E1; [destruct (v + len <? 0) eqn:E2|destruct (len <=? v) eqn:E3];
    destruct (step <? 0) eqn:E4; lia.
Qed.

Lemma adjust_bounds : forall sl len start stop step, 0 <= len ->
  adjust sl len = Ok (start, stop, step) ->
  step <> 0 /\
  (0 < step -> 0 <= start <= len /\ 0 <= stop <= len) /\
  (step < 0 -> -1 <= start <= len - 1 /\ -1 <= stop <= len - 1).
Proof.
  intros sl len start stop step Hl. unfold adjust.
  set (st := match sstep sl with Some s => s | None => 1 end).
  destruct (st =? 0) eqn:E0; [discriminate|]. intro H. injection H as <- <- <-.
  (* the default of an absent bound lies in the same interval as a clamped one *)
  assert (C : forall o d, (d = if st <? 0 then len - 1 else 0) \/ (d = if st <? 0 then -1 else len) ->
    let b := match o with None => d | Some v => clamp_index st len v end in
    (0 < st -> 0 <= b <= len) /\ (st < 0 -> -1 <= b <= len - 1)).
  { intros [v|] d Hd; [apply clamp_index_bounds; lia|]. cbn. destruct (st <? 0) eqn:E; lia. }
  pose proof (C (sstart sl) _ (or_introl eq_refl)). pose proof (C (sstop sl) _ (or_intror eq_refl)).
  cbn zeta in *. lia.
Qed.

Lemma adjust_step0 : forall sl len, sstep sl = Some 0 -> adjust sl len = Raise ValueError.
Proof. intros sl len H. unfold adjust. rewrite H. reflexivity. Qed.

Lemma slicelen_nonneg : forall start stop step, step <> 0 -> 0 <= slicelen start stop step.
Proof.
  intros start stop step Hs. unfold slicelen.
  destruct (step <? 0) eqn:E.
  - destruct (stop <? start) eqn:E2; [|lia].
    assert (0 <= (start - stop - 1) / - step) by (apply Z.div_pos; lia). lia.
  - destruct (start <? stop) eqn:E2; [|lia].
    assert (0 <= (stop - start - 1) / step) by (apply Z.div_pos; lia). lia.
Qed.

Lemma range_In : forall start stop step e, step <> 0 -> In e (range start stop step) ->
  exists k, 0 <= k < slicelen start stop step /\ e = start + k * step.
Proof.
  intros start stop step e Hs H. unfold range in H. apply in_map_iff in H.
  destruct H as [k [Hk Hin]]. apply in_seq in Hin. exists (Z.of_nat k). split; [|lia].
  pose proof (slicelen_nonneg start stop step Hs). lia.
Qed.

Lemma range_bounds : forall start stop step e, step <> 0 -> In e (range start stop step) ->
  (0 < step -> start <= e < stop) /\ (step < 0 -> stop < e <= start).
Proof.
  intros start stop step e Hs H. destruct (range_In _ _ _ _ Hs H) as [k [[Hk0 Hk] He]].
  unfold slicelen in Hk. split; intro Hst.
  - destruct (step <? 0) eqn:E; [lia|]. destruct (start <? stop) eqn:E2; [|lia].
    pose proof (Z.mul_div_le (stop - start - 1) step Hst). nia.
  - destruct (step <? 0) eqn:E; [|lia]. destruct (stop <? start) eqn:E2; [|lia].
    assert (Hp : 0 < - step) by lia.
    pose proof (Z.mul_div_le (start - stop - 1) (- step) Hp). nia.
Qed.

Lemma range_in_bounds : forall sl len start stop step e, 0 <= len ->
  adjust sl len = Ok (start, stop, step) -> In e (range start stop step) -> 0 <= e < len.
Proof.
  intros sl len start stop step e Hl Ha Hin.
  destruct (adjust_bounds _ _ _ _ _ Hl Ha) as [Hs [Hp Hn]].
  pose proof (range_bounds _ _ _ _ Hs Hin). lia.
Qed.

Lemma range_NoDup : forall start stop step, step <> 0 -> NoDup (range start stop step).
Proof.
  intros start stop step Hs. unfold range. apply Injective_map_NoDup; [|apply seq_NoDup].
  intros a b H. nia.
Qed.

Lemma range_length : forall start stop step,
  length (range start stop step) = Z.to_nat (slicelen start stop step).
Proof. intros. unfold range. rewrite map_length, seq_length. reflexivity. Qed.

Lemma slicelen_step1 : forall start stop, slicelen start stop 1 = Z.max 0 (stop - start).
Proof.
  intros. unfold slicelen. cbn [Z.ltb Z.compare]. destruct (start <? stop) eqn:E; [|lia].
  rewrite Z.div_1_r. lia.
Qed.

Lemma memZ_In : forall x l, memZ x l = true <-> In x l.
Proof.
  intros. unfold memZ. rewrite existsb_exists. split.
  - intros [y [H1 H2]]. apply Z.eqb_eq in H2. subst; auto.
  - intro. exists x. split; auto. apply Z.eqb_refl.
Qed.

Lemma NoDup_map_to_nat : forall idx, NoDup idx -> (forall e, In e idx -> 0 <= e) ->
  NoDup (map Z.to_nat idx).
Proof.
  intros idx Hn Hp. apply (NoDup_map_inv Z.of_nat).
  rewrite map_map, (map_ext_in _ (fun e => e)), map_id; [assumption|].
  intros e He. apply Z2Nat.id, Hp, He.
Qed.

Section L.
Variable A : Type.
Implicit Types (l : list A) (n : nat).

Lemma norm_index_Some : forall i len n, norm_index i len = Some n ->
  0 <= len -> (n < Z.to_nat len)%nat /\
  Z.of_nat n = (if i <? 0 then i + len else i).
Proof.
  intros i len n H Hl. unfold norm_index in H.
  destruct (i <? 0) eqn:E;
  match type of H with (if ?c then _ else _) = _ => destruct c eqn:E2 end; try discriminate;
  injection H as <-; lia.
Qed.

Lemma norm_index_lt : forall i l n, norm_index i (zlen l) = Some n -> (n < length l)%nat.
Proof.
  intros i l n H. destruct (norm_index_Some _ _ _ H) as [H1 _]; unfold zlen in *; lia.
Qed.

Lemma norm_index_nonneg : forall i len, 0 <= i < len -> norm_index i len = Some (Z.to_nat i).
Proof.
  intros i len H. unfold norm_index. destruct (i <? 0) eqn:E; [lia|].
  destruct ((i <? 0) || (len <=? i)) eqn:E2; [lia|reflexivity].
Qed.

Lemma set_nth_length : forall n (x : A) l, length (set_nth n x l) = length l.
Proof. induction n; destruct l; cbn [set_nth length]; auto. Qed.

Lemma del_nth_split : forall n l, del_nth n l = firstn n l ++ skipn (S n) l.
Proof.
  induction n; destruct l; cbn [del_nth firstn skipn app]; auto. rewrite IHn.
  destruct l; reflexivity.
Qed.

Lemma set_nth_split : forall n (x : A) l, (n < length l)%nat ->
  set_nth n x l = firstn n l ++ x :: skipn (S n) l.
Proof.
  induction n; destruct l; cbn [set_nth firstn skipn app length]; intros; try lia; auto.
  rewrite IHn by lia. reflexivity.
Qed.

Lemma norm_index_nth : forall i l n, norm_index i (zlen l) = Some n ->
  exists x : A, nth_error l n = Some x.
Proof.
  intros i l n H. apply norm_index_lt in H.
  destruct (nth_error l n) eqn:E; [eauto|]. apply nth_error_None in E. lia.
Qed.

Lemma nth_error_perm_del : forall n l (x : A), nth_error l n = Some x ->
  Permutation l (x :: del_nth n l).
Proof.
  induction n; destruct l as [|a l]; cbn [nth_error del_nth]; intros x H; try discriminate.
  - injection H as <-. reflexivity.
  - rewrite perm_swap. constructor. apply IHn. assumption.
Qed.

Lemma nth_error_perm_set : forall n l (x y : A), nth_error l n = Some x ->
  Permutation (y :: l) (x :: set_nth n y l).
Proof.
  induction n; destruct l as [|a l]; cbn [nth_error set_nth]; intros x y H; try discriminate.
  - injection H as <-. apply perm_swap.
  - rewrite (perm_swap a y), (perm_swap a x). constructor. apply IHn. assumption.
Qed.

Lemma insert_perm : forall p l (x : A), Permutation (x :: l) (firstn p l ++ x :: skipn p l).
Proof. intros. rewrite <- Permutation_middle, firstn_skipn. reflexivity. Qed.

Lemma sel_app : forall js js' l, sel (js ++ js') l = sel js l ++ sel js' l.
Proof. intros. unfold sel. apply flat_map_app. Qed.

Lemma sel_shift : forall js (a : A) l, sel (map S js) (a :: l) = sel js l.
Proof. induction js; intros; cbn; auto. unfold sel in IHjs. rewrite IHjs. reflexivity. Qed.

Lemma sel_all : forall l, sel (seq 0 (length l)) l = l.
Proof.
  induction l; [reflexivity|]. cbn [length seq]. rewrite <- seq_shift.
  cbn [sel flat_map nth_error app]. fold (sel (map S (seq 0 (length l))) (a :: l)).
  rewrite sel_shift, IHl. reflexivity.
Qed.

Lemma sel_perm : forall js js' l, Permutation js js' -> Permutation (sel js l) (sel js' l).
Proof. intros. unfold sel. apply Permutation_flat_map. assumption. Qed.

Lemma filter_partition_perm : forall (B : Type) (p : B -> bool) (l : list B),
  Permutation l (filter p l ++ filter (fun x => negb (p x)) l).
Proof.
  induction l; cbn [filter]; [constructor|]. destruct (p a); cbn [negb app].
  - constructor. assumption.
  - rewrite <- Permutation_middle. constructor. assumption.
Qed.

Lemma pick_drop_perm : forall idx l, NoDup idx -> (forall e, In e idx -> 0 <= e < zlen l) ->
  Permutation l (pick idx l ++ drop_idx idx l).
Proof.
  intros idx l Hnd Hb. unfold pick, drop_idx.
  set (p := fun j => memZ (Z.of_nat j) idx).
  rewrite <- (sel_all l) at 1.
  rewrite (sel_perm _ _ l (filter_partition_perm _ p (seq 0 (length l)))), sel_app.
  apply Permutation_app; [|reflexivity]. apply sel_perm.
  apply NoDup_Permutation.
  - apply NoDup_filter, seq_NoDup.
  - apply NoDup_map_to_nat; auto. intros e He. apply Hb in He. lia.
  - intro j. rewrite filter_In, in_seq, in_map_iff. unfold p. rewrite memZ_In. split.
    + intros [_ H]. exists (Z.of_nat j). split; [lia|assumption].
    + intros [e [He Hin]]. pose proof (Hb e Hin) as B. unfold zlen in B. split; [lia|].
      replace (Z.of_nat j) with e by lia. assumption.
Qed.

Corollary getslice_delslice_perm : forall l sl g d,
  py_getslice l sl = Ok g -> py_delslice l sl = Ok d -> Permutation l (g ++ d).
Proof.
  intros l sl g d. unfold py_getslice, py_delslice.
  destruct (adjust sl (zlen l)) as [[[start stop] step]|e] eqn:Ha; [|discriminate].
  intros H1 H2. injection H1 as <-. injection H2 as <-.
  assert (Hl : 0 <= zlen l) by (unfold zlen; lia).
  destruct (adjust_bounds _ _ _ _ _ Hl Ha) as [Hs _].
  apply pick_drop_perm; [apply range_NoDup; assumption|].
  intros e He. eapply range_in_bounds; eauto.
Qed.

Lemma getslice_delslice_same_error : forall l sl e,
  py_getslice l sl = Raise e <-> py_delslice l sl = Raise e.
Proof.
  intros. unfold py_getslice, py_delslice.
  destruct (adjust sl (zlen l)) as [[[start stop] step]|e']; split; intro H; try discriminate; auto.
Qed.
End L.
