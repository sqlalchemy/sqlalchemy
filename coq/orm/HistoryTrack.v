(* C36 - capture-on-first-change.  The value an attribute had when it was loaded
   is remembered through every sequence of mutations and reads that contains no synchronisation
   point (flush / expire); hence the history is the net difference against that value. *)
From Coq Require Import List NArith Bool Lia.
Import ListNotations.
From SAV.orm Require Import History HistorySpec HistoryProofs HistoryFrame HistoryWf HistoryOps.
Open Scope N_scope.

Lemma assign_x_c : forall nv s,
  x_c (assign_x nv s) = if is_nohist (x_c s) then old_plain s else x_c s.
Proof. intros nv s. apply mod_x_c. Qed.

Lemma tracks_x_step : forall k o s v0, wf s -> is_sync o = false ->
  tracks_x v0 s -> tracks_x v0 (fst (step k o s)).
Proof.
  intros k o s v0 W NS T. apply step_x_cases; [exact NS|..]; unfold tracks_x in *.
  - intros s' [C D]. rewrite C. destruct T as [[TC TD]|TC]; [left|right; exact TC]. split; [exact TC|].
    destruct D as [D|[_ D]]; [congruence|]. rewrite D. f_equal. symmetry. eapply wf_x_clean; eauto.
  - intros nv. right. rewrite assign_x_c. destruct T as [[C D]|C]; rewrite C; [|reflexivity].
    unfold old_plain. rewrite D. reflexivity.
Qed.

Lemma unknown_x_step : forall k o s, is_sync o = false -> is_nostate (x_c s) = true ->
  x_c (fst (step k o s)) = x_c s.
Proof.
  intros k o s NS U. apply step_x_cases; [exact NS|intros s' [C _]; exact C|].
  intros nv. rewrite assign_x_c. destruct (x_c s); try discriminate U; reflexivity.
Qed.

(* only an absent attribute without a captured value gets loaded *)
Definition settled_b (s : st) : Prop := b_d s <> None \/ (b_c s <> NoHist /\ b_c s <> CNoValue).

Lemma get_b_settled : forall p s, settled_b s -> keepB s (fst (get_b p s)).
Proof.
  intros p s H. destruct (get_b_frame p s) as (_ & _ & [K|(D & C & _)] & _); [exact K|].
  unfold settled_b in H. intuition congruence.
Qed.

(* an assignment or deletion of such a b captures what the read of the old value returns *)
Lemma assign_b_settled : forall nv s, settled_b s ->
  b_c (assign_b nv s) =
  if is_nohist (b_c s) then comm_of_gres (snd (get_b P_NO_FETCH_NO_INIT s)) else b_c s.
Proof.
  intros nv s H. unfold assign_b. destruct (get_b_settled P_NO_FETCH_NO_INIT s H) as [C _].
  destruct (get_b _ s) as [s1 old]. cbn [fst snd b_c set_b_d] in *. rewrite mod_b_c, C. reflexivity.
Qed.

Lemma tracks_b_step : forall k o s v0, is_sync o = false ->
  tracks_b v0 s -> tracks_b v0 (fst (step k o s)).
Proof.
  intros k o s v0 NS T.
  assert (U : settled_b s)
    by (destruct T as [[C D]|C]; [left|right]; rewrite ?C, ?D; repeat split; discriminate).
  assert (K : forall s', keepB s s' -> tracks_b v0 s').
  { intros s' [C D]. unfold tracks_b. rewrite C, D. exact T. }
  apply step_b_cases; [exact NS|exact K| |apply K, get_b_settled, U].
  intros nv. right. rewrite (assign_b_settled nv s U). destruct T as [[C D]|C]; rewrite C; [|reflexivity].
  rewrite (get_b_hit _ _ _ D). reflexivity.
Qed.

Lemma unknown_b_nr_step : forall k o s, is_sync o = false -> b_c s = CNoResult ->
  b_c (fst (step k o s)) = CNoResult.
Proof.
  intros k o s NS C.
  assert (U : settled_b s) by (right; rewrite C; split; discriminate).
  apply step_b_cases; [exact NS|intros s' [C' _]; congruence|..].
  - intros nv. rewrite (assign_b_settled nv s U), C. reflexivity.
  - destruct (get_b_settled P_OFF s U). congruence.
Qed.

(* NO_VALUE as the captured value: it stays, or the attribute gets (re)loaded from the database,
   and a following assignment captures the loaded value *)
Lemma get_b_nv : forall p s, wf s -> b_c s = CNoValue ->
  let s1 := fst (get_b p s) in
  b_c s1 = CNoValue \/
  (b_c s1 = NoHist /\ b_d s1 = Some (db_b s) /\ snd (get_b p s) = GVal (db_b s)).
Proof.
  intros p s W C. destruct (loader_b_refresh p s) as ((_ & DB & _) & _ & [BC _] & _).
  destruct (get_cases b_d b_c loader_b commit_b 0 p s) as [E | [E | (v & _ & _ & L & E)]];
    fold (get_b p s) in E; rewrite E; cbn; [left; congruence..|right].
  pose proof (loader_b_sound p s W) as V. rewrite L in V. rewrite V, DB. auto.
Qed.

Lemma unknown_b_nv_step : forall k o s, wf s -> is_sync o = false -> b_c s = CNoValue ->
  let s' := fst (step k o s) in
  b_c s' = CNoValue \/ tracks_b (db_b s) s'.
Proof.
  intros k o s W NS U. apply step_b_cases; [exact NS|intros s' [C _]; left; congruence|..].
  - intros nv. unfold assign_b, tracks_b. destruct (get_b_nv P_NO_FETCH_NO_INIT s W U) as [C|(C & _ & R)];
      destruct (get_b _ s) as [s1 old]; cbn [fst snd b_c set_b_d] in *; [left|right; right];
      rewrite mod_b_c, C; [|rewrite R]; reflexivity.
  - destruct (get_b_nv P_OFF s W U) as [C|(C & D & _)]; [left; exact C|right; left; auto].
Qed.

Definition captured (l0 : list val) (s : st) : Prop := c_c s = CVal l0.
Lemma captured_tracks : forall l0 s, captured l0 s -> tracks_c l0 s.
Proof. intros. right. assumption. Qed.

Lemma set_c_d_captured : forall s l0 x, captured l0 s -> captured l0 (set_c_d x s).
Proof. intros s l0 x C. exact C. Qed.

(* the event finds either the loaded collection in the dict or an earlier capture *)
Lemma mod_c_captured : forall prev s l0, tracks_c l0 s ->
  prev = CNoValue \/ (c_c s = NoHist -> prev = CVal l0) -> captured l0 (mod_c prev s).
Proof.
  intros prev s l0 T H. unfold captured. rewrite mod_c_c.
  destruct T as [[C D]|C]; rewrite C; [|reflexivity]. cbn. rewrite D.
  destruct H as [-> | H]; [|rewrite (H C)]; reflexivity.
Qed.

Lemma coll_event_captured : forall s l0, tracks_c l0 s -> captured l0 (coll_event s).
Proof.
  intros s l0 T. unfold coll_event. apply mod_c_captured; [|auto].
  destruct (c_d s) eqn:D; [exact T|]. destruct T as [[_ D']|C]; [congruence|right; exact C].
Qed.

Lemma tracks_c_step : forall k o s l0, is_sync o = false ->
  tracks_c l0 s -> tracks_c l0 (fst (step k o s)).
Proof.
  intros k o s l0 NS T.
  assert (K : forall s', loadC s s' -> tracks_c l0 s').
  { intros s' [[C D]|(D & C & _)]; unfold tracks_c in *; [rewrite C, D; exact T|].
    destruct T as [[_ D']|C']; destruct C; congruence. }
  destruct (get_c_frame P_OFF s) as (_ & _ & _ & T1). apply K in T1.
  destruct (via_touch o) eqn:V.
  { apply (touch_op_rule (tracks_c l0)); [..|exact V|rewrite coll_touch_get; exact T1].
    - intros s1 H. apply captured_tracks, coll_event_captured, H.
    - intros s1 H. apply captured_tracks, mod_c_captured; auto.
    - intros l s1 H. apply captured_tracks, set_c_d_captured, coll_event_captured, H. }
  destruct (on_c o) eqn:OC; [|apply K; left; apply (step_keepC k o s NS OC)].
  destruct o; try discriminate OC; try discriminate V; cbn [step].
  - unfold c_replace. destruct T as [[C D]|C].
    + rewrite (get_c_hit _ _ _ D).
      apply captured_tracks, set_c_d_captured, mod_c_captured; auto. left; auto.
    + destruct (get_c_frame P_OFF s) as (_ & _ & _ & [[C1 _]|(_ & [C1|C1] & _)]); try congruence.
      destruct (get_c P_OFF s) as [s1 []]; cbn [fst] in *; try exact T1.
      apply captured_tracks, set_c_d_captured, mod_c_captured; [exact T1|right; congruence].
  - unfold c_del. destruct (c_d s); [|exact T].
    apply captured_tracks, set_c_d_captured, mod_c_captured; auto.
Qed.

Lemma hist_x_tracked : forall s v0, tracks_x v0 s ->
  hist_x s = net_diff_scalar (Known v0) (x_d s).
Proof.
  intros s v0 [[C D]|C]; rewrite hist_x_eq, C.
  - rewrite D. cbn. rewrite N.eqb_refl. reflexivity.
  - apply from_scalar_known.
Qed.

Lemma hist_b_tracked : forall s v0, tracks_b v0 s ->
  hist_b s = net_diff_object (Known v0) (b_d s).
Proof.
  intros s v0 [[C D]|C]; rewrite hist_b_eq, C.
  - rewrite D. cbn. rewrite N.eqb_refl. reflexivity.
  - rewrite <- from_object_known. destruct (b_d s); reflexivity.
Qed.

Lemma hist_c_tracked : forall s l0, tracks_c l0 s ->
  hist_c s = net_diff_coll (Known l0) (c_d s).
Proof.
  intros s l0 [[C D]|C]; rewrite hist_c_eq, C.
  - rewrite D. cbn. rewrite filter_memb_self, filter_nmemb_self. reflexivity.
  - apply from_collection_known.
Qed.
