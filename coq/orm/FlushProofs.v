(* C30 - proofs: the invariant "the database is the rows of the committed view, and everything that differs
   in the current view is recorded as history" holds after every operation history; a flush re-establishes
   "database = rows of the current graph" *)
From Coq Require Import List NArith ZArith Bool Lia.
Import ListNotations.
From SAV.orm Require Import Flush FlushLists.
Local Open Scope N_scope.

Lemma memN_In x l : memN x l = true <-> In x l.
Proof. apply existsb_eqb_In, N.eqb_eq. Qed.
Lemma t3eqb_eq x y : t3eqb x y = true <-> x = y.
Proof. destruct x as [[a b] c], y as [[a' b'] c']. unfold t3eqb. simpl. rewrite !andb_true_iff, !N.eqb_eq. split.
  - intros [[-> ->] ->]. reflexivity.
  - intros H. inversion H. auto. Qed.
Lemma t3_dec (x y : trip) : {x = y} + {x <> y}.
Proof. destruct (t3eqb x y) eqn:E; [left; apply t3eqb_eq, E|right; intros H; apply t3eqb_eq in H; congruence]. Qed.
Lemma mem3_In x l : mem3 x l = true <-> In x l.
Proof. apply existsb_eqb_In, t3eqb_eq. Qed.
Lemma mem3_false x l : mem3 x l = false <-> ~ In x l.
Proof. rewrite <- mem3_In. symmetry. apply not_true_iff_false. Qed.
Lemma in_remove3 x y l : In y (filter (fun z => negb (t3eqb x z)) l) <-> In y l /\ x <> y.
Proof. rewrite filter_In, negb_true_iff, <- not_true_iff_false, t3eqb_eq. reflexivity. Qed.

Lemma assoc_find {A} k (l : list (N * A)) : assoc k l = option_map snd (find (fun e => N.eqb (fst e) k) l).
Proof. induction l as [|[k' v] l IH]; simpl; [reflexivity|]. destruct (N.eqb k' k); [reflexivity|exact IH]. Qed.
Lemma assoc_in {A} k (v : A) l : assoc k l = Some v -> In (k, v) l.
Proof. rewrite assoc_find. destruct (find _ l) as [[k' v']|] eqn:F; [|discriminate].
  apply (find_key_in fst) in F as [F <-]. intros [= <-]. exact F. Qed.
Lemma assoc_none {A} k (l : list (N * A)) : assoc k l = None <-> ~ In k (map fst l).
Proof. rewrite assoc_find, <- (find_key_none fst). destruct (find _ l); simpl; split; congruence. Qed.
Lemma assoc_nodup {A} k (v : A) l : NoDup (map fst l) -> In (k, v) l -> assoc k l = Some v.
Proof. intros Hn Hi. rewrite assoc_find. exact (f_equal (option_map snd) (find_key_nodup fst l (k, v) Hn Hi)). Qed.
Lemma assoc_app {A} k (l1 l2 : list (N * A)) : assoc k (l1 ++ l2) = match assoc k l1 with Some v => Some v | None => assoc k l2 end.
Proof. induction l1 as [|[k' v'] l1 IH]; simpl; [reflexivity|]. destruct (N.eqb k' k); [reflexivity|exact IH]. Qed.

Lemma filter_keys_sub {A B} (g : A -> B) P l k : In k (map g (filter P l)) -> In k (map g l).
Proof. intros H. apply in_map_iff in H as [e [E H]]. apply filter_In in H as [H _]. rewrite <- E. apply in_map, H. Qed.
Lemma nodup_filter_keys {A B} (g : A -> B) P l : NoDup (map g l) -> NoDup (map g (filter P l)).
Proof. induction l as [|e l IH]; simpl; intros H; [constructor|]. inversion_clear H. destruct (P e); simpl; [constructor|]; auto.
  intros X. apply H0. eapply filter_keys_sub, X. Qed.
Lemma assoc_filter (P : N * N -> bool) k l : NoDup (map fst l) ->
  assoc k (filter P l) = match assoc k l with Some v => if P (k, v) then Some v else None | None => None end.
Proof. induction l as [|[k' v'] l IH]; simpl; intros Hn; [reflexivity|]. inversion_clear Hn.
  destruct (N.eqb_spec k' k) as [->|E].
  - destruct (P (k, v')); simpl; [rewrite N.eqb_refl; reflexivity|]. apply assoc_none. intros X. apply H. eapply filter_keys_sub, X.
  - destruct (P (k', v')); simpl; [rewrite (proj2 (N.eqb_neq _ _) E)|]; auto. Qed.

Lemma get_obj_in s i o : get_obj s i = Some o -> In o (objs s) /\ o_id o = i.
Proof. apply find_key_in. Qed.
Lemma get_obj_nodup s o : NoDup (map o_id (objs s)) -> In o (objs s) -> get_obj s (o_id o) = Some o.
Proof. apply find_key_nodup. Qed.
Lemma get_obj_none s i : get_obj s i = None <-> ~ In i (map o_id (objs s)).
Proof. apply find_key_none. Qed.

Lemma assoc_flat_map {A} (l : list obj) (f : obj -> option A) i : NoDup (map o_id l) ->
  assoc i (flat_map (fun o => match f o with Some w => [(o_id o, w)] | None => [] end) l) =
  match find (fun o => N.eqb (o_id o) i) l with Some o => f o | None => None end.
Proof. induction l as [|a l IH]; simpl; intros Hn; [reflexivity|]. inversion_clear Hn. rewrite assoc_app, IH by assumption.
  destruct (N.eqb_spec (o_id a) i) as [<-|E].
  - destruct (f a) as [w|]; simpl; [rewrite N.eqb_refl; reflexivity|].
    apply (find_key_none o_id) in H. rewrite H. reflexivity.
  - destruct (f a) as [w|]; simpl; [rewrite (proj2 (N.eqb_neq _ _) E)|]; reflexivity. Qed.

Definition hasrow (n : N) : bool := N.eqb n 2 || N.eqb n 3.
(* the foreign keys of the committed view: a parent that has a row *)
Definition fkrow (s : state) (par : list (N * N)) : list (N * N) := filter (fun e => hasrow (st_of s (snd e))) par.

(* [row_ok]: the row agrees with the object wherever there is no history: the scalar unless it was set, and for a
   relationship that was not set the column holds the parent iff that parent has a row.
   [par_ok]: every current parent exists, and is not pending unless the relationship has history.
   [Inv], secondary rows: [i_s1] they are the members as of the last flush (current members not added since, and
   members deleted since); [i_s2], [i_s3] the history is consistent with the current members. *)
Definition row_ok (s : state) (o : obj) (w : row) : Prop :=
  w_cls w = o_cls o /\ NoDup (map fst (w_fk w)) /\ (o_dd o = false -> w_data w = o_data o) /\
  (forall r, memN r (o_pd o) = false -> assoc r (w_fk w) = assoc r (fkrow s (o_par o))).

Definition par_ok (s : state) (o : obj) : Prop :=
  NoDup (map fst (o_par o)) /\
  forall r p, In (r, p) (o_par o) -> get_obj s p <> None /\ (memN r (o_pd o) = false -> st_of s p <> 1).

Definition rows_ok (s : state) (i : N) : Prop :=
  match get_obj s i with
  | Some o => if hasrow (o_st o) then exists w, assoc i (rows s) = Some w /\ row_ok s o w else assoc i (rows s) = None
  | None => assoc i (rows s) = None end.

Record Inv (s : state) : Prop := {
  i_nodup : NoDup (map o_id (objs s));
  i_st : forall o, In o (objs s) -> o_st o <= 3;
  i_par : forall o, In o (objs s) -> par_ok s o;
  i_rows : forall i, rows_ok s i;
  i_s1 : forall x, In x (secs s) <-> (In x (pairs s) /\ ~ In x (padd s)) \/ In x (pdel s);
  i_s2 : forall x, In x (padd s) -> In x (pairs s);
  i_s3 : forall x, In x (pdel s) -> ~ In x (pairs s)
}.

Lemma inv_empty : Inv empty.
Proof. constructor; simpl; try (intros ? []); [constructor|reflexivity|tauto]. Qed.

(* What one object may become while the others stay as they are.  The objects that refer to it see only whether it
   has a row and whether it is pending: the first must not change, the second must not become true.  Its own clauses
   are stated in the old state. *)
Definition obj_step (s : state) (o o' : obj) : Prop :=
  hasrow (o_st o') = hasrow (o_st o) /\ (o_st o' = 1 -> o_st o = 1) /\ o_st o' <= 3 /\
  par_ok s o' /\ forall w, row_ok s o w -> row_ok s o' w.

Lemma obj_step_refl s o : Inv s -> In o (objs s) -> obj_step s o o.
Proof. intros Hi Ho. split; [reflexivity|]. split; [auto|]. split; [apply Hi, Ho|]. split; [apply Hi, Ho|auto]. Qed.

(* Replacing the objects: no object disappears, every object goes through an [obj_step], and objects that appear
   have no row yet. *)
Lemma inv_objs s l : Inv s -> NoDup (map o_id l) ->
  (forall j, match get_obj s j, get_obj (set_objs s l) j with
             | Some o, Some o' => obj_step s o o'
             | None, Some o' => hasrow (o_st o') = false /\ o_st o' <= 3 /\ par_ok s o'
             | Some _, None => False
             | None, None => True end) ->
  Inv (set_objs s l).
Proof.
  intros Hi Hn H. set (s' := set_objs s l) in *.
  (* an object of [s] still exists in [s'], with or without a row as before, and pending only if it was *)
  assert (Hst : forall p, get_obj s p <> None ->
            get_obj s' p <> None /\ hasrow (st_of s' p) = hasrow (st_of s p) /\ (st_of s' p = 1 -> st_of s p = 1)).
  { intros p Hp. specialize (H p). unfold st_of. destruct (get_obj s p); [|congruence].
    destruct (get_obj s' p); [|contradiction]. split; [discriminate|]. split; apply H. }
  assert (Hpo : forall o, par_ok s o -> par_ok s' o).
  { intros o [P1 P2]. split; [exact P1|]. intros r p Hrp. destruct (P2 r p Hrp) as [A B]. destruct (Hst p A) as [A' [_ B']].
    split; [exact A'|]. intros Hm X. apply (B Hm), B', X. }
  assert (Hro : forall o w, par_ok s o -> row_ok s o w -> row_ok s' o w).
  { intros o w [_ P] [A [B [C D]]]. repeat (split; [assumption|]). intros r Hr. rewrite (D r Hr). f_equal.
    apply filter_ext_in. intros [r' p] Hp. symmetry. apply (Hst p), (P r' p Hp). }
  assert (Hin : forall o', In o' l -> get_obj s' (o_id o') = Some o') by (intros o'; apply (get_obj_nodup s'), Hn).
  constructor; [exact Hn| | | |apply (i_s1 _ Hi)|apply (i_s2 _ Hi)|apply (i_s3 _ Hi)].
  - intros o' Ho'. specialize (H (o_id o')). rewrite (Hin o' Ho') in H. destruct (get_obj s (o_id o')); apply H.
  - intros o' Ho'. specialize (H (o_id o')). rewrite (Hin o' Ho') in H. apply Hpo. destruct (get_obj s (o_id o')); apply H.
  - intros j. specialize (H j). pose proof (i_rows _ Hi j) as R. unfold rows_ok in *. change (rows s') with (rows s).
    destruct (get_obj s j) as [o|], (get_obj s' j) as [o'|]; [|destruct H| |exact R].
    + destruct H as [E [_ [_ [P F]]]]. rewrite E. destruct (hasrow (o_st o)); [|exact R].
      destruct R as [w [R1 R2]]. exists w. auto.
    + destruct H as [E _]. rewrite E. exact R.
Qed.

Lemma inv_upd s i f : Inv s -> (forall o, o_id (f o) = o_id o) ->
  (forall o, In o (objs s) -> o_id o = i -> obj_step s o (f o)) ->
  Inv (set_objs s (upd_obj s i f)).
Proof.
  intros Hi Hid Hf. set (g := fun o => if N.eqb (o_id o) i then f o else o).
  assert (Hg : forall o, o_id (g o) = o_id o) by (intros o; unfold g; destruct (N.eqb (o_id o) i); auto).
  apply inv_objs; [exact Hi|unfold upd_obj; rewrite map_map, (map_ext _ _ Hg); apply Hi|].
  intros j. replace (get_obj (set_objs _ _) j) with (option_map g (get_obj s j)) by (symmetry; apply (find_key_map o_id), Hg).
  destruct (get_obj s j) as [o|] eqn:G; [|exact I]. apply get_obj_in in G. simpl. unfold g.
  destruct (N.eqb_spec (o_id o) i); [apply Hf; tauto|apply obj_step_refl; tauto].
Qed.

Lemma get_obj_snoc s n j : get_obj (set_objs s (objs s ++ [n])) j =
  match get_obj s j with Some o => Some o | None => if N.eqb (o_id n) j then Some n else None end.
Proof. exact (find_app _ (objs s) [n]). Qed.

Lemma inv_new s i c v : Inv s -> get_obj s i = None ->
  Inv (set_objs s (objs s ++ [{| o_id := i; o_cls := c; o_st := 1; o_data := v; o_dd := false; o_par := []; o_pd := [] |}])).
Proof.
  intros Hi G. apply inv_objs; [exact Hi| |].
  - rewrite map_app. apply NoDup_app_intro; [apply Hi|repeat constructor; intros []|].
    intros x X [<-|[]]. apply get_obj_none in G. contradiction.
  - intros j. rewrite get_obj_snoc.
    destruct (get_obj s j) as [o|] eqn:Gj; [apply get_obj_in in Gj; apply obj_step_refl; tauto|].
    simpl. destruct (N.eqb i j); [|exact I]. simpl. repeat split; [lia|constructor|contradiction|contradiction].
Qed.

Lemma inv_data s i v : Inv s ->
  Inv (set_objs s (upd_obj s i (fun o => {| o_id := o_id o; o_cls := o_cls o; o_st := o_st o; o_data := v; o_dd := true;
                                             o_par := o_par o; o_pd := o_pd o |}))).
Proof. intros Hi. apply inv_upd; [exact Hi|reflexivity|]. intros o Ho _. destruct (obj_step_refl s o Hi Ho) as [A [B [C [D _]]]].
  repeat (split; [assumption|]). intros w [E [F [_ G]]]. repeat (split; [assumption|]). split; [discriminate|exact G]. Qed.

Lemma inv_del s i : Inv s -> st_of s i = 2 ->
  Inv (set_objs s (upd_obj s i (fun o => {| o_id := o_id o; o_cls := o_cls o; o_st := 3; o_data := o_data o; o_dd := o_dd o;
                                             o_par := o_par o; o_pd := o_pd o |}))).
Proof. intros Hi C. apply inv_upd; [exact Hi|reflexivity|]. intros o Ho <-.
  unfold st_of in C. rewrite (get_obj_nodup s o (i_nodup _ Hi) Ho) in C.
  split; [rewrite C; reflexivity|]. split; [discriminate|]. split; [simpl; lia|]. split; [apply (i_par _ Hi o Ho)|auto]. Qed.

Lemma del_assoc_spec k l (e : N * N) : In e (del_assoc k l) <-> In e l /\ fst e <> k.
Proof. unfold del_assoc. rewrite filter_In, negb_true_iff, N.eqb_neq. reflexivity. Qed.
Lemma set_assoc_spec k v l (e : N * N) : In e (set_assoc k v l) <-> e = (k, v) \/ (In e l /\ fst e <> k).
Proof. rewrite <- del_assoc_spec. simpl. split; (intros [H|H]; [left; symmetry; exact H|right; exact H]). Qed.
Lemma assoc_set_other (k k' v : N) l : k' <> k -> assoc k' (set_assoc k v l) = assoc k' (del_assoc k l).
Proof. intros H. unfold set_assoc. simpl. destruct (N.eqb k k') eqn:E; [apply N.eqb_eq in E; congruence|reflexivity]. Qed.
Lemma assoc_del_other (k k' : N) l : k' <> k -> NoDup (map fst l) -> assoc k' (del_assoc k l) = assoc k' l.
Proof. intros H Hn. unfold del_assoc. rewrite assoc_filter by exact Hn. destruct (assoc k' l); [|reflexivity].
  simpl. rewrite (proj2 (N.eqb_neq _ _) H). reflexivity. Qed.
Lemma nodup_set_assoc k v l : NoDup (map fst l) -> NoDup (map fst (set_assoc k v l)).
Proof. intros H. unfold set_assoc. simpl. constructor; [|apply nodup_filter_keys, H]. rewrite in_map_iff. intros [e [E X]]. apply del_assoc_spec in X. tauto. Qed.

Lemma inv_par s r c (p : option N) : Inv s -> (forall p', p = Some p' -> get_obj s p' <> None) ->
  Inv (set_objs s (upd_obj s c (fun o => {| o_id := o_id o; o_cls := o_cls o; o_st := o_st o; o_data := o_data o; o_dd := o_dd o;
                 o_par := match p with Some p' => set_assoc r p' (o_par o) | None => del_assoc r (o_par o) end;
                 o_pd := r :: o_pd o |}))).
Proof.
  intros Hi Hp. apply inv_upd; [exact Hi|reflexivity|]. intros o Ho _.
  destruct (obj_step_refl s o Hi Ho) as [_ [_ [L [[P1 P2] _]]]].
  set (par' := match p with Some p' => set_assoc r p' (o_par o) | None => del_assoc r (o_par o) end).
  assert (N' : NoDup (map fst par')) by (destruct p; [apply nodup_set_assoc|apply nodup_filter_keys]; exact P1).
  assert (Hin : forall r0 p0, In (r0, p0) par' -> (r0 = r /\ p = Some p0) \/ (In (r0, p0) (o_par o) /\ r0 <> r)).
  { intros r0 p0. unfold par'. destruct p; [rewrite set_assoc_spec|rewrite del_assoc_spec]; simpl; [intros [[= -> ->]|H]|]; auto. }
  assert (Has : forall r', r' <> r -> assoc r' par' = assoc r' (o_par o)).
  { intros r' Hne. unfold par'. destruct p; [rewrite assoc_set_other by exact Hne|]; apply assoc_del_other; assumption. }
  split; [reflexivity|]. split; [auto|]. split; [exact L|]. split; [split; [exact N'|]|].
  - simpl. intros r0 p0 H. destruct (Hin r0 p0 H) as [[-> E]|[H' Hne]].
    + split; [apply Hp, E|]. rewrite N.eqb_refl. discriminate.
    + destruct (P2 _ _ H') as [A B]. split; [exact A|]. intros Hm. apply orb_false_iff in Hm. apply B, Hm.
  - intros w [A [B [C D]]]. repeat (split; [assumption|]). simpl. intros r' Hr'. apply orb_false_iff in Hr' as [H1 H2].
    apply N.eqb_neq in H1. rewrite (D r' H2). unfold fkrow. rewrite !assoc_filter by assumption. rewrite Has by exact H1. reflexivity.
Qed.

Lemma not_in_remove3 x l : ~ In x (filter (fun z => negb (t3eqb x z)) l).
Proof. intros H. apply in_remove3 in H. destruct H as [_ H]. apply H. reflexivity. Qed.
Lemma in_remove_other x y l : x <> y -> In y l <-> In y (filter (fun z => negb (t3eqb x z)) l).
Proof. intros H. split; intros X; [apply in_remove3; auto|apply in_remove3 in X; apply X]. Qed.
Lemma in_cons_other (x y : trip) l : x <> y -> In y l <-> In y (x :: l).
Proof. intros H. split; [right; assumption|intros [E|X]; [contradiction|exact X]]. Qed.

(* A change of the membership of x alone: the clauses of the invariant are pointwise, so only those at x are to be shown. *)
Lemma inv_pairs_at s x p' a' d' : Inv s ->
  (forall y, x <> y -> (In y (pairs s) <-> In y p') /\ (In y (padd s) <-> In y a') /\ (In y (pdel s) <-> In y d')) ->
  (In x (secs s) <-> (In x p' /\ ~ In x a') \/ In x d') -> (In x a' -> In x p') -> (In x d' -> ~ In x p') ->
  Inv {| objs := objs s; pairs := p'; padd := a'; pdel := d'; rows := rows s; secs := secs s |}.
Proof. intros Hi Hy X1 X2 X3.
  constructor; [apply (i_nodup _ Hi)|apply (i_st _ Hi)|apply (i_par _ Hi)|apply (i_rows _ Hi)|..]; intros y;
  (destruct (t3_dec x y) as [<-|Hne]; [assumption|]); destruct (Hy y Hne) as [E1 [E2 E3]]; simpl.
  - split; intros H; [apply (i_s1 _ Hi) in H|apply (i_s1 _ Hi)];
    (destruct H as [[P A]|D]; [left; split; [apply E1, P|intros A'; apply A, E2, A']|right; apply E3, D]).
  - intros H. apply E1, (i_s2 _ Hi), E2, H.
  - intros H H'. apply (i_s3 _ Hi y); [apply E3, H|apply E1, H']. Qed.

Lemma inv_add s x : Inv s -> ~ In x (pairs s) ->
  Inv {| objs := objs s; pairs := x :: pairs s;
         padd := if mem3 x (pdel s) then padd s else x :: padd s;
         pdel := filter (fun y => negb (t3eqb x y)) (pdel s); rows := rows s; secs := secs s |}.
Proof. intros Hi C. assert (A : ~ In x (padd s)) by (intros H; apply C, (i_s2 _ Hi), H).
  apply inv_pairs_at with (x := x); [exact Hi|intros y Hne; split; [|split]|..].
  - apply in_cons_other, Hne.
  - destruct (mem3 x (pdel s)); [reflexivity|apply in_cons_other, Hne].
  - apply in_remove_other, Hne.
  - destruct (mem3 x (pdel s)) eqn:M; [apply mem3_In in M|apply mem3_false in M]; split.
    + (* x was removed since the last flush: its row is still there, and the two changes cancel *)
      intros _. left. split; [left; reflexivity|exact A].
    + intros _. apply (i_s1 _ Hi). right. exact M.
    + intros H. apply (i_s1 _ Hi) in H. destruct H as [[P _]|D]; contradiction.
    + intros [[_ H]|H]; [destruct H; left; reflexivity|destruct (not_in_remove3 _ _ H)].
  - intros _. left. reflexivity.
  - intros H. destruct (not_in_remove3 _ _ H).
Qed.

Lemma inv_rem s x : Inv s -> In x (pairs s) ->
  Inv {| objs := objs s; pairs := filter (fun y => negb (t3eqb x y)) (pairs s);
         padd := filter (fun y => negb (t3eqb x y)) (padd s);
         pdel := if mem3 x (padd s) then pdel s else x :: pdel s; rows := rows s; secs := secs s |}.
Proof. intros Hi C. assert (D : ~ In x (pdel s)) by (intros H; apply (i_s3 _ Hi x H), C).
  apply inv_pairs_at with (x := x); [exact Hi|intros y Hne; split; [|split]|..].
  - apply in_remove_other, Hne.
  - apply in_remove_other, Hne.
  - destruct (mem3 x (padd s)); [reflexivity|apply in_cons_other, Hne].
  - destruct (mem3 x (padd s)) eqn:M; [apply mem3_In in M|apply mem3_false in M]; split.
    + (* x was added since the last flush: it has no row yet, and the two changes cancel *)
      intros H. apply (i_s1 _ Hi) in H. destruct H as [[_ A]|D']; contradiction.
    + intros [[H _]|H]; [destruct (not_in_remove3 _ _ H)|contradiction].
    + intros _. right. left. reflexivity.
    + intros _. apply (i_s1 _ Hi). left. split; assumption.
  - intros H. destruct (not_in_remove3 _ _ H).
  - intros _ H. destruct (not_in_remove3 _ _ H).
Qed.

Lemma live_exists s i : live (st_of s i) = true -> get_obj s i <> None.
Proof. unfold st_of. destruct (get_obj s i); [discriminate|]. simpl. discriminate. Qed.

Lemma inv_step rs s o : Inv s -> Inv (step rs s o).
Proof.
  intros Hi. destruct o as [i c v|i v|r c p|r a b|r a b|i|]; simpl; try exact Hi.
  - destruct (get_obj s i) eqn:G; [exact Hi|apply inv_new; assumption].
  - destruct (live (st_of s i)); [apply inv_data, Hi|exact Hi].
  - destruct (get_rel rs r) as [rr|]; [|exact Hi]. destruct (negb (acyclic_with s c p)); [exact Hi|].
    destruct (_ && _) eqn:C; [|exact Hi]. apply andb_true_iff in C as [_ C].
    apply inv_par; [exact Hi|]. intros p' ->. apply andb_true_iff in C as [C _]. apply live_exists, C.
  - destruct (get_rel rs r) as [rr|]; [|exact Hi]. destruct (_ && _) eqn:C; [|exact Hi].
    apply andb_true_iff in C as [_ C]. apply negb_true_iff, mem3_false in C. apply inv_add; assumption.
  - destruct (_ && _) eqn:C; [|exact Hi]. apply andb_true_iff in C as [C _]. apply andb_true_iff in C as [C _].
    apply mem3_In in C. apply inv_rem; assumption.
  - destruct (_ && _) eqn:C; [|exact Hi]. apply andb_true_iff in C as [C _]. apply N.eqb_eq in C. apply inv_del; assumption.
Qed.

Definition row_equiv (a b : option row) : Prop :=
  match a, b with
  | None, None => True
  | Some w, Some w' => w_cls w = w_cls w' /\ w_data w = w_data w' /\ forall r, assoc r (w_fk w) = assoc r (w_fk w')
  | _, _ => False
  end.

Definition newst (n : N) : N := if N.eqb n 1 then 2 else if N.eqb n 3 then 0 else n.
Definition fobj (o : obj) : obj :=
  {| o_id := o_id o; o_cls := o_cls o; o_st := newst (o_st o); o_data := o_data o; o_dd := false; o_par := o_par o; o_pd := [] |}.

Lemma get_obj_flush s i : get_obj (flush s) i = option_map fobj (get_obj s i).
Proof. apply (find_key_map o_id fobj). reflexivity. Qed.
Lemma st_of_flush s p : st_of (flush s) p = newst (st_of s p).
Proof. unfold st_of. rewrite get_obj_flush. destruct (get_obj s p); reflexivity. Qed.

Lemma st_cases n : n <= 3 -> n = 0 \/ n = 1 \/ n = 2 \/ n = 3.
Proof. lia. Qed.
(* pending and persistent objects end up with a row, the others without; nothing stays pending *)
Lemma newst_spec n : n <= 3 -> live (newst n) = live n /\ hasrow (newst n) = live n /\ newst n <> 1 /\ newst n <= 3.
Proof. intros H. destruct (st_cases n H) as [->|[->|[->| ->]]]; repeat split; discriminate. Qed.

Lemma st_le3 s p : Inv s -> st_of s p <= 3.
Proof. intros Hi. unfold st_of. destruct (get_obj s p) as [o|] eqn:G; [|lia]. apply get_obj_in in G. apply (i_st _ Hi), G. Qed.

Lemma fk_of_flush s par : Inv s -> fk_of (flush s) par = fk_of s par.
Proof. intros Hi. apply filter_ext. intros e. rewrite st_of_flush. apply newst_spec, st_le3, Hi. Qed.
Lemma fkrow_flush s par : Inv s -> fkrow (flush s) par = fk_of s par.
Proof. intros Hi. apply filter_ext. intros e. rewrite st_of_flush. apply newst_spec, st_le3, Hi. Qed.

Definition frow (s : state) (o : obj) : option row :=
  if N.eqb (o_st o) 1 then Some {| w_cls := o_cls o; w_data := o_data o; w_fk := fk_of s (o_par o) |}
  else if N.eqb (o_st o) 2 then match assoc (o_id o) (rows s) with Some w => Some (upd_row s o w) | None => None end
  else None.

Lemma flush_rows_assoc s i : NoDup (map o_id (objs s)) ->
  assoc i (flush_rows s) = match get_obj s i with Some o => frow s o | None => None end.
Proof. intros Hn. unfold flush_rows, get_obj. rewrite <- (assoc_flat_map (objs s) (frow s) i Hn). f_equal.
  apply flat_map_ext. intros o. unfold frow. destruct (N.eqb (o_st o) 1); [reflexivity|].
  destruct (N.eqb (o_st o) 2); [|reflexivity]. destruct (assoc (o_id o) (rows s)); reflexivity. Qed.

Lemma upd_row_fk s o w r : NoDup (map fst (o_par o)) -> NoDup (map fst (w_fk w)) ->
  assoc r (w_fk (upd_row s o w)) =
  if memN r (o_pd o) then assoc r (fk_of s (o_par o))
  else match assoc r (w_fk w) with Some p => if N.eqb (st_of s p) 3 then None else Some p | None => None end.
Proof. intros N1 N2. unfold upd_row. simpl. rewrite assoc_app.
  rewrite (assoc_filter _ r (fk_of s (o_par o))) by (apply nodup_filter_keys, N1).
  rewrite (assoc_filter _ r (w_fk w)) by exact N2. simpl.
  destruct (memN r (o_pd o)); simpl;
  destruct (assoc r (fk_of s (o_par o))); destruct (assoc r (w_fk w)) as [p|]; try reflexivity; destruct (N.eqb (st_of s p) 3); reflexivity. Qed.

Lemma upd_row_nodup s o w : NoDup (map fst (o_par o)) -> NoDup (map fst (w_fk w)) -> NoDup (map fst (w_fk (upd_row s o w))).
Proof. intros N1 N2. unfold upd_row. simpl. rewrite map_app. apply NoDup_app_intro.
  - apply nodup_filter_keys, nodup_filter_keys, N1.
  - apply nodup_filter_keys, N2.
  - (* the first part holds the relationships with history, the second those without *)
    intros k X Y. apply in_map_iff in X as [e [<- X]]. apply in_map_iff in Y as [e' [E Y]].
    apply filter_In in X as [_ X]. apply filter_In in Y as [_ Y]. rewrite E, X in Y. discriminate. Qed.

(* The row that a flush leaves for an object: the INSERT of a pending object writes every attribute; the UPDATE of
   a persistent one writes what has history, and by the invariant the rest of the old row is already current. *)
Lemma flush_row s i : Inv s ->
  match get_obj s i with
  | Some o => if live (o_st o)
              then exists w, assoc i (flush_rows s) = Some w /\ w_cls w = o_cls o /\ w_data w = o_data o /\
                             NoDup (map fst (w_fk w)) /\ forall r, assoc r (w_fk w) = assoc r (fk_of s (o_par o))
              else assoc i (flush_rows s) = None
  | None => assoc i (flush_rows s) = None end.
Proof.
  intros Hi. rewrite (flush_rows_assoc s i (i_nodup _ Hi)). pose proof (i_rows _ Hi i) as R. unfold rows_ok in R.
  destruct (get_obj s i) as [o|] eqn:G; [|reflexivity]. apply get_obj_in in G as [G <-].
  destruct (i_par _ Hi o G) as [P1 P2]. unfold frow, live, hasrow in *.
  destruct (N.eqb (o_st o) 1); simpl.
  { eexists. repeat split. apply nodup_filter_keys, P1. }
  destruct (N.eqb (o_st o) 2); simpl in *; [|reflexivity].
  destruct R as [w [-> [A [B [C D]]]]]. eexists. split; [reflexivity|]. split; [exact A|]. split; [|split].
  - simpl. destruct (o_dd o); auto.
  - apply upd_row_nodup; assumption.
  - intros r. rewrite (upd_row_fk s o w r P1 B). destruct (memN r (o_pd o)) eqn:M; [reflexivity|].
    (* no history: the column holds the parent iff it had a row; such a parent is not pending, so it is live
       unless it is deleted, and then the flush clears the column *)
    rewrite (D r M). unfold fkrow, fk_of. rewrite !assoc_filter by exact P1.
    destruct (assoc r (o_par o)) as [p|] eqn:Ap; [|reflexivity]. destruct (P2 r p (assoc_in _ _ _ Ap)) as [_ Q].
    simpl. unfold hasrow, live.
    destruct (st_cases _ (st_le3 s p Hi)) as [E|[E|[E|E]]]; rewrite E; simpl; rewrite ?E; try reflexivity. destruct (Q M E).
Qed.

Theorem flush_spec s : Inv s ->
  (forall i, row_equiv (assoc i (rows (flush s))) (spec_row (flush s) i)) /\
  (forall x, In x (secs (flush s)) <-> In x (pairs (flush s))).
Proof.
  intros Hi. split.
  - intros i. pose proof (flush_row s i Hi) as R. unfold spec_row. rewrite get_obj_flush. change (rows (flush s)) with (flush_rows s).
    destruct (get_obj s i) as [o|] eqn:G; [|rewrite R; exact I]. apply get_obj_in in G as [G _]. simpl.
    rewrite (proj1 (newst_spec _ (i_st _ Hi o G))). destruct (live (o_st o)); [|rewrite R; exact I].
    destruct R as [w [-> [A [B [_ D]]]]]. simpl. rewrite (fk_of_flush s _ Hi). auto.
  - (* DELETE for the removed members, INSERT for the added ones, both without the members of deleted objects *)
    intros x. simpl. rewrite in_app_iff, !filter_In. split.
    + intros [[X Y]|[X Y]]; [split; [apply (i_s2 _ Hi), X|exact Y]|].
      apply andb_true_iff in Y as [Y1 Y2]. apply negb_true_iff, mem3_false in Y1.
      apply (i_s1 _ Hi) in X as [[X _]|X]; [split; assumption|contradiction].
    + intros [X Y]. destruct (mem3 x (padd s)) eqn:M; [left; split; [apply mem3_In, M|exact Y]|].
      right. apply mem3_false in M. split; [apply (i_s1 _ Hi); left; split; assumption|]. apply andb_true_iff. split; [|exact Y].
      apply negb_true_iff, mem3_false. intros Z. apply (i_s3 _ Hi x Z), X.
Qed.

Lemma inv_flush s : Inv s -> Inv (flush s).
Proof.
  intros Hi. constructor.
  - change (objs (flush s)) with (map fobj (objs s)). rewrite map_map. apply Hi.
  - intros o' Ho. apply in_map_iff in Ho as [o [<- Ho]]. apply newst_spec, Hi, Ho.
  - intros o' Ho. apply in_map_iff in Ho as [o [<- Ho]]. destruct (i_par _ Hi o Ho) as [P1 P2]. split; [exact P1|].
    intros r p Hrp. destruct (P2 r p Hrp) as [A _]. split.
    + rewrite get_obj_flush. destruct (get_obj s p); [discriminate|exact A].
    + intros _. rewrite st_of_flush. apply newst_spec, st_le3, Hi.
  - intros i. pose proof (flush_row s i Hi) as R. unfold rows_ok. rewrite get_obj_flush. change (rows (flush s)) with (flush_rows s).
    destruct (get_obj s i) as [o|] eqn:G; [|exact R]. apply get_obj_in in G as [G _]. simpl.
    rewrite (proj1 (proj2 (newst_spec _ (i_st _ Hi o G)))). destruct (live (o_st o)); [|exact R].
    destruct R as [w [E [A [B [C D]]]]]. exists w. split; [exact E|]. repeat (split; [auto|]).
    intros r _. simpl. rewrite (fkrow_flush s _ Hi). apply D.
  - intros x. rewrite (proj2 (flush_spec s Hi)). simpl. split; [intros H; left; split; [exact H|intros []]|intros [[H _]|[]]; exact H].
  - intros x [].
  - intros x [].
Qed.

Theorem inv_history rs : forall h s, Inv s -> Inv (apply rs s h).
Proof. apply fold_left_inv. intros s o Hi. destruct o; try (apply inv_step, Hi). apply inv_flush, Hi. Qed.

Lemma assoc_rows_of_graph s i : NoDup (map o_id (objs s)) -> assoc i (rows_of_graph s) = spec_row s i.
Proof. intros Hn. unfold rows_of_graph. rewrite (assoc_flat_map (objs s) (fun o => spec_row s (o_id o)) i Hn).
  fold (get_obj s i). destruct (get_obj s i) as [o|] eqn:G; [apply get_obj_in in G as [_ ->]; reflexivity|].
  unfold spec_row. rewrite G. reflexivity. Qed.

(* the database after a flush at the end of ANY operation history is the rows of the object graph *)
Theorem flush_writes_graph_main : forall rs h,
  let s := flush (apply rs empty h) in
  (forall i, row_equiv (assoc i (rows s)) (assoc i (rows_of_graph s))) /\
  (forall x, In x (secs s) <-> In x (pairs s)).
Proof. intros rs h s. pose proof (inv_history rs h empty inv_empty) as Hi. destruct (flush_spec _ Hi) as [F1 F2].
  split; [|exact F2]. intros i. rewrite assoc_rows_of_graph; [apply F1|]. apply (i_nodup _ (inv_flush _ Hi)). Qed.

(* loading the rows of a graph into a fresh session gives that graph back *)
Theorem reload_equiv_main : forall s, NoDup (map o_id (objs s)) -> load (rows_of_graph s) = graph_of s.
Proof. intros s Hn. unfold load, rows_of_graph, graph_of. rewrite !flat_map_concat_map, concat_map, map_map. f_equal.
  apply map_ext_in. intros o Ho. unfold spec_row. rewrite (get_obj_nodup s o Hn Ho). destruct (live (o_st o)); reflexivity. Qed.
