(* C38 - shared by the list, set and dict proofs: counting members and events, the accounting
   invariant [accounted] and its composition through the monad, [agrees], histories ([run_accounted]). *)
From Coq Require Import List ZArith Bool Lia ZifyBool Permutation.
Import ListNotations.
From SAV.base Require Import PySlice PySliceProofs.
From SAV.orm Require Import CollBase.
Open Scope Z_scope.

Ltac inv H := inversion H; subst; clear H.

Lemma countZ_cons : forall x y l, countZ x (y :: l) = (if Z.eqb x y then 1 else 0) + countZ x l.
Proof.
  intros. unfold countZ. cbn [count_occ].
  destruct (Z.eq_dec y x); destruct (Z.eqb_spec x y); try congruence; lia.
Qed.

Lemma countZ_app : forall x l1 l2, countZ x (l1 ++ l2) = countZ x l1 + countZ x l2.
Proof. intros. unfold countZ. rewrite count_occ_app. lia. Qed.

Lemma countZ_nil : forall x, countZ x [] = 0.
Proof. reflexivity. Qed.

Lemma countZ_perm : forall x l1 l2, Permutation l1 l2 -> countZ x l1 = countZ x l2.
Proof.
  intros x l1 l2 H. unfold countZ. f_equal.
  exact (proj1 (Permutation_count_occ Z.eq_dec l1 l2) H x).
Qed.

Lemma countZ_nonneg : forall x l, 0 <= countZ x l.
Proof. intros. unfold countZ. lia. Qed.

Lemma countZ_pos_In : forall x l, 0 < countZ x l <-> In x l.
Proof. intros. unfold countZ. rewrite (count_occ_In Z.eq_dec). lia. Qed.

Lemma mem_In : forall x l, mem x l = true <-> In x l.
Proof. exact memZ_In. Qed.

Lemma mem_false_count : forall x l, mem x l = false -> countZ x l = 0.
Proof.
  intros x l H. pose proof (countZ_nonneg x l). pose proof (countZ_pos_In x l).
  destruct (Z.eq_dec (countZ x l) 0); auto.
  assert (In x l) by (apply H1; lia). apply mem_In in H2. congruence.
Qed.

Lemma net_app : forall x g h, net x (g ++ h) = net x g + net x h.
Proof. induction g; intros; cbn [net app]; [lia|]. rewrite IHg. lia. Qed.

Lemma net_map_rem : forall x l, net x (map ERem l) = - countZ x l.
Proof.
  induction l; cbn [map net ev_delta]; [reflexivity|].
  rewrite countZ_cons, IHl. destruct (x =? a); lia.
Qed.

Lemma net_map_add : forall x l, net x (map EAdd l) = countZ x l.
Proof.
  induction l; cbn [map net ev_delta]; [reflexivity|].
  rewrite countZ_cons, IHl. reflexivity.
Qed.

Section Acct.
Variable S : Type.
Variable members : S -> list item.
Variable Inv : S -> Prop.       (* representation invariant of the contents (NoDup for sets, ...) *)

(* (multiset of members) - (net events): every accounted computation preserves it *)
Definition bal (x : item) (s : st S) : Z := countZ x (members (fst s)) - net x (snd s).

Definition accounted {T} (m : M S T) : Prop :=
  forall s r s', Inv (fst s) -> m s = (r, s') ->
                 Inv (fst s') /\ forall x, bal x s' = bal x s.

(* Firing an append or remove event is never accounted on its own, only together with the change of
   contents: a step that logs the removal of [rs] and the addition of [ad] keeps the balance when
   old members + added = new members + removed.  Each wrapper owes that permutation. *)
Lemma bal_exchange : forall x c g c' rs ad,
  Permutation (ad ++ members c) (rs ++ members c') ->
  bal x (c', g ++ map ERem rs ++ map EAdd ad) = bal x (c, g).
Proof.
  intros x c g c' rs ad P. apply (countZ_perm x) in P. rewrite !countZ_app in P.
  unfold bal. cbn [fst snd]. rewrite !net_app, net_map_rem, net_map_add. lia.
Qed.

Lemma bal_removed : forall x c g c' rs,
  Permutation (members c) (rs ++ members c') -> bal x (c', g ++ map ERem rs) = bal x (c, g).
Proof.
  intros x c g c' rs P. rewrite <- (app_nil_r (map ERem rs)). apply (bal_exchange x c g c' rs []), P.
Qed.

Lemma bal_same : forall x y c g, bal x (c, g ++ [ESame y]) = bal x (c, g).
Proof. intros. unfold bal. cbn [fst snd]. rewrite net_app. cbn [net ev_delta]. lia. Qed.

Lemma accounted_delta : forall T (m : M S T) c g r c' g',
  accounted m -> Inv c -> m (c, g) = (r, (c', g')) ->
  Inv c' /\ forall x, countZ x (members c') - countZ x (members c) = net x g' - net x g.
Proof.
  intros T m c g r c' g' Hm I E. destruct (Hm (c, g) _ _ I E) as [I' B]. split; [exact I'|].
  intro x. specialize (B x). unfold bal in B. cbn [fst snd] in B. lia.
Qed.

Lemma acc_ret : forall T (t : T), accounted (ret t).
Proof. intros T t s r s' I H. inversion H. subst. auto. Qed.

Lemma acc_raise : forall T e, accounted (@raise S T e).
Proof. intros T e s r s' I H. inversion H. subst. auto. Qed.

Lemma acc_get : accounted get.
Proof. intros s r s' I H. inversion H. subst. auto. Qed.

Lemma acc_fire_same : forall y, accounted (fire (ESame y)).
Proof.
  intros y [c g] r s' I H. inversion H. subst. split; [exact I|]. intro x. apply bal_same.
Qed.

Lemma acc_bind : forall T U (m : M S T) (f : T -> M S U),
  accounted m -> (forall t, accounted (f t)) -> accounted (bind m f).
Proof.
  intros T U m f Hm Hf s r s' I H. unfold bind in H.
  destruct (m s) as [[t|e] s1] eqn:E.
  - destruct (Hm _ _ _ I E) as [I1 B1]. destruct (Hf t _ _ _ I1 H) as [I2 B2].
    split; [assumption|]. intro x. rewrite B2. apply B1.
  - inversion H. subst. apply (Hm _ _ _ I E).
Qed.

Lemma acc_then_ret : forall T U (m : M S T) (f : T -> U),
  accounted m -> accounted (t <- m ;; ret (f t)).
Proof. intros. apply acc_bind; [assumption|]. intro. apply acc_ret. Qed.

(* reading the contents first: the continuation may rely on the invariant of what was read *)
Lemma acc_get_bind : forall U (f : S -> M S U),
  (forall c, Inv c -> forall g r s', f c (c, g) = (r, s') ->
             Inv (fst s') /\ forall x, bal x s' = bal x (c, g)) ->
  accounted (bind get f).
Proof.
  intros U f Hf [c g] r s' I H. unfold bind, get in H. cbn [fst snd] in H, I.
  apply (Hf c I g r s' H).
Qed.

Lemma acc_for_each : forall T (xs : list T) (body : T -> M S unit),
  (forall t, accounted (body t)) -> accounted (for_each xs body).
Proof.
  induction xs; intros body Hb; cbn [for_each].
  - apply acc_ret.
  - apply acc_bind; [apply Hb|]. intros _. apply IHxs. assumption.
Qed.

Lemma acc_lift_perm : forall T (f : S -> res (T * S)),
  (forall c t c', Inv c -> f c = Ok (t, c') -> Inv c' /\ Permutation (members c) (members c')) ->
  accounted (lift f).
Proof.
  intros T f Hf [c g] r s' I H. unfold lift in H. cbn [fst snd] in H, I.
  destruct (f c) as [[t c']|e] eqn:E; inversion H; subst; [|auto].
  destruct (Hf _ _ _ I E) as [I' P]. split; [assumption|]. intro x.
  unfold bal. cbn [fst snd]. rewrite (countZ_perm x _ _ P). reflexivity.
Qed.

Lemma acc_lift_ro : forall T (f : S -> res T),
  accounted (lift (fun c => match f c with Ok t => Ok (t, c) | Raise e => Raise e end)).
Proof.
  intros T f. apply acc_lift_perm. intros c t c' I H.
  destruct (f c); inversion H; subst. auto.
Qed.

Lemma for_each_fire_map : forall T (k : T -> ev) (xs : list T) (c : S) (g : list ev),
  for_each xs (fun t => fire (k t)) (c, g) = (Ok tt, (c, g ++ map k xs)).
Proof.
  induction xs; intros; cbn [for_each map].
  - unfold ret. rewrite app_nil_r. reflexivity.
  - unfold bind, fire at 1. cbn [fst snd]. rewrite IHxs. rewrite <- app_assoc. reflexivity.
Qed.

Lemma for_each_fire : forall (es : list ev) (c : S) (g : list ev),
  for_each es (fun e => fire e) (c, g) = (Ok tt, (c, g ++ es)).
Proof. intros. rewrite (for_each_fire_map _ (fun e => e)), map_id. reflexivity. Qed.
End Acct.

Arguments bal {S} members x s.
Arguments accounted {S} members Inv {T} m.

(* same result and same contents as the builtin; the event log is not compared *)
Definition agrees {C} (r : res retv * st C) (p : res retv * C) : Prop :=
  fst r = fst p /\ fst (snd r) = snd p.

(* Each model runs a history by the same recursion over its own step function, and checks a guard
   along it by the same recursion.  [run] and [guarded] are these recursions over any step function:
   convertible with the models' own, so that what is proved here is proved of them. *)
Section Run.
Variables (S O : Type) (members : S -> list item) (Inv : S -> Prop) (step : O -> M S retv).

Fixpoint run (ops : list O) (s : st S) : list (res retv) * st S :=
  match ops with
  | [] => ([], s)
  | op :: r => match step op s with
               | (x, s') => let '(xs, s'') := run r s' in (x :: xs, s'')
               end
  end.

Fixpoint guarded (gd : S -> O -> bool) (ops : list O) (s : st S) : bool :=
  match ops with
  | [] => true
  | op :: r => gd (fst s) op && guarded gd r (snd (step op s))
  end.

Lemma guarded_true : forall ops s, guarded (fun _ _ => true) ops s = true.
Proof. induction ops; intro s; cbn [guarded andb]; auto. Qed.

Theorem run_accounted : forall gd,
  (forall op c g r c' g', gd c op = true -> Inv c -> step op (c, g) = (r, (c', g')) ->
     Inv c' /\ forall x, countZ x (members c') - countZ x (members c) = net x g' - net x g) ->
  forall ops c g, guarded gd ops (c, g) = true -> Inv c ->
  let '(_, (c', g')) := run ops (c, g) in
  Inv c' /\ forall x, countZ x (members c') - countZ x (members c) = net x g' - net x g.
Proof.
  intros gd Hs. induction ops as [|op r IH]; intros c g Hg I; cbn [run]; [split; [assumption|intro; lia]|].
  cbn [guarded fst] in Hg. apply andb_prop in Hg. destruct Hg as [G1 G2].
  destruct (step op (c, g)) as [rv [c1 g1]] eqn:E. cbn [snd] in G2.
  destruct (Hs op c g rv c1 g1 G1 I E) as [I1 A].
  specialize (IH c1 g1 G2 I1). destruct (run r (c1, g1)) as [xs [c2 g2]].
  destruct IH as [I2 B]. split; [assumption|]. intro x. specialize (A x). specialize (B x). lia.
Qed.
End Run.
