(* C31 - the layers respect paths ([fpath_rank]), the needs are covered by paths ([needs_covered]), sequences
   that meet the needs execute ([exec_ok]): every sequence the plan allows executes *)
From Coq Require Import List NArith Bool Lia Permutation Sorted.
Import ListNotations.
From SAV.orm Require Import FlushOrder FlushOrderSpec FlushOrderBase FlushOrderSort FlushOrderCovered FlushOrderExec.
Local Open Scope N_scope.

(* the statements of a flush, layer by layer: every order inside a layer, every attribution of a
   secondary-row statement to one of the processors that may emit it *)
Definition linearizes (layers : list (list N)) (g : graph) (cy : list N) (tr : list ev) : Prop :=
  Permutation tr (events g) /\
  exists rank : ev -> nat,
    (forall e, In e tr -> exists h, In h (homes g cy e) /\ lidx layers (code h) = Some (rank e)) /\
    StronglySorted (fun a b => (rank a <= rank b)%nat) tr.

Lemma NoDup_app_intro {A} (l1 l2 : list A) : NoDup l1 -> NoDup l2 -> (forall x, In x l1 -> In x l2 -> False) -> NoDup (l1 ++ l2).
Proof. induction l1 as [|a l1 IH]; simpl; intros H1 H2 Hd; [exact H2|]. inversion H1; subst. constructor.
  - intros X. apply in_app_or in X. destruct X as [X|X]; [contradiction|]. apply (Hd a); [left; reflexivity|exact X].
  - apply IH; [assumption|assumption|]. intros x X1 X2. apply (Hd x); [right; exact X1|exact X2]. Qed.

Lemma NoDup_map_inj {A B} (f : A -> B) l : (forall x y, f x = f y -> x = y) -> NoDup l -> NoDup (map f l).
Proof. intros Hf. induction 1 as [|a l Hn _ IH]; simpl; constructor; [|exact IH].
  intros X. apply in_map_iff in X. destruct X as [y [E Hy]]. apply Hf in E. subst. contradiction. Qed.

Lemma NoDup_ids_with g f : NoDup (map s_id (g_sts g)) -> NoDup (ids_with g f).
Proof. unfold ids_with. induction (g_sts g) as [|a l IH]; simpl; intros H; [constructor|]. inversion H; subst.
  destruct (f a); simpl; [constructor|]; try (apply IH; assumption).
  intros X. apply in_map_iff in X. destruct X as [y [E Hy]]. apply filter_In in Hy. apply H2. rewrite <- E. apply in_map. tauto. Qed.

Lemma events_nodup g : wf g = true -> NoDup (events g).
Proof. intros Hwf. destruct (wf_parts g Hwf) as [W1 [_ [_ [_ [W5 [W6 _]]]]]]. unfold events.
  repeat (apply NoDup_app_intro);
  try (apply NoDup_map_inj; [intros x y E; inversion E; reflexivity|]);
  try (apply NoDup_ids_with; exact W1); try (apply NoDup_filter; assumption);
  intros x X1 X2; repeat (apply in_app_or in X2; destruct X2 as [X2|X2]);
  apply in_map_iff in X1; destruct X1 as [a [E1 _]]; apply in_map_iff in X2; destruct X2 as [b [E2 _]]; congruence. Qed.

Lemma needs_first_event g cy : wf g = true -> consistent g = true -> managed g cy = true ->
  forall e1 e2, In (e1, e2) (needs g) -> In e1 (events g).
Proof.
  intros Hwf Hcons Hm e1 e2 Hn.
  assert (ID : forall f s, role_of g s <> 0 -> (forall x, s_role x = role_of g s -> s_id x = s -> f x = true) -> In s (ids_with g f)).
  { intros f s R F. apply (ids_with_spec g Hwf). destruct (role_nonzero g s R) as [x [X0 [_ [X2 [X3 _]]]]]. exists x. auto. }
  assert (SV : forall s, role_of g s = 1 -> In (ESave s) (events g)).
  { intros s R. apply in_events, ID; [rewrite R; discriminate|]. intros x E _. rewrite E, R. reflexivity. }
  assert (DL : forall s, role_of g s = 2 -> In (EDel s) (events g)).
  { intros s R. apply in_events, ID; [rewrite R; discriminate|]. intros x E _. rewrite E, R. reflexivity. }
  assert (PS : forall s, role_of g s <> 0 -> has_post g s = true -> In (EPost s) (events g)).
  { intros s R H. apply in_events, ID; [exact R|]. intros x E1 E2. unfold in_uow. rewrite E1, E2, H, andb_true_r.
    apply negb_true_iff, N.eqb_neq, R. }
  unfold managed in Hm. apply andb_true_iff in Hm. destruct Hm as [Hm _]. apply andb_true_iff in Hm. destruct Hm as [_ M0].
  rewrite forallb_forall in M0.
  unfold needs in Hn. repeat (apply in_app_or in Hn; destruct Hn as [Hn|Hn]); apply in_flat_map in Hn; destruct Hn as [x [Hx Hn]];
    [destruct x as [[s c] t]|destruct x as [[s c] t]|rename x into s| |].
  - unfold needs_ref1 in Hn. cbn [fst snd] in Hn. destruct (N.eqb (role_of g s) 1) eqn:Rs; [apply N.eqb_eq in Rs|contradiction].
    destruct (postcol g c); [apply in_app_or in Hn; destruct Hn as [Hn|Hn]|]; apply in_one in Hn; destruct Hn as [P E];
      inversion E; apply SV; [exact Rs|apply pending_role, P|]. apply andb_true_iff in P. apply pending_role, P.
  - specialize (M0 _ Hx). unfold needs_ref0 in Hn. unfold mg_ref0 in M0. cbn [fst snd] in Hn, M0.
    destruct (N.eqb (role_of g t) 2 && _) eqn:Rt; [|contradiction]. apply andb_true_iff in Rt. destruct Rt as [Rt _].
    destruct (postcol g c) eqn:Pc; [|destruct (N.eqb (role_of g s) 2) eqn:Rs]; destruct Hn as [E|[]]; inversion E.
    + (* the post_update column of s changes: its referenced row goes away *)
      apply andb_true_iff in M0. destruct M0 as [Rs _]. apply N.eqb_eq in Rs.
      apply PS; [rewrite Rs; discriminate|]. unfold has_post, post_sets.
      assert (Hc : In c (filter (fun c0 => postcol g c0 && negb (opt_eqb (ref_get (g_ref0 g) s c0) (fin g s c0))) (cols_of g s))).
      { apply filter_In. split; [apply (cols_of_spec g); exists t; apply in_or_app; left; exact Hx|]. rewrite Pc. simpl.
        destruct (wf_parts g Hwf) as [_ [_ [W3 _]]]. rewrite (functional_get _ _ _ _ W3 Hx). unfold fin. rewrite Rs. simpl.
        rewrite (functional_get _ _ _ _ W3 Hx). rewrite Rt, orb_true_r. reflexivity. }
      destruct (filter _ (cols_of g s)); [contradiction|reflexivity].
    + apply DL, N.eqb_eq, Rs.
    + apply andb_true_iff in M0. destruct M0 as [R1 _]. apply SV, N.eqb_eq, R1.
  - apply in_one in Hn. destruct Hn as [R E]. inversion E. apply andb_true_iff in R. destruct R as [R H]. apply N.eqb_eq in R.
    apply PS; [rewrite R; discriminate|exact H].
  - apply in_app_or in Hn. destruct Hn as [Hn|Hn]; apply in_one in Hn; destruct Hn as [P E]; inversion E; apply SV, pending_role, P.
  - assert (E : e1 = ESecDel x) by (apply in_app_or in Hn; destruct Hn as [Hn|Hn]; apply in_one in Hn; destruct Hn as [_ E]; inversion E; reflexivity).
    subst e1. apply in_events. rewrite filter_In, negb_true_iff in Hx. exact Hx.
Qed.

Lemma sorted_before (rank : ev -> nat) tr e1 e2 : StronglySorted (fun a b => (rank a <= rank b)%nat) tr ->
  In e1 tr -> In e2 tr -> (rank e1 < rank e2)%nat -> before tr e1 e2.
Proof. induction 1 as [|a l Hs IH Hf]; intros H1 H2 Hlt; [contradiction|]. rewrite Forall_forall in Hf.
  destruct H2 as [->|H2].
  - exfalso. destruct H1 as [->|H1]; [lia|]. specialize (Hf _ H1). lia.
  - destruct H1 as [->|H1].
    + apply in_split in H2. destruct H2 as [l1 [l2 ->]]. exists (e1 :: l1), l2. split; [reflexivity|left; reflexivity].
    + destruct (IH H1 H2 Hlt) as [l1 [l2 [-> Hi]]]. exists (a :: l1), l2. split; [reflexivity|right; exact Hi]. Qed.

Theorem plan_respects_fk_guarded_main : forall g cy layers tr,
  wf g = true -> consistent g = true ->
  cycles std_tables g = Some cy -> cyc_ok g cy = true -> managed g cy = true ->
  plan std_tables g = Layers layers -> linearizes layers g cy tr ->
  exists d', exec (g_notnull g) (db0 g) (map (stmt_of g) tr) = Some d'.
Proof.
  intros g cy layers tr Hwf Hcons Hcy Hok Hm Hplan [Hperm [rank [Hrank Hsort]]].
  destruct (plan_inv _ _ _ Hplan) as [cy' [Hcy' [_ Hs]]]. rewrite Hcy in Hcy'. inversion Hcy'; subst cy'.
  assert (Hnd : NoDup tr) by (eapply Permutation_NoDup; [apply Permutation_sym, Hperm|apply events_nodup, Hwf]).
  assert (Hev : incl tr (events g)) by (intros x Hx; eapply Permutation_in; eassumption).
  destruct (exec_ok g Hwf Hcons tr Hnd Hev) as [d' [E _]]; [|exists d'; exact E].
  intros e1 e2 Hn H2.
  assert (H1 : In e1 tr).
  { eapply Permutation_in; [apply Permutation_sym, Hperm|]. eapply needs_first_event; eassumption. }
  apply (sorted_before rank); try assumption.
  destruct (Hrank _ H1) as [h1 [Hh1 L1]]. destruct (Hrank _ H2) as [h2 [Hh2 L2]].
  pose proof (needs_covered g cy Hwf Hok Hm Hcons e1 e2 Hn h1 h2 Hh1 Hh2) as Hp.
  destruct (fpath_rank std_tables g cy layers Hs h1 h2 Hp) as [i [j [A [B C]]]].
  rewrite L1 in A. rewrite L2 in B. inversion A; inversion B; subst. exact C.
Qed.
