(* C35 - concrete histories, evaluated: those on which the faithful model (and the implementation) leaves the
   documented machine, and two that stay inside the guard ([h_delete_rollback], [h_good]) *)
From Coq Require Import List ZArith Bool Arith.
Import ListNotations.
From SAV.orm Require Import Lifecycle LifecycleSpec LifecycleLemmas.
Open Scope Z_scope.

(* an environment: the rows visible, and (for every object) expired? / pk expired? / pk loaded? *)
Definition env_of (rws : list Z) (expired : bool) : env :=
  mkEnv rws false (fun _ => expired) (fun _ => expired) (fun _ => true).
Definition quiet_env (rws : list Z) : env := env_of rws false.

Lemma not_wf : forall l, wfb l = false -> ~ wf l.
Proof. intros l H Hw. apply wfb_complete in Hw. congruence. Qed.

(* s.add(o); s.commit(); s.delete(o); s.rollback()   - inside the guard, no event: o never leaves persistent
   (the implementation fired deleted_to_persistent here until /repo 93a87c1) *)
Definition h_delete_rollback : list (env * op) :=
  [(quiet_env [], Add 0); (quiet_env [], Commit); (quiet_env [1], Delete 0); (quiet_env [1], Rollback)].
Lemma delete_rollback_log : slog (run h_delete_rollback (init true [1])) =
  [Chg 0 Transient Pending; Ev 0 T2P Pending; Chg 0 Pending Persistent; Ev 0 P2S Persistent].
Proof. vm_compute. reflexivity. Qed.
Lemma delete_rollback_guarded : guarded h_delete_rollback (init true [1]) = true.
Proof. vm_compute. reflexivity. Qed.

(* s.add(o); s.flush(); s.expunge(o); s.rollback()   - detached -> transient announced as persistent_to_transient *)
Definition h_expunge_rollback : list (env * op) :=
  [(quiet_env [], Add 0); (quiet_env [], Flush); (quiet_env [1], Expunge 0); (quiet_env [1], Rollback)].
Lemma expunge_rollback_not_wf : ~ wf (slog (run h_expunge_rollback (init true [1]))).
Proof. apply not_wf. vm_compute. reflexivity. Qed.

(* s.add(o); s.flush(); s.delete(o); s.flush(); s.rollback()   - deleted -> transient, announced as deleted_to_detached *)
Definition h_flush_delete_rollback : list (env * op) :=
  [(quiet_env [], Add 0); (quiet_env [], Flush); (quiet_env [1], Delete 0); (quiet_env [1], Flush); (quiet_env [], Rollback)].
Lemma flush_delete_rollback_undocumented :
  In (Chg 0 Deleted Transient) (slog (run h_flush_delete_rollback (init true [1]))) /\
  forall e, documented Deleted Transient e = false.
Proof. split; [vm_compute; tauto|]. intros [[]|]; reflexivity. Qed.

(* ... s.delete(o); s.flush(); s.delete(o); s.flush()   - persistent_to_deleted twice *)
Definition h_redelete : list (env * op) :=
  [(quiet_env [], Add 0); (quiet_env [], Commit); (quiet_env [1], Delete 0); (quiet_env [1], Flush);
   (quiet_env [], Delete 0); (quiet_env [], Flush)].
Lemma redelete_not_wf : ~ wf (slog (run h_redelete (init true [1]))).
Proof. apply not_wf. vm_compute. reflexivity. Qed.

(* ... s.delete(o); s.commit(); s.delete(o)   - a detached, once deleted object is re-attached straight into
   "deleted" and announced as detached_to_persistent *)
Definition h_delete_was_deleted : list (env * op) :=
  [(quiet_env [], Add 0); (quiet_env [], Commit); (quiet_env [1], Delete 0); (quiet_env [1], Commit);
   (quiet_env [], Delete 0)].
Lemma delete_was_deleted_not_wf : ~ wf (slog (run h_delete_was_deleted (init true [1]))).
Proof. apply not_wf. vm_compute. reflexivity. Qed.

(* a persistent, expired object whose row has vanished is marked deleted, a pending object with the same
   primary key is flushed: was_already_deleted() and the flush itself both announce persistent_to_deleted *)
Definition h_was_already_deleted : list (env * op) :=
  [(quiet_env [], MakeTransientToDetached 0); (quiet_env [], Add 0); (quiet_env [], Commit);
   (env_of [] true, Delete 0); (env_of [] true, Add 1); (env_of [] true, Flush)].
Lemma was_already_deleted_not_wf : ~ wf (slog (run h_was_already_deleted (init true [1; 1]))).
Proof. apply not_wf. vm_compute. reflexivity. Qed.

(* a flush fails (the row exists), the session is used again, then rolled back: the snapshot is
   restored a second time and pending_to_transient fires for an object that is already transient *)
Definition h_second_restore : list (env * op) :=
  [(quiet_env [], Add 0); (quiet_env [], Flush); (quiet_env [1], Add 1); (quiet_env [1; 2], Flush);
   (quiet_env [2], Add 1); (quiet_env [2], Rollback)].
Lemma second_restore_not_wf : ~ wf (slog (run h_second_restore (init true [1; 2]))).
Proof. apply not_wf. vm_compute. reflexivity. Qed.

(* a guarded history through every operation *)
Definition h_good : list (env * op) :=
  [(quiet_env [2], Add 0); (quiet_env [2], Flush); (quiet_env [1; 2], Commit);
   (quiet_env [1; 2], Delete 0); (quiet_env [1; 2], Flush); (quiet_env [2], Rollback);
   (quiet_env [1; 2], Merge 1); (quiet_env [1; 2], Expunge 0); (quiet_env [1; 2], MakeTransient 0);
   (quiet_env [1; 2], MakeTransientToDetached 0); (quiet_env [1; 2], Add 0); (quiet_env [1; 2], Delete 0);
   (quiet_env [1; 2], Commit); (quiet_env [2], Add 1); (quiet_env [2], Close)].
Lemma good_guarded : guarded h_good (init true [1; 2]) = true /\
  length (slog (run h_good (init true [1; 2]))) = 26%nat.
Proof. vm_compute. split; reflexivity. Qed.
