(* C35 - Session.flush under its guard *)
From Coq Require Import List ZArith Bool Arith Lia.
Import ListNotations.
From SAV.orm Require Import Lifecycle LifecycleSpec LifecycleLemmas LifecycleInv LifecycleRestore.
Open Scope Z_scope.

(* during a flush, relative to the sets taken at its start: dk = "was in session._deleted",
   nk = "was in session._new" *)
Definition flushingb (o : obj) (dk nk : bool) : bool :=
  objinvb (Some false) o && implb dk (isdel o) && implb (isdel o) dk && implb nk (inew o).
(* after _remove_newly_deleted nothing is left in session._deleted *)
Definition purgedb (o : obj) : bool := objinvb (Some false) o && negb (isdel o).

Lemma holder_from_some : forall k l n ex, holder_from k n l = Some ex ->
  (n <= ex)%nat /\ iimap (nth (ex - n) l dflt) = true.
Proof.
  induction l as [|a l IH]; simpl; intros n ex H; [discriminate|].
  destruct (iimap a && Z.eqb (pk a) k) eqn:E.
  - inversion H; subst. rewrite Nat.sub_diag. apply andb_prop in E as [E _]. auto.
  - apply IH in H as [H1 H2]. split; [lia|]. replace (ex - n)%nat with (S (ex - S n)) by lia. exact H2.
Qed.
Lemma holder_some : forall k st ex, holder k st = Some ex -> iimap (get st ex) = true.
Proof. intros k st ex H. apply holder_from_some in H as [_ H]. rewrite Nat.sub_0_r in H. exact H. Qed.

Lemma flushingb_objinv : forall o dk nk, flushingb o dk nk = true -> objinvb (Some false) o = true.
Proof. intros o dk nk H. unfold flushingb in H. do 3 (apply andb_prop in H as [H _]). exact H. Qed.

(* uowtransaction.was_already_deleted(): a persistent object in the identity map, not marked for
   deletion, moves to "deleted" *)
Lemma newly_deleted_ok : forall dk nk o, flushingb o dk nk = true -> iimap o = true -> isdel o = false ->
  flushingb (fst (newly_deleted_obj true o)) dk nk = true /\ wfob (snd (newly_deleted_obj true o)) = true.
Proof.
  intros dk nk o P M S. pose proof (flushingb_objinv _ _ _ P) as H.
  by_state H; destruct dk, nk, td; try discriminate; split; reflexivity.
Qed.

Lemma organize_fst : forall e d st p r, fst (organize e d st (p :: r)) =
  if inew (get st p) then fst (organize e d (fst (organize_one e d st p)) r) else fst (organize e d st r).
Proof. intros. simpl. destruct (inew (get st p)); auto. destruct (organize_one e d st p).
  simpl. destruct (organize e d s r). reflexivity. Qed.

Lemma organize_one_inv : forall e (d0 n0 : nat -> bool) st p,
  InvP (Some false) (fun k o => flushingb o (d0 k) (n0 k)) st ->
  match holder (pk (get st p)) st with
  | Some ex => negb (eexp e ex && negb (memz (pk (get st p)) (rows e)) && isdel (get st ex))
  | None => true
  end = true ->
  InvP (Some false) (fun k o => flushingb o (d0 k) (n0 k)) (fst (organize_one e d0 st p)).
Proof.
  intros e d0 n0 st p HP Hg. unfold organize_one, has_tx. rewrite (InvP_tx _ _ _ HP).
  destruct (holder (pk (get st p)) st) as [ex|] eqn:Eh; simpl; auto.
  destruct (eexp e ex && negb (memz (pk (get st p)) (rows e))) eqn:Ew; simpl; auto.
  simpl in Hg. apply negb_true_iff in Hg.
  apply only_spec; auto. intro P. apply newly_deleted_ok; auto. apply (holder_some _ _ _ Eh).
Qed.

Lemma organize_inv : forall e (d0 n0 : nat -> bool) ps st,
  InvP (Some false) (fun k o => flushingb o (d0 k) (n0 k)) st -> organize_ok e d0 st ps = true ->
  InvP (Some false) (fun k o => flushingb o (d0 k) (n0 k)) (fst (organize e d0 st ps)).
Proof.
  induction ps as [|p r IH]; intros st HP Hg; [exact HP|].
  rewrite organize_fst. simpl in Hg.
  destruct (inew (get st p)); [|apply IH; auto].
  apply andb_prop in Hg as [G1 G2]. apply IH; auto. apply organize_one_inv; auto.
Qed.

(* finalize_flush_changes, first half: _remove_newly_deleted for what was in session._deleted *)
Lemma finalize_passA_ok : forall (dk nk : bool) o, flushingb o dk nk = true ->
  let f := if dk then newly_deleted_obj true o else (o, []) in
  purgedb (fst f) && implb nk (inew (fst f)) = true /\ wfob (snd f) = true.
Proof.
  intros dk nk o P. pose proof (flushingb_objinv _ _ _ P) as H.
  by_state H; try destruct n; try destruct sd; try destruct d; destruct dk, nk, td;
    try discriminate; split; reflexivity.
Qed.

Lemma purgedb_evict : forall o, purgedb o = true -> purgedb (set_iimap false o) = true.
Proof.
  intros o H. apply andb_prop in H as [H S]. apply andb_true_intro. split; [|exact S].
  apply evict_ok; [exact H|]. apply negb_true_iff, S.
Qed.

(* _register_persistent: a pending object gets its key and enters the identity map *)
Lemma register_obj_ok : forall o, purgedb o = true -> inew o = true ->
  purgedb (fst (register_obj true o)) = true /\ wfob (snd (register_obj true o)) = true.
Proof.
  intros o P N. apply andb_prop in P as [H S].
  by_state H; destruct td; try discriminate (Ht eq_refl); split; reflexivity.
Qed.

Lemma register_fold : forall (n0 : nat -> bool) l st, NoDup l ->
  InvP (Some false) (todo l purgedb (fun k o => implb (n0 k) (inew o)) (fun _ => true)) st ->
  InvP (Some false) (fun _ => purgedb) (fold_left (fun st i => if n0 i then register_one st i else st) l st).
Proof.
  induction l as [|i r IH]; intros st Hnd HP; simpl.
  - apply (InvP_weaken _ _ _ _ HP). intros k o H. apply andb_prop in H as [H _]. exact H.
  - inversion Hnd as [|? ? Hni Hnd']; subst. apply IH; auto. destruct (n0 i) eqn:En.
    + unfold register_one, has_tx. rewrite (InvP_tx _ _ _ HP). apply todo_step; auto.
      * rewrite En. intro H. apply andb_prop in H as [H1 H2].
        destruct (register_obj_ok _ H1 H2) as [R1 R2]. rewrite R1. auto.
      * intros k o H. apply andb_prop in H as [H1 H2]. apply andb_true_intro.
        split; [apply purgedb_evict, H1|exact H2].
    + apply (todo_skip _ _ _ _ i r st Hni HP). reflexivity.
Qed.

Lemma finalize_inv : forall st0 st,
  InvP (Some false) (fun k o => flushingb o (isdel (get st0 k)) (inew (get st0 k))) st ->
  InvP (Some false) (fun _ => objinvb (Some false)) (finalize st0 st).
Proof.
  intros st0 st HP. unfold finalize, has_tx. rewrite (InvP_tx _ _ _ HP).
  apply (InvP_weaken _ (fun _ => purgedb)); [|intros k o H; apply andb_prop in H as [H _]; exact H].
  apply register_fold; [apply seq_NoDup|].
  apply (InvP_weaken _ (fun k o => purgedb o && implb (inew (get st0 k)) (inew o))).
  - apply (pass_spec _ _ _ _ st HP). intros k o _ Hp. apply finalize_passA_ok, Hp.
  - intros k o H. apply andb_prop in H as [H1 H2]. unfold todo. rewrite H1, H2.
    destruct (memn k (all_idx st0)); reflexivity.
Qed.

Lemma flush_start_ok : forall o, objinvb (Some false) o = true -> flushingb o (isdel o) (inew o) = true.
Proof. intros o H. unfold flushingb. rewrite H. destruct (isdel o), (inew o); reflexivity. Qed.

Lemma is_deact_false_tx : forall st, has_tx st = true -> is_deact st = false -> tx st = Some false.
Proof. intros st. unfold has_tx, is_deact. destruct (tx st) as [[]|]; auto; discriminate. Qed.

Lemma flush_db_fail : forall e st0 rsw c, flush_db e st0 rsw = DbFail c -> c <> 0.
Proof. intros e st0 rsw c. unfold flush_db. destruct (do_inserts _ _ _ _); [|intro H; inversion H; lia].
  destruct (do_deletes _ _ _ _ _); intro H; inversion H; lia. Qed.

(* under its guard a flush keeps the invariant, and one that does not raise leaves the transaction as active as it was *)
Lemma flush_inv : forall e st, Inv st -> flush_guard e st = true ->
  Inv (fst (fst (flush e st))) /\
  (snd (fst (flush e st)) = 0 -> is_deact (fst (fst (flush e st))) = is_deact st).
Proof.
  intros e st HI G. unfold flush. unfold flush_guard in G.
  destruct (is_clean st (emod e)); [auto|].
  rewrite <- (autobegin_deact st). set (st0 := autobegin st) in *.
  pose proof (autobegin_inv st HI) as HI0. fold st0 in HI0.
  destruct (is_deact st0) eqn:Ed; [split; [exact HI0|discriminate]|].
  assert (Htx0 : tx st0 = Some false) by (apply is_deact_false_tx; auto; apply autobegin_has_tx).
  apply andb_prop in G as [G1 G2].
  assert (HP0 : InvP (Some false) (fun k o => flushingb o (isdel (get st0 k)) (inew (get st0 k))) st0).
  { destruct HI0 as [H1 H2]. repeat split; auto. intros k o Hk. rewrite (get_nth _ _ _ Hk).
    apply flush_start_ok. rewrite <- Htx0. apply (H1 k o Hk). }
  pose proof (organize_inv e _ _ (all_idx st0) st0 HP0 G1) as HP1.
  destruct (organize e (fun d => isdel (get st0 d)) st0 (all_idx st0)) as [st1 rsw]. simpl in HP1.
  destruct (flush_db e st0 rsw) eqn:Ef.
  - apply finalize_inv in HP1. split; [exact (InvP_Inv _ _ HP1)|].
    intros _. simpl. unfold is_deact. rewrite (InvP_tx _ _ _ HP1). reflexivity.
  - apply flush_db_fail in Ef.
    assert (HPd : InvP (Some true) (fun _ => objinvb (Some true)) (set_tx (Some true) st1)).
    { apply (InvP_set_tx (Some false)), (InvP_weaken _ _ _ _ HP1). intros k o H.
      eapply objinv_deact, flushingb_objinv, H. }
    apply restore_inv in HPd; [|exact G2].
    destruct (restore_snapshot (set_tx (Some true) st1)) as [st2 c2]. simpl in *.
    split; [exact (InvP_Inv _ _ HPd)|]. destruct (Z.eqb_spec c2 0); congruence.
Qed.
