(* C41: refutation witnesses and corollaries *)
From Coq Require Import List ZArith Bool Arith.
Import ListNotations.
From SAV.sql Require Import Val3.
From SAV.orm Require Import Query QueryCrit QueryShapes QueryAsm.

(* ~P.children.contains(c) for a child c without parent: compiled to  NOT (p.id = NULL)  -> no row;
   the relational meaning (c is in no collection) selects every parent *)
Definition wit_db1 : db := {| ps := [ {| p_id := 4; p_x := Some 3%Z |} ];
                              cs := [ {| c_id := 7; c_pid := None; c_y := Some 0%Z; c_kind := 0 |} ]; ns := []; pn := [] |}.
Definition wit_q1 : oq := QP (PNot (PContains 7)).

Lemma core_meaning_refuted : exists d q,
  core_exec d (orm_to_core d q) = [] /\ meaning d q = [[Some 4%Z]] /\ query_ok d q = false.
Proof. exists wit_db1, wit_q1. repeat split; vm_compute; reflexivity. Qed.

(* legacy Query: three joined rows (7,0) (7,2) (7,2) -> all() returns two, count() says three *)
Definition wit_db2 : db :=
  {| ps := [ {| p_id := 7; p_x := Some 0%Z |} ];
     cs := [ {| c_id := 7; c_pid := Some 7%Z; c_y := Some 0%Z; c_kind := 1 |};
             {| c_id := 9; c_pid := Some 7%Z; c_y := Some 2%Z; c_kind := 1 |};
             {| c_id := 2; c_pid := Some 7%Z; c_y := Some 2%Z; c_kind := 0 |} ]; ns := []; pn := [] |}.
Definition wit_q2 : oq := QJoinPC false TgAlias STrue STrue EntCol.

Lemma count_agree_legacy_refuted : exists d q,
  orm_count d q = 3 /\ length (orm_exec d q true) = 2 /\ length (core_exec d (orm_to_core d q)) = 3.
Proof. exists wit_db2, wit_q2. repeat split; vm_compute; reflexivity. Qed.

(* any() / has() are two-valued EXISTS tests over the related rows; a NULL foreign key relates to nothing *)
Theorem any_has_semantics : forall d,
  (forall e pa p s, lookup e pa = grow_p p -> pa <> sub_alias ->
     beval d e (tr_pcrit d pa (PAny s)) =
     tv_of_bool (existsb (fun c => child_of c p && is_true (sxeval s (c_y c))) (cs d))) /\
  (forall e pa p s, lookup e pa = grow_p p -> pa <> sub_alias ->
     beval d e (tr_pcrit d pa (PAnySub s)) =
     tv_of_bool (existsb (fun c => child_of c p && (is_sub c && is_true (sxeval s (c_y c)))) (cs d))) /\
  (forall e ca c s, lookup e ca = grow_c c -> ca <> sub_alias ->
     beval d e (tr_ccrit ca (CHas s)) =
     tv_of_bool (existsb (fun p => child_of c p && is_true (sxeval s (p_x p))) (ps d))) /\
  (forall c p, c_pid c = None -> child_of c p = false).
Proof.
  intros d. split; [exact (any_semantics d)|]. split; [exact (any_sub_semantics d)|].
  split; [exact (has_semantics d)|]. intros c p H. unfold child_of. rewrite H. reflexivity.
Qed.

(* legacy Query.union(..).offset(1).exists(), the case /repo 2942091 repaired (the test was made on a cartesian product
   union x p): the union has one row, the query returns none, count() is 0 and exists() is false *)
Definition wit_db3 : db := {| ps := [ {| p_id := 1; p_x := Some 1%Z |}; {| p_id := 2; p_x := Some 5%Z |} ]; cs := []; ns := []; pn := [] |}.
Definition wit_q3 : oq := QUnion (PS (SCmp OEq 1)) (PS (SCmp OEq 1)).
