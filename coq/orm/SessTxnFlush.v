(* C33, C32 - the body of Session._flush (organize, the statements with the crash oracle, finalize_flush_changes)
   under the invariant of the innermost frame.  Main theorem flush_body_spec: a run to the end re-establishes
   objects, rows and the frame's record (FlushDone); a run stopped by a failing statement has only loaded (SigL). *)
From Coq Require Import List ZArith Bool Arith Lia Permutation.
Import ListNotations.
From SAV.orm Require Import SessTxn SessTxnBase SessTxnInv SessTxnOps SessTxnRestore SessTxnStmts.
Open Scope nat_scope.

(* everything a flush leaves alone once the connection is there *)
Definition same_env (s t : sess) : Prop :=
  nobj s = nobj t /\ work s = work t /\ committed s = committed t /\ saves s = saves t /\
  nfid s = nfid t /\ eoc s = eoc t /\ handles s = handles t.
Lemma same_env_refl : forall s, same_env s s.
Proof. intros; repeat split. Qed.
Lemma same_env_trans : forall a b c, same_env a b -> same_env b c -> same_env a c.
Proof. unfold same_env. intros a b c H1 H2. intuition congruence. Qed.

Lemma insert_by_perm : forall st o l, Permutation (insert_by st o l) (o :: l).
Proof.
  intros st o l. induction l as [|x r IH]; cbn; auto.
  destruct (Z.leb (keyZ st o) (keyZ st x)); auto.
  eapply perm_trans; [apply perm_skip; exact IH|apply perm_swap].
Qed.
Lemma sort_by_key_perm : forall st l, Permutation (sort_by_key st l) l.
Proof.
  intros st l. unfold sort_by_key. induction l as [|x r IH]; cbn; auto.
  eapply perm_trans; [apply insert_by_perm|apply perm_skip; exact IH].
Qed.
Lemma sort_by_key_in : forall st l x, In x (sort_by_key st l) <-> In x l.
Proof.
  intros. split; apply Permutation_in; [|apply Permutation_sym]; apply sort_by_key_perm.
Qed.

Lemma stmts_of_in : forall st new dirty deleted a, In a (stmts_of st new dirty deleted) <->
  match a with SUpd o => In o dirty | SIns o => In o new | SDel o => In o deleted end.
Proof.
  intros st new dirty deleted a. unfold stmts_of. rewrite !in_app_iff, !in_map_iff. split.
  - intros [[y [<- H]]|[[y [<- H]]|[y [<- H]]]]; try apply sort_by_key_in in H; exact H.
  - destruct a as [o|o|o]; intros H; [left|right; left|right; right]; exists o; (split; [reflexivity|]);
      try apply sort_by_key_in; exact H.
Qed.
(* one statement per object, when the three lists are disjoint *)
Lemma stmts_of_wf : forall st new dirty deleted, NoDup (dirty ++ new ++ deleted) -> WfL (stmts_of st new dirty deleted).
Proof.
  intros st new dirty deleted H. unfold WfL, stmts_of. rewrite !map_app, !map_map. cbn [stmt_obj]. rewrite !map_id.
  eapply Permutation_NoDup; [|exact H].
  apply Permutation_app; [|apply Permutation_app_head]; apply Permutation_sym, sort_by_key_perm.
Qed.

Lemma im_lookup_some : forall st k o, im_lookup st k = Some o ->
  o < nobj st /\ oin (objs st o) = true /\ okey (objs st o) = Some k.
Proof.
  intros st k o H. unfold im_lookup in H. apply find_some in H. destruct H as [H1 H2].
  apply in_seq in H1. apply andb_prop in H2. destruct H2 as [H2 H3].
  unfold key_is in H3. destruct (okey (objs st o)) as [k'|]; [|discriminate].
  apply Z.eqb_eq in H3. subst. repeat split; auto. lia.
Qed.

(* a fold whose step changes one object by a function of that object alone *)
Lemma fold_objs_pointwise : forall (step : nat -> sess -> sess) (F : nat -> obj -> obj),
  (forall o s x, objs (step o s) x = if Nat.eqb x o then F o (objs s o) else objs s x) ->
  forall l s, NoDup l ->
  forall x, objs (fold_left (fun s o => step o s) l s) x = if mem x l then F x (objs s x) else objs s x.
Proof.
  intros step F H. induction l as [|o l IH]; intros s Hnd x; cbn [fold_left]; auto.
  inversion Hnd; subst. rewrite IH, H by auto. cbn [mem existsb]. fold (mem x l).
  destruct (Nat.eqb_spec x o) as [->|]; cbn [orb]; [|reflexivity].
  destruct (mem o l) eqn:E; [apply mem_In in E; contradiction|]. reflexivity.
Qed.

Lemma rnd_objs : forall o s x, objs (remove_newly_deleted o s) x =
  if Nat.eqb x o then o_delf (o_in (objs s o) false) true else objs s x.
Proof.
  intros o s x. unfold remove_newly_deleted, safe_discard, upd_head.
  destruct (stack s); cbn [objs mod_obj set_obj set_objs set_sdel set_stack]; unfold updN;
    destruct (Nat.eqb x o); rewrite ?Nat.eqb_refl; reflexivity.
Qed.
Lemma rnd_rest : forall o s f0 rest, stack s = f0 :: rest ->
  stack (remove_newly_deleted o s) = f_del f0 (addm o (fdel f0)) :: rest /\
  sdel (remove_newly_deleted o s) = remm o (sdel s) /\ snew (remove_newly_deleted o s) = snew s /\
  same_env (remove_newly_deleted o s) s.
Proof. intros o s f0 rest Hs. unfold remove_newly_deleted, safe_discard, upd_head. rewrite Hs. repeat split. Qed.

Lemma rnd_fold : forall l s f0 rest, stack s = f0 :: rest ->
  let s' := fold_left (fun s o => remove_newly_deleted o s) l s in
  stack s' = f_del f0 (fold_left (fun d o => addm o d) l (fdel f0)) :: rest /\
  (forall x, mem x (sdel s') = mem x (sdel s) && negb (mem x l)) /\ snew s' = snew s /\ same_env s' s.
Proof.
  induction l as [|o l IH]; intros s f0 rest Hs; cbn [fold_left].
  - rewrite Hs. split; [destruct f0; reflexivity|]. split; [intros; cbn; rewrite andb_true_r; reflexivity|].
    split; [reflexivity|apply same_env_refl].
  - destruct (rnd_rest o s f0 rest Hs) as [A0 [A1 [A2 A3]]].
    destruct (IH _ _ rest A0) as [B0 [B1 [B2 B3]]]. split; [exact B0|]. split; [|split; [congruence|]].
    + intros x. rewrite B1, A1, mem_remm. cbn [mem existsb]. fold (mem x l). rewrite (Nat.eqb_sym o x).
      destruct (Nat.eqb x o), (mem x (sdel s)), (mem x l); reflexivity.
    + eapply same_env_trans; eauto.
Qed.

Lemma im_replace_objs : forall s o x, objs (im_replace o s) x =
  if Nat.eqb x o then o_in (objs s o) true
  else match im_other s o with
       | Some o' => if Nat.eqb x o' then o_in (objs s o') false else objs s x
       | None => objs s x
       end.
Proof.
  intros s o x. unfold im_replace. destruct (im_other s o) as [o'|] eqn:E.
  - destruct (im_other_some _ _ _ E) as [_ [Hne _]].
    destruct (Nat.eqb_spec x o).
    + subst. rewrite objs_mod_same. rewrite objs_mod_other by auto. reflexivity.
    + rewrite objs_mod_other by auto. destruct (Nat.eqb_spec x o').
      * subst. rewrite objs_mod_same. reflexivity.
      * rewrite objs_mod_other by auto. reflexivity.
  - destruct (Nat.eqb_spec x o).
    + subst. rewrite objs_mod_same. reflexivity.
    + rewrite objs_mod_other by auto. reflexivity.
Qed.
Lemma im_replace_rest : forall o s, same_rest (im_replace o s) s.
Proof. intros o s. unfold im_replace. destruct (im_other s o); repeat split. Qed.

(* what the replacement does to the objects depends on the other objects and, for [o], on everything but
   its own membership flag *)
Lemma im_replace_cong : forall s t o, (forall x, x <> o -> objs s x = objs t x) ->
  o_in (objs s o) true = o_in (objs t o) true -> nobj s = nobj t ->
  forall x, objs (im_replace o s) x = objs (im_replace o t) x.
Proof.
  intros s t o H Ho Hn x. rewrite !im_replace_objs.
  assert (E : im_other s o = im_other t o).
  { unfold im_other, all_objs. rewrite Hn. change (okey (objs s o)) with (okey (o_in (objs s o) true)). rewrite Ho. cbn [okey o_in].
    destruct (okey (objs t o)); auto.
    apply find_ext. intros y _. destruct (Nat.eqb_spec y o); [reflexivity|]. rewrite H by auto. reflexivity. }
  rewrite E. destruct (Nat.eqb_spec x o); [exact Ho|].
  destruct (im_other t o) as [o'|] eqn:E'; [|apply H; auto].
  destruct (im_other_some _ _ _ E') as [_ [Hne _]].
  destruct (Nat.eqb_spec x o'); [subst; rewrite H by auto; reflexivity|apply H; auto].
Qed.
Lemma im_replace_ext : forall s t o, (forall x, objs s x = objs t x) -> nobj s = nobj t ->
  forall x, objs (im_replace o s) x = objs (im_replace o t) x.
Proof. intros s t o H Hn. apply im_replace_cong; auto. rewrite H. reflexivity. Qed.

Lemma restore_ks_one_rest : forall E ks o s, same_rest (restore_ks_one E ks o s) s.
Proof.
  intros E ks o s. unfold restore_ks_one. destruct (ks_find o ks) as [[old nw]|]; [destruct (mem o E)|];
    try apply same_rest_refl.
  eapply same_rest_trans; [apply im_replace_rest|]. repeat split.
Qed.
(* it leaves primary-key values and other objects' keys alone *)
Lemma restore_ks_one_keeps : forall E ks o s x,
  odid (objs (restore_ks_one E ks o s) x) = odid (objs s x) /\
  (x <> o -> okey (objs (restore_ks_one E ks o s) x) = okey (objs s x)).
Proof.
  intros E ks o s x. unfold restore_ks_one. destruct (ks_find o ks) as [[old nw]|]; [|auto].
  set (s2 := mod_obj (safe_discard o s) o (fun ob => o_key ob (Some old))).
  assert (A : odid (objs s2 x) = odid (objs s x) /\ (x <> o -> okey (objs s2 x) = okey (objs s x))).
  { unfold s2. destruct (Nat.eqb_spec x o).
    - subst. rewrite objs_mod_same. unfold safe_discard. rewrite objs_mod_same. split; [reflexivity|congruence].
    - rewrite objs_mod_other by auto. unfold safe_discard. rewrite objs_mod_other by auto. auto. }
  destruct (mem o E); [auto|].
  rewrite im_replace_objs. destruct A as [A1 A2].
  destruct (Nat.eqb_spec x o).
  - subst. cbn. split; [exact A1|congruence].
  - destruct (im_other s2 o) as [o'|]; [|auto].
    destruct (Nat.eqb_spec x o'); [subst; cbn; auto|auto].
Qed.

(* the key switch _register_persistent records for [o] (identity key [key], primary key value [ik]) *)
Definition reg_ks (o : nat) (key : option Z) (ik : Z) (fk : list (nat * (Z * Z))) : list (nat * (Z * Z)) :=
  match key with
  | Some k => if Z.eqb k ik then fk
              else ks_set o (match ks_find o fk with Some (old, _) => old | None => k end, ik) fk
  | None => fk
  end.

(* _register_persistent: on the objects, one step is a step of the re-keying loop of _restore_snapshot
   (restore_ks_one) for the key switch (ik, ik), so that SessTxnRestore.phase2_char describes the whole loop *)
Lemma register_sim : forall o s t ks s' f0 rest, (forall x, objs s x = objs t x) -> nobj s = nobj t ->
  stack s = f0 :: rest -> register_one o s = (Ok, s') ->
  exists ik, odid (objs s o) = Some ik /\
    (ks_find o ks = Some (ik, ik) -> forall x, objs s' x = objs (restore_ks_one [] ks o t) x) /\
    stack s' = f_ks f0 (reg_ks o (okey (objs s o)) ik (fks f0)) :: rest /\
    snew s' = snew s /\ sdel s' = sdel s /\ same_env s' s.
Proof.
  intros o s t ks s' f0 rest H Hn Hs Hr. unfold register_one in Hr.
  destruct (odid (objs s o)) as [ik|]; [|discriminate]. exists ik. split; [reflexivity|].
  (* in each case [o] enters the identity map from a state sA in which it carries the key ik *)
  assert (K : forall sA, s' = im_replace o sA -> (forall x, x <> o -> objs sA x = objs s x) ->
             o_in (objs sA o) true = o_in (o_key (objs s o) (Some ik)) true ->
             stack sA = f_ks f0 (reg_ks o (okey (objs s o)) ik (fks f0)) :: rest ->
             snew sA = snew s -> sdel sA = sdel s -> same_env sA s ->
             (ks_find o ks = Some (ik, ik) -> forall x, objs s' x = objs (restore_ks_one [] ks o t) x) /\
             stack s' = f_ks f0 (reg_ks o (okey (objs s o)) ik (fks f0)) :: rest /\
             snew s' = snew s /\ sdel s' = sdel s /\ same_env s' s).
  { intros sA -> A1 A2 A3 A4 A5 A6. split.
    - intros Hk. unfold restore_ks_one. rewrite Hk. cbn [mem existsb]. apply im_replace_cong.
      + intros x Hx. rewrite A1 by auto. unfold safe_discard. rewrite !objs_mod_other by auto. apply H.
      + rewrite A2. unfold safe_discard. rewrite !objs_mod_same, H. reflexivity.
      + destruct A6 as [A6 _]. cbn. congruence.
    - destruct (im_replace_rest o sA) as [R1 [R2 [R3 [R4 [R5 [R6 [R7 [R8 [R9 R10]]]]]]]]].
      unfold same_env in *. intuition congruence. }
  destruct (okey (objs s o)) as [k|] eqn:Ek; [destruct (Z.eqb_spec k ik) as [->|Hne]|]; inversion Hr; subst s'; clear Hr.
  - apply (K s); auto using same_env_refl.
    + rewrite (obj_key_eta _ _ Ek). reflexivity.
    + cbn. rewrite Z.eqb_refl, Hs. destruct f0; reflexivity.
  - eapply K; [reflexivity| | | | | |]; unfold safe_discard, upd_head, mod_obj, set_obj; cbn [stack set_objs]; rewrite Hs;
      cbn [objs snew sdel stack set_stack set_objs]; auto.
    + intros x Hx. rewrite !updN_other by auto. reflexivity.
    + rewrite !updN_same. reflexivity.
    + cbn. destruct (Z.eqb_spec k ik); [contradiction|reflexivity].
    + repeat split.
  - eapply K; [reflexivity| | | | | |]; auto using same_env_refl.
    + intros x Hx. apply objs_mod_other; exact Hx.
    + rewrite objs_mod_same. reflexivity.
    + cbn. rewrite Hs. destruct f0; reflexivity.
    + repeat split.
Qed.

(* the key-switch record the registration loop leaves in the frame *)
Definition ks_after (key0 : nat -> option Z) (ikof : nat -> Z) (l : list nat) (fk : list (nat * (Z * Z))) :=
  fold_left (fun fk o => reg_ks o (key0 o) (ikof o) fk) l fk.
Lemma ks_after_ext : forall key0 key1 ikof l fk, (forall x, In x l -> key0 x = key1 x) ->
  ks_after key0 ikof l fk = ks_after key1 ikof l fk.
Proof.
  intros key0 key1 ikof. unfold ks_after. induction l as [|a l IH]; intros fk H; cbn; auto.
  rewrite (H a) by (left; auto). apply IH. intros; apply H; right; auto.
Qed.

(* a registration loop that succeeded: every object had a primary key value *)
Lemma register_fold : forall ks (ikof : nat -> Z) l s t f0 rest s',
  (forall x, objs s x = objs t x) -> nobj s = nobj t -> stack s = f0 :: rest -> NoDup l ->
  (forall o, In o l -> ks_find o ks = Some (ikof o, ikof o)) ->
  (forall o ik, In o l -> odid (objs s o) = Some ik -> ik = ikof o) ->
  foldM register_one l s = (Ok, s') ->
  (forall o, In o l -> odid (objs s o) <> None) /\
  (forall x, objs s' x = objs (fold_left (fun s o => restore_ks_one [] ks o s) l t) x) /\
  stack s' = f_ks f0 (ks_after (fun o => okey (objs s o)) ikof l (fks f0)) :: rest /\
  snew s' = snew s /\ sdel s' = sdel s /\ same_env s' s.
Proof.
  intros ks ikof. induction l as [|o l IH]; intros s t f0 rest s' H Hn Hs Hnd Hk Hik Hr.
  - inversion Hr; subst s'. rewrite Hs. split; [intros o []|]. split; [exact H|].
    split; [destruct f0; reflexivity|]. auto using same_env_refl.
  - cbn [foldM] in Hr. apply bind_inv in Hr. destruct Hr as [[sa [Ha Hr]]|[_ X]]; [|congruence].
    inversion Hnd as [|? ? Hno Hnd']; subst.
    destruct (register_sim o s t ks sa f0 rest H Hn Hs Ha) as [ik [Ed [O1 [S1 [A1 [A2 A3]]]]]].
    assert (ik = ikof o) by (apply Hik; [left|]; auto). subst ik.
    specialize (O1 (Hk o (or_introl eq_refl))).
    (* the registration of [o] leaves the key values, and the keys of the remaining objects, alone *)
    assert (Keep : forall x, odid (objs sa x) = odid (objs s x) /\ (x <> o -> okey (objs sa x) = okey (objs s x))).
    { intros x. rewrite O1, H. apply restore_ks_one_keeps. }
    assert (Hn1 : nobj sa = nobj (restore_ks_one [] ks o t)).
    { destruct (restore_ks_one_rest [] ks o t) as [_ [X _]]. destruct A3 as [Y _]. congruence. }
    destruct (IH sa (restore_ks_one [] ks o t) _ rest s' O1 Hn1 S1 Hnd') as [D [O' [S' [B1 [B2 B3]]]]]; auto.
    + intros x Hx. apply Hk. right; exact Hx.
    + intros x ik Hx. rewrite (proj1 (Keep x)). apply Hik. right; exact Hx.
    + split; [|split; [exact O'|split; [|split; [congruence|split; [congruence|eapply same_env_trans; eauto]]]]].
      * intros x [<-|Hx]; [congruence|]. rewrite <- (proj1 (Keep x)). auto.
      * rewrite S'. cbn [fks f_ks]. unfold ks_after at 2. cbn [fold_left]. fold (ks_after (fun o => okey (objs s o)) ikof l).
        rewrite (ks_after_ext (fun x => okey (objs sa x)) (fun x => okey (objs s x))); [reflexivity|].
        intros x Hx. apply Keep. intros ->. contradiction.
Qed.

Lemma fold_ks_filter : forall E ks (P : nat -> bool) l s,
  (forall x, In x l -> P x = false -> ks_find x ks = None) ->
  fold_left (fun s o => restore_ks_one E ks o s) l s =
  fold_left (fun s o => restore_ks_one E ks o s) (filter P l) s.
Proof.
  intros E ks P. induction l as [|a l IH]; intros s H; cbn; auto.
  destruct (P a) eqn:Ea; cbn.
  - apply IH. intros; apply H; auto. right; auto.
  - unfold restore_ks_one at 2. rewrite (H a) by (auto; left; auto). apply IH. intros; apply H; auto. right; auto.
Qed.

(* _register_altered *)
Lemma commit_one_objs : forall o s x, objs (commit_one o s) x = if Nat.eqb x o then commit_obj (objs s o) else objs s x.
Proof.
  intros o s x. unfold commit_one, upd_head, mod_obj, set_obj. cbn [snew stack set_objs].
  destruct (mem o (snew s)), (stack s); cbn [objs set_stack set_objs]; unfold updN;
    destruct (Nat.eqb x o); reflexivity.
Qed.
Lemma commit_fold : forall l s f0 rest, stack s = f0 :: rest ->
  let s' := fold_left (fun s o => commit_one o s) l s in
  stack s' = f_dirty (f_new f0 (fold_left (fun d o => addm o d) (filter (fun o => mem o (snew s)) l) (fnew f0)))
                     (fold_left (fun d o => addm o d) (filter (fun o => negb (mem o (snew s))) l) (fdirty f0)) :: rest /\
  snew s' = snew s /\ sdel s' = sdel s /\ same_env s' s.
Proof.
  induction l as [|o l IH]; intros s f0 rest Hs; cbn [fold_left filter].
  - rewrite Hs. split; [destruct f0; reflexivity|]. auto using same_env_refl.
  - assert (A : stack (commit_one o s) =
                (if mem o (snew s) then f_new f0 (addm o (fnew f0)) else f_dirty f0 (addm o (fdirty f0))) :: rest /\
                snew (commit_one o s) = snew s /\ sdel (commit_one o s) = sdel s /\ same_env (commit_one o s) s).
    { unfold commit_one, upd_head, mod_obj, set_obj. cbn [snew stack set_objs]. rewrite Hs.
      destruct (mem o (snew s)); repeat split. }
    destruct A as [A0 [A1 [A2 A3]]]. destruct (IH _ _ rest A0) as [B0 [B1 [B2 B3]]].
    rewrite A1 in B0. split; [|split; [congruence|split; [congruence|eapply same_env_trans; eauto]]].
    rewrite B0. destruct (mem o (snew s)); reflexivity.
Qed.

Lemma ks_find_reg : forall x o key ik fk, ks_find x (reg_ks o key ik fk) =
  if Nat.eqb x o then
    match key with
    | Some k => if Z.eqb k ik then ks_find x fk
                else Some (match ks_find x fk with Some (old, _) => old | None => k end, ik)
    | None => ks_find x fk
    end
  else ks_find x fk.
Proof.
  intros x o key ik fk. unfold reg_ks.
  destruct key as [k|]; [destruct (Z.eqb k ik)|]; try (destruct (Nat.eqb x o); reflexivity).
  rewrite ks_find_set. destruct (Nat.eqb_spec x o) as [->|]; reflexivity.
Qed.
Lemma ks_after_nodup : forall key0 ikof l fk, NoDup (map fst fk) -> NoDup (map fst (ks_after key0 ikof l fk)).
Proof.
  intros key0 ikof. unfold ks_after. induction l as [|o l IH]; intros fk H; cbn; auto.
  apply IH. unfold reg_ks. destruct (key0 o); auto. destruct (Z.eqb _ _); auto. apply ks_set_nodup; auto.
Qed.
Lemma ks_after_find : forall key0 ikof l fk x, NoDup l ->
  ks_find x (ks_after key0 ikof l fk) = if mem x l then ks_find x (reg_ks x (key0 x) (ikof x) fk) else ks_find x fk.
Proof.
  intros key0 ikof. induction l as [|o l IH]; intros fk x Hnd; cbn [ks_after fold_left mem existsb]; auto.
  inversion Hnd; subst. fold (mem x l). fold (ks_after key0 ikof l (reg_ks o (key0 o) (ikof o) fk)). rewrite IH by auto.
  destruct (Nat.eqb_spec x o) as [->|Hx]; cbn [orb].
  - destruct (mem o l) eqn:E; [apply mem_In in E; contradiction|reflexivity].
  - rewrite !(ks_find_reg x x), (ks_find_reg x o). destruct (Nat.eqb_spec x o); [contradiction|reflexivity].
Qed.

Definition flush_body_k (k : option nat) (c : Z) (new dirty deleted : list nat) : M :=
  foldM (organize_pending deleted) new ;;
  withst (fun st0 => exec_f k c (stmts_of st0 new dirty deleted)) ;;
  finalize new dirty deleted.
Definition flush_body := flush_body_k None 0%Z.

Lemma flush_exec_unfold : forall new dirty deleted, flush_exec new dirty deleted = (provision ;; flush_body new dirty deleted).
Proof. reflexivity. Qed.

(* what a flush that reached its end leaves: a new innermost frame over the same snapshot, nothing pending *)
Definition FlushDone (s0 : sess) (g : ghost) (f : frame) (rest : list frame) (sZ : sess) : Prop :=
  exists fZ, stack sZ = fZ :: rest /\
        fid fZ = fid f /\ fnested fZ = fnested f /\ fstate fZ = fstate f /\ frbexc fZ = frbexc f /\ fconn fZ = fconn f /\
        Good (objs sZ) (nobj s0) (work sZ) [] [] /\ J (objs sZ) (nobj s0) /\ Rel g fZ (objs sZ) (nobj s0) [] [] (work sZ) /\
        (forall x, oin (objs sZ x) = true -> omod (objs sZ x) = false) /\
        snew sZ = [] /\ sdel sZ = [] /\ nobj sZ = nobj s0 /\ committed sZ = committed s0 /\ saves sZ = saves s0 /\
        nfid sZ = nfid s0 /\ eoc sZ = eoc s0 /\ handles sZ = handles s0 /\
        (* new key switches come from unflushed primary-key changes *)
        (forall x, ks_find x (fks fZ) <> None ->
           ks_find x (fks f) <> None \/ (oin (objs s0 x) = true /\ upd_sets_id (objs s0 x) = true)).

Section Flush.
  Variables (s0 : sess) (g : ghost) (f : frame) (rest : list frame) (dirty : list nat).
  Hypothesis GC : GClean g.
  Let n := nobj s0.
  Let W0 := work s0.
  Let new := snew s0.
  Let deleted := sdel s0.
  Hypothesis Hst0 : stack s0 = f :: rest.
  Hypothesis G0 : Good (objs s0) n W0 new deleted.
  Hypothesis J0 : J (objs s0) n.
  Hypothesis R0 : Rel g f (objs s0) n new deleted W0.
  Hypothesis Hdirty : forall x, In x dirty <-> (x < n /\ oin (objs s0 x) = true /\ omod (objs s0 x) = true /\ ~ In x deleted).
  Hypothesis Hdnd : NoDup dirty.

  (* the three lists of the flush are disjoint *)
  Lemma del_disj : forall x, In x deleted -> ~ In x new /\ ~ In x dirty.
  Proof.
    intros x H. pose proof (g_del _ _ _ _ _ G0 x H) as X. split; intros Y.
    - rewrite (Good_pending_out _ _ _ _ _ x G0 Y) in X. discriminate.
    - apply Hdirty in Y. tauto.
  Qed.
  Lemma new_not_dirty : forall x, In x new -> ~ In x dirty.
  Proof.
    intros x H Y. apply Hdirty in Y. destruct Y as [_ [Hi _]].
    rewrite (Good_pending_out _ _ _ _ _ x G0 H) in Hi. discriminate.
  Qed.
  Lemma lists_nodup : NoDup (dirty ++ new ++ deleted).
  Proof.
    destruct (g_nodup _ _ _ _ _ G0) as [N1 N2].
    apply NoDup_app_disj; [exact Hdnd|apply NoDup_app_disj; auto|].
    - intros x H1 H2. apply (proj1 (del_disj x H2)). exact H1.
    - intros x H1 H2. apply in_app_or in H2.
      destruct H2 as [H2|H2]; [apply (new_not_dirty x H2 H1)|apply (proj2 (del_disj x H2)); exact H1].
  Qed.

  (* the organize phase only loads *)
  Lemma organize_ok : forall l s r s', SigL s0 g f s /\ work s = W0 ->
    foldM (organize_pending deleted) l s = (r, s') -> r <> Unmodelled -> r = Ok /\ SigL s0 g f s' /\ work s' = W0.
  Proof.
    intros l. apply (foldM_total (fun s => SigL s0 g f s /\ work s = W0)).
    intros o s ra sa [L Hw] Ha Hra. unfold organize_pending in Ha.
    destruct (odid (objs s o)) as [pk|]; [|inversion Ha; subst; congruence].
    destruct (im_lookup s pk) as [ex|] eqn:El; [|inversion Ha; subst; auto].
    destruct (im_lookup_some _ _ _ El) as [A [B C]].
    destruct (g_rows _ _ _ _ _ (sl_good _ _ _ _ L) ex pk B C) as [v [Hv _]].
    destruct (oexp (objs s ex)).
    - destruct (load_step s0 g f GC s ex pk v L B C) as [s1 [E1 [E2 [E3 [E4 E5]]]]]; [rewrite Hw; exact Hv|exact Hv|].
      rewrite E1 in Ha. destruct (mem ex deleted); inversion Ha; subst; [congruence|].
      split; [reflexivity|]. split; [exact E5|]. rewrite E3. exact Hw.
    - destruct (mem ex deleted); inversion Ha; subst; [congruence|auto].
  Qed.

  Definition rho0 (s : sess) (x : nat) : option Z := if oin (objs s x) then okey (objs s x) else None.
  Definition rv0 (s : sess) (x : nat) : Z :=
    match okey (objs s x) with Some k => match W0 k with Some v => v | None => 0%Z end | None => 0%Z end.

  (* before the first statement every row is where the identity map says *)
  Lemma sig_init : forall s, SigL s0 g f s -> work s = W0 ->
    Sig s0 g f (stmts_of s new dirty deleted) s (rho0 s) (rv0 s).
  Proof.
    intros s L Hw. pose proof (sl_good _ _ _ _ L) as G. pose proof (sl_j _ _ _ _ L) as Jh.
    assert (Hle := sl_le _ _ _ _ L).
    (* an object of the identity map: its key, and its row in the original table *)
    assert (Hmap : forall x, oin (objs s x) = true -> exists k, okey (objs s x) = Some k /\ rho0 s x = Some k /\
              W0 k = Some (rv0 s x) /\ x < n /\ VA (objs s x) k (rv0 s x)).
    { intros x Hi. destruct (g_in _ _ _ _ _ G x Hi) as [Hn [_ [_ Hk]]].
      destruct (okey (objs s x)) as [k|] eqn:Ek; [|congruence]. destruct (g_rows _ _ _ _ _ G x k Hi Ek) as [v [Hv Hva]].
      exists k. unfold rho0, rv0, W0. rewrite Hi, Ek, Hv. auto. }
    assert (Hrho : forall x p, rho0 s x = Some p -> oin (objs s x) = true /\ okey (objs s x) = Some p).
    { intros x p H. unfold rho0 in H. destruct (oin (objs s x)); [auto|discriminate]. }
    constructor; auto.
    - intros x p H. destruct (Hrho x p H) as [A B]. destruct (Hmap x A) as (k & K1 & _ & K3 & _). rewrite Hw. congruence.
    - intros x y p Hx Hy. destruct (Hrho x p Hx) as [A B]. destruct (Hrho y p Hy) as [C D].
      eapply (g_uniq _ _ _ _ _ G); eauto.
    - intros p Hp.
      destruct (find (fun x => oin (objs s x) && key_is p (objs s x)) (seq 0 n)) as [x|] eqn:Ef.
      + left. apply find_some in Ef. destruct Ef as [_ Ef]. apply andb_prop in Ef. destruct Ef as [E1 E2].
        exists x. unfold rho0. rewrite E1. unfold key_is in E2. destruct (okey (objs s x)) as [k|]; [|discriminate].
        apply Z.eqb_eq in E2. congruence.
      + right. split; [rewrite Hw; reflexivity|]. intros x Hx Hk.
        destruct (Hle x) as [Q1 [_ [_ [Q4 _]]]].
        assert (Hx' : oin (objs s x) = true) by congruence.
        destruct (g_in _ _ _ _ _ G x Hx') as [Hn _].
        eapply find_none with (x := x) in Ef; [|apply in_seq; lia].
        rewrite Hx' in Ef. unfold key_is in Ef. rewrite Q1, Hk in Ef. rewrite Z.eqb_refl in Ef. discriminate.
    - intros o Ho.
      assert (Hin : oin (objs s o) = true).
      { destruct (Hle o) as [_ [_ [_ [Q4 _]]]]. rewrite Q4. destruct Ho as [Ho|Ho]; apply stmts_of_in in Ho.
        - apply Hdirty in Ho. tauto.
        - apply (g_del _ _ _ _ _ G0). exact Ho. }
      destruct (Hmap o Hin) as (k & K1 & K2 & K3 & _). eauto.
    - intros o Ho. apply stmts_of_in in Ho. split; auto. unfold rho0.
      rewrite (Good_pending_out _ _ _ _ _ o G Ho). reflexivity.
    - intros x p H. destruct (Hrho x p H) as [A B]. destruct (Hmap x A) as (k & K1 & _ & _ & Hn & V1 & _ & V3 & _).
      assert (k = p) by congruence. subst k.
      destruct (omod (objs s x)) eqn:Em.
      + destruct (mem x deleted) eqn:Ed.
        * right; left. apply (stmts_of_in _ _ _ _ (SDel x)). apply mem_In. exact Ed.
        * left. apply (stmts_of_in _ _ _ _ (SUpd x)). apply Hdirty. destruct (Hle x) as [_ [_ [_ [Q4 [Q5 _]]]]].
          split; [exact Hn|]. split; [congruence|]. split; [congruence|].
          intros X. apply mem_In in X. congruence.
      + right; right. destruct (Jh x Hn) as [_ [_ J3]]. destruct (J3 Em) as [C1 C2]. auto.
    - intros x H. destruct (rho0 s x) as [p|] eqn:E; [|congruence]. destruct (Hrho x p E) as [A B].
      destruct (Hmap x A) as (k & _ & _ & _ & Hn & _). auto.
  Qed.

  (* the state after the last statement: rows of untouched objects where they were, written objects have
     a row, deleted objects have none and are loaded *)
  Record Flushed (s1 : sess) (rho : nat -> option Z) (rv : nat -> Z) : Prop := mkFlushed {
    fl_sig : Sig s0 g f [] s1 rho rv;
    fl_rest : forall x, ~ In x dirty -> ~ In x new -> ~ In x deleted ->
      rho x = (if oin (objs s1 x) then okey (objs s1 x) else None) /\
      (forall k v, okey (objs s1 x) = Some k -> W0 k = Some v -> rv x = v);
    fl_written : forall x, In x dirty \/ In x new -> rho x <> None;
    fl_deleted : forall x, In x deleted -> rho x = None /\ odid (objs s1 x) <> None /\ odv (objs s1 x) <> None
  }.

  (* everything before finalize_flush_changes only loads and executes statements *)
  Lemma flush_pre_sig : forall fk fc r s1,
    (foldM (organize_pending deleted) new ;; withst (fun st0 => exec_f fk fc (stmts_of st0 new dirty deleted))) s0 = (r, s1) ->
    r <> Unmodelled ->
    (r = Ok -> exists rho rv, Flushed s1 rho rv) /\ (r <> Ok -> SigL s0 g f s1).
  Proof.
    intros fk fc r s1 H Hr.
    pose proof (conj (SigL_refl s0 g f G0 J0 R0) (eq_refl W0)) as L0.
    apply bind_inv in H. destruct H as [[sa [Ha H]]|[Ha Hn]].
    2:{ destruct (organize_ok new s0 r s1 L0 Ha Hr) as [X _]. congruence. }
    destruct (organize_ok new s0 Ok sa L0 Ha) as [_ [La Hwa]]; [discriminate|].
    rewrite withst_eq in H.
    pose proof (sig_init sa La Hwa) as Sa.
    pose proof (stmts_of_wf sa new dirty deleted lists_nodup) as Wf.
    destruct (exec_f_char _ _ _ _ _ _ H Hr) as [X1 X2].
    destruct r as [|c0|]; [|destruct X2 as [pre [suf [r0 [P1 [P2 P3]]]]]; [discriminate|]|congruence].
    - specialize (X1 eq_refl). split; [|congruence]. intros _.
      rewrite <- (app_nil_r (stmts_of sa new dirty deleted)) in Sa, Wf.
      destruct (stmts_run s0 g f GC _ [] _ _ _ _ _ Sa Wf X1 Hr) as [X _].
      destruct (X eq_refl) as [rho [rv [S1 [U1 U2]]]].
      exists rho, rv. constructor; auto.
      + intros x N1 N2 N3. destruct (U1 x) as [A [B C]].
        { rewrite in_map_iff. intros [a [E Ha']]. apply stmts_of_in in Ha'. destruct a; cbn in E; subst; auto. }
        rewrite A, B, C. unfold rho0, rv0. split; auto.
        intros k v Hk Hv. rewrite Hk, Hv. reflexivity.
      + intros x [Hx|Hx]; [apply (U2 (SUpd x))|apply (U2 (SIns x))]; apply stmts_of_in; exact Hx.
      + intros x Hx. apply (U2 (SDel x)). apply stmts_of_in. exact Hx.
    - split; [discriminate|]. intros _. rewrite P1 in Sa, Wf.
      exact (stmts_prefix s0 g f GC pre suf _ _ _ _ _ Sa Wf P2 P3).
  Qed.

  Lemma flush_pre_spec : forall fk fc r sX,
    (foldM (organize_pending deleted) new ;; withst (fun st0 => exec_f fk fc (stmts_of st0 new dirty deleted))) s0 = (r, sX) ->
    r <> Unmodelled -> SigL s0 g f sX.
  Proof using GC G0 J0 R0 Hdirty Hdnd.
    intros fk fc r sX H Hr. destruct (flush_pre_sig fk fc r sX H Hr) as [A B].
    destruct r; [|apply B; discriminate|congruence].
    destruct (A eq_refl) as [rho [rv F]]. exact (sg_l _ _ _ _ _ _ _ (fl_sig _ _ _ F)).
  Qed.

  Section Final.
    Variables (s1 : sess) (rho : nat -> option Z) (rv : nat -> Z).
    Hypothesis F : Flushed s1 rho rv.

    Let S := fl_sig _ _ _ F.
    Let L := sg_l _ _ _ _ _ _ _ S.
    Let G1 : Good (objs s1) n W0 new deleted := sl_good _ _ _ _ L.
    Let J1 : J (objs s1) n := sl_j _ _ _ _ L.
    Let R1 : Rel g f (objs s1) n new deleted W0 := sl_rel _ _ _ _ L.
    Let GG : Good (gobjs g) (gn g) (gW g) [] [] := proj1 GC.
    Let W1 := work s1.
    Let other := filter (fun o => mem o new || mem o dirty) (seq 0 n).

    Lemma fs_n : nobj s1 = n /\ snew s1 = new /\ sdel s1 = deleted /\ stack s1 = f :: rest.
    Proof. destruct (sl_rest _ _ _ _ L) as [_ [A [B [C [D _]]]]]. rewrite D. auto. Qed.

    Lemma other_spec : forall x, mem x other = true <-> (In x new \/ In x dirty).
    Proof.
      intros x. unfold other. rewrite mem_filter_seq, andb_true_iff, orb_true_iff, !mem_In. split; [tauto|].
      intros H. split; [|exact H]. apply Nat.ltb_lt.
      destruct H as [H|H]; [apply (g_new _ _ _ _ _ G0) in H|apply Hdirty in H]; tauto.
    Qed.
    Lemma del_not_other : forall x, mem x deleted = true -> mem x other = false.
    Proof.
      intros x H. destruct (mem x other) eqn:E; auto. apply other_spec in E. apply mem_In, del_disj in H. tauto.
    Qed.
    Lemma other_nodup : NoDup other.
    Proof. apply NoDup_filter, seq_NoDup. Qed.

    (* objects written by the flush were attached and not deleted *)
    Lemma other_att : forall x, mem x other = true ->
      x < n /\ oatt (objs s1 x) = true /\ odelf (objs s1 x) = false /\
      ((In x new /\ okey (objs s1 x) = None /\ oin (objs s1 x) = false) \/
       (In x dirty /\ ~ In x new /\ oin (objs s1 x) = true)).
    Proof.
      intros x H. apply other_spec in H. destruct (in_dec Nat.eq_dec x new) as [Hi|Hi].
      - pose proof (Good_pending_out _ _ _ _ _ x G1 Hi) as Ho.
        apply (g_new _ _ _ _ _ G1) in Hi as X. destruct X as [A [B C]].
        pose proof (g_newd _ _ _ _ _ G1 x A B). auto 10.
      - destruct H as [H|H]; [contradiction|].
        apply Hdirty in H as H'. destruct H' as [A [B _]].
        destruct (sl_le _ _ _ _ L x) as [_ [_ [_ [Q4 _]]]].
        assert (Hin : oin (objs s1 x) = true) by congruence.
        destruct (g_in _ _ _ _ _ G1 x Hin) as [_ [X1 [X2 _]]]. auto 10.
    Qed.

    Let s2 := fold_left (fun s o => remove_newly_deleted o s) deleted s1.
    Definition ikof (x : nat) : Z := match odid (objs s1 x) with Some k => k | None => 0%Z end.
    Let ksR := map (fun o => (o, (ikof o, ikof o))) other.

    Lemma s2_objs : forall x, objs s2 x = if mem x deleted then o_delf (o_in (objs s1 x) false) true else objs s1 x.
    Proof.
      intros x. apply (fold_objs_pointwise remove_newly_deleted (fun _ ob => o_delf (o_in ob false) true) rnd_objs).
      apply (g_nodup _ _ _ _ _ G0).
    Qed.
    Lemma s2_other : forall x, mem x other = true -> objs s2 x = objs s1 x.
    Proof. intros x H. rewrite s2_objs. destruct (mem x deleted) eqn:E; auto. rewrite (del_not_other x E) in H. discriminate. Qed.
    Lemma s2_rest : stack s2 = f_del f (fold_left (fun d o => addm o d) deleted (fdel f)) :: rest /\
      sdel s2 = [] /\ snew s2 = new /\ same_env s2 s1.
    Proof.
      destruct fs_n as [_ [N2 [N3 N4]]]. destruct (rnd_fold deleted s1 f rest N4) as [A [B [C D]]].
      split; [exact A|]. split; [|split; [exact (eq_trans C N2)|exact D]].
      apply mem_nil. intros x. rewrite B, N3. destruct (mem x deleted); reflexivity.
    Qed.

    Lemma finalize_run : forall r sZ, finalize new dirty deleted s1 = (r, sZ) -> r <> Unmodelled ->
      r = Ok /\ exists s3, foldM register_one other s2 = (Ok, s3) /\
        sZ = let s4 := fold_left (fun s o => commit_one o s) other s3 in
             set_snew s4 (filter (fun o => negb (mem o other)) (snew s4)).
    Proof.
      intros r sZ H Hr. unfold finalize in H. rewrite (bind_ok _ _ _ s2) in H by reflexivity.
      rewrite withst_eq in H. unfold all_objs in H.
      destruct s2_rest as [_ [_ [_ [N _]]]]. destruct fs_n as [N1 _]. rewrite N, N1 in H. fold other in H.
      destruct (negb (nodupZ _)); [inversion H; subst; congruence|].
      apply bind_inv in H. destruct H as [[s3 [H3 H]]|[H3 Hn]].
      - inversion H; subst. split; [reflexivity|]. exists s3. auto.
      - (* the registration loop never raises *)
        destruct (foldM_total (fun _ => True) register_one other) with (s := s2) (r := r) (s' := sZ); auto; [|congruence].
        intros x s ra sa _ Ha Hra. split; [|exact I]. unfold register_one in Ha.
        destruct (odid (objs s x)); [|inversion Ha; subst; congruence].
        destruct (okey (objs s x)); [destruct (Z.eqb _ _)|]; inversion Ha; reflexivity.
    Qed.

    (* the objects that are in the identity map after the flush, and where their row is *)
    Lemma rest_row : forall x, mem x other = false -> mem x deleted = false -> oin (objs s1 x) = true ->
      exists p, okey (objs s1 x) = Some p /\ rho x = Some p /\ W1 p = Some (rv x) /\ W0 p = Some (rv x) /\ x < n.
    Proof.
      intros x H1 H2 H3. destruct (fl_rest _ _ _ F x) as [A B].
      { intros X. assert (mem x other = true) by (apply other_spec; auto). congruence. }
      { intros X. assert (mem x other = true) by (apply other_spec; auto). congruence. }
      { intros X. apply mem_In in X. congruence. }
      rewrite H3 in A. destruct (g_in _ _ _ _ _ G1 x H3) as [Hn [_ [_ Hk]]].
      destruct (okey (objs s1 x)) as [k|] eqn:Ek; [|congruence].
      destruct (g_rows _ _ _ _ _ G1 x k H3 Ek) as [v [Hv _]]. pose proof (B k v eq_refl Hv) as E. subst v.
      exists k. repeat split; auto. apply (sg_row _ _ _ _ _ _ _ S x k A).
    Qed.
    Lemma other_row : forall x, mem x other = true -> odid (objs s1 x) <> None ->
      rho x = Some (ikof x) /\ W1 (ikof x) = Some (rv x) /\ odid (objs s1 x) = Some (ikof x) /\
      (odv (objs s1 x) = None \/ odv (objs s1 x) = Some (rv x)).
    Proof.
      intros x H Hd. apply other_spec in H.
      destruct (rho x) as [p|] eqn:Er; [|exfalso; apply (fl_written _ _ _ F x); tauto].
      destruct (sg_vals _ _ _ _ _ _ _ S x p Er) as [[]|[[]|[[X|X] Y]]]; [contradiction|].
      unfold ikof. rewrite X. split; [reflexivity|]. split; [exact (sg_row _ _ _ _ _ _ _ S x p Er)|auto].
    Qed.

    Variable s3 : sess.
    Hypothesis Hreg : foldM register_one other s2 = (Ok, s3).

    Lemma registered :
      (forall o, mem o other = true -> odid (objs s1 o) <> None) /\
      (forall x, objs s3 x = objs (fold_left (fun s o => restore_ks_one [] ksR o s) other s2) x) /\
      stack s3 = f_ks (f_del f (fold_left (fun d o => addm o d) deleted (fdel f)))
                      (ks_after (fun o => okey (objs s1 o)) ikof other (fks f)) :: rest /\
      snew s3 = new /\ sdel s3 = [] /\ same_env s3 s1.
    Proof.
      destruct s2_rest as [A0 [A1 [A2 A3]]].
      destruct (register_fold ksR ikof other s2 s2 _ rest s3 (fun x => eq_refl) eq_refl A0 other_nodup)
        as [D [O [St [B1 [B2 B3]]]]]; auto.
      - intros o Ho. unfold ksR. rewrite (ks_find_map (fun o => (ikof o, ikof o))). apply mem_In in Ho. rewrite Ho. reflexivity.
      - intros o ik Ho Hd. apply mem_In in Ho. rewrite (s2_other o Ho) in Hd. unfold ikof. rewrite Hd. reflexivity.
      - split; [intros o Ho; rewrite <- (s2_other o Ho); apply D, mem_In, Ho|]. split; [exact O|].
        split; [|split; [congruence|split; [congruence|eapply same_env_trans; eauto]]].
        rewrite St. cbn [fks f_del]. rewrite (ks_after_ext _ (fun o => okey (objs s1 o))); [reflexivity|].
        intros x Hx. apply mem_In in Hx. rewrite (s2_other x Hx). reflexivity.
    Qed.
    Let Hdid := proj1 registered.

    (* new key switches come from unflushed primary-key changes *)
    Lemma ks_grow : forall x, ks_find x (ks_after (fun o => okey (objs s1 o)) ikof other (fks f)) <> None ->
      ks_find x (fks f) <> None \/ (oin (objs s0 x) = true /\ upd_sets_id (objs s0 x) = true).
    Proof.
      intros x Hx. rewrite (ks_after_find _ _ _ _ _ other_nodup), ks_find_reg, Nat.eqb_refl in Hx.
      destruct (mem x other) eqn:Em; [|left; exact Hx].
      destruct (okey (objs s1 x)) as [k|] eqn:Ek; [|left; exact Hx].
      destruct (Z.eqb k (ikof x)) eqn:Ez; [left; exact Hx|].
      destruct (ks_find x (fks f)) eqn:Efk; [left; discriminate|]. right.
      destruct (sl_le _ _ _ _ L x) as [O1 [O2 [O3 [O4 [O5 [O6 [O7 [O8 O9]]]]]]]].
      assert (Ek0 : okey (objs s0 x) = Some k) by congruence.
      destruct (other_att x Em) as [Hxn [_ [_ [[_ [X _]]|[Hxd _]]]]]; [congruence|].
      apply Hdirty in Hxd. destruct Hxd as [_ [Hxi _]]. split; [exact Hxi|].
      destruct (other_row x Em (Hdid x Em)) as [_ [_ [Ed1 _]]].
      destruct (g_rows _ _ _ _ _ G0 x k Hxi Ek0) as [v [Hv Hva]].
      (* the flush saw the primary-key value the object had, and it is not the identity key *)
      assert (Ed0 : odid (objs s0 x) = Some (ikof x)).
      { destruct (odid (objs s0 x)) as [d0|] eqn:Ed0; [rewrite <- Ed1; symmetry; apply O8; discriminate|]. exfalso.
        destruct (J0 x Hxn) as [_ [Jb _]].
        assert (Ec : ocid (objs s0 x) = None). { destruct (ocid (objs s0 x)); auto. exfalso. apply Jb; [discriminate|exact Ed0]. }
        assert (Hi1 : oin (objs s1 x) = true) by congruence.
        destruct (g_rows _ _ _ _ _ G1 x k Hi1 Ek) as [v1 [_ [Wv _]]].
        destruct Wv as [X|X]; [congruence|congruence|]. rewrite Ed1 in X. inversion X; subst. rewrite Z.eqb_refl in Ez. discriminate. }
      destruct Hva as [V1 [V2 _]]. unfold upd_sets_id. rewrite Ed0.
      destruct (ocid (objs s0 x)) as [old|] eqn:Ec.
      - destruct (V2 old eq_refl) as [X _]. subst old. rewrite Ez. reflexivity.
      - exfalso. destruct (V1 eq_refl) as [X|X]; [congruence|]. rewrite Ed0 in X. inversion X; subst. rewrite Z.eqb_refl in Ez. discriminate.
    Qed.

    (* the objects after the registration loop *)
    Definition P2R (x : nat) : obj :=
      if mem x other then o_in (o_key (objs s1 x) (Some (ikof x))) true
      else if mem x deleted then o_delf (o_in (objs s1 x) false) true else objs s1 x.

    Lemma P2R_map : forall x, oin (P2R x) = true -> okey (P2R x) = rho x /\ rho x <> None.
    Proof.
      intros x. unfold P2R. destruct (mem x other) eqn:Eo; [|destruct (mem x deleted) eqn:Ed]; cbn; intros H.
      - destruct (other_row x Eo (Hdid x Eo)) as [A _]. rewrite A. split; [reflexivity|discriminate].
      - discriminate.
      - destruct (rest_row x Eo Ed H) as [p [A [B _]]]. rewrite A, B. split; [reflexivity|discriminate].
    Qed.

    Lemma s3_objs : forall x, objs s3 x = P2R x.
    Proof.
      assert (PE : forall z, P2 [] ksR s2 z = P2R z).
      { intros z. unfold P2, P2R, ksR. rewrite (ks_find_map (fun o => (ikof o, ikof o))).
        destruct (mem z other) eqn:Eo; cbn [mem existsb]; [rewrite (s2_other z Eo)|rewrite s2_objs]; reflexivity. }
      assert (Hn2 : nobj s2 = n). { destruct s2_rest as [_ [_ [_ [N _]]]]. destruct fs_n. congruence. }
      assert (Hks : forall y, mem y other = false -> ks_find y ksR = None).
      { intros y Hy. unfold ksR. rewrite (ks_find_map (fun o => (ikof o, ikof o))), Hy. reflexivity. }
      destruct (phase2_char [] ksR s2) as [_ PC].
      { intros x0 Hx0. discriminate. }
      { intros x y _ _. rewrite !PE. intros Hx Hy Hk _. destruct (P2R_map x Hx) as [Kx Nx]. destruct (P2R_map y Hy) as [Ky _].
        destruct (rho x) as [p|] eqn:E; [|congruence]. apply (sg_inj _ _ _ _ _ _ _ S x y p); congruence. }
      unfold all_objs in PC. rewrite Hn2 in PC.
      intros x. rewrite (proj1 (proj2 registered)). unfold other at 1.
      rewrite <- (fold_ks_filter [] ksR (fun o => mem o new || mem o dirty) (seq 0 n) s2).
      - rewrite PC; [apply PE|]. destruct (Nat.ltb_spec x n); [auto|right]. apply Hks.
        unfold other. rewrite mem_filter_seq. destruct (Nat.ltb_spec x n); [lia|reflexivity].
      - intros y Hy HP. apply Hks. unfold other. rewrite mem_filter_seq, HP. apply andb_false_r.
    Qed.

    (* the objects after the flush *)
    Definition FZ (x : nat) : obj :=
      if mem x deleted then o_delf (o_in (objs s1 x) false) true
      else if mem x other then commit_obj (o_in (o_key (objs s1 x) (Some (ikof x))) true)
      else objs s1 x.

    Let s4 := fold_left (fun s o => commit_one o s) other s3.
    Lemma s4_objs : forall x, objs s4 x = FZ x.
    Proof.
      intros x. unfold s4.
      rewrite (fold_objs_pointwise commit_one (fun _ => commit_obj) commit_one_objs _ _ other_nodup), s3_objs.
      unfold P2R, FZ. destruct (mem x deleted) eqn:Ed; [rewrite (del_not_other x Ed); reflexivity|].
      destruct (mem x other); reflexivity.
    Qed.
    Lemma s4_rest : exists fZ, stack s4 = fZ :: rest /\
      fid fZ = fid f /\ fnested fZ = fnested f /\ fstate fZ = fstate f /\ frbexc fZ = frbexc f /\ fconn fZ = fconn f /\
      (forall x, mem x (fnew fZ) = mem x (fnew f) || (mem x other && mem x new)) /\
      (forall x, mem x (fdirty fZ) = mem x (fdirty f) || (mem x other && negb (mem x new))) /\
      (forall x, mem x (fdel fZ) = mem x (fdel f) || mem x deleted) /\
      fks fZ = ks_after (fun o => okey (objs s1 o)) ikof other (fks f) /\
      snew s4 = new /\ sdel s4 = [] /\ same_env s4 s1.
    Proof.
      destruct (proj2 (proj2 registered)) as [St [B1 [B2 B3]]].
      destruct (commit_fold other s3 _ rest St) as [A [C1 [C2 C3]]]. fold s4 in A, C1, C2, C3.
      eexists. split; [exact A|]. cbn [fid fnested fstate frbexc fconn fnew fdirty fdel fks f_dirty f_new f_ks f_del].
      do 5 (split; [reflexivity|]).
      split; [intros x; rewrite mem_fold_addm, mem_filter, B1; reflexivity|].
      split; [intros x; rewrite mem_fold_addm, mem_filter, B1; reflexivity|].
      split; [intros x; apply mem_fold_addm|]. split; [reflexivity|].
      split; [congruence|split; [congruence|eapply same_env_trans; eauto]].
    Qed.

    (* the three kinds of objects after the flush *)
    Inductive FZ_spec (x : nat) : obj -> Prop :=
    | FZ_del : mem x deleted = true -> mem x other = false -> oin (objs s1 x) = true -> x < n ->
               FZ_spec x (o_delf (o_in (objs s1 x) false) true)
    | FZ_oth : mem x deleted = false -> mem x other = true ->
               FZ_spec x (commit_obj (o_in (o_key (objs s1 x) (Some (ikof x))) true))
    | FZ_same : mem x deleted = false -> mem x other = false -> FZ_spec x (objs s1 x).
    Lemma FZ_kind : forall x, FZ_spec x (FZ x).
    Proof.
      intros x. unfold FZ. destruct (mem x deleted) eqn:Ed; [|destruct (mem x other) eqn:Eo; constructor; auto].
      apply mem_In in Ed as H. pose proof (g_del _ _ _ _ _ G1 x H) as X.
      constructor; auto using del_not_other. apply (g_in _ _ _ _ _ G1 x X).
    Qed.

    Lemma FZ_att : forall x, oatt (FZ x) = oatt (objs s1 x).
    Proof. intros x. destruct (FZ_kind x); reflexivity. Qed.
    Lemma FZ_vals : forall x, odid (FZ x) = odid (objs s1 x) /\ odv (FZ x) = odv (objs s1 x).
    Proof. intros x. destruct (FZ_kind x); split; reflexivity. Qed.
    Lemma FZ_key : forall x, okey (FZ x) = if mem x other then Some (ikof x) else okey (objs s1 x).
    Proof. intros x. destruct (FZ_kind x) as [_ E _ _|_ E|_ E]; rewrite E; reflexivity. Qed.
    Lemma FZ_delf : forall x, odelf (FZ x) = if mem x deleted then true else odelf (objs s1 x).
    Proof. intros x. destruct (FZ_kind x) as [E _ _ _|E _|E _]; rewrite E; reflexivity. Qed.
    Lemma FZ_untouched : forall x, oin (objs s1 x) = false -> oatt (objs s1 x) = false \/ odelf (objs s1 x) = true ->
      FZ x = objs s1 x.
    Proof.
      intros x Hi Hx. destruct (FZ_kind x) as [_ _ X _|_ Eo|_ _]; [congruence| |reflexivity].
      destruct (other_att x Eo) as [_ [A [B _]]]. destruct Hx; congruence.
    Qed.

    (* the identity map after the flush is rho *)
    Lemma FZ_map : forall x k, rho x = Some k <-> (oin (FZ x) = true /\ okey (FZ x) = Some k).
    Proof.
      intros x k. split.
      - intros Hr. destruct (sg_dom _ _ _ _ _ _ _ S x) as [_ Hd]; [congruence|].
        destruct (FZ_kind x) as [Ed Eo _ _|Ed Eo|Ed Eo]; cbn.
        + apply mem_In in Ed. destruct (fl_deleted _ _ _ F x Ed). congruence.
        + destruct (other_row x Eo (Hdid x Eo)) as [A _]. split; congruence.
        + destruct Hd as [Hd|Hd]; [|assert (mem x other = true) by (apply other_spec; auto); congruence].
          destruct (rest_row x Eo Ed Hd) as [p [A [B _]]]. split; congruence.
      - destruct (FZ_kind x) as [Ed Eo _ _|Ed Eo|Ed Eo]; cbn; intros [H K]; [discriminate| |].
        + destruct (other_row x Eo (Hdid x Eo)) as [A _]. congruence.
        + destruct (rest_row x Eo Ed H) as [p [A [B _]]]. congruence.
    Qed.

    (* deleted state: the row is gone or re-used by an object of the identity map *)
    Lemma final_dels : forall x k, x < n -> okey (FZ x) = Some k -> oatt (FZ x) = true -> odelf (FZ x) = true ->
      W1 k = None \/ exists o', oin (FZ o') = true /\ okey (FZ o') = Some k.
    Proof.
      intros x k Hn Hk Ha Hd. destruct (W1 k) eqn:Ew; [right|left; reflexivity].
      destruct (sg_cover _ _ _ _ _ _ _ S k) as [[y Hy]|[Hsame Horph]]; [unfold W1 in Ew; congruence| |].
      - exists y. apply FZ_map. exact Hy.
      - (* an orphan row cannot sit under the key of a deleted object *)
        exfalso. revert Hk Ha Hd. destruct (FZ_kind x) as [Ed Eo Hi _|Ed Eo|Ed Eo]; cbn; intros Hk Ha Hd.
        + destruct (sl_le _ _ _ _ L x) as [Q1 [_ [_ [Q4 _]]]]. apply (Horph x); congruence.
        + destruct (other_att x Eo) as [_ [_ [X _]]]. congruence.
        + destruct (g_dels _ _ _ _ _ G1 x k Hn Hk Ha Hd) as [X|[x' [X1 X2]]].
          * unfold W1 in Ew. rewrite Hsame in Ew. unfold W0 in X. congruence.
          * destruct (sl_le _ _ _ _ L x') as [Q1 [_ [_ [Q4 _]]]]. apply (Horph x'); congruence.
    Qed.

    Lemma final_good : Good FZ n W1 [] [].
    Proof.
      constructor.
      - intros x. destruct (FZ_kind x) as [Ed Eo _ _|Ed Eo|Ed Eo]; cbn; intros H;
          [discriminate| |exact (g_in _ _ _ _ _ G1 x H)].
        destruct (other_att x Eo) as [A [B [C _]]]. repeat split; auto. discriminate.
      - intros x y k Hx Hy Kx Ky. apply (sg_inj _ _ _ _ _ _ _ S x y k); apply FZ_map; auto.
      - intros x k. destruct (FZ_kind x); cbn; intros Hn Hk Ha Hd; [discriminate|reflexivity|].
        eapply (g_pers _ _ _ _ _ G1); eauto.
      - intros x k Hx Hk. assert (Hr : rho x = Some k) by (apply FZ_map; auto).
        exists (rv x). split; [exact (sg_row _ _ _ _ _ _ _ S x k Hr)|].
        revert Hx Hk. destruct (FZ_kind x) as [Ed Eo _ _|Ed Eo|Ed Eo]; cbn; intros Hx Hk; [discriminate| |].
        + destruct (other_row x Eo (Hdid x Eo)) as [_ [_ [A B]]]. injection Hk as Hk. subst k. unfold VA. cbn.
          repeat split; auto; try congruence; intros; discriminate.
        + destruct (rest_row x Eo Ed Hx) as [p [A [_ [_ [B _]]]]].
          destruct (g_rows _ _ _ _ _ G1 x k Hx Hk) as [v [Hv Hva]]. assert (v = rv x) by congruence. subst v. exact Hva.
      - intros x. split; [intros []|]. intros [Hn [Hk Ha]]. exfalso. revert Hk Ha.
        destruct (FZ_kind x) as [Ed Eo Hi _|Ed Eo|Ed Eo]; cbn; intros Hk Ha; [|discriminate|].
        + destruct (g_in _ _ _ _ _ G1 x Hi) as [_ [_ [_ Y]]]. congruence.
        + assert (In x new) by (apply (g_new _ _ _ _ _ G1); auto).
          assert (mem x other = true) by (apply other_spec; auto). congruence.
      - intros x Hn. destruct (FZ_kind x) as [Ed Eo Hi _|Ed Eo|Ed Eo]; cbn; intros Hk; [|discriminate|].
        + destruct (g_in _ _ _ _ _ G1 x Hi) as [_ [_ [_ Y]]]. congruence.
        + apply (g_newd _ _ _ _ _ G1 x Hn Hk).
      - intros x [].
      - split; constructor.
      - exact final_dels.
      - intros x Hn. destruct (FZ_kind x) as [Ed Eo _ _|Ed Eo|Ed Eo]; cbn; intros Hk Ha Hd.
        + apply mem_In in Ed. destruct (fl_deleted _ _ _ F x Ed) as [_ [A B]]. auto.
        + destruct (other_att x Eo) as [_ [_ [X _]]]. congruence.
        + apply (g_delv _ _ _ _ _ G1 x Hn); auto.
    Qed.

    Lemma final_J : J FZ n.
    Proof.
      intros x Hn. destruct (J1 x Hn) as [A [B C]]. destruct (FZ_kind x); cbn; auto.
    Qed.

    Lemma final_clean : forall x, oin (FZ x) = true -> omod (FZ x) = false.
    Proof.
      intros x. destruct (FZ_kind x) as [Ed Eo _ _|Ed Eo|Ed Eo]; cbn; intros H; [discriminate|reflexivity|].
      destruct (omod (objs s1 x)) eqn:Em; auto. exfalso.
      destruct (g_in _ _ _ _ _ G1 x H) as [Hn _].
      destruct (sl_le _ _ _ _ L x) as [_ [_ [_ [Q4 [Q5 _]]]]].
      assert (In x dirty).
      { apply Hdirty. repeat split; try congruence. intros X. apply mem_In in X. congruence. }
      assert (mem x other = true) by (apply other_spec; auto). congruence.
    Qed.

    (* the frame's relation, for any frame record with the collections finalize leaves *)
    Section Frame.
      Variable fZ : frame.
      Hypothesis Hfn : forall x, mem x (fnew fZ) = mem x (fnew f) || (mem x other && mem x new).
      Hypothesis Hfd : forall x, mem x (fdirty fZ) = mem x (fdirty f) || (mem x other && negb (mem x new)).
      Hypothesis Hfl : forall x, mem x (fdel fZ) = mem x (fdel f) || mem x deleted.
      Hypothesis Hfk : fks fZ = ks_after (fun o => okey (objs s1 o)) ikof other (fks f).

      (* what a restore of the new frame record would do, in terms of the old one *)
      Lemma fz_exp : forall x, expunged fZ [] x = expunged f new x.
      Proof.
        intros x. unfold expunged. rewrite Hfn. cbn. rewrite orb_false_r.
        destruct (mem x new) eqn:En; [|rewrite andb_false_r, orb_false_r; reflexivity].
        assert (mem x other = true) by (apply other_spec; left; apply mem_In; auto). rewrite H. reflexivity.
      Qed.
      Lemma fz_ks : forall x, ks_find x (fks fZ) =
        if mem x other then ks_find x (reg_ks x (okey (objs s1 x)) (ikof x) (fks f)) else ks_find x (fks f).
      Proof. intros x. rewrite Hfk. apply ks_after_find. exact other_nodup. Qed.
      Lemma fz_pkey : forall x, mem x new = false -> pkey fZ FZ x = pkey f (objs s1) x.
      Proof.
        intros x Hn. unfold pkey. rewrite fz_ks, FZ_key. destruct (mem x other) eqn:Eo; auto.
        destruct (other_att x Eo) as [_ [_ [_ [[X _]|[_ [_ X]]]]]]; [apply mem_In in X; congruence|].
        destruct (g_in _ _ _ _ _ G1 x X) as [_ [_ [_ Y]]]. destruct (okey (objs s1 x)) as [k|] eqn:Ek; [|congruence].
        rewrite ks_find_reg, Nat.eqb_refl. destruct (Z.eqb_spec k (ikof x)).
        - destruct (ks_find x (fks f)) as [[old nw]|]; congruence.
        - destruct (ks_find x (fks f)) as [[old nw]|]; reflexivity.
      Qed.
      Lemma fz_pdelf : forall x, pdelf fZ FZ [] x = pdelf f (objs s1) deleted x.
      Proof.
        intros x. unfold pdelf. rewrite Hfl, FZ_delf. cbn. rewrite orb_false_r.
        destruct (mem x (fdel f)); cbn; auto. destruct (mem x deleted); reflexivity.
      Qed.

      Lemma final_rel : Rel g fZ FZ n [] [] W1.
      Proof.
        destruct R1 as [r_n0 r_exp0 r_id0 r_fresh0 r_row0 r_delv0 r_ks0 r_del0 r_lists0 r_ksu0 r_dirty0 r_keep0].
        assert (Hnew_not : forall x, expunged f new x = false -> mem x new = false).
        { intros x H. unfold expunged in H. apply orb_false_elim in H. tauto. }
        assert (Hnoks : forall x, expunged f new x = false -> mem x (fdirty f) = false -> ks_find x (fks f) = None).
        { intros x He Hd. apply orb_false_elim in He. exact (Rel_ks_none _ _ _ _ _ _ _ x R1 (proj1 He) Hd). }
        assert (Hnoth : forall x, expunged f new x = false ->
                  mem x (fdirty f) || (mem x other && negb (mem x new)) = false -> mem x (fdirty f) = false /\ mem x other = false).
        { intros x He Hd. apply orb_false_elim in Hd. destruct Hd as [Hd1 Hd2]. split; auto.
          rewrite (Hnew_not x He) in Hd2. cbn in Hd2. rewrite andb_true_r in Hd2. exact Hd2. }
        constructor.
        - exact r_n0.
        - intros x Hx He. rewrite fz_exp in He. auto.
        - intros x Hx He. rewrite fz_exp in He. destruct (r_id0 x Hx He) as [A B]. rewrite FZ_att. split; auto.
          intros Ha. destruct (B Ha). rewrite fz_pkey, fz_pdelf by (apply Hnew_not; auto). auto.
        - intros x H1 H2. rewrite fz_exp. destruct (r_fresh0 x H1 H2) as [A|[A B]]; auto. right.
          rewrite FZ_untouched; auto.
        - (* rows the frame did not write *)
          intros x k Hx He Hi Hd Hdl Hk. rewrite fz_exp in He. rewrite Hfd in Hd. rewrite Hfl in Hdl.
          destruct (Hnoth x He Hd) as [Hd1 Eo]. apply orb_false_elim in Hdl. destruct Hdl as [Hl1 Hl2].
          rewrite <- (r_row0 x k Hx He Hi Hd1 Hl1 Hk).
          (* x is untouched and still in the identity map under k *)
          destruct (Rel_untouched g f _ _ _ _ _ x k GC G1 R1 Hx Hi Hk He Hd1 Hl1 Hl2) as [Hin [P1 _]].
          destruct (rest_row x Eo Hl2 Hin) as [p [P1' [_ [P2 [P3 _]]]]].
          assert (p = k) by congruence. subst p. unfold W1, W0 in *. congruence.
        - (* values of objects deleted in the frame *)
          intros x k v Hx He Hdl Hd Hm Hk Hw. rewrite fz_exp in He. rewrite Hfd in Hd. rewrite Hfl in Hdl.
          destruct (Hnoth x He Hd) as [Hd1 Eo]. destruct (FZ_vals x) as [V1 V2]. rewrite V1, V2.
          destruct (mem x (fdel f)) eqn:El.
          + destruct (r_del0 x El) as [_ [Y [Z _]]]. rewrite FZ_untouched in Hm by auto. eapply r_delv0; eauto.
          + cbn in Hdl. revert Hm. destruct (FZ_kind x) as [_ _ Hin Hn|Ed _|Ed _]; [|congruence|congruence]. cbn. intros Hm.
            destruct (r_id0 x Hx He) as [A B].
            destruct (g_in _ _ _ _ _ G1 x Hin) as [_ [Xa [Xd Xk]]].
            assert (Xa' : oatt (gobjs g x) = true) by congruence. destruct (B Xa') as [B1 B2].
            unfold pkey in B1. rewrite (Hnoks x He Hd1) in B1.
            assert (Hk1 : okey (objs s1 x) = Some k) by congruence.
            destruct (g_rows _ _ _ _ _ G1 x k Hin Hk1) as [v0 [Hv0 [U1 [_ [U3 _]]]]].
            destruct (J1 x Hn) as [_ [_ J3]]. destruct (J3 Hm) as [C1 C2].
            assert (Hio : oin (gobjs g x) = true).
            { unfold pdelf in B2. rewrite El, Hdl in B2. cbn in B2. apply (g_pers _ _ _ _ _ GG x k); auto. }
            rewrite (r_row0 x k Hx He Hio Hd1 El Hk) in Hv0. assert (v0 = v) by congruence. subst v0. auto.
        - (* key switches *)
          intros x old nw Hk. rewrite fz_ks in Hk. rewrite FZ_key, FZ_att, Hfn, Hfd. destruct (mem x other) eqn:Eo.
          + destruct (other_att x Eo) as [Hn [Ha _]].
            assert (Hfl' : mem x (fnew f) || (true && mem x new) = true \/ mem x (fdirty f) || (true && negb (mem x new)) = true).
            { cbn. destruct (mem x new); [left|right]; apply orb_true_r. }
            rewrite ks_find_reg, Nat.eqb_refl in Hk. destruct (okey (objs s1 x)) as [k|] eqn:Ek.
            * destruct (Z.eqb_spec k (ikof x)).
              -- destruct (r_ks0 x old nw Hk) as [_ [B _]]. repeat split; auto. congruence.
              -- inversion Hk; subst. repeat split; auto.
            * destruct (r_ks0 x old nw Hk) as [_ [B _]]. congruence.
          + destruct (r_ks0 x old nw Hk) as [A [B [C D]]]. repeat split; auto.
            destruct D as [D|D]; rewrite D; auto.
        - (* deleted in the frame *)
          intros x Hdl. rewrite Hfl in Hdl. destruct (mem x (fdel f)) eqn:El.
          + destruct (r_del0 x El) as [A [B [C D]]]. rewrite FZ_untouched; auto.
          + cbn in Hdl. destruct (FZ_kind x) as [_ _ Hin Hn|Ed _|Ed _]; [|congruence|congruence]. cbn.
            destruct (g_in _ _ _ _ _ G1 x Hin) as [_ [Xa [_ Xk]]]. auto.
        - intros x [H|H]; [rewrite Hfn in H|rewrite Hfd in H]; apply orb_prop in H; destruct H as [H|H]; auto;
            apply andb_prop in H; destruct H as [H _]; destruct (other_att x H); auto.
        - rewrite Hfk. apply ks_after_nodup. exact r_ksu0.
        - (* flushed as dirty *)
          intros x H. rewrite Hfd in H. rewrite Hfn. apply orb_prop in H. destruct H as [H|H].
          + destruct (r_dirty0 x H) as [X|X]; [left; rewrite X; reflexivity|right; exact X].
          + apply andb_prop in H. destruct H as [Eo Hnn]. apply negb_true_iff in Hnn.
            destruct (other_att x Eo) as [Hn [Ha [Hd [[X _]|[Xd [_ Hin]]]]]]; [apply mem_In in X; congruence|].
            destruct (mem x (fnew f)) eqn:Ef; [left; reflexivity|right].
            apply (Rel_in_was_in g f _ _ _ _ _ x GC G1 R1 Hin). unfold expunged. rewrite Ef, Hnn. reflexivity.
        - (* objects in the deleted state since before the frame *)
          intros x Hx Ha Hi. rewrite FZ_untouched.
          + apply r_keep0; auto.
          + eapply (Rel_notin g f (objs s1) n new deleted W0); eauto.
          + destruct (expunged f new x) eqn:He; [pose proof (r_exp0 x Hx He); congruence|].
            destruct (r_id0 x Hx He) as [A B]. destruct (B Ha) as [_ B2].
            (* in the deleted state then: in the deleted state now, or deleted since *)
            right. rewrite (clean_out_deleted g x GC Hx Ha Hi) in B2. unfold pdelf in B2. destruct (_ || _); congruence.
      Qed.
    End Frame.
  End Final.

  Theorem flush_body_spec : forall fk fc r sZ, flush_body_k fk fc new dirty deleted s0 = (r, sZ) -> r <> Unmodelled ->
    (r = Ok -> FlushDone s0 g f rest sZ) /\ (r <> Ok -> SigL s0 g f sZ).
  Proof.
    intros fk fc r sZ H Hr. unfold flush_body_k in H.
    rewrite <- bind_assoc in H. apply bind_inv in H. destruct H as [[s1 [H1 H]]|[H1 Hn]].
    2:{ split; [congruence|]. intros _. exact (flush_pre_spec fk fc r sZ H1 Hr). }
    destruct (flush_pre_sig fk fc Ok s1 H1) as [X _]; [discriminate|]. destruct (X eq_refl) as [rho [rv F]]. clear X.
    destruct (finalize_run s1 rho rv F r sZ H Hr) as [-> [s3 [Hreg ->]]]. split; [|congruence]. intros _.
    destruct (s4_rest s1 rho rv F s3 Hreg) as (fZ & SZ & I1 & I2 & I3 & I4 & I5 & Fn & Fd & Fl & Fk & N1 & N2 & E).
    pose proof (s4_objs s1 rho rv F s3 Hreg) as OZ.
    assert (Ext : forall x, FZ s1 x = objs (fold_left (fun s o => commit_one o s) (filter (fun o => mem o new || mem o dirty) (seq 0 n)) s3) x)
      by (intros; symmetry; apply OZ).
    destruct (fs_n s1 rho rv F) as [Hn1 _]. destruct E as [E1 [E2 [E3 [E4 [E5 [E6 E7]]]]]].
    destruct (sl_rest _ _ _ _ (sg_l _ _ _ _ _ _ _ (fl_sig _ _ _ F))) as [T1 [T2 [T3 [T4 [T5 [T6 [T7 [T8 T9]]]]]]]].
    exists fZ. cbn [stack objs work snew sdel nobj committed saves nfid eoc handles set_snew].
    split; [exact SZ|]. do 5 (split; [assumption|]). rewrite E2.
    split; [eapply Good_obj_ext; [exact Ext|apply (final_good s1 rho rv F s3 Hreg)]|].
    split; [eapply J_obj_ext; [exact Ext|apply (final_J s1 rho rv F s3 Hreg)]|].
    split; [eapply Rel_obj_ext; [exact Ext|apply (final_rel s1 rho rv F); auto]|].
    split; [intros x; rewrite <- Ext; apply (final_clean s1 rho rv F)|].
    split; [rewrite N1; apply filter_nil; intros x Hx; apply negb_false_iff, other_spec; auto|].
    split; [exact N2|]. do 6 (split; [congruence|]).
    intros x Hx. rewrite Fk in Hx. exact (ks_grow s1 rho rv F s3 Hreg x Hx).
  Qed.
End Flush.
