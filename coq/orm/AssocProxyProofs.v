(* C50 - a proxy operation is the builtin's operation on the view.  First facts about the builtin
   list / dict / set alone; then the three ways a proxy changes its state (the collection shrinks:
   wf_with_col; a created intermediary joins it: wf_create, map_fresh; a value is stored into a
   member: map_set_nth_updf); then the list, dict and set proxies and whole-collection assignment. *)
From Coq Require Import List ZArith Bool Arith Lia Permutation.
Import ListNotations.
From SAV.base Require Import PySlice PySliceProofs.
From SAV.orm Require Import CollBase CollProofs CollList CollSet CollSetProofs CollDict CollDictProofs AssocProxy
  OrderingListProofs.
Local Open Scope nat_scope.

Lemma mem_false : forall x l, mem x l = false <-> ~ In x l.
Proof. intros; rewrite <- mem_In; destruct (mem x l); split; congruence. Qed.

Lemma imul_succ : forall (l : list Z) n, (1 < n)%Z -> py_imul l n = l ++ py_imul l (n - 1)%Z.
Proof.
  intros l n H. unfold py_imul.
  destruct (n <=? 0)%Z eqn:E1; [lia|]. destruct (n - 1 <=? 0)%Z eqn:E2; [lia|].
  replace (Z.to_nat n) with (S (Z.to_nat (n - 1))) by lia. reflexivity.
Qed.

Lemma clamp_in : forall len v, (0 <= v <= len)%Z -> clamp_index 1 len v = v.
Proof.
  intros len v H. unfold clamp_index.
  destruct (v <? 0)%Z eqn:E; [lia|]. destruct (len <=? v)%Z eqn:E2; simpl; lia.
Qed.

Section MapComm.
Variables (A B : Type) (f : A -> B).
Lemma zlen_map : forall l, zlen (map f l) = zlen l.
Proof. intros; unfold zlen; rewrite map_length; reflexivity. Qed.
Lemma map_insert : forall l i x, map f (py_insert l i x) = py_insert (map f l) i (f x).
Proof.
  intros; unfold py_insert. rewrite zlen_map, map_app, firstn_map. simpl. rewrite skipn_map. reflexivity.
Qed.
Lemma map_del_nth : forall n l, map f (del_nth n l) = del_nth n (map f l).
Proof. induction n; destruct l; simpl; auto. f_equal; auto. Qed.
Lemma map_sel : forall js l, map f (sel js l) = sel js (map f l).
Proof.
  induction js; simpl; auto. intros l. rewrite map_app, IHjs. f_equal.
  rewrite nth_error_map. destruct (nth_error l a); reflexivity.
Qed.
Lemma map_drop_idx : forall idx l, map f (drop_idx idx l) = drop_idx idx (map f l).
Proof. intros; unfold drop_idx. rewrite map_sel, map_length. reflexivity. Qed.
Lemma delslice_map : forall l sl,
  py_delslice (map f l) sl = match py_delslice l sl with Ok c => Ok (map f c) | Raise e => Raise e end.
Proof.
  intros; unfold py_delslice. rewrite zlen_map.
  destruct (adjust sl (zlen l)) as [[[a b] c]|e]; auto. rewrite map_drop_idx. reflexivity.
Qed.
Lemma delitem_map : forall l i,
  py_delitem (map f l) i = match py_delitem l i with Ok c => Ok (map f c) | Raise e => Raise e end.
Proof.
  intros; unfold py_delitem. rewrite zlen_map. destruct (norm_index i (zlen l)); auto.
  rewrite map_del_nth; reflexivity.
Qed.
Lemma pop_map : forall l i,
  py_pop (map f l) i = match py_pop l i with Ok (x, c) => Ok (f x, map f c) | Raise e => Raise e end.
Proof.
  intros; unfold py_pop. rewrite zlen_map. destruct (norm_index i (zlen l)); auto.
  rewrite nth_error_map. destruct (nth_error l n); simpl; auto. rewrite map_del_nth; reflexivity.
Qed.
End MapComm.

(* a list as pre ++ mid ++ post: the shape in which the slice loops are followed *)
Section Split.
Context {A : Type}.
Lemma del_nth_app : forall (pre : list A) x r, del_nth (length pre) (pre ++ x :: r) = pre ++ r.
Proof. induction pre; simpl; intros; auto. f_equal; auto. Qed.
Lemma py_insert_app : forall (pre post : list A) x,
  py_insert (pre ++ post) (Z.of_nat (length pre)) x = pre ++ x :: post.
Proof.
  intros. unfold py_insert, insert_pos. destruct (Z.of_nat (length pre) <? 0)%Z eqn:E; [lia|].
  rewrite Z.min_l by (unfold zlen; rewrite app_length; lia).
  rewrite Nat2Z.id, firstn_app, firstn_all, Nat.sub_diag, skipn_app, skipn_all, Nat.sub_diag. simpl.
  rewrite app_nil_r. reflexivity.
Qed.
Lemma NoDup_app_mid : forall (pre mid post : list A), NoDup (pre ++ mid ++ post) -> NoDup (pre ++ post).
Proof. induction mid; simpl; intros post H; auto. apply IHmid. eapply NoDup_remove_1; eauto. Qed.
Lemma slice_split : forall (l : list A) a b, a <= b <= length l ->
  exists mid, length mid = b - a /\ l = firstn a l ++ mid ++ skipn b l.
Proof.
  intros l a b H. exists (skipn a (firstn b l)). split.
  - rewrite skipn_length, firstn_length. lia.
  - replace (firstn a l) with (firstn a (firstn b l)) by (rewrite firstn_firstn, Nat.min_l by lia; reflexivity).
    rewrite app_assoc, !firstn_skipn. reflexivity.
Qed.
End Split.

Lemma firstn_skipn_del : forall (l : list nat) a, a < length l ->
  del_nth a l = firstn a l ++ skipn (S a) l.
Proof. intros; apply del_nth_split. Qed.

Lemma d_set_absent : forall k v d, d_get k d = None -> d_set k v d = d ++ [(k, v)].
Proof.
  induction d as [|[k' v'] r IH]; simpl; intros H; auto.
  destruct (Z.eqb k k'); [discriminate|]. rewrite IH; auto.
Qed.

Definition keys (d : pydict) : list Z := map fst d.

Lemma d_get_None_notin : forall k d, d_get k d = None <-> ~ In k (keys d).
Proof. exact d_get_None. Qed.

Lemma keys_d_set : forall k v d x, In x (keys (d_set k v d)) <-> x = k \/ In x (keys d).
Proof.
  intros k v d x. unfold keys. rewrite d_set_keys. unfold d_has.
  destruct (d_get k d) eqn:E; [|rewrite in_app_iff; simpl; intuition].
  split; auto. intros [->|H]; auto.
  destruct (in_dec Z.eq_dec k (map fst d)) as [|N]; auto. apply d_get_None in N. congruence.
Qed.

Lemma d_set_comm_present : forall k v k1 v1 d, k <> k1 -> In k (keys d) ->
  d_set k v (d_set k1 v1 d) = d_set k1 v1 (d_set k v d).
Proof.
  induction d as [|[k' v'] r IH]; simpl; intros N H; [contradiction|].
  destruct (Z.eqb_spec k1 k'); destruct (Z.eqb_spec k k'); subst; simpl.
  - congruence.
  - destruct (Z.eqb_spec k k'); [congruence|]. rewrite Z.eqb_refl. reflexivity.
  - rewrite Z.eqb_refl. destruct (Z.eqb_spec k1 k'); [congruence|]. reflexivity.
  - destruct (Z.eqb_spec k k'); [congruence|]. destruct (Z.eqb_spec k1 k'); [congruence|].
    f_equal. apply IH; auto. destruct H; [simpl in *; congruence|auto].
Qed.

Lemma d_set_idem : forall k v v' d, d_set k v (d_set k v' d) = d_set k v d.
Proof.
  induction d as [|[k' w] r IH]; simpl.
  - rewrite Z.eqb_refl. reflexivity.
  - destruct (Z.eqb_spec k k'); simpl.
    + rewrite Z.eqb_refl. reflexivity.
    + destruct (Z.eqb_spec k k'); [congruence|]. f_equal; auto.
Qed.

Lemma d_update_cons : forall d k v r, d_update d ((k, v) :: r) = d_update (d_set k v d) r.
Proof. reflexivity. Qed.

Lemma set_update_comm : forall r k v d, ~ In k (keys r) -> In k (keys d) ->
  d_set k v (d_update d r) = d_update (d_set k v d) r.
Proof.
  induction r as [|[k1 v1] r IH]; intros k v d N H; auto.
  rewrite !d_update_cons, IH.
  - f_equal. apply d_set_comm_present; auto. intro; subst; apply N; left; auto.
  - intro; apply N; right; auto.
  - apply keys_d_set; auto.
Qed.

Lemma update_set_unique : forall m k v d, NoDup (keys m) ->
  d_update d (d_set k v m) = d_set k v (d_update d m).
Proof.
  induction m as [|[k' v'] r IH]; intros k v d ND; auto.
  inversion ND; subst. simpl d_set.
  destruct (Z.eqb_spec k k') as [->|]; rewrite !d_update_cons; [|apply IH; auto].
  rewrite set_update_comm, d_set_idem; auto. apply keys_d_set; auto.
Qed.

Lemma update_update : forall ps m d, NoDup (keys m) ->
  d_update d (d_update m ps) = d_update (d_update d m) ps.
Proof.
  induction ps as [|[k v] r IH]; intros m d ND; auto.
  rewrite !d_update_cons, IH by (apply d_set_wf; auto).
  rewrite update_set_unique; auto.
Qed.

Lemma NoDup_keys_update : forall ps m, NoDup (keys m) -> NoDup (keys (d_update m ps)).
Proof.
  induction ps as [|[k v] r IH]; intros m ND; auto.
  rewrite d_update_cons. apply IH. apply d_set_wf; auto.
Qed.

Lemma d_get_set : forall k k1 v1 d, d_get k (d_set k1 v1 d) = if Z.eqb k k1 then Some v1 else d_get k d.
Proof.
  induction d as [|[k' v'] r IH]; simpl.
  - reflexivity.
  - destruct (Z.eqb_spec k1 k'); simpl.
    + subst. destruct (Z.eqb k k'); reflexivity.
    + rewrite IH. destruct (Z.eqb_spec k k'); destruct (Z.eqb_spec k k1); subst; try congruence; reflexivity.
Qed.

(* lookup after an update, by induction over the pairs: d' holds what the pairs have written so far
   over d0 (used with d' = [], d0 = d) *)
Lemma d_get_update_rel : forall m d d' d0,
  (forall k, d_get k d = match d_get k d' with Some v => Some v | None => d_get k d0 end) ->
  forall k, d_get k (d_update d m) = match d_get k (d_update d' m) with Some v => Some v | None => d_get k d0 end.
Proof.
  induction m as [|[k1 v1] r IH]; intros d d' d0 H k; auto.
  rewrite !d_update_cons. apply IH.
  intros k2. rewrite !d_get_set. destruct (Z.eqb k2 k1); auto.
Qed.

Lemma d_get_update_keys : forall m d' k,
  (mem k (map fst m) = true -> d_get k (d_update d' m) <> None) /\
  (mem k (map fst m) = false -> d_get k (d_update d' m) = d_get k d').
Proof.
  induction m as [|[k1 v1] r IH]; intros d' k.
  - simpl. split; [discriminate|auto].
  - rewrite d_update_cons. cbn [map fst mem existsb]. fold (mem k (map fst r)).
    destruct (IH (d_set k1 v1 d') k) as [A B]. split.
    + intros H. destruct (mem k (map fst r)) eqn:M; [auto|].
      rewrite (B eq_refl), d_get_set. apply orb_prop in H. destruct H as [H|H]; [|discriminate].
      rewrite H. discriminate.
    + intros H. apply orb_false_elim in H. destruct H as [H1 H2].
      rewrite (B H2), d_get_set, H1. reflexivity.
Qed.

Lemma d_get_del : forall k k1 d, d_get k (d_del k1 d) = if Z.eqb k k1 then None else d_get k d.
Proof.
  induction d as [|[k' v'] r IH]; simpl.
  - destruct (Z.eqb k k1); reflexivity.
  - destruct (Z.eqb_spec k1 k'); simpl.
    + subst. rewrite IH. destruct (Z.eqb_spec k k'); reflexivity.
    + rewrite IH. destruct (Z.eqb_spec k k'); destruct (Z.eqb_spec k k1); subst; try congruence; reflexivity.
Qed.

Lemma set_diff_fold : forall vs (l : list Z),
  fold_left (fun acc v => set_discard v acc) vs l = set_diff l vs.
Proof.
  induction vs as [|v r IH]; intros l; simpl; [symmetry; apply set_diff_nil|].
  rewrite IH. apply set_diff_cons.
Qed.

(* well-formed: the members are distinct intermediaries that have been created *)
Definition wf (s : px) : Prop := NoDup (col s) /\ forall o, In o (col s) -> o < nxt s.

Lemma wf_empty : wf px_empty.
Proof. split; [constructor|intros o []]. Qed.

Lemma wf_with_col : forall s c, NoDup c -> incl c (col s) -> wf s -> wf (with_col s c).
Proof. intros s c ND Sub [_ B]; split; simpl; auto. Qed.
Lemma wf_nil : forall s, wf s -> wf (with_col s []).
Proof. intros s; apply wf_with_col; [constructor|intros o []]. Qed.
Lemma wf_del_nth : forall s n, wf s -> wf (with_col s (del_nth n (col s))).
Proof. intros s n W. apply wf_with_col; auto using del_nth_incl. apply NoDup_del_nth, W. Qed.
Lemma wf_filter : forall s p, wf s -> wf (with_col s (filter p (col s))).
Proof.
  intros s p W. apply wf_with_col; auto; [apply NoDup_filter, W|].
  intros o Ho; apply filter_In in Ho; apply Ho.
Qed.

Lemma wf_create : forall s k v c, wf s -> Permutation (nxt s :: col s) c ->
  wf (with_col (fst (create s k v)) c).
Proof.
  intros s k v c [ND B] P. split; simpl.
  - apply (Permutation_NoDup P). constructor; auto. intro H. apply B in H. lia.
  - intros o Ho. apply (Permutation_in _ (Permutation_sym P)) in Ho as [<-|Ho]; auto.
    apply B in Ho. lia.
Qed.

Lemma updf_other : forall f k v j, j <> k -> updf f k v j = f j.
Proof. intros; unfold updf. destruct (Nat.eqb_spec j k); congruence. Qed.
Lemma updf_same : forall f k v, updf f k v k = v.
Proof. intros; unfold updf; rewrite Nat.eqb_refl; reflexivity. Qed.

Lemma map_fresh : forall (g : nat -> Z) n v l, (forall o, In o l -> o < n) ->
  map (updf g n v) l = map g l.
Proof. intros g n v l H. apply map_ext_in. intros o Ho. apply updf_other. apply H in Ho. lia. Qed.

Lemma map_set_nth_updf : forall (g : nat -> Z) n o v l, NoDup l -> nth_error l n = Some o ->
  map (updf g o v) l = set_nth n v (map g l).
Proof.
  intros g n o v l. revert n. induction l as [|a r IH]; intros n ND H; [destruct n; discriminate|].
  inversion ND; subst. destruct n; simpl in *.
  - inversion H; subst. rewrite updf_same. f_equal. apply map_ext_in. intros x Hx.
    apply updf_other. intro; subst; auto.
  - rewrite (IH n H3 H). f_equal. apply updf_other. intro; subst. apply H2. eapply nth_error_In; eauto.
Qed.

(* [P /\ view = l] is how the lemmas below speak of one operation; the theorems pair the view with
   the result class *)
Lemma with_result : forall (R V : Type) (P : Prop) (r : R) (x y : V), P /\ x = y -> P /\ (r, x) = (r, y).
Proof. intros R V P r x y [H ->]; auto. Qed.

(* a bulk operation repeats a single-element one: it is the fold of the builtin's single-element
   operation over the view, whatever the collection (I is wf or wfs, view is to_list or to_dict) *)
Lemma fold_view : forall (X V : Type) (I : px -> Prop) (view : px -> V) (step : px -> X -> px)
    (ref : V -> X -> V),
  (forall s x, I s -> I (step s x) /\ view (step s x) = ref (view s) x) ->
  forall xs s, I s -> I (fold_left step xs s) /\ view (fold_left step xs s) = fold_left ref xs (view s).
Proof.
  intros X V I view step ref H. induction xs as [|x r IH]; intros s W; simpl; auto.
  destruct (H s x W) as [W1 E1]. destruct (IH _ W1) as [W2 E2]. split; auto. rewrite E2, E1. reflexivity.
Qed.

Lemma find_val_shift : forall (g : nat -> Z) v c k,
  find_val g v c (S k) = option_map S (find_val g v c k).
Proof. induction c as [|o r IH]; intros k; simpl; auto. destruct (Z.eqb (g o) v); auto. Qed.
Lemma remove_first_map : forall (g : nat -> Z) v c,
  remove_first v (map g c) = option_map (fun j => map g (del_nth j c)) (find_val g v c 0).
Proof.
  induction c as [|o r IH]; simpl; auto.
  rewrite Z.eqb_sym. destruct (Z.eqb (g o) v); auto.
  rewrite find_val_shift, IH. destruct (find_val g v r 0); reflexivity.
Qed.

Lemma append_view : forall s v, wf s ->
  wf (pl_append s v) /\ to_list (pl_append s v) = to_list s ++ [v].
Proof.
  intros s v W. split; [apply wf_create, Permutation_cons_append; auto|].
  unfold to_list; simpl. rewrite map_app, map_fresh by apply W. simpl. rewrite updf_same. reflexivity.
Qed.

Lemma extend_view : forall vs s, wf s ->
  wf (pl_extend s vs) /\ to_list (pl_extend s vs) = to_list s ++ vs.
Proof.
  induction vs as [|v r IH]; intros s W; simpl.
  - rewrite app_nil_r; auto.
  - destruct (append_view s v W) as [W1 E1]. destruct (IH _ W1) as [W2 E2].
    split; auto. unfold pl_extend in *. rewrite E2, E1, <- app_assoc. reflexivity.
Qed.

Lemma insert_view : forall s i v, wf s ->
  wf (pl_insert s i v) /\ to_list (pl_insert s i v) = py_insert (to_list s) i v.
Proof.
  intros s i v W. split; [apply wf_create, py_insert_perm; auto|].
  unfold to_list; simpl. rewrite map_insert, map_fresh by apply W. rewrite updf_same. reflexivity.
Qed.

(* l[a:b] = vs on the proxy, a <= b <= len: [del self[a]] once for each member of the slice, then
   the new values are inserted from a on *)
Lemma del_loop_spec : forall mid s pre post, col s = pre ++ mid ++ post ->
  pl_del_loop (length mid) (Z.of_nat (length pre)) s = (POk, with_col s (pre ++ post)).
Proof.
  induction mid as [|x mid IH]; intros s pre post C; simpl in *.
  - destruct s; simpl in *; subst; reflexivity.
  - unfold pl_delitem, py_delitem.
    rewrite norm_index_nonneg by (unfold zlen; rewrite C, !app_length; simpl; lia).
    rewrite Nat2Z.id, C, del_nth_app. apply (IH (with_col s (pre ++ mid ++ post))). reflexivity.
Qed.

Lemma ins_loop_view : forall vs s pre post, wf s -> col s = pre ++ post ->
  wf (pl_ins_loop (Z.of_nat (length pre)) vs s) /\
  to_list (pl_ins_loop (Z.of_nat (length pre)) vs s) = map (pval s) pre ++ vs ++ map (pval s) post.
Proof.
  induction vs as [|v r IH]; intros s pre post W C; simpl.
  - split; auto. unfold to_list. rewrite C. apply map_app.
  - destruct (insert_view s (Z.of_nat (length pre)) v W) as [W1 _].
    assert (C1 : col (pl_insert s (Z.of_nat (length pre)) v) = (pre ++ [nxt s]) ++ post).
    { unfold pl_insert; simpl. rewrite C, py_insert_app, <- app_assoc. reflexivity. }
    destruct (IH _ _ _ W1 C1) as [W2 E]. rewrite app_length, Nat.add_1_r in *.
    replace (Z.of_nat (length pre) + 1)%Z with (Z.of_nat (S (length pre))) by lia.
    split; auto. rewrite E. unfold pl_insert; simpl.
    assert (B : forall o, In o (pre ++ post) -> o < nxt s) by (rewrite <- C; apply W).
    rewrite map_app, (map_fresh _ _ _ pre), (map_fresh _ _ _ post), <- app_assoc
      by auto using in_or_app.
    simpl. rewrite updf_same. reflexivity.
Qed.

Lemma slice1_view : forall s a b vs, wf s -> a <= b <= length (col s) ->
  exists s1, pl_del_loop (b - a) (Z.of_nat a) s = (POk, s1) /\
  wf (pl_ins_loop (Z.of_nat a) vs s1) /\
  to_list (pl_ins_loop (Z.of_nat a) vs s1) = firstn a (to_list s) ++ vs ++ skipn b (to_list s).
Proof.
  intros s a b vs W H. destruct (slice_split (col s) a b H) as (mid & Lm & C).
  set (pre := firstn a (col s)) in *. set (post := skipn b (col s)) in *.
  assert (La : length pre = a) by (unfold pre; rewrite firstn_length; lia).
  exists (with_col s (pre ++ post)). rewrite <- Lm, <- La.
  split; [apply del_loop_spec, C|].
  destruct (ins_loop_view vs (with_col s (pre ++ post)) pre post) as [W1 E]; [|reflexivity|].
  { apply wf_with_col; auto.
    - apply (NoDup_app_mid pre mid post). rewrite <- C. apply W.
    - rewrite C. apply incl_app; [apply incl_appl|apply incl_appr, incl_appr]; apply incl_refl. }
  split; auto. rewrite E, La. unfold to_list, pre, post. simpl. rewrite firstn_map, skipn_map. reflexivity.
Qed.

(* extended slice: the values are stored into the existing intermediaries *)
Lemma set_loop_view : forall ivs s, wf s ->
  (forall i v, In (i, v) ivs -> (0 <= i < zlen (col s))%Z) ->
  fst (pl_set_loop ivs s) = POk /\ wf (snd (pl_set_loop ivs s)) /\
  to_list (snd (pl_set_loop ivs s)) = assign_at (to_list s) ivs.
Proof.
  induction ivs as [|[i v] r IH]; intros s W B; simpl; auto.
  assert (Bi : (0 <= i < zlen (col s))%Z) by (apply (B i v); left; auto).
  unfold py_getitem. rewrite norm_index_nonneg by assumption.
  destruct (nth_error (col s) (Z.to_nat i)) as [o|] eqn:E;
    [|apply nth_error_None in E; unfold zlen in Bi; lia].
  destruct (IH (set_val s o v) W) as (R & W2 & T).
  { intros j w Hj. apply (B j w). right; auto. }
  split; auto. split; auto. rewrite T. unfold assign_at. simpl. f_equal.
  unfold to_list. simpl. apply map_set_nth_updf; auto. apply W.
Qed.

Theorem proxy_list_is_view : forall s o, wf s -> pl_guard s o = true ->
  wf (snd (pl_step s o)) /\
  (fst (pl_step s o), to_list (snd (pl_step s o))) = plop_ref (to_list s) o.
Proof.
  intros s o W G.
  destruct o as [v|vs|i v|oi|v|i v|sl vs|i|sl| |vs|n| | |vs]; try discriminate;
    cbn [pl_step plop_ref py_list_op materialise fst snd].
  - apply with_result, append_view, W.
  - apply with_result, extend_view, W.
  - apply with_result, insert_view, W.
  - unfold to_list. rewrite pop_map.
    destruct (py_pop (col s) (match oi with Some i => i | None => (-1)%Z end)) as [[x c]|e] eqn:E; simpl; auto.
    split; auto. unfold py_pop in E. destruct (norm_index _ (zlen (col s))); [|discriminate].
    destruct (nth_error (col s) n); inversion E. apply wf_del_nth, W.
  - unfold to_list, py_remove. rewrite remove_first_map.
    destruct (find_val (pval s) v (col s) 0) as [k|]; simpl; auto using wf_del_nth.
  - unfold to_list, py_setitem, py_getitem. rewrite zlen_map.
    destruct (norm_index i (zlen (col s))) as [n|] eqn:N; simpl; auto.
    pose proof (norm_index_lt _ _ _ _ N) as Hlt.
    destruct (nth_error (col s) n) as [o|] eqn:E; [|apply nth_error_None in E; lia].
    simpl. split; [exact W|]. f_equal. apply map_set_nth_updf; auto. apply W.
  - (* slice assignment: any slice *)
    unfold pl_setslice, py_setslice.
    replace (zlen (to_list s)) with (zlen (col s)) by (symmetry; apply zlen_map).
    assert (Hl : (0 <= zlen (col s))%Z) by (unfold zlen; lia).
    destruct (adjust sl (zlen (col s))) as [[[start stop] step]|e] eqn:A; [|simpl; auto].
    destruct (adjust_bounds _ _ _ _ _ Hl A) as (Hs & Hp & Hn).
    destruct (Z.eqb_spec step 1) as [->|N1].
    + destruct (Hp ltac:(lia)) as [B1 B2].
      set (a := Z.to_nat start). set (b := Z.to_nat (Z.max start stop)).
      destruct (slice1_view s a b vs W) as (s1 & D & W1 & E); [unfold a, b, zlen in *; lia|].
      replace (length (range start stop 1)) with (b - a)
        by (rewrite range_length, slicelen_step1; unfold a, b; lia).
      replace start with (Z.of_nat a) by (unfold a; lia).
      rewrite D. cbn [fst snd]. rewrite E. auto.
    + destruct (Nat.eqb (length vs) (length (range start stop step))) eqn:L; [|simpl; auto].
      destruct (set_loop_view (combine (range start stop step) vs) s W) as (R & W1 & T).
      { intros i v H. apply in_combine_l in H. eapply range_in_bounds; eauto. }
      destruct (pl_set_loop (combine (range start stop step) vs) s) as [r s1]; simpl in *. subst r.
      split; auto. rewrite T. reflexivity.
  - unfold pl_delitem, to_list. rewrite delitem_map.
    destruct (py_delitem (col s) i) as [c|e] eqn:E; simpl; auto.
    split; auto. unfold py_delitem in E. destruct (norm_index i (zlen (col s))); inversion E.
    apply wf_del_nth, W.
  - unfold to_list. rewrite delslice_map.
    destruct (py_delslice (col s) sl) as [c|e] eqn:E; simpl; auto.
    split; auto. destruct (delslice_sub _ _ _ E) as [Sub ND]. apply wf_with_col; auto. apply ND, W.
  - split; [apply wf_nil, W|reflexivity].
  - apply with_result, extend_view, W.
  - simpl in G. apply Z.leb_le in G.
    destruct (Z.eqb_spec n 0) as [->|]; [split; [apply wf_nil, W|reflexivity]|].
    destruct (1 <? n)%Z eqn:E1.
    + rewrite (imul_succ _ n) by lia. apply with_result, extend_view, W.
    + split; auto. replace n with 1%Z by lia. unfold py_imul. simpl. rewrite app_nil_r. reflexivity.
  - apply with_result, (extend_view vs (pl_clear s)), wf_nil, W.
Qed.

Lemma d_get_view : forall s k,
  d_get k (to_dict s) = option_map (pval s) (find_key (pkey s) k (col s)).
Proof.
  intros s k. unfold to_dict. induction (col s) as [|o r IH]; simpl; auto.
  rewrite Z.eqb_sym. destruct (Z.eqb (pkey s o) k); auto.
Qed.

Lemma find_key_In : forall f k c o, find_key f k c = Some o -> In o c /\ f o = k.
Proof.
  induction c as [|a r IH]; simpl; intros o H; [discriminate|].
  destruct (Z.eqb_spec (f a) k).
  - inversion H; subst; auto.
  - destruct (IH _ H); auto.
Qed.

Lemma d_set_present : forall s k v o, NoDup (col s) -> find_key (pkey s) k (col s) = Some o ->
  d_set k v (to_dict s) = to_dict (set_val s o v).
Proof.
  intros s k v o. unfold to_dict, set_val; simpl.
  induction (col s) as [|a r IH]; simpl; intros ND H; [discriminate|].
  inversion ND; subst. rewrite Z.eqb_sym.
  destruct (Z.eqb_spec (pkey s a) k).
  - inversion H; subst. rewrite updf_same. f_equal.
    apply map_ext_in. intros x Hx. rewrite updf_other; auto. intro; subst; auto.
  - rewrite (IH H3 H). f_equal. rewrite updf_other; auto.
    intro; subst. destruct (find_key_In _ _ _ _ H). auto.
Qed.

Lemma pd_del_view : forall s k, wf s ->
  wf (pd_del s k) /\ to_dict (pd_del s k) = d_del k (to_dict s).
Proof.
  intros s k W. split; [apply wf_filter, W|]. unfold to_dict, pd_del, d_del; simpl.
  induction (col s) as [|a r IH]; simpl; auto.
  rewrite Z.eqb_sym. destruct (Z.eqb k (pkey s a)); simpl; auto. f_equal; auto.
Qed.

Lemma pd_setitem_view : forall s k v, wf s ->
  wf (pd_setitem s k v) /\ to_dict (pd_setitem s k v) = d_set k v (to_dict s).
Proof.
  intros s k v W. unfold pd_setitem.
  destruct (find_key (pkey s) k (col s)) as [o|] eqn:F.
  - split; [exact W|]. symmetry. apply d_set_present; auto. apply W.
  - split; [apply wf_create, Permutation_cons_append; auto|].
    rewrite d_set_absent by (rewrite d_get_view, F; reflexivity).
    unfold to_dict; simpl. rewrite map_app. simpl. rewrite !updf_same. f_equal.
    apply map_ext_in. intros o Ho. apply W in Ho. rewrite !updf_other by lia. reflexivity.
Qed.

Lemma pd_update_view : forall up s, wf s ->
  wf (fold_left (fun acc kv => pd_setitem acc (fst kv) (snd kv)) up s) /\
  to_dict (fold_left (fun acc kv => pd_setitem acc (fst kv) (snd kv)) up s) = d_update (to_dict s) up.
Proof. apply (fold_view _ _ wf to_dict). intros s kv. apply pd_setitem_view. Qed.

Theorem proxy_dict_is_view : forall s o, wf s -> pd_guard s o = true ->
  wf (snd (pd_step s o)) /\
  (fst (pd_step s o), to_dict (snd (pd_step s o))) = pdop_ref (to_dict s) o.
Proof.
  intros s o W G. destruct o as [k v|k| |k dflt| |k v|u kw|m]; try discriminate;
    unfold pdop_ref; cbn [pd_step py_dict_op fst snd].
  - apply with_result, pd_setitem_view, W.
  - unfold d_has. rewrite d_get_view.
    destruct (find_key (pkey s) k (col s)) as [o|]; simpl; auto. apply with_result, pd_del_view, W.
  - split; [apply wf_nil, W|reflexivity].
  - rewrite d_get_view.
    destruct (find_key (pkey s) k (col s)) as [o|]; simpl; [|destruct dflt; auto].
    apply with_result, pd_del_view, W.
  - unfold d_last, to_dict. rewrite <- map_rev.
    destruct (rev (col s)) as [|o r]; simpl; auto. apply with_result, (pd_del_view s (pkey s o)), W.
  - rewrite d_get_view.
    destruct (find_key (pkey s) k (col s)) as [o|] eqn:F; simpl; auto.
    apply with_result, pd_setitem_view, W.
  - (* update() first collapses its arguments into a dict and then assigns that dict's items: the
       builtin's update with the arguments as they come, by update_update *)
    destruct (pd_update_view (d_update (d_update [] (upd_pairs u)) kw) s W) as [W1 E]. split; auto.
    rewrite E, !update_update by (try apply NoDup_keys_update; constructor). reflexivity.
Qed.

(* the proxied values are distinct *)
Definition wfs (s : px) : Prop := wf s /\ NoDup (to_list s).

Lemma find_member_view : forall s v, ps_mem s v = mem v (to_list s).
Proof.
  intros s v. unfold ps_mem, to_list, mem.
  induction (col s) as [|o r IH]; simpl; auto.
  rewrite Z.eqb_sym. destruct (Z.eqb v (pval s o)); simpl; auto.
Qed.

(* find_member is find_key's search under another name *)
Lemma find_member_In : forall f v c o, find_member f v c = Some o -> In o c /\ f o = v.
Proof. exact find_key_In. Qed.

(* removing the member found for v removes v from the view, where members and values are distinct *)
Lemma discard_aux : forall (f : nat -> Z) v c, NoDup c -> NoDup (map f c) ->
  map f (match find_member f v c with
         | Some o => filter (fun x => negb (Nat.eqb x o)) c
         | None => c end) = filter (fun y => negb (Z.eqb v y)) (map f c).
Proof.
  intros f v. induction c as [|a r IH]; intros N1 N2; simpl; auto.
  inversion N1; subst. inversion N2; subst.
  destruct (Z.eqb_spec (f a) v); destruct (Z.eqb_spec v (f a)); try congruence; simpl.
  - rewrite Nat.eqb_refl. simpl.
    rewrite filter_all.
    + rewrite filter_all; auto. intros y Hy. apply negb_true_iff. apply Z.eqb_neq. intro; subst. congruence.
    + intros x Hx. apply negb_true_iff. apply Nat.eqb_neq. intro; subst; auto.
  - specialize (IH H2 H4).
    destruct (find_member f v r) as [o|] eqn:F; simpl.
    + destruct (find_member_In _ _ _ _ F) as [Ho Hv].
      destruct (Nat.eqb_spec a o); [subst; congruence|]. simpl. f_equal; auto.
    + f_equal; auto.
Qed.

Lemma ps_add_view : forall s v, wfs s ->
  wfs (ps_add s v) /\ to_list (ps_add s v) = set_add v (to_list s).
Proof.
  intros s v [W ND]. unfold ps_add, set_add. rewrite find_member_view.
  destruct (mem v (to_list s)) eqn:M; [split; [split|]; auto|].
  change (wfs (pl_append s v) /\ to_list (pl_append s v) = to_list s ++ [v]).
  destruct (append_view s v W) as [W1 E]. split; auto. split; auto.
  rewrite E. apply NoDup_snoc; auto. apply mem_false, M.
Qed.

Lemma ps_discard_view : forall s v, wfs s ->
  wfs (ps_discard s v) /\ to_list (ps_discard s v) = set_discard v (to_list s).
Proof.
  intros s v [W ND].
  assert (E : to_list (ps_discard s v) = set_discard v (to_list s)).
  { pose proof (discard_aux (pval s) v (col s) (proj1 W) ND) as G.
    unfold ps_discard, set_discard, to_list in *. destruct (find_member (pval s) v (col s)); simpl; auto. }
  split; auto. split; [|rewrite E; apply NoDup_filter, ND].
  unfold ps_discard. destruct (find_member (pval s) v (col s)); auto using wf_filter.
Qed.

Lemma ps_update_view : forall vs s, wfs s ->
  wfs (fold_left ps_add vs s) /\ to_list (fold_left ps_add vs s) = set_union (to_list s) vs.
Proof. apply (fold_view _ _ wfs to_list). apply ps_add_view. Qed.

Lemma ps_diffupdate_view : forall vs s, wfs s ->
  wfs (fold_left ps_discard vs s) /\ to_list (fold_left ps_discard vs s) = set_diff (to_list s) vs.
Proof.
  intros vs s. rewrite <- set_diff_fold. apply (fold_view _ _ wfs to_list). apply ps_discard_view.
Qed.

(* the single-element operations and the unions / differences built from them; the bulk
   intersection / symmetric-difference operations (which remove and add in the iteration order of
   builtin sets) are compared with the implementation and the builtin by the check only *)
Definition ps_covered (o : sop) : bool :=
  match o with
  | SAdd _ | SDiscard _ | SRemove _ | SClear => true
  | SUpdate (ASet _) | SUpdate (AList _) | SDiffUpdate (ASet _) | SDiffUpdate (AList _) => true
  | SIor (ASet _) | SIsub (ASet _) => true
  | _ => false
  end.

Theorem proxy_set_is_view_partial : forall ord s o, wfs s -> ps_covered o = true ->
  wfs (snd (ps_step ord s o)) /\
  (fst (ps_step ord s o), to_list (snd (ps_step ord s o))) = psop_ref ord (to_list s) o.
Proof.
  intros ord s o W C. unfold psop_ref.
  destruct o as [v|v|v| | |a|a|a|a|a|a|a|a]; try discriminate;
    try (destruct a as [vs|vs| |]; try discriminate); cbn [ps_step py_set_op fst snd]; simpl.
  - apply with_result, ps_add_view, W.
  - apply with_result, ps_discard_view, W.
  - unfold ps_remove. rewrite find_member_view.
    destruct (mem v (to_list s)); simpl; auto. apply with_result, ps_discard_view, W.
  - split; [|reflexivity]. split; [apply wf_nil, W|constructor].
  - apply with_result, ps_update_view, W.
  - apply with_result, ps_update_view, W.
  - apply with_result, ps_diffupdate_view, W.
  - apply with_result, ps_diffupdate_view, W.
  - apply with_result, ps_update_view, W.
  - apply with_result, ps_diffupdate_view, W.
Qed.

Lemma pd_del_all_view : forall rem s, wf s ->
  wf (fold_left pd_del rem s) /\
  forall k, d_get k (to_dict (fold_left pd_del rem s)) = if mem k rem then None else d_get k (to_dict s).
Proof.
  induction rem as [|k1 r IH]; intros s W; simpl; auto.
  destruct (pd_del_view s k1 W) as [W1 E1]. destruct (IH _ W1) as [W2 E]. split; auto.
  intros k. rewrite E, E1, d_get_del. destruct (Z.eqb k k1); simpl; auto.
  destruct (mem k r); reflexivity.
Qed.

(* obj.proxy = m : afterwards the view IS the assigned mapping - for every old contents and every m *)
Theorem proxy_dict_assign_view : forall s m, wf s ->
  wf (pd_assign s m) /\
  forall k, d_get k (to_dict (pd_assign s m)) = d_get k (d_update [] m).
Proof.
  intros s m W. unfold pd_assign.
  destruct (pd_update_view m s W) as [W1 E1].
  set (rem := filter (fun k => negb (mem k (map fst m))) (map fst (to_dict s))).
  destruct (pd_del_all_view rem _ W1) as [W2 E2]. split; auto.
  intros k. rewrite E2, E1.
  rewrite (d_get_update_rel m (to_dict s) [] (to_dict s)) by (intros; reflexivity).
  destruct (d_get_update_keys m [] k) as [A B].
  destruct (mem k (map fst m)) eqn:M.
  - assert (R : mem k rem = false).
    { apply mem_false. unfold rem. intro H. apply filter_In in H. destruct H as [_ H]. rewrite M in H; discriminate. }
    rewrite R. destruct (d_get k (d_update [] m)); auto. exfalso; apply (A eq_refl); reflexivity.
  - rewrite (B eq_refl). simpl.
    destruct (mem k rem) eqn:R; auto. apply mem_false in R.
    (* k is not removed and not assigned: it was not a key of the old contents *)
    apply d_get_None_notin. intro H. apply R, filter_In. rewrite M. auto.
Qed.

Theorem proxy_set_assign_view : forall s vs, wfs s ->
  wfs (ps_assign s vs) /\ forall x, In x (to_list (ps_assign s vs)) <-> In x vs.
Proof.
  intros s vs W. unfold ps_assign.
  destruct (ps_update_view vs s W) as [W1 E1].
  destruct (ps_diffupdate_view (filter (fun x => negb (mem x vs)) (to_list s)) _ W1) as [W2 E2].
  split; auto. intros x. rewrite E2, E1, set_diff_In, set_union_In, filter_In, negb_true_iff, mem_false.
  destruct (mem x vs) eqn:M.
  - apply mem_In in M. tauto.
  - apply mem_false in M. tauto.
Qed.
