(* C33 - the object-level operations (attribute assignment, add, delete, attribute refresh) under the
   whole invariant. *)
From Coq Require Import List ZArith Bool Arith Lia.
Import ListNotations.
From SAV.orm Require Import SessTxn SessTxnBase SessTxnSpec SessTxnInv SessTxnOps SessTxnRestore SessTxnStmts
  SessTxnDbInv SessTxnCore SessTxnFlushCore SessTxnTx SessTxnCommit.
Open Scope nat_scope.

(* replacing the attribute part of one object *)
Lemma core_set_attrs : forall st gs o x, Core st gs -> head_usable st = true -> o < nobj st ->
  same_id x (objs st o) ->
  (oin (objs st o) = true -> forall k v, okey (objs st o) = Some k -> work st k = Some v -> VA x k v) ->
  (okey x <> None -> oatt x = true -> odelf x = true -> odv x <> None /\ odid x <> None) ->
  Jobj x ->
  (oin (objs st o) = true \/ omod x = true \/ (odid x = odid (objs st o) /\ odv x = odv (objs st o) /\ omod x = omod (objs st o))) ->
  (stack st = [] -> oin (objs st o) = true -> omod x = false) ->
  Core (set_obj st o x) gs.
Proof.
  intros st gs o x C Hu Ho Hid Hva Hdv Hj Hrel Hidle. pose proof C as C0. destruct C as [G Jh D Ch Em].
  apply (Core_update st _ gs C0).
  - repeat split; reflexivity.
  - unfold GoodS. cbn [objs nobj work snew sdel set_obj set_objs]. apply Good_upd; auto.
  - cbn [objs nobj set_obj set_objs]. apply J_upd; auto.
  - intros g f rest gs' Hs Hg Hf R. cbn [objs nobj work snew sdel set_obj set_objs].
    apply Rel_upd; auto. unfold Chain in Ch. rewrite Hs, Hg in Ch. tauto.
  - intros f rest Hs Hf. exfalso. apply Hf. eapply head_usable_active; eauto.
  - intros Hs. specialize (Em Hs). apply is_clean_spec in Em. destruct Em as [E1 [E2 E3]].
    apply is_clean_spec. cbn [objs nobj snew sdel set_obj set_objs]. repeat split; auto.
    intros o' Ho' Hi. unfold updN in *. destruct (Nat.eqb_spec o' o).
    + subst o'. destruct Hid as [_ [_ [_ I4]]]. apply Hidle; auto. congruence.
    + apply E3; auto.
Qed.

(* autobegin touches the stack and the id counter only, and commutes with changes of the objects *)
Lemma autobegin_fields : forall st,
  objs (autobegin st) = objs st /\ nobj (autobegin st) = nobj st /\ snew (autobegin st) = snew st /\
  sdel (autobegin st) = sdel st /\ work (autobegin st) = work st /\ committed (autobegin st) = committed st /\
  eoc (autobegin st) = eoc st /\ handles (autobegin st) = handles st.
Proof. intros st. unfold autobegin. destruct (stack st); repeat split; reflexivity. Qed.
Lemma autobegin_set_obj : forall st o x, autobegin (set_obj st o x) = set_obj (autobegin st) o x.
Proof. intros st o x. unfold autobegin. cbn [stack set_obj set_objs]. destruct (stack st); reflexivity. Qed.
Lemma autobegin_mod_obj : forall st o g, autobegin (mod_obj st o g) = mod_obj (autobegin st) o g.
Proof. intros. unfold mod_obj. rewrite autobegin_set_obj. destruct (autobegin_fields st) as [E _]. rewrite E. reflexivity. Qed.

(* after autobegin there is an ACTIVE innermost transaction *)
Lemma autobegin_active : forall st gs, Core st gs -> head_usable st = true ->
  exists gs1 f rest, Core (autobegin st) gs1 /\ stack (autobegin st) = f :: rest /\ fstate f = ACTIVE /\
    head_usable (autobegin st) = true.
Proof.
  intros st gs C Hu. destruct (autobegin_core st gs C) as [gs2 [C2 [A1 A2]]].
  destruct (stack st) as [|f rest] eqn:Es.
  - destruct (A2 eq_refl) as [f [X1 [X2 _]]]. exists gs2, f, []. unfold head_usable. rewrite X1, X2. auto.
  - destruct (A1 ltac:(discriminate)) as [_ X]. exists gs2, f, rest. rewrite X in *.
    split; [exact C2|]. split; [exact Es|]. split; [eapply head_usable_active; eauto|exact Hu].
Qed.

(* the invariant sees the objects only pointwise *)
Lemma Core_objs_ext : forall st gs ob', Core st gs -> head_usable st = true -> (forall x, ob' x = objs st x) -> Core (set_objs st ob') gs.
Proof.
  intros st gs ob' C Hu H. pose proof C as C0. destruct C as [G Jh D Ch Em].
  assert (Hs : forall x, objs st x = ob' x) by (intros; symmetry; apply H).
  apply (Core_update st _ gs C0).
  - repeat split; reflexivity.
  - unfold GoodS. cbn. eapply Good_obj_ext; eauto.
  - cbn. eapply J_obj_ext; eauto.
  - intros g f rest gs' S1 S2 S3 R. cbn. eapply Rel_obj_ext; eauto.
  - intros f rest S1 S2. exfalso. apply S2. eapply head_usable_active; eauto.
  - intros S1. specialize (Em S1). apply is_clean_spec in Em. destruct Em as [E1 [E2 E3]].
    apply is_clean_spec. cbn. repeat split; auto. intros o Ho Hi. rewrite H in *. auto.
Qed.

Lemma o_att_same : forall ob, oatt ob = true -> o_att ob true = ob.
Proof. intros [] H; cbn in H; subst; reflexivity. Qed.
Lemma core_mod_same : forall st gs o g, Core st gs -> head_usable st = true -> g (objs st o) = objs st o ->
  Core (mod_obj st o g) gs.
Proof.
  intros st gs o g C Hu E. unfold mod_obj, set_obj. rewrite E. apply Core_objs_ext; auto.
  intros x. unfold updN. destruct (Nat.eqb_spec x o); subst; reflexivity.
Qed.

Lemma any_modified_true : forall st, any_modified st = true ->
  exists o, o < nobj st /\ oin (objs st o) = true /\ omod (objs st o) = true.
Proof.
  intros st H. unfold any_modified in H. apply existsb_exists in H. destruct H as [o [Ho H]].
  apply in_seq in Ho. apply andb_prop in H. exists o. split; [lia|exact H].
Qed.

(* an attribute assignment: the new attribute values [y], then InstanceState._modified_event *)
Lemma core_modify : forall st gs o y, Core st gs -> head_usable st = true -> o < nobj st ->
  omod y = omod (objs st o) ->
  same_id (o_mod y true) (objs st o) ->
  (oin (objs st o) = true -> forall k v, okey (objs st o) = Some k -> work st k = Some v -> VA (o_mod y true) k v) ->
  (okey y <> None -> oatt y = true -> odelf y = true -> odv y <> None /\ odid y <> None) ->
  ((odv y = None -> odid y = None) /\ (ocid y <> None -> odid y <> None)) ->
  exists gs', Core (modified_event o (set_obj st o y)) gs'.
Proof.
  intros st gs o y C Hu Ho Hm Hid Hva Hdv [Hj1 Hj2].
  set (z := o_mod y true) in *.
  assert (Hz : forall st0 gs0, Core st0 gs0 -> head_usable st0 = true -> objs st0 = objs st -> nobj st0 = nobj st -> work st0 = work st ->
            (stack st0 = [] -> oin (objs st o) = false) -> Core (set_obj st0 o z) gs0).
  { intros st0 gs0 C0 Hu0 E1 E2 E3 Hidle. apply core_set_attrs; auto; rewrite ?E1, ?E2, ?E3; auto.
    - repeat split; cbn; auto; discriminate.
    - intros S1 S2. rewrite (Hidle S1) in S2. discriminate. }
  assert (Hclean0 : stack st = [] -> forall o', o' < nobj st -> oin (objs st o') = true -> omod (objs st o') = false).
  { intros S1. pose proof (c_empty _ _ C S1) as X. apply is_clean_spec in X. tauto. }
  unfold modified_event. cbn [objs set_obj set_objs]. rewrite updN_same.
  destruct (omod y) eqn:Ey.
  - (* already modified *)
    assert (Eyz : y = z). { unfold z. destruct y; cbn in *; subst; reflexivity. }
    exists gs. rewrite Eyz. apply (Hz st gs); auto.
    intros S1. destruct (oin (objs st o)) eqn:Ei; auto. rewrite (Hclean0 S1 o Ho Ei) in Hm. discriminate.
  - (* first modification: [y], then the mark, amounts to [z] put in place *)
    assert (Hst2 : forall s0 gs0, Core (set_obj s0 o z) gs0 -> head_usable s0 = true ->
              Core (mod_obj (set_obj s0 o y) o (fun ob => o_mod ob true)) gs0).
    { intros s0 gs0 C0 Hu0.
      assert (X : mod_obj (set_obj s0 o y) o (fun ob => o_mod ob true) = set_objs (set_obj s0 o z) (updN (updN (objs s0) o y) o z)).
      { unfold mod_obj, set_obj. cbn [objs set_objs]. rewrite updN_same. reflexivity. }
      rewrite X. apply Core_objs_ext; auto. intros x. cbn [objs set_obj set_objs]. unfold updN. destruct (Nat.eqb x o); reflexivity. }
    destruct (oatt y && negb (oin y && any_modified (set_obj st o y))) eqn:Eab.
    + destruct (autobegin_active st gs C Hu) as (gs1 & f & rest & C1 & Hs1 & _ & Hu1).
      destruct (autobegin_fields st) as (E1 & E2 & _ & _ & E5 & _).
      exists gs1. rewrite autobegin_mod_obj, autobegin_set_obj. apply Hst2; auto. apply Hz; auto.
      rewrite Hs1. discriminate.
    + (* no autobegin although no transaction is open: the object is not in the identity map *)
      exists gs. apply Hst2; auto. apply Hz; auto. intros S1.
      destruct (oin (objs st o)) eqn:Ei; auto. exfalso.
      destruct Hid as [_ [I2 [_ I4]]]. cbn in I2, I4.
      destruct (g_in _ _ _ _ _ (c_good _ _ C) o Ei) as [_ [Ha _]].
      rewrite I2, Ha, I4, Ei in Eab. cbn [andb] in Eab. apply negb_false_iff in Eab.
      destruct (any_modified_true _ Eab) as [o' [H1 [H2 H3]]]. cbn [objs nobj set_obj set_objs] in *.
      unfold updN in *. destruct (Nat.eqb_spec o' o).
      * subst o'. congruence.
      * rewrite (Hclean0 S1 o' H1 H2) in H3. discriminate.
Qed.

Lemma provision_any_core : forall st gs f rest r st', Core st gs -> stack st = f :: rest -> provision st = (r, st') ->
  Core st' gs /\ objs st' = objs st /\ nobj st' = nobj st /\ snew st' = snew st /\ sdel st' = sdel st /\ work st' = work st /\
  committed st' = committed st /\ nfid st' = nfid st /\ eoc st' = eoc st /\ handles st' = handles st /\
  map lists_of (stack st') = map lists_of (stack st) /\ r <> Unmodelled /\
  (r = Ok -> fstate f = ACTIVE).
Proof.
  intros st gs f rest r st' C Hs H.
  destruct (Core_head_state st gs f rest C Hs) as [Hf|Hf].
  - destruct (provision_core st gs f rest C Hs Hf) as [sp [Ep [Cp [P1 [P2 [P3 [P4 [P5 [P6 [P7 [P8 [P9 [P10 P11]]]]]]]]]]]]].
    rewrite Ep in H. inversion H; subst r st'. split; [exact Cp|]. repeat split; auto; discriminate.
  - unfold provision in H. rewrite Hs in H. cbn [provision_fs] in H.
    assert (E : check_prereq f M_conn_for_bind = Some (prereq_error f)) by (unfold check_prereq; rewrite Hf; reflexivity).
    rewrite E in H. inversion H; subst r st'. rewrite <- Hs. rewrite sess_eta.
    split; [exact C|]. repeat split; auto; try discriminate; try (intros X; discriminate).
Qed.

Lemma connection_core : forall st gs r st', Core st gs -> connection st = (r, st') ->
  exists gs', Core st' gs' /\ objs st' = objs st /\ nobj st' = nobj st /\ snew st' = snew st /\ sdel st' = sdel st /\
    committed st' = committed st /\ eoc st' = eoc st /\ handles st' = handles st /\ r <> Unmodelled /\
    (r = Ok -> head_usable st' = true /\ stack st' <> [] /\ (stack st <> [] -> work st' = work st) /\ (stack st = [] -> work st' = work st)).
Proof.
  intros st gs r st' C H. unfold connection in H. rewrite (bind_ok _ _ _ (autobegin st)) in H by reflexivity.
  destruct (autobegin_core st gs C) as [gs1 [C1 [A1 A2]]].
  assert (Hne : exists f rest, stack (autobegin st) = f :: rest).
  { unfold autobegin. destruct (stack st) eqn:E; cbn; eauto. }
  destruct Hne as [f [rest Hs1]].
  destruct (provision_any_core _ _ f rest r st' C1 Hs1 H) as (C2 & B1 & B2 & B3 & B4 & B5 & B6 & B7 & B8 & B9 & B10 & B11 & B12).
  destruct (autobegin_fields st) as (E1 & E2 & E3 & E4 & E8 & E5 & E6 & E7).
  exists gs1. split; [exact C2|]. repeat split; try congruence.
  - specialize (B12 H0). unfold head_usable. rewrite Hs1 in B10. destruct (stack st') as [|f' r'] eqn:Es'; [reflexivity|].
    cbn in B10. injection B10 as Q1 Q2 Q3 Q4 Q5 Q6 Q7 Q8 Q9. rewrite Q8, B12. reflexivity.
  - rewrite Hs1 in B10. destruct (stack st'); [discriminate|discriminate].
Qed.

Lemma load_row_core : forall st gs o r st', Core st gs -> head_usable st = true -> stack st <> [] -> o < nobj st ->
  oatt (objs st o) = true -> load_row o st = (r, st') -> r <> Unmodelled ->
  Core st' gs /\ nobj st' = nobj st /\ stack st' = stack st /\ handles st' = handles st /\ eoc st' = eoc st /\
  committed st' = committed st /\
  (r = Ok -> odid (objs st' o) <> None /\ odv (objs st' o) <> None).
Proof.
  intros st gs o r st' C Hu Hne Ho Ha H Hr.
  destruct (okey (objs st o)) as [k|] eqn:Ek; [|unfold load_row in H; rewrite Ek in H; inversion H; subst; congruence].
  destruct (work st k) as [v|] eqn:Ew.
  2:{ unfold load_row in H. rewrite Ek, Ew in H. inversion H; subst. split; [exact C|]. repeat split; auto; intros X; discriminate. }
  rewrite (load_row_found o st k v Ek Ew) in H. inversion H; subst r st'. clear H.
  pose proof (c_good _ _ C) as G. pose proof (c_j _ _ C o Ho) as Jo.
  assert (Hcv : ocv (objs st o) <> None -> odv (objs st o) <> None).
  { destruct (oin (objs st o)) eqn:Ei.
    - destruct (g_rows _ _ _ _ _ G o k Ei Ek) as [v' [_ [_ [_ [_ [_ [V5 _]]]]]]]. exact V5.
    - intros _. destruct (odelf (objs st o)) eqn:Ed.
      + apply (g_delv _ _ _ _ _ G o); auto. congruence.
      + rewrite (g_pers _ _ _ _ _ G o k Ho Ek Ha Ed) in Ei. discriminate. }
  split; [|cbn [nobj stack handles eoc committed objs set_obj set_objs];
            split; [reflexivity|]; split; [reflexivity|]; split; [reflexivity|]; split; [reflexivity|]; split; [reflexivity|]].
  - apply core_set_attrs; auto.
    + repeat split.
    + intros Ei k' v' Hk' Hw'. assert (k' = k) by congruence. subst k'. assert (v' = v) by congruence. subst v'.
      destruct (g_rows _ _ _ _ _ G o k Ei Ek) as [v' [Hv' Hva]]. assert (v' = v) by congruence. subst v'.
      apply loaded_VA; auto.
    + intros _ _ Hd. destruct (g_delv _ _ _ _ _ G o Ho) as [D1 D2]; auto; try congruence.
      unfold loaded. cbn. destruct (ocid (objs st o)), (odid (objs st o)), (ocv (objs st o)), (odv (objs st o)); split; congruence.
    + apply loaded_J; auto.
    + destruct (oin (objs st o)) eqn:Ei; [left; reflexivity|right; right].
      destruct (odelf (objs st o)) eqn:Ed.
      * destruct (g_delv _ _ _ _ _ G o Ho) as [D1 D2]; auto; try congruence.
        unfold loaded. cbn. destruct (ocid (objs st o)), (odid (objs st o)), (ocv (objs st o)), (odv (objs st o)); repeat split; congruence.
      * rewrite (g_pers _ _ _ _ _ G o k Ho Ek Ha Ed) in Ei. discriminate.
    + intros X. congruence.
  - intros _. rewrite updN_same. unfold loaded. cbn. destruct Jo as [J1 [J2 J3]].
    destruct (ocid (objs st o)) eqn:E1, (odid (objs st o)) eqn:E2, (ocv (objs st o)) eqn:E3, (odv (objs st o)) eqn:E4;
      split; try discriminate; try (exfalso; apply J2; [discriminate|reflexivity]); try (exfalso; apply Hcv; [discriminate|reflexivity]);
      try (specialize (J1 eq_refl); discriminate).
Qed.

(* InstanceState._load_expired outside the flush: autoflush, connection, SELECT *)
Lemma load_expired_core : forall st gs o r st', Core st gs -> o < nobj st -> load_expired o st = (r, st') -> r <> Unmodelled ->
  exists gs', Core st' gs' /\ nobj st' = nobj st /\ handles st' = handles st /\ eoc st' = eoc st /\ committed st' = committed st /\
    (r = Ok -> head_usable st' = true /\ odid (objs st' o) <> None /\ odv (objs st' o) <> None).
Proof.
  intros st gs o r st' C Ho H Hr. unfold load_expired in H.
  destruct (oatt (objs st o)) eqn:Ea; cbn [negb] in H.
  2:{ inversion H; subst. exists gs. split; [exact C|]. repeat split; auto; try (intros X; discriminate); try discriminate. }
  apply bind_inv in H. destruct H as [[s1 [H1 H]]|[H1 Hn]].
  2:{ destruct (flush_core st gs r st' C H1 Hr) as [C1 [A1 A2 A3 A4 A5 A6 _ _ _]].
      exists gs. split; [exact C1|]. repeat split; auto; try congruence. }
  destruct (flush_core st gs Ok s1 C H1) as [C1 [A1 A2 A3 A4 A5 A6 _ _ _]]; [discriminate|].
  assert (Ho1 : o < nobj s1) by lia.
  apply bind_inv in H. destruct H as [[s2 [H2 H]]|[H2 Hn]].
  2:{ destruct (connection_core s1 gs r st' C1 H2) as [gs2 (C2 & B1 & B2 & B3 & B4 & B5 & B6 & B7 & B8 & B9)].
      exists gs2. split; [exact C2|]. repeat split; try congruence. }
  destruct (connection_core s1 gs Ok s2 C1 H2) as [gs2 (C2 & B1 & B2 & B3 & B4 & B5 & B6 & B7 & B8 & B9)].
  destruct (B9 eq_refl) as [Hu2 [Hne2 _]].
  unfold load_row_attached in H. destruct (oatt (objs s2 o)) eqn:Ea2; [|inversion H; subst; congruence].
  destruct (load_row_core s2 gs2 o r st' C2 Hu2 Hne2) as (C3 & D1 & D2 & D3 & D4 & D5 & D6); auto; try congruence.
  exists gs2. split; [exact C3|]. repeat split; try congruence.
  - unfold head_usable in *. rewrite D2. exact Hu2.
  - apply D6; auto.
  - apply D6; auto.
Qed.

Lemma op_load_core : forall st gs o r st', Core st gs -> do_op (OLoad o) st = (r, st') -> r <> Unmodelled ->
  exists gs', Core st' gs'.
Proof.
  intros st gs o r st' C H Hr. cbn [do_op] in H.
  destruct (Nat.ltb_spec o (nobj st)); cbn [negb] in H; [|inversion H; subst; congruence].
  destruct (odv (objs st o)); [inversion H; subst; eauto|].
  destruct (load_expired_core st gs o r st' C H0 H Hr) as [gs' [C' _]]. eauto.
Qed.

Lemma op_setv_core : forall st gs o v r st', Core st gs -> head_usable st = true -> do_op (OSetV o v) st = (r, st') ->
  r <> Unmodelled -> exists gs', Core st' gs'.
Proof.
  intros st gs o v r st' C Hu H Hr. cbn [do_op] in H.
  destruct (Nat.ltb_spec o (nobj st)); cbn [negb] in H; [|inversion H; subst; congruence].
  inversion H; subst r st'. clear H.
  pose proof (c_good _ _ C) as G. destruct (c_j _ _ C o H0) as [J1 [J2 J3]].
  unfold mod_obj. apply (core_modify st gs o); auto.
  - repeat split.
  - intros Ei k v0 Ek Ew. destruct (g_rows _ _ _ _ _ G o k Ei Ek) as [v1 [Hv1 Hva]].
    assert (v1 = v0) by congruence. subst v1. destruct Hva as [V1 [V2 [V3 [V4 [V5 V6]]]]].
    unfold VA. cbn. split; [exact V1|]. split; [exact V2|]. split.
    { intros X. destruct (ocv (objs st o)); discriminate. }
    split.
    { intros old X. destruct (ocv (objs st o)) as [c|] eqn:Ec; [apply V4; congruence|].
      inversion X. destruct (V3 eq_refl) as [Y|Y]; congruence. }
    split; [intros _; discriminate|intros X; discriminate].
  - cbn. intros K A D. split; [discriminate|]. apply (g_delv _ _ _ _ _ G o); auto.
  - cbn. split; [intros X; discriminate|exact J2].
Qed.

Lemma op_setpk_core : forall st gs o pk r st', Core st gs -> head_usable st = true -> do_op (OSetPK o pk) st = (r, st') ->
  r <> Unmodelled -> exists gs', Core st' gs'.
Proof.
  intros st gs o pk r st' C Hu H Hr. cbn [do_op] in H.
  destruct (Nat.ltb_spec o (nobj st)); cbn [negb] in H; [|inversion H; subst; congruence].
  apply bind_inv in H.
  (* the state at the assignment: the primary key attribute is loaded or was assigned before *)
  assert (Step : forall s1 gs1, Core s1 gs1 -> head_usable s1 = true -> o < nobj s1 ->
            needs_pk_load (objs s1 o) = false \/ odid (objs s1 o) <> None ->
            exists gs', Core (modified_event o (mod_obj s1 o (fun ob =>
                     o_did (o_cid ob (match ocid ob with None => odid ob | c => c end)) (Some pk)))) gs').
  { intros s1 gs1 C1 Hu1 Ho1 Hl.
    pose proof (c_good _ _ C1) as G. destruct (c_j _ _ C1 o Ho1) as [J1 [J2 J3]].
    assert (Hdid : odid (objs s1 o) <> None).
    { destruct Hl as [Hl|Hl]; auto. unfold needs_pk_load in Hl.
      destruct (ocid (objs s1 o)) eqn:E1; [apply J2; discriminate|]. destruct (odid (objs s1 o)); [discriminate|discriminate]. }
    assert (Hdv : odv (objs s1 o) <> None) by (intros X; apply Hdid; auto).
    unfold mod_obj. apply (core_modify s1 gs1 o); auto.
    - repeat split.
    - intros Ei k v0 Ek Ew. destruct (g_rows _ _ _ _ _ G o k Ei Ek) as [v1 [Hv1 Hva]].
      assert (v1 = v0) by congruence. subst v1. destruct Hva as [V1 [V2 [V3 [V4 [V5 V6]]]]].
      unfold VA. cbn. split.
      { intros X. destruct (ocid (objs s1 o)); [discriminate|]. congruence. }
      split.
      { intros old X. split; [|discriminate]. destruct (ocid (objs s1 o)) as [c|] eqn:Ec.
        - apply (V2 old). congruence.
        - destruct (V1 eq_refl) as [Y|Y]; congruence. }
      split; [exact V3|]. split; [exact V4|]. split; [exact V5|intros X; discriminate].
    - cbn. intros K A D. split; [|discriminate]. apply (g_delv _ _ _ _ _ G o); auto.
    - cbn. split; [intros X; congruence|intros _; discriminate]. }
  destruct (needs_pk_load (objs st o)) eqn:En.
  - destruct H as [[s1 [H1 H]]|[H1 Hn]].
    + destruct (load_expired_core st gs o Ok s1 C H0 H1) as [gs1 (C1 & N1 & _ & _ & _ & L)]; [discriminate|].
      destruct (L eq_refl) as [Hu1 [Hd1 _]]. inversion H; subst r st'.
      apply (Step s1 gs1); auto. lia.
    + destruct (load_expired_core st gs o r st' C H0 H1 Hr) as [gs1 [C1 _]]. eauto.
  - destruct H as [[s1 [H1 H]]|[H1 Hn]]; inversion H1; subst.
    + inversion H; subst r st'. apply (Step s1 gs); auto.
    + congruence.
Qed.

(* the marked-for-deletion list only matters through pdelf, and only for objects whose flag is set *)
Lemma Rel_sdel : forall g f ob n sn sd sd' W, Rel g f ob n sn sd W ->
  (forall x, mem x sd' = mem x sd \/ odelf (ob x) = false) -> Rel g f ob n sn sd' W.
Proof.
  intros g f ob n sn sd sd' W R H. destruct R as [r1 r2 r3 r4 r5 r6 r7 r8 r9 r9' r10 r11]. constructor; auto.
  intros o A B. destruct (r3 o A B) as [X Y]. split; auto. intros Ha. destruct (Y Ha) as [Y1 Y2]. split; auto.
  rewrite <- Y2. unfold pdelf. destruct (H o) as [E|E]; [rewrite E; reflexivity|].
  rewrite E. destruct (mem o (fdel f) || mem o sd'), (mem o (fdel f) || mem o sd); reflexivity.
Qed.

Lemma persistent_in : forall st gs o k, Core st gs -> o < nobj st -> okey (objs st o) = Some k -> oatt (objs st o) = true ->
  odelf (objs st o) = false -> oin (objs st o) = true /\ im_other st o = None.
Proof.
  intros st gs o k C Ho Ek Ea Ed. pose proof (c_good _ _ C) as G.
  assert (Hi : oin (objs st o) = true) by (apply (g_pers _ _ _ _ _ G o k); auto).
  split; auto. destruct (im_other st o) as [o'|] eqn:E; auto.
  destruct (im_other_some _ _ _ E) as [A1 [A2 [A3 [A4 A5]]]]. exfalso. apply A2.
  apply (g_uniq _ _ _ _ _ G o' o k); auto. congruence.
Qed.

(* a change of session._deleted on a persistent object, the head transaction ACTIVE *)
Lemma core_set_sdel : forall st gs sd' f rest, Core st gs -> stack st = f :: rest -> fstate f = ACTIVE ->
  NoDup sd' -> (forall x, In x sd' -> oin (objs st x) = true) ->
  (forall x, mem x sd' = mem x (sdel st) \/ odelf (objs st x) = false) ->
  Core (set_sdel st sd') gs.
Proof.
  intros st gs sd' f rest C Hs Hf Hnd Hin Hm. pose proof C as C0. destruct C as [G Jh D Ch Em].
  apply (Core_update st _ gs C0).
  - repeat split; reflexivity.
  - unfold GoodS. cbn [objs nobj work snew sdel set_sdel].
    destruct G as [g1 g2 g3 g4 g5 g5' g6 g6' g7 g8]. constructor; auto. split; [apply g6'|exact Hnd].
  - exact Jh.
  - intros g0 f0 rest0 gs0 S1 S2 S3 R. cbn [objs nobj work snew sdel set_sdel]. eapply Rel_sdel; eauto.
  - intros f0 rest0 S1 S2. exfalso. apply S2. congruence.
  - intros S1. congruence.
Qed.

Lemma op_new_core : forall st gs pk v r st', Core st gs -> head_usable st = true -> do_op (ONew pk v) st = (r, st') ->
  r <> Unmodelled -> exists gs', Core st' gs'.
Proof.
  intros st gs pk v r st' C Hu H Hr. cbn [do_op] in H.
  pose proof (core_new_transient st gs pk v C Hu) as C1.
  set (s1 := set_nobj (set_obj st (nobj st) (new_obj pk v)) (S (nobj st))) in *.
  assert (Hu1 : head_usable s1 = true) by exact Hu.
  unfold save_or_update in H. cbn [objs s1 set_nobj set_obj set_objs] in H. rewrite updN_same in H. cbn [okey new_obj] in H.
  destruct (autobegin_active s1 gs C1 Hu1) as (gs2 & f & rest & C2 & Hs2 & Hf2 & _).
  destruct (autobegin_fields s1) as (E1 & E2 & E3 & _).
  assert (Hnin : mem (nobj st) (snew (autobegin s1)) = false).
  { destruct (mem (nobj st) (snew (autobegin s1))) eqn:E; auto. apply mem_In in E. rewrite E3 in E.
    apply (g_new _ _ _ _ _ (c_good _ _ C)) in E. lia. }
  rewrite Hnin in H. inversion H; subst r st'. exists gs2.
  apply (core_make_pending (autobegin s1) gs2 (nobj st) f rest); auto.
  - rewrite E2. cbn. lia.
  - rewrite E1. cbn. rewrite updN_same. reflexivity.
  - rewrite E1. cbn. rewrite updN_same. reflexivity.
  - rewrite E1. cbn. rewrite updN_same. reflexivity.
Qed.

Lemma op_add_core : forall st gs o r st', Core st gs -> guard st (OAdd o) = true -> do_op (OAdd o) st = (r, st') ->
  r <> Unmodelled -> exists gs', Core st' gs'.
Proof.
  intros st gs o r st' C Hg H Hr. unfold guard in Hg. apply andb_prop in Hg. destruct Hg as [Hu Hg].
  cbn [do_op] in H. destruct (Nat.ltb_spec o (nobj st)); [|inversion H; subst; congruence].
  destruct (autobegin_active st gs C Hu) as (gs1 & f & rest & C1 & Hs1 & Hf1 & Hu1).
  destruct (autobegin_fields st) as (E1 & E2 & E3 & E4 & _).
  pose proof (c_good _ _ C1) as G1. pose proof (c_j _ _ C1) as J1.
  unfold save_or_update in H. destruct (okey (objs st o)) as [k|] eqn:Ek.
  - (* an object with an identity key *)
    unfold update_impl in H. destruct (odelf (objs st o)) eqn:Ed; [inversion H; subst; eauto|].
    destruct (oatt (objs st o)) eqn:Ea; cbn [negb] in H; [|inversion H; subst; congruence].
    destruct (persistent_in (autobegin st) gs1 o k C1) as [Hi Hoth]; try congruence.
    set (s2 := set_sdel (autobegin st) (remm o (sdel (autobegin st)))) in *.
    assert (C2 : Core s2 gs1).
    { apply (core_set_sdel (autobegin st) gs1 _ f rest); auto.
      - unfold remm. apply NoDup_filter. apply (g_nodup _ _ _ _ _ G1).
      - intros x Hx. apply (g_del _ _ _ _ _ G1). apply mem_In in Hx. rewrite mem_remm in Hx. apply andb_prop in Hx.
        apply mem_In. tauto.
      - intros x. rewrite mem_remm. destruct (Nat.eqb_spec o x); [subst; right; congruence|left; reflexivity]. }
    unfold im_add in H. cbn [objs s2 set_sdel] in H. rewrite E1, Ek in H.
    assert (Hoth2 : im_other s2 o = None) by exact Hoth. rewrite Hoth2 in H.
    inversion H; subst r st'. exists gs1. apply core_mod_same; auto. apply o_in_same, Hi.
  - (* no identity key: transient (becomes pending) or already pending *)
    clear Hg. assert (Hg : odelf (objs st o) = false) by (apply (g_newd _ _ _ _ _ (c_good _ _ C) o); auto).
    destruct (mem o (snew (autobegin st))) eqn:Em.
    + inversion H; subst r st'. exists gs1.
      assert (Hin : In o (snew (autobegin st))) by (apply mem_In; exact Em).
      apply (g_new _ _ _ _ _ G1) in Hin. destruct Hin as [A1 [A2 A3]].
      apply core_mod_same; auto. apply o_att_same, A3.
    + inversion H; subst r st'. exists gs1.
      apply (core_make_pending (autobegin st) gs1 o f rest); auto; try congruence.
      destruct (oatt (objs (autobegin st) o)) eqn:Ea; auto. exfalso.
      assert (X : In o (snew (autobegin st))). { apply (g_new _ _ _ _ _ G1). repeat split; auto; congruence. }
      apply mem_In in X. congruence.
Qed.

Lemma op_del_core : forall st gs o r st', Core st gs -> guard st (ODel o) = true -> do_op (ODel o) st = (r, st') ->
  r <> Unmodelled -> exists gs', Core st' gs'.
Proof.
  intros st gs o r st' C Hg H Hr. unfold guard in Hg. apply andb_prop in Hg. destruct Hg as [Hu Hg]. apply negb_true_iff in Hg.
  cbn [do_op] in H. destruct (Nat.ltb_spec o (nobj st)); cbn [negb] in H; [|inversion H; subst; congruence].
  destruct (okey (objs st o)) as [k|] eqn:Ek; [|inversion H; subst; eauto].
  destruct (oatt (objs st o)) eqn:Ea; cbn [negb] in H; [|inversion H; subst; congruence].
  destruct (autobegin_active st gs C Hu) as (gs1 & f & rest & C1 & Hs1 & Hf1 & Hu1).
  destruct (autobegin_fields st) as (E1 & E2 & E3 & E4 & _).
  pose proof (c_good _ _ C1) as G1. pose proof (c_j _ _ C1) as J1.
  destruct (mem o (sdel (autobegin st))) eqn:Em; [inversion H; subst; eauto|].
  destruct (persistent_in (autobegin st) gs1 o k C1) as [Hi Hoth]; try congruence.
  unfold bind, im_add in H. rewrite E1, Ek in H. rewrite Hoth in H. cbn [lift] in H. inversion H; subst r st'. clear H.
  exists gs1.
  set (s2 := mod_obj (autobegin st) o (fun ob => o_in ob true)).
  assert (C2 : Core s2 gs1).
  { apply core_mod_same; auto. apply o_in_same, Hi. }
  assert (Eo2 : forall x, odelf (objs s2 x) = odelf (objs (autobegin st) x) /\ oin (objs s2 x) = oin (objs (autobegin st) x)).
  { intros x. unfold s2, mod_obj. cbn. unfold updN. destruct (Nat.eqb_spec x o); subst; cbn; auto. }
  apply (core_set_sdel s2 gs1 _ f rest); auto.
  - apply NoDup_snoc; [apply (g_nodup _ _ _ _ _ G1)|]. intros X. apply mem_In in X. cbn in X. congruence.
  - intros x Hx. destruct (Eo2 x) as [_ B]. rewrite B. apply in_app_or in Hx. destruct Hx as [Hx|[Hx|[]]].
    + apply (g_del _ _ _ _ _ G1). exact Hx.
    + subst. exact Hi.
  - intros x. cbn [sdel s2 mod_obj set_obj set_objs]. rewrite mem_app. cbn.
    destruct (Nat.eqb_spec x o); [subst; right; rewrite updN_same; cbn; congruence|left; apply orb_false_r].
Qed.
