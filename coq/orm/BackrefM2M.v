(* C37 - many-to-many.  Both sides are list collections; everything is generic in the
   side the user mutates.  Every operation edits one pair: the invariant is re-established by
   [m2m_edit]. *)
From Coq Require Import List NArith Bool.
Import ListNotations.
From SAV.orm Require Import Backref BackrefSpec BackrefBase BackrefColl.
Open Scope N_scope.

Definition agree_sd (s : st) (sd : side) : Prop :=
  forall o v, In v (coll_of s sd o) <-> In o (coll_of s (other sd) v).

Lemma other_other : forall sd, other (other sd) = sd. Proof. destruct sd; reflexivity. Qed.

Lemma inv_m2m_sd : forall s sd, inv_m2m s ->
  agree_sd s sd /\ nodup_side s sd /\ nodup_side s (other sd) /\ nonzero_side s sd /\ nonzero_side s (other sd).
Proof.
  intros s sd I. destruct I as [A NA NB ZA ZB]. destruct sd; cbn [other]; repeat split; auto.
  - apply A. - apply A. - intros H. apply A. exact H. - intros H. apply A. exact H.
Qed.
Lemma inv_m2m_of_sd : forall s sd,
  agree_sd s sd -> nodup_side s sd -> nodup_side s (other sd) -> nonzero_side s sd -> nonzero_side s (other sd) ->
  inv_m2m s.
Proof.
  intros s sd A N1 N2 Z1 Z2. destruct sd; cbn [other] in *; constructor; auto.
  - intros l r. split; intros H; apply A; exact H.
Qed.

Lemma inv_m2m_respects : forall sd s1 s2, inv_m2m s1 ->
  (forall o, cells s2 (other sd) o = cells s1 (other sd) o) ->
  (forall o x, In x (coll_of s2 sd o) <-> In x (coll_of s1 sd o)) ->
  nodup_side s2 sd -> inv_m2m s2.
Proof.
  intros sd s1 s2 I C M N. destruct (inv_m2m_sd s1 sd I) as (A & _ & N2 & Z1 & Z2).
  assert (L : forall o, coll_of s2 (other sd) o = coll_of s1 (other sd) o)
    by (intros; unfold coll_of; rewrite C; reflexivity).
  apply (inv_m2m_of_sd _ sd); [|exact N| | |]; intros o; rewrite ?L; auto.
  - intros v. rewrite M, L. apply A.
  - rewrite M. apply Z1.
Qed.

(* a state that differs from an invariant one in whether the pair (o, v) is present (P), consistently
   on both sides, satisfies the invariant *)
Lemma m2m_edit : forall s sd o v lo lv (P : Prop), inv_m2m s -> (P -> o <> 0 /\ v <> 0) ->
  NoDup lo -> (forall x, In x lo <-> if x =? v then P else In x (coll_of s sd o)) ->
  NoDup lv -> (forall y, In y lv <-> if y =? o then P else In y (coll_of s (other sd) v)) ->
  inv_m2m (set_cell (set_cell s (other sd) v (CList lv)) sd o (CList lo)).
Proof.
  intros s sd o v lo lv P I PZ NDo Lo NDv Lv. destruct (inv_m2m_sd s sd I) as (A & N1 & N2 & Z1 & Z2).
  pose proof (other_neq sd) as ON. pose proof (neq_other sd) as ON'.
  apply (inv_m2m_of_sd _ sd).
  - intros o' v'. destruct (N.eq_dec o' o) as [->|NO]; destruct (N.eq_dec v' v) as [->|NV]; simp_cells.
    + rewrite Lo, Lv, !N.eqb_refl. tauto.
    + rewrite Lo. apply N.eqb_neq in NV. rewrite NV. apply A.
    + rewrite Lv. apply N.eqb_neq in NO. rewrite NO. apply A.
    + apply A.
  - intros o'. destruct (N.eq_dec o' o) as [->|NO]; simp_cells; [exact NDo|apply N1].
  - intros v'. destruct (N.eq_dec v' v) as [->|NV]; simp_cells; [exact NDv|apply N2].
  - intros o'. destruct (N.eq_dec o' o) as [->|NO]; simp_cells; [|apply Z1].
    rewrite Lo. destruct (N.eqb_spec 0 v) as [E|_]; [intros H; apply PZ in H; intuition congruence|apply Z1].
  - intros v'. destruct (N.eq_dec v' v) as [->|NV]; simp_cells; [|apply Z2].
    rewrite Lv. destruct (N.eqb_spec 0 o) as [E|_]; [intros H; apply PZ in H; intuition congruence|apply Z2].
Qed.

Definition attach_m (s : st) (sd : side) (o v : N) : st :=
  set_cell s (other sd) v (CList (coll_of s (other sd) v ++ [o])).
Definition detach_m (s : st) (sd : side) (o v : N) : st :=
  if memb o (coll_of s (other sd) v)
  then set_cell s (other sd) v (CList (remove1 o (coll_of s (other sd) v))) else s.

Lemma fire_append_m2m : forall n s sd o v init, v <> 0 ->
  init = (sd, TAppend) \/ init = (sd, TBulk) ->
  exec M2M (S (S (S (S (S n))))) (KAppendEvent sd o v init) s = Ok (attach_m s sd o v).
Proof.
  intros n s sd o v init V I. apply N.eqb_neq in V.
  destruct I as [-> | ->]; destruct sd; ev; rewrite V; ev; try reflexivity;
    destruct (o =? 0); reflexivity.
Qed.

Lemma fire_remove_m2m : forall n s sd o v init, v <> 0 ->
  init = (sd, TRemove) \/ init = (sd, TBulk) ->
  exec M2M (S (S (S (S (S n))))) (KRemoveEvent sd o (OV v) init) s = Ok (detach_m s sd o v).
Proof.
  intros n s sd o v init V I. unfold detach_m.
  destruct I as [-> | ->]; destruct sd; ev; rewrite (real_obj_ov v V); ev;
    (destruct o as [|o']; cbn [real_obj]; ev;
     [destruct (memb 0 (coll_of s _ v)); reflexivity|
      destruct (memb (N.pos o') (coll_of s _ v)); reflexivity]).
Qed.

Lemma attach_m_inv : forall s sd o v, inv_m2m s -> o <> 0 -> v <> 0 -> ~ In v (coll_of s sd o) ->
  inv_m2m (set_cell (attach_m s sd o v) sd o (CList (coll_of s sd o ++ [v]))).
Proof.
  intros s sd o v I O V NI. destruct (inv_m2m_sd s sd I) as (A & N1 & N2 & _).
  apply (m2m_edit s sd o v _ _ True I); auto.
  - apply NoDup_snoc; [apply N1|exact NI].
  - intros x. rewrite In_snoc. destruct (N.eqb_spec x v); tauto.
  - apply NoDup_snoc; [apply N2|]. intros H. apply NI, A. exact H.
  - intros y. rewrite In_snoc. destruct (N.eqb_spec y o); tauto.
Qed.
Lemma detach_m_inv : forall s sd o v, inv_m2m s -> In v (coll_of s sd o) ->
  inv_m2m (set_cell (detach_m s sd o v) sd o (CList (remove1 v (coll_of s sd o)))).
Proof.
  intros s sd o v I IN. destruct (inv_m2m_sd s sd I) as (A & N1 & N2 & _).
  unfold detach_m. rewrite (proj2 (memb_In _ _) (proj1 (A o v) IN)).
  apply (m2m_edit s sd o v _ _ False I); try tauto; try (apply remove1_NoDup; auto).
  - intros x. rewrite remove1_In by apply N1. destruct (N.eqb_spec x v); tauto.
  - intros y. rewrite remove1_In by apply N2. destruct (N.eqb_spec y o); tauto.
Qed.

Lemma detach_m_noop : forall s sd o v, inv_m2m s -> ~ In v (coll_of s sd o) -> detach_m s sd o v = s.
Proof.
  intros s sd o v I NI. destruct (inv_m2m_sd s sd I) as (A & _). unfold detach_m.
  destruct (memb o (coll_of s (other sd) v)) eqn:M; [|reflexivity].
  exfalso. apply NI. apply A. apply memb_In. exact M.
Qed.
Lemma detach_m_own : forall s sd o v, coll_of (detach_m s sd o v) sd o = coll_of s sd o.
Proof.
  intros. unfold detach_m. destruct (memb o (coll_of s (other sd) v)); [|reflexivity].
  apply coll_set_other_side. apply neq_other.
Qed.
Lemma attach_m_own : forall s sd o v, coll_of (attach_m s sd o v) sd o = coll_of s sd o.
Proof. intros. unfold attach_m. apply coll_set_other_side. apply neq_other. Qed.

(* the listeners of the other side never read this side *)
Lemma attach_m_commute : forall s sd o v l,
  same_cells (attach_m (set_cell s sd o (CList l)) sd o v) (set_cell (attach_m s sd o v) sd o (CList l)).
Proof.
  intros. unfold attach_m. rewrite coll_set_other_side by apply other_neq.
  apply set_cell_comm. left. apply neq_other.
Qed.
Lemma detach_m_commute : forall s sd o v l,
  same_cells (detach_m (set_cell s sd o (CList l)) sd o v) (set_cell (detach_m s sd o v) sd o (CList l)).
Proof.
  intros. unfold detach_m. rewrite coll_set_other_side by apply other_neq.
  destruct (memb o (coll_of s (other sd) v)); [|intros sd' o'; reflexivity].
  apply set_cell_comm. left. apply neq_other.
Qed.

Theorem m2m_coll_guarded : forall sd s p, inv_m2m s -> guard_coll_prim s sd p = true ->
  lands inv_m2m (step_prim M2M p s).
Proof.
  intros sd.
  apply (coll_prim_guarded M2M sd inv_m2m (fun s => attach_m s sd) (fun s => detach_m s sd)).
  - destruct sd; reflexivity.
  - intros s I. apply (inv_m2m_sd s sd I).
  - intros s I. apply (inv_m2m_sd s sd I).
  - apply inv_m2m_respects.
  - intros. apply fire_append_m2m; assumption.
  - intros n s o v l init _ _ V _ T. apply fire_remove_m2m; tauto.
  - intros. apply attach_m_own.
  - intros. apply detach_m_own.
  - intros. apply attach_m_inv; assumption.
  - intros. apply detach_m_inv; assumption.
  - intros. apply attach_m_commute.
  - intros. apply detach_m_commute.
Qed.

Theorem m2m_prim_guarded : forall s p, inv_m2m s -> guard_m2m s p = true ->
  lands inv_m2m (step_prim M2M p s).
Proof.
  intros s p I G. destruct p as [sd o v|sd o v|sd o i v|sd o i|sd o i|sd o i v|sd o vs|sd o v|sd o|sd o];
    try discriminate G; apply (m2m_coll_guarded sd); assumption.
Qed.
