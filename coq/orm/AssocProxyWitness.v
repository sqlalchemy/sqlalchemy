(* C50 - witnesses for the regions excluded by the guards of the ordering list (on [ol3]) and of the
   association proxies (on [px3], [pd1]); each is reproduced on the implementation by the check. *)
From Coq Require Import List ZArith Bool Arith.
Import ListNotations.
From SAV.base Require Import PySlice.
From SAV.orm Require Import CollBase CollList CollSet CollDict OrderingList OrderingListProofs AssocProxy AssocProxyProofs.
Open Scope Z_scope.

(* an attached ordering list of three new entities, count_from = 0 *)
Definition ol3 (roa : bool) : ol := fold_left (ol_append 0 roa) [0; 1; 2] ol_empty.
Definition show (s : ol) : list (Z * option Z) := map (fun e => (e, pos s e)) (items s).

(* l[-1] = e7 : repaired by 60dfe78 (was: the negative index stored as the position, (7, Some (-1))) *)
Lemma setitem_negative_fixed :
  ol_guard false (ol3 false) (OSetItem (-1) 7) = true /\
  show (snd (ol_step 0 false true (ol3 false) (OSetItem (-1) 7))) = [(0, Some 0); (1, Some 1); (7, Some 2)].
Proof. vm_compute. split; reflexivity. Qed.

(* the inherited sort / reverse / *= never touch the positions *)
Lemma reverse_refuted :
  ol_guard false (ol3 false) OReverse = false /\
  show (snd (ol_step 0 false true (ol3 false) OReverse)) = [(2, Some 2); (1, Some 1); (0, Some 0)].
Proof. vm_compute. split; reflexivity. Qed.
Lemma sort_refuted :
  let s := snd (ol_step 0 false true (ol3 false) (OInsert 0 9)) in   (* entity 9 first: [9;0;1;2] *)
  ol_guard false s OSort = false /\
  show (snd (ol_step 0 false true s OSort)) = [(0, Some 1); (1, Some 2); (2, Some 3); (9, Some 0)].
Proof. vm_compute. split; reflexivity. Qed.
Lemma imul_refuted :
  ol_guard false (ol3 false) (OIMul 2) = false /\
  show (snd (ol_step 0 false true (ol3 false) (OIMul 2))) =
    [(0, Some 0); (1, Some 1); (2, Some 2); (0, Some 0); (1, Some 1); (2, Some 2)].
Proof. vm_compute. split; reflexivity. Qed.

(* reorder_on_append = False (the default): an entity that already has a position keeps it *)
Lemma append_positioned_refuted :
  let s := snd (ol_step 0 false true (ol3 false) (ORemove 0)) in
  ol_guard false s (OAppend 0) = false /\
  show (snd (ol_step 0 false true s (OAppend 0))) = [(1, Some 0); (2, Some 1); (0, Some 0)].
Proof. vm_compute. split; reflexivity. Qed.
(* ... with reorder_on_append = True it is renumbered *)
Lemma append_positioned_roa :
  let s := snd (ol_step 0 true true (ol3 true) (ORemove 0)) in
  show (snd (ol_step 0 true true s (OAppend 0))) = [(1, Some 0); (2, Some 1); (0, Some 2)].
Proof. vm_compute. reflexivity. Qed.

(* the class's own slice loop (bare instance): l[1:3] = [e8, e9] reads entities[1], entities[2] *)
Lemma bare_setslice_refuted :
  let r := ol_step 0 false false (ol3 false) (OSetSlice (mkslice (Some 1) (Some 3) None) [8; 9]) in
  fst r = Raise IndexError /\ show (snd r) = [(0, Some 0); (9, Some 1); (2, Some 2)] /\
  py_setslice [0; 1; 2] (mkslice (Some 1) (Some 3) None) [8; 9] = Ok [0; 8; 9].
Proof. vm_compute. repeat split; reflexivity. Qed.
(* the same assignment on an attached list goes through the collections wrapper and is right *)
Lemma attached_setslice_ok :
  show (snd (ol_step 0 false true (ol3 false) (OSetSlice (mkslice (Some 1) (Some 3) None) [8; 9])))
  = [(0, Some 0); (8, Some 1); (9, Some 2)].
Proof. vm_compute. reflexivity. Qed.

(* a list proxy with the values 1, 2, 3 *)
Definition px3 : px := pl_extend px_empty [1; 2; 3].

(* p[1:10] = [7] and p[-2:] = [7] : repaired by 99130b4 (was: IndexError after deleting two members) *)
Lemma proxy_setslice_fixed :
  let sl := mkslice (Some 1) (Some 10) None in
  pl_guard px3 (PSetSlice sl [7]) = true /\
  fst (pl_step px3 (PSetSlice sl [7])) = POk /\
  to_list (snd (pl_step px3 (PSetSlice sl [7]))) = [1; 7] /\
  plop_ref (to_list px3) (PSetSlice sl [7]) = (POk, [1; 7]).
Proof. vm_compute. repeat split; reflexivity. Qed.
Lemma proxy_setslice_negative_fixed :
  let sl := mkslice (Some (-2)) None None in
  pl_guard px3 (PSetSlice sl [7]) = true /\
  (fst (pl_step px3 (PSetSlice sl [7])), to_list (snd (pl_step px3 (PSetSlice sl [7])))) = (POk, [1; 7]) /\
  plop_ref (to_list px3) (PSetSlice sl [7]) = (POk, [1; 7]).
Proof. vm_compute. repeat split; reflexivity. Qed.
(* p *= -1 leaves the proxy unchanged, a list is emptied *)
Lemma proxy_imul_negative_refuted :
  pl_guard px3 (PIMul (-1)) = false /\
  to_list (snd (pl_step px3 (PIMul (-1)))) = [1; 2; 3] /\
  plop_ref (to_list px3) (PIMul (-1)) = (POk, []).
Proof. vm_compute. repeat split; reflexivity. Qed.

(* a dict proxy holding {0: 5} *)
Definition pd1 : px := pd_setitem px_empty 0 5.
(* d.pop(key, default) with an absent key: repaired by f24ff68 (was: AttributeError, the getter applied to
   the default) *)
Lemma proxy_dict_pop_default_fixed :
  pd_guard pd1 (DPop 3 (Some 7)) = true /\
  pd_step pd1 (DPop 3 (Some 7)) = (DOk (Some 7), pd1) /\
  pdop_ref (to_dict pd1) (DPop 3 (Some 7)) = (DOk (Some 7), [(0, 5)]).
Proof. vm_compute. repeat split; reflexivity. Qed.

(* examples: the hypotheses of the guarded theorems are satisfiable *)
Lemma ol_guarded_example :
  let ops := [OAppend 7; OInsert 0 8; OSetSlice (mkslice (Some 1) (Some 3) None) [20; 21; 22]; ODelItem (-1);
              OSetItem 0 30; OExtend [31; 32]; OPop None; ORemove 20; ODelSlice (mkslice None None (Some 2)); OReorder] in
  ol_guarded 0 false true ops (ol3 false) = true /\
  show (ol_run 0 false true ops (ol3 false)) = [(21, Some 0); (2, Some 1)].
Proof. vm_compute. split; reflexivity. Qed.

Lemma wf_px3 : wf px3.
Proof. apply (extend_view [1; 2; 3] px_empty wf_empty). Qed.
