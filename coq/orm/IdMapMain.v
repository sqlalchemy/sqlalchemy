(* C34 - queries return the mapped objects, get of a present unexpired object emits no SQL;
   histories on which the identity map and the objects' own view of their identity disagree *)
From Coq Require Import List ZArith Bool Arith Lia.
Import ListNotations.
From SAV.orm Require Import IdMap IdMapSpec IdMapLemmas IdMapStep.
Open Scope Z_scope.

Lemma imap_add_obj : forall o st k h, imap st k h -> imap (add_obj o st) k h.
Proof. intros o st k h [x [H1 H2]]. exists x. split; auto. unfold add_obj. simpl.
  rewrite nth_error_app1; auto. apply nth_error_Some. congruence. Qed.

Lemma load_row_mapped : forall k st, imap (fst (load_row k st)) k (snd (load_row k st)).
Proof.
  intros k st. unfold load_row. destruct (holder k st) eqn:Eh; simpl; [apply holder_some; auto|].
  eexists. split; [unfold add_obj; simpl; rewrite nth_error_app2 by lia; rewrite Nat.sub_diag; reflexivity|].
  simpl. split; [reflexivity|destruct k; reflexivity].
Qed.
Lemma load_row_keeps : forall k st k' h, imap st k' h -> imap (fst (load_row k st)) k' h.
Proof. intros. unfold load_row. destruct (holder k st); simpl; auto. apply imap_add_obj; auto. Qed.
Lemma load_rows_keeps : forall tok pks st k' h, imap st k' h -> imap (fst (load_rows tok pks st)) k' h.
Proof. intros tok pks st k' h. apply (load_rows_pres (fun s => imap s k' h)). intros k s. apply load_row_keeps. Qed.
(* row by row: the object returned for the row with primary key [pk] is the one mapped under (pk, token) *)
Lemma load_rows_mapped : forall tok pks st,
  Forall2 (fun pk h => imap (fst (load_rows tok pks st)) (pk, tok) h) pks (snd (load_rows tok pks st)).
Proof.
  induction pks as [|k r IH]; intros st; simpl; [constructor|].
  pose proof (load_row_mapped (k, tok) st) as H1. destruct (load_row (k, tok) st) as [st1 x]. simpl in H1.
  specialize (IH st1). pose proof (load_rows_keeps tok r st1 (k, tok) x H1) as H2.
  destruct (load_rows tok r st1) as [st2 hs]. simpl in *. constructor; auto.
Qed.

Theorem query_returns_rows : forall e tok st,
  rerr (do_query e tok st) = 0 ->
  Forall2 (fun pk h => imap (rst (do_query e tok st)) (pk, tok) h) (sort_z (snd (sql e st))) (robjs (do_query e tok st)).
Proof.
  intros e tok st. unfold do_query. destruct (sql e st) as [[st1 c] rws].
  destruct (Z.eqb_spec c 0); simpl; [|congruence].
  intros _. pose proof (load_rows_mapped tok (sort_z rws) st1) as H.
  destruct (load_rows tok (sort_z rws) st1). exact H.
Qed.
Theorem query_returns_mapped : forall e tok st,
  rerr (do_query e tok st) = 0 ->
  exists rws, Forall2 (fun pk h => imap (rst (do_query e tok st)) (pk, tok) h) rws (robjs (do_query e tok st)).
Proof. intros e tok st H. eexists. apply query_returns_rows, H. Qed.

Lemma mapped_is_holder : forall st k h, functional st -> imap st k h -> holder k st = Some h.
Proof.
  intros st k h HU Hm. destruct (holder k st) as [h'|] eqn:E.
  - apply holder_some in E. f_equal. apply (HU k h' h); auto.
  - exfalso. eapply holder_none; eauto.
Qed.

(* Session.get of an identity whose object is in the map and not expired: that object, no SQL, nothing changes *)
Theorem get_present_unexpired : forall e k st h,
  functional st -> imap st k h -> eexp e h = false ->
  do_get e k st = mkRes st 0 [h] true.
Proof. intros e k st h HU Hm He. unfold do_get. rewrite (mapped_is_holder st k h HU Hm), He. reflexivity. Qed.

Definition env_of (rws : list Z) (expired modified : bool) : env :=
  mkEnv rws (fun _ => expired) (fun _ => expired) (fun _ => true) (fun _ => modified).

(* s.add(o1); s.commit(); s.delete(o1); s.add(o0) with the same primary key; s.get(A, 1):
   the autoflush inside get moves o1 to "deleted" and maps o0; get returns the mapped object o0, not the
   instance it looked up before the autoflush (the implementation does so since /repo 69ec57b) *)
Definition h_get_stale : list (env * op) :=
  [(env_of [] false false, Add 1); (env_of [] false false, Commit); (env_of [1] true false, Delete 1);
   (env_of [1] true false, Add 0)].
Lemma get_after_row_switch : let st := run h_get_stale (init true [1; 1]) in
  let r := step (env_of [1] true false) (Get 1 0) st in
  rerr r = 0 /\ robjs r = [0%nat] /\ holder (1, 0) (rst r) = Some 0%nat /\ persistent (get (rst r) 1) = false.
Proof. vm_compute. repeat split; reflexivity. Qed.

(* a primary key change is flushed, the object is expunged, the transaction is rolled back:
   _restore_snapshot puts the detached object back into the identity map *)
Definition h_detached_mapped : list (env * op) :=
  [(env_of [] false false, Add 0); (env_of [] false false, Commit); (env_of [1] false false, PkSet 0 2);
   (env_of [1] false true, Flush); (env_of [2] false false, Expunge 0); (env_of [2] false false, Rollback)].
Lemma detached_mapped : let st := run h_detached_mapped (init false [1]) in
  mapped_attached st = false /\ iimap (get st 0) = true /\ osess (get st 0) = false /\ bad st = true.
Proof. vm_compute. repeat split; reflexivity. Qed.

(* the row of a persistent object disappears behind the session's back, a new object with the same
   primary key is flushed: two persistent objects with one identity, one of them not in the map *)
Definition h_row_vanished : list (env * op) :=
  [(env_of [1] false false, Query 0 0); (env_of [] false false, Add 0); (env_of [] false false, Flush)].
Lemma row_vanished : let st := run h_row_vanished (init true [1]) in
  one_persistent_per_key st = false /\ persistent_mapped st = false /\ bad st = true.
Proof. vm_compute. repeat split; reflexivity. Qed.

(* two pending objects with the primary key of a persistent object that is deleted in the same flush:
   both are "row switches", both become persistent under the same identity (no [stop] here: the
   implementation's choice of which one stays mapped depends on set iteration order) *)
Lemma double_row_switch :
  let e := env_of [] false false in let e1 := env_of [1] false false in
  let s1 := rst (step e Commit (rst (step e (Add 0) (init true [1; 1; 1])))) in
  let s2 := rst (step e1 (Add 2) (rst (step e1 (Add 1) (rst (step e1 (Delete 0) s1))))) in
  let st := rst (step e1 Flush s2) in
  one_persistent_per_key st = false /\ persistent_mapped st = false /\ bad st = true.
Proof. vm_compute. repeat split; reflexivity. Qed.

(* a history through loads and mutations on which everything is consistent *)
Definition h_good : list (env * op) :=
  [(env_of [1; 2] false false, Query 0 0); (env_of [1; 2] false false, Get 1 7); (env_of [1; 2] false false, PkSet 1 3);
   (env_of [1; 2] false true, Flush); (env_of [1; 3] false false, Query 1 0); (env_of [1; 3] false false, Rollback);
   (env_of [1; 2] true false, Get 2 0); (env_of [1; 2] false false, Delete 2); (env_of [1; 2] false false, Commit);
   (env_of [1] false false, Merge 0)].
Lemma good_consistent : let st := run h_good (init true [5]) in
  mapped_attached st = true /\ persistent_mapped st = true /\ one_persistent_per_key st = true /\
  length (objs st) = 4%nat /\ bad st = false.
Proof. vm_compute. repeat split; reflexivity. Qed.
Lemma good_imap : imap (run h_good (init true [5])) (1, 0) 1.
Proof. eexists. split; [vm_compute; reflexivity|split; reflexivity]. Qed.
