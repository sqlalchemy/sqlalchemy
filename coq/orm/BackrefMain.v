(* C37 - what props/C37.v cites: the step and sequence theorems, the counterexamples for the two
   defects, the unloaded-side example, the reload theorems. *)
From Coq Require Import List NArith Bool.
Import ListNotations.
From SAV.orm Require Import Backref BackrefSpec BackrefBase BackrefO2M BackrefM2M.
Open Scope N_scope.

Definition ok_or_err (r : res) (s' : st) : Prop := r = Ok s' \/ exists e, r = Err e s'.

Lemma lands_ok_or_err : forall P r, lands P r -> exists s', ok_or_err r s' /\ P s'.
Proof.
  intros P [s|e s|] H; [exists s|exists s|destruct H]; (split; [|exact H]); [left|right; exists e]; reflexivity.
Qed.

Theorem o2m_step_guarded : forall s p, inv_o2m s -> guard_o2m s p = true ->
  exists s', ok_or_err (step_prim O2M p s) s' /\ inv_o2m s'.
Proof. intros s p I G. apply lands_ok_or_err, o2m_prim_guarded; assumption. Qed.

Theorem m2m_step_guarded : forall s p, inv_m2m s -> guard_m2m s p = true ->
  exists s', ok_or_err (step_prim M2M p s) s' /\ inv_m2m s'.
Proof. intros s p I G. apply lands_ok_or_err, m2m_prim_guarded; assumption. Qed.

Lemma guarded_agree : forall r g (inv : st -> Prop),
  (forall s p, inv s -> g s p = true -> lands inv (step_prim r p s)) ->
  forall ps s s', inv s -> run_guarded r g ps s = Some s' -> inv s'.
Proof.
  intros r g inv STEP. induction ps as [|p rest IH]; intros s s' I R; cbn [run_guarded] in R; [injection R as <-; exact I|].
  destruct (g s p) eqn:G; [|discriminate]. specialize (STEP s p I G).
  destruct (step_prim r p s); [| |discriminate]; exact (IH _ _ STEP R).
Qed.
Corollary o2m_guarded_agree : forall ps s s', inv_o2m s ->
  run_guarded O2M guard_o2m ps s = Some s' -> inv_o2m s'.
Proof. exact (guarded_agree O2M guard_o2m inv_o2m o2m_prim_guarded). Qed.
Corollary m2m_guarded_agree : forall ps s s', inv_m2m s ->
  run_guarded M2M guard_m2m ps s = Some s' -> inv_m2m s'.
Proof. exact (guarded_agree M2M guard_m2m inv_m2m m2m_prim_guarded). Qed.

Definition empty_state (r : rkind) (pers : bool) : st :=
  mkst pers (fun _ => match kind_of r SA with Coll => CList [] | Scal => if pers then CVal 0 else CAbsent end)
            (fun _ => match kind_of r SB with Coll => CList [] | Scal => if pers then CVal 0 else CAbsent end).
Lemma empty_inv_o2m : forall pers, inv_o2m (empty_state O2M pers).
Proof.
  intros pers. constructor.
  - intros p c. cbn. destruct pers; split; try tauto; intros [P H]; try discriminate. injection H as H. congruence.
  - intros p. cbn. constructor.
  - intros p. cbn. tauto.
  - intros c. cbn. destruct pers; discriminate.
Qed.
Lemma empty_inv_m2m : forall pers, inv_m2m (empty_state M2M pers).
Proof.
  intros pers. constructor.
  - intros l r0. cbn. tauto.
  - intros o. cbn. constructor.
  - intros o. cbn. constructor.
  - intros o. cbn. tauto.
  - intros o. cbn. tauto.
Qed.

Definition view (s : st) (sd : side) (o : N) : cell := cells s sd o.

(* (a) one-to-one: p1.one = o1; p2.one = o1  leaves p1.one = o1 while o1.p = p2 *)
Theorem o2o_reassign_parent_side :
  exists s, run_prims O2O [PSet SA 1 1; PSet SA 2 1] (empty_state O2O false) = Some s /\
            sa s 1 = CVal 1 /\ sa s 2 = CVal 1 /\ sb s 1 = CVal 2 /\ ~ agree_o2o s.
Proof.
  eexists. split; [vm_compute; reflexivity|]. repeat split; try reflexivity.
  intros A. specialize (A 1 1). cbn in A. assert (H : CVal 2 = CVal 1) by (apply A; [discriminate|discriminate|reflexivity]).
  discriminate.
Qed.
(* symmetric: o1.p = p1; o2.p = p1  leaves o1.p = p1 while p1.one = o2 *)
Theorem o2o_reassign_child_side :
  exists s, run_prims O2O [PSet SB 1 1; PSet SB 2 1] (empty_state O2O false) = Some s /\
            sb s 1 = CVal 1 /\ sb s 2 = CVal 1 /\ sa s 1 = CVal 2 /\ ~ agree_o2o s.
Proof.
  eexists. split; [vm_compute; reflexivity|]. repeat split; try reflexivity.
  intros A. specialize (A 1 1). cbn in A. assert (H : CVal 2 = CVal 1) by (apply A; [discriminate|discriminate|reflexivity]).
  discriminate.
Qed.

(* (b) duplicates: a child present twice stays once after being re-parented / popped once *)
Theorem o2m_duplicate_reparent :
  exists s1 s, run_prims O2M [PAppend SA 1 1] (empty_state O2M false) = Some s1 /\
    guard_o2m s1 (PAppend SA 1 1) = false /\
    run_prims O2M [PAppend SA 1 1; PSet SB 1 2] s1 = Some s /\
    coll_of s SA 1 = [1] /\ coll_of s SA 2 = [1] /\ sb s 1 = CVal 2 /\ ~ agree_o2m s.
Proof.
  eexists. eexists. split; [vm_compute; reflexivity|]. split; [vm_compute; reflexivity|].
  split; [vm_compute; reflexivity|]. repeat split; try reflexivity.
  intros A. specialize (A 1 1). cbn in A. assert (H : 1 <> 0 /\ CVal 2 = CVal 1) by (apply A; left; reflexivity).
  destruct H as [_ H]. discriminate.
Qed.
Theorem o2m_duplicate_pop :
  exists s, run_prims O2M [PAppend SA 1 1; PAppend SA 1 1; PPop SA 1 0] (empty_state O2M false) = Some s /\
    coll_of s SA 1 = [1] /\ sb s 1 = CVal 0 /\ ~ agree_o2m s.
Proof.
  eexists. split; [vm_compute; reflexivity|]. repeat split; try reflexivity.
  intros A. specialize (A 1 1). cbn in A. assert (H : 1 <> 0 /\ CVal 0 = CVal 1) by (apply A; left; reflexivity).
  destruct H as [_ H]. discriminate.
Qed.
Theorem m2m_duplicate_replace :
  exists s, run_prims M2M [PAppend SA 1 1; PAppend SB 1 1; PReplace SA 1 []] (empty_state M2M false) = Some s /\
    coll_of s SA 1 = [] /\ coll_of s SB 1 = [1] /\ ~ agree_m2m s.
Proof.
  eexists. split; [vm_compute; reflexivity|]. repeat split; try reflexivity.
  intros A. specialize (A 1 1). cbn in A. apply A. left. reflexivity.
Qed.

(* the unloaded-side exception: the child's parent attribute is expired, its old parent's loaded
   collection is not updated when the child is appended elsewhere *)
Definition unloaded_example : st :=
  set_cell (set_cell (empty_state O2M true) SA 1 (CList [1])) SB 1 CUnl.
Theorem o2m_unloaded_side_exception :
  (forall p c, sb unloaded_example c <> CUnl ->
               (In c (coll_of unloaded_example SA p) <-> p <> 0 /\ sb unloaded_example c = CVal p)) /\
  guard_o2m unloaded_example (PAppend SA 2 1) = true /\
  exists s, step_prim O2M (PAppend SA 2 1) unloaded_example = Ok s /\
            coll_of s SA 1 = [1] /\ coll_of s SA 2 = [1] /\ sb s 1 = CVal 2.
Proof.
  split; [|split; [vm_compute; reflexivity|eexists; split; [vm_compute; reflexivity|repeat split; reflexivity]]].
  intros p c L.
  assert (SBc : sb unloaded_example c = if c =? 1 then CUnl else CVal 0) by reflexivity.
  assert (CO : coll_of unloaded_example SA p = if p =? 1 then [1] else []).
  { unfold unloaded_example, coll_of. cbn. unfold upd. destruct (p =? 1); reflexivity. }
  rewrite SBc in *. rewrite CO. destruct (c =? 1) eqn:C1; [congruence|]. apply N.eqb_neq in C1.
  destruct (p =? 1); cbn; split; try tauto.
  - intros [E|[]]. congruence.
  - intros [P H]. injection H as H. congruence.
  - intros [P H]. injection H as H. congruence.
Qed.

Lemma rows_In : forall r sd rows o x,
  In x (rows_of_side r sd rows o) <-> In (match sd with SA => (o, x) | SB => (x, o) end) rows.
Proof.
  intros r sd rows o x. unfold rows_of_side. destruct sd; rewrite in_map_iff; split.
  1, 3: intros [[a b] [E I]]; apply filter_In in I; destruct I as [I F]; cbn in *; apply N.eqb_eq in F;
    subst; exact I.
  all: intros I; eexists; (split; [|apply filter_In; split; [exact I|apply N.eqb_refl]]); reflexivity.
Qed.
Lemma rows_NoDup : forall r sd rows o, NoDup rows -> NoDup (rows_of_side r sd rows o).
Proof.
  intros r sd rows o ND. induction ND as [|[x y] t NI ND IH]; [destruct sd; constructor|].
  destruct sd; cbn; [destruct (N.eqb_spec x o) as [->|]|destruct (N.eqb_spec y o) as [->|]]; cbn; try exact IH;
    (constructor; [|exact IH]); intros H; [apply (rows_In r SA) in H|apply (rows_In r SB) in H]; contradiction.
Qed.
(* a scalar attribute is loaded from the first of its rows; they all carry the same value *)
Lemma scalar_cell_In : forall (l : list N) x, x <> 0 -> (forall a b, In a l -> In b l -> a = b) ->
  (match l with [] => CVal 0 | y :: _ => CVal y end = CVal x <-> In x l).
Proof.
  intros [|y t] x X U; split; intros H.
  - injection H as H. congruence.
  - destruct H.
  - injection H as H. left. exact H.
  - f_equal. apply U; [left; reflexivity|exact H].
Qed.

Theorem reload_agree_o2m : forall rows, functional_rows rows -> nonzero_rows rows ->
  agree_o2m (reload O2M rows).
Proof.
  intros rows F NZ p c. unfold reload, coll_of. cbn [cells sa sb reload_cell kind_of]. rewrite rows_In.
  destruct (N.eq_dec p 0) as [->|P]; [split; [intros H; apply NZ in H|]; tauto|].
  rewrite scalar_cell_In, rows_In; [tauto|exact P|].
  intros a b A B. apply rows_In in A, B. exact (F a b c A B).
Qed.

Theorem reload_agree_m2m : forall rows, agree_m2m (reload M2M rows).
Proof.
  intros rows l r0. unfold reload, coll_of. cbn [cells sa sb reload_cell kind_of]. rewrite !rows_In. tauto.
Qed.

Theorem reload_agree_o2o : forall rows, functional_rows rows -> injective_rows rows -> nonzero_rows rows ->
  agree_o2o (reload O2O rows).
Proof.
  intros rows F J NZ p o P O. unfold reload. cbn [sa sb reload_cell kind_of].
  rewrite !scalar_cell_In, !rows_In; [tauto|exact P| |exact O|]; intros a b A B; apply rows_In in A, B.
  - exact (F a b o A B).
  - exact (J p a b A B).
Qed.

(* after the one-to-one defect both children carry the same foreign key: the reloaded sides disagree *)
Theorem reload_o2o_two_children_refuted :
  let s := reload O2O [(1, 1); (1, 2)] in sa s 1 = CVal 1 /\ sb s 2 = CVal 1 /\ ~ agree_o2o s.
Proof.
  cbn. repeat split. intros A. specialize (A 1 2). cbn in A.
  assert (H : CVal 1 = CVal 2) by (apply A; [discriminate|discriminate|reflexivity]). discriminate.
Qed.

(* commit: the whole invariant holds for the state loaded from the rows *)
Theorem reload_inv_o2m : forall rows, NoDup rows -> functional_rows rows -> nonzero_rows rows ->
  inv_o2m (reload O2M rows).
Proof.
  intros rows ND F NZ. constructor.
  - apply reload_agree_o2m; assumption.
  - intros p. apply (rows_NoDup O2M SA). exact ND.
  - intros p H. apply (rows_In O2M SA), NZ in H. tauto.
  - intros c. unfold reload. cbn [cells sb reload_cell kind_of].
    destruct (rows_of_side O2M SB rows c); discriminate.
Qed.

Theorem reload_inv_m2m : forall rows, NoDup rows -> nonzero_rows rows -> inv_m2m (reload M2M rows).
Proof.
  intros rows ND NZ. constructor.
  - apply reload_agree_m2m.
  - intros o. apply (rows_NoDup M2M SA). exact ND.
  - intros o. apply (rows_NoDup M2M SB). exact ND.
  - intros o H. apply (rows_In M2M SA), NZ in H. tauto.
  - intros o H. apply (rows_In M2M SB), NZ in H. tauto.
Qed.
