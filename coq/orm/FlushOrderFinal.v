(* C31 - the side conditions on the cycle set are theorems: the main theorem without them, and the assertion of
   per_state_flush_actions never fires *)
From Coq Require Import List Bool.
Import ListNotations.
From SAV.util Require Import Topo.
From SAV.orm Require Import FlushOrder FlushOrderSpec FlushOrderCover FlushOrderCovered FlushOrderMain FlushOrderCyc.

Theorem cyc_ok_always : forall g cy, wf g = true -> cycles std_tables g = Some cy -> cyc_ok g cy = true.
Proof. intros g cy Hwf Hc. apply cycles_ok; [apply wf_nd, Hwf|exact Hc]. Qed.

Theorem plan_respects_fk_guarded_final : forall g cy layers tr,
  wf g = true -> consistent g = true ->
  cycles std_tables g = Some cy -> managed g cy = true ->
  plan std_tables g = Layers layers -> linearizes layers g cy tr ->
  exists d', exec (g_notnull g) (db0 g) (map (stmt_of g) tr) = Some d'.
Proof. intros g cy layers tr Hwf Hcons Hc Hm Hp Hl.
  apply (plan_respects_fk_guarded_main g cy layers tr Hwf Hcons Hc (cyc_ok_always g cy Hwf Hc) Hm Hp Hl). Qed.

(* the assertion in per_state_flush_actions never fires *)
Theorem plan_never_asserts : forall g, wf g = true -> plan std_tables g <> PAssert.
Proof. intros g Hwf. unfold plan. destruct (cycles std_tables g) as [cy|] eqn:Hc; [|discriminate].
  assert (A : forallb (expand_assert g cy) (cyc_actions g cy) = true).
  { apply forallb_forall. intros a Ha. pose proof (cyc_ok_always g cy Hwf Hc) as Hok.
    assert (Hp : forall m, In m (all_mappers g) -> incyc cy (DelAll m) = incyc cy (SaveAll m)) by (apply (ok_pair g cy Hok)).
    assert (X : forall m, forallb (fun d => incyc cy (SaveAll (d_child d)) || negb (incyc cy (DelAll (d_child d)))) (deps_of g m) = true).
    { intros m. apply forallb_forall. intros d Hd. apply deps_of_in in Hd. destruct Hd as [Hd _].
      rewrite (proj2 (pair_dep g cy Hp d Hd)). destruct (incyc cy (SaveAll (d_child d))); reflexivity. }
    destruct a; simpl; try reflexivity; apply X. }
  rewrite A. destruct (sort_as_subsets _ _); discriminate. Qed.
