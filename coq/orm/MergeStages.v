(* C45 - Session._merge in stages.  merge_A and merge_B have the same shape: the key of the source is resolved to a
   target (identity map, conflict map, then a SELECT or - with load=False - a new persistent instance), a pending
   instance is created when there is none, the column properties are copied and load=False commits the target.
   The proofs about a merge go through these stages ([child_step], [merge_A_stages]) and over the children with
   [fold_merge_B_ind] instead of unfolding merge_A and merge_B. *)
From Coq Require Import List Bool Arith ZArith Lia.
From SAV.orm Require Import Merge.
Import ListNotations.

Lemma upd_same : forall A (f : nat -> A) k v, upd f k v k = v.
Proof. intros. unfold upd. rewrite Nat.eqb_refl. reflexivity. Qed.
Lemma upd_other : forall A (f : nat -> A) k v x, x <> k -> upd f k v x = f x.
Proof. intros A f k v x H. unfold upd. apply Nat.eqb_neq in H. rewrite H. reflexivity. Qed.
Lemma upd2_same : forall A (f : nat -> nat -> A) a b v, upd2 f a b v a b = v.
Proof. intros. unfold upd2. rewrite !Nat.eqb_refl. reflexivity. Qed.
Lemma upd2_other : forall A (f : nat -> nat -> A) a b v x y, x <> a \/ y <> b -> upd2 f a b v x y = f x y.
Proof.
  intros A f a b v x y H. unfold upd2. destruct (Nat.eqb_spec x a), (Nat.eqb_spec y b); try reflexivity. destruct H; contradiction.
Qed.
Lemma upd_id : forall A (f : nat -> A) k v x, f k = v -> upd f k v x = f x.
Proof. intros A f k v x H. unfold upd. destruct (Nat.eqb_spec x k); congruence. Qed.
Lemma upd2_id : forall A (f : nat -> nat -> A) a b v x y, f a b = v -> upd2 f a b v x y = f x y.
Proof. intros A f a b v x y H. unfold upd2. destruct (Nat.eqb_spec x a), (Nat.eqb_spec y b); cbn [andb]; congruence. Qed.
Lemma assoc_cons : forall A (k k' : nat) (v : A) l, assoc k ((k', v) :: l) = if Nat.eqb k k' then Some v else assoc k l.
Proof. reflexivity. Qed.

Definition inert (s s' : mstate) : Prop := next s' = next s /\ idA s' = idA s /\ idB s' = idB s /\ cols s' = cols s.
Lemma inert_refl : forall s, inert s s. Proof. intros; repeat split. Qed.
Lemma inert_trans : forall a b c, inert a b -> inert b c -> inert a c.
Proof. intros a b c [A1 [A2 [A3 A4]]] [B1 [B2 [B3 B4]]]. repeat split; congruence. Qed.

Lemma inert_set_parent : forall s c newp b chk, inert s (set_parent s c newp b chk).
Proof.
  intros. unfold set_parent. destruct (match chk with Some _ => _ | None => false end); [apply inert_refl|].
  (* the event writes par, pcomm, modf; before it the child may leave the collection of its old parent *)
  match goal with |- inert s (set_par (set_modf (match pcomm ?a c with _ => _ end) _ _) _ _) =>
    apply (inert_trans s a); [|destruct (pcomm a c); repeat split; reflexivity] end.
  destruct (oldp_is (cur_parent s c) newp); [apply inert_refl|]. destruct (cur_parent s c) as [| |[q|]]; try apply inert_refl.
  destruct b; [|apply inert_refl]. destruct (bs s q) as [l|]; [|repeat split; reflexivity].
  destruct (mem c l); [|apply inert_refl]. destruct (bscomm s q); repeat split; reflexivity.
Qed.
Lemma inert_fold : forall (f : mstate -> nat -> mstate) l a, (forall a m, inert a (f a m)) -> inert a (fold_left f l a).
Proof. intros f. induction l as [|m l IH]; intros a H; cbn [fold_left]; [apply inert_refl|]. eapply inert_trans; [apply H|apply IH; exact H]. Qed.
Lemma inert_coll_set : forall cfg s t new, inert s (coll_set cfg s t new).
Proof.
  intros cfg s t new. unfold coll_set.
  eapply inert_trans; [|apply inert_fold]. eapply inert_trans; [|apply inert_fold].
  - destruct (bscomm s t); repeat split; reflexivity.
  - intros a m. cbv zeta.
    set (a' := if mem m (filter (fun c => mem c new) (match bs s t with Some l => l | None => [] end)) then a
               else if hb cfg then set_parent a m (Some t) true None else a).
    apply (inert_trans a a'); [|repeat split; reflexivity]. unfold a'.
    destruct (mem m _); [apply inert_refl|]. destruct (hb cfg); [apply inert_set_parent|apply inert_refl].
  - intros a m. destruct (mem m _); [apply inert_refl|]. destruct (hb cfg); [apply inert_set_parent|apply inert_refl].
Qed.

Definition writes_only (c : nat) (s s' : mstate) : Prop :=
  next s' = next s /\ idA s' = idA s /\ idB s' = idB s /\ forall x k, x <> c -> cols s' x k = cols s x k.
Lemma writes_only_inert : forall c s s', inert s s' -> writes_only c s s'.
Proof. intros c s s' [N [A [B C]]]. unfold writes_only. rewrite C. auto. Qed.
Lemma writes_only_trans : forall t a b c, writes_only t a b -> writes_only t b c -> writes_only t a c.
Proof. intros t a b c [A1 [A2 [A3 A4]]] [B1 [B2 [B3 B4]]]. repeat split; try congruence. intros x k H. rewrite B4, A4; auto. Qed.

Lemma cols_merge_col : forall load s t k v,
  cols (merge_col load s t k v) = match v with SV y => upd2 (cols s) t k (Some y) | SU => cols s end.
Proof. intros. destruct v; [reflexivity|]. destruct load; [unfold merge_col, set_col; destruct (ccomm s t k)|]; reflexivity. Qed.
Lemma writes_only_merge_col : forall load s t k v, writes_only t s (merge_col load s t k v).
Proof.
  intros. repeat split; try (destruct v; [reflexivity|]; destruct load; [unfold merge_col, set_col; destruct (ccomm s t k)|]; reflexivity).
  intros x k' H. rewrite cols_merge_col. destruct v; [reflexivity|]. apply upd2_other. auto.
Qed.

Lemma get_B_eq : forall cfg s pk, get_B cfg s pk =
  match idB s pk with
  | Some t => (s, Some t)
  | None => match assoc pk (rowsB cfg) with
            | Some row => (fst (load_B cfg (inc_sql s) pk row), Some (snd (load_B cfg (inc_sql s) pk row)))
            | None => (inc_sql s, None)
            end
  end.
Proof.
  intros. unfold get_B. destruct (idB s pk); [reflexivity|]. destruct (assoc pk (rowsB cfg)); [|reflexivity].
  destruct (load_B cfg (inc_sql s) pk p); reflexivity.
Qed.

Lemma load_B_entry : forall cfg s pk row, idB (fst (load_B cfg s pk row)) pk = Some (snd (load_B cfg s pk row)).
Proof. intros. unfold load_B. destruct (idB s pk) eqn:E; [exact E|]. cbn. apply upd_same. Qed.
Lemma get_B_entry : forall cfg s pk c, snd (get_B cfg s pk) = Some c -> idB (fst (get_B cfg s pk)) pk = Some c.
Proof.
  intros cfg s pk c. rewrite get_B_eq. destruct (idB s pk) eqn:E; [cbn; congruence|].
  destruct (assoc pk (rowsB cfg)); [|discriminate]. cbn [fst snd]. intros H. inversion H. apply load_B_entry.
Qed.
Lemma get_A_entry : forall cfg s pk c, snd (get_A cfg s pk) = Some c -> idA (fst (get_A cfg s pk)) pk = Some c.
Proof.
  intros cfg s pk c. unfold get_A. destruct (idA s pk) eqn:E; [cbn; congruence|].
  destruct (assoc pk (rowsA cfg)); [|discriminate]. cbn. intros H. inversion H. apply upd_same.
Qed.

(* Session.get of a B and the lazy load are sequences of inert steps and load_B *)
Section Loading.
Variables (cfg : mconfig) (Q : mstate -> mstate -> Prop).
Hypothesis Q_trans : forall a b c, Q a b -> Q b c -> Q a c.
Hypothesis Q_inert : forall s s', inert s s' -> Q s s'.
Hypothesis Q_load_B : forall s pk row, Q s (fst (load_B cfg s pk row)).

Lemma get_B_steps : forall s pk, Q s (fst (get_B cfg s pk)).
Proof.
  intros. rewrite get_B_eq. destruct (idB s pk); [apply Q_inert, inert_refl|].
  destruct (assoc pk (rowsB cfg)); cbn [fst]; [eapply Q_trans; [|apply Q_load_B]|]; apply Q_inert; repeat split; reflexivity.
Qed.

Lemma lazy_bs_steps : forall s t, Q s (lazy_bs cfg s t).
Proof.
  intros. unfold lazy_bs. destruct (bs s t); [apply Q_inert, inert_refl|].
  destruct (tkey s t) as [pk|]; [|apply Q_inert; repeat split; reflexivity].
  match goal with |- context [fold_left ?f (rowsB cfg) _] => set (F := f) end.
  assert (G : forall rows a l, Q a (fst (fold_left F rows (a, l)))).
  { induction rows as [|r rows IH]; intros a l; cbn [fold_left]; [apply Q_inert, inert_refl|]. unfold F at 2.
    destruct (fst (snd r)) as [a0|]; [|apply IH]. destruct (Nat.eqb a0 pk); [|apply IH].
    pose proof (Q_load_B a (fst r) (snd r)) as H. destruct (load_B cfg a (fst r) (snd r)) as [s' c].
    eapply Q_trans; [exact H|apply IH]. }
  specialize (G (rowsB cfg) (inc_sql s) []). destruct (fold_left F (rowsB cfg) (inc_sql s, [])) as [s1 l].
  eapply Q_trans; [apply Q_inert|eapply Q_trans; [exact G|apply Q_inert]]; repeat split; reflexivity.
Qed.
End Loading.

(* the instance the session has, finds or (load=False) makes for a key; None: no key, or no row *)
Definition resolve_B (cfg : mconfig) (load : bool) (s : mstate) (ctx : mctx) (key : option nat) : mstate * option nat :=
  match key with
  | None => (s, None)
  | Some pk =>
      match idB s pk with
      | Some t => (s, Some t)
      | None => match assoc pk (cmap ctx) with
                | Some t => (s, Some t)
                | None => if load then get_B cfg s pk
                          else let '(sa, t) := alloc s in (set_idB (set_tkey sa t (Some pk)) pk (Some t), Some t)
                end
      end
  end.
Definition resolve_A (cfg : mconfig) (load : bool) (s : mstate) (key : option nat) : mstate * option nat :=
  match key with
  | None => (s, None)
  | Some pk =>
      match idA s pk with
      | Some t => (s, Some t)
      | None => if load then get_A cfg s pk
                else let '(sa, t) := alloc s in (set_idA (set_tkey sa t (Some pk)) pk (Some t), Some t)
      end
  end.
(* the resolved instance, else a new pending one *)
Definition obtain (r : mstate * option nat) : mstate * nat :=
  match snd r with
  | Some t => (fst r, t)
  | None => let '(sa, t) := alloc (fst r) in (set_pending sa t, t)
  end.

(* the key of the source is copied like a loaded column; without a key nothing is copied *)
Definition key_attr (key : option nat) : sattr (option Z) := match key with Some pk => SV (zpk pk) | None => SU end.
Definition finish (load : bool) (s : mstate) (t : nat) : mstate := if load then s else commit_all s t.

Definition copy_B (cfg : mconfig) (load : bool) (root : nat) (src : srcB) (s : mstate) (t : nat) : mstate :=
  let s4 := merge_col load (merge_col load s t 0 (key_attr (sb_pk src))) t 1 (sb_v src) in
  finish load (if hb cfg && mb cfg && negb load then
                 match sb_a src with
                 | BPunloaded => s4
                 | BPnone => set_par s4 t (Some None)
                 | BPparent => set_par s4 t (Some (Some root))
                 end
               else s4) t.
Definition note (ctx : mctx) (j : nat) (key : option nat) (t : nat) : mctx :=
  mkCtx ((j, t) :: memo ctx) (match key with Some pk => (pk, t) :: cmap ctx | None => cmap ctx end).

Inductive child_step (cfg : mconfig) (load : bool) (root : nat) (sbs : list srcB) (s : mstate) (ctx : mctx) (dest : list nat)
                     (j : nat) : mstate * mctx * list nat -> Prop :=
| CS_seen : forall t, assoc j (memo ctx) = Some t -> child_step cfg load root sbs s ctx dest j (s, ctx, dest ++ [t])
| CS_missing : nth_error sbs j = None -> child_step cfg load root sbs s ctx dest j (set_poison s, ctx, dest)
| CS_merge : forall src s2 t,
    assoc j (memo ctx) = None -> nth_error sbs j = Some src -> sb_detached src = true \/ load = true ->
    obtain (resolve_B cfg load s ctx (sb_pk src)) = (s2, t) ->
    child_step cfg load root sbs s ctx dest j (copy_B cfg load root src s2 t, note ctx j (sb_pk src) t, dest ++ [t]).

Lemma guard_false : forall detached load, negb detached && negb load = false -> detached = true \/ load = true.
Proof. intros [|] [|]; auto. Qed.

Lemma merge_B_child_step : forall cfg load root sbs s ctx dest j a',
  merge_B cfg load root sbs (Some (s, ctx, dest)) j = Some a' -> child_step cfg load root sbs s ctx dest j a'.
Proof.
  intros cfg load root sbs s ctx dest j a' H. cbn [merge_B] in H.
  destruct (assoc j (memo ctx)) as [t|] eqn:Em; [inversion H; apply CS_seen; exact Em|].
  destruct (nth_error sbs j) as [src|] eqn:En; [|inversion H; apply CS_missing; exact En].
  destruct (negb (sb_detached src) && negb load) eqn:Eg; [discriminate|].
  match type of H with ?L = _ =>
    assert (E : L = let '(s2, t) := obtain (resolve_B cfg load s ctx (sb_pk src)) in
                    Some (copy_B cfg load root src s2 t, note ctx j (sb_pk src) t, dest ++ [t])) end.
  { unfold obtain, resolve_B, copy_B, key_attr, note. destruct (sb_pk src) as [pk|]; [destruct (idB s pk)|].
    2: destruct (assoc pk (cmap ctx)). 3: destruct load; [destruct (get_B cfg s pk) as [sg [tg|]]|]. all: reflexivity. }
  rewrite E in H. destruct (obtain (resolve_B cfg load s ctx (sb_pk src))) as [s2 t] eqn:Eo. inversion H.
  eapply CS_merge; eauto using guard_false.
Qed.

(* induction over the children, the invariant indexed by the children already merged *)
Lemma fold_merge_B_ind : forall cfg load root sbs (I : list nat -> mstate * mctx * list nat -> Prop) a0,
  I [] a0 ->
  forall js,
  (forall pre j s ctx dest a', In j js -> I pre (s, ctx, dest) -> child_step cfg load root sbs s ctx dest j a' -> I (pre ++ [j]) a') ->
  forall a', fold_left (merge_B cfg load root sbs) js (Some a0) = Some a' -> I js a'.
Proof.
  intros cfg load root sbs I a0 H0. induction js as [|j js IH] using rev_ind; intros Hstep a' H.
  - inversion H; subst. exact H0.
  - rewrite fold_left_app in H. cbn [fold_left] in H.
    destruct (fold_left (merge_B cfg load root sbs) js (Some a0)) as [[[s ctx] dest]|]; [|discriminate].
    apply (Hstep js j s ctx dest); [apply in_or_app; right; left; reflexivity| |apply merge_B_child_step; exact H].
    apply IH; [|reflexivity]. intros pre j0 s0 ctx0 dest0 a1 Hin. apply Hstep, in_or_app. left. exact Hin.
Qed.

Definition src_col (src : srcA) (k : nat) : sattr (option Z) :=
  match k with 0 => key_attr (sa_pk src) | 1 => sa_x src | _ => sa_y src end.
Definition copy_A (load : bool) (src : srcA) (s : mstate) (t : nat) : mstate :=
  merge_col load (merge_col load (merge_col load s t 0 (src_col src 0)) t 1 (src_col src 1)) t 2 (src_col src 2).
(* RelationshipProperty.merge for A.bs *)
Definition rel_A (cfg : mconfig) (load : bool) (sbs : list srcB) (src : srcA) (s : mstate) (t : nat) : option mstate :=
  match sa_bs src with
  | SV js =>
      if mf cfg then
        match fold_left (merge_B cfg load t sbs) js (Some (if load then lazy_bs cfg s t else s, mkCtx [] [], [])) with
        | None => None
        | Some (s6, _, dest) => Some (if load then coll_set cfg s6 t dest else set_bs s6 t (Some dest))
        end
      else Some s
  | SU => Some s
  end.

(* the relationship is merged only if the source collection is loaded and A.bs cascades merge *)
Lemma rel_A_cases : forall cfg load sbs src s t s7, rel_A cfg load sbs src s t = Some s7 ->
  (sa_bs src = SU \/ mf cfg = false) /\ s7 = s \/
  exists js s6 ctx6 dest, sa_bs src = SV js /\ mf cfg = true /\
    fold_left (merge_B cfg load t sbs) js (Some (if load then lazy_bs cfg s t else s, mkCtx [] [], [])) = Some (s6, ctx6, dest) /\
    s7 = if load then coll_set cfg s6 t dest else set_bs s6 t (Some dest).
Proof.
  intros cfg load sbs src s t s7 H. unfold rel_A in H. destruct (sa_bs src) as [|js]; [inversion H; auto|].
  destruct (mf cfg); [|inversion H; auto]. destruct (fold_left _ js _) as [[[s6 ctx6] dest]|] eqn:F; [|discriminate].
  inversion H. right. exists js, s6, ctx6, dest. auto.
Qed.

Lemma merge_A_eq : forall cfg load sbs s src, merge_A cfg load sbs s src =
  if negb (sa_detached src) && negb load then None
  else let '(s2, t) := obtain (resolve_A cfg load s (sa_pk src)) in
       option_map (fun s7 => (finish load s7 t, t)) (rel_A cfg load sbs src (copy_A load src s2 t) t).
Proof.
  intros. unfold merge_A. destruct (negb (sa_detached src) && negb load); [reflexivity|].
  unfold obtain, resolve_A, copy_A, src_col, key_attr, rel_A, finish. destruct (sa_pk src) as [pk|]; [destruct (idA s pk)|].
  2: destruct load; cbn [negb]; [destruct (get_A cfg s pk) as [sg [tg|]]|].
  all: reflexivity.
Qed.

Lemma merge_A_stages : forall cfg load sbs s src s' t,
  merge_A cfg load sbs s src = Some (s', t) ->
  (sa_detached src = true \/ load = true) /\
  exists s2 s7, obtain (resolve_A cfg load s (sa_pk src)) = (s2, t) /\
                rel_A cfg load sbs src (copy_A load src s2 t) t = Some s7 /\ s' = finish load s7 t.
Proof.
  intros cfg load sbs s src s' t H. rewrite merge_A_eq in H.
  destruct (negb (sa_detached src) && negb load) eqn:Eg; [discriminate|]. split; [apply guard_false, Eg|].
  destruct (obtain (resolve_A cfg load s (sa_pk src))) as [s2 t0].
  destruct (rel_A cfg load sbs src (copy_A load src s2 t0) t0) as [s7|] eqn:Er; [|discriminate].
  inversion H; subst. exists s2, s7. auto.
Qed.

Lemma writes_only_copy_A : forall load src s t, writes_only t s (copy_A load src s t).
Proof. intros. unfold copy_A. eapply writes_only_trans; [eapply writes_only_trans|]; apply writes_only_merge_col. Qed.
Lemma writes_only_copy_B : forall cfg load root src s t, writes_only t s (copy_B cfg load root src s t).
Proof.
  intros. unfold copy_B. eapply writes_only_trans; [eapply writes_only_trans; apply writes_only_merge_col|]. apply writes_only_inert.
  destruct (hb cfg && mb cfg && negb load); [destruct (sb_a src)|]; destruct load; repeat split; reflexivity.
Qed.
