(* C33 - after a restore, the enclosing frame's relation holds against the restored state; the relation
   of a fresh frame against the state it begins in. *)
From Coq Require Import List ZArith Bool Arith Lia.
Import ListNotations.
From SAV.orm Require Import SessTxn SessTxnInv SessTxnOps.
Open Scope nat_scope.

Lemma Rel_shift : forall gp fp g ob n,
  GClean gp -> GClean g ->
  Rel gp fp (gobjs g) (gn g) [] [] (gW g) ->
  Approx g ob n -> Good ob n (gW g) [] [] ->
  Rel gp fp ob n [] [] (gW g).
Proof.
  intros gp fp g ob n GCp GC L A G.
  destruct A as [A_n A_id A_fresh A_clean A_keep].
  pose proof L as L0.
  destruct L as [r_n0 r_exp0 r_id0 r_fresh0 r_row0 r_delv0 r_ks0 r_del0 r_lists0 r_ksu0 r_dirty0 r_keep0].
  assert (Hn : gn gp <= gn g) by exact r_n0.
  constructor.
  - (* r_n *) lia.
  - (* r_exp *) exact r_exp0.
  - (* r_id *) intros o Ho He. destruct (r_id0 o Ho He) as [X1 X2]. destruct (A_id o) as [B1 [B2 B3]]; [lia|].
    split; [congruence|]. intros Ha. destruct (X2 Ha) as [Y1 Y2].
    assert (Ha' : oatt (gobjs g o) = true) by congruence. destruct (B3 Ha') as [B4 B5].
    unfold pkey, pdelf in *. rewrite B4, B5. auto.
  - (* r_fresh *) intros o H1 H2. destruct (Nat.lt_ge_cases o (gn g)) as [Hg|Hg].
    + destruct (r_fresh0 o H1 Hg) as [X|[X1 X2]]; auto. right.
      destruct (A_id o Hg) as [B1 [B2 _]]. split; congruence.
    + right. apply A_fresh; auto.
  - (* r_row *) exact r_row0.
  - (* r_delv *) intros o k v Ho He Hd Hdi Hm Hk Hw.
    destruct (r_del0 o Hd) as [D1 [D2 [D3 [D4 D5]]]].
    destruct (A_keep o D1 D4 D2 Hm) as [K1 [K2 K3]]. rewrite K1, K2. eapply r_delv0; eauto.
  - (* r_ks *) intros o old nw Hk. destruct (r_ks0 o old nw Hk) as [X1 [X2 [X3 X4]]].
    destruct (A_id o X1) as [B1 [B2 B3]]. rewrite X3 in B1. destruct (B3 X3) as [B4 B5].
    repeat split; try congruence. lia.
  - (* r_del *) intros o Hd. destruct (r_del0 o Hd) as [D1 [D2 [D3 [D4 D5]]]].
    destruct (A_id o D1) as [B1 [B2 B3]]. destruct (B3 D4) as [B4 B5].
    repeat split; try congruence. lia.
  - (* r_lists *) intros o H. specialize (r_lists0 o H). lia.
  - (* r_ksu *) exact r_ksu0.
  - (* r_dirty *) exact r_dirty0.
  - (* r_keep *) intros o Ho Ha Hi Hm.
    assert (Hig : oin (gobjs g o) = false).
    { eapply (Rel_notin gp fp (gobjs g) (gn g) [] [] (gW g)); eauto. apply (proj1 GC). }
    assert (Hag : oatt (gobjs g o) = true).
    { destruct (expunged fp [] o) eqn:Ee.
      - pose proof (r_exp0 o Ho Ee). congruence.
      - destruct (r_id0 o Ho Ee) as [X1 _]. congruence. }
    destruct (A_keep o) as [K1 [K2 K3]]; auto; [lia|].
    destruct (r_keep0 o Ho Ha Hi K3) as [L1 [L2 L3]]. repeat split; congruence.
Qed.

(* the ghost of a frame that begins now *)
Definition ghost_of (st : sess) : ghost := mkGhost (objs st) (nobj st) (work st).

(* a frame that has recorded nothing, against the (clean) state it began in *)
Lemma Rel_fresh : forall g f ob n W,
  fnew f = [] -> fdel f = [] -> fdirty f = [] -> fks f = [] ->
  gobjs g = ob -> gn g = n -> (forall k, W k = gW g k) ->
  Rel g f ob n [] [] W.
Proof.
  intros g f ob n W E1 E2 E3 E4 <- <- EW.
  (* nothing is expunged, deleted, dirty or re-keyed: every clause is an identity or has a false premise *)
  constructor; unfold expunged, pkey, pdelf; rewrite ?E1, ?E2, ?E3, ?E4; cbn; auto; try discriminate; try (intros; lia).
  constructor.
Qed.
