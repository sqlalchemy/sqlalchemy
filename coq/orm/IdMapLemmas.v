(* C34 - generic lemmas: claims about one object decided by truth table, passes over the object list and
   what they do to the functional identity map, folds *)
From Coq Require Import List ZArith Bool Arith Lia.
Import ListNotations.
From SAV.orm Require Import IdMap IdMapSpec.
Open Scope Z_scope.

Lemma key_eqb_eq : forall a b, key_eqb a b = true <-> a = b.
Proof. intros [a1 a2] [b1 b2]. unfold key_eqb. simpl. rewrite andb_true_iff, !Z.eqb_eq. split.
  - intros [-> ->]. reflexivity.
  - intro H. inversion H. auto. Qed.
Lemma okey_eqb_some : forall a k, okey_eqb a (Some k) = true <-> a = Some k.
Proof. intros [a|] k; simpl.
  - rewrite key_eqb_eq. split; congruence.
  - split; discriminate. Qed.

(* The per-object predicates and the object transformers of the model look at an object through its
   seven boolean fields and through the presence of a key only.  A boolean claim about an arbitrary object
   therefore holds as soon as it evaluates to [true] on the 2^8 objects built from such values, the
   other fields left as variables; the kernel checks that by computation. *)
Definition both (f : bool -> bool) : bool := f true && f false.
Lemma both_spec : forall f, both f = true -> forall b, f b = true.
Proof. intros f H []; apply andb_prop in H; tauto. Qed.
Lemma by_flags : forall F : obj -> bool,
  (forall p k tk ks,
     both (fun hk => both (fun s => both (fun d => both (fun n => both (fun m => both (fun x =>
     both (fun tn => both (fun td =>
       F (mkObj p (if hk then Some k else None) tk s d n m x tn td ks))))))))) = true) ->
  forall o, F o = true.
Proof.
  intros F H [p k tk s d n m x tn td ks].
  destruct k as [k|];
    [specialize (H p k tk ks); apply both_spec with (b := true) in H
    |specialize (H p (0, 0) tk ks); apply both_spec with (b := false) in H];
    do 7 (eapply both_spec in H); exact H.
Qed.
(* goal: [b1 = true -> ... -> bn = true -> c = true], all about the object [o] *)
Ltac flags o := rewrite <- ?implb_true_iff; revert o; apply by_flags; reflexivity.

(* [register_obj] is the one transformer that inspects a key: what it does to the fields *)
Lemma register_obj_fields : forall h newk o,
  okey (register_obj h newk o) = Some newk /\ iimap (register_obj h newk o) = true /\
  inew (register_obj h newk o) = false /\ osess (register_obj h newk o) = osess o /\
  odel (register_obj h newk o) = odel o /\ isdel (register_obj h newk o) = isdel o /\
  itdel (register_obj h newk o) = itdel o.
Proof.
  intros h newk [p k tk s d n m x tn td ks]. unfold register_obj. cbn.
  destruct k as [k|]; [destruct (key_eqb k newk) eqn:E; [apply key_eqb_eq in E; subst k|]|];
    destruct ks, n, h; repeat split.
Qed.

Lemma mapi_length : forall f l n, length (mapi f n l) = length l.
Proof. induction l; simpl; intros; auto. Qed.
Lemma mapi_nth : forall f l n k, nth_error (mapi f n l) k = option_map (f (n + k)%nat) (nth_error l k).
Proof. induction l; simpl; intros n k. { destruct k; reflexivity. }
  destruct k; simpl. { rewrite Nat.add_0_r. reflexivity. }
  rewrite IHl. replace (n + S k)%nat with (S n + k)%nat by lia. reflexivity. Qed.
Lemma app_all_nth : forall f st k, nth_error (objs (app_all f st)) k = option_map (f k) (nth_error (objs st) k).
Proof. intros. unfold app_all. simpl. rewrite mapi_nth. reflexivity. Qed.
Lemma app_all_tx : forall f st, tx (app_all f st) = tx st. Proof. reflexivity. Qed.
Lemma app_all_length : forall f st, length (objs (app_all f st)) = length (objs st).
Proof. intros. unfold app_all. simpl. apply mapi_length. Qed.

Lemma get_nth : forall st i o, nth_error (objs st) i = Some o -> get st i = o.
Proof. intros. unfold get. apply nth_error_nth. exact H. Qed.

Lemma app_all_inv_nth : forall f st k o', nth_error (objs (app_all f st)) k = Some o' ->
  exists o, nth_error (objs st) k = Some o /\ o' = f k o.
Proof. intros f st k o' H. rewrite app_all_nth in H. destruct (nth_error (objs st) k); [|discriminate].
  inversion H. eauto. Qed.
Lemma mapi_ext : forall f g l n,
  (forall k o, nth_error l k = Some o -> f (n + k)%nat o = g (n + k)%nat o) -> mapi f n l = mapi g n l.
Proof.
  induction l as [|a l IH]; intros n H; simpl; auto. f_equal.
  - specialize (H 0%nat a eq_refl). rewrite Nat.add_0_r in H. exact H.
  - apply IH. intros k o Hk. replace (S n + k)%nat with (n + S k)%nat by lia. apply H. exact Hk.
Qed.
Lemma app_all_ext : forall f g st,
  (forall k o, nth_error (objs st) k = Some o -> f k o = g k o) -> app_all f st = app_all g st.
Proof. intros f g st H. unfold app_all. f_equal. apply mapi_ext. exact H. Qed.

Lemma SP_app_all : forall (p q : nat -> obj -> bool) f st, SP p st ->
  (forall k o, nth_error (objs st) k = Some o -> p k o = true -> q k (f k o) = true) -> SP q (app_all f st).
Proof. intros p q f st Hp Hf k o' Hk. apply app_all_inv_nth in Hk as [o [Hk ->]]. apply Hf; auto. Qed.

Lemma imap_app_all : forall f st key i, imap (app_all f st) key i ->
  exists o, nth_error (objs st) i = Some o /\ iimap (f i o) = true /\ okey (f i o) = Some key.
Proof. intros f st key i [o' [H [Hi Hk]]]. apply app_all_inv_nth in H as [o [H ->]]. eauto. Qed.

Lemma pass_mono : forall f st,
  (forall k o, nth_error (objs st) k = Some o -> jb o = true ->
     jb (f k o) = true /\ (iimap (f k o) = true -> iimap o = true /\ okey (f k o) = okey o)) ->
  Inv st -> Inv (app_all f st).
Proof.
  intros f st Hf [HJ HU]. split.
  - apply (SP_app_all (fun _ => jb)); auto. intros k o Hk Hj. apply Hf; auto.
  - intros key i j Hi Hj.
    apply imap_app_all in Hi as (oi & Hi & Ii & Ki). apply imap_app_all in Hj as (oj & Hj & Ij & Kj).
    destruct (Hf i oi Hi (HJ i oi Hi)) as [_ Ai]. destruct (Hf j oj Hj (HJ j oj Hj)) as [_ Aj].
    destruct (Ai Ii) as [Ii' Ki']. destruct (Aj Ij) as [Ij' Kj'].
    apply (HU key i j); [exists oi|exists oj]; repeat split; auto; congruence.
Qed.

(* state [i] is (re)mapped under [key], every other state mapped under [key] is evicted *)
Lemma pass_claiming : forall i key g st,
  (forall o, nth_error (objs st) i = Some o -> jb o = true ->
     jb (g o) = true /\ (iimap (g o) = true -> okey (g o) = Some key)) ->
  Inv st -> Inv (app_all (claiming i key g) st).
Proof.
  intros i key g st Hg [HJ HU].
  (* an object other than [i] that is mapped after the pass was mapped before, under another key *)
  assert (Hoth : forall k j, j <> i -> imap (app_all (claiming i key g) st) k j -> imap st k j /\ k <> key).
  { intros k j Nj Hj. apply imap_app_all in Hj as (o & Hj & Ij & Kj). unfold claiming in Ij, Kj.
    rewrite (proj2 (Nat.eqb_neq j i) Nj) in Ij, Kj.
    destruct (iimap o && okey_eqb (okey o) (Some key)) eqn:E; [discriminate|].
    split; [exists o; auto|]. intros ->. rewrite Ij, (proj2 (okey_eqb_some _ _) Kj) in E. discriminate. }
  split.
  - apply (SP_app_all (fun _ => jb)); auto. intros k o Hk Hj. unfold claiming.
    destruct (Nat.eqb_spec k i); [subst; apply Hg; auto|].
    destruct (iimap o && okey_eqb (okey o) (Some key)); auto. clear Hk. revert Hj. flags o.
  - intros k a b Ha Hb.
    (* what shares a key with [i] after the pass holds [key], so it is not one of the others *)
    assert (Hi : forall j, j <> i -> imap (app_all (claiming i key g) st) k i ->
                 imap (app_all (claiming i key g) st) k j -> False).
    { intros j Nj Hi Hj. apply imap_app_all in Hi as (o & Hi & Ii & Ki). unfold claiming in Ii, Ki.
      rewrite Nat.eqb_refl in Ii, Ki. destruct (Hg o Hi (HJ i o Hi)) as [_ A]. rewrite (A Ii) in Ki.
      inversion Ki; subst k. apply (Hoth key j Nj Hj). reflexivity. }
    destruct (Nat.eq_dec a i) as [->|Na], (Nat.eq_dec b i) as [->|Nb]; auto.
    + exfalso. eauto.
    + exfalso. eauto.
    + apply (HU k a b); [apply (Hoth k a Na Ha)|apply (Hoth k b Nb Hb)].
Qed.

Lemma holder_from_some : forall k l n h, holder_from k n l = Some h ->
  exists o, nth_error l (h - n) = Some o /\ (n <= h)%nat /\ iimap o = true /\ okey o = Some k.
Proof.
  induction l as [|a l IH]; simpl; intros n h H; [discriminate|].
  destruct (iimap a && okey_eqb (okey a) (Some k)) eqn:E.
  - inversion H; subst. exists a. rewrite Nat.sub_diag. apply andb_prop in E as [E1 E2].
    apply okey_eqb_some in E2. auto.
  - apply IH in H as [o [H1 [H2 H3]]]. exists o. split; [|split; auto; lia].
    replace (h - n)%nat with (S (h - S n)) by lia. exact H1.
Qed.
Lemma holder_from_none : forall k l n, holder_from k n l = None ->
  forall j o, nth_error l j = Some o -> iimap o = true -> okey o <> Some k.
Proof.
  induction l as [|a l IH]; simpl; intros n H j o Hj Ii Ki; [destruct j; discriminate|].
  destruct (iimap a && okey_eqb (okey a) (Some k)) eqn:E; [discriminate|].
  destruct j; simpl in Hj.
  - inversion Hj; subst. rewrite Ii in E. simpl in E. apply (proj2 (okey_eqb_some _ _)) in Ki. congruence.
  - eapply IH; eauto.
Qed.
Lemma holder_some : forall k st h, holder k st = Some h -> imap st k h.
Proof. intros k st h H. apply holder_from_some in H as [o [H1 [_ [H3 H4]]]]. rewrite Nat.sub_0_r in H1.
  exists o. auto. Qed.
Lemma holder_none : forall k st, holder k st = None -> forall j, ~ imap st k j.
Proof. intros k st H j [o [H1 [H2 H3]]]. eapply holder_from_none; eauto. Qed.

(* state [i] is mapped under its own key, which nobody else holds; then claiming the key evicts nobody *)
Lemma pass_add : forall i g st key,
  okey (get st i) = Some key -> conflict i st = false ->
  (forall o, jb o = true -> okey o = Some key -> jb (g o) = true /\ okey (g o) = Some key) ->
  Inv st -> Inv (app_all (only i g) st).
Proof.
  intros i g st key Hk Hc Hg HI.
  assert (Hfree : forall j, imap st key j -> j = i).
  { intros j Hj. unfold conflict in Hc. rewrite Hk in Hc. destruct (holder key st) as [h|] eqn:Eh.
    - apply negb_false_iff, Nat.eqb_eq in Hc. subst h. apply holder_some in Eh. apply (proj2 HI key j i); auto.
    - exfalso. eapply holder_none; eauto. }
  rewrite (app_all_ext (only i g) (claiming i key g)).
  - apply pass_claiming; auto. intros o Ho Hj.
    destruct (Hg o Hj) as [A B]; [rewrite <- (get_nth _ _ _ Ho); exact Hk|auto].
  - intros k o Ho. unfold only, claiming. destruct (Nat.eqb_spec k i); auto.
    destruct (iimap o && okey_eqb (okey o) (Some key)) eqn:E; auto. apply andb_prop in E as [E1 E2].
    exfalso. apply n, Hfree. exists o. rewrite okey_eqb_some in E2. auto.
Qed.

Lemma add_obj_nth : forall o st k x, nth_error (objs (add_obj o st)) k = Some x ->
  (nth_error (objs st) k = Some x /\ (k < length (objs st))%nat) \/ (k = length (objs st) /\ x = o).
Proof.
  intros o st k x H. unfold add_obj in H. simpl in H.
  destruct (Nat.lt_ge_cases k (length (objs st))).
  - rewrite nth_error_app1 in H by auto. auto.
  - rewrite nth_error_app2 in H by auto. destruct (k - length (objs st))%nat eqn:E; simpl in H.
    + inversion H; subst. right. split; [lia|reflexivity].
    + destruct n; discriminate.
Qed.
Lemma SP_add_obj : forall (p : nat -> obj -> bool) o st, SP p st -> p (length (objs st)) o = true -> SP p (add_obj o st).
Proof. intros p o st Hp Ho k x Hk. apply add_obj_nth in Hk as [[Hk _]|[-> ->]]; auto. Qed.
Lemma add_obj_inv : forall o st, jb o = true ->
  (iimap o = true -> forall k, okey o = Some k -> forall j, ~ imap st k j) ->
  Inv st -> Inv (add_obj o st).
Proof.
  intros o st Ho Hfree [HJ HU]. split.
  - apply SP_add_obj; auto.
  - intros k a b [oa [Ha [Ia Ka]]] [ob [Hb [Ib Kb]]].
    apply add_obj_nth in Ha as [[Ha La]|[Ea ->]]; apply add_obj_nth in Hb as [[Hb Lb]|[Eb ->]].
    + apply (HU k a b); [exists oa|exists ob]; auto.
    + exfalso. apply (Hfree Ib k Kb a). exists oa. auto.
    + exfalso. apply (Hfree Ia k Ka b). exists ob. auto.
    + congruence.
Qed.

(* [Inv] reads the objects only *)
Lemma Inv_set_tx : forall t st, Inv (set_tx t st) <-> Inv st.
Proof. reflexivity. Qed.
Lemma Inv_set_flushed : forall b st, Inv (set_flushed b st) <-> Inv st.
Proof. reflexivity. Qed.
Lemma Inv_flag_bad : forall b st, Inv (flag_bad b st) <-> Inv st.
Proof. reflexivity. Qed.
Lemma autobegin_inv : forall st, Inv st -> Inv (autobegin st).
Proof. intros. unfold autobegin. destruct (tx st); auto. Qed.

Lemma init_nth : forall b pks k o, nth_error (objs (init b pks)) k = Some o -> exists pk, o = new_obj pk.
Proof. intros b pks k o H. simpl in H. rewrite nth_error_map in H. destruct (nth_error pks k); inversion H. eauto. Qed.

Lemma fold_err_inv : forall (P : state -> Prop) f l st,
  (forall i s, P s -> P (fst (f i s))) -> P st -> P (fst (fold_err f l st)).
Proof.
  induction l as [|i r IH]; intros st Hf HP; simpl; auto.
  pose proof (Hf i st HP) as H1. destruct (f i st) as [st' e]. simpl in H1.
  destruct (Z.eqb e 0); simpl; auto.
Qed.
Lemma fold_left_inv : forall (P : state -> Prop) (f : state -> nat -> state) l st,
  (forall i s, P s -> P (f s i)) -> P st -> P (fold_left f l st).
Proof. induction l; intros; simpl; auto. Qed.
