(* C44: the invariant of the interleaving model; the reference database and get / set / delete preserve it *)
From Coq Require Import List ZArith NArith Bool Arith Lia.
Import ListNotations.
From SAV.orm Require Import Version VersionBase.
Open Scope Z_scope.

(* the write transaction of session i, if it holds one *)
Definition writer_is (d : db) (i : nat) : option (rows * bool) :=
  match wr d with Some (j, w, b) => if Nat.eqb j i then Some (w, b) else None | None => None end.
(* the rows a write statement of session i works on *)
Definition cur_rows (d : db) (i : nat) : rows :=
  match writer_is d i with Some (w, _) => w | None => com d end.

Definition snap_ok (d : db) (sn : option (N * rows)) : Prop :=
  match sn with
  | None => True
  | Some (gn, r) => rows_le r (com d) /\ (gn <= gen d)%N /\ (gn = gen d -> r = com d)
  end.
Definition sess_ok (d : db) (i : nat) (se : sess) : Prop :=
  sorted (sents se) /\ ent_le (sents se) (cur_rows d i) /\
  (writer_is d i = None -> snap_ok d (snap se)).
Definition db_ok (d : db) : Prop :=
  match wr d with Some (_, w, dirty) => rows_le (com d) w /\ (dirty = false -> w = com d) | None => True end.
Definition Inv (s : state) : Prop := db_ok (sdb s) /\ forall i, sess_ok (sdb s) i (sget i (sss s)).

Lemma sess_ok_empty : forall d i, sess_ok d i empty_sess.
Proof.
  intros. unfold sess_ok, empty_sess. cbn [sents snap]. split; [exact I|]. split; [apply ent_le_nil|]. intros _. exact I.
Qed.

Lemma Inv_init : forall r0, Inv (init r0).
Proof. intros r0. split; [exact I|]. intros i. cbn [init sss sget]. apply sess_ok_empty. Qed.

(* what a step of session i means for the invariant of the other sessions *)
Definition others_frame (d d' : db) (i : nat) : Prop := forall j se, j <> i -> sess_ok d j se -> sess_ok d' j se.

Lemma Inv_change : forall s d' i se',
  Inv s -> db_ok d' -> sess_ok d' i se' -> others_frame (sdb s) d' i ->
  Inv {| sdb := d'; sss := sput i se' (sss s) |}.
Proof.
  intros s d' i se' [Hd Hs] Hd' Hi Hf. split; [exact Hd'|]. cbn [sdb sss]. intros j.
  destruct (Nat.eq_dec j i) as [->|N].
  - rewrite sget_sput_same. exact Hi.
  - rewrite sget_sput_other by exact N. apply Hf; [exact N|apply Hs].
Qed.

Lemma Inv_sess : forall s i se', Inv s -> sess_ok (sdb s) i se' -> Inv {| sdb := sdb s; sss := sput i se' (sss s) |}.
Proof. intros s i se' HI Hi. apply Inv_change; [exact HI|apply HI|exact Hi|]. intros j se _ H. exact H. Qed.

Lemma com_le_cur : forall d i, db_ok d -> rows_le (com d) (cur_rows d i).
Proof.
  unfold db_ok, cur_rows, writer_is. intros d i Hd. destruct (wr d) as [[[j w] b]|]; [|apply rows_le_refl].
  destruct (Nat.eqb j i); [apply Hd|apply rows_le_refl].
Qed.

Lemma view_eq : forall d i sn, view d i sn =
  let x := match sn with Some x => x | None => (gen d, com d) end in
  (match writer_is d i with Some (w, _) => w | None => snd x end, Some x).
Proof.
  intros. unfold view, writer_is.
  destruct sn as [[gn r]|]; destruct (wr d) as [[[j w] b]|]; try destruct (Nat.eqb j i); reflexivity.
Qed.

(* a SELECT never shows a row newer than the one a write statement would hit *)
Lemma view_ok : forall d i sn, (writer_is d i = None -> snap_ok d sn) ->
  rows_le (fst (view d i sn)) (cur_rows d i) /\ (writer_is d i = None -> snap_ok d (snd (view d i sn))).
Proof.
  intros d i sn H. rewrite view_eq. unfold cur_rows. cbn [fst snd].
  destruct (writer_is d i) as [[w b]|]; [split; [apply rows_le_refl|discriminate]|]. specialize (H eq_refl).
  destruct sn as [[gn r]|]; cbn [snd]; [split; [apply H|intros _; exact H]|].
  split; [apply rows_le_refl|]. intros _. split; [apply rows_le_refl|]. split; [lia|trivial].
Qed.

(* a write statement goes through only when no other session holds the write transaction; it then works on
   [cur_rows], which are the committed rows as long as nothing was written *)
Lemma begin_write_some : forall d i sn w dirty, begin_write d i sn = Some (w, dirty) ->
  w = cur_rows d i /\ (forall j, j <> i -> writer_is d j = None) /\ (db_ok d -> dirty = false -> w = com d).
Proof.
  unfold begin_write, cur_rows, writer_is, db_ok. intros d i sn w dirty. destruct (wr d) as [[[j w0] b]|].
  - destruct (Nat.eqb_spec j i) as [->|]; [|discriminate]. intros H; injection H as -> ->.
    split; [reflexivity|]. split; [|intros [_ H]; exact H].
    intros j N. destruct (Nat.eqb_spec i j); [congruence|reflexivity].
  - intros H. assert (E : (com d, false) = (w, dirty)).
    { destruct sn as [[gn r]|]; [destruct (N.eqb gn (gen d))|]; congruence. }
    injection E as <- <-. repeat split; reflexivity.
Qed.

Lemma frame_flush_ok : forall d i w2 b, (forall j, j <> i -> writer_is d j = None) ->
  others_frame d {| gen := gen d; com := com d; wr := Some (i, w2, b) |} i.
Proof.
  intros d i w2 b Hw j se N [H1 [H2 H3]]. pose proof (Hw j N) as W.
  unfold sess_ok, cur_rows, writer_is in *. cbn [wr com]. destruct (Nat.eqb_spec i j); [congruence|].
  rewrite W in H2. split; [exact H1|]. split; [exact H2|]. intros _. apply (H3 W).
Qed.

(* end of a transaction: only session i's write transaction goes; a rollback publishes nothing, a commit exactly
   the rows session i was working on *)
Lemma end_writer : forall d i c j, writer_is (end_txn d i c) j = if Nat.eqb j i then None else writer_is d j.
Proof.
  intros. unfold end_txn, writer_is. destruct (wr d) as [[[j0 w] b]|] eqn:W; [|destruct (Nat.eqb j i); rewrite ?W; reflexivity].
  destruct (Nat.eqb_spec j0 i) as [->|N0].
  - destruct (Nat.eqb_spec j i) as [->|]; [destruct (c && b); reflexivity|].
    destruct (Nat.eqb_spec i j); [congruence|]. destruct (c && b); reflexivity.
  - rewrite W. destruct (Nat.eqb_spec j i) as [->|]; [|reflexivity]. destruct (Nat.eqb_spec j0 i); [contradiction|reflexivity].
Qed.

Lemma end_rollback_com : forall d i, com (end_txn d i false) = com d /\ gen (end_txn d i false) = gen d.
Proof.
  intros. unfold end_txn. destruct (wr d) as [[[j w] b]|]; [destruct (Nat.eqb j i)|]; split; reflexivity.
Qed.

Lemma end_commit_com : forall d i, db_ok d -> com (end_txn d i true) = cur_rows d i.
Proof.
  unfold db_ok, end_txn, cur_rows, writer_is. intros d i Hd. destruct (wr d) as [[[j w] b]|]; [|reflexivity].
  destruct (Nat.eqb j i); [|reflexivity]. destruct b; cbn [andb com]; [reflexivity|]. symmetry. apply Hd. reflexivity.
Qed.

Lemma end_com_le : forall d i c, db_ok d -> rows_le (com d) (com (end_txn d i c)).
Proof.
  intros d i [|] Hd; [rewrite end_commit_com by exact Hd; apply com_le_cur, Hd|].
  rewrite (proj1 (end_rollback_com d i)). apply rows_le_refl.
Qed.

Lemma db_ok_end : forall d i c, db_ok d -> db_ok (end_txn d i c).
Proof.
  intros d i c H. unfold end_txn. destruct (wr d) as [[[j0 w] b]|] eqn:W; [|exact H].
  destruct (Nat.eqb_spec j0 i); [|exact H]. destruct (c && b); exact I.
Qed.

(* a commit that changes the rows also advances the change counter, so older snapshots stay recognisable *)
Lemma snap_ok_end : forall d i c sn, db_ok d -> snap_ok d sn -> snap_ok (end_txn d i c) sn.
Proof.
  unfold db_ok, end_txn. intros d i c sn Hd H. destruct (wr d) as [[[j w] b]|]; [|exact H].
  destruct (Nat.eqb j i); [|exact H]. destruct (c && b); [|exact H].
  destruct sn as [[gn r]|]; [|exact I]. destruct H as [A [B C]]. cbn [snap_ok com gen].
  split; [eapply rows_le_trans; [exact A|apply Hd]|]. split; lia.
Qed.

Lemma frame_end : forall d i c, db_ok d -> others_frame d (end_txn d i c) i.
Proof.
  intros d i c Hd j se N [H1 [H2 H3]]. unfold sess_ok, cur_rows in *. rewrite end_writer.
  destruct (Nat.eqb_spec j i); [contradiction|]. split; [exact H1|]. split.
  - destruct (writer_is d j) as [[w b]|]; [exact H2|]. eapply ent_le_rows_le; [exact H2|apply end_com_le, Hd].
  - intros W. apply snap_ok_end; [exact Hd|apply H3, W].
Qed.

Lemma rolled_back_inv : forall s i, Inv s -> Inv (rolled_back s i).
Proof.
  intros s i H. apply Inv_change; [exact H|apply db_ok_end, H|apply sess_ok_empty|apply frame_end, H].
Qed.

Lemma rolled_back_facts : forall s i,
  com (sdb (rolled_back s i)) = com (sdb s) /\ gen (sdb (rolled_back s i)) = gen (sdb s) /\
  writer_is (sdb (rolled_back s i)) i = None /\
  sget i (sss (rolled_back s i)) = empty_sess /\
  (forall j, j <> i -> sget j (sss (rolled_back s i)) = sget j (sss s) /\
                       writer_is (sdb (rolled_back s i)) j = writer_is (sdb s) j).
Proof.
  intros s i. unfold rolled_back. cbn [sdb sss]. destruct (end_rollback_com (sdb s) i) as [A B].
  split; [exact A|]. split; [exact B|]. split; [rewrite end_writer, Nat.eqb_refl; reflexivity|].
  split; [apply sget_sput_same|]. intros j N. split; [apply sget_sput_other, N|].
  rewrite end_writer. destruct (Nat.eqb_spec j i); [contradiction|reflexivity].
Qed.

Lemma load_frame : forall i k s, sdb (fst (load i k s)) = sdb s /\
  forall j, j <> i -> sget j (sss (fst (load i k s))) = sget j (sss s).
Proof.
  intros i k s. unfold load. destruct (lookup k (sents (sget i (sss s)))); [split; reflexivity|].
  destruct (view _ _ _) as [vw sn]. destruct (lookup k vw); (split; [reflexivity|]); intros j N; apply sget_sput_other, N.
Qed.

Lemma load_inv : forall i k s, Inv s ->
  Inv (fst (load i k s)) /\
  (forall e, snd (load i k s) = Some e -> lookup k (sents (sget i (sss (fst (load i k s))))) = Some e).
Proof.
  intros i k s HI. unfold load. destruct (lookup k (sents (sget i (sss s)))) as [e|] eqn:L.
  - split; [exact HI|]. intros e0 E. injection E as <-. exact L.
  - pose proof (proj2 HI i) as [S1 [S2 S3]]. destruct (view_ok _ _ _ S3) as [V1 V2].
    destruct (view (sdb s) i (snap (sget i (sss s)))) as [vw sn]. cbn [fst snd] in V1, V2.
    destruct (lookup k vw) as [a|] eqn:La; cbn [fst snd]; (split; [apply Inv_sess; [exact HI|]|]).
    + split; [apply sorted_eins, S1|]. split; [|exact V2].
      apply ent_le_eins; [exact S2|]. intros b Hb. destruct (V1 k b Hb) as [a' [Ha' Hab]].
      rewrite La in Ha'. injection Ha' as <-. exact Hab.
    + intros e E. injection E as <-. cbn [sss]. rewrite sget_sput_same. apply lookup_eins_same.
    + split; [exact S1|]. split; [exact S2|exact V2].
    + discriminate.
Qed.

(* changing the pending value / the deleted mark of a loaded instance *)
Lemma touch_inv : forall i k e e' s, Inv s -> lookup k (sents (sget i (sss s))) = Some e ->
  ex e' = ex e -> ev e' = ev e ->
  Inv {| sdb := sdb s;
         sss := sput i {| snap := snap (sget i (sss s)); sents := eins k e' (sents (sget i (sss s))); stx := true |} (sss s) |}.
Proof.
  intros i k e e' s HI L Ex Ev. pose proof (proj2 HI i) as [S1 [S2 S3]]. apply Inv_sess; [exact HI|].
  split; [apply sorted_eins, S1|]. split; [|exact S3].
  apply ent_le_eins; [exact S2|]. intros b Hb. rewrite Ex, Ev. apply (S2 k e b); [apply lookup_In, L|exact Hb].
Qed.
