(* C37 - the list primitives on a collection side, once for any relationship kind.  A primitive fires
   an append or remove event, whose listener chain edits the other side, and stores the new list.  If
   the chains have closed forms [att s o v] (the collection of o gains v) and [det s o v] (it loses v)
   obeying the laws below, every guarded primitive preserves the invariant.  BackrefO2M.v and
   BackrefM2M.v supply closed forms and laws. *)
From Coq Require Import List NArith Bool Arith.
Import ListNotations.
From SAV.orm Require Import Backref BackrefSpec BackrefBase.
Open Scope N_scope.

Section CollSide.
  Variables (r : rkind) (sd : side) (inv : st -> Prop) (att det : st -> N -> N -> st).

  Hypothesis side_coll : kind_of r sd = Coll.
  Hypothesis inv_nodup : forall s, inv s -> nodup_side s sd.
  Hypothesis inv_nonzero : forall s, inv s -> nonzero_side s sd.
  (* the invariant reads the collections of this side only through membership and duplicate-freeness *)
  Hypothesis inv_respects : forall s1 s2, inv s1 ->
    (forall o, cells s2 (other sd) o = cells s1 (other sd) o) ->
    (forall o x, In x (coll_of s2 sd o) <-> In x (coll_of s1 sd o)) ->
    nodup_side s2 sd -> inv s2.

  Hypothesis append_event : forall n s o v init, v <> 0 -> init = (sd, TAppend) \/ init = (sd, TBulk) ->
    exec r (S (S (S (S (S (S (S (S (S n))))))))) (KAppendEvent sd o v init) s = Ok (att s o v).
  (* the remove listener does not look at the collection of o itself, beyond the duplicates test; a
     bulk replace fires it for a value that has left the collection already *)
  Hypothesis remove_event : forall n s o v l init, inv (set_cell s sd o (CList l)) -> o <> 0 -> v <> 0 ->
    NoDup (coll_of s sd o) ->
    init = (sd, TRemove) \/ init = (sd, TBulk) /\ ~ In v (coll_of s sd o) ->
    exec r (S (S (S (S (S (S (S (S (S n))))))))) (KRemoveEvent sd o (OV v) init) s = Ok (det s o v).

  Hypothesis att_own : forall s o v, coll_of (att s o v) sd o = coll_of s sd o.
  Hypothesis det_own : forall s o v, coll_of (det s o v) sd o = coll_of s sd o.
  Hypothesis att_inv : forall s o v, inv s -> o <> 0 -> v <> 0 -> ~ In v (coll_of s sd o) ->
    inv (set_cell (att s o v) sd o (CList (coll_of s sd o ++ [v]))).
  Hypothesis det_inv : forall s o v, inv s -> o <> 0 -> In v (coll_of s sd o) ->
    inv (set_cell (det s o v) sd o (CList (remove1 v (coll_of s sd o)))).
  Hypothesis att_commute : forall s o v l, inv (set_cell s sd o (CList l)) -> o <> 0 -> ~ In v l ->
    same_cells (att (set_cell s sd o (CList l)) o v) (set_cell (att s o v) sd o (CList l)).
  Hypothesis det_commute : forall s o v l,
    same_cells (det (set_cell s sd o (CList l)) o v) (set_cell (det s o v) sd o (CList l)).

  Lemma inv_same_colls : forall s1 s2, (forall o, cells s2 (other sd) o = cells s1 (other sd) o) ->
    (forall o, coll_of s2 sd o = coll_of s1 sd o) -> inv s1 -> inv s2.
  Proof.
    intros s1 s2 C L I. apply (inv_respects s1 s2 I C).
    - intros o x. rewrite L. reflexivity.
    - intros o. rewrite L. apply (inv_nodup s1 I).
  Qed.
  Lemma inv_ext : forall s1 s2, same_cells s1 s2 -> inv s1 -> inv s2.
  Proof.
    intros s1 s2 E. apply inv_same_colls; intros o; [symmetry; apply E|].
    symmetry. apply same_cells_coll. exact E.
  Qed.
  Lemma inv_overwritten : forall s o c c', inv (set_cell s sd o c') -> inv (set_cell (set_cell s sd o c) sd o c').
  Proof. intros s o c c'. apply inv_ext, same_cells_sym, set_cell_shadow. Qed.
  Lemma inv_rewrite_own : forall s o c, coll_of (set_cell s sd o c) sd o = coll_of s sd o ->
    (inv s <-> inv (set_cell s sd o c)).
  Proof.
    intros s o c E.
    assert (C : forall o', cells (set_cell s sd o c) (other sd) o' = cells s (other sd) o')
      by (intros; apply cells_set_other_side, other_neq).
    assert (L : forall o', coll_of (set_cell s sd o c) sd o' = coll_of s sd o').
    { intros o'. destruct (N.eq_dec o' o) as [->|NE]; [exact E|apply coll_set_other_obj; exact NE]. }
    split; apply inv_same_colls; intros; rewrite ?C, ?L; reflexivity.
  Qed.
  Lemma inv_members : forall s o l l', inv (set_cell s sd o (CList l)) -> NoDup l' ->
    (forall x, In x l' <-> In x l) -> inv (set_cell s sd o (CList l')).
  Proof.
    intros s o l l' I ND M. apply (inv_respects _ _ I).
    - intros o'. rewrite !cells_set_other_side by apply other_neq. reflexivity.
    - intros o' x. destruct (N.eq_dec o' o) as [->|NE]; simp_cells; [apply M|reflexivity].
    - intros o'. destruct (N.eq_dec o' o) as [->|NE]; simp_cells; [exact ND|].
      pose proof (inv_nodup _ I o') as H. rewrite coll_set_other_obj in H by exact NE. exact H.
  Qed.

  (* the two invariant laws, for a state whose own list l is still to be stored *)
  Lemma add_own : forall s o v l, inv (set_cell s sd o (CList l)) -> o <> 0 -> v <> 0 -> ~ In v l ->
    inv (set_cell (att s o v) sd o (CList (l ++ [v]))).
  Proof.
    intros s o v l I O V NI. pose proof (att_inv _ o v I O V) as A. rewrite coll_set_same in A.
    eapply inv_ext; [|exact (A NI)].
    eapply same_cells_trans; [apply same_cells_set, att_commute; assumption|apply set_cell_shadow].
  Qed.
  Lemma del_own : forall s o v l, inv (set_cell s sd o (CList l)) -> o <> 0 -> In v l ->
    inv (set_cell (det s o v) sd o (CList (remove1 v l))).
  Proof.
    intros s o v l I O IN. pose proof (det_inv _ o v I O) as A. rewrite coll_set_same in A.
    eapply inv_ext; [|exact (A IN)].
    eapply same_cells_trans; [apply same_cells_set, det_commute|apply set_cell_shadow].
  Qed.

  Lemma fire_append : forall n s o v init, (10 <= n)%nat -> v <> 0 ->
    init = None \/ init = tok_bulk r sd ->
    exec r n (KFireAppend sd o v init) s = Ok (att s o v).
  Proof.
    intros n s o v init F V T. destruct (Nat.le_exists_sub 10 n F) as [k [-> _]].
    rewrite Nat.add_comm. cbn [Nat.add].
    rewrite exec_fire_append. apply append_event; [exact V|].
    unfold tok_append, tok_bulk in *. rewrite side_coll in *. destruct T as [-> | ->]; auto.
  Qed.
  Lemma fire_remove : forall n s o v l init, (10 <= n)%nat -> inv (set_cell s sd o (CList l)) ->
    o <> 0 -> v <> 0 -> NoDup (coll_of s sd o) ->
    init = None \/ init = tok_bulk r sd /\ ~ In v (coll_of s sd o) ->
    exec r n (KFireRemove sd o v init) s = Ok (det s o v).
  Proof.
    intros n s o v l init F I O V ND T. destruct (Nat.le_exists_sub 10 n F) as [k [-> _]].
    rewrite Nat.add_comm. cbn [Nat.add].
    rewrite exec_fire_remove. apply (remove_event _ s o v l); auto.
    unfold tok_remove, tok_bulk in *. rewrite side_coll in *. destruct T as [-> | [-> T]]; auto.
  Qed.
  Lemma fire_remove_member : forall n s o v, (10 <= n)%nat -> inv s -> o <> 0 -> In v (coll_of s sd o) ->
    exec r n (KFireRemove sd o v None) s = Ok (det s o v).
  Proof.
    intros n s o v F I O IN. apply (fire_remove n s o v (coll_of s sd o)); auto.
    - apply inv_rewrite_own; [apply coll_set_same|exact I].
    - intros ->. exact (inv_nonzero s I o IN).
    - apply (inv_nodup s I).
  Qed.

  Lemma coll_append : forall s o v, inv s -> o <> 0 -> v <> 0 -> ~ In v (coll_of s sd o) ->
    lands inv (step_prim r (PAppend sd o v) s).
  Proof.
    intros s o v I O V NI. unfold step_prim, run_call, FUEL. rewrite exec_coll_append, fire_append by auto.
    cbn [bind lands]. rewrite att_own. apply att_inv; assumption.
  Qed.

  Lemma coll_insert : forall s o i v, inv s -> o <> 0 -> v <> 0 -> ~ In v (coll_of s sd o) ->
    lands inv (step_prim r (PInsert sd o i v) s).
  Proof.
    intros s o i v I O V NI. unfold step_prim, run_call, FUEL. rewrite fire_append by auto.
    cbn [bind lands]. rewrite att_own. apply (inv_members _ _ (coll_of s sd o ++ [v])).
    - apply att_inv; assumption.
    - apply insert_at_NoDup; [apply (inv_nodup s I)|exact NI].
    - intros x. rewrite insert_at_In, In_snoc. reflexivity.
  Qed.

  Lemma coll_remove_member : forall s o v, inv s -> o <> 0 -> In v (coll_of s sd o) ->
    exists s', run_call r (KCollRemove sd o v None) s = Ok s' /\ inv s' /\
               coll_of s' sd o = remove1 v (coll_of s sd o).
  Proof.
    intros s o v I O IN. pose proof IN as M. apply memb_In in M. unfold run_call, FUEL.
    rewrite exec_coll_remove, M, fire_remove_member by auto. cbn [bind]. rewrite det_own, M.
    eexists. split; [reflexivity|]. split; [apply det_inv; assumption|apply coll_set_same].
  Qed.
  Lemma coll_remove : forall s o v, inv s -> o <> 0 -> lands inv (step_prim r (PRemove sd o v) s).
  Proof.
    intros s o v I O. cbn [step_prim]. destruct (memb v (coll_of s sd o)) eqn:M.
    - apply memb_In in M. destruct (coll_remove_member s o v I O M) as (s' & E & I' & _). rewrite E. exact I'.
    - unfold run_call, FUEL. rewrite exec_coll_remove, M. exact I.
  Qed.

  Lemma coll_delitem : forall s o i, inv s -> o <> 0 -> lands inv (step_prim r (PDelItem sd o i) s).
  Proof.
    intros s o i I O. cbn [step_prim]. destruct (nth_error (coll_of s sd o) i) as [v|] eqn:E; [|exact I].
    pose proof (nth_error_In _ _ E) as IN. unfold run_call, FUEL. rewrite fire_remove_member by auto.
    cbn [bind lands]. rewrite det_own, (remove_at_remove1 i _ v (inv_nodup s I o) E).
    apply det_inv; assumption.
  Qed.

  (* pop removes the item first and fires the event on the shortened list *)
  Lemma coll_pop : forall s o i, inv s -> o <> 0 -> lands inv (step_prim r (PPop sd o i) s).
  Proof.
    intros s o i I O. cbn [step_prim]. destruct (nth_error (coll_of s sd o) i) as [v|] eqn:E; [|exact I].
    pose proof (nth_error_In _ _ E) as IN. pose proof (inv_nodup s I o) as ND.
    rewrite (remove_at_remove1 i _ v ND E). unfold run_call, FUEL.
    rewrite (fire_remove _ _ o v (coll_of s sd o)); auto.
    - cbn [lands]. eapply inv_ext; [apply same_cells_sym, det_commute|]. apply det_inv; assumption.
    - apply inv_overwritten, inv_rewrite_own; [apply coll_set_same|exact I].
    - intros ->. exact (inv_nonzero s I o IN).
    - rewrite coll_set_same. apply remove1_NoDup. exact ND.
  Qed.

  (* l[i] = v: the old member e leaves, then v joins what is left *)
  Lemma coll_setitem : forall s o i v, inv s -> o <> 0 -> v <> 0 ->
    (forall e, nth_error (coll_of s sd o) i = Some e -> ~ In v (coll_of s sd o) \/ e = v) ->
    lands inv (step_prim r (PSetItem sd o i v) s).
  Proof.
    intros s o i v I O V G. cbn [step_prim]. destruct (nth_error (coll_of s sd o) i) as [e|] eqn:E; [|exact I].
    pose proof (nth_error_In _ _ E) as IN. pose proof (inv_nodup s I o) as ND. specialize (G e eq_refl).
    unfold run_call, FUEL. rewrite fire_remove_member by auto. cbn [bind].
    rewrite fire_append by auto. cbn [bind lands]. rewrite att_own, det_own.
    apply (inv_members _ _ (remove1 e (coll_of s sd o) ++ [v])).
    - apply add_own; [apply det_inv; assumption|exact O|exact V|]. rewrite remove1_In by exact ND.
      intros [H K]. destruct G; [contradiction|congruence].
    - eapply set_at_NoDup; eauto.
    - intros x. rewrite (set_at_char i v _ e E ND), In_snoc. reflexivity.
  Qed.

  Lemma coll_clear : forall l s o, inv s -> o <> 0 -> coll_of s sd o = l ->
    exists s', clear_with_event r sd o l s = Ok s' /\ inv s' /\ coll_of s' sd o = [].
  Proof.
    induction l as [|v rest IH]; intros s o I O C; cbn [clear_with_event]; [exists s; auto|].
    destruct (coll_remove_member s o v I O) as (s1 & E & I1 & C1); [rewrite C; left; reflexivity|].
    rewrite E. cbn [bind]. apply IH; auto. rewrite C1, C. cbn [remove1]. rewrite N.eqb_refl. reflexivity.
  Qed.
  Lemma coll_delcoll : forall s o, inv s -> o <> 0 -> lands inv (step_prim r (PDelColl sd o) s).
  Proof.
    intros s o I O. cbn [step_prim]. destruct (cells s sd o) as [| | |l] eqn:Q; try exact I.
    destruct (coll_clear l s o I O) as (s1 & E & I1 & C1); [unfold coll_of; rewrite Q; reflexivity|].
    rewrite E. cbn [bind lands]. apply inv_rewrite_own; [|exact I1].
    rewrite C1. unfold coll_of. rewrite cells_set_same. reflexivity.
  Qed.

  (* While the loops of bulk_replace run, the stored list of o is not the one the other side agrees
     with.  That one is carried along as l: the invariant holds with l in the place of the stored
     list.  The append loop adds to l every value that was not in it, the remove loop takes its values
     out; in the end l has the members of the new list. *)
  Lemma bulk_appends_inv : forall cs ws t o l, o <> 0 -> inv (set_cell t sd o (CList l)) ->
    NoDup ws -> ~ In 0 ws -> (forall v, In v ws -> (memb v cs = true <-> In v l)) ->
    exists t' l', bulk_appends r sd o cs ws t = Ok t' /\ coll_of t' sd o = coll_of t sd o ++ ws /\
                  inv (set_cell t' sd o (CList l')) /\ (forall x, In x l' <-> In x l \/ In x ws).
  Proof.
    intros cs ws. induction ws as [|v rest IH]; intros t o l O I ND NZ K.
    { exists t, l. rewrite app_nil_r. split; [|split; [|split]]; auto.
      intros x. cbn. split; [auto|intros [H|[]]; exact H]. }
    apply NoDup_cons_iff in ND. destruct ND as [NI ND'].
    assert (V : v <> 0) by (intros ->; apply NZ; left; reflexivity).
    assert (NZ' : ~ In 0 rest) by (intros H; apply NZ; right; exact H).
    cbn [bulk_appends]. destruct (memb v cs) eqn:M; cbn [bind].
    - (* a constant is appended silently *)
      assert (VL : In v l) by (apply K; [left; reflexivity|exact M]).
      destruct (IH (set_cell t sd o (CList (coll_of t sd o ++ [v]))) o l) as (t' & l' & E & C & I' & L'); auto.
      + apply inv_overwritten. exact I.
      + intros w Hw. apply K. right. exact Hw.
      + exists t', l'. rewrite E, C, coll_set_same, <- app_assoc. split; [|split; [|split]]; auto.
        intros x. rewrite L'. cbn. split; [intros [H|H]; auto|intros [H|[<-|H]]; auto].
    - unfold run_call, FUEL. rewrite fire_append by auto. cbn [bind]. rewrite att_own.
      assert (NL : ~ In v l) by (intros H; apply K in H; [congruence|left; reflexivity]).
      destruct (IH (set_cell (att t o v) sd o (CList (coll_of t sd o ++ [v]))) o (l ++ [v]))
        as (t' & l' & E & C & I' & L'); auto.
      + apply inv_overwritten, add_own; auto.
      + intros w Hw. rewrite In_snoc, (K w (or_intror Hw)). split; [auto|].
        intros [->|H]; [contradiction|exact H].
      + exists t', l'. rewrite E, C, coll_set_same, <- app_assoc. split; [|split; [|split]]; auto.
        intros x. rewrite L', In_snoc. cbn. split; [intros [[->|H]|H]; auto|intros [H|[<-|H]]; auto].
  Qed.

  Lemma bulk_removes_inv : forall ws t o l, o <> 0 -> inv (set_cell t sd o (CList l)) ->
    NoDup (coll_of t sd o) -> NoDup ws ->
    (forall v, In v ws -> v <> 0 /\ In v l /\ ~ In v (coll_of t sd o)) ->
    exists t' l', bulk_removes r sd o ws t = Ok t' /\ coll_of t' sd o = coll_of t sd o /\
                  inv (set_cell t' sd o (CList l')) /\ (forall x, In x l' <-> In x l /\ ~ In x ws).
  Proof.
    induction ws as [|v rest IH]; intros t o l O I ND NW K.
    { exists t, l. split; [|split; [|split]]; auto. intros x. cbn. split; [auto|intros [H _]; exact H]. }
    apply NoDup_cons_iff in NW. destruct NW as [NI NW']. destruct (K v (or_introl eq_refl)) as (V & VL & VC).
    assert (NDl : NoDup l) by (pose proof (inv_nodup _ I o) as H; rewrite coll_set_same in H; exact H).
    cbn [bulk_removes]. unfold run_call, FUEL. rewrite (fire_remove _ _ o v l) by auto. cbn [bind].
    destruct (IH (det t o v) o (remove1 v l)) as (t' & l' & E & C & I' & L'); auto.
    - apply del_own; assumption.
    - rewrite det_own. exact ND.
    - intros w Hw. destruct (K w (or_intror Hw)) as (A & B & C'). rewrite det_own, remove1_In by exact NDl.
      repeat split; auto. intros ->. contradiction.
    - exists t', l'. rewrite E, C, det_own. split; [|split; [|split]]; auto.
      intros x. rewrite L', remove1_In by exact NDl. cbn. split.
      + intros [[H N1] N2]. split; [exact H|]. intros [Q|Q]; [exact (N1 (eq_sym Q))|exact (N2 Q)].
      + intros [H N]. split; [split; [exact H|intros ->; apply N; left; reflexivity]|intros Q; apply N; right; exact Q].
  Qed.

  Lemma coll_replace : forall s o vs, inv s -> o <> 0 -> NoDup vs -> ~ In 0 vs ->
    lands inv (step_prim r (PReplace sd o vs) s).
  Proof.
    intros s o vs I O ND NZ. cbn [step_prim].
    set (old := coll_of s sd o). set (cs := filter (fun v => memb v vs) old).
    pose proof (inv_nodup s I o) as NDold. fold old in NDold.
    assert (CS : forall v, memb v cs = true <-> In v old /\ In v vs).
    { intros v. unfold cs. rewrite memb_In, filter_In, memb_In. reflexivity. }
    assert (RS : forall v, In v (filter (fun v => negb (memb v cs)) old) <-> In v old /\ ~ In v vs).
    { intros v. rewrite filter_In, negb_true_iff, <- not_true_iff_false, CS.
      split; intros [H K]; (split; [exact H|]); [intros V; apply K; split; assumption|intros [_ V]; exact (K V)]. }
    rewrite dedup_first_NoDup_id by (apply NoDup_filter; exact NDold).
    destruct (bulk_appends_inv cs vs (set_cell s sd o (CList [])) o old) as (t1 & l1 & E1 & C1 & I1 & L1); auto.
    { apply inv_overwritten, inv_rewrite_own; [apply coll_set_same|exact I]. }
    { intros v Hv. rewrite CS. split; [intros [H _]; exact H|intros H; split; assumption]. }
    rewrite E1. cbn [bind]. rewrite coll_set_same in C1. cbn [app] in C1.
    destruct (bulk_removes_inv (filter (fun v => negb (memb v cs)) old) t1 o l1)
      as (t2 & l2 & E2 & C2 & I2 & L2); auto.
    { rewrite C1. exact ND. }
    { apply NoDup_filter. exact NDold. }
    { intros v Hv. apply RS in Hv. destruct Hv as [HO NV]. rewrite C1, L1.
      split; [intros ->; exact (inv_nonzero s I o HO)|split; [left; exact HO|exact NV]]. }
    rewrite E2. cbn [lands]. rewrite C1 in C2.
    apply (inv_rewrite_own t2 o (CList vs)); [rewrite coll_set_same; symmetry; exact C2|].
    apply (inv_members _ _ l2 vs I2 ND). intros x. rewrite L2, L1, RS.
    split; [intros H; split; [right; exact H|intros [_ K]; exact (K H)]|].
    intros [[H|H] K]; [|exact H]. destruct (memb x vs) eqn:MV; [apply memb_In; exact MV|].
    exfalso. apply K. split; [exact H|apply memb_false; exact MV].
  Qed.

  Lemma guard_side : forall sd' o, side_eqb sd sd' && negb (o =? 0) = true -> sd' = sd /\ o <> 0.
  Proof.
    intros sd' o G. apply andb_prop in G as [S O]. apply side_eqb_eq in S. apply negb_true_iff, N.eqb_neq in O. auto.
  Qed.

  Theorem coll_prim_guarded : forall s p, inv s -> guard_coll_prim s sd p = true ->
    lands inv (step_prim r p s).
  Proof.
    intros s p I G.
    destruct p as [sd' o v|sd' o v|sd' o i v|sd' o i|sd' o i|sd' o i v|sd' o vs|sd' o v|sd' o|sd' o];
      cbn [guard_coll_prim] in G; try discriminate G.
    - apply andb_prop in G as [G M]. apply andb_prop in G as [G V]. apply guard_side in G as [-> O].
      apply negb_true_iff, N.eqb_neq in V. apply negb_true_iff, memb_false in M. apply coll_append; assumption.
    - apply andb_prop in G as [G V]. apply guard_side in G as [-> O]. apply coll_remove; assumption.
    - apply andb_prop in G as [G M]. apply andb_prop in G as [G V]. apply guard_side in G as [-> O].
      apply negb_true_iff, N.eqb_neq in V. apply negb_true_iff, memb_false in M. apply coll_insert; assumption.
    - apply guard_side in G as [-> O]. apply coll_pop; assumption.
    - apply guard_side in G as [-> O]. apply coll_delitem; assumption.
    - apply andb_prop in G as [G M]. apply andb_prop in G as [G V]. apply guard_side in G as [-> O].
      apply negb_true_iff, N.eqb_neq in V. apply coll_setitem; try assumption.
      intros e E. rewrite E in M. apply orb_true_iff in M. destruct M as [M|M]; [left|right].
      + apply negb_true_iff, memb_false in M. exact M.
      + apply N.eqb_eq. exact M.
    - apply andb_prop in G as [G M]. apply andb_prop in G as [G V]. apply guard_side in G as [-> O].
      apply nodupb_NoDup in V. apply negb_true_iff, memb_false in M. apply coll_replace; assumption.
    - apply guard_side in G as [-> O]. apply coll_delcoll; assumption.
  Qed.
End CollSide.
