(* C41: row -> entity assembly through the identity map keeps every value and gives one object per key; count / exists
   and the legacy de-duplication against the rows.  The predicates the statements use come first. *)
From Coq Require Import List ZArith Bool Arith Lia.
Import ListNotations.
From SAV.sql Require Import Val3.
From SAV.orm Require Import Query QueryShapes.

(* the identity map: one object per (identity class, primary key); object ids are positions in the map *)
Definition wf_im (m : idmap) : Prop :=
  (forall i k o, nth_error m i = Some (k, o) -> o = i) /\ NoDup (map fst m).

Definition ent_ok (M : idmap) (k : ckind) (i : item) : Prop :=
  match k, i with
  | KEnt t, IEnt o pk => nth_error M o = Some ((t, pk), o)
  | KEnt _, INone => True
  | KVal, IVal _ => True
  | _, _ => False
  end.
Fixpoint items_ok (M : idmap) (ks : list ckind) (is : list item) : Prop :=
  match ks, is with
  | k :: ks', i :: is' => ent_ok M k i /\ items_ok M ks' is'
  | _, [] => True
  | [], _ :: _ => False
  end.

Definition extends (m M : idmap) : Prop := exists tl, M = m ++ tl.

(* the identity map of the Session after the rows have been processed *)
Fixpoint final_im (m : idmap) (ks : list ckind) (rows : list (list val)) : idmap :=
  match rows with [] => m | r :: rows' => final_im (fst (asm_row m ks r)) ks rows' end.

(* legacy Query: Result.unique() drops repeated rows; harmless exactly when there is nothing to drop *)
Fixpoint distinct_items (l seen : list (list item)) : bool :=
  match l with
  | [] => true
  | r :: l' => negb (existsb (items_eqb r) seen) && distinct_items l' (r :: seen)
  end.

Lemma asm_item_val : forall m k v, item_val (snd (asm_item m k v)) = v.
Proof.
  intros m k v. unfold asm_item. destruct k as [t|]; [|reflexivity].
  destruct v as [pk|]; [|reflexivity]. destruct (im_find m t pk); reflexivity.
Qed.

Lemma asm_row_val : forall ks r m, length r = length ks -> map item_val (snd (asm_row m ks r)) = r.
Proof.
  induction ks as [|k ks IH]; intros r m Hl.
  - destruct r; [reflexivity | discriminate].
  - destruct r as [|v r]; [discriminate|]. cbn [asm_row].
    pose proof (asm_item_val m k v) as Hv. destruct (asm_item m k v) as [m1 i]. cbn [snd] in Hv.
    specialize (IH r m1 (f_equal pred Hl)). destruct (asm_row m1 ks r) as [m2 is]. cbn [snd map] in *.
    rewrite Hv, IH. reflexivity.
Qed.

Lemma assemble_val : forall ks rows m, Forall (fun r => length r = length ks) rows ->
  map (map item_val) (assemble m ks rows) = rows.
Proof.
  intros ks rows. induction rows as [|r rows IH]; intros m H; [reflexivity|].
  inversion H as [|? ? Hr Hrest]; subst. cbn [assemble].
  pose proof (asm_row_val ks r m Hr) as Hv. destruct (asm_row m ks r) as [m1 is]. cbn [snd] in Hv.
  cbn [map]. rewrite Hv, (IH m1 Hrest). reflexivity.
Qed.

Lemma assemble_length : forall ks rows m, length (assemble m ks rows) = length rows.
Proof.
  intros ks rows. induction rows as [|r rows IH]; intros m; [reflexivity|].
  cbn [assemble]. destruct (asm_row m ks r) as [m1 is]. cbn [length]. rewrite IH. reflexivity.
Qed.

Lemma insert_k_forall : forall (P : krow -> Prop) r l, P r -> Forall P l -> Forall P (insert_k r l).
Proof.
  intros P r l Hr Hl. induction Hl as [|x l Hx Hl IH]; cbn [insert_k].
  - constructor; [exact Hr | constructor].
  - destruct (key_leb (fst r) (fst x)); constructor; auto.
Qed.

Lemma order_rows_forall : forall (P : list val -> Prop) l,
  Forall (fun kr => P (snd kr)) l -> Forall P (order_rows l).
Proof.
  intros P l H. apply Forall_map. induction H as [|x l Hx Hl IH]; cbn [fold_right]; [constructor|].
  apply insert_k_forall; assumption.
Qed.

Lemma sel_rows_len : forall d s n, length (s_cols s) = n -> Forall (fun kr => length (snd kr) = n) (sel_rows d s).
Proof.
  intros d s n Hn. apply Forall_map, Forall_forall. intros e _. cbn [snd]. rewrite map_length. exact Hn.
Qed.

Lemma union_rows_len : forall d a b n, length (s_cols a) = n -> length (s_cols b) = n ->
  Forall (fun r => length r = n) (dedup_rows (map snd (sel_rows d a) ++ map snd (sel_rows d b)) []).
Proof.
  intros d a b n Ha Hb. apply Forall_forall. intros r Hr. apply dedup_rows_in in Hr. revert r Hr.
  apply Forall_forall, Forall_app. split; apply Forall_map, sel_rows_len; assumption.
Qed.

Lemma first_col_len : forall n (rows : list (list val)), Forall (fun r => length r = S n) rows ->
  Forall (fun kr : krow => length (snd kr) = 1) (map (fun r => (firstn 1 r, firstn 1 r)) rows).
Proof.
  intros n rows H. apply Forall_map. apply (Forall_impl _) with (2 := H).
  intros [|x r] Hr; [discriminate | reflexivity].
Qed.

Lemma core_rows_len : forall d q,
  Forall (fun kr => length (snd kr) = length (col_kinds q)) (core_rows d (orm_to_core d q)).
Proof.
  intros d q. destruct q as [c|k|outer t sp sc m|outer sc sp|sc|a b|c|a b post|vals sc]; cbn [orm_to_core core_rows col_kinds].
  - apply sel_rows_len. reflexivity.
  - apply sel_rows_len. reflexivity.
  - destruct m; apply sel_rows_len; reflexivity.
  - apply sel_rows_len. reflexivity.
  - apply Forall_map, Forall_forall. intros k _. reflexivity.
  - apply (first_col_len 1), union_rows_len; reflexivity.
  - apply sel_rows_len. reflexivity.
  - apply (first_col_len 3), (incl_Forall (incl_filter _ _)), union_rows_len; reflexivity.
  - destruct vals; apply sel_rows_len; reflexivity.
Qed.

Lemma core_exec_len : forall d q,
  Forall (fun r => length r = length (col_kinds q)) (core_exec d (orm_to_core d q)).
Proof. intros d q. apply order_rows_forall, core_rows_len. Qed.

Lemma slice_forall : forall (A : Type) (P : A -> Prop) off lim (l : list A), Forall P l -> Forall P (slice off lim l).
Proof.
  intros A P off lim l H. unfold slice.
  assert (Hs : Forall P (skipn off l)) by (rewrite <- (firstn_skipn off l) in H; apply Forall_app in H; apply H).
  destruct lim as [n|]; [|exact Hs]. rewrite <- (firstn_skipn n (skipn off l)) in Hs. apply Forall_app in Hs. apply Hs.
Qed.

(* The clauses of the property are stated with LIMIT / OFFSET on the statement; [slice 0 None l] computes to [l], so the
   statement without them is the instance (0, None). *)
Theorem orm_rows_biject_core_rows_sl : forall d q off lim,
  map (map item_val) (orm_exec_sl d q off lim false) = slice off lim (core_exec d (orm_to_core d q)).
Proof. intros. apply assemble_val, slice_forall, core_exec_len. Qed.

Theorem orm_rows_biject_core_rows : forall d q,
  map (map item_val) (orm_exec d q false) = core_exec d (orm_to_core d q).
Proof. intros d q. exact (orm_rows_biject_core_rows_sl d q 0 None). Qed.

Theorem orm_rows_meaning_sl : forall d q off lim, query_ok d q = true ->
  map (map item_val) (orm_exec_sl d q off lim false) = slice off lim (meaning d q).
Proof. intros d q off lim H. rewrite orm_rows_biject_core_rows_sl, (core_exec_meaning d q H). reflexivity. Qed.

Theorem count_exists_agree_sl : forall d q off lim,
  orm_count_sl d q off lim = length (orm_exec_sl d q off lim false) /\
  orm_exists_sl d q off lim = negb (Nat.eqb (length (orm_exec_sl d q off lim false)) 0).
Proof.
  intros. unfold orm_count_sl, orm_exists_sl, orm_exec_sl. rewrite assemble_length.
  split; [reflexivity|]. destruct (slice off lim (core_exec d (orm_to_core d q))); reflexivity.
Qed.

Theorem count_exists_agree : forall d q,
  orm_count d q = length (orm_exec d q false) /\
  orm_exists d q = negb (Nat.eqb (length (orm_exec d q false)) 0).
Proof. intros d q. exact (count_exists_agree_sl d q 0 None). Qed.

Lemma unique_items_distinct : forall l seen, distinct_items l seen = true -> unique_items l seen = l.
Proof.
  induction l as [|r l IH]; intros seen H; [reflexivity|]. cbn [distinct_items] in H.
  apply andb_true_iff in H. destruct H as [H1 H2]. apply negb_true_iff in H1.
  cbn [unique_items]. rewrite H1. f_equal. apply IH. exact H2.
Qed.

Theorem count_agree_legacy_guarded : forall d q,
  distinct_items (orm_exec d q false) [] = true ->
  orm_exec d q true = orm_exec d q false /\ orm_count d q = length (orm_exec d q true).
Proof.
  intros d q H. assert (E : orm_exec d q true = orm_exec d q false) by exact (unique_items_distinct _ _ H).
  split; [exact E|]. rewrite E. apply count_exists_agree.
Qed.

Lemma unique_items_length : forall l seen, length (unique_items l seen) <= length l.
Proof.
  induction l as [|r l IH]; intros seen; [apply le_n|]. cbn [unique_items].
  destruct (existsb (items_eqb r) seen); cbn [length].
  - specialize (IH seen). lia.
  - specialize (IH (r :: seen)). lia.
Qed.

Theorem legacy_rows_le_count_sl : forall d q off lim,
  length (orm_exec_sl d q off lim true) <= orm_count_sl d q off lim.
Proof.
  intros. destruct (count_exists_agree_sl d q off lim) as [Hc _]. rewrite Hc. apply unique_items_length.
Qed.

Lemma extends_refl : forall m, extends m m.
Proof. intros m. exists []. symmetry. apply app_nil_r. Qed.
Lemma extends_trans : forall a b c, extends a b -> extends b c -> extends a c.
Proof. intros a b c [t1 H1] [t2 H2]. exists (t1 ++ t2). subst. rewrite app_assoc. reflexivity. Qed.

Lemma nth_extends : forall m M i x, extends m M -> nth_error m i = Some x -> nth_error M i = Some x.
Proof.
  intros m M i x [tl H] Hn. subst M. rewrite nth_error_app1; [exact Hn|].
  apply nth_error_Some. congruence.
Qed.

Lemma ent_ok_extends : forall m M k i, extends m M -> ent_ok m k i -> ent_ok M k i.
Proof.
  intros m M k i He H. destruct k as [t|], i as [o pk| |v]; cbn [ent_ok] in *; try exact H.
  apply (nth_extends m M); assumption.
Qed.
Lemma items_ok_extends : forall m M ks is, extends m M -> items_ok m ks is -> items_ok M ks is.
Proof.
  intros m M ks. induction ks as [|k ks IH]; intros is He H; destruct is as [|i is]; cbn [items_ok] in *; try exact H.
  destruct H as [H1 H2]. split; [apply (ent_ok_extends m M); assumption | apply IH; assumption].
Qed.

Lemma im_find_some : forall m t pk o, wf_im m -> im_find m t pk = Some o -> nth_error m o = Some ((t, pk), o).
Proof.
  intros m t pk o [Hpos _] H. unfold im_find in H.
  destruct (find (fun e => tab_eqb (fst (fst e)) t && Z.eqb (snd (fst e)) pk) m) as [[[t' pk'] o']|] eqn:E; [|discriminate].
  inversion H; subst o'. apply find_some in E. destruct E as [Hin Hb]. cbn [fst snd] in Hb.
  apply andb_true_iff in Hb. destruct Hb as [Ht Hk]. apply Z.eqb_eq in Hk. subst pk'.
  assert (t' = t) by (destruct t', t; try discriminate; reflexivity). subst t'.
  apply In_nth_error in Hin. destruct Hin as [i Hi]. pose proof (Hpos _ _ _ Hi). subst i. exact Hi.
Qed.

Lemma im_find_none : forall m t pk, im_find m t pk = None -> ~ In (t, pk) (map fst m).
Proof.
  intros m t pk H Hin. unfold im_find in H.
  destruct (find (fun e => tab_eqb (fst (fst e)) t && Z.eqb (snd (fst e)) pk) m) eqn:E; [discriminate|].
  apply in_map_iff in Hin. destruct Hin as [[k o] [Hk Hin]]. cbn [fst] in Hk. subst k.
  pose proof (find_none _ _ E _ Hin) as Hn. cbn [fst snd] in Hn. rewrite Z.eqb_refl in Hn.
  destruct t; discriminate.
Qed.

Lemma asm_item_ok : forall m k v, wf_im m ->
  let '(m1, i) := asm_item m k v in wf_im m1 /\ extends m m1 /\ ent_ok m1 k i.
Proof.
  intros m k v Hwf.
  assert (Hsame : forall i, ent_ok m k i -> wf_im m /\ extends m m /\ ent_ok m k i).
  { intros i Hi. split; [exact Hwf | split; [apply extends_refl | exact Hi]]. }
  unfold asm_item. destruct k as [t|]; [|apply Hsame; exact I].
  destruct v as [pk|]; [|apply Hsame; exact I].
  destruct (im_find m t pk) as [o|] eqn:E.
  - apply Hsame, im_find_some; assumption.
  - destruct Hwf as [Hpos Hnd]. split; [split|split].
    + intros i k o Hn. destruct (Nat.lt_ge_cases i (length m)) as [Hlt|Hge].
      * rewrite nth_error_app1 in Hn by exact Hlt. exact (Hpos _ _ _ Hn).
      * rewrite nth_error_app2 in Hn by exact Hge.
        destruct (i - length m) as [|j] eqn:Ej; cbn [nth_error] in Hn.
        -- inversion Hn; subst. lia.
        -- destruct j; discriminate.
    + rewrite map_app. apply (NoDup_Add (Add_app (t, pk) (map fst m) [])). rewrite app_nil_r.
      split; [exact Hnd | apply im_find_none; exact E].
    + exists [((t, pk), length m)]. reflexivity.
    + cbn [ent_ok]. rewrite nth_error_app2 by apply le_n. rewrite Nat.sub_diag. reflexivity.
Qed.

Lemma asm_row_ok : forall ks r m, wf_im m ->
  let '(m2, is) := asm_row m ks r in wf_im m2 /\ extends m m2 /\ items_ok m2 ks is.
Proof.
  induction ks as [|k ks IH]; intros r m Hwf.
  - cbn [asm_row]. split; [exact Hwf|]. split; [apply extends_refl | exact I].
  - destruct r as [|v r]; cbn [asm_row].
    + split; [exact Hwf|]. split; [apply extends_refl | exact I].
    + pose proof (asm_item_ok m k v Hwf) as H1. destruct (asm_item m k v) as [m1 i].
      destruct H1 as (Hwf1 & He1 & Hi).
      pose proof (IH r m1 Hwf1) as H2. destruct (asm_row m1 ks r) as [m2 is].
      destruct H2 as (Hwf2 & He2 & His).
      split; [exact Hwf2|]. split; [exact (extends_trans _ _ _ He1 He2)|].
      cbn [items_ok]. split; [exact (ent_ok_extends _ _ _ _ He2 Hi) | exact His].
Qed.

Lemma assemble_ok : forall ks rows m, wf_im m ->
  wf_im (final_im m ks rows) /\ extends m (final_im m ks rows) /\
  Forall (items_ok (final_im m ks rows) ks) (assemble m ks rows).
Proof.
  intros ks rows. induction rows as [|r rows IH]; intros m Hwf.
  - cbn [final_im assemble]. split; [exact Hwf|]. split; [apply extends_refl | constructor].
  - cbn [final_im assemble]. pose proof (asm_row_ok ks r m Hwf) as H1.
    destruct (asm_row m ks r) as [m1 is]. cbn [fst]. destruct H1 as (Hwf1 & He1 & His).
    destruct (IH m1 Hwf1) as (HwfF & HeF & Hall).
    split; [exact HwfF|]. split; [exact (extends_trans _ _ _ He1 HeF)|].
    constructor; [exact (items_ok_extends _ _ _ _ HeF His) | exact Hall].
Qed.

Lemma wf_im_nil : wf_im [].
Proof. split; [intros [|i] k o H; discriminate | constructor]. Qed.

Lemma wf_im_identity : forall M t o pk t' o' pk', wf_im M ->
  nth_error M o = Some ((t, pk), o) -> nth_error M o' = Some ((t', pk'), o') ->
  (o = o' <-> (t = t' /\ pk = pk')).
Proof.
  intros M t o pk t' o' pk' [_ Hnd] H1 H2. split.
  - intros E. subst o'. rewrite H1 in H2. inversion H2. split; reflexivity.
  - intros [Et Ek]. subst t' pk'.
    rewrite NoDup_nth_error in Hnd. apply Hnd.
    + rewrite map_length. apply nth_error_Some. congruence.
    + rewrite !nth_error_map, H1, H2. reflexivity.
Qed.

(* objects are in bijection with (identity class, primary key): the same key gives the same object in every
   row and column, different keys give different objects *)
Theorem identity_map_one_object_per_key : forall d q, exists M,
  Forall (items_ok M (col_kinds q)) (orm_exec d q false) /\
  forall t o pk t' o' pk', nth_error M o = Some ((t, pk), o) -> nth_error M o' = Some ((t', pk'), o') ->
    (o = o' <-> (t = t' /\ pk = pk')).
Proof.
  intros d q. exists (final_im [] (col_kinds q) (core_exec d (orm_to_core d q))).
  destruct (assemble_ok (col_kinds q) (core_exec d (orm_to_core d q)) [] wf_im_nil) as (Hwf & _ & Hall).
  split; [exact Hall|]. intros. apply (wf_im_identity _ _ _ _ _ _ _ Hwf); assumption.
Qed.
