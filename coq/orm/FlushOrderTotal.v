(* C31 - the other outcomes of the plan: the fuel of the model always suffices; CircularDependencyError is
   raised exactly when the final dependency set has a cycle among the final records (C19) *)
From Coq Require Import List NArith.
Import ListNotations.
From SAV.util Require Import Topo TopoRun TopoProofs TopoCycle CyclesSound CyclesExact.
From SAV.orm Require Import FlushOrder FlushOrderSpec FlushOrderBase.
Local Open Scope N_scope.

Lemma ord_of_spec ts a b : In b (ord_of ts a) <-> In (a, b) ts.
Proof. unfold ord_of. rewrite In_dedup, in_map_iff. split.
  - intros [[x y] [H1 H2]]. simpl in H1; subst. apply filter_In in H2. destruct H2 as [H2 H3].
    simpl in H3. apply N.eqb_eq in H3. subst. exact H2.
  - intros H. exists (a, b). split; [reflexivity|]. apply filter_In. split; [exact H|]. simpl. apply N.eqb_refl. Qed.
Lemma starts_of_spec ts a : In a (starts_of ts) <-> exists b, In (a, b) ts.
Proof. unfold starts_of. rewrite In_dedup, in_map_iff. split.
  - intros [[x y] [H1 H2]]. simpl in H1; subst. exists y. exact H2.
  - intros [b H]. exists (a, b). split; [reflexivity|exact H]. Qed.

(* find_cycles: exactly the records on a cycle of the per-mapper dependency set *)
Theorem cycles_exact T g : exists cy, cycles T g = Some cy /\ forall x, In x cy <-> on_cycle (cedges (edges0 T g)) x.
Proof. unfold cycles, cycles_of.
  exact (find_cycles_exact _ (ord_of _) (ord_of_spec _) (starts_of _) (starts_of_spec _)). Qed.

Theorem plan_never_out_of_fuel T g : plan T g <> PFuel.
Proof. unfold plan. destruct (cycles_exact T g) as [cy [-> _]]. destruct (forallb _ _); [|discriminate].
  destruct (sort_as_subsets _ _) eqn:E; try discriminate. exfalso. unfold sort_as_subsets in E.
  exact (subsets_fuel_ok _ _ _ (le_n _) E). Qed.

Theorem plan_circular_iff T g cy : cycles T g = Some cy ->
  forallb (expand_assert g cy) (cyc_actions g cy) = true ->
  (plan T g = PCircular <->
   exists w, cycle (cedges (final_edges T g cy)) w /\ incl w (dedup (map code (final_items g cy)))).
Proof. intros Hc Ha. unfold plan. rewrite Hc, Ha. rewrite <- sort_fails_iff_cycle.
  destruct (sort_as_subsets _ _); split; intros; try discriminate; reflexivity. Qed.
