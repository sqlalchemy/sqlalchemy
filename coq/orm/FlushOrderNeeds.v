(* C31 - each kind of ordering need names the processor that handles the reference and the one or two table
   entries that make up a path of the final dependency set; [dep_step] does the rest in every regime *)
From Coq Require Import List NArith Bool.
Import ListNotations.
From SAV.util Require Import Topo Cycles TopoRun TopoProofs.
From SAV.orm Require Import FlushOrder FlushOrderSpec FlushOrderBase FlushOrderSort FlushOrderCover.
Local Open Scope N_scope.

(* [o2m_cov g post s c t] is the instance k = 0, o = t, rel = s; [m2o_cov g post s c t] is k = 1, o = s, rel = t *)
Lemma cov_spec g k c post o rel :
  existsb (fun d => d_active d && N.eqb (d_kind d) k && N.eqb (d_col d) c && Bool.eqb (d_post d) post
                    && N.eqb (d_parent d) (map_of g o) && N.eqb (d_child d) (map_of g rel)
                    && link_in g (d_id d) o rel) (g_deps g) = true ->
  exists d, forall isdel cdel : bool, role_of g o = (if isdel then 2 else 1) ->
    (if cdel then role_of g rel = 2 else role_of g rel <> 2) -> dep_at g d k post isdel cdel o rel.
Proof. rewrite existsb_exists. intros [d [Hd H]].
  apply andb_true_iff in H. destruct H as [H L]. apply andb_true_iff in H. destruct H as [H Mr].
  apply andb_true_iff in H. destruct H as [H Mo]. apply andb_true_iff in H. destruct H as [H P].
  apply andb_true_iff in H. destruct H as [H _]. apply andb_true_iff in H. destruct H as [A K].
  apply N.eqb_eq in K, Mo, Mr. apply eqb_prop in P. exists d. unfold dep_at. auto 10. Qed.

(* the many-to-many processors that may write the secondary row x, the state that owns the collection and the
   related state *)
Lemma sec_homes_spec g cy ins x h : In h (sec_homes g cy ins x) ->
  exists d o rel, (snd (fst x) = o /\ snd x = rel \/ snd (fst x) = rel /\ snd x = o) /\
    (forall isdel cdel : bool, role_of g o = (if isdel then 2 else 1) ->
       (if cdel then role_of g rel = 2 else role_of g rel <> 2) -> dep_at g d 2 (d_post d) isdel cdel o rel) /\
    (role_of g o = 1 /\ h = proc_home g cy (d_id d) false o \/
     role_of g o = 2 /\ ins = false /\ h = proc_home g cy (d_id d) true o).
Proof. unfold sec_homes. intros H. apply in_flat_map in H. destruct H as [d [Hd H]].
  apply filter_In in Hd. destruct Hd as [Hd Ha]. exists d, (sec_owner (d_rev d) x), (sec_rel (d_rev d) x).
  split; [unfold sec_owner, sec_rel; destruct (d_rev d); auto|].
  destruct (N.eqb (d_kind d) 2 && _) eqn:E1; [|contradiction]. destruct (_ && link_in g _ _ _) eqn:E2; [|contradiction].
  apply andb_true_iff in E1, E2. destruct E1 as [K _], E2 as [E2 L]. apply andb_true_iff in E2. destruct E2 as [Mo Mr].
  apply N.eqb_eq in K, Mo, Mr. split; [unfold dep_at; auto 10|].
  destruct (N.eqb (role_of g _) 1) eqn:R1; [left; destruct H as [<-|[]]; split; [apply N.eqb_eq, R1|reflexivity]|].
  destruct (N.eqb (role_of g _) 2) eqn:R2; [|contradiction]. destruct ins; [contradiction|].
  right. destruct H as [<-|[]]. split; [apply N.eqb_eq, R2|split; reflexivity]. Qed.

Section Needs.
Variables (g : graph) (cy : list N).
Notation T := std_tables.
Hypothesis Hnd : NoDup (map d_id (g_deps g)).
Hypothesis Hshape : cyc_shape cy = true.
Hypothesis Hfollow : procs_follow g cy = true.
Hypothesis Hpair : forall m, In m (all_mappers g) -> incyc cy (DelAll m) = incyc cy (SaveAll m).

Notation fpath := (fpath T g cy).
Notation edge_ok := (edge_ok T g cy).

Lemma pair_parent d : In d (g_deps g) -> incyc cy (DelAll (d_parent d)) = incyc cy (SaveAll (d_parent d)).
Proof. intros H. exact (proj1 (pair_dep g cy Hpair d H)). Qed.

Lemma pp_keep d r1 r2 : In d (g_deps g) -> d_active d = true ->
  In (r1, r2) (prop_edges T (d_kind d) (d_post d)) ->
  In (role_act d r1) (actions0 g) -> In (role_act d r2) (actions0 g) ->
  clean g cy (role_act d r1) -> clean g cy (role_act d r2) ->
  incyc cy (role_act d r1) = false -> incyc cy (role_act d r2) = false -> edge_ok (role_act d r1) (role_act d r2).
Proof. intros Hd Ha Hr A1 A2 C1 C2 I1 I2. split; [|split; apply FI_0; assumption].
  apply (FE_intro T g cy (Some (role_act d r1), Some (role_act d r2))); [apply all_edges_0, edges0_dep; assumption|].
  rewrite rewrite1_clean, I1, I2 by assumption. left. reflexivity. Qed.
Lemma pp_left d r1 r2 x : In d (g_deps g) -> d_active d = true ->
  In (r1, r2) (prop_edges T (d_kind d) (d_post d)) ->
  In (role_act d r1) (actions0 g) -> In (role_act d r2) (actions0 g) ->
  clean g cy (role_act d r1) -> clean g cy (role_act d r2) ->
  incyc cy (role_act d r1) = true -> incyc cy (role_act d r2) = false -> In x (convert g (role_act d r1)) ->
  edge_ok x (role_act d r2).
Proof. intros Hd Ha Hr A1 A2 C1 C2 I1 I2 Hx. apply (rep_edge g cy Hshape (role_act d r1) (role_act d r2)); try assumption.
  - apply edges0_dep; assumption.
  - unfold rep. rewrite I1. exact Hx.
  - apply rep_self, I2.
  - rewrite I2. apply andb_false_r. Qed.
Lemma pp_right d r1 r2 x : In d (g_deps g) -> d_active d = true ->
  In (r1, r2) (prop_edges T (d_kind d) (d_post d)) ->
  In (role_act d r1) (actions0 g) -> In (role_act d r2) (actions0 g) ->
  clean g cy (role_act d r1) -> clean g cy (role_act d r2) ->
  incyc cy (role_act d r1) = false -> incyc cy (role_act d r2) = true -> In x (convert g (role_act d r2)) ->
  edge_ok (role_act d r1) x.
Proof. intros Hd Ha Hr A1 A2 C1 C2 I1 I2 Hx. apply (rep_edge g cy Hshape (role_act d r1) (role_act d r2)); try assumption.
  - apply edges0_dep; assumption.
  - apply rep_self, I1.
  - unfold rep. rewrite I2. exact Hx.
  - rewrite I1. reflexivity. Qed.

Notation step := (dep_step g cy Hnd Hshape Hfollow Hpair).
Notation path := (dep_path g cy Hnd Hshape Hfollow Hpair).
(* the side conditions of [step] / [path] once processor, phases, states and roles are named: assumptions,
   and lookups in the two tables *)
Ltac side := repeat split; simpl; auto 10; congruence.

(* a reference (s, c, t) of the final state: the INSERT of a pending row before the statement that
   writes the reference to it *)
Lemma ref1_covered s c t e1 e2 h1 h2 : In (e1, e2) (needs_ref1 g (s, c, t)) -> mg_ref1 g (s, c, t) = true ->
  survives g t = true -> In h1 (homes g cy e1) -> In h2 (homes g cy e2) -> fpath h1 h2.
Proof.
  unfold needs_ref1, mg_ref1. cbn [fst snd]. intros Hn Hm St H1 H2. apply survives_role in St.
  destruct (N.eqb (role_of g s) 1) eqn:Rs; [apply N.eqb_eq in Rs|contradiction].
  destruct (postcol g c).
  - (* post_update column: the INSERT of y = s or y = t before the UPDATE of s by _post_update *)
    assert (Hy : exists y, (y = s \/ y = t) /\ pending g y = true /\ e1 = ESave y /\ e2 = EPost s).
    { apply in_app_or in Hn. destruct Hn as [Hn|Hn]; apply in_one in Hn; destruct Hn as [P E]; inversion E;
        [exists s|exists t]; auto. }
    destruct Hy as [y [Hy [Py [-> ->]]]]. pose proof (pending_role g y Py) as Ry.
    destruct H1 as [<-|[]], H2 as [<-|[]]. unfold home_post. rewrite Rs.
    assert (Hc : (o2m_cov g true s c t && N.eqb (role_of g t) 1) || m2o_cov g true s c t = true).
    { destruct Hy as [E|E]; rewrite E in Py; rewrite Py, ?orb_true_r in Hm; exact Hm. }
    apply orb_true_iff in Hc. destruct Hc as [Hc|Hc].
    + apply andb_true_iff in Hc. destruct Hc as [Hc Rt]. apply N.eqb_eq in Rt.
      destruct (cov_spec g 0 c true t s Hc) as [d At]. destruct Hy as [->| ->].
      * apply (path d 0 true false false t s CSaves AfterSave CPost); [apply At|..]; side.
      * apply (path d 0 true false false t s PSaves AfterSave CPost); [apply At|..]; side.
    + destruct (cov_spec g 1 c true s t Hc) as [d At]. destruct Hy as [->| ->].
      * apply (path d 1 true false false s t PSaves AfterSave PPost); [apply At|..]; side.
      * apply (path d 1 true false false s t CSaves AfterSave PPost); [apply At|..]; side.
  - (* the INSERT of t before the INSERT / UPDATE of s *)
    apply in_one in Hn. destruct Hn as [P E]. inversion E; subst e1 e2. rewrite P in Hm.
    apply andb_true_iff in P. destruct P as [P _]. apply pending_role in P.
    destruct H1 as [<-|[]], H2 as [<-|[]]. apply orb_true_iff in Hm. destruct Hm as [Hc|Hc].
    + destruct (cov_spec g 0 c false t s Hc) as [d At].
      apply (path d 0 false false false t s PSaves AfterSave CSaves); [apply At|..]; side.
    + destruct (cov_spec g 1 c false s t Hc) as [d At].
      apply (path d 1 false false false s t CSaves AfterSave PSaves); [apply At|..]; side.
Qed.

(* a reference (s, c, t) held before the flush to a row t that is deleted: the statement that
   removes the reference before the DELETE of t *)
Lemma ref0_covered s c t e1 e2 h1 h2 : In (e1, e2) (needs_ref0 g (s, c, t)) -> mg_ref0 g cy (s, c, t) = true ->
  In h1 (homes g cy e1) -> In h2 (homes g cy e2) -> fpath h1 h2.
Proof.
  unfold needs_ref0, mg_ref0. cbn [fst snd]. intros Hn Hm H1 H2.
  destruct (N.eqb (role_of g t) 2 && _) eqn:Rt; [|contradiction]. apply andb_true_iff in Rt. destruct Rt as [Rt _]. apply N.eqb_eq in Rt.
  destruct (postcol g c); [|destruct (N.eqb (role_of g s) 2) eqn:Rs]; destruct Hn as [E|[]]; inversion E; subst e1 e2;
    destruct H1 as [<-|[]], H2 as [<-|[]]; apply fp1.
  - (* the pre-update of s by _post_update *)
    apply andb_true_iff in Hm. destruct Hm as [Rs Hm]. apply N.eqb_eq in Rs. unfold home_post. rewrite Rs.
    apply orb_true_iff in Hm. destruct Hm as [Hc|Hc].
    + destruct (cov_spec g 0 c true t s Hc) as [d At]. apply (step d 0 true true true t s CPre PDels); [apply At|..]; side.
    + destruct (cov_spec g 1 c true s t Hc) as [d At]. apply (step d 1 true true true s t PPre CDels); [apply At|..]; side.
  - (* the DELETE of s *)
    apply N.eqb_eq in Rs. apply orb_true_iff in Hm. destruct Hm as [Hc|Hc].
    + destruct (cov_spec g 0 c false t s Hc) as [d At]. apply (step d 0 false true true t s CDels PDels); [apply At|..]; side.
    + destruct (cov_spec g 1 c false s t Hc) as [d At]. apply (step d 1 false true true s t PDels CDels); [apply At|..]; side.
  - (* the UPDATE of s, which survives *)
    apply andb_true_iff in Hm. destruct Hm as [R1 Hm]. apply N.eqb_eq in R1. apply orb_true_iff in Hm. destruct Hm as [Hc|Hc].
    + destruct (cov_spec g 0 c false t s Hc) as [d At]. apply (step d 0 false true false t s CSaves PDels); [apply At|..]; side.
    + destruct (cov_spec g 1 c false s t Hc) as [d At]. apply (step d 1 false false true s t PSaves CDels); [apply At|..]; side.
Qed.

(* the pre-update of a post_update column of s before the DELETE of s: no other row is involved,
   the per-property tuple between the two per-mapper records survives the break-up *)
Lemma postdel_covered s e1 e2 h1 h2 : In (e1, e2) (needs_postdel g s) -> mg_postdel g s = true ->
  In h1 (homes g cy e1) -> In h2 (homes g cy e2) -> fpath h1 h2.
Proof.
  unfold needs_postdel, mg_postdel. intros Hn Hm H1 H2. apply in_one in Hn. destruct Hn as [Rs E]. inversion E; subst e1 e2.
  rewrite Rs in Hm. apply andb_true_iff in Rs. destruct Rs as [Rs _]. apply N.eqb_eq in Rs.
  destruct H1 as [<-|[]], H2 as [<-|[]]. unfold home_post. rewrite Rs.
  apply existsb_exists in Hm. destruct Hm as [d [Hd Hm]]. rewrite !andb_true_iff in Hm. destruct Hm as [[Ha Hp] Hk].
  assert (X : exists r1 r2, In (r1, r2) (prop_edges T (d_kind d) (d_post d)) /\
                role_act d r1 = PostAll (map_of g s) true /\ role_act d r2 = DelAll (map_of g s)).
  { apply orb_true_iff in Hk. rewrite !andb_true_iff, !N.eqb_eq in Hk. destruct Hk as [[Hk <-]|[Hk <-]]; rewrite Hk, Hp;
      [exists CPre, CDels|exists PPre, PDels]; simpl; auto 10. }
  destruct X as [r1 [r2 [Ht [E1 E2]]]]. apply fp1, (prop_step g cy Hshape d r1 r2); try assumption; rewrite ?E1, ?E2.
  - apply not_disabled; intros; discriminate.
  - apply not_disabled; intros; discriminate.
  - apply rep_self, shape_out; auto.
  - apply rep_del, Rs.
  - rewrite (shape_out cy (PostAll _ _)); auto.
Qed.

Lemma m2m_prop p : prop_edges T 2 p = prop_edges T 2 false.
Proof. destruct p; reflexivity. Qed.
Lemma m2m_state p i c : state_edges T 2 p i c = state_edges T 2 false i c.
Proof. destruct p, i, c; reflexivity. Qed.

(* a secondary row x that is inserted: the INSERT of either end y before it *)
Lemma secins_covered x e1 e2 h1 h2 : In (e1, e2) (needs_secins g x) ->
  In h1 (homes g cy e1) -> In h2 (homes g cy e2) -> fpath h1 h2.
Proof.
  unfold needs_secins. intros Hn H1 H2.
  assert (Hy : exists y, (y = snd (fst x) \/ y = snd x) /\ pending g y = true /\ e1 = ESave y /\ e2 = ESecIns x).
  { apply in_app_or in Hn. destruct Hn as [Hn|Hn]; apply in_one in Hn; destruct Hn as [P E]; inversion E;
      [exists (snd (fst x))|exists (snd x)]; auto. }
  destruct Hy as [y [Hy [Py [-> ->]]]]. apply pending_role in Py. destruct H1 as [<-|[]].
  destruct (sec_homes_spec g cy true x h2 H2) as [d [o [rel [Hx [At [[Ro ->]|[_ [E _]]]]]]]]; [|discriminate]. apply fp1.
  assert (Hy' : y = o \/ y = rel) by (destruct Hx as [[<- <-]|[<- <-]]; tauto). destruct Hy' as [->| ->].
  - destruct (N.eq_dec (role_of g rel) 2).
    + apply (step d 2 (d_post d) false true o rel PSaves AfterSave); [apply At|..]; rewrite ?m2m_prop, ?m2m_state; side.
    + apply (step d 2 (d_post d) false false o rel PSaves AfterSave); [apply At|..]; rewrite ?m2m_prop, ?m2m_state; side.
  - apply (step d 2 (d_post d) false false o rel CSaves AfterSave); [apply At|..]; rewrite ?m2m_prop, ?m2m_state; side.
Qed.

(* a secondary row x that is deleted, before the DELETE of either end y *)
Lemma secdel_covered x e1 e2 h1 h2 : In (e1, e2) (needs_secdel g x) ->
  In h1 (homes g cy e1) -> In h2 (homes g cy e2) -> fpath h1 h2.
Proof.
  unfold needs_secdel. intros Hn H1 H2.
  assert (Hy : exists y, (y = snd (fst x) \/ y = snd x) /\ role_of g y = 2 /\ e1 = ESecDel x /\ e2 = EDel y).
  { apply in_app_or in Hn. destruct Hn as [Hn|Hn]; apply in_one in Hn; destruct Hn as [P E]; inversion E; apply N.eqb_eq in P;
      [exists (snd (fst x))|exists (snd x)]; auto. }
  destruct Hy as [y [Hy [Ry [-> ->]]]]. destruct H2 as [<-|[]].
  destruct (sec_homes_spec g cy false x h1 H1) as [d [o [rel [Hx [At Hh]]]]]. apply fp1.
  assert (Hy' : y = o \/ y = rel) by (destruct Hx as [[<- <-]|[<- <-]]; tauto).
  destruct Hh as [[Ro ->]|[Ro [_ ->]]], Hy' as [->| ->].
  - congruence.
  - (* removed by process_saves of the surviving owner *)
    apply (step d 2 (d_post d) false true o rel AfterSave CDels); [apply At|..]; rewrite ?m2m_prop, ?m2m_state; side.
  - destruct (N.eq_dec (role_of g rel) 2).
    + apply (step d 2 (d_post d) true true o rel BeforeDel PDels); [apply At|..]; rewrite ?m2m_prop, ?m2m_state; side.
    + apply (step d 2 (d_post d) true false o rel BeforeDel PDels); [apply At|..]; rewrite ?m2m_prop, ?m2m_state; side.
  - apply (step d 2 (d_post d) true true o rel BeforeDel CDels); [apply At|..]; rewrite ?m2m_prop, ?m2m_state; side.
Qed.
End Needs.
