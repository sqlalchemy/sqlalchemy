(* C40 - facts about statement sources: which table their rows come from, how they are tagged, and what
   their tag groups are (the spec side of lazy / selectin / subquery loads). *)
From Coq Require Import List ZArith Bool.
Import ListNotations.
From SAV.orm Require Import Loaders LoadersBase LoadersJoin LoadersStmt.
Open Scope Z_scope.

Definition otag_eqb (a b : option Z) : bool :=
  match a, b with Some x, Some y => x =? y | None, None => true | _, _ => false end.
Lemma otag_eqb_eq : forall a b, otag_eqb a b = true <-> a = b.
Proof.
  intros [x|] [y|]; cbn; split; intro H; try discriminate; auto.
  - apply Z.eqb_eq in H. congruence.
  - inversion H. apply Z.eqb_refl.
Qed.
Lemma otag_eqb_refl : forall a, otag_eqb a a = true.
Proof. intro. apply otag_eqb_eq. auto. Qed.

(* results are observed tag group by tag group: the order in which a statement without ORDER BY
   interleaves its groups is not determined *)
Definition sel {B} (t : option Z) (l : list (option Z * B)) : list B :=
  map snd (filter (fun x => otag_eqb (fst x) t) l).

Lemma with_tag_sel : forall {B} k (r : list (option Z * B)), with_tag k r = sel (Some k) r.
Proof.
  intros. unfold with_tag, sel. apply f_equal. apply filter_ext. intros [t b]. destruct t; reflexivity.
Qed.

Lemma sel_untagged : forall {B} (r : list (option Z * B)) t, (forall x, In x r -> fst x = None) ->
  sel t r = match t with None => map snd r | Some _ => [] end.
Proof.
  intros B r t H. unfold sel. induction r as [|x r IH]; cbn [filter map]; [destruct t; auto|].
  rewrite (H x) by (cbn; auto). destruct t; cbn [otag_eqb map]; rewrite IH by (intros; apply H; cbn; auto); auto.
Qed.

(* the primary entities a list of tagged rows yields in one tag group, in order of first appearance *)
Definition tgroup (t : option Z) (L : list tagged) : list row := sel t (uniq_by tagged_id L).

Lemma tgroup_in : forall t L c, tag_inj L -> (In c (tgroup t L) <-> In (t, c) L).
Proof.
  intros t L c TI. unfold tgroup, sel. rewrite in_map_iff. split.
  - intros [[t' c'] [<- H]]. apply filter_In in H as [H Et]. apply otag_eqb_eq in Et. cbn in *. subst.
    eapply uniq_by_in; eauto.
  - intro H. exists (t, c). split; auto. apply filter_In. split; [|apply otag_eqb_refl].
    apply uniq_by_in_iff; auto. intros a b. apply tagged_id_inj; auto.
Qed.
Lemma tgroup_sorted : forall o t L, sorted (hkey o) L -> sorted (rkey o) (tgroup t L).
Proof. intros. eapply sorted_map; [apply sorted_filter, uniq_by_sorted; eauto|]. auto. Qed.
Lemma tgroup_NoDup : forall t L, NoDup (tgroup t L).
Proof.
  intros. unfold tgroup, sel. apply (NoDup_map_finer tagged_id); [|apply NoDup_map_filter, uniq_by_nodup].
  intros [ta a] [tb b] Ha Hb E. apply filter_In in Ha as [_ Ha], Hb as [_ Hb]. apply otag_eqb_eq in Ha, Hb.
  cbn in *. congruence.
Qed.

Definition src_table (src : source) : list row :=
  match src with
  | SrcUser _ t0 _ => t0
  | SrcLazy s _ | SrcIn s _ => st_table s
  | SrcSubq _ f r => st_table (last_step f r)
  end.
Definition src_tagfn (src : source) (r : row) : option Z :=
  match src with
  | SrcUser _ _ _ | SrcLazy _ _ => None
  | SrcIn s _ => child_key (st_kind s) r
  | SrcSubq _ f r' => child_key (st_kind (last_step f r')) r
  end.
(* [wf_table] / [wf_step] for the table and the step a source selects from *)
Definition src_step_ok (src : source) : Prop :=
  match src with
  | SrcUser u t0 f => wf_table t0 /\ u_order u <> ONone /\ (forall s, f = Some s -> wf_step s)
  | SrcLazy s _ | SrcIn s _ => wf_step s
  | SrcSubq _ f r => wf_step (last_step f r)
  end.

(* the rows a subquery load's inner joins lead to from a list of rows (the local [reach] of [src_base]) *)
Definition ireach (l : list row) (steps : list step) : list row :=
  fold_left (fun ls s => flat_map (fun l => filter (linked s l) (st_table s)) ls) steps l.

Definition subq_rows0 (orig : source) (first : step) : list row :=
  match orig with
  | SrcUser u t0 f => run_user (if negb (is_down first) then set_distinct u else u) t0 f
  | _ => map snd (src_base orig)
  end.
Definition subq_keys (orig : source) (first : step) : list Z :=
  let ks := somes (map (parent_key (st_kind first)) (subq_rows0 orig first)) in
  if negb (is_down first) && negb (match orig with SrcUser u _ _ => u_rowlimit u | _ => false end)
  then dedupeZ ks else ks.
Definition subq_rows1 (orig : source) (first : step) : list row :=
  flat_map (fun k => filter (match_key first k) (st_table first)) (subq_keys orig first).

Lemma src_base_subq : forall orig first rest,
  src_base (SrcSubq orig first rest) =
  map (fun r => (child_key (st_kind (last_step first rest)) r, r)) (ireach (subq_rows1 orig first) rest).
Proof. intros. destruct orig; reflexivity. Qed.

Lemma ireach_app : forall l a b, ireach l (a ++ b) = ireach (ireach l a) b.
Proof. intros. unfold ireach. apply fold_left_app. Qed.

Lemma ireach_cons : forall l s rest, ireach l (s :: rest) = ireach (flat_map (fun l0 => filter (linked s l0) (st_table s)) l) rest.
Proof. reflexivity. Qed.

Lemma ireach_table : forall rest first l, (forall x, In x l -> In x (st_table first)) ->
  forall x, In x (ireach l rest) -> In x (st_table (last_step first rest)).
Proof.
  unfold last_step. induction rest as [|s rest IH]; intros first l Hl x Hx.
  - cbn in *. auto.
  - rewrite ireach_cons in Hx. rewrite last_cons_default. eapply IH; [|exact Hx].
    intros y Hy. apply in_flat_map in Hy as [z [_ Hy]]. apply filter_In in Hy. apply Hy.
Qed.

Lemma subq_rows1_table : forall orig first x, In x (subq_rows1 orig first) -> In x (st_table first).
Proof. intros orig first x H. unfold subq_rows1 in H. apply in_flat_map in H as [k [_ H]]. apply filter_In in H. apply H. Qed.

Lemma u_base_table : forall u t0 f r, In r (u_base u t0 f) -> In r t0.
Proof.
  intros u t0 f r H. unfold u_base in H. destruct (u_pred u) as [|k|k|k]; auto.
  - apply filter_In in H. apply H.
  - destruct f as [s|]; auto. apply in_flat_map in H as [p [Hp H]]. apply in_map_iff in H as [c [<- _]]. auto.
  - destruct f as [s|]; auto. apply filter_In in H. apply H.
Qed.

Lemma src_base_spec : forall src h, In h (src_base src) -> In (snd h) (src_table src) /\ fst h = src_tagfn src (snd h).
Proof.
  intros [u t0 f|s k|s ks|orig first rest] h H; [| | |rewrite src_base_subq in H]; cbn [src_base] in H;
    apply in_map_iff in H as [r [<- Hr]]; (split; [cbn|reflexivity]).
  - eapply u_base_table; eauto.
  - apply filter_In in Hr. apply Hr.
  - apply filter_In in Hr. apply Hr.
  - eapply ireach_table; [|exact Hr]. apply subq_rows1_table.
Qed.

Lemma stmt_heads_base : forall src h, In h (stmt_heads src) -> In h (src_base src).
Proof.
  intros src h H. unfold stmt_heads in H. apply slice_in in H. apply sort_by_in in H.
  destruct (src_distinct src || src_group src); auto. apply uniq_by_in in H. auto.
Qed.

Lemma src_table_wf : forall src, src_step_ok src -> wf_table (src_table src).
Proof. intros [u t0 f|s k|s ks|orig first rest] H; cbn in *; try tauto; destruct H; auto. Qed.

Lemma src_base_tag_inj : forall src, src_step_ok src -> tag_inj (src_base src).
Proof.
  intros src OK a b Ha Hb E. apply src_base_spec in Ha as [Ha Ta]. apply src_base_spec in Hb as [Hb Tb].
  assert (snd a = snd b) by (eapply table_id_inj; eauto using src_table_wf).
  destruct a as [ta ra], b as [tb rb]. cbn in *. subst. auto.
Qed.
Lemma stmt_heads_tag_inj : forall src, src_step_ok src -> tag_inj (stmt_heads src).
Proof. intros src OK a b Ha Hb E. eapply src_base_tag_inj; eauto using stmt_heads_base. Qed.

Lemma stmt_heads_sorted : forall src, sorted (hkey (src_order src)) (stmt_heads src).
Proof. intro. unfold stmt_heads. apply sorted_slice. apply sort_by_sorted. Qed.

(* within one tag group the primary order tells the rows apart: it is total, or the group is the one
   target row of a many-to-one relationship *)
Lemma src_key_inj : forall src t a b, src_step_ok src -> In (t, a) (src_base src) -> In (t, b) (src_base src) ->
  rkey (src_order src) a = rkey (src_order src) b -> a = b.
Proof.
  intros src t a b OK Ha Hb E.
  enough (R : rid a = rid b) by (apply (src_base_tag_inj src OK _ _ Ha Hb) in R; congruence).
  assert (G : forall s, wf_step s -> st_order s <> ONone \/ st_kind s = Up).
  { intros s [_ W]. destruct (st_kind s); auto. }
  destruct src as [u t0 f|s k|s ks|orig first rest]; cbn [src_order src_step_ok] in *.
  (* selectin, subquery: under a many-to-one step the tag is the row's own id *)
  3-4: destruct (G _ OK) as [?|KU]; [eapply rkey_inj; eauto|];
    apply src_base_spec in Ha as [_ Ta], Hb as [_ Tb]; cbn in Ta, Tb; rewrite KU in *; cbn in *; congruence.
  - eapply rkey_inj; eauto. apply OK.
  - destruct (G s OK) as [?|KU]; [eapply rkey_inj; eauto|].
    cbn [src_base] in Ha, Hb. apply in_map_iff in Ha as [ra [[= <-] Ha]], Hb as [rb [[= <-] Hb]].
    apply filter_In in Ha as [_ Ha], Hb as [_ Hb]. unfold match_key in *. rewrite KU in *. cbn in *.
    apply Z.eqb_eq in Ha, Hb. congruence.
Qed.

Definition group (src : source) (t : option Z) : list row := tgroup t (stmt_heads src).

(* a statement's result is right: every tag group of it is the objects of the group's primary rows *)
Definition yields (path : list step) (src : source) (r : list (option Z * graph)) : Prop :=
  forall t, sel t r = map (graph_of path) (group src t).

(* the group is the one sorted duplicate-free listing of the primary rows with that tag *)
Lemma group_unique : forall src t l, src_step_ok src -> sorted (rkey (src_order src)) l -> NoDup l ->
  (forall c, In c l <-> In (t, c) (stmt_heads src)) -> group src t = l.
Proof.
  intros src t l OK S N E. pose proof (stmt_heads_tag_inj src OK) as TI.
  unfold group. apply (sorted_unique (rkey (src_order src))); auto using tgroup_sorted, stmt_heads_sorted, tgroup_NoDup.
  - intro c. rewrite tgroup_in, E; tauto.
  - intros a b Ha Hb. apply tgroup_in in Ha, Hb; auto.
    apply (src_key_inj src t); auto using stmt_heads_base.
Qed.

Lemma untagged_result : forall src path (r : list (option Z * graph)),
  (forall c, src_tagfn src c = None) -> yields path src r -> map snd r = map (graph_of path) (group src None).
Proof.
  intros src path r U Y. rewrite <- Y. symmetry.
  apply (sel_untagged r None). intros [[k|] g] Hx; auto. exfalso.
  assert (Hs : In g (sel (Some k) r)).
  { unfold sel. apply in_map_iff. exists (Some k, g). rewrite filter_In. cbn. rewrite Z.eqb_refl. auto. }
  rewrite Y in Hs. apply in_map_iff in Hs as [c [_ Hc]]. apply in_map_iff in Hc as [h [_ Hh]].
  apply filter_In in Hh as [Hh Et]. apply otag_eqb_eq in Et.
  apply uniq_by_in, stmt_heads_base, src_base_spec in Hh as [_ E]. rewrite U in E. congruence.
Qed.

(* the statements a lazy, selectin or subquery load of step [s] issues: their primary entity is the
   target of [s]; no DISTINCT, no LIMIT *)
Definition derived (s : step) (src : source) : Prop :=
  wf_step s /\
  match src with
  | SrcUser _ _ _ => False
  | SrcLazy s' _ | SrcIn s' _ => s' = s
  | SrcSubq _ f r => last_step f r = s
  end.

Lemma derived_ok : forall s src, derived s src -> src_step_ok src /\ src_table src = st_table s.
Proof. intros s [u t0 f|s' k|s' ks|orig f r] [WS D]; try contradiction; cbn; rewrite D; auto. Qed.

(* their tag group for parent key [k] is what the relationship relates to [k], if the statement's FROM/WHERE
   has exactly the rows matching [k] under that tag *)
Lemma derived_group : forall s src t k, derived s src ->
  (forall c, In (t, c) (src_base src) <-> In c (st_table s) /\ match_key s k c = true) ->
  group src t = related_k s k.
Proof.
  intros s src t k D E. destruct (derived_ok s src D) as [OK _]. destruct D as [[WT WK] D].
  assert (O : src_order src = st_order s /\ forall h, In h (stmt_heads src) <-> In h (src_base src)).
  { destruct src; try contradiction; cbn in D; subst; (split; [reflexivity|]);
      intro h; unfold stmt_heads; cbn; apply sort_by_in. }
  destruct O as [O Hh]. apply group_unique; auto.
  - rewrite O. apply sort_by_sorted.
  - apply sort_by_NoDup, NoDup_filter, wf_table_nodup, WT.
  - intro c. unfold related_k. rewrite sort_by_in, filter_In, Hh, E. tauto.
Qed.
