(* C47 - proofs: flush is idempotent; autoflush = explicit flush for every entry point (guarded); refuted
   witnesses for lazy loads on pending objects; disabled autoflush writes nothing.  [exec_preserves] is the one
   case analysis of [exec] on which that last result and the well-formedness of AutoflushWf.v both rest. *)
From Coq Require Import List ZArith NArith Bool Arith.
Import ListNotations.
From SAV.orm Require Import Autoflush.

Lemma clean_idem : forall o, clean (clean o) = clean o.
Proof. intros []; reflexivity. Qed.
Lemma not_del_clean : forall o, not_del (clean o) = true.
Proof. intros []; reflexivity. Qed.
Lemma filter_not_del_clean : forall l, filter not_del (map clean l) = map clean l.
Proof. induction l as [|o l IH]; [reflexivity|]. cbn [map filter]. rewrite not_del_clean, IH. reflexivity. Qed.
Lemma flush_row_clean : forall d o, flush_row d (clean o) = d.
Proof. intros d []; reflexivity. Qed.
Lemma fold_clean : forall l d, fold_left flush_row (map clean l) d = d.
Proof. induction l as [|o l IH]; intros d; [reflexivity|]. cbn [map fold_left]. rewrite flush_row_clean. apply IH. Qed.
Lemma fold_ps_clean : forall (l : list (N * bool)) d,
  fold_left (fun d (p : N * bool) => if snd p then ins_N (fst p) d else d) (map (fun p : N * bool => (fst p, false)) l) d = d.
Proof. induction l as [|p l IH]; intros d; simpl; auto. Qed.

Lemma flush_idem : forall s, flush (flush s) = flush s.
Proof.
  intros s. unfold flush at 1. cbn [dbc dbp cs ps nc np saf flushing flush].
  rewrite fold_clean, fold_ps_clean, filter_not_del_clean.
  rewrite map_map. rewrite (map_ext _ clean (fun o => clean_idem o)).
  rewrite map_map. cbn [fst]. reflexivity.
Qed.

Lemma enabled_flush : forall k m s, enabled k m (flush s) = enabled k m s.
Proof. intros k [] s; reflexivity. Qed.
Lemma aft_flush : forall k m s, enabled k m s = true ->
  autoflush_then k m s = flush s /\ autoflush_then k m (flush s) = flush s.
Proof.
  intros k m s E. unfold autoflush_then. rewrite enabled_flush, E. split; auto. apply flush_idem.
Qed.

Lemma find_c_In : forall k l o, find_c k l = Some o -> In o l /\ c_id o = k.
Proof.
  unfold find_c. intros k l o H. apply find_some in H. destruct H as [H1 H2]. apply N.eqb_eq in H2. auto.
Qed.
Lemma find_ident_In : forall k l o, find_ident k l = Some o -> In o l /\ c_id o = k /\ has_identity o = true.
Proof.
  unfold find_ident. intros k l o H. apply find_some in H. destruct H as [H1 H2].
  apply andb_prop in H2. destruct H2 as [H2 H3]. apply N.eqb_eq in H2. auto.
Qed.

Lemma find_c_flush_cases : forall k l,
  match find_c k l with
  | Some o => not_del o = true -> find_c k (map clean (filter not_del l)) = Some (clean o)
  | None => find_c k (map clean (filter not_del l)) = None
  end.
Proof.
  unfold find_c. induction l as [|x l IH]; [reflexivity|]. cbn [find filter].
  destruct (N.eqb (c_id x) k) eqn:E.
  - intros N. rewrite N. cbn [map find clean c_id]. rewrite E. reflexivity.
  - destruct (not_del x); [|exact IH]. cbn [map find clean c_id]. rewrite E. exact IH.
Qed.
Lemma find_c_flush : forall k l o, find_c k l = Some o -> not_del o = true ->
  find_c k (map clean (filter not_del l)) = Some (clean o).
Proof. intros k l o F. pose proof (find_c_flush_cases k l) as H. rewrite F in H. exact H. Qed.
Lemma find_c_flush_none : forall k l, find_c k l = None -> find_c k (map clean (filter not_del l)) = None.
Proof. intros k l F. pose proof (find_c_flush_cases k l) as H. rewrite F in H. exact H. Qed.

Lemma find_ident_flush : forall k l o, NoDup (map c_id l) -> find_ident k l = Some o -> not_del o = true ->
  find_ident k (map clean (filter not_del l)) = Some (clean o).
Proof.
  unfold find_ident. induction l as [|x l IH]; intros o ND H N; simpl in *; [discriminate|].
  inversion ND as [|? ? Hx ND']. subst.
  destruct (N.eqb (c_id x) k && has_identity x) eqn:E.
  - inversion H. subst x. rewrite N. simpl. destruct o; simpl in *.
    apply andb_prop in E. destruct E as [E1 E2]. rewrite E1. reflexivity.
  - destruct (N.eqb (c_id x) k) eqn:Ei.
    + (* same id, but pending: the object found later would share the id *)
      exfalso. apply N.eqb_eq in Ei. apply find_some in H. destruct H as [H1 H2].
      apply andb_prop in H2. destruct H2 as [H2 _]. apply N.eqb_eq in H2.
      apply Hx. rewrite Ei, <- H2. apply in_map. exact H1.
    + destruct (not_del x); [|apply IH; auto]. simpl. destruct x; simpl in *. rewrite Ei. simpl. apply IH; auto.
Qed.

Lemma find_p_flush : forall k s,
  find_p k (ps (flush s)) = match find_p k (ps s) with Some (i, _) => Some (i, false) | None => None end.
Proof.
  intros k s. cbn [ps flush]. unfold find_p. induction (ps s) as [|[i b] l IH]; [reflexivity|]. cbn [map find fst].
  destruct (N.eqb i k); [reflexivity|exact IH].
Qed.

Lemma ent_clean : forall o, ent (clean o) = ent o.
Proof. intros []; reflexivity. Qed.
Lemma set_cs_self : forall s, set_cs (cs s) s = s.
Proof. intros []; reflexivity. Qed.

(* no persistent object with id k has unflushed changes of its own *)
Definition clean_at (k : N) (l : list cobj) : bool :=
  forallb (fun o => negb (N.eqb (c_id o) k && status_eqb (c_st o) Pers && c_dirty o)) l.

(* where autoflush = explicit flush is claimed: get does not hit an object marked deleted in the identity map; lazy load
   and refresh are issued on a persistent object, the collection load on a parent that is not pending (the two
   [_refuted] witnesses below leave exactly these); refresh on an object without changes of its own *)
Definition guardq (k : qkind) (a : Z) (s : st) : bool :=
  let an := Z.to_N a in
  match k with
  | Get => match find_ident an (cs s) with Some o => not_del o | None => true end
  | LazyP => match find_c an (cs s) with Some o => status_eqb (c_st o) Pers | None => false end
  | Children => match find_p an (ps s) with Some (_, false) => true | _ => false end
  | Refresh => match find_c an (cs s) with Some o => status_eqb (c_st o) Pers | None => false end && clean_at an (cs s)
  | _ => true
  end.

(* what refresh does to the object before the autoflush: its own pending changes are forgotten *)
Definition undirty (o : cobj) : cobj := mkC (c_id o) (c_st o) (c_val o) (c_pid o) false.
Lemma flush_row_undirty : forall k d o, negb (N.eqb (c_id o) k && status_eqb (c_st o) Pers && c_dirty o) = true ->
  flush_row d (if N.eqb (c_id o) k then undirty o else o) = flush_row d o.
Proof.
  intros k d [i st v p dd] H. simpl in *. destruct (N.eqb i k); auto.
  destruct st; simpl in *; auto. destruct dd; simpl in *; [discriminate|reflexivity].
Qed.
Lemma fold_undirty : forall k l d, clean_at k l = true ->
  fold_left flush_row (upd_c k undirty l) d = fold_left flush_row l d.
Proof.
  unfold clean_at, upd_c. induction l as [|o l IH]; intros d H; simpl in *; auto.
  apply andb_prop in H. destruct H as [H1 H2]. rewrite (flush_row_undirty k d o H1). apply IH. exact H2.
Qed.
Lemma clean_filter_undirty : forall k l,
  map clean (filter not_del (upd_c k undirty l)) = map clean (filter not_del l).
Proof.
  unfold upd_c. induction l as [|o l IH]; [reflexivity|]. cbn [map filter].
  assert (N1 : not_del (if N.eqb (c_id o) k then undirty o else o) = not_del o) by (destruct (N.eqb (c_id o) k); destruct o; reflexivity).
  assert (C1 : clean (if N.eqb (c_id o) k then undirty o else o) = clean o) by (destruct (N.eqb (c_id o) k); destruct o; reflexivity).
  rewrite N1. destruct (not_del o); cbn [map]; rewrite ?C1, IH; reflexivity.
Qed.
Lemma flush_undirty : forall k s, clean_at k (cs s) = true -> flush (set_cs (upd_c k undirty (cs s)) s) = flush s.
Proof.
  intros k s H. unfold flush. cbn [dbc dbp cs ps nc np saf flushing set_cs].
  rewrite (fold_undirty k (cs s) (dbc s) H), clean_filter_undirty. reflexivity.
Qed.
Lemma upd_undirty_clean : forall k l, upd_c k undirty (map clean l) = map clean l.
Proof.
  unfold upd_c. intros k l. rewrite map_map. apply map_ext. intros [i st v p d]. simpl.
  destruct (N.eqb i k); reflexivity.
Qed.

(* the entry points that execute one statement: autoflush, then a query evaluated on the resulting state alone *)
Definition one_statement (k : qkind) : bool :=
  match k with Get | LazyP | Children | GetP | Refresh => false | _ => true end.
Lemma exec_one_statement : forall k m a s, one_statement k = true -> exec k m a s = exec k MNoAutoflushBlock a (autoflush_then k m s).
Proof. intros k m a s H. destruct k; try discriminate H; reflexivity. Qed.

(* GetP and LazyP: the parent comes from the identity map, or is loaded after the autoflush *)
Lemma parent_lookup_flush : forall k m p s, enabled k m s = true ->
  snd (match find_p p (ps s) with Some (_, false) => (s, [[zN p]]) | _ => load_parent p (autoflush_then k m s) end) =
  snd (match find_p p (ps (flush s)) with
       | Some (_, false) => (flush s, [[zN p]]) | _ => load_parent p (autoflush_then k m (flush s)) end).
Proof.
  intros k m p s E. destruct (aft_flush k m s E) as [-> ->]. rewrite find_p_flush.
  destruct (find_p p (ps s)) as [[i [|]]|] eqn:F; [|reflexivity|reflexivity].
  unfold load_parent. rewrite find_p_flush, F. reflexivity.
Qed.

Lemma enabled_set_cs : forall k m l s, enabled k m (set_cs l s) = enabled k m s.
Proof. reflexivity. Qed.

Theorem autoflush_equiv_explicit_flush : forall k m a s,
  NoDup (map c_id (cs s)) -> enabled k m s = true -> guardq k a s = true ->
  snd (exec k m a s) = snd (exec k m a (flush s)).
Proof.
  intros k m a s ND E G. destruct (aft_flush k m s E) as [A1 A2].
  destruct (one_statement k) eqn:St; [rewrite (exec_one_statement k m a s St), (exec_one_statement k m a (flush s) St), A1, A2; reflexivity|].
  destruct k; try discriminate St; unfold exec, guardq in *; cbv zeta in *.
  - (* Get *) destruct (find_ident (Z.to_N a) (cs s)) as [o|] eqn:F.
    + rewrite (find_ident_flush _ _ o ND F G : find_ident _ (cs (flush s)) = _). cbn [snd]. rewrite ent_clean. reflexivity.
    + rewrite A1, A2. destruct (find_ident (Z.to_N a) (cs (flush s))); reflexivity.
  - (* LazyP *) destruct (find_c (Z.to_N a) (cs s)) as [o|] eqn:F; [|discriminate G].
    assert (Nd : not_del o = true) by (unfold not_del; destruct (c_st o); [reflexivity|reflexivity|discriminate G]).
    rewrite (find_c_flush _ _ o F Nd : find_c _ (cs (flush s)) = _).
    destruct o as [i st v p d]. destruct st; try discriminate G. cbn [c_st clean c_pid].
    destruct (N.eqb p 0); [reflexivity|]. apply parent_lookup_flush, E.
  - (* Children *) rewrite find_p_flush. destruct (find_p (Z.to_N a) (ps s)) as [[i [|]]|]; try discriminate G.
    rewrite A1, A2. reflexivity.
  - (* GetP *) apply parent_lookup_flush, E.
  - (* Refresh: expiring an object without changes of its own does not change what the flush writes *)
    apply andb_prop in G. destruct G as [_ G].
    change (fun o : cobj => mkC (c_id o) (c_st o) (c_val o) (c_pid o) false) with undirty.
    assert (X : set_cs (upd_c (Z.to_N a) undirty (cs (flush s))) (flush s) = flush s)
      by (cbn [cs flush]; rewrite upd_undirty_clean; apply (set_cs_self (flush s))).
    rewrite X, A2. unfold autoflush_then. rewrite enabled_set_cs, E, (flush_undirty _ s G). reflexivity.
Qed.

(* documented: no load is emitted for a pending object.  Parent 1 exists; a pending child with pid = 1: its lazy load
   returns nothing, after a flush it returns the parent.  A pending parent: its collection load returns nothing, after
   a flush the re-parented child. *)
Definition wit_lazy : st := mkSt [] [1%N] [mkC 1 Pend 10 1 false] [] 2 2 true false.
Definition wit_coll : st := mkSt [(1%N, (10%Z, 0%N))] [] [mkC 1 Pers 10 2 true] [(2%N, true)] 2 3 true false.

Lemma lazy_load_on_pending_refuted :
  enabled LazyP MDefault wit_lazy = true /\ NoDup (map c_id (cs wit_lazy)) /\
  snd (exec LazyP MDefault 1 wit_lazy) = [] /\ snd (exec LazyP MDefault 1 (flush wit_lazy)) = [[1%Z]].
Proof. vm_compute. repeat split; auto. repeat constructor; simpl; tauto. Qed.
Lemma collection_load_on_pending_refuted :
  enabled Children MDefault wit_coll = true /\ NoDup (map c_id (cs wit_coll)) /\
  snd (exec Children MDefault 2 wit_coll) = [] /\ snd (exec Children MDefault 2 (flush wit_coll)) = [[1%Z]].
Proof. vm_compute. repeat split; auto. repeat constructor; simpl; tauto. Qed.

(* loading rows only adds objects, loading a parent only adds a parent *)
Lemma set_ps_self : forall s, set_ps (ps s) s = s.
Proof. intros []; reflexivity. Qed.
Lemma load_rows_cs : forall rs s, exists l, fst (load_rows rs s) = set_cs l s.
Proof.
  intros rs s. unfold load_rows. change s with (fst (s, @nil cobj)) at 2. generalize (s, @nil cobj).
  induction rs as [|row rs IH]; intros acc; cbn [fold_left]; [exists (cs (fst acc)); symmetry; apply set_cs_self|].
  destruct (IH (resolve acc row)) as [l ->]. destruct acc as [s0 out]. unfold resolve.
  destruct (find_ident (fst row) (cs s0)); exists l; reflexivity.
Qed.
Lemma load_parent_ps : forall k s, exists l, fst (load_parent k s) = set_ps l s.
Proof.
  intros k s. unfold load_parent.
  destruct (find_p k (ps s)) as [[i [|]]|]; destruct (memN k (dbp s)); cbn [fst]; eexists; reflexivity || (symmetry; apply set_ps_self).
Qed.

Lemma row_get_In : forall i r (d : rows), row_get i d = Some r -> In (i, r) d.
Proof.
  intros i r d. induction d as [|[j x] d IH]; intros H; [discriminate|]. cbn [row_get] in H.
  destruct (N.eqb_spec j i) as [->|_]; [inversion H; left; reflexivity|right; auto].
Qed.

Lemma fst_let : forall (p : st * list cobj) (g : list cobj -> res), fst (let (s2, os) := p in (s2, g os)) = fst p.
Proof. intros [s2 os] g. reflexivity. Qed.

(* Every entry point builds its final state from four moves: the autoflush, loading rows of table c, loading a parent,
   and (refresh) overwriting fields other than id and status of one object.  What all four preserve, [exec] preserves. *)
Lemma exec_preserves : forall (P : st -> Prop) k m a s,
  (forall s', P s' -> P (autoflush_then k m s')) ->
  (forall s' rs, P s' -> incl rs (dbc s') -> P (fst (load_rows rs s'))) ->
  (forall s' p, P s' -> P (fst (load_parent p s'))) ->
  (forall s' f, P s' -> (forall o, c_id (f o) = c_id o) -> (forall o, c_st (f o) = c_st o) ->
     P (set_cs (upd_c (Z.to_N a) f (cs s')) s')) ->
  P s -> P (fst (exec k m a s)).
Proof.
  intros P k m a s Haf Hrows Hpar Hupd H. pose proof (Haf s H) as H1.
  assert (Hp : forall p, P (fst (match find_p p (ps s) with
                                 | Some (_, false) => (s, [[zN p]]) | _ => load_parent p (autoflush_then k m s) end))).
  { intros p. destruct (find_p p (ps s)) as [[i [|]]|]; [apply Hpar, H1|exact H|apply Hpar, H1]. }
  destruct k; unfold exec; cbv zeta; rewrite ?fst_let; try exact H1.
  - (* SelEnt *) apply Hrows; [exact H1|apply incl_filter].
  - (* Get *) destruct (find_ident _ (cs s)); [exact H|]. destruct (find_ident _ _); [exact H1|].
    destruct (row_get _ _) as [r|] eqn:G; [|exact H1]. rewrite fst_let. apply Hrows; [exact H1|].
    intros row [<-|[]]. apply row_get_In, G.
  - (* LazyP *) destruct (find_c _ _) as [o|]; [|exact H].
    destruct (c_st o); [|exact H|]; (destruct (N.eqb (c_pid o) 0); [exact H|apply Hp]).
  - (* Children *) destruct (find_p _ _) as [[i [|]]|]; try exact H. rewrite fst_let. apply Hrows; [exact H1|apply incl_filter].
  - (* GetP *) apply Hp.
  - (* Refresh *) set (s0 := set_cs _ s). assert (H0 : P s0) by (apply Hupd; [exact H| |]; reflexivity).
    pose proof (Haf s0 H0) as H2. destruct (row_get _ _); [|exact H2]. apply Hupd; [exact H2| |]; reflexivity.
  - (* Legacy *) apply Hrows; [exact H1|apply incl_filter].
Qed.

Theorem disabled_writes_nothing : forall k m a s, enabled k m s = false ->
  dbc (fst (exec k m a s)) = dbc s /\ dbp (fst (exec k m a s)) = dbp s.
Proof.
  intros k m a s E.
  enough (X : (fun s' => (dbc s' = dbc s /\ dbp s' = dbp s) /\ enabled k m s' = false) (fst (exec k m a s))) by apply X.
  apply exec_preserves.
  - intros s' H. unfold autoflush_then. rewrite (proj2 H). exact H.
  - intros s' rs H _. destruct (load_rows_cs rs s') as [l ->]. exact H.
  - intros s' p H. destruct (load_parent_ps p s') as [l ->]. exact H.
  - intros s' f H _ _. exact H.
  - split; [split; reflexivity|exact E].
Qed.
