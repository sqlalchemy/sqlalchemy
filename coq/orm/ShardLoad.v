(* C53 - loading rows from the chosen shards: identity resolution and the merged result *)
From Coq Require Import List ZArith NArith Permutation.
Import ListNotations.
From SAV.orm Require Import Shard ShardDb ShardInv.
Open Scope Z_scope.

(* what the program sees of object number o: its identity token and attribute values *)
Definition view (l : list inst) (o : nat) : option (N * row) :=
  match nth_error l o with
  | Some i => match i_tok i with Some t => Some (t, i_cur i) | None => None end
  | None => None
  end.

Lemma view_app : forall l x o v, view l o = Some v -> view (l ++ x) o = Some v.
Proof.
  unfold view. intros l x o v H. destruct (nth_error l o) eqn:E; [|discriminate].
  now rewrite (nth_app_some _ x _ _ E).
Qed.

Lemma view_some : forall l o t r, view l o = Some (t, r) ->
  exists i, nth_error l o = Some i /\ i_tok i = Some t /\ i_cur i = r.
Proof.
  unfold view. intros l o t r H. destruct (nth_error l o) as [i|]; [|discriminate].
  destruct (i_tok i) eqn:Et; [|discriminate]. injection H as <- <-. eauto.
Qed.

Lemma distinct_results : forall {A B} (f : A -> option B) os vs v1 v2,
  map f os = map Some vs -> In v1 vs -> In v2 vs -> v1 <> v2 ->
  exists o1 o2, In o1 os /\ In o2 os /\ o1 <> o2 /\ f o1 = Some v1 /\ f o2 = Some v2.
Proof.
  intros A B f os vs v1 v2 H I1 I2 Hne. destruct (map_eq_in _ _ _ _ _ H I1) as [o1 [? V1]].
  destruct (map_eq_in _ _ _ _ _ H I2) as [o2 [? V2]]. exists o1, o2. repeat split; auto.
  intros ->. congruence.
Qed.

Lemma lookup_some : forall l k t o, lookup l k t = Some o ->
  exists i, nth_error l o = Some i /\ i_life i = Persistent /\ i_tok i = Some t /\ r_pk (i_cur i) = k.
Proof.
  unfold lookup. intros l k t o H. apply find_idx_some in H. destruct H as [i [Hn [Hk _]]].
  rewrite Nat.sub_0_r in Hn. exists i. split; auto. now apply is_key_true.
Qed.

Lemma load_row_spec : forall t l d r l' o,
  Inv l d -> Forall clean l -> In r (d t) -> load_row t l r = (l', o) ->
  Inv l' d /\ Forall clean l' /\ (exists x, l' = l ++ x) /\ view l' o = Some (t, r).
Proof.
  intros t l d r l' o HI Hc Hr H. unfold load_row in H.
  destruct (lookup l (r_pk r) t) as [o'|] eqn:E.
  - injection H as <- <-. split; auto. split; auto. split; [exists []; now rewrite app_nil_r|].
    apply lookup_some in E. destruct E as [i [Hn [Hl [Ht Hk]]]].
    assert (Hi : In i l) by (eapply nth_error_In; eauto).
    destruct (inv_row_tok _ _ _ _ HI Hi Hl Ht) as [Hin Hpk].
    rewrite Forall_forall in Hc. destruct (Hc i Hi) as [_ Hcl]. specialize (Hcl Hl).
    unfold view. rewrite Hn, Ht. f_equal. f_equal. rewrite Hcl.
    apply (same_pk_same_row (d t)); auto; [apply (inv_pk _ _ HI) | congruence].
  - injection H as <- <-. split; [now apply inv_load|]. split.
    + apply Forall_app. split; auto. constructor; [|constructor]. split; simpl; [discriminate | auto].
    + split; [eauto|]. unfold view. now rewrite nth_snoc.
Qed.

Lemma load_rows_spec : forall t d rs l l' os,
  Inv l d -> Forall clean l -> (forall r, In r rs -> In r (d t)) -> load_rows t l rs = (l', os) ->
  Inv l' d /\ Forall clean l' /\ (exists x, l' = l ++ x) /\
  map (view l') os = map (fun r => Some (t, r)) rs.
Proof.
  intros t d. induction rs as [|r rs IH]; simpl; intros l l' os HI Hc Hr H.
  - injection H as <- <-. refine (conj HI (conj Hc (conj _ eq_refl))). exists []. now rewrite app_nil_r.
  - destruct (load_row t l r) as [l1 o] eqn:E1. destruct (load_rows t l1 rs) as [l2 os2] eqn:E2.
    injection H as <- <-.
    destruct (load_row_spec _ _ _ _ _ _ HI Hc (Hr r (or_introl eq_refl)) E1) as [HI1 [Hc1 [[x1 Hx1] Hv1]]].
    destruct (IH _ _ _ HI1 Hc1 (fun r' Hr' => Hr r' (or_intror Hr')) E2) as [HI2 [Hc2 [[x2 Hx2] Hv2]]].
    refine (conj HI2 (conj Hc2 (conj _ _))).
    + exists (x1 ++ x2). rewrite Hx2, Hx1. now rewrite app_assoc.
    + simpl. rewrite Hv2. f_equal. rewrite Hx2. now apply view_app.
Qed.

Lemma map_view_app : forall l x os vs, map (view l) os = map Some vs -> map (view (l ++ x)) os = map Some vs.
Proof.
  intros l x. induction os as [|o os IH]; intros [|v vs] H; simpl in *; try discriminate; auto.
  injection H as H1 H2. f_equal; [now apply view_app | now apply IH].
Qed.

(* the merged result of all chosen shards: shard order, then row order; tokens = source shards *)
Definition expected (q : qry) (ss : list N) (d : dbs) : list (N * row) :=
  flat_map (fun s => map (pair s) (sql_select q (d s))) ss.

Lemma in_expected : forall q ss d s r,
  In (s, r) (expected q ss d) <-> In s ss /\ In r (d s) /\ qmatch q r = true.
Proof.
  intros. unfold expected. rewrite in_flat_map. split.
  - intros [s' [Hs Hi]]. apply in_map_iff in Hi. destruct Hi as [r' [He Hr]]. inversion He; subst.
    apply in_select in Hr. tauto.
  - intros [Hs [Hr Hq]]. exists s. split; auto. apply in_map. apply in_select. auto.
Qed.

Lemma exec_shards_spec : forall q d ss l l' os,
  Inv l d -> Forall clean l -> exec_shards q ss d l = (l', os) ->
  Inv l' d /\ Forall clean l' /\ (exists x, l' = l ++ x) /\
  map (view l') os = map Some (expected q ss d).
Proof.
  intros q d. induction ss as [|s ss IH]; simpl; intros l l' os HI Hc H.
  - injection H as <- <-. refine (conj HI (conj Hc (conj _ eq_refl))). exists []. now rewrite app_nil_r.
  - destruct (load_rows s l (sql_select q (d s))) as [l1 os1] eqn:E1.
    destruct (exec_shards q ss d l1) as [l2 os2] eqn:E2. injection H as <- <-.
    destruct (load_rows_spec _ _ _ _ _ _ HI Hc (fun r Hr => proj1 (proj1 (in_select _ _ _) Hr)) E1)
      as [HI1 [Hc1 [[x1 Hx1] Hv1]]].
    destruct (IH _ _ _ HI1 Hc1 E2) as [HI2 [Hc2 [[x2 Hx2] Hv2]]].
    refine (conj HI2 (conj Hc2 (conj _ _))).
    + exists (x1 ++ x2). rewrite Hx2, Hx1. now rewrite app_assoc.
    + unfold expected in *. simpl. rewrite !map_app. f_equal; [|exact Hv2].
      rewrite Hx2. apply map_view_app. rewrite Hv1, map_map. reflexivity.
Qed.

Lemma flat_map_perm : forall {A B} (f g : A -> list B) l,
  (forall a, Permutation (f a) (g a)) -> Permutation (flat_map f l) (flat_map g l).
Proof. induction l; simpl; intros; auto. apply Permutation_app; auto. Qed.

(* as a multiset the result is the union of the matching rows of the chosen shards *)
Lemma expected_perm : forall q ss d,
  Permutation (expected q ss d) (flat_map (fun s => map (pair s) (filter (qmatch q) (d s))) ss).
Proof.
  intros. apply flat_map_perm. intros s. apply Permutation_map. apply select_perm.
Qed.
