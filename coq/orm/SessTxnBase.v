(* C33 - generic lemmas about the session model: the state/exception monad, function updates, index sets,
   key-switch lists; exec_f_char: the statement loop with the crash oracle is a plain run of a prefix. *)
From Coq Require Import List ZArith Bool Arith Lia.
Import ListNotations.
From SAV.orm Require Import SessTxn.

Lemma bind_inv : forall (a b : M) st r st',
  (a ;; b) st = (r, st') ->
  (exists st1, a st = (Ok, st1) /\ b st1 = (r, st')) \/ (a st = (r, st') /\ r <> Ok).
Proof.
  intros a b st r st' H. unfold bind in H. destruct (a st) as [ra st1] eqn:E.
  destruct ra.
  - left. exists st1. split; auto.
  - right. inversion H; subst. split; auto. discriminate.
  - right. inversion H; subst. split; auto. discriminate.
Qed.

Lemma bind_ok : forall (a b : M) st st1, a st = (Ok, st1) -> (a ;; b) st = b st1.
Proof. intros. unfold bind. rewrite H. reflexivity. Qed.

Lemma bind_assoc : forall (a b c : M) st, ((a ;; b) ;; c) st = (a ;; (b ;; c)) st.
Proof. intros a b c st. unfold bind. destruct (a st) as [[| |] s1]; reflexivity. Qed.
Lemma bind_assoc4 : forall (a b c d : M) st, ((a ;; (b ;; c)) ;; d) st = (a ;; (b ;; (c ;; d))) st.
Proof.
  intros a b c d st. unfold bind. destruct (a st) as [[| |] s1]; try reflexivity.
  destruct (b s1) as [[| |] s2]; reflexivity.
Qed.
Lemma bind_withst : forall (k : sess -> M) (b : M) st, (withst k ;; b) st = (k st ;; b) st.
Proof. reflexivity. Qed.

Lemma lift_eq : forall g st, lift g st = (Ok, g st).
Proof. reflexivity. Qed.
Lemma ret_eq : forall st, ret st = (Ok, st).
Proof. reflexivity. Qed.
Lemma withst_eq : forall k st, withst k st = k st st.
Proof. reflexivity. Qed.

Lemma foldM_pres : forall {A} (P : sess -> Prop) (f : A -> M) (l : list A),
  (forall x st r st', f x st = (r, st') -> P st -> P st') ->
  forall st r st', foldM f l st = (r, st') -> P st -> P st'.
Proof.
  intros A P f l Hf. induction l as [|x l IH]; intros st r st' H HP.
  - inversion H; subst; auto.
  - cbn [foldM] in H. apply bind_inv in H. destruct H as [[st1 [H1 H2]]|[H1 _]].
    + eapply IH; eauto.
    + eapply Hf; eauto.
Qed.

Lemma foldM_lift : forall {A} (g : A -> sess -> sess) l st,
  foldM (fun x => lift (g x)) l st = (Ok, fold_left (fun s x => g x s) l st).
Proof. intros A g l. induction l as [|x l IH]; intros st; [reflexivity|apply IH]. Qed.

(* a fold over (part of) a duplicate-free list [l] whose invariant speaks of the elements already processed *)
Lemma foldM_done : forall {A} (f : A -> M) (I : list A -> sess -> Prop) (l : list A),
  (forall done o s, I done s -> ~ In o done -> incl (done ++ [o]) l ->
     exists s', f o s = (Ok, s') /\ I (done ++ [o]) s') ->
  forall todo done s, I done s -> NoDup (done ++ todo) -> incl (done ++ todo) l ->
  exists s', foldM f todo s = (Ok, s') /\ I (done ++ todo) s'.
Proof.
  intros A f I l Hstep. induction todo as [|o todo IH]; intros done s HI Hnd Hincl; cbn [foldM].
  - exists s. rewrite app_nil_r. auto.
  - assert (Hn : ~ In o done).
    { intros X. apply NoDup_remove_2 in Hnd. apply Hnd. apply in_or_app. auto. }
    replace (done ++ o :: todo) with ((done ++ [o]) ++ todo) in * by (rewrite <- app_assoc; reflexivity).
    destruct (Hstep done o s HI Hn) as [s1 [E1 HI1]].
    + intros x Hx. apply Hincl. apply in_or_app. auto.
    + rewrite (bind_ok _ _ _ _ E1). apply IH; auto.
Qed.

(* a loop whose steps succeed whenever they stay inside the model *)
Lemma foldM_total : forall {A} (P : sess -> Prop) (h : A -> M) l,
  (forall x s r s', P s -> h x s = (r, s') -> r <> Unmodelled -> r = Ok /\ P s') ->
  forall s r s', P s -> foldM h l s = (r, s') -> r <> Unmodelled -> r = Ok /\ P s'.
Proof.
  intros A P h l Hh. induction l as [|x l IH]; intros s r s' HP H Hr.
  - inversion H; subst; auto.
  - cbn [foldM] in H. apply bind_inv in H. destruct H as [[s1 [H1 H2]]|[H1 Hn]].
    + destruct (Hh x s Ok s1 HP H1) as [_ P1]; [discriminate|]. eauto.
    + destruct (Hh x s r s' HP H1 Hr) as [E _]. congruence.
Qed.

Lemma fold_left_pres : forall {A} (P : sess -> Prop) (g : sess -> A -> sess) (l : list A),
  (forall x st, P st -> P (g st x)) -> forall st, P st -> P (fold_left g l st).
Proof. intros A P g l Hg. induction l; intros st HP; cbn; auto. Qed.

Lemma updN_same : forall {A} (f : nat -> A) k v, updN f k v k = v.
Proof. intros. unfold updN. rewrite Nat.eqb_refl. reflexivity. Qed.
Lemma updN_other : forall {A} (f : nat -> A) k v x, x <> k -> updN f k v x = f x.
Proof. intros. unfold updN. destruct (Nat.eqb_spec x k); congruence. Qed.
Lemma updN_inv : forall {A} (r : nat -> A) o v x w, updN r o v x = w -> (x = o /\ v = w) \/ (x <> o /\ r x = w).
Proof. intros A r o v x w H. unfold updN in H. destruct (Nat.eqb_spec x o); auto. Qed.
Lemma updZ_same : forall {A} (f : Z -> A) k v, updZ f k v k = v.
Proof. intros. unfold updZ. rewrite Z.eqb_refl. reflexivity. Qed.
Lemma updZ_other : forall {A} (f : Z -> A) k v x, x <> k -> updZ f k v x = f x.
Proof. intros. unfold updZ. destruct (Z.eqb_spec x k); congruence. Qed.

Lemma mem_In : forall x l, mem x l = true <-> In x l.
Proof.
  intros. unfold mem. rewrite existsb_exists. split.
  - intros [y [Hy He]]. apply Nat.eqb_eq in He. subst. auto.
  - intros H. exists x. split; auto. apply Nat.eqb_refl.
Qed.
Lemma mem_nil : forall l, (forall x, mem x l = false) -> l = [].
Proof. intros [|a l] H; auto. specialize (H a). cbn in H. rewrite Nat.eqb_refl in H. discriminate. Qed.
Lemma mem_filter : forall (P : nat -> bool) l x, mem x (filter P l) = mem x l && P x.
Proof. intros. apply eq_iff_eq_true. rewrite andb_true_iff, !mem_In. apply filter_In. Qed.
Lemma mem_filter_seq : forall (P : nat -> bool) n x, mem x (filter P (seq 0 n)) = Nat.ltb x n && P x.
Proof.
  intros. rewrite mem_filter. f_equal. apply eq_iff_eq_true. rewrite mem_In, in_seq, Nat.ltb_lt. lia.
Qed.
Lemma mem_remm : forall x y l, mem x (remm y l) = negb (Nat.eqb y x) && mem x l.
Proof. intros. unfold remm. rewrite mem_filter. apply andb_comm. Qed.
Lemma filter_nil : forall {A} (P : A -> bool) l, (forall x, In x l -> P x = false) -> filter P l = [].
Proof.
  intros A P l. induction l as [|a l IH]; intros H; cbn; [reflexivity|].
  rewrite (H a) by (left; reflexivity). apply IH. intros x Hx. apply H. right. exact Hx.
Qed.
Lemma mem_app : forall x l1 l2, mem x (l1 ++ l2) = mem x l1 || mem x l2.
Proof. intros. unfold mem. apply existsb_app. Qed.
Lemma mem_addm : forall x y l, mem x (addm y l) = Nat.eqb x y || mem x l.
Proof.
  intros. unfold addm. destruct (mem y l) eqn:E.
  - destruct (Nat.eqb_spec x y); subst; cbn; auto.
  - rewrite mem_app. cbn. rewrite orb_false_r. apply orb_comm.
Qed.

Lemma mem_fold_addm : forall l d x, mem x (fold_left (fun d o => addm o d) l d) = mem x d || mem x l.
Proof.
  induction l as [|a l IH]; intros d x; cbn [fold_left].
  - cbn. rewrite orb_false_r. reflexivity.
  - rewrite IH, mem_addm. cbn [mem existsb]. fold (mem x l). destruct (Nat.eqb x a), (mem x d), (mem x l); reflexivity.
Qed.

(* what is a function of [g] is the same on two lists with the same [g]-image *)
Lemma map_factor : forall {A B C} (g : A -> B) (h : A -> C) l l',
  (forall x y, g x = g y -> h x = h y) -> map g l' = map g l -> map h l' = map h l.
Proof.
  intros A B C g h l l' Hgh. revert l'. induction l as [|a l IH]; intros [|b l'] E; try discriminate; auto.
  cbn in E. injection E as E1 E2. cbn. rewrite (Hgh _ _ E1), (IH _ E2). reflexivity.
Qed.

Lemma map_in : forall {A B} (g : A -> B) l l', map g l = map g l' ->
  forall x', In x' l' -> exists x, In x l /\ g x = g x'.
Proof.
  intros A B g. induction l as [|a l IH]; intros [|a' l'] E; try discriminate; intros x' Hx; [contradiction|].
  cbn in E. injection E as E1 E2. destruct Hx as [Hx|Hx].
  - subst x'. exists a. split; [left; reflexivity|exact E1].
  - destruct (IH l' E2 x' Hx) as [x [X1 X2]]. exists x. split; [right; exact X1|exact X2].
Qed.

Lemma NoDup_snoc : forall (l : list nat) o, NoDup l -> ~ In o l -> NoDup (l ++ [o]).
Proof.
  intros l o H Hn. apply (NoDup_Add (a := o) (l := l)); [|auto].
  rewrite <- (app_nil_r l) at 1. apply Add_app.
Qed.

Lemma NoDup_app_disj : forall {A} (l1 l2 : list A), NoDup l1 -> NoDup l2 -> (forall x, In x l1 -> ~ In x l2) ->
  NoDup (l1 ++ l2).
Proof.
  intros A l1 l2 H1 H2 Hd. induction H1 as [|a l Ha H1 IH]; cbn; auto. constructor.
  - rewrite in_app_iff. intros [X|X]; [auto|apply (Hd a); [left|]; auto].
  - apply IH. intros x Hx. apply Hd. right; exact Hx.
Qed.

Lemma find_ext : forall {A} (p q : A -> bool) l, (forall x, In x l -> p x = q x) -> find p l = find q l.
Proof.
  intros A p q l H. induction l as [|a l IH]; cbn; auto.
  rewrite (H a) by (left; auto). destruct (q a); auto. apply IH. intros; apply H; right; auto.
Qed.

(* key-switch lists *)
Lemma ks_find_app : forall x l1 l2, ks_find x (l1 ++ l2) = match ks_find x l1 with Some p => Some p | None => ks_find x l2 end.
Proof.
  intros x l1 l2. induction l1 as [|[o p] l1 IH]; cbn; auto. destruct (Nat.eqb o x); auto.
Qed.
Lemma ks_find_rem : forall x o l, ks_find x (ks_rem o l) = if Nat.eqb x o then None else ks_find x l.
Proof.
  intros x o l. unfold ks_rem. induction l as [|[a p] l IH]; cbn.
  - destruct (Nat.eqb x o); reflexivity.
  - destruct (Nat.eqb_spec a o); cbn; rewrite IH; destruct (Nat.eqb_spec x o), (Nat.eqb_spec a x); congruence.
Qed.
Lemma ks_find_set : forall x o p l, ks_find x (ks_set o p l) = if Nat.eqb x o then Some p else ks_find x l.
Proof.
  intros x o p l. unfold ks_set. rewrite ks_find_app, ks_find_rem. cbn. rewrite (Nat.eqb_sym o x).
  destruct (Nat.eqb x o); [reflexivity|]. destruct (ks_find x l); reflexivity.
Qed.

Lemma ks_rem_keys : forall o l x, In x (map fst (ks_rem o l)) -> In x (map fst l) /\ x <> o.
Proof.
  intros o l x. unfold ks_rem. induction l as [|[a p] l IH]; cbn; [tauto|].
  destruct (Nat.eqb_spec a o); cbn.
  - intros H. destruct (IH H). split; auto.
  - intros [H|H]; [subst; split; auto|]. destruct (IH H). split; auto.
Qed.
Lemma ks_set_nodup : forall o p l, NoDup (map fst l) -> NoDup (map fst (ks_set o p l)).
Proof.
  intros o p l H. unfold ks_set. rewrite map_app. apply NoDup_app_disj.
  - unfold ks_rem. induction l as [|[a q] l IH]; cbn; [constructor|]. inversion H; subst.
    destruct (Nat.eqb a o); cbn; auto. constructor; auto. intros X. apply (ks_rem_keys o l a) in X. tauto.
  - repeat constructor. intros [].
  - intros x X [<-|[]]. apply ks_rem_keys in X. tauto.
Qed.
Lemma ks_find_notin : forall x l, ~ In x (map fst l) -> ks_find x l = None.
Proof.
  intros x l. induction l as [|[a p] l IH]; cbn; intros H; auto.
  destruct (Nat.eqb_spec a x); [exfalso; apply H; left; auto|]. apply IH. intros X; apply H; right; auto.
Qed.
Lemma ks_find_map : forall (h : nat -> Z * Z) l o,
  ks_find o (map (fun x => (x, h x)) l) = if mem o l then Some (h o) else None.
Proof.
  intros h l o. induction l as [|a l IH]; cbn; auto.
  rewrite (Nat.eqb_sym o a). destruct (Nat.eqb_spec a o); [subst; reflexivity|]. exact IH.
Qed.

Lemma upd_head_eq : forall s g,
  upd_head s g = set_stack s (match stack s with [] => [] | f :: r => g f :: r end).
Proof. intros [e n o sn sd [|f r] h c w sv nf] g; reflexivity. Qed.

Lemma set_head_state_cons : forall s st f r, stack st = f :: r -> set_head_state s st = set_stack st (f_state f s :: r).
Proof. intros s st f r H. unfold set_head_state, upd_head. rewrite H. reflexivity. Qed.
Lemma set_db_id : forall st, set_db st (committed st) (work st) (saves st) = st.
Proof. intros []; reflexivity. Qed.
Lemma sess_eta : forall st, set_db (set_stack st (stack st)) (committed st) (work st) (saves st) = st.
Proof. intros st. destruct st; reflexivity. Qed.
Lemma obj_key_eta : forall ob k, okey ob = Some k -> o_key ob (Some k) = ob.
Proof. intros [a b c d e f0 g0 h i j] k H. cbn in *. subst. reflexivity. Qed.

(* the statements with the crash oracle: a successful run is the plain run; a failing one is a plain run of
   a prefix (the failure is reported where a statement was executed, never in between) *)
Lemma fail_at_inv : forall c r st x st', fail_at c r st = (x, st') -> x <> Unmodelled -> x = Err c /\ st' = st.
Proof.
  intros c r st x st' H Hx. unfold fail_at in H.
  destruct (head_nested st && existsb (needs_load st) r); inversion H; subst; auto. congruence.
Qed.
Lemma exec_f_char : forall c l k st r st', exec_f k c l st = (r, st') -> r <> Unmodelled ->
  (r = Ok -> foldM do_stmt l st = (Ok, st')) /\
  (r <> Ok -> exists pre suf r0, l = pre ++ suf /\ foldM do_stmt pre st = (r0, st') /\ r0 <> Unmodelled).
Proof.
  intros c l. induction l as [|s l IH]; intros k st r st' H Hr.
  - inversion H; subst. split; [reflexivity|congruence].
  - cbn [exec_f] in H. destruct (do_stmt s st) as [r1 s1] eqn:E1.
    (* after [s] either the run goes on, or the failure is reported at once *)
    assert (X : (r1 = Ok /\ exists k', exec_f k' c l s1 = (r, st')) \/
                (r1 <> Unmodelled /\ exists c0, fail_at c0 l s1 = (r, st'))).
    { destruct r1 as [|c'|].
      - destruct (emits s st); [destruct k as [[|k']|]|]; eauto. right. split; [discriminate|eauto].
      - right. split; [discriminate|]. destruct (_ && _); eauto.
      - inversion H; subst. congruence. }
    destruct X as [[-> [k' H']]|[Hr1 [c0 H']]].
    + destruct (IH k' s1 r st' H' Hr) as [A B]. cbn [foldM]. rewrite (bind_ok _ _ _ _ E1). split; [exact A|].
      intros E. destruct (B E) as (pre & suf & r0 & -> & P2 & P3).
      exists (s :: pre), suf, r0. cbn [foldM]. rewrite (bind_ok _ _ _ _ E1). auto.
    + destruct (fail_at_inv _ _ _ _ _ H' Hr) as [-> ->]. split; [discriminate|]. intros _.
      exists [s], l, r1. split; [reflexivity|]. split; [|exact Hr1].
      cbn [foldM]. unfold bind. rewrite E1. destruct r1; reflexivity.
Qed.
