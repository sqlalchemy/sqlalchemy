(* C33 - concrete histories, replayed on the implementation on every run (findings/C33.json).
   w_d1, w_d5, w_d8: after their last, successful, commit/rollback the session disagrees with the database;
   each leaves the guard (agreement_refuted): w_d1 at its handle.rollback (clause g1 of SessTxnSpec.guard), w_d5 at its
   second delete (g5), w_d8 at close (g6), see unguarded_d1/d5/d8.  w_d2, w_d3, w_d6: histories through defects that /repo has
   repaired; they pass the guard and end in agreement (repaired_agree). *)
From Coq Require Import List ZArith Bool Arith.
Import ListNotations.
From SAV.orm Require Import SessTxn SessTxnSpec.
Open Scope Z_scope.

(* D1: a.rollback() while an inner savepoint b is open: b is only closed; the object flushed inside b
   stays persistent although its row was rolled back *)
Definition w_d1 : list op := [ONested; ONested; ONew 1 10; OFlush; OTRollback 0].
(* D2 (/repo f8f802f): key switch 1->2 in savepoint a, 2->3 in inner savepoint b, b released (the merge keeps
   the old key 1 of a's record), a rolled back: identity key and row are 1 again *)
Definition w_d2 : list op :=
  [ONew 1 10; OFlush; ONested; OSetPK 0 2; OFlush; ONested; OSetPK 0 3; OFlush; OTCommit 1; OTRollback 0].
(* D3 (/repo 0c90c34): created in a, deleted in b, b released, a rolled back (object transient again, _deleted
   cleared), added and committed again: persistent, its row exists *)
Definition w_d3 : list op :=
  [ONested; ONew 1 10; OFlush; ONested; ODel 0; OFlush; OTCommit 1; OTRollback 0; OAdd 0; OFlush; OCommit].
(* D5: delete() of an object already in the deleted state re-registers it; the savepoint rollback
   resurrects it as persistent although the DELETE happened in the enclosing scope *)
Definition w_d5 : list op :=
  [ONew 1 2; OCommit; ODel 0; ONested; ODel 0; ONested; OTCommit 1; OTRollback 0].
(* D6 (/repo 9732dc8): close() rolls back the transaction that deleted the row and detaches the object that
   was in the deleted state *)
Definition w_d6 : list op := [ONew 2 3; OCommit; ODel 0; OFlush; OClose; OCommit].
(* D8 (expire_on_commit=False): an object deleted and committed stays in the deleted state, attached; no
   transaction refers to it any more, so not even close() detaches it; another object re-creates the row *)
Definition w_d8 : list op := [ONew 1 0; OCommit; ODel 0; OCommit; ONew 1 5; OCommit; OClose; OCommit].

Definition refutes (e : bool) (ps : list op) : bool :=
  match final e ps with
  | (Ok, st) => is_boundary (last ps OFlush) && negb (agrees st)
  | _ => false
  end.

(* each witness leaves the guard exactly at the operation named in the comment *)
Fixpoint first_unguarded (st : sess) (ps : list op) (i : nat) : option nat :=
  match ps with
  | [] => None
  | p :: r => if guard st p then first_unguarded (snd (do_op p st)) r (S i) else Some i
  end.

Lemma refuted_d1 : refutes true w_d1 = true. Proof. vm_compute. reflexivity. Qed.
Lemma refuted_d5 : refutes true w_d5 = true. Proof. vm_compute. reflexivity. Qed.
Lemma refuted_d8 : refutes false w_d8 = true. Proof. vm_compute. reflexivity. Qed.
Lemma unguarded_d1 : first_unguarded (sess0 true) w_d1 0 = Some 4%nat. Proof. vm_compute. reflexivity. Qed.
Lemma unguarded_d5 : first_unguarded (sess0 true) w_d5 0 = Some 4%nat. Proof. vm_compute. reflexivity. Qed.
Lemma unguarded_d8 : first_unguarded (sess0 false) w_d8 0 = Some 6%nat. Proof. vm_compute. reflexivity. Qed.

(* the remaining defects at once: (expire_on_commit, history) *)
Definition witnesses : list (bool * list op) := [(true, w_d1); (true, w_d5); (false, w_d8)].
Theorem agreement_refuted : forall w, In w witnesses ->
  is_boundary (last (snd w) OFlush) = true /\ fst (final (fst w) (snd w)) = Ok /\
  agrees (snd (final (fst w) (snd w))) = false /\
  first_unguarded (sess0 (fst w)) (snd w) 0 <> None.
Proof.
  intros w H. cbn [witnesses In] in H.
  destruct H as [H|[H|[H|[]]]]; subst w; vm_compute; repeat split; discriminate.
Qed.

(* the histories through the three repaired defects are guarded and end in agreement *)
Definition repaired : list (list op) := [w_d2; w_d3; w_d6].
Theorem repaired_agree : forall ps, In ps repaired ->
  fst (final true ps) = Ok /\ agrees (snd (final true ps)) = true /\ first_unguarded (sess0 true) ps 0 = None.
Proof.
  intros ps H. cbn [repaired In] in H.
  destruct H as [H|[H|[H|[]]]]; subst ps; vm_compute; repeat split; reflexivity.
Qed.
