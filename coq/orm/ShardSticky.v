(* C53 - the shard of an object is chosen once: the relation "every object that is no longer pending keeps
   its number, identity token and primary key", and the list edits that satisfy it *)
From Coq Require Import List ZArith NArith.
Import ListNotations.
From SAV.orm Require Import Shard ShardDb ShardFlush.
Open Scope Z_scope.

Definition keep (i i' : inst) : Prop :=
  i_tok i' = i_tok i /\ r_pk (i_cur i') = r_pk (i_cur i) /\ i_life i' <> Pending.

(* every non-pending object of [l] is still there in [l'], same number, same token, same pk *)
Definition ext (l l' : list inst) : Prop :=
  forall o i, nth_error l o = Some i -> i_life i <> Pending ->
  exists i', nth_error l' o = Some i' /\ keep i i'.

Lemma ext_refl : forall l, ext l l.
Proof. intros l o i H Hl. exists i. unfold keep. auto. Qed.

Lemma ext_trans : forall a b c, ext a b -> ext b c -> ext a c.
Proof.
  intros a b c H1 H2 o i Hn Hl. destruct (H1 _ _ Hn Hl) as [i1 [Hn1 [T1 [P1 L1]]]].
  destruct (H2 _ _ Hn1 L1) as [i2 [Hn2 [T2 [P2 L2]]]]. exists i2. unfold keep. split; auto.
  repeat split; congruence.
Qed.

Lemma ext_app : forall l x, ext l (l ++ x).
Proof.
  intros l x o i Hn Hl. exists i. split; [now apply nth_app_some | unfold keep; auto].
Qed.

Lemma ext_upd_nth : forall f l n y, nth_error l n = Some y -> (i_life y <> Pending -> keep y (f y)) ->
  ext l (upd_nth n f l).
Proof.
  intros f l n y Hy Hk o i Hn Hl. destruct (Nat.eq_dec o n) as [->|Hne].
  - rewrite Hy in Hn. injection Hn as <-. exists (f y). split; [now apply nth_upd_same | auto].
  - exists i. rewrite nth_upd_other by auto. split; auto. unfold keep. auto.
Qed.

Lemma flush_ext : forall sc st st', flush sc st = Ok st' -> ext (insts st) (insts st').
Proof.
  intros sc st st' H o i Hn Hl. exists (flushed sc i). rewrite (flush_insts _ _ _ H).
  split; [now apply map_nth_error|]. unfold keep. destruct (flushed_keep sc i Hl) as [L [T C]].
  rewrite L, T, C. auto.
Qed.

Lemma set_ext : forall st o g v st', do_set st o g v = Ok st' -> ext (insts st) (insts st').
Proof.
  intros st o g v st' H. unfold do_set in H. destruct (nth_error (insts st) o) as [i0|] eqn:En; [|discriminate].
  assert (ext (insts st) (upd_nth o (fun i => mkInst (mkRow (r_pk (i_cur i)) g v) (i_old i) (i_life i) (i_tok i)) (insts st)))
    by (eapply ext_upd_nth; eauto; unfold keep; simpl; auto).
  destruct (i_life i0); try discriminate; injection H as <-; simpl; auto.
Qed.
