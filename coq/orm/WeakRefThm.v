(* C48 - [pending] changes: kept through every loss of references and every collector run, written by the next
   flush, established by set / flag_modified / new; identity-map consistency; release of unmodified objects;
   reference counting as an instance of [collect].  Stated for every state with [Inv]. *)
From Coq Require Import List ZArith NArith Bool Arith Lia.
Import ListNotations.
From SAV.orm Require Import WeakRef WeakRefBase WeakRefInv WeakRefFlush WeakRefMain.

Lemma max_pk_ge : forall rows p, In p rows -> (fst p <= max_pk rows)%N.
Proof.
  induction rows as [|q rows IH]; intros p H; [destruct H|]. simpl.
  destruct H as [H|H]; [subst; lia|specialize (IH p H); lia].
Qed.
Lemma inv_start : forall rows ns, Inv (start rows ns).
Proof.
  intros rows ns. apply inv_init. intros k v H. unfold db_get in H.
  destruct (find (fun p => N.eqb (fst p) k) rows) as [p|] eqn:F; [|discriminate].
  apply find_some in F. destruct F as [F1 F2]. apply N.eqb_eq in F2. subst k.
  assert (X := max_pk_ge rows p F1). lia.
Qed.

(* attribute val (w = false) or w (w = true) *)
Definition pval (w : bool) (ob : obj) : option Z := if w then pendw ob else pend ob.
Definition col (w : bool) (r : row) : Z := if w then snd r else fst r.
(* object o belongs to the session and carries the unflushed value v for the row with primary key k *)
Definition pending (w : bool) (s : st) (o : nat) (k : N) (v : Z) : Prop :=
  let ob := heap s o in
  alive ob = true /\ pk ob = k /\ pval w ob = Some v /\ in_del ob = false /\ (in_new ob = true \/ in_map ob = true).
Lemma has_pend_of : forall w ob v, pval w ob = Some v -> has_pend ob = true.
Proof. intros [] ob v H; unfold pval, has_pend in *; rewrite H; [destruct (pend ob)|]; reflexivity. Qed.

Lemma pending_rooted : forall w s o k v, Inv s -> pending w s o k v -> rooted s o = true.
Proof.
  intros w s o k v I (A & _ & P & _ & H). unfold rooted. rewrite A. simpl.
  destruct (okb_pending_rooted _ (i_ok s I o) A (has_pend_of w _ v P) H) as [R|(R1 & R2 & _)].
  - rewrite R, orb_true_r. reflexivity.
  - rewrite R1, R2. simpl. apply orb_true_r.
Qed.

Lemma pending_collect : forall w s o k v l, Inv s -> pending w s o k v -> pending w (collect l s) o k v.
Proof.
  intros w s o k v l I P. unfold pending. rewrite (collect_keeps_rooted l s o I (pending_rooted w s o k v I P)). exact P.
Qed.

(* the operations by which an application loses its references, and any collector *)
Inductive refop := RDrop (i : nat) | RLink (i j : nat) | RGc | RCollect (l : list nat).
Definition ref_step (r : refop) (s : st) : st :=
  match r with
  | RDrop i => fst (step (Drop i) s)
  | RLink i j => fst (step (Link i j) s)
  | RGc => fst (step Gc s)
  | RCollect l => collect l s
  end.
Definition ref_run (h : list refop) (s : st) : st := fold_left (fun s r => ref_step r s) h s.

Lemma inv_ref_step : forall r s, Inv s -> Inv (ref_step r s).
Proof. intros [i|i j| |l] s I; cbn [ref_step]; auto using inv_step, inv_collect. Qed.
Lemma reachable_ref_step : forall s0 r s, reachable s0 s -> reachable s0 (ref_step r s).
Proof. intros s0 [i|i j| |l] s R; cbn [ref_step]; auto using r_op, r_collect. Qed.
Lemma reachable_ref_run : forall s0 h s, reachable s0 s -> reachable s0 (ref_run h s).
Proof. induction h; intros s R; simpl; auto. apply IHh. apply reachable_ref_step. exact R. Qed.

Lemma pending_ref_step : forall w r s o k v, Inv s -> pending w s o k v -> pending w (ref_step r s) o k v.
Proof.
  intros w [i|i j| |l] s o k v I P; cbn [ref_step step fst].
  - exact P.
  - destruct (slot_get s i) as [x|]; cbn [fst]; [|exact P].
    unfold pending in *. cbn [heap upd set_heap]. destruct (Nat.eqb o x); [|exact P].
    destruct (heap s o); exact P.
  - apply pending_collect; auto.
  - apply pending_collect; auto.
Qed.

Lemma modified_never_collected : forall w h s o k v, Inv s -> pending w s o k v ->
  pending w (ref_run h s) o k v /\ Inv (ref_run h s).
Proof.
  intros w. induction h as [|r h IH]; intros s o k v I P; simpl; auto.
  apply IH; [apply inv_ref_step; auto|apply pending_ref_step; auto].
Qed.

Lemma flush_writes_pending : forall w s o k v, Inv s -> pending w s o k v ->
  option_map (col w) (db_get k (db (flush s))) = Some v.
Proof.
  intros w s o k v I (A & Pk & P & D & H). subst k.
  destruct (flush_writes s o I A (has_pend_of w _ v P) D H) as (r & G & F1 & F2).
  rewrite G. simpl. f_equal. destruct w; [apply F2|apply F1]; exact P.
Qed.

Lemma rc_collect_db : forall s, db (rc_collect s) = db s.
Proof. intros s. unfold rc_collect. apply (rc_iter_fields (S (nobj s)) s). Qed.

Lemma flush_writes_dropped_changes : forall w h s o k v, Inv s -> pending w s o k v ->
  option_map (col w) (db_get k (db (flush (ref_run h s)))) = Some v /\
  option_map (col w) (db_get k (db (fst (step_cpy Flush (ref_run h s))))) = Some v /\
  option_map (col w) (db_get k (db (fst (step_cpy Commit (ref_run h s))))) = Some v.
Proof.
  intros w h s o k v I P. destruct (modified_never_collected w h s o k v I P) as [P' I'].
  assert (F := flush_writes_pending w _ o k v I' P').
  repeat split; auto; unfold step_cpy; cbn [step fst compact set_heap db]; rewrite rc_collect_db; exact F.
Qed.

(* a change made through a reference - attribute set, or in-place change + flag_modified - is pending *)
Lemma modev_pending : forall w s o, Inv s -> In (Some o) (slots s) ->
  in_del (heap s o) = false -> (in_new (heap s o) = true \/ in_map (heap s o) = true) ->
  pending w (bump_val (upd o (modified_event w (next_val s)) s)) o (pk (heap s o)) (next_val s).
Proof.
  intros w s o I G D H.
  assert (A : alive (heap s o) = true) by (apply (i_slots s I); exact G).
  unfold pending. cbn [heap bump_val upd set_heap]. rewrite Nat.eqb_refl.
  revert A D H. generalize (heap s o). intros ob A D H. unfold modified_event, modev_cond, pval.
  destruct w, ob; cbn in *;
  repeat match goal with |- context [if ?c then _ else _] => destruct c end; cbn; auto.
Qed.
Lemma set_makes_pending : forall s i o, Inv s -> slot_get s i = Some o ->
  in_del (heap s o) = false -> (in_new (heap s o) = true \/ in_map (heap s o) = true) ->
  pending false (fst (step (SetV i) s)) o (pk (heap s o)) (next_val s) /\
  pending true (fst (step (SetW i) s)) o (pk (heap s o)) (next_val s) /\
  (in_val (heap s o) = true -> pending false (fst (step (Mut i) s)) o (pk (heap s o)) (next_val s)).
Proof.
  intros s i o I G D H. assert (Hin := slot_get_In s i o G). cbn [step]. rewrite G. cbn [fst].
  split; [apply modev_pending; auto|]. split; [apply modev_pending; auto|].
  intros V. rewrite V. cbn [fst]. apply modev_pending; auto.
Qed.
Lemma new_is_pending : forall s i, pending false (fst (step (New i) s)) (nobj s) (next_pk s) (next_val s).
Proof.
  intros s i. destruct (ok_new_obj s) as (_ & A & P & _ & N & V & D & _).
  unfold pending, pval. cbn [step fst heap slot_set set_slots bump_val bump_pk alloc]. rewrite Nat.eqb_refl. repeat split; auto.
Qed.

(* a partial expire discards the change of the named attribute only: the change of the other attribute
   stays pending (and the object stays strongly referenced: Inv) *)
Lemma partial_expire_keeps_other : forall w s i o k v, Inv s -> slot_get s i = Some o ->
  pending w s o k v -> pending w (fst (step (ExpireAttr i (negb w)) s)) o k v.
Proof.
  intros w s i o k v I G P. cbn [step]. rewrite G. destruct (persistent (heap s o)); cbn [fst]; [|exact P].
  unfold pending in *. cbn [heap upd set_heap]. rewrite Nat.eqb_refl.
  revert P. generalize (heap s o). intros ob P. unfold expire_attr, pval in *. destruct w, ob; cbn in *; exact P.
Qed.

Lemma map_consistent : forall s o, Inv s -> in_map (heap s o) = true ->
  alive (heap s o) = true /\ db_get (pk (heap s o)) (db s) <> None /\ lookup (pk (heap s o)) s = Some o.
Proof.
  intros s o I M. split; [apply map_alive; auto|]. split; [apply (i_map_row s I); auto|apply lookup_unique; auto].
Qed.
Lemma pending_identity_stable : forall w s o k v, Inv s -> pending w s o k v -> in_map (heap s o) = true ->
  lookup k s = Some o.
Proof. intros w s o k v I (_ & Pk & _) M. subst k. apply lookup_unique; auto. Qed.

Lemma unmodified_unreferenced_may_be_released : forall s o, Inv s ->
  in_map (heap s o) = true -> modified (heap s o) = false -> in_del (heap s o) = false ->
  app_ref s o = false -> (forall p, alive (heap s p) = true -> link (heap s p) <> Some o) ->
  let s' := collect [o] s in
  alive (heap s' o) = false /\ in_map (heap s' o) = false /\ lookup (pk (heap s o)) s' = None /\
  db s' = db s /\ (forall p, p <> o -> heap s' p = heap s p) /\ Inv s'.
Proof.
  intros s o I M Md D AR NL s'.
  assert (A := map_alive s o I M).
  assert (U := okb_clean_unrooted _ (i_ok s I o) M Md D).
  assert (NR : memb o (reach s) = false).
  { destruct (memb o (reach s)) eqn:E; auto. apply memb_In in E. apply (reach_inv s o I) in E.
    destruct E as [E|[p [Ap Lp]]].
    - rewrite rooted_eq, AR, U, andb_false_r in E. discriminate.
    - exfalso. apply (NL p Ap Lp). }
  assert (Ho : heap s' o = free_obj (heap s o)).
  { unfold s'. rewrite collect_heap. cbv zeta. rewrite A, NR. simpl. rewrite Nat.eqb_refl. reflexivity. }
  assert (Hp : forall p, p <> o -> heap s' p = heap s p).
  { intros p Np. unfold s'. rewrite collect_heap. cbv zeta. simpl.
    destruct (Nat.eqb p o) eqn:E; [apply Nat.eqb_eq in E; contradiction|reflexivity]. }
  assert (I' : Inv s') by (apply inv_collect; exact I).
  split; [rewrite Ho; destruct (heap s o); reflexivity|].
  split; [rewrite Ho; destruct (heap s o); reflexivity|].
  split; [|split; [reflexivity|split; [exact Hp|exact I']]].
  destruct (lookup (pk (heap s o)) s') as [x|] eqn:Lk; auto.
  exfalso. destruct (lookup_some s' _ x Lk) as [Mx Px].
  destruct (Nat.eq_dec x o) as [->|Nx].
  - rewrite Ho in Mx. destruct (heap s o); discriminate.
  - rewrite (Hp x Nx) in Mx, Px. apply Nx. apply (i_map_inj s I); auto.
Qed.

Lemma existsb_filter_len : forall {A} (f : A -> bool) l, existsb f l = true -> 0 < length (filter f l).
Proof.
  intros A f l. induction l as [|x l IH]; simpl; [discriminate|].
  destruct (f x); simpl; [lia|auto].
Qed.
Lemma rc_zero_unreachable : forall s o, Inv s -> alive (heap s o) = true -> refcount s o = 0 -> ~ In o (reach s).
Proof.
  intros s o I A Hz H. apply (reach_inv s o I) in H. unfold refcount in Hz. cbv zeta in Hz.
  destruct H as [H|[p [Ap Lp]]].
  - unfold rooted in H. rewrite A in H. simpl in H. unfold app_ref in H.
    destruct (existsb (is_ref o) (slots s)) eqn:E1; [apply existsb_filter_len in E1; lia|].
    destruct (is_ref o (local s)), (in_new (heap s o)), (in_del (heap s o)), (strong (heap s o));
      cbn [b2n] in Hz; lia || discriminate.
  - assert (L := alive_lt s p I Ap).
    assert (E : existsb (fun p => let q := heap s p in alive q && is_ref o (link q)) (oids s) = true).
    { apply existsb_exists. exists p. split; [apply in_seq; lia|]. cbv zeta. rewrite Ap, Lp. simpl. apply Nat.eqb_refl. }
    apply existsb_filter_len in E. cbv zeta in E. lia.
Qed.
