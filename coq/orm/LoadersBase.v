(* C40 - generic list lemmas: lexicographic keys, insertion sort, first-occurrence uniquing,
   uniqueness of sorted duplicate-free lists, slice, chunks. *)
From Coq Require Import List ZArith Bool Lia Sorting.Sorted Permutation.
Import ListNotations.
From SAV.orm Require Import Loaders.
Open Scope Z_scope.

Lemma lex_le_refl : forall a, lex_le a a = true.
Proof. induction a as [|x a IH]; cbn [lex_le]; auto. rewrite Z.eqb_refl, IH. apply orb_true_r. Qed.

Lemma lex_le_total : forall a b, lex_le a b = true \/ lex_le b a = true.
Proof.
  induction a as [|x a IH]; intros [|y b]; cbn [lex_le]; auto.
  destruct (Z.ltb_spec x y); [left; reflexivity|].
  destruct (Z.ltb_spec y x); [right; reflexivity|].
  assert (x = y) by lia. subst y. rewrite Z.eqb_refl. cbn. apply IH.
Qed.

Lemma lex_le_trans : forall a b c, lex_le a b = true -> lex_le b c = true -> lex_le a c = true.
Proof.
  induction a as [|x a IH]; intros [|y b] [|z c]; cbn [lex_le]; auto; try discriminate.
  intros H1 H2.
  apply orb_true_iff in H1. apply orb_true_iff in H2. apply orb_true_iff.
  destruct H1 as [H1|H1], H2 as [H2|H2].
  - left. apply Z.ltb_lt in H1, H2. apply Z.ltb_lt. lia.
  - apply andb_true_iff in H2 as [E _]. apply Z.eqb_eq in E. subst. left; auto.
  - apply andb_true_iff in H1 as [E _]. apply Z.eqb_eq in E. subst. left; auto.
  - apply andb_true_iff in H1 as [E1 L1]. apply andb_true_iff in H2 as [E2 L2].
    apply Z.eqb_eq in E1, E2. subst. right. rewrite Z.eqb_refl. cbn. eapply IH; eauto.
Qed.

Lemma lex_le_antisym : forall a b, lex_le a b = true -> lex_le b a = true -> a = b.
Proof.
  induction a as [|x a IH]; intros [|y b]; cbn [lex_le]; auto; try discriminate.
  intros H1 H2. apply orb_true_iff in H1. apply orb_true_iff in H2.
  destruct H1 as [H1|H1], H2 as [H2|H2];
    try (apply Z.ltb_lt in H1); try (apply Z.ltb_lt in H2);
    try (apply andb_true_iff in H1 as [E1 L1]; apply Z.eqb_eq in E1);
    try (apply andb_true_iff in H2 as [E2 L2]; apply Z.eqb_eq in E2); try lia.
  subst. f_equal. auto.
Qed.

Lemma lex_le_app_same : forall k x y, lex_le (k ++ x) (k ++ y) = lex_le x y.
Proof.
  induction k as [|a k IH]; intros; cbn [app lex_le]; auto.
  rewrite Z.ltb_irrefl, Z.eqb_refl. cbn. apply IH.
Qed.

Lemma lex_le_app_len : forall ka kb x y, length ka = length kb ->
  lex_le (ka ++ x) (kb ++ y) = true -> lex_le ka kb = true.
Proof.
  induction ka as [|a ka IH]; intros [|b kb] x y HL H; cbn in HL; try discriminate; auto.
  cbn [app lex_le] in *. apply orb_true_iff in H. apply orb_true_iff. destruct H as [H|H]; auto.
  apply andb_true_iff in H as [E L]. right. rewrite E. cbn. eapply IH; eauto.
Qed.

Lemma lz_eqb_eq : forall a b, lz_eqb a b = true <-> a = b.
Proof.
  induction a as [|x a IH]; intros [|y b]; cbn [lz_eqb]; split; intro H; try discriminate; auto.
  - apply andb_true_iff in H as [E L]. apply Z.eqb_eq in E. apply IH in L. subst; auto.
  - inversion H; subst. rewrite Z.eqb_refl. cbn. apply IH; auto.
Qed.
Lemma lz_eqb_refl : forall a, lz_eqb a a = true.
Proof. intro; apply lz_eqb_eq; auto. Qed.
Lemma lz_eqb_neq : forall a b, lz_eqb a b = false <-> a <> b.
Proof.
  intros. split; intro H.
  - intro E. apply lz_eqb_eq in E. congruence.
  - destruct (lz_eqb a b) eqn:E; auto. apply lz_eqb_eq in E. contradiction.
Qed.

Lemma filter_all_id : forall {A} (f : A -> bool) l, (forall y, In y l -> f y = true) -> filter f l = l.
Proof. induction l as [|a l IH]; intro H; cbn; auto. rewrite (H a) by (cbn; auto). f_equal. apply IH. intros; apply H; cbn; auto. Qed.

Lemma filter_none : forall {A} (f : A -> bool) l, (forall y, In y l -> f y = false) -> filter f l = [].
Proof. induction l as [|a l IH]; intro H; cbn; auto. rewrite (H a) by (cbn; auto). apply IH. intros; apply H; cbn; auto. Qed.

Lemma filter_map_swap : forall {A B} (g : A -> B) (f : B -> bool) l, filter f (map g l) = map g (filter (fun a => f (g a)) l).
Proof. induction l as [|a l IH]; cbn; auto. destruct (f (g a)); cbn; rewrite IH; auto. Qed.

Lemma last_cons_default : forall {A} (l : list A) a d, last (a :: l) d = last l a.
Proof. induction l as [|b l IH]; intros; auto. cbn [last] in *. destruct l; auto. Qed.

Lemma firstn_in : forall {A} n (l : list A) x, In x (firstn n l) -> In x l.
Proof. intros. rewrite <- (firstn_skipn n l). apply in_or_app; auto. Qed.
Lemma firstn_S_in : forall {A} n (l : list A) x, In x (firstn n l) -> In x (firstn (S n) l).
Proof. induction n as [|n IH]; intros [|a l] x H; try contradiction. destruct H; [left|right]; auto. Qed.

Lemma slice_in : forall {A} lim off (l : list A) x, In x (slice lim off l) -> In x l.
Proof.
  intros A lim off l x H. unfold slice in H. destruct lim as [n|]; [apply firstn_in in H|];
    (destruct off as [m|]; auto; rewrite <- (firstn_skipn m l); apply in_or_app; auto).
Qed.
Lemma slice_map : forall {A B} (f : A -> B) lim off l, slice lim off (map f l) = map f (slice lim off l).
Proof. intros. unfold slice. destruct off, lim; rewrite ?skipn_map, ?firstn_map; auto. Qed.
Lemma slice_none : forall {A} (l : list A), slice None None l = l.
Proof. reflexivity. Qed.

Lemma NoDup_map_inj : forall {A B} (f : A -> B) l a b, NoDup (map f l) -> In a l -> In b l -> f a = f b -> a = b.
Proof.
  induction l as [|x l IH]; intros a b N Ha Hb E; [contradiction|]. cbn in N. inversion N; subst.
  destruct Ha as [->|Ha], Hb as [->|Hb]; auto; exfalso; apply H1; [rewrite E|rewrite <- E]; apply in_map; auto.
Qed.
Lemma NoDup_map_filter : forall {A B} (k : A -> B) f l, NoDup (map k l) -> NoDup (map k (filter f l)).
Proof.
  induction l as [|a l IH]; cbn; intro N; auto. inversion N as [|? ? Hn Hd]; subst.
  destruct (f a); cbn; auto. constructor; auto. intro Hin. apply Hn. revert Hin. apply incl_map, incl_filter.
Qed.
Lemma NoDup_map_finer : forall {A B C} (f : A -> B) (g : A -> C) l,
  (forall a b, In a l -> In b l -> g a = g b -> f a = f b) -> NoDup (map f l) -> NoDup (map g l).
Proof.
  induction l as [|x l IH]; cbn; intros H N; constructor; inversion N as [|? ? Hn Hd]; subst; auto.
  intro Hin. apply Hn. apply in_map_iff in Hin as [y [E Hy]]. rewrite <- (H y x) by auto. apply in_map; auto.
Qed.
Lemma NoDup_map_key : forall {A B} (f : A -> B) l, NoDup (map f l) -> NoDup l.
Proof. intros A B f l. apply NoDup_map_inv. Qed.

Lemma NoDup_alleq : forall {A} (l : list A), NoDup l -> (forall a b, In a l -> In b l -> a = b) ->
  l = [] \/ exists a, l = [a].
Proof.
  intros A [|a [|b l]] N H; eauto. exfalso. inversion N; subst. apply H2. rewrite (H a b); cbn; auto.
Qed.

Lemma combine_map_r : forall {A B} (g : A -> B) l, combine l (map g l) = map (fun x => (x, g x)) l.
Proof. induction l as [|a l IH]; cbn; auto. rewrite IH. auto. Qed.
Lemma map_combine_maps : forall {A B C D} (h : B * C -> D) (f : A -> B) (g : A -> C) l,
  map h (combine (map f l) (map g l)) = map (fun x => h (f x, g x)) l.
Proof. induction l as [|a l IH]; cbn; auto. rewrite IH. auto. Qed.

Section Sorting.
  Context {A : Type}.
  Variable key : A -> list Z.

  Definition kle (a b : A) : Prop := lex_le (key a) (key b) = true.
  Definition sorted (l : list A) : Prop := StronglySorted kle l.

  Lemma sort_by_cons : forall x l, sort_by key (x :: l) = insert_by key x (sort_by key l).
  Proof. reflexivity. Qed.

  Lemma insert_by_in : forall x y l, In y (insert_by key x l) <-> y = x \/ In y l.
  Proof.
    induction l as [|z l IH]; cbn [insert_by]; [cbn; intuition|].
    destruct (lex_le (key x) (key z)); cbn [In]; [intuition|]. rewrite IH. intuition.
  Qed.
  Lemma sort_by_in : forall l y, In y (sort_by key l) <-> In y l.
  Proof.
    induction l as [|x l IH]; intro y; [tauto|]. rewrite sort_by_cons, insert_by_in, IH. cbn. intuition.
  Qed.

  Lemma insert_by_perm : forall x l, Permutation (insert_by key x l) (x :: l).
  Proof.
    induction l as [|z l IH]; cbn [insert_by]; auto.
    destruct (lex_le (key x) (key z)); auto.
    eapply perm_trans; [apply perm_skip, IH|apply perm_swap].
  Qed.
  Lemma sort_by_perm : forall l, Permutation (sort_by key l) l.
  Proof.
    induction l as [|x l IH]; auto. rewrite sort_by_cons.
    eapply perm_trans; [apply insert_by_perm|]. auto.
  Qed.
  Lemma sort_by_NoDup : forall l, NoDup l -> NoDup (sort_by key l).
  Proof. intro l. apply Permutation_NoDup, Permutation_sym, sort_by_perm. Qed.

  Lemma insert_by_sorted : forall x l, sorted l -> sorted (insert_by key x l).
  Proof.
    induction l as [|z l IH]; intro S; cbn [insert_by].
    - constructor; constructor.
    - inversion S as [|? ? S' F]; subst.
      destruct (lex_le (key x) (key z)) eqn:E.
      + constructor; auto. constructor; auto.
        eapply Forall_impl; [|exact F]. intros a Ha. unfold kle in *. eapply lex_le_trans; eauto.
      + constructor; [apply IH; auto|].
        apply Forall_forall. intros a Ha. apply insert_by_in in Ha as [->|Ha].
        * unfold kle. destruct (lex_le_total (key x) (key z)); congruence.
        * rewrite Forall_forall in F. auto.
  Qed.
  Lemma sort_by_sorted : forall l, sorted (sort_by key l).
  Proof.
    induction l as [|x l IH]; [constructor|]. rewrite sort_by_cons. apply insert_by_sorted. exact IH.
  Qed.

  Lemma sorted_filter : forall f l, sorted l -> sorted (filter f l).
  Proof.
    induction l as [|x l IH]; intro S; cbn; [constructor|].
    inversion S as [|? ? S' F]; subst. destruct (f x); [|apply IH; auto].
    constructor; [apply IH; auto|]. eapply incl_Forall; [apply incl_filter|exact F].
  Qed.
  Lemma sorted_app_inv : forall l1 l2, sorted (l1 ++ l2) -> sorted l1 /\ sorted l2.
  Proof.
    induction l1 as [|x l1 IH]; cbn; intros l2 S; [split; [constructor|auto]|].
    inversion S as [|? ? S' F]; subst. destruct (IH _ S'). apply Forall_app in F as [F _].
    split; auto. constructor; auto.
  Qed.
  Lemma sorted_slice : forall lim off l, sorted l -> sorted (slice lim off l).
  Proof.
    intros lim off l S. unfold slice.
    assert (S' : sorted (match off with Some n => skipn n l | None => l end)).
    { destruct off as [n|]; auto. rewrite <- (firstn_skipn n l) in S. apply sorted_app_inv in S. tauto. }
    destruct lim as [n|]; auto. rewrite <- (firstn_skipn n _) in S'. apply sorted_app_inv in S'. tauto.
  Qed.

  Lemma insert_by_front : forall x l, Forall (kle x) l -> insert_by key x l = x :: l.
  Proof. intros x [|z l] F; cbn; auto. inversion F; subst. unfold kle in *. rewrite H1. auto. Qed.

  Lemma sort_by_sorted_id : forall l, sorted l -> sort_by key l = l.
  Proof.
    induction l as [|x l IH]; intro S; auto. inversion S; subst.
    rewrite sort_by_cons, IH by auto. apply insert_by_front; auto.
  Qed.

  Lemma sorted_all_le : forall l, (forall a b, In a l -> In b l -> kle a b) -> sorted l.
  Proof.
    induction l as [|x l IH]; intro H; constructor.
    - apply IH. intros; apply H; cbn; auto.
    - apply Forall_forall. intros; apply H; cbn; auto.
  Qed.
End Sorting.

Lemma sort_by_map : forall {A B} (ka : A -> list Z) (kb : B -> list Z) (g : A -> B) (l : list A),
  (forall a, kb (g a) = ka a) -> sort_by kb (map g l) = map g (sort_by ka l).
Proof.
  intros A B ka kb g l H. induction l as [|x l IH]; auto. cbn [map]. rewrite !sort_by_cons, IH.
  generalize (sort_by ka l). intro m.
  induction m as [|z m IHm]; cbn; auto. rewrite !H. destruct (lex_le (ka x) (ka z)); cbn; auto. rewrite IHm; auto.
Qed.

Lemma sort_by_nokey : forall {A} (key : A -> list Z) l, (forall a, In a l -> key a = []) -> sort_by key l = l.
Proof.
  intros. apply sort_by_sorted_id. apply sorted_all_le. intros a b Ha Hb. unfold kle. rewrite (H a Ha). reflexivity.
Qed.

Lemma sorted_map : forall {A B} (ka : A -> list Z) (kb : B -> list Z) (g : A -> B) l,
  sorted ka l -> (forall a b, In a l -> In b l -> kle ka a b -> kle kb (g a) (g b)) -> sorted kb (map g l).
Proof.
  intros A B ka kb g. induction l as [|x l IH]; intros S H; cbn; [constructor|].
  inversion S as [|? ? S' F]; subst. constructor.
  - apply IH; auto. intros; apply H; cbn; auto.
  - apply Forall_forall. intros y Hy. apply in_map_iff in Hy as [z [<- Hz]].
    rewrite Forall_forall in F. apply H; cbn; auto.
Qed.

Section Uniq.
  Context {A : Type}.
  Variable key : A -> list Z.

  Definition other (x y : A) : bool := negb (lz_eqb (key y) (key x)).
  Lemma uniq_by_cons : forall x r, uniq_by key (x :: r) = x :: filter (other x) (uniq_by key r).
  Proof. reflexivity. Qed.
  Lemma other_true : forall x y, other x y = true <-> key y <> key x.
  Proof. intros. unfold other. rewrite negb_true_iff. apply lz_eqb_neq. Qed.

  Lemma uniq_by_in : forall l x, In x (uniq_by key l) -> In x l.
  Proof.
    induction l as [|a l IH]; intros x H; [contradiction|]. rewrite uniq_by_cons in H.
    destruct H as [->|H]; cbn; auto. apply filter_In in H as [H _]. auto.
  Qed.
  Lemma firstn_filter_in : forall (g : A -> bool) n m y, In y (firstn n m) -> g y = true -> In y (firstn n (filter g m)).
  Proof.
    induction n as [|n IH]; intros [|b m] y H G; try contradiction. cbn [firstn filter] in *.
    destruct H as [->|H]; [rewrite G; left; auto|].
    destruct (g b); [right|apply firstn_S_in]; auto.
  Qed.

  (* LIMIT n after DISTINCT covers LIMIT n before it *)
  Lemma firstn_uniq_covers : forall l n x, In x (firstn n l) -> exists y, In y (firstn n (uniq_by key l)) /\ key y = key x.
  Proof.
    induction l as [|a l IH]; intros [|n] x H; cbn [firstn] in H; try contradiction.
    rewrite uniq_by_cons. cbn [firstn]. destruct H as [->|H]; [exists x; cbn; auto|].
    destruct (IH n x H) as [y [Hy Ky]].
    destruct (lz_eqb (key y) (key a)) eqn:E.
    - apply lz_eqb_eq in E. exists a. cbn. split; auto. congruence.
    - exists y. split; auto. right. apply firstn_filter_in; auto. unfold other. rewrite E. auto.
  Qed.
  Lemma uniq_by_complete : forall l x, In x l -> exists y, In y (uniq_by key l) /\ key y = key x.
  Proof.
    intros l x H. rewrite <- (firstn_all l) in H. destruct (firstn_uniq_covers l _ x H) as [y [Hy Ky]].
    exists y. split; auto. eapply firstn_in; eauto.
  Qed.

  Lemma uniq_by_nodup : forall l, NoDup (map key (uniq_by key l)).
  Proof.
    induction l as [|a l IH]; [constructor|]. rewrite uniq_by_cons. cbn. constructor.
    - intro Hin. apply in_map_iff in Hin as [y [Ky Hy]]. apply filter_In in Hy as [_ Hy].
      apply other_true in Hy. contradiction.
    - apply NoDup_map_filter, IH.
  Qed.
  Lemma uniq_by_NoDup : forall l, NoDup (uniq_by key l).
  Proof. intro l. eapply NoDup_map_inv, uniq_by_nodup. Qed.

  Definition key_inj (l : list A) : Prop := forall a b, In a l -> In b l -> key a = key b -> a = b.
  Lemma uniq_by_in_iff : forall l, key_inj l -> forall x, In x (uniq_by key l) <-> In x l.
  Proof.
    intros l KI x. split; [apply uniq_by_in|]. intro H.
    destruct (uniq_by_complete l x H) as [y [Hy Ky]].
    assert (y = x) by (apply KI; auto using uniq_by_in). subst; auto.
  Qed.

  Lemma uniq_by_nodup_id : forall l, NoDup (map key l) -> uniq_by key l = l.
  Proof.
    induction l as [|a l IH]; intro ND; auto. inversion ND; subst. rewrite uniq_by_cons, IH by auto. f_equal.
    apply filter_all_id. intros y Hy. apply other_true. intro E. apply H1. rewrite <- E. apply in_map; auto.
  Qed.
  Lemma uniq_by_idem : forall l, uniq_by key (uniq_by key l) = uniq_by key l.
  Proof. intro. apply uniq_by_nodup_id. apply uniq_by_nodup. Qed.

  Lemma uniq_by_sorted : forall (k2 : A -> list Z) l, sorted k2 l -> sorted k2 (uniq_by key l).
  Proof.
    induction l as [|a l IH]; intro S; [constructor|]. inversion S as [|? ? S' F]; subst. rewrite uniq_by_cons.
    constructor.
    - apply sorted_filter. auto.
    - rewrite Forall_forall in *. intros y Hy. apply filter_In in Hy as [Hy _]. apply uniq_by_in in Hy. auto.
  Qed.

End Uniq.

Lemma uniq_by_ext : forall {A} (k1 k2 : A -> list Z) l, (forall a b, In a l -> In b l -> lz_eqb (k1 a) (k1 b) = lz_eqb (k2 a) (k2 b)) ->
  uniq_by k1 l = uniq_by k2 l.
Proof.
  intros A k1 k2. induction l as [|x l IH]; intro H; auto. rewrite !uniq_by_cons. f_equal.
  rewrite <- IH by (intros; apply H; cbn; auto).
  apply filter_ext_in. intros y Hy. unfold other. f_equal. apply H; cbn; auto. right. eapply uniq_by_in; eauto.
Qed.

Lemma uniq_by_map : forall {A B} (kb : B -> list Z) (g : A -> B) (l : list A),
  uniq_by kb (map g l) = map g (uniq_by (fun a => kb (g a)) l).
Proof.
  intros. induction l as [|x l IH]; auto. cbn [map]. rewrite !uniq_by_cons, IH. cbn [map]. f_equal.
  exact (filter_map_swap g (other kb (g x)) _).
Qed.

Definition eqset {A} (l1 l2 : list A) : Prop := forall x, In x l1 <-> In x l2.

Lemma eqset_refl : forall {A} (l : list A), eqset l l.
Proof. intros A l x; tauto. Qed.
Lemma eqset_sym : forall {A} (l1 l2 : list A), eqset l1 l2 -> eqset l2 l1.
Proof. intros A l1 l2 H x. specialize (H x). tauto. Qed.
Lemma eqset_trans : forall {A} (l1 l2 l3 : list A), eqset l1 l2 -> eqset l2 l3 -> eqset l1 l3.
Proof. intros A l1 l2 l3 H1 H2 x. specialize (H1 x). specialize (H2 x). tauto. Qed.
Lemma eqset_flat_map : forall {A B} (f : A -> list B) l1 l2, eqset l1 l2 -> eqset (flat_map f l1) (flat_map f l2).
Proof. intros A B f l1 l2 H x. rewrite !in_flat_map. split; intros [y [Hy Hx]]; exists y; split; auto; apply H; auto. Qed.
Lemma eqset_filter : forall {A} (f : A -> bool) l1 l2, eqset l1 l2 -> eqset (filter f l1) (filter f l2).
Proof. intros A f l1 l2 H x. rewrite !filter_In. specialize (H x). tauto. Qed.
Lemma eqset_map : forall {A B} (f : A -> B) l1 l2, eqset l1 l2 -> eqset (map f l1) (map f l2).
Proof. intros A B f l1 l2 H x. rewrite !in_map_iff. split; intros [y [Hy Hx]]; exists y; split; auto; apply H; auto. Qed.
Lemma eqset_sort_by : forall {A} (key : A -> list Z) l, eqset (sort_by key l) l.
Proof. intros A key l x. apply sort_by_in. Qed.
Lemma eqset_nil : forall {A} (l : list A), eqset l [] -> l = [].
Proof. intros A [|a l] H; auto. exfalso. apply (H a). cbn; auto. Qed.

(* a set has one sorted duplicate-free listing, provided the key tells its elements apart *)
Lemma sorted_unique : forall {A} (key : A -> list Z) (l1 l2 : list A),
  sorted key l1 -> sorted key l2 -> NoDup l1 -> NoDup l2 -> eqset l1 l2 -> key_inj key l1 -> l1 = l2.
Proof.
  intros A key. induction l1 as [|a r1 IH]; intros l2 S1 S2 N1 N2 E KI.
  - symmetry. apply eqset_nil. apply eqset_sym; auto.
  - destruct l2 as [|b r2]; [exfalso; apply (E a); cbn; auto|].
    inversion S1 as [|? ? S1' F1]; inversion S2 as [|? ? S2' F2]; subst.
    inversion N1; inversion N2; subst. rewrite Forall_forall in F1, F2.
    assert (Hab : a = b).
    { assert (Hb : In b (a :: r1)) by (apply E; cbn; auto).
      assert (Ha : In a (b :: r2)) by (apply E; cbn; auto).
      destruct Hb as [Hb|Hb]; auto. destruct Ha as [Ha|Ha]; auto.
      apply KI; cbn; auto. apply lex_le_antisym; [apply F1|apply F2]; auto. }
    subst b. f_equal. apply IH; auto.
    + intro x. specialize (E x). cbn in E.
      split; intro Hx; [destruct (proj1 E (or_intror Hx))|destruct (proj2 E (or_intror Hx))]; auto; subst; contradiction.
    + intros x y Hx Hy. apply KI; cbn; auto.
Qed.

Lemma uniq_by_sorted_unique : forall {A} (key idk : A -> list Z) (l1 l2 : list A),
  sorted key l1 -> sorted key l2 -> eqset l1 l2 -> key_inj idk l1 -> key_inj key l1 ->
  uniq_by idk l1 = uniq_by idk l2.
Proof.
  intros A key idk l1 l2 S1 S2 E KI KK.
  assert (KI2 : key_inj idk l2) by (intros a b Ha Hb; apply KI; apply E; auto).
  apply (sorted_unique key); auto using uniq_by_sorted, uniq_by_NoDup.
  - intro x. rewrite !uniq_by_in_iff by auto. apply E.
  - intros a b Ha Hb. apply KK; eapply uniq_by_in; eauto.
Qed.

Lemma chunks_fuel_concat : forall {A} fuel n (l : list A), (1 <= n)%nat -> (length l <= fuel)%nat ->
  concat (chunks_fuel fuel n l) = l.
Proof.
  induction fuel as [|f IH]; intros n l Hn Hl.
  - destruct l; cbn in *; auto. lia.
  - destruct l as [|a l]; auto. cbn [chunks_fuel concat]. rewrite IH; auto.
    + apply firstn_skipn.
    + rewrite skipn_length. cbn [length] in *. lia.
Qed.
Lemma chunks_concat : forall {A} n (l : list A), (1 <= n)%nat -> concat (chunks n l) = l.
Proof. intros. apply chunks_fuel_concat; auto. Qed.

Lemma lookup_key_all : forall {B} (G : Z -> list B) assoc k,
  (forall p, In p assoc -> snd p = G (fst p)) -> (exists p, In p assoc /\ fst p = k) ->
  lookup_key assoc (Some k) = G k.
Proof.
  intros B G assoc k Hall [p [Hp Hk]]. unfold lookup_key.
  destruct (find (fun p => fst p =? k) assoc) as [q|] eqn:E.
  - apply find_some in E as [Hq E]. apply Z.eqb_eq in E. rewrite (Hall q Hq). congruence.
  - exfalso. eapply find_none in E; eauto. rewrite Hk, Z.eqb_refl in E. discriminate.
Qed.

Lemma somes_in : forall {A} (l : list (option A)) x, In x (somes l) <-> In (Some x) l.
Proof.
  induction l as [|[a|] l IH]; intro x; cbn; [tauto| |].
  - rewrite IH. split; intros [H|H]; auto; left; congruence.
  - rewrite IH. split; [auto|]. intros [H|H]; auto. discriminate.
Qed.

Lemma memZ_in : forall x l, memZ x l = true <-> In x l.
Proof.
  intros. unfold memZ. rewrite existsb_exists. split.
  - intros [y [Hy E]]. apply Z.eqb_eq in E. subst; auto.
  - intro H. exists x. split; auto. apply Z.eqb_refl.
Qed.

Lemma dedupeZ_in : forall l x, In x (dedupeZ l) <-> In x l.
Proof.
  intros. unfold dedupeZ. apply uniq_by_in_iff. intros a b _ _ H. congruence.
Qed.
