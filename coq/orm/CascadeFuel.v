(* C39 - the fuel of the presort loop suffices: every round but the last marks a new (processor, object) pair as done,
   and there are at most |processors| * nobj of them when the session holds only objects below nobj. *)
From Coq Require Import List Bool Arith Lia.
From SAV.orm Require Import Cascade CascadeBase CascadeIterProofs CascadeOpsProofs CascadeFlushProofs.
Import ListNotations.

Definition pair_eqb (a b : prop * nat) : bool := prop_eqb (fst a) (fst b) && Nat.eqb (snd a) (snd b).
Lemma prop_eqb_eq : forall a b, prop_eqb a b = true <-> a = b.
Proof.
  intros [x|x] [y|y]; cbn [prop_eqb]; split; intros H; try discriminate; try (apply Nat.eqb_eq in H; subst; reflexivity);
    inversion H; apply Nat.eqb_refl.
Qed.
Lemma done_mem_In : forall pr o d, done_mem pr o d = true <-> In (pr, o) d.
Proof.
  intros pr o d. unfold done_mem. rewrite existsb_exists. split.
  - intros [[p x] [Hi He]]. cbn [fst snd] in He. apply andb_true_iff in He. destruct He as [E1 E2].
    apply prop_eqb_eq in E1. apply Nat.eqb_eq in E2. subst. exact Hi.
  - intros H. exists (pr, o). split; [exact H|]. cbn [fst snd]. apply andb_true_iff. split; [apply prop_eqb_eq; reflexivity|apply Nat.eqb_refl].
Qed.

Lemma done_register : forall s u rq, done_ (register s u rq) = done_ u.
Proof.
  intros s u [[x b] c]. unfold register. destruct (in_session s x); cbn [negb]; [|reflexivity].
  destruct (reg u x); [destruct (b || c)|]; reflexivity.
Qed.

Section Fuel.
Variable cfg : config.
Variable s : state.
Variable procs : list prop.
Variable universe : list prop.          (* the processors that may occur *)
Hypothesis procs_incl : incl procs universe.
Hypothesis session_bounded : forall x, in_session s x = true -> x < nobj cfg.

Definition fuel_inv (u : uow) : Prop :=
  uow_wf s u /\ NoDup (done_ u) /\ (forall pr o, In (pr, o) (done_ u) -> In pr universe /\ o < nobj cfg).

Lemma fuel_inv_register : forall u rq, fuel_inv u -> fuel_inv (register s u rq).
Proof.
  intros u rq [W [N D]]. split; [apply uow_wf_register; exact W|]. rewrite done_register. split; assumption.
Qed.

Definition todo_of (u : uow) (pr : prop) : list nat :=
  filter (fun o => Nat.eqb (cls cfg o) (prop_class cfg pr) && negb (done_mem pr o (done_ u))) (order u).

Lemma batch_spec : forall u ch pr, In pr universe -> fuel_inv u ->
  let r := batch cfg s (u, ch) pr in
  fuel_inv (fst r) /\ length (done_ (fst r)) = length (todo_of u pr) + length (done_ u) /\
  snd r = (match todo_of u pr with [] => ch | _ => true end).
Proof.
  intros u ch pr Hpr [W [N D]]. unfold batch. cbn [fst snd]. fold (todo_of u pr).
  set (todo := todo_of u pr).
  set (u1 := mkUow (reg u) (order u) (map (fun o => (pr, o)) todo ++ done_ u)).
  assert (Htodo : forall o, In o todo -> In o (order u) /\ ~ In (pr, o) (done_ u)).
  { intros o Ho. unfold todo, todo_of in Ho. apply filter_In in Ho. destruct Ho as [H1 H2]. split; [exact H1|].
    apply andb_true_iff in H2. destruct H2 as [_ H2]. apply negb_true_iff in H2. intros F. apply done_mem_In in F. congruence. }
  assert (Ntodo : NoDup todo) by (apply NoDup_filter; apply W).
  assert (I1 : fuel_inv u1).
  { split; [exact W|]. split.
    - cbn [done_ u1]. apply NoDup_app_intro.
      + clear -Ntodo. induction todo as [|o l IHl]; cbn [map]; [constructor|]. inversion Ntodo; subst. constructor; [|apply IHl; assumption].
        intros F. apply in_map_iff in F. destruct F as [o' [E Ho']]. inversion E; subst. contradiction.
      + exact N.
      + intros [p o] H1 H2. apply in_map_iff in H1. destruct H1 as [o' [E Ho']]. inversion E; subst. apply (Htodo o Ho'). exact H2.
    - intros p o H. cbn [done_ u1] in H. apply in_app_iff in H. destruct H as [H|H]; [|apply D; exact H].
      apply in_map_iff in H. destruct H as [o' [E Ho']]. inversion E; subst. split; [exact Hpr|].
      apply session_bounded. destruct W as [_ [W2 W3]]. apply W3, W2. apply Htodo. exact Ho'. }
  split; [apply fold_left_inv; [intros u' rq _; apply fuel_inv_register|exact I1]|]. split; [|reflexivity].
  rewrite (fold_left_proj _ _ _ done_) by apply done_register. cbn [done_ u1]. rewrite app_length, map_length. reflexivity.
Qed.

Lemma procs_spec : forall ps u ch, incl ps universe -> fuel_inv u ->
  let r := fold_left (batch cfg s) ps (u, ch) in
  fuel_inv (fst r) /\ length (done_ u) <= length (done_ (fst r)) /\
  (snd r = true -> ch = true \/ length (done_ u) < length (done_ (fst r))) /\
  (ch = true -> snd r = true).
Proof.
  induction ps as [|pr ps IH]; intros u ch Hi Hu; cbn [fold_left].
  - cbn [fst snd]. split; [exact Hu|]. split; [lia|]. split; [intros E; left; exact E|auto].
  - assert (Hpr : In pr universe) by (apply Hi; left; reflexivity).
    pose proof (batch_spec u ch pr Hpr Hu) as B. cbv zeta in B. destruct B as [B1 [B2 B3]].
    destruct (batch cfg s (u, ch) pr) as [u1 ch1]. cbn [fst snd] in *.
    assert (Hi' : incl ps universe) by (intros x Hx; apply Hi; right; exact Hx).
    pose proof (IH u1 ch1 Hi' B1) as I. cbv zeta in I. destruct I as [I1 [I2 [I3 I4]]].
    split; [exact I1|]. split; [lia|]. split.
    + intros E. destruct (I3 E) as [E1|E1]; [|right; lia]. rewrite B3 in E1.
      destruct (todo_of u pr) as [|o l] eqn:T; [left; exact E1|right]. cbn [length] in B2. lia.
    + intros E. apply I4. rewrite B3. destruct (todo_of u pr); [exact E|reflexivity].
Qed.

Lemma NoDup_pairs_bound : forall (d : list (prop * nat)) (us : list prop) (n : nat),
  NoDup d -> (forall pr o, In (pr, o) d -> In pr us /\ o < n) -> length d <= length us * n.
Proof.
  intros d us n Hnd H. rewrite <- (seq_length n 0), <- prod_length.
  apply NoDup_incl_length; [exact Hnd|]. intros [pr o] Hi. apply in_prod; [apply (H pr o Hi)|].
  apply in_seq. destruct (H pr o Hi). lia.
Qed.

Lemma presort_enough_fuel : forall fuel u,
  fuel_inv u -> length universe * nobj cfg < fuel + length (done_ u) -> presort cfg s procs fuel u <> None.
Proof.
  induction fuel as [|f IH]; intros u Hu Hf.
  - destruct Hu as [_ [N D]]. pose proof (NoDup_pairs_bound (done_ u) universe (nobj cfg) N D). cbn [plus] in Hf. lia.
  - cbn [presort]. pose proof (procs_spec procs u false procs_incl Hu) as PS. cbv zeta in PS. destruct PS as [P1 [P2 [P3 _]]].
    destruct (fold_left (batch cfg s) procs (u, false)) as [u1 ch]. cbn [fst snd] in *.
    destruct ch; [|discriminate]. apply IH; [exact P1|]. destruct (P3 eq_refl) as [E|E]; [discriminate|lia].
Qed.
End Fuel.

Lemma uow0_fuel_inv : forall cfg s universe, fuel_inv cfg s universe uow0.
Proof. intros. split; [apply uow_wf0|]. split; [constructor|intros pr o []]. Qed.

Lemma top_fuel_inv : forall cfg s universe,
  fuel_inv cfg (fst (flush_top cfg s)) universe (snd (flush_top cfg s)).
Proof.
  intros cfg s universe. split; [apply uow_wf_top|].
  assert (E : done_ (snd (flush_top cfg s)) = []).
  { unfold flush_top. cbn [snd]. rewrite !(fold_left_proj _ _ _ done_); [reflexivity| |]; intros u c.
    - unfold top_register. destruct (top_expunge cfg s c); [reflexivity|apply done_register].
    - unfold top_marked. destruct (_ && _); [|reflexivity]. destruct (reg u c); [reflexivity|apply done_register]. }
  rewrite E. split; [constructor|intros pr o []].
Qed.

Theorem flush_fuel_suffices : forall cfg procs s,
  incl procs (all_procs cfg) -> (forall x, in_session s x = true -> x < nobj cfg) ->
  presort cfg (fst (flush_top cfg s)) procs (presort_fuel cfg) (snd (flush_top cfg s)) <> None.
Proof.
  intros cfg procs s Hi Hb. apply (presort_enough_fuel cfg (fst (flush_top cfg s)) procs (all_procs cfg) Hi).
  - intros x Hx. rewrite flush_top_in_session in Hx. apply andb_true_iff in Hx. apply Hb, Hx.
  - apply top_fuel_inv.
  - unfold presort_fuel. lia.
Qed.
