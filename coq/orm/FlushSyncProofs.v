(* C30 - proofs for the composite natural key model: after a flush at the end of any history the child rows
   carry the CURRENT key of their parent in every column, for keys of any number of columns *)
From Coq Require Import List NArith ZArith Bool Lia.
Import ListNotations.
From SAV.orm Require Import FlushSync FlushLists.
Local Open Scope N_scope.

(* "no synchronize pair has a deleted history" means the key is unchanged - for ANY number of pairs *)
Lemma source_modified_false old new : length old = length new -> source_modified old new = false -> old = new.
Proof. revert new. induction old as [|o os IH]; intros [|n ns] L H; simpl in *; try reflexivity; try discriminate.
  destruct (Z.eqb o n) eqn:E; simpl in H; [|discriminate]. apply Z.eqb_eq in E. subst. f_equal. apply IH; [lia|exact H]. Qed.
Lemma source_modified_true old new : source_modified old new = true -> old <> new.
Proof. revert new. induction old as [|o os IH]; intros [|n ns] H; simpl in *; try discriminate.
  destruct (Z.eqb o n) eqn:E; simpl in H.
  - intros X. inversion X. apply (IH ns H). assumption.
  - intros X. inversion X. subst. rewrite Z.eqb_refl in E. discriminate. Qed.

(* looking at the first pair only is NOT enough *)
Definition first_pair_only (old new : list Z) : bool :=
  match old, new with o :: _, n :: _ => negb (Z.eqb o n) | _, _ => false end.
Lemma first_pair_only_insufficient : exists old new, length old = length new /\ first_pair_only old new = false /\ old <> new.
Proof. exists [1%Z; 2%Z], [1%Z; 3%Z]. repeat split. discriminate. Qed.

Lemma lassoc_map {A} (f : chd -> A) l i :
  lassoc i (map (fun c => (c_id c, f c)) l) = option_map f (find (fun c => N.eqb (c_id c) i) l).
Proof. induction l as [|a l IH]; simpl; [reflexivity|]. destruct (N.eqb (c_id a) i); [reflexivity|exact IH]. Qed.

Lemma find_map_cid (f : chd -> chd) l i : (forall c, c_id (f c) = c_id c) ->
  find (fun c => N.eqb (c_id c) i) (map f l) = match find (fun c => N.eqb (c_id c) i) l with Some c => Some (f c) | None => None end.
Proof. apply (find_key_map c_id). Qed.

(* the key of the parent's row *)
Definition committed_fk (s : nstate) (p : option N) : option (list Z) :=
  match p with Some p' => match get_par s p' with Some x => Some (p_old x) | None => None end | None => None end.

Record NInv (s : nstate) : Prop := {
  n_nodup : NoDup (map c_id (chds s));
  n_st : forall c, In c (chds s) -> c_st c = 1 \/ c_st c = 2;
  n_len : forall p, In p (pars s) -> length (p_key p) = length (p_old p);
  n_ref : forall c, In c (chds s) -> forall p', c_par c = Some p' ->
            exists x, get_par s p' = Some x /\ (c_pd c = false -> c_st c = 2 -> p_st x = 2);
  n_row : forall c, In c (chds s) -> c_st c = 2 -> c_pd c = false -> lassoc (c_id c) (crow s) = Some (committed_fk s (c_par c))
}.

Lemma ninv_empty : NInv nempty.
Proof. constructor; simpl; try (intros; contradiction). constructor. Qed.

Lemma set_nth_length j v l : length (set_nth j v l) = length l.
Proof. revert j. induction l as [|a l IH]; intros [|j]; simpl; auto. Qed.

(* Changing the parents: the invariant sees a parent through its existence, its state and, once it is persistent,
   the key of its row. *)
Lemma ninv_pars s l : NInv s ->
  (forall p, In p l -> length (p_key p) = length (p_old p)) ->
  (forall q x, get_par s q = Some x ->
     exists x', find (fun p => N.eqb (p_id p) q) l = Some x' /\ p_st x' = p_st x /\ (p_st x = 2 -> p_old x' = p_old x)) ->
  NInv {| pars := l; chds := chds s; prow := prow s; crow := crow s |}.
Proof. intros Hi Hl Hg. constructor; simpl; [apply Hi|apply Hi|exact Hl| |].
  - intros c Hc p' Hp. destruct (n_ref _ Hi c Hc p' Hp) as [x [A B]]. destruct (Hg _ _ A) as [x' [A' [S _]]].
    exists x'. split; [exact A'|]. rewrite S. exact B.
  - intros c Hc S D. rewrite (n_row _ Hi c Hc S D). f_equal. unfold committed_fk. destruct (c_par c) as [p'|] eqn:E; [|reflexivity].
    destruct (n_ref _ Hi c Hc p' E) as [x [A B]]. destruct (Hg _ _ A) as [x' [A' [_ O]]].
    unfold get_par at 2. simpl. rewrite A', A, (O (B D S)). reflexivity.
Qed.

(* Changing the children: a child that is new or re-parented is pending or has relationship history, so the invariant
   asks only that its parent exists. *)
Lemma ninv_chds s l : NInv s -> NoDup (map c_id l) ->
  (forall c, In c l -> In c (chds s) \/
     ((c_st c = 1 \/ c_st c = 2) /\ (c_st c = 1 \/ c_pd c = true) /\ forall p', c_par c = Some p' -> get_par s p' <> None)) ->
  NInv {| pars := pars s; chds := l; prow := prow s; crow := crow s |}.
Proof. intros Hi Hn Hl. constructor; simpl; [exact Hn| |apply Hi| |].
  - intros c Hc. destruct (Hl c Hc) as [H|[H _]]; [apply Hi, H|exact H].
  - intros c Hc p' Hp. destruct (Hl c Hc) as [H|[_ [H1 H2]]]; [apply (n_ref _ Hi c H p' Hp)|].
    change (get_par _ p') with (get_par s p'). destruct (get_par s p') as [x|] eqn:G; [|destruct (H2 p' Hp G)].
    exists x. split; [reflexivity|]. intros D S. destruct H1; congruence.
  - intros c Hc S D. destruct (Hl c Hc) as [H|[_ [[H1|H1] _]]]; [apply (n_row _ Hi c H S D)|congruence|congruence].
Qed.

Lemma ninv_step n s o : NInv s -> NInv (nstep n s o).
Proof.
  intros Hi. destruct o as [i k|i|c p|p j v|]; simpl; try exact Hi.
  - destruct (get_par s i) eqn:G; [exact Hi|]. destruct (_ && _); [|exact Hi]. apply ninv_pars; [exact Hi| |].
    + intros p Hp. apply in_app_or in Hp as [Hp|[<-|[]]]; [apply Hi, Hp|reflexivity].
    + intros q x H. exists x. rewrite find_app. unfold get_par in H. rewrite H. auto.
  - destruct (get_chd s i) eqn:G; [exact Hi|]. apply ninv_chds; [exact Hi| |].
    + rewrite map_app. apply NoDup_app_intro; [apply Hi|repeat constructor; intros []|].
      intros x X [<-|[]]. apply (find_key_none c_id) in G. contradiction.
    + intros c Hc. apply in_app_or in Hc as [Hc|[<-|[]]]; [left; exact Hc|right]. simpl. repeat split; auto. discriminate.
  - destruct (get_chd s c) eqn:G; [|exact Hi].
    destruct (match p with Some p' => match get_par s p' with Some _ => true | None => false end | None => true end) eqn:Pe; [|exact Hi].
    apply ninv_chds; [exact Hi| |].
    + rewrite map_map. erewrite map_ext; [apply Hi|]. intros x. destruct (N.eqb (c_id x) c); reflexivity.
    + intros x Hx. apply in_map_iff in Hx as [x0 [<- Hx]]. destruct (N.eqb (c_id x0) c); [right|left; exact Hx].
      simpl. split; [apply Hi, Hx|]. split; [auto|]. intros p' ->. destruct (get_par s p'); discriminate.
  - destruct (get_par s p) as [x|] eqn:G; [|exact Hi]. destruct (_ && _); [|exact Hi]. apply ninv_pars; [exact Hi| |].
    + intros y Hy. apply in_map_iff in Hy as [y0 [<- Hy]]. pose proof (n_len _ Hi y0 Hy) as L.
      destruct (N.eqb (p_id y0) p); [|exact L]. simpl. destruct (N.eqb (p_st y0) 1); [reflexivity|]. rewrite set_nth_length. exact L.
    + intros q y H. rewrite (find_key_map p_id) by (intros z; destruct (N.eqb (p_id z) p); reflexivity).
      unfold get_par in H. rewrite H. eexists. split; [reflexivity|]. destruct (N.eqb (p_id y) p); simpl; [|auto].
      split; [reflexivity|]. intros ->. reflexivity.
Qed.

Definition fpar (p : par) : par := {| p_id := p_id p; p_st := 2; p_key := p_key p; p_old := p_key p |}.
Lemma get_par_flush s q : get_par (nflush s) q = match get_par s q with Some y => Some (fpar y) | None => None end.
Proof. apply (find_key_map p_id fpar). reflexivity. Qed.
Lemma fk_from_flush s p : fk_from (nflush s) p = fk_from s p.
Proof. unfold fk_from. destruct p as [p'|]; [|reflexivity]. rewrite get_par_flush. destruct (get_par s p'); reflexivity. Qed.

Theorem nflush_spec s : NInv s -> prow (nflush s) = spec_prow (nflush s) /\ crow (nflush s) = spec_crow (nflush s).
Proof.
  intros Hi. split.
  - unfold spec_prow. simpl. rewrite map_map. reflexivity.
  - unfold spec_crow. simpl. rewrite map_map. apply map_ext_in. intros c Hc. simpl. f_equal. rewrite fk_from_flush.
    destruct (N.eqb (c_st c) 1 || c_pd c) eqn:E; [reflexivity|]. apply orb_false_iff in E. destruct E as [E1 E2].
    assert (S2 : c_st c = 2) by (destruct (n_st _ Hi c Hc) as [X|X]; [rewrite X in E1; discriminate|exact X]).
    pose proof (n_row _ Hi c Hc S2 E2) as R. rewrite R. unfold committed_fk, fk_from.
    destruct (c_par c) as [p'|] eqn:Ep; [|reflexivity].
    destruct (n_ref _ Hi c Hc p' Ep) as [x [A B]]. rewrite A. rewrite (B E2 S2). simpl.
    destruct (source_modified (p_old x) (p_key x)) eqn:M; [reflexivity|].
    apply (find_key_in p_id) in A as [A _]. f_equal. apply source_modified_false; [symmetry; apply (n_len _ Hi x A)|exact M].
Qed.

Lemma ninv_flush s : NInv s -> NInv (nflush s).
Proof. intros Hi. destruct (nflush_spec s Hi) as [_ C].
  assert (Hn : NoDup (map c_id (chds (nflush s)))) by (simpl; rewrite map_map; apply Hi).
  constructor; simpl; [exact Hn|..].
  - intros c Hc. apply in_map_iff in Hc. destruct Hc as [c0 [<- _]]. right. reflexivity.
  - intros p Hp. apply in_map_iff in Hp. destruct Hp as [p0 [<- _]]. reflexivity.
  - intros c Hc p' Hp. apply in_map_iff in Hc. destruct Hc as [c0 [<- Hc]]. simpl in Hp.
    destruct (n_ref _ Hi c0 Hc p' Hp) as [x [A _]]. exists (fpar x). split; [rewrite get_par_flush, A; reflexivity|reflexivity].
  - intros c Hc _ _. change (lassoc (c_id c) (crow (nflush s)) = Some (committed_fk (nflush s) (c_par c))). rewrite C.
    unfold spec_crow. rewrite (lassoc_map (fun c => fk_from (nflush s) (c_par c))), (find_key_nodup c_id _ c Hn Hc). simpl. f_equal.
    (* after a flush the key of the row is the current key *)
    unfold fk_from, committed_fk. destruct (c_par c) as [p'|]; [|reflexivity]. rewrite get_par_flush. destruct (get_par s p'); reflexivity.
Qed.

Theorem ninv_history n : forall h s, NInv s -> NInv (napply n s h).
Proof. apply fold_left_inv. intros s o Hi. destruct o; try (apply ninv_step, Hi). apply ninv_flush, Hi. Qed.

(* after a flush at the end of ANY history, for keys of ANY number of columns: the parent rows carry the
   current keys and every child row carries, in every column, the current key of its parent (or NULL) *)
Theorem key_change_writes_graph_main : forall n h, let s := nflush (napply n nempty h) in
  prow s = spec_prow s /\ crow s = spec_crow s.
Proof. intros n h s. apply nflush_spec. apply ninv_history, ninv_empty. Qed.
