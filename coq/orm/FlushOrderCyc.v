(* C31 - the three facts about find_cycles that the main theorem needs ([cyc_ok]) hold for the cycle set of
   the model, for every graph: they follow from the shape of the per-property dependency tables *)
From Coq Require Import List NArith Bool Lia.
Import ListNotations.
From SAV.util Require Import TopoProofs CyclesSound.
From SAV.orm Require Import FlushOrder FlushOrderSpec FlushOrderBase FlushOrderCover FlushOrderTotal.
Local Open Scope N_scope.

Inductive acl := CSave | CDel | CProcF | CProcT | CPostF | CPostT | COther.
Definition acls (a : action) : acl :=
  match a with
  | SaveAll _ => CSave | DelAll _ => CDel
  | ProcAll _ false => CProcF | ProcAll _ true => CProcT
  | PostAll _ false => CPostF | PostAll _ true => CPostT
  | _ => COther end.
Definition rcls (r : role) : acl :=
  match r with
  | PSaves | CSaves => CSave | PDels | CDels => CDel | AfterSave => CProcF | BeforeDel => CProcT
  | CPost | PPost => CPostF | CPre | PPre => CPostT end.
Lemma rcls_act d r : acls (role_act d r) = rcls r.
Proof. destruct r; reflexivity. Qed.

Definition acl_eqb (a b : acl) : bool :=
  match a, b with CSave, CSave | CDel, CDel | CProcF, CProcF | CProcT, CProcT | CPostF, CPostF | CPostT, CPostT | COther, COther => true | _, _ => false end.
Definition role_eqb (a b : role) : bool :=
  match a, b with PSaves, PSaves | CSaves, CSaves | PDels, PDels | CDels, CDels | AfterSave, AfterSave | BeforeDel, BeforeDel
                | CPost, CPost | CPre, CPre | PPost, PPost | PPre, PPre => true | _, _ => false end.
Lemma role_eqb_eq a b : role_eqb a b = true -> a = b.
Proof. destruct a, b; simpl; intros H; try reflexivity; discriminate. Qed.

(* what the tables allow, as one boolean per entry *)
Definition trans_ok (c1 c2 : acl) : bool :=
  match c1, c2 with
  | CSave, CDel | CSave, CProcF | CProcF, CSave | CProcF, CDel | CDel, CDel | CProcT, CSave | CProcT, CDel
  | CProcF, CPostF | CProcF, CPostT | CProcT, CPostT | CPostT, CDel => true
  | _, _ => false end.
Definition pair_ok (k : N) (p : bool) (rr : role * role) : bool :=
    trans_ok (rcls (fst rr)) (rcls (snd rr)) &&
    (* into AfterSave: from the saves; the one-to-many table only from the parent, the many-to-one one only from the child *)
    (negb (role_eqb (snd rr) AfterSave) ||
       (if N.eqb k 0 && negb p then role_eqb (fst rr) PSaves
        else if N.eqb k 1 && negb p then role_eqb (fst rr) CSaves
        else true)) &&
    (* from AfterSave to a save *)
    (negb (role_eqb (fst rr) AfterSave && acl_eqb (rcls (snd rr)) CSave) ||
       (N.eqb k 0 && negb p && role_eqb (snd rr) CSaves) || (N.eqb k 1 && negb p && role_eqb (snd rr) PSaves)) &&
    (* between deletes *)
    (negb (acl_eqb (rcls (fst rr)) CDel && acl_eqb (rcls (snd rr)) CDel) ||
       (N.eqb k 0 && negb p && role_eqb (fst rr) CDels && role_eqb (snd rr) PDels) ||
       (N.eqb k 1 && negb p && role_eqb (fst rr) PDels && role_eqb (snd rr) CDels)).

Lemma edge_facts k p r1 r2 : In (r1, r2) (prop_edges std_tables k p) ->
  trans_ok (rcls r1) (rcls r2) = true /\
  (r2 = AfterSave -> (k = 0 /\ p = false -> r1 = PSaves) /\ (k = 1 /\ p = false -> r1 = CSaves)) /\
  (r1 = AfterSave -> rcls r2 = CSave -> (k = 0 /\ p = false /\ r2 = CSaves) \/ (k = 1 /\ p = false /\ r2 = PSaves)) /\
  (rcls r1 = CDel -> rcls r2 = CDel -> (k = 0 /\ p = false /\ r1 = CDels /\ r2 = PDels) \/ (k = 1 /\ p = false /\ r1 = PDels /\ r2 = CDels)).
Proof.
  intros H. pose proof (prop_edges_forall pair_ok std_tables eq_refl k p _ H) as T. unfold pair_ok in T. simpl fst in T; simpl snd in T.
  apply andb_true_iff in T. destruct T as [T TD]. apply andb_true_iff in T. destruct T as [T TC].
  apply andb_true_iff in T. destruct T as [T TB]. split; [exact T|]. split; [|split].
  - intros ->. simpl in TB. split; intros [-> ->]; simpl in TB; apply role_eqb_eq, TB.
  - intros -> Hc. simpl in TC. rewrite Hc in TC. simpl in TC. apply orb_true_iff in TC.
    destruct TC as [X|X]; apply andb_true_iff in X; destruct X as [X X3]; apply andb_true_iff in X; destruct X as [X X2];
      apply N.eqb_eq in X; apply negb_true_iff in X2; apply role_eqb_eq in X3; auto.
  - intros C1 C2. rewrite C1, C2 in TD. simpl in TD. apply orb_true_iff in TD.
    destruct TD as [X|X]; apply andb_true_iff in X; destruct X as [X X4]; apply andb_true_iff in X; destruct X as [X X3];
      apply andb_true_iff in X; destruct X as [X X2];
      apply N.eqb_eq in X; apply negb_true_iff in X2; apply role_eqb_eq in X3, X4; auto 10.
Qed.

Section Graph.
Variable g : graph.
Hypothesis Hnd : NoDup (map d_id (g_deps g)).
Notation E0 := (edges0 std_tables g).

Lemma edge_trans a b : In (a, b) E0 -> trans_ok (acls a) (acls b) = true.
Proof. intros H. destruct (edges0_inv _ _ _ _ H) as [[m [-> ->]]|[d [r1 [r2 [_ [_ [Hr [-> ->]]]]]]]]; [reflexivity|].
  rewrite !rcls_act. apply (edge_facts _ _ _ _ Hr). Qed.

Lemma coarse_inj a a' : acls a <> COther -> code a' = code a -> a' = a.
Proof. intros H. apply code_inj. intros d i s ->. apply H. reflexivity. Qed.

Lemma edge_coarse a b : In (a, b) E0 -> acls a <> COther /\ acls b <> COther.
Proof. intros H. pose proof (edge_trans _ _ H) as T. destruct (acls a), (acls b); simpl in T; try discriminate; split; discriminate. Qed.

Inductive areach : action -> action -> Prop :=
| ar1 a b : In (a, b) E0 -> areach a b
| arS a b c : In (a, b) E0 -> areach b c -> areach a c.

Lemma areach_trans a b c : areach a b -> areach b c -> areach a c.
Proof. induction 1; intros; [eapply arS; eassumption|eapply arS; [eassumption|auto]]. Qed.
Lemma areach_first a c : areach a c -> exists z, In (a, z) E0 /\ (z = c \/ areach z c).
Proof. destruct 1; eauto. Qed.
Lemma areach_last a c : areach a c -> exists y, In (y, c) E0 /\ (y = a \/ areach a y).
Proof. induction 1 as [a b H|a b c H _ IH]; [eauto|]. destruct IH as [y [Hy Hr]]. exists y. split; [exact Hy|right].
  destruct Hr as [->|Hr]; [apply ar1, H|eapply arS; eassumption]. Qed.
Lemma areach_coarse a c : areach a c -> acls a <> COther /\ acls c <> COther.
Proof. induction 1 as [a b H|a b c H _ IH]; [apply edge_coarse, H|]. split; [apply (edge_coarse _ _ H)|apply IH]. Qed.

Lemma in_cedges x y l : In (x, y) (cedges l) <-> exists a b, In (a, b) l /\ x = code a /\ y = code b.
Proof. unfold cedges. rewrite in_map_iff. split.
  - intros [[a b] [E H]]. inversion E. eauto.
  - intros [a [b [H [-> ->]]]]. exists (a, b). auto. Qed.

Lemma reach_areach x y : reach (cedges E0) x y -> exists a b, x = code a /\ y = code b /\ areach a b.
Proof. induction 1 as [x y H|x y z H _ IH].
  - apply in_cedges in H. destruct H as [a [b [H [-> ->]]]]. exists a, b. split; [reflexivity|]. split; [reflexivity|apply ar1, H].
  - apply in_cedges in H. destruct H as [a [b [H [-> ->]]]]. destruct IH as [b' [c [E1 [E2 R]]]].
    assert (b' = b) by (apply coarse_inj; [apply (edge_coarse _ _ H)|congruence]). subst b'.
    exists a, c. split; [reflexivity|]. split; [exact E2|eapply arS; eassumption]. Qed.
Lemma areach_reach a b : areach a b -> reach (cedges E0) (code a) (code b).
Proof. induction 1 as [a b H|a b c H _ IH].
  - apply r1. apply in_cedges. eauto.
  - eapply rS; [|exact IH]. apply in_cedges. eauto. Qed.

Lemma on_cycle_action x : on_cycle (cedges E0) x -> exists a, x = code a /\ areach a a.
Proof. intros H. destruct (reach_areach _ _ H) as [a [b [E1 [E2 R]]]]. assert (b = a).
  { apply coarse_inj; [apply (areach_coarse _ _ R)|congruence]. }
  subst b. eauto. Qed.

Lemma incyc_areach cy a : cycles std_tables g = Some cy -> acls a <> COther -> (incyc cy a = true <-> areach a a).
Proof. intros Hc Ha. destruct (cycles_exact std_tables g) as [cy' [E Hx]]. rewrite Hc in E. inversion E; subst cy'.
  unfold incyc. rewrite memb_In, Hx. split; [|apply areach_reach].
  intros H. destruct (on_cycle_action _ H) as [a' [Ea R]]. symmetry in Ea. apply coarse_inj in Ea; [subst a'; exact R|exact Ha]. Qed.

Lemma down_closed a b : areach a b -> acls a = CDel \/ acls a = CPostT \/ acls a = CPostF -> acls b = CDel.
Proof. induction 1 as [a b H|a b c H _ IH]; intros Ha; pose proof (edge_trans _ _ H) as T;
    assert (Db : acls b = CDel) by (destruct Ha as [Ha|[Ha|Ha]]; rewrite Ha in T; destruct (acls b); simpl in T; try discriminate; reflexivity);
    auto. Qed.

Lemma cycle_class a : areach a a -> acls a = CSave \/ acls a = CDel \/ acls a = CProcF.
Proof. intros H. destruct (acls a) eqn:C; auto; exfalso.
  - destruct (areach_last _ _ H) as [y [Hy _]]. pose proof (edge_trans _ _ Hy) as T. rewrite C in T. destruct (acls y); discriminate.
  - pose proof (down_closed _ _ H). rewrite C in *. intuition discriminate.
  - pose proof (down_closed _ _ H). rewrite C in *. intuition discriminate.
  - apply (areach_coarse _ _ H). exact C. Qed.

Theorem cycles_shape cy : cycles std_tables g = Some cy -> cyc_shape cy = true.
Proof. intros Hc. destruct (cycles_exact std_tables g) as [cy' [E Hx]]. rewrite Hc in E. inversion E; subst cy'.
  unfold cyc_shape. apply forallb_forall. intros x Hin. apply Hx in Hin. destruct (on_cycle_action _ Hin) as [a [-> R]].
  apply N.ltb_lt. rewrite code_mod. destruct (cycle_class a R) as [C|[C|C]]; destruct a as [m|m|d b|m b|s|s|d b s]; try destruct b; simpl in C; try discriminate; lia. Qed.

(* a processor is on a cycle only together with the save record of its parent mapper *)
Lemma role_is_procF d r i : role_act d r = ProcAll i false -> r = AfterSave /\ d_id d = i.
Proof. destruct r; simpl; intros H; inversion H; auto. Qed.

Lemma before_save z a : areach z a -> acls a = CProcF \/ acls a = CSave -> acls z = CSave \/ acls z = CProcF \/ acls z = CProcT.
Proof. intros R Ha. pose proof (down_closed _ _ R) as D. destruct (acls z) eqn:C; auto; exfalso;
    try (rewrite D in Ha by auto; destruct Ha; discriminate).
  destruct (areach_coarse _ _ R) as [X _]. apply X. exact C. Qed.

Lemma proc_cycle_parent d : In d (g_deps g) -> areach (ProcAll (d_id d) false) (ProcAll (d_id d) false) ->
  areach (SaveAll (d_parent d)) (SaveAll (d_parent d)).
Proof.
  intros Hd R. set (a := ProcAll (d_id d) false) in *.
  destruct (areach_first _ _ R) as [z [Hz Hr]]. pose proof (edge_trans _ _ Hz) as Tz.
  assert (Rz : areach z a).
  { destruct Hr as [->|Hr]; [|exact Hr]. simpl in Tz. discriminate. }
  assert (Cz : acls z = CSave).
  { destruct (before_save _ _ Rz (or_introl eq_refl)) as [C|[C|C]]; [exact C| |]; rewrite C in Tz; simpl in Tz; discriminate. }
  destruct (edges0_inv _ _ _ _ Hz) as [[m [E _]]|[d' [r1 [r2 [Hd' [_ [Hr12 [E1 E2]]]]]]]]; [discriminate|].
  symmetry in E1. apply role_is_procF in E1. destruct E1 as [-> Eid].
  assert (d' = d) by (apply (dep_by_id g Hnd); assumption). subst d'.
  destruct (edge_facts _ _ _ _ Hr12) as [_ [_ [F3 _]]].
  assert (Cr2 : rcls r2 = CSave) by (rewrite <- (rcls_act d r2), <- E2; exact Cz).
  destruct (F3 eq_refl Cr2) as [[Hk [Hp ->]]|[Hk [Hp ->]]].
  - (* one-to-many: the predecessor is the parent's save *)
    destruct (areach_last _ _ R) as [y [Hy Hry]].
    destruct (edges0_inv _ _ _ _ Hy) as [[m [_ E]]|[d' [r1' [r2' [Hd'' [_ [Hr12' [E1' E2']]]]]]]]; [discriminate|].
    symmetry in E2'. apply role_is_procF in E2'. destruct E2' as [-> Eid'].
    assert (d' = d) by (apply (dep_by_id g Hnd); assumption). subst d'.
    destruct (edge_facts _ _ _ _ Hr12') as [_ [F2 _]]. destruct (F2 eq_refl) as [F2a _]. rewrite (F2a (conj Hk Hp)) in E1'. simpl in E1'.
    subst y. destruct Hry as [X|Hry]; [discriminate|]. eapply arS; eassumption.
  - simpl in E2. subst z. eapply areach_trans; [exact Rz|apply ar1, Hz].
Qed.

Theorem cycles_procs_follow cy : cycles std_tables g = Some cy -> procs_follow g cy = true.
Proof. intros Hc. unfold procs_follow. apply forallb_forall. intros d Hd. apply andb_true_iff. split.
  - destruct (incyc cy (ProcAll (d_id d) false)) eqn:I; [|reflexivity]. simpl.
    apply (incyc_areach cy _ Hc); [discriminate|]. apply proc_cycle_parent; [exact Hd|]. apply (incyc_areach cy _ Hc); [discriminate|exact I].
  - destruct (incyc cy (ProcAll (d_id d) true)) eqn:I; [|reflexivity]. exfalso. apply (incyc_areach cy _ Hc) in I; [|discriminate].
    destruct (cycle_class _ I) as [C|[C|C]]; discriminate. Qed.

(* the saves and the deletes of a mapper are on cycles together (the assertion of
   per_state_flush_actions): a save cycle is a cycle of "X must be saved before Y" steps, each of which
   has a mirrored edge between the deletes *)
Definition sstep (X Y : N) : Prop :=
  exists d, In d (g_deps g) /\ d_active d = true /\ d_post d = false /\
    ((d_kind d = 0 /\ d_parent d = X /\ d_child d = Y) \/ (d_kind d = 1 /\ d_child d = X /\ d_parent d = Y)).
Inductive splus : N -> N -> Prop :=
| sp1 X Y : sstep X Y -> splus X Y
| spS X Y Z : sstep X Y -> splus Y Z -> splus X Z.
Lemma splus_snoc X Y Z : splus X Y -> sstep Y Z -> splus X Z.
Proof. induction 1; intros; [eapply spS; [eassumption|apply sp1; assumption]|eapply spS; [eassumption|auto]]. Qed.

Lemma sstep_edges X Y : sstep X Y -> areach (SaveAll X) (SaveAll Y) /\ In (DelAll Y, DelAll X) E0.
Proof. intros [d [Hd [Ha [Hp Hk]]]].
  assert (E : forall r1 r2, In (r1, r2) (prop_edges std_tables (d_kind d) (d_post d)) -> In (role_act d r1, role_act d r2) E0)
    by (intros; apply edges0_dep; assumption).
  rewrite Hp in E. destruct Hk as [[Hk [<- <-]]|[Hk [<- <-]]]; rewrite Hk in E; split.
  - apply arS with (b := ProcAll (d_id d) false); [apply (E PSaves AfterSave)|apply ar1, (E AfterSave CSaves)]; simpl; tauto.
  - apply (E CDels PDels). simpl. tauto.
  - apply arS with (b := ProcAll (d_id d) false); [apply (E CSaves AfterSave)|apply ar1, (E AfterSave PSaves)]; simpl; tauto.
  - apply (E PDels CDels). simpl. tauto.
Qed.

Lemma splus_paths X Y : splus X Y -> areach (SaveAll X) (SaveAll Y) /\ areach (DelAll Y) (DelAll X).
Proof. induction 1 as [X Y H|X Y Z H _ [IH1 IH2]].
  - destruct (sstep_edges _ _ H) as [A B]. split; [exact A|apply ar1, B].
  - destruct (sstep_edges _ _ H) as [A B]. split; [eapply areach_trans; eassumption|]. eapply areach_trans; [exact IH2|apply ar1, B]. Qed.

Lemma role_is_del d r m : role_act d r = DelAll m -> (r = PDels /\ d_parent d = m) \/ (r = CDels /\ d_child d = m).
Proof. destruct r; simpl; intros H; inversion H; auto. Qed.
Lemma role_is_save d r m : role_act d r = SaveAll m -> (r = PSaves /\ d_parent d = m) \/ (r = CSaves /\ d_child d = m).
Proof. destruct r; simpl; intros H; inversion H; auto. Qed.

Lemma del_edge_step A b : In (DelAll A, b) E0 -> exists M, b = DelAll M /\ sstep M A.
Proof. intros H. pose proof (edge_trans _ _ H) as T.
  destruct b as [?|M|? ?|? ?|?|?|? ? ?]; try (destruct isdel); simpl in T; try discriminate. exists M. split; [reflexivity|].
  destruct (edges0_inv _ _ _ _ H) as [[m [E _]]|[d [r1 [r2 [Hd [Ha [Hr [E1 E2]]]]]]]]; [discriminate|].
  destruct (edge_facts _ _ _ _ Hr) as [_ [_ [_ F4]]].
  assert (C1 : rcls r1 = CDel) by (rewrite <- (rcls_act d r1), <- E1; reflexivity).
  assert (C2 : rcls r2 = CDel) by (rewrite <- (rcls_act d r2), <- E2; reflexivity).
  symmetry in E1, E2. destruct (F4 C1 C2) as [[Hk [Hp [-> ->]]]|[Hk [Hp [-> ->]]]]; simpl in E1, E2; inversion E1; inversion E2; subst;
  exists d; repeat split; auto. Qed.

Lemma del_paths : forall a b, areach a b -> forall A, a = DelAll A -> exists B, b = DelAll B /\ splus B A.
Proof. induction 1 as [a b H|a b c H R IH]; intros A ->; destruct (del_edge_step _ _ H) as [M [-> S]].
  - exists M. split; [reflexivity|apply sp1, S].
  - destruct (IH M eq_refl) as [B [-> S']]. exists B. split; [reflexivity|]. eapply splus_snoc; eassumption. Qed.

(* the target of a processor's save edge *)
Definition ptarget (i Z : N) : Prop :=
  exists d, In d (g_deps g) /\ d_active d = true /\ d_id d = i /\ d_post d = false /\
            ((d_kind d = 0 /\ Z = d_child d) \/ (d_kind d = 1 /\ Z = d_parent d)).

Lemma proc_save_edge i Z : In (ProcAll i false, SaveAll Z) E0 -> ptarget i Z.
Proof. intros H. destruct (edges0_inv _ _ _ _ H) as [[m [E _]]|[d [r1 [r2 [Hd [Ha [Hr [E1 E2]]]]]]]]; [discriminate|].
  symmetry in E1. apply role_is_procF in E1. destruct E1 as [-> Eid].
  destruct (edge_facts _ _ _ _ Hr) as [_ [_ [F3 _]]].
  assert (C2 : rcls r2 = CSave) by (rewrite <- (rcls_act d r2), <- E2; reflexivity).
  destruct (F3 eq_refl C2) as [[Hk [Hp ->]]|[Hk [Hp ->]]]; simpl in E2; inversion E2; exists d; repeat split; auto. Qed.

Lemma save_proc_edge X i Z : In (SaveAll X, ProcAll i false) E0 -> ptarget i Z -> sstep X Z.
Proof. intros H [d [Hd [Ha [Eid [Hp Hk]]]]].
  destruct (edges0_inv _ _ _ _ H) as [[m [_ E]]|[d' [r1 [r2 [Hd' [Ha' [Hr [E1 E2]]]]]]]]; [discriminate|].
  symmetry in E2. apply role_is_procF in E2. destruct E2 as [-> Eid'].
  assert (d' = d) by (apply (dep_by_id g Hnd); [assumption|assumption|congruence]). subst d'.
  destruct (edge_facts _ _ _ _ Hr) as [_ [F2 _]]. destruct (F2 eq_refl) as [F2a F2b]. symmetry in E1.
  destruct Hk as [[Hk ->]|[Hk ->]].
  - rewrite (F2a (conj Hk Hp)) in E1. simpl in E1. inversion E1. exists d. repeat split; auto.
  - rewrite (F2b (conj Hk Hp)) in E1. simpl in E1. inversion E1. exists d. repeat split; auto. Qed.

Lemma save_paths : forall a b, areach a b -> forall Y, b = SaveAll Y ->
  match a with
  | SaveAll X => splus X Y
  | ProcAll i false => exists Z, ptarget i Z /\ (Z = Y \/ splus Z Y)
  | _ => True end.
Proof. induction 1 as [a b H|a b c H R IH]; intros Y ->.
  - pose proof (edge_trans _ _ H) as T. destruct a as [m|m|i b|? ?|?|?|? ? ?]; try exact I; [simpl in T; discriminate|].
    destruct b; [exact I|]. exists Y. split; [apply proc_save_edge, H|left; reflexivity].
  - specialize (IH Y eq_refl). pose proof (edge_trans _ _ H) as T.
    destruct a as [X|m|i bb|? ?|?|?|? ? ?]; try exact I.
    + (* from a save: through a processor *)
      destruct (before_save _ _ R (or_intror eq_refl)) as [C|[C|C]]; rewrite C in T; simpl in T; try discriminate.
      destruct b as [?|?|i bb|? pb|?|?|? ? ?]; try (destruct bb); try (destruct pb); simpl in C; try discriminate.
      destruct IH as [Z [PT HZ]]. destruct HZ as [HZ|S].
      { subst Z. apply sp1. eapply save_proc_edge; eassumption. }
      { eapply spS; [eapply save_proc_edge; eassumption|exact S]. }
    + destruct bb; [exact I|].
      destruct (before_save _ _ R (or_intror eq_refl)) as [C|[C|C]]; rewrite C in T; simpl in T; try discriminate.
      destruct b as [Z|?|? bb|? pb|?|?|? ? ?]; try (destruct bb); try (destruct pb); simpl in C; try discriminate.
      exists Z. split; [apply proc_save_edge, H|right; exact IH].
Qed.

Theorem cycles_paired cy : cycles std_tables g = Some cy -> paired g cy = true.
Proof. intros Hc. unfold paired. apply forallb_forall. intros m _. apply eqb_true_iff.
  assert (A : incyc cy (SaveAll m) = true <-> incyc cy (DelAll m) = true).
  { rewrite !(incyc_areach cy _ Hc) by discriminate. split; intros R.
    - apply (splus_paths _ _ (save_paths _ _ R m eq_refl)).
    - destruct (del_paths _ _ R m eq_refl) as [B [EB S]]. inversion EB; subst B. apply (splus_paths _ _ S). }
  destruct (incyc cy (SaveAll m)), (incyc cy (DelAll m)); try reflexivity; [symmetry; apply A; reflexivity|apply A; reflexivity]. Qed.

Theorem cycles_ok cy : cycles std_tables g = Some cy -> cyc_ok g cy = true.
Proof. intros H. unfold cyc_ok. rewrite (cycles_shape cy H), (cycles_paired cy H), (cycles_procs_follow cy H). reflexivity. Qed.
End Graph.
