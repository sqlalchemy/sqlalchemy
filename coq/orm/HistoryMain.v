(* C36 - runs: preservation over operation sequences without flush / expire, then the statements
   used by props/C36.v. *)
From Coq Require Import List NArith Bool Lia.
Import ListNotations.
From SAV.orm Require Import History HistorySpec HistoryProofs HistoryFrame HistoryWf HistoryOps
  HistoryTrack HistoryFlush HistoryFail.
Open Scope N_scope.

Lemma run_cons : forall k o rest s,
  fst (run k (o :: rest) s) =
  if is_flush o && failed (snd (step k o s)) then fst (step k o s)
  else fst (run k rest (fst (step k o s))).
Proof.
  intros. cbn [run]. destruct (step k o s) as [s1 r]. cbn [fst snd].
  destruct (is_flush o && failed r); [reflexivity|]. destruct (run k rest s1). reflexivity.
Qed.

Lemma sync_flush : forall o, is_sync o = false -> is_flush o = false.
Proof. destruct o; cbn; congruence. Qed.

Lemma run_nosync_rule : forall k (P : st -> Prop),
  (forall o s, is_sync o = false -> P s -> P (fst (step k o s))) ->
  forall ops s, nosync ops = true -> P s -> P (fst (run k ops s)).
Proof.
  intros k P H ops. induction ops as [|o rest IH]; intros s NS Ps; [exact Ps|].
  cbn [nosync forallb] in NS. apply andb_true_iff in NS. destruct NS as [NO NR].
  apply negb_true_iff in NO. rewrite run_cons, (sync_flush o NO). cbn [andb].
  apply IH; [exact NR|]. apply H; assumption.
Qed.

Theorem net_diff_scalar_run : forall k ops s0 v0,
  wf s0 -> tracks_x v0 s0 -> nosync ops = true ->
  let s := fst (run k ops s0) in hist_x s = net_diff_scalar (Known v0) (x_d s).
Proof.
  intros k ops s0 v0 W T NS. apply hist_x_tracked.
  apply (run_nosync_rule k (fun s => wf s /\ tracks_x v0 s)); auto.
  intros o s NO [W1 T1]. split; [apply step_wf; exact W1|apply tracks_x_step; assumption].
Qed.

Theorem net_diff_object_run : forall k ops s0 v0,
  tracks_b v0 s0 -> nosync ops = true ->
  let s := fst (run k ops s0) in hist_b s = net_diff_object (Known v0) (b_d s).
Proof.
  intros k ops s0 v0 T NS. apply hist_b_tracked. apply (run_nosync_rule k (tracks_b v0)); auto.
  intros; apply tracks_b_step; assumption.
Qed.

Theorem net_diff_coll_run : forall k ops s0 l0,
  tracks_c l0 s0 -> nosync ops = true ->
  let s := fst (run k ops s0) in hist_c s = net_diff_coll (Known l0) (c_d s).
Proof.
  intros k ops s0 l0 T NS. apply hist_c_tracked. apply (run_nosync_rule k (tracks_c l0)); auto.
  intros; apply tracks_c_step; assumption.
Qed.

Theorem unknown_scalar_run : forall k ops s0,
  is_nostate (x_c s0) = true -> nosync ops = true ->
  let s := fst (run k ops s0) in hist_x s = net_diff_scalar Unknown (x_d s).
Proof.
  intros k ops s0 U NS s. rewrite hist_x_eq. apply from_scalar_unknown.
  apply (run_nosync_rule k (fun s => is_nostate (x_c s) = true)); auto.
  intros o s1 NO U1. rewrite unknown_x_step; assumption.
Qed.

Theorem unknown_object_nr_run : forall k ops s0,
  b_c s0 = CNoResult -> nosync ops = true ->
  let s := fst (run k ops s0) in hist_b s = net_diff_object Unknown (b_d s).
Proof.
  intros k ops s0 U NS s. rewrite hist_b_eq.
  replace (b_c s) with (@CNoResult val); [destruct (b_d s); reflexivity|]. symmetry.
  apply (run_nosync_rule k (fun s => b_c s = CNoResult)); auto.
  intros; apply unknown_b_nr_step; assumption.
Qed.

Theorem unknown_object_nv_run : forall k ops s0,
  wf s0 -> b_c s0 = CNoValue -> nosync ops = true ->
  let s := fst (run k ops s0) in
  hist_b s = match b_d s with Some c => ([c], [], []) | None => blank end \/
  hist_b s = net_diff_object (Known (db_b s0)) (b_d s).
Proof.
  intros k ops s0 W U NS s.
  destruct (run_nosync_rule k (fun s => wf s /\ db_b s = db_b s0 /\
                                       (b_c s = CNoValue \/ tracks_b (db_b s0) s)))
    with (ops := ops) (s := s0) as (_ & _ & [E|T]); auto.
  - intros o s1 NO (W1 & D1 & H). split; [apply step_wf; exact W1|].
    split; [rewrite <- D1; apply (step_keepDB k o s1 (sync_flush o NO))|].
    destruct H as [U1|T1]; [rewrite <- D1; apply unknown_b_nv_step; assumption|].
    right. apply tracks_b_step; assumption.
  - left. fold s in E. rewrite hist_b_eq, E. destruct (b_d s); reflexivity.
  - right. apply hist_b_tracked. exact T.
Qed.

Theorem set_back_scalar : forall k ops s0 v0,
  wf s0 -> tracks_x v0 s0 -> nosync ops = true ->
  let s := fst (run k ops s0) in x_d s = Some v0 -> hist_x s = ([], [v0], []).
Proof.
  intros k ops s0 v0 W T NS s D. subst s. rewrite (net_diff_scalar_run k ops s0 v0) by assumption.
  rewrite D. cbn. rewrite N.eqb_refl. reflexivity.
Qed.

Theorem set_back_object : forall k ops s0 v0,
  tracks_b v0 s0 -> nosync ops = true ->
  let s := fst (run k ops s0) in b_d s = Some v0 -> hist_b s = ([], [v0], []).
Proof.
  intros k ops s0 v0 T NS s D. subst s. rewrite (net_diff_object_run k ops s0 v0) by assumption.
  rewrite D. cbn. rewrite N.eqb_refl. reflexivity.
Qed.

Theorem set_back_coll : forall k ops s0 l0,
  tracks_c l0 s0 -> nosync ops = true ->
  let s := fst (run k ops s0) in
  forall l, c_d s = Some l -> same_set l l0 -> changes (hist_c s) = ([], []).
Proof.
  intros k ops s0 l0 T NS s l D S. subst s. rewrite (net_diff_coll_run k ops s0 l0) by assumption.
  rewrite D. cbn. f_equal.
  - apply filter_none. intros x Hx. apply negb_false_iff. apply memb_In. apply S. exact Hx.
  - apply filter_none. intros x Hx. apply negb_false_iff. apply memb_In. apply S. exact Hx.
Qed.

Theorem wf_reachable : forall ok x0 b0 c0 k ops, wf (fst (run k ops (init ok x0 b0 c0))).
Proof. intros. apply run_wf. apply init_wf. Qed.

Theorem flush_resets_history : forall s s' r, wf s -> flush s = (s', Done r) ->
  modified s' = false /\
  changes (hist_x s') = ([], []) /\ changes (hist_b s') = ([], []) /\ changes (hist_c s') = ([], []).
Proof.
  intros s s' r W H. pose proof (flush_resets s W) as R. rewrite H in R. destruct R as (X & B & C & M).
  split; [exact M|]. apply clean_changes; assumption.
Qed.

Theorem run_never_unreachable : forall k ops s o,
  In o (snd (run k ops s)) -> o_res o <> Fail Unreachable.
Proof.
  intros k ops. induction ops as [|op rest IH]; intros s o I; cbn [run] in I; [contradiction|].
  pose proof (step_never_unreachable k op s) as NU.
  destruct (step k op s) as [s1 r]. cbn [snd] in NU.
  destruct (is_flush op && failed r).
  - destruct I as [<-|[]]. exact NU.
  - specialize (IH s1 o). destruct (run k rest s1) as [s2 l]. cbn [snd] in *.
    destruct I as [<-|I]; [exact NU|apply IH; exact I].
Qed.
