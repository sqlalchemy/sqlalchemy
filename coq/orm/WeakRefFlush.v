(* C48 - the flush: what the emitted statements do to the table, and preservation of the invariant *)
From Coq Require Import List ZArith NArith Bool Arith Lia.
Import ListNotations.
From SAV.orm Require Import WeakRef WeakRefBase WeakRefInv.

Definition akey (a : dbact) : option N :=
  match a with ANone => None | AIns k _ => Some k | AUpd k _ _ => Some k | ADel k => Some k end.
Definition run_acts (acts : list dbact) (df : dbt * bool) : dbt * bool :=
  fold_left (fun df a => apply_act a df) acts df.
(* the condition on the table under which a statement does not raise *)
Definition pre (a : dbact) (d : dbt) : Prop :=
  match a with AIns k _ => db_get k d = None | AUpd k _ _ => db_get k d <> None | _ => True end.
(* what a statement makes of the row with its key *)
Definition eff (a : dbact) (old : option row) : option row :=
  match a with
  | ANone => old
  | AIns _ r => Some r
  | AUpd _ v w => match old with Some o => Some (merge v w o) | None => None end
  | ADel _ => None
  end.
Fixpoint distinct (acts : list dbact) : Prop :=
  match acts with
  | [] => True
  | a :: r => (forall b k, In b r -> akey a = Some k -> akey b <> Some k) /\ distinct r
  end.

Lemma apply_other : forall a df k, akey a <> Some k -> db_get k (fst (apply_act a df)) = db_get k (fst df).
Proof.
  intros a [d f] k H. destruct a as [|k' v|k' v w|k']; simpl in *; auto.
  - destruct (db_has k' d); simpl; auto. apply db_get_set_other. congruence.
  - destruct (db_get k' d); simpl; auto. apply db_get_set_other. congruence.
  - apply db_get_del_other. congruence.
Qed.
Lemma apply_pre : forall a df, pre a (fst df) -> snd (apply_act a df) = snd df /\
  forall k, akey a = Some k -> db_get k (fst (apply_act a df)) = eff a (db_get k (fst df)).
Proof.
  intros a [d f] P. destruct a as [|k v|k v w|k]; simpl in *.
  - split; [reflexivity|intros; discriminate].
  - unfold db_has. rewrite P. simpl. split; auto. intros k' E. inversion E. subst. apply db_get_set_same.
  - destruct (db_get k d) eqn:E; [|contradiction]. simpl. split; auto. intros k' E'. inversion E'. subst.
    rewrite E. apply db_get_set_same.
  - split; auto. intros k' E. inversion E. subst. apply db_get_del_same.
Qed.
Lemma run_acts_cons : forall a acts df, run_acts (a :: acts) df = run_acts acts (apply_act a df).
Proof. reflexivity. Qed.

Lemma run_touch : forall acts df k,
  db_get k (fst (run_acts acts df)) = db_get k (fst df) \/ exists a, In a acts /\ akey a = Some k.
Proof.
  induction acts as [|a acts IH]; intros df k; [left; reflexivity|]. rewrite run_acts_cons.
  destruct (IH (apply_act a df) k) as [E|[b [Hb Eb]]]; [|right; exists b; split; [right|]; auto].
  assert (D : akey a = Some k \/ akey a <> Some k).
  { destruct (akey a) as [k'|]; [destruct (N.eq_dec k' k); [left|right]; congruence|right; discriminate]. }
  destruct D as [Ea|Na]; [right; exists a; split; [left|]; auto|left].
  rewrite E. apply apply_other, Na.
Qed.
Lemma run_other : forall acts df k, (forall a, In a acts -> akey a <> Some k) ->
  db_get k (fst (run_acts acts df)) = db_get k (fst df).
Proof. intros acts df k H. destruct (run_touch acts df k) as [E|[a [Ha Ea]]]; [exact E|destruct (H a Ha Ea)]. Qed.

Lemma run_ok : forall acts df, distinct acts -> (forall a, In a acts -> pre a (fst df)) ->
  snd (run_acts acts df) = snd df /\
  forall a, In a acts -> forall k, akey a = Some k -> db_get k (fst (run_acts acts df)) = eff a (db_get k (fst df)).
Proof.
  induction acts as [|a acts IH]; intros df ND P; [split; auto; intros a []|]. destruct ND as [Fresh ND].
  rewrite run_acts_cons. destruct (apply_pre a df (P a (or_introl eq_refl))) as [Ef Po].
  assert (K : forall b k, In b acts -> akey b = Some k -> db_get k (fst (apply_act a df)) = db_get k (fst df)).
  { intros b k Hb Eb. apply apply_other. intro Ea. exact (Fresh b k Hb Ea Eb). }
  destruct (IH (apply_act a df) ND) as [Ef' Po'].
  { (* [pre] reads the row of the statement's own key only, which a has not touched *)
    intros b Hb. assert (Pb := P b (or_intror Hb)). destruct b; simpl in *; auto; rewrite (K _ k Hb eq_refl); auto. }
  split; [congruence|]. intros b [<-|Hb] k Ek.
  - rewrite run_other; [apply Po, Ek|]. intros b Hb. exact (Fresh b k Hb Ek).
  - rewrite (Po' b Hb k Ek), (K b k Hb Ek). reflexivity.
Qed.

Lemma distinct_map : forall (g : nat -> dbact) l, NoDup l ->
  (forall o1 o2 k, akey (g o1) = Some k -> akey (g o2) = Some k -> o1 = o2) -> distinct (map g l).
Proof.
  intros g l ND Inj. induction ND as [|x l Hx ND IH]; simpl; [exact Logic.I|split; [|exact IH]].
  intros b k Hb Ex Eb. apply in_map_iff in Hb. destruct Hb as [o [<- Ho]].
  rewrite (Inj x o k Ex Eb) in Hx. contradiction.
Qed.

Definition acts_of (s : st) : list dbact := map (fun o => act_of (heap s o)) (oids s).

Lemma act_of_cases : forall ob,
  match act_of ob with
  | ANone => in_del ob = false /\ in_new ob = false
  | AIns k _ => k = pk ob /\ in_new ob = true /\ in_del ob = false
  | AUpd k _ _ => k = pk ob /\ in_map ob = true /\ in_del ob = false
  | ADel k => k = pk ob /\ in_del ob = true
  end.
Proof.
  intros ob. unfold act_of. destruct (in_del ob), (in_new ob); auto.
  destruct (in_mod ob && in_map ob) eqn:M; auto. apply andb_prop in M.
  destruct (pend ob), (pendw ob); simpl; tauto.
Qed.

Lemma act_key : forall ob k, okb ob = true -> akey (act_of ob) = Some k ->
  pk ob = k /\ (in_new ob = true \/ in_map ob = true).
Proof.
  intros ob k H E. assert (C := act_of_cases ob). destruct (okb_spec ob H) as (_ & _ & F3 & _).
  destruct (act_of ob); inversion E; subst; intuition.
Qed.

Lemma acts_distinct : forall s, Inv s -> distinct (acts_of s).
Proof.
  intros s I. apply distinct_map; [apply seq_NoDup|]. intros o1 o2 k E1 E2.
  destruct (act_key _ _ (i_ok s I o1) E1) as [P1 H1]. destruct (act_key _ _ (i_ok s I o2) E2) as [P2 H2].
  apply (key_inj s o1 o2 I); congruence.
Qed.
Lemma acts_pre : forall s, Inv s -> forall a, In a (acts_of s) -> pre a (db s).
Proof.
  intros s I a H. apply in_map_iff in H. destruct H as [o [<- _]].
  assert (C := act_of_cases (heap s o)). destruct (act_of (heap s o)); simpl; auto; destruct C as (-> & C & _).
  - apply (i_new_row s I o C).
  - apply (i_map_row s I o C).
Qed.

Lemma flush_db_facts : forall s, Inv s ->
  snd (flush_db s) = false /\
  (forall o, in_new (heap s o) = true \/ in_map (heap s o) = true ->
     db_get (pk (heap s o)) (fst (flush_db s)) = eff (act_of (heap s o)) (db_get (pk (heap s o)) (db s))) /\
  (forall k, db_get k (fst (flush_db s)) = db_get k (db s) \/
             exists o, (in_new (heap s o) = true \/ in_map (heap s o) = true) /\ pk (heap s o) = k).
Proof.
  intros s I. change (flush_db s) with (run_acts (acts_of s) (db s, false)).
  destruct (run_ok (acts_of s) (db s, false) (acts_distinct s I) (acts_pre s I)) as [A B].
  assert (T : forall k, db_get k (fst (run_acts (acts_of s) (db s, false))) = db_get k (db s) \/
             exists o, akey (act_of (heap s o)) = Some k).
  { intros k. destruct (run_touch (acts_of s) (db s, false) k) as [E|[a [Ha Ea]]]; [left; exact E|right].
    apply in_map_iff in Ha. destruct Ha as [o [<- _]]. exists o. exact Ea. }
  split; auto. split.
  - intros o H. destruct (akey (act_of (heap s o))) as [k|] eqn:Ek.
    + destruct (act_key _ _ (i_ok s I o) Ek) as [<- _]. apply B; auto. apply in_map_iff. exists o. split; auto.
      apply in_seq. assert (L := alive_lt s o I (okb_member_alive _ (i_ok s I o) H)). lia.
    + replace (act_of (heap s o)) with ANone by (destruct (act_of (heap s o)); [reflexivity|discriminate..]).
      destruct (T (pk (heap s o))) as [E|[o' Ea]]; [exact E|].
      destruct (act_key _ _ (i_ok s I o') Ea) as [Pk H']. rewrite (key_inj s o' o I H' H Pk) in Ea. congruence.
  - intros k. destruct (T k) as [E|[o Ea]]; [left; exact E|right].
    exists o. destruct (act_key _ _ (i_ok s I o) Ea). auto.
Qed.

Lemma act_dead0 : act_of dead0 = ANone. Proof. reflexivity. Qed.

Lemma inv_flush : forall s, Inv s -> Inv (flush s).
Proof.
  intros s I. unfold flush. destruct (has_work s); auto.
  destruct (flush_db_facts s I) as (Ff & Fpost & Fother).
  destruct (flush_db s) as [d f] eqn:E. simpl in Ff, Fpost, Fother. subst f.
  assert (FS := fun o => flush_obj_facts _ (i_ok s I o)). cbv zeta in FS.
  assert (W : forall o, in_map (flush_obj (heap s o)) = true ->
                        (in_new (heap s o) = true \/ in_map (heap s o) = true) /\ in_del (heap s o) = false).
  { intros o M. destruct (FS o) as (_ & _ & _ & C). destruct (C M) as [[]|N]; auto.
    split; auto. apply (okb_spec _ (i_ok s I o)), N. }
  (* an entry of the new identity map was an entry that is not deleted - its row is kept or updated - or comes
     from session._new - its row has just been inserted *)
  assert (Row : forall o, in_map (flush_obj (heap s o)) = true -> db_get (pk (heap s o)) d <> None).
  { intros o M. destruct (W o M) as [H D0]. rewrite (Fpost o H).
    assert (C := act_of_cases (heap s o)). destruct (act_of (heap s o)); simpl.
    - destruct C as [_ N]. destruct H as [H|H]; [congruence|apply (i_map_row s I o H)].
    - discriminate.
    - assert (R := i_map_row s I o (proj1 (proj2 C))).
      destruct (db_get (pk (heap s o)) (db s)); [discriminate|contradiction].
    - destruct C. congruence. }
  constructor; cbn [heap nobj slots local db next_pk next_val failed].
  - intros o L. rewrite (i_dead s I o L). reflexivity.
  - intros o. apply (FS o).
  - intros o M. rewrite flush_obj_pk. apply Row. exact M.
  - intros o1 o2 M1 M2 Ep. rewrite !flush_obj_pk in Ep. apply (key_inj s o1 o2 I); auto; apply W; auto.
  - intros o N. destruct (FS o) as (_ & _ & N' & _). congruence.
  - intros o1 o2 N. destruct (FS o1) as (_ & _ & N' & _). congruence.
  - intros o A. rewrite flush_obj_pk. destruct (FS o) as (_ & A' & _). rewrite A' in A. apply (i_pk s I o A).
  - intros k v G. destruct (Fother k) as [E'|[o [H <-]]].
    + apply (i_db s I k v). rewrite <- E'. exact G.
    + apply (i_pk s I), (okb_member_alive _ (i_ok s I o) H).
  - intros o H. destruct (FS o) as (_ & A' & _). rewrite A'. apply (i_slots s I o H).
  - intros o H. destruct (FS o) as (_ & A' & _). rewrite A'. apply (i_local s I o H).
  - rewrite (i_failed s I). reflexivity.
Qed.

Lemma flush_writes : forall s o, Inv s ->
  alive (heap s o) = true -> has_pend (heap s o) = true -> in_del (heap s o) = false ->
  (in_new (heap s o) = true \/ in_map (heap s o) = true) ->
  exists r, db_get (pk (heap s o)) (db (flush s)) = Some r /\
    (forall v, pend (heap s o) = Some v -> fst r = v) /\ (forall v, pendw (heap s o) = Some v -> snd r = v).
Proof.
  intros s o I A P D H.
  assert (R := okb_pending_rooted (heap s o) (i_ok s I o) A P H).
  assert (W : has_work s = true).
  { unfold has_work. apply existsb_exists. exists o. split.
    - apply in_seq. split; [lia|]. simpl. apply (alive_lt s o I A).
    - cbv zeta. destruct R as [R|(_ & _ & R)]; rewrite R; auto using orb_true_r. }
  unfold flush. rewrite W.
  destruct (flush_db_facts s I) as (_ & Fpost & _).
  destruct (flush_db s) as [d f] eqn:E. simpl in *.
  assert (Po := Fpost o H). unfold act_of in Po. rewrite D in Po.
  unfold has_pend in P.
  destruct (in_new (heap s o)).
  - rewrite Po. simpl. eexists; split; [reflexivity|].
    repeat split; simpl; intros v Ev; rewrite Ev; reflexivity.
  - destruct R as [R|(_ & R2 & R3)]; [discriminate|].
    assert (Row := i_map_row s I o R2). rewrite R2, R3 in Po. simpl in Po.
    destruct (db_get (pk (heap s o)) (db s)) as [old|]; [|contradiction].
    destruct (pend (heap s o)) as [v1|] eqn:E1; destruct (pendw (heap s o)) as [v2|] eqn:E2; try discriminate;
      rewrite Po; simpl; eexists; (split; [reflexivity|]);
      repeat split; simpl; intros v Ev; inversion Ev; reflexivity.
Qed.
