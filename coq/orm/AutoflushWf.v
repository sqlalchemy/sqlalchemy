(* C47 - flush applies every pending change (pointwise characterisation of table c), and the
   well-formedness invariant (object ids unique, pending ids have no row) over all histories *)
From Coq Require Import List ZArith NArith Bool Arith Lia.
Import ListNotations.
From SAV.orm Require Import Autoflush AutoflushProofs.

Lemma row_get_set_same : forall k r d, row_get k (row_set k r d) = Some r.
Proof.
  intros k r d. induction d as [|[i x] d IH]; simpl; [rewrite N.eqb_refl; reflexivity|].
  destruct (N.eqb i k) eqn:E; simpl; [rewrite N.eqb_refl; reflexivity|].
  destruct (N.ltb k i); simpl; [rewrite N.eqb_refl; reflexivity|]. rewrite E. exact IH.
Qed.
Lemma row_get_set_other : forall k k' r d, k <> k' -> row_get k' (row_set k r d) = row_get k' d.
Proof.
  intros k k' r d Hn. apply N.eqb_neq in Hn. induction d as [|[i x] d IH]; cbn [row_set row_get]; [rewrite Hn; reflexivity|].
  destruct (N.eqb_spec i k) as [->|_]; cbn [row_get]; [rewrite Hn; reflexivity|].
  destruct (N.ltb k i); cbn [row_get]; [rewrite Hn; reflexivity|]. rewrite IH. reflexivity.
Qed.
Lemma row_get_del_same : forall k d, row_get k (row_del k d) = None.
Proof.
  intros k d. unfold row_del. induction d as [|[i x] d IH]; simpl; auto.
  destruct (N.eqb i k) eqn:E; simpl; auto. rewrite E. exact IH.
Qed.
Lemma row_get_del_other : forall k k' d, k <> k' -> row_get k' (row_del k d) = row_get k' d.
Proof.
  intros k k' d Hn. unfold row_del. induction d as [|[i x] d IH]; simpl; auto.
  destruct (N.eqb i k) eqn:E; simpl.
  - apply N.eqb_eq in E. subst i. destruct (N.eqb k k') eqn:E2; [apply N.eqb_eq in E2; contradiction|exact IH].
  - destruct (N.eqb i k'); auto.
Qed.

(* what the flush of one object does to the row with its id *)
Definition effect (o : cobj) (old : option (Z * N)) : option (Z * N) :=
  match c_st o with
  | Pend => Some (c_val o, c_pid o)
  | Del => None
  | Pers => if c_dirty o then match old with Some _ => Some (c_val o, c_pid o) | None => None end else old
  end.
Lemma flush_row_same : forall d o, row_get (c_id o) (flush_row d o) = effect o (row_get (c_id o) d).
Proof.
  intros d o. unfold flush_row, effect. destruct (c_st o).
  - destruct (c_dirty o); auto. destruct (row_get (c_id o) d) eqn:E; [apply row_get_set_same|exact E].
  - apply row_get_set_same.
  - apply row_get_del_same.
Qed.
Lemma flush_row_other : forall d o k, c_id o <> k -> row_get k (flush_row d o) = row_get k d.
Proof.
  intros d o k H. unfold flush_row. destruct (c_st o).
  - destruct (c_dirty o); auto. destruct (row_get (c_id o) d); auto. apply row_get_set_other; auto.
  - apply row_get_set_other; auto.
  - apply row_get_del_other; auto.
Qed.

(* the session's logical view of row i: what the application has said about it *)
Definition logical (s : st) (i : N) : option (Z * N) :=
  match find_c i (cs s) with Some o => effect o (row_get i (dbc s)) | None => row_get i (dbc s) end.

Lemma fold_flush_rows : forall l d i, NoDup (map c_id l) ->
  row_get i (fold_left flush_row l d) =
  match find_c i l with Some o => effect o (row_get i d) | None => row_get i d end.
Proof.
  unfold find_c. induction l as [|o l IH]; intros d i ND; [reflexivity|]. cbn [fold_left find].
  inversion ND as [|? ? Hx ND']. subst. rewrite (IH _ i ND').
  destruct (N.eqb (c_id o) i) eqn:E.
  - apply N.eqb_eq in E. subst i.
    destruct (find (fun o0 : cobj => N.eqb (c_id o0) (c_id o)) l) as [o'|] eqn:F.
    + exfalso. apply find_some in F. destruct F as [F1 F2]. apply N.eqb_eq in F2.
      apply Hx. rewrite <- F2. apply in_map. exact F1.
    + apply flush_row_same.
  - assert (Ne : c_id o <> i) by (intro X; subst; rewrite N.eqb_refl in E; discriminate).
    rewrite (flush_row_other d o i Ne). reflexivity.
Qed.

Theorem flush_applies_pending : forall s i, NoDup (map c_id (cs s)) ->
  row_get i (dbc (flush s)) = logical s i.
Proof. intros s i ND. unfold logical. cbn [dbc flush]. apply fold_flush_rows. exact ND. Qed.

Fixpoint run (ops : list op) (s : st) : st :=
  match ops with [] => s | o :: r => run r (fst (step o s)) end.

Record WF (s : st) : Prop := mkWF {
  wf_nodup : NoDup (map c_id (cs s));
  wf_ids : forall o, In o (cs s) -> (c_id o < nc s)%N;
  wf_rows : forall i r, row_get i (dbc s) = Some r -> (i < nc s)%N;
  wf_pend : forall o, In o (cs s) -> c_st o = Pend -> row_get (c_id o) (dbc s) = None
}.

Lemma In_row_get : forall i r (d : rows), In (i, r) d -> row_get i d <> None.
Proof.
  intros i r d. induction d as [|[j x] d IH]; intros H; [destruct H|]. simpl.
  destruct (N.eqb j i) eqn:E; [discriminate|]. destruct H as [H|H]; [inversion H; subst; rewrite N.eqb_refl in E; discriminate|auto].
Qed.

Lemma upd_c_ids : forall k f l, (forall o, c_id (f o) = c_id o) -> map c_id (upd_c k f l) = map c_id l.
Proof.
  intros k f l H. unfold upd_c. rewrite map_map. apply map_ext. intros o. destruct (N.eqb (c_id o) k); auto.
Qed.
Lemma In_upd_c : forall k f l x, In x (upd_c k f l) -> exists o, In o l /\ (x = o \/ x = f o).
Proof.
  intros k f l x H. unfold upd_c in H. apply in_map_iff in H. destruct H as [o [E H]].
  exists o. split; auto. destruct (N.eqb (c_id o) k); auto.
Qed.

Lemma wf_upd : forall s k f, WF s -> (forall o, c_id (f o) = c_id o) ->
  (forall o, c_st (f o) = Pend -> c_st o = Pend) -> WF (set_cs (upd_c k f (cs s)) s).
Proof.
  intros s k f W Hid Hst. constructor; cbn [cs dbc nc set_cs].
  - rewrite upd_c_ids; auto. apply (wf_nodup s W).
  - intros x H. apply In_upd_c in H. destruct H as [o [Ho [E|E]]]; subst x; [|rewrite Hid]; apply (wf_ids s W); auto.
  - apply (wf_rows s W).
  - intros x H P. apply In_upd_c in H. destruct H as [o [Ho [E|E]]]; subst x.
    + apply (wf_pend s W); auto.
    + rewrite Hid. apply (wf_pend s W); auto.
Qed.

Lemma NoDup_map_filter : forall (A B : Type) (f : A -> B) q l, NoDup (map f l) -> NoDup (map f (filter q l)).
Proof.
  intros A B f q. induction l as [|x l IH]; intros ND; [constructor|]. inversion ND as [|? ? Hx ND']. subst. cbn [filter].
  destruct (q x); [|auto]. cbn [map]. constructor; [|auto].
  intro H. apply Hx. apply in_map_iff in H. destruct H as [y [E Hin]]. rewrite <- E. apply in_map, (proj1 (filter_In q y l) Hin).
Qed.

Lemma wf_flush : forall s, WF s -> WF (flush s).
Proof.
  intros s W. constructor; cbn [cs dbc nc flush].
  - rewrite map_map. apply (NoDup_map_filter _ _ c_id), (wf_nodup s W).
  - intros x H. apply in_map_iff in H. destruct H as [o [<- H]]. apply filter_In in H. apply (wf_ids s W o), H.
  - intros i r H. change (fold_left flush_row (cs s) (dbc s)) with (dbc (flush s)) in H.
    rewrite (flush_applies_pending s i (wf_nodup s W)) in H. unfold logical in H.
    destruct (find_c i (cs s)) as [o|] eqn:F.
    + apply find_c_In in F. destruct F as [F1 F2]. subst i. apply (wf_ids s W _ F1).
    + apply (wf_rows s W i r H).
  - intros x H P. apply in_map_iff in H. destruct H as [o [<- H]]. discriminate P.
Qed.

Lemma NoDup_app_one : forall (l : list N) x, NoDup l -> ~ In x l -> NoDup (l ++ [x]).
Proof. intros l x ND H. apply (NoDup_Add (Add_app x l [])). rewrite app_nil_r. split; assumption. Qed.

(* a new object at the end of the session's list: a fresh id below the (possibly advanced) counter, and no row if pending *)
Lemma wf_add : forall s o n', WF s -> ~ In (c_id o) (map c_id (cs s)) -> (c_id o < n')%N -> (nc s <= n')%N ->
  (c_st o = Pend -> row_get (c_id o) (dbc s) = None) ->
  WF (mkSt (dbc s) (dbp s) (cs s ++ [o]) (ps s) n' (np s) (saf s) (flushing s)).
Proof.
  intros s o n' [A B C D] Fresh Hid Hn Hp. constructor; cbn [cs dbc nc].
  - rewrite map_app. apply NoDup_app_one; assumption.
  - intros x H. apply in_app_or in H. destruct H as [H|[<-|[]]]; [specialize (B x H); lia|exact Hid].
  - intros i r H. specialize (C i r H). lia.
  - intros x H P. apply in_app_or in H. destruct H as [H|[<-|[]]]; [apply D; assumption|apply Hp, P].
Qed.

Lemma wf_resolve : forall s out row, WF s -> In row (dbc s) ->
  WF (fst (resolve (s, out) row)) /\ dbc (fst (resolve (s, out) row)) = dbc s.
Proof.
  intros s out [i r] W Hin. unfold resolve. cbn [fst snd].
  destruct (find_ident i (cs s)) as [o|] eqn:F; [split; [exact W|reflexivity]|]. split; [|reflexivity].
  assert (Row := In_row_get i r (dbc s) Hin).
  apply (wf_add s _ (nc s)); cbn [c_id c_st]; [exact W| | |lia|discriminate].
  - (* an object with this id and no identity is pending, so the row would not exist *)
    intro H. apply in_map_iff in H. destruct H as [o [E Ho]]. destruct (has_identity o) eqn:Hi.
    + unfold find_ident in F. apply (find_none _ _ F) in Ho. rewrite E, N.eqb_refl, Hi in Ho. discriminate.
    + apply Row. rewrite <- E. apply (wf_pend s W o Ho). unfold has_identity in Hi. destruct (c_st o); [discriminate Hi|reflexivity|discriminate Hi].
  - destruct (row_get i (dbc s)) eqn:G; [apply (wf_rows s W i _ G)|contradiction].
Qed.

Lemma wf_fold_resolve : forall rs s out, WF s -> (forall row, In row rs -> In row (dbc s)) ->
  WF (fst (fold_left resolve rs (s, out))) /\ dbc (fst (fold_left resolve rs (s, out))) = dbc s.
Proof.
  induction rs as [|row rs IH]; intros s out W Sub; [simpl; auto|]. cbn [fold_left].
  destruct (wf_resolve s out row W (Sub row (or_introl eq_refl))) as [W1 D1].
  destruct (resolve (s, out) row) as [s1 out1] eqn:E. cbn [fst] in *.
  destruct (IH s1 out1 W1) as [W2 D2].
  - intros r Hr. rewrite D1. apply Sub. right. exact Hr.
  - split; auto. congruence.
Qed.
Lemma wf_load_rows : forall rs s, WF s -> (forall row, In row rs -> In row (dbc s)) -> WF (fst (load_rows rs s)).
Proof. intros rs s W Sub. apply (wf_fold_resolve rs s [] W Sub). Qed.

Lemma wf_set_ps : forall s l, WF s -> WF (set_ps l s).
Proof. intros s l [A B C D]. constructor; auto. Qed.
Lemma wf_load_parent : forall k s, WF s -> WF (fst (load_parent k s)).
Proof. intros k s W. destruct (load_parent_ps k s) as [l ->]. apply wf_set_ps, W. Qed.
Lemma wf_aft : forall k m s, WF s -> WF (autoflush_then k m s).
Proof. intros k m s W. unfold autoflush_then. destruct (enabled k m s); auto using wf_flush. Qed.

Lemma wf_exec : forall k m a s, WF s -> WF (fst (exec k m a s)).
Proof.
  intros k m a s. apply exec_preserves.
  - apply wf_aft.
  - intros s' rs. apply wf_load_rows.
  - intros s' p. apply wf_load_parent.
  - intros s' f W Hid Hst. apply wf_upd; [exact W|exact Hid|]. intros o. rewrite Hst. trivial.
Qed.

Lemma wf_step : forall o s, WF s -> WF (fst (step o s)).
Proof.
  intros o s W. unfold step. destruct (skipped (guard o s)); [exact W|].
  destruct o as [v p| |k v|k p|k| |k m a]; cbn [fst].
  - apply wf_add; cbn [c_id c_st]; [exact W| |lia|lia|].
    + intro H. apply in_map_iff in H. destruct H as [x [E Hx]]. pose proof (wf_ids s W x Hx). lia.
    + intros _. destruct (row_get (nc s) (dbc s)) eqn:G; [|reflexivity]. pose proof (wf_rows s W _ _ G). lia.
  - destruct W as [A B C D]. constructor; auto.
  - apply wf_upd; auto.
  - apply wf_upd; auto.
  - apply wf_upd; auto. intros x H. simpl in H. discriminate.
  - apply wf_flush. exact W.
  - apply wf_exec. exact W.
Qed.

Lemma wf_init : forall pr cr af nc0 np0, (forall i r, row_get i cr = Some r -> (i < nc0)%N) -> WF (init pr cr af nc0 np0).
Proof. intros. constructor; cbn; auto; try constructor; intros; contradiction. Qed.

Lemma wf_run : forall ops s, WF s -> WF (run ops s).
Proof. induction ops; intros s W; simpl; auto. apply IHops. apply wf_step. exact W. Qed.
