(* C36 - an operation that raises does not change what the history reports as added / deleted, and
   the model never takes one of its "unreachable" branches.  Neither needs the invariant. *)
From Coq Require Import List NArith Bool Lia.
Import ListNotations.
From SAV.orm Require Import History HistorySpec HistoryProofs HistoryFrame HistoryWf HistoryOps HistoryTrack.
Open Scope N_scope.

Lemma changes_loadX : forall s s', loadX s s' -> changes (hist_x s') = changes (hist_x s).
Proof.
  intros s s' [C D]. rewrite !hist_x_eq, C. destruct D as [D|[N D]]; [rewrite D; reflexivity|].
  rewrite D, N. destruct (x_d s); reflexivity.
Qed.
Lemma changes_keepB : forall s s', keepB s s' -> changes (hist_b s') = changes (hist_b s).
Proof. intros s s' [C D]. rewrite !hist_b_eq, C, D. reflexivity. Qed.
Lemma changes_keepC : forall s s', keepC s s' -> changes (hist_c s') = changes (hist_c s).
Proof. intros s s' [C D]. rewrite !hist_c_eq, C, D. reflexivity. Qed.
Lemma changes_loadB : forall s s', loadB s s' -> changes (hist_b s') = changes (hist_b s).
Proof.
  intros s s' [K|(D & C & C' & v & D')]; [apply changes_keepB; exact K|].
  rewrite !hist_b_eq, C', D', D. destruct C as [-> | ->]; reflexivity.
Qed.
Lemma changes_loadC : forall s s', loadC s s' -> changes (hist_c s') = changes (hist_c s).
Proof.
  intros s s' [K|(D & C & C' & v & D')]; [apply changes_keepC; exact K|].
  rewrite !hist_c_eq, C', D', D. destruct C as [-> | ->]; reflexivity.
Qed.

(* the pre-remove event captures the collection as it stands: nothing added, nothing deleted *)
Lemma changes_before_pop : forall s, changes (hist_c (before_pop s)) = changes (hist_c s).
Proof.
  intros s. rewrite !hist_c_eq. unfold before_pop. rewrite mod_c_c. unfold mod_c.
  destruct (c_c s) eqn:C; cbn; rewrite ?C; try reflexivity.
  destruct (c_d s); cbn; [rewrite filter_nmemb_self|]; reflexivity.
Qed.

Lemma changes_coll_event : forall s, coll_deleted s = false ->
  changes (hist_c (coll_event s)) = changes (hist_c s).
Proof.
  intros s G. unfold coll_event. rewrite (changes_before_pop _).
  unfold coll_deleted in G. destruct (c_d s) eqn:D; [reflexivity|].
  rewrite !hist_c_eq. cbn [c_d c_c set_c_d]. rewrite D.
  destruct (c_c s) as [| | |[|]]; try reflexivity. discriminate.
Qed.

Lemma coll_deleted_loadC : forall s s', loadC s s' -> coll_deleted s = false -> coll_deleted s' = false.
Proof.
  unfold coll_deleted. intros s s' [[C D]|(D & C & C' & v & D')] G; [rewrite C, D; exact G|].
  rewrite C'. reflexivity.
Qed.

Lemma fail_x : forall k o s s' e, on_x o = true -> step k o s = (s', Fail e) -> s' = s.
Proof.
  intros k o s s' e OX. destruct o; try discriminate OX; cbn [step]; [discriminate|].
  unfold del_x. destruct (_ && _); congruence.
Qed.

(* [del a.b] raises only for a new object without a value: nothing is loaded, and capturing
   NO_VALUE for an absent attribute reports nothing *)
Lemma get_b_new : forall s, persistent s = false -> b_d s = None ->
  get_b P_NO_FETCH_NO_INIT s = (s, GNoValue).
Proof. intros s P D. unfold get_b, get, loader_b. rewrite D, P. destruct (b_c s); reflexivity. Qed.

Lemma fail_b : forall k o s s' e, on_b o = true -> step k o s = (s', Fail e) ->
  changes (hist_b s') = changes (hist_b s).
Proof.
  intros k o s s' e OB. destruct o; try discriminate OB; cbn [step].
  - unfold set_b. destruct (get_b _ s). discriminate.
  - unfold del_b. destruct (b_d s) eqn:D.
    { rewrite (get_b_hit _ _ _ D). unfold mod_b.
      destruct (is_nohist (b_c s)); cbn; rewrite D; discriminate. }
    destruct (persistent s) eqn:P.
    { destruct (get_b _ s). rewrite andb_false_r. discriminate. }
    rewrite (get_b_new s P D). destruct (_ && _); [|discriminate]. intros [= <- _].
    rewrite !hist_b_eq. cbn [b_d b_c set_b_d comm_of_gres]. rewrite mod_b_c, D.
    destruct (b_c s); reflexivity.
  - intros H. replace s' with (fst (step k GetB s)) by (cbn [step]; rewrite H; reflexivity).
    cbn [step]. rewrite read_fst. apply changes_loadB, get_b_frame.
Qed.

Lemma fail_c : forall k o s s' e, on_c o = true -> step k o s = (s', Fail e) ->
  changes (hist_c s') = changes (hist_c s).
Proof.
  intros k o s s' e OC H.
  assert (T : changes (hist_c (fst (coll_touch s))) = changes (hist_c s)).
  { rewrite coll_touch_get. apply changes_loadC, get_c_frame. }
  destruct (via_touch o) eqn:V.
  { destruct (touch_op_fail k o s s' e V H) as [_ [-> | ->]]; rewrite ?changes_before_pop; exact T. }
  destruct o; try discriminate OC; try discriminate V; cbn [step] in H.
  - unfold c_replace in H. rewrite coll_touch_get in T.
    destruct (get_c P_OFF s) as [s1 []]; try discriminate H; injection H as <- _; exact T.
  - unfold c_del in H. destruct (c_d s); discriminate.
Qed.

Theorem failed_op_keeps_changes : forall k o s s' e, step k o s = (s', Fail e) ->
  changes (hist_x s') = changes (hist_x s) /\ changes (hist_b s') = changes (hist_b s) /\
  changes (hist_c s') = changes (hist_c s).
Proof.
  intros k o s s' e H.
  assert (S' : s' = fst (step k o s)) by (rewrite H; reflexivity).
  destruct (is_sync o) eqn:NS.
  { destruct o; try discriminate NS; cbn [step] in H.
    - rewrite flush_eq in H. destruct (_ && _); discriminate.
    - unfold expire in H. destruct (negb (persistent s)); [|discriminate]. injection H as <- _. auto. }
  split; [|split].
  - destruct (on_x o) eqn:OX; [rewrite (fail_x k o s s' e OX H); reflexivity|].
    rewrite S'. apply changes_loadX, step_loadX; assumption.
  - destruct (on_b o) eqn:OB; [exact (fail_b k o s s' e OB H)|].
    rewrite S'. apply changes_keepB, step_keepB; assumption.
  - destruct (on_c o) eqn:OC; [exact (fail_c k o s s' e OC H)|].
    rewrite S'. apply changes_keepC, step_keepC; assumption.
Qed.

(* a failing [del a.x] on a new object leaves it untouched: the AttributeError comes before any
   event (/repo 09dadee) *)
Theorem failed_del_keeps_state :
  let s := init ONew 0 0 [] in
  wf s /\ step KList DelX s = (s, Fail AttributeError) /\
  hist_x (fst (step KList DelX s)) = blank /\ modified (fst (step KList DelX s)) = false.
Proof. split; [apply init_wf|]. vm_compute. auto. Qed.

Theorem flush_never_fails : forall s, failed (snd (flush s)) = false.
Proof. intros s. rewrite flush_eq. destruct (_ && _); reflexivity. Qed.

(* with PASSIVE_OFF the loaders of x and b do not give up *)
Lemma loader_x_off : forall s,
  snd (loader_x P_OFF s) <> LNoResult /\ snd (loader_x P_OFF s) <> LNoValue.
Proof. intros s. unfold loader_x, load_expired. destruct (x_e s); split; discriminate. Qed.

Lemma loader_b_off : forall s,
  snd (loader_b P_OFF s) <> LNoResult /\ snd (loader_b P_OFF s) <> LNoValue.
Proof.
  intros s. unfold loader_b, col_bid, load_expired.
  destruct (persistent s), (bid_d s), (bid_e s); split; discriminate.
Qed.

Theorem step_never_unreachable : forall k o s, snd (step k o s) <> Fail Unreachable.
Proof.
  intros k o s. destruct (via_touch o) eqn:V.
  { destruct (step k o s) as [s' r] eqn:E. cbn [snd]. intros ->.
    destruct (touch_op_fail k o s s' _ V E) as [N _]. apply N. reflexivity. }
  destruct o; try discriminate V; cbn [step].
  - discriminate.
  - unfold del_x. destruct (_ && _); discriminate.
  - apply read_off; apply loader_x_off.
  - unfold set_b. destruct (get_b _ s). discriminate.
  - unfold del_b. destruct (get_b _ s). destruct (_ && _); discriminate.
  - apply read_off; apply loader_b_off.
  - unfold c_replace. destruct (get_c_off_val s) as [old E].
    destruct (get_c P_OFF s) as [s1 r]. cbn in E. subst r. discriminate.
  - unfold c_del. destruct (c_d s); discriminate.
  - rewrite flush_eq. destruct (_ && _); discriminate.
  - unfold expire. destruct (negb (persistent s)); discriminate.
Qed.
