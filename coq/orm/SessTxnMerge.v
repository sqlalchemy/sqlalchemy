(* C33 - releasing a savepoint: the parent frame, with the child's collections merged into it
   (SessionTransaction._remove_snapshot), is related to the current state as the parent's snapshot
   demands (the merge keeps the key an object had when the parent began, /repo f8f802f). *)
From Coq Require Import List ZArith Bool Arith Lia.
Import ListNotations.
From SAV.orm Require Import SessTxn SessTxnBase SessTxnInv SessTxnOps.
Open Scope nat_scope.

Lemma expunged_nil : forall f o, expunged f [] o = mem o (fnew f).
Proof. intros. unfold expunged. cbn. apply orb_false_r. Qed.
Lemma pdelf_nil : forall f ob o, pdelf f ob [] o = if mem o (fdel f) then false else odelf (ob o).
Proof. intros. unfold pdelf. cbn. rewrite orb_false_r. reflexivity. Qed.

Definition ks_merge (l : list (nat * (Z * Z))) (e : nat * (Z * Z)) : list (nat * (Z * Z)) :=
  ks_set (fst e) (match ks_find (fst e) l with Some (po, _) => po | None => fst (snd e) end, snd (snd e)) l.

Lemma ks_fold_nodup : forall l base, NoDup (map fst base) -> NoDup (map fst (fold_left ks_merge l base)).
Proof. induction l as [|e l IH]; intros base H; cbn; auto. apply IH. apply ks_set_nodup. exact H. Qed.

Lemma ks_find_fold : forall l base x, NoDup (map fst l) ->
  ks_find x (fold_left ks_merge l base) =
  match ks_find x l with
  | Some (old, nw) => Some (match ks_find x base with Some (po, _) => po | None => old end, nw)
  | None => ks_find x base
  end.
Proof.
  induction l as [|[a [old nw]] l IH]; intros base x H; cbn [fold_left ks_find]; auto.
  inversion H; subst. rewrite IH by auto. unfold ks_merge. cbn [fst snd].
  destruct (Nat.eqb_spec a x).
  - subst. rewrite (ks_find_notin x l) by auto. rewrite ks_find_set. rewrite Nat.eqb_refl. reflexivity.
  - destruct (ks_find x l) as [[o1 n1]|]; rewrite ks_find_set; (destruct (Nat.eqb_spec x a); [congruence|reflexivity]).
Qed.

(* a frame against a state in which nothing is pending *)
Section RelNil.
  Variables (g : ghost) (f : frame) (ob : nat -> obj) (n : nat) (W : tbl).
  Hypothesis R : Rel g f ob n [] [] W.

  Lemma Rel_nil_id : forall x, x < gn g -> mem x (fnew f) = false ->
    oatt (ob x) = oatt (gobjs g x) /\
    (oatt (gobjs g x) = true ->
       pkey f ob x = okey (gobjs g x) /\ (if mem x (fdel f) then false else odelf (ob x)) = odelf (gobjs g x)).
  Proof.
    intros x Hx Hn. destruct (r_id _ _ _ _ _ _ _ R x Hx) as [A B]; [rewrite expunged_nil; exact Hn|].
    split; auto. intros Ha. destruct (B Ha) as [B1 B2]. rewrite pdelf_nil in B2. auto.
  Qed.
  (* an object attached when the frame began is not new in it *)
  Lemma Rel_nil_not_new : forall x, x < gn g -> oatt (gobjs g x) = true -> mem x (fnew f) = false.
  Proof.
    intros x Hx Ha. destruct (mem x (fnew f)) eqn:E; auto.
    pose proof (r_exp _ _ _ _ _ _ _ R x Hx) as X. rewrite expunged_nil in X. specialize (X E). congruence.
  Qed.
End RelNil.
Arguments Rel_nil_not_new {g f ob n W} R x _ _.

Section Merge.
  Variables (gp g : ghost) (p f : frame) (ob : nat -> obj) (n : nat) (W : tbl).
  Hypothesis GCp : GClean gp.
  Hypothesis GCg : GClean g.
  Hypothesis G : Good ob n W [] [].
  Hypothesis L : Rel gp p (gobjs g) (gn g) [] [] (gW g).
  Hypothesis R : Rel g f ob n [] [] W.

  Let m := merge_into p f.

  Lemma Mn : forall x, mem x (fnew m) = mem x (fnew p) || mem x (fnew f).
  Proof. intros x. unfold m, merge_into. cbn. apply mem_fold_addm. Qed.
  Lemma Md : forall x, mem x (fdirty m) = mem x (fdirty p) || mem x (fdirty f).
  Proof. intros x. unfold m, merge_into. cbn. apply mem_fold_addm. Qed.
  Lemma Me : forall x, mem x (fdel m) = mem x (fdel p) || mem x (fdel f).
  Proof. intros x. unfold m, merge_into. cbn. apply mem_fold_addm. Qed.
  Lemma Mk : forall x, ks_find x (fks m) =
    match ks_find x (fks f) with
    | Some (old, nw) => Some (match ks_find x (fks p) with Some (po, _) => po | None => old end, nw)
    | None => ks_find x (fks p)
    end.
  Proof. intros x. unfold m, merge_into. cbn. apply (ks_find_fold (fks f) (fks p) x). apply (r_ksu _ _ _ _ _ _ _ R). Qed.

  Let GGp := proj1 GCp.
  Let GGg := proj1 GCg.

  (* transfer through the parent's relation *)
  Lemma TP : forall x, x < gn gp -> mem x (fnew p) = false ->
    oatt (gobjs g x) = oatt (gobjs gp x) /\
    (oatt (gobjs gp x) = true ->
       pkey p (gobjs g) x = okey (gobjs gp x) /\ (if mem x (fdel p) then false else odelf (gobjs g x)) = odelf (gobjs gp x)).
  Proof using L. exact (Rel_nil_id _ _ _ _ _ L). Qed.
  Lemma TF : forall x, x < gn g -> mem x (fnew f) = false ->
    oatt (ob x) = oatt (gobjs g x) /\
    (oatt (gobjs g x) = true ->
       pkey f ob x = okey (gobjs g x) /\ (if mem x (fdel f) then false else odelf (ob x)) = odelf (gobjs g x)).
  Proof using R. exact (Rel_nil_id _ _ _ _ _ R). Qed.
  (* an object of the parent's identity map that the parent did not touch is in g's identity map, same key *)
  Lemma untouched_p : forall x k, x < gn gp -> oin (gobjs gp x) = true -> okey (gobjs gp x) = Some k ->
    mem x (fnew p) = false -> mem x (fdirty p) = false -> mem x (fdel p) = false ->
    oin (gobjs g x) = true /\ okey (gobjs g x) = Some k /\ oatt (gobjs g x) = true.
  Proof.
    intros x k Hx Hi Hk N1 N2 N3. apply (Rel_untouched gp p _ (gn g) [] [] (gW g)); auto. rewrite expunged_nil. exact N1.
  Qed.

  Theorem Rel_merge : Rel gp m ob n [] [] W.
  Proof.
    pose proof (r_n _ _ _ _ _ _ _ L) as Hpg. pose proof (r_n _ _ _ _ _ _ _ R) as Hgn.
    constructor.
    - lia.
    - (* r_exp *) intros x Hx He. rewrite expunged_nil, Mn in He.
      destruct (mem x (fnew p)) eqn:E1.
      + pose proof (r_exp _ _ _ _ _ _ _ L x Hx) as X. rewrite expunged_nil in X. auto.
      + cbn in He. destruct (TP x Hx E1) as [T1 _]. rewrite <- T1.
        pose proof (r_exp _ _ _ _ _ _ _ R x) as X. rewrite expunged_nil in X. apply X; auto. lia.
    - (* r_id *) intros x Hx He. rewrite expunged_nil, Mn in He. apply orb_false_iff in He. destruct He as [E1 E2].
      destruct (TP x Hx E1) as [T1 T2]. destruct (TF x) as [F1 F2]; [lia|exact E2|].
      split; [congruence|]. intros Ha. destruct (T2 Ha) as [K1 D1].
      assert (Hag : oatt (gobjs g x) = true) by congruence. destruct (F2 Hag) as [K2 D2].
      split.
      + unfold pkey in *. rewrite Mk. destruct (ks_find x (fks f)) as [[old nw]|] eqn:Ef.
        * destruct (ks_find x (fks p)) as [[po pn]|]; congruence.
        * destruct (ks_find x (fks p)) as [[old nw]|]; congruence.
      + rewrite pdelf_nil, Me. destruct (mem x (fdel p)); cbn; [exact D1|]. congruence.
    - (* r_fresh *) intros x H1 H2. rewrite expunged_nil, Mn.
      destruct (Nat.lt_ge_cases x (gn g)) as [Hxg|Hxg].
      + destruct (r_fresh _ _ _ _ _ _ _ L x H1 Hxg) as [X|[X1 X2]].
        * rewrite expunged_nil in X. rewrite X. auto.
        * destruct (mem x (fnew f)) eqn:E2; [left; apply orb_true_r|]. right.
          destruct (TF x Hxg E2) as [F1 _]. split; [congruence|].
          destruct (oin (ob x)) eqn:Ei; auto. destruct (g_in _ _ _ _ _ G x Ei) as [_ [A _]]. congruence.
      + destruct (r_fresh _ _ _ _ _ _ _ R x Hxg H2) as [X|X]; [|right; exact X].
        rewrite expunged_nil in X. rewrite X. left. apply orb_true_r.
    - (* r_row *) intros x k Hx He Hi Hd Hde Hk. rewrite expunged_nil, Mn in He. apply orb_false_iff in He. destruct He as [E1 E2].
      rewrite Md in Hd. apply orb_false_iff in Hd. destruct Hd as [D1 D2].
      rewrite Me in Hde. apply orb_false_iff in Hde. destruct Hde as [X1 X2].
      destruct (untouched_p x k Hx Hi Hk E1 D1 X1) as [Ig [Kg Ag]].
      rewrite (r_row _ _ _ _ _ _ _ R x k); auto; [|lia|rewrite expunged_nil; exact E2].
      apply (r_row _ _ _ _ _ _ _ L x k); auto. rewrite expunged_nil; exact E1.
    - (* r_delv *) intros x k v Hx He Hde Hd Hm Hk Hw. rewrite expunged_nil, Mn in He. apply orb_false_iff in He. destruct He as [E1 E2].
      rewrite Md in Hd. apply orb_false_iff in Hd. destruct Hd as [D1 D2].
      rewrite Me in Hde.
      destruct (mem x (fdel p)) eqn:X1.
      + destruct (r_del _ _ _ _ _ _ _ L x X1) as [A1 [A2 [A3 [A4 A5]]]].
        destruct (r_keep _ _ _ _ _ _ _ R x A1 A4 A2 Hm) as [K1 [K2 K3]]. rewrite K1, K2.
        apply (r_delv _ _ _ _ _ _ _ L x k v); auto. rewrite expunged_nil; exact E1.
      + cbn in Hde.
        destruct (r_del _ _ _ _ _ _ _ R x Hde) as [A1 [A2 [A3 [A4 A5]]]].
        destruct (TF x) as [F1 F2]; [lia|exact E2|]. assert (Hag : oatt (gobjs g x) = true) by congruence.
        destruct (F2 Hag) as [K2 Dl2]. rewrite Hde in Dl2.
        destruct (TP x Hx E1) as [T1 T2]. assert (Hap : oatt (gobjs gp x) = true) by congruence.
        destruct (T2 Hap) as [K1 Dl1]. rewrite X1 in Dl1.
        unfold pkey in K1. rewrite (Rel_ks_none _ _ _ _ _ _ _ x L E1 D1) in K1.
        assert (Hip : oin (gobjs gp x) = true).
        { apply (g_pers _ _ _ _ _ GGp x k); auto. congruence. }
        assert (Hwg : gW g k = gW gp k).
        { apply (r_row _ _ _ _ _ _ _ L x k); auto. rewrite expunged_nil; exact E1. }
        apply (r_delv _ _ _ _ _ _ _ R x k v); auto; try congruence; try lia. rewrite expunged_nil; exact E2.
    - (* r_ks *) intros x old nw Hk. rewrite Mk in Hk. rewrite Mn, Md.
      destruct (ks_find x (fks f)) as [[o1 n1]|] eqn:Ef.
      + inversion Hk; subst. destruct (r_ks _ _ _ _ _ _ _ R x o1 nw Ef) as [A1 [A2 [A3 A4]]].
        repeat split; auto. destruct A4 as [A4|A4]; rewrite A4; [left|right]; apply orb_true_r.
      + destruct (r_ks _ _ _ _ _ _ _ L x old nw Hk) as [A1 [A2 [A3 A4]]].
        pose proof (Rel_nil_not_new R x A1 A3) as E2.
        destruct (TF x A1 E2) as [F1 F2]. destruct (F2 A3) as [K2 _].
        unfold pkey in K2. rewrite Ef in K2.
        split; [lia|]. split; [congruence|]. split; [congruence|].
        destruct A4 as [A4|A4]; rewrite A4; auto.
    - (* r_del *) intros x Hde. rewrite Me in Hde.
      destruct (mem x (fdel f)) eqn:X2; [apply (r_del _ _ _ _ _ _ _ R x X2)|].
      rewrite orb_false_r in Hde.
      destruct (r_del _ _ _ _ _ _ _ L x Hde) as [A1 [A2 [A3 [A4 A5]]]].
      pose proof (Rel_nil_not_new R x A1 A4) as E2.
      destruct (TF x A1 E2) as [F1 F2]. destruct (F2 A4) as [K2 Dl2]. rewrite X2 in Dl2.
      assert (Hdf : mem x (fdirty f) = false).
      { destruct (mem x (fdirty f)) eqn:E; auto.
        destruct (r_dirty _ _ _ _ _ _ _ R x E) as [Y|[_ Y]]; congruence. }
      unfold pkey in K2. rewrite (Rel_ks_none _ _ _ _ _ _ _ x R E2 Hdf) in K2.
      split; [lia|]. split.
      { destruct (oin (ob x)) eqn:Ei; auto. destruct (g_in _ _ _ _ _ G x Ei) as [_ [_ [Y _]]]. congruence. }
      split; [congruence|]. split; [congruence|]. congruence.
    - (* r_lists *) intros x H. rewrite Mn, Md in H. destruct H as [H|H]; apply orb_true_iff in H; destruct H as [H|H].
      + pose proof (r_lists _ _ _ _ _ _ _ L x (or_introl H)). lia.
      + apply (r_lists _ _ _ _ _ _ _ R x (or_introl H)).
      + pose proof (r_lists _ _ _ _ _ _ _ L x (or_intror H)). lia.
      + apply (r_lists _ _ _ _ _ _ _ R x (or_intror H)).
    - (* r_ksu *) unfold m, merge_into. cbn. apply ks_fold_nodup. apply (r_ksu _ _ _ _ _ _ _ L).
    - (* r_dirty *) intros x H. rewrite Md in H. rewrite Mn.
      destruct (mem x (fdirty p)) eqn:D1.
      + destruct (r_dirty _ _ _ _ _ _ _ L x D1) as [Y|Y]; [left; rewrite Y; reflexivity|right; exact Y].
      + cbn in H. destruct (r_dirty _ _ _ _ _ _ _ R x H) as [Y|[Y1 Y2]]; [left; rewrite Y; apply orb_true_r|].
        destruct (mem x (fnew p)) eqn:E1; [left; reflexivity|]. right.
        apply (Rel_in_was_in gp p _ (gn g) [] [] (gW g) x GCp GGg L Y2). rewrite expunged_nil. exact E1.
    - (* r_keep *) intros x Hx Ha Hi Hm.
      pose proof (Rel_nil_not_new L x Hx Ha) as E1.
      destruct (TP x Hx E1) as [T1 _]. assert (Hag : oatt (gobjs g x) = true) by congruence.
      assert (Hig : oin (gobjs g x) = false).
      { apply (Rel_notin gp p (gobjs g) (gn g) [] [] (gW g) x); auto. }
      assert (Hxg : x < gn g) by lia.
      destruct (r_keep _ _ _ _ _ _ _ R x Hxg Hag Hig Hm) as [K1 [K2 K3]].
      destruct (r_keep _ _ _ _ _ _ _ L x Hx Ha Hi K3) as [L1 [L2 L3]].
      repeat split; congruence.
  Qed.
End Merge.
