(* C31 - [exec_ok]: a statement sequence that meets every ordering need executes on the reference database
   (immediate foreign key and NOT NULL checks).  Database reasoning only: no reference to the unit of work. *)
From Coq Require Import List NArith Bool Lia.
Import ListNotations.
From SAV.util Require Import Topo TopoProofs.
From SAV.orm Require Import FlushOrder FlushOrderSpec FlushOrderBase.
Local Open Scope N_scope.

Definition ev_eqb (a b : ev) : bool :=
  match a, b with
  | ESave s, ESave s' | EPost s, EPost s' | EDel s, EDel s' => N.eqb s s'
  | ESecIns x, ESecIns y | ESecDel x, ESecDel y => t3eqb x y
  | _, _ => false
  end.
Lemma t3eqb_eq x y : t3eqb x y = true <-> x = y.
Proof. destruct x as [[a b] c], y as [[a' b'] c']. unfold t3eqb. simpl. split.
  - intros H. apply andb_true_iff in H. destruct H as [H H3]. apply andb_true_iff in H. destruct H as [H1 H2].
    apply N.eqb_eq in H1, H2, H3. subst. reflexivity.
  - intros H. inversion H. rewrite !N.eqb_refl. reflexivity. Qed.
Lemma ev_eqb_eq a b : ev_eqb a b = true <-> a = b.
Proof. destruct a, b; simpl; try (split; intros; discriminate); rewrite ?N.eqb_eq, ?t3eqb_eq; split; intros H; try (inversion H; reflexivity); subst; reflexivity. Qed.
Definition evb (e : ev) (l : list ev) : bool := existsb (ev_eqb e) l.
Lemma evb_In e l : evb e l = true <-> In e l.
Proof. unfold evb. rewrite existsb_exists. split.
  - intros [x [H1 H2]]. apply ev_eqb_eq in H2. subst. exact H1.
  - intros H. exists e. split; [exact H|apply ev_eqb_eq; reflexivity]. Qed.
Lemma evb_false e l : evb e l = false <-> ~ In e l.
Proof. rewrite <- evb_In. destruct (evb e l); split; intros H.
  - discriminate. - exfalso; apply H; reflexivity. - intros X; discriminate. - reflexivity. Qed.
Lemma evb_app e l x : evb e (l ++ [x]) = evb e l || ev_eqb e x.
Proof. unfold evb. rewrite existsb_app. simpl. rewrite orb_false_r. reflexivity. Qed.
Lemma mem3_In x l : mem3 x l = true <-> In x l.
Proof. unfold mem3. rewrite existsb_exists. split.
  - intros [y [H1 H2]]. apply t3eqb_eq in H2. subst. exact H1.
  - intros H. exists x. split; [exact H|apply t3eqb_eq; reflexivity]. Qed.

Lemma mem3_out x l : ~ In x l -> negb (mem3 x l) = true.
Proof. intros H. apply negb_true_iff. destruct (mem3 x l) eqn:Y; [|reflexivity]. apply mem3_In in Y. contradiction. Qed.

Definition before (tr : list ev) (e1 e2 : ev) : Prop := exists l1 l2, tr = l1 ++ e2 :: l2 /\ In e1 l1.

Lemma nodup_split_unique {A} (l1 l2 l1' l2' : list A) e : NoDup (l1 ++ e :: l2) ->
  l1 ++ e :: l2 = l1' ++ e :: l2' -> l1 = l1'.
Proof. revert l1'. induction l1 as [|a l1 IH]; intros l1' Hn He.
  - destruct l1' as [|b l1']; [reflexivity|]. simpl in He. inversion He; subst. simpl in Hn. inversion Hn; subst.
    exfalso. apply H1. apply in_or_app. right. left. reflexivity.
  - destruct l1' as [|b l1']; simpl in He; inversion He; subst.
    + simpl in Hn. inversion Hn; subst. exfalso. apply H1. apply in_or_app. right. left. reflexivity.
    + f_equal. apply IH; [simpl in Hn; inversion Hn; assumption|assumption]. Qed.

Lemma before_pre tr pre suf e1 e2 : NoDup tr -> tr = pre ++ e2 :: suf -> before tr e1 e2 -> In e1 pre.
Proof. intros Hn -> [l1 [l2 [He Hi]]]. assert (pre = l1) by (eapply nodup_split_unique; eassumption). subst. exact Hi. Qed.

Section Lookup.
Variable g : graph.
Hypothesis Hwf : wf g = true.

Lemma wf_parts : NoDup (map s_id (g_sts g)) /\
  (forall s, In s (g_sts g) -> s_role s <= 2 /\ (s_role s = 2 -> s_key s = true)) /\
  functional (g_ref0 g) = true /\ functional (g_ref1 g) = true /\ NoDup (g_sec0 g) /\ NoDup (g_sec1 g) /\
  (forall r c t, In (r, c, t) (g_ref0 g) -> key_of g r = true /\ key_of g t = true) /\
  (forall x, In x (g_sec0 g) -> key_of g (snd (fst x)) = true /\ key_of g (snd x) = true) /\
  (forall r c t cm, In (r, c, t) (g_ref0 g ++ g_ref1 g) -> In cm (g_notnull g) -> fst cm = c -> snd cm = map_of g r).
Proof.
  pose proof Hwf as H. unfold wf in H.
  apply andb_prop in H. destruct H as [H Hnn]. apply andb_prop in H. destruct H as [H Hks]. apply andb_prop in H. destruct H as [H Hk0].
  apply andb_prop in H. destruct H as [H Hs1]. apply andb_prop in H. destruct H as [H Hs0]. apply andb_prop in H. destruct H as [H Hf1].
  apply andb_prop in H. destruct H as [H Hf0]. apply andb_prop in H. destruct H as [H Hrole]. apply andb_prop in H. destruct H as [H _].
  apply andb_prop in H. destruct H as [Hsts _].
  split; [apply nodupb_NoDup; assumption|].
  split. { intros s Hs. rewrite forallb_forall in Hrole. specialize (Hrole _ Hs). apply andb_true_iff in Hrole. destruct Hrole as [A B].
    apply N.leb_le in A. split; [exact A|]. intros E. rewrite E in B. simpl in B. exact B. }
  split; [assumption|]. split; [assumption|].
  assert (N3 : forall l, nodup3 l = true -> NoDup l).
  { induction l as [|a l IH]; simpl; intros X; [constructor|]. apply andb_true_iff in X. destruct X as [X1 X2].
    constructor; [intros Hi; apply mem3_In in Hi; rewrite Hi in X1; discriminate|apply IH, X2]. }
  split; [apply N3; assumption|]. split; [apply N3; assumption|].
  split. { intros r c t Hi. rewrite forallb_forall in Hk0. specialize (Hk0 _ Hi). simpl in Hk0. apply andb_true_iff in Hk0. exact Hk0. }
  split. { intros x Hi. rewrite forallb_forall in Hks. specialize (Hks _ Hi). apply andb_true_iff in Hks. exact Hks. }
  intros r c t cm Hi Hc E. rewrite forallb_forall in Hnn. specialize (Hnn _ Hi). rewrite forallb_forall in Hnn. specialize (Hnn _ Hc).
  simpl in Hnn. rewrite E, N.eqb_refl in Hnn. simpl in Hnn. apply N.eqb_eq in Hnn. exact Hnn.
Qed.

Lemma st_of_in x : In x (g_sts g) -> st_of g (s_id x) = Some x.
Proof. destruct wf_parts as [Hn _]. unfold st_of. revert Hn. induction (g_sts g) as [|a l IH]; simpl; intros Hn Hi; [contradiction|].
  inversion Hn; subst. destruct Hi as [->|Hi]; [rewrite N.eqb_refl; reflexivity|].
  destruct (N.eqb (s_id a) (s_id x)) eqn:E; [|apply IH; assumption].
  apply N.eqb_eq in E. exfalso. apply H1. rewrite E. apply in_map, Hi. Qed.

Lemma ids_with_spec f t : In t (ids_with g f) <-> exists x, st_of g t = Some x /\ f x = true.
Proof. unfold ids_with. rewrite in_map_iff. split.
  - intros [x [<- H]]. apply filter_In in H. destruct H as [H1 H2]. exists x. split; [apply st_of_in, H1|exact H2].
  - intros [x [H1 H2]]. apply st_of_some in H1. destruct H1 as [H1 H3]. exists x. split; [exact H3|apply filter_In; split; assumption]. Qed.

Lemma functional_get l r c t : functional l = true -> In (r, c, t) l -> ref_get l r c = Some t.
Proof. unfold ref_get. induction l as [|a l IH]; simpl; intros Hf Hi; [contradiction|].
  apply andb_true_iff in Hf. destruct Hf as [Hf1 Hf2]. destruct Hi as [->|Hi].
  - simpl. rewrite !N.eqb_refl. reflexivity.
  - destruct (N.eqb (fst (fst a)) r && N.eqb (snd (fst a)) c) eqn:E; [|apply IH; assumption].
    exfalso. apply andb_true_iff in E. destruct E as [E1 E2]. apply N.eqb_eq in E1, E2.
    apply negb_true_iff in Hf1. assert (X : existsb (fun y => N.eqb (fst (fst a)) (fst (fst y)) && N.eqb (snd (fst a)) (snd (fst y))) l = true).
    { apply existsb_exists. exists (r, c, t). split; [exact Hi|]. simpl. rewrite E1, E2, !N.eqb_refl. reflexivity. }
    congruence. Qed.
Lemma get_in l r c t : ref_get l r c = Some t -> In (r, c, t) l.
Proof. unfold ref_get. intros H. match type of H with match ?f with _ => _ end = _ => destruct f as [[[r' c'] t']|] eqn:E end; [|discriminate].
  inversion H; subst.
  apply find_some in E. destruct E as [E1 E2]. simpl in E2. apply andb_true_iff in E2. destruct E2 as [A B].
  apply N.eqb_eq in A, B. subst. exact E1. Qed.

Lemma cols_of_spec r c : In c (cols_of g r) <-> exists t, In (r, c, t) (g_ref0 g ++ g_ref1 g).
Proof. unfold cols_of. rewrite In_dedup, in_map_iff. split.
  - intros [[[r' c'] t] [E H]]. simpl in E. subst. apply filter_In in H. destruct H as [H1 H2]. simpl in H2. apply N.eqb_eq in H2. subst. eauto.
  - intros [t H]. exists (r, c, t). split; [reflexivity|]. apply filter_In. split; [exact H|]. simpl. apply N.eqb_refl. Qed.

Lemma in_events e : In e (events g) <->
  match e with
  | ESave s => In s (ids_with g (fun x => N.eqb (s_role x) 1))
  | EPost s => In s (ids_with g (fun x => in_uow x && has_post g (s_id x)))
  | EDel s => In s (ids_with g (fun x => N.eqb (s_role x) 2))
  | ESecIns x => In x (g_sec1 g) /\ mem3 x (g_sec0 g) = false
  | ESecDel x => In x (g_sec0 g) /\ mem3 x (g_sec1 g) = false
  end.
Proof. unfold events. split.
  - intros H. repeat (apply in_app_or in H; destruct H as [H|H]); apply in_map_iff in H; destruct H as [y [<- H]]; try exact H;
      apply filter_In in H; rewrite negb_true_iff in H; exact H.
  - destruct e; intros H;
      [|apply in_or_app; right|do 2 (apply in_or_app; right)|do 3 (apply in_or_app; right)|do 4 (apply in_or_app; right)];
      try (apply in_or_app; left); apply in_map; try exact H; apply filter_In; rewrite negb_true_iff; exact H. Qed.
End Lookup.

Section Exec.
Variable g : graph.
Hypothesis Hwf : wf g = true.
Hypothesis Hcons : consistent g = true.
Variable tr : list ev.
Hypothesis Hnd : NoDup tr.
Hypothesis Hev : incl tr (events g).
Hypothesis Hord : forall e1 e2, In (e1, e2) (needs g) -> In e2 tr -> before tr e1 e2.

Definition cur (pre : list ev) (r c : N) : option N :=
  if postcol g c then (if evb (EPost r) pre then fin g r c else ref_get (g_ref0 g) r c)
  else (if evb (ESave r) pre then ref_get (g_ref1 g) r c else ref_get (g_ref0 g) r c).

Definition livep (pre : list ev) (t : N) : Prop :=
  (key_of g t = true /\ ~ In (EDel t) pre) \/ (key_of g t = false /\ In (ESave t) pre).

(* the database after the statements [pre]: its rows, the references they hold, the secondary rows *)
Record Inv (pre : list ev) (d : db) : Prop := {
  I1 : forall t, In t (live d) <-> livep pre t;
  I2 : forall r c t, In (r, c, t) (refs d) <-> In r (live d) /\ cur pre r c = Some t;
  I3 : forall x, In x (secs d) <-> (In x (g_sec0 g) /\ ~ In (ESecDel x) pre) \/ In (ESecIns x) pre
}.

Let wfp := wf_parts g Hwf.

Lemma ev_save s : In (ESave s) tr -> role_of g s = 1.
Proof. intros H. apply Hev, in_events, (ids_with_spec g Hwf) in H. destruct H as [x [E R]]. unfold role_of. unfold st_of in E. rewrite E. apply N.eqb_eq, R. Qed.
Lemma ev_del s : In (EDel s) tr -> role_of g s = 2.
Proof. intros H. apply Hev, in_events, (ids_with_spec g Hwf) in H. destruct H as [x [E R]]. unfold role_of. unfold st_of in E. rewrite E. apply N.eqb_eq, R. Qed.
Lemma ev_post s : In (EPost s) tr -> role_of g s <> 0 /\ has_post g s = true.
Proof. intros H. apply Hev, in_events, (ids_with_spec g Hwf) in H. destruct H as [x [E R]]. apply andb_true_iff in R. destruct R as [R1 R2].
  destruct (st_of_some _ _ _ E) as [_ <-]. split; [|exact R2]. unfold role_of. unfold st_of in E. rewrite E. apply N.eqb_neq, negb_true_iff, R1. Qed.
Lemma ev_secins x : In (ESecIns x) tr -> In x (g_sec1 g) /\ ~ In x (g_sec0 g).
Proof. intros H. apply Hev, in_events in H. destruct H as [H1 H2]. split; [exact H1|]. intros Hi. apply mem3_In in Hi. congruence. Qed.
Lemma ev_secdel x : In (ESecDel x) tr -> In x (g_sec0 g) /\ ~ In x (g_sec1 g).
Proof. intros H. apply Hev, in_events in H. destruct H as [H1 H2]. split; [exact H1|]. intros Hi. apply mem3_In in Hi. congruence. Qed.

Lemma role2_key s : role_of g s = 2 -> key_of g s = true.
Proof. intros H. destruct (role_nonzero g s) as [x [_ [H1 [H2 [H3 [_ H5]]]]]]; [rewrite H; discriminate|].
  destruct wfp as [_ [W _]]. destruct (W x H1) as [_ W2]. rewrite <- H5. apply W2. rewrite H3. exact H. Qed.

Lemma cons_parts :
  (forall x, In x (g_sec1 g) -> survives g (snd (fst x)) = true /\ survives g (snd x) = true) /\
  (forall cm, In cm (g_notnull g) -> postcol g (fst cm) = false) /\
  (forall s cm, role_of g s = 1 -> In cm (g_notnull g) -> snd cm = map_of g s -> ref_get (g_ref1 g) s (fst cm) <> None).
Proof.
  pose proof Hcons as H. unfold consistent in H.
  apply andb_prop in H. destruct H as [H Hnn]. apply andb_prop in H. destruct H as [H Hpost]. apply andb_prop in H. destruct H as [H _].
  apply andb_prop in H. destruct H as [_ Hsec].
  split. { intros x Hi. rewrite forallb_forall in Hsec. specialize (Hsec _ Hi). apply andb_true_iff in Hsec. exact Hsec. }
  split. { intros cm Hi. rewrite forallb_forall in Hpost. specialize (Hpost _ Hi). apply negb_true_iff in Hpost. exact Hpost. }
  intros s cm Hr Hi Hm. destruct (role_nonzero g s) as [x [_ [X1 [X2 [X3 [X4 _]]]]]]; [rewrite Hr; discriminate|].
  rewrite forallb_forall in Hnn. specialize (Hnn _ X1). rewrite X3, Hr in Hnn. simpl in Hnn.
  rewrite forallb_forall in Hnn. specialize (Hnn _ Hi). rewrite X4, Hm, N.eqb_refl, X2 in Hnn. simpl in Hnn.
  destruct (ref_get (g_ref1 g) s (fst cm)); [discriminate|discriminate].
Qed.

Lemma survives_spec t : survives g t = true ->
  (key_of g t = true /\ role_of g t <> 2) \/ (key_of g t = false /\ pending g t = true).
Proof. unfold survives, key_of, role_of, pending, key_of, role_of, st_of. destruct (find _ (g_sts g)) as [x|]; [|discriminate].
  destruct (s_key x); intros H.
  - left. split; [reflexivity|]. intros E. rewrite E in H. discriminate.
  - right. split; [reflexivity|]. simpl. exact H. Qed.

Notation nn := (g_notnull g).

Lemma need_pre pre suf e1 e : tr = pre ++ e :: suf -> In (e1, e) (needs g) -> In e1 pre.
Proof. intros Htr Hn. eapply before_pre; [exact Hnd|exact Htr|apply Hord; [exact Hn|rewrite Htr; apply in_or_app; right; left; reflexivity]]. Qed.

Lemma split_facts pre suf e : tr = pre ++ e :: suf -> ~ In e pre /\ In e tr /\ incl pre tr.
Proof. intros Htr. split; [|split].
  - intros Hi. rewrite Htr in Hnd. apply NoDup_remove_2 in Hnd. apply Hnd. apply in_or_app. left. exact Hi.
  - rewrite Htr. apply in_or_app. right. left. reflexivity.
  - intros x Hx. rewrite Htr. apply in_or_app. left. exact Hx. Qed.

Lemma live_of_survivor pre d t : Inv pre d -> incl pre tr -> survives g t = true ->
  (pending g t = true -> In (ESave t) pre) -> In t (live d).
Proof. intros Hi Hinc Hs Hp. apply (I1 _ _ Hi). destruct (survives_spec t Hs) as [[K R]|[K P]].
  - left. split; [exact K|]. intros Hd. apply R. apply ev_del. apply Hinc, Hd.
  - right. split; [exact K|apply Hp, P]. Qed.

Lemma needs_in1 x e : In x (g_ref1 g) -> In e (needs_ref1 g x) -> In e (needs g).
Proof. intros H1 H2. unfold needs. apply in_or_app. left. apply in_flat_map. exists x. auto. Qed.
Lemma needs_in0 x e : In x (g_ref0 g) -> In e (needs_ref0 g x) -> In e (needs g).
Proof. intros H1 H2. unfold needs. apply in_or_app. right. apply in_or_app. left. apply in_flat_map. exists x. auto. Qed.

(* the statement that writes column c of row r, and the value it writes *)
Definition writer (r c : N) : ev := if postcol g c then EPost r else ESave r.
Definition final (r c : N) : option N := if postcol g c then fin g r c else ref_get (g_ref1 g) r c.

Lemma cur_writer pre r c : cur pre r c = if evb (writer r c) pre then final r c else ref_get (g_ref0 g) r c.
Proof. unfold cur, writer, final. destruct (postcol g c); reflexivity. Qed.
Lemma cur_app pre e r c : cur (pre ++ [e]) r c = if ev_eqb (writer r c) e then final r c else cur pre r c.
Proof. rewrite !cur_writer, evb_app. destruct (evb _ pre), (ev_eqb _ e); reflexivity. Qed.

Lemma cur_other pre e r c : (forall s, e = ESave s \/ e = EPost s -> s <> r) -> cur (pre ++ [e]) r c = cur pre r c.
Proof. intros H. rewrite cur_app. destruct (ev_eqb (writer r c) e) eqn:E; [|reflexivity]. apply ev_eqb_eq in E. exfalso.
  apply (H r); [|reflexivity]. rewrite <- E. unfold writer. destruct (postcol g c); auto. Qed.

Lemma final_alive r c t : final r c = Some t -> role_of g t <> 2.
Proof. unfold final, fin. destruct (postcol g c); [destruct (N.eqb (role_of g r) 2)|]; intros H;
    try (apply get_in in H; exact (survives_role g t (proj2 (ref1_survive g Hcons _ _ _ H)))).
  destruct (ref_get (g_ref0 g) r c) as [t0|]; [|discriminate].
  destruct (m2o_post_col g c || N.eqb (role_of g t0) 2) eqn:X; [discriminate|]. inversion H; subst.
  apply orb_false_iff in X. apply N.eqb_neq, X. Qed.

Lemma in_app1 {A} (x e : A) l : x <> e -> (In x (l ++ [e]) <-> In x l).
Proof. intros H. rewrite in_app_iff. simpl. split; [intros [X|[X|[]]]; [exact X|congruence]|auto]. Qed.

Lemma livep_other pre e t : (forall s, e = ESave s \/ e = EDel s -> s <> t) -> livep (pre ++ [e]) t <-> livep pre t.
Proof. intros H. unfold livep. rewrite (in_app1 (EDel t) e pre), (in_app1 (ESave t) e pre); [reflexivity| |];
  intros X; apply (H t); auto. Qed.

Lemma I3_other pre d e : Inv pre d -> (forall x, e <> ESecIns x /\ e <> ESecDel x) ->
  forall x, In x (secs d) <-> (In x (g_sec0 g) /\ ~ In (ESecDel x) (pre ++ [e])) \/ In (ESecIns x) (pre ++ [e]).
Proof. intros Hi He x. rewrite (I3 _ _ Hi). destruct (He x) as [A B].
  rewrite (in_app1 (ESecDel x) e pre) by congruence. rewrite (in_app1 (ESecIns x) e pre) by congruence. tauto. Qed.

Lemma step_del pre suf s d : tr = pre ++ EDel s :: suf -> Inv pre d ->
  exists d', exec1 nn d (Delete s) = Some d' /\ Inv (pre ++ [EDel s]) d'.
Proof.
  intros Htr Hi. destruct (split_facts _ _ _ Htr) as [Hnp [Hin Hinc]].
  pose proof (ev_del s Hin) as Rs. pose proof (role2_key s Rs) as Ks.
  destruct cons_parts as [C2 _]. destruct wfp as [W1 [W2 [W3 [W4 [W5 [W6 [W7 [W8 W9]]]]]]]].
  assert (NS : survives g s = false).
  { unfold survives. unfold key_of, role_of, st_of in *. destruct (find _ (g_sts g)) as [x|]; [|reflexivity]. rewrite Ks, Rs. reflexivity. }
  assert (L : memb s (live d) = true).
  { apply memb_In. apply (I1 _ _ Hi). left. split; assumption. }
  assert (R : forallb (fun x => negb (N.eqb (snd x) s) || N.eqb (fst (fst x)) s) (refs d) = true).
  { apply forallb_forall. intros [[r c] t] Hx. simpl. destruct (N.eqb t s) eqn:Ets; [|reflexivity]. apply N.eqb_eq in Ets. subst t.
    destruct (N.eqb r s) eqn:Ers; [reflexivity|]. apply N.eqb_neq in Ers. exfalso.
    apply (I2 _ _ Hi) in Hx. destruct Hx as [Lr Cu]. rewrite cur_writer in Cu.
    destruct (evb (writer r c) pre) eqn:Ew; [exact (final_alive _ _ _ Cu Rs)|]. apply get_in in Cu. apply evb_false in Ew.
    (* the old reference is still there: the statement that removes it is needed before this DELETE *)
    assert (Nd : In (if negb (postcol g c) && N.eqb (role_of g r) 2 then EDel r else writer r c, EDel s) (needs g)).
    { apply (needs_in0 (r, c, s) _ Cu). unfold needs_ref0, writer. simpl. rewrite Rs. apply N.eqb_neq in Ers. rewrite Ers. simpl.
      destruct (postcol g c), (N.eqb (role_of g r) 2); left; reflexivity. }
    apply (need_pre pre suf _ _ Htr) in Nd. destruct (negb (postcol g c) && N.eqb (role_of g r) 2); [|exact (Ew Nd)].
    apply (I1 _ _ Hi) in Lr. destruct Lr as [[_ X]|[K _]]; [exact (X Nd)|]. destruct (W7 _ _ _ Cu) as [K' _]. congruence. }
  assert (S : forallb (fun x => negb (N.eqb (snd (fst x)) s) && negb (N.eqb (snd x) s)) (secs d) = true).
  { apply forallb_forall. intros x Hx. apply (I3 _ _ Hi) in Hx.
    destruct (negb (N.eqb (snd (fst x)) s) && negb (N.eqb (snd x) s)) eqn:E; [reflexivity|]. exfalso.
    assert (M : snd (fst x) = s \/ snd x = s).
    { apply andb_false_iff in E. destruct E as [E|E]; apply negb_false_iff, N.eqb_eq in E; auto. }
    assert (N1 : ~ In x (g_sec1 g)).
    { intros X. destruct (C2 _ X) as [A B]. destruct M as [M|M]; rewrite M in *; congruence. }
    destruct Hx as [[X0 Xd]|Xi].
    - apply Xd. apply (need_pre pre suf _ _ Htr). unfold needs. do 4 (apply in_or_app; right).
      apply in_flat_map. exists x. split.
      + apply filter_In. split; [exact X0|apply mem3_out, N1].
      + unfold needs_secdel. destruct M as [M|M]; rewrite M, Rs; simpl; [left; reflexivity|].
        apply in_or_app. right. left. reflexivity.
    - apply N1. apply ev_secins. apply Hinc, Xi. }
  unfold exec1. rewrite L, R, S. simpl. eexists. split; [reflexivity|]. constructor; simpl.
  - intros t. rewrite filter_In. destruct (N.eqb t s) eqn:E.
    + apply N.eqb_eq in E. subst t. split; [intros [_ X]; discriminate|].
      intros [[_ X]|[K _]]; [exfalso; apply X, in_or_app; right; left; reflexivity|congruence].
    + apply N.eqb_neq in E. rewrite (livep_other pre (EDel s) t).
      * rewrite (I1 _ _ Hi). simpl. tauto.
      * intros s0 [X|X]; inversion X; subst; auto.
  - intros r c t. rewrite !filter_In. simpl. rewrite (cur_other pre (EDel s) r c) by (intros s0 [X|X]; discriminate).
    rewrite (I2 _ _ Hi). tauto.
  - apply I3_other; [exact Hi|]. intros x. split; discriminate.
Qed.

Definition upd_refs (d : db) (r : N) (sets : list (N * option N)) : list trip :=
  flat_map (fun v => match snd v with Some t => [(r, fst v, t)] | None => [] end) sets
  ++ filter (fun x => negb (N.eqb (fst (fst x)) r && memb (snd (fst x)) (map fst sets))) (refs d).

Lemma upd_refs_spec d r (nv : N -> option N) L r' c' t' :
  In (r', c', t') (upd_refs d r (map (fun c => (c, nv c)) L)) <->
  (r' = r /\ In c' L /\ nv c' = Some t') \/ (In (r', c', t') (refs d) /\ ~ (r' = r /\ In c' L)).
Proof. unfold upd_refs. rewrite in_app_iff, in_flat_map, filter_In, map_map. simpl. rewrite map_id. split.
  - intros [[[c v] [H1 H2]]|[H1 H2]].
    + apply in_map_iff in H1. destruct H1 as [c0 [E H1]]. injection E as <- <-. simpl in H2.
      destruct (nv c0) as [t|] eqn:V; [|contradiction]. destruct H2 as [H2|[]]. inversion H2; subst. auto.
    + right. split; [exact H1|]. intros [-> Hc]. rewrite N.eqb_refl in H2. simpl in H2. apply negb_true_iff, memb_false in H2. contradiction.
  - intros [[-> [H V]]|[H1 H2]].
    + left. exists (c', nv c'). split; [exact (in_map (fun c => (c, nv c)) _ _ H)|]. simpl. rewrite V. left. reflexivity.
    + right. split; [exact H1|]. apply negb_true_iff. destruct (N.eqb r' r) eqn:E; [|reflexivity]. simpl.
      apply N.eqb_eq in E. apply memb_false. intros Hc. apply H2. auto. Qed.

Lemma optN_dec (a b : option N) : {a = b} + {a <> b}.
Proof. decide equality. apply N.eq_dec. Qed.

Lemma opt_eqb_eq a b : opt_eqb a b = true <-> a = b.
Proof. destruct a, b; simpl; try (split; intros; congruence). rewrite N.eqb_eq. split; intros; congruence. Qed.

Lemma final_cols s c t : final s c = Some t -> In c (cols_of g s).
Proof. unfold final, fin. intros H. apply cols_of_spec. destruct (postcol g c); [destruct (N.eqb (role_of g s) 2)|].
  - destruct (ref_get (g_ref0 g) s c) as [t0|] eqn:E; [|discriminate]. exists t0. apply in_or_app. left. apply get_in, E.
  - exists t. apply in_or_app. right. apply get_in, H.
  - exists t. apply in_or_app. right. apply get_in, H. Qed.

(* the UPDATE e of row s (regular or by _post_update) writes the columns [sel] with the values [nv] *)
Lemma update_I2 pre d s (sel : N -> bool) (nv : N -> option N) e :
  Inv pre d -> In s (live d) -> ~ In e pre -> e = ESave s \/ e = EPost s ->
  (forall c, sel c = ev_eqb (writer s c) e) -> (forall c, sel c = true -> nv c = final s c) ->
  forall r c t,
  In (r, c, t) (upd_refs d s (map (fun c => (c, nv c))
                   (filter (fun c => sel c && negb (opt_eqb (ref_get (g_ref0 g) s c) (nv c))) (cols_of g s))))
  <-> In r (live d) /\ cur (pre ++ [e]) r c = Some t.
Proof.
  intros Hi Ls Hnp He Hs Hn r c t. rewrite upd_refs_spec.
  assert (HL : forall c0, In c0 (filter (fun c => sel c && negb (opt_eqb (ref_get (g_ref0 g) s c) (nv c))) (cols_of g s))
                 <-> In c0 (cols_of g s) /\ sel c0 = true /\ ref_get (g_ref0 g) s c0 <> nv c0).
  { intros c0. rewrite filter_In, andb_true_iff, negb_true_iff. split; intros [H1 [H2 H3]]; repeat split; try assumption.
    - intros X. apply opt_eqb_eq in X. congruence.
    - destruct (opt_eqb _ _) eqn:X; [apply opt_eqb_eq in X; contradiction|reflexivity]. }
  (* a column that e writes still holds the value from before the flush *)
  assert (Old : forall c0, sel c0 = true -> cur pre s c0 = ref_get (g_ref0 g) s c0).
  { intros c0 Sc. rewrite Hs in Sc. apply ev_eqb_eq in Sc. rewrite cur_writer, Sc. apply evb_false in Hnp. rewrite Hnp. reflexivity. }
  rewrite HL. destruct (N.eq_dec r s) as [->|Hne].
  - rewrite cur_app, <- Hs. split.
    + intros [[_ [[_ [Sc _]] V]]|[H1 H2]]; (split; [exact Ls|]).
      * rewrite Sc, <- (Hn _ Sc). exact V.
      * apply (I2 _ _ Hi) in H1. destruct H1 as [_ H1]. destruct (sel c) eqn:Sc; [|exact H1]. rewrite <- (Hn _ Sc). rewrite (Old _ Sc) in H1.
        destruct (optN_dec (ref_get (g_ref0 g) s c) (nv c)) as [E|E]; [rewrite <- E; exact H1|].
        exfalso. apply H2. split; [reflexivity|]. split; [|split; [reflexivity|exact E]].
        apply cols_of_spec. exists t. apply in_or_app. left. apply get_in. exact H1.
    + intros [_ H]. destruct (sel c) eqn:Sc.
      * rewrite <- (Hn _ Sc) in H. destruct (optN_dec (ref_get (g_ref0 g) s c) (nv c)) as [E|E].
        -- right. split; [|intros [_ [_ [_ X]]]; contradiction]. apply (I2 _ _ Hi). split; [exact Ls|]. rewrite (Old _ Sc), E. exact H.
        -- left. split; [reflexivity|]. split; [|exact H]. split; [|split; [reflexivity|exact E]]. apply (final_cols s c t). rewrite <- (Hn _ Sc). exact H.
      * right. split; [apply (I2 _ _ Hi); split; assumption|]. intros [_ [_ [X _]]]. congruence.
  - rewrite (cur_other pre e r c), <- (I2 _ _ Hi).
    + split; [intros [[X _]|[H1 _]]; [contradiction|exact H1]|]. intros H. right. split; [exact H|]. intros [X _]. contradiction.
    + intros s0 [X|X]; destruct He as [Y|Y]; rewrite Y in X; inversion X; subst; auto.
Qed.

Lemma livep_noneffect pre e : (forall t, e <> EDel t) -> (forall t, e = ESave t -> key_of g t = true) ->
  forall t, livep (pre ++ [e]) t <-> livep pre t.
Proof. intros H1 H2 t. unfold livep. rewrite (in_app1 (EDel t) e pre) by (intros X; symmetry in X; exact (H1 _ X)).
  split; intros [X|[K X]]; try (left; exact X).
  - apply in_app_or in X. destruct X as [X|[X|[]]]; [right; auto|]. apply H2 in X. congruence.
  - right. split; [exact K|apply in_or_app; left; exact X]. Qed.

Lemma step_update pre suf s d e (sel : N -> bool) (nv : N -> option N) :
  tr = pre ++ e :: suf -> Inv pre d -> (e = ESave s /\ key_of g s = true) \/ e = EPost s ->
  In s (live d) ->
  (forall c, sel c = ev_eqb (writer s c) e) -> (forall c, sel c = true -> nv c = final s c) ->
  (forall c t, In c (cols_of g s) -> sel c = true -> nv c = Some t -> In t (live d)) ->
  (forall c, In c (cols_of g s) -> sel c = true -> nv c = None -> memb c (map fst nn) = false) ->
  exists d', exec1 nn d (Update s (map (fun c => (c, nv c))
                   (filter (fun c => sel c && negb (opt_eqb (ref_get (g_ref0 g) s c) (nv c))) (cols_of g s)))) = Some d'
             /\ Inv (pre ++ [e]) d'.
Proof.
  intros Htr Hi He Ls Hs Hn Hlive Hnull. destruct (split_facts _ _ _ Htr) as [Hnp _].
  assert (L : memb s (live d) = true) by (apply memb_In; exact Ls).
  assert (F : forallb (fun v => match snd v with Some t => memb t (live d) | None => negb (memb (fst v) (map fst nn)) end)
                (map (fun c => (c, nv c)) (filter (fun c => sel c && negb (opt_eqb (ref_get (g_ref0 g) s c) (nv c))) (cols_of g s))) = true).
  { apply forallb_forall. intros [c v] Hx. apply in_map_iff in Hx. destruct Hx as [c0 [E Hx]]. inversion E; subst. simpl.
    apply filter_In in Hx. destruct Hx as [Hc Sc]. apply andb_true_iff in Sc. destruct Sc as [Sc _].
    destruct (nv c) as [t|] eqn:Nv; [apply memb_In; eapply Hlive; eassumption|]. rewrite (Hnull c Hc Sc Nv). reflexivity. }
  unfold exec1. rewrite L, F. simpl. eexists. split; [reflexivity|]. constructor; simpl.
  - intros t. rewrite (I1 _ _ Hi). symmetry. apply livep_noneffect.
    + intros t0 X. destruct He as [[Y _]|Y]; rewrite Y in X; discriminate.
    + intros t0 X. destruct He as [[Y K]|Y]; rewrite Y in X; [inversion X; subst; exact K|discriminate].
  - intros r c t. apply (update_I2 pre d s sel nv e Hi Ls Hnp); [destruct He as [[Y _]|Y]; auto|exact Hs|exact Hn].
  - apply I3_other; [exact Hi|]. intros x. destruct He as [[Y _]|Y]; rewrite Y; split; discriminate.
Qed.

Lemma before_not_after pre suf e e2 : tr = pre ++ e :: suf -> before tr e e2 -> ~ In e2 pre.
Proof. intros Htr [l1 [l2 [E Hi]]] Hp. apply in_split in Hp. destruct Hp as [p1 [p2 Ep]]. subst pre.
  assert (E2 : tr = p1 ++ e2 :: (p2 ++ e :: suf)) by (rewrite Htr, <- app_assoc; reflexivity).
  assert (X : p1 = l1).
  { apply (nodup_split_unique p1 (p2 ++ e :: suf) l1 l2 e2); [rewrite <- E2; exact Hnd|rewrite <- E2; exact E]. }
  subst l1. pose proof Hnd as N. rewrite E2 in N.
  apply (nodup_app_disj p1 (e2 :: p2 ++ e :: suf) e N Hi). right. apply in_or_app. right. left. reflexivity. Qed.

Lemma writer_save s c : ev_eqb (writer s c) (ESave s) = negb (postcol g c).
Proof. unfold writer. destruct (postcol g c); simpl; rewrite ?N.eqb_refl; reflexivity. Qed.
Lemma writer_post s c : ev_eqb (writer s c) (EPost s) = postcol g c.
Proof. unfold writer. destruct (postcol g c); simpl; rewrite ?N.eqb_refl; reflexivity. Qed.

(* a row that the statement e = writer s c makes row s refer to is there: it survives the flush, and if it
   is inserted by this flush a need puts its INSERT before e *)
Lemma target_live pre suf d s c t : tr = pre ++ writer s c :: suf -> Inv pre d -> role_of g s = 1 ->
  In (s, c, t) (g_ref1 g) -> (postcol g c = false -> pending g t = true -> s <> t) -> In t (live d).
Proof. intros Htr Hi Rs Hx Hd. destruct (split_facts _ _ _ Htr) as [_ [_ Hinc]].
  apply (live_of_survivor pre d t Hi Hinc (proj2 (ref1_survive g Hcons _ _ _ Hx))). intros Pt.
  apply (need_pre pre suf _ _ Htr). apply (needs_in1 (s, c, t) _ Hx). unfold needs_ref1, writer in *. simpl. rewrite Rs, Pt.
  destruct (postcol g c); simpl; [apply in_or_app; right; left; reflexivity|].
  specialize (Hd eq_refl Pt). apply N.eqb_neq in Hd. rewrite Hd. left. reflexivity. Qed.

Lemma nokey_ref0 s c : key_of g s = false -> ref_get (g_ref0 g) s c = None.
Proof. intros K. destruct (ref_get (g_ref0 g) s c) eqn:E; [|reflexivity]. apply get_in in E.
  destruct wfp as [_ [_ [_ [_ [_ [_ [W7 _]]]]]]]. destruct (W7 _ _ _ E) as [K' _]. congruence. Qed.

Lemma not_nn c s : In c (cols_of g s) -> role_of g s = 1 -> ref_get (g_ref1 g) s c = None -> memb c (map fst nn) = false.
Proof. intros Hc Hr Hn. apply memb_false. intros Hi. apply in_map_iff in Hi. destruct Hi as [cm [E Hi]].
  destruct cons_parts as [_ [_ C4]]. destruct wfp as [_ [_ [_ [_ [_ [_ [_ [_ W9]]]]]]]].
  apply cols_of_spec in Hc. destruct Hc as [t Ht]. specialize (W9 _ _ _ _ Ht Hi E).
  apply (C4 s cm Hr Hi W9). rewrite E. exact Hn. Qed.

Lemma step_save_key pre suf s d : tr = pre ++ ESave s :: suf -> Inv pre d -> key_of g s = true ->
  exists d', exec1 nn d (stmt_of g (ESave s)) = Some d' /\ Inv (pre ++ [ESave s]) d'.
Proof.
  intros Htr Hi Ks. destruct (split_facts _ _ _ Htr) as [Hnp [Hin Hinc]]. pose proof (ev_save s Hin) as Rs.
  unfold stmt_of. rewrite Ks. unfold save_sets.
  apply (step_update pre suf s d (ESave s) (fun c => negb (postcol g c)) (fun c => ref_get (g_ref1 g) s c) Htr Hi); auto.
  - apply (I1 _ _ Hi). left. split; [exact Ks|]. intros X. apply Hinc, ev_del in X. congruence.
  - intros c. symmetry. apply writer_save.
  - intros c Sc. unfold final. apply negb_true_iff in Sc. rewrite Sc. reflexivity.
  - intros c t Hc Sc Hn. apply get_in in Hn. apply negb_true_iff in Sc. apply (target_live pre suf d s c t); try assumption.
    + unfold writer. rewrite Sc. exact Htr.
    + intros _ Pt ->. unfold pending in Pt. rewrite Ks in Pt. discriminate.
  - intros c Hc Sc Hn. apply (not_nn c s Hc Rs Hn).
Qed.

Lemma has_post_spec s : has_post g s = true ->
  exists c, In c (cols_of g s) /\ postcol g c = true /\ ref_get (g_ref0 g) s c <> fin g s c.
Proof. unfold has_post, post_sets. destruct (filter _ (cols_of g s)) as [|c l] eqn:E; [discriminate|]. intros _.
  assert (H : In c (filter (fun c => postcol g c && negb (opt_eqb (ref_get (g_ref0 g) s c) (fin g s c))) (cols_of g s))) by (rewrite E; left; reflexivity).
  apply filter_In in H. destruct H as [H1 H2]. apply andb_true_iff in H2. destruct H2 as [H2 H3]. exists c. repeat split; try assumption.
  intros X. apply opt_eqb_eq in X. rewrite X in H3. discriminate. Qed.

(* a row inserted by this flush that gets a post_update UPDATE: the INSERT is needed first *)
Lemma pending_post_need s : key_of g s = false -> role_of g s = 1 -> has_post g s = true -> In (ESave s, EPost s) (needs g).
Proof. intros Ks Rs Hp. destruct (has_post_spec s Hp) as [c [Hc [Pc Hne]]].
  rewrite (nokey_ref0 s c Ks) in Hne. unfold fin in Hne. rewrite Rs in Hne. simpl in Hne.
  destruct (ref_get (g_ref1 g) s c) as [t|] eqn:E1; [|congruence]. apply get_in in E1.
  apply (needs_in1 (s, c, t) _ E1). unfold needs_ref1. simpl. rewrite Rs, Pc. simpl.
  unfold pending at 1. rewrite Ks, Rs. simpl. left. reflexivity. Qed.

Lemma step_post pre suf s d : tr = pre ++ EPost s :: suf -> Inv pre d ->
  exists d', exec1 nn d (stmt_of g (EPost s)) = Some d' /\ Inv (pre ++ [EPost s]) d'.
Proof.
  intros Htr Hi. destruct (split_facts _ _ _ Htr) as [Hnp [Hin Hinc]]. destruct (ev_post s Hin) as [Rs Hp].
  destruct cons_parts as [_ [C3 _]]. destruct wfp as [_ [W2 [_ [_ [_ [_ [W7 _]]]]]]].
  destruct (role_nonzero g s Rs) as [x [_ [X1 [X2 [X3 [X4 X5]]]]]]. destruct (W2 x X1) as [Rle Rk]. rewrite X3 in Rle, Rk.
  unfold stmt_of, post_sets.
  apply (step_update pre suf s d (EPost s) (fun c => postcol g c) (fun c => fin g s c) Htr Hi); auto.
  - (* the row exists *)
    apply (I1 _ _ Hi). destruct (key_of g s) eqn:Ks.
    + left. split; [exact Ks|]. intros Xd. pose proof (ev_del s (Hinc _ Xd)) as R2.
      apply (before_not_after pre suf (EPost s) (EDel s) Htr); [|exact Xd]. apply Hord; [|apply Hinc, Xd].
      unfold needs. apply in_or_app. right. apply in_or_app. right. apply in_or_app. left.
      apply in_flat_map. exists s. split; [rewrite <- X2; apply in_map, X1|]. unfold needs_postdel. rewrite R2, Hp. simpl. left. reflexivity.
    + right. split; [exact Ks|]. apply (need_pre pre suf _ _ Htr), pending_post_need; try assumption.
      destruct (N.eq_dec (role_of g s) 2) as [E|E]; [rewrite X5 in Rk; specialize (Rk E); congruence|lia].
  - intros c. symmetry. apply writer_post.
  - intros c Pc. unfold final. rewrite Pc. reflexivity.
  - intros c t Hc Pc Hf. unfold fin in Hf. destruct (N.eqb (role_of g s) 2) eqn:R2.
    + destruct (ref_get (g_ref0 g) s c) as [t0|] eqn:E0; [|discriminate].
      destruct (m2o_post_col g c || N.eqb (role_of g t0) 2) eqn:Y; [discriminate|]. inversion Hf; subst t0.
      apply orb_false_iff in Y. destruct Y as [_ Y]. apply N.eqb_neq in Y. apply get_in in E0. destruct (W7 _ _ _ E0) as [_ Kt].
      apply (I1 _ _ Hi). left. split; [exact Kt|]. intros Xd. apply Y. apply ev_del. apply Hinc, Xd.
    + apply get_in in Hf. apply N.eqb_neq in R2. apply (target_live pre suf d s c t); try assumption; [|lia|congruence].
      unfold writer. rewrite Pc. exact Htr.
  - intros c Hc Pc _. apply memb_false. intros Hx. apply in_map_iff in Hx. destruct Hx as [cm [E Hx]]. specialize (C3 _ Hx). congruence.
Qed.

Lemma ins_vals_spec s c t : In (c, t) (ins_vals g s) <->
  In c (cols_of g s) /\ postcol g c = false /\ ref_get (g_ref1 g) s c = Some t.
Proof. unfold ins_vals. rewrite in_flat_map. split.
  - intros [c0 [H1 H2]]. apply filter_In in H1. destruct H1 as [H1 H3]. apply negb_true_iff in H3.
    destruct (ref_get (g_ref1 g) s c0) as [t0|] eqn:E; [|contradiction]. destruct H2 as [H2|[]]. inversion H2; subst. auto.
  - intros [H1 [H2 H3]]. exists c. split; [apply filter_In; split; [exact H1|rewrite H2; reflexivity]|]. rewrite H3. left. reflexivity. Qed.

Lemma step_insert pre suf s d : tr = pre ++ ESave s :: suf -> Inv pre d -> key_of g s = false ->
  exists d', exec1 nn d (stmt_of g (ESave s)) = Some d' /\ Inv (pre ++ [ESave s]) d'.
Proof.
  intros Htr Hi Ks. destruct (split_facts _ _ _ Htr) as [Hnp [Hin Hinc]]. pose proof (ev_save s Hin) as Rs.
  destruct cons_parts as [_ [C3 C4]].
  assert (NL : ~ In s (live d)).
  { intros X. apply (I1 _ _ Hi) in X. destruct X as [[K _]|[_ X]]; [congruence|contradiction]. }
  assert (NP : ~ In (EPost s) pre).
  { intros X. destruct (ev_post s (Hinc _ X)) as [_ Hp].
    apply (before_not_after pre suf (ESave s) (EPost s) Htr); [|exact X]. apply Hord; [|apply Hinc, X].
    apply pending_post_need; assumption. }
  unfold stmt_of. rewrite Ks.
  assert (A : negb (memb s (live d)) = true) by (apply negb_true_iff, memb_false; exact NL).
  assert (B : forallb (fun v => memb (snd v) (live d) || N.eqb (snd v) s) (ins_vals g s) = true).
  { apply forallb_forall. intros [c t] Hx. simpl. apply ins_vals_spec in Hx. destruct Hx as [Hc [Pc Hr]].
    destruct (N.eqb t s) eqn:E; [apply orb_true_r|]. apply N.eqb_neq in E. apply orb_true_iff. left. apply memb_In.
    apply get_in in Hr. apply (target_live pre suf d s c t); try assumption; [|congruence].
    unfold writer. rewrite Pc. exact Htr. }
  assert (C : forallb (fun cm => negb (N.eqb (snd cm) (map_of g s)) || memb (fst cm) (map fst (ins_vals g s))) nn = true).
  { apply forallb_forall. intros cm Hx. destruct (N.eqb (snd cm) (map_of g s)) eqn:E; [|reflexivity]. simpl. apply N.eqb_eq in E.
    pose proof (C4 s cm Rs Hx E) as Hn. destruct (ref_get (g_ref1 g) s (fst cm)) as [t|] eqn:E1; [|exfalso; apply Hn; first [exact E1|reflexivity]].
    apply memb_In. apply in_map_iff. exists (fst cm, t). split; [reflexivity|]. apply ins_vals_spec. split; [|split; [apply C3, Hx|exact E1]].
    apply cols_of_spec. exists t. apply in_or_app. right. apply get_in, E1. }
  unfold exec1. rewrite A, B, C. simpl. eexists. split; [reflexivity|]. constructor; simpl.
  - intros t. destruct (N.eq_dec t s) as [->|Hne].
    + split; [intros _; right; split; [exact Ks|apply in_or_app; right; left; reflexivity]|auto].
    + rewrite (livep_other pre (ESave s) t) by (intros s0 [X|X]; inversion X; subst; auto).
      rewrite <- (I1 _ _ Hi). split; [intros [X|X]; [congruence|exact X]|auto].
  - intros r c t. rewrite in_app_iff, in_map_iff. destruct (N.eq_dec r s) as [->|Hne].
    + (* the new row holds what the INSERT wrote; its post_update columns are still empty *)
      rewrite cur_app, writer_save. unfold final. split.
      * intros [[[c0 t0] [E Hx]]|Hx].
        -- simpl in E. inversion E; subst. apply ins_vals_spec in Hx. destruct Hx as [_ [Pc Hr]]. rewrite Pc. simpl. auto.
        -- apply (I2 _ _ Hi) in Hx. destruct Hx as [X _]. contradiction.
      * intros [_ Hx]. left. exists (c, t). split; [reflexivity|]. apply ins_vals_spec. destruct (postcol g c) eqn:Pc; simpl in Hx.
        -- exfalso. rewrite cur_writer in Hx. unfold writer in Hx. rewrite Pc in Hx. apply evb_false in NP. rewrite NP, nokey_ref0 in Hx by exact Ks. discriminate.
        -- split; [|split; [reflexivity|exact Hx]]. apply cols_of_spec. exists t. apply in_or_app. right. apply get_in, Hx.
    + rewrite (cur_other pre (ESave s) r c) by (intros s0 [X|X]; inversion X; subst; auto). split.
      * intros [[[c0 t0] [E _]]|Hx]; [simpl in E; inversion E; congruence|].
        apply (I2 _ _ Hi) in Hx. destruct Hx as [X Y]. split; [right; exact X|exact Y].
      * intros [[X|X] Hx]; [congruence|]. right. apply (I2 _ _ Hi). split; assumption.
  - apply I3_other; [exact Hi|]. intros x. split; discriminate.
Qed.

Lemma noneffect_sec pre e d : Inv pre d -> (exists x, e = ESecIns x \/ e = ESecDel x) ->
  (forall t, In t (live d) <-> livep (pre ++ [e]) t) /\
  (forall r c t, In (r, c, t) (refs d) <-> In r (live d) /\ cur (pre ++ [e]) r c = Some t).
Proof. intros Hi [x He]. split.
  - intros t. rewrite (I1 _ _ Hi). symmetry. apply livep_noneffect; intros t0 X; destruct He as [Y|Y]; rewrite Y in X; discriminate.
  - intros r c t. rewrite (I2 _ _ Hi). rewrite (cur_other pre e r c); [tauto|].
    intros s0 [X|X]; destruct He as [Y|Y]; rewrite Y in X; discriminate. Qed.

Lemma step_secins pre suf x d : tr = pre ++ ESecIns x :: suf -> Inv pre d ->
  exists d', exec1 nn d (SecInsert x) = Some d' /\ Inv (pre ++ [ESecIns x]) d'.
Proof.
  intros Htr Hi. destruct (split_facts _ _ _ Htr) as [Hnp [Hin Hinc]]. destruct (ev_secins x Hin) as [X1 X0].
  destruct cons_parts as [C2 _]. destruct (C2 _ X1) as [Sl Sr].
  assert (Hneed : forall y, (y = snd (fst x) \/ y = snd x) -> pending g y = true -> In (ESave y) pre).
  { intros y Hy Py. apply (need_pre pre suf _ _ Htr). unfold needs. do 3 (apply in_or_app; right). apply in_or_app. left.
    apply in_flat_map. exists x. split.
    - apply filter_In. split; [exact X1|apply mem3_out, X0].
    - unfold needs_secins. destruct Hy as [->| ->]; rewrite Py; [left; reflexivity|apply in_or_app; right; left; reflexivity]. }
  assert (A : memb (snd (fst x)) (live d) = true) by (apply memb_In, (live_of_survivor pre d _ Hi Hinc Sl); apply Hneed; auto).
  assert (B : memb (snd x) (live d) = true) by (apply memb_In, (live_of_survivor pre d _ Hi Hinc Sr); apply Hneed; auto).
  assert (C : negb (mem3 x (secs d)) = true).
  { apply mem3_out. intros Y. apply (I3 _ _ Hi) in Y. destruct Y as [[Y _]|Y]; contradiction. }
  unfold exec1. rewrite A, B, C. simpl. eexists. split; [reflexivity|].
  destruct (noneffect_sec pre (ESecIns x) d Hi) as [N1 N2]; [eauto|]. constructor; simpl; [exact N1|exact N2|].
  intros y. rewrite (in_app1 (ESecDel y) (ESecIns x) pre) by discriminate. rewrite in_app_iff. simpl. rewrite (I3 _ _ Hi). split.
  - intros [<-|[Y|Y]]; [right; right; left; reflexivity|left; exact Y|right; left; exact Y].
  - intros [Y|[Y|[Y|[]]]]; [right; left; exact Y|right; right; exact Y|inversion Y; left; reflexivity].
Qed.

Lemma step_secdel pre suf x d : tr = pre ++ ESecDel x :: suf -> Inv pre d ->
  exists d', exec1 nn d (SecDelete x) = Some d' /\ Inv (pre ++ [ESecDel x]) d'.
Proof.
  intros Htr Hi. destruct (split_facts _ _ _ Htr) as [Hnp [Hin Hinc]]. destruct (ev_secdel x Hin) as [X0 X1].
  assert (A : mem3 x (secs d) = true) by (apply mem3_In, (I3 _ _ Hi); left; split; assumption).
  unfold exec1. rewrite A. eexists. split; [reflexivity|].
  destruct (noneffect_sec pre (ESecDel x) d Hi) as [N1 N2]; [eauto|]. constructor; simpl; [exact N1|exact N2|].
  intros y. rewrite filter_In. rewrite (in_app1 (ESecIns y) (ESecDel x) pre) by discriminate. rewrite in_app_iff. simpl. rewrite (I3 _ _ Hi).
  destruct (t3eqb x y) eqn:E.
  - apply t3eqb_eq in E. subst y. split; [intros [_ Y]; discriminate|]. intros [[_ Y]|Y]; [exfalso; apply Y; right; left; reflexivity|].
    exfalso. apply X1. apply ev_secins. apply Hinc, Y.
  - split.
    + intros [[[Y Z]|Y] _]; [left; split; [exact Y|]|right; exact Y]. intros [W|[W|[]]]; [apply Z, W|]. inversion W; subst.
      assert (t3eqb y y = true) by (apply t3eqb_eq; reflexivity). congruence.
    + intros [[Y Z]|Y]; (split; [|reflexivity]); [left; split; [exact Y|intros W; apply Z; left; exact W]|right; exact Y].
Qed.

Lemma step pre suf e d : tr = pre ++ e :: suf -> Inv pre d ->
  exists d', exec1 nn d (stmt_of g e) = Some d' /\ Inv (pre ++ [e]) d'.
Proof. intros Htr Hi. destruct e as [s|s|s|x|x].
  - destruct (key_of g s) eqn:K; [apply (step_save_key pre suf)|apply (step_insert pre suf)]; assumption.
  - apply (step_post pre suf); assumption.
  - apply (step_del pre suf); assumption.
  - apply (step_secins pre suf); assumption.
  - apply (step_secdel pre suf); assumption. Qed.

Lemma exec_suffix : forall suf pre d, tr = pre ++ suf -> Inv pre d ->
  exists d', exec nn d (map (stmt_of g) suf) = Some d' /\ Inv tr d'.
Proof. induction suf as [|e suf IH]; intros pre d Htr Hi.
  - rewrite app_nil_r in Htr. subst pre. exists d. split; [reflexivity|exact Hi].
  - destruct (step pre suf e d Htr Hi) as [d1 [E1 I1']]. simpl. rewrite E1.
    apply (IH (pre ++ [e])); [rewrite <- app_assoc; exact Htr|exact I1']. Qed.

Lemma key_ids t : In t (ids_with g s_key) <-> key_of g t = true.
Proof. rewrite (ids_with_spec g Hwf). unfold key_of. split; [intros [x [-> H]]; exact H|].
  destruct (st_of g t) as [x|]; [eauto|discriminate]. Qed.

Lemma inv_init : Inv [] (db0 g).
Proof. destruct wfp as [_ [_ [W3 [_ [_ [_ [W7 _]]]]]]]. constructor; simpl.
  - intros t. rewrite key_ids. unfold livep. simpl. tauto.
  - intros r c t. rewrite cur_writer, key_ids. simpl. split.
    + intros H. split; [apply (W7 _ _ _ H)|apply functional_get; assumption].
    + intros [_ H]. apply get_in, H.
  - intros x. tauto.
Qed.

Theorem exec_ok : exists d', exec nn (db0 g) (map (stmt_of g) tr) = Some d' /\ Inv tr d'.
Proof. apply (exec_suffix tr [] (db0 g)); [reflexivity|exact inv_init]. Qed.
End Exec.
