(* C43: from the evaluator to the session: matched <-> selected, UPDATE / DELETE keep objects in sync;
   UnevaluatableError exactly when process() refuses the expression. *)
From Coq Require Import List ZArith NArith Bool.
Import ListNotations.
From SAV.sql Require Import Val3.
From SAV.orm Require Import Evaluator EvaluatorProofs.
Open Scope Z_scope.

Lemma wt_check sc e t : wt sc e = Some t -> check sc e = true /\ wt' sc e = Some t.
Proof. unfold wt. destruct (check sc e); [now split|discriminate]. Qed.

Lemma ev_refines sc e t r : wt sc e = Some t -> row_ok sc r -> guard e r = true ->
  refines t (ev sc e (obj_of r)) (sem e r).
Proof.
  intros Hw Hr Hg. destruct (wt_check _ _ _ Hw) as [Hc Hw']. unfold ev. rewrite Hc.
  exact (run_refines sc r Hr e t Hw' Hg).
Qed.

Theorem ev_faithful sc e t r : wt sc e = Some t -> row_ok sc r -> guard e r = true ->
  exists v, ev sc e (obj_of r) = POk v /\ rel v (sem e r) /\ pv_has t v.
Proof.
  intros Hw Hr Hg. destruct (ev_refines sc e t r Hw Hr Hg) as (v & Hv & H).
  exists v. split; [exact Hv|apply tval_iff, H].
Qed.

Theorem matched_iff_selected sc crit r : wt sc crit = Some TyBool -> row_ok sc r -> guard crit r = true ->
  matched sc crit (obj_of r) = if selected crit r then Matched false else NotMatched.
Proof.
  intros Hw Hr Hg. unfold matched, selected. rewrite (refines_bool (ev_refines sc crit TyBool r Hw Hr Hg)).
  now destruct (tv_of_sv (sem crit r)).
Qed.

(* none of the operator functions mentions Unevaluatable: a case analysis down to the leaves of each *)
Lemma py_binop_not_unev o a b : py_binop o a b <> PRaise Unevaluatable.
Proof.
  destruct o; cbn [py_binop]; unfold py_add, py_arith, py_mod, py_cmp, py_startswith, py_endswith;
    repeat match goal with
           | |- context [match ?x with _ => _ end] => destruct x
           end; discriminate.
Qed.

Lemma pbind_not_unev p f : p <> PRaise Unevaluatable -> (forall v, f v <> PRaise Unevaluatable) ->
  pbind p f <> PRaise Unevaluatable.
Proof. intros Hp Hf. destruct p; [apply Hf|exact Hp]. Qed.

(* [run] itself raises UnevaluatableError only at a clause without visit_ method, which [check] refuses *)
Lemma run_not_unev sc o e : check sc e = true -> run e o <> PRaise Unevaluatable.
Proof.
  induction e as [c|t v| | | |op a b IHa IHb|n a vs IHa|es IH|es IH|e IH|e IH|] using ex_ind'; intros Hc;
    try discriminate.
  - cbn [check] in Hc. apply andb_true_iff in Hc as [Hc _]. apply andb_true_iff in Hc as [Ha Hb].
    cbn [run]. apply pbind_not_unev; [exact (IHa Ha)|intros l]. apply pbind_not_unev; [exact (IHb Hb)|intros v].
    destruct op; destruct (is_exp l || is_exp v); try discriminate;
      destruct (is_none l || is_none v); try discriminate; apply py_binop_not_unev.
  - cbn [run]. apply pbind_not_unev; [exact (IHa Hc)|intros v].
    destruct (is_exp v), (is_none v), (py_in v vs); try discriminate; now destruct (existsb _ vs).
  - rewrite run_and. generalize false. cbn [check] in Hc.
    induction IH as [|x es Hx _ IHes]; intros hn; cbn [and_go]; [destruct hn; discriminate|].
    apply andb_true_iff in Hc as [Hcx Hc]. apply pbind_not_unev; [exact (Hx Hcx)|intros v].
    destruct (is_exp v); [discriminate|]. destruct (truthy v); [exact (IHes Hc _)|].
    destruct (is_none v); [exact (IHes Hc _)|discriminate].
  - rewrite run_or. generalize false. cbn [check] in Hc.
    induction IH as [|x es Hx _ IHes]; intros hn; cbn [or_go]; [destruct hn; discriminate|].
    apply andb_true_iff in Hc as [Hcx Hc]. apply pbind_not_unev; [exact (Hx Hcx)|intros v].
    destruct (is_exp v); [discriminate|]. destruct (truthy v); [discriminate|exact (IHes Hc _)].
  - cbn [run]. apply pbind_not_unev; [exact (IH Hc)|intros v]. destruct (is_exp v), (is_none v); discriminate.
  - exact (IH Hc).
Qed.

Theorem unevaluatable_iff sc e o : ev sc e o = PRaise Unevaluatable <-> check sc e = false.
Proof.
  unfold ev. destruct (check sc e) eqn:E; [|easy].
  split; [intros H; destruct (run_not_unev sc o e E H)|discriminate].
Qed.

Definition upd (r : row) (sets : list (nat * ex)) : row :=
  fun c => match find (fun cv => Nat.eqb (fst cv) c) sets with Some cv => sem (snd cv) r | None => r c end.

Lemma update_row_upd crit sets r : update_row crit sets r = if selected crit r then upd r sets else r.
Proof. reflexivity. Qed.

Lemma set_ok_inv sc r cv : set_ok sc r cv = true ->
  exists t, wt' sc (snd cv) = Some t /\ check sc (snd cv) = true /\ guard (snd cv) r = true.
Proof.
  unfold set_ok. destruct (wt sc (snd cv)) as [t|] eqn:Hw; [|discriminate].
  intros H. apply andb_true_iff in H as [_ Hg]. destruct (wt_check _ _ _ Hw) as [Hc Hw']. now exists t.
Qed.

Lemma eval_sets_ok sc r : row_ok sc r -> forall sets, forallb (set_ok sc r) sets = true ->
  eval_sets sc sets (obj_of r) = EvOk (map (fun cv => (fst cv, Loaded (sem (snd cv) r))) sets).
Proof.
  intros Hrow. induction sets as [|[c v] sets IH]; intros Hs; [reflexivity|].
  cbn [forallb] in Hs. apply andb_true_iff in Hs as [Hcv Hs].
  destruct (set_ok_inv _ _ _ Hcv) as (t & Hw & Hck & Hg). cbn [snd] in Hw, Hck, Hg.
  cbn [eval_sets]. rewrite Hck. unfold obj_of at 1.
  destruct (run_refines sc r Hrow v t Hw Hg) as (x & Hx & H).
  rewrite Hx, (IH Hs), (tval_to_attr _ _ _ H). reflexivity.
Qed.

Lemma uneval_none sc sets : forallb (fun cv => check sc (snd cv)) sets = true -> uneval_targets sc sets = [].
Proof.
  unfold uneval_targets. induction sets as [|cv sets IH]; intros H; [reflexivity|].
  cbn [forallb] in H. apply andb_true_iff in H as [H1 H2]. cbn [filter]. rewrite H1. cbn [negb]. now apply IH.
Qed.
Lemma expire_attrs_nil o : forall c, expire_attrs [] o c = o c.
Proof. reflexivity. Qed.

(* with evaluable SET clauses only, the variable carried across the matched objects stays empty: every
   matched object is treated like the first one *)
Lemma apply_sets_st_evaluable sc sets o : forallb (fun cv => check sc (snd cv)) sets = true ->
  snd (apply_sets_st sc sets [] o) = [] /\ fst (apply_sets_st sc sets [] o) = apply_sets sc sets o.
Proof.
  intros H. unfold apply_sets, apply_sets_st. rewrite (uneval_none sc sets H).
  destruct (eval_sets sc sets (expire_attrs [] o)); split; reflexivity.
Qed.

Lemma assign_cons o ca l : assign o (ca :: l) = assign (set_attr o (fst ca) (snd ca)) l.
Proof. reflexivity. Qed.

Lemma find_existsb {A} (f : A -> bool) l : existsb f l = false -> find f l = None.
Proof. induction l as [|x l IH]; [reflexivity|]. cbn [existsb find]. now destruct (f x). Qed.

(* assignments to distinct targets: each attribute gets the value of its own SET clause, so the order in
   which the Python set "to_evaluate" is iterated does not matter *)
Lemma assign_map (g : ex -> attr) sets : targets_distinct sets = true -> forall o c,
  assign o (map (fun cv => (fst cv, g (snd cv))) sets) c =
  match find (fun cv => Nat.eqb (fst cv) c) sets with Some cv => g (snd cv) | None => o c end.
Proof.
  induction sets as [|[c0 v0] sets IH]; intros Hd o c; [reflexivity|].
  cbn [targets_distinct] in Hd. apply andb_true_iff in Hd as [Hn Hd]. apply negb_true_iff in Hn.
  cbn [map]. rewrite assign_cons, (IH Hd). cbn [find fst snd]. unfold set_attr.
  destruct (Nat.eqb_spec c0 c) as [->|Hne].
  - now rewrite (find_existsb _ _ Hn), Nat.eqb_refl.
  - destruct (find _ sets); [reflexivity|]. now destruct (Nat.eqb_spec c c0); [subst|].
Qed.

Lemma apply_sets_ok sc r sets : row_ok sc r -> targets_distinct sets = true -> forallb (set_ok sc r) sets = true ->
  exists o', apply_sets sc sets (obj_of r) = OOk o' /\ forall c, o' c = obj_of (upd r sets) c.
Proof.
  intros Hrow Hd Hs.
  assert (Hck : forallb (fun cv => check sc (snd cv)) sets = true).
  { apply forallb_forall. intros cv Hin.
    now destruct (set_ok_inv sc r cv (proj1 (forallb_forall _ _) Hs cv Hin)) as (_ & _ & Hc & _). }
  unfold apply_sets, apply_sets_st. rewrite (uneval_none sc sets Hck).
  change (expire_attrs [] (obj_of r)) with (obj_of r). rewrite (eval_sets_ok sc r Hrow sets Hs). cbn [filter fst].
  eexists. split; [reflexivity|]. intros c.
  rewrite expire_attrs_nil, (assign_map (fun v => Loaded (sem v r)) sets Hd). unfold obj_of, upd.
  now destruct (find _ sets).
Qed.

Theorem update_in_sync sc crit sets r :
  row_ok sc r -> wt sc crit = Some TyBool -> guard crit r = true ->
  targets_distinct sets = true -> forallb (set_ok sc r) sets = true ->
  exists o', update_obj sc crit sets (obj_of r) = OOk o' /\
             forall c, o' c = obj_of (update_row crit sets r) c.
Proof.
  intros Hrow Hw Hg Hd Hs. unfold update_obj. rewrite (matched_iff_selected sc crit r Hw Hrow Hg), update_row_upd.
  destruct (selected crit r); [exact (apply_sets_ok sc r sets Hrow Hd Hs)|now exists (obj_of r)].
Qed.

Theorem delete_in_sync sc crit r :
  row_ok sc r -> wt sc crit = Some TyBool -> guard crit r = true ->
  delete_obj sc crit (obj_of r) = if delete_row crit r then DRemoved else DKeep (obj_of r).
Proof.
  intros Hrow Hw Hg. unfold delete_obj, delete_row. rewrite (matched_iff_selected sc crit r Hw Hrow Hg).
  now destruct (selected crit r).
Qed.

(* an unevaluatable criterion stops the operation before anything is executed *)
Theorem unevaluatable_raises sc crit sets o : check sc crit = false ->
  update_obj sc crit sets o = ORaise Unevaluatable /\ delete_obj sc crit o = DRaise Unevaluatable.
Proof. intros H. unfold update_obj, delete_obj, matched, ev. rewrite H. split; reflexivity. Qed.
