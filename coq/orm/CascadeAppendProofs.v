(* C39 - save-update on collection append: the appended object is in the session afterwards, outside the region of the
   known defect (a not-yet-persistent child moved between parents of a delete-orphan relationship with a backref).
   At the end, the configurations of the witness histories that props/C39.v evaluates. *)
From Coq Require Import List Bool Arith Lia.
From SAV.orm Require Import Cascade CascadeBase CascadeIterProofs CascadeOpsProofs.
Import ListNotations.

Lemma sou_state_adds : forall cfg s c, was_deleted s c = false -> in_session (sou_state cfg s c) c = true.
Proof. intros cfg s c Hd. rewrite sou_state_in_session, mem_cons, Nat.eqb_refl, Hd. apply orb_true_r. Qed.

(* statuses only get promoted: an object with a key never becomes pending *)
Lemma sou_state_not_pending : forall cfg s c x, has_key s x = true -> is_pending (sou_state cfg s c) x = false.
Proof.
  intros cfg s c x Hx. unfold is_pending. rewrite view_st, sou_state_view. unfold has_key in Hx.
  destruct (mem x _); cbn [v_st sou_view view_of]; destruct (st s x); try discriminate; reflexivity.
Qed.

(* frame: the save-update cascade touches only session membership *)
Lemma sou_state_attrs : forall cfg s o, attrs (sou_state cfg s o) = attrs s.
Proof.
  intros cfg s o. unfold sou_state.
  assert (H : forall a c, attrs (sou_impl a c) = attrs a) by (intros a c; unfold sou_impl; destruct (st a c); reflexivity).
  rewrite fold_left_proj by exact H. exact (H (set_oos s o false) o).
Qed.

(* the defective region: the child has no identity yet, the relationship is delete-orphan with a backref, and
   the child currently belongs to another parent *)
Definition moves_unsaved_child (cfg : config) (s : state) (p ri c : nat) : bool :=
  hasback (getrel cfg ri) && c_do (fwd (getrel cfg ri)) && negb (has_key s c) &&
  match par s c ri with Some q => negb (Nat.eqb q p) | None => false end.

(* removing a child from its old parent's collection expunges it only if it is a pending orphan of a delete-orphan
   relationship *)
Lemma st_detach_old_keeps : forall cfg s old ri c,
  (c_do (fwd (getrel cfg ri)) = false \/ is_pending s c = false) ->
  st (detach_old cfg s old ri c) = st s.
Proof.
  intros cfg s old ri c H. unfold detach_old. cbn [st set_coll].
  rewrite (proj1 (core_eq _ _ (core_mod_coll _ old ri))).
  pose proof (proj1 (core_eq _ _ (core_sethp_false s c ri old))) as S0.
  unfold casc_remove_listener. destruct H as [H|H]; [rewrite H; exact S0|].
  destruct (c_do (fwd (getrel cfg ri)) && is_orphan cfg (sethp_false s c ri old) c); [|exact S0].
  unfold is_pending in *. rewrite S0, H, andb_false_r. exact S0.
Qed.

(* the backref assignment  c.b = p  that an append makes *)
Lemma st_scalar_set_append : forall cfg s c ri p,
  (forall q, par s c ri = Some q -> q <> p -> c_do (fwd (getrel cfg ri)) = false \/ is_pending s c = false) ->
  st (scalar_set cfg s c ri (Some p) false true false) = st s.
Proof.
  intros cfg s c ri p H. unfold scalar_set. cbn [andb st set_par].
  rewrite (proj1 (core_eq _ _ (core_mod_scalar _ c ri (par s c ri)))).
  destruct (opt_eqb (par s c ri) (Some p)) eqn:OE; [reflexivity|].
  destruct (par s c ri) as [q|] eqn:Pq; [|reflexivity].
  apply st_detach_old_keeps, (H q eq_refl). intros ->. cbn [opt_eqb] in OE. rewrite Nat.eqb_refl in OE. discriminate.
Qed.

Lemma attach_new_In : forall s x ri c, In c (coll (attach_new s x ri c) x ri).
Proof.
  intros. unfold attach_new. cbn [coll set_coll]. unfold upd2. rewrite !Nat.eqb_refl.
  apply in_app_iff. right. left. reflexivity.
Qed.

(* three steps: the save-update listener puts [c] into the session; the backref assignment takes it out again only
   in the guarded region; appending to the collection touches no status *)
Theorem append_save_update_guarded : forall cfg s p ri c,
  attached s p = true -> c_su (fwd (getrel cfg ri)) = true -> mem c (coll s p ri) = false ->
  was_deleted s c = false -> moves_unsaved_child cfg s p ri c = false ->
  in_session (op_append cfg s p ri c) c = true /\ In c (coll (op_append cfg s p ri c) p ri).
Proof.
  intros cfg s p ri c Ha Hsu Hm Hd Hg. unfold op_append. rewrite Hm.
  set (s1 := casc_append_listener cfg s p (F ri) c true).
  assert (L1 : in_session s1 c = true /\ par s1 = par s /\ (has_key s c = true -> is_pending s1 c = false)).
  { unfold s1, casc_append_listener. cbn [prop_casc]. rewrite Ha, Hsu. cbn [andb].
    destruct (in_session s c) eqn:I; cbn [negb].
    - split; [exact I|split; [reflexivity|]]. unfold has_key, is_pending. destruct (st s c); congruence.
    - split; [apply sou_state_adds, Hd|].
      split; [apply (attrs_eq _ _ (sou_state_attrs cfg s c))|apply sou_state_not_pending]. }
  destruct L1 as [I1 [Fp Fk]].
  set (s2 := if hasback (getrel cfg ri) then scalar_set cfg s1 c ri (Some p) false true false else s1).
  assert (S2 : st s2 = st s1).
  { unfold s2. destruct (hasback (getrel cfg ri)) eqn:HB; [|reflexivity].
    apply st_scalar_set_append. intros q Pq Hq. rewrite Fp in Pq.
    unfold moves_unsaved_child in Hg. rewrite HB, Pq in Hg.
    destruct (c_do (fwd (getrel cfg ri))); [right|left; reflexivity].
    destruct (has_key s c); [exact (Fk eq_refl)|]. apply negb_false_iff, Nat.eqb_eq in Hg. contradiction. }
  change (in_session (attach_new s2 p ri c) c = true /\ In c (coll (attach_new s2 p ri c) p ri)).
  split; [|apply attach_new_In]. unfold in_session.
  rewrite (proj1 (core_eq _ _ (core_attach_new s2 p ri c))), S2. exact I1.
Qed.

Definition all_casc := mkCasc true true true true false true.
Definition all_do := mkCasc true true true true true true.
Definition su_mg := mkCasc true true false false false false.
(* classes: objects 0,1 are parents (class 0), 2,3 children (class 1); one relationship
   P.cs = relationship(C, cascade="all, delete-orphan", back_populates="p"), C.p cascade "save-update, merge" *)
Definition wit_cfg : config :=
  mkCfg [mkRel 0 1 all_do true su_mg] (fun _ => false) (fun o => if Nat.ltb o 2 then 0 else 1) 4.

(* s.add_all([p0, p1]); p1.cs.append(c) - then p0.cs.append(c) *)
Definition wit_state : state := run wit_cfg [OAdd 0; OAdd 1; OAppend 1 0 2].

(* the same move of a persistent child is handled correctly *)
Example append_persistent_child_moves :
  let s := run wit_cfg [OAdd 0; OAdd 1; OAppend 1 0 2; OFlush] in
  let s' := fst (op_flush wit_cfg (op_append wit_cfg s 0 0 2)) in
  in_session s' 2 = true /\ rowfk s' 2 0 = Some 0 /\ moves_unsaved_child wit_cfg s 0 0 2 = false.
Proof. vm_compute. repeat split. Qed.

Example guard_excludes_witness : moves_unsaved_child wit_cfg wit_state 0 0 2 = true.
Proof. vm_compute. reflexivity. Qed.

(* two relationships from class 0 to class 1: "all, delete-orphan" with a backref that cascades nothing, and
   "save-update, delete, delete-orphan" without backref; objects 0,1 parents, 2 child *)
Definition wit_cfg2 : config :=
  mkCfg [mkRel 0 1 all_do true no_casc; mkRel 0 1 (mkCasc true false false true true false) false no_casc]
        (fun _ => false) (fun o => if Nat.ltb o 2 then 0 else 1) 3.
