(* C33 - Session.begin_nested under the whole invariant. *)
From Coq Require Import List ZArith Bool Arith Lia.
Import ListNotations.
From SAV.orm Require Import SessTxn SessTxnBase SessTxnInv SessTxnShift SessTxnCore SessTxnFlushCore SessTxnCommit.
Open Scope nat_scope.

Lemma Core_handles : forall st gs h, Core st gs -> Core (set_handles st h) gs.
Proof.
  intros st gs h C. pose proof C as C0. destruct C as [G Jh D Ch Em].
  apply (Core_update st _ gs C0); auto; try (repeat split; reflexivity).
Qed.

(* a new savepoint frame on top of a clean session whose innermost transaction is ACTIVE *)
Lemma push_core : forall st gs p rest h, Core st gs -> stack st = p :: rest -> fstate p = ACTIVE -> is_clean st = true ->
  Core (set_handles (set_nfid (set_stack st (new_frame st true :: stack st)) (S (nfid st))) h) (ghost_of st :: gs).
Proof.
  intros st gs p rest h C Hs Hp Hcl. apply Core_handles.
  pose proof C as C0. destruct C as [G Jh D Ch Em].
  pose proof (ghost_of_clean st G Hcl) as GC.
  apply is_clean_spec in Hcl. destruct Hcl as [Hsn [Hsd Hmod]].
  destruct D as [Dfr Dhd Dnc Dsv]. destruct Dsv as [Dsv Dsn].
  constructor.
  - exact G.
  - exact Jh.
  - constructor; cbn [stack nfid work committed saves set_nfid set_stack new_frame].
    + cbn [FramesOk]. unfold new_frame. cbn [fid fnested fconn fstate]. split; [lia|]. split; [exact Dfr|]. split.
      { split; [intros _; rewrite Hs; discriminate|reflexivity]. }
      split; [intros X; discriminate|].
      intros f' Hf'. rewrite Hs in Hf'. destruct Hf' as [X|X]; [subst; exact Hp|].
      rewrite Hs in Dfr. cbn in Dfr. destruct Dfr as [_ [_ [_ [_ F]]]]. auto.
    + left. reflexivity.
    + intros H. apply Dnc. intros f' Hf'. apply H. right. exact Hf'.
    + split.
      * cbn [entries]. unfold live_conn, new_frame. cbn. exact Dsv.
      * cbn [SnapOk]. unfold new_frame. cbn [fconn]. split; [reflexivity|exact Dsn].
  - unfold Chain. cbn [stack objs nobj snew sdel work set_nfid set_stack]. unfold new_frame at 1. cbn [fstate].
    split; [exact GC|]. split.
    + rewrite Hsn, Hsd. apply Rel_fresh; auto.
    + unfold Chain in Ch. rewrite Hs in *. destruct gs as [|gp gs']; [destruct Ch|].
      destruct Ch as [A [B C]]. rewrite Hp in B. rewrite Hsn, Hsd in B. cbn [ChainG]. auto.
  - cbn. intros X. discriminate.
Qed.

Lemma op_nested_core : forall st gs r st', Core st gs -> do_op ONested st = (r, st') -> r <> Unmodelled ->
  exists gs', Core st' gs'.
Proof.
  intros st gs r st' C H Hr. cbn [do_op] in H.
  pose proof (Core_handles st gs (handles st ++ [None]) C) as C0.
  set (st0 := set_handles st (handles st ++ [None])) in *.
  destruct (autobegin_core st0 gs C0) as [gs1 [C1 _]].
  destruct (stack (autobegin st0)) as [|p rest] eqn:Es; [inversion H; subst; congruence|].
  destruct (check_prereq p M_begin) eqn:Ec; [inversion H; subst; eauto|].
  assert (Hp : fstate p = ACTIVE) by (unfold check_prereq in Ec; destruct (fstate p); cbn in Ec; try discriminate; reflexivity).
  apply bind_inv in H. destruct H as [[s2 [H1 H2]]|[H1 Hn]].
  - destruct (flush_core _ gs1 Ok s2 C1 H1) as [C2 P2]; [discriminate|].
    destruct (fp_ok _ _ _ P2 eq_refl) as [Cl [Hh Kg]].
    unfold hd_state in Hh. rewrite Es in Hh. destruct (stack s2) as [|p2 rest2] eqn:Es2; [discriminate|].
    inversion Hh as [Hp2]. inversion H2; subst r st'. eexists.
    apply (push_core s2 gs1 p2 rest2); auto. congruence.
  - destruct (flush_core _ gs1 r st' C1 H1 Hr) as [C2 _]. eauto.
Qed.
