(* C36 - frames: which part of the state the loaders and reads may change. *)
From Coq Require Import List NArith Bool Lia.
Import ListNotations.
From SAV.orm Require Import History HistorySpec HistoryProofs.
Open Scope N_scope.

(* the database is only written by flush *)
Definition keepDB (s s' : st) : Prop :=
  db_x s' = db_x s /\ db_b s' = db_b s /\ db_c s' = db_c s /\ persistent s' = persistent s.
(* x: unchanged, or (clean) refreshed from the database *)
Definition loadX (s s' : st) : Prop :=
  x_c s' = x_c s /\ (x_d s' = x_d s \/ (x_c s = NoHist /\ x_d s' = Some (db_x s))).
Definition keepX (s s' : st) : Prop := x_c s' = x_c s /\ x_d s' = x_d s.
Definition keepB (s s' : st) : Prop := b_c s' = b_c s /\ b_d s' = b_d s.
Definition keepC (s s' : st) : Prop := c_c s' = c_c s /\ c_d s' = c_d s.
(* b: unchanged, or (absent, without a captured value) loaded from the database and committed *)
Definition loadB (s s' : st) : Prop :=
  keepB s s' \/ (b_d s = None /\ (b_c s = NoHist \/ b_c s = CNoValue) /\
                 b_c s' = NoHist /\ exists v, b_d s' = Some v).
Definition loadC (s s' : st) : Prop :=
  keepC s s' \/ (c_d s = None /\ (c_c s = NoHist \/ c_c s = CNoValue) /\
                 c_c s' = NoHist /\ exists l, c_d s' = Some l).

Lemma loadX_refl : forall s, loadX s s. Proof. unfold loadX; auto. Qed.
Lemma keepDB_refl : forall s, keepDB s s. Proof. unfold keepDB; auto. Qed.
Lemma keepX_loadX : forall s s', keepX s s' -> loadX s s'. Proof. unfold keepX, loadX; intuition. Qed.
Lemma loadX_trans : forall s1 s2 s3, keepDB s1 s2 -> loadX s1 s2 -> loadX s2 s3 -> loadX s1 s3.
Proof.
  unfold loadX, keepDB. intros s1 s2 s3 (DX & _) [C1 D1] [C2 D2]. split; [congruence|].
  destruct D2 as [D2|[N D2]]; [destruct D1 as [D1|[N1 D1]]; [left|right]|right]; try split; congruence.
Qed.
Lemma keepDB_trans : forall s1 s2 s3, keepDB s1 s2 -> keepDB s2 s3 -> keepDB s1 s3.
Proof. unfold keepDB. intuition congruence. Qed.
Lemma keepB_refl : forall s, keepB s s. Proof. unfold keepB; auto. Qed.
Lemma keepC_refl : forall s, keepC s s. Proof. unfold keepC; auto. Qed.
Lemma keepB_trans : forall s1 s2 s3, keepB s1 s2 -> keepB s2 s3 -> keepB s1 s3.
Proof. unfold keepB. intuition congruence. Qed.
#[export] Hint Resolve loadX_refl keepDB_refl keepB_refl keepC_refl keepX_loadX : core.

(* all the loaders do is what _load_expired may do: bring a clean x up to date, mark the row's
   columns as loaded; the foreign key column becomes present exactly if it was expired *)
Definition refresh (s s' : st) : Prop :=
  keepDB s s' /\ loadX s s' /\ keepB s s' /\ keepC s s' /\ modified s' = modified s /\
  ((bid_d s' = bid_d s /\ bid_e s' = bid_e s) \/ (bid_d s' = bid_d s || bid_e s /\ bid_e s' = false)).

Lemma refresh_refl : forall s, refresh s s.
Proof. intros s. repeat split; auto. Qed.

Lemma is_nohist_true : forall A (c : comm A), is_nohist c = true -> c = NoHist.
Proof. intros A [| | |v] H; [reflexivity|discriminate..]. Qed.

Lemma load_expired_refresh : forall p s, refresh s (fst (load_expired p s)).
Proof.
  intros p s. unfold load_expired. destruct (sql_ok p); [|apply refresh_refl]. cbn [negb fst].
  destruct (x_e s && is_nohist (x_c s)) eqn:EX; cbn [bid_e set_x_d]; destruct (bid_e s) eqn:EB;
    repeat split; cbn; rewrite ?EB, ?orb_true_r, ?orb_false_r; auto.
  all: apply andb_true_iff in EX; destruct EX as [_ EX]; apply is_nohist_true in EX; auto.
Qed.

Lemma load_expired_frame : forall p s, let s' := fst (load_expired p s) in
  keepDB s s' /\ loadX s s' /\ keepB s s' /\ keepC s s'.
Proof. intros p s. destruct (load_expired_refresh p s) as (D & X & B & C & _). auto. Qed.

Lemma col_bid_refresh : forall p s, refresh s (fst (col_bid p s)).
Proof.
  intros p s. unfold col_bid. destruct (bid_d s); [apply refresh_refl|].
  destruct (negb (callables_ok p)); [apply refresh_refl|].
  destruct (bid_e s); [|destruct (init_ok p); apply refresh_refl].
  pose proof (load_expired_refresh p s) as H. destruct (load_expired p s) as [s1 []]; exact H.
Qed.

Lemma col_bid_frame : forall p s, let s' := fst (col_bid p s) in
  keepDB s s' /\ loadX s s' /\ keepB s s' /\ keepC s s'.
Proof. intros p s. destruct (col_bid_refresh p s) as (D & X & B & C & _). auto. Qed.

Lemma loader_x_refresh : forall p s, refresh s (fst (loader_x p s)).
Proof.
  intros p s. unfold loader_x. destruct (x_e s); [apply load_expired_refresh|apply refresh_refl].
Qed.

Lemma loader_b_refresh : forall p s, refresh s (fst (loader_b p s)).
Proof.
  intros p s. unfold loader_b. destruct (negb (persistent s)); [apply refresh_refl|].
  pose proof (col_bid_refresh p s) as H. destruct (col_bid p s) as [s1 []]; exact H.
Qed.

Lemma loader_c_refresh : forall p s, refresh s (fst (loader_c p s)).
Proof.
  intros p s. unfold loader_c. destruct (negb (persistent s)); [apply refresh_refl|].
  destruct (negb (sql_ok p)); [apply refresh_refl|]. cbn [fst].
  destruct (id_e s); [apply load_expired_refresh|apply refresh_refl].
Qed.

(* the loader of a column attribute never hands back a value: it refreshes the dict *)
Lemma loader_x_noval : forall p s v, snd (loader_x p s) <> LVal v.
Proof.
  intros p s v. unfold loader_x, load_expired. destruct (x_e s); [|discriminate].
  destruct (negb (sql_ok p)); discriminate.
Qed.

Lemma get_x_refresh : forall p s, refresh s (fst (get_x p s)).
Proof.
  intros p s. apply (get_rule _ _ _ _ _ (refresh s)); [apply refresh_refl|apply loader_x_refresh|].
  intros v _ _ L. destruct (loader_x_noval p s v L).
Qed.

Lemma get_b_frame : forall p s, let s' := fst (get_b p s) in
  keepDB s s' /\ loadX s s' /\ loadB s s' /\ keepC s s'.
Proof.
  intros p s. destruct (loader_b_refresh p s) as (D & X & B & C & _).
  apply (get_rule _ _ _ _ _ (fun s' => keepDB s s' /\ loadX s s' /\ loadB s s' /\ keepC s s')).
  - unfold loadB. auto.
  - unfold loadB. auto.
  - intros v D0 C0 _. unfold loadB. repeat split; try apply D; try apply X; try apply C.
    right. cbn. eauto.
Qed.

Lemma get_c_frame : forall p s, let s' := fst (get_c p s) in
  keepDB s s' /\ loadX s s' /\ keepB s s' /\ loadC s s'.
Proof.
  intros p s. destruct (loader_c_refresh p s) as (D & X & B & C & _).
  apply (get_rule _ _ _ _ _ (fun s' => keepDB s s' /\ loadX s s' /\ keepB s s' /\ loadC s s')).
  - unfold loadC. auto.
  - unfold loadC. auto.
  - intros v D0 C0 _. unfold loadC. repeat split; try apply D; try apply X; try apply B.
    right. cbn. eauto.
Qed.
