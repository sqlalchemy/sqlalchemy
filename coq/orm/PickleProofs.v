(* C51 - round trips of the four codecs of coq/orm/Pickle.v, one after the other: load paths, the key tables of
   InstanceState, Row / FrozenResult metadata, the persistent ids of ext.serializer *)
From Coq Require Import List ZArith Bool String Lia.
Import ListNotations.
From SAV.orm Require Import Pickle.
Open Scope Z_scope.

(* a well-formed path alternates mapper, property, mapper, ...: recursion goes two elements at a time *)
Lemma pair_ind : forall {A} (P : list A -> Prop),
  P [] -> (forall x, P [x]) -> (forall x y l, P l -> P (x :: y :: l)) -> forall l, P l.
Proof.
  intros A P H0 H1 H2. fix IH 1.
  intros [|x [|y l]]; [exact H0 | exact (H1 x) | exact (H2 x y l (IH l))].
Qed.

Lemma odds_cons2 : forall {A} (m p : A) r, odds (m :: p :: r) = p :: odds r.
Proof. intros A m p r. destruct r as [|x [|y r']]; reflexivity. Qed.
Lemma evens_cons2 : forall {A} (m p : A) r, evens (m :: p :: r) = m :: evens r.
Proof. reflexivity. Qed.

Lemma serialize_cons2 : forall m p r,
  serialize (m :: p :: r) = (cls_of m, Some (cls_of p)) :: serialize r.
Proof. intros. unfold serialize. rewrite evens_cons2, odds_cons2. reflexivity. Qed.
Lemma serialize_one : forall m, serialize [m] = [(cls_of m, None)].
Proof. reflexivity. Qed.

(* a path ending in a mapper (odd length) is serialized with a final None, which [chain] hands back *)
Lemma chain_serialize : forall p, wf_path p = true ->
  chain (serialize p) = map Some (map erase p) ++ (if Nat.odd (List.length p) then [None] else []).
Proof.
  induction p as [|m|m q r IH] using pair_ind; intros Hw.
  - reflexivity.
  - destruct m; [reflexivity | reflexivity | discriminate Hw].
  - rewrite serialize_cons2. cbn [List.length]. rewrite Nat.odd_succ_succ.
    destruct m, q; try discriminate Hw; cbn [chain cls_of map erase app]; rewrite IH by exact Hw; reflexivity.
Qed.

Lemma strip_some : forall (l : list pelem), strip_last_none (map Some l) = map Some l.
Proof.
  intros l. unfold strip_last_none. rewrite <- map_rev. destruct (rev l); reflexivity.
Qed.
Lemma strip_snoc_none : forall l, strip_last_none (l ++ [None]) = l.
Proof. intros l. unfold strip_last_none. rewrite rev_app_distr. simpl. apply rev_involutive. Qed.

Lemma fold_somes : forall (l : list pelem),
  fold_right (fun o acc => match o, acc with Some e, Some a => Some (e :: a) | _, _ => None end)
             (Some []) (map Some l) = Some l.
Proof. induction l; simpl; auto. now rewrite IHl. Qed.

Theorem path_roundtrip : forall p, wf_path p = true -> deserialize (serialize p) = Some (map erase p).
Proof.
  intros p Hw. unfold deserialize. rewrite (chain_serialize p Hw).
  destruct (Nat.odd (List.length p)).
  - rewrite strip_snoc_none. apply fold_somes.
  - rewrite app_nil_r, strip_some. apply fold_somes.
Qed.

Lemma erase_alias_free : forall p, alias_free p = true -> map erase p = p.
Proof.
  induction p as [|e p IH]; simpl; intros H; auto. apply andb_true_iff in H. destruct H as [He Hp].
  rewrite IH by auto. destruct e; simpl in *; try discriminate; reflexivity.
Qed.

Theorem path_roundtrip_guarded : forall p, wf_path p = true -> alias_free p = true ->
  deserialize (serialize p) = Some p.
Proof. intros p Hw Ha. rewrite path_roundtrip by auto. now rewrite erase_alias_free. Qed.

Theorem path_roundtrip_refuted : exists p, wf_path p = true /\ deserialize (serialize p) <> Some p.
Proof. exists [PAlias 1; PProp 2; PMapper 3]. split; [reflexivity|]. vm_compute. discriminate. Qed.

(* the values an instance state may hold: plain data and well-formed paths, never a serialized path *)
Definition val_ok (v : sval) : Prop :=
  match v with VPath p => wf_path p = true | VSer _ => False | Opaque _ => True end.
Definition state_ok (s : dict) : Prop :=
  forall k v, lookup k s = Some v ->
  match v with VPath p => wf_path p = true | VSer _ => False | Opaque _ => True end.

Lemma dec_enc : forall v, val_ok v -> dec (enc v) = Some (norm v).
Proof.
  intros [z|p|sp] H; simpl; auto; [|destruct H]. now rewrite path_roundtrip.
Qed.

Lemma class_default_cases : forall k, class_default k = VPath [] \/ exists z, class_default k = Opaque z.
Proof.
  intros k. unfold class_default.
  repeat match goal with |- context [if ?b then _ else _] => destruct b end; eauto.
Qed.

Lemma norm_class_default : forall k, norm (class_default k) = class_default k.
Proof. intros k. destruct (class_default_cases k) as [-> | [z ->]]; reflexivity. Qed.

Lemma getattr_ok : forall s k, state_ok s -> val_ok (getattr s k).
Proof.
  intros s k Hs. unfold getattr. destruct (lookup k s) eqn:E; [exact (Hs k _ E)|].
  destruct (class_default_cases k) as [-> | [z ->]]; [reflexivity | exact I].
Qed.

Lemma mem_true : forall k l, mem k l = true <-> In k l.
Proof.
  intros k l. unfold mem. rewrite existsb_exists. split.
  - intros [x [Hx He]]. apply String.eqb_eq in He. now subst.
  - intros H. exists k. split; auto. apply String.eqb_refl.
Qed.

Lemma in_rkeys : forall k m (r : rtable), In (k, m) r -> mem k (rkeys r) = true.
Proof. intros. apply mem_true. apply in_map_iff. exists (k, m). auto. Qed.

(* [wkeys] and [rkeys] are both [map fst] *)
Lemma mem_keys_in : forall {A} k (l : list (key * A)), mem k (map fst l) = true -> exists a, In (k, a) l.
Proof.
  intros A k l H. apply mem_true, in_map_iff in H. destruct H as [[k' a] [<- Hi]]. now exists a.
Qed.

Definition fired_any (w : wtable) (s : dict) (k : key) : bool :=
  existsb (fun e => String.eqb k (fst e) && fires s (fst e) (snd e)) w.

Lemma lookup_getstate_from : forall w s acc k,
  lookup k (getstate_from w s acc) =
  if fired_any w s k then Some (enc (getattr s k)) else lookup k acc.
Proof.
  induction w as [|[k' m] w IH]; intros s acc k; simpl; [reflexivity|].
  rewrite IH. destruct (fired_any w s k) eqn:Ef; [now rewrite orb_true_r|]. rewrite orb_false_r.
  destruct (fires s k' m); simpl.
  - destruct (String.eqb_spec k k') as [->|Hne]; reflexivity.
  - now rewrite andb_false_r.
Qed.

Lemma lookup_getstate : forall w s k,
  lookup k (getstate w s) = if fired_any w s k then Some (enc (getattr s k)) else None.
Proof. intros. unfold getstate. now rewrite lookup_getstate_from. Qed.

(* what one entry of the read table finds: None = exception, Some None = nothing to store *)
Definition read_one (m : rmode) (o : option sval) : option (option sval) :=
  match m, o with
  | RRequired, None => None
  | RGet z, None => Some (Some (Opaque z))
  | RIfPresent, None => Some None
  | _, Some v => match dec v with Some v' => Some (Some v') | None => None end
  end.
Definition push (k : key) (o : option sval) (acc : dict) : dict :=
  match o with Some v => (k, v) :: acc | None => acc end.

Lemma setstate_from_cons : forall k m r d acc,
  setstate_from ((k, m) :: r) d acc =
  match read_one m (lookup k d) with Some o => setstate_from r d (push k o acc) | None => None end.
Proof. intros. simpl. unfold read_one. destruct m, (lookup k d) as [v|]; try destruct (dec v); reflexivity. Qed.

Lemma lookup_push : forall k k0 o acc,
  lookup k (push k0 o acc) = match o with Some v => if String.eqb k k0 then Some v else lookup k acc
                                        | None => lookup k acc end.
Proof. intros k k0 [v|] acc; reflexivity. Qed.

(* with distinct keys in the read table every entry [(k, m)] decides [k] alone: [f k m] is what it found *)
Lemma setstate_from_spec : forall (f : key -> rmode -> option sval) d r acc,
  nodup_keys (rkeys r) = true ->
  (forall k m, In (k, m) r -> read_one m (lookup k d) = Some (f k m)) ->
  exists s', setstate_from r d acc = Some s' /\
    (forall k m, In (k, m) r -> lookup k s' = match f k m with Some v => Some v | None => lookup k acc end) /\
    (forall k, mem k (rkeys r) = false -> lookup k s' = lookup k acc).
Proof.
  intros f d. induction r as [|[k0 m0] r IH]; intros acc Hn Hr.
  - exists acc. repeat split; auto. intros k m [].
  - simpl in Hn. apply andb_true_iff in Hn. destruct Hn as [Hk0 Hn]. apply negb_true_iff in Hk0.
    rewrite setstate_from_cons, (Hr k0 m0 (or_introl eq_refl)).
    destruct (IH (push k0 (f k0 m0) acc) Hn) as [s' [Hs [Hin Hout]]]; [intros; apply Hr; now right|].
    exists s'. split; [exact Hs|]. split.
    + intros k m [He|Hi].
      * injection He as <- <-. rewrite (Hout k0 Hk0), lookup_push, String.eqb_refl. reflexivity.
      * rewrite (Hin k m Hi), lookup_push. destruct (String.eqb_spec k k0) as [->|]; [|now destruct (f k0 m0)].
        rewrite (in_rkeys _ _ _ Hi) in Hk0. discriminate.
    + intros k Hk. simpl in Hk. apply orb_false_iff in Hk. destruct Hk as [Hk1 Hk2].
      rewrite (Hout k Hk2), lookup_push, Hk1. now destruct (f k0 m0).
Qed.

Lemma always_written_fires : forall w s k, always_written w k = true -> fired_any w s k = true.
Proof.
  intros w s k H. unfold always_written in H. unfold fired_any. apply existsb_exists in H. apply existsb_exists.
  destruct H as [[k' m] [Hi He]]. simpl in He. apply andb_true_iff in He. destruct He as [He Hm].
  exists (k', m). split; auto. simpl. rewrite He. destruct m; try discriminate. reflexivity.
Qed.

Lemma falsy_eq : forall a b, falsy a = true -> falsy b = true -> a = b.
Proof. intros [z|[|e p]|sp] [z'|[|e' p']|sp']; simpl; intros; try discriminate; reflexivity. Qed.

Lemma not_fired_default : forall w s k, truthy_ok w = true -> mem k (wkeys w) = true -> fired_any w s k = false ->
  getattr s k = class_default k.
Proof.
  intros w s k Ht Hm Hf. destruct (mem_keys_in k w Hm) as [m Hi].
  unfold truthy_ok in Ht. rewrite forallb_forall in Ht. specialize (Ht _ Hi). simpl in Ht.
  assert (Hno : fires s k m = false).
  { destruct (fires s k m) eqn:E; [|reflexivity]. rewrite <- Hf. symmetry. apply existsb_exists.
    exists (k, m). simpl. now rewrite String.eqb_refl, E. }
  destruct m; simpl in Hno; try discriminate.
  - unfold getattr. destruct (lookup k s); [discriminate | reflexivity].
  - apply negb_false_iff in Hno. now apply falsy_eq.
Qed.

Theorem state_roundtrip_tables : forall w r s, codec_ok w r = true -> state_ok s ->
  exists s', setstate r (getstate w s) = Some s' /\
    (forall k, mem k (rkeys r) = true -> getattr s' k = norm (getattr s k)) /\
    (forall k, mem k (rkeys r) = false -> getattr s' k = class_default k).
Proof.
  intros w r s Hc Hs. unfold codec_ok in Hc. repeat rewrite andb_true_iff in Hc.
  destruct Hc as [[[[Hnd Htr] Hwr] Hrw] Hmodes].
  rewrite forallb_forall in Hrw, Hmodes.
  (* a key some entry wrote comes back decoded; otherwise only a fallback stores anything *)
  set (f := fun k m => if fired_any w s k then Some (norm (getattr s k))
                       else match m with RGet z => Some (Opaque z) | _ => None end).
  destruct (setstate_from_spec f (getstate w s) r [] Hnd) as [s' [Hs' [Hin Hout]]].
  { intros k m Hi. rewrite lookup_getstate. unfold f. specialize (Hmodes _ Hi). simpl in Hmodes.
    destruct (fired_any w s k) eqn:Ef.
    - unfold read_one. rewrite (dec_enc _ (getattr_ok s k Hs)). destruct m; reflexivity.
    - destruct m; try reflexivity. rewrite (always_written_fires _ s _ Hmodes) in Ef. discriminate. }
  exists s'. split; [exact Hs'|]. split.
  - intros k Hk. destruct (mem_keys_in k r Hk) as [m Hi].
    unfold getattr at 1. rewrite (Hin k m Hi). unfold f. destruct (fired_any w s k) eqn:Ef; [reflexivity|].
    rewrite (not_fired_default w s k Htr (Hrw k (in_map fst _ _ Hi)) Ef), norm_class_default.
    specialize (Hmodes _ Hi). simpl in Hmodes. destruct m; simpl; auto.
    apply andb_true_iff in Hmodes. destruct Hmodes as [_ Hdef].
    destruct (class_default k); try discriminate. apply Z.eqb_eq in Hdef. now subst.
  - intros k Hk. unfold getattr. now rewrite (Hout k Hk).
Qed.

(* and conversely the side condition is necessary: a key that is written only when set, read with a
   fallback different from the class default, changes the attribute (witness of a broken table) *)
Theorem state_roundtrip_needs_side_condition : exists w r s,
  codec_ok w r = false /\ exists s', setstate r (getstate w s) = Some s' /\
  getattr s' "modified"%string <> getattr s "modified"%string.
Proof.
  exists [("modified"%string, WIfSet)], [("modified"%string, RGet c_empty_dict)], [].
  split; [reflexivity|]. eexists. split; [reflexivity|]. vm_compute. discriminate.
Qed.

(* a key dropped from the written table is silently lost *)
Theorem state_roundtrip_dropped_key_lost : exists w r s,
  codec_ok w r = false /\ exists s', setstate r (getstate w s) = Some s' /\
  getattr s' "modified"%string <> getattr s "modified"%string.
Proof.
  exists [("key"%string, WIfSet)], [("key"%string, RIfPresent); ("modified"%string, RGet c_false)],
         [("modified"%string, Opaque 77)].
  split; [reflexivity|]. eexists. split; [reflexivity|]. vm_compute. discriminate.
Qed.

Lemma model_tables_ok : codec_ok model_writes model_reads = true.
Proof. vm_compute. reflexivity. Qed.

Lemma rkey_eqb_eq : forall a b, rkey_eqb a b = true -> a = b.
Proof. intros [x|x|x] [y|y|y] H; try discriminate H; apply Z.eqb_eq in H; now subst. Qed.

(* both metadata codecs filter the keymap by the kind of key: a lookup survives iff its key is kept *)
Lemma md_index_filter : forall (keep : rkey -> bool) k km,
  md_index k (filter (fun e => keep (fst e)) km) = if keep k then md_index k km else None.
Proof.
  intros keep k. induction km as [|[k' i] km IH]; simpl; [now destruct (keep k)|].
  destruct (rkey_eqb k k') eqn:E.
  - pose proof (rkey_eqb_eq _ _ E). subst k'. destruct (keep k); simpl; [now rewrite E | exact IH].
  - destruct (keep k'); simpl; rewrite ?E; exact IH.
Qed.

Lemma row_get_roundtrip : forall r k,
  row_get (row_roundtrip r) k = if picklable_key k then row_get r k else None.
Proof.
  intros [[keys km] data] k. unfold row_roundtrip, row_get. simpl.
  rewrite md_index_filter. now destruct (picklable_key k).
Qed.

Theorem row_roundtrip_spec : forall r,
  row_data (row_roundtrip r) = row_data r /\
  md_keys (row_md (row_roundtrip r)) = md_keys (row_md r) /\
  (forall k, picklable_key k = true -> row_get (row_roundtrip r) k = row_get r k) /\
  (forall z, row_get (row_roundtrip r) (KObj z) = None).
Proof.
  intros r. repeat split.
  - intros k Hk. now rewrite row_get_roundtrip, Hk.
  - intros z. apply row_get_roundtrip.
Qed.

Theorem frozen_roundtrip_spec : forall f, thaw (frozen_roundtrip f) = thaw f /\
  fr_scalars (frozen_roundtrip f) = fr_scalars f.
Proof. intros [[keys km] sc data]. split; reflexivity. Qed.

(* string keys - result keys and aliases such as Column.key or the table-qualified label - resolve to the
   same position after the round trip; every other key (Column objects, integers) is gone *)
Lemma frozen_index_roundtrip : forall f k,
  frozen_index (frozen_roundtrip f) k = if str_key k then frozen_index f k else None.
Proof. intros [[keys km] sc data] k. apply md_index_filter. Qed.

Lemma str_eqb_refl : forall s, str_eqb s s = true.
Proof. induction s; simpl; auto. now rewrite Z.eqb_refl. Qed.
Lemma str_eqb_eq : forall a b, str_eqb a b = true -> a = b.
Proof.
  induction a; destruct b; simpl; intros H; try discriminate; auto.
  apply andb_true_iff in H. destruct H as [H1 H2]. apply Z.eqb_eq in H1. subst. f_equal. auto.
Qed.

(* [no_colon] is the instance c = colon *)
Lemma free_of_cons : forall c x (a : str), forallb (fun y => negb (y =? c)) (x :: a) = true ->
  (x =? c) = false /\ forallb (fun y => negb (y =? c)) a = true.
Proof. intros c x a H. simpl in H. apply andb_true_iff in H. now rewrite negb_true_iff in H. Qed.

Lemma after_first_app : forall a b, no_colon a = true -> after_first colon (a ++ colon :: b) = Some b.
Proof.
  induction a as [|x a IH]; simpl; intros b H; auto.
  destruct (free_of_cons colon x a H) as [-> Ha]. auto.
Qed.
Lemma upto_app : forall c a b, forallb (fun x => negb (x =? c)) a = true -> upto c (a ++ c :: b) = a.
Proof.
  induction a as [|x a IH]; simpl; intros b H; [now rewrite Z.eqb_refl|].
  destruct (free_of_cons c x a H) as [-> Ha]. f_equal. auto.
Qed.
Lemma upto_all : forall c a, forallb (fun x => negb (x =? c)) a = true -> upto c a = a.
Proof.
  induction a as [|x a IH]; simpl; intros H; auto.
  destruct (free_of_cons c x a H) as [-> Ha]. f_equal. auto.
Qed.
Lemma split_nocolon : forall a, no_colon a = true -> split_on colon a = [a].
Proof.
  induction a as [|x a IH]; simpl; intros H; auto.
  destruct (free_of_cons colon x a H) as [-> Ha]. now rewrite IH.
Qed.
Lemma split_two : forall a b, no_colon a = true -> no_colon b = true -> split_on colon (a ++ colon :: b) = [a; b].
Proof.
  induction a as [|x a IH]; simpl; intros b Ha Hb.
  - now rewrite split_nocolon.
  - destruct (free_of_cons colon x a Ha) as [-> Ha']. now rewrite IH.
Qed.

Section SerializerProofs.
  Variable b64 : Z -> str.
  Variable unb64 : str -> option Z.
  Variable tables : list (str * list str).
  Variable props : Z -> list str.
  Hypothesis b64_clean : forall c, no_colon (b64 c) = true.    (* base64 alphabet *)
  Hypothesis unb64_b64 : forall c, unb64 (b64 c) = Some c.     (* pickle of the class, CPython's *)

  Notation load_id := (load_id unb64 tables props).
  Notation id_of := (id_of b64).
  Notation leaf_ok := (leaf_ok tables props).

  Lemma find_table_key : forall t l cs, find_table t l = Some cs -> True.
  Proof. auto. Qed.

  (* every id is tag:args with a colon-free tag, so the first split recovers both; the five tags are
     distinct constants, which picks the branch; what is left is the decoding of args *)
  Theorem load_id_roundtrip : forall l, leaf_ok l = true -> load_id (id_of l) = LOk l.
  Proof.
    intros l H. unfold Pickle.load_id, Pickle.id_of.
    destruct l as [t|t c|cls|cls k|cls]; simpl in H;
      rewrite after_first_app, upto_app by reflexivity; simpl (str_eqb _ _); cbv iota.
    - destruct (find_table t tables); [reflexivity | discriminate].
    - apply andb_true_iff in H. destruct H as [H Hf]. apply andb_true_iff in H. destruct H as [Ht Hc].
      rewrite split_two by auto. destruct (find_table t tables); [|discriminate]. now rewrite Hf.
    - now rewrite unb64_b64.
    - apply andb_true_iff in H. destruct H as [Hk Hp]. rewrite split_two by auto. now rewrite unb64_b64, Hp.
    - now rewrite unb64_b64.
  Qed.

  Lemma stmt_ind2 : forall P : stmt -> Prop,
    (forall l, P (SLeaf l)) -> (forall t ch, Forall P ch -> P (SNode t ch)) -> forall s, P s.
  Proof.
    intros P Hl Hn. fix IH 1. intros [l|t ch]; [apply Hl|]. apply Hn.
    induction ch as [|c ch IHch]; constructor; [apply IH | exact IHch].
  Qed.

  Theorem serializer_roundtrip_guarded : forall s, stmt_ok tables props s = true ->
    loads unb64 tables props (dumps b64 s) = LOk s.
  Proof.
    intros s. induction s as [l|t ch IH] using stmt_ind2; intros H.
    - simpl in *. now rewrite load_id_roundtrip.
    - simpl in H. simpl. 
      assert (Hgo : (fix go (l : list dumped) : lres (list stmt) :=
                 match l with
                 | [] => LOk []
                 | x :: r => match loads unb64 tables props x, go r with
                             | LOk a, LOk b => LOk (a :: b)
                             | LErr e, _ => LErr e
                             | _, LErr e => LErr e
                             end
                 end) (map (dumps b64) ch) = LOk ch).
      { induction ch as [|c ch IHch]; [reflexivity|]. simpl in H. apply andb_true_iff in H. destruct H as [Hc Hch].
        inversion IH; subst. simpl. rewrite (H1 Hc). rewrite (IHch H2 Hch). reflexivity. }
      rewrite Hgo. reflexivity.
  Qed.
End SerializerProofs.

(* a column key and a table key that contain the separator of the id syntax do not survive: ValueError on load *)
Definition ex_tables : list (str * list str) := [([116], [[105; 100]; [97; 58; 98]]); ([117; 58; 118], [[121]])].
Theorem serializer_roundtrip_refuted_colon :
  load_id (fun _ => None) ex_tables (fun _ => []) (id_of (fun _ => []) (LColumn [116] [97; 58; 98])) = LErr EUnpack /\
  load_id (fun _ => None) ex_tables (fun _ => []) (id_of (fun _ => []) (LColumn [117; 58; 118] [121])) = LErr EUnpack.
Proof. split; vm_compute; reflexivity. Qed.
