(* C36 - frames of the operations: what an operation on one attribute leaves of the database and
   of the other two attributes. *)
From Coq Require Import List NArith Bool Lia.
Import ListNotations.
From SAV.orm Require Import History HistorySpec HistoryProofs HistoryFrame.
Open Scope N_scope.

(* an operation on b / on cs / on x; all but those on x may refresh a clean x on the way *)
Definition keepXC (s s' : st) : Prop := keepDB s s' /\ loadX s s' /\ keepC s s'.
Definition keepXB (s s' : st) : Prop := keepDB s s' /\ loadX s s' /\ keepB s s'.
Definition keepBC (s s' : st) : Prop := keepDB s s' /\ keepB s s' /\ keepC s s'.

Lemma assign_x_frame : forall nv s, keepBC s (assign_x nv s).
Proof.
  intros nv s. unfold assign_x, mod_x. destruct (is_nohist (x_c s)); repeat split; reflexivity.
Qed.

Lemma set_x_frame : forall v s, keepBC s (fst (set_x v s)).
Proof. intros v s. apply assign_x_frame. Qed.
Lemma del_x_frame : forall s, keepBC s (fst (del_x s)).
Proof.
  intros s. destruct (del_x_fst s) as [-> | ->]; [repeat split; auto|apply assign_x_frame].
Qed.

(* the capture and the store touch b only: what the read left of the rest is what remains *)
Lemma assign_b_frame : forall nv s, keepXC s (assign_b nv s).
Proof.
  intros nv s. unfold assign_b. destruct (get_b_frame P_NO_FETCH_NO_INIT s) as (D & X & _ & C).
  destruct (get_b _ s) as [s1 old]. unfold mod_b.
  destruct (is_nohist (b_c s1)); exact (conj D (conj X C)).
Qed.

Lemma set_b_frame : forall v s, keepXC s (fst (set_b v s)).
Proof. intros v s. rewrite set_b_fst. apply assign_b_frame. Qed.
Lemma del_b_frame : forall s, keepXC s (fst (del_b s)).
Proof. intros s. rewrite del_b_fst. apply assign_b_frame. Qed.

(* the events and stores of a collection touch nothing but cs (and the modified flag) *)
Definition onlyC (s s' : st) : Prop := keepDB s s' /\ keepX s s' /\ keepB s s'.

Lemma keepXB_onlyC : forall s s1 s2, keepXB s s1 -> onlyC s1 s2 -> keepXB s s2.
Proof.
  intros s s1 s2 (D0 & X0 & B0) (D & X & B).
  split; [|split]; [eapply keepDB_trans|eapply loadX_trans|eapply keepB_trans]; eauto.
Qed.

Lemma mod_c_onlyC : forall prev nv s, onlyC s (set_c_d nv (mod_c prev s)).
Proof. intros prev nv s. unfold mod_c. destruct (is_nohist (c_c s)); repeat split; reflexivity. Qed.

Lemma before_pop_onlyC : forall s, onlyC s (before_pop s).
Proof. intros s. exact (mod_c_onlyC CNoValue (c_d s) s). Qed.

Lemma coll_event_onlyC : forall s l, onlyC s (set_c_d l (coll_event s)).
Proof.
  intros s l. unfold coll_event.
  destruct (c_d s); [apply mod_c_onlyC|exact (mod_c_onlyC CNoValue l (set_c_d (Some []) s))].
Qed.

Lemma coll_event1_frame : forall s, let s' := coll_event s in
  keepDB s s' /\ keepX s s' /\ keepB s s'.
Proof. intros s. exact (coll_event_onlyC s (c_d (coll_event s))). Qed.

Lemma touch_frame : forall k o s, via_touch o = true -> keepXB s (fst (step k o s)).
Proof.
  intros k o s V. apply (touch_op_rule (keepXB s)); auto.
  - intros s1 H. exact (keepXB_onlyC _ _ _ H (coll_event1_frame s1)).
  - intros s1 H. exact (keepXB_onlyC _ _ _ H (before_pop_onlyC s1)).
  - intros l s1 H. exact (keepXB_onlyC _ _ _ H (coll_event_onlyC s1 (Some l))).
  - rewrite coll_touch_get. destruct (get_c_frame P_OFF s) as (D & X & B & _). exact (conj D (conj X B)).
Qed.

Lemma c_replace_frame : forall k l s, keepXB s (fst (c_replace k l s)).
Proof.
  intros k l s. unfold c_replace. destruct (get_c_frame P_OFF s) as (D & X & B & _).
  destruct (get_c P_OFF s) as [s1 []]; cbn [fst] in *; try exact (conj D (conj X B)).
  exact (keepXB_onlyC s s1 _ (conj D (conj X B)) (mod_c_onlyC _ _ s1)).
Qed.

Lemma c_del_frame : forall s, keepXB s (fst (c_del s)).
Proof.
  intros s. assert (R : keepXB s s) by (repeat split; auto).
  unfold c_del. destruct (c_d s); [|exact R]. exact (keepXB_onlyC s s _ R (mod_c_onlyC _ _ s)).
Qed.

Lemma expire_keepDB : forall s, keepDB s (fst (expire s)).
Proof.
  intros s. unfold expire. destruct (persistent s) eqn:P; [|auto].
  destruct (modified s); repeat split; cbn; auto.
Qed.

Definition on_x (o : op) : bool := match o with SetX _ | DelX => true | _ => false end.
Definition on_b (o : op) : bool := match o with SetB _ | DelB | GetB => true | _ => false end.
Definition on_c (o : op) : bool :=
  match o with CReplace _ | CDel => true | _ => via_touch o end.

Lemma step_keepDB : forall k o s, is_flush o = false -> keepDB s (fst (step k o s)).
Proof.
  intros k o s NF. destruct (via_touch o) eqn:V; [apply touch_frame; exact V|].
  destruct o; try discriminate NF; try discriminate V; cbn [step]; rewrite ?read_fst.
  - apply set_x_frame. - apply del_x_frame. - apply get_x_refresh.
  - apply set_b_frame. - apply del_b_frame. - apply get_b_frame.
  - apply c_replace_frame. - apply c_del_frame. - apply expire_keepDB.
Qed.

(* operations that are not about x only ever refresh a clean x from the database *)
Lemma step_loadX : forall k o s, is_sync o = false -> on_x o = false -> loadX s (fst (step k o s)).
Proof.
  intros k o s NS NX. destruct (via_touch o) eqn:V; [apply touch_frame; exact V|].
  destruct o; try discriminate NS; try discriminate NX; try discriminate V; cbn [step]; rewrite ?read_fst.
  - apply get_x_refresh.
  - apply set_b_frame. - apply del_b_frame. - apply get_b_frame.
  - apply c_replace_frame. - apply c_del_frame.
Qed.

Lemma step_keepB : forall k o s, is_sync o = false -> on_b o = false -> keepB s (fst (step k o s)).
Proof.
  intros k o s NS NB. destruct (via_touch o) eqn:V; [apply touch_frame; exact V|].
  destruct o; try discriminate NS; try discriminate NB; try discriminate V; cbn [step]; rewrite ?read_fst.
  - apply set_x_frame. - apply del_x_frame. - apply get_x_refresh.
  - apply c_replace_frame. - apply c_del_frame.
Qed.

Lemma step_keepC : forall k o s, is_sync o = false -> on_c o = false -> keepC s (fst (step k o s)).
Proof.
  intros k o s NS NC.
  destruct o; try discriminate NS; try discriminate NC; cbn [step]; rewrite ?read_fst.
  - apply set_x_frame. - apply del_x_frame. - apply get_x_refresh.
  - apply set_b_frame. - apply del_b_frame. - apply get_b_frame.
Qed.

(* x: every operation is an assignment / deletion of x, or at most refreshes it *)
Lemma step_x_cases : forall (Q : st -> Prop) k o s, is_sync o = false ->
  (forall s', loadX s s' -> Q s') -> (forall nv, Q (assign_x nv s)) -> Q (fst (step k o s)).
Proof.
  intros Q k o s NS HL HA. destruct (on_x o) eqn:OX; [|apply HL, step_loadX; assumption].
  destruct o; try discriminate OX; cbn [step]; [apply HA|].
  destruct (del_x_fst s) as [-> | ->]; auto.
Qed.

(* b: an assignment / deletion, a read, or nothing at all *)
Lemma step_b_cases : forall (Q : st -> Prop) k o s, is_sync o = false ->
  (forall s', keepB s s' -> Q s') -> (forall nv, Q (assign_b nv s)) -> Q (fst (get_b P_OFF s)) ->
  Q (fst (step k o s)).
Proof.
  intros Q k o s NS HK HA HG. destruct (on_b o) eqn:OB; [|apply HK, step_keepB; assumption].
  destruct o; try discriminate OB; cbn [step]; rewrite ?set_b_fst, ?del_b_fst, ?read_fst; auto.
Qed.
