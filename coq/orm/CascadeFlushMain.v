(* C39 - the flush theorems: orphan rule, marked objects are deleted, nothing else is deleted. *)
From Coq Require Import List Bool Arith.
From SAV.orm Require Import Cascade CascadeBase CascadeIterProofs CascadeOpsProofs CascadeFlushProofs.
Import ListNotations.

Lemma top_proc_in_session : forall cfg s o, In o (top_proc cfg s) -> in_session s o = true /\ marked s o = false.
Proof.
  intros cfg s o H. apply filter_In in H. destruct H as [_ H]. apply andb_true_iff in H. destruct H as [H1 H2].
  apply negb_true_iff in H2. split; [|exact H2].
  unfold in_session, is_pending in *. destruct (st s o); try reflexivity; discriminate H1.
Qed.

(* a delete registered by the top-level loops survives the presort loop unless the object was added to a saved
   parent's collection: only then is a delete cancelled *)
Lemma flush_keeps_delete : forall cfg procs s u c,
  flush_regs cfg procs s u -> (forall p ri, ~ In c (h_added (hist_coll s p ri))) ->
  reg (snd (flush_top cfg s)) c = Some true -> reg u c = Some true.
Proof.
  intros cfg procs s u c [_ Hp] Hno R. revert R Hp.
  apply (presort_inv cfg (fst (flush_top cfg s)) (fun u => reg u c = Some true)).
  - intros u0 d H. exact H.
  - intros u0 pr b o [[x isdel] k] H Hin. rewrite reg_register.
    destruct (Nat.eqb c x && in_session _ x) eqn:E; [|exact H].
    apply andb_true_iff in E. destruct E as [E _]. apply Nat.eqb_eq in E. subst x. rewrite H.
    destruct isdel; [reflexivity|]. destruct k; [|reflexivity]. exfalso.
    destruct (proj1 (reqs_shape _ _ _ _ _ _ _ _ Hin) eq_refl) as [ri Hin'].
    rewrite flush_top_hist in Hin'. exact (Hno _ _ Hin').
Qed.

(* a persistent, modified object that _is_orphan reports as an orphan (its has-parent flag for a delete-orphan
   relationship was cleared and not set again) is deleted by the flush, whatever the processor order, unless it
   was meanwhile added to another collection *)
Theorem flush_orphan_registered : forall cfg procs s u c,
  flush_regs cfg procs s u ->
  In c (top_proc cfg s) -> has_key s c = true -> is_orphan cfg s c = true ->
  (forall p ri, ~ In c (h_added (hist_coll s p ri))) ->
  reg u c = Some true.
Proof.
  intros cfg procs s u c Hr Hc Hk Ho Hno. apply (flush_keeps_delete cfg procs s u c Hr Hno).
  destruct (top_proc_in_session cfg s c Hc) as [I _]. apply mem_In in Hc.
  assert (T : top_expunge cfg s c = false) by (unfold top_expunge; rewrite Hk, andb_false_r; reflexivity).
  rewrite flush_top_reg, flush_top_in_session, I, Hc, T, Ho, Hk. reflexivity.
Qed.

(* every object marked by Session.delete is deleted *)
Theorem flush_marked_registered : forall cfg procs s u x,
  flush_regs cfg procs s u ->
  x < nobj cfg -> marked s x = true -> st s x = Persistent ->
  (forall p ri, ~ In x (h_added (hist_coll s p ri))) ->
  reg u x = Some true.
Proof.
  intros cfg procs s u x Hr Hx Hm Hst Hno. apply (flush_keeps_delete cfg procs s u x Hr Hno).
  assert (Pn : mem x (top_proc cfg s) = false).
  { apply mem_false_notIn. intros H. apply top_proc_in_session in H. destruct H as [_ H]. congruence. }
  assert (O : mem x (objs cfg) = true) by (apply mem_In, in_seq; split; [apply Nat.le_0_l|exact Hx]).
  rewrite flush_top_reg, flush_top_in_session, Pn, O, Hm. unfold in_session. rewrite Hst. reflexivity.
Qed.

(* nothing else is deleted *)
Definition delete_justified (cfg : config) (s : state) (x : nat) : Prop :=
  marked s x = true \/ (is_orphan cfg s x = true /\ has_key s x = true) \/ cascaded_delete cfg s x.

Lemma cascaded_delete_top : forall cfg s x,
  cascaded_delete cfg (fst (flush_top cfg s)) x -> cascaded_delete cfg s x.
Proof.
  intros cfg s x [y [Hy Hx]]. destruct (attrs_eq _ _ (flush_top_attrs cfg s)) as [_ [_ [A3 [A4 A5]]]].
  exists y. split.
  - destruct Hy as [[ri [p [H1 [H2 H3]]]]|[ri [c [H1 H2]]]].
    + left. exists ri, p. split; [exact H1|]. split; [rewrite <- (flush_top_hist cfg s); exact H2|].
      unfold hp_false in *. rewrite <- A5. exact H3.
    + right. exists ri, c. split; [exact H1|]. unfold hist_scalar in *. rewrite <- A3, <- A4. exact H2.
  - destruct Hx as [Hx|Hx]; [left; exact Hx|right].
    exact (creach_ext cfg _ s TDL no_halt y x (flush_top_attrs cfg s) (flush_top_has_key cfg s) Hx).
Qed.

Theorem flush_deletes_justified : forall cfg procs s u x,
  flush_regs cfg procs s u -> reg u x = Some true -> delete_justified cfg s x.
Proof.
  intros cfg procs s u x [_ Hp]. revert x.
  apply (fun Hreg Hbase => presort_inv cfg (fst (flush_top cfg s))
                              (fun u => forall y, reg u y = Some true -> delete_justified cfg s y)
                              (fun u d H => H) Hreg procs _ _ u Hbase Hp).
  - (* a request that leaves a delete behind is a delete request, or finds the delete there *)
    intros u0 pr b o [[z isdel] k] H Hin y. rewrite reg_register.
    destruct (Nat.eqb y z && in_session _ z) eqn:E; [|apply H].
    apply andb_true_iff in E. destruct E as [E _]. apply Nat.eqb_eq in E. subst z.
    assert (D : isdel = true -> delete_justified cfg s y).
    { intros ->. right. right. apply cascaded_delete_top. exact (proj2 (reqs_shape _ _ _ _ _ _ _ _ Hin) eq_refl). }
    destruct (reg u0 y) as [old|] eqn:R; [destruct (isdel || k)|]; intros Hd; injection Hd as Hd; auto.
    subst old. exact (H y R).
  - intros y. rewrite flush_top_reg. destruct (in_session _ y); [|discriminate].
    destruct (mem y (top_proc cfg s) && negb (top_expunge cfg s y)).
    + intros Hd. injection Hd as Hd. apply andb_true_iff in Hd. right. left. exact Hd.
    + destruct (mem y (objs cfg) && marked s y) eqn:E; [|discriminate].
      intros _. left. apply andb_true_iff in E. tauto.
Qed.
