(* C31 - the two defects: graphs outside [managed] for which every hypothesis of the main theorem but
   [managed] holds and the flush fails on a database with immediate foreign key checks *)
From Coq Require Import List NArith Permutation.
Import ListNotations.
From SAV.orm Require Import FlushOrder FlushOrderSpec FlushOrderMain.
Local Open Scope N_scope.

(* id, kind (0 one-to-many, 1 many-to-one, 2 many-to-many), parent mapper, child mapper, post_update, active, column;
   id, mapper, has a row, role (0 not in the flush, 1 save, 2 delete) *)
Definition mkdep i k p c po a co := {| d_id := i; d_kind := k; d_parent := p; d_child := c; d_post := po; d_active := a; d_col := co; d_rev := false |}.
Definition mkst i m k r := {| s_id := i; s_map := m; s_key := k; s_role := r |}.

(* 1. two mappers that depend on each other through many-to-one relationships (A.b, B.a), rows a1 -> b1;
      a1.b = None; delete(b1).  [g_m2o]: the old target b1 was loaded (it is in get_all_pending): since
      a8ba61d the UPDATE of a1 precedes the DELETE of b1 (positive example below).
      [g_m2o_unloaded]: a1.b was expired when it was reset, the unit of work does not know the old target:
      the DELETE of b1 is in the first layer, the UPDATE of a1 in the second. *)
Definition g_m2o_unloaded : graph := {|
  g_deps := [mkdep 0 1 0 1 false true 0; mkdep 1 1 1 0 false true 1];
  g_sts := [mkst 0 0 true 1; mkst 1 1 true 2];
  g_links := [(0, 0, None); (1, 1, None)];
  g_ref0 := [(0, 0, 1)]; g_ref1 := [];
  g_sec0 := []; g_sec1 := []; g_notnull := [] |}.
Definition g_m2o : graph := {|
  g_deps := [mkdep 0 1 0 1 false true 0; mkdep 1 1 1 0 false true 1];
  g_sts := [mkst 0 0 true 1; mkst 1 1 true 2];
  g_links := [(0, 0, None); (0, 0, Some 1); (1, 1, None)];
  g_ref0 := [(0, 0, 1)]; g_ref1 := [];
  g_sec0 := []; g_sec1 := []; g_notnull := [] |}.
Definition tr_m2o : list ev := [EDel 1; ESave 0].

(* 2. one-to-many P.cs with post_update (column 0 of C), a second one-to-many X.cs (column 1 of C);
      rows c -> p, c -> x; delete(p); x.cs.remove(c).  DeleteAll(P) and SaveUpdateAll(C) share a layer, the
      post_update UPDATE of c comes two layers later. *)
Definition g_post : graph := {|
  g_deps := [mkdep 0 0 0 1 true true 0; mkdep 1 0 2 1 false true 1];
  g_sts := [mkst 0 0 true 2; mkst 1 1 true 1; mkst 2 2 true 1];
  g_links := [(0, 0, Some 1); (1, 2, Some 1)];
  g_ref0 := [(1, 0, 0); (1, 1, 2)]; g_ref1 := [];
  g_sec0 := []; g_sec1 := []; g_notnull := [] |}.
Definition tr_post : list ev := [ESave 2; ESave 1; EDel 0; EPost 1].

Definition refuted (g : graph) (tr : list ev) : Prop :=
  exists cy layers,
    wf g = true /\ consistent g = true /\ cycles std_tables g = Some cy /\ cyc_ok g cy = true /\
    managed g cy = false /\
    plan std_tables g = Layers layers /\ linearizes layers g cy tr /\
    exec (g_notnull g) (db0 g) (map (stmt_of g) tr) = None /\
    exists tr', Permutation tr' tr /\ exec (g_notnull g) (db0 g) (map (stmt_of g) tr') <> None.

Ltac nodup_ev := repeat constructor; simpl; intuition discriminate.

Theorem m2o_unset_delete_unloaded_refuted : refuted g_m2o_unloaded tr_m2o.
Proof.
  eexists. eexists. split; [vm_compute; reflexivity|]. split; [vm_compute; reflexivity|]. split; [vm_compute; reflexivity|].
  split; [vm_compute; reflexivity|]. split; [vm_compute; reflexivity|]. split; [vm_compute; reflexivity|]. split; [|split].
  - split.
    + apply NoDup_Permutation; [nodup_ev|nodup_ev|]. intros x. vm_compute. tauto.
    + exists (fun e => match e with ESave _ => 1%nat | _ => 0%nat end). split.
      * intros e [<-|[<-|[]]]; eexists; (split; [left; reflexivity|vm_compute; reflexivity]).
      * repeat constructor.
  - vm_compute. reflexivity.
  - exists [ESave 0; EDel 1]. split; [apply perm_swap|vm_compute; discriminate].
Qed.

Theorem post_update_o2m_delete_parent_refuted : refuted g_post tr_post.
Proof.
  eexists. eexists. split; [vm_compute; reflexivity|]. split; [vm_compute; reflexivity|]. split; [vm_compute; reflexivity|].
  split; [vm_compute; reflexivity|]. split; [vm_compute; reflexivity|]. split; [vm_compute; reflexivity|]. split; [|split].
  - split.
    + apply NoDup_Permutation; [nodup_ev|nodup_ev|]. intros x. vm_compute. tauto.
    + exists (fun e => match e with ESave 2 => 0%nat | ESave _ => 2%nat | EDel _ => 2%nat | EPost _ => 4%nat | _ => 0%nat end). split.
      * intros e [<-|[<-|[<-|[<-|[]]]]]; eexists; (split; [left; reflexivity|vm_compute; reflexivity]).
      * repeat constructor.
  - vm_compute. reflexivity.
  - exists [ESave 2; ESave 1; EPost 1; EDel 0]. split; [|vm_compute; discriminate].
    apply perm_skip, perm_skip, perm_swap.
Qed.

(* the repaired case: every hypothesis INCLUDING [managed] holds, and the only order the layers allow is the
   right one *)
Example m2o_unset_delete_repaired : exists cy layers,
  wf g_m2o = true /\ consistent g_m2o = true /\ cycles std_tables g_m2o = Some cy /\ managed g_m2o cy = true /\
  plan std_tables g_m2o = Layers layers /\ linearizes layers g_m2o cy [ESave 0; EDel 1] /\
  exec (g_notnull g_m2o) (db0 g_m2o) (map (stmt_of g_m2o) [ESave 0; EDel 1]) <> None /\
  In (code (SaveSt 0), code (DelSt 1)) (cedges (final_edges std_tables g_m2o cy)).
Proof.
  eexists. eexists. split; [vm_compute; reflexivity|]. split; [vm_compute; reflexivity|]. split; [vm_compute; reflexivity|].
  split; [vm_compute; reflexivity|]. split; [vm_compute; reflexivity|]. split; [|split].
  - split.
    + apply NoDup_Permutation; [nodup_ev|nodup_ev|]. intros x. vm_compute. tauto.
    + exists (fun e => match e with ESave _ => 1%nat | _ => 2%nat end). split.
      * intros e [<-|[<-|[]]]; eexists; (split; [left; reflexivity|vm_compute; reflexivity]).
      * repeat constructor.
  - vm_compute. discriminate.
  - vm_compute. tauto.
Qed.
