(* C49 - model of ext/mutable.py (Mutable, MutableDict, MutableList, MutableSet) together with the
   parts of the attribute system that carry a mutation to the database:

     MutableBase._parents            value object -> parents (InstanceState -> key), insertion order
     Mutable.changed()               for parent, key in self._parents.items(): flag_modified(parent.obj(), key)
     attributes.flag_modified        raises InvalidRequestError when the key is not in the parent's dict;
                                     committed_state[key] = NO_VALUE (overwrites); state.modified = True
     the listeners of _listen_on_attribute: load / refresh (coerce + _parents[state] = key),
                                     set (identity shortcut, coerce, add parent, pop parent of the old value),
                                     pickle / unpickle (parents of the CURRENT value re-established)
     ScalarAttributeImpl.set         old = dict_.get(key, NO_VALUE); set listeners; _modified_event(old)
     InstanceState._modified_event   committed_state[key] = previous only if there is no entry yet
     persistence._collect_update_commands
                                     for key in committed_state: UPDATE unless is_equal(current, original)
     Session.flush/commit/rollback/expire/refresh/merge and pickle.loads(pickle.dumps(obj))

   A mapped class with one mutable column, two persistent rows (session instances = pids 0 and 1),
   detached unpickled copies (pids >= 2), one saved reference to a value object (the "handle").
   Which methods of a Mutable class notify is a PARAMETER [ov : kind -> list meth] (the table
   regenerated from the source on every run); the contents semantics of a method is the builtin's
   (reference semantics of C38, coq/orm/Coll*.v).  Definitions only. *)
From Coq Require Import List ZArith Bool Arith.
Import ListNotations.
From SAV.base Require Import PySlice.
From SAV.orm Require Import CollBase CollList CollSet CollDict.
Local Open Scope nat_scope.

Inductive meth :=
| M_setitem | M_delitem | M_clear | M_pop | M_popitem | M_setdefault | M_update | M_ior
| M_append | M_extend | M_insert | M_remove | M_sort | M_reverse | M_iadd | M_imul
| M_add | M_discard | M_difference_update | M_intersection_update | M_symmetric_difference_update
| M_iand | M_isub | M_ixor
| M_getitem | M_get | M_contains.
Scheme Equality for meth.
Definition memb (m : meth) (l : list meth) : bool := existsb (meth_beq m) l.

Inductive kind := KDict | KList | KSet.

(* the in-place mutators of the builtin types (Python data model; trusted) *)
Definition in_place_mutators (k : kind) : list meth :=
  match k with
  | KDict => [M_setitem; M_delitem; M_clear; M_pop; M_popitem; M_setdefault; M_update; M_ior]
  | KList => [M_setitem; M_delitem; M_append; M_extend; M_insert; M_pop; M_remove; M_clear; M_sort;
              M_reverse; M_iadd; M_imul]
  | KSet => [M_add; M_discard; M_remove; M_pop; M_clear; M_update; M_difference_update;
             M_intersection_update; M_symmetric_difference_update; M_ior; M_iand; M_isub; M_ixor]
  end.

(* the T1 side condition: every in-place mutator of the builtin is overridden by a method that
   calls self.changed() *)
Definition covers (k : kind) (overrides : list meth) : bool :=
  forallb (fun m => memb m overrides) (in_place_mutators k).
Definition covers_all (ov : kind -> list meth) : bool :=
  covers KDict (ov KDict) && covers KList (ov KList) && covers KSet (ov KSet).

Inductive cont := CD (d : pydict) | CL (l : list Z) | CS (s : list Z).
Definition kind_of (c : cont) : kind := match c with CD _ => KDict | CL _ => KList | CS _ => KSet end.

Inductive cop :=
| OD (op : dop) | ODGet (k : Z)
| OL (op : lop) | OLSort (reverse : bool)
| OS (op : sop) | OSContains (x : Z).

Definition meth_of (op : cop) : meth :=
  match op with
  | OD (DSetItem _ _) => M_setitem | OD (DDelItem _) => M_delitem | OD DClear => M_clear
  | OD (DPop _ _) => M_pop | OD DPopItem => M_popitem | OD (DSetDefault _ _) => M_setdefault
  | OD (DUpdate _ _) => M_update | OD (DIor _) => M_ior
  | ODGet _ => M_get
  | OL (LAppend _) => M_append | OL (LRemove _) => M_remove | OL (LInsert _ _) => M_insert
  | OL (LSetItem _ _) | OL (LSetSlice _ _) => M_setitem
  | OL (LDelItem _) | OL (LDelSlice _) => M_delitem
  | OL (LExtend _) => M_extend | OL (LIAdd _) => M_iadd | OL (LPop _) => M_pop
  | OL LClear => M_clear | OL (LIMul _) => M_imul | OL LReverse => M_reverse
  | OL (LGetSlice _) => M_getitem
  | OLSort _ => M_sort
  | OS (SAdd _) => M_add | OS (SDiscard _) => M_discard | OS (SRemove _) => M_remove
  | OS SPop => M_pop | OS SClear => M_clear | OS (SUpdate _) => M_update
  | OS (SDiffUpdate _) => M_difference_update | OS (SInterUpdate _) => M_intersection_update
  | OS (SSymDiffUpdate _) => M_symmetric_difference_update
  | OS (SIor _) => M_ior | OS (SIsub _) => M_isub | OS (SIand _) => M_iand | OS (SIxor _) => M_ixor
  | OSContains _ => M_contains
  end.

Fixpoint zinsert (x : Z) (l : list Z) : list Z :=
  match l with [] => [x] | y :: r => if (x <=? y)%Z then x :: l else y :: zinsert x r end.
Definition zsort (l : list Z) : list Z := fold_right zinsert [] l.
Fixpoint kinsert (x : Z * Z) (l : list (Z * Z)) : list (Z * Z) :=
  match l with [] => [x] | y :: r => if (fst x <=? fst y)%Z then x :: l else y :: kinsert x r end.
Definition ksort (l : list (Z * Z)) : list (Z * Z) := fold_right kinsert [] l.

Section Ord.
Variable ord : list Z -> list Z.       (* iteration order of a builtin set (set.pop) *)

(* the contents semantics of the Mutable* methods:
     every override is  <builtin>.<method>(self, ...)  followed by self.changed(), except
     MutableDict.__ior__ = self.update(other); MutableList.__iadd__ = self.extend(x);
     MutableSet.__ior__/__iand__/__ixor__/__isub__ = self.update / intersection_update /
     symmetric_difference_update / difference_update (other)  - any iterable accepted.
   An exception leaves the contents unchanged. *)
Definition mut_sem (c : cont) (op : cop) : res unit * cont :=
  let fin {T} (rc : res T * cont) :=
      match rc with (Ok _, c') => (Ok tt, c') | (Raise e, _) => (Raise e, c) end in
  match c, op with
  | CD d, OD o => fin (let '(r, d') := py_dict_op d o in (r, CD d'))
  | CD d, ODGet _ => (Ok tt, c)
  | CL l, OL o => fin (let '(r, l') := py_list_op l o in (r, CL l'))
  | CL l, OLSort rv => (Ok tt, CL (if rv then rev (zsort l) else zsort l))
  | CS s, OS o =>
      let o' := match o with
                | SIor a => SUpdate a | SIsub a => SDiffUpdate a
                | SIand a => SInterUpdate a | SIxor a => SSymDiffUpdate a
                | _ => o end in
      fin (let '(r, s') := py_set_op ord s o' in (r, CS s'))
  | CS s, OSContains _ => (Ok tt, c)
  | _, _ => (Raise TypeError, c)
  end.
End Ord.

(* Python == on the values: dicts and sets compare regardless of order *)
Definition canon (c : cont) : cont :=
  match c with CD d => CD (ksort d) | CL l => CL l | CS s => CS (zsort s) end.
Definition cont_eq_dec (a b : cont) : {a = b} + {a <> b}.
Proof.
  decide equality; try (apply (list_eq_dec Z.eq_dec)).
  apply list_eq_dec. decide equality; apply Z.eq_dec.
Defined.
Definition ceq (a b : cont) : bool := if cont_eq_dec (canon a) (canon b) then true else false.
Definition ceq_opt (a b : option cont) : bool :=
  match a, b with
  | None, None => true
  | Some x, Some y => ceq x y
  | _, _ => false
  end.

(* state.dict.get(key): absent (expired / never loaded), None, or a value object *)
Inductive slotv := Absent | Pres (v : option nat).
(* state.committed_state[key] *)
Inductive orig := ONoValue | OVal (v : option nat).
(* idp: the primary-key attribute is loaded (it is whenever the instance was loaded since its last
   expiry; an assignment to the expired instance leaves it unloaded) *)
Record pstate := mkP { slot : slotv; cst : option orig; pmod : bool; idp : bool }.
Record vobj := mkV { vcont : cont; vpar : list nat }.

Record world := mkW {
  objs : nat -> pstate;            (* pid -> parent object; pids 0,1 = the session's instances *)
  heap : nat -> vobj;              (* oid -> value object *)
  nexto : nat; nextp : nat;
  copies : nat -> option nat;      (* row -> the latest unpickled copy *)
  hdl : option nat;                (* the saved reference *)
  db : nat -> option cont;         (* row -> column value as the session's connection sees it *)
  dbc : nat -> option cont;        (* row -> committed column value *)
  intrans : bool                   (* Session.in_transaction() *)
}.

Definition upd {A} (f : nat -> A) (k : nat) (v : A) : nat -> A :=
  fun j => if Nat.eqb j k then v else f j.

Definition set_objs (w : world) (f : nat -> pstate) : world :=
  mkW f (heap w) (nexto w) (nextp w) (copies w) (hdl w) (db w) (dbc w) (intrans w).
Definition set_heap (w : world) (f : nat -> vobj) : world :=
  mkW (objs w) f (nexto w) (nextp w) (copies w) (hdl w) (db w) (dbc w) (intrans w).
Definition set_hdl (w : world) (h : option nat) : world :=
  mkW (objs w) (heap w) (nexto w) (nextp w) (copies w) h (db w) (dbc w) (intrans w).
Definition set_db (w : world) (f : nat -> option cont) : world :=
  mkW (objs w) (heap w) (nexto w) (nextp w) (copies w) (hdl w) f (dbc w) (intrans w).
Definition set_intrans (w : world) (b : bool) : world :=
  mkW (objs w) (heap w) (nexto w) (nextp w) (copies w) (hdl w) (db w) (dbc w) b.

Definition rows : list nat := [0; 1].
Definition is_session (p : nat) : bool := p <? 2.

Definition val (w : world) (v : option nat) : option cont :=
  match v with Some o => Some (vcont (heap w o)) | None => None end.

(* a new value object *)
Definition alloc (w : world) (c : cont) (pars : list nat) : world * nat :=
  (mkW (objs w) (upd (heap w) (nexto w) (mkV c pars)) (S (nexto w)) (nextp w) (copies w) (hdl w)
       (db w) (dbc w) (intrans w), nexto w).

(* loading row r into the session instance (expired attribute access, refresh):
   the `load` / `refresh` listener coerces the loaded value into a NEW Mutable object and
   sets  val._parents[state] = key *)
Definition load (w : world) (r : nat) : world * option nat :=
  let w1 := set_intrans w true in
  let ps := objs w1 r in
  match slot ps with
  | Pres v =>    (* assigned while expired: only the remaining (primary key) attributes are loaded *)
      (set_objs w1 (upd (objs w1) r (mkP (slot ps) (cst ps) (pmod ps) true)), v)
  | Absent =>
      match db w1 r with
      | None => (set_objs w1 (upd (objs w1) r (mkP (Pres None) (cst ps) (pmod ps) true)), None)
      | Some c =>
          let '(w2, o) := alloc w1 c [r] in
          (set_objs w2 (upd (objs w2) r (mkP (Pres (Some o)) (cst ps) (pmod ps) true)), Some o)
      end
  end.

(* result codes: 0 ok; 10.. container exceptions; 5 InvalidRequestError (flag_modified on an
   attribute that is not loaded); 6 DetachedInstanceError; 7 AttributeError (method call on None);
   9 the addressed copy / handle does not exist (nothing happens) *)
Definition rc_ok : Z := 0%Z.
Definition rc_exn (e : pyexn) : Z :=
  match e with IndexError => 10 | ValueError => 11 | KeyError => 12 | TypeError => 13 | RuntimeError => 14 end%Z.
Definition rc_invalid : Z := 5%Z.
Definition rc_detached : Z := 6%Z.
Definition rc_attr : Z := 7%Z.
Definition rc_notarget : Z := 9%Z.

Inductive tgt := TSess (r : nat) | TCopy (r : nat) | THandle.

Definition tgt_pid (w : world) (t : tgt) : option nat :=
  match t with TSess r => Some r | TCopy r => copies w r | THandle => None end.

(* getattr(obj, key) *)
Definition getattr (w : world) (p : nat) : world * option (option nat) :=
  match slot (objs w p) with
  | Pres v => (w, Some v)
  | Absent => if is_session p then let '(w', v) := load w p in (w', Some v) else (w, None)
  end.

(* the value object an operation addresses: Some (Some o) | Some None (the attribute is None) *)
Definition get_value (w : world) (t : tgt) : world * Z * option (option nat) :=
  match t with
  | THandle => match hdl w with Some o => (w, rc_ok, Some (Some o)) | None => (w, rc_notarget, None) end
  | _ => match tgt_pid w t with
         | None => (w, rc_notarget, None)
         | Some p => match getattr w p with
                     | (w', Some v) => (w', rc_ok, Some v)
                     | (w', None) => (w', rc_detached, None)
                     end
         end
  end.

(* InstanceState._modified_event on a session-attached state begins the session's transaction *)
Definition touch (w : world) (p : nat) : world :=
  if is_session p then set_intrans w true else w.
Definition flag_ps (ps : pstate) : pstate := mkP (slot ps) (Some ONoValue) true (idp ps).
(* Mutable.changed(): flag_modified for every parent, in insertion order; the first parent whose
   attribute is not loaded raises and the remaining parents are not reached *)
Fixpoint changed_loop (ps : list nat) (w : world) : world * bool :=
  match ps with
  | [] => (w, true)
  | p :: r =>
      match slot (objs w p) with
      | Absent => (w, false)
      | Pres _ => changed_loop r (touch (set_objs w (upd (objs w) p (flag_ps (objs w p)))) p)
      end
  end.

Definition add_par (p : nat) (l : list nat) : list nat :=
  if existsb (Nat.eqb p) l then l else l ++ [p].
Definition remove_par (p : nat) (l : list nat) : list nat :=
  filter (fun q => negb (Nat.eqb p q)) l.

Definition same_val (old : slotv) (v : option nat) : bool :=
  match old, v with
  | Pres None, None => true
  | Pres (Some a), Some b => Nat.eqb a b
  | _, _ => false
  end.

(* obj.key = <value object or None>:  ScalarAttributeImpl.set with the Mutable `set` listener *)
Definition set_obj (w : world) (p : nat) (v : option nat) : world :=
  let ps := objs w p in
  let old := slot ps in
  let hp :=
      if same_val old v then heap w            (* if value is oldvalue: return value *)
      else
        let h1 := match v with
                  | Some o => upd (heap w) o (mkV (vcont (heap w o)) (add_par p (vpar (heap w o))))
                  | None => heap w
                  end in
        match old with
        | Pres (Some q) => upd h1 q (mkV (vcont (h1 q)) (remove_par p (vpar (h1 q))))
        | _ => h1
        end in
  let c := match cst ps with
           | Some x => Some x
           | None => Some (match old with Absent => ONoValue | Pres u => OVal u end)
           end in
  touch (set_objs (set_heap w hp) (upd (objs w) p (mkP (Pres v) c true (idp ps)))) p.

(* is_equal(current, committed_state[key]) *)
Definition orig_equal (w : world) (o : orig) (u : option nat) : bool :=
  match o, u with
  | ONoValue, _ => false
  | OVal None, None => true
  | OVal (Some q), Some x => ceq (vcont (heap w q)) (vcont (heap w x))
  | OVal _, _ => false
  end.

Definition flush_row (w : world) (r : nat) : world :=
  let ps := objs w r in
  if pmod ps then
    let w1 := match cst ps, slot ps with
              | Some og, Pres u => if orig_equal w og u then w else set_db w (upd (db w) r (val w u))
              | _, _ => w
              end in
    set_intrans (set_objs w1 (upd (objs w1) r (mkP (slot ps) None false true))) true
  else w.
Definition flush (w : world) : world := fold_left flush_row rows w.

Definition expire_row (w : world) (r : nat) : world :=
  set_objs w (upd (objs w) r (mkP Absent None false false)).
Definition expire_all (w : world) : world := fold_left expire_row rows w.

Definition commit (w : world) : world :=
  let w1 := flush w in
  expire_all (mkW (objs w1) (heap w1) (nexto w1) (nextp w1) (copies w1) (hdl w1) (db w1) (db w1) false).
Definition rollback (w : world) : world :=
  if intrans w then
    expire_all (mkW (objs w) (heap w) (nexto w) (nextp w) (copies w) (hdl w) (dbc w) (dbc w) false)
  else w.

(* pickle.loads(pickle.dumps(obj)): a detached copy with its own state; committed_state and the
   modified flag travel with it; the `unpickle` listener makes the copy's state the parent of the
   copy's CURRENT value only; the pickle memo keeps "original is current" identities *)
Definition pickle (w : world) (r : nat) : world :=
  let ps := objs w r in
  let n := nextp w in
  let '(w1, sl) := match slot ps with
                   | Pres (Some o) => let '(w1, o') := alloc w (vcont (heap w o)) [n] in (w1, Pres (Some o'))
                   | s => (w, s)
                   end in
  let '(w2, c) := match cst ps with
                  | Some (OVal (Some q)) =>
                      match slot ps, sl with
                      | Pres (Some o), Pres (Some o') =>
                          if Nat.eqb q o then (w1, Some (OVal (Some o')))
                          else let '(w2, q') := alloc w1 (vcont (heap w q)) [] in (w2, Some (OVal (Some q')))
                      | _, _ => let '(w2, q') := alloc w1 (vcont (heap w q)) [] in (w2, Some (OVal (Some q')))
                      end
                  | c => (w1, c)
                  end in
  mkW (upd (objs w2) n (mkP sl c (pmod ps) (idp ps))) (heap w2) (nexto w2) (S n) (upd (copies w2) r (Some n))
      (hdl w2) (db w2) (dbc w2) (intrans w2).

Inductive op :=
| Mut (t : tgt) (o : cop)            (* getattr(t).<method>(...) *)
| SetPlain (t : tgt) (c : option cont)   (* t.key = <plain dict/list/set> | None *)
| Save (t : tgt)                     (* h = t.key *)
| SetH (t : tgt)                     (* t.key = h *)
| Flush | Commit | Rollback
| Expire (r : nat) | Refresh (r : nat)
| Pickle (r : nat)                   (* copy[r] = pickle.loads(pickle.dumps(session instance r)) *)
| Merge (r : nat).                   (* session.merge(copy[r]) *)

Section Step.
Variable ord : list Z -> list Z.
Variable ov : kind -> list meth.     (* per class: the methods that call self.changed() *)

Definition notifies (c : cont) (o : cop) : bool := memb (meth_of o) (ov (kind_of c)).

(* value.<method>(...) on the value object [x] *)
Definition mutate (w : world) (x : nat) (o : cop) : world * Z :=
  let vo := heap w x in
  match mut_sem ord (vcont vo) o with
  | (Raise e, _) => (w, rc_exn e)
  | (Ok _, c') =>
      let w1 := set_heap w (upd (heap w) x (mkV c' (vpar vo))) in
      if notifies (vcont vo) o then
        let '(w2, ok) := changed_loop (vpar vo) w1 in
        (w2, if ok then rc_ok else rc_invalid)
      else (w1, rc_ok)
  end.

Definition step (w : world) (o : op) : world * Z :=
  match o with
  | Mut t c =>
      match get_value w t with
      | (w1, _, Some (Some x)) => mutate w1 x c
      | (w1, _, Some None) => (w1, rc_attr)
      | (w1, rc, None) => (w1, rc)
      end
  | SetPlain t c =>
      match tgt_pid w t with
      | None => (w, rc_notarget)
      | Some p =>
          match c with
          | None => (set_obj w p None, rc_ok)
          | Some c' => let '(w1, x) := alloc w c' [] in (set_obj w1 p (Some x), rc_ok)
          end
      end
  | Save t =>
      match get_value w t with
      | (w1, _, Some v) => (set_hdl w1 v, rc_ok)
      | (w1, rc, None) => (w1, rc)
      end
  | SetH t =>
      match tgt_pid w t, hdl w with
      | Some p, Some x => (set_obj w p (Some x), rc_ok)
      | _, _ => (w, rc_notarget)
      end
  | Flush => (flush w, rc_ok)
  | Commit => (commit w, rc_ok)
  | Rollback => (rollback w, rc_ok)
  | Expire r => (expire_row w r, rc_ok)
  | Refresh r => (fst (load (expire_row w r) r), rc_ok)
  | Pickle r => (pickle w r, rc_ok)
  | Merge r =>
      match copies w r with
      | None => (w, rc_notarget)
      | Some p =>
          let cp := objs w p in
          (* ColumnProperty.merge, primary key first: the attribute has active history, so assigning it
             loads the expired target; the assignment itself is a _modified_event *)
          let w1 := if idp cp then
                      let w0 := if idp (objs w r) then w else fst (load w r) in
                      let ps := objs w0 r in
                      touch (set_objs w0 (upd (objs w0) r (mkP (slot ps) (cst ps) true (idp ps)))) r
                    else w in
          match slot cp with
          | Pres v => (set_obj w1 r v, rc_ok)
          | Absent => (w1, rc_ok)
          end
      end
  end.

Fixpoint run (ops : list op) (w : world) : world :=
  match ops with
  | [] => w
  | o :: r => run r (fst (step w o))
  end.

(* the two regions where the code is known to lose a change (see MutableWitness.v): *)
(* (a) the mutated object is recorded as the ORIGINAL value in some session instance's
       committed_state (it was replaced or taken out of the attribute since the last flush)
   (b) self.changed() reaches a parent whose attribute is not loaded (raises InvalidRequestError
       after the mutation was applied; the remaining parents are not flagged) *)
Definition recorded (w : world) (x : nat) : bool :=
  existsb (fun r => match cst (objs w r) with
                    | Some (OVal (Some q)) => Nat.eqb q x
                    | _ => false end) rows.
Definition parents_loaded (w : world) (x : nat) : bool :=
  forallb (fun p => match slot (objs w p) with Absent => false | Pres _ => true end) (vpar (heap w x)).

Definition guard (w : world) (o : op) : bool :=
  match o with
  | Mut t c =>
      match get_value w t with
      | (w1, _, Some (Some x)) =>
          match mut_sem ord (vcont (heap w1 x)) c with
          | (Raise _, _) => true
          | (Ok _, c') =>
              (negb (recorded w1 x) || (if cont_eq_dec c' (vcont (heap w1 x)) then true else false))
              && (negb (notifies (vcont (heap w1 x)) c) || parents_loaded w1 x)
          end
      | _ => true
      end
  | _ => true
  end.

Fixpoint guarded (ops : list op) (w : world) : bool :=
  match ops with
  | [] => true
  | o :: r => guard w o && guarded r (fst (step w o))
  end.
End Step.

(* a fresh session over two committed rows *)
Definition init_world (d0 d1 : option cont) : world :=
  let dbf := fun r => match r with 0 => d0 | 1 => d1 | _ => None end in
  mkW (fun _ => mkP Absent None false false) (fun _ => mkV (CL []) []) 0 2 (fun _ => None) None dbf dbf false.

(* the property, per session row: an instance that is not flagged modified holds the database's value *)
Definition in_sync (w : world) (r : nat) : Prop :=
  pmod (objs w r) = false ->
  forall v, slot (objs w r) = Pres v -> ceq_opt (val w v) (db w r) = true.
(* after a flush: what is in memory is what is stored *)
Definition stored (w : world) (r : nat) : Prop :=
  forall v, slot (objs w r) = Pres v -> ceq_opt (val w v) (db w r) = true.
