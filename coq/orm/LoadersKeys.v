(* C40 - composite keys: how selectin loading extracts the key tuple that groups the fetched rows.
   _SelectInLoader._init_for_omit_join: the related rows are keyed by the FK columns listed BY WALKING THE
   PARENT'S PRIMARY KEY ([pk_to_fk[col] for col in parent.primary_key]), so that the tuple lines up with
   the parent identity key (state.key[1], in primary-key order) whatever the order in which the
   relationship's join condition lists the column pairs. *)
From Coq Require Import List ZArith Bool Lia.
Import ListNotations.
From SAV.orm Require Import Loaders LoadersBase.
Open Scope Z_scope.

Definition krow := list (option Z).                       (* a row: column values by position *)
Definition colval (r : krow) (c : nat) : option Z := nth c r None.

Definition lookup_fk (pairs : list (nat * nat)) (c : nat) : option nat :=
  match find (fun p => Nat.eqb (fst p) c) pairs with Some p => Some (snd p) | None => None end.

(* [pk_to_fk[col] for col in self.parent.primary_key if col in pk_to_fk] *)
Definition fk_cols (pairs : list (nat * nat)) (pk : list nat) : list nat :=
  flat_map (fun c => match lookup_fk pairs c with Some f => [f] | None => [] end) pk.

Fixpoint key_eqb (a b : list (option Z)) : bool :=
  match a, b with
  | [], [] => true
  | Some x :: a', Some y :: b' => (x =? y) && key_eqb a' b'
  | None :: a', None :: b' => key_eqb a' b'      (* Python tuple equality: None == None *)
  | _, _ => false
  end.

(* selectin, one-to-many: data[row[:n_pk]].append(row[n_pk]); collection = data.get(state.key[1]) *)
Definition selectin_down (fkc : list nat) (pk : list nat) (parents children : list krow) : list (krow * list krow) :=
  map (fun p => (p, filter (fun c => key_eqb (map (colval c) fkc) (map (colval p) pk)) children)) parents.

(* the join condition: every (parent column, child column) pair equal, NULL equal to nothing *)
Definition joined_on (pairs : list (nat * nat)) (p c : krow) : bool :=
  forallb (fun pr => okey_eqb (colval p (fst pr)) (colval c (snd pr))) pairs.
Definition spec_down (pairs : list (nat * nat)) (parents children : list krow) : list (krow * list krow) :=
  map (fun p => (p, filter (joined_on pairs p) children)) parents.

(* selectin, many-to-one (_init_for_omit_join_m2o / _load_via_child): the child's key is its FK values in
   the TARGET's primary-key order; a NULL component means no parent *)
Definition selectin_up (fkc : list nat) (pk : list nat) (parents children : list krow) : list (krow * list krow) :=
  map (fun c => (c, let k := map (colval c) fkc in
                    if existsb (fun v => match v with None => true | Some _ => false end) k then []
                    else filter (fun p => key_eqb k (map (colval p) pk)) parents)) children.
Definition spec_up (pairs : list (nat * nat)) (parents children : list krow) : list (krow * list krow) :=
  map (fun c => (c, filter (fun p => joined_on pairs p c) parents)) children.

(* a wrong alternative: the dict's own (join-condition) order *)
Definition fk_cols_dict_order (pairs : list (nat * nat)) (pk : list nat) : list nat :=
  map snd (filter (fun p => existsb (Nat.eqb (fst p)) pk) pairs).

Definition wf_pairs (pairs : list (nat * nat)) (pk : list nat) : Prop :=
  NoDup (map fst pairs) /\ (forall c, In c pk <-> In c (map fst pairs)).
Definition pk_not_null (pk : list nat) (p : krow) : Prop := forall c, In c pk -> colval p c <> None.

Lemma lookup_fk_iff : forall pairs a f, NoDup (map fst pairs) -> (lookup_fk pairs a = Some f <-> In (a, f) pairs).
Proof.
  intros pairs a f N. unfold lookup_fk. destruct (find _ pairs) as [[a' f']|] eqn:E.
  - apply find_some in E as [Hp E]. apply Nat.eqb_eq in E. cbn in E. subst a'. split.
    + intros [= <-]. auto.
    + intro H. f_equal. apply (f_equal snd (NoDup_map_inj fst pairs _ _ N Hp H eq_refl)).
  - split; [discriminate|]. intro H. eapply find_none in E; eauto. cbn in E. rewrite Nat.eqb_refl in E. discriminate.
Qed.

Lemma key_eqb_pointwise : forall (A : Type) (l : list A) (f g : A -> option Z),
  (forall x, In x l -> g x <> None) ->
  (key_eqb (map f l) (map g l) = true <-> forall x, In x l -> f x = g x).
Proof.
  induction l as [|a l IH]; intros f g NN; cbn [map key_eqb]; [split; auto; intros _ x []|].
  assert (NN' : forall x, In x l -> g x <> None) by (intros; apply NN; cbn; auto).
  specialize (IH f g NN'). destruct (g a) as [y|] eqn:Ga; [|exfalso; apply (NN a); cbn; auto].
  destruct (f a) as [x|] eqn:Fa.
  - rewrite andb_true_iff, IH, Z.eqb_eq. split.
    + intros [E H] z [<-|Hz]; [congruence|auto].
    + intro H. split; [|intros; apply H; cbn; auto]. specialize (H a (or_introl eq_refl)). congruence.
  - split; [discriminate|]. intro H. specialize (H a (or_introl eq_refl)). congruence.
Qed.

(* a NULL component never equals a non-NULL key *)
Lemma key_eqb_none : forall a b, In None a -> ~ In None b -> key_eqb a b = false.
Proof.
  induction a as [|[x|] a IH]; intros [|[y|] b] Ha Hb; cbn [key_eqb]; auto; cbn in Ha, Hb.
  - contradiction.
  - rewrite IH; [apply andb_false_r| |]; intuition discriminate.
  - tauto.
Qed.

(* the key columns read off a row, column by column of the primary key *)
Lemma fk_cols_map : forall pairs pk r, NoDup (map fst pairs) -> (forall c, In c pk -> In c (map fst pairs)) ->
  map (colval r) (fk_cols pairs pk) =
  map (fun c => match lookup_fk pairs c with Some f => colval r f | None => None end) pk.
Proof.
  intros pairs pk r N H. unfold fk_cols. induction pk as [|a pk IH]; auto. cbn [flat_map map].
  rewrite map_app, IH by (intros; apply H; cbn; auto).
  destruct (proj1 (in_map_iff _ _ _) (H a (or_introl eq_refl))) as [[a' f] [E Hp]]. cbn in E. subst a'.
  rewrite (proj2 (lookup_fk_iff pairs a f N) Hp). reflexivity.
Qed.

(* the key lemma: for EVERY order of the join-condition pairs, the key tuple read off a related row equals
   the parent's identity key exactly when the join condition holds *)
Theorem key_match_iff_joined : forall pairs pk p c, wf_pairs pairs pk -> pk_not_null pk p ->
  key_eqb (map (colval c) (fk_cols pairs pk)) (map (colval p) pk) = joined_on pairs p c.
Proof.
  intros pairs pk p c [N HP] NN.
  rewrite fk_cols_map by (auto; intros; apply HP; auto).
  apply eq_true_iff_eq. rewrite key_eqb_pointwise by exact NN. unfold joined_on. rewrite forallb_forall.
  (* both sides say: colval c f = colval p a for every pair (a, f) *)
  split.
  - intros H [a f] Hp. cbn [fst snd]. assert (Ha : In a pk) by (apply HP; change a with (fst (a, f)); apply in_map; auto).
    specialize (H a Ha). rewrite (proj2 (lookup_fk_iff pairs a f N) Hp) in H. rewrite H.
    destruct (colval p a) eqn:E; [cbn; apply Z.eqb_refl|exfalso; eapply NN; eauto].
  - intros H a Ha. destruct (proj1 (in_map_iff _ _ _) (proj1 (HP a) Ha)) as [[a' f] [E Hp]]. cbn in E. subst a'.
    rewrite (proj2 (lookup_fk_iff pairs a f N) Hp). specialize (H (a, f) Hp). cbn [fst snd] in H.
    destruct (colval p a), (colval c f); cbn in H; try discriminate. apply Z.eqb_eq in H. congruence.
Qed.

Theorem selectin_down_eq_spec : forall pairs pk parents children, wf_pairs pairs pk ->
  Forall (pk_not_null pk) parents ->
  selectin_down (fk_cols pairs pk) pk parents children = spec_down pairs parents children.
Proof.
  intros pairs pk parents children W NN. unfold selectin_down, spec_down. apply map_ext_in. intros p Hp. f_equal.
  apply filter_ext. intro c. apply key_match_iff_joined; auto. rewrite Forall_forall in NN. auto.
Qed.

Theorem selectin_up_eq_spec : forall pairs pk parents children, wf_pairs pairs pk ->
  Forall (pk_not_null pk) parents ->
  selectin_up (fk_cols pairs pk) pk parents children = spec_up pairs parents children.
Proof.
  intros pairs pk parents children W NN. unfold selectin_up, spec_up. apply map_ext_in. intros c Hc. f_equal.
  rewrite Forall_forall in NN.
  rewrite (filter_ext_in (fun p => joined_on pairs p c)
             (fun p => key_eqb (map (colval c) (fk_cols pairs pk)) (map (colval p) pk)) parents)
    by (intros p Hp; symmetry; apply key_match_iff_joined; auto).
  destruct (existsb _ _) eqn:E; auto.
  (* a NULL component: the test is redundant, the key equals no parent's *)
  apply existsb_exists in E as [[v|] [Hv Ev]]; [discriminate Ev|]. symmetry. apply filter_none. intros p Hp.
  apply key_eqb_none; auto. intro Hin. apply in_map_iff in Hin as [a [Ea Ha]]. eapply NN; eauto.
Qed.

(* listing the key columns in the join condition's own order instead is wrong as soon as that order
   differs from the primary key's: parents (1,2) and (2,1) receive each other's children *)
Theorem dict_order_refuted : exists pairs pk parents children, wf_pairs pairs pk /\ Forall (pk_not_null pk) parents /\
  selectin_down (fk_cols_dict_order pairs pk) pk parents children <> spec_down pairs parents children.
Proof.
  exists [(1%nat, 2%nat); (0%nat, 1%nat)], [0%nat; 1%nat],
         [[Some 1; Some 2]; [Some 2; Some 1]],
         [[Some 7; Some 1; Some 2]; [Some 8; Some 2; Some 1]].
  split; [|split].
  - split; [cbn; repeat constructor; cbn; intuition; discriminate|].
    intro c. cbn. intuition.
  - repeat constructor; intros c [<-|[<-|[]]]; cbn; discriminate.
  - vm_compute. intro H. discriminate H.
Qed.
