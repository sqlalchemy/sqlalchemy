(* C41: the Core criterion compiled for an ORM criterion (any / has / contains / of_type / EXISTS / IN) evaluates, inside any
   enclosing query, to the criterion's evaluator on the object graph: [pcrit_tr], [ccrit_tr], [ncrit_tr] *)
From Coq Require Import List ZArith Bool Arith Lia.
Import ListNotations.
From SAV.sql Require Import Val3.
From SAV.orm Require Import Query.

Lemma filter_map_swap : forall (A B : Type) (f : A -> B) (P : B -> bool) (l : list A),
  filter P (map f l) = map f (filter (fun x => P (f x)) l).
Proof.
  intros. induction l as [|x l IH]; [reflexivity|]. cbn [map filter].
  destruct (P (f x)); cbn [map]; rewrite IH; reflexivity.
Qed.

Lemma is_true_and3 : forall a b, is_true (and3 a b) = is_true a && is_true b.
Proof. intros [] []; reflexivity. Qed.

Lemma is_true_tv_of_bool : forall b, is_true (tv_of_bool b) = b.
Proof. intros []; reflexivity. Qed.

(* [apply is_true_of, (exists_rows ..)] applies [exists_rows] to an EXISTS that stands under [is_true] (a nested one) *)
Lemma is_true_of : forall t b, t = tv_of_bool b -> is_true t = b.
Proof. intros t b H. subst t. apply is_true_tv_of_bool. Qed.

Lemma lookup_hit : forall e a r, lookup ((a, r) :: e) a = r.
Proof. intros. cbn [lookup]. rewrite Nat.eqb_refl. reflexivity. Qed.

Lemma lookup_skip : forall e a b r, a <> b -> lookup ((b, r) :: e) a = lookup e a.
Proof. intros e a b r H. cbn [lookup]. apply Nat.eqb_neq in H. rewrite H. reflexivity. Qed.

Lemma sx_tr : forall d e a c s, beval d e (tr_sx a c s) = sxeval s (gcol (lookup e a) c).
Proof.
  intros d e a c s. induction s as [|o k| |x IHx y IHy|x IHx y IHy|x IHx]; cbn [tr_sx beval sxeval eeval];
    rewrite ?IHx, ?IHy; reflexivity.
Qed.

(* a foreign key equals a key exactly when it is not NULL and has that value *)
Lemma fk_eq : forall (v : val) (k : Z),
  is_true (cmp3 OEq v (Some k)) = match v with Some x => Z.eqb x k | None => false end.
Proof. intros [x|] k; [apply is_true_tv_of_bool | reflexivity]. Qed.

Lemma cmp3_eq_sym : forall a b, cmp3 OEq a b = cmp3 OEq b a.
Proof. intros [x|] [y|]; try reflexivity. cbn [cmp3 cmpZ]. rewrite Z.eqb_sym. reflexivity. Qed.

(* primaryjoin  p.id = c.pid  : true exactly for the children of p; a NULL foreign key never matches *)
Lemma pj_child : forall (p : prow) (c : crow),
  is_true (cmp3 OEq (Some (p_id p)) (c_pid c)) = child_of c p.
Proof. intros p c. rewrite cmp3_eq_sym. apply fk_eq. Qed.

Lemma pj_nchild : forall (m n : crow), is_true (cmp3 OEq (Some (c_id n)) (c_pid m)) = nchild m n.
Proof. intros m n. rewrite cmp3_eq_sym. apply fk_eq. Qed.

Lemma sub_crit_is_sub : forall (c : crow), is_true (in3 (Some (c_kind c)) [Some 1%Z]) = is_sub c.
Proof.
  intros c. unfold in3, is_sub. cbn [existsb]. destruct (Z.eqb (c_kind c) 1); reflexivity.
Qed.

(* the alias of the outermost row of every compiled query *)
Lemma outer_alias_0 : 0 < sub_alias.
Proof. unfold sub_alias. lia. Qed.

Section Crit.
Variable d : db.

Lemma is_true_band : forall e x y, is_true (beval d e (BAnd x y)) = is_true (beval d e x) && is_true (beval d e y).
Proof. intros. apply is_true_and3. Qed.

(* EXISTS (SELECT 1 FROM t AS a WHERE w), the rows of t being the images of the objects l *)
Lemma exists_rows : forall e t a w (A : Type) (g : A -> grow) (l : list A) (P : A -> bool),
  rows_of d t = map g l -> (forall x, is_true (beval d ((a, g x) :: e) w) = P x) ->
  beval d e (BExists t a w) = tv_of_bool (existsb P l).
Proof.
  intros e t a w A g l P Ht HP. cbn [beval]. rewrite Ht. f_equal. clear Ht.
  induction l as [|x l IH]; [reflexivity|]. cbn [map existsb]. rewrite HP, IH. reflexivity.
Qed.

(* .. WHERE j AND <criterion on column c of the row itself>: the shape of any() / has() along a relationship
   whose join condition j selects the related objects *)
Lemma exists_related : forall e t a j c s (A : Type) (g : A -> grow) (l : list A) (rel : A -> bool),
  rows_of d t = map g l -> (forall x, is_true (beval d ((a, g x) :: e) j) = rel x) ->
  beval d e (BExists t a (BAnd j (tr_sx a c s))) =
  tv_of_bool (existsb (fun x => rel x && is_true (sxeval s (gcol (g x) c))) l).
Proof.
  intros e t a j c s A g l rel Ht Hj. apply (exists_rows e t a _ A g l); [exact Ht|]. intros x.
  rewrite is_true_band, sx_tr, lookup_hit, Hj. reflexivity.
Qed.

Lemma any_semantics : forall e pa p s, lookup e pa = grow_p p -> pa <> sub_alias ->
  beval d e (tr_pcrit d pa (PAny s)) =
  tv_of_bool (existsb (fun c => child_of c p && is_true (sxeval s (c_y c))) (cs d)).
Proof.
  intros e pa p s Hl Hne. apply (exists_related e TabC _ _ ColY s crow grow_c (cs d)); [reflexivity|]. intros c.
  cbn [pj beval eeval]. rewrite lookup_hit, (lookup_skip _ _ _ _ Hne), Hl. apply pj_child.
Qed.

Lemma any_sub_semantics : forall e pa p s, lookup e pa = grow_p p -> pa <> sub_alias ->
  beval d e (tr_pcrit d pa (PAnySub s)) =
  tv_of_bool (existsb (fun c => child_of c p && (is_sub c && is_true (sxeval s (c_y c)))) (cs d)).
Proof.
  intros e pa p s Hl Hne. apply (exists_rows e TabC _ _ crow grow_c (cs d)); [reflexivity|]. intros c.
  cbn [pj sub_crit beval eeval map]. rewrite !is_true_and3, sx_tr, !lookup_hit, (lookup_skip _ _ _ _ Hne), Hl.
  cbn [gcol grow_p grow_c g_id g_pid g_y g_kind]. rewrite pj_child, sub_crit_is_sub. reflexivity.
Qed.

(* the EXISTS written by hand means the same as any() *)
Lemma exists_semantics : forall e pa p s, lookup e pa = grow_p p -> pa <> sub_alias ->
  beval d e (tr_pcrit d pa (PExists s)) =
  tv_of_bool (existsb (fun c => child_of c p && is_true (sxeval s (c_y c))) (cs d)).
Proof.
  intros e pa p s Hl Hne. apply (exists_related e TabC _ _ ColY s crow grow_c (cs d)); [reflexivity|]. intros c.
  cbn [beval eeval]. rewrite lookup_hit, (lookup_skip _ _ _ _ Hne), Hl. apply fk_eq.
Qed.

Lemma has_semantics : forall e ca c s, lookup e ca = grow_c c -> ca <> sub_alias ->
  beval d e (tr_ccrit ca (CHas s)) =
  tv_of_bool (existsb (fun p => child_of c p && is_true (sxeval s (p_x p))) (ps d)).
Proof.
  intros e ca c s Hl Hne. apply (exists_related e TabP _ _ ColX s prow grow_p (ps d)); [reflexivity|]. intros p.
  cbn [beval eeval]. rewrite lookup_hit, (lookup_skip _ _ _ _ Hne), Hl. apply pj_child.
Qed.

Lemma link_aj : forall (p : prow) (n : crow) (a : Z * Z) e pa na aa,
  lookup e pa = grow_p p -> lookup e na = grow_c n -> lookup e aa = grow_a a ->
  is_true (beval d e (aj pa na aa)) = link a p n.
Proof.
  intros p n a e pa na aa Hp Hn Ha. unfold aj, link. cbn [beval eeval]. rewrite is_true_and3, Hp, Hn, Ha.
  cbn [gcol grow_p grow_c grow_a g_id g_pid cmp3 cmpZ]. rewrite !is_true_tv_of_bool. reflexivity.
Qed.

(* the whole criterion language on P; the aliases bound inside the compiled criterion are [sub_alias] and above, so they
   do not capture the alias of the outer row *)
Lemma pcrit_tr : forall e pa p c, lookup e pa = grow_p p -> pa < sub_alias -> contains_ok d c = true ->
  beval d e (tr_pcrit d pa c) = peval d p c.
Proof.
  intros e pa p c Hl Hlt. unfold sub_alias in Hlt.
  assert (Hne : pa <> sub_alias) by (unfold sub_alias; lia).
  induction c as [s|s|s|cid|s|s|s|s|a IHa b IHb|a IHa b IHb|a IHa]; intros Hok.
  - cbn [tr_pcrit peval]. rewrite sx_tr, Hl. reflexivity.
  - exact (any_semantics e pa p s Hl Hne).
  - exact (any_sub_semantics e pa p s Hl Hne).
  - cbn [tr_pcrit beval peval eeval contains_ok] in *. rewrite Hl. unfold fk_of, child_of.
    destruct (find_child d cid) as [c|]; [|discriminate]. destruct (c_pid c) as [v|]; [|discriminate].
    cbn [gcol grow_p g_id cmp3 cmpZ]. rewrite Z.eqb_sym. reflexivity.
  - exact (exists_semantics e pa p s Hl Hne).
  - cbn [tr_pcrit beval peval eeval rows_of]. rewrite Hl, filter_map_swap, map_map. f_equal. f_equal.
    apply filter_ext. intros c. rewrite sx_tr, lookup_hit. reflexivity.
  - (* many-to-many any() *)
    apply (exists_rows e TabN _ _ crow grow_c (ns d)); [reflexivity|]. intros n.
    apply is_true_of, (exists_rows _ TabA _ _ _ grow_a (pn d)); [reflexivity|]. intros a.
    rewrite is_true_band, sx_tr, (link_aj p n a); [reflexivity | | reflexivity | reflexivity].
    rewrite !lookup_skip by lia. exact Hl.
  - (* nested any() across the shared association table *)
    apply (exists_rows e TabN _ _ crow grow_c (ns d)); [reflexivity|]. intros n.
    apply is_true_of, (exists_rows _ TabA _ _ _ grow_a (pn d)); [reflexivity|]. intros a.
    rewrite is_true_band, (link_aj p n a); [ | rewrite !lookup_skip by lia; exact Hl | reflexivity | reflexivity].
    f_equal. apply is_true_of, (exists_rows _ TabP _ _ _ grow_p (ps d)); [reflexivity|]. intros p'.
    apply is_true_of, (exists_rows _ TabA _ _ _ grow_a (pn d)); [reflexivity|]. intros a'.
    rewrite is_true_band, sx_tr, (link_aj p' n a'); reflexivity.
  - cbn [contains_ok] in Hok. apply andb_true_iff in Hok. destruct Hok as [H1 H2].
    cbn [tr_pcrit beval peval]. rewrite (IHa H1), (IHb H2). reflexivity.
  - cbn [contains_ok] in Hok. apply andb_true_iff in Hok. destruct Hok as [H1 H2].
    cbn [tr_pcrit beval peval]. rewrite (IHa H1), (IHb H2). reflexivity.
  - cbn [tr_pcrit beval peval]. rewrite (IHa Hok). reflexivity.
Qed.

Lemma ccrit_tr : forall e ca c k, lookup e ca = grow_c c -> ca < sub_alias ->
  beval d e (tr_ccrit ca k) = ceval d c k.
Proof.
  intros e ca c k Hl Hlt. unfold sub_alias in Hlt.
  induction k as [s|s| |s|a IHa b IHb|a IHa b IHb|a IHa]; cbn [tr_ccrit ceval].
  5-7: cbn [beval]; congruence.
  - rewrite sx_tr, Hl. reflexivity.
  - apply has_semantics; [exact Hl | unfold sub_alias; lia].
  - (* == None on the many-to-one *)
    cbn [beval eeval]. rewrite Hl. reflexivity.
  - (* has(any()) coming back to C *)
    apply (exists_rows e TabP _ _ prow grow_p (ps d)); [reflexivity|]. intros p.
    rewrite is_true_band. f_equal.
    + cbn [beval eeval]. rewrite lookup_hit, lookup_skip, Hl by lia. apply pj_child.
    + apply is_true_of, (exists_related _ TabC _ _ ColY s crow grow_c (cs d)); [reflexivity|]. intros c'. apply pj_child.
Qed.

(* self-referential any() / has(): the criterion is evaluated on the related row (alias), not on the outer row *)
Lemma ncrit_tr : forall e na n c, lookup e na = grow_c n -> na <> sub_alias ->
  beval d e (tr_ncrit na c) = neval d n c.
Proof.
  intros e na n c Hl Hne.
  induction c as [s|s|s|a IHa b IHb|a IHa b IHb|a IHa]; cbn [tr_ncrit neval].
  4-6: cbn [beval]; congruence.
  - rewrite sx_tr, Hl. reflexivity.
  - apply (exists_related e TabN _ _ ColY s crow grow_c (ns d)); [reflexivity|]. intros m.
    cbn [beval eeval]. rewrite lookup_hit, (lookup_skip _ _ _ _ Hne), Hl. apply pj_nchild.
  - apply (exists_related e TabN _ _ ColY s crow grow_c (ns d)); [reflexivity|]. intros m.
    cbn [beval eeval]. rewrite lookup_hit, (lookup_skip _ _ _ _ Hne), Hl. apply pj_nchild.
Qed.

(* contains() of a child without parent: the compiled comparison is UNKNOWN, the meaning is FALSE *)
Lemma contains_orphan_unknown : forall e pa p cid c, lookup e pa = grow_p p ->
  find_child d cid = Some c -> c_pid c = None ->
  beval d e (tr_pcrit d pa (PContains cid)) = TU /\ peval d p (PContains cid) = TF.
Proof.
  intros e pa p cid c Hl Hf Hn. cbn [tr_pcrit beval peval eeval]. unfold fk_of. rewrite Hf, Hn, Hl.
  unfold child_of. rewrite Hn. split; reflexivity.
Qed.

End Crit.
