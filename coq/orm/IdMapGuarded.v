(* C34 - as long as the ghost flag [bad] of the model is down, every persistent object is the mapped one and
   everything mapped is attached (key_consistent in DESIGN.md).  The model raises the flag at five sites:
     [app_claim] (revert_impl, unswitch_one, register_one)  identity_map.replace() evicts another object;
     [unswitch_one]   _restore_snapshot re-maps a state that is not attached;
     [delete_impl]    Session.delete() is given a state carrying the _deleted flag;
     [organize_one]   was_already_deleted(): an expired mapped state whose row is gone is taken as deleted;
     [do_get]         get() finds the row of the mapped object gone. *)
From Coq Require Import List ZArith Bool Arith Lia.
Import ListNotations.
From SAV.orm Require Import IdMap IdMapSpec IdMapLemmas IdMapStep IdMapProofs.
Open Scope Z_scope.

(* [kb active o]: persistent -> mapped; mapped -> attached; pending -> attached; marked for deletion -> mapped;
   and, while the transaction is active, what a flush has deleted in it (transaction._deleted, filled by
   _remove_newly_deleted) is out of the map, carries _deleted and still has its key.  After a failed flush
   (deactive transaction) the last clause is suspended until _restore_snapshot has run. *)
Definition act (t : option bool) : bool := match t with Some true => false | _ => true end.
Definition kb (active : bool) (o : obj) : bool :=
  implb (persistent o) (iimap o) && implb (iimap o) (osess o) && implb (inew o) (osess o) &&
  implb (isdel o) (iimap o) &&
  implb (active && itdel o) (negb (iimap o) && odel o && is_some (okey o)).
Definition jk (t : option bool) (o : obj) : bool := jb o && kb (act t) o.
Definition G (st : state) : Prop := bad st = false -> SP (fun _ => jk (tx st)) st.

(* what the object transformers do to [jk]; the transaction status is split first because [jk] reads it
   through [act] *)
Lemma jk_deact : forall t o, jk t o = true -> jk (Some true) o = true.
Proof. intros [[]|] o; flags o. Qed.
(* [jk] does not read the primary key attribute *)
Lemma set_pk_jk : forall t v o, jk t o = true -> jk t (set_pk v o) = true.
Proof. intros t v o H. exact H. Qed.
Lemma expire_jk : forall t o, jk t o = true -> jk t (expire_obj o) = true.
Proof. intros t o H. unfold expire_obj. destruct (okey o); exact H. Qed.
Lemma end_tx_jk : forall t o, jk t o = true -> jk None (end_tx_obj o) = true.
Proof. intros [[]|] o; flags o. Qed.
Lemma save_jk : forall t o, negb (is_some (okey o)) = true -> jk t o = true -> jk t (set_sess true (set_inew true o)) = true.
Proof. intros [[]|] o; flags o. Qed.
(* [add] of a detached object, [delete] of an object that is not marked deleted *)
Lemma attach_jk : forall t (b : bool) o, is_some (okey o) = true -> negb (odel o) = true -> jk t o = true ->
  jk t (set_isdel b (set_sess true (set_iimap true o))) = true.
Proof. intros [[]|] [] o; flags o. Qed.
Lemma revert_jk : forall o, is_some (okey o) = true -> jk (Some true) o = true -> jk (Some true) (revert_obj o) = true.
Proof. intro o; flags o. Qed.
Lemma restore_expunge_jk : forall o, jk (Some true) o = true -> jk (Some true) (restore_expunge_obj true o) = true.
Proof. intro o; flags o. Qed.
Lemma unswitch_jk : forall old o, osess o = true -> new_is_detached o = true -> jk (Some true) o = true ->
  jk (Some true) (set_iimap true (set_key (Some old) o)) = true.
Proof. intros old o; flags o. Qed.
Lemma commit_jk : forall t o, act t = true -> jk t o = true ->
  jk t (let o1 := if iimap o then expire_obj o else o in if itdel o1 then detach_obj false o1 else o1) = true.
Proof. intros [[]|] o; try discriminate; intros _; flags o. Qed.
Lemma expunge_jk : forall t o, jk t o = true ->
  jk t (expunge_obj (match t with None => false | _ => true end) false o) = true.
Proof. intros [[]|] o; flags o. Qed.

Lemma jk_persistent_mapped : forall t o, jk t o = true -> implb (persistent o) (iimap o) = true.
Proof. intros [[]|] o; flags o. Qed.
Lemma jk_mapped_attached : forall t o, jk t o = true -> implb (iimap o) (osess o) = true.
Proof. intros [[]|] o; flags o. Qed.

(* The invariant of the register fold of [finalize] in an active transaction, for one object: [jk], and if
   the object is still to be registered ([r]) it is attached, not deleted in this transaction, and pending or
   keyed.  The first pass of [finalize] establishes it, [register_obj] keeps it. *)
Definition registrable (o : obj) : bool := osess o && negb (itdel o) && (inew o || is_some (okey o)).
Definition finalize_ok (r : bool) (o : obj) : bool := jk (Some false) o && implb r (registrable o).
Lemma newly_deleted_ok : forall (r : bool) o, jk (Some false) o = true ->
  implb r (inew o || iimap o && negb (isdel o)) = true ->
  finalize_ok r (if isdel o then newly_deleted_obj true o else o) = true.
Proof. intros [] o; flags o. Qed.
Lemma register_obj_ok : forall newk o, finalize_ok true o = true -> finalize_ok true (register_obj true newk o) = true.
Proof.
  intros newk o. unfold finalize_ok, jk, jb, kb, persistent, registrable.
  destruct (register_obj_fields true newk o) as (-> & -> & -> & -> & -> & -> & ->). flags o.
Qed.

Definition guarded (p : nat -> obj -> bool) (st : state) : Prop := bad st = false -> SP p st.

Lemma guarded_pass : forall (p q : nat -> obj -> bool) f st, guarded p st ->
  (forall k o, nth_error (objs st) k = Some o -> p k o = true -> q k (f k o) = true) -> guarded q (app_all f st).
Proof. intros p q f st HG Hf Hb. apply (SP_app_all p); auto. Qed.

Lemma evicts_false : forall i k st j o, evicts i k st = false -> nth_error (objs st) j = Some o -> j <> i ->
  iimap o && okey_eqb (okey o) (Some k) = false.
Proof.
  intros i k st j o He Hj Hn. destruct (iimap o && okey_eqb (okey o) (Some k)) eqn:E; auto.
  rewrite <- He. symmetry. apply existsb_exists. exists j. split.
  - apply in_seq. split; [lia|]. apply nth_error_Some. congruence.
  - rewrite (get_nth _ _ _ Hj), (proj2 (Nat.eqb_neq j i) Hn). exact E.
Qed.

(* a claim that evicts nobody changes object [i] only *)
Lemma guarded_claim : forall (p : nat -> obj -> bool) i k g st, guarded p st ->
  (forall o, nth_error (objs st) i = Some o -> p i o = true -> p i (g o) = true) -> guarded p (app_claim i k g st).
Proof.
  intros p i k g st HG Hg Hb. apply orb_false_elim in Hb as [Hb He].
  apply (SP_app_all p); auto. intros j o Hj Hp. unfold claiming.
  destruct (Nat.eqb_spec j i); [subst; auto|]. rewrite (evicts_false i k st j o He Hj n). exact Hp.
Qed.

Lemma G_cond : forall (c : nat -> bool) g st, G st -> (forall o, jk (tx st) o = true -> jk (tx st) (g o) = true) ->
  G (app_all (fun i o => if c i then g o else o) st).
Proof. intros c g st HG Hg. apply (guarded_pass (fun _ => jk (tx st))); auto. intros k o _ Hj. destruct (c k); auto. Qed.
Lemma G_only : forall i g st, G st -> (jk (tx st) (get st i) = true -> jk (tx st) (g (get st i)) = true) ->
  G (app_all (only i g) st).
Proof.
  intros i g st HG Hg. apply (guarded_pass (fun _ => jk (tx st))); auto. intros k o Hk Hj. unfold only.
  destruct (Nat.eqb_spec k i); [subst; rewrite <- (get_nth _ _ _ Hk) in *|]; auto.
Qed.

Lemma G_guard : forall b st, (b = false -> G st) -> G (flag_bad b st).
Proof. intros b st HG Hb. apply orb_false_elim in Hb as [Hb Hb']. exact (HG Hb' Hb). Qed.
Lemma G_flag_bad : forall b st, G st -> G (flag_bad b st).
Proof. intros b st HG. apply G_guard. auto. Qed.
Lemma G_deact : forall st, G st -> G (set_tx (Some true) st).
Proof. intros st HG Hb k o Hk. apply (jk_deact (tx st)). apply (HG Hb k o Hk). Qed.
Lemma G_autobegin : forall st, G st -> G (autobegin st).
Proof. intros st HG. unfold autobegin. destruct (tx st) eqn:E; auto. intro Hb. specialize (HG Hb). rewrite E in HG. exact HG. Qed.
Lemma G_add_obj : forall o st, G st -> (forall t, jk t o = true) -> G (add_obj o st).
Proof. intros o st HG Ho Hb. apply SP_add_obj; auto. Qed.

Lemma save_impl_G : forall i st, G st -> G (fst (save_impl i st)).
Proof.
  intros i st HG. unfold save_impl. destruct (okey (get st i)) eqn:E; simpl; auto.
  apply G_only; [apply G_autobegin; auto|]. rewrite autobegin_get. apply save_jk. rewrite E. reflexivity.
Qed.

Lemma attach_G : forall i (b : bool) st, is_some (okey (get st i)) = true -> odel (get st i) = false -> G st ->
  G (app_all (only i (fun o => set_isdel b (set_sess true (set_iimap true o)))) (autobegin st)).
Proof.
  intros i b st E Ed HG. apply G_only; [apply G_autobegin; auto|]. rewrite autobegin_get.
  apply attach_jk; auto. rewrite Ed. reflexivity.
Qed.

Lemma update_impl_G : forall i st, G st -> G (fst (update_impl i st)).
Proof.
  intros i st HG. unfold update_impl. destruct (okey (get st i)) as [k|] eqn:E; simpl; auto.
  destruct (odel (get st i)) eqn:Ed; simpl; auto.
  destruct (conflict i (autobegin st)); simpl; [apply G_autobegin; auto|].
  apply (attach_G i false); auto. rewrite E. reflexivity.
Qed.

Lemma delete_impl_G : forall i st, G st -> G (fst (delete_impl i st)).
Proof.
  intros i st HG. unfold delete_impl. destruct (okey (get st i)) as [k|] eqn:E; simpl; auto.
  destruct (isdel (get st i)); simpl; [apply G_autobegin; auto|].
  destruct (conflict i (autobegin st)); simpl; [apply G_autobegin; auto|].
  apply G_guard. intro Ed. apply (attach_G i true); auto. rewrite E. reflexivity.
Qed.

(* _restore_snapshot runs with the transaction marked deactive *)
Lemma revert_impl_G : forall i st, tx st = Some true -> G st -> G (fst (revert_impl i st)).
Proof.
  intros i st Ht HG. unfold revert_impl. destruct (okey (get st i)) as [k|] eqn:E; simpl; auto.
  destruct (odel (get st i) && negb (osess (get st i))); simpl; auto.
  apply (guarded_claim (fun _ => jk (tx st))); auto. intros o Hk. rewrite Ht. apply revert_jk.
  rewrite <- (get_nth _ _ _ Hk), E. reflexivity.
Qed.

Lemma unswitch_one_G : forall i st, tx st = Some true -> G st -> detached_new st -> G (unswitch_one i st).
Proof.
  intros i st Ht HG HN. unfold unswitch_one. destruct (oksw (get st i)) as [old|]; auto.
  destruct (itnew (get st i)); auto.
  apply G_guard. intro Hs. apply negb_false_iff in Hs.
  apply (guarded_claim (fun _ => jk (tx st))); auto. intros o Hk. rewrite Ht.
  apply unswitch_jk; [rewrite <- (get_nth _ _ _ Hk); exact Hs|exact (HN i o Hk)].
Qed.

Lemma unswitch_one_tx : forall i st, tx (unswitch_one i st) = tx st.
Proof. intros. unfold unswitch_one. destruct (oksw (get st i)); auto. destruct (itnew (get st i)); reflexivity. Qed.
Lemma revert_impl_tx : forall i st, tx (fst (revert_impl i st)) = tx st.
Proof. intros. unfold revert_impl. destruct (okey (get st i)); auto. destruct (odel (get st i) && _); reflexivity. Qed.

Lemma restore_snapshot_G : forall st, tx st = Some true -> G st -> G (fst (restore_snapshot st)).
Proof.
  intros st Ht HG.
  eapply proj2. apply (restore_snapshot_pres (fun s => tx s = Some true /\ G s)).
  - split; auto. unfold has_tx. rewrite Ht. apply (G_cond (fun _ => true)); auto. rewrite Ht. apply restore_expunge_jk.
  - intros i s [T Gs] N. rewrite unswitch_one_tx. split; auto. apply unswitch_one_G; auto.
  - intros i s [T Gs]. rewrite revert_impl_tx. split; auto. apply revert_impl_G; auto.
  - intros s [T Gs]. split; auto. apply (G_cond (fun _ => true)); auto.
    intros o Hj. destruct (iimap o); auto. apply expire_jk; auto.
Qed.

Lemma end_tx_G : forall st, G st -> G (end_tx st).
Proof.
  intros st HG. apply (guarded_pass (fun _ => jk (tx st))); auto. intros k o _. apply end_tx_jk.
Qed.

Lemma finalize_G : forall st0 reg st, G st -> tx st = Some false -> (bad st = false -> objs st = objs st0) ->
  (forall i, reg i = true -> inew (get st0 i) || iimap (get st0 i) && negb (isdel (get st0 i)) = true) ->
  G (finalize st0 reg st).
Proof.
  intros st0 reg st HG Ht Ho Hreg. unfold finalize.
  (* along the fold: the transaction stays active, and every object still to be registered can be *)
  set (q := fun k => finalize_ok (reg k)).
  assert (H : forall s, tx s = Some false /\ guarded q s -> G s).
  { intros s [T Gs] Hb k o Hk. rewrite T. apply (andb_prop _ _ (Gs Hb k o Hk)). }
  apply H. apply (fold_left_inv (fun s => tx s = Some false /\ guarded q s)).
  - intros i s [T Gs]. destruct (reg i) eqn:Er; auto. split; [exact T|].
    unfold register_one, has_tx. rewrite T. apply guarded_claim; auto.
    intros o _. unfold q. rewrite Er. apply register_obj_ok.
  - split; [exact Ht|]. intros Hb k o' Hk. apply app_all_inv_nth in Hk as [o [Hk ->]].
    assert (E : get st0 k = o) by (unfold get; rewrite <- (Ho Hb); apply nth_error_nth; exact Hk).
    unfold has_tx. rewrite E, Ht. apply newly_deleted_ok.
    + rewrite <- Ht. apply (HG Hb k o Hk).
    + destruct (reg k) eqn:Er; auto. rewrite <- E. apply Hreg; auto.
Qed.

Lemma G_stable : stable G.
Proof.
  split.
  - intros b st H. exact H.
  - exact G_autobegin.
  - exact G_deact.
  - exact end_tx_G.
  - intros k st H. apply G_add_obj; auto. intros [[]|]; reflexivity.
  - intros k st H. unfold load_row. destruct (holder k st); auto. apply G_add_obj; auto.
    intros [[]|]; destruct k; reflexivity.
  - exact save_impl_G.
  - exact update_impl_G.
  - exact delete_impl_G.
  - intros i v st H. apply G_cond; [exact H|]. intro o. apply set_pk_jk.
  - intros c st H. apply G_cond; [exact H|]. intro o. apply expire_jk.
  - intros i st H. apply G_cond; [exact H|]. intro o. unfold has_tx. destruct (tx st) as [[]|]; apply expunge_jk.
  - intros i h st _ Hb. simpl in Hb. rewrite orb_true_r in Hb. discriminate.
  - intros st Hd H. apply (G_cond (fun _ => true)); [exact H|]. intro o. apply commit_jk.
    revert Hd. unfold is_deact, act. destruct (tx st) as [[]|]; auto.
  - exact restore_snapshot_G.
  - exact finalize_G.
Qed.

Lemma init_G : forall b pks, G (init b pks).
Proof. intros b pks _ k o Hk. apply init_nth in Hk as [pk ->]. reflexivity. Qed.

(* while the ghost flag is down: persistent -> mapped, mapped -> attached, one persistent object per identity *)
Theorem guarded_consistent : forall b pks h, bad (run h (init b pks)) = false ->
  let st := run h (init b pks) in
  persistent_mapped st = true /\ mapped_attached st = true /\
  (forall i j oi oj, nth_error (objs st) i = Some oi -> nth_error (objs st) j = Some oj ->
     persistent oi = true -> persistent oj = true -> okey oi = okey oj -> i = j).
Proof.
  intros b pks h Hb st.
  pose proof (run_pres G G_stable h (init b pks) (init_G b pks) Hb) as HK. fold st in HK.
  pose proof (reachable_functional b pks h) as HU. fold st in HU.
  clearbody st. clear Hb.
  assert (Hpm : forall k o, nth_error (objs st) k = Some o -> implb (persistent o) (iimap o) = true).
  { intros k o Hk. apply (jk_persistent_mapped (tx st)), (HK k o Hk). }
  split; [|split].
  - apply forallb_forall. intros o Hin. apply In_nth_error in Hin as [k Hk]. apply (Hpm k o Hk).
  - apply forallb_forall. intros o Hin. apply In_nth_error in Hin as [k Hk].
    apply (jk_mapped_attached (tx st)), (HK k o Hk).
  - intros i j oi oj Hi Hj Pi Pj Hk.
    pose proof (Hpm i oi Hi) as Ai. rewrite Pi in Ai. pose proof (Hpm j oj Hj) as Aj. rewrite Pj in Aj.
    destruct (okey oi) as [k|] eqn:Ek; [|unfold persistent in Pi; rewrite Ek in Pi; discriminate].
    apply (HU k i j); [exists oi|exists oj]; auto.
Qed.
