(* C40 - one statement with its eager chain: what its rows are processed into ([stmt_yields]), and which
   entities stand at the end of the chain ([frontier_in]). *)
From Coq Require Import List ZArith Bool.
Import ListNotations.
From SAV.orm Require Import Loaders LoadersBase LoadersJoin LoadersStmt LoadersSrc.
Open Scope Z_scope.

(* the processed rows of a statement: in every tag group the entities come out in the order of the
   statement's primary rows, since both are the sorted listing of the same rows *)
Lemma stmt_yields : forall nestf src chain attach path,
  nest_covers nestf -> Forall wf_step chain -> src_step_ok src ->
  (forall h, In h (stmt_heads src) -> gchain chain attach (snd h) = graph_of path (snd h)) ->
  yields path src (proc chain attach (eval_stmt nestf src chain)).
Proof.
  intros nestf src chain attach path NC WF OK Hg t.
  destruct (eval_stmt_char nestf src chain NC WF) as [S E]. set (rows := eval_stmt nestf src chain) in *.
  pose proof (stmt_heads_tag_inj src OK) as TI. pose proof (rows_heads _ _ _ E) as EH.
  assert (TI' : tag_inj (map fst rows)) by (intros a b Ha Hb; apply TI; apply EH; auto).
  rewrite (proc_build chain attach (src_order src) (stmt_heads src)) by auto.
  unfold sel. rewrite filter_map_swap, map_map. cbn [fst snd].
  rewrite (group_unique src t (tgroup t (map fst rows))); auto using tgroup_NoDup.
  - unfold tgroup, sel. rewrite map_map. apply map_ext_in. intros h Hh. apply Hg, EH.
    apply filter_In in Hh as [Hh _]. eapply uniq_by_in; eauto.
  - eapply tgroup_sorted, rows_heads_sorted; eauto.
  - intro c. rewrite tgroup_in by auto. apply EH.
Qed.

Definition fr_raw (chain : list step) (rows : list jrow) : list row :=
  match chain with
  | [] => map jhead rows
  | _ => somes (map (fun j => last (jtail j) None) rows)
  end.
Lemma frontier_raw : forall chain rows, frontier chain rows = uniq_by idkey (fr_raw chain rows).
Proof. intros [|c chain] rows; reflexivity. Qed.

(* the last row of a joined tail (the left row itself for the empty chain) is an end of the relationship
   chain below the left row *)
Lemma ljoin_last : forall chain l e',
  (exists t, In t (ljoin_chain chain l) /\ last t l = Some e') <-> (exists e, l = Some e /\ In e' (chain_ends chain e)).
Proof.
  induction chain as [|s rest IH]; intros l e'.
  - cbn. split.
    + intros [t [[<-|[]] Hl]]. eauto.
    + intros [e [-> [->|[]]]]. exists []. auto.
  - split.
    + intros [t [Ht Hl]]. apply ljoin_chain_cons in Ht as [m [tl [-> [Hm Htl]]]]. rewrite last_cons_default in Hl.
      destruct (proj1 (IH m e')) as [e1 [-> He1]]; [eauto|].
      destruct l as [e|]; [|apply ljoin1_none in Hm; discriminate].
      exists e. split; auto. cbn [chain_ends]. apply in_flat_map. exists e1. split; auto. apply ljoin1_some; auto.
    + intros [e [-> He']]. cbn [chain_ends] in He'. apply in_flat_map in He' as [m [Hm He']].
      destruct (proj2 (IH (Some m) e')) as [tl [Htl Hl]]; [eauto|].
      exists (Some m :: tl). rewrite last_cons_default. split; auto.
      apply ljoin_chain_cons. exists (Some m), tl. rewrite ljoin1_some. auto.
Qed.

(* the entities at the end of the eager chain of the statement (src, chain) *)
Definition ends (src : source) (chain : list step) (e' : row) : Prop :=
  exists h, In h (stmt_heads src) /\ In e' (chain_ends chain (snd h)).

Lemma fr_raw_in : forall nestf src chain e', nest_covers nestf -> Forall wf_step chain ->
  (In e' (fr_raw chain (eval_stmt nestf src chain)) <-> ends src chain e').
Proof.
  intros nestf src chain e' NC WF. destruct (eval_stmt_char nestf src chain NC WF) as [_ E].
  set (rows := eval_stmt nestf src chain) in *.
  assert (Hlast : forall j, In j rows -> last (jtail j) (Some (jhead j)) =
                    match chain with [] => Some (jhead j) | _ => last (jtail j) None end).
  { intros j Hj. apply E, ljoin_rows_in in Hj as [_ Ht]. unfold jtail. destruct chain.
    - destruct Ht as [<-|[]]. reflexivity.
    - apply ljoin_chain_cons in Ht as [m [tl [-> _]]]. rewrite !last_cons_default. reflexivity. }
  transitivity (exists j, In j rows /\ last (jtail j) (Some (jhead j)) = Some e').
  - destruct chain; cbn [fr_raw]; [rewrite in_map_iff|rewrite somes_in, in_map_iff];
      (split; intros [j [Hl Hj]]; exists j; split; auto; rewrite Hlast in * by auto; congruence).
  - split.
    + intros [j [Hj Hl]]. apply E, ljoin_rows_in in Hj as [Hh Ht]. exists (fst j). split; auto.
      destruct (proj1 (ljoin_last chain (Some (snd (fst j))) e')) as [e [[= <-] He]]; eauto.
    + intros [h [Hh Hr]]. destruct (proj2 (ljoin_last chain (Some (snd h)) e')) as [t [Ht Hl]]; [eauto|].
      exists (h, t). split; auto. apply E, ljoin_rows_in. auto.
Qed.

(* the table of the entities at the end of the chain, [T] being the table of the primary rows *)
Definition level_table (T : list row) (chain : list step) : list row := last (map st_table chain) T.

Lemma chain_ends_table : forall chain T e e', In e T -> In e' (chain_ends chain e) -> In e' (level_table T chain).
Proof.
  unfold level_table. induction chain as [|s rest IH]; intros T e e' He H; cbn [chain_ends map] in *.
  - destruct H as [<-|[]]. auto.
  - rewrite last_cons_default. apply in_flat_map in H as [m [Hm H]]. eapply IH; eauto. eapply matches_table; eauto.
Qed.
Lemma level_table_wf : forall chain T, wf_table T -> Forall wf_step chain -> wf_table (level_table T chain).
Proof.
  unfold level_table. induction chain as [|s rest IH]; intros T W WF; cbn [map]; auto.
  rewrite last_cons_default. inversion WF as [|? ? [WS _] WR]; subst. auto.
Qed.

Lemma fr_raw_table : forall nestf src chain e', nest_covers nestf -> Forall wf_step chain ->
  In e' (fr_raw chain (eval_stmt nestf src chain)) -> In e' (level_table (src_table src) chain).
Proof.
  intros nestf src chain e' NC WF H. apply fr_raw_in in H as [h [Hh Hr]]; auto.
  eapply chain_ends_table; eauto. apply stmt_heads_base, src_base_spec in Hh. tauto.
Qed.

Lemma frontier_in : forall nestf src chain e', nest_covers nestf -> Forall wf_step chain -> src_step_ok src ->
  (In e' (frontier chain (eval_stmt nestf src chain)) <-> ends src chain e').
Proof.
  intros. rewrite frontier_raw. rewrite (uniq_idkey_in (level_table (src_table src) chain)).
  - apply fr_raw_in; auto.
  - apply level_table_wf; auto using src_table_wf.
  - intros x Hx. eapply fr_raw_table; eauto.
Qed.
