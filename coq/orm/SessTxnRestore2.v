(* C33 - _restore_snapshot under the invariant: it re-establishes the snapshot of the frame. *)
From Coq Require Import List ZArith Bool Arith Lia.
Import ListNotations.
From SAV.orm Require Import SessTxn SessTxnBase SessTxnInv SessTxnOps SessTxnRestore.
Open Scope nat_scope.

Lemma Good_ext : forall ob n W W' sn sd, (forall k, W k = W' k) -> Good ob n W sn sd -> Good ob n W' sn sd.
Proof.
  intros ob n W W' sn sd HW G. destruct G as [G1 G2 G3 G4 G5 G5' G6 G6' G7 G8]. constructor; auto.
  - intros o k H1 H2. destruct (G4 o k H1 H2) as [v [A B]]. exists v. rewrite <- HW. auto.
  - intros o k H1 H2 H3 H4. destruct (G7 o k H1 H2 H3 H4) as [A|A]; [left; rewrite <- HW; auto|right; auto].
Qed.

(* a state with the identities of a clean snapshot is good for the snapshot's table, if its values are *)
Lemma Approx_good : forall g ob n, GClean g -> Approx g ob n ->
  (forall x, oin (ob x) = true -> x < n) ->
  (forall x k v, x < gn g -> oin (ob x) = true -> okey (ob x) = Some k -> gW g k = Some v ->
     VA (gobjs g x) k v -> VA (ob x) k v) ->
  (forall x, x < n -> okey (ob x) = None -> odelf (ob x) = false) ->
  (forall x, x < gn g -> okey (ob x) <> None -> oatt (ob x) = true -> odelf (ob x) = true ->
     odv (ob x) <> None /\ odid (ob x) <> None) ->
  Good ob n (gW g) [] [].
Proof.
  intros g ob n [GG _] [A_n A_id A_fresh _ _] Hlt Hrows Hnewd Hdelv.
  (* an object of the identity map is one of the snapshot's *)
  assert (Hin : forall x, oin (ob x) = true -> x < gn g /\ oin (gobjs g x) = true /\
                  okey (ob x) = okey (gobjs g x) /\ oatt (ob x) = true /\ odelf (ob x) = false).
  { intros x Hx. destruct (Nat.lt_ge_cases x (gn g)) as [Hg|Hg].
    - destruct (A_id x Hg) as [A1 [A2 A3]]. rewrite A2 in Hx.
      destruct (g_in _ _ _ _ _ GG x Hx) as [_ [Xa [Xd _]]]. destruct (A3 Xa). repeat split; congruence.
    - destruct (A_fresh x Hg (Hlt x Hx)). congruence. }
  (* an attached object is one of the snapshot's, with the identity it has there *)
  assert (Hatt : forall x, x < n -> oatt (ob x) = true -> x < gn g /\ oatt (gobjs g x) = true /\
                   okey (ob x) = okey (gobjs g x) /\ odelf (ob x) = odelf (gobjs g x) /\ oin (ob x) = oin (gobjs g x)).
  { intros x Hn Ha. destruct (Nat.lt_ge_cases x (gn g)) as [Hg|Hg].
    - destruct (A_id x Hg) as [A1 [A2 A3]]. rewrite A1 in Ha. destruct (A3 Ha). auto.
    - destruct (A_fresh x Hg Hn). congruence. }
  constructor.
  - intros x Hx. destruct (Hin x Hx) as [H1 [H2 [H3 [H4 H5]]]]. destruct (g_in _ _ _ _ _ GG x H2) as [_ [_ [_ Xk]]].
    repeat split; auto. congruence.
  - intros x1 x2 k H1 H2 K1 K2. destruct (Hin x1 H1) as [P1 [P2 [P3 _]]]. destruct (Hin x2 H2) as [Q1 [Q2 [Q3 _]]].
    apply (g_uniq _ _ _ _ _ GG x1 x2 k); congruence.
  - intros x k Hn Hk Ha Hd. destruct (Hatt x Hn Ha) as [Hg [A1 [A2 [A3 A4]]]]. rewrite A4.
    apply (g_pers _ _ _ _ _ GG x k); congruence.
  - intros x k Hx Hk. destruct (Hin x Hx) as [H1 [H2 [H3 _]]]. rewrite H3 in Hk.
    destruct (g_rows _ _ _ _ _ GG x k H2 Hk) as [v [Hw Hva]]. exists v. split; [exact Hw|].
    apply Hrows; auto. congruence.
  - intros x. split; [intros []|]. intros [Hn [Hk Ha]]. destruct (Hatt x Hn Ha) as [Hg [A1 [A2 _]]].
    apply (g_new _ _ _ _ _ GG). repeat split; congruence.
  - exact Hnewd.
  - intros x [].
  - split; constructor.
  - intros x k Hn Hk Ha Hd. destruct (Hatt x Hn Ha) as [Hg [A1 [A2 [A3 _]]]].
    destruct (g_dels _ _ _ _ _ GG x k Hg) as [X|[x' [X1 X2]]]; try congruence; auto.
    right. exists x'. destruct (g_in _ _ _ _ _ GG x' X1) as [Y1 [Y2 _]].
    destruct (A_id x' Y1) as [_ [B2 B3]]. destruct (B3 Y2). split; congruence.
  - intros x Hn Hk Ha Hd. destruct (Hatt x Hn Ha) as [Hg _]. auto.
Qed.

(* the object a restore of frame [f] produces from [ob]: [fo1] .. [fo4] are the object after each phase of
   restore_snapshot (expunge, key switches back, deletions reverted, expiry) *)
Section Final.
  Variables (b : bool) (f : frame) (ob : nat -> obj) (n : nat) (sn sd : list nat).
  Definition memE (x : nat) : bool := Nat.ltb x n && expunged f sn x.
  Definition fo1 (x : nat) : obj :=
    if memE x then detach_obj true (if mem x sn then ob x else o_in (ob x) false) else ob x.
  Definition fo2 (x : nat) : obj :=
    match ks_find x (fks f) with
    | Some (old, _) => if memE x then fo1 x else o_in (o_key (fo1 x) (Some old)) true
    | None => fo1 x
    end.
  Definition mtodel (x : nat) : bool := Nat.ltb x n && negb (memE x) && (mem x (fdel f) || mem x sd).
  Definition fo3 (x : nat) : obj := if mtodel x then o_in (o_delf (fo2 x) false) true else fo2 x.
  Definition fo4 (x : nat) : obj :=
    if oin (fo3 x) && (negb b || omod (fo3 x) || mem x (fdirty f)) then expire_obj (fo3 x) else fo3 x.
  Definition oin3 (x : nat) : bool :=
    match ks_find x (fks f) with Some _ => true | None => false end || mtodel x || oin (ob x).

  Lemma memE_exp : forall x, x < n -> memE x = expunged f sn x.
  Proof. intros x H. unfold memE. rewrite (proj2 (Nat.ltb_lt x n) H). reflexivity. Qed.
  Lemma mtodel_kept : forall x, x < n -> expunged f sn x = false -> mtodel x = mem x (fdel f) || mem x sd.
  Proof. intros x H He. unfold mtodel. rewrite memE_exp, He, (proj2 (Nat.ltb_lt x n) H) by auto. reflexivity. Qed.

  (* an expunged object is transient again *)
  Lemma fo2_E : forall x, x < n -> expunged f sn x = true -> (mem x sn = true -> oin (ob x) = false) ->
    fo2 x = detach_obj true (o_in (ob x) false).
  Proof.
    intros x H He Hs. unfold fo2, fo1. rewrite memE_exp, He by auto.
    assert (X : (if mem x sn then ob x else o_in (ob x) false) = o_in (ob x) false).
    { destruct (mem x sn); [|reflexivity]. symmetry. apply o_in_same. auto. }
    rewrite X. destruct (ks_find x (fks f)) as [[old nw]|]; reflexivity.
  Qed.
  Lemma fo4_E : forall x, x < n -> expunged f sn x = true -> (mem x sn = true -> oin (ob x) = false) ->
    fo4 x = detach_obj true (o_in (ob x) false).
  Proof.
    intros x H He Hs. unfold fo4, fo3, mtodel. rewrite memE_exp, He, fo2_E by auto. rewrite andb_false_r. reflexivity.
  Qed.

  Lemma fo2_kept : forall x, x < n -> expunged f sn x = false ->
    fo2 x = match ks_find x (fks f) with Some (old, _) => o_in (o_key (ob x) (Some old)) true | None => ob x end.
  Proof. intros x H He. unfold fo2, fo1. rewrite memE_exp, He by auto. reflexivity. Qed.
  (* any other object gets the identity the frame restores; it is in the identity map iff it was, or its key
     or its deletion is reverted *)
  Lemma fo3_kept : forall x, x < n -> expunged f sn x = false ->
    fo3 x = o_in (o_delf (o_key (ob x) (pkey f ob x)) (pdelf f ob sd x)) (oin3 x).
  Proof.
    intros x H He. unfold fo3, oin3, pdelf, pkey. rewrite mtodel_kept, fo2_kept by auto.
    destruct (ks_find x (fks f)) as [[old nw]|]; destruct (mem x (fdel f) || mem x sd); destruct (ob x); reflexivity.
  Qed.
  (* outside the identity map its key and its deleted flag are not touched *)
  Lemma oin3_false : forall x, x < n -> expunged f sn x = false -> oin3 x = false ->
    pkey f ob x = okey (ob x) /\ pdelf f ob sd x = odelf (ob x) /\ oin (ob x) = false.
  Proof.
    intros x H He Hi. unfold oin3 in Hi. rewrite mtodel_kept in Hi by auto. unfold pkey, pdelf.
    apply orb_false_elim in Hi. destruct Hi as [Hi E3]. apply orb_false_elim in Hi. destruct Hi as [E1 E2].
    rewrite E2. destruct (ks_find x (fks f)); [discriminate|auto].
  Qed.
  (* it is expired if it is in the identity map and the restore is a full one or the frame changed it *)
  Lemma fo4_notE : forall x, x < n -> expunged f sn x = false ->
    okey (fo4 x) = pkey f ob x /\ oatt (fo4 x) = oatt (ob x) /\ odelf (fo4 x) = pdelf f ob sd x /\ oin (fo4 x) = oin3 x /\
    ((odid (fo4 x) = None /\ odv (fo4 x) = None /\ omod (fo4 x) = false /\ ocid (fo4 x) = None /\ ocv (fo4 x) = None /\ oin3 x = true) \/
     (odid (fo4 x) = odid (ob x) /\ odv (fo4 x) = odv (ob x) /\ omod (fo4 x) = omod (ob x) /\
      ocid (fo4 x) = ocid (ob x) /\ ocv (fo4 x) = ocv (ob x) /\
      (oin3 x = true -> b = true /\ omod (ob x) = false /\ mem x (fdirty f) = false))).
  Proof.
    intros x H He. unfold fo4. rewrite (fo3_kept x H He). cbn [oin omod o_in o_delf o_key].
    destruct (oin3 x && (negb b || omod (ob x) || mem x (fdirty f))) eqn:E; cbn; repeat split; auto.
    - left. apply andb_prop in E. repeat split; tauto.
    - right. do 5 (split; [reflexivity|]). intros Hi. rewrite Hi in E. cbn in E.
      apply orb_false_elim in E. destruct E as [E E3]. apply orb_false_elim in E. destruct E as [E1 E2].
      destruct b; [auto|discriminate].
  Qed.
  Lemma fo4_clean : forall x, oin (fo4 x) = true -> omod (fo4 x) = false.
  Proof.
    intros x H. unfold fo4 in *. destruct (oin (fo3 x) && (negb b || omod (fo3 x) || mem x (fdirty f))) eqn:E.
    - reflexivity.
    - rewrite H in E. cbn in E. apply orb_false_elim in E. destruct E as [E _].
      apply orb_false_elim in E. destruct E; auto.
  Qed.
End Final.

(* ------------------------------------------------------------------ the formula against the snapshot *)
Section Sem.
  Variables (b : bool) (f : frame) (ob : nat -> obj) (n : nat) (sn sd : list nat) (W0 : tbl) (g : ghost).
  Hypothesis G : Good ob n W0 sn sd.
  Hypothesis Jh : J ob n.
  Hypothesis GC : GClean g.
  Hypothesis R : Rel g f ob n sn sd W0.

  Let GG : Good (gobjs g) (gn g) (gW g) [] [] := proj1 GC.
  Notation F4 := (fo4 b f ob n sn sd).

  Lemma sn_notin : forall x, mem x sn = true -> oin (ob x) = false /\ x < n /\ okey (ob x) = None.
  Proof.
    intros x H. apply mem_In in H. apply (g_new _ _ _ _ _ G) in H. destruct H as [A [B C]].
    repeat split; auto. destruct (oin (ob x)) eqn:E; auto.
    destruct (g_in _ _ _ _ _ G x E) as [_ [_ [_ K]]]. congruence.
  Qed.

  Lemma fo4_exp : forall x, x < n -> expunged f sn x = true -> F4 x = detach_obj true (o_in (ob x) false).
  Proof. intros x Hn He. apply fo4_E; auto. intros Y. apply sn_notin, Y. Qed.

  Lemma mtodel_spec : forall x, mtodel f n sn sd x = true ->
    x < n /\ expunged f sn x = false /\ (mem x (fdel f) = true \/ mem x sd = true).
  Proof.
    intros x H. unfold mtodel in H. apply andb_prop in H. destruct H as [H H3].
    apply andb_prop in H. destruct H as [H1 H2]. apply Nat.ltb_lt in H1.
    rewrite memE_exp in H2 by auto. apply negb_true_iff in H2. apply orb_prop in H3. auto.
  Qed.

  (* what the frame or the session has marked as deleted is an attached object with a key *)
  Lemma todel_att : forall x, mem x (fdel f) = true \/ mem x sd = true -> oatt (ob x) = true /\ okey (ob x) <> None.
  Proof.
    intros x [D|D].
    - destruct (r_del _ _ _ _ _ _ _ R x D) as [_ [_ [_ [A K]]]]. auto.
    - apply mem_In in D. apply (g_del _ _ _ _ _ G) in D. destruct (g_in _ _ _ _ _ G x D) as [_ [A [_ K]]]. auto.
  Qed.

  (* an object that ends up in the identity map was in it when the frame began, under the restored key *)
  Lemma kept_in_snapshot : forall x, x < n -> expunged f sn x = false -> oin3 f ob n sn sd x = true ->
    x < gn g /\ oin (gobjs g x) = true /\ oatt (ob x) = true /\ oatt (gobjs g x) = true /\
    pkey f ob x = okey (gobjs g x) /\ pdelf f ob sd x = odelf (gobjs g x).
  Proof.
    intros x Hn He Hi.
    assert (Hi' : (exists p, ks_find x (fks f) = Some p) \/
                  (ks_find x (fks f) = None /\ (mem x (fdel f) = true \/ mem x sd = true)) \/
                  (ks_find x (fks f) = None /\ mem x (fdel f) || mem x sd = false /\ oin (ob x) = true)).
    { unfold oin3 in Hi. rewrite mtodel_kept in Hi by auto.
      destruct (ks_find x (fks f)); [eauto|]. destruct (mem x (fdel f) || mem x sd) eqn:E; [apply orb_prop in E|]; auto. }
    assert (Hatt : oatt (ob x) = true).
    { destruct Hi' as [[[old nw] Ek]|[[_ D]|[_ [_ Hi']]]].
      - apply (r_ks _ _ _ _ _ _ _ R x old nw Ek).
      - apply (todel_att x D).
      - apply (g_in _ _ _ _ _ G x Hi'). }
    assert (Hlt : x < gn g).
    { destruct (Nat.lt_ge_cases x (gn g)); auto.
      destruct (r_fresh _ _ _ _ _ _ _ R x H Hn) as [A|[A _]]; congruence. }
    destruct (r_id _ _ _ _ _ _ _ R x Hlt He) as [A B].
    assert (Ha : oatt (gobjs g x) = true) by congruence.
    destruct (B Ha) as [B1 B2].
    repeat split; auto.
    (* persistent in the snapshot *)
    assert (Hk : pkey f ob x <> None /\ pdelf f ob sd x = false).
    { unfold pkey, pdelf. destruct Hi' as [[[old nw] Ek]|[[Ek D]|[Ek [D Hi']]]]; rewrite Ek.
      - split; [discriminate|].
        (* a key switch is recorded for objects flushed by the frame: new ones are expunged, dirty ones were persistent *)
        destruct (r_ks _ _ _ _ _ _ _ R x old nw Ek) as [_ [_ [_ [D|D]]]]; [|apply (r_dirty _ _ _ _ _ _ _ R) in D; destruct D as [D|[_ D]]].
        + unfold expunged in He. rewrite D in He. discriminate.
        + unfold expunged in He. rewrite D in He. discriminate.
        + destruct (g_in _ _ _ _ _ GG x D) as [_ [_ [X _]]]. unfold pdelf in B2. rewrite B2. exact X.
      - split; [apply (todel_att x D)|]. destruct D as [D|D]; rewrite D, ?orb_true_r; reflexivity.
      - rewrite D. destruct (g_in _ _ _ _ _ G x Hi') as [_ [_ [X Y]]]. auto. }
    destruct Hk as [K1 K2]. rewrite B1 in K1. rewrite B2 in K2.
    destruct (okey (gobjs g x)) as [k|] eqn:Ek; [|congruence].
    apply (g_pers _ _ _ _ _ GG x k Hlt Ek Ha K2).
  Qed.

  (* the restored keys of the final identity map are pairwise different *)
  Lemma pkey_inj : forall x y, x < n -> y < n -> expunged f sn x = false -> expunged f sn y = false ->
    oin3 f ob n sn sd x = true -> oin3 f ob n sn sd y = true ->
    pkey f ob x = pkey f ob y -> pkey f ob x <> None -> x = y.
  Proof.
    intros x y Hx Hy Ex Ey Ix Iy Hk Hnk.
    destruct (kept_in_snapshot x Hx Ex Ix) as [X1 [X2 [_ [_ [X5 _]]]]]. destruct (kept_in_snapshot y Hy Ey Iy) as [Y1 [Y2 [_ [_ [Y5 _]]]]].
    rewrite X5 in Hk, Hnk. rewrite Y5 in Hk. destruct (okey (gobjs g x)) as [k|] eqn:Ek; [|congruence].
    apply (g_uniq _ _ _ _ _ GG x y k); auto; congruence.
  Qed.

  (* identity of the result for objects the snapshot knows *)
  Lemma fo4_id : forall x, x < gn g ->
    oatt (F4 x) = oatt (gobjs g x) /\ oin (F4 x) = oin (gobjs g x) /\
    (oatt (gobjs g x) = true -> okey (F4 x) = okey (gobjs g x) /\ odelf (F4 x) = odelf (gobjs g x)).
  Proof.
    intros x Hx. assert (Hn : x < n) by (pose proof (r_n _ _ _ _ _ _ _ R); lia).
    destruct (expunged f sn x) eqn:He.
    - pose proof (r_exp _ _ _ _ _ _ _ R x Hx He) as B. rewrite (fo4_exp x Hn He). cbn. rewrite B.
      split; auto. split; [|intros; discriminate].
      destruct (oin (gobjs g x)) eqn:E; auto. destruct (g_in _ _ _ _ _ GG x E) as [_ [X _]]. congruence.
    - destruct (r_id _ _ _ _ _ _ _ R x Hx He) as [A B].
      destruct (fo4_notE b f ob n sn sd x Hn He) as [-> [-> [-> [-> _]]]].
      split; [exact A|]. split; [|exact B].
      destruct (oin3 f ob n sn sd x) eqn:Ei; [symmetry; apply (kept_in_snapshot x Hn He Ei)|].
      (* persistent in the snapshot and not expunged: still persistent, or a deletion to revert *)
      destruct (oin (gobjs g x)) eqn:E; auto. exfalso.
      destruct (g_in _ _ _ _ _ GG x E) as [_ [Xa [Xd Xk]]]. destruct (B Xa) as [B1 B2].
      destruct (oin3_false f ob n sn sd x Hn He Ei) as [K1 [K2 K3]]. rewrite K1 in B1. rewrite K2 in B2.
      destruct (okey (ob x)) as [k|] eqn:Ek; [|congruence].
      rewrite (g_pers _ _ _ _ _ G x k Hn Ek) in K3; congruence.
  Qed.

  Lemma fo4_fresh : forall x, gn g <= x -> x < n -> oatt (F4 x) = false /\ oin (F4 x) = false.
  Proof.
    intros x Hx Hn. destruct (expunged f sn x) eqn:He.
    - rewrite (fo4_exp x Hn He). auto.
    - destruct (r_fresh _ _ _ _ _ _ _ R x Hx Hn) as [A|[A B]]; [congruence|].
      destruct (fo4_notE b f ob n sn sd x Hn He) as [_ [-> [_ [-> _]]]]. split; auto.
      destruct (oin3 f ob n sn sd x) eqn:Ei; auto.
      destruct (kept_in_snapshot x Hn He Ei) as [X _]. lia.
  Qed.

  Lemma fo4_beyond : forall x, n <= x -> F4 x = ob x.
  Proof.
    intros x Hx. unfold fo4, fo3, mtodel, fo2, fo1, memE. destruct (Nat.ltb_spec x n); [lia|]. cbn.
    destruct (ks_find x (fks f)) as [[old nw]|] eqn:E; [destruct (r_ks _ _ _ _ _ _ _ R x old nw E); lia|].
    destruct (oin (ob x)) eqn:Ei; [destruct (g_in _ _ _ _ _ G x Ei); lia|reflexivity].
  Qed.

  (* the values of the result: those of [ob], or expired *)
  Lemma fo4_vals : forall x, x < n ->
    (odid (F4 x) = odid (ob x) /\ odv (F4 x) = odv (ob x) /\ omod (F4 x) = omod (ob x) /\
     ocid (F4 x) = ocid (ob x) /\ ocv (F4 x) = ocv (ob x)) \/
    (odid (F4 x) = None /\ odv (F4 x) = None /\ omod (F4 x) = false /\ ocid (F4 x) = None /\ ocv (F4 x) = None /\
     oin (F4 x) = true).
  Proof.
    intros x Hn. destruct (expunged f sn x) eqn:He.
    - left. rewrite (fo4_exp x Hn He). repeat split.
    - destruct (fo4_notE b f ob n sn sd x Hn He) as [_ [_ [_ [-> [H|H]]]]]; [right|left]; tauto.
  Qed.

  Lemma restored_approx : Approx g F4 n.
  Proof.
    constructor.
    - apply (r_n _ _ _ _ _ _ _ R).
    - apply fo4_id.
    - apply fo4_fresh.
    - apply fo4_clean.
    - intros x Hx Hk Hi Hm. assert (Hn : x < n) by (pose proof (r_n _ _ _ _ _ _ _ R); lia).
      destruct (fo4_id x Hx) as [_ [B _]].
      destruct (fo4_vals x Hn) as [[V1 [V2 [V3 _]]]|[_ [_ [_ [_ [_ X]]]]]]; [|congruence].
      rewrite V1, V2. rewrite V3 in Hm. apply (r_keep _ _ _ _ _ _ _ R x Hx Hk Hi Hm).
  Qed.

  Lemma restored_J : J F4 n.
  Proof.
    intros x Hn. destruct (Jh x Hn) as [J1 [J2 J3]].
    destruct (fo4_vals x Hn) as [[-> [-> [-> [-> ->]]]]|[-> [-> [-> [-> [-> _]]]]]]; auto.
  Qed.

  Lemma restored_good : Good F4 n (gW g) [] [].
  Proof.
    assert (Hgn : gn g <= n) by apply (r_n _ _ _ _ _ _ _ R).
    apply Approx_good; [exact GC|exact restored_approx| | | |].
    - intros x Hx. destruct (Nat.lt_ge_cases x n) as [|Hge]; auto.
      rewrite (fo4_beyond x Hge) in Hx. apply (g_in _ _ _ _ _ G x Hx).
    - (* the values of an object of the identity map fit its row in the snapshot's table *)
      intros x k v H1 Hx Hk Hw Hva. assert (Hn : x < n) by lia.
      destruct (fo4_id x H1) as [_ [A2 A3]]. rewrite A2 in Hx.
      destruct (g_in _ _ _ _ _ GG x Hx) as [_ [Xa _]]. destruct (A3 Xa) as [A4 _]. rewrite A4 in Hk.
      assert (He : expunged f sn x = false).
      { destruct (expunged f sn x) eqn:He; auto. pose proof (r_exp _ _ _ _ _ _ _ R x H1 He). congruence. }
      destruct (fo4_notE b f ob n sn sd x Hn He) as [C1 [_ [_ [C4 Hv]]]].
      destruct Hv as [[D1 [D2 [D3 [D4 [D5 _]]]]]|[D1 [D2 [D3 [D4 [D5 D6]]]]]].
      { unfold VA. rewrite D1, D2, D3, D4, D5. repeat split; auto; try congruence; intros; discriminate. }
      assert (Hi : oin3 f ob n sn sd x = true) by congruence.
      destruct (D6 Hi) as [Eb [Em Ed]].
      destruct (Jh x Hn) as [_ [_ J3]]. destruct (J3 Em) as [Jc Jv].
      assert (Hks : ks_find x (fks f) = None).
      { apply orb_false_elim in He. exact (Rel_ks_none _ _ _ _ _ _ _ x R (proj1 He) Ed). }
      assert (Hvals : (odid (ob x) = None \/ odid (ob x) = Some k) /\ (odv (ob x) = None \/ odv (ob x) = Some v)).
      { destruct (oin (ob x)) eqn:Eo.
        - (* was in the identity map: its row was not written by the frame *)
          assert (Hko : okey (ob x) = Some k). { rewrite <- Hk, <- A4, C1. unfold pkey. rewrite Hks. reflexivity. }
          destruct (g_rows _ _ _ _ _ G x k Eo Hko) as [v0 [Hw0 [V1 [V2 [V3 _]]]]].
          assert (Hnd : mem x (fdel f) = false).
          { destruct (mem x (fdel f)) eqn:Ef; auto. destruct (r_del _ _ _ _ _ _ _ R x Ef) as [_ [X _]]. congruence. }
          rewrite (r_row _ _ _ _ _ _ _ R x k H1 He Hx Ed Hnd Hk) in Hw0.
          assert (v0 = v) by congruence. subst v0. split; auto.
        - (* a deletion of the frame is reverted *)
          assert (Hd : mem x (fdel f) = true).
          { unfold oin3 in Hi. rewrite mtodel_kept, Eo, Hks, orb_false_r in Hi by auto.
            destruct (mem x (fdel f)) eqn:Ef; auto. cbn in Hi.
            apply mem_In in Hi. apply (g_del _ _ _ _ _ G) in Hi. congruence. }
          apply (r_delv _ _ _ _ _ _ _ R x k v H1 He Hd Ed Em Hk Hw). }
      destruct Hvals as [Hv1 Hv2].
      unfold VA. rewrite D1, D2, D3, D4, D5, Jc, Jv. rewrite Em.
      repeat split; auto; try congruence; intros; discriminate.
    - intros x Hn Hk. destruct (expunged f sn x) eqn:He; [rewrite (fo4_exp x Hn He); reflexivity|].
      destruct (fo4_notE b f ob n sn sd x Hn He) as [C1 [_ [C3 _]]]. rewrite C3. rewrite C1 in Hk.
      unfold pkey, pdelf in *. destruct (ks_find x (fks f)) as [[old nw]|]; [discriminate|].
      destruct (_ || _); auto. apply (g_newd _ _ _ _ _ G x Hn Hk).
    - (* an object in the deleted state is unchanged: it is outside the identity map and the frame has not
         deleted it (or the deletion would be reverted) *)
      intros x Hg Hk Ha Hd. assert (Hn : x < n) by lia.
      assert (He : expunged f sn x = false).
      { destruct (expunged f sn x) eqn:He; auto. rewrite (fo4_exp x Hn He) in Ha. discriminate. }
      destruct (fo4_id x Hg) as [_ [A2 A3]].
      destruct (fo4_notE b f ob n sn sd x Hn He) as [C1 [C2 [C3 [C4 Hv]]]].
      assert (Hni : oin3 f ob n sn sd x = false).
      { destruct (oin3 f ob n sn sd x) eqn:Ei; auto. exfalso. rewrite A2 in C4.
        destruct (g_in _ _ _ _ _ GG x C4) as [_ [Xa [Xd _]]]. destruct (A3 Xa). congruence. }
      destruct Hv as [[_ [_ [_ [_ [_ X]]]]]|[D1 [D2 _]]]; [congruence|]. rewrite D1, D2.
      destruct (oin3_false f ob n sn sd x Hn He Hni) as [K1 [K2 _]].
      apply (g_delv _ _ _ _ _ G x Hn); congruence.
  Qed.
End Sem.

(* ------------------------------------------------------------------ the function computes the formula *)
Section Compute.
  Variables (b : bool) (st : sess) (f : frame) (rest : list frame) (W0 : tbl) (g : ghost).
  Hypothesis Hst : stack st = f :: rest.
  Hypothesis G : Good (objs st) (nobj st) W0 (snew st) (sdel st).
  Hypothesis GC : GClean g.
  Hypothesis R : Rel g f (objs st) (nobj st) (snew st) (sdel st) W0.

  Let n := nobj st.
  Let ob := objs st.
  Let sn := snew st.
  Let sd := sdel st.
  Let GG : Good (gobjs g) (gn g) (gW g) [] [] := proj1 GC.
  Let E := filter (fun o => mem o (fnew f) || mem o (snew st)) (all_objs st).
  Let st1 := expunge_states E true st.

  Let sn_out : forall x, mem x sn = true -> oin (ob x) = false /\ x < n /\ okey (ob x) = None :=
    sn_notin ob n sn sd W0 G.
  Let in_snapshot := kept_in_snapshot f ob n sn sd W0 g G GC R.

  (* phase 1 *)
  Lemma memE_E : forall x, mem x E = memE f n sn x.
  Proof. intros x. apply mem_filter_seq. Qed.

  Lemma st1_objs : forall x, objs st1 x = fo1 f ob n sn x.
  Proof. intros x. unfold st1, expunge_states, fo1. rewrite upd_head_eq. cbn. rewrite memE_E. reflexivity. Qed.

  Let fdel1 := filter (fun x => negb ((mem x E && negb (mem x sn)) && negb (oin (ob x)))) (fdel f).
  Let sdel1 := filter (fun x => negb ((mem x E && negb (mem x sn)) && oin (ob x))) sd.

  Lemma st1_rest : nobj st1 = n /\ stack st1 = f_del f fdel1 :: rest /\ sdel st1 = sdel1 /\ snew st1 = [] /\
    eoc st1 = eoc st /\ handles st1 = handles st /\
    committed st1 = committed st /\ work st1 = work st /\ saves st1 = saves st /\ nfid st1 = nfid st.
  Proof.
    unfold st1, expunge_states. rewrite upd_head_eq. cbn. rewrite Hst. repeat split; try reflexivity.
    (* every pending object is expunged *)
    apply filter_nil. intros x Hx. apply mem_In in Hx. fold sn in Hx. destruct (sn_out x Hx) as [_ [Hn _]].
    rewrite memE_E, memE_exp by exact Hn. unfold expunged. rewrite Hx, orb_true_r. reflexivity.
  Qed.
  Lemma st1_n : nobj st1 = n.
  Proof. apply st1_rest. Qed.

  (* phase 2 *)
  Let st2 := fold_left (fun s o => restore_ks_one E (fks f) o s) (all_objs st1) st1.

  Lemma P2_fo2 : forall x, P2 E (fks f) st1 x = fo2 f ob n sn x.
  Proof. intros x. unfold P2, fo2. rewrite st1_objs, memE_E. reflexivity. Qed.

  Lemma oin_fo2 : forall x, x < n -> oin (fo2 f ob n sn x) = true ->
    expunged f sn x = false /\ oin3 f ob n sn sd x = true /\ okey (fo2 f ob n sn x) = pkey f ob x.
  Proof.
    intros x Hn H. destruct (expunged f sn x) eqn:He.
    - rewrite fo2_E in H; auto; [discriminate|]. intros Es. apply (sn_out x Es).
    - split; auto. rewrite fo2_kept in * by auto. unfold oin3, pkey.
      destruct (ks_find x (fks f)) as [[old nw]|]; cbn in *; auto. rewrite H. rewrite orb_true_r. auto.
  Qed.

  Lemma phase2_inj : forall x y, x < nobj st1 -> y < nobj st1 -> oin (P2 E (fks f) st1 x) = true -> oin (P2 E (fks f) st1 y) = true ->
    okey (P2 E (fks f) st1 x) = okey (P2 E (fks f) st1 y) -> okey (P2 E (fks f) st1 x) <> None -> x = y.
  Proof.
    intros x y Hx Hy Ox Oy Hk Hnk. rewrite !P2_fo2 in *. rewrite st1_n in Hx, Hy.
    destruct (oin_fo2 x Hx Ox) as [Ex [Ix Kx]]. destruct (oin_fo2 y Hy Oy) as [Ey [Iy Ky]].
    rewrite Kx in Hk, Hnk. rewrite Ky in Hk. apply (pkey_inj f ob n sn sd W0 g G GC R x y); auto.
  Qed.

  Lemma st2_char : same_rest st2 st1 /\ forall x, objs st2 x = fo2 f ob n sn x.
  Proof.
    assert (HE : forall x, mem x E = true -> oin (objs st1 x) = false).
    { intros x Hx. rewrite st1_objs. unfold fo1. rewrite <- memE_E, Hx.
      destruct (mem x sn) eqn:Es; cbn; auto. apply (sn_out x Es). }
    destruct (phase2_char E (fks f) st1 HE phase2_inj) as [SR H]. split; auto.
    intros x. rewrite <- P2_fo2. apply H.
    destruct (Nat.lt_ge_cases x (nobj st1)) as [|Hge]; auto. right.
    destruct (ks_find x (fks f)) as [[old nw]|] eqn:Ek; auto.
    destruct (r_ks _ _ _ _ _ _ _ R x old nw Ek) as [X _]. rewrite st1_n in Hge. unfold n in Hge. lia.
  Qed.
  Lemma st2_n : nobj st2 = n.
  Proof. destruct st2_char as [[_ [N2 _]] _]. rewrite N2. exact st1_n. Qed.

  (* phase 3 *)
  Let todel := filter (fun o => mem o fdel1 || mem o sdel1) (all_objs st2).

  Lemma mem_todel : forall x, mem x todel = mtodel f n sn sd x.
  Proof.
    intros x. unfold todel, all_objs. rewrite st2_n, mem_filter_seq. unfold mtodel.
    destruct (Nat.ltb_spec x n) as [Hn|]; cbn [andb]; auto.
    unfold fdel1, sdel1. rewrite !mem_filter, !memE_E.
    destruct (memE f n sn x) eqn:Em; cbn [andb negb]; [|rewrite !andb_true_r; reflexivity].
    (* an expunged object is in neither collection any more: it is not pending, and the frame's deletions are
       outside the identity map, the session's inside *)
    assert (Hs : mem x (fdel f) = true \/ mem x sd = true -> mem x sn = false).
    { intros D. destruct (mem x sn) eqn:Es; auto. destruct (sn_out x Es) as [_ [_ Y]].
      destruct (todel_att f ob n sn sd W0 g G R x D). congruence. }
    destruct (mem x (fdel f)) eqn:Ef; cbn.
    - destruct (r_del _ _ _ _ _ _ _ R x Ef) as [_ [X1 _]]. fold ob in X1. rewrite Hs, X1 by auto. cbn.
      destruct (mem x sd) eqn:Ed; auto. apply mem_In in Ed. apply (g_del _ _ _ _ _ G) in Ed. fold ob in Ed. congruence.
    - destruct (mem x sd) eqn:Ed; auto. rewrite Hs by auto. apply mem_In in Ed. apply (g_del _ _ _ _ _ G) in Ed.
      fold ob in Ed. rewrite Ed. reflexivity.
  Qed.

  (* the objects of the identity map after phase 2 and those about to re-enter it *)
  Lemma fin3_pkey : forall z, z < n -> fin3 st2 todel z ->
    expunged f sn z = false /\ oin3 f ob n sn sd z = true /\ okey (objs st2 z) = pkey f ob z.
  Proof.
    intros z Hz Fz. destruct st2_char as [_ O2]. rewrite O2. destruct Fz as [Fz|Fz].
    - rewrite O2 in Fz. apply oin_fo2; auto.
    - apply mem_In in Fz. rewrite mem_todel in Fz.
      destruct (mtodel_spec f n sn sd z Fz) as [_ [He _]].
      split; auto. split; [unfold oin3; rewrite Fz; rewrite orb_true_r; reflexivity|].
      rewrite fo2_kept by auto. unfold pkey. destruct (ks_find z (fks f)) as [[old nw]|]; reflexivity.
  Qed.

  Lemma todel_ok : forall x, In x todel -> x < nobj st2 /\ okey (objs st2 x) <> None /\ oatt (objs st2 x) = true.
  Proof.
    intros x Hx. assert (Hn : x < n).
    { apply mem_In in Hx. rewrite mem_todel in Hx. apply (mtodel_spec f n sn sd x Hx). }
    destruct (fin3_pkey x Hn (or_intror Hx)) as [He [Hi Hk]].
    destruct (in_snapshot x Hn He Hi) as [X1 [X2 [X3 [X4 [X5 _]]]]].
    split; [rewrite st2_n; exact Hn|]. split.
    - rewrite Hk, X5. apply (g_in _ _ _ _ _ GG x X2).
    - destruct st2_char as [_ O2]. rewrite O2, fo2_kept by auto.
      destruct (ks_find x (fks f)) as [[old nw]|]; exact X3.
  Qed.

  Lemma phase3_inj : forall x y, x < nobj st2 -> y < nobj st2 -> fin3 st2 todel x -> fin3 st2 todel y ->
    okey (objs st2 x) = okey (objs st2 y) -> okey (objs st2 x) <> None -> x = y.
  Proof.
    intros x y Hx Hy Fx Fy Hk Hnk. rewrite st2_n in Hx, Hy.
    destruct (fin3_pkey x Hx Fx) as [Ex [Ix Kx]]. destruct (fin3_pkey y Hy Fy) as [Ey [Iy Ky]].
    rewrite Kx in Hk, Hnk. rewrite Ky in Hk. apply (pkey_inj f ob n sn sd W0 g G GC R x y); auto.
  Qed.

  Theorem restore_compute : exists st',
    restore_snapshot b st = (Ok, st') /\
    (forall x, objs st' x = fo4 b f ob n sn sd x) /\
    nobj st' = n /\ snew st' = [] /\ sdel st' = [] /\ stack st' = f_del f fdel1 :: rest /\
    eoc st' = eoc st /\ handles st' = handles st /\ committed st' = committed st /\ work st' = work st /\
    saves st' = saves st /\ nfid st' = nfid st.
  Proof.
    destruct st2_char as [SR2 O2]. destruct st1_rest as [N1 [S1 [D1 [Sn1 [E1 [H1 [C1 [W1 [V1 F1]]]]]]]]].
    destruct SR2 as [E2 [N2 [Sn2 [D2 [S2 [H2 [C2 [W2 [V2 F2]]]]]]]]].
    assert (Hnd : NoDup todel). { unfold todel. apply NoDup_filter. apply seq_NoDup. }
    destruct (phase3_char st2 todel todel_ok phase3_inj Hnd) as [s3 [E3 I3h]].
    destruct I3h as [A10 [A11 [A1 [A2 [A3 [A4 [A5 [A6 [A7 [A8 A9]]]]]]]]]].
    (* everything the session has marked as deleted is reverted *)
    assert (Hsd3 : sdel s3 = []).
    { rewrite A10, D2, D1. apply filter_nil. intros x Hx. rewrite (proj2 (mem_In x todel)); [reflexivity|].
      unfold todel. apply filter_In. split.
      - apply in_seq. rewrite st2_n. apply filter_In in Hx. destruct Hx as [Hx _].
        apply (g_del _ _ _ _ _ G) in Hx. destruct (g_in _ _ _ _ _ G x Hx) as [Y _]. unfold n. lia.
      - apply mem_In in Hx. rewrite Hx. apply orb_true_r. }
    unfold restore_snapshot. rewrite Hst.
    fold E. fold st1. fold st2.
    replace (match stack st2 with f2 :: _ => fdel f2 | [] => [] end) with fdel1 by (rewrite S2, S1; reflexivity).
    replace (sdel st2) with sdel1 by (rewrite D2, D1; reflexivity).
    fold todel. rewrite E3. rewrite Hsd3. cbn [isnil negb].
    eexists. split; [reflexivity|].
    split.
    - intros x. unfold map_objs. cbn [objs set_objs]. rewrite A11. unfold fo4.
      assert (X : (if mem x todel then P3 st2 todel x else objs st2 x) = fo3 f ob n sn sd x).
      { unfold fo3, P3. rewrite mem_todel. rewrite O2. destruct (mtodel f n sn sd x); reflexivity. }
      rewrite X. reflexivity.
    - unfold map_objs. cbn. repeat split; congruence.
  Qed.
End Compute.
