(* C40 - what a statement returns: whichever of the two statement forms (_compound_eager_statement /
   _simple_statement) is chosen, the rows are an ordered version of
   (the statement's own primary rows) LEFT OUTER JOIN (the eager chain),
   PROVIDED the subquery wrap is applied at least where _should_nest_selectable asks for it. *)
From Coq Require Import List ZArith Bool.
Import ListNotations.
From SAV.orm Require Import Loaders LoadersBase LoadersJoin.
Open Scope Z_scope.

(* the primary rows of a statement: FROM/WHERE -> DISTINCT/GROUP BY -> ORDER BY -> LIMIT/OFFSET *)
Definition stmt_heads (src : source) : list tagged :=
  slice (src_limit src) (src_offset src)
    (sort_by (hkey (src_order src))
       (if src_distinct src || src_group src then uniq_by tagged_id (src_base src) else src_base src)).

Definition nest_covers (nestf : nest_fn) : Prop :=
  forall a b c d e f g, should_nest a b c d e f g = true -> nestf a b c d e f g = true.

Lemma should_nest_covers : nest_covers should_nest.
Proof. intros a b c d e f g H; exact H. Qed.

(* a statement that is not wrapped although eager joins are added: then it has neither DISTINCT nor
   GROUP BY, and no LIMIT/OFFSET either if a collection is joined *)
Lemma unwrapped : forall nestf src chain, nest_covers nestf -> stmt_nests nestf src chain = false -> chain <> [] ->
  src_distinct src = false /\ src_group src = false /\
  (existsb is_down chain = true -> src_limit src = None /\ src_offset src = None).
Proof.
  intros nestf src chain NC EN NE. unfold stmt_nests in EN.
  match type of EN with nestf ?a ?b ?c ?d ?e ?f ?g = false =>
    assert (SN : should_nest a b c d e f g = false)
      by (destruct (should_nest a b c d e f g) eqn:E; auto; apply NC in E; congruence) end.
  destruct chain; [contradiction|]. unfold should_nest in SN. cbn [is_nil negb] in SN.
  apply orb_false_iff in SN as [SN SG]. apply orb_false_iff in SN as [SN _].
  apply orb_false_iff in SN as [SN SD]. apply orb_false_iff in SN as [SL SO].
  split; [exact SD|split; [exact SG|]]. intro MR. rewrite MR, andb_true_r in SL, SO.
  destruct (src_limit src), (src_offset src); try discriminate. auto.
Qed.

Lemma ljoin1_up_single : forall s l, wf_step s -> is_down s = false -> exists m, ljoin1 s l = [m].
Proof.
  intros s [p|] WS K; cbn [ljoin1]; [|eauto]. fold (matches s p).
  assert (KU : st_kind s = Up) by (unfold is_down in K; destruct (st_kind s); auto; discriminate).
  destruct (NoDup_alleq (matches s p)) as [->|[m ->]]; cbn; eauto using matches_nodup.
  intros a b Ha Hb. apply filter_In in Ha as [Ha La], Hb as [Hb Lb]. eapply (up_matches_eq s p); eauto.
Qed.

Lemma ljoin_chain_up_single : forall chain, Forall wf_step chain -> existsb is_down chain = false ->
  forall l, exists t, ljoin_chain chain l = [t] /\ tail_key chain t = [].
Proof.
  induction chain as [|s rest IH]; intros WF K l; cbn [ljoin_chain].
  - exists []. auto.
  - inversion WF as [|? ? WS WR]; subst. cbn in K. apply orb_false_iff in K as [K1 K2].
    destruct (ljoin1_up_single s l WS K1) as [m ->]. cbn [flat_map]. destruct (IH WR K2 m) as [t [-> Tk]].
    exists (m :: t). split; auto. cbn [tail_key]. rewrite Tk.
    destruct WS as [_ WO]. unfold is_down in K1. destruct (st_kind s); [discriminate|]. rewrite WO. reflexivity.
Qed.

(* when only scalars are joined, every primary row yields one result row, with the same sort key *)
Definition only_row (chain : list step) (h : tagged) : jrow := (h, hd [] (ljoin_chain chain (Some (snd h)))).

Lemma ljoin_rows_up : forall chain, Forall wf_step chain -> existsb is_down chain = false ->
  forall l, ljoin_rows chain l = map (only_row chain) l.
Proof.
  intros chain WF K. induction l as [|h l IH]; auto. unfold ljoin_rows in *. cbn [flat_map map]. rewrite IH.
  unfold only_row at 2. destruct (ljoin_chain_up_single chain WF K (Some (snd h))) as [t [-> _]]. reflexivity.
Qed.
Lemma jkey_only_row : forall o0 chain, Forall wf_step chain -> existsb is_down chain = false ->
  forall h, jkey o0 chain (only_row chain h) = hkey o0 h.
Proof.
  intros o0 chain WF K h. unfold jkey, only_row, jhead, jtail, hkey. cbn [fst snd].
  destruct (ljoin_chain_up_single chain WF K (Some (snd h))) as [t [-> Tk]]. cbn [hd]. rewrite Tk. apply app_nil_r.
Qed.

Lemma eval_stmt_char : forall nestf src chain, nest_covers nestf -> Forall wf_step chain ->
  sorted (jkey (src_order src) chain) (eval_stmt nestf src chain) /\
  eqset (eval_stmt nestf src chain) (ljoin_rows chain (stmt_heads src)).
Proof.
  intros nestf src chain NC WF. unfold eval_stmt, stmt_heads. cbv zeta.
  set (o0 := src_order src). set (b := src_base src).
  destruct (stmt_nests nestf src chain) eqn:EN.
  - (* compound: wrapped *)
    split; [apply sort_by_sorted|apply eqset_sort_by].
  - (* simple *)
    destruct (existsb is_down chain) eqn:MR.
    + (* a collection is joined *)
      destruct (unwrapped nestf src chain NC EN) as [-> [-> [-> ->]]]; auto; [intros ->; discriminate|].
      cbn [orb]. rewrite !slice_none. split; [apply sort_by_sorted|].
      eapply eqset_trans; [apply eqset_sort_by|]. unfold ljoin_rows. apply eqset_flat_map.
      apply eqset_sym, eqset_sort_by.
    + (* only scalars are joined (or nothing): LIMIT commutes with the join *)
      rewrite !(ljoin_rows_up chain WF MR).
      match goal with |- context [sort_by (jkey o0 chain) ?X] =>
        assert (DG : X = map (only_row chain) (if src_distinct src || src_group src then uniq_by tagged_id b else b)) end.
      { destruct chain as [|c0 chain'].
        - (* no join at all: both DISTINCT and GROUP BY unique the primary entities *)
          assert (U1 : uniq_by jrow_id (map (only_row []) b) = map (only_row []) (uniq_by tagged_id b)).
          { rewrite uniq_by_map. f_equal. apply uniq_by_ext. intros x y _ _. unfold jrow_id. cbn. rewrite !app_nil_r. auto. }
          assert (U2 : forall l, uniq_by (fun x => tagged_id (fst x)) (map (only_row []) l) = map (only_row []) (uniq_by tagged_id l)).
          { intro l. rewrite uniq_by_map. reflexivity. }
          destruct (src_distinct src), (src_group src); cbn [orb]; rewrite ?U1, ?U2, ?uniq_by_idem; auto.
        - destruct (unwrapped nestf src (c0 :: chain') NC EN) as [-> [-> _]]; [discriminate|reflexivity]. }
      rewrite DG, (sort_by_map (hkey o0)), slice_map by (intro; apply jkey_only_row; auto).
      split; [|apply eqset_refl].
      eapply sorted_map; [apply sorted_slice, sort_by_sorted|].
      intros x y _ _ Hk. unfold kle in *. rewrite !jkey_only_row; auto.
Qed.
