(* C45 - merging the same source again: changes nothing when the source resolves to a persistent instance
   (proved here for the column part of the merge); refuted when the first merge created a pending copy. *)
From Coq Require Import List Bool Arith ZArith Lia.
From SAV.orm Require Import Merge MergeStages MergeValues.
Import ListNotations.

(* observable equality of two session states: everything except the statement counter *)
Record same_session (a b : mstate) : Prop := mkSame {
  ss_next : next a = next b;
  ss_tkey : forall x, tkey a x = tkey b x;
  ss_tpend : forall x, tpend a x = tpend b x;
  ss_cols : forall x k, cols a x k = cols b x k;
  ss_ccomm : forall x k, ccomm a x k = ccomm b x k;
  ss_bs : forall x, bs a x = bs b x;
  ss_bscomm : forall x, bscomm a x = bscomm b x;
  ss_par : forall x, par a x = par b x;
  ss_pcomm : forall x, pcomm a x = pcomm b x;
  ss_modf : forall x, modf a x = modf b x;
  ss_idA : forall x, idA a x = idA b x;
  ss_idB : forall x, idB a x = idB b x;
  ss_pend : pendings a = pendings b
}.

Lemma same_refl : forall a, same_session a a.
Proof. intros; constructor; reflexivity. Qed.
Lemma same_trans : forall a b c, same_session a b -> same_session b c -> same_session a c.
Proof. intros a b c [] []; constructor; intros; congruence. Qed.

(* column [k] of [t] already holds the source value and, with load=True, has its history and the modified flag *)
Definition col_done (load : bool) (s : mstate) (t k : nat) (v : sattr (option Z)) : Prop :=
  match v with SV x => cols s t k = Some x /\ (load = true -> ccomm s t k <> None /\ modf s t = true) | SU => True end.

Lemma merge_col_again : forall load s t k v, col_done load s t k v -> same_session (merge_col load s t k v) s.
Proof.
  intros load s t k v H. destruct v as [|x]; [apply same_refl|]. destruct H as [Hc Hl].
  assert (C : forall y k0, cols (merge_col load s t k (SV x)) y k0 = cols s y k0) by (intros; rewrite cols_merge_col; apply upd2_id, Hc).
  destruct load; cbn [merge_col] in *; [|constructor; try reflexivity; exact C].
  destruct (Hl eq_refl) as [Hcc Hm]. unfold set_col in *. destruct (ccomm s t k); [|contradiction].
  constructor; try reflexivity; [exact C|]. intros y. apply upd_id, Hm.
Qed.

Lemma col_done_same : forall load a b t k v, same_session a b -> col_done load b t k v -> col_done load a t k v.
Proof.
  intros load a b t k v S H. destruct v; [exact I|]. unfold col_done. rewrite (ss_cols _ _ S), (ss_ccomm _ _ S), (ss_modf _ _ S). exact H.
Qed.

Lemma col_done_after : forall load s t k v, col_done load (merge_col load s t k v) t k v.
Proof.
  intros load s t k v. destruct v as [|x]; [exact I|]. split; [rewrite cols_merge_col; apply upd2_same|].
  intros ->. unfold merge_col, set_col. split.
  - destruct (ccomm s t k) eqn:E; cbn [ccomm set_cols set_modf set_ccomm]; [rewrite E|rewrite upd2_same]; discriminate.
  - destruct (ccomm s t k); cbn [modf set_cols set_modf set_ccomm]; apply upd_same.
Qed.

Lemma col_done_kept : forall load s t k v k' v', k <> k' -> col_done load s t k v -> col_done load (merge_col load s t k' v') t k v.
Proof.
  intros load s t k v k' v' Hk H. destruct v as [|x]; [exact I|]. destruct H as [Hc Hl].
  destruct v' as [|x']; [split; assumption|]. split; [rewrite cols_merge_col, upd2_other by auto; exact Hc|].
  intros ->. destruct (Hl eq_refl) as [Hcc Hm]. unfold merge_col, set_col. split.
  - destruct (ccomm s t k'); cbn [ccomm set_cols set_modf set_ccomm]; [|rewrite upd2_other by auto]; exact Hcc.
  - destruct (ccomm s t k'); cbn [modf set_cols set_modf set_ccomm]; apply upd_same.
Qed.

(* copying the columns of a source establishes all three, and copying them again changes nothing *)
Definition cols_done (load : bool) (s : mstate) (t : nat) (src : srcA) : Prop :=
  forall k, k <= 2 -> col_done load s t k (src_col src k).

Lemma copy_A_done : forall load src s t, cols_done load (copy_A load src s t) t src.
Proof.
  intros load src s t k Hk. unfold copy_A. destruct k as [|[|[|k]]]; [| | |lia].
  - apply col_done_kept; [discriminate|]. apply col_done_kept; [discriminate|]. apply col_done_after.
  - apply col_done_kept; [discriminate|]. apply col_done_after.
  - apply col_done_after.
Qed.
Lemma copy_A_again : forall load src s t, cols_done load s t src ->
  same_session (copy_A load src s t) s /\ sql (copy_A load src s t) = sql s.
Proof.
  intros load src s t D. unfold copy_A. split.
  - pose proof (merge_col_again load s t 0 _ (D 0 (Nat.le_0_l 2))) as S1.
    pose proof (merge_col_again load _ t 1 _ (col_done_same _ _ _ _ _ _ S1 (D 1 (le_S _ _ (le_n 1))))) as S2.
    pose proof (same_trans _ _ _ S2 S1) as S12.
    exact (same_trans _ _ _ (merge_col_again load _ t 2 _ (col_done_same _ _ _ _ _ _ S12 (D 2 (le_n 2)))) S12).
  - assert (G : forall a k v, sql (merge_col load a t k v) = sql a).
    { intros a k v. destruct v; [reflexivity|]. destruct load; [unfold merge_col, set_col; destruct (ccomm a t k)|]; reflexivity. }
    rewrite !G. reflexivity.
Qed.

Lemma same_commit_congr : forall a b t, same_session a b -> same_session (commit_all a t) (commit_all b t).
Proof.
  intros a b t [A1 A2 A3 A4 A5 A6 A7 A8 A9 A10 A11 A12 A13].
  constructor; cbn [next tkey tpend cols ccomm bs bscomm par pcomm modf idA idB pendings commit_all]; auto.
  - intros x k. destruct (Nat.eqb x t); [reflexivity|apply A5].
  - intros x. unfold upd. destruct (Nat.eqb x t); [reflexivity|apply A7].
  - intros x. unfold upd. destruct (Nat.eqb x t); [reflexivity|apply A9].
  - intros x. unfold upd. destruct (Nat.eqb x t); [reflexivity|apply A10].
Qed.

Lemma same_commit_all_again : forall s t, same_session (commit_all (commit_all s t) t) (commit_all s t).
Proof.
  intros s t. constructor; try reflexivity.
  - intros x k. cbn [ccomm commit_all]. destruct (Nat.eqb x t); reflexivity.
  - intros x. cbn [bscomm commit_all]. unfold upd. destruct (Nat.eqb x t); reflexivity.
  - intros x. cbn [pcomm commit_all]. unfold upd. destruct (Nat.eqb x t); reflexivity.
  - intros x. cbn [modf commit_all]. unfold upd. destruct (Nat.eqb x t); reflexivity.
Qed.

(* DESIGN.md's merge_idempotent, column part: the source has a primary key that resolves to a persistent instance after the
   first merge and no relationship is merged (bs not loaded on the source, or no merge cascade) *)
Theorem merge_idempotent_columns_partial : forall cfg load sbs s src s1 t,
  wf s -> merge_A cfg load sbs s src = Some (s1, t) ->
  (forall pk, sa_pk src = Some pk -> load = false \/ idA s pk <> None \/ assoc pk (rowsA cfg) <> None) ->
  sa_pk src <> None ->
  (sa_bs src = SU \/ mf cfg = false) ->
  exists s2, merge_A cfg load sbs s1 src = Some (s2, t) /\ same_session s2 s1 /\ sql s2 = sql s1.
Proof.
  intros cfg load sbs s src s1 t W H Hres Hpk Hnorel.
  destruct (sa_pk src) as [pk|] eqn:Epk; [|contradiction].
  destruct (merge_identity_and_values cfg load sbs s src s1 t W H) as [Hid _].
  destruct (Hid pk Epk) as [_ Hid2]. specialize (Hid2 (Hres pk eq_refl)).
  assert (Rel : forall a t', rel_A cfg load sbs src a t' = Some a).
  { intros a t'. unfold rel_A. destruct Hnorel as [E|E]; rewrite E; [|destruct (sa_bs src)]; reflexivity. }
  (* the first merge copied the columns of [src] onto [t]; the second finds [t] in the identity map *)
  rewrite merge_A_eq, Epk in *. destruct (negb (sa_detached src) && negb load); [discriminate|].
  destruct (obtain (resolve_A cfg load s (Some pk))) as [s0 t0]. rewrite Rel in H. injection H as Es1 Et. subst t0 s1.
  set (c3 := copy_A load src s0 t) in *. set (s1 := finish load c3 t) in *.
  assert (Eo : obtain (resolve_A cfg load s1 (Some pk)) = (s1, t)) by (unfold obtain, resolve_A; rewrite Hid2; reflexivity).
  rewrite Eo, Rel. cbn [option_map]. eexists. split; [reflexivity|].
  pose proof (copy_A_done load src s0 t) as D. fold c3 in D. unfold s1. destruct load; cbn [finish].
  - apply copy_A_again, D.
  - (* after the commit the columns keep their values and history plays no part *)
    assert (G : cols_done false (commit_all c3 t) t src).
    { intros k Hk. specialize (D k Hk). destruct (src_col src k); [exact I|]. destruct D as [Hc _]. split; [exact Hc|discriminate]. }
    destruct (copy_A_again false src _ t G) as [S Q].
    split; [|exact Q]. eapply same_trans; [apply same_commit_congr, S|apply same_commit_all_again].
Qed.

(* refutation: a source whose key has no row *)
Definition idem_cfg : mconfig := mkMC true true true [(1, (Some 10%Z, Some 20%Z))] [].
Definition idem_src : srcA := mkSA false (Some 4) (SV (Some 15%Z)) (SV (Some 25%Z)) SU.

Theorem merge_idempotent_refuted :
  exists cfg sbs s src s1 t1 s2 t2,
    wf s /\ merge_A cfg true sbs s src = Some (s1, t1) /\ merge_A cfg true sbs s1 src = Some (s2, t2) /\
    t2 <> t1 /\ pendings s1 = [t1] /\ pendings s2 = [t1; t2] /\
    cols s2 t1 0 = cols s2 t2 0.     (* two pending objects with the same primary key *)
Proof.
  exists idem_cfg, [], m0, idem_src.
  eexists. eexists. eexists. eexists.
  split; [exact wf_m0|]. split; [vm_compute; reflexivity|]. split; [vm_compute; reflexivity|].
  vm_compute. repeat split; auto. discriminate.
Qed.
