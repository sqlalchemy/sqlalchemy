(* C33 - the invariant behind "the session agrees with the database" (guarded region).  Definitions and
   the elementary facts about them. *)
From Coq Require Import List ZArith Bool Arith Lia.
Import ListNotations.
From SAV.orm Require Import SessTxn SessTxnSpec.
Open Scope nat_scope.

(* loaded / remembered attribute values of one object against the row (k, v) it is bound to *)
Definition VA (ob : obj) (k v : Z) : Prop :=
  (ocid ob = None -> odid ob = None \/ odid ob = Some k) /\
  (forall old, ocid ob = Some old -> old = k /\ odid ob <> None) /\
  (ocv ob = None -> odv ob = None \/ odv ob = Some v) /\
  (forall old, ocv ob = Some (Some old) -> old = v) /\
  (ocv ob <> None -> odv ob <> None) /\
  (omod ob = false -> ocid ob = None /\ ocv ob = None).

(* objects [ob] (the first [n] are in use) against the table [W], with pending list [sn] and
   marked-for-deletion list [sd] *)
Record Good (ob : nat -> obj) (n : nat) (W : tbl) (sn sd : list nat) : Prop := mkGood {
  g_in : forall o, oin (ob o) = true ->
           o < n /\ oatt (ob o) = true /\ odelf (ob o) = false /\ okey (ob o) <> None;
  g_uniq : forall o1 o2 k, oin (ob o1) = true -> oin (ob o2) = true ->
           okey (ob o1) = Some k -> okey (ob o2) = Some k -> o1 = o2;
  g_pers : forall o k, o < n -> okey (ob o) = Some k -> oatt (ob o) = true -> odelf (ob o) = false ->
           oin (ob o) = true;
  g_rows : forall o k, oin (ob o) = true -> okey (ob o) = Some k -> exists v, W k = Some v /\ VA (ob o) k v;
  g_new : forall o, In o sn <-> (o < n /\ okey (ob o) = None /\ oatt (ob o) = true);
  g_newd : forall o, o < n -> okey (ob o) = None -> odelf (ob o) = false;    (* a keyless object is not "deleted" *)
  g_del : forall o, In o sd -> oin (ob o) = true;
  g_nodup : NoDup sn /\ NoDup sd;
  g_dels : forall o k, o < n -> okey (ob o) = Some k -> oatt (ob o) = true -> odelf (ob o) = true ->
           W k = None \/ exists o', oin (ob o') = true /\ okey (ob o') = Some k;
  (* an object in the deleted state was loaded when its DELETE was emitted *)
  g_delv : forall o, o < n -> okey (ob o) <> None -> oatt (ob o) = true -> odelf (ob o) = true ->
           odv (ob o) <> None /\ odid (ob o) <> None
}.

Definition GoodS (st : sess) : Prop := Good (objs st) (nobj st) (work st) (snew st) (sdel st).

(* [agrees] (the boolean of the theorem statement) follows from Good *)
Lemma loaded_is_opt : forall x v, (x = None \/ x = Some v) -> loaded_is x v = true.
Proof. intros x v [H|H]; subst; cbn; auto. apply Z.eqb_refl. Qed.

Lemma Good_agrees : forall st, GoodS st -> agrees st = true.
Proof.
  intros st G. unfold agrees. apply forallb_forall. intros o Ho.
  apply in_seq in Ho. cbn in Ho. destruct Ho as [_ Ho].
  unfold obj_agrees. destruct (okey (objs st o)) as [k|] eqn:Ek; auto.
  destruct (oatt (objs st o)) eqn:Ea; cbn; auto.
  destruct (odelf (objs st o)) eqn:Ed.
  - destruct (work st k) eqn:Ew; auto.
    destruct (g_dels _ _ _ _ _ G o k Ho Ek Ea Ed) as [H|[o' [H1 H2]]]; [congruence|].
    apply existsb_exists. exists o'.
    destruct (g_in _ _ _ _ _ G o' H1) as [A [B [C D]]]. split.
    + apply in_seq. cbn. lia.
    + assert (o' <> o). { intros X; subst. congruence. }
      destruct (Nat.eqb_spec o' o); [congruence|]. cbn.
      unfold is_persistent, key_is. rewrite H2, B, C. cbn. apply Z.eqb_refl.
  - pose proof (g_pers _ _ _ _ _ G o k Ho Ek Ea Ed) as Hin.
    destruct (g_rows _ _ _ _ _ G o k Hin Ek) as [v [Hw Hva]]. rewrite Hw.
    destruct (omod (objs st o)) eqn:Em; cbn; auto.
    destruct Hva as [V1 [V2 [V3 [V4 [V5 V6]]]]]. destruct (V6 Em) as [C1 C2].
    rewrite (loaded_is_opt _ _ (V1 C1)), (loaded_is_opt _ _ (V3 C2)). reflexivity.
Qed.

(* one object: a value that is not loaded has no remembered original either; [J] asks this of every object *)
Definition Jobj (x : obj) : Prop :=
  (odv x = None -> odid x = None) /\ (ocid x <> None -> odid x <> None) /\ (omod x = false -> ocid x = None /\ ocv x = None).
(* every object: a value that is not loaded has no remembered original either *)
Definition J (ob : nat -> obj) (n : nat) : Prop :=
  forall o, o < n ->
    (odv (ob o) = None -> odid (ob o) = None) /\ (ocid (ob o) <> None -> odid (ob o) <> None) /\
    (omod (ob o) = false -> ocid (ob o) = None /\ ocv (ob o) = None).

(* ------------------------------------------------------------------ snapshots *)
(* what a frame would restore: the objects and the table at the moment the frame began.  Ghost state: one per
   frame, existentially quantified in SessTxnCore.Inv, computed by nothing *)
Record ghost := mkGhost { gobjs : nat -> obj; gn : nat; gW : tbl }.

(* the state at the beginning of a frame is clean *)
Definition GClean (g : ghost) : Prop :=
  Good (gobjs g) (gn g) (gW g) [] [] /\
  (forall o, oin (gobjs g o) = true -> omod (gobjs g o) = false).

(* the identity a restore of frame [f] gives object [o] *)
Definition pkey (f : frame) (ob : nat -> obj) (o : nat) : option Z :=
  match ks_find o (fks f) with Some (old, _) => Some old | None => okey (ob o) end.
Definition pdelf (f : frame) (ob : nat -> obj) (sd : list nat) (o : nat) : bool :=
  if mem o (fdel f) || mem o sd then false else odelf (ob o).
Definition expunged (f : frame) (sn : list nat) (o : nat) : bool := mem o (fnew f) || mem o sn.

(* frame [f] with snapshot [g] against the "current" objects [ob] (first [n] in use), pending list [sn],
   marked-for-deletion list [sd] and table [W]: a restore of what [f] has recorded would bring back [g].
   r_exp, r_fresh: the objects it would expunge were unknown to [g]; r_id, r_ks, r_del: the others get back the
   key and deleted flag they have in [g]; r_row, r_delv, r_keep: rows and values the frame did not write are
   those of [g]; r_n, r_lists, r_ksu, r_dirty: shape of the four collections *)
Record Rel (g : ghost) (f : frame) (ob : nat -> obj) (n : nat) (sn sd : list nat) (W : tbl) : Prop := mkRel {
  r_n : gn g <= n;
  r_exp : forall o, o < gn g -> expunged f sn o = true -> oatt (gobjs g o) = false;
  (* objects unattached then and now carry no obligation (the session does not know them) *)
  r_id : forall o, o < gn g -> expunged f sn o = false ->
            oatt (ob o) = oatt (gobjs g o) /\
            (oatt (gobjs g o) = true -> pkey f ob o = okey (gobjs g o) /\ pdelf f ob sd o = odelf (gobjs g o));
  r_fresh : forall o, gn g <= o -> o < n -> expunged f sn o = true \/ (oatt (ob o) = false /\ oin (ob o) = false);
  (* rows of objects the frame did not write are the rows of the snapshot *)
  r_row : forall o k, o < gn g -> expunged f sn o = false -> oin (gobjs g o) = true ->
            mem o (fdirty f) = false -> mem o (fdel f) = false -> okey (gobjs g o) = Some k -> W k = gW g k;
  (* objects deleted inside the frame keep the values they had *)
  r_delv : forall o k v, o < gn g -> expunged f sn o = false -> mem o (fdel f) = true ->
            mem o (fdirty f) = false -> omod (ob o) = false -> okey (gobjs g o) = Some k -> gW g k = Some v ->
            (odid (ob o) = None \/ odid (ob o) = Some k) /\ (odv (ob o) = None \/ odv (ob o) = Some v);
  r_ks : forall o old new, ks_find o (fks f) = Some (old, new) ->
            o < n /\ okey (ob o) = Some new /\ oatt (ob o) = true /\ (mem o (fnew f) = true \/ mem o (fdirty f) = true);
  r_del : forall o, mem o (fdel f) = true ->
            o < n /\ oin (ob o) = false /\ odelf (ob o) = true /\ oatt (ob o) = true /\ okey (ob o) <> None;
  r_lists : forall o, (mem o (fnew f) = true \/ mem o (fdirty f) = true) -> o < n;
  r_ksu : NoDup (map fst (fks f));
  (* what was flushed as dirty was in the identity map when the frame began, or is new in the frame *)
  r_dirty : forall o, mem o (fdirty f) = true -> mem o (fnew f) = true \/ (o < gn g /\ oin (gobjs g o) = true);
  (* objects in the deleted state when the frame began are only ever changed by attribute assignments,
     which mark them modified *)
  r_keep : forall o, o < gn g -> oatt (gobjs g o) = true -> oin (gobjs g o) = false -> omod (ob o) = false ->
            odid (ob o) = odid (gobjs g o) /\ odv (ob o) = odv (gobjs g o) /\ omod (gobjs g o) = false
}.

(* the state right after a restore of the frame whose snapshot is [g]: identities are those of the
   snapshot, loaded values are those of the snapshot or expired, nothing is modified *)
Record Approx (g : ghost) (ob : nat -> obj) (n : nat) : Prop := mkApprox {
  a_n : gn g <= n;
  a_id : forall o, o < gn g ->
           oatt (ob o) = oatt (gobjs g o) /\ oin (ob o) = oin (gobjs g o) /\
           (oatt (gobjs g o) = true -> okey (ob o) = okey (gobjs g o) /\ odelf (ob o) = odelf (gobjs g o));
  a_fresh : forall o, gn g <= o -> o < n -> oatt (ob o) = false /\ oin (ob o) = false;
  a_clean : forall o, oin (ob o) = true -> omod (ob o) = false;
  a_keep : forall o, o < gn g -> oatt (gobjs g o) = true -> oin (gobjs g o) = false -> omod (ob o) = false ->
            odid (ob o) = odid (gobjs g o) /\ odv (ob o) = odv (gobjs g o) /\ omod (gobjs g o) = false
}.

(* ------------------------------------------------------------------ the database side *)
(* [T] is the table "inside" the frame: the working table for the innermost frame, the snapshot of the
   next inner frame otherwise.  A frame without a connection has not seen a statement since it began. *)
Definition live_conn (f : frame) : bool := fconn f && fnested f && live_state (fstate f).
(* the savepoints the database holds: one per nested frame that has a connection and was not rolled back *)
Fixpoint entries (fs : list frame) (gs : list ghost) : list (nat * tbl) :=
  match fs, gs with
  | f :: fs', g :: gs' => if live_conn f then (fid f, gW g) :: entries fs' gs' else entries fs' gs'
  | _, _ => []
  end.
Fixpoint SnapOk (fs : list frame) (gs : list ghost) (T : tbl) (cm : tbl) : Prop :=
  match fs, gs with
  | [], [] => True
  | f :: fs', g :: gs' =>
      (if fconn f then (if fnested f then True else cm = gW g) else gW g = T) /\ SnapOk fs' gs' (gW g) cm
  | _, _ => False
  end.
Definition SavesOk (fs : list frame) (gs : list ghost) (T : tbl) (cm : tbl) (sv : list (nat * tbl)) : Prop :=
  sv = entries fs gs /\ SnapOk fs gs T cm.

(* frames: ids strictly decreasing outwards and below the counter, savepoint ids below the counter;
   only the innermost frame may be DEACTIVE, the others are ACTIVE; a frame with a connection has
   parents with connections; the outermost frame is the only one that is not nested *)
Fixpoint FramesOk (b : nat) (fs : list frame) : Prop :=
  match fs with
  | [] => True
  | f :: r => fid f < b /\ FramesOk (fid f) r /\
              (fnested f = true <-> r <> []) /\
              (fconn f = true -> forall f', In f' r -> fconn f' = true) /\
              (forall f', In f' r -> fstate f' = ACTIVE)
  end.
Definition head_ok (fs : list frame) : Prop :=
  match fs with [] => True | f :: _ => fstate f = ACTIVE \/ fstate f = DEACTIVE end.

(* the chain of snapshots: the innermost frame against the current state, every other frame against the
   snapshot of the next inner one *)
Fixpoint ChainG (gi : ghost) (fs : list frame) (gs : list ghost) : Prop :=
  match fs, gs with
  | [], [] => True
  | f :: fs', g :: gs' => GClean g /\ Rel g f (gobjs gi) (gn gi) [] [] (gW gi) /\ ChainG g fs' gs'
  | _, _ => False
  end.
Definition Chain (st : sess) (gs : list ghost) : Prop :=
  match stack st, gs with
  | [], [] => True
  | f :: fs', g :: gs' =>
      GClean g /\
      (match fstate f with
       | ACTIVE => Rel g f (objs st) (nobj st) (snew st) (sdel st) (work st)
       | _ => Approx g (objs st) (nobj st) /\ snew st = [] /\ sdel st = [] /\ work st = gW g
       end) /\ ChainG g fs' gs'
  | _, _ => False
  end.

