(* C35 - _restore_snapshot under its guard *)
From Coq Require Import List ZArith Bool Arith Lia.
Import ListNotations.
From SAV.orm Require Import Lifecycle LifecycleSpec LifecycleLemmas LifecycleInv.
Open Scope Z_scope.

(* [restore_okb]: what [restore_ok] asks of one object (its lambda, named); [dels_attachedb]: the second
   half, which is all the loop over the deletions needs *)
Definition dels_attachedb (o : obj) : bool := implb (itdel o || isdel o) (okey o && osess o).
Definition restore_okb (o : obj) : bool :=
  implb (itnew o || inew o) (osess o && negb (odel o) && negb (itdel o)) && dels_attachedb o.
(* the invariant of a deactive transaction with the mark in session._deleted disregarded: while the
   deletions are reverted one by one, identity_map.replace() may evict a state that is still marked *)
Definition unmarkedb (o : obj) : bool := objinvb (Some true) (set_isdel false o).

Lemma restore_ok_at : forall st k o, restore_ok st = true -> nth_error (objs st) k = Some o -> restore_okb o = true.
Proof. intros st k o H E. unfold restore_ok in H. rewrite forallb_forall in H. apply H, (nth_error_In _ _ E). Qed.

Lemma restore_pass1_ok : forall o, objinvb (Some true) o = true -> restore_okb o = true ->
  unmarkedb (fst (restore_expunge_obj true o)) && dels_attachedb (fst (restore_expunge_obj true o)) = true /\
  wfob (snd (restore_expunge_obj true o)) = true.
Proof.
  intros o H R. by_state H; try destruct n; try destruct sd; try destruct d; destruct tn, td;
    try discriminate; split; reflexivity.
Qed.

Lemma unmarkedb_done : forall o, unmarkedb o && negb (isdel o) = true -> objinvb (Some true) o = true.
Proof. intros [k ky s d n m [] tn td] H; apply andb_prop in H as [H S]; [discriminate S|exact H]. Qed.

Lemma unmarkedb_evict : forall o, unmarkedb o = true -> unmarkedb (set_iimap false o) = true.
Proof. intros o H. exact (evict_ok (Some true) (set_isdel false o) H eq_refl). Qed.

Lemma autobegin_some : forall st b, tx st = Some b -> autobegin st = st.
Proof. intros. unfold autobegin. rewrite H. reflexivity. Qed.

(* _update_impl(revert_deletion=True) of an attached object that has its key: a deleted one becomes
   persistent again (deleted_to_persistent), any other is persistent already *)
Lemma revert_obj_ok : forall o, unmarkedb o = true -> okey o = true -> osess o = true ->
  unmarkedb (fst (revert_obj o)) && negb (isdel (fst (revert_obj o))) = true /\ wfob (snd (revert_obj o)) = true.
Proof.
  intros [k ky s d n m sd tn td] H K S. cbn in K, S. subst.
  destruct d, n, m; try discriminate H; split; reflexivity.
Qed.

(* the loop body of [restore_snapshot], named *)
Definition revF (i : nat) (st : state) : state * Z :=
  if itdel (get st i) || isdel (get st i) then revert_impl i st else (st, 0).

Lemma revert_fold : forall l st, NoDup l ->
  InvP (Some true) (todo l unmarkedb (fun _ => dels_attachedb) (fun o => negb (isdel o))) st ->
  InvP (Some true) (fun _ o => unmarkedb o && negb (isdel o)) (fst (fold_err revF l st)).
Proof.
  induction l as [|i r IH]; intros st Hnd HP; [exact HP|].
  inversion Hnd as [|? ? Hni Hnd']; subst.
  destruct (itdel (get st i) || isdel (get st i)) eqn:Efl.
  - (* the state is flagged: it is attached and has its key (guard), so it is reverted *)
    destruct HP as (Htx & HS & Hw).
    destruct (nth_error (objs st) i) as [o|] eqn:Ei.
    2:{ unfold get in Efl. rewrite nth_overflow in Efl by (apply nth_error_None, Ei). discriminate. }
    pose proof (HS i o Ei) as Hi. rewrite <- (get_nth _ _ _ Ei) in Hi.
    destruct (todo_head unmarkedb (fun _ => dels_attachedb) (fun o => negb (isdel o)) i r (get st i) Hni) as [E _].
    rewrite E in Hi. apply andb_prop in Hi as [Hp Hx]. unfold dels_attachedb in Hx. rewrite Efl in Hx.
    apply andb_prop in Hx as [K S].
    rewrite (fold_err_ok revF i r st (app_all (replacing i (pk (get st i)) revert_obj) st)).
    2:{ unfold revF, revert_impl. rewrite Efl, K, S, andb_false_r, (autobegin_some st true Htx). reflexivity. }
    apply IH, todo_step; auto.
    + repeat split; auto.
    + intros _. apply revert_obj_ok; auto.
    + intros k o' H. apply andb_prop in H as [H1 H2]. apply andb_true_intro. split; [apply unmarkedb_evict, H1|exact H2].
  - (* not flagged: nothing to revert, and it is not marked *)
    rewrite (fold_err_ok revF i r st st) by (unfold revF; rewrite Efl; reflexivity).
    apply IH, (todo_skip _ _ _ _ i r st Hni HP); auto. intros _.
    apply orb_false_elim in Efl as [_ ->]. reflexivity.
Qed.

(* the snapshot restore of a transaction that has been marked deactive *)
Lemma restore_inv : forall st,
  InvP (Some true) (fun _ => objinvb (Some true)) st -> restore_ok st = true ->
  InvP (Some true) (fun _ => objinvb (Some true)) (fst (restore_snapshot st)).
Proof.
  intros st HP Hg. unfold restore_snapshot, has_tx. rewrite (InvP_tx _ _ _ HP).
  set (st1 := app_all (fun _ => restore_expunge_obj true) st).
  apply (InvP_weaken _ (fun _ o => unmarkedb o && negb (isdel o))); [|intros k o; apply unmarkedb_done].
  apply revert_fold, todo_init, (pass_spec _ _ _ _ st HP); [apply seq_NoDup|].
  intros k o E H. apply restore_pass1_ok; [exact H|apply (restore_ok_at st k o Hg E)].
Qed.
