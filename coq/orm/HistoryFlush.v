(* C36 - flush resets the history and writes the current values, except for a deleted collection
   attribute ([coll_deleted]); two concrete runs: [del a.x] is written as NULL, [del a.cs] is not
   written at all. *)
From Coq Require Import List NArith Bool Lia.
Import ListNotations.
From SAV.orm Require Import History HistorySpec HistoryProofs HistoryFrame HistoryWf.
Open Scope N_scope.

Lemma flush_resets : forall s, wf s -> let s' := fst (flush s) in
  x_c s' = NoHist /\ b_c s' = NoHist /\ c_c s' = NoHist /\ modified s' = false.
Proof.
  intros s W. rewrite flush_eq. destruct (persistent s && negb (modified s)) eqn:NOOP; cbn [fst].
  - apply andb_true_iff in NOOP. destruct NOOP as [_ M].
    apply negb_true_iff in M. destruct (wf_unmod s W M) as (A & B & C). auto.
  - destruct (finish_flush_proj (write_row s)) as (A & B & C & D & _). auto.
Qed.

Lemma clean_changes : forall s, x_c s = NoHist -> b_c s = NoHist -> c_c s = NoHist ->
  changes (hist_x s) = ([], []) /\ changes (hist_b s) = ([], []) /\ changes (hist_c s) = ([], []).
Proof.
  intros s X B C. rewrite hist_x_eq, hist_b_eq, hist_c_eq, X, B, C.
  destruct (x_d s), (b_d s), (c_d s); cbn; auto.
Qed.

Lemma flush_dbc_exp : forall s, wf s ->
  coll_deleted s = false ->
  same_set (flush_dbc s) (exp_c s).
Proof.
  intros s W G o. unfold coll_deleted in G. rewrite (flush_dbc_spec s W o). unfold exp_c.
  destruct (c_c s) as [| | |p] eqn:C; cbn [is_nohist].
  - destruct (c_d s); tauto.
  - destruct (wf_c_kind s W) as [_ H]. rewrite (H C). destruct (c_d s); cbn; tauto.
  - destruct (wf_c_kind s W); congruence.
  - destruct (c_d s) as [l|] eqn:D; [tauto|]. cbn. destruct p; [|discriminate].
    pose proof (wf_c_comm s W [] C o). cbn in H. tauto.
Qed.

Theorem flush_persists_guarded : forall s, wf s -> flush_guard s = true ->
  exists s', flush s = (s', Done (RDb (exp_x s) (exp_b s) (db_c s'))) /\
             db_x s' = exp_x s /\ db_b s' = exp_b s /\ same_set (db_c s') (exp_c s).
Proof.
  intros s W G. unfold flush_guard in G. apply negb_true_iff in G. rewrite flush_eq.
  destruct (persistent s && negb (modified s)) eqn:NOOP.
  { apply andb_true_iff in NOOP. destruct NOOP as [_ M]. apply negb_true_iff in M.
    destruct (wf_unmod s W M) as (A & B & C). exists s. unfold db_ret, exp_x, exp_b, exp_c.
    rewrite A, B, C. cbn. repeat split; auto. }
  destruct (write_row_spec s W) as (_ & EX & EB & DC & _ & _ & C & _).
  destruct (finish_flush_proj (write_row s)) as (_ & _ & _ & _ & DX & DB & DC').
  rewrite EX in DX. rewrite EB in DB. rewrite (flush_dbc_ext s _ C DC) in DC'.
  exists (finish_flush (write_row s)). cbv zeta. unfold db_ret. rewrite DX, DB, DC'.
  repeat (split; [reflexivity|]). apply flush_dbc_exp; assumption.
Qed.

(* a deleted column attribute is written as NULL (/repo f879cdb) *)
Theorem flush_after_del_persists_null :
  let s := fst (run KList [DelX] (init OLoaded 5 1 [1; 2])) in
  wf s /\ hist_x s = ([], [], [5]) /\ snd (flush s) = Done (RDb 0 1 [1; 2]).
Proof. split; [apply run_wf, init_wf|]. vm_compute. auto. Qed.

(* [del a.cs] of a loaded collection: the attribute reads as empty, its history is blank, and the
   flush leaves both rows attached *)
Theorem flush_after_coll_del_keeps_rows :
  let s := fst (run KList [CDel] (init OLoaded 5 1 [1; 2])) in
  wf s /\ snd (c_get s) = Done (RColl None) /\ exp_c s = [] /\ hist_c s = blank /\
  snd (flush s) = Done (RDb 5 1 [1; 2]).
Proof. split; [apply run_wf, init_wf|]. vm_compute. auto. Qed.
