(* C44: running a history in two parts *)
From Coq Require Import List.
Import ListNotations.
From SAV.orm Require Import Version.

Lemma run_app : forall server a b eoc g l1 l2 s,
  run server a b eoc g (l1 ++ l2) s = run server a b eoc g l2 (run server a b eoc g l1 s).
Proof. induction l1 as [|[i o] t IH]; intros; cbn [run app]; [reflexivity|apply IH]. Qed.
