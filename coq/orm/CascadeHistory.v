(* C39 - invariants of the cascade model over ALL operation histories (induction over the operation list):
   a row exists exactly for the objects in the persistent or detached state, and session.deleted contains only
   persistent objects - so "deleted at flush" and "row removed" coincide after every history. *)
From Coq Require Import List Bool Arith Lia.
From SAV.orm Require Import Cascade CascadeBase CascadeIterProofs CascadeOpsProofs CascadeFlushProofs.
Import ListNotations.

Definition has_row_state (x : status) : bool := match x with Persistent | Detached => true | _ => false end.

Definition Inv (s : state) : Prop :=
  (forall x, rowp s x = has_row_state (st s x)) /\ (forall x, marked s x = true -> st s x = Persistent).

Lemma Inv_core_eq : forall a b, core a = core b -> Inv b -> Inv a.
Proof. intros a b E [I1 I2]. destruct (core_eq a b E) as [E1 [E2 [E3 _]]]. split; intros x; rewrite ?E1, ?E2, ?E3; auto. Qed.

Lemma Inv_init : Inv init_state.
Proof. split; intros x; [reflexivity|discriminate]. Qed.

(* these setters write no field that [Inv] reads: the two invariants are convertible *)
Lemma Inv_set_poison : forall s, Inv s -> Inv (set_poison s).
Proof. intros s H. exact H. Qed.
Lemma Inv_set_oos : forall s o v, Inv s -> Inv (set_oos s o v).
Proof. intros s o v H. exact H. Qed.
Lemma Inv_set_coll : forall s p ri v, Inv s -> Inv (set_coll s p ri v).
Proof. intros s p ri v H. exact H. Qed.
Lemma Inv_set_hp : forall s p ri v, Inv s -> Inv (set_hp s p ri v).
Proof. intros s p ri v H. exact H. Qed.
Lemma Inv_set_par : forall s p ri v, Inv s -> Inv (set_par s p ri v).
Proof. intros s p ri v H. exact H. Qed.
Lemma Inv_set_modf : forall s p v, Inv s -> Inv (set_modf s p v).
Proof. intros s p v H. exact H. Qed.

(* a primitive that leaves the rows alone and rewrites the view of one object by [g] keeps the invariant when [g]
   keeps it for that object *)
Lemma Inv_acts : forall step g, acts step g -> (forall s c, rowp (step s c) = rowp s) ->
  (forall w, has_row_state (v_st (g w)) = has_row_state (v_st w) /\
             ((v_marked w = true -> v_st w = Persistent) -> v_marked (g w) = true -> v_st (g w) = Persistent)) ->
  forall s c, Inv s -> Inv (step s c).
Proof.
  intros step g A R G s c [I1 I2]. split; intros x.
  - rewrite R, view_st, A. destruct (Nat.eqb x c) eqn:E; [|apply I1]. apply Nat.eqb_eq in E. subst x.
    rewrite (proj1 (G _)). apply I1.
  - rewrite view_marked, view_st, A. destruct (Nat.eqb x c) eqn:E; [|apply I2]. apply Nat.eqb_eq in E. subst x.
    apply (proj2 (G _)), I2.
Qed.
Ltac view_inv :=
  intros [v m e]; destruct v, m; (split; [reflexivity|]); cbn; intros H1 H2;
  first [reflexivity | discriminate H2 | discriminate (H1 eq_refl)].

Lemma Inv_sou_impl : forall s o, Inv s -> Inv (sou_impl s o).
Proof.
  apply (Inv_acts _ _ sou_impl_acts); [|view_inv]. intros s c. unfold sou_impl. destruct (st s c); reflexivity.
Qed.
Lemma Inv_expunge1 : forall s o, Inv s -> Inv (expunge1 s o).
Proof.
  apply (Inv_acts _ _ expunge1_acts); [|view_inv]. intros s c. unfold expunge1. destruct (st s c); reflexivity.
Qed.
Lemma Inv_delete_impl_casc : forall s c, Inv s -> Inv (delete_impl_casc s c).
Proof.
  apply (Inv_acts _ _ delete_impl_casc_acts); [|view_inv]. intros s c. unfold delete_impl_casc.
  destruct (has_key s c); [|reflexivity]. destruct (was_deleted s c); [reflexivity|].
  destruct (marked s c); [reflexivity|]. destruct (st s c); reflexivity.
Qed.
Lemma Inv_cond_expire : forall s x, Inv s -> Inv (cond_expire s x).
Proof.
  apply (Inv_acts _ _ cond_expire_acts); [|view_inv]. intros s c. unfold cond_expire.
  destruct (has_key s c), (is_pending s c); reflexivity.
Qed.

Lemma Inv_fold : forall (f : state -> nat -> state), (forall s o, Inv s -> Inv (f s o)) ->
  forall l s, Inv s -> Inv (fold_left f l s).
Proof. intros f H l. apply fold_left_inv. intros a b _. apply H. Qed.

Lemma Inv_sou_state : forall cfg s o, Inv s -> Inv (sou_state cfg s o).
Proof.
  intros cfg s o H. unfold sou_state. apply Inv_fold; [apply Inv_sou_impl|]. apply Inv_sou_impl, Inv_set_oos, H.
Qed.

Lemma Inv_expunge_all : forall cfg s o, Inv s -> Inv (expunge_all cfg s o).
Proof. intros cfg s o H. unfold expunge_all. apply Inv_fold; [apply Inv_expunge1|exact H]. Qed.

Lemma Inv_casc_append_listener : forall cfg s p pr item k, Inv s -> Inv (casc_append_listener cfg s p pr item k).
Proof.
  intros. unfold casc_append_listener.
  destruct (attached s p && c_su (prop_casc cfg pr) && k && negb (in_session s item)); [apply Inv_sou_state|]; assumption.
Qed.
Lemma Inv_casc_remove_listener : forall cfg s p ri item, Inv s -> Inv (casc_remove_listener cfg s p ri item).
Proof.
  intros. unfold casc_remove_listener. destruct (c_do (fwd (getrel cfg ri)) && is_orphan cfg s item); [|assumption].
  destruct (attached s p && is_pending s item); [apply Inv_expunge_all|apply Inv_set_oos]; assumption.
Qed.
Lemma Inv_sethp_false : forall s c ri p, Inv s -> Inv (sethp_false s c ri p).
Proof. intros s c ri p. apply Inv_core_eq, core_sethp_false. Qed.
Lemma Inv_mod_coll : forall s p ri, Inv s -> Inv (mod_coll s p ri).
Proof. intros s p ri. apply Inv_core_eq, core_mod_coll. Qed.
Lemma Inv_mod_scalar : forall s c ri v, Inv s -> Inv (mod_scalar s c ri v).
Proof. intros s c ri v. apply Inv_core_eq, core_mod_scalar. Qed.

Lemma Inv_detach_old : forall cfg s old ri c, Inv s -> Inv (detach_old cfg s old ri c).
Proof.
  intros. unfold detach_old. apply Inv_set_coll, Inv_mod_coll, Inv_casc_remove_listener, Inv_sethp_false. assumption.
Qed.
Lemma Inv_attach_new : forall s x ri c, Inv s -> Inv (attach_new s x ri c).
Proof. intros s x ri c. apply Inv_core_eq, core_attach_new. Qed.

Lemma Inv_scalar_set : forall cfg s c ri v a b d, Inv s -> Inv (scalar_set cfg s c ri v a b d).
Proof.
  intros cfg s c ri v a b d H. unfold scalar_set. apply Inv_set_par, Inv_mod_scalar.
  destruct (opt_eqb (par s c ri) v); [exact H|]. cbv zeta.
  assert (Hb : forall sa, Inv sa ->
            Inv (match par s c ri with Some q => if b then detach_old cfg sa q ri c else sa | None => sa end)).
  { intros sa Ha. destruct (par s c ri); [destruct b; [apply Inv_detach_old|]|]; exact Ha. }
  destruct v as [x|]; [|exact (Hb s H)]. destruct d; [apply Inv_attach_new|]; apply Hb;
    (destruct (a && attached s c && c_su (bk (getrel cfg ri)) && negb (in_session s x)); [apply Inv_sou_state|]; exact H).
Qed.

Lemma Inv_op_append : forall cfg s p ri c, Inv s -> Inv (op_append cfg s p ri c).
Proof.
  intros cfg s p ri c H. unfold op_append. destruct (mem c (coll s p ri)); [exact H|].
  apply Inv_set_coll, Inv_set_hp, Inv_mod_coll.
  destruct (hasback (getrel cfg ri)); [apply Inv_scalar_set|]; apply Inv_casc_append_listener; exact H.
Qed.
Lemma Inv_op_remove : forall cfg s p ri c, Inv s -> Inv (op_remove cfg s p ri c).
Proof.
  intros cfg s p ri c H. unfold op_remove. destruct (negb (mem c (coll s p ri))); [exact H|].
  apply Inv_set_coll, Inv_mod_coll.
  match goal with |- Inv (if ?b then _ else _) => destruct b end;
    [apply Inv_scalar_set|]; apply Inv_casc_remove_listener, Inv_sethp_false; exact H.
Qed.
Lemma Inv_bulk_append : forall cfg p ri s m, Inv s -> Inv (bulk_append cfg p ri s m).
Proof.
  intros cfg p ri s m H. unfold bulk_append. apply Inv_set_coll, Inv_set_hp, Inv_set_modf.
  destruct (hasback (getrel cfg ri)); [apply Inv_scalar_set|]; apply Inv_casc_append_listener; exact H.
Qed.
Lemma Inv_bulk_remove : forall cfg p ri s m, Inv s -> Inv (bulk_remove cfg p ri s m).
Proof.
  intros cfg p ri s m H. unfold bulk_remove. apply Inv_set_modf.
  match goal with |- Inv (if ?b then _ else _) => destruct b end;
    [apply Inv_scalar_set|]; apply Inv_casc_remove_listener, Inv_sethp_false; exact H.
Qed.
Lemma Inv_op_replace : forall cfg s p ri cs, Inv s -> Inv (op_replace cfg s p ri cs).
Proof.
  intros cfg s p ri cs H. unfold op_replace. destruct (negb (nodupb cs)); [apply Inv_set_poison; exact H|].
  apply Inv_fold; [intros; apply Inv_bulk_remove; assumption|].
  apply Inv_fold; [intros; apply Inv_casc_append_listener; assumption|].
  apply Inv_fold.
  - intros a m Ha. destruct (mem m (filter (fun c => mem c cs) (coll s p ri))); [apply Inv_set_coll|apply Inv_bulk_append]; exact Ha.
  - apply Inv_set_coll, Inv_mod_coll, H.
Qed.

Lemma Inv_op_add : forall cfg s o, Inv s -> Inv (fst (op_add cfg s o)).
Proof. intros cfg s o H. unfold op_add. destruct (was_deleted s o); cbn [fst]; [exact H|apply Inv_sou_state, H]. Qed.
Lemma Inv_op_delete : forall cfg s o, Inv s -> Inv (fst (op_delete cfg s o)).
Proof.
  intros cfg s o H.
  destruct (has_key s o) eqn:K; [|unfold op_delete; rewrite K; exact H].
  destruct (was_deleted s o) eqn:W; [unfold op_delete; rewrite K, W; apply Inv_set_poison, H|].
  destruct (marked s o) eqn:Mk; [unfold op_delete; rewrite K, W, Mk; exact H|].
  destruct (op_delete_fold cfg s o K W Mk) as [s1 [_ [_ ->]]]. apply Inv_fold; [apply Inv_delete_impl_casc|exact H].
Qed.
Lemma Inv_op_expunge : forall cfg s o, Inv s -> Inv (fst (op_expunge cfg s o)).
Proof. intros cfg s o H. unfold op_expunge. destruct (negb (attached s o)); cbn [fst]; [exact H|apply Inv_expunge_all, H]. Qed.
Lemma Inv_op_expire : forall cfg s o, Inv s -> Inv (fst (op_expire cfg s o)).
Proof.
  intros cfg s o H. unfold op_expire. destruct (st s o); cbn [fst]; try exact H.
  apply Inv_fold; [apply Inv_cond_expire|exact H].
Qed.

Lemma Inv_flush_top : forall cfg s, Inv s -> Inv (fst (flush_top cfg s)).
Proof.
  intros cfg s H. unfold flush_top. cbn [fst]. apply Inv_fold; [|exact H].
  intros a o Ha. destruct (top_expunge cfg s o); [apply Inv_expunge1|]; exact Ha.
Qed.

Lemma Inv_finalize1 : forall cfg u s o, Inv s -> Inv (finalize1 cfg u s o).
Proof.
  intros cfg u s o [I1 I2]. destruct (is_del u o) eqn:D.
  - unfold finalize1. rewrite D. split; intros x; cbn [rowp st marked set_marked set_st set_row]; unfold upd;
      (destruct (Nat.eqb x o); [|auto]); [reflexivity|discriminate].
  - apply (Inv_core_eq _ _ (core_finalize1_saved cfg u s o D)).
    split; intros x; cbn [rowp st marked set_modf set_st set_row]; unfold upd;
      (destruct (Nat.eqb x o); [|auto]); reflexivity.
Qed.

Lemma Inv_flush_with : forall cfg procs s, Inv s -> Inv (fst (flush_with cfg procs s)).
Proof.
  intros cfg procs s H. unfold flush_with. pose proof (Inv_flush_top cfg s H) as H1.
  destruct (flush_top cfg s) as [s1 u0]. cbn [fst] in H1.
  destruct (order u0); cbn [fst]; [exact H1|].
  destruct (presort cfg s1 procs (presort_fuel cfg) u0) as [u|]; cbn [fst]; [|apply Inv_set_poison, H1].
  destruct (existsb (fun o => is_del u o && negb (has_key s1 o)) (order u)); cbn [fst]; [exact H1|].
  apply Inv_fold; [intros; apply Inv_finalize1; assumption|].
  eapply Inv_core_eq; [|exact H1]. apply fold_left_proj, core_sync_rel.
Qed.

Lemma Inv_step : forall cfg s o, Inv s -> Inv (fst (step cfg s o)).
Proof.
  intros cfg s o H. destruct o; cbn [step].
  - apply Inv_op_add, H.
  - apply Inv_op_delete, H.
  - apply Inv_op_expunge, H.
  - destruct (second_parent cfg s p ri c); cbn [fst]; [apply Inv_set_poison, H|apply Inv_op_append, H].
  - cbn [fst]. apply Inv_op_remove, H.
  - cbn [fst]. unfold op_setparent. apply Inv_scalar_set, H.
  - destruct (existsb (second_parent cfg s p ri) cs); cbn [fst]; [apply Inv_set_poison, H|apply Inv_op_replace, H].
  - unfold op_flush. apply Inv_flush_with, H.
  - apply Inv_op_expire, H.
Qed.

Theorem run_Inv : forall cfg ops, Inv (run cfg ops).
Proof. intros cfg ops. unfold run. apply fold_left_inv; [intros s o _; apply Inv_step|apply Inv_init]. Qed.
