(* C34 - [Inv] (every object satisfies [jb], the identity map is functional) is [stable] *)
From Coq Require Import List ZArith Bool Arith.
Import ListNotations.
From SAV.orm Require Import IdMap IdMapSpec IdMapLemmas IdMapStep.
Open Scope Z_scope.

(* what [pass_mono] asks of a pass, for a transformer applied whatever the index: it maps no new object
   and changes no key of a mapped one *)
Definition mono (g : obj -> obj) : Prop :=
  forall o, jb o = true -> jb (g o) = true /\ (iimap (g o) = true -> iimap o = true /\ okey (g o) = okey o).

Lemma pass_mono_cond : forall (c : nat -> bool) g st, mono g -> Inv st -> Inv (app_all (fun i o => if c i then g o else o) st).
Proof. intros c g st Hg. apply pass_mono. intros k o _ Hj. destruct (c k); [apply Hg; auto|]. split; auto. Qed.
Lemma pass_mono_all : forall g st, mono g -> Inv st -> Inv (app_all (fun _ => g) st).
Proof. intros g st. exact (pass_mono_cond (fun _ => true) g st). Qed.

(* with the record opened and the fields split that [jb] reads (and those the transformer tests), both
   sides of the claim compute *)
Ltac open_jb := unfold mono; intros [p [k|] tk s d [] [] x tn td ks].
Ltac mono_computes := cbn; intro H; (split; [|intro H2; split]); (reflexivity || discriminate).

Lemma mono_expunge : forall h t, mono (expunge_obj h t).
Proof. intros [] []; open_jb; mono_computes. Qed.
Lemma mono_restore_expunge : forall h, mono (restore_expunge_obj h).
Proof. intros []; open_jb; destruct tn; mono_computes. Qed.
Lemma mono_newly_deleted : forall h, mono (newly_deleted_obj h).
Proof. intros []; open_jb; mono_computes. Qed.
Lemma mono_expire : mono expire_obj.
Proof. open_jb; mono_computes. Qed.
Lemma mono_expire_if : mono (fun o => if iimap o then expire_obj o else o).
Proof. open_jb; mono_computes. Qed.
Lemma mono_end_tx : mono end_tx_obj.
Proof. open_jb; mono_computes. Qed.
Lemma mono_set_pk : forall v, mono (set_pk v).
Proof. intro; open_jb; mono_computes. Qed.
Lemma mono_commit : mono (fun o => let o1 := if iimap o then expire_obj o else o in if itdel o1 then detach_obj false o1 else o1).
Proof. open_jb; destruct td; mono_computes. Qed.

Lemma jb_keyed : forall o k, jb o = true -> okey o = Some k -> inew o = false.
Proof. intros o k Hj Hk. unfold jb in Hj. rewrite Hk in Hj. destruct (inew o); [discriminate|reflexivity]. Qed.
Lemma jb_of_keyed : forall o k, okey o = Some k -> inew o = false -> jb o = true.
Proof. intros o k Hk Hn. unfold jb. rewrite Hk, Hn. destruct (iimap o); reflexivity. Qed.

Lemma save_impl_inv : forall i st, Inv st -> Inv (fst (save_impl i st)).
Proof.
  intros i st HI. unfold save_impl. destruct (okey (get st i)) eqn:E; simpl; auto.
  apply pass_mono; [|apply autobegin_inv; auto].
  intros k o Hk Hj. unfold only. destruct (Nat.eqb_spec k i); [subst|split; auto].
  assert (Ko : okey o = None) by (rewrite <- (get_nth _ _ _ Hk), autobegin_get; exact E).
  split; auto. revert Hj. unfold jb. cbn. rewrite Ko. destruct (inew o), (iimap o); auto.
Qed.

(* [add] of a detached object, [delete]: mapped (again) under the key it has, if nobody else holds it *)
Lemma attach_inv : forall i g st key, (forall o, okey (g o) = okey o /\ inew (g o) = inew o) ->
  okey (get st i) = Some key -> conflict i (autobegin st) = false -> Inv st -> Inv (app_all (only i g) (autobegin st)).
Proof.
  intros i g st key Hg E Ec HI.
  apply (pass_add i g _ key); [rewrite autobegin_get; exact E|exact Ec| |apply autobegin_inv; auto].
  intros o Hj Ko. destruct (Hg o) as [K N]. rewrite K. split; auto.
  apply (jb_of_keyed _ key); [congruence|]. rewrite N. apply (jb_keyed o key); auto.
Qed.

Lemma update_impl_inv : forall i st, Inv st -> Inv (fst (update_impl i st)).
Proof.
  intros i st HI. unfold update_impl. destruct (okey (get st i)) as [k|] eqn:E; simpl; auto.
  destruct (odel (get st i)); simpl; auto.
  destruct (conflict i (autobegin st)) eqn:Ec; simpl; [apply autobegin_inv; auto|].
  apply (attach_inv i _ st k); auto.
Qed.

Lemma delete_impl_inv : forall i st, Inv st -> Inv (fst (delete_impl i st)).
Proof.
  intros i st HI. unfold delete_impl. destruct (okey (get st i)) as [k|] eqn:E; simpl; auto.
  destruct (isdel (get st i)); simpl; [apply autobegin_inv; auto|].
  destruct (conflict i (autobegin st)) eqn:Ec; simpl; [apply autobegin_inv; auto|].
  apply Inv_flag_bad. apply (attach_inv i _ st k); auto.
Qed.

(* identity_map.replace(): whatever ends up keyed [key] and not pending may claim [key] *)
Lemma claim_inv : forall i key g st,
  (forall o, nth_error (objs st) i = Some o -> jb o = true -> okey (g o) = Some key /\ inew (g o) = false) ->
  Inv st -> Inv (app_claim i key g st).
Proof.
  intros i key g st Hg HI. apply Inv_flag_bad. apply pass_claiming; auto. intros o Hk Hj.
  destruct (Hg o Hk Hj) as [K N]. split; auto. apply (jb_of_keyed _ key); auto.
Qed.

Lemma revert_impl_inv : forall i st, Inv st -> Inv (fst (revert_impl i st)).
Proof.
  intros i st HI. unfold revert_impl. destruct (okey (get st i)) as [k|] eqn:E; simpl; auto.
  destruct (odel (get st i) && negb (osess (get st i))); simpl; auto.
  apply claim_inv; auto. intros o Hk Hj.
  assert (Ko : okey o = Some k) by (rewrite <- (get_nth _ _ _ Hk); exact E).
  split; [exact Ko|exact (jb_keyed o k Hj Ko)].
Qed.

Lemma unswitch_one_inv : forall i st, Inv st -> detached_new st -> Inv (unswitch_one i st).
Proof.
  intros i st HI HN. unfold unswitch_one. destruct (oksw (get st i)) as [old|]; auto.
  destruct (itnew (get st i)); auto.
  apply Inv_flag_bad. apply claim_inv; auto. intros o Hk _. split; [reflexivity|].
  destruct (andb_prop _ _ (HN i o Hk)) as [Hn _]. apply negb_true_iff in Hn. exact Hn.
Qed.

Lemma restore_snapshot_inv : forall st, Inv st -> Inv (fst (restore_snapshot st)).
Proof.
  intros st HI. apply restore_snapshot_pres.
  - apply pass_mono_all; auto. apply mono_restore_expunge.
  - intros; apply unswitch_one_inv; auto.
  - intros; apply revert_impl_inv; auto.
  - intros; apply pass_mono_all; auto. apply mono_expire_if.
Qed.

Lemma end_tx_inv : forall st, Inv st -> Inv (end_tx st).
Proof. intros. unfold end_tx. apply Inv_set_tx. apply pass_mono_all; auto. apply mono_end_tx. Qed.

Lemma register_one_inv : forall st i, Inv st -> Inv (register_one st i).
Proof.
  intros st i HI. unfold register_one. apply claim_inv; auto. intros o _ _.
  destruct (register_obj_fields (has_tx st) (pk (get st i), otok (get st i)) o) as (K & _ & N & _). auto.
Qed.

Lemma finalize_inv : forall st0 reg st, Inv st -> Inv (finalize st0 reg st).
Proof.
  intros st0 reg st HI. unfold finalize. apply fold_left_inv.
  - intros i s Hs. destruct (reg i); auto. apply register_one_inv; auto.
  - apply (pass_mono_cond (fun i => isdel (get st0 i))); auto. apply mono_newly_deleted.
Qed.

Lemma load_row_inv : forall k st, Inv st -> Inv (fst (load_row k st)).
Proof.
  intros k st HI. unfold load_row. destruct (holder k st) eqn:Eh; simpl; auto.
  apply add_obj_inv; auto. simpl. intros _ k' Hk' j. inversion Hk'; subst. destruct k'. simpl in *.
  eapply holder_none; eauto.
Qed.

Lemma Inv_stable : stable Inv.
Proof.
  split.
  - intros; apply Inv_set_flushed; auto.
  - exact autobegin_inv.
  - intros; apply Inv_set_tx; auto.
  - exact end_tx_inv.
  - intros; apply add_obj_inv; auto. discriminate.
  - exact load_row_inv.
  - exact save_impl_inv.
  - exact update_impl_inv.
  - exact delete_impl_inv.
  - intros; apply pass_mono_cond; auto. apply mono_set_pk.
  - intros; apply pass_mono_cond; auto. apply mono_expire.
  - intros; apply pass_mono_cond; auto. apply mono_expunge.
  - intros; apply Inv_flag_bad, pass_mono_cond; auto. apply mono_newly_deleted.
  - intros; apply pass_mono_all; auto. apply mono_commit.
  - intros; apply restore_snapshot_inv; auto.
  - intros; apply finalize_inv; auto.
Qed.

Lemma step_inv : forall e o st, Inv st -> Inv (rst (step e o st)).
Proof. exact (step_pres Inv Inv_stable). Qed.

Lemma init_inv : forall b pks, Inv (init b pks).
Proof.
  intros. split.
  - intros k o Hk. apply init_nth in Hk as [pk ->]. reflexivity.
  - intros k i j [o [Hk [Hi _]]]. apply init_nth in Hk as [pk ->]. discriminate.
Qed.

(* the identity map of every reachable state is a partial function, and what it maps has that key *)
Theorem reachable_functional : forall b pks h, functional (run h (init b pks)).
Proof. intros. apply (run_pres Inv Inv_stable h (init b pks) (init_inv b pks)). Qed.
Theorem reachable_keyed : forall b pks h k o,
  nth_error (objs (run h (init b pks))) k = Some o ->
  (iimap o = true -> okey o <> None) /\ (inew o = true -> okey o = None).
Proof.
  intros b pks h k o Hk. destruct (run_pres Inv Inv_stable h (init b pks) (init_inv b pks)) as [HJ _].
  specialize (HJ k o Hk). unfold jb in HJ. destruct (inew o), (iimap o), (okey o); try discriminate; split; congruence.
Qed.
