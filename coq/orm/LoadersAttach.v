(* C40 - the statements issued by lazy, selectin and subquery loads: the tag group of a parent key is what
   the relationship relates to that key, in relationship order. *)
From Coq Require Import List ZArith Bool.
Import ListNotations.
From SAV.orm Require Import Loaders LoadersBase LoadersJoin LoadersStmt LoadersSrc.
Open Scope Z_scope.

Lemma lazy_group : forall s k, wf_step s -> group (SrcLazy s k) None = related_k s k.
Proof.
  intros s k WS. apply (derived_group s); [split; [auto|reflexivity]|]. intro c. cbn [src_base].
  rewrite in_map_iff, <- filter_In. split; [intros [r [[= <-] Hr]]|]; eauto.
Qed.

Lemma in_tagged_by_key : forall K k c R,
  In (Some k, c) (map (fun r => (child_key K r, r)) R) <-> In c R /\ okey_eqb (Some k) (child_key K c) = true.
Proof.
  intros. rewrite in_map_iff, okey_eqb_true. split.
  - intros [r [[= E <-] Hr]]. eauto.
  - intros [Hc [k' [[= <-] Ck]]]. exists c. rewrite Ck. auto.
Qed.

Lemma in_group : forall s ks k, wf_step s -> In k ks -> group (SrcIn s ks) (Some k) = related_k s k.
Proof.
  intros s ks k WS Hk. apply (derived_group s); [split; [auto|reflexivity]|]. intro c. cbn [src_base].
  rewrite in_tagged_by_key, filter_In. unfold match_key. split; [tauto|]. intros [Hc M]. repeat split; auto.
  apply okey_eqb_true in M as [k' [[= <-] ->]]. apply memZ_in; auto.
Qed.

Lemma subq_group : forall orig first rest k,
  let tgt := last_step first rest in
  wf_step tgt ->
  (forall c, In c (st_table tgt) -> match_key tgt k c = true -> In c (ireach (subq_rows1 orig first) rest)) ->
  group (SrcSubq orig first rest) (Some k) = related_k tgt k.
Proof.
  intros orig first rest k tgt WS Hcover. apply (derived_group tgt); [split; [auto|reflexivity]|]. intro c.
  rewrite src_base_subq, in_tagged_by_key. fold tgt. unfold match_key in *. split; [|intros []; auto].
  intros [Hc M]. split; auto. eapply ireach_table; [apply subq_rows1_table|exact Hc].
Qed.
