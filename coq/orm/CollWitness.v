(* C38 - the vocabulary of the concrete witnesses in props/C38.v *)
From Coq Require Import List ZArith.
Import ListNotations.
From SAV.base Require Import PySlice.
From SAV.orm Require Import CollBase CollList.
Open Scope Z_scope.

Definition sl (a b c : option Z) : pyslice := mkslice a b c.

(* result and contents of one instrumented list operation, for comparison with py_list_op *)
Definition sa_list_rc (l : list item) (op : lop) : res retv * list item :=
  let '(r, l', _) := sa_list_run1 l op in (r, l').
Definition sa_list_events (l : list item) (op : lop) : list ev :=
  let '(_, _, g) := sa_list_run1 l op in g.

Definition unaccounted (before after : list item) (g : list ev) : Prop :=
  exists x, countZ x after - countZ x before <> net x g.
