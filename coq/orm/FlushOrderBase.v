(* C31 - basic lemmas: lookups of states, the action numbering, the dependency tables, membership in the final
   dependency set / item set, layers of the topological sort *)
From Coq Require Import List NArith Bool Lia.
Import ListNotations.
From SAV.util Require Import Topo TopoRun TopoProofs.
From SAV.orm Require Import FlushOrder FlushOrderSpec.
Local Open Scope N_scope.

Lemma In_dedup x l : In x (dedup l) <-> In x l.
Proof. induction l as [|a l IH]; simpl; [tauto|]. destruct (memb a (dedup l)) eqn:M.
  - apply memb_In in M. split; [intros H; right; apply IH, H|]. intros [->|H]; [exact M|apply IH, H].
  - simpl. rewrite IH. tauto. Qed.

Lemma NoDup_dedup l : NoDup (dedup l).
Proof. induction l as [|a l IH]; simpl; [constructor|]. destruct (memb a (dedup l)) eqn:M; [exact IH|].
  constructor; [apply memb_false; exact M|exact IH]. Qed.

Lemma nodupb_NoDup l : nodupb l = true -> NoDup l.
Proof. induction l as [|a l IH]; simpl; intros H; [constructor|]. apply andb_true_iff in H. destruct H as [H1 H2].
  constructor; [apply memb_false, negb_true_iff, H1|apply IH, H2]. Qed.

Lemma in_one {A} (c : bool) (x y : A) : In y (if c then [x] else []) -> c = true /\ y = x.
Proof. destruct c; [intros [<-|[]]; auto|intros []]. Qed.

Lemma pending_role g s : pending g s = true -> role_of g s = 1.
Proof. unfold pending. intros H. apply andb_true_iff in H. destruct H as [_ H]. apply N.eqb_eq, H. Qed.

Lemma survives_role g t : survives g t = true -> role_of g t <> 2.
Proof. unfold survives, role_of, st_of. destruct (find _ (g_sts g)) as [x|]; [|discriminate].
  destruct (s_key x); intros H E; rewrite E in H; discriminate. Qed.

Lemma st_of_some g s x : st_of g s = Some x -> In x (g_sts g) /\ s_id x = s.
Proof. unfold st_of. intros H. apply find_some in H. destruct H as [H1 H2]. apply N.eqb_eq in H2. auto. Qed.
Lemma role_nonzero g s : role_of g s <> 0 -> exists x, st_of g s = Some x /\ In x (g_sts g) /\ s_id x = s /\
  s_role x = role_of g s /\ s_map x = map_of g s /\ s_key x = key_of g s.
Proof. unfold role_of, map_of, key_of, st_of. destruct (find _ (g_sts g)) as [x|] eqn:E; [|intros H; exfalso; apply H; reflexivity].
  intros _. exists x. apply find_some in E. destruct E as [E1 E2]. apply N.eqb_eq in E2. auto 10. Qed.

Lemma ref1_survive g : consistent g = true -> forall s c t, In (s, c, t) (g_ref1 g) -> survives g s = true /\ survives g t = true.
Proof. intros X s c t H. unfold consistent in X. repeat (apply andb_true_iff in X; destruct X as [X _]).
  rewrite forallb_forall in X. specialize (X _ H). simpl in X. apply andb_true_iff in X. exact X. Qed.

Lemma b2n_inj a b : b2n a = b2n b -> a = b.
Proof. destruct a, b; simpl; intros H; try reflexivity; discriminate. Qed.
Lemma b2n_le b : b2n b <= 1.
Proof. destruct b; simpl; lia. Qed.

Definition coarse (a : action) : bool :=
  match a with SaveAll _ | DelAll _ | ProcAll _ _ => true | _ => false end.

Lemma mod7 q r : r < 7 -> (7 * q + r) mod 7 = r.
Proof. intros H. rewrite N.add_comm, N.mul_comm. rewrite N.mod_add by lia. apply N.mod_small. exact H. Qed.

Lemma code_mod a : code a mod 7 = match a with SaveAll _ => 0 | DelAll _ => 1 | ProcAll _ _ => 2 | PostAll _ _ => 3
                                             | SaveSt _ => 4 | DelSt _ => 5 | ProcSt _ _ _ => 6 end.
Proof. destruct a; unfold code; try (apply mod7; lia). replace (7 * m) with (7 * m + 0) by lia. apply mod7. lia. Qed.

(* the numbering is injective away from the per-state processors (whose codes need d < K): the remainder
   mod 7 tells the constructor, the quotient its arguments *)
Lemma code_inj a b : (forall d i s, b <> ProcSt d i s) -> code a = code b -> a = b.
Proof. intros N H. pose proof (f_equal (fun n => n mod 7) H) as M. cbv beta in M. rewrite !code_mod in M.
  destruct b; try (exfalso; eapply N; reflexivity); clear N; destruct a; try discriminate M;
    unfold code, b2n in H; repeat match goal with b : bool |- _ => destruct b end; try lia; f_equal; lia. Qed.
Lemma code_SaveSt s a : code a = code (SaveSt s) -> a = SaveSt s.
Proof. apply code_inj. intros; discriminate. Qed.
Lemma code_DelSt s a : code a = code (DelSt s) -> a = DelSt s.
Proof. apply code_inj. intros; discriminate. Qed.

Lemma amemb_In a l : In a l -> amemb a l = true.
Proof. intros H. unfold amemb. apply memb_In. apply in_map. exact H. Qed.
Lemma amemb_true a l : amemb a l = true -> exists b, In b l /\ code b = code a.
Proof. unfold amemb. intros H. apply memb_In in H. apply in_map_iff in H. destruct H as [b [H1 H2]].
  exists b. split; assumption. Qed.

Lemma incyc_coarse cy a : cyc_shape cy = true -> incyc cy a = true -> coarse a = true.
Proof. intros Hs Hi. unfold incyc in Hi. apply memb_In in Hi. unfold cyc_shape in Hs.
  rewrite forallb_forall in Hs. specialize (Hs _ Hi). apply N.ltb_lt in Hs.
  rewrite code_mod in Hs. destruct a; try reflexivity; lia. Qed.

Lemma shape_out cy a : cyc_shape cy = true -> coarse a = false -> incyc cy a = false.
Proof. intros H C. destruct (incyc cy a) eqn:E; [|reflexivity]. apply (incyc_coarse _ _ H) in E. congruence. Qed.

Lemma disabled_is_ProcAll g cy a : amemb a (disabled g cy) = true -> exists d b, a = ProcAll d b.
Proof. intros H. apply amemb_true in H. destruct H as [b [H1 H2]]. unfold disabled in H1.
  apply in_flat_map in H1. destruct H1 as [c [_ H1]].
  destruct c; simpl in H1; try contradiction; apply in_map_iff in H1; destruct H1 as [d [<- _]];
    symmetry in H2; (apply code_inj in H2; [eauto|intros; discriminate]). Qed.

Lemma not_disabled g cy a : (forall d b, a <> ProcAll d b) -> amemb a (disabled g cy) = false.
Proof. intros H. destruct (amemb a (disabled g cy)) eqn:E; [|reflexivity].
  apply disabled_is_ProcAll in E. destruct E as [d [b ->]]. exfalso. eapply H. reflexivity. Qed.

Lemma prop_edges_forall (P : N -> bool -> role * role -> bool) T :
  forallb (fun e => forallb (P (fst (fst e)) (snd (fst e))) (snd e)) (t_prop T) = true ->
  forall k p rr, In rr (prop_edges T k p) -> P k p rr = true.
Proof. intros H k p rr. unfold prop_edges. destruct (find _ (t_prop T)) as [e|] eqn:F; [|intros []]. intros Hi.
  apply find_some in F. destruct F as [F1 F2]. apply andb_true_iff in F2. destruct F2 as [A B]. apply N.eqb_eq in A. apply eqb_prop in B.
  rewrite forallb_forall in H. specialize (H e F1). rewrite forallb_forall in H. rewrite <- A, <- B. apply H, Hi. Qed.

Lemma state_edges_forall (P : N -> bool -> bool -> bool -> srole * srole -> bool) T :
  forallb (fun e => match fst e with (k, p, i, c) => forallb (P k p i c) (snd e) end) (t_state T) = true ->
  forall k p i c xy, In xy (state_edges T k p i c) -> P k p i c xy = true.
Proof. intros H k p i c xy. unfold state_edges. destruct (find _ (t_state T)) as [e|] eqn:F; [|intros []]. intros Hi.
  apply find_some in F. destruct F as [F1 F2]. rewrite forallb_forall in H. specialize (H e F1).
  destruct e as [[[[k' p'] i'] c'] l]. simpl in *. rewrite !andb_true_iff in F2. destruct F2 as [[[A B] C] D].
  apply N.eqb_eq in A. apply eqb_prop in B, C, D. subst. rewrite forallb_forall in H. apply H, Hi. Qed.

Definition FE T g cy := final_edges T g cy.
Definition FI g cy := final_items g cy.

Lemma FE_intro T g cy e x : In e (all_edges T g cy) -> In x (rewrite1 g cy (disabled g cy) e) -> In x (final_edges T g cy).
Proof. intros H1 H2. unfold final_edges. apply in_flat_map. exists e. split; assumption. Qed.

Definition clean g cy a := amemb a (disabled g cy) = false.

Lemma rewrite1_clean g cy a b : clean g cy a -> clean g cy b ->
  rewrite1 g cy (disabled g cy) (Some a, Some b) =
  if incyc cy a && incyc cy b then [] else if incyc cy a then map (fun x => (x, b)) (convert g a)
  else if incyc cy b then map (fun x => (a, x)) (convert g b) else [(a, b)].
Proof. unfold clean, rewrite1. intros -> ->. reflexivity. Qed.

Lemma all_edges_0 T g cy a b : In (a, b) (edges0 T g) -> In (Some a, Some b) (all_edges T g cy).
Proof. intros H. unfold all_edges. apply in_or_app. left. apply in_map_iff. exists (a, b). split; [reflexivity|exact H]. Qed.
Lemma all_edges_x T g cy c e : In c (actions0 g) -> incyc cy c = true -> In e (expand_edges T g cy c) ->
  In e (all_edges T g cy).
Proof. intros H1 H2 H3. unfold all_edges. apply in_or_app. right. apply in_flat_map. exists c. split; [|exact H3].
  unfold cyc_actions. apply filter_In. split; assumption. Qed.

Lemma edges0_dep T g d r1 r2 : In d (g_deps g) -> d_active d = true ->
  In (r1, r2) (prop_edges T (d_kind d) (d_post d)) -> In (role_act d r1, role_act d r2) (edges0 T g).
Proof. intros Hd Ha Hr. unfold edges0. apply in_or_app. right. apply in_flat_map. exists d. split.
  - unfold active. apply filter_In. split; assumption.
  - unfold dep_edges0. apply in_map_iff. exists (r1, r2). split; [reflexivity|exact Hr]. Qed.

Lemma edges0_inv T g a b : In (a, b) (edges0 T g) ->
  (exists m, a = SaveAll m /\ b = DelAll m) \/
  (exists d r1 r2, In d (g_deps g) /\ d_active d = true /\ In (r1, r2) (prop_edges T (d_kind d) (d_post d)) /\
                   a = role_act d r1 /\ b = role_act d r2).
Proof. unfold edges0. intros H. apply in_app_or in H. destruct H as [H|H].
  - apply in_map_iff in H. destruct H as [m [E _]]. inversion E. left. eauto.
  - apply in_flat_map in H. destruct H as [d [Hd H]]. unfold active in Hd. apply filter_In in Hd. destruct Hd as [Hd Ha].
    unfold dep_edges0 in H. apply in_map_iff in H. destruct H as [[r1 r2] [E H]]. inversion E. right. exists d, r1, r2. auto. Qed.

Lemma actions0_dep g d a : In d (g_deps g) -> d_active d = true -> In a (dep_actions0 d) -> In a (actions0 g).
Proof. intros Hd Ha H. unfold actions0. apply in_or_app. right. apply in_flat_map. exists d. split; [|exact H].
  unfold active. apply filter_In. split; assumption. Qed.

Lemma FI_0 g cy a : In a (actions0 g) -> clean g cy a -> incyc cy a = false -> In a (final_items g cy).
Proof. intros H1 H2 H3. unfold final_items. apply filter_In. split; [apply in_or_app; left; exact H1|].
  unfold clean in H2. rewrite H2, H3. reflexivity. Qed.
Lemma FI_x g cy c a : In c (actions0 g) -> incyc cy c = true -> In a (expand_acts g cy c) ->
  clean g cy a -> incyc cy a = false -> In a (final_items g cy).
Proof. intros H0 H1 H2 H3 H4. unfold final_items. apply filter_In. split.
  - apply in_or_app; right. apply in_flat_map. exists c. split; [|exact H2]. unfold cyc_actions. apply filter_In. split; assumption.
  - unfold clean in H3. rewrite H3, H4. reflexivity. Qed.

Lemma lidx_notin r n : ~ In n (concat r) -> lidx r n = None.
Proof. induction r as [|l r IH]; simpl; intros H; [reflexivity|].
  destruct (memb n l) eqn:M; [exfalso; apply H, in_or_app; left; apply memb_In, M|].
  rewrite IH; [reflexivity|]. intros Hc. apply H, in_or_app. right. exact Hc. Qed.

Lemma lidx_in r n : In n (concat r) -> exists k, lidx r n = Some k.
Proof. induction r as [|l r IH]; simpl; intros H; [contradiction|].
  destruct (memb n l) eqn:M; [eauto|]. apply in_app_or in H. destruct H as [H|H]; [apply memb_In in H; congruence|].
  destruct (IH H) as [k ->]. eauto. Qed.

Lemma nodup_app_disj {A} (l r : list A) x : NoDup (l ++ r) -> In x l -> In x r -> False.
Proof. induction l as [|a l IH]; simpl; intros Hn Hl Hr; [contradiction|]. inversion Hn; subst.
  destruct Hl as [->|Hl]; [apply H1, in_or_app; right; exact Hr|apply IH; assumption]. Qed.

Lemma nodup_app_r {A} (l r : list A) : NoDup (l ++ r) -> NoDup r.
Proof. induction l as [|a l IH]; simpl; intros H; [exact H|]. inversion H; subst. apply IH. assumption. Qed.

Lemma earlier_lidx r p c : NoDup (concat r) -> earlier r p c ->
  exists i j, lidx r p = Some i /\ lidx r c = Some j /\ (i < j)%nat.
Proof.
  intros Hn [r1 [L [r2 [-> [Hc Hp]]]]]. revert Hn Hp. induction r1 as [|l r1 IH]; simpl; intros Hn Hp; [contradiction|].
  assert (Hcr : In c (concat (r1 ++ L :: r2))).
  { rewrite concat_app. simpl. apply in_or_app. right. apply in_or_app. left. exact Hc. }
  assert (Mc : memb c l = false).
  { apply memb_false. intros Hcl. exact (nodup_app_disj _ _ _ Hn Hcl Hcr). }
  rewrite Mc. apply in_app_or in Hp. destruct Hp as [Hp|Hp].
  - assert (Mp : memb p l = true) by (apply memb_In; exact Hp). rewrite Mp.
    destruct (lidx_in _ _ Hcr) as [k Hk]. rewrite Hk. exists O, (S k). repeat split; lia.
  - assert (Hn2 : NoDup (concat (r1 ++ L :: r2))) by (eapply nodup_app_r; exact Hn).
    destruct (IH Hn2 Hp) as [i [j [H1 [H2 H3]]]].
    assert (Mp : memb p l = false).
    { apply memb_false. intros Hpl. apply (nodup_app_disj _ _ _ Hn Hpl).
      rewrite concat_app. apply in_or_app. left. exact Hp. }
    rewrite Mp, H1, H2. exists (S i), (S j). repeat split; lia.
Qed.
