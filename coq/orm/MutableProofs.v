(* C49 - an invariant [Inv] of every guarded history of coq/orm/Mutable.v, kept by each operation through
   inv_frame (what Inv does not read may change) and inv_update (one parent record and its row are replaced). *)
From Coq Require Import List ZArith Bool Arith Lia.
Import ListNotations.
From SAV.base Require Import PySlice.
From SAV.orm Require Import CollBase CollList CollSet CollDict Mutable.
Local Open Scope nat_scope.

Lemma ceq_refl : forall a, ceq a a = true.
Proof. intros; unfold ceq; destruct (cont_eq_dec (canon a) (canon a)); congruence. Qed.
Lemma ceq_true : forall a b, ceq a b = true <-> canon a = canon b.
Proof. intros; unfold ceq; destruct (cont_eq_dec (canon a) (canon b)); split; congruence. Qed.
Lemma ceq_sym : forall a b, ceq a b = true -> ceq b a = true.
Proof. intros a b; rewrite !ceq_true; congruence. Qed.
Lemma ceq_trans : forall a b c, ceq a b = true -> ceq b c = true -> ceq a c = true.
Proof. intros a b c; rewrite !ceq_true; congruence. Qed.
Lemma ceq_opt_refl : forall a, ceq_opt a a = true.
Proof. destruct a; simpl; auto using ceq_refl. Qed.
Lemma ceq_opt_sym : forall a b, ceq_opt a b = true -> ceq_opt b a = true.
Proof. destruct a, b; simpl; auto using ceq_sym. Qed.
Lemma ceq_opt_trans : forall a b c, ceq_opt a b = true -> ceq_opt b c = true -> ceq_opt a c = true.
Proof. intros a b c; destruct a, b, c; simpl; intros; try congruence; eapply ceq_trans; eauto. Qed.

Lemma memb_In : forall m l, memb m l = true <-> In m l.
Proof.
  intros m l; unfold memb; rewrite existsb_exists; split.
  - intros [x [Hx E]]. apply internal_meth_dec_bl in E; subst; auto.
  - intros H; exists m; split; auto. apply internal_meth_dec_lb; auto.
Qed.

Lemma covers_spec : forall k ovl, covers k ovl = true ->
  forall m, In m (in_place_mutators k) -> memb m ovl = true.
Proof. intros k ovl H m Hm; unfold covers in H; rewrite forallb_forall in H; auto. Qed.

Lemma covers_all_spec : forall ov, covers_all ov = true -> forall k, covers k (ov k) = true.
Proof.
  intros ov H k; unfold covers_all in H.
  apply andb_prop in H; destruct H as [H H3]; apply andb_prop in H; destruct H as [H1 H2].
  destruct k; auto.
Qed.

(* the Python data model, as used: an operation whose method is not an in-place mutator of the
   value's type leaves the contents unchanged (by inspection of the reference semantics).
   Stated with [memb] so that every mutator case is closed by computing the table lookup; what
   remains is the wrong-type calls, get / __contains__, and the slice read. *)
Lemma nonmutator_unchanged : forall ord c o,
  memb (meth_of o) (in_place_mutators (kind_of c)) = false -> snd (mut_sem ord c o) = c.
Proof.
  intros ord c o H.
  destruct c as [d|l|s], o as [op|k|op|rv|op|x]; try reflexivity; try destruct op; try discriminate H.
  simpl. destruct (py_getslice _ _); reflexivity.
Qed.

Lemma raise_unchanged : forall ord c o e c', mut_sem ord c o = (Raise e, c') -> c' = c.
Proof.
  intros ord c o e c' H.
  (* every builtin call goes through [fin], which returns the old contents on Raise *)
  destruct c, o; simpl in H; try (inversion H; reflexivity);
    [destruct (py_dict_op _ _) as [[?|?] ?]|destruct (py_list_op _ _) as [[?|?] ?]
    |destruct (py_set_op _ _ _) as [[?|?] ?]]; inversion H; reflexivity.
Qed.

(* iI   parent tracking: whoever holds a value object is among its _parents
   iF*  freshness: every referenced value object was allocated
   iPM  an unflagged parent has no committed_state entry
   iJ   a session instance without committed_state entry holds the database's value
   iK   a recorded original value equals the database's value
   iNP  pids 0 and 1 are the session's instances; copies get pids from 2 on *)
Record Inv (w : world) : Prop := mkInv {
  iI : forall p o, slot (objs w p) = Pres (Some o) -> In p (vpar (heap w o));
  iF1 : forall p o, slot (objs w p) = Pres (Some o) -> o < nexto w;
  iF2 : forall p q, cst (objs w p) = Some (OVal (Some q)) -> q < nexto w;
  iF3 : forall o, hdl w = Some o -> o < nexto w;
  iPM : forall p, pmod (objs w p) = false -> cst (objs w p) = None;
  iJ : forall r, r < 2 -> cst (objs w r) = None ->
       forall v, slot (objs w r) = Pres v -> ceq_opt (val w v) (db w r) = true;
  iK : forall r, r < 2 -> forall u, cst (objs w r) = Some (OVal u) -> ceq_opt (val w u) (db w r) = true;
  iNP : 2 <= nextp w
}.

Lemma upd_same : forall A (f : nat -> A) k v, upd f k v k = v.
Proof. intros; unfold upd; rewrite Nat.eqb_refl; reflexivity. Qed.
Lemma upd_other : forall A (f : nat -> A) k v j, j <> k -> upd f k v j = f j.
Proof. intros; unfold upd; destruct (Nat.eqb_spec j k); congruence. Qed.

Lemma touch_heap : forall w p, heap (touch w p) = heap w.
Proof. intros; unfold touch; destruct (is_session p); reflexivity. Qed.
Lemma touch_objs : forall w p, objs (touch w p) = objs w.
Proof. intros; unfold touch; destruct (is_session p); reflexivity. Qed.
Lemma touch_nexto : forall w p, nexto (touch w p) = nexto w.
Proof. intros; unfold touch; destruct (is_session p); reflexivity. Qed.

Lemma inv_init : forall d0 d1, Inv (init_world d0 d1).
Proof.
  intros; constructor; simpl; intros; try discriminate; auto.
Qed.

Lemma inv_holder : forall w p o,
  Inv w -> slot (objs w p) = Pres (Some o) -> In p (vpar (heap w o)) /\ o < nexto w.
Proof. intros w p o HI H; split; [apply (iI _ HI)|apply (iF1 _ HI p)]; auto. Qed.

(* flagging: committed_state := NO_VALUE, modified := True on some parents *)
Definition flag_ext (w w' : world) : Prop :=
  heap w' = heap w /\ nexto w' = nexto w /\ nextp w' = nextp w /\ hdl w' = hdl w /\ db w' = db w /\
  copies w' = copies w /\
  forall p, slot (objs w' p) = slot (objs w p) /\
            ((cst (objs w' p) = cst (objs w p) /\ pmod (objs w' p) = pmod (objs w p)) \/
             (cst (objs w' p) = Some ONoValue /\ pmod (objs w' p) = true)).

Lemma flag_ext_refl : forall w, flag_ext w w.
Proof. intros; repeat split; auto. Qed.
Lemma flag_ext_trans : forall a b c, flag_ext a b -> flag_ext b c -> flag_ext a c.
Proof.
  intros a b c (H1 & H2 & H3 & H4 & H5 & H6 & H7) (G1 & G2 & G3 & G4 & G5 & G6 & G7).
  repeat split; try congruence.
  - destruct (H7 p) as [S _], (G7 p) as [S' _]; congruence.
  - destruct (H7 p) as [_ A], (G7 p) as [_ B].
    destruct B as [[B1 B2]|[B1 B2]]; [|right; auto].
    destruct A as [[A1 A2]|[A1 A2]]; [left|right]; split; congruence.
Qed.

Lemma flag_ext_slot : forall w w', flag_ext w w' -> forall p, slot (objs w' p) = slot (objs w p).
Proof. intros w w' (_ & _ & _ & _ & _ & _ & Ho) p. apply Ho. Qed.
Lemma flag_ext_flagged : forall w w', flag_ext w w' ->
  forall p, cst (objs w p) = Some ONoValue -> cst (objs w' p) = Some ONoValue.
Proof.
  intros w w' (_ & _ & _ & _ & _ & _ & Ho) p H. destruct (Ho p) as [_ [[C _]|[C _]]]; congruence.
Qed.

Lemma flag_ext_touch : forall w p, flag_ext w (touch w p).
Proof. intros; unfold touch; destruct (is_session p); repeat split; auto. Qed.

Lemma flag_ext_flag1 : forall w p,
  flag_ext w (touch (set_objs w (upd (objs w) p (flag_ps (objs w p)))) p).
Proof.
  intros. eapply flag_ext_trans; [|apply flag_ext_touch].
  do 6 (split; [reflexivity|]). intros q; simpl.
  unfold upd; destruct (Nat.eqb_spec q p); subst; simpl; auto.
Qed.

(* What Inv reads of a world: the parent records; of the heap, the _parents lists of the allocated
   objects and the contents of those that a session instance compares with its row (the current
   value of an instance without committed_state entry, a recorded original); the handle; the
   database.  So it survives flagging, allocation, and a change of any other contents. *)
Lemma inv_frame : forall w w',
  Inv w ->
  nexto w <= nexto w' -> 2 <= nextp w' -> hdl w' = hdl w -> db w' = db w ->
  (forall p, slot (objs w' p) = slot (objs w p) /\
             ((cst (objs w' p) = cst (objs w p) /\ pmod (objs w' p) = pmod (objs w p)) \/
              (cst (objs w' p) = Some ONoValue /\ pmod (objs w' p) = true))) ->
  (forall o, o < nexto w -> vpar (heap w' o) = vpar (heap w o)) ->
  (forall r o, r < 2 -> o < nexto w ->
     cst (objs w' r) = None /\ slot (objs w r) = Pres (Some o) \/ cst (objs w r) = Some (OVal (Some o)) ->
     vcont (heap w' o) = vcont (heap w o)) ->
  Inv w'.
Proof.
  intros w w' [I F1 F2 F3 PM J K NP] Hn Hp Hd Hb Ho VP VC.
  constructor; rewrite ?Hd, ?Hb; auto.
  - intros p o H. destruct (Ho p) as [S _]. rewrite S in H. rewrite VP; eauto.
  - intros p o H. destruct (Ho p) as [S _]. rewrite S in H. apply (Nat.lt_le_trans _ (nexto w)); eauto.
  - intros p q H. destruct (Ho p) as [_ [[C _]|[C _]]]; rewrite C in H; [|discriminate].
    apply (Nat.lt_le_trans _ (nexto w)); eauto.
  - intros o H. apply (Nat.lt_le_trans _ (nexto w)); eauto.
  - intros p H. destruct (Ho p) as [_ [[C M]|[C M]]]; rewrite M in H; [|discriminate]. rewrite C; auto.
  - intros r Hr Hc v Hs. destruct (Ho r) as [S [[C _]|[C _]]]; [|congruence].
    rewrite S in Hs. pose proof Hc as Hc'. rewrite C in Hc'. specialize (J r Hr Hc' v Hs).
    destruct v as [o|]; auto. simpl in *. rewrite (VC r o); eauto.
  - intros r Hr u Hc. destruct (Ho r) as [_ [[C _]|[C _]]]; rewrite C in Hc; [|discriminate].
    specialize (K r Hr u Hc). destruct u as [o|]; auto. simpl in *. rewrite (VC r o); eauto.
Qed.

Lemma inv_flag_ext : forall w w', flag_ext w w' -> Inv w -> Inv w'.
Proof.
  intros w w' (Hh & Hn & Hp & Hd & Hb & _ & Ho) HI.
  apply (inv_frame w); rewrite ?Hh, ?Hn, ?Hp; auto. apply (iNP _ HI).
Qed.

(* Inv does not read copies, dbc, intrans *)
Lemma inv_ext : forall w w',
  objs w' = objs w -> heap w' = heap w -> nexto w' = nexto w -> 2 <= nextp w' ->
  hdl w' = hdl w -> db w' = db w -> Inv w -> Inv w'.
Proof.
  intros w w' Ho Hh Hn Hp Hd Hb HI. apply (inv_frame w); rewrite ?Ho, ?Hh, ?Hn; auto.
Qed.

Lemma inv_set_intrans : forall w b, Inv w -> Inv (set_intrans w b).
Proof. intros w b H; apply (inv_ext w); auto. apply (iNP _ H). Qed.
Lemma inv_touch : forall w p, Inv w -> Inv (touch w p).
Proof. intros; unfold touch; destruct (is_session p); auto using inv_set_intrans. Qed.

Lemma inv_alloc : forall w c pars, Inv w -> Inv (fst (alloc w c pars)).
Proof.
  intros w c pars HI.
  apply (inv_frame w); simpl; auto; try (intros; rewrite upd_other; auto; lia).
  apply (iNP _ HI).
Qed.

Lemma changed_loop_ext : forall ps w, flag_ext w (fst (changed_loop ps w)).
Proof.
  induction ps as [|p r IH]; intros w; simpl; [apply flag_ext_refl|].
  destruct (slot (objs w p)); simpl; [apply flag_ext_refl|].
  eapply flag_ext_trans; [apply flag_ext_flag1|apply IH].
Qed.

(* when every parent is loaded, changed() completes and every parent ends up flagged:
   flagging keeps slots (so the rest stays loaded) and never takes a flag back *)
Lemma changed_loop_all : forall ps w,
  forallb (fun p => match slot (objs w p) with Absent => false | Pres _ => true end) ps = true ->
  snd (changed_loop ps w) = true /\
  forall p, In p ps -> cst (objs (fst (changed_loop ps w)) p) = Some ONoValue.
Proof.
  induction ps as [|p r IH]; intros w H; simpl in *; [split; auto; intros ? []|].
  apply andb_prop in H; destruct H as [Hp Hr].
  destruct (slot (objs w p)) eqn:Sp; [discriminate|].
  set (w1 := touch (set_objs w (upd (objs w) p (flag_ps (objs w p)))) p).
  destruct (IH w1) as [A B].
  { rewrite forallb_forall in *. intros q Hq. rewrite (flag_ext_slot _ _ (flag_ext_flag1 w p)). auto. }
  split; auto. intros q [->|Hq]; auto.
  apply (flag_ext_flagged _ _ (changed_loop_ext r w1)).
  unfold w1. rewrite touch_objs. simpl. rewrite upd_same. reflexivity.
Qed.

Lemma In_add_par : forall p q l, In q l \/ q = p -> In q (add_par p l).
Proof.
  intros p q l H; unfold add_par. destruct (existsb (Nat.eqb p) l) eqn:E.
  - destruct H as [H| ->]; auto. apply existsb_exists in E. destruct E as [x [Hx E]].
    apply Nat.eqb_eq in E; subst; auto.
  - apply in_or_app. destruct H; [left|right]; simpl; auto.
Qed.
Lemma In_remove_par : forall p q l, In q l -> q <> p -> In q (remove_par p l).
Proof.
  intros p q l H N; unfold remove_par; apply filter_In; split; auto.
  destruct (Nat.eqb_spec p q); simpl; congruence.
Qed.

(* the set listener rewrites _parents lists only *)
Lemma upd_par_vcont : forall h k l o, vcont (upd h k (mkV (vcont (h k)) l) o) = vcont (h o).
Proof. intros; unfold upd; destruct (Nat.eqb_spec o k); subst; auto. Qed.
Lemma upd_par_In : forall h k l o (p : nat),
  In p (vpar (h o)) -> (In p (vpar (h k)) -> In p l) -> In p (vpar (upd h k (mkV (vcont (h k)) l) o)).
Proof. intros; unfold upd; destruct (Nat.eqb_spec o k); subst; auto. Qed.

Lemma set_obj_vcont : forall w p v o, vcont (heap (set_obj w p v) o) = vcont (heap w o).
Proof.
  intros; unfold set_obj. rewrite touch_heap; simpl.
  destruct (same_val (slot (objs w p)) v); auto.
  destruct (slot (objs w p)) as [|[q|]], v as [x|]; rewrite ?upd_par_vcont; auto.
Qed.

Lemma set_obj_frame : forall w p v,
  nexto (set_obj w p v) = nexto w /\ nextp (set_obj w p v) = nextp w /\ hdl (set_obj w p v) = hdl w /\
  db (set_obj w p v) = db w /\ copies (set_obj w p v) = copies w /\
  (forall p', p' <> p -> objs (set_obj w p v) p' = objs w p') /\
  slot (objs (set_obj w p v) p) = Pres v /\ pmod (objs (set_obj w p v) p) = true /\
  cst (objs (set_obj w p v) p) =
    match cst (objs w p) with
    | Some x => Some x
    | None => Some (match slot (objs w p) with Absent => ONoValue | Pres u => OVal u end)
    end.
Proof.
  intros; unfold set_obj, touch; destruct (is_session p); simpl; rewrite upd_same;
    repeat split; auto using upd_other.
Qed.

Lemma set_obj_parents : forall w p v p' o,
  In p' (vpar (heap w o)) -> p' <> p -> In p' (vpar (heap (set_obj w p v) o)).
Proof.
  intros w p v p' o H N; unfold set_obj. rewrite touch_heap; simpl.
  destruct (same_val (slot (objs w p)) v); auto.
  destruct (slot (objs w p)) as [|[q|]], v as [x|];
    repeat apply upd_par_In; auto using In_add_par, In_remove_par.
Qed.

Lemma set_obj_holder : forall w p o, Inv w -> In p (vpar (heap (set_obj w p (Some o)) o)).
Proof.
  intros w p o HI. unfold set_obj. rewrite touch_heap. simpl.
  destruct (slot (objs w p)) as [|[q|]] eqn:S; simpl; [|destruct (Nat.eqb_spec q o) as [->|N]|].
  - rewrite upd_same; simpl. apply In_add_par; auto.
  - (* the identity shortcut: p holds o already *)
    apply (iI _ HI _ _ S).
  - (* only the old value q loses p *)
    rewrite upd_other, upd_same by auto; simpl. apply In_add_par; auto.
  - rewrite upd_same; simpl. apply In_add_par; auto.
Qed.

(* One parent record p is replaced, and with it row p of the database; the other parents stay in
   every _parents list; no contents change. *)
Lemma inv_update : forall w w' p,
  Inv w ->
  nexto w' = nexto w -> 2 <= nextp w' -> hdl w' = hdl w ->
  (forall p', p' <> p -> objs w' p' = objs w p') ->
  (forall r, r <> p -> db w' r = db w r) ->
  (forall o, vcont (heap w' o) = vcont (heap w o)) ->
  (forall p' o, p' <> p -> In p' (vpar (heap w o)) -> In p' (vpar (heap w' o))) ->
  (forall o, slot (objs w' p) = Pres (Some o) -> In p (vpar (heap w' o)) /\ o < nexto w) ->
  (forall q, cst (objs w' p) = Some (OVal (Some q)) -> q < nexto w) ->
  (pmod (objs w' p) = false -> cst (objs w' p) = None) ->
  (p < 2 -> cst (objs w' p) = None ->
   forall v, slot (objs w' p) = Pres v -> ceq_opt (val w v) (db w' p) = true) ->
  (p < 2 -> forall u, cst (objs w' p) = Some (OVal u) -> ceq_opt (val w u) (db w' p) = true) ->
  Inv w'.
Proof.
  intros w w' p [I F1 F2 F3 PM J K NP] Hn Hp Hd Ho Hb VC VP H1 H2 H3 H4 H5.
  assert (V : forall v, val w' v = val w v) by (intros [o|]; simpl; congruence).
  constructor; rewrite ?Hn, ?Hd; auto.
  - intros p' o H. destruct (Nat.eq_dec p' p) as [->|N]; [apply H1; auto|]. rewrite (Ho _ N) in H; auto.
  - intros p' o H. destruct (Nat.eq_dec p' p) as [->|N]; [apply H1; auto|]. rewrite (Ho _ N) in H; eauto.
  - intros p' q H. destruct (Nat.eq_dec p' p) as [->|N]; [|rewrite (Ho _ N) in H]; eauto.
  - intros p' H. destruct (Nat.eq_dec p' p) as [->|N]; [|rewrite (Ho _ N) in *]; auto.
  - intros r Hr Hc v Hs. rewrite V. destruct (Nat.eq_dec r p) as [->|N]; auto.
    rewrite (Ho _ N) in *. rewrite Hb; auto.
  - intros r Hr u Hc. rewrite V. destruct (Nat.eq_dec r p) as [->|N]; auto.
    rewrite (Ho _ N) in *. rewrite Hb; auto.
Qed.

Lemma inv_set_obj : forall w p v,
  Inv w -> (forall o, v = Some o -> o < nexto w) -> Inv (set_obj w p v).
Proof.
  intros w p v HI Hv.
  destruct (set_obj_frame w p v) as (En & Ep & Eh & Eb & _ & Eo & Es & Em & Ec).
  apply (inv_update w _ p HI); rewrite ?Es, ?Em, ?Ec, ?Eb; auto using set_obj_vcont, set_obj_parents.
  - rewrite Ep; apply (iNP _ HI).
  - intros o E; inversion E; subst. auto using set_obj_holder.
  - intros q H. destruct (cst (objs w p)) eqn:C; [inversion H; subst; apply (iF2 _ HI p); auto|].
    destruct (slot (objs w p)) eqn:S; inversion H; subst. apply (iF1 _ HI p); auto.
  - discriminate.
  - intros _ Hc. destruct (cst (objs w p)); discriminate.
  - (* the new committed_state entry is the old one, or else the value that was in sync *)
    intros Hr u Hc. destruct (cst (objs w p)) eqn:C; [inversion Hc; subst; apply (iK _ HI); auto|].
    destruct (slot (objs w p)) eqn:S; inversion Hc; subst. apply (iJ _ HI p Hr C _ S).
Qed.

Lemma inv_set_pstate : forall w p ps',
  Inv w ->
  (forall o, slot ps' = Pres (Some o) -> In p (vpar (heap w o)) /\ o < nexto w) ->
  (forall q, cst ps' = Some (OVal (Some q)) -> q < nexto w) ->
  (pmod ps' = false -> cst ps' = None) ->
  (p < 2 -> cst ps' = None -> forall v, slot ps' = Pres v -> ceq_opt (val w v) (db w p) = true) ->
  (p < 2 -> forall u, cst ps' = Some (OVal u) -> ceq_opt (val w u) (db w p) = true) ->
  Inv (set_objs w (upd (objs w) p ps')).
Proof.
  intros w p ps' HI H1 H2 H3 H4 H5.
  apply (inv_update w _ p HI); simpl; rewrite ?upd_same; auto using upd_other. apply (iNP _ HI).
Qed.

Lemma inv_expire_row : forall w r, Inv w -> Inv (expire_row w r).
Proof.
  intros; unfold expire_row; apply inv_set_pstate; simpl; auto; intros; discriminate.
Qed.

(* the slot is replaced (loading) or the record is marked modified; committed_state stays *)
Lemma inv_set_slot : forall w p s m i,
  Inv w ->
  (forall o, s = Pres (Some o) -> In p (vpar (heap w o)) /\ o < nexto w) ->
  (m = false -> cst (objs w p) = None) ->
  (p < 2 -> cst (objs w p) = None -> forall v, s = Pres v -> ceq_opt (val w v) (db w p) = true) ->
  Inv (set_objs w (upd (objs w) p (mkP s (cst (objs w p)) m i))).
Proof.
  intros w p s m i HI H1 H3 H4. apply inv_set_pstate; simpl; auto.
  - apply (iF2 _ HI).
  - intros Hr. apply (iK _ HI p Hr).
Qed.

Lemma inv_load : forall w r, Inv w -> Inv (fst (load w r)).
Proof.
  intros w r HI. unfold load.
  apply (inv_set_intrans _ true) in HI. set (w1 := set_intrans w true) in *.
  destruct (slot (objs w1 r)) as [|v] eqn:S; [destruct (db w1 r) as [c|] eqn:D|].
  - (* the row's value goes into a new value object, whose only parent is r *)
    apply (inv_set_slot (fst (alloc w1 c [r])) r); [apply inv_alloc; auto|..].
    + intros o E; inversion E; subst. simpl. rewrite upd_same. simpl; auto.
    + apply (iPM _ HI).
    + intros Hr Hc v E; inversion E; subst. simpl in *. rewrite upd_same, D. apply ceq_refl.
  - apply inv_set_slot; auto.
    + discriminate.
    + apply (iPM _ HI).
    + intros Hr Hc v E; inversion E; subst. rewrite D; reflexivity.
  - (* assigned while expired: the slot stays *)
    apply inv_set_slot; auto.
    + intros o E. apply inv_holder; congruence.
    + apply (iPM _ HI).
    + intros Hr Hc v' E. apply (iJ _ HI r Hr Hc). congruence.
Qed.

Lemma load_result : forall w r, slot (objs (fst (load w r)) r) = Pres (snd (load w r)).
Proof.
  intros; unfold load. destruct (slot (objs (set_intrans w true) r)) eqn:S;
    [destruct (db (set_intrans w true) r)|]; simpl; rewrite upd_same; auto.
Qed.

Lemma load_nexto : forall w r, nexto w <= nexto (fst (load w r)).
Proof.
  intros; unfold load. destruct (slot (objs (set_intrans w true) r));
    [destruct (db (set_intrans w true) r)|]; simpl; auto.
Qed.

Lemma getattr_inv : forall w p, Inv w ->
  Inv (fst (getattr w p)) /\
  forall x, snd (getattr w p) = Some (Some x) -> x < nexto (fst (getattr w p)).
Proof.
  intros w p HI. unfold getattr. destruct (slot (objs w p)) as [|v] eqn:S.
  - destruct (is_session p); [|split; auto; discriminate].
    rewrite (surjective_pairing (load w p)). simpl. split; [apply inv_load; auto|].
    intros x E. apply (iF1 _ (inv_load w p HI) p). rewrite load_result. congruence.
  - simpl. split; auto. intros x E. apply (iF1 _ HI p). congruence.
Qed.

Lemma get_value_inv : forall w t, Inv w ->
  Inv (fst (fst (get_value w t))) /\
  forall x, snd (get_value w t) = Some (Some x) -> x < nexto (fst (fst (get_value w t))).
Proof.
  intros w t HI. unfold get_value.
  destruct t as [r|r|]; [| |destruct (hdl w) as [o|] eqn:Hh];
    try (destruct (tgt_pid w _) as [p|];
         [destruct (getattr_inv w p HI) as [G1 G2]; destruct (getattr w p) as [w' [v|]]|]);
    simpl in *; split; auto; try discriminate.
  intros x E; inversion E; subst. apply (iF3 _ HI); auto.
Qed.

Lemma orig_equal_val : forall w og u, orig_equal w og u = true ->
  exists u0, og = OVal u0 /\ ceq_opt (val w u0) (val w u) = true.
Proof. intros w [|[q|]] [x|] H; try discriminate; eexists; split; eauto. Qed.

Lemma inv_flush_row : forall w r, r < 2 -> Inv w -> Inv (flush_row w r).
Proof.
  intros w r Hr HI. unfold flush_row. destruct (pmod (objs w r)) eqn:M; auto.
  apply inv_set_intrans.
  set (w1 := match cst (objs w r), slot (objs w r) with
             | Some og, Pres u => if orig_equal w og u then w else set_db w (upd (db w) r (val w u))
             | _, _ => w end).
  assert (E : objs w1 = objs w /\ heap w1 = heap w /\ nexto w1 = nexto w /\ nextp w1 = nextp w /\
              hdl w1 = hdl w /\ (forall r', r' <> r -> db w1 r' = db w r') /\
              (forall v, slot (objs w r) = Pres v -> ceq_opt (val w v) (db w1 r) = true)).
  { unfold w1.
    destruct (cst (objs w r)) as [og|] eqn:C;
      [destruct (slot (objs w r)) as [|u] eqn:S; [|destruct (orig_equal w og u) eqn:OE]|];
      simpl; repeat split; auto using upd_other; intros v E; try discriminate.
    - (* no UPDATE: the row holds the recorded original, which equals the current value *)
      inversion E; subst. destruct (orig_equal_val _ _ _ OE) as (u0 & -> & Q).
      eapply ceq_opt_trans; [apply ceq_opt_sym; exact Q|apply (iK _ HI r Hr _ C)].
    - inversion E; subst. rewrite upd_same. apply ceq_opt_refl.
    - apply (iJ _ HI r Hr C v E). }
  destruct E as (Eo & Eh & En & Ep & Ehd & Edb & Erow).
  apply (inv_update w _ r HI); simpl; rewrite ?Eo, ?Eh, ?upd_same; simpl; auto using upd_other;
    try discriminate.
  - rewrite Ep; apply (iNP _ HI).
  - intros o; apply inv_holder; auto.
Qed.

Lemma inv_flush : forall w, Inv w -> Inv (flush w).
Proof. intros; unfold flush, rows; simpl. apply inv_flush_row; auto. apply inv_flush_row; auto. Qed.

Lemma flush_row_unflagged : forall w r, pmod (objs (flush_row w r) r) = false.
Proof.
  intros; unfold flush_row. destruct (pmod (objs w r)) eqn:M; auto.
  simpl. unfold upd; rewrite Nat.eqb_refl; reflexivity.
Qed.
Lemma flush_row_other : forall w r r', r' <> r -> objs (flush_row w r) r' = objs w r'.
Proof.
  intros; unfold flush_row. destruct (pmod (objs w r)); auto.
  simpl. unfold upd. destruct (Nat.eqb_spec r' r); [congruence|].
  destruct (cst (objs w r)); auto. destruct (slot (objs w r)); auto. destruct (orig_equal w o v); auto.
Qed.
Lemma flush_unflagged : forall w r, r < 2 -> pmod (objs (flush w) r) = false.
Proof.
  intros w r Hr; unfold flush, rows; simpl.
  destruct r as [|[|r]]; [|apply flush_row_unflagged|lia].
  rewrite flush_row_other by lia. apply flush_row_unflagged.
Qed.

(* commit / rollback: whatever the database now holds, every session instance is expired *)
Lemma inv_expire_all_db : forall w dbn dbcn b,
  Inv w ->
  Inv (expire_all (mkW (objs w) (heap w) (nexto w) (nextp w) (copies w) (hdl w) dbn dbcn b)).
Proof.
  intros w dbn dbcn b [I F1 F2 F3 PM J K NP].
  unfold expire_all, rows, expire_row; simpl.
  set (e := mkP Absent None false false).
  assert (X : forall p, p < 2 /\ upd (upd (objs w) 0 e) 1 e p = e \/
                        2 <= p /\ upd (upd (objs w) 0 e) 1 e p = objs w p)
    by (intros [|[|p]]; [left|left|right]; split; auto; lia).
  constructor; simpl; auto; intros p; destruct (X p) as [[L ->]|[L ->]]; simpl; auto;
    try discriminate; try (intros; exfalso; lia).
  - apply F1.
  - apply F2.
Qed.

Lemma inv_commit : forall w, Inv w -> Inv (commit w).
Proof. intros; unfold commit. apply inv_expire_all_db. apply inv_flush; auto. Qed.
Lemma inv_rollback : forall w, Inv w -> Inv (rollback w).
Proof. intros; unfold rollback. destruct (intrans w); auto. apply inv_expire_all_db; auto. Qed.

Lemma recorded_false : forall w x, recorded w x = false ->
  forall r, r < 2 -> cst (objs w r) <> Some (OVal (Some x)).
Proof.
  intros w x H r Hr E. unfold recorded, rows in H. simpl in H.
  apply orb_false_elim in H; destruct H as [H0 H1]. apply orb_false_elim in H1; destruct H1 as [H1 _].
  destruct r as [|[|r]]; [| |lia].
  - rewrite E in H0. rewrite Nat.eqb_refl in H0; discriminate.
  - rewrite E in H1. rewrite Nat.eqb_refl in H1; discriminate.
Qed.

(* The contents of x change, then some parents are flagged.  If the contents really differ, x must not
   be a recorded original, and every session instance holding it must end up with a committed_state
   entry (which takes it out of the comparison with the row). *)
Lemma inv_content_change : forall w x c' w2,
  Inv w ->
  flag_ext (set_heap w (upd (heap w) x (mkV c' (vpar (heap w x))))) w2 ->
  (c' <> vcont (heap w x) ->
     recorded w x = false /\
     forall r, r < 2 -> slot (objs w r) = Pres (Some x) -> cst (objs w2 r) <> None) ->
  Inv w2.
Proof.
  intros w x c' w2 HI (Hh & Hn & Hp & Hd & Hb & _ & Ho) HC. simpl in *.
  apply (inv_frame w); rewrite ?Hn, ?Hp, ?Hh; auto.
  - apply (iNP _ HI).
  - intros o _. unfold upd. destruct (Nat.eqb_spec o x); subst; auto.
  - intros r o Hr _ W. unfold upd. destruct (Nat.eqb_spec o x) as [->|]; auto. simpl.
    destruct (cont_eq_dec c' (vcont (heap w x))) as [|NE]; auto.
    exfalso. destruct (HC NE) as [R G].
    destruct W as [[C S]|C]; [exact (G r Hr S C)|exact (recorded_false _ _ R r Hr C)].
Qed.

Lemma inv_pickle : forall w r, Inv w -> Inv (pickle w r).
Proof.
  intros w r HI. unfold pickle.
  pose proof (iNP _ HI) as NP. set (ps := objs w r). set (n := nextp w) in *.
  (* the copy's current value: a new object whose only parent is the copy *)
  destruct (match slot ps with Absent => _ | Pres _ => _ end) as [w1 sl] eqn:E1.
  assert (H1 : Inv w1 /\ nextp w1 = n /\ nexto w <= nexto w1 /\
               forall o', sl = Pres (Some o') -> vpar (heap w1 o') = [n] /\ o' < nexto w1).
  { destruct (slot ps) as [|[o|]]; inversion E1; subst; try (repeat apply conj; auto; discriminate).
    repeat apply conj; simpl; auto.
    - exact (inv_alloc w _ [n] HI).
    - intros o' E; inversion E; subst. rewrite upd_same; auto. }
  destruct H1 as (HI1 & Ep1 & En1 & Hsl).
  (* the copy's original value: the new current value if it was the current one, else another new object *)
  destruct (match cst ps with Some _ => _ | None => _ end) as [w2 c] eqn:E2.
  assert (Hc0 : cst ps = None -> c = None).
  { destruct (cst ps) as [[|[q|]]|]; try discriminate. inversion E2; auto. }
  assert (H2 : Inv w2 /\ nextp w2 = n /\ (forall o, o < nexto w1 -> heap w2 o = heap w1 o) /\
               nexto w1 <= nexto w2 /\ forall q', c = Some (OVal (Some q')) -> q' < nexto w2).
  { destruct (cst ps) as [[|[q|]]|]; try (inversion E2; subst; repeat apply conj; auto; discriminate).
    assert (A : forall cc, let w2 := fst (alloc w1 cc []) in
                Inv w2 /\ nextp w2 = n /\ (forall o, o < nexto w1 -> heap w2 o = heap w1 o) /\
                nexto w1 <= nexto w2 /\
                forall q', Some (OVal (Some (nexto w1))) = Some (OVal (Some q')) -> q' < nexto w2).
    { intros cc; split; [apply inv_alloc; auto|]. simpl; repeat apply conj; auto.
      - intros o Ho; apply upd_other; lia.
      - intros q' E; inversion E; auto. }
    destruct (slot ps) as [|[o|]]; [|destruct sl as [|[o'|]]; [|destruct (Nat.eqb q o)|]|];
      inversion E2; subst; try apply A.
    repeat apply conj; auto.
    intros q' E; inversion E; subst. apply Hsl; auto. }
  destruct H2 as (HI2 & Ep2 & Eh2 & En2 & Hc).
  (* a pid >= 2 is no session instance: its record answers only for parent tracking and freshness *)
  apply (inv_ext (set_objs w2 (upd (objs w2) n (mkP sl c (pmod ps) (idp ps))))); simpl; auto; try lia.
  apply inv_set_pstate; auto; try (intros; lia).
  - intros o' E. destruct (Hsl o' E) as [P L]. rewrite Eh2, P; simpl; auto. split; auto. lia.
  - intros M. apply Hc0. apply (iPM _ HI r M).
Qed.

Lemma inv_mark_modified : forall w r, Inv w ->
  Inv (touch (set_objs w (upd (objs w) r
         (mkP (slot (objs w r)) (cst (objs w r)) true (idp (objs w r))))) r).
Proof.
  intros w r HI. apply inv_touch, inv_set_slot; auto; try discriminate.
  - intros o; apply inv_holder; auto.
  - intros Hr Hc. apply (iJ _ HI r Hr Hc).
Qed.

Section Main.
Variable ord : list Z -> list Z.
Variable ov : kind -> list meth.
Hypothesis COV : covers_all ov = true.

Lemma unnotified_unchanged : forall c o,
  notifies ov c o = false -> snd (mut_sem ord c o) = c.
Proof.
  intros c o H. apply nonmutator_unchanged.
  destruct (memb (meth_of o) (in_place_mutators (kind_of c))) eqn:E; auto.
  apply memb_In in E. unfold notifies in H.
  rewrite (covers_spec _ _ (covers_all_spec ov COV (kind_of c)) _ E) in H. discriminate.
Qed.

(* the second hypothesis is what [guard] checks of a Mut once the value object x is found *)
Lemma inv_mutate : forall w x o,
  Inv w ->
  match mut_sem ord (vcont (heap w x)) o with
  | (Raise _, _) => True
  | (Ok _, c') =>
      (negb (recorded w x) || (if cont_eq_dec c' (vcont (heap w x)) then true else false)) = true /\
      (negb (notifies ov (vcont (heap w x)) o) || parents_loaded w x) = true
  end ->
  Inv (fst (mutate ord ov w x o)).
Proof.
  intros w x o HI G. unfold mutate.
  destruct (mut_sem ord (vcont (heap w x)) o) as [[u|e] c'] eqn:MS; [|exact HI].
  destruct G as [G1 G2].
  set (w1 := set_heap w (upd (heap w) x (mkV c' (vpar (heap w x))))).
  assert (C' : c' = snd (mut_sem ord (vcont (heap w x)) o)) by (rewrite MS; reflexivity).
  destruct (notifies ov (vcont (heap w x)) o) eqn:N.
  - (* changed() runs: by the guard every parent is loaded, so every holder of x ends up flagged *)
    rewrite (surjective_pairing (changed_loop (vpar (heap w x)) w1)). simpl.
    apply (inv_content_change w x c' _ HI (changed_loop_ext _ w1)).
    intros NE. simpl in G2.
    destruct (cont_eq_dec c' (vcont (heap w x))) as [E|_]; [congruence|].
    rewrite orb_false_r in G1. apply negb_true_iff in G1. split; auto.
    intros r Hr Hs. rewrite (proj2 (changed_loop_all _ w1 G2) r); [discriminate|]. apply (iI _ HI); auto.
  - (* no notification: then the method is no mutator, and the contents are the same *)
    simpl. apply (inv_content_change w x c' w1 HI); [apply flag_ext_refl|].
    intros NE. exfalso; apply NE. rewrite C'. apply unnotified_unchanged; auto.
Qed.

Lemma inv_step : forall w o, Inv w -> guard ord ov w o = true -> Inv (fst (step ord ov w o)).
Proof.
  intros w o HI G. destruct o as [t c|t c|t|t| | | |r|r|r|r]; cbn [step guard] in *.
  - (* Mut *)
    destruct (get_value_inv w t HI) as [HI1 _].
    destruct (get_value w t) as [[w1 rc] [[x|]|]]; simpl in *; auto.
    apply inv_mutate; auto.
    destruct (mut_sem ord (vcont (heap w1 x)) c) as [[u|e] c']; auto.
    apply andb_prop in G; auto.
  - (* SetPlain *)
    destruct (tgt_pid w t) as [p|]; cbn [fst]; auto.
    destruct c as [c'|]; cbn [fst].
    + apply (inv_set_obj (fst (alloc w c' [])) p (Some (nexto w))); [apply inv_alloc; auto|].
      intros o E; inversion E; subst. apply Nat.lt_succ_diag_r.
    + apply inv_set_obj; auto. discriminate.
  - (* Save *)
    destruct (get_value_inv w t HI) as [HI1 B].
    destruct (get_value w t) as [[w1 rc] [v|]]; simpl in *; auto.
    destruct HI1; constructor; simpl; auto.
    intros o E; subst; auto.
  - (* SetH *)
    destruct (tgt_pid w t) as [p|]; simpl; auto.
    destruct (hdl w) as [x|] eqn:Hh; simpl; auto.
    apply inv_set_obj; auto. intros o E; inversion E; subst. apply (iF3 _ HI); auto.
  - apply inv_flush; auto.
  - apply inv_commit; auto.
  - apply inv_rollback; auto.
  - apply inv_expire_row; auto.
  - apply inv_load. apply inv_expire_row; auto.
  - apply inv_pickle; auto.
  - (* Merge: the primary key step keeps Inv and frees nothing, so the copy's value is still allocated *)
    destruct (copies w r) as [p|]; simpl; auto.
    set (w1 := if idp (objs w p) then _ else w).
    assert (HI1 : Inv w1 /\ nexto w <= nexto w1).
    { unfold w1. destruct (idp (objs w p)); auto.
      rewrite touch_nexto. destruct (idp (objs w r)); split; simpl; auto using inv_mark_modified, inv_load, load_nexto. }
    destruct HI1 as [HI1 Mono].
    destruct (slot (objs w p)) as [|v] eqn:S; simpl; auto.
    apply inv_set_obj; auto. intros o E; subst.
    apply (Nat.lt_le_trans _ (nexto w)); auto. apply (iF1 _ HI p); auto.
Qed.

Theorem inv_run : forall ops w, Inv w -> guarded ord ov ops w = true -> Inv (run ord ov ops w).
Proof.
  induction ops as [|o r IH]; intros w HI G; simpl in *; auto.
  apply andb_prop in G; destruct G as [G1 G2].
  apply IH; auto. apply inv_step; auto.
Qed.

Lemma inv_in_sync : forall w r, Inv w -> r < 2 -> in_sync w r.
Proof.
  intros w r HI Hr M v S. apply (iJ _ HI r Hr); auto. apply (iPM _ HI); auto.
Qed.

(* named after its side condition COV: with every in-place mutator notifying, an unflagged instance
   holds the database's value along every guarded history *)
Theorem covers_all_mutators : forall d0 d1 ops,
  guarded ord ov ops (init_world d0 d1) = true ->
  forall r, r < 2 -> in_sync (run ord ov ops (init_world d0 d1)) r.
Proof.
  intros d0 d1 ops G r Hr. apply inv_in_sync; auto. apply inv_run; auto. apply inv_init.
Qed.

Lemma run_app : forall a b w, run ord ov (a ++ b) w = run ord ov b (run ord ov a w).
Proof. induction a; simpl; auto. Qed.

Theorem flush_stores_in_memory_value : forall d0 d1 ops,
  guarded ord ov (ops ++ [Flush]) (init_world d0 d1) = true ->
  forall r, r < 2 -> stored (run ord ov (ops ++ [Flush]) (init_world d0 d1)) r.
Proof.
  intros d0 d1 ops G r Hr v S.
  pose proof (covers_all_mutators d0 d1 _ G r Hr) as IS.
  apply IS; auto.
  rewrite run_app. simpl. apply flush_unflagged; auto.
Qed.
End Main.
