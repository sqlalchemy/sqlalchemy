(* C33 - the SessionTransaction state machine: how the stack of (frame id, state) evolves under every
   function of the model, for ALL states (no guard). *)
From Coq Require Import List ZArith Bool Arith Lia.
Import ListNotations.
From SAV.orm Require Import SessTxn SessTxnBase.
Open Scope nat_scope.

Definition stk (st : sess) : list (nat * tstate) := map (fun f => (fid f, fstate f)) (stack st).

(* functions that leave the (id, state) list and the id counter alone, and never raise
   IllegalStateChangeError *)
Definition keepsf (g : sess -> sess) : Prop := forall st, stk (g st) = stk st /\ nfid (g st) = nfid st.
Definition keeps (F : M) : Prop :=
  forall st r st', F st = (r, st') -> stk st' = stk st /\ nfid st' = nfid st /\ r <> Err E_ILLEGAL.

(* [H : (r0, s0) = (r, st')] gives the outcome outright, [s0] having the stack and the counter of the
   state the goal compares with *)
Ltac given H := inversion H; subst; repeat split; auto; try discriminate; try congruence.

Lemma keeps_ret : keeps ret.
Proof. intros st r st' H. given H. Qed.
Lemma keeps_unmodelled : keeps unmodelled.
Proof. intros st r st' H. given H. Qed.
Lemma keeps_raise : forall c, c <> E_ILLEGAL -> keeps (raise c).
Proof. intros c Hc st r st' H. inversion H; subst. repeat split; auto. congruence. Qed.
Lemma keeps_lift : forall g, keepsf g -> keeps (lift g).
Proof. intros g Hg st r st' H. destruct (Hg st). given H. Qed.
Lemma keeps_bind : forall a b, keeps a -> keeps b -> keeps (a ;; b).
Proof.
  intros a b Ha Hb st r st' H. apply bind_inv in H. destruct H as [[st1 [H1 H2]]|[H1 _]].
  - destruct (Ha _ _ _ H1) as [E1 [E2 _]]. destruct (Hb _ _ _ H2) as [E3 [E4 E5]].
    repeat split; congruence.
  - apply (Ha _ _ _ H1).
Qed.
Lemma keeps_withst : forall k, (forall s, keeps (k s)) -> keeps (withst k).
Proof. intros k Hk st r st' H. apply (Hk st st r st' H). Qed.
Lemma keeps_foldM : forall {A} (f : A -> M) l, (forall x, keeps (f x)) -> keeps (foldM f l).
Proof.
  intros A f l Hf. induction l; cbn [foldM].
  - apply keeps_ret.
  - apply keeps_bind; auto.
Qed.
Lemma keepsf_fold : forall {A} (g : sess -> A -> sess) l, (forall x, keepsf (fun s => g s x)) -> keepsf (fun s => fold_left g l s).
Proof.
  intros A g l Hg. induction l; intros st; cbn.
  - auto.
  - destruct (IHl (g st a)) as [E1 E2]. destruct (Hg a st) as [E3 E4]. split; congruence.
Qed.
Lemma keepsf_comp : forall g h, keepsf g -> keepsf h -> keepsf (fun s => h (g s)).
Proof. intros g h Hg Hh st. destruct (Hg st), (Hh (g st)). split; congruence. Qed.
Lemma keepsf_if : forall (c : sess -> bool) g h, keepsf g -> keepsf h -> keepsf (fun s => if c s then g s else h s).
Proof. intros c g h Hg Hh st. destruct (c st); auto. Qed.

Lemma stk_upd_head : forall st g, (forall f, fid (g f) = fid f /\ fstate (g f) = fstate f) ->
  stk (upd_head st g) = stk st /\ nfid (upd_head st g) = nfid st.
Proof.
  intros st g Hg. unfold upd_head, stk. destruct (stack st) as [|f r] eqn:E.
  - rewrite E. auto.
  - cbn. destruct (Hg f) as [E1 E2]. rewrite E1, E2. auto.
Qed.

Lemma keepsf_safe_discard : forall o, keepsf (safe_discard o).
Proof. intros o st. split; reflexivity. Qed.
Lemma keepsf_im_replace : forall o, keepsf (im_replace o).
Proof.
  intros o st. unfold im_replace. destruct (im_other st o); split; reflexivity.
Qed.
Lemma keepsf_expire : forall o, keepsf (expire o).
Proof. intros o st. split; reflexivity. Qed.
Lemma keepsf_detach : forall b o, keepsf (detach b o).
Proof. intros b o st. split; reflexivity. Qed.
Lemma keepsf_map_objs : forall g, keepsf (fun s => map_objs s (g s)).
Proof. intros g st. split; reflexivity. Qed.
Lemma keepsf_expunge_states : forall l b, keepsf (expunge_states l b).
Proof.
  intros l b st. unfold expunge_states.
  match goal with |- stk (upd_head ?s ?g) = _ /\ _ => destruct (stk_upd_head s g) as [E1 E2]; [intros; split; reflexivity|] end.
  rewrite E1, E2. split; reflexivity.
Qed.
Lemma keepsf_restore_ks_one : forall te ks o, keepsf (restore_ks_one te ks o).
Proof.
  intros te ks o st. unfold restore_ks_one. destruct (ks_find o ks) as [[old nw]|]; [|auto].
  destruct (mem o te).
  - split; reflexivity.
  - destruct (keepsf_im_replace o (mod_obj (safe_discard o st) o (fun ob => o_key ob (Some old)))) as [E1 E2].
    rewrite E1, E2. split; reflexivity.
Qed.
Lemma keepsf_remove_newly_deleted : forall o, keepsf (remove_newly_deleted o).
Proof.
  intros o st. unfold remove_newly_deleted.
  destruct (stk_upd_head st (fun f => f_del f (addm o (fdel f)))) as [E1 E2]; [intros; split; reflexivity|].
  cbn. rewrite <- E1, <- E2. split; reflexivity.
Qed.
Lemma keepsf_commit_one : forall o, keepsf (commit_one o).
Proof.
  intros o st. unfold commit_one.
  destruct (mem o _);
    match goal with |- stk (upd_head ?s ?g) = _ /\ _ => destruct (stk_upd_head s g) as [E1 E2]; [intros; split; reflexivity|];
      rewrite E1, E2; split; reflexivity end.
Qed.
Lemma keepsf_remove_snapshot : keepsf remove_snapshot.
Proof.
  intros st. unfold remove_snapshot. destruct (stack st) as [|f rest] eqn:E; [auto|].
  destruct (negb (fnested f) && eoc st).
  - unfold stk. cbn. rewrite E. cbn. auto.
  - destruct (fnested f); [|auto]. destruct rest as [|p rest']; [auto|].
    unfold stk. cbn. rewrite E. cbn. auto.
Qed.

(* the functions the flush is made of keep the frames (and may fail with any error but IllegalStateChangeError) *)
Lemma keeps_im_add : forall o, keeps (im_add o).
Proof.
  intros o st r st' H. unfold im_add in H. destruct (okey (objs st o)); [destruct (im_other st o)|]; given H.
Qed.

Lemma provision_fs_stk : forall fs wk sv r fs' sv',
  provision_fs fs wk sv = (r, fs', sv') ->
  map (fun f => (fid f, fstate f)) fs' = map (fun f => (fid f, fstate f)) fs /\ r <> Some E_ILLEGAL.
Proof.
  induction fs as [|f rest IH]; intros wk sv r fs' sv' H; cbn in H.
  - given H.
  - unfold check_prereq in H. destruct (prereq_ok M_conn_for_bind (fstate f)).
    + destruct (fconn f); [given H|].
      destruct (provision_fs rest wk sv) as [[r1 rest1] sv1] eqn:E.
      destruct (IH _ _ _ _ _ E) as [E1 E2].
      destruct r1; inversion H; subst; cbn; rewrite E1; split; auto; discriminate.
    + inversion H; subst. split; auto.
      unfold prereq_error. destruct (fstate f); try destruct (frbexc f); discriminate.
Qed.
Lemma keeps_provision : keeps provision.
Proof.
  intros st r st' H. unfold provision in H.
  destruct (provision_fs (stack st) (work st) (saves st)) as [[r1 fs] sv] eqn:E.
  destruct (provision_fs_stk _ _ _ _ _ _ E) as [E1 E2].
  destruct r1; inversion H; subst; unfold stk; cbn; repeat split; auto; congruence.
Qed.
Lemma keeps_load_row : forall o, keeps (load_row o).
Proof.
  intros o st r st' H. unfold load_row in H. destruct (okey (objs st o)) as [k|]; [destruct (work st k)|]; given H.
Qed.
Lemma keeps_load_in_flush : forall o, keeps (load_in_flush o).
Proof.
  intros o st r st' H. unfold load_in_flush in H. destruct (negb _); [given H|]. eapply keeps_load_row; eauto.
Qed.
Lemma keeps_organize_pending : forall d o, keeps (organize_pending d o).
Proof.
  intros d o st r st' H. unfold organize_pending in H.
  destruct (odid (objs st o)) as [pk|]; [|given H].
  destruct (im_lookup st pk) as [ex|]; [|given H].
  destruct (oexp (objs st ex)); [|destruct (mem ex d); given H].
  destruct (load_in_flush ex st) as [r1 st1] eqn:E. destruct (keeps_load_in_flush _ _ _ _ E) as [A [B C]].
  destruct r1 as [|c|]; [destruct (mem ex d); given H| |given H].
  destruct (Z.eqb c E_OBJDEL); [|given H].
  destruct (keepsf_remove_newly_deleted ex st1) as [A1 B1]. given H.
Qed.
(* the SELECT of an expired primary key before an UPDATE or DELETE *)
Lemma keeps_pk_load : forall o (b : bool) st r1 st1, (if b then load_in_flush o st else (Ok, st)) = (r1, st1) ->
  stk st1 = stk st /\ nfid st1 = nfid st /\ r1 <> Err E_ILLEGAL.
Proof. intros o [|] st r1 st1 H; [eapply keeps_load_in_flush; eauto|given H]. Qed.
Lemma keeps_do_update : forall o, keeps (do_update o).
Proof.
  intros o st r st' H. unfold do_update in H.
  destruct (negb _); [given H|].
  match type of H with (match ?X with _ => _ end) = _ => destruct X as [r1 st1] eqn:E1 end.
  destruct (keeps_pk_load _ _ _ _ _ E1) as [A [B C]].
  destruct r1; [|given H|given H].
  destruct (where_pk (objs st1 o)) as [wh|]; [|given H].
  destruct (work st1 wh); [|given H].
  destruct (_ && _); [given H|].
  destruct (_ && _); given H.
Qed.
Lemma keeps_do_insert : forall o, keeps (do_insert o).
Proof.
  intros o st r st' H. unfold do_insert in H.
  destruct (odid (objs st o)) as [pk|]; [|given H].
  destruct (odv (objs st o)); [|given H].
  destruct (work st pk); given H.
Qed.
Lemma keeps_do_delete : forall o, keeps (do_delete o).
Proof.
  intros o st r st' H. unfold do_delete in H.
  match type of H with (match ?X with _ => _ end) = _ => destruct X as [r1 st1] eqn:E1 end.
  destruct (keeps_pk_load _ _ _ _ _ E1) as [A [B C]].
  destruct r1; [|given H|given H].
  destruct (where_pk (objs st1 o)); given H.
Qed.
Lemma keeps_do_stmt : forall s, keeps (do_stmt s).
Proof. intros [o|o|o]; cbn; [apply keeps_do_update|apply keeps_do_insert|apply keeps_do_delete]. Qed.
Lemma keeps_register_one : forall o, keeps (register_one o).
Proof.
  intros o st r st' H. unfold register_one in H.
  destruct (odid (objs st o)) as [ik|]; [|given H].
  destruct (okey (objs st o)) as [k|]; [destruct (Z.eqb k ik)|]; inversion H; subst;
    match goal with |- stk (im_replace o ?s) = _ /\ _ => destruct (keepsf_im_replace o s) as [E1 E2]; rewrite E1, E2 end;
    try (repeat split; auto; discriminate).
  match goal with |- stk (mod_obj ?s ?o ?g) = _ /\ _ => change (stk (mod_obj s o g)) with (stk s); change (nfid (mod_obj s o g)) with (nfid s) end.
  match goal with |- stk (upd_head ?s ?g) = _ /\ _ => destruct (stk_upd_head s g) as [E3 E4]; [intros; split; reflexivity|] end.
  rewrite E3, E4. repeat split; auto; discriminate.
Qed.
Lemma keeps_finalize : forall n d e, keeps (finalize n d e).
Proof.
  intros n d e. unfold finalize. apply keeps_bind.
  - apply keeps_lift. apply (keepsf_fold (fun s o => remove_newly_deleted o s)). intros x. apply keepsf_remove_newly_deleted.
  - apply keeps_withst. intros s. destruct (negb _); [apply keeps_unmodelled|].
    apply keeps_bind; [apply keeps_foldM; apply keeps_register_one|].
    apply keeps_bind; apply keeps_lift.
    + apply (keepsf_fold (fun s o => commit_one o s)). intros x. apply keepsf_commit_one.
    + intros st. split; reflexivity.
Qed.
Lemma keeps_fail_at : forall c r, c <> E_ILLEGAL -> keeps (fail_at c r).
Proof.
  intros c r Hc st x st' H. unfold fail_at in H.
  destruct (head_nested st && existsb (needs_load st) r); given H.
Qed.
Lemma keeps_exec_f : forall c l k, c <> E_ILLEGAL -> keeps (exec_f k c l).
Proof.
  intros c l. induction l as [|s r IH]; intros k Hc st x st' H.
  - given H.
  - cbn [exec_f] in H. destruct (do_stmt s st) as [[|c'|] s1] eqn:E1;
      destruct (keeps_do_stmt s _ _ _ E1) as [A1 [A2 A3]]; [| |given H].
    + assert (X : forall F, keeps F -> F s1 = (x, st') -> stk st' = stk st /\ nfid st' = nfid st /\ x <> Err E_ILLEGAL).
      { intros F HF H'. destruct (HF _ _ _ H') as [B1 [B2 B3]]. repeat split; congruence. }
      destruct (emits s st); [|exact (X _ (IH k Hc) H)].
      destruct k as [[|k']|]; [exact (X _ (keeps_fail_at c r Hc) H)|exact (X _ (IH _ Hc) H)|exact (X _ (IH _ Hc) H)].
    + assert (Hc' : c' <> E_ILLEGAL) by congruence.
      destruct (emits s st && Z.eqb c' E_STALE && match k with Some O => true | _ => false end);
        [destruct (keeps_fail_at c r Hc _ _ _ H) as [B1 [B2 B3]]|destruct (keeps_fail_at c' r Hc' _ _ _ H) as [B1 [B2 B3]]];
        repeat split; congruence.
Qed.
Lemma keeps_flush_exec : forall n d e, keeps (flush_exec n d e).
Proof.
  intros n d e. unfold flush_exec.
  apply keeps_bind; [apply keeps_provision|].
  apply keeps_bind; [apply keeps_foldM; apply keeps_organize_pending|].
  apply keeps_bind; [apply keeps_withst; intros s; apply keeps_exec_f; discriminate|].
  apply keeps_finalize.
Qed.

Definition K := list (nat * tstate).
Definition deact (k : K) : K := match k with (n, s) :: r => (n, DEACTIVE) :: r | [] => [] end.
Definition head_active (k : K) : Prop := match k with (n, ACTIVE) :: _ => True | _ => False end.
Fixpoint all_active (k : K) : Prop := match k with [] => True | (n, s) :: r => s = ACTIVE /\ all_active r end.
Fixpoint decr (b : nat) (k : K) : Prop := match k with [] => True | (n, _) :: r => n < b /\ decr n r end.
(* between operations: ids strictly decrease from the innermost frame outwards and are below the
   counter; every frame is ACTIVE except possibly the innermost one, which may be DEACTIVE *)
Definition Kwf (nf : nat) (k : K) : Prop :=
  decr nf k /\ match k with [] => True | (n, s) :: r => (s = ACTIVE \/ s = DEACTIVE) /\ all_active r end.

Definition abK (nf : nat) (k : K) : K * nat := match k with [] => ([(nf, ACTIVE)], S nf) | _ => (k, nf) end.

Lemma stk_autobegin : forall st, (stk (autobegin st), nfid (autobegin st)) = abK (nfid st) (stk st).
Proof. intros st. unfold autobegin, stk, abK. destruct (stack st) eqn:E; cbn; rewrite ?E; reflexivity. Qed.

Lemma Kwf_abK : forall nf k, Kwf nf k -> Kwf (snd (abK nf k)) (fst (abK nf k)).
Proof.
  intros nf k H. destruct k as [|[n s] r]; cbn; [|exact H].
  split; cbn; auto.
Qed.

Lemma decr_weaken : forall k b b', decr b k -> b <= b' -> decr b' k.
Proof. destruct k as [|[n s] r]; cbn; intros; auto. destruct H; split; auto; lia. Qed.
Lemma Kwf_tail : forall nf n s r, Kwf nf ((n, s) :: r) -> Kwf nf r.
Proof.
  intros nf n s r [[H1 H2] [H3 H4]]. split.
  - eapply decr_weaken; eauto. lia.
  - destruct r as [|[n' s'] r']; auto. destruct H4 as [H4 H5]. split; auto.
Qed.
Lemma Kwf_suffix : forall pre nf suf, Kwf nf (pre ++ suf) -> Kwf nf suf.
Proof.
  induction pre as [|[n s] pre IH]; intros nf suf H; cbn in *; auto.
  apply IH. eapply Kwf_tail; eauto.
Qed.
Lemma Kwf_deact : forall nf k, Kwf nf k -> Kwf nf (deact k).
Proof. intros nf [|[n s] r] [H1 H2]; cbn in *; split; auto. destruct H2; split; auto. Qed.
Lemma Kwf_push : forall nf k, Kwf nf k -> head_active k \/ k = [] -> Kwf (S nf) ((nf, ACTIVE) :: k).
Proof.
  intros nf k [H1 H2] Hh. split.
  - cbn. split; [lia|]. eapply decr_weaken; eauto.
  - split; auto. destruct k as [|[n s] r]; cbn; auto.
    destruct Hh as [Hh|Hh]; [|discriminate]. cbn in Hh. destruct s; try contradiction. destruct H2. split; auto.
Qed.

(* the prerequisite states, read off the declared table *)
Lemma sm_commit_prereq : forall s, prereq_ok M_commit s = true <-> (s = ACTIVE \/ s = PREPARED).
Proof. intros s; destruct s; cbn; split; intros H; try discriminate; auto; destruct H; discriminate. Qed.
Lemma sm_rollback_prereq : forall s, prereq_ok M_rollback s = true <-> (s = ACTIVE \/ s = DEACTIVE \/ s = PREPARED).
Proof. intros s; destruct s; cbn; split; intros H; try discriminate; auto; destruct H as [H|[H|H]]; discriminate. Qed.
Lemma sm_begin_prereq : forall s, prereq_ok M_begin s = true <-> s = ACTIVE.
Proof. intros s; destruct s; cbn; split; intros H; try discriminate; auto. Qed.

Lemma check_prereq_passed : forall f m, check_prereq f m = None -> prereq_ok m (fstate f) = true.
Proof. intros f m H. unfold check_prereq in H. destruct (prereq_ok m (fstate f)); [reflexivity|discriminate]. Qed.
Lemma prereq_begin_active : forall f, check_prereq f M_begin = None -> fstate f = ACTIVE.
Proof. intros f H. apply sm_begin_prereq, check_prereq_passed, H. Qed.
Lemma prereq_prepare_active : forall f, check_prereq f M_prepare = None -> fstate f = ACTIVE.
Proof. intros f H. apply check_prereq_passed in H. destruct (fstate f); try discriminate; reflexivity. Qed.
Lemma prereq_error_codes : forall f, prereq_error f = E_INV \/ prereq_error f = E_PENDING \/ prereq_error f = E_CLOSED.
Proof. intros f. unfold prereq_error. destruct (fstate f); try destruct (frbexc f); auto. Qed.
Lemma check_prereq_not_illegal : forall f m c, check_prereq f m = Some c -> Err c <> Err E_ILLEGAL.
Proof.
  intros f m c H. unfold check_prereq in H. destruct (prereq_ok m (fstate f)); [discriminate|].
  inversion H. destruct (prereq_error_codes f) as [X|[X|X]]; rewrite X; discriminate.
Qed.

(* the commands of transaction control proper end Ok or outside the model: they never raise.  What they
   do to the (id, state) list is a function [phi] *)
Definition moves (F : M) (phi : K -> K) : Prop :=
  forall st r st', F st = (r, st') -> r <> Unmodelled -> r = Ok /\ stk st' = phi (stk st) /\ nfid st' = nfid st.
Definition sethd (s : tstate) (k : K) : K := match k with (n, _) :: r => (n, s) :: r | [] => [] end.

Lemma moves_ret : moves ret (fun k => k).
Proof. intros st r st' H _. given H. Qed.
Lemma moves_lift : forall g phi, (forall st, stk (g st) = phi (stk st) /\ nfid (g st) = nfid st) -> moves (lift g) phi.
Proof. intros g phi Hg st r st' H _. destruct (Hg st). given H. Qed.
Lemma moves_bind : forall a b phi psi, moves a phi -> moves b psi -> moves (a ;; b) (fun k => psi (phi k)).
Proof.
  intros a b phi psi Ha Hb st r st' H Hr. apply bind_inv in H. destruct H as [[st1 [H1 H2]]|[H1 Hn]].
  - destruct (Ha _ _ _ H1) as [_ [E1 E2]]; [discriminate|]. destruct (Hb _ _ _ H2 Hr) as [E3 [E4 E5]].
    repeat split; congruence.
  - destruct (Ha _ _ _ H1 Hr). contradiction.
Qed.
Lemma moves_withst : forall k phi, (forall s, moves (k s) phi) -> moves (withst k) phi.
Proof. intros k phi Hk st r st' H. apply (Hk st st r st' H). Qed.
Lemma moves_foldM : forall {A} (f : A -> M) l, (forall x, moves (f x) (fun k => k)) -> moves (foldM f l) (fun k => k).
Proof.
  intros A f l Hf. induction l; cbn [foldM].
  - apply moves_ret.
  - apply (moves_bind _ _ (fun k => k) (fun k => k)); auto.
Qed.

Lemma moves_db_rollback_to : forall n, moves (db_rollback_to n) (fun k => k).
Proof.
  intros n st r st' H Hr. unfold db_rollback_to in H. destruct (drop_to n (saves st)) as [[|[m snap] l]|]; given H.
Qed.
Lemma moves_db_release : forall n, moves (db_release n) (fun k => k).
Proof.
  intros n st r st' H Hr. unfold db_release in H. destruct (drop_to n (saves st)) as [[|e l]|]; given H.
Qed.
Lemma moves_head_db_rollback : moves head_db_rollback (fun k => k).
Proof.
  intros st r st' H Hr. unfold head_db_rollback in H. destruct (stack st) as [|f fr]; [given H|].
  destruct (fconn f); [|given H]. destruct (fnested f); [eapply moves_db_rollback_to; eauto|given H].
Qed.
Lemma moves_head_db_commit : moves head_db_commit (fun k => k).
Proof.
  intros st r st' H Hr. unfold head_db_commit in H. destruct (stack st) as [|f fr]; [given H|].
  destruct (fconn f); [|given H]. destruct (fnested f); [eapply moves_db_release; eauto|given H].
Qed.
Lemma moves_update_impl_revert : forall o, moves (update_impl_revert o) (fun k => k).
Proof.
  intros o st r st' H Hr. unfold update_impl_revert in H. destruct (okey (objs st o)); [|given H].
  destruct (odelf (objs st o) && negb (oatt (objs st o))); [given H|].
  destruct (negb (oatt (objs st o))); [given H|]. inversion H; subst.
  match goal with |- _ /\ stk (im_replace o ?s) = _ /\ _ => destruct (keepsf_im_replace o s) as [E1 E2]; rewrite E1, E2 end.
  repeat split; auto.
Qed.
Lemma moves_restore_snapshot : forall d, moves (restore_snapshot d) (fun k => k).
Proof.
  intros d st r st' H Hr. unfold restore_snapshot in H. destruct (stack st) as [|f rest] eqn:E; [given H|].
  set (te := filter (fun o => mem o (fnew f) || mem o (snew st)) (all_objs st)) in *.
  set (st1 := expunge_states te true st) in *.
  set (st2 := fold_left (fun s o => restore_ks_one te (fks f) o s) (all_objs st1) st1) in *.
  destruct (keepsf_expunge_states te true st) as [A1 B1]. fold st1 in A1, B1.
  destruct (keepsf_fold (fun s o => restore_ks_one te (fks f) o s) (all_objs st1) (fun x => keepsf_restore_ks_one te (fks f) x) st1) as [A2 B2].
  fold st2 in A2, B2.
  match type of H with (match ?X with _ => _ end) = _ => destruct X as [r3 st3] eqn:E3 end.
  assert (K3 : r3 <> Unmodelled -> r3 = Ok /\ stk st3 = stk st2 /\ nfid st3 = nfid st2).
  { apply (moves_foldM update_impl_revert _ moves_update_impl_revert _ _ _ E3). }
  destruct r3; [destruct K3 as [_ [A3 B3]]; [discriminate|]|destruct K3 as [X _]; [discriminate|discriminate]|given H].
  destruct (negb (isnil (sdel st3))); inversion H; subst; [congruence|].
  split; [reflexivity|]. split; [change (stk st3 = stk st)|change (nfid st3 = nfid st)]; congruence.
Qed.
Lemma moves_close_head : moves close_head (@tl _).
Proof.
  intros st r st' H Hr. unfold close_head in H. destruct (stack st) as [|f rest] eqn:E; [given H|].
  assert (Hs : stk (set_stack st rest) = tl (stk st)) by (unfold stk; rewrite E; reflexivity).
  destruct (fconn f && live_state (fstate f)); [|given H].
  destruct (fnested f); [|given H].
  destruct (moves_db_rollback_to _ _ _ _ H Hr) as [A [B C]]. rewrite <- Hs. auto.
Qed.
Lemma stk_set_head_state : forall s st, stk (set_head_state s st) = sethd s (stk st) /\ nfid (set_head_state s st) = nfid st.
Proof.
  intros s st. unfold set_head_state, upd_head, stk. destruct (stack st) as [|f r] eqn:E.
  - rewrite E. auto.
  - cbn. auto.
Qed.
(* each decorated method ends in the state it declares *)
Lemma moves_check_moves : forall m s, Z.eqb (moves_to m) (tstate_code s) = true -> moves (check_moves m s) (fun k => k).
Proof. intros m s E. unfold check_moves. rewrite E. apply moves_ret. Qed.

(* the error path of Session._flush: the innermost transaction ends up DEACTIVE *)
Lemma flush_fail_spec : moves flush_fail deact.
Proof.
  unfold flush_fail.
  apply (moves_bind _ _ (fun k => k) deact); [apply moves_head_db_rollback|].
  apply (moves_bind _ _ deact (fun k => k)); [apply moves_lift, stk_set_head_state|].
  apply (moves_bind _ _ (fun k => k) (fun k => k)); [apply moves_withst; intros s; apply moves_restore_snapshot|].
  apply (moves_bind _ _ (fun k => k) (fun k => k)).
  - apply moves_withst. intros s. destruct (is_clean s); [apply moves_ret|apply moves_restore_snapshot].
  - apply moves_lift. intros st. apply stk_upd_head. intros; split; reflexivity.
Qed.

(* outcome of the functions that at most autobegin and at most deactivate the innermost frame *)
Definition out1 (nf : nat) (k : K) (r : res) (nf' : nat) (k' : K) : Prop :=
  (k' = k /\ nf' = nf) \/
  (k' = fst (abK nf k) /\ nf' = snd (abK nf k)) \/
  (r <> Ok /\ head_active (fst (abK nf k)) /\ k' = deact (fst (abK nf k)) /\ nf' = snd (abK nf k)).

Lemma flush_with_spec : forall body, (forall n d e, keeps (body n d e)) ->
  forall st r st', flush_with body st = (r, st') -> r <> Unmodelled ->
  out1 (nfid st) (stk st) r (nfid st') (stk st') /\ r <> Err E_ILLEGAL.
Proof.
  intros body Hb st r st' H Hr. unfold flush_with in H.
  destruct (is_clean st); [inversion H; subst; split; [left; auto|discriminate]|].
  pose proof (stk_autobegin st) as Hab.
  destruct (stack (autobegin st)) as [|f rest] eqn:E; [given H|].
  destruct (check_prereq f M_begin) eqn:Ec.
  { inversion H; subst. split; [|eapply check_prereq_not_illegal; eauto]. right; left. rewrite <- Hab. auto. }
  apply prereq_begin_active in Ec.
  match type of H with (match ?X with _ => _ end) = _ => destruct X as [r2 st2] eqn:E2 end.
  destruct (Hb _ _ _ _ _ _ E2) as [A2 [B2 C2]].
  destruct r2; [| |given H].
  - inversion H; subst. split; [|discriminate]. right; left. rewrite <- Hab. cbn. split; congruence.
  - destruct (flush_fail st2) as [r3 st3] eqn:E3.
    destruct (flush_fail_spec _ _ _ E3) as [X [A3 B3]]; [destruct r3; inversion H; subst; congruence|]. subst r3.
    inversion H; subst. split; [|exact C2]. right; right. rewrite <- Hab. cbn [fst snd].
    repeat split; try congruence. unfold stk. rewrite E. cbn. rewrite Ec. exact I.
Qed.
Lemma flush_spec : forall st r st', flush st = (r, st') -> r <> Unmodelled ->
  out1 (nfid st) (stk st) r (nfid st') (stk st') /\ r <> Err E_ILLEGAL.
Proof. apply flush_with_spec. apply keeps_flush_exec. Qed.

(* on a non-empty stack *)
Definition out2 (k : K) (r : res) (k' : K) : Prop := k' = k \/ (r <> Ok /\ head_active k /\ k' = deact k).

Lemma out1_nonempty : forall nf k r nf' k', k <> [] -> out1 nf k r nf' k' -> out2 k r k' /\ nf' = nf.
Proof.
  intros nf k r nf' k' Hk H. destruct k as [|e k0]; [congruence|]. cbn in H.
  destruct H as [[A B]|[[A B]|[A [B [C D]]]]]; subst; split; auto; [left|left|right]; auto.
Qed.

Lemma flush_loop_spec : forall n st r st', flush_loop n st = (r, st') -> r <> Unmodelled -> stk st <> [] ->
  out2 (stk st) r (stk st') /\ nfid st' = nfid st /\ r <> Err E_ILLEGAL /\ (r = Ok -> stk st' = stk st).
Proof.
  induction n as [|n IH]; intros st r st' H Hr Hk; cbn [flush_loop] in H.
  - inversion H; subst. repeat split; try discriminate. left; auto.
  - destruct (is_clean st).
    + inversion H; subst. repeat split; try discriminate; auto. left; auto.
    + apply bind_inv in H. destruct H as [[s1 [H1 H2]]|[H1 Hn]].
      * destruct (flush_spec _ _ _ H1) as [A _]; [discriminate|].
        apply out1_nonempty in A; auto. destruct A as [[A|[A _]] B]; [|congruence].
        destruct (IH _ _ _ H2 Hr) as [C [D [E F]]]; [congruence|].
        rewrite A in C. repeat split; try congruence. intros X. rewrite F; auto.
      * destruct (flush_spec _ _ _ H1 Hr) as [A A'].
        apply out1_nonempty in A; auto. destruct A as [A B]. repeat split; auto. congruence.
Qed.

Lemma prepare_head_spec : forall st r st', prepare_head st = (r, st') -> r <> Unmodelled ->
  forall n rest, stk st = (n, ACTIVE) :: rest ->
  nfid st' = nfid st /\ r <> Err E_ILLEGAL /\
  ((r = Ok /\ stk st' = (n, PREPARED) :: rest) \/ (r <> Ok /\ out2 (stk st) r (stk st'))).
Proof.
  intros st r st' H Hr n rest Hk. unfold prepare_head in H.
  destruct (stack st) as [|f fr] eqn:E; [given H|].
  assert (Hf : fstate f = ACTIVE). { unfold stk in Hk. rewrite E in Hk. cbn in Hk. congruence. }
  unfold check_prereq in H. rewrite Hf in H. cbn [tstate_eqb tstate_code Z.eqb Pos.eqb] in H.
  change (prereq_ok M_prepare ACTIVE) with true in H. cbv iota in H.
  apply bind_inv in H. destruct H as [[s1 [H1 H2]]|[H1 Hn]].
  - destruct (flush_loop_spec _ _ _ _ H1) as [_ [B [_ D]]]; [discriminate|rewrite Hk; discriminate|].
    assert (T : moves (lift (set_head_state PREPARED) ;; check_moves M_prepare PREPARED) (fun k => sethd PREPARED k)).
    { apply (moves_bind _ _ (sethd PREPARED) (fun k => k)); [apply moves_lift, stk_set_head_state|apply moves_check_moves; reflexivity]. }
    destruct (T _ _ _ H2 Hr) as [X [P Q]]. rewrite (D eq_refl), Hk in P.
    subst r. repeat split; try congruence. left. auto.
  - destruct (flush_loop_spec _ _ _ _ H1 Hr) as [A [B [C D]]]; [rewrite Hk; discriminate|].
    repeat split; auto.
Qed.

(* what is left is a suffix of the stack, its innermost frame possibly DEACTIVE after a failure *)
Definition sufD (k : K) (r : res) (k' : K) : Prop :=
  exists pre suf, k = pre ++ suf /\ (k' = suf \/ (r <> Ok /\ head_active suf /\ k' = deact suf)).
Lemma sufD_refl : forall k r, sufD k r k.
Proof. intros. exists [], k. split; auto. Qed.
Lemma sufD_out2 : forall k r k', out2 k r k' -> sufD k r k'.
Proof. intros k r k' H. exists [], k. split; auto. Qed.
Lemma sufD_trans : forall k k1 k2 r, sufD k Ok k1 -> sufD k1 r k2 -> sufD k r k2.
Proof.
  intros k k1 k2 r [p1 [s1 [E1 H1]]] [p2 [s2 [E2 H2]]].
  destruct H1 as [H1|[H1 _]]; [|congruence]. subst.
  exists (p1 ++ p2), s2. split; [rewrite app_assoc; reflexivity|auto].
Qed.
Lemma sufD_tl : forall k r, sufD k r (tl k).
Proof. intros [|e k] r; [apply sufD_refl|]. exists [e], k. split; auto. Qed.

Lemma Kwf_sufD : forall nf k r k', Kwf nf k -> sufD k r k' -> Kwf nf k'.
Proof.
  intros nf k r k' H [pre [suf [E Hs]]]. subst. apply Kwf_suffix in H.
  destruct Hs as [Hs|[_ [_ Hs]]]; subst; auto. apply Kwf_deact; auto.
Qed.

(* commit, rollback and close, of one frame or of several: from a well-formed stack *)
Definition steps (F : M) : Prop :=
  forall st r st', F st = (r, st') -> r <> Unmodelled -> Kwf (nfid st) (stk st) ->
  nfid st' = nfid st /\ r <> Err E_ILLEGAL /\ sufD (stk st) r (stk st').

Lemma steps_bind : forall a b, steps a -> steps b -> steps (a ;; b).
Proof.
  intros a b Ha Hb st r st' H Hr Hw. apply bind_inv in H. destruct H as [[s1 [H1 H2]]|[H1 Hn]]; [|exact (Ha _ _ _ H1 Hr Hw)].
  destruct (Ha _ _ _ H1) as [A [_ C]]; [discriminate|exact Hw|].
  destruct (Hb _ _ _ H2 Hr) as [A2 [B2 C2]]; [rewrite A; eapply Kwf_sufD; eauto|].
  repeat split; try congruence. eapply sufD_trans; eauto.
Qed.
Lemma steps_moves : forall F phi, moves F phi -> (forall k, sufD k Ok (phi k)) -> steps F.
Proof.
  intros F phi HF Hphi st r st' H Hr _. destruct (HF _ _ _ H Hr) as [A [B C]]. subst r.
  repeat split; [exact C|discriminate|]. rewrite B. apply Hphi.
Qed.
(* a call refused: nothing happens *)
Lemma steps_refused : forall st r0 r st', (r0, st) = (r, st') -> r0 <> Err E_ILLEGAL ->
  nfid st' = nfid st /\ r <> Err E_ILLEGAL /\ sufD (stk st) r (stk st').
Proof. intros st r0 r st' H H0. inversion H; subst. repeat split; auto. apply sufD_refl. Qed.

(* SessionTransaction.commit of the innermost frame: it leaves the stack, unless the flush fails *)
Lemma commit_head_spec : steps commit_head.
Proof.
  intros st r st' H Hr Hw. unfold commit_head in H.
  destruct (stack st) as [|f fr] eqn:E; [given H|].
  destruct (check_prereq f M_commit) eqn:Ec; [eapply steps_refused, check_prereq_not_illegal; eauto|].
  assert (Hk : stk st = (fid f, ACTIVE) :: map (fun f => (fid f, fstate f)) fr).
  { unfold stk in *. rewrite E in *. cbn in *. destruct Hw as [_ [[Hf|Hf] _]]; rewrite Hf; [reflexivity|].
    apply check_prereq_passed, sm_commit_prereq in Ec. destruct Ec; congruence. }
  apply bind_inv in H. destruct H as [[s1 [H1 H]]|[H1 Hn]].
  2:{ destruct (prepare_head_spec _ _ _ H1 Hr _ _ Hk) as [A [B [[C _]|[C D]]]]; [congruence|].
      repeat split; auto. apply sufD_out2; auto. }
  destruct (prepare_head_spec _ _ _ H1 ltac:(discriminate) _ _ Hk) as [A [_ [[_ C]|[C _]]]]; [|congruence].
  assert (T : moves (head_db_commit ;; lift (set_head_state COMMITTED) ;; lift remove_snapshot ;; close_head ;; check_moves M_commit CLOSED)
                    (fun k => tl (sethd COMMITTED k))).
  { apply (moves_bind _ _ (fun k => k) (fun k => tl (sethd COMMITTED k))); [apply moves_head_db_commit|].
    apply (moves_bind _ _ (sethd COMMITTED) (@tl _)); [apply moves_lift, stk_set_head_state|].
    apply (moves_bind _ _ (fun k => k) (@tl _)); [apply moves_lift, keepsf_remove_snapshot|].
    apply (moves_bind _ _ (@tl _) (fun k => k)); [apply moves_close_head|apply moves_check_moves; reflexivity]. }
  destruct (T _ _ _ H Hr) as [X [P Q]]. rewrite C in P. subst r.
  repeat split; try congruence. exists [(fid f, ACTIVE)], (stk st'). rewrite Hk, P. auto.
Qed.

Lemma commit_upto_spec : forall fuel n, steps (commit_upto fuel n).
Proof.
  induction fuel as [|fuel IH]; intros n st r st' H Hr Hw; cbn [commit_upto] in H; [given H|].
  destruct (head_is n st); [exact (commit_head_spec _ _ _ H Hr Hw)|exact (steps_bind _ _ commit_head_spec (IH n) _ _ _ H Hr Hw)].
Qed.
Lemma commit_all_spec : forall fuel, steps (commit_all fuel).
Proof.
  induction fuel as [|fuel IH]; intros st r st' H Hr Hw; cbn [commit_all] in H; [given H|].
  destruct (stack st); [eapply steps_refused; eauto; discriminate|exact (steps_bind _ _ commit_head_spec IH _ _ _ H Hr Hw)].
Qed.

Lemma close_head_spec : steps close_head.
Proof. apply (steps_moves _ _ moves_close_head). intros k. apply sufD_tl. Qed.
Lemma close_above_spec : forall fuel n, steps (close_above fuel n).
Proof.
  induction fuel as [|fuel IH]; intros n st r st' H Hr Hw; cbn [close_above] in H; [given H|].
  destruct (head_is n st); [eapply steps_refused; eauto; discriminate|exact (steps_bind _ _ close_head_spec (IH n) _ _ _ H Hr Hw)].
Qed.
Lemma close_all_spec : forall fuel, steps (close_all fuel).
Proof.
  induction fuel as [|fuel IH]; intros st r st' H Hr Hw; cbn [close_all] in H; [given H|].
  destruct (stack st); [eapply steps_refused; eauto; discriminate|exact (steps_bind _ _ close_head_spec IH _ _ _ H Hr Hw)].
Qed.

(* SessionTransaction.rollback of the innermost frame: the frame leaves the stack *)
Lemma rollback_head_spec : steps rollback_head.
Proof.
  apply (steps_moves _ (@tl _)); [|intros k; apply sufD_tl].
  intros st r st' H Hr. unfold rollback_head in H. destruct (stack st) as [|f fr]; [given H|].
  set (phi := if live_state (fstate f) then deact else fun k => k).
  assert (T : moves ((if live_state (fstate f)
                      then head_db_rollback ;; lift (set_head_state DEACTIVE) ;; restore_snapshot (fnested f) else ret) ;;
                     withst (fun st1 => if is_clean st1 then ret else restore_snapshot (fnested f)) ;;
                     close_head ;; check_moves M_rollback CLOSED) (fun k => tl (phi k))).
  { apply (moves_bind _ _ phi (@tl _)).
    - unfold phi. destruct (live_state (fstate f)); [|apply moves_ret].
      apply (moves_bind _ _ (fun k => k) deact); [apply moves_head_db_rollback|].
      apply (moves_bind _ _ deact (fun k => k)); [apply moves_lift, stk_set_head_state|apply moves_restore_snapshot].
    - apply (moves_bind _ _ (fun k => k) (@tl _)).
      + apply moves_withst. intros s. destruct (is_clean s); [apply moves_ret|apply moves_restore_snapshot].
      + apply (moves_bind _ _ (@tl _) (fun k => k)); [apply moves_close_head|apply moves_check_moves; reflexivity]. }
  destruct (T _ _ _ H Hr) as [X [P Q]]. split; [exact X|]. split; [|exact Q].
  rewrite P. unfold phi. destruct (live_state (fstate f)), (stk st) as [|[n s] k]; reflexivity.
Qed.

Lemma rollback_all_spec : forall fuel, steps (rollback_all fuel).
Proof.
  induction fuel as [|fuel IH]; intros st r st' H Hr Hw; cbn [rollback_all] in H; [given H|].
  destruct (stack st) as [|f fr]; [eapply steps_refused; eauto; discriminate|].
  destruct (check_prereq f M_rollback) eqn:Ec; [eapply steps_refused, check_prereq_not_illegal; eauto|].
  exact (steps_bind _ _ rollback_head_spec IH _ _ _ H Hr Hw).
Qed.

Lemma t_commit_spec : forall n, steps (t_commit n).
Proof.
  intros n st r st' H Hr Hw. unfold t_commit in H.
  destruct (find_frame n st) as [f|]; [|eapply steps_refused; eauto; discriminate].
  destruct (check_prereq f M_commit) eqn:E1; [eapply steps_refused, check_prereq_not_illegal; eauto|].
  destruct (tstate_eqb _ _); [exact (commit_upto_spec _ _ _ _ _ H Hr Hw)|].
  destruct (check_prereq f M_prepare) eqn:E2; [eapply steps_refused, check_prereq_not_illegal; eauto|].
  exact (commit_upto_spec _ _ _ _ _ H Hr Hw).
Qed.
Lemma t_rollback_spec : forall n, steps (t_rollback n).
Proof.
  intros n st r st' H Hr Hw. unfold t_rollback in H.
  destruct (find_frame n st) as [f|]; [|eapply steps_refused; eauto; discriminate].
  destruct (check_prereq f M_rollback) eqn:E1; [eapply steps_refused, check_prereq_not_illegal; eauto|].
  exact (steps_bind _ _ (close_above_spec _ n) rollback_head_spec _ _ _ H Hr Hw).
Qed.

(* one operation on the stack of (id, state): possibly an autobegin first (abK); then either what is left is a
   suffix, its innermost frame possibly DEACTIVE (sufD), or one ACTIVE frame with the next id is pushed (begin_nested) *)
Definition oprel (nf : nat) (k : K) (r : res) (nf' : nat) (k' : K) : Prop :=
  exists k0 nf0, ((k0, nf0) = (k, nf) \/ (k0, nf0) = abK nf k) /\
    ((sufD k0 r k' /\ nf' = nf0) \/ (head_active k0 /\ k' = (nf0, ACTIVE) :: k0 /\ nf' = S nf0)).

Lemma out1_oprel : forall nf k r nf' k' (P : Prop), out1 nf k r nf' k' /\ P -> oprel nf k r nf' k' /\ P.
Proof.
  intros nf k r nf' k' P [[[A B]|[[A B]|[A [B [C D]]]]] HP]; (split; [|exact HP]).
  - exists k, nf. split; auto. left. subst. split; auto. apply sufD_refl.
  - exists (fst (abK nf k)), (snd (abK nf k)). split; [right; destruct (abK nf k); reflexivity|].
    left. subst. split; auto. apply sufD_refl.
  - exists (fst (abK nf k)), (snd (abK nf k)). split; [right; destruct (abK nf k); reflexivity|].
    left. subst. split; auto. exists [], (fst (abK nf k)). split; auto.
Qed.
Lemma steps_oprel : forall st r st', nfid st' = nfid st /\ r <> Err E_ILLEGAL /\ sufD (stk st) r (stk st') ->
  oprel (nfid st) (stk st) r (nfid st') (stk st') /\ r <> Err E_ILLEGAL.
Proof. intros st r st' [A [B C]]. split; [|exact B]. exists (stk st), (nfid st). auto. Qed.

Lemma oprel_Kwf : forall nf k r nf' k', Kwf nf k -> oprel nf k r nf' k' -> Kwf nf' k'.
Proof.
  intros nf k r nf' k' Hw [k0 [nf0 [H0 H]]].
  assert (Hw0 : Kwf nf0 k0).
  { destruct H0 as [H0|H0]; inversion H0; subst; auto.
    pose proof (Kwf_abK nf k Hw) as X. rewrite <- H0 in X. exact X. }
  destruct H as [[H1 H2]|[H1 [H2 H3]]]; subst.
  - eapply Kwf_sufD; eauto.
  - apply Kwf_push; auto.
Qed.

Lemma connection_spec : forall st r st', connection st = (r, st') ->
  (stk st', nfid st') = abK (nfid st) (stk st) /\ r <> Err E_ILLEGAL.
Proof.
  intros st r st' H. unfold connection in H. rewrite bind_ok with (st1 := autobegin st) in H by reflexivity.
  destruct (keeps_provision _ _ _ H) as [A [B C]]. rewrite A, B. split; auto. apply stk_autobegin.
Qed.

Lemma out1_after_ab : forall nf k r k' nf', out1 (snd (abK nf k)) (fst (abK nf k)) r nf' k' -> out1 nf k r nf' k'.
Proof.
  intros nf k r k' nf' H. destruct k as [|e k0]; [|exact H]. cbn in *.
  destruct H as [[A B]|[[A B]|[A [B [C D]]]]]; subst; [right; left|right; left|right; right]; auto.
Qed.

Lemma abK_idem : forall nf k, abK (snd (abK nf k)) (fst (abK nf k)) = abK nf k.
Proof. intros nf [|e k]; reflexivity. Qed.

Lemma out1_then_ab : forall nf k nf1 k1 r st2,
  out1 nf k Ok nf1 k1 -> (stk st2, nfid st2) = abK nf1 k1 -> out1 nf k r (nfid st2) (stk st2).
Proof.
  intros nf k nf1 k1 r st2 A B.
  assert (B1 : stk st2 = fst (abK nf1 k1)) by (rewrite <- B; reflexivity).
  assert (B2 : nfid st2 = snd (abK nf1 k1)) by (rewrite <- B; reflexivity).
  destruct A as [[A1 A2]|[[A1 A2]|[A1 _]]]; [| |congruence]; subst; right; left.
  - auto.
  - rewrite abK_idem in B1, B2. auto.
Qed.

Lemma load_expired_spec : forall o st r st', load_expired o st = (r, st') -> r <> Unmodelled ->
  out1 (nfid st) (stk st) r (nfid st') (stk st') /\ r <> Err E_ILLEGAL.
Proof.
  intros o st r st' H Hr. unfold load_expired in H. destruct (negb _).
  { inversion H; subst. split; [left; auto|discriminate]. }
  apply bind_inv in H. destruct H as [[s1 [H1 H]]|[H1 Hn]]; [|apply (flush_spec _ _ _ H1 Hr)].
  destruct (flush_spec _ _ _ H1) as [A _]; [discriminate|].
  apply bind_inv in H. destruct H as [[s2 [H2 H]]|[H2 Hn]]; destruct (connection_spec _ _ _ H2) as [B B'].
  - assert (KL : keeps (load_row_attached o)).
    { intros sa ra sa' Ha. unfold load_row_attached in Ha. destruct (oatt (objs sa o)); [apply (keeps_load_row _ _ _ _ Ha)|given Ha]. }
    destruct (KL _ _ _ H) as [C [D E]]. split; auto.
    rewrite C, D. eapply out1_then_ab; eauto.
  - split; auto. eapply out1_then_ab; eauto.
Qed.

Lemma modified_event_spec : forall o st,
  (stk (modified_event o st), nfid (modified_event o st)) = (stk st, nfid st) \/
  (stk (modified_event o st), nfid (modified_event o st)) = abK (nfid st) (stk st).
Proof.
  intros o st. unfold modified_event. destruct (omod (objs st o)); [left; auto|].
  destruct (_ && _); [|left; reflexivity]. right.
  rewrite stk_autobegin. reflexivity.
Qed.

Lemma out1_of_pair : forall nf k r st',
  ((stk st', nfid st') = (k, nf) \/ (stk st', nfid st') = abK nf k) -> out1 nf k r (nfid st') (stk st').
Proof.
  intros nf k r st' [H|H].
  - inversion H as [[A B]]. left; auto.
  - right; left. rewrite <- H. auto.
Qed.

Lemma save_or_update_spec : forall o st r st', save_or_update o st = (r, st') ->
  out1 (nfid st) (stk st) r (nfid st') (stk st') /\ r <> Err E_ILLEGAL.
Proof.
  intros o st r st' H. unfold save_or_update in H. destruct (okey (objs st o)).
  - unfold update_impl in H. destruct (odelf _); [inversion H; subst; split; [left; auto|discriminate]|].
    destruct (negb _); [inversion H; subst; split; [left; auto|discriminate]|].
    destruct (keeps_im_add _ _ _ _ H) as [A [B C]]. split; auto.
    apply out1_of_pair. right. rewrite A, B. apply stk_autobegin.
  - inversion H; subst. split; [|discriminate]. apply out1_of_pair. right.
    destruct (mem o (snew (autobegin st))); apply stk_autobegin.
Qed.

Lemma stk_fold_mod : forall {A} (l : list A) (g : sess -> A -> sess) st,
  (forall s x, stack (g s x) = stack s /\ nfid (g s x) = nfid s) ->
  stack (fold_left g l st) = stack st /\ nfid (fold_left g l st) = nfid st.
Proof.
  intros A l g. induction l; intros st Hg; cbn; auto.
  destruct (IHl (g st a) Hg) as [E1 E2]. destruct (Hg st a) as [E3 E4]. split; congruence.
Qed.

Theorem do_op_oprel : forall p st r st', do_op p st = (r, st') -> r <> Unmodelled -> Kwf (nfid st) (stk st) ->
  oprel (nfid st) (stk st) r (nfid st') (stk st') /\ r <> Err E_ILLEGAL.
Proof.
  intros p st r st' H Hr Hw.
  (* the operation is refused, or has nothing to do *)
  assert (Same : forall r0, r0 <> Err E_ILLEGAL -> (r0, st) = (r, st') -> oprel (nfid st) (stk st) r (nfid st') (stk st') /\ r <> Err E_ILLEGAL).
  { intros r0 H0 X. inversion X; subst. apply out1_oprel. split; [left; auto|exact H0]. }
  destruct p; cbn [do_op] in H.
  - (* new *) apply out1_oprel. exact (save_or_update_spec _ _ _ _ H).
  - destruct (Nat.ltb o (nobj st)); [|given H]. apply out1_oprel. exact (save_or_update_spec _ _ _ _ H).
  - destruct (negb _); inversion H; subst; [congruence|]. apply out1_oprel. split; [|discriminate].
    apply out1_of_pair.
    match goal with |- context [modified_event ?o ?s] => destruct (modified_event_spec o s) as [X|X]; rewrite X end; auto.
  - destruct (negb _); [given H|].
    apply bind_inv in H. destruct H as [[s1 [H1 H2]]|[H1 Hn]].
    + assert (A : out1 (nfid st) (stk st) Ok (nfid s1) (stk s1)).
      { destruct (needs_pk_load _); [apply (load_expired_spec _ _ _ _ H1); discriminate|].
        inversion H1; subst. left; auto. }
      inversion H2; subst. apply out1_oprel. split; [|discriminate].
      match goal with |- context [modified_event ?o ?s] => destruct (modified_event_spec o s) as [X|X] end.
      * inversion X as [[X1 X2]]. rewrite X1, X2.
        destruct A as [[A1 A2]|[[A1 A2]|[A1 _]]]; [left|right; left|congruence]; auto.
      * eapply out1_then_ab; [exact A|]. exact X.
    + destruct (needs_pk_load _); [|given H1].
      apply out1_oprel. exact (load_expired_spec _ _ _ _ H1 Hr).
  - (* delete *)
    destruct (negb _); [given H|].
    destruct (okey _); [|apply (Same (Err E_INV)); [discriminate|exact H]].
    destruct (negb _); [given H|].
    apply out1_oprel.
    destruct (mem o (sdel (autobegin st))).
    + inversion H; subst. split; [|discriminate]. apply out1_of_pair. right. apply stk_autobegin.
    + assert (K1 : keeps (im_add o ;; lift (fun s => set_sdel s (sdel s ++ [o])))).
      { apply keeps_bind; [apply keeps_im_add|apply keeps_lift; intros s; split; reflexivity]. }
      destruct (K1 _ _ _ H) as [A [B C]]. split; auto. apply out1_of_pair. right.
      rewrite A, B. apply stk_autobegin.
  - (* flush *) apply out1_oprel. exact (flush_spec _ _ _ H Hr).
  - (* begin_nested *)
    set (st0 := set_handles st (handles st ++ [None])) in *.
    pose proof (stk_autobegin st0) as Hab. change (stk st0) with (stk st) in Hab. change (nfid st0) with (nfid st) in Hab.
    destruct (stack (autobegin st0)) as [|f fr] eqn:E; [given H|].
    destruct (check_prereq f M_begin) eqn:Ec.
    { inversion H; subst. apply out1_oprel. split; [|eapply check_prereq_not_illegal; eauto]. apply out1_of_pair. right. exact Hab. }
    apply prereq_begin_active in Ec.
    assert (Ha : head_active (stk (autobegin st0))). { unfold stk. rewrite E. cbn. rewrite Ec. exact I. }
    assert (Hne : stk (autobegin st0) <> []) by (unfold stk; rewrite E; discriminate).
    apply bind_inv in H. destruct H as [[s1 [H1 H2]]|[H1 Hn]].
    + destruct (flush_spec _ _ _ H1) as [A _]; [discriminate|].
      apply out1_nonempty in A; [|exact Hne].
      destruct A as [[A|[A _]] B]; [|congruence].
      inversion H2; subst. split; [|discriminate].
      exists (stk (autobegin st0)), (nfid (autobegin st0)). split; [right; exact Hab|].
      right. split; auto. unfold stk at 1. cbn. fold (stk s1). rewrite A, B. auto.
    + destruct (flush_spec _ _ _ H1 Hr) as [A B]. split; auto.
      apply out1_nonempty in A; [|exact Hne]. destruct A as [A A'].
      exists (stk (autobegin st0)), (nfid (autobegin st0)). split; [right; exact Hab|].
      left. split; auto. apply sufD_out2; auto.
  - (* Session.commit *)
    pose proof (stk_autobegin st) as Hab.
    assert (Hw1 : Kwf (nfid (autobegin st)) (stk (autobegin st))).
    { pose proof (Kwf_abK _ _ Hw) as X. rewrite <- Hab in X. exact X. }
    destruct (commit_all_spec _ _ _ _ H Hr Hw1) as [A [B C]]. split; auto.
    exists (stk (autobegin st)), (nfid (autobegin st)). split; [right; exact Hab|]. left. auto.
  - (* Session.rollback *) apply steps_oprel. exact (rollback_all_spec _ _ _ _ H Hr Hw).
  - destruct (nth_error (handles st) h) as [[n|]|]; [| |given H].
    + apply steps_oprel. exact (t_commit_spec _ _ _ _ H Hr Hw).
    + apply (Same (Err E_NOHANDLE)); [discriminate|exact H].
  - destruct (nth_error (handles st) h) as [[n|]|]; [| |given H].
    + apply steps_oprel. exact (t_rollback_spec _ _ _ _ H Hr Hw).
    + apply (Same (Err E_NOHANDLE)); [discriminate|exact H].
  - (* close: expunge_all leaves the transactions alone *)
    match type of H with close_all _ ?s = _ =>
      change (oprel (nfid s) (stk s) r (nfid st') (stk st') /\ r <> Err E_ILLEGAL); apply steps_oprel; exact (close_all_spec _ _ _ _ H Hr Hw) end.
  - (* load *)
    destruct (negb _); [given H|].
    destruct (odv _); [apply (Same Ok); [discriminate|exact H]|].
    apply out1_oprel. exact (load_expired_spec _ _ _ _ H Hr).
Qed.

(* every history, guarded or not (SessTxnSpec.GReach is the guarded one) *)
Inductive Reach (e : bool) : sess -> Prop :=
  | reach_init : Reach e (sess0 e)
  | reach_step : forall st p r st', Reach e st -> do_op p st = (r, st') -> r <> Unmodelled -> Reach e st'.

Lemma reach_Kwf : forall e st, Reach e st -> Kwf (nfid st) (stk st).
Proof.
  intros e st H. induction H.
  - split; cbn; auto.
  - destruct (do_op_oprel _ _ _ _ H0 H1 IHReach) as [A _]. eapply oprel_Kwf; eauto.
Qed.

(* the state of frame [n]: a frame that is not on the stack (any more) is CLOSED *)
Definition kst (k : K) (n : nat) : tstate :=
  match find (fun e => Nat.eqb (fst e) n) k with Some e => snd e | None => CLOSED end.
Definition frame_state (st : sess) (n : nat) : tstate := kst (stk st) n.

Definition allowed (s s' : tstate) : Prop :=
  s = s' \/ (s = ACTIVE /\ (s' = DEACTIVE \/ s' = CLOSED)) \/ (s = DEACTIVE /\ s' = CLOSED).

Lemma decr_lt : forall k b e, decr b k -> In e k -> fst e < b.
Proof.
  induction k as [|[n s] r IH]; intros b e H Hin; cbn in *; [contradiction|].
  destruct H as [H1 H2]. destruct Hin as [Hin|Hin]; [subst; auto|].
  specialize (IH _ _ H2 Hin). lia.
Qed.
Lemma kst_notin : forall k n, (forall e, In e k -> fst e <> n) -> kst k n = CLOSED.
Proof.
  intros k n H. unfold kst. destruct (find _ k) eqn:E; auto.
  apply find_some in E. destruct E as [E1 E2]. apply Nat.eqb_eq in E2. exfalso. eapply H; eauto.
Qed.
Lemma kst_cons : forall n0 s r n, kst ((n0, s) :: r) n = if Nat.eqb n0 n then s else kst r n.
Proof. intros. unfold kst. cbn. destruct (Nat.eqb n0 n); reflexivity. Qed.
Lemma kst_in_states : forall k n, kst k n <> CLOSED -> exists s, In (n, s) k /\ kst k n = s.
Proof.
  intros k n H. unfold kst in *. destruct (find _ k) as [[n0 s]|] eqn:E; [|congruence].
  apply find_some in E. destruct E as [E1 E2]. apply Nat.eqb_eq in E2. cbn in *. subst. eauto.
Qed.

Lemma Kwf_states : forall nf k n, Kwf nf k -> kst k n = ACTIVE \/ kst k n = DEACTIVE \/ kst k n = CLOSED.
Proof.
  intros nf k n [_ H]. destruct k as [|[n0 s] r]; [right; right; reflexivity|].
  rewrite kst_cons. destruct H as [H1 H2]. destruct (Nat.eqb n0 n); [tauto|].
  clear H1. induction r as [|[n1 s1] r IH]; [right; right; reflexivity|].
  rewrite kst_cons. destruct H2 as [H2 H3]. destruct (Nat.eqb n1 n); auto.
Qed.

(* frames of a suffix keep their state; frames of the dropped prefix become CLOSED *)
Lemma allowed_suffix : forall pre nf suf n, Kwf nf (pre ++ suf) -> allowed (kst (pre ++ suf) n) (kst suf n).
Proof.
  induction pre as [|[n0 s] pre IH]; intros nf suf n H; cbn [app].
  - left; reflexivity.
  - rewrite kst_cons. destruct (Nat.eqb_spec n0 n).
    + subst. assert (X : kst suf n = CLOSED).
      { apply kst_notin. intros e He Hc. destruct H as [[H1 H2] _].
        assert (In e (pre ++ suf)) by (apply in_or_app; auto).
        pose proof (decr_lt _ _ _ H2 H). lia. }
      rewrite X. destruct H as [_ [[H|H] _]]; subst; right; [left|right]; auto.
    + eapply IH. eapply Kwf_tail; eauto.
Qed.
Lemma allowed_deact : forall nf k n, Kwf nf k -> head_active k -> allowed (kst k n) (kst (deact k) n).
Proof.
  intros nf [|[n0 s] r] n H Ha; cbn in *; [left; auto|]. destruct s; try contradiction.
  rewrite !kst_cons. destruct (Nat.eqb n0 n); [right; left; auto|left; auto].
Qed.
Lemma allowed_trans : forall a b c, allowed a b -> allowed b c -> allowed a c.
Proof.
  unfold allowed. intros a b c H1 H2.
  destruct H1 as [H1|[[H1 [H1'|H1']]|[H1 H1']]], H2 as [H2|[[H2 [H2'|H2']]|[H2 H2']]]; subst; try discriminate; auto;
    try (right; left; split; auto; fail); try (right; right; split; auto; fail).
Qed.

Lemma allowed_sufD : forall nf k r k' n, Kwf nf k -> sufD k r k' -> allowed (kst k n) (kst k' n).
Proof.
  intros nf k r k' n Hw [pre [suf [E H]]]. subst k.
  destruct H as [H|[_ [Ha H]]]; subst k'.
  - eapply allowed_suffix; eauto.
  - eapply allowed_trans; [eapply allowed_suffix; eauto|].
    eapply allowed_deact; eauto. eapply Kwf_suffix; eauto.
Qed.

Lemma kst_abK : forall nf k n, n < nf -> kst (fst (abK nf k)) n = kst k n.
Proof.
  intros nf [|e k] n H; cbn; auto. rewrite kst_cons. destruct (Nat.eqb_spec nf n); [lia|reflexivity].
Qed.

Lemma oprel_allowed : forall nf k r nf' k' n, Kwf nf k -> oprel nf k r nf' k' -> n < nf ->
  allowed (kst k n) (kst k' n).
Proof.
  intros nf k r nf' k' n Hw [k0 [nf0 [H0 H]]] Hn.
  assert (Hw0 : Kwf nf0 k0 /\ kst k0 n = kst k n /\ nf <= nf0).
  { destruct H0 as [H0|H0]; inversion H0; subst; auto.
    pose proof (Kwf_abK nf k Hw) as X. rewrite <- H0 in X. cbn in X. split; auto.
    assert (Y : k0 = fst (abK nf k)) by (rewrite <- H0; reflexivity).
    assert (Z : nf0 = snd (abK nf k)) by (rewrite <- H0; reflexivity).
    split; [subst; apply kst_abK; auto|]. subst. destruct k; cbn; lia. }
  destruct Hw0 as [Hw0 [E Hle]]. rewrite <- E.
  destruct H as [[H1 H2]|[H1 [H2 H3]]]; subst.
  - eapply allowed_sufD; eauto.
  - rewrite kst_cons. destruct (Nat.eqb_spec nf0 n); [lia|left; reflexivity].
Qed.

(* frames created by the operation are ACTIVE, or already CLOSED again *)
Lemma oprel_new : forall nf k r nf' k' n, Kwf nf k -> oprel nf k r nf' k' -> nf <= n ->
  kst k' n = ACTIVE \/ kst k' n = DEACTIVE \/ kst k' n = CLOSED.
Proof.
  intros nf k r nf' k' n Hw H Hn. eapply Kwf_states. eapply oprel_Kwf; eauto.
Qed.

Theorem sm_transitions : forall e st p r st', Reach e st -> do_op p st = (r, st') -> r <> Unmodelled ->
  r <> Err E_ILLEGAL /\
  Kwf (nfid st') (stk st') /\
  (forall n, n < nfid st -> allowed (frame_state st n) (frame_state st' n)).
Proof.
  intros e st p r st' HR H Hr. pose proof (reach_Kwf _ _ HR) as Hw.
  destruct (do_op_oprel _ _ _ _ H Hr Hw) as [A B]. split; auto. split.
  - eapply oprel_Kwf; eauto.
  - intros n Hn. eapply oprel_allowed; eauto.
Qed.

Lemma frame_state_find : forall st n,
  frame_state st n = match find_frame n st with Some f => fstate f | None => CLOSED end.
Proof.
  intros st n. unfold frame_state, kst, stk, find_frame. induction (stack st) as [|f r IH]; cbn; auto.
  destruct (Nat.eqb (fid f) n); auto.
Qed.

(* a call on a transaction whose state is not a declared prerequisite state of the method raises the
   documented error and changes nothing *)
Lemma handle_call_refused : forall m st n (X : frame -> res * sess), prereq_ok m (frame_state st n) = false ->
  exists c, match find_frame n st with
            | None => (Err E_CLOSED, st)
            | Some f => match check_prereq f m with Some c => (Err c, st) | None => X f end
            end = (Err c, st) /\ (c = E_INV \/ c = E_PENDING \/ c = E_CLOSED).
Proof.
  intros m st n X Hp. rewrite frame_state_find in Hp. destruct (find_frame n st) as [f|].
  - unfold check_prereq. rewrite Hp. eexists; split; [reflexivity|apply prereq_error_codes].
  - eexists; split; [reflexivity|auto].
Qed.
Theorem sm_illegal_commit : forall st h n, nth_error (handles st) h = Some (Some n) ->
  prereq_ok M_commit (frame_state st n) = false ->
  exists c, do_op (OTCommit h) st = (Err c, st) /\ (c = E_INV \/ c = E_PENDING \/ c = E_CLOSED).
Proof. intros st h n Hh Hp. cbn [do_op]. rewrite Hh. apply (handle_call_refused M_commit), Hp. Qed.
Theorem sm_illegal_rollback : forall st h n, nth_error (handles st) h = Some (Some n) ->
  prereq_ok M_rollback (frame_state st n) = false ->
  exists c, do_op (OTRollback h) st = (Err c, st) /\ (c = E_INV \/ c = E_PENDING \/ c = E_CLOSED).
Proof. intros st h n Hh Hp. cbn [do_op]. rewrite Hh. apply (handle_call_refused M_rollback), Hp. Qed.
(* flushing (hence begin_nested, refreshing, committing) needs an ACTIVE innermost transaction, whatever runs
   inside the subtransaction *)
Lemma flush_refused : forall body st f rest, stack st = f :: rest -> prereq_ok M_begin (fstate f) = false ->
  is_clean st = false ->
  exists c, flush_with body st = (Err c, st) /\ (c = E_INV \/ c = E_PENDING \/ c = E_CLOSED).
Proof.
  intros body st f rest Hs Hp Hc. unfold flush_with. rewrite Hc.
  assert (Ha : autobegin st = st). { unfold autobegin. rewrite Hs. reflexivity. }
  rewrite Ha, Hs. unfold check_prereq. rewrite Hp.
  eexists; split; [reflexivity|apply prereq_error_codes].
Qed.
Theorem sm_illegal_flush : forall st f rest, stack st = f :: rest -> prereq_ok M_begin (fstate f) = false ->
  is_clean st = false ->
  exists c, do_op OFlush st = (Err c, st) /\ (c = E_INV \/ c = E_PENDING \/ c = E_CLOSED).
Proof. intros st. apply (flush_refused flush_exec). Qed.
