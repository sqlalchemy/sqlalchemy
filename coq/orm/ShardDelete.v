(* C53 - several objects deleted in one flush: exactly the rows of the deleted identities (pk, token)
   disappear, each from its own shard - whatever other shards hold the same primary key *)
From Coq Require Import List ZArith NArith.
Import ListNotations.
From SAV.orm Require Import Shard ShardDb.
Open Scope Z_scope.

(* the DELETE statement emitted for object number o *)
Definition del_of (st : sess) (o : nat) : list write :=
  match nth_error (insts st) o with
  | Some i => match i_tok i with Some t => [WDel t (r_pk (i_cur i))] | None => [] end
  | None => []
  end.

(* object o's identity is (k, s) *)
Definition is_identity (st : sess) (o : nat) (s : N) (k : Z) : Prop :=
  exists i, nth_error (insts st) o = Some i /\ i_tok i = Some s /\ r_pk (i_cur i) = k.

Lemma delete_one_spec : forall st o st', delete_one st o = Ok st' ->
  exists i0 t, nth_error (insts st) o = Some i0 /\ i_life i0 = Persistent /\ i_tok i0 = Some t /\
    st' = mkSess (upd_nth o (fun i => mkInst (i_cur i) (i_old i) Gone (i_tok i)) (insts st))
                 (upd (db st) t (sql_delete (r_pk (i_cur i0)) (db st t))) (committed st)
                 (wlog st ++ [WDel t (r_pk (i_cur i0))]) (rlog st).
Proof.
  intros st o st' H. unfold delete_one in H.
  destruct (nth_error (insts st) o) as [i0|] eqn:En; [|discriminate].
  destruct (i_life i0) eqn:El; try discriminate. destruct (i_tok i0) as [t|] eqn:Et; [|discriminate].
  injection H as <-. exists i0, t. auto.
Qed.

(* identities are untouched by a delete (only the lifecycle of the deleted object changes) *)
Lemma delete_one_identity : forall st o st' o' s k, delete_one st o = Ok st' ->
  (is_identity st' o' s k <-> is_identity st o' s k).
Proof.
  intros st o st' o' s k H. destruct (delete_one_spec _ _ _ H) as [i0 [t [En [_ [_ ->]]]]].
  unfold is_identity. simpl. destruct (Nat.eq_dec o' o) as [->|Hne].
  - rewrite (nth_upd_same _ _ _ _ En). rewrite En. split; intros [i [Hn Hp]]; injection Hn as <-; eexists; split; eauto.
  - now rewrite nth_upd_other.
Qed.

Lemma delete_one_del_of : forall st o st' o', delete_one st o = Ok st' -> del_of st' o' = del_of st o'.
Proof.
  intros st o st' o' H. destruct (delete_one_spec _ _ _ H) as [i0 [t [En [_ [_ ->]]]]].
  unfold del_of. simpl. destruct (Nat.eq_dec o' o) as [->|Hne].
  - rewrite (nth_upd_same _ _ _ _ En), En. reflexivity.
  - now rewrite nth_upd_other.
Qed.

Lemma delete_one_db : forall st o st' s x, delete_one st o = Ok st' ->
  (In x (db st' s) <-> In x (db st s) /\ ~ is_identity st o s (r_pk x)).
Proof.
  intros st o st' s x H. destruct (delete_one_spec _ _ _ H) as [i0 [t [En [_ [Et ->]]]]].
  simpl. unfold is_identity. destruct (N.eq_dec s t) as [->|Hne].
  - rewrite upd_same, in_delete. split.
    + intros [Hx Hk]. split; auto. intros [i [Hn [_ Hp]]]. rewrite En in Hn. injection Hn as Hi. subst i. congruence.
    + intros [Hx Hn]. split; auto. intros Hk. apply Hn. exists i0. auto.
  - rewrite upd_other by auto. split; [|tauto]. intros Hx. split; auto.
    intros [i [Hn [Ht _]]]. rewrite En in Hn. injection Hn as Hi. subst i. congruence.
Qed.

Lemma delete_all_spec : forall os st st', delete_all st os = Ok st' ->
  wlog st' = wlog st ++ flat_map (del_of st) os /\
  (forall o s k, is_identity st' o s k <-> is_identity st o s k) /\
  (forall s x, In x (db st' s) <-> In x (db st s) /\ Forall (fun o => ~ is_identity st o s (r_pk x)) os).
Proof.
  induction os as [|o os IH]; simpl; intros st st' H.
  - injection H as <-. rewrite app_nil_r. split; [reflexivity|]. split; [intros; reflexivity|].
    intros s x. split; [auto | tauto].
  - destruct (delete_one st o) as [s1|] eqn:E; [|discriminate].
    destruct (IH _ _ H) as [Hw [Hid Hdb]]. split; [|split].
    + destruct (delete_one_spec _ _ _ E) as [i0 [t [En [_ [Et Hs1]]]]].
      rewrite Hw, Hs1. simpl. rewrite <- app_assoc. f_equal. f_equal.
      * unfold del_of. now rewrite En, Et.
      * rewrite <- Hs1. apply flat_map_ext. intros o'. exact (delete_one_del_of _ _ _ o' E).
    + intros o' s k. rewrite Hid. exact (delete_one_identity _ _ _ o' s k E).
    + intros s x. rewrite Hdb, (delete_one_db _ _ _ s x E), Forall_cons_iff.
      assert (Forall (fun o' => ~ is_identity s1 o' s (r_pk x)) os <->
              Forall (fun o' => ~ is_identity st o' s (r_pk x)) os); [|tauto].
      rewrite !Forall_forall.
      split; intros F o' Ho' Hi; apply (F o' Ho'); now apply (delete_one_identity _ _ _ o' s (r_pk x) E).
Qed.
