(* C38 - the instrumented dict (orm/CollDict.v): accounting counts the values, with unique keys as
   the invariant; contents, insertion order included, always equal the builtin's. *)
From Coq Require Import List ZArith Bool Lia ZifyBool Permutation Arith.
Import ListNotations.
From SAV.base Require Import PySlice.
From SAV.orm Require Import CollBase CollDict CollProofs.
Open Scope Z_scope.

Lemma d_get_None : forall k d, d_get k d = None <-> ~ In k (map fst d).
Proof.
  induction d as [|[k' v'] r IH]; cbn [d_get map fst In]; [tauto|].
  destruct (Z.eqb_spec k k'); [split; [discriminate|intro H; exfalso; apply H; auto]|].
  rewrite IH. intuition.
Qed.

Lemma d_set_keys : forall k v d,
  map fst (d_set k v d) = if d_has k d then map fst d else map fst d ++ [k].
Proof.
  intros. unfold d_has. induction d as [|[k' v'] r IH]; cbn [d_set d_get map fst app]; [reflexivity|].
  destruct (Z.eqb_spec k k'); cbn [map fst]; [subst; reflexivity|].
  rewrite IH. destruct (d_get k r); reflexivity.
Qed.

Lemma d_set_wf : forall k v d, d_wf d -> d_wf (d_set k v d).
Proof.
  intros k v d H. unfold d_wf. rewrite d_set_keys. unfold d_has.
  destruct (d_get k d) eqn:E; [assumption|].
  apply (Permutation_NoDup (l := k :: map fst d)); [apply Permutation_cons_append|].
  constructor; [apply d_get_None; assumption|assumption].
Qed.

Lemma d_del_wf : forall k d, d_wf d -> d_wf (d_del k d).
Proof.
  intros k d. unfold d_wf, d_del. induction d as [|[k' v'] r IH]; cbn [filter map fst]; intro H; [constructor|].
  inv H. destruct (k =? k'); cbn [negb map fst]; [apply IH; assumption|].
  constructor; [|apply IH; assumption].
  intro Hin. apply H2. apply in_map_iff in Hin. destruct Hin as [[a b] [E Hin]].
  apply filter_In in Hin. apply in_map_iff. exists (a, b). tauto.
Qed.

Lemma d_del_absent : forall k d, ~ In k (map fst d) -> d_del k d = d.
Proof.
  intros k d. unfold d_del. induction d as [|[k' v'] r IH]; cbn [filter map fst In]; intro H; [reflexivity|].
  destruct (Z.eqb_spec k k'); [exfalso; apply H; auto|]. cbn [negb]. rewrite IH; tauto.
Qed.

(* the value a key holds, as a list of members *)
Definition held (o : option item) : list item := match o with Some v => [v] | None => [] end.

Lemma d_set_values : forall k v d,
  Permutation (v :: d_values d) (held (d_get k d) ++ d_values (d_set k v d)).
Proof.
  intros. unfold d_values. induction d as [|[k' v'] r IH]; cbn [d_set d_get map snd held app]; [reflexivity|].
  destruct (k =? k'); cbn [map snd held app]; [apply perm_swap|].
  rewrite perm_swap, <- Permutation_middle. constructor. exact IH.
Qed.

Lemma d_del_values : forall k d, d_wf d ->
  Permutation (d_values d) (held (d_get k d) ++ d_values (d_del k d)).
Proof.
  intros k d. unfold d_values, d_wf, d_del.
  induction d as [|[k' v'] r IH]; intro W; cbn [d_get filter map fst snd held app]; [reflexivity|].
  inv W. destruct (Z.eqb_spec k k'); cbn [negb map snd held app].
  - subst. fold (d_del k' r). rewrite d_del_absent by assumption. reflexivity.
  - rewrite <- Permutation_middle. constructor. apply IH. assumption.
Qed.

Lemma d_set_same : forall k v d, d_get k d = Some v -> d_set k v d = d.
Proof.
  induction d as [|[k' v'] r IH]; cbn [d_get d_set]; intro H; [discriminate|].
  destruct (Z.eqb_spec k k'); [inv H; reflexivity|]. rewrite IH; auto.
Qed.

Lemma d_last_get : forall d k v, d_wf d -> d_last d = Some (k, v) -> d_get k d = Some v.
Proof.
  intros d k v W H. unfold d_last in H. destruct (rev d) as [|kv t] eqn:E; inv H.
  apply (f_equal (@rev _)) in E. rewrite rev_involutive in E. subst d. cbn [rev] in *.
  (* the last key occurs nowhere before *)
  unfold d_wf in W. rewrite map_app in W. apply NoDup_remove_2 in W. rewrite app_nil_r in W.
  induction (rev t) as [|[k' v'] r IH]; cbn [app d_get map fst In] in *.
  - rewrite Z.eqb_refl. reflexivity.
  - destruct (Z.eqb_spec k k'); [exfalso; auto|apply IH; auto].
Qed.

Lemma d_has_get : forall k d, d_has k d = match d_get k d with Some _ => true | None => false end.
Proof. reflexivity. Qed.

Local Notation acc := (accounted d_values d_wf).
Local Notation dbal := (bal d_values).

Lemma sa_dsetitem_run : forall k v d g,
  sa_dsetitem k v (d, g) = (Ok tt, (d_set k v d, g ++ map ERem (held (d_get k d)) ++ [EAdd v])).
Proof.
  intros. unfold sa_dsetitem, bind, get, put. cbn [fst snd].
  destruct (d_get k d); unfold fire, ret; cbn [fst snd held map app]; rewrite <- ?app_assoc; reflexivity.
Qed.

Lemma sa_ddelitem_run : forall k d g,
  sa_ddelitem k (d, g) = match d_get k d with
                         | Some old => (Ok tt, (d_del k d, g ++ [ERem old]))
                         | None => (Raise KeyError, (d, g))
                         end.
Proof.
  intros. unfold sa_ddelitem, bind, get, lift, d_has. cbn [fst snd].
  destruct (d_get k d) eqn:E; unfold fire, ret; cbn [fst snd]; rewrite E; reflexivity.
Qed.

Lemma sa_dclear_run : forall d g, sa_dclear (d, g) = (Ok tt, ([], g ++ map ERem (d_values d))).
Proof.
  intros. unfold sa_dclear, bind, get, put. cbn [fst snd].
  rewrite (for_each_fire_map _ _ ERem). reflexivity.
Qed.

Lemma sa_dpop_run : forall k dflt d g,
  sa_dpop k dflt (d, g) = match d_get k d, dflt with
                          | Some v, _ => (Ok v, (d_del k d, g ++ [ERem v]))
                          | None, Some v => (Ok v, (d, g))
                          | None, None => (Raise KeyError, (d, g))
                          end.
Proof.
  intros. unfold sa_dpop, bind, get, lift, d_has. cbn [fst snd].
  destruct (d_get k d); [|destruct dflt]; reflexivity.
Qed.

Lemma sa_dpopitem_run : forall d g,
  sa_dpopitem (d, g) = match d_last d with
                       | Some (k, v) => (Ok (k, v), (d_del k d, g ++ [ERem v]))
                       | None => (Raise KeyError, (d, g))
                       end.
Proof.
  intros. unfold sa_dpopitem, bind, lift, fire, ret. cbn [fst snd].
  destruct (d_last d) as [[k v]|]; reflexivity.
Qed.

Lemma sa_dsetdefault_run : forall k v d g,
  sa_dsetdefault k v (d, g) = match d_get k d with
                              | Some v' => (Ok v', (d, if v' =? v then g ++ [ESame v'] else g))
                              | None => (Ok v, (d_set k v d, g ++ [EAdd v]))
                              end.
Proof.
  intros. unfold sa_dsetdefault, bind at 1, get. cbn [fst snd].
  destruct (d_get k d) as [v'|] eqn:E; unfold bind; [destruct (v' =? v); reflexivity|].
  rewrite sa_dsetitem_run, E. reflexivity.
Qed.

Lemma acc_dsetitem : forall k v, acc (sa_dsetitem k v).
Proof.
  intros k v [d g] r s' W H. rewrite sa_dsetitem_run in H. inv H. cbn [fst] in *.
  split; [apply d_set_wf, W|]. intro z.
  apply (bal_exchange _ _ z d g _ (held (d_get k d)) [v]), d_set_values.
Qed.

Lemma deleted_ok : forall k old d g, d_wf d -> d_get k d = Some old ->
  d_wf (d_del k d) /\ forall z, dbal z (d_del k d, g ++ [ERem old]) = dbal z (d, g).
Proof.
  intros k old d g W E. split; [apply d_del_wf, W|]. intro z.
  apply (bal_removed _ _ z d g _ [old]). rewrite (d_del_values k d W), E. reflexivity.
Qed.

Lemma acc_ddelitem : forall k, acc (sa_ddelitem k).
Proof.
  intros k [d g] r s' W H. rewrite sa_ddelitem_run in H. cbn [fst] in W.
  destruct (d_get k d) eqn:E; inv H; [apply deleted_ok; assumption|auto].
Qed.

Lemma acc_dclear : acc sa_dclear.
Proof.
  intros [d g] r s' W H. rewrite sa_dclear_run in H. inv H. split; [constructor|]. intro z.
  apply (bal_removed _ _ z d g [] (d_values d)). rewrite app_nil_r. reflexivity.
Qed.

Lemma acc_dpop : forall k dflt, acc (sa_dpop k dflt).
Proof.
  intros k dflt [d g] r s' W H. rewrite sa_dpop_run in H. cbn [fst] in W.
  destruct (d_get k d) eqn:E; [|destruct dflt]; inv H; [apply deleted_ok; assumption|auto|auto].
Qed.

Lemma acc_dpopitem : acc sa_dpopitem.
Proof.
  intros [d g] r s' W H. rewrite sa_dpopitem_run in H. cbn [fst] in W.
  destruct (d_last d) as [[k v]|] eqn:E; inv H; [|auto].
  apply deleted_ok; [assumption|]. apply d_last_get; assumption.
Qed.

Lemma acc_dsetdefault : forall k v, acc (sa_dsetdefault k v).
Proof.
  intros k v. unfold sa_dsetdefault. apply acc_bind; [apply acc_get|]. intro d.
  destruct (d_get k d); apply (acc_then_ret _ _ _ _ _ _ (fun _ => _)); [|apply acc_dsetitem].
  destruct (_ =? _); [apply acc_fire_same|apply acc_ret].
Qed.

Lemma acc_dupdate1 : forall kv, acc (sa_dupdate1 kv).
Proof.
  intros kv. unfold sa_dupdate1. apply acc_bind; [apply acc_get|]. intro d.
  destruct (d_get (fst kv) d); [destruct (_ =? _)|]; try apply acc_fire_same; apply acc_dsetitem.
Qed.

Lemma acc_dupdate : forall u kw, acc (sa_dupdate u kw).
Proof.
  intros. unfold sa_dupdate. apply acc_bind; [|intros _]; apply acc_for_each, acc_dupdate1.
Qed.

Lemma acc_dict_op : forall op, acc (sa_dict_op op).
Proof.
  intros op. destruct op; cbn [sa_dict_op]; apply acc_bind; try (intro; apply acc_ret);
    auto using acc_dsetitem, acc_ddelitem, acc_dclear, acc_dpop, acc_dpopitem, acc_dsetdefault, acc_dupdate.
Qed.

(* no exception: every dict operation is accounted and keeps the keys unique *)
Theorem dict_op_accounted : forall op d g r d' g',
  d_wf d -> sa_dict_op op (d, g) = (r, (d', g')) ->
  d_wf d' /\ forall x, countZ x (d_values d') - countZ x (d_values d) = net x g' - net x g.
Proof. intros op d g r d' g'. apply (accounted_delta _ _ _ _ _ _ _ _ _ _ (acc_dict_op op)). Qed.

(* an update step stores the pair, whether it goes through __setitem__ or finds it there *)
Lemma run_dupdate1 : forall kv d g,
  exists g', sa_dupdate1 kv (d, g) = (Ok tt, (d_set (fst kv) (snd kv) d, g')).
Proof.
  intros [k v] d g. unfold sa_dupdate1, bind at 1, get at 1. cbn [fst snd].
  destruct (d_get k d) as [v'|] eqn:E; [destruct (Z.eqb_spec v' v)|];
    try (rewrite sa_dsetitem_run; eexists; reflexivity).
  subst. rewrite d_set_same by assumption. eexists; reflexivity.
Qed.

Lemma dupdate_loop : forall kvs d g,
  exists g', for_each kvs sa_dupdate1 (d, g) = (Ok tt, (d_update d kvs, g')).
Proof.
  induction kvs as [|kv kvs IH]; intros; cbn [for_each]; [eexists; reflexivity|].
  destruct (run_dupdate1 kv d g) as [g1 E]. unfold bind. rewrite E. apply IH.
Qed.

Theorem dict_op_eq_python : forall op d g, agrees (sa_dict_op op (d, g)) (py_dict_op d op).
Proof.
  intros op d g. destruct op; cbn [sa_dict_op py_dict_op]; unfold bind at 1.
  - rewrite sa_dsetitem_run. split; reflexivity.
  - rewrite sa_ddelitem_run. unfold d_has. destruct (d_get k d); split; reflexivity.
  - rewrite sa_dclear_run. split; reflexivity.
  - rewrite sa_dpop_run. destruct (d_get k d); [|destruct dflt]; split; reflexivity.
  - rewrite sa_dpopitem_run. destruct (d_last d) as [[k v]|]; split; reflexivity.
  - rewrite sa_dsetdefault_run. destruct (d_get k d); split; reflexivity.
  - unfold sa_dupdate.
    destruct (dupdate_loop (upd_pairs u) d g) as [g1 E1].
    destruct (dupdate_loop kw (d_update d (upd_pairs u)) g1) as [g2 E2].
    unfold bind. rewrite E1, E2. split; reflexivity.
  - unfold sa_dupdate. destruct (dupdate_loop m d g) as [g1 E1].
    unfold bind. cbn [upd_pairs]. rewrite E1. split; reflexivity.
Qed.

Theorem dict_history_eq_python : forall ops d g,
  fst (sa_dict_run ops (d, g)) = fst (py_dict_run ops d) /\
  fst (snd (sa_dict_run ops (d, g))) = snd (py_dict_run ops d).
Proof.
  induction ops as [|op r IH]; intros d g; cbn [sa_dict_run py_dict_run]; [auto|].
  destruct (dict_op_eq_python op d g) as [A1 A2].
  destruct (sa_dict_op op (d, g)) as [x [d1 g1]]. cbn [fst snd] in A1, A2.
  destruct (py_dict_op d op) as [y d2]. cbn [fst snd] in *. subst.
  destruct (IH d2 g1) as [B1 B2].
  destruct (sa_dict_run r (d2, g1)) as [xs s'']. destruct (py_dict_run r d2) as [ys d''].
  cbn [fst snd] in *. subst. auto.
Qed.

Theorem dict_history_accounted : forall ops d g, d_wf d ->
  let '(_, (d', g')) := sa_dict_run ops (d, g) in
  d_wf d' /\ forall x, countZ x (d_values d') - countZ x (d_values d) = net x g' - net x g.
Proof.
  intros ops d g W.
  apply (run_accounted _ _ d_values d_wf sa_dict_op (fun _ _ => true));
    [intros op c g0 r c' g' _; apply dict_op_accounted|apply guarded_true|exact W].
Qed.
