(* C40 - main theorem: for every assignment of loader strategies along the path, what is loaded is the
   relational meaning of the query. *)
From Coq Require Import List ZArith Bool Lia.
Import ListNotations.
From SAV.orm Require Import Loaders LoadersBase LoadersJoin LoadersStmt LoadersSrc LoadersOne LoadersAttach LoadersSubq.
Open Scope Z_scope.

(* is a subquery load issued that re-issues the user's own statement? *)
Fixpoint root_subq (asg : list strategy) : bool :=
  match asg with
  | SSubquery :: _ => true
  | SJoined :: r => root_subq r
  | _ => false
  end.

(* the results of sibling statements are right; they are a function of the statement *)
Definition wave_ok (path : list step) (srcs : list source) (res : list (list (option Z * graph))) : Prop :=
  exists f, res = map f srcs /\ forall src, In src srcs -> yields path src (f src).

(* the attribute loaded for step [s] is right on every entity at the end of the statement's chain *)
Definition attach_ok (chain : list step) (s : step) (steps' : list step) (src : source) (attach : row -> list graph) : Prop :=
  forall e', ends src chain e' -> attach e' = map (graph_of steps') (related s e').

Lemma wave_assemble : forall nestf chain s steps' srcs (A : source -> row -> list graph),
  nest_covers nestf -> Forall wf_step chain -> Forall src_step_ok srcs ->
  (forall src, In src srcs -> attach_ok chain s steps' src (A src)) ->
  wave_ok (chain ++ s :: steps') srcs
    (map (fun ra => proc chain (snd ra) (fst ra)) (combine (map (fun src => eval_stmt nestf src chain) srcs) (map A srcs))).
Proof.
  intros nestf chain s steps' srcs A NC WF OKs HA. rewrite Forall_forall in OKs.
  exists (fun src => proc chain (A src) (eval_stmt nestf src chain)). split; [apply map_combine_maps|].
  intros src Hs. apply stmt_yields; auto. intros h Hh. apply gchain_graph. intros e' He'. apply HA; auto. exists h. auto.
Qed.

(* every entity at the end of some sibling statement's chain is among the merged parents, so its key is loaded *)
Lemma wave_keys : forall nestf chain s srcs T src e' k, nest_covers nestf -> Forall wf_step chain ->
  Forall (fun src => src_step_ok src /\ src_table src = T) srcs -> In src srcs ->
  ends src chain e' -> parent_key (st_kind s) e' = Some k ->
  In k (load_keys s (uniq_by idkey (concat (map (frontier chain) (map (fun src => eval_stmt nestf src chain) srcs))))).
Proof.
  intros nestf chain s srcs T src e' k NC WF INV Hs He PK. rewrite Forall_forall in INV.
  unfold load_keys. apply dedupeZ_in, somes_in. rewrite <- PK. apply in_map.
  apply (uniq_idkey_in (level_table T chain)).
  - destruct (INV _ Hs) as [OK <-]. apply level_table_wf; auto using src_table_wf.
  - intros x Hx. apply in_concat in Hx as [fr [Hfr Hx]]. rewrite map_map in Hfr. apply in_map_iff in Hfr as [src0 [<- H0]].
    destruct (INV _ H0) as [_ <-]. rewrite frontier_raw in Hx. apply uniq_by_in in Hx. eapply fr_raw_table; eauto.
  - apply in_concat. exists (frontier chain (eval_stmt nestf src chain)). split.
    + rewrite map_map. apply in_map_iff. eauto.
    + apply frontier_in; auto. apply INV; auto.
Qed.

Definition related_graphs (s : step) (steps' : list step) (k : Z) : list graph := map (graph_of steps') (related_k s k).

(* all strategies attach by parent key: the attribute is right if the value for every key is *)
Lemma attach_by_key : forall s steps' (V : Z -> list graph) e,
  (forall k, parent_key (st_kind s) e = Some k -> V k = related_graphs s steps' k) ->
  match parent_key (st_kind s) e with Some k => V k | None => [] end = map (graph_of steps') (related s e).
Proof. intros s steps' V e H. rewrite related_by_key. destruct (parent_key (st_kind s) e); [apply H|]; reflexivity. Qed.

Lemma lookup_by_key : forall s steps' assoc e,
  (forall k, parent_key (st_kind s) e = Some k -> lookup_key assoc (Some k) = related_graphs s steps' k) ->
  lookup_key assoc (parent_key (st_kind s) e) = map (graph_of steps') (related s e).
Proof.
  intros s steps' assoc e H. rewrite <- (attach_by_key s steps' (fun k => lookup_key assoc (Some k)) e H).
  destruct (parent_key _ e); reflexivity.
Qed.

Lemma derived_sel : forall s steps' src r t k, yields steps' src r -> group src t = related_k s k -> sel t r = related_graphs s steps' k.
Proof. intros s steps' src r t k Y E. unfold related_graphs. rewrite <- E. apply Y. Qed.

Lemma lazy_result : forall s k steps' r, wf_step s -> yields steps' (SrcLazy s k) r -> map snd r = related_graphs s steps' k.
Proof.
  intros s k steps' r WS TE. rewrite (untagged_result (SrcLazy s k) steps' r), lazy_group; auto.
Qed.

Lemma lazy_attach : forall s k steps' res, wf_step s -> wave_ok steps' [SrcLazy s k] res ->
  map snd (concat res) = related_graphs s steps' k.
Proof.
  intros s k steps' res WS [f [-> Y]]. cbn [map concat]. rewrite app_nil_r. apply lazy_result; auto. apply Y. cbn; auto.
Qed.

Lemma immediate_attach : forall s steps' keys res k, wf_step s ->
  wave_ok steps' (map (SrcLazy s) keys) res -> In k keys ->
  lookup_key (combine keys (map (map snd) res)) (Some k) = related_graphs s steps' k.
Proof.
  intros s steps' keys res k WS [f [-> Y]] Hk. rewrite !map_map, combine_map_r. apply lookup_key_all.
  - intros p Hp. apply in_map_iff in Hp as [k' [<- Hk']]. apply lazy_result; auto. apply Y, in_map; auto.
  - exists (k, map snd (f (SrcLazy s k))). split; auto. apply in_map_iff. eauto.
Qed.

Lemma selectin_attach : forall s steps' chs res k, wf_step s ->
  wave_ok steps' (map (SrcIn s) chs) res -> In k (concat chs) ->
  lookup_key (concat (map (fun cr => map (fun k => (k, with_tag k (snd cr))) (fst cr)) (combine chs res))) (Some k) =
  related_graphs s steps' k.
Proof.
  intros s steps' chs res k WS [f [-> Y]] Hk. rewrite map_map, combine_map_r, map_map. cbn [fst snd].
  apply in_concat in Hk as [ch [Hch Hk]]. apply lookup_key_all.
  - intros p Hp. apply in_concat in Hp as [l [Hl Hp]]. apply in_map_iff in Hl as [ch' [<- Hch']].
    apply in_map_iff in Hp as [k' [<- Hk']]. cbn [fst snd]. rewrite with_tag_sel.
    eapply derived_sel; [apply Y, in_map; eauto|]. apply in_group; auto.
  - exists (k, with_tag k (f (SrcIn s ch))). split; auto. apply in_concat.
    exists (map (fun k0 => (k0, with_tag k0 (f (SrcIn s ch)))) ch). split; apply in_map_iff; eauto.
Qed.

Lemma hd_error_app_step : forall chain (s : step) steps', hd_error (chain ++ s :: steps') = hd_error (chain ++ [s]).
Proof. intros [|c chain] s steps'; reflexivity. Qed.

Theorem load_wave_correct : forall nestf, nest_covers nestf ->
  forall asg degraded steps srcs chain T,
    length asg = length steps ->
    Forall wf_step (chain ++ steps) ->
    Forall (fun src => src_step_ok src /\ src_table src = T) srcs ->
    (degraded = false -> root_subq asg = true ->
     forall u t0 f c1, In (SrcUser u t0 f) srcs -> hd_error (chain ++ steps) = Some c1 -> defect u f c1 = false) ->
    wave_ok (chain ++ steps) srcs (load_wave nestf degraded asg steps srcs chain).
Proof.
  intros nestf NC. induction asg as [|a0 asg IH]; intros degraded steps srcs chain T HL WF INV SAFE.
  - destruct steps; [|discriminate]. cbn [load_wave]. rewrite app_nil_r in *. eexists. split; [reflexivity|].
    intros src Hs. rewrite Forall_forall in INV. destruct (INV _ Hs) as [OK _].
    apply stmt_yields; auto. intros h _. apply gchain_nil.
  - destruct steps as [|s steps']; [discriminate|]. injection HL as HL.
    pose proof WF as WF0. apply Forall_app in WF0 as [WFc WF']. inversion WF' as [|? ? WS WF'']; subst.
    assert (OKs : Forall src_step_ok srcs) by (eapply Forall_impl; [|exact INV]; cbn; tauto).
    (* the statements issued for the next level are right, by induction *)
    assert (IHd : forall deg {X} (mk : X -> source) xs, (forall x, derived s (mk x)) ->
              wave_ok steps' (map mk xs) (load_wave nestf deg asg steps' (map mk xs) [])).
    { intros deg X mk xs D. apply (IH deg steps' (map mk xs) [] (st_table s)); auto.
      - apply Forall_forall. intros src Hs. apply in_map_iff in Hs as [x [<- _]]. apply derived_ok, D.
      - intros _ _ u t0 f c1 Hin. apply in_map_iff in Hin as [x [E _]]. destruct (D x) as [_ F]. rewrite E in F. destruct F. }
    pose proof (wave_assemble nestf chain s steps' srcs) as ASM.
    pose proof (fun src e' k => wave_keys nestf chain s srcs T src e' k NC WFc INV) as KEYS.
    cbn [load_wave]. cbv zeta.
    destruct (effective degraded a0) eqn:EA.
    + (* lazy *)
      apply ASM; auto. intros src Hs e' He'.
      apply (attach_by_key s steps' (fun k => map snd (concat (load_wave nestf degraded asg steps' [SrcLazy s k] [])))).
      intros k _. apply lazy_attach, (IHd degraded _ (SrcLazy s) [k]); auto. split; [auto|reflexivity].
    + (* joined *)
      assert (degraded = false /\ a0 = SJoined) as [-> ->].
      { unfold effective in EA. destruct degraded; [discriminate|]. auto. }
      specialize (IH false steps' srcs (chain ++ [s]) T HL).
      rewrite <- app_assoc in IH. cbn [app] in IH. apply IH; auto.
    + (* subquery *)
      assert (degraded = false /\ a0 = SSubquery) as [-> ->].
      { unfold effective in EA. destruct degraded; [discriminate|]. auto. }
      destruct (IHd (false || negb (forallb user_rooted srcs)) _ (fun src => mk_subq src chain s) srcs) as [f [-> Y]].
      { intro. apply mk_subq_derived; auto. }
      rewrite !map_map. apply ASM; auto. intros src Hs e' He'.
      apply (attach_by_key s steps' (fun k => with_tag k (f (mk_subq src chain s)))). intros k PK. rewrite with_tag_sel.
      eapply derived_sel; [apply Y, in_map_iff; eauto|]. apply (subq_load_group src chain s e'); auto.
      * rewrite Forall_forall in OKs. auto.
      * intros u t0 f0 c1 -> Hhd. apply (SAFE eq_refl eq_refl u t0 f0 c1); auto. rewrite hd_error_app_step. auto.
    + (* immediate *)
      apply ASM; auto. intros src Hs e' He'. apply lookup_by_key. intros k PK.
      apply immediate_attach; eauto. apply IHd. intro. split; [auto|reflexivity].
    + (* selectin *)
      apply ASM; auto. intros src Hs e' He'. apply lookup_by_key. intros k PK.
      apply selectin_attach; auto.
      * apply IHd. intro. split; [auto|reflexivity].
      * rewrite chunks_concat by lia. eauto.
Qed.
