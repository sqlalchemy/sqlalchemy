(* C36 - the invariant [wf] (HistorySpec.v) is preserved by every operation.  Besides "what is
   captured, and what is clean, is the database value" it says: a collection never captures
   PASSIVE_NO_RESULT, and NO_VALUE only over an empty table ([wf_c_kind]); b captures NO_VALUE only
   with a NULL foreign key ([wf_b_nv]); a foreign key column that is neither loaded nor expired is
   NULL ([wf_bid]); a new object has no row ([wf_new]). *)
From Coq Require Import List NArith Bool Lia.
Import ListNotations.
From SAV.orm Require Import History HistorySpec HistoryProofs HistoryFrame.
Open Scope N_scope.

Lemma same_set_refl : forall l, same_set l l.
Proof. unfold same_set; tauto. Qed.
#[export] Hint Resolve same_set_refl : core.

Lemma memb_In : forall o l, memb o l = true <-> In o l.
Proof.
  intros o l. unfold memb. rewrite existsb_exists. split.
  - intros [x [I E]]. apply N.eqb_eq in E. subst. exact I.
  - intros I. exists o. split; [exact I|apply N.eqb_refl].
Qed.

Lemma insert_uniq_In : forall x l o, In o (insert_uniq x l) <-> o = x \/ In o l.
Proof.
  intros x l o. induction l as [|y r IH]; cbn [insert_uniq].
  - cbn. split; intros [H|[]]; auto.
  - destruct (x =? y) eqn:E.
    + apply N.eqb_eq in E. subst. cbn. split; [auto|intros [->|H]; auto].
    + destruct (x <? y); cbn; [split; intros [H|H]; auto|]. rewrite IH. tauto.
Qed.

Lemma sort_uniq_In : forall l o, In o (sort_uniq l) <-> In o l.
Proof.
  intros l o. induction l as [|y r IH]; cbn [sort_uniq fold_right]; [tauto|].
  fold (sort_uniq r). rewrite insert_uniq_In, IH. cbn. split; intros [H|H]; auto.
Qed.

Lemma sort_uniq_same : forall l, same_set (sort_uniq l) l.
Proof. intros l o. apply sort_uniq_In. Qed.

Lemma filter_all : forall (f : val -> bool) l, (forall x, In x l -> f x = true) -> filter f l = l.
Proof.
  intros f l H. induction l as [|y r IH]; [reflexivity|]. cbn. rewrite (H y) by (left; reflexivity).
  f_equal. apply IH. intros x Hx. apply H. right. exact Hx.
Qed.
Lemma filter_none : forall (f : val -> bool) l, (forall x, In x l -> f x = false) -> filter f l = [].
Proof.
  intros f l H. induction l as [|y r IH]; [reflexivity|]. cbn. rewrite (H y) by (left; reflexivity).
  apply IH. intros x Hx. apply H. right. exact Hx.
Qed.
Lemma filter_memb_self : forall l, filter (fun x => memb x l) l = l.
Proof. intros l. apply filter_all. intros x. apply memb_In. Qed.
Lemma filter_nmemb_self : forall l, filter (fun x => negb (memb x l)) l = [].
Proof. intros l. apply filter_none. intros x I. apply negb_false_iff, memb_In, I. Qed.

(* [wf] of a state given by setters over a well-formed [s]: once the projections are computed each
   field is the old one verbatim or follows from the old ones by equational reasoning *)
Ltac wf_fields W :=
  destruct W; constructor; cbn; try assumption; try solve [intros; congruence | intros; intuition congruence].

Lemma wf_refresh : forall s s', wf s -> refresh s s' -> wf s'.
Proof.
  intros s s' W ((dx & db & dc & pe) & (xc & xd) & (bc & bd) & (cc & cd) & mo & I).
  destruct W; constructor; rewrite ?dx, ?db, ?dc, ?pe, ?xc, ?bc, ?bd, ?cc, ?cd, ?mo; try assumption.
  - intros v C D. destruct xd as [E|[_ E]]; rewrite E in D; [auto|congruence].
  - destruct I as [[-> ->]|[-> _]]; [assumption|]. intros E _. apply orb_false_iff in E.
    destruct E. auto.
  - intros P. destruct (wf_new P) as (X0 & B0 & C0 & D & E). rewrite D, E in I.
    destruct I as [[-> ->]|[-> ->]]; auto.
Qed.

(* the value the many-to-one loader finds for the foreign key column is the database's; a new
   object has none *)
Lemma loader_b_sound : forall p s, wf s ->
  match snd (loader_b p s) with
  | LVal v => v = db_b (fst (loader_b p s))
  | LNoValue | LEmpty => db_b (fst (loader_b p s)) = 0
  | _ => True
  end.
Proof.
  intros p s W. unfold loader_b, col_bid. destruct (persistent s) eqn:P; [|apply (wf_new s W P)].
  destruct (bid_d s) eqn:D; [reflexivity|]. destruct (negb (callables_ok p)); [exact I|].
  destruct (bid_e s) eqn:E.
  - destruct (load_expired p s) as [s1 []]; cbn; auto.
  - destruct (init_ok p); cbn; [symmetry|]; exact (wf_bid s W D E).
Qed.

Lemma loader_b_nv : forall p s s1, wf s -> loader_b p s = (s1, LNoValue) -> db_b s1 = 0.
Proof. intros p s s1 W E. pose proof (loader_b_sound p s W) as H. rewrite E in H. exact H. Qed.

Lemma commit_b_wf : forall s v, wf s -> v = db_b s -> wf (commit_b v s).
Proof. intros s v W ->. unfold commit_b. wf_fields W. Qed.

Lemma commit_c_wf : forall s l, wf s -> same_set l (db_c s) -> wf (commit_c l s).
Proof. intros s l W S. unfold commit_c. wf_fields W. intros l0 _ [= <-]. exact S. Qed.

Lemma get_b_wf : forall p s, wf s -> wf (fst (get_b p s)).
Proof.
  intros p s W. pose proof (wf_refresh _ _ W (loader_b_refresh p s)) as W1.
  apply (get_rule _ _ _ _ _ wf); auto.
  intros v _ _ L. apply commit_b_wf; [exact W1|].
  pose proof (loader_b_sound p s W) as H. rewrite L in H. exact H.
Qed.

Lemma loader_c_val : forall p s l, snd (loader_c p s) = LVal l -> l = db_c (fst (loader_c p s)).
Proof.
  intros p s l. unfold loader_c. destruct (negb (persistent s)); [discriminate|].
  destruct (negb (sql_ok p)); [discriminate|]. cbn. congruence.
Qed.

Lemma get_c_wf : forall p s, wf s -> wf (fst (get_c p s)).
Proof.
  intros p s W. pose proof (wf_refresh _ _ W (loader_c_refresh p s)) as W1.
  apply (get_rule _ _ _ _ _ wf); auto.
  intros v _ _ L. apply commit_c_wf; [exact W1|]. rewrite (loader_c_val p s v L). auto.
Qed.

(* the old value a read hands to the first [_modified_event] is the database's *)
Lemma get_b_sound : forall p s, wf s -> b_c (fst (get_b p s)) = NoHist ->
  match snd (get_b p s) with
  | GVal v => v = db_b (fst (get_b p s))
  | GNoValue => db_b (fst (get_b p s)) = 0
  | _ => True
  end.
Proof.
  intros p s W. unfold get_b, get. destruct (b_d s) eqn:D.
  { intros C. exact (wf_b_clean s W _ C D). }
  destruct (b_c s) eqn:C.
  (* CNoResult, CVal: nothing is loaded and b stays dirty *)
  3, 4: destruct (init_ok p); cbn; congruence.
  (* NoHist, CNoValue: the loader runs *)
  all: destruct (negb (callables_ok p)); [intros; exact I|];
    pose proof (loader_b_sound p s W) as L;
    pose proof (wf_refresh _ _ W (loader_b_refresh p s)) as W1;
    destruct (loader_b p s) as [s1 [| | | |v]]; cbn [fst snd] in *; auto;
    [destruct (b_d s1) eqn:D1; cbn; [intros C1; exact (wf_b_clean s1 W1 _ C1 D1)|auto]
    |destruct (init_ok p); cbn; auto].
Qed.

Lemma assign_x_wf : forall nv s, wf s -> wf (assign_x nv s).
Proof.
  intros nv s W. unfold assign_x, mod_x, old_plain.
  destruct (x_c s) eqn:C; cbn [is_nohist];
    [destruct (x_d s) eqn:D; [pose proof (wf_x_clean s W _ C D)|]|..]; wf_fields W.
Qed.

Lemma set_x_wf : forall v s, wf s -> wf (fst (set_x v s)).
Proof. intros v s W. apply assign_x_wf. exact W. Qed.

Lemma assign_b_wf : forall nv s, wf s -> wf (assign_b nv s).
Proof.
  intros nv s W. unfold assign_b.
  pose proof (get_b_wf P_NO_FETCH_NO_INIT s W) as W1. pose proof (get_b_sound P_NO_FETCH_NO_INIT s W) as S.
  destruct (get_b _ s) as [s1 old]. cbn [fst snd] in *. unfold mod_b.
  destruct (b_c s1) eqn:C; cbn [is_nohist];
    [specialize (S eq_refl); destruct old; cbn [comm_of_gres]|clear S..]; wf_fields W1.
Qed.

Lemma set_b_wf : forall v s, wf s -> wf (fst (set_b v s)).
Proof. intros v s W. rewrite set_b_fst. apply assign_b_wf. exact W. Qed.

(* an absent, clean collection attribute is that of a new object.  The first event on it captures
   the empty collection or NO_VALUE as the loaded value, which [wf] allows only if the table is
   empty: this is what [mod_c_wf] asks of the state the event finds *)
Definition c_ready (s : st) : Prop := c_d s = None -> c_c s = NoHist -> db_c s = [].

Lemma dirty_ready : forall s, c_c s <> NoHist -> c_ready s.
Proof. intros s H _ K. contradiction. Qed.

(* reading a.cs of a persistent object loads it *)
Lemma get_c_off_cases : forall s, wf s ->
  let s1 := fst (get_c P_OFF s) in
  (exists l, snd (get_c P_OFF s) = GVal l /\ (c_d s1 = Some l \/ (c_d s1 = None /\ l = []))) /\
  c_ready s1.
Proof.
  intros s W. unfold c_ready, get_c, get. destruct (c_d s) eqn:D.
  { cbn. split; [eauto|congruence]. }
  destruct (c_c s) eqn:C; cbn; try (split; [eauto|congruence]);
    unfold loader_c; (destruct (persistent s) eqn:P; cbn; [split; [eauto|discriminate]|]);
    (split; [eauto|]); intros _ C'; try congruence. apply (wf_new s W P).
Qed.

Lemma coll_touch_wf : forall s, wf s ->
  wf (fst (coll_touch s)) /\ c_ready (fst (coll_touch s)).
Proof.
  intros s W. rewrite coll_touch_get. split; [apply get_c_wf; exact W|apply (get_c_off_cases s W)].
Qed.

Lemma set_c_d_wf : forall nv s, wf s -> c_c s <> NoHist -> wf (set_c_d nv s).
Proof. intros nv s W H. wf_fields W. Qed.

Lemma mod_c_wf : forall prev s, wf s -> c_ready s ->
  (c_c s = NoHist -> prev = CNoValue \/ exists l, prev = CVal l /\ same_set l (db_c s)) ->
  wf (mod_c prev s) /\ c_c (mod_c prev s) <> NoHist.
Proof.
  intros prev s W R H. unfold mod_c. destruct (c_c s) eqn:C; cbn [is_nohist].
  (* already dirty: only the modified flag is set *)
  2-4: split; [wf_fields W|cbn; congruence].
  destruct (H eq_refl) as [-> | (l & -> & S)]; [destruct (c_d s) eqn:D|].
  - pose proof (wf_c_clean s W _ C D) as S. split; [wf_fields W|discriminate].
    intros l0 [= <-]. exact S.
  - pose proof (R D C). split; [wf_fields W|discriminate].
  - split; [wf_fields W|discriminate]. intros l0 [= <-]. exact S.
Qed.

Lemma before_pop_wf : forall s, wf s /\ c_ready s -> wf (before_pop s) /\ c_ready (before_pop s).
Proof.
  intros s [W R]. destruct (mod_c_wf CNoValue s W R) as [W' D]; auto using dirty_ready.
Qed.

Lemma coll_event_wf : forall s, wf s /\ c_ready s ->
  wf (coll_event s) /\ c_c (coll_event s) <> NoHist.
Proof.
  intros s [W R]. unfold coll_event. destruct (c_d s) eqn:D; apply mod_c_wf; auto.
  - pose proof (R D). wf_fields W. intros l C [= <-]. rewrite H by assumption. auto.
  - discriminate.
Qed.

Lemma coll_store_wf : forall l s, wf s /\ c_ready s ->
  wf (set_c_d (Some l) (coll_event s)) /\ c_ready (set_c_d (Some l) (coll_event s)).
Proof.
  intros l s H. destruct (coll_event_wf s H) as [W D].
  split; [apply set_c_d_wf; assumption|discriminate].
Qed.

Lemma c_replace_wf : forall k l s, wf s -> wf (fst (c_replace k l s)).
Proof.
  intros k l s W. unfold c_replace. pose proof (get_c_wf P_OFF s W) as W1.
  destruct (get_c_off_cases s W) as [(old & E & D) R].
  destruct (get_c P_OFF s) as [s1 r]. cbn [fst snd] in *. subst r. cbn [fst].
  destruct (mod_c_wf (CVal old) s1 W1 R) as [W2 D2]; [|apply set_c_d_wf; assumption].
  intros C. right. exists old. split; [reflexivity|].
  destruct D as [D|[D ->]]; [exact (wf_c_clean s1 W1 _ C D)|]. rewrite (R D C). auto.
Qed.

Lemma c_del_wf : forall s, wf s -> wf (fst (c_del s)).
Proof.
  intros s W. unfold c_del. destruct (c_d s) eqn:D; [|exact W]. cbn [fst].
  destruct (mod_c_wf CNoValue s W) as [W2 D2]; auto; [congruence|apply set_c_d_wf; assumption].
Qed.

Lemma expire_wf : forall s, wf s -> wf (fst (expire s)).
Proof.
  intros s W. unfold expire. destruct (persistent s) eqn:P; [|exact W].
  destruct (modified s) eqn:M; cbn [negb fst]; wf_fields W.
Qed.

Lemma flush_dbc_In : forall s o, In o (flush_dbc s) <->
  (In o (db_c s) \/ In o (fst (fst (hist_c s)))) /\ ~ In o (snd (hist_c s)).
Proof.
  intros s o. unfold flush_dbc. destruct (hist_c s) as [[a u] d]. cbn [fst snd].
  rewrite sort_uniq_In, filter_In, in_app_iff, negb_true_iff.
  rewrite <- memb_In with (l := d). destruct (memb o d); intuition congruence.
Qed.

(* with the captured value equal (as a set) to the database, the flush leaves exactly the current
   members; a clean attribute leaves the database untouched; so does [del a.cs] of a loaded
   collection, whose history is blank ([coll_deleted]) *)
Lemma flush_dbc_spec : forall s, wf s ->
  same_set (flush_dbc s)
    (match c_d s, c_c s with
     | Some l, CVal _ => l
     | Some l, CNoValue => l
     | _, _ => db_c s
     end).
Proof.
  intros s W o. rewrite flush_dbc_In, hist_c_eq.
  destruct (c_d s) as [l|] eqn:D; [|cbn; destruct (c_c s); tauto].
  destruct (c_c s) as [| | |p] eqn:C; cbn [from_collection fst snd].
  - cbn. tauto.
  - destruct (wf_c_kind s W) as [_ H]. rewrite (H C). cbn. tauto.
  - destruct (wf_c_kind s W) as [H _]. congruence.
  - pose proof (wf_c_comm s W p C o) as S.
    rewrite !filter_In, !negb_true_iff.
    rewrite <- S. rewrite <- !memb_In.
    destruct (memb o p), (memb o l); intuition congruence.
Qed.

Lemma flush_dbc_ext : forall s s', keepC s s' -> db_c s' = db_c s -> flush_dbc s' = flush_dbc s.
Proof. intros s s' [C D] B. unfold flush_dbc. rewrite !hist_c_eq, D, C, B. reflexivity. Qed.

Lemma flush_dbc_cur : forall s l, wf s -> c_d s = Some l -> same_set l (flush_dbc s).
Proof.
  intros s l W D o. rewrite (flush_dbc_spec s W o), D.
  destruct (c_c s) eqn:C; try tauto.
  - apply (wf_c_clean s W l C D).
  - destruct (wf_c_kind s W); congruence.
Qed.

(* the row a flush must write: the current value of a changed attribute, NULL for a deleted one *)
Lemma exp_x_cur : forall s v, wf s -> x_d s = Some v -> v = exp_x s.
Proof.
  intros s v W D. unfold exp_x. rewrite D. destruct (x_c s) eqn:C; cbn; auto.
  exact (wf_x_clean s W v C D).
Qed.

Lemma exp_b_cur : forall s v, wf s -> b_d s = Some v -> v = exp_b s.
Proof.
  intros s v W D. unfold exp_b. rewrite D. destruct (b_c s) eqn:C; cbn; auto.
  exact (wf_b_clean s W v C D).
Qed.

Lemma upd_x_exp : forall s, wf s -> opt_or (upd_x s) (db_x s) = exp_x s.
Proof.
  intros s W. unfold upd_x, exp_x.
  destruct (x_c s) as [| | |p] eqn:C; cbn [is_nohist opt_or]; try reflexivity.
  destruct (opt_or (x_d s) 0 =? p) eqn:E; [|reflexivity]. apply N.eqb_eq in E. rewrite E.
  cbn. symmetry. exact (wf_x_comm s W p C).
Qed.

(* what process_saves writes into bid *)
Lemma sync_b_exp : forall s, wf s -> opt_or (sync_b s) (db_b s) = exp_b s.
Proof.
  intros s W. unfold exp_b, sync_b. rewrite hist_b_eq.
  destruct (b_c s) as [| | |p] eqn:C, (b_d s) as [v|]; unfold from_object; cbn; try reflexivity.
  - exact (wf_b_nv s W C).
  - destruct (v =? p) eqn:E; [|destruct p; reflexivity].
    apply N.eqb_eq in E. subst v. cbn. symmetry. exact (wf_b_comm s W p C).
  - destruct p; reflexivity.
Qed.

Lemma sync_b_none_db : forall s, wf s -> sync_b s = None -> b_c s = CNoValue \/ b_c s = NoHist \/ b_c s = CVal (db_b s).
Proof.
  intros s W. unfold sync_b. rewrite hist_b_eq.
  destruct (b_d s) as [v|] eqn:D, (b_c s) as [| | |p] eqn:C; unfold from_object; cbn; auto; try discriminate.
  - destruct (v =? p) eqn:E; [|destruct p; discriminate]. intros _. right; right.
    f_equal. exact (wf_b_comm s W p C).
  - destruct p; discriminate.
Qed.

(* the UPDATE: its primary key lookup refreshes a clean x like a load; the columns written are the
   changed ones *)
Lemma update_row_spec : forall nb s, let s1 := update_row nb s in
  keepDB (set_db_x (opt_or (upd_x s) (db_x s)) (set_db_b (opt_or nb (db_b s)) s)) s1 /\
  loadX s s1 /\ keepB s s1 /\ keepC s s1 /\
  (bid_d s1 = false -> bid_e s1 = false -> nb = None /\ bid_d s = false /\ bid_e s = false).
Proof.
  intros nb s. unfold update_row.
  destruct nb as [v|], (upd_x s) as [u|]; cbn [is_some opt_or];
    (destruct (_ && id_e s);
     [destruct (x_e s && is_nohist (x_c s)) eqn:EX; cbn [bid_e set_x_d]; destruct (bid_e s) eqn:EB|]);
    repeat split; cbn; auto; try discriminate.
  all: apply andb_true_iff in EX; destruct EX as [_ EX]; apply is_nohist_true in EX; auto.
Qed.

Definition write_row (s : st) : st :=
  if persistent s then update_row (sync_b s) s else insert_row (sync_b s) s.

Lemma flush_eq : forall s, flush s =
  if persistent s && negb (modified s) then (s, Done (db_ret s))
  else let s' := finish_flush (write_row s) in (s', Done (db_ret s')).
Proof. intros s. unfold flush, write_row. destruct (persistent s), (modified s); reflexivity. Qed.

Lemma write_row_spec : forall s, wf s -> let s1 := write_row s in
  persistent s1 = true /\ db_x s1 = exp_x s /\ db_b s1 = exp_b s /\ db_c s1 = db_c s /\
  (forall v, x_d s1 = Some v -> v = exp_x s) /\ b_d s1 = b_d s /\ keepC s s1 /\
  (bid_d s1 = false -> bid_e s1 = false -> exp_b s = 0).
Proof.
  intros s W. unfold write_row. pose proof (sync_b_exp s W) as EB. destruct (persistent s) eqn:P.
  - destruct (update_row_spec (sync_b s) s) as ((DX & DB & DC & PE) & [XC XD] & [_ BD] & C & I).
    cbn in DX, DB, DC, PE. rewrite upd_x_exp in DX by exact W. rewrite EB in DB.
    repeat split; try assumption; try apply C.
    + congruence.
    + intros v D. destruct XD as [E|[N E]]; [rewrite E in D; exact (exp_x_cur s v W D)|].
      unfold exp_x. rewrite N. cbn. congruence.
    + intros D E. destruct (I D E) as (N & D0 & E0). rewrite N in EB. rewrite <- EB. cbn.
      exact (wf_bid s W D0 E0).
  - destruct (wf_new s W P) as (X0 & B0 & _). rewrite B0 in EB. cbn.
    repeat split; try assumption.
    + unfold exp_x. destruct (x_c s) eqn:C; cbn; try reflexivity.
      destruct (x_d s) eqn:D; cbn; [exact (wf_x_clean s W _ C D)|congruence].
    + intros v. apply exp_x_cur. exact W.
    + intros D _. apply orb_false_iff in D. destruct D as [_ D]. rewrite <- EB.
      destruct (sync_b s); [discriminate|reflexivity].
Qed.

Lemma finish_flush_proj : forall s, let s' := finish_flush s in
  x_c s' = NoHist /\ b_c s' = NoHist /\ c_c s' = NoHist /\ modified s' = false /\
  db_x s' = db_x s /\ db_b s' = db_b s /\ db_c s' = flush_dbc s.
Proof.
  intros s. unfold finish_flush. cbn. destruct (is_some (x_d s)); cbn; destruct (bid_d s); cbn; auto 8.
Qed.

Lemma finish_flush_wf : forall s,
  persistent s = true ->
  (forall v, x_d s = Some v -> v = db_x s) ->
  (forall v, b_d s = Some v -> v = db_b s) ->
  (forall l, c_d s = Some l -> same_set l (flush_dbc s)) ->
  (bid_d s = false -> bid_e s = false -> db_b s = 0) ->
  wf (finish_flush s).
Proof.
  intros s P X B C I. unfold finish_flush. cbn. generalize dependent (flush_dbc s). intros dbc' C.
  destruct (is_some (x_d s)); cbn; destruct (bid_d s) eqn:BD; cbn;
    constructor; cbn; intros; try discriminate; try congruence; auto.
  all: split; discriminate.
Qed.

Lemma flush_wf : forall s, wf s -> wf (fst (flush s)).
Proof.
  intros s W. rewrite flush_eq. destruct (persistent s && negb (modified s)); [exact W|]. cbn [fst].
  destruct (write_row_spec s W) as (P & DX & DB & DC & X & BD & C & I).
  apply finish_flush_wf; try congruence.
  - intros v D. rewrite DX. apply X. exact D.
  - intros v D. rewrite DB. rewrite BD in D. apply exp_b_cur; assumption.
  - intros l D. rewrite (flush_dbc_ext s _ C DC). apply flush_dbc_cur; [exact W|].
    destruct C as [_ C]. congruence.
  - rewrite DB. exact I.
Qed.

Lemma step_wf : forall k o s, wf s -> wf (fst (step k o s)).
Proof.
  intros k o s W.
  destruct (via_touch o) eqn:V.
  { (* the ten mutators at once: [wf /\ c_ready] holds after the read and is kept by every event
       and store *)
    apply (touch_op_rule (fun s => wf s /\ c_ready s)); [..|exact V|apply coll_touch_wf; exact W].
    - intros s1 H. destruct (coll_event_wf s1 H). auto using dirty_ready.
    - apply before_pop_wf.
    - intros l s1. apply coll_store_wf. }
  destruct o; try discriminate V; cbn [step].
  - apply set_x_wf; exact W.
  - destruct (del_x_fst s) as [-> | ->]; [exact W|apply assign_x_wf; exact W].
  - rewrite read_fst. exact (wf_refresh _ _ W (get_x_refresh _ s)).
  - apply set_b_wf; exact W.
  - rewrite del_b_fst. apply assign_b_wf; exact W.
  - rewrite read_fst. apply get_b_wf; exact W.
  - apply c_replace_wf; exact W.
  - apply c_del_wf; exact W.
  - apply flush_wf; exact W.
  - apply expire_wf; exact W.
Qed.

Lemma run_wf : forall k ops s, wf s -> wf (fst (run k ops s)).
Proof.
  intros k ops. induction ops as [|o rest IH]; intros s W; cbn [run]; [exact W|].
  pose proof (step_wf k o s W) as W1. destruct (step k o s) as [s1 r]. cbn [fst] in W1.
  destruct (is_flush o && failed r); [exact W1|].
  specialize (IH s1 W1). destruct (run k rest s1). exact IH.
Qed.

Lemma init_wf : forall ok x0 b0 c0, wf (init ok x0 b0 c0).
Proof.
  intros [| |] x0 b0 c0; constructor; cbn; intros; try discriminate; try congruence; auto;
    try (split; discriminate).
  all: injection H0 as <-; auto.
Qed.
