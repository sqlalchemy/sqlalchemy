(* C33 - the invariant of the development (Core, Inv); what it says about the innermost frame (Core_head ..);
   Core_update, the step for every change that leaves stack and database alone; autobegin; and the two
   smallest object operations (ONew, _save_impl).  The other operations are in SessTxnObjOps.v and after. *)
From Coq Require Import List ZArith Bool Arith Lia.
Import ListNotations.
From SAV.orm Require Import SessTxn SessTxnBase SessTxnSpec SessTxnInv SessTxnOps SessTxnShift SessTxnDbInv.
Open Scope nat_scope.

(* [gs] has one ghost per frame of the stack, innermost first: the objects and the table as they were when
   the frame began, which is what a rollback of the frame must bring back.  The session does not keep them
   (a frame only records which objects it touched), so [Inv] quantifies them away and nothing computes them.
   c_good, c_j: the objects against the working table.  c_db: savepoints and committed rows against the
   tables of the ghosts.  c_chain: every frame's record against the state it would restore - the innermost
   against the current state, each other one against the ghost of the next inner frame.
   c_empty: outside a transaction nothing is pending, modified or marked for deletion (no rollback could undo it). *)
Record Core (st : sess) (gs : list ghost) : Prop := mkCore {
  c_good : GoodS st;
  c_j : J (objs st) (nobj st);
  c_db : DbOk st gs;
  c_chain : Chain st gs;
  c_empty : stack st = [] -> is_clean st = true
}.
Definition Inv (st : sess) : Prop := exists gs, Core st gs.

Lemma is_clean_spec : forall st, is_clean st = true <->
  (snew st = [] /\ sdel st = [] /\ forall o, o < nobj st -> oin (objs st o) = true -> omod (objs st o) = false).
Proof.
  intros st. unfold is_clean, any_modified. split.
  - intros H. apply andb_prop in H. destruct H as [H H3]. apply andb_prop in H. destruct H as [H1 H2].
    split; [destruct (snew st); [auto|discriminate]|]. split; [destruct (sdel st); [auto|discriminate]|].
    intros o Ho Hi. apply negb_true_iff in H1.
    destruct (omod (objs st o)) eqn:E; auto.
    assert (X : existsb (fun o => oin (objs st o) && omod (objs st o)) (all_objs st) = true).
    { apply existsb_exists. exists o. split; [apply in_seq; cbn; lia|]. rewrite Hi, E. reflexivity. }
    congruence.
  - intros [H1 [H2 H3]]. rewrite H1, H2. cbn. rewrite !andb_true_r. apply negb_true_iff.
    destruct (existsb _ _) eqn:E; auto. apply existsb_exists in E. destruct E as [o [Ho E]].
    apply in_seq in Ho. apply andb_prop in E. destruct E as [E1 E2].
    assert (X : omod (objs st o) = false) by (apply H3; auto; lia). congruence.
Qed.

Lemma ghost_of_clean : forall st, GoodS st -> is_clean st = true -> GClean (ghost_of st).
Proof.
  intros st G Hc. apply is_clean_spec in Hc. destruct Hc as [H1 [H2 H3]].
  unfold GClean, ghost_of. cbn. split.
  - unfold GoodS in G. rewrite H1, H2 in G. exact G.
  - intros o Ho. apply H3; auto. destruct (g_in _ _ _ _ _ G o Ho). auto.
Qed.

Lemma autobegin_core : forall st gs, Core st gs ->
  exists gs', Core (autobegin st) gs' /\ (stack st <> [] -> gs' = gs /\ autobegin st = st) /\
    (stack st = [] -> exists f, stack (autobegin st) = [f] /\ fstate f = ACTIVE /\ gs' = [ghost_of st]).
Proof.
  intros st gs C. unfold autobegin. destruct (stack st) as [|f0 r0] eqn:Es.
  2:{ exists gs. split; [exact C|]. split; [auto|intros X; discriminate]. }
  destruct C as [G Jh D Ch Em]. specialize (Em Es).
  exists [ghost_of st]. split; [|split; [intros X; congruence|intros _; eexists; split; [reflexivity|split; reflexivity]]].
  destruct D as [Dfr Dhd Dnc Dsv]. rewrite Es in *.
  assert (GC : GClean (ghost_of st)) by (apply ghost_of_clean; auto).
  constructor; auto.
  - constructor; cbn.
    + repeat split; auto; try lia; try (intros X; congruence); try (intros f' []);
        try (intros X; exfalso; apply X; reflexivity).
    + left. reflexivity.
    + intros _. apply Dnc. intros f' [].
    + destruct Dsv as [A B]. split; [|cbn; split; auto].
      cbn. destruct gs; cbn in A; exact A.
  - unfold Chain. cbn. split; auto. split; [|destruct gs; exact I].
    apply is_clean_spec in Em. destruct Em as [H1 [H2 _]]. rewrite H1, H2.
    apply Rel_fresh; auto.
Qed.

(* changes that leave stack and database alone: the innermost frame's relation is all there is to re-establish *)
Definition same_sd (st st' : sess) : Prop :=
  stack st' = stack st /\ nfid st' = nfid st /\ saves st' = saves st /\ work st' = work st /\ committed st' = committed st.

Lemma Core_update : forall st st' gs, Core st gs -> same_sd st st' ->
  GoodS st' -> J (objs st') (nobj st') ->
  (forall g f rest gs', stack st = f :: rest -> gs = g :: gs' -> fstate f = ACTIVE ->
     Rel g f (objs st) (nobj st) (snew st) (sdel st) (work st) ->
     Rel g f (objs st') (nobj st') (snew st') (sdel st') (work st)) ->
  (forall f rest, stack st = f :: rest -> fstate f <> ACTIVE ->
     objs st' = objs st /\ nobj st' = nobj st /\ snew st' = snew st /\ sdel st' = sdel st) ->
  (stack st = [] -> is_clean st' = true) ->
  Core st' gs.
Proof.
  intros st st' gs C [S1 [S2 [S3 [S4 S5]]]] G' J' HR HD HE. destruct C as [G Jh D Ch Em].
  constructor; auto.
  - eapply DbOk_ext; [rewrite S1; reflexivity|exact S2|exact S3|exact S4|exact S5|exact D].
  - unfold Chain in *. rewrite S1. destruct (stack st) as [|f rest] eqn:Es; [exact Ch|].
    destruct gs as [|g gs']; [exact Ch|]. destruct Ch as [C1 [C2 C3]]. split; auto. split; auto.
    assert (X : fstate f = ACTIVE \/ fstate f <> ACTIVE) by (destruct (fstate f); auto; right; discriminate).
    destruct X as [Ef|Ef].
    + rewrite Ef in C2 |- *. rewrite S4. eapply HR; eauto.
    + destruct (HD f rest eq_refl Ef) as [A [B [C D']]]. rewrite A, B, C, D', S4. exact C2.
  - rewrite S1. exact HE.
Qed.

Lemma Core_head : forall st gs f rest, Core st gs -> stack st = f :: rest -> fstate f = ACTIVE ->
  exists g gs', gs = g :: gs' /\ GClean g /\ Rel g f (objs st) (nobj st) (snew st) (sdel st) (work st).
Proof.
  intros st gs f rest C Hs Hf. destruct C as [_ _ _ Ch _]. unfold Chain in Ch. rewrite Hs in Ch.
  destruct gs as [|g gs']; [contradiction|]. destruct Ch as [A [B _]]. rewrite Hf in B. eauto.
Qed.

Lemma Core_shape : forall st gs f rest, Core st gs -> stack st = f :: rest -> exists g gs', gs = g :: gs'.
Proof.
  intros st gs f rest C Hs. destruct C as [_ _ _ Ch _]. unfold Chain in Ch. rewrite Hs in Ch.
  destruct gs as [|g gs']; [destruct Ch|eauto].
Qed.
Lemma Core_nil : forall st gs, Core st gs -> stack st = [] -> gs = [].
Proof.
  intros st gs C Hs. destruct C as [_ _ _ Ch _]. unfold Chain in Ch. rewrite Hs in Ch.
  destruct gs; [reflexivity|destruct Ch].
Qed.
Lemma Core_head_state : forall st gs f rest, Core st gs -> stack st = f :: rest -> fstate f = ACTIVE \/ fstate f = DEACTIVE.
Proof. intros st gs f rest C Hs. pose proof (d_head _ _ (c_db _ _ C)) as H. rewrite Hs in H. exact H. Qed.

Lemma Core_DbOk' : forall st gs, Core st gs -> DbOk' st gs.
Proof.
  intros st gs C. split; [exact (c_db _ _ C)|]. intros f rest g gs' Hs Hg Hf.
  destruct C as [_ _ _ Ch _]. unfold Chain in Ch. rewrite Hs, Hg, Hf in Ch. tauto.
Qed.

Lemma head_usable_active : forall st f rest, head_usable st = true -> stack st = f :: rest -> fstate f = ACTIVE.
Proof.
  intros st f rest H Hs. unfold head_usable in H. rewrite Hs in H. destruct (fstate f); cbn in H; try discriminate; reflexivity.
Qed.

(* ONew: a transient object appears at index [nobj st] *)
Lemma core_new_transient : forall st gs pk v, Core st gs -> head_usable st = true ->
  Core (set_nobj (set_obj st (nobj st) (new_obj pk v)) (S (nobj st))) gs.
Proof.
  intros st gs pk v C Hu. pose proof C as C0. destruct C as [G Jh D Ch Em].
  assert (Hout : oin (objs st (nobj st)) = false).
  { destruct (oin (objs st (nobj st))) eqn:E; auto. destruct (g_in _ _ _ _ _ G _ E). lia. }
  assert (Hlt : forall y, y < S (nobj st) -> y <> nobj st -> y < nobj st) by (intros; lia).
  apply (Core_update st _ gs C0).
  - repeat split; reflexivity.
  - apply Good_keyless with (n := nobj st) (sn := snew st); auto; [cbn; lia|apply (g_nodup _ _ _ _ _ G)|].
    intros y. rewrite (g_new _ _ _ _ _ G y). unfold updN. destruct (Nat.eqb_spec y (nobj st)) as [->|Hne]; cbn.
    + split; intros [A B]; [lia|destruct B; discriminate].
    + split; intros [A B]; split; auto; lia.
  - intros y Hy. cbn in Hy |- *. unfold updN. destruct (Nat.eqb_spec y (nobj st)); [cbn; repeat split; intros; congruence|]. apply Jh. lia.
  - intros g f rest gs' Hs Hg Hf R. apply Rel_unknown with (n := nobj st) (sn := snew st); auto; [lia|cbn; lia].
  - intros f rest Hs Hne. exfalso. apply Hne. eapply head_usable_active; eauto.
  - intros Hs. specialize (Em Hs). apply is_clean_spec in Em. destruct Em as [E1 [E2 E3]].
    apply is_clean_spec. cbn. repeat split; auto.
    intros y Hy. unfold updN. destruct (Nat.eqb_spec y (nobj st)); [discriminate|]. apply E3. lia.
Qed.

(* _save_impl: a transient object becomes pending *)
Lemma core_make_pending : forall st gs o f rest, Core st gs -> stack st = f :: rest -> fstate f = ACTIVE ->
  o < nobj st -> okey (objs st o) = None -> oatt (objs st o) = false -> odelf (objs st o) = false ->
  Core (mod_obj (set_snew st (snew st ++ [o])) o (fun ob => o_att ob true)) gs.
Proof.
  intros st gs o f rest C Hs Hf Ho Hk Ha Hd. pose proof C as C0. destruct C as [G Jh D Ch Em].
  assert (Hnin : ~ In o (snew st)). { intros X. apply (g_new _ _ _ _ _ G) in X. destruct X as [_ [_ X]]. congruence. }
  assert (Hoin : oin (objs st o) = false).
  { destruct (oin (objs st o)) eqn:E; auto. destruct (g_in _ _ _ _ _ G o E) as [_ [_ [_ X]]]. congruence. }
  apply (Core_update st _ gs C0).
  - repeat split; reflexivity.
  - unfold GoodS. cbn [objs nobj work snew sdel mod_obj set_obj set_objs set_snew].
    apply Good_keyless with (n := nobj st) (sn := snew st); auto.
    + apply NoDup_snoc; auto. apply (g_nodup _ _ _ _ _ G).
    + intros y. rewrite in_app_iff, (g_new _ _ _ _ _ G y). unfold updN. destruct (Nat.eqb_spec y o) as [->|Hne]; cbn.
      * tauto.
      * split; [intros [X|[X|[]]]; [auto|congruence]|auto].
  - apply J_upd; auto. apply (Jh o Ho).
  - intros g f' rest' gs' Hs' Hg Hf' R. cbn [objs nobj snew sdel mod_obj set_obj set_objs set_snew].
    assert (Hex : forall y, expunged f' (snew st ++ [o]) y = expunged f' (snew st) y || Nat.eqb y o).
    { intros y. unfold expunged. rewrite mem_app. cbn. rewrite orb_false_r. apply orb_assoc. }
    apply Rel_unknown with (n := nobj st) (sn := snew st); auto.
    + intros y E. rewrite Hex in E. apply orb_false_elim in E. tauto.
    + intros y Hne. rewrite Hex. destruct (Nat.eqb_spec y o); [contradiction|apply orb_false_r].
    + intros E. rewrite Hex, Nat.eqb_refl, orb_true_r in E. discriminate.
  - intros f' rest' Hs' Hne. congruence.
  - congruence.
Qed.
