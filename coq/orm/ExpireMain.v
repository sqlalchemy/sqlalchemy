(* C46: the statements of props/C46.v *)
From Coq Require Import List ZArith NArith Bool Arith.
Import ListNotations.
From SAV.orm Require Import Expire ExpireProofs.
Open Scope Z_scope.

Section P.
Variables (eoc : bool) (pks : list Z) (attrs : list nat).
Notation stepT := (step eoc pks attrs).
Notation runT := (run eoc pks attrs).

Lemma run_app : forall l1 l2 s, runT (l1 ++ l2) s = runT l2 (runT l1 s).
Proof. induction l1 as [|o t IH]; intros; cbn [run app]; [reflexivity|apply IH]. Qed.

Lemma reach_wf : forall r0 s, reach eoc pks attrs r0 s -> wf s.
Proof. intros r0 s [l ->]. apply wf_run, wf_init. Qed.

Theorem main_read_after_expire : forall r0 s0 o l k a,
  reach eoc pks attrs r0 s0 -> expires eoc o s0 k a -> Forall (keeps eoc k a) l ->
  let s := runT l (fst (stepT o s0)) in
  snd (stepT (Read k a) s) = RVal (Some (view s k a)) /\
  (snap s = None -> view s k a = com s k a) /\
  (forall g r, snap s = Some (g, r) -> view s k a = r k a).
Proof.
  intros r0 s0 o l k a HR HE HK. cbv zeta. split; [|split].
  - apply read_synced.
    + apply wf_run, wf_step, (reach_wf r0), HR.
    + apply synced_run; [exact HK|]. apply expires_synced, HE.
  - intros E. unfold view. rewrite E. reflexivity.
  - intros g r E. unfold view. rewrite E. reflexivity.
Qed.

Theorem main_pending_kept : forall s l k a v,
  pending s k a v -> Forall (undisturbed k a) l ->
  stepT (Read k a) (runT l s) = (runT l s, RVal (Some v)) /\ pending (runT l s) k a v /\
  selects pks attrs (Read k a) (runT l s) (RVal (Some v)) = 0%nat.
Proof.
  intros s l k a v P F. pose proof (pending_run eoc pks attrs l s k a v F P) as P'.
  split; [apply read_pending, P'|]. split; [exact P'|]. cbn [selects]. destruct P' as [_ ->]. reflexivity.
Qed.

(* a set makes the change pending, whatever the attribute's state was (loaded, expired, already pending) *)
Theorem main_set_pending : forall s k a v, pending (fst (stepT (SetA k a v) s)) k a v.
Proof.
  intros s k a v. cbn [step fst]. unfold pending. cbn [objs]. rewrite upd_obj_same. cbn [oval orig]. rewrite Nat.eqb_refl.
  split; [destruct (orig (objs s k) a); discriminate|reflexivity].
Qed.
End P.

(* concrete histories (non-vacuity; "for the transaction") *)
Definition r123 : rowsf := fun k a => Z.of_nat a.
Definition two : list Z := [1; 2].
Definition four : list nat := [0; 1; 2; 3]%nat.

(* no transaction open: the read after expire sees the external update *)
Lemma ex_outside_txn :
  snd (step false two four (Read 1 1) (run false two four [Commit; Expire 1 [1%nat]; Ext 1 1 50] (init r123))) = RVal (Some 50).
Proof. vm_compute. reflexivity. Qed.
(* inside the transaction that loaded the instance the snapshot value is returned *)
Lemma ex_inside_txn :
  snd (step false two four (Read 1 1) (run false two four [Expire 1 [1%nat]; Ext 1 1 50] (init r123))) = RVal (Some 1).
Proof. vm_compute. reflexivity. Qed.
(* a pending change on y survives expire(x), refresh(x), an external update of y and reads *)
Lemma ex_pending_kept :
  snd (step false two four (Read 1 2)
         (run false two four [SetA 1 2 77; Expire 1 [1%nat]; Ext 1 2 50; Refresh 1 [1%nat; 3%nat]; Read 1 1] (init r123)))
  = RVal (Some 77).
Proof. vm_compute. reflexivity. Qed.
(* ... and is discarded by expiring exactly that attribute *)
Lemma ex_pending_discarded :
  snd (step false two four (Read 1 2)
         (run false two four [Commit; SetA 1 2 77; Ext 1 2 50; Expire 1 [2%nat]] (init r123)))
  = RVal (Some 50).
Proof. vm_compute. reflexivity. Qed.
(* commit with expire_on_commit: the next read sees what another connection wrote after the commit *)
Lemma ex_commit_eoc :
  snd (step true two four (Read 1 1) (run true two four [SetA 1 1 5; Commit; Ext 1 1 50] (init r123))) = RVal (Some 50) /\
  snd (step false two four (Read 1 1) (run false two four [SetA 1 1 5; Commit; Ext 1 1 50] (init r123))) = RVal (Some 5).
Proof. vm_compute. split; reflexivity. Qed.
(* the database refuses a flush from an outdated snapshot; everything is expired afterwards *)
Lemma ex_busy :
  snd (step false two four Commit (run false two four [Ext 1 1 50; SetA 1 2 7] (init r123))) = RBusy /\
  snd (step false two four (Read 1 2) (run false two four [Ext 1 1 50; SetA 1 2 7; Commit] (init r123))) = RVal (Some 2).
Proof. vm_compute. split; reflexivity. Qed.
Lemma ex_reach : reach false two four r123 (run false two four [Commit; Ext 1 1 50] (init r123)).
Proof. exists [Commit; Ext 1 1 50]. reflexivity. Qed.

(* an instance that left the session and came back without any SQL (expunge ... add), then commit with expire_on_commit
   in a transaction that never touched the database: the next read shows what the other connection wrote *)
Lemma ex_reattach :
  snd (step true two four (Read 1 1)
         (run true two four [Expunge 1; Commit; Ext 1 1 50; Add 1; Commit] (init r123))) = RVal (Some 50) /\
  snd (step true two four (Read 1 1)
         (run true two four [Expunge 1; Commit; Ext 1 1 50] (init r123))) = RVal (Some 1).
Proof. vm_compute. split; reflexivity. Qed.
(* populate_existing from rows that carry only id and x: y loses its pending change and is re-read from the database *)
Lemma ex_popex_cols :
  snd (step false two four (Read 1 2)
         (run false two four [Commit; Ext 1 2 50; SetA 1 2 77; PopExCols [1%nat]] (init r123))) = RVal (Some 50).
Proof. vm_compute. reflexivity. Qed.
