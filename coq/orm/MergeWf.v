(* C45 - well-formedness of the session state is an invariant of every history of get / load / set / merge
   operations (induction over the operation list), so the merge theorems apply after any history. *)
From Coq Require Import List Bool Arith ZArith Lia.
From SAV.orm Require Import Merge MergeStages MergeValues.
Import ListNotations.

(* the two ways a step keeps wf: it allocates nothing (wf_keeps), or it allocates instance [next s] (wf_new) *)
Lemma wf_keeps : forall s s', next s' = next s -> idA s' = idA s -> idB s' = idB s ->
  (forall x k, next s <= x -> cols s' x k = cols s x k) -> wf s -> wf s'.
Proof.
  intros s s' N A B C [W1 W2 W3 W4]. constructor; rewrite ?N, ?A, ?B; auto.
  intros x k H. rewrite C; auto.
Qed.
Lemma wf_inert : forall s s', inert s s' -> wf s -> wf s'.
Proof. intros s s' [N [A [B C]]]. apply wf_keeps; auto. intros. rewrite C. reflexivity. Qed.
Lemma wf_writes_only : forall c s s', c < next s -> writes_only c s s' -> wf s -> wf s'.
Proof. intros c s s' Hc [N [A [B C]]]. apply wf_keeps; auto. intros. apply C. lia. Qed.

(* the new instance enters at most one of the identity maps *)
Lemma wf_new : forall s s', wf s -> next s' = S (next s) ->
  (forall pk c, idA s' pk = Some c -> idA s pk = Some c \/ c = next s) ->
  (forall pk c, idB s' pk = Some c -> idB s pk = Some c \/ c = next s) ->
  idA s' = idA s \/ idB s' = idB s ->
  (forall x k, S (next s) <= x -> cols s' x k = cols s x k) -> wf s'.
Proof.
  intros s s' [W1 W2 W3 W4] N A B AB C.
  assert (A' : forall pk c, idA s' pk = Some c -> c < next s') by (intros pk c H; rewrite N; destruct (A _ _ H) as [H'|H']; [apply W1 in H'|]; lia).
  assert (B' : forall pk c, idB s' pk = Some c -> c < next s') by (intros pk c H; rewrite N; destruct (B _ _ H) as [H'|H']; [apply W2 in H'|]; lia).
  constructor; auto.
  - intros pa pb ta tb Ha Hb. destruct AB as [E|E]; rewrite E in *.
    + destruct (B _ _ Hb) as [H'|H']; [eauto|]. apply W1 in Ha. lia.
    + destruct (A _ _ Ha) as [H'|H']; [eauto|]. apply W2 in Hb. lia.
  - intros x k H. rewrite N in H. rewrite C by exact H. apply W4. lia.
Qed.

Lemma upd_new : forall (f : nat -> option nat) k v pk c, upd f k (Some v) pk = Some c -> f pk = Some c \/ c = v.
Proof. intros f k v pk c. unfold upd. destruct (Nat.eqb pk k); [intros E; inversion E|]; auto. Qed.

Lemma idB_merge_col : forall load s t k v, idB (merge_col load s t k v) = idB s.
Proof. intros. apply writes_only_merge_col. Qed.

Definition wf_step (s s' : mstate) : Prop := wf s -> wf s' /\ next s <= next s'.
Lemma wf_step_trans : forall a b c, wf_step a b -> wf_step b c -> wf_step a c.
Proof. intros a b c H1 H2 W. destruct (H1 W) as [Wb Nb]. destruct (H2 Wb). split; [assumption|lia]. Qed.
Lemma wf_step_inert : forall s s', inert s s' -> wf_step s s'.
Proof. intros s s' H W. split; [eapply wf_inert; eauto|]. destruct H as [N _]. lia. Qed.

Lemma wf_step_load_B : forall cfg s pk row, wf_step s (fst (load_B cfg s pk row)).
Proof.
  intros cfg s pk row W. unfold load_B. destruct (idB s pk); cbn [alloc fst]; [split; [exact W|lia]|]. split; [|cbn; lia].
  apply (wf_new s); cbn; eauto using upd_new. intros. rewrite !upd2_other by lia. reflexivity.
Qed.
Lemma wf_step_get_A : forall cfg s pk, wf_step s (fst (get_A cfg s pk)).
Proof.
  intros cfg s pk W. unfold get_A. destruct (idA s pk); cbn [fst]; [split; [exact W|lia]|].
  destruct (assoc pk (rowsA cfg)); [|apply wf_step_inert; [repeat split; reflexivity|exact W]]. cbn. split; [|lia].
  apply (wf_new s); cbn; eauto using upd_new. intros. rewrite !upd2_other by lia. reflexivity.
Qed.
Lemma wf_step_get_B : forall cfg s pk, wf_step s (fst (get_B cfg s pk)).
Proof. intros cfg. exact (get_B_steps cfg wf_step wf_step_trans wf_step_inert (wf_step_load_B cfg)). Qed.
Lemma wf_step_lazy_bs : forall cfg s t, wf_step s (lazy_bs cfg s t).
Proof. intros cfg. exact (lazy_bs_steps cfg wf_step wf_step_trans wf_step_inert (wf_step_load_B cfg)). Qed.

(* a resolution from [s]: a wf state that freed nothing, and an instance of it if any *)
Definition allocated (s : mstate) (r : mstate * option nat) : Prop :=
  wf (fst r) /\ next s <= next (fst r) /\ forall c, snd r = Some c -> c < next (fst r).
Lemma allocated_here : forall s o, wf s -> match o with Some c => c < next s | None => True end -> allocated s (s, o).
Proof. intros s o W H. split; [exact W|]. split; [apply le_n|]. intros c E. cbn in E. subst o. exact H. Qed.

Lemma wf_obtain : forall s r s2 c, allocated s r -> obtain r = (s2, c) -> wf s2 /\ next s <= next s2 /\ c < next s2.
Proof.
  intros s [s1 [c1|]] s2 c [W [N Hc]]; unfold obtain; cbn in *; intros E; inversion E; subst; [auto|].
  cbn. split; [|lia]. apply (wf_new s1); cbn; auto.
Qed.

Lemma allocated_resolve_A : forall cfg load s key, wf s -> allocated s (resolve_A cfg load s key).
Proof.
  intros cfg load s key W. unfold resolve_A. destruct key as [pk|]; [|apply allocated_here; [exact W|exact I]].
  destruct (idA s pk) eqn:Ia; [apply allocated_here; [exact W|eapply wf_boundA; eauto]|].
  destruct load.
  - destruct (wf_step_get_A cfg s pk W) as [G N]. split; [exact G|]. split; [exact N|]. intros c E. eapply wf_boundA, get_A_entry, E. exact G.
  - unfold allocated. cbn. split; [|split; [lia|intros c E; inversion E; lia]]. apply (wf_new s); cbn; eauto using upd_new.
Qed.

Definition cmap_allocated (s : mstate) (ctx : mctx) : Prop := forall pk c, assoc pk (cmap ctx) = Some c -> c < next s.

Lemma allocated_resolve_B : forall cfg load s ctx key, wf s -> cmap_allocated s ctx -> allocated s (resolve_B cfg load s ctx key).
Proof.
  intros cfg load s ctx key W Hb. unfold resolve_B. destruct key as [pk|]; [|apply allocated_here; [exact W|exact I]].
  destruct (idB s pk) eqn:Ib; [apply allocated_here; [exact W|eapply wf_boundB; eauto]|].
  destruct (assoc pk (cmap ctx)) eqn:Ic; [apply allocated_here; [exact W|eapply Hb; eauto]|].
  destruct load.
  - destruct (wf_step_get_B cfg s pk W) as [G N]. split; [exact G|]. split; [exact N|]. intros c E. eapply wf_boundB, get_B_entry, E. exact G.
  - unfold allocated. cbn. split; [|split; [lia|intros c E; inversion E; lia]]. apply (wf_new s); cbn; eauto using upd_new.
Qed.

Lemma wf_child_step : forall cfg load root sbs s ctx dest j a',
  child_step cfg load root sbs s ctx dest j a' -> wf s -> cmap_allocated s ctx -> wf (fst (fst a')) /\ cmap_allocated (fst (fst a')) (snd (fst a')).
Proof.
  intros cfg load root sbs s ctx dest j a' H W Hb. destruct H as [t Hm|Hn|src s2 t Hm Hn Hg Ho]; cbn [fst snd]; auto.
  - split; [eapply wf_inert; [|exact W]; repeat split; reflexivity|exact Hb].
  - destruct (wf_obtain _ _ _ _ (allocated_resolve_B cfg load s ctx (sb_pk src) W Hb) Ho) as [W2 [N2 B2]].
    pose proof (writes_only_copy_B cfg load root src s2 t) as Wr. split; [eapply wf_writes_only; eauto|].
    destruct Wr as [N _]. intros pk c. rewrite N. unfold note. cbn [cmap]. intros E.
    assert (Old : assoc pk (cmap ctx) = Some c -> c < next s2) by (intros E0; apply Hb in E0; lia).
    destruct (sb_pk src) as [pk0|]; [|auto]. rewrite assoc_cons in E. destruct (Nat.eqb pk pk0); [inversion E; subst; exact B2|auto].
Qed.

Lemma wf_rel_A : forall cfg load sbs src s t s7, rel_A cfg load sbs src s t = Some s7 -> wf s -> wf s7.
Proof.
  intros cfg load sbs src s t s7 H W.
  destruct (rel_A_cases _ _ _ _ _ _ _ H) as [[_ ->]|[js [s6 [ctx6 [dest [_ [_ [F ->]]]]]]]]; [exact W|].
  apply (fold_merge_B_ind _ _ _ _ (fun _ a => wf (fst (fst a)) /\ cmap_allocated (fst (fst a)) (snd (fst a)))) in F; cbn [fst snd] in *.
  - eapply wf_inert; [|apply F]. destruct load; [apply inert_coll_set|repeat split; reflexivity].
  - split; [|discriminate]. destruct load; [apply wf_step_lazy_bs|]; exact W.
  - intros pre j sj ctx dj a' _ [Wj Bj] Hstep. eapply wf_child_step; eauto.
Qed.

Theorem wf_merge_A : forall cfg load sbs s src s' t, wf s -> merge_A cfg load sbs s src = Some (s', t) -> wf s'.
Proof.
  intros cfg load sbs s src s' t W H.
  destruct (merge_A_stages _ _ _ _ _ _ _ H) as [_ [s2 [s7 [Ho [Hr Es']]]]]. destruct (wf_obtain _ _ _ _ (allocated_resolve_A cfg load s (sa_pk src) W) Ho) as [W2 [_ B2]].
  apply (wf_inert s7); [subst s'; destruct load; repeat split; reflexivity|].
  eapply wf_rel_A; [exact Hr|]. eapply wf_writes_only; [exact B2|apply writes_only_copy_A|exact W2].
Qed.

(* the histories of props/C45.v: mstep folded over the operations, a raising merge ends the history.  MergeRun.run_ops
   walks the same states for the correspondence check and prints what it observes; it also stops at a poisoned state *)
Fixpoint mrun (cfg : mconfig) (sas : list srcA) (sbs : list srcB) (s : mstate) (ops : list mop) : mstate :=
  match ops with
  | [] => s
  | o :: rest => match mstep cfg sas sbs s o with Some s1 => mrun cfg sas sbs s1 rest | None => s end
  end.

Lemma wf_mstep : forall cfg sas sbs s o s1, wf s -> mstep cfg sas sbs s o = Some s1 -> wf s1.
Proof.
  intros cfg sas sbs s o s1 W H.
  (* a column set on the instance Session.get returned *)
  assert (SetC : forall (r : mstate * option nat) v, wf (fst r) -> (forall c, snd r = Some c -> c < next (fst r)) ->
                wf (match snd r with Some t => set_col (fst r) t 1 v | None => fst r end)).
  { intros [s2 [t|]] v W2 B; cbn in *; [|exact W2]. apply (wf_writes_only t s2 (merge_col true s2 t 1 (SV v))); auto using writes_only_merge_col. }
  pose proof (fun pk => proj1 (wf_step_get_A cfg s pk W)) as GA. pose proof (fun pk => proj1 (wf_step_get_B cfg s pk W)) as GB.
  destruct o; cbn [mstep] in H.
  - inversion H; subst. apply GA.
  - inversion H; subst. apply GB.
  - specialize (GA pk). destruct (get_A cfg s pk) as [s2 [t|]]; inversion H; subst; [apply wf_step_lazy_bs|]; exact GA.
  - specialize (SetC (get_A cfg s pk) v (GA pk) (fun c E => wf_boundA _ (GA pk) _ _ (get_A_entry _ _ _ _ E))).
    destruct (get_A cfg s pk) as [s2 r]. inversion H; subst. exact SetC.
  - specialize (SetC (get_B cfg s pk) v (GB pk) (fun c E => wf_boundB _ (GB pk) _ _ (get_B_entry _ _ _ _ E))).
    destruct (get_B cfg s pk) as [s2 r]. inversion H; subst. exact SetC.
  - destruct (merge_A cfg load sbs s (nth i sas dummyA)) as [[s2 t]|] eqn:E; [|discriminate]. inversion H; subst.
    eapply wf_merge_A; eauto.
Qed.

Theorem wf_all_histories : forall cfg sas sbs ops, wf (mrun cfg sas sbs m0 ops).
Proof.
  intros cfg sas sbs ops. assert (G : forall l s, wf s -> wf (mrun cfg sas sbs s l)).
  { induction l as [|o l IH]; intros s W; cbn [mrun]; [exact W|].
    destruct (mstep cfg sas sbs s o) as [s1|] eqn:E; [|exact W]. apply IH. eapply wf_mstep; eauto. }
  apply G, wf_m0.
Qed.
