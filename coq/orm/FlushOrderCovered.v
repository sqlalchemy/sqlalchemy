(* C31 - [needs_covered]: every need of [needs g] is covered by a path between the records that emit the two statements *)
From Coq Require Import List NArith Bool.
Import ListNotations.
From SAV.orm Require Import FlushOrder FlushOrderSpec FlushOrderBase FlushOrderSort FlushOrderNeeds.
Local Open Scope N_scope.

Section Covered.
Variables (g : graph) (cy : list N).
Notation T := std_tables.
Hypothesis Hwf : wf g = true.
Hypothesis Hok : cyc_ok g cy = true.
Hypothesis Hm : managed g cy = true.
Hypothesis Hcons : consistent g = true.

Lemma wf_nd : NoDup (map d_id (g_deps g)).
Proof. pose proof Hwf as H. unfold wf in H. do 9 (apply andb_true_iff in H; destruct H as [H _]).
  apply andb_true_iff in H. apply nodupb_NoDup, H. Qed.
Lemma ok_shape : cyc_shape cy = true.
Proof. pose proof Hok as H. unfold cyc_ok in H. apply andb_true_iff in H. destruct H as [H _]. apply andb_true_iff in H. apply H. Qed.
Lemma ok_follow : procs_follow g cy = true.
Proof. pose proof Hok as H. unfold cyc_ok in H. apply andb_true_iff in H. apply H. Qed.
Lemma ok_pair m : In m (all_mappers g) -> incyc cy (DelAll m) = incyc cy (SaveAll m).
Proof. intros Hi. pose proof Hok as H. unfold cyc_ok in H. apply andb_true_iff in H. destruct H as [H _].
  apply andb_true_iff in H. destruct H as [_ H]. unfold paired in H. rewrite forallb_forall in H.
  specialize (H _ Hi). apply eqb_prop in H. symmetry. exact H. Qed.

Theorem needs_covered : forall e1 e2, In (e1, e2) (needs g) ->
  forall h1 h2, In h1 (homes g cy e1) -> In h2 (homes g cy e2) -> fpath T g cy h1 h2.
Proof.
  intros e1 e2 Hn h1 h2 H1 H2. pose proof Hm as M. unfold managed in M. apply andb_true_iff in M. destruct M as [M Mp].
  apply andb_true_iff in M. destruct M as [M1 M0]. rewrite forallb_forall in M1, M0, Mp.
  unfold needs in Hn. repeat (apply in_app_or in Hn; destruct Hn as [Hn|Hn]); apply in_flat_map in Hn; destruct Hn as [x [Hx Hn]];
    [destruct x as [[s c] t]|destruct x as [[s c] t]|rename x into s| |].
  - apply (ref1_covered g cy wf_nd ok_shape ok_follow ok_pair s c t e1 e2); auto. apply (ref1_survive g Hcons s c t Hx).
  - apply (ref0_covered g cy wf_nd ok_shape ok_follow ok_pair s c t e1 e2); auto.
  - apply (postdel_covered g cy ok_shape s e1 e2); auto.
  - apply (secins_covered g cy wf_nd ok_shape ok_follow ok_pair x e1 e2); auto.
  - apply (secdel_covered g cy wf_nd ok_shape ok_follow ok_pair x e1 e2); auto.
Qed.
End Covered.
