(* C39 - the parts of a flush: what a registration request does, an induction principle for the presort loop (for any
   processor order), the closed form of the top-level loops, and the outcome in terms of the final registrations. *)
From Coq Require Import List Bool Arith Lia.
From SAV.orm Require Import Cascade CascadeBase CascadeIterProofs CascadeOpsProofs.
Import ListNotations.

Lemma reg_register : forall s u x b c y,
  reg (register s u (x, b, c)) y =
  if Nat.eqb y x && in_session s x then
    match reg u x with None => Some b | Some old => if b || c then Some b else Some old end
  else reg u y.
Proof.
  intros s u x b c y. unfold register. destruct (in_session s x) eqn:I; cbn [negb].
  - destruct (reg u x) eqn:R.
    + destruct (b || c) eqn:BC; cbn [reg]; unfold upd; destruct (Nat.eqb y x) eqn:E; cbn [andb]; auto.
      apply Nat.eqb_eq in E. subst. exact R.
    + cbn [reg]. unfold upd. destruct (Nat.eqb y x); reflexivity.
  - rewrite andb_false_r. reflexivity.
Qed.

Lemma registered_register : forall s u x b c y,
  reg (register s u (x, b, c)) y <> None <-> reg u y <> None \/ (y = x /\ in_session s x = true).
Proof.
  intros s u x b c y. rewrite reg_register. destruct (Nat.eqb y x) eqn:E; cbn [andb].
  - apply Nat.eqb_eq in E. subst y. destruct (in_session s x); [|intuition congruence].
    split; [auto|]. intros _. destruct (reg u x); [destruct (b || c)|]; discriminate.
  - apply Nat.eqb_neq in E. tauto.
Qed.

Lemma order_register : forall s u x b c,
  order (register s u (x, b, c)) =
  if in_session s x then match reg u x with None => order u ++ [x] | Some _ => order u end else order u.
Proof.
  intros. unfold register. destruct (in_session s x); [|reflexivity].
  destruct (reg u x); [destruct (b || c)|]; reflexivity.
Qed.

Section Presort.
Variable cfg : config.
Variable s : state.
Variable P : uow -> Prop.
Hypothesis P_done : forall u d, P u -> P (mkUow (reg u) (order u) d).
Hypothesis P_reg : forall u pr b o rq, P u -> In rq (reqs cfg s pr b o) -> P (register s u rq).

Lemma batch_inv : forall ub pr, P (fst ub) -> P (fst (batch cfg s ub pr)).
Proof.
  intros [u ch] pr Hu. cbn [fst] in Hu. unfold batch. cbn [fst].
  apply fold_left_inv; [|apply P_done; exact Hu].
  intros u' rq Hrq. apply in_app_iff in Hrq. destruct Hrq as [Hrq|Hrq]; apply in_flat_map in Hrq;
    destruct Hrq as [o [_ Ho]]; eauto.
Qed.

Lemma procs_inv : forall procs ub, P (fst ub) -> P (fst (fold_left (batch cfg s) procs ub)).
Proof.
  intros procs. apply (fold_left_inv _ _ (fun ub => P (fst ub))). intros ub pr _. apply batch_inv.
Qed.

Lemma presort_inv : forall procs fuel u u', P u -> presort cfg s procs fuel u = Some u' -> P u'.
Proof.
  intros procs. induction fuel as [|f IH]; intros u u' Hu H; cbn [presort] in H; [discriminate|].
  pose proof (procs_inv procs (u, false) Hu) as Hp.
  destruct (fold_left (batch cfg s) procs (u, false)) as [u1 ch]. cbn [fst] in Hp.
  destruct ch; [eapply IH; eauto|]. inversion H. subst. exact Hp.
Qed.
End Presort.

(* roots of flush-time deletions: orphans of delete-orphan collections and targets of many-to-one delete cascades *)
Definition orphan_of (cfg : config) (s : state) (x : nat) : Prop :=
  exists ri p, c_do (fwd (getrel cfg ri)) = true /\ In x (h_del (hist_coll s p ri)) /\ hp_false s x ri = true.
Definition m2o_target (cfg : config) (s : state) (y : nat) : Prop :=
  exists ri c, c_dl (bk (getrel cfg ri)) = true /\
               In (Some y) (fst (fst (hist_scalar s c ri)) ++ snd (fst (hist_scalar s c ri))).
Definition del_root (cfg : config) (s : state) (y : nat) : Prop := orphan_of cfg s y \/ m2o_target cfg s y.
Definition cascaded_delete (cfg : config) (s : state) (x : nat) : Prop :=
  exists y, del_root cfg s y /\ (x = y \/ creach cfg s TDL no_halt y x).

Lemma with_delete_cascade_shape : forall cfg s y x b c,
  In (x, b, c) (with_delete_cascade cfg s y) -> b = true /\ c = false /\ (x = y \/ creach cfg s TDL no_halt y x).
Proof.
  intros cfg s y x b c H. unfold with_delete_cascade in H. destruct H as [E|H].
  - injection E as E1 E2 E3. subst. auto.
  - apply in_map_iff in H. destruct H as [g [E Hg]]. injection E as E1 E2 E3. subst.
    split; [reflexivity|]. split; [reflexivity|]. right. apply cascade_iter_reach. exact Hg.
Qed.

(* the requests of one processor for one state: a delete is cancelled only for a child that was added to the
   collection of the parent being saved; a delete is requested only for a root of deletion and what its delete
   cascade reaches *)
Lemma reqs_shape : forall cfg s pr b o x d k,
  In (x, d, k) (reqs cfg s pr b o) ->
  (k = true -> exists ri, In x (h_added (hist_coll s o ri))) /\ (d = true -> cascaded_delete cfg s x).
Proof.
  intros cfg s pr b o x d k H. destruct pr as [ri|ri], b; unfold reqs in H.
  - apply in_app_iff in H. destruct H as [H|H].
    + apply in_map_iff in H. destruct H as [c [E Hc]]. injection E as E1 E2 E3; subst. apply filter_In in Hc. destruct Hc as [Hc1 Hc2].
      split; [discriminate|]. intros D. exists x. split; [left; exists ri, o; auto|left; reflexivity].
    + destruct (c_dl (fwd (getrel cfg ri))); [destruct H|]. apply in_map_iff in H. destruct H as [c [E _]].
      injection E as E1 E2 E3; subst. split; discriminate.
  - apply in_app_iff in H. destruct H as [H|H].
    + apply in_map_iff in H. destruct H as [c [E Hc]]. injection E as E1 E2 E3; subst. split; [intros _; exists ri; exact Hc|discriminate].
    + apply in_flat_map in H. destruct H as [y [Hy H]].
      destruct (c_do (fwd (getrel cfg ri))) eqn:D; cbn [negb] in H; [|destruct H as [E|[]]; injection E as E1 E2 E3; subst; split; discriminate].
      destruct (hp_false s y ri) eqn:Hp; [|destruct H]. apply with_delete_cascade_shape in H. destruct H as [-> [-> H]].
      split; [discriminate|]. intros _. exists y. split; [left; exists ri, o; auto|exact H].
  - destruct (c_dl (bk (getrel cfg ri))) eqn:D; [|destruct H]. apply in_flat_map in H. destruct H as [y [Hy H]].
    destruct y as [y|]; [|destruct H]. apply with_delete_cascade_shape in H. destruct H as [-> [-> H]].
    split; [discriminate|]. intros _. exists y. split; [right; exists ri, o; auto|exact H].
  - destruct H as [E|[]]. injection E as E1 E2 E3; subst. split; discriminate.
Qed.

Lemma objs_nodup : forall cfg, NoDup (objs cfg).
Proof. intros. apply seq_NoDup. Qed.
Lemma top_proc_nodup : forall cfg s, NoDup (top_proc cfg s).
Proof. intros. apply NoDup_filter, objs_nodup. Qed.

(* the first loop expunges the pending orphans that were orphaned outside of the session, and writes nothing else *)
Lemma flush_top_view : forall cfg s x,
  view_of (fst (flush_top cfg s)) x =
  if mem x (top_proc cfg s) && top_expunge cfg s x then expunge_view (view_of s x) else view_of s x.
Proof.
  intros cfg s x. unfold flush_top. cbn [fst].
  rewrite (fold_pointwise state view view_of _ (fun c w => if top_expunge cfg s c then expunge_view w else w)).
  - destruct (mem x (top_proc cfg s)), (top_expunge cfg s x); reflexivity.
  - intros a c y. destruct (top_expunge cfg s c); [apply expunge1_acts|].
    destruct (Nat.eqb y c) eqn:E; [apply Nat.eqb_eq in E; subst y|]; reflexivity.
  - right. intros c w. destruct (top_expunge cfg s c); [apply expunge_view_idem|reflexivity].
Qed.

Lemma flush_top_frame : forall cfg s,
  attrs (fst (flush_top cfg s)) = attrs s /\ rowp (fst (flush_top cfg s)) = rowp s /\
  poison (fst (flush_top cfg s)) = poison s.
Proof.
  intros cfg s. unfold flush_top. cbn [fst].
  assert (H : forall T (proj : state -> T), (forall a o, proj (expunge1 a o) = proj a) ->
              proj (fold_left (fun a o => if top_expunge cfg s o then expunge1 a o else a) (top_proc cfg s) s) = proj s).
  { intros T proj H. apply fold_left_proj. intros a o. destruct (top_expunge cfg s o); [apply H|reflexivity]. }
  repeat split; apply H; intros a o; unfold expunge1; destruct (st a o); reflexivity.
Qed.
Lemma flush_top_attrs : forall cfg s, attrs (fst (flush_top cfg s)) = attrs s.
Proof. intros. apply flush_top_frame. Qed.

Lemma top_expunge_pending : forall cfg s o, top_expunge cfg s o = true -> has_key s o = false.
Proof.
  intros cfg s o H. unfold top_expunge in H. apply andb_true_iff in H. destruct H as [H _].
  apply andb_true_iff in H. destruct H as [_ H]. apply negb_true_iff in H. exact H.
Qed.

(* the expunged objects had no key: they only leave the session *)
Lemma flush_top_status : forall cfg s x,
  has_key (fst (flush_top cfg s)) x = has_key s x /\ marked (fst (flush_top cfg s)) x = marked s x /\
  in_session (fst (flush_top cfg s)) x = in_session s x && negb (mem x (top_proc cfg s) && top_expunge cfg s x).
Proof.
  intros cfg s x. unfold has_key, in_session. rewrite view_marked, !view_st, flush_top_view.
  destruct (mem x (top_proc cfg s) && top_expunge cfg s x) eqn:E; cbn [negb].
  - apply andb_true_iff in E. destruct E as [_ E]. apply top_expunge_pending in E. unfold has_key in E.
    cbn [v_st v_marked expunge_view view_of]. destruct (st s x); try discriminate E; repeat split; reflexivity.
  - rewrite andb_true_r. repeat split; reflexivity.
Qed.
Lemma flush_top_has_key : forall cfg s x, has_key (fst (flush_top cfg s)) x = has_key s x.
Proof. intros. apply flush_top_status. Qed.
Lemma flush_top_marked : forall cfg s x, marked (fst (flush_top cfg s)) x = marked s x.
Proof. intros. apply flush_top_status. Qed.
Lemma flush_top_in_session : forall cfg s x,
  in_session (fst (flush_top cfg s)) x = in_session s x && negb (mem x (top_proc cfg s) && top_expunge cfg s x).
Proof. intros. apply flush_top_status. Qed.

Lemma flush_top_hist : forall cfg s p ri, hist_coll (fst (flush_top cfg s)) p ri = hist_coll s p ri.
Proof.
  intros. destruct (attrs_eq _ _ (flush_top_attrs cfg s)) as [A1 [A2 _]].
  unfold hist_coll. rewrite A1, A2. reflexivity.
Qed.

(* both registration loops write only the entry of the object at hand, and run over lists without repetition *)
Lemma fold_top_register : forall cfg s s1 l u x, NoDup l -> (forall o, In o l -> reg u o = None) ->
  reg (fold_left (top_register cfg s s1) l u) x =
  if mem x l && negb (top_expunge cfg s x) && in_session s1 x
  then Some (is_orphan cfg s x && has_key s x) else reg u x.
Proof.
  intros cfg s s1 l u x Hnd Hnone.
  (* what the step does to any entry; the loop only meets empty ones ([Hnone]) *)
  set (G := fun (c : nat) (r : option bool) =>
              if negb (top_expunge cfg s c) && in_session s1 c
              then match r with
                   | None => Some (is_orphan cfg s c && has_key s c)
                   | Some old => if is_orphan cfg s c && has_key s c then Some (is_orphan cfg s c && has_key s c) else Some old
                   end
              else r).
  assert (Hstep : forall a c y, reg (top_register cfg s s1 a c) y = if Nat.eqb y c then G c (reg a c) else reg a y).
  { intros a c y. unfold G, top_register. destruct (top_expunge cfg s c); cbn [negb andb].
    - destruct (Nat.eqb y c) eqn:E; [apply Nat.eqb_eq in E; subst y|]; reflexivity.
    - rewrite reg_register, orb_false_r.
      destruct (Nat.eqb y c) eqn:E; [apply Nat.eqb_eq in E; subst y|reflexivity]. cbn [andb].
      destruct (in_session s1 c); reflexivity. }
  rewrite (fold_pointwise uow _ reg _ G Hstep l (or_introl Hnd)). unfold G.
  destruct (mem x l) eqn:M; [|reflexivity]. rewrite (Hnone x) by (apply mem_In; exact M).
  cbn [andb]. destruct (negb (top_expunge cfg s x) && in_session s1 x); reflexivity.
Qed.

Lemma fold_top_marked : forall s1 l u x, NoDup l ->
  reg (fold_left (top_marked s1) l u) x =
  if mem x l && marked s1 x && in_session s1 x
  then match reg u x with None => Some true | Some b => Some b end else reg u x.
Proof.
  intros s1 l u x Hnd.
  set (G := fun (c : nat) (r : option bool) =>
              if marked s1 c && in_session s1 c then match r with None => Some true | Some b => Some b end else r).
  assert (Hstep : forall a c y, reg (top_marked s1 a c) y = if Nat.eqb y c then G c (reg a c) else reg a y).
  { intros a c y. unfold G, top_marked. destruct (marked s1 c && in_session s1 c) eqn:M.
    - destruct (reg a c) eqn:R.
      + destruct (Nat.eqb y c) eqn:E; [apply Nat.eqb_eq in E; subst y; exact R|reflexivity].
      + apply andb_true_iff in M. destruct M as [_ M]. rewrite reg_register, R, M, andb_true_r. reflexivity.
    - destruct (Nat.eqb y c) eqn:E; [apply Nat.eqb_eq in E; subst y|]; reflexivity. }
  rewrite (fold_pointwise uow _ reg _ G Hstep l (or_introl Hnd)). unfold G.
  destruct (mem x l), (marked s1 x), (in_session s1 x); reflexivity.
Qed.

Lemma flush_top_reg : forall cfg s x,
  reg (snd (flush_top cfg s)) x =
  if in_session (fst (flush_top cfg s)) x then
    if mem x (top_proc cfg s) && negb (top_expunge cfg s x) then Some (is_orphan cfg s x && has_key s x)
    else if mem x (objs cfg) && marked s x then Some true else None
  else None.
Proof.
  intros cfg s x. rewrite <- (flush_top_marked cfg s x). unfold flush_top. cbn [fst snd].
  rewrite fold_top_marked by apply objs_nodup.
  rewrite fold_top_register; [|apply top_proc_nodup|reflexivity].
  destruct (mem x (top_proc cfg s)), (negb (top_expunge cfg s x)), (in_session _ x), (mem x (objs cfg)), (marked _ x);
    reflexivity.
Qed.

Definition uow_wf (s : state) (u : uow) : Prop :=
  NoDup (order u) /\ (forall x, In x (order u) <-> reg u x <> None) /\ (forall x, reg u x <> None -> in_session s x = true).

Lemma uow_wf0 : forall s, uow_wf s uow0.
Proof.
  intros s. split; [constructor|]. split.
  - intros x. split; [intros []|]. intros H. exfalso. apply H. reflexivity.
  - intros x H. exfalso. apply H. reflexivity.
Qed.

Lemma uow_wf_register : forall s u rq, uow_wf s u -> uow_wf s (register s u rq).
Proof.
  intros s u [[x b] c] [W1 [W2 W3]].
  split; [rewrite order_register|split; intros y; rewrite registered_register; [rewrite order_register|]].
  - destruct (in_session s x); [|exact W1]. destruct (reg u x) eqn:R; [exact W1|].
    apply NoDup_app_snoc; [exact W1|]. rewrite W2, R. intros H. exact (H eq_refl).
  - destruct (in_session s x); [destruct (reg u x) eqn:R|]; rewrite ?in_app_iff, W2.
    + split; [tauto|]. intros [H|[-> _]]; [exact H|rewrite R; discriminate].
    + simpl. intuition congruence.
    + intuition discriminate.
  - intros [H|[-> H]]; [exact (W3 y H)|exact H].
Qed.

Lemma uow_wf_top : forall cfg s, uow_wf (fst (flush_top cfg s)) (snd (flush_top cfg s)).
Proof.
  intros cfg s. unfold flush_top. cbn [fst snd]. cbv zeta.
  set (s1 := fold_left (fun a o => if top_expunge cfg s o then expunge1 a o else a) (top_proc cfg s) s).
  apply (fold_left_inv _ _ (uow_wf s1)); [|apply (fold_left_inv _ _ (uow_wf s1)); [|apply uow_wf0]]; intros u c _ W.
  - unfold top_marked. destruct (marked s1 c && in_session s1 c); [|exact W].
    destruct (reg u c); [exact W|apply uow_wf_register; exact W].
  - unfold top_register. destruct (top_expunge cfg s c); [exact W|apply uow_wf_register; exact W].
Qed.

Lemma uow_wf_presort : forall cfg s procs fuel u u',
  uow_wf s u -> presort cfg s procs fuel u = Some u' -> uow_wf s u'.
Proof.
  intros cfg s procs fuel u u'. apply (presort_inv cfg s (uow_wf s)).
  - intros u0 d W. exact W.
  - intros; apply uow_wf_register; assumption.
Qed.

(* the foreign-key synchronisation only writes foreign keys (and the modified flag) *)
Lemma core_sfud : forall u s c ri v, core (set_fk_unless_deleted u s c ri v) = core s.
Proof. intros. unfold set_fk_unless_deleted. destruct (is_del u c); reflexivity. Qed.

Lemma core_sync_rel : forall cfg u s ir, core (sync_rel cfg u s ir) = core s.
Proof.
  intros cfg u s [ri r]. unfold sync_rel. set (added := flat_map _ (order u)).
  assert (F : forall A (f : state -> A -> state) l a,
            (forall b x, core (f b x) = core b) -> core (fold_left f l a) = core a)
    by (intros; apply fold_left_proj; assumption).
  match goal with |- core (if _ then fold_left ?g _ ?s1 else ?s1') = _ => assert (H1 : core s1 = core s) end.
  { apply F. intros a p. destruct (negb (Nat.eqb (cls cfg p) (rp r))); [reflexivity|].
    destruct (negb (is_del u p)); [|destruct (c_dl (fwd r))].
    - rewrite F; [apply F; intros b c; apply core_sfud|]. intros b c.
      destruct (negb (c_do (fwd r)) && hp_false b c ri); [apply core_sfud|reflexivity].
    - apply F. intros b c. destruct (hp_false b c ri); [apply core_sfud|reflexivity].
    - rewrite F; [apply F|]; intros b c; [destruct (hp_false b c ri)|destruct (mem c added)];
        try apply core_sfud; reflexivity. }
  destruct (hasback r); [|exact H1]. rewrite F; [exact H1|]. intros a c.
  destruct (negb (Nat.eqb (cls cfg c) (rc r)) || is_del u c); [reflexivity|].
  destruct (fst (fst (hist_scalar a c ri))) as [|x l]; [destruct (snd (hist_scalar a c ri)); reflexivity|].
  apply F. intros b y. destruct y as [y|]; [|reflexivity]. destruct (in_session b y); reflexivity.
Qed.

(* a saved object: row, status and modified flag are written, then the committed values are reset, which touches
   nothing of [core] *)
Lemma core_finalize1_saved : forall cfg u s o, is_del u o = false ->
  core (finalize1 cfg u s o) = core (set_modf (set_st (set_row s o true (fk s o)) o Persistent) o false).
Proof.
  intros cfg u s o D. unfold finalize1. rewrite D. apply fold_left_proj. intros a [ri r].
  destruct (Nat.eqb (rp r) (cls cfg o)), (Nat.eqb (rc r) (cls cfg o) && hasback r); reflexivity.
Qed.

Lemma finalize1_spec : forall cfg u s o,
  let s' := finalize1 cfg u s o in
  (forall x, st s' x = if Nat.eqb x o then (if is_del u o then Deleted else Persistent) else st s x) /\
  (forall x, rowp s' x = if Nat.eqb x o then negb (is_del u o) else rowp s x) /\
  poison s' = poison s.
Proof.
  intros cfg u s o. cbv zeta. destruct (is_del u o) eqn:D.
  - unfold finalize1. rewrite D. cbn [st rowp poison set_marked set_st set_row]. unfold upd.
    repeat split; intros x; destruct (Nat.eqb x o); reflexivity.
  - destruct (core_eq _ _ (core_finalize1_saved cfg u s o D)) as [-> [-> [_ ->]]].
    cbn [st rowp poison set_modf set_st set_row]. unfold upd.
    repeat split; intros x; destruct (Nat.eqb x o); reflexivity.
Qed.

Lemma fold_finalize : forall cfg u l s,
  let s' := fold_left (finalize1 cfg u) l s in
  (forall x, st s' x = if mem x l then (if is_del u x then Deleted else Persistent) else st s x) /\
  (forall x, rowp s' x = if mem x l then negb (is_del u x) else rowp s x) /\
  poison s' = poison s.
Proof.
  intros cfg u l s s'. split; [|split].
  - apply (fold_pointwise state status st (finalize1 cfg u) (fun c _ => if is_del u c then Deleted else Persistent));
      [intros a c; apply (finalize1_spec cfg u a c)|right; reflexivity].
  - apply (fold_pointwise state bool rowp (finalize1 cfg u) (fun c _ => negb (is_del u c)));
      [intros a c; apply (finalize1_spec cfg u a c)|right; reflexivity].
  - apply fold_left_proj. intros a c. apply (finalize1_spec cfg u a c).
Qed.

(* [flush_regs cfg procs s u]: the presort loop ended with registrations [u] *)
Definition flush_regs (cfg : config) (procs : list prop) (s : state) (u : uow) : Prop :=
  order (snd (flush_top cfg s)) <> [] /\
  presort cfg (fst (flush_top cfg s)) procs (presort_fuel cfg) (snd (flush_top cfg s)) = Some u.

(* no FlushError: no DELETE is registered for a pending object *)
Definition no_flush_error (cfg : config) (s : state) (u : uow) : Prop :=
  existsb (fun o => is_del u o && negb (has_key (fst (flush_top cfg s)) o)) (order u) = false.

Theorem flush_outcome : forall cfg procs s u,
  flush_regs cfg procs s u -> no_flush_error cfg s u ->
  let s' := fst (flush_with cfg procs s) in
  snd (flush_with cfg procs s) = 0 /\ poison s' = poison s /\
  (forall x, st s' x = match reg u x with
                       | Some true => Deleted | Some false => Persistent | None => st (fst (flush_top cfg s)) x end) /\
  (forall x, rowp s' x = match reg u x with Some b => negb b | None => rowp s x end).
Proof.
  intros cfg procs s u [Hne Hp] Hnp. unfold no_flush_error in Hnp. unfold flush_with.
  destruct (flush_top cfg s) as [s1 u0] eqn:FT. cbn [fst snd] in *.
  destruct (order u0) eqn:O; [contradiction|]. rewrite Hp, Hnp. cbn [fst snd].
  pose proof (uow_wf_top cfg s) as W0. rewrite FT in W0. cbn [fst snd] in W0.
  pose proof (uow_wf_presort cfg s1 procs _ _ _ W0 Hp) as [W1 [W2 W3]].
  set (s2 := fold_left (sync_rel cfg u) (indexed 0 (rels cfg)) s1).
  destruct (core_eq s2 s1) as [S1 [S2 [_ S4]]]; [apply fold_left_proj, core_sync_rel|].
  destruct (fold_finalize cfg u (order u) s2) as [F1 [F2 F3]]. cbv zeta in F1, F2, F3.
  pose proof (flush_top_frame cfg s) as [_ [Hrow1 TP]]. rewrite FT in Hrow1, TP. cbn [fst] in Hrow1, TP.
  assert (Hm : forall x, mem x (order u) = match reg u x with Some _ => true | None => false end).
  { intros x. destruct (reg u x) eqn:R; [apply mem_In|apply mem_false_notIn]; rewrite W2, R; [discriminate|auto]. }
  split; [reflexivity|]. split; [rewrite F3, S4; exact TP|].
  split; intros x; [rewrite F1, S1|rewrite F2, S2, Hrow1]; rewrite Hm; unfold is_del;
    destruct (reg u x) as [[|]|]; reflexivity.
Qed.

Corollary flush_registered : forall cfg procs s u x b,
  flush_regs cfg procs s u -> no_flush_error cfg s u -> reg u x = Some b ->
  st (fst (flush_with cfg procs s)) x = (if b then Deleted else Persistent) /\
  rowp (fst (flush_with cfg procs s)) x = negb b.
Proof.
  intros cfg procs s u x b Hr Hnp R. destruct (flush_outcome cfg procs s u Hr Hnp) as [_ [_ [S Rw]]].
  cbv zeta in S, Rw. rewrite S, Rw, R. destruct b; split; reflexivity.
Qed.

Theorem flush_rows_match_states : forall cfg procs s u,
  flush_regs cfg procs s u -> no_flush_error cfg s u ->
  forall x, reg u x <> None ->
  (st (fst (flush_with cfg procs s)) x = Deleted /\ rowp (fst (flush_with cfg procs s)) x = false) \/
  (st (fst (flush_with cfg procs s)) x = Persistent /\ rowp (fst (flush_with cfg procs s)) x = true).
Proof.
  intros cfg procs s u Hr Hnp x Hx.
  destruct (reg u x) as [[|]|] eqn:R; [left|right|contradiction]; exact (flush_registered cfg procs s u x _ Hr Hnp R).
Qed.
