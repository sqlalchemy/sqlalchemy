(* C38 - the instrumented set (orm/CollSet.v): accounting with NoDup as the invariant (no operation
   excepted); equality with the builtin up to order ([sagrees]), for any iteration order [ord]. *)
From Coq Require Import List ZArith Bool Lia ZifyBool Permutation Arith.
Import ListNotations.
From SAV.base Require Import PySlice.
From SAV.orm Require Import CollBase CollSet CollProofs.
Open Scope Z_scope.

Lemma filter_all : forall (T : Type) (p : T -> bool) l,
  (forall y, In y l -> p y = true) -> filter p l = l.
Proof.
  induction l as [|a l IH]; intro H; [reflexivity|]. cbn [filter].
  rewrite (H a (or_introl eq_refl)), IH; [reflexivity|]. intros; apply H; right; assumption.
Qed.

Lemma set_add_In : forall x y s, In y (set_add x s) <-> y = x \/ In y s.
Proof.
  intros. unfold set_add. destruct (mem x s) eqn:E.
  - apply mem_In in E. split; [auto|]. intros [->|H]; auto.
  - rewrite in_app_iff. cbn [In]. intuition.
Qed.

Lemma NoDup_snoc : forall (x : Z) s, NoDup s -> ~ In x s -> NoDup (s ++ [x]).
Proof.
  intros x s H Hn. apply (Permutation_NoDup (l := x :: s)).
  - apply Permutation_cons_append.
  - constructor; assumption.
Qed.

Lemma set_add_NoDup : forall x s, NoDup s -> NoDup (set_add x s).
Proof.
  intros. unfold set_add. destruct (mem x s) eqn:E; [assumption|].
  apply NoDup_snoc; [assumption|]. intro Hin. apply mem_In in Hin. congruence.
Qed.

Lemma set_discard_In : forall x y s, In y (set_discard x s) <-> In y s /\ y <> x.
Proof.
  intros. unfold set_discard. rewrite filter_In. split; intros [H1 H2]; split; auto; lia.
Qed.

Lemma set_discard_NoDup : forall x s, NoDup s -> NoDup (set_discard x s).
Proof. intros. apply NoDup_filter. assumption. Qed.

Lemma set_discard_absent : forall x s, mem x s = false -> set_discard x s = s.
Proof.
  intros x s H. apply filter_all. intros y Hy. destruct (Z.eqb_spec x y); [|reflexivity].
  subst. apply mem_In in Hy. congruence.
Qed.

Lemma countZ_discard : forall z x s,
  countZ z (set_discard x s) = if z =? x then 0 else countZ z s.
Proof.
  intros. unfold set_discard. induction s as [|y s IH]; cbn [filter].
  - rewrite countZ_nil. destruct (z =? x); reflexivity.
  - destruct (Z.eqb_spec x y); cbn [negb]; rewrite ?countZ_cons, IH;
      destruct (Z.eqb_spec z x), (Z.eqb_spec z y); lia.
Qed.

Lemma NoDup_countZ_1 : forall x s, NoDup s -> In x s -> countZ x s = 1.
Proof.
  intros x s H Hin. unfold countZ.
  rewrite (proj1 (NoDup_count_occ' Z.eq_dec s) H x Hin). reflexivity.
Qed.

Lemma set_discard_perm : forall x s, NoDup s -> In x s -> Permutation s (x :: set_discard x s).
Proof.
  intros x s N Hx. apply NoDup_Permutation; [assumption| |].
  - constructor; [rewrite set_discard_In; tauto|apply set_discard_NoDup, N].
  - intro y. cbn [In]. rewrite set_discard_In.
    destruct (Z.eq_dec y x); [subst; tauto|intuition congruence].
Qed.

Lemma set_diff_cons : forall s x xs, set_diff (set_discard x s) xs = set_diff s (x :: xs).
Proof.
  intros. unfold set_diff, set_discard. induction s as [|y s IH]; [reflexivity|].
  cbn [filter mem existsb]. destruct (x =? y) eqn:E; cbn [negb].
  - rewrite IH. replace (y =? x) with true by lia. reflexivity.
  - cbn [filter]. rewrite IH. replace (y =? x) with false by lia. reflexivity.
Qed.

Lemma set_diff_nil : forall s, set_diff s [] = s.
Proof. intro. apply filter_all. reflexivity. Qed.

Lemma set_diff_In : forall s o y, In y (set_diff s o) <-> In y s /\ ~ In y o.
Proof.
  intros. unfold set_diff. rewrite filter_In. rewrite <- (mem_In y o).
  destruct (mem y o); cbn [negb]; intuition congruence.
Qed.

Lemma set_inter_In : forall s o y, In y (set_inter s o) <-> In y s /\ In y o.
Proof. intros. unfold set_inter. rewrite filter_In, mem_In. reflexivity. Qed.

Lemma set_inter_NoDup : forall s o, NoDup s -> NoDup (set_inter s o).
Proof. intros. apply NoDup_filter. assumption. Qed.

Lemma set_union_cons : forall s x xs, set_union s (x :: xs) = set_union (set_add x s) xs.
Proof. reflexivity. Qed.

Lemma set_union_In : forall o s y, In y (set_union s o) <-> In y s \/ In y o.
Proof.
  induction o as [|x o IH]; intros; [cbn; intuition|].
  rewrite set_union_cons, IH, set_add_In. cbn [In]. intuition.
Qed.

Lemma set_union_NoDup : forall o s, NoDup s -> NoDup (set_union s o).
Proof.
  induction o as [|x o IH]; intros; [assumption|]. rewrite set_union_cons.
  apply IH, set_add_NoDup. assumption.
Qed.

Lemma set_add_member : forall x s, In x s -> set_add x s = s.
Proof. intros x s H. apply mem_In in H. unfold set_add. rewrite H. reflexivity. Qed.

Lemma set_union_members : forall o s, (forall x, In x o -> In x s) -> set_union s o = s.
Proof.
  induction o as [|x o IH]; intros s H; [reflexivity|].
  rewrite set_union_cons, set_add_member by (apply H; left; reflexivity).
  apply IH. intros; apply H; right; assumption.
Qed.

Lemma dedup_In : forall o y, In y (dedup o) <-> In y o.
Proof. intros. unfold dedup. fold (set_union [] o). rewrite set_union_In. cbn. intuition. Qed.

Lemma dedup_NoDup : forall o, NoDup (dedup o).
Proof. intros. unfold dedup. fold (set_union [] o). apply set_union_NoDup. constructor. Qed.

Lemma NoDup_app_disjoint : forall (a b : list Z), NoDup a -> NoDup b ->
  (forall y, In y a -> ~ In y b) -> NoDup (a ++ b).
Proof.
  induction a as [|x a IH]; intros b Na Nb D; [assumption|]. cbn [app]. inv Na. constructor.
  - rewrite in_app_iff. intros [H|H]; [contradiction|]. apply (D x); [left; reflexivity|assumption].
  - apply IH; auto. intros y Hy. apply D. right. assumption.
Qed.

Lemma set_symdiff_NoDup : forall s o, NoDup s -> NoDup (set_symdiff s o).
Proof.
  intros s o H. unfold set_symdiff. apply NoDup_app_disjoint.
  - apply NoDup_filter. assumption.
  - apply NoDup_filter, dedup_NoDup.
  - intros y H1 H2. apply set_diff_In in H1. apply set_diff_In in H2. tauto.
Qed.

Lemma set_symdiff_In : forall s o y,
  In y (set_symdiff s o) <-> (In y s /\ ~ In y o) \/ (In y o /\ ~ In y s).
Proof.
  intros. unfold set_symdiff. rewrite in_app_iff, !set_diff_In, dedup_In. reflexivity.
Qed.

Section Ord.
Variable ord : list item -> list item.
Hypothesis ord_perm : forall l, Permutation (ord l) l.

Lemma ord_In : forall l x, In x (ord l) <-> In x l.
Proof. intros. split; apply Permutation_in; [apply ord_perm|symmetry; apply ord_perm]. Qed.
Lemma ord_NoDup : forall l, NoDup l -> NoDup (ord l).
Proof. intros. eapply Permutation_NoDup; [symmetry; apply ord_perm|assumption]. Qed.
Lemma ord_nil : ord [] = [].
Proof. apply Permutation_nil. symmetry. apply ord_perm. Qed.

Local Notation acc := (accounted (fun s : list item => s) (@NoDup Z)).
Local Notation sbal := (bal (fun s : list item => s)).

Lemma sa_sadd_run : forall x s g,
  sa_sadd x (s, g) = (Ok tt, (set_add x s, g ++ [if mem x s then ESame x else EAdd x])).
Proof. intros. unfold sa_sadd, bind, get, b_set, lift. cbn [fst snd]. destruct (mem x s); reflexivity. Qed.

Lemma sa_sdiscard_run : forall x s g,
  sa_sdiscard x (s, g) = (Ok tt, (set_discard x s, if mem x s then g ++ [ERem x] else g)).
Proof. intros. unfold sa_sdiscard, bind, get, b_set, lift. cbn [fst snd]. destruct (mem x s); reflexivity. Qed.

Lemma sa_sremove_run : forall x s g,
  sa_sremove x (s, g) = if mem x s then (Ok tt, (set_discard x s, g ++ [ERem x]))
                        else (Raise KeyError, (s, g)).
Proof.
  intros. unfold sa_sremove, bind, get, lift. cbn [fst snd].
  destruct (mem x s) eqn:E; unfold fire, ret; cbn [fst snd]; rewrite E; reflexivity.
Qed.

Lemma sa_spop_run : forall s g,
  sa_spop ord (s, g) = match ord s with
                       | [] => (Raise KeyError, (s, g))
                       | x :: _ => (Ok x, (set_discard x s, g ++ [ERem x]))
                       end.
Proof. intros. unfold sa_spop, bind, lift, fire, ret. cbn [fst snd]. destruct (ord s); reflexivity. Qed.

Lemma acc_sadd : forall x, acc (sa_sadd x).
Proof.
  intros x [s g] r s' N H. rewrite sa_sadd_run in H. inv H. cbn [fst] in *.
  split; [apply set_add_NoDup, N|]. intro z. unfold set_add. destruct (mem x s).
  - apply bal_same.
  - apply (bal_exchange _ _ z s g _ [] [x]), Permutation_cons_append.
Qed.

Lemma removed_ok : forall x s g, NoDup s -> mem x s = true ->
  NoDup (set_discard x s) /\ forall z, sbal z (set_discard x s, g ++ [ERem x]) = sbal z (s, g).
Proof.
  intros x s g N E. split; [apply set_discard_NoDup, N|]. intro z.
  apply (bal_removed _ _ z s g _ [x]), set_discard_perm; [exact N|apply mem_In, E].
Qed.

Lemma acc_sdiscard : forall x, acc (sa_sdiscard x).
Proof.
  intros x [s g] r s' N H. rewrite sa_sdiscard_run in H. inv H. cbn [fst] in *.
  destruct (mem x s) eqn:E; [apply removed_ok; assumption|].
  rewrite set_discard_absent by assumption. auto.
Qed.

Lemma acc_sremove : forall x, acc (sa_sremove x).
Proof.
  intros x [s g] r s' N H. rewrite sa_sremove_run in H. cbn [fst] in N.
  destruct (mem x s) eqn:E; inv H; [apply removed_ok; assumption|auto].
Qed.

Lemma acc_spop : acc (sa_spop ord).
Proof.
  intros [s g] r s' N H. rewrite sa_spop_run in H. cbn [fst] in N.
  destruct (ord s) as [|x t] eqn:E; inv H; [auto|]. apply removed_ok; [assumption|].
  apply mem_In, ord_In. rewrite E. left; reflexivity.
Qed.

Lemma acc_sclear : acc (sa_sclear ord).
Proof.
  unfold sa_sclear. apply acc_bind; [apply acc_get|]. intro s. apply acc_for_each, acc_sremove.
Qed.

Lemma acc_iter_self : forall body n xs, (forall x, acc (body x)) -> acc (iter_self n xs body).
Proof.
  intros body n xs Hb. induction xs as [|x xs IH]; cbn [iter_self];
    (apply acc_bind; [apply acc_get|]); intro s; (destruct (negb _); [apply acc_raise|]).
  - apply acc_ret.
  - apply acc_bind; [apply Hb|]. intros _. exact IH.
Qed.

Lemma acc_sa_iter : forall a body, (forall x, acc (body x)) -> acc (sa_iter ord a body).
Proof.
  intros a body Hb. unfold sa_iter. apply acc_bind; [apply acc_get|]. intro s.
  destruct a; [apply acc_for_each, Hb|apply acc_for_each, Hb|apply acc_iter_self, Hb|apply acc_raise].
Qed.

Lemma acc_swant : forall f a, acc (sa_swant ord f a).
Proof.
  intros f a. unfold sa_swant. apply acc_bind; [apply acc_get|]. intro s.
  destruct (arg_items ord s a); [|apply acc_raise].
  apply acc_bind; [apply acc_for_each, acc_sremove|]. intros _. apply acc_for_each, acc_sadd.
Qed.

Lemma acc_inplace : forall a m, acc m -> acc (sa_inplace a m).
Proof.
  intros a m H. unfold sa_inplace. destruct (is_setlike a); [|apply acc_ret].
  apply (acc_then_ret _ _ _ _ _ _ (fun _ => RSelf)), H.
Qed.

Lemma acc_set_op : forall op, acc (sa_set_op ord op).
Proof.
  pose proof (fun a => acc_sa_iter a _ acc_sadd : acc (sa_supdate ord a)).
  pose proof (fun a => acc_sa_iter a _ acc_sdiscard : acc (sa_sdiffupdate ord a)).
  destruct op; cbn [sa_set_op]; try apply acc_inplace;
    try apply (acc_then_ret _ _ _ _ _ _ (fun _ => RNone)); try apply (acc_then_ret _ _ _ _ _ _ RItem);
    auto using acc_sadd, acc_sdiscard, acc_sremove, acc_spop, acc_sclear, acc_swant.
Qed.

Theorem set_op_accounted : forall op s g r s' g',
  NoDup s -> sa_set_op ord op (s, g) = (r, (s', g')) ->
  NoDup s' /\ forall x, countZ x s' - countZ x s = net x g' - net x g.
Proof. intros op s g r s' g'. apply (accounted_delta _ _ _ _ _ _ _ _ _ _ (acc_set_op op)). Qed.

Lemma sadd_loop : forall xs s g,
  exists g', for_each xs sa_sadd (s, g) = (Ok tt, (set_union s xs, g')).
Proof.
  induction xs as [|x xs IH]; intros; cbn [for_each]; [eexists; reflexivity|].
  unfold bind. rewrite sa_sadd_run, set_union_cons. apply IH.
Qed.

Lemma sdiscard_loop : forall xs s g,
  exists g', for_each xs sa_sdiscard (s, g) = (Ok tt, (set_diff s xs, g')).
Proof.
  induction xs as [|x xs IH]; intros; cbn [for_each].
  - rewrite set_diff_nil. eexists; reflexivity.
  - unfold bind. rewrite sa_sdiscard_run, <- set_diff_cons. apply IH.
Qed.

Lemma sremove_loop : forall xs s g, NoDup xs -> (forall x, In x xs -> In x s) ->
  exists g', for_each xs sa_sremove (s, g) = (Ok tt, (set_diff s xs, g')).
Proof.
  induction xs as [|x xs IH]; intros s g N Hin; cbn [for_each].
  - rewrite set_diff_nil. eexists; reflexivity.
  - inv N. unfold bind. rewrite sa_sremove_run, (proj2 (mem_In x s) (Hin x (or_introl eq_refl))).
    rewrite <- set_diff_cons. apply IH; [assumption|].
    intros y Hy. apply set_discard_In. split; [apply Hin; right; assumption|].
    intro. subst. contradiction.
Qed.

(* iterating the collection itself while re-adding its own members: the size never changes *)
Lemma iter_self_add : forall xs s g, (forall x, In x xs -> In x s) ->
  exists g', iter_self (length s) xs sa_sadd (s, g) = (Ok tt, (s, g')).
Proof.
  induction xs as [|x xs IH]; intros s g Hin; cbn [iter_self]; unfold bind at 1, get at 1; cbn [fst snd];
    rewrite Nat.eqb_refl; cbn [negb].
  - eexists; reflexivity.
  - unfold bind. rewrite sa_sadd_run, set_add_member by (apply Hin; left; reflexivity).
    apply IH. intros; apply Hin; right; assumption.
Qed.

(* [m] does to the contents what the builtin's bulk operation [f] does with argument [a], up to
   order; a non-iterable argument is refused before anything is touched *)
Definition bulk_ok (m : SM unit) (a : sarg) (f : list item -> list item -> list item) s g : Prop :=
  match arg_items ord s a with
  | None => exists g', m (s, g) = (Raise TypeError, (s, g'))
  | Some o => exists s1 g', m (s, g) = (Ok tt, (s1, g')) /\ Permutation s1 (f s o)
  end.

(* `for item in value: body(item)`: enough that the loop computes [f] over any list of items and
   over the collection's own members while it is being iterated *)
Lemma sa_iter_ok : forall body f a s g,
  (forall xs s g, exists g', for_each xs body (s, g) = (Ok tt, (f s xs, g'))) ->
  (a = ASelf -> exists g', iter_self (length s) (ord s) body (s, g) = (Ok tt, (f s (ord s), g'))) ->
  bulk_ok (sa_iter ord a body) a f s g.
Proof.
  intros body f a s g Hl Hs. unfold bulk_ok.
  destruct a as [v|v| |]; cbn [arg_items]; unfold sa_iter, bind at 1, get at 1; cbn [fst snd].
  - destruct (Hl (ord v) s g) as [g' E]. do 2 eexists. split; [exact E|reflexivity].
  - destruct (Hl v s g) as [g' E]. do 2 eexists. split; [exact E|reflexivity].
  - destruct (Hs eq_refl) as [g' E]. do 2 eexists. split; [exact E|reflexivity].
  - eexists. reflexivity.
Qed.

Lemma supdate_eq : forall a s g, bulk_ok (sa_supdate ord a) a set_union s g.
Proof.
  intros a s g. apply sa_iter_ok; [apply sadd_loop|]. intros _.
  rewrite set_union_members by (intros x; apply ord_In). apply iter_self_add. intros x; apply ord_In.
Qed.

(* s -= s changes its size under its own iterator, except when there is nothing to iterate *)
Lemma sdiffupdate_eq : forall a s g, (a = ASelf -> s = []) ->
  bulk_ok (sa_sdiffupdate ord a) a set_diff s g.
Proof.
  intros a s g Hg. apply sa_iter_ok; [apply sdiscard_loop|]. intro E.
  rewrite (Hg E), ord_nil. eexists. reflexivity.
Qed.

(* intersection_update / symmetric_difference_update: the remove / add loops reach [want] *)
Lemma swant_eq : forall f a s g, NoDup s -> (forall o, NoDup (f s o)) ->
  bulk_ok (sa_swant ord f a) a f s g.
Proof.
  intros f a s g N Nf. unfold bulk_ok.
  destruct (arg_items ord s a) as [o|] eqn:Ea; unfold sa_swant, bind at 1, get at 1; cbn [fst snd];
    rewrite Ea; [|eexists; reflexivity].
  set (want := f s o). set (rm := set_diff s want). set (ad := set_diff want s).
  destruct (sremove_loop (ord rm) s g) as [g1 E1].
  { apply ord_NoDup, NoDup_filter. assumption. }
  { intros x Hx. apply ord_In, set_diff_In in Hx. tauto. }
  destruct (sadd_loop (ord ad) (set_diff s (ord rm)) g1) as [g2 E2].
  unfold bind. rewrite E1, E2. do 2 eexists. split; [reflexivity|].
  apply NoDup_Permutation.
  - apply set_union_NoDup, NoDup_filter. assumption.
  - apply Nf.
  - intro y. rewrite set_union_In, set_diff_In, !ord_In. unfold rm, ad. rewrite !set_diff_In.
    fold want. destruct (in_dec Z.eq_dec y s); destruct (in_dec Z.eq_dec y want); tauto.
Qed.

Definition sagrees (r : res retv * st (list item)) (p : res retv * list item) : Prop :=
  fst r = fst p /\ Permutation (fst (snd r)) (snd p).

Lemma bulk_finish : forall (m : SM unit) a f rv s g, bulk_ok m a f s g ->
  sagrees ((m ;;; ret rv) (s, g))
          (match arg_items ord s a with None => (Raise TypeError, s) | Some o => (Ok rv, f s o) end).
Proof.
  intros m a f rv s g H. unfold bulk_ok in H. unfold sagrees, bind.
  destruct (arg_items ord s a); [destruct H as [s1 [g' [E P]]]|destruct H as [g' E]]; rewrite E; auto.
Qed.

Theorem set_op_eq_python : forall op s g, NoDup s -> set_eq_guard s op = true ->
  sagrees (sa_set_op ord op (s, g)) (py_set_op ord s op).
Proof.
  intros op s g N Hg.
  pose proof (fun a => swant_eq set_inter a s g N (fun o => set_inter_NoDup s o N)) as Hi.
  pose proof (fun a => swant_eq set_symdiff a s g N (fun o => set_symdiff_NoDup s o N)) as Hx.
  destruct op; cbn [sa_set_op py_set_op]; unfold sa_inplace;
    try (destruct (is_setlike a); [|split; reflexivity]); try unfold bind at 1.
  - rewrite sa_sadd_run. split; reflexivity.
  - rewrite sa_sdiscard_run. split; reflexivity.
  - rewrite sa_sremove_run. destruct (mem x s); split; reflexivity.
  - rewrite sa_spop_run. destruct (ord s); split; reflexivity.
  - unfold sa_sclear, bind, get. cbn [fst snd].
    destruct (sremove_loop (ord s) s g) as [g' E]; [apply ord_NoDup, N|intro; apply ord_In|].
    rewrite E. split; [reflexivity|]. cbn [fst snd].
    (* nothing of s is outside ord s *)
    destruct (set_diff s (ord s)) as [|y t] eqn:D; [reflexivity|].
    assert (Hy : In y (set_diff s (ord s))) by (rewrite D; left; reflexivity).
    apply set_diff_In in Hy. rewrite ord_In in Hy. tauto.
  - apply bulk_finish, supdate_eq.
  - apply bulk_finish, sdiffupdate_eq. intros ->. destruct s; [reflexivity|discriminate].
  - apply bulk_finish, Hi.
  - apply bulk_finish, Hx.
  - apply bulk_finish, supdate_eq.
  - apply bulk_finish, sdiffupdate_eq. intros ->. destruct s; [reflexivity|discriminate].
  - apply bulk_finish, Hi.
  - apply bulk_finish, Hx.
Qed.

(* Which member set.pop() takes is the builtin's choice, so a history of the instrumented set is
   compared with the builtin step by step, from the state reached. *)
Fixpoint sa_set_trace (ops : list sop) (s : st (list item)) :
  list (list item * sop * res retv * list item) :=
  match ops with
  | [] => []
  | op :: r => match sa_set_op ord op s with
               | (x, s') => (fst s, op, x, fst s') :: sa_set_trace r s'
               end
  end.

Definition set_step_ok (t : list item * sop * res retv * list item) : Prop :=
  let '(s0, op, x, s1) := t in
  NoDup s0 /\ NoDup s1 /\
  (set_eq_guard s0 op = true ->
   x = fst (py_set_op ord s0 op) /\ Permutation s1 (snd (py_set_op ord s0 op))).

Theorem set_history_eq_python : forall ops s g, NoDup s ->
  Forall set_step_ok (sa_set_trace ops (s, g)).
Proof.
  induction ops as [|op r IH]; intros s g N; cbn [sa_set_trace]; [constructor|].
  pose proof (set_op_eq_python op s g N) as A.
  destruct (sa_set_op ord op (s, g)) as [x [s1 g1]] eqn:E.
  destruct (set_op_accounted op s g x s1 g1 N E) as [N1 _].
  constructor; [|apply IH; assumption]. repeat split; try assumption; apply A; assumption.
Qed.

Theorem set_history_accounted : forall ops s g, NoDup s ->
  let '(_, (s', g')) := sa_set_run ord ops (s, g) in
  NoDup s' /\ forall x, countZ x s' - countZ x s = net x g' - net x g.
Proof.
  intros ops s g N.
  apply (run_accounted _ _ (fun s => s) (@NoDup Z) (sa_set_op ord) (fun _ _ => true));
    [intros op c g0 r c' g' _; apply set_op_accounted|apply guarded_true|exact N].
Qed.

End Ord.
