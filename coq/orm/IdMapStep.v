(* C34 - a state predicate preserved by the few state transformers the operations are built from ([stable])
   is preserved by flush, by every operation and along every history; both invariants of C34 are instances *)
From Coq Require Import List ZArith Bool Arith Lia.
Import ListNotations.
From SAV.orm Require Import IdMap IdMapSpec IdMapLemmas.
Open Scope Z_scope.

Lemma autobegin_get : forall st i, get (autobegin st) i = get st i.
Proof. intros. unfold get, autobegin. destruct (tx st); reflexivity. Qed.
Lemma autobegin_deact : forall st, is_deact (autobegin st) = is_deact st.
Proof. intros. unfold is_deact, autobegin. destruct (tx st) eqn:E; simpl; rewrite ?E; reflexivity. Qed.
Lemma autobegin_active : forall st, is_deact (autobegin st) = false -> tx (autobegin st) = Some false.
Proof. intros st. rewrite autobegin_deact. unfold is_deact, autobegin. destruct (tx st) as [[]|] eqn:E; simpl; congruence. Qed.

Lemma organize_one_cases : forall e d rws st p,
  fst (organize_one e d rws st p) = FOk st rws \/ fst (organize_one e d rws st p) = FFail st 7 \/
  exists ex, fst (organize_one e d rws st p) =
             FOk (flag_bad true (app_all (only ex (newly_deleted_obj (has_tx st))) st)) rws.
Proof.
  intros. unfold organize_one. destruct (holder _ st) as [ex|]; simpl; auto.
  destruct (_ && _ && _); simpl; auto. destruct (_ && _); simpl; eauto.
Qed.

(* [P] of the state in the result; a failure carries an error code *)
Definition fres_has (P : state -> Prop) (r : fres) : Prop :=
  match r with FOk s _ => P s | FFail s c => P s /\ c <> 0 end.

Lemma organize_pres : forall (P : state -> Prop) e d rws,
  (forall ex s, P s -> P (flag_bad true (app_all (only ex (newly_deleted_obj (has_tx s))) s))) ->
  forall ps st, P st -> fres_has P (fst (organize e d rws st ps)).
Proof.
  intros P e d rws Hs. induction ps as [|p r IH]; intros st HP; simpl; auto.
  destruct (inew (get st p)); auto.
  destruct (organize_one_cases e d rws st p) as [E|[E|[ex E]]];
    destruct (organize_one e d rws st p) as [r1 rs]; simpl in E; subst r1; simpl.
  - specialize (IH st HP). destruct (organize e d rws st r). exact IH.
  - split; [exact HP|discriminate].
  - specialize (IH _ (Hs ex st HP)). destruct (organize e d rws _ r). exact IH.
Qed.

(* organize keeps the transaction; if it leaves the ghost flag down it has changed no object *)
Lemma organize_frame : forall e d rws ps st,
  fres_has (fun s => tx s = tx st /\ (bad s = false -> objs s = objs st)) (fst (organize e d rws st ps)).
Proof.
  intros. apply organize_pres; auto. intros ex s [T _]. split; [exact T|].
  simpl. rewrite orb_true_r. discriminate.
Qed.

Lemma flush_db_code : forall e st0 dirty rsw rws c, flush_db e st0 dirty rsw rws = inl c -> c <> 0.
Proof.
  intros e st0 dirty rsw rws c. unfold flush_db.
  assert (U : forall ds r c, do_updates st0 ds r = inl c -> c <> 0).
  { induction ds; simpl; intros r c0 H; [discriminate|].
    destruct (Z.eqb (key_pk (get st0 a)) (pk (get st0 a))); eauto.
    destruct (negb (memz (key_pk (get st0 a)) r)); [inversion H; lia|].
    destruct (memz (pk (get st0 a)) r); [inversion H; lia|eauto]. }
  assert (N : forall ps rs r c, do_inserts st0 rs ps r = inl c -> c <> 0).
  { induction ps; simpl; intros rs r c0 H; [discriminate|].
    destruct (inew (get st0 a) && negb (memn a rs)); eauto.
    destruct (memz (pk (get st0 a)) r); [inversion H; lia|eauto]. }
  destruct (do_updates st0 (sort_by_key st0 dirty) rws) eqn:E1; [intro H; inversion H; subst; eauto|].
  destruct (do_inserts st0 (map fst rsw) (all_idx st0) l) eqn:E2; [intro H; inversion H; subst; eauto|].
  destruct (delete_loads_ok e st0 (map snd rsw) l0); intro H; inversion H. lia.
Qed.

Lemma finalize_tx : forall st0 reg st, tx (finalize st0 reg st) = tx st.
Proof.
  intros. unfold finalize. apply (fold_left_inv (fun s => tx s = tx st)); auto.
  intros i s H. destruct (reg i); exact H.
Qed.

Lemma memn_filter : forall (f : nat -> bool) l i, memn i (filter f l) = true -> f i = true.
Proof.
  intros f l i H. apply existsb_exists in H as [x [Hx E]]. apply Nat.eqb_eq in E. subst x.
  apply filter_In in Hx. tauto.
Qed.

Lemma flush_code0_deact : forall e st, snd (fst (flush e st)) = 0 -> is_deact (fst (fst (flush e st))) = is_deact st.
Proof.
  intros e st. unfold flush. destruct (is_clean e st); auto.
  destruct (is_deact (autobegin st)) eqn:Ed; [simpl; intro; discriminate|].
  rewrite <- (autobegin_deact st), Ed. apply autobegin_active in Ed.
  set (st0' := app_all _ (set_flushed true (autobegin st))).
  pose proof (organize_frame e (fun d => isdel (get st0' d)) (rows e) (all_idx st0') st0') as OF.
  assert (Hfail : forall st1 c, c <> 0 ->
            snd (fst (let (st2, c2) := restore_snapshot (set_tx (Some true) st1) in
                      (st2, if Z.eqb c2 0 then c else c2, rows e))) <> 0).
  { intros st1 c Hc. destruct (restore_snapshot _) as [s2 c2]. simpl. destruct (Z.eqb_spec c2 0); congruence. }
  destruct (organize e _ (rows e) st0' (all_idx st0')) as [[st1 rw|st1 c] rsw]; simpl in OF.
  - destruct (flush_db e st0' _ rsw (rows e)) eqn:Ef.
    + apply flush_db_code in Ef. intro H. exfalso. eapply Hfail; eauto.
    + simpl. intros _. unfold is_deact. rewrite finalize_tx. destruct OF as [-> _]. change (tx st0') with (tx (autobegin st)).
      rewrite Ed. reflexivity.
  - intro H. exfalso. apply (Hfail st1 c); tauto.
Qed.

(* _restore_snapshot: after its first pass nothing is pending, and what was added in the transaction is
   detached; the key-switch loop keeps that *)
Definition new_is_detached (o : obj) : bool := negb (inew o) && implb (itnew o) (negb (osess o)).
Definition detached_new (st : state) : Prop := SP (fun _ => new_is_detached) st.

Lemma restore_expunge_dn : forall h st, detached_new (app_all (fun _ => restore_expunge_obj h) st).
Proof. intros h st k o' Hk. apply app_all_inv_nth in Hk as [o [_ ->]]. destruct h; flags o. Qed.

Lemma unswitch_one_dn : forall i st, detached_new st -> detached_new (unswitch_one i st).
Proof.
  intros i st HN. unfold unswitch_one. destruct (oksw (get st i)) as [old|]; auto.
  destruct (itnew (get st i)); auto.
  apply (SP_app_all (fun _ => new_is_detached)); auto. intros k o _. unfold claiming.
  destruct (Nat.eqb k i); [|destruct (_ && _)]; flags o.
Qed.

Lemma restore_snapshot_pres : forall (P : state -> Prop) st,
  P (app_all (fun _ => restore_expunge_obj (has_tx st)) st) ->
  (forall i s, P s -> detached_new s -> P (unswitch_one i s)) ->
  (forall i s, P s -> P (fst (revert_impl i s))) ->
  (forall s, P s -> P (app_all (fun _ o => if iimap o then expire_obj o else o) s)) ->
  P (fst (restore_snapshot st)).
Proof.
  intros P st H1 Hu Hr He. unfold restore_snapshot.
  set (st1 := app_all (fun _ => restore_expunge_obj (has_tx st)) st) in *.
  set (st2 := fold_left (fun st i => unswitch_one i st) (all_idx st1) st1).
  assert (H2 : P st2 /\ detached_new st2).
  { apply (fold_left_inv (fun s => P s /\ detached_new s)).
    - intros i s [A B]. split; [apply Hu; auto|apply unswitch_one_dn; auto].
    - split; [exact H1|apply restore_expunge_dn]. }
  pose proof (fold_err_inv P (fun i st => if itdel (get st i) || isdel (get st i) then revert_impl i st else (st, 0))
                (all_idx st2) st2) as H3.
  destruct (fold_err _ (all_idx st2) st2) as [st3 c]. simpl in H3.
  assert (H3' : P st3).
  { apply H3; [|tauto]. intros i s Hs. destruct (itdel (get s i) || isdel (get s i)); auto. }
  destruct (Z.eqb c 0); simpl; auto.
Qed.

Lemma load_rows_pres : forall (P : state -> Prop), (forall k st, P st -> P (fst (load_row k st))) ->
  forall tok pks st, P st -> P (fst (load_rows tok pks st)).
Proof.
  intros P Hl tok. induction pks as [|k r IH]; intros st HP; simpl; auto.
  pose proof (Hl (k, tok) st HP) as H1. destruct (load_row (k, tok) st) as [st1 h]. simpl in H1.
  specialize (IH st1 H1). destruct (load_rows tok r st1). exact IH.
Qed.

(* The state transformers that the operations are composed of, each under the facts its caller has at
   that point.  [only i g] is [fun j o => if Nat.eqb j i then g o else o], so [st_expire] covers refresh too. *)
Set Implicit Arguments.
Record stable (P : state -> Prop) : Prop := {
  st_flushed : forall b st, P st -> P (set_flushed b st);
  st_autobegin : forall st, P st -> P (autobegin st);
  st_deact : forall st, P st -> P (set_tx (Some true) st);
  st_end_tx : forall st, P st -> P (end_tx st);
  st_new : forall k st, P st -> P (add_obj (new_obj k) st);
  st_load_row : forall k st, P st -> P (fst (load_row k st));
  st_save : forall i st, P st -> P (fst (save_impl i st));
  st_update : forall i st, P st -> P (fst (update_impl i st));
  st_delete : forall i st, P st -> P (fst (delete_impl i st));
  st_set_pk : forall i v st, P st -> P (app_all (only i (set_pk v)) st);
  st_expire : forall (c : nat -> bool) st, P st -> P (app_all (fun i o => if c i then expire_obj o else o) st);
  st_expunge : forall i st, P st -> P (app_all (only i (expunge_obj (has_tx st) false)) st);
  st_gone : forall i h st, P st -> P (flag_bad true (app_all (only i (newly_deleted_obj h)) st));
  st_commit : forall st, is_deact st = false -> P st ->
    P (app_all (fun _ o => let o1 := if iimap o then expire_obj o else o in
                           if itdel o1 then detach_obj false o1 else o1) st);
  st_restore : forall st, tx st = Some true -> P st -> P (fst (restore_snapshot st));
  (* finalize_flush_changes, with what flush knows at that point: the transaction is active, organize has
     changed no object unless it raised the flag, and what gets registered was pending or mapped and dirty *)
  st_finalize : forall st0 reg st, P st -> tx st = Some false -> (bad st = false -> objs st = objs st0) ->
    (forall i, reg i = true -> inew (get st0 i) || iimap (get st0 i) && negb (isdel (get st0 i)) = true) ->
    P (finalize st0 reg st) }.
Unset Implicit Arguments.

Section Stable.
Variable P : state -> Prop.
Hypothesis HS : stable P.

Lemma flush_pres : forall e st, P st -> P (fst (fst (flush e st))).
Proof.
  intros e st HP. unfold flush. destruct (is_clean e st); simpl; auto.
  pose proof (st_autobegin HS st HP) as H0.
  destruct (is_deact (autobegin st)) eqn:Ed; simpl; auto. apply autobegin_active in Ed.
  set (st0 := set_flushed true (autobegin st)).
  set (st0' := app_all (fun i o => if is_dirty e st0 i && negb (ehasid e i) then expire_obj o else o) st0).
  assert (H1 : P st0') by (apply (st_expire HS), (st_flushed HS), H0).
  assert (Hfail : forall st1 c, P st1 ->
            P (fst (fst (let (st2, c2) := restore_snapshot (set_tx (Some true) st1) in
                         (st2, if Z.eqb c2 0 then c else c2, rows e))))).
  { intros st1 c A. pose proof (st_restore HS (set_tx (Some true) st1) eq_refl (st_deact HS st1 A)) as R.
    destruct (restore_snapshot _). exact R. }
  pose proof (organize_pres P e (fun d => isdel (get st0' d)) (rows e) (fun ex s => st_gone HS ex _ s)
                (all_idx st0') st0' H1) as H2.
  pose proof (organize_frame e (fun d => isdel (get st0' d)) (rows e) (all_idx st0') st0') as F2.
  destruct (organize e _ (rows e) st0' (all_idx st0')) as [[st1 rw|st1 c] rsw]; simpl in H2, F2.
  - destruct (flush_db e st0' _ rsw (rows e)); [apply Hfail; auto|]. simpl. destruct F2 as [T2 O2].
    apply (st_finalize HS); auto.
    + rewrite T2. exact Ed.
    + intros i Hr. apply orb_prop in Hr as [Hr|Hr]; [rewrite Hr; reflexivity|].
      apply memn_filter in Hr. unfold is_dirty in Hr. apply andb_prop in Hr as [Hr _].
      rewrite Hr. apply orb_true_r.
  - apply Hfail. tauto.
Qed.

Lemma sql_pres : forall e st, P st -> P (fst (fst (sql e st))).
Proof.
  intros e st HP. unfold sql. pose proof (flush_pres e st HP) as H1.
  destruct (flush e st) as [[st1 c] rws]. simpl in H1. destruct (Z.eqb c 0); simpl; auto.
  pose proof (st_autobegin HS st1 H1). destruct (is_deact (autobegin st1)); simpl; auto.
Qed.

Lemma do_query_pres : forall e tok st, P st -> P (rst (do_query e tok st)).
Proof.
  intros e tok st HP. unfold do_query. pose proof (sql_pres e st HP) as H1.
  destruct (sql e st) as [[st1 c] rws]. simpl in H1. destruct (Z.eqb c 0); simpl; auto.
  pose proof (load_rows_pres P (st_load_row HS) tok (sort_z rws) st1 H1). destruct (load_rows tok (sort_z rws) st1). auto.
Qed.

Lemma get_miss_pres : forall e k st, P st -> P (rst (get_miss e k st)).
Proof.
  intros e k st HP. unfold get_miss. pose proof (sql_pres e st HP) as H1.
  destruct (sql e st) as [[st1 c] rws]. simpl in H1. destruct (Z.eqb c 0); simpl; auto.
  destruct (memz (fst k) rws); simpl; auto.
  pose proof (st_load_row HS k st1 H1). destruct (load_row k st1). auto.
Qed.

Lemma do_get_pres : forall e k st, P st -> P (rst (do_get e k st)).
Proof.
  intros e k st HP. unfold do_get. destruct (holder k st) as [h|]; [|apply get_miss_pres; auto].
  destruct (negb (eexp e h)); simpl; auto. destruct (negb (eidexp e h)); simpl; auto.
  destruct (negb (osess (get st h))); simpl; auto.
  pose proof (sql_pres e st HP) as H1. destruct (sql e st) as [[st1 c] rws]. simpl in H1.
  assert (Hg : P (rst (get_miss (with_rows e rws) k
                         (flag_bad true (app_all (only h (newly_deleted_obj (has_tx st1))) st1)))))
    by (apply get_miss_pres, (st_gone HS), H1).
  destruct (Z.eqb c 5); auto. destruct (Z.eqb c 0); simpl; auto.
  destruct (negb (memz (key_pk (get st1 h)) rws)); simpl; auto.
  destruct (odel (get st1 h)); simpl; auto.
  destruct (holder k st1); simpl; auto. apply get_miss_pres; auto.
Qed.

Lemma do_refresh_pres : forall e i st, P st -> P (rst (do_refresh e i st)).
Proof.
  intros e i st HP. unfold do_refresh. destruct (negb (iimap (get st i))); simpl; auto.
  pose proof (flush_pres (refresh_env e i) _ (st_expire HS (fun j => Nat.eqb j i) st HP)) as H1.
  change (app_all _ st) with (app_all (only i expire_obj) st) in H1.
  destruct (flush (refresh_env e i) (app_all (only i expire_obj) st)) as [[st1 c] rws]. simpl in H1.
  destruct (Z.eqb c 0); simpl; auto.
  pose proof (st_autobegin HS st1 H1). destruct (is_deact (autobegin st1)); simpl; auto.
  destruct (okey (get (autobegin st1) i)); simpl; auto. destruct (memz (fst k) rws); simpl; auto.
Qed.

Lemma do_merge_pres : forall e i st, P st -> P (rst (do_merge e i st)).
Proof.
  intros e i st HP. unfold do_merge. pose proof (flush_pres e st HP) as H1.
  destruct (flush e st) as [[st1 c] rws]. simpl in H1. destruct (Z.eqb c 0); simpl; auto.
  pose proof (st_autobegin HS st1 H1) as HA. pose proof (st_set_pk HS) as Hp.
  set (k := match okey (get st1 i) with Some k => k | None => (pk (get st1 i), otok (get st1 i)) end).
  destruct (holder k st1) as [m|].
  - destruct (Nat.eqb m i || negb (ehasid e i)); simpl; auto.
    destruct (eidexp e m && _); simpl; auto.
    destruct (negb (osess (get st1 m))); simpl; auto.
    destruct (is_deact (autobegin st1)); simpl; auto.
    destruct (negb (memz (key_pk (get (autobegin st1) m)) rws)); simpl; auto.
  - destruct (is_deact (autobegin st1)); simpl; auto.
    destruct (memz (fst k) rws).
    + pose proof (st_load_row HS k _ HA) as HL. destruct (load_row k (autobegin st1)) as [st2 m]. simpl in *.
      destruct (ehasid e i); auto.
    + pose proof (st_save HS (length (objs (autobegin st1))) _ (st_new HS (pk (get st1 i)) _ HA)) as H2.
      destruct (save_impl _ _). exact H2.
Qed.

Lemma do_commit_pres : forall e st, P st -> P (rst (do_commit e st)).
Proof.
  intros e st HP. unfold do_commit. pose proof (st_autobegin HS st HP) as H0.
  destruct (is_deact (autobegin st)) eqn:Ed; simpl; auto.
  pose proof (flush_pres e _ H0) as H1. pose proof (flush_code0_deact e (autobegin st)) as HD.
  destruct (flush e (autobegin st)) as [[st1 c] rws]. simpl in *.
  destruct (Z.eqb_spec c 0); simpl; auto. subst c. specialize (HD eq_refl). rewrite Ed in HD.
  apply (st_end_tx HS). destruct (eoc st1); auto. apply (st_commit HS); auto.
Qed.

Lemma do_rollback_pres : forall e st, P st -> P (rst (do_rollback e st)).
Proof.
  intros e st HP. unfold do_rollback. pose proof (st_end_tx HS) as HE.
  destruct (tx st) as [[]|] eqn:Et; simpl; auto.
  - destruct (is_clean e st); simpl; auto.
    pose proof (st_restore HS st Et HP) as HR. destruct (restore_snapshot st) as [s c]. simpl in *.
    destruct (Z.eqb c 0); simpl; auto.
  - pose proof (st_restore HS (set_tx (Some true) st) eq_refl (st_deact HS st HP)) as HR.
    destruct (restore_snapshot _) as [s c]. simpl in *. destruct (Z.eqb c 0); simpl; auto.
Qed.

Lemma step_pres : forall e o st, P st -> P (rst (step e o st)).
Proof.
  intros e o st HP0. pose proof (st_flushed HS false st HP0) as HP.
  unfold step. destruct o; simpl.
  - apply do_query_pres; auto.
  - apply do_get_pres; auto.
  - apply do_refresh_pres; auto.
  - apply do_merge_pres; auto.
  - destruct (negb (osess (get (set_flushed false st) i))); simpl; auto. apply (st_expunge HS _ _ HP).
  - destruct (okey (get (set_flushed false st) i)); [apply (st_update HS)|apply (st_save HS)]; auto.
  - destruct (_ && _); simpl; auto. apply (st_set_pk HS); auto.
  - pose proof (flush_pres e _ HP). destruct (flush e (set_flushed false st)) as [[s c] r]. auto.
  - apply do_commit_pres; auto.
  - apply do_rollback_pres; auto.
  - apply (st_delete HS); auto.
  - auto.
Qed.

Lemma run_pres : forall h st, P st -> P (run h st).
Proof.
  induction h as [|[e o] r IH]; intros st HP; simpl; auto.
  destruct (stop e st); auto. pose proof (step_pres e o st HP) as H1.
  destruct o; auto. destruct (negb (Z.eqb (rerr (step e Rollback st)) 0)); auto.
Qed.
End Stable.
