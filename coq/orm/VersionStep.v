(* C44: the outcomes of a flush; every step of every session preserves the invariant *)
From Coq Require Import List ZArith NArith Bool Arith Lia.
Import ListNotations.
From SAV.orm Require Import Version VersionBase VersionInv.
Open Scope Z_scope.

Section SaneRowcount.
Variables (server sane_multi : bool) (eoc : nat -> bool) (g : Z -> Z).
(* supports_sane_rowcount = true from here on: without it a flush verifies nothing (VersionWitness.no_sane_rowcount_unchecked) *)
Notation stepT := (step server true sane_multi eoc g).
Notation flushT := (flush server true sane_multi g).
Notation del_checkT := (del_check true sane_multi).

Lemma post_ent_eq : forall w k e, post_ent server g w (k, e) =
  if edel e then None
  else Some (k, {| ex := if is_upd e then pend_of e else ex e;
                   ev := if is_upd e && (matches w k (ev e) || negb server) then g (ev e) else ev e;
                   epend := None; edel := false |}).
Proof. intros. unfold post_ent. destruct (edel e), (is_upd e); reflexivity. Qed.

Lemma post_ents_In : forall w k e' es, In (k, e') (post_ents server g w es) ->
  exists e, In (k, e) es /\ edel e = false /\
    e' = {| ex := if is_upd e then pend_of e else ex e;
            ev := if is_upd e && (matches w k (ev e) || negb server) then g (ev e) else ev e;
            epend := None; edel := false |}.
Proof.
  induction es as [|[k0 e0] t IH]; cbn [post_ents In]; [tauto|]. rewrite post_ent_eq.
  destruct (edel e0) eqn:Ed; [intros H|intros [E|H]];
    [|injection E as -> <-; exists e0; split; [left; reflexivity|split; [exact Ed|reflexivity]]|];
    destruct (IH H) as [e [H1 H2]]; exists e; (split; [right; exact H1|exact H2]).
Qed.

Lemma post_ents_sorted : forall w es, sorted es -> sorted (post_ents server g w es).
Proof.
  induction es as [|[k0 e0] t IH]; cbn [post_ents sorted]; [trivial|]. intros [H1 H2]. rewrite post_ent_eq.
  destruct (edel e0); [apply IH, H2|]. cbn [sorted]. split; [|apply IH, H2].
  rewrite Forall_forall in *. intros [k e'] Hin. apply post_ents_In in Hin. destruct Hin as [e [Hin _]]. apply (H1 _ Hin).
Qed.

(* the rows after the UPDATEs and then the DELETEs of a flush that starts from w *)
Definition flush_rows (w : rows) (es : ents) : rows := fst (run_deletes (fst (run_updates g w (upds es))) (dels es)).

Lemma upd_rows_lookup : forall es w k e, distinct es -> In (k, e) es ->
  lookup k (fst (run_updates g w (upds es))) =
  if is_upd e && matches w k (ev e) then Some {| rx := pend_of e; rv := g (ev e) |} else lookup k w.
Proof.
  intros es w k e D Hin. rewrite (run_lookup (upd_versioned g)) by (apply distinct_filter, D).
  unfold upds. rewrite (lookup_filter _ _ k e es D Hin). cbn [snd]. destruct (is_upd e); reflexivity.
Qed.

(* both rowcounts are those of the rows the flush started from: an instance marked deleted gets no UPDATE *)
Lemma flush_counts : forall es w, distinct es ->
  snd (run_updates g w (upds es)) = mcount w (upds es) /\
  snd (run_deletes (fst (run_updates g w (upds es))) (dels es)) = mcount w (dels es).
Proof.
  intros es w D. rewrite (run_count (upd_versioned g)), (run_count del_versioned) by (apply distinct_filter, D).
  split; [reflexivity|]. apply mcount_ext. intros k e Hin. apply filter_In in Hin. destruct Hin as [Hin Hd]. cbn [snd] in Hd.
  unfold matches. rewrite (upd_rows_lookup es w k e D Hin). unfold is_upd. rewrite Hd. reflexivity.
Qed.

Lemma flush_rows_zero : forall es w, distinct es -> mcount w (upds es) = O -> mcount w (dels es) = O -> flush_rows w es = w.
Proof.
  intros es w D Zu Zd. destruct (flush_counts es w D) as [Cu Cd]. unfold flush_rows.
  rewrite (run_zero del_versioned) by (rewrite Cd; exact Zd). apply (run_zero (upd_versioned g)). rewrite Cu. exact Zu.
Qed.

Lemma flush_rows_lookup : forall es w k e, distinct es -> In (k, e) es ->
  lookup k (flush_rows w es) =
  if matches w k (ev e)
  then if edel e then None else if is_upd e then Some {| rx := pend_of e; rv := g (ev e) |} else lookup k w
  else lookup k w.
Proof.
  intros es w k e D Hin. unfold flush_rows.
  rewrite (run_lookup del_versioned) by (apply distinct_filter, D).
  unfold dels. rewrite (lookup_filter _ _ k e es D Hin). cbn [snd]. unfold matches at 1. rewrite (upd_rows_lookup es w k e D Hin).
  unfold is_upd. destruct (edel e); cbn [negb andb]; [reflexivity|].
  destruct (match epend e with Some p => negb (ceqb p (ex e)) | None => false end), (matches w k (ev e)); reflexivity.
Qed.

Lemma flush_rows_le : (forall v, v < g v) -> forall es w, distinct es -> rows_le w (flush_rows w es).
Proof.
  intros Hg es w D. eapply rows_le_trans; [apply (run_le (upd_versioned g))|apply (run_le del_versioned)];
    try (apply distinct_filter, D); [|discriminate]. intros e b E. injection E as <-. apply Hg.
Qed.

Definition flush_noop (i : nat) (s : state) : state :=
  let se := sget i (sss s) in
  {| sdb := sdb s; sss := sput i {| snap := snap se; sents := post_ents server g [] (sents se); stx := stx se |} (sss s) |}.
Definition flush_done (i : nat) (s : state) (w w2 : rows) (dirty : bool) : state :=
  let se := sget i (sss s) in
  let d := sdb s in
  {| sdb := {| gen := gen d; com := com d; wr := Some (i, w2, dirty) |};
     sss := sput i {| snap := match snap se with Some x => Some x | None => Some (gen d, com d) end;
                      sents := post_ents server g w (sents se); stx := true |} (sss s) |}.

(* what [flush] does (flush_outcome), case by case; es = the instances of session i, w = the rows its statements work on *)
Inductive flush_out (i : nat) (s : state) (es : ents) (w : rows) : state -> res -> Prop :=
| FO_nothing :
    upds es = [] -> dels es = [] ->
    flush_out i s es w (flush_noop i s) ROk
| FO_busy :
    begin_write (sdb s) i (snap (sget i (sss s))) = None ->
    flush_out i s es w (rolled_back s i) RBusy
| FO_stale :
    begin_write (sdb s) i (snap (sget i (sss s))) <> None ->
    mcount w (upds es) <> length (upds es) \/
    (del_checkT (length (dels es)) = true /\ mcount w (dels es) <> length (dels es)) ->
    flush_out i s es w (rolled_back s i) RStale
| FO_ok : forall dirty dirty',
    begin_write (sdb s) i (snap (sget i (sss s))) = Some (w, dirty) ->
    mcount w (upds es) = length (upds es) ->
    del_checkT (length (dels es)) = false \/ mcount w (dels es) = length (dels es) ->
    (dirty' = false -> dirty = false /\ flush_rows w es = w) ->
    flush_out i s es w (flush_done i s w (flush_rows w es) dirty') ROk.

Lemma flush_outcome : forall i s, sorted (sents (sget i (sss s))) ->
  flush_out i s (sents (sget i (sss s))) (cur_rows (sdb s) i) (fst (flushT i s)) (snd (flushT i s)).
Proof.
  intros i s Hs. pose proof (sorted_distinct _ Hs) as D. unfold flush. set (es := sents (sget i (sss s))) in *.
  destruct (nothing (upds es) (dels es)) eqn:Hn.
  { destruct (upds es) eqn:Eu, (dels es) eqn:Ed; try discriminate. apply FO_nothing; assumption. }
  destruct (begin_write _ _ _) as [[w dirty]|] eqn:B; [|apply FO_busy, B].
  destruct (begin_write_some _ _ _ _ _ B) as [-> _]. set (w := cur_rows (sdb s) i) in *.
  destruct (flush_counts es w D) as [Cu Cd].
  rewrite (surjective_pairing (run_updates g w (upds es))), Cu. cbv beta iota.
  rewrite (surjective_pairing (run_deletes _ (dels es))), Cd. cbv beta iota. fold (flush_rows w es).
  assert (Hd : dirty || negb (Nat.eqb (mcount w (upds es) + mcount w (dels es)) 0) = false ->
               dirty = false /\ flush_rows w es = w).
  { intros E. apply orb_false_iff in E. destruct E as [-> E]. apply negb_false_iff, Nat.eqb_eq in E.
    split; [reflexivity|]. apply flush_rows_zero; [exact D|lia..]. }
  assert (Hb : begin_write (sdb s) i (snap (sget i (sss s))) <> None) by (rewrite B; discriminate).
  cbn [andb]. destruct (Nat.eqb_spec (mcount w (upds es)) (length (upds es))) as [Eu|Nu]; cbn [negb];
    [|apply FO_stale; [exact Hb|left; exact Nu]].
  destruct (del_checkT (length (dels es))) eqn:Dc; cbn [andb];
    [destruct (Nat.eqb_spec (mcount w (dels es)) (length (dels es))) as [Ed|Nd]; cbn [negb]|].
  - eapply FO_ok; eauto.
  - apply FO_stale; [exact Hb|right; split; assumption].
  - eapply FO_ok; eauto.
Qed.

(* s' differs from s only in what session i holds and in its uncommitted transaction *)
Definition same_outside (i : nat) (s s' : state) : Prop :=
  com (sdb s') = com (sdb s) /\ gen (sdb s') = gen (sdb s) /\ forall j, j <> i -> sget j (sss s') = sget j (sss s).

(* whatever its outcome, and whatever the dialect verifies *)
Lemma flush_frame : forall sane_rc i s, same_outside i s (fst (flush server sane_rc sane_multi g i s)).
Proof.
  intros sane_rc i s.
  assert (R : same_outside i s (rolled_back s i)).
  { destruct (rolled_back_facts s i) as [A [B [_ [_ F]]]]. split; [exact A|]. split; [exact B|]. intros j N. apply F, N. }
  assert (P : forall d se, com d = com (sdb s) -> gen d = gen (sdb s) ->
              same_outside i s {| sdb := d; sss := sput i se (sss s) |}).
  { intros d se A B. split; [exact A|]. split; [exact B|]. intros j N. apply sget_sput_other, N. }
  unfold flush. destruct (nothing _ _); [apply P; reflexivity|].
  destruct (begin_write _ _ _) as [[w dirty]|]; [|exact R]. destruct (run_updates _ _ _) as [w1 mu].
  destruct (_ && _); [exact R|]. destruct (run_deletes _ _) as [w2 md]. destruct (_ && _); [exact R|apply P; reflexivity].
Qed.

Hypothesis Hg : forall v, v < g v.

Lemma flush_out_inv : forall i s s' r, Inv s ->
  flush_out i s (sents (sget i (sss s))) (cur_rows (sdb s) i) s' r -> Inv s'.
Proof.
  intros i s s' r HI HF. pose proof (proj2 HI i) as [S1 [S2 S3]]. pose proof (sorted_distinct _ S1) as D.
  destruct HF as [Hu Hd|B|B Hst|dirty dirty' B Eu Ed Hdirty]; try (apply rolled_back_inv, HI).
  - (* nothing to write: no instance has a net change *)
    apply Inv_sess; [exact HI|]. split; [apply post_ents_sorted, S1|]. split; [|exact S3].
    intros k e' b Hin Hb. apply post_ents_In in Hin. destruct Hin as [e [Hin [Hde ->]]]. cbn [ev ex].
    destruct (is_upd e) eqn:Eup; [|apply (S2 k e b Hin Hb)].
    assert (X : In (k, e) (upds (sents (sget i (sss s))))) by (apply filter_In; split; assumption).
    rewrite Hu in X. destruct X.
  - (* all statements matched *)
    set (es := sents (sget i (sss s))) in *. set (w := cur_rows (sdb s) i) in *.
    apply Inv_change; [exact HI| | |].
    + split; cbn [wr com]; [eapply rows_le_trans; [apply com_le_cur, HI|apply flush_rows_le; assumption]|].
      intros E. destruct (Hdirty E) as [-> ->]. apply (begin_write_some _ _ _ _ _ B); [apply HI|reflexivity].
    + unfold sess_ok, cur_rows, writer_is. cbn [wr sents snap]. rewrite Nat.eqb_refl.
      split; [apply post_ents_sorted, S1|]. split; [|discriminate].
      intros k e' b Hin Hb. apply post_ents_In in Hin. destruct Hin as [e [Hin [Hde ->]]]. cbn [ev ex].
      rewrite (flush_rows_lookup es w k e D Hin), Hde in Hb. destruct (is_upd e) eqn:Eup; cbn [andb].
      * (* the UPDATE matched, so the instance now holds exactly the new row *)
        rewrite (mcount_full w _ Eu k e) in * by (apply filter_In; split; assumption).
        injection Hb as <-. cbn [orb rv rx]. split; [lia|trivial].
      * apply (S2 k e b Hin). destruct (matches w k (ev e)); exact Hb.
    + apply frame_flush_ok, (begin_write_some _ _ _ _ _ B).
Qed.

Lemma flush_inv : forall i s, Inv s -> Inv (fst (flushT i s)).
Proof.
  intros i s HI. eapply flush_out_inv; [exact HI|]. apply flush_outcome. apply (proj2 HI i).
Qed.

Theorem step_inv : forall i o s, Inv s -> Inv (fst (stepT i o s)).
Proof.
  intros i o s HI. destruct o as [k|k c p|k| | |]; cbn [step].
  (* get; set and delete then touch the instance the get has left in the identity map *)
  1-3: pose proof (load_inv i k s HI) as [H HL]; destruct (load i k s) as [s1 [e|]]; cbn [fst snd] in *; try exact H;
       (apply (touch_inv i k e); [exact H|apply HL; reflexivity|reflexivity|reflexivity]).
  - apply flush_inv, HI.
  - pose proof (flush_inv i s HI) as H. destruct (flushT i s) as [s1 r]. cbn [fst] in H.
    destruct r; try exact H. cbn [fst].
    apply Inv_change; [exact H|apply db_ok_end, H| |apply frame_end, H].
    destruct (eoc i); [apply sess_ok_empty|]. destruct (proj2 H i) as [S1 [S2 _]].
    split; [exact S1|]. split; [|intros _; exact I]. cbn [sents].
    (* the commit publishes exactly the rows the session was working on *)
    unfold cur_rows at 1. rewrite end_writer, Nat.eqb_refl, end_commit_com by apply H. exact S2.
  - destruct (stx (sget i (sss s))); cbn [fst]; [apply rolled_back_inv, HI|exact HI].
Qed.

Theorem run_inv : forall l s, Inv s -> Inv (run server true sane_multi eoc g l s).
Proof. induction l as [|[i o] t IH]; intros s H; cbn [run]; [exact H|]. apply IH, step_inv, H. Qed.

Theorem reach_inv : forall r0 s, reach server true sane_multi eoc g r0 s -> Inv s.
Proof. intros r0 s [l ->]. apply run_inv, Inv_init. Qed.
End SaneRowcount.
