(* C33 - SessionTransaction._restore_snapshot characterised phase by phase (no invariant needed here:
   the hypotheses say which identity-map replacements cannot clash). *)
From Coq Require Import List ZArith Bool Arith Lia.
Import ListNotations.
From SAV.orm Require Import SessTxn SessTxnBase.
Open Scope nat_scope.

(* everything but the objects *)
Definition same_rest (s t : sess) : Prop :=
  eoc s = eoc t /\ nobj s = nobj t /\ snew s = snew t /\ sdel s = sdel t /\ stack s = stack t /\
  handles s = handles t /\ committed s = committed t /\ work s = work t /\ saves s = saves t /\ nfid s = nfid t.
Lemma same_rest_refl : forall s, same_rest s s.
Proof. intros; repeat split. Qed.
Lemma same_rest_trans : forall a b c, same_rest a b -> same_rest b c -> same_rest a c.
Proof. unfold same_rest. intros a b c H1 H2. intuition congruence. Qed.
Lemma same_rest_mod_obj : forall s o g, same_rest (mod_obj s o g) s.
Proof. intros; repeat split. Qed.

Lemma objs_mod_same : forall s o g, objs (mod_obj s o g) o = g (objs s o).
Proof. intros. unfold mod_obj, set_obj. cbn. apply updN_same. Qed.
Lemma objs_mod_other : forall s o g x, x <> o -> objs (mod_obj s o g) x = objs s x.
Proof. intros. unfold mod_obj, set_obj. cbn. apply updN_other; auto. Qed.

Lemma o_in_same : forall a v, oin a = v -> o_in a v = a.
Proof. intros [] v <-. reflexivity. Qed.
Lemma oin_o_in_false_idem : forall ob, o_in (o_in ob false) false = o_in ob false.
Proof. reflexivity. Qed.

(* im_other finds an object of the identity map, different from [o], stored under the key of [o] *)
Lemma im_other_some : forall st o o', im_other st o = Some o' ->
  o' < nobj st /\ o' <> o /\ oin (objs st o') = true /\ okey (objs st o') = okey (objs st o) /\ okey (objs st o) <> None.
Proof.
  intros st o o' H. unfold im_other in H. destruct (okey (objs st o)) as [k|] eqn:Ek; [|discriminate].
  apply find_some in H. destruct H as [H1 H2]. apply in_seq in H1.
  apply andb_prop in H2. destruct H2 as [H2 H3]. apply andb_prop in H2. destruct H2 as [H2 H4].
  unfold key_is in H3. destruct (okey (objs st o')) as [k'|] eqn:Ek'; [|discriminate].
  apply Z.eqb_eq in H3. subst. repeat split; auto; try lia; try discriminate.
  intros X. subst. rewrite Nat.eqb_refl in H2. discriminate.
Qed.
Lemma im_other_none : forall st o, im_other st o = None ->
  forall o', o' < nobj st -> o' <> o -> oin (objs st o') = true -> okey (objs st o') = okey (objs st o) -> okey (objs st o) = None.
Proof.
  intros st o H o' Hn Hne Hin Hk. unfold im_other in H. destruct (okey (objs st o)) as [k|] eqn:Ek; auto.
  exfalso. eapply find_none with (x := o') in H; [|apply in_seq; cbn; lia].
  destruct (Nat.eqb_spec o' o); [congruence|]. rewrite Hin in H. unfold key_is in H. rewrite Hk in H.
  cbn in H. rewrite Z.eqb_refl in H. discriminate.
Qed.

(* ------------------------------------------------------------------ phase 2: key switches *)
Section Phase2.
  Variables (E : list nat) (ks : list (nat * (Z * Z))) (st1 : sess).
  Definition P2 (x : nat) : obj :=
    match ks_find x ks with
    | Some (old, _) => if mem x E then objs st1 x else o_in (o_key (objs st1 x) (Some old)) true
    | None => objs st1 x
    end.
  (* the expunged objects are outside the identity map *)
  Hypothesis HE : forall x, mem x E = true -> oin (objs st1 x) = false.
  (* no two objects end up in the identity map under one key *)
  Hypothesis Hinj : forall x y, x < nobj st1 -> y < nobj st1 -> oin (P2 x) = true -> oin (P2 y) = true ->
    okey (P2 x) = okey (P2 y) -> okey (P2 x) <> None -> x = y.

  (* the objects processed so far have their final value; one with a key switch that is still to come may
     have been pushed out of the identity map by an earlier one *)
  Definition I2 (done : list nat) (s : sess) : Prop :=
    same_rest s st1 /\
    (forall x, In x done \/ ks_find x ks = None -> objs s x = P2 x) /\
    (forall x, ~ In x done -> ks_find x ks <> None ->
               objs s x = objs st1 x \/ objs s x = o_in (objs st1 x) false).

  Lemma phase2_step : forall done o s, I2 done s -> ~ In o done -> o < nobj st1 ->
    I2 (done ++ [o]) (restore_ks_one E ks o s).
  Proof.
    intros done o s [SR [H1 H2]] Hnd Hlt.
    (* for the objects other than [o] the invariant of [done ++ [o]] asks what that of [done] gives *)
    assert (K1 : forall x, x <> o -> In x (done ++ [o]) \/ ks_find x ks = None -> In x done \/ ks_find x ks = None).
    { intros x Hne [Hx|Hx]; auto. apply in_app_or in Hx. destruct Hx as [Hx|[Hx|[]]]; [auto|congruence]. }
    assert (K2 : forall x, ~ In x (done ++ [o]) -> x <> o /\ ~ In x done).
    { intros x Hx. split; intros X; apply Hx; apply in_or_app; [right; left; auto|left; auto]. }
    unfold restore_ks_one. destruct (ks_find o ks) as [[old nw]|] eqn:Ek.
    2:{ split; [auto|]. split.
        - intros x Hx. apply H1. destruct (Nat.eq_dec x o) as [->|Hne]; auto.
        - intros x Hx. apply H2. apply K2; auto. }
    assert (Ho : objs s o = objs st1 o \/ objs s o = o_in (objs st1 o) false) by (apply H2; auto; congruence).
    destruct (mem o E) eqn:EE.
    { (* expunged: transient again, nothing to restore *)
      split; [exact SR|]. split.
      + intros x Hx. destruct (Nat.eq_dec x o) as [->|Hne]; [|apply H1; auto].
        unfold P2. rewrite Ek, EE. destruct Ho as [Ho|Ho]; [exact Ho|]. rewrite Ho. apply o_in_same, HE, EE.
      + intros x Hx. apply H2. apply K2; auto. }
    (* put back into the identity map under the old key *)
    cbv zeta. set (s2 := mod_obj (safe_discard o s) o (fun ob => o_key ob (Some old))).
    assert (Os2 : objs s2 o = o_key (o_in (objs st1 o) false) (Some old)).
    { unfold s2, safe_discard. rewrite !objs_mod_same. destruct Ho as [Ho|Ho]; rewrite Ho; reflexivity. }
    assert (Os2' : forall x, x <> o -> objs s2 x = objs s x).
    { intros x Hx. unfold s2, safe_discard. rewrite !objs_mod_other; auto. }
    assert (P2o : P2 o = o_in (o_key (objs st1 o) (Some old)) true). { unfold P2. rewrite Ek, EE. reflexivity. }
    (* the state the old key has to be taken from, if any, has a key switch and is still to be processed *)
    unfold im_replace. set (s3 := match im_other s2 o with Some o' => _ | None => s2 end).
    assert (S3 : objs s3 o = objs s2 o /\ forall x, x <> o ->
              objs s3 x = objs s x \/ (~ In x done /\ ks_find x ks <> None /\ objs s3 x = o_in (objs s x) false)).
    { unfold s3. destruct (im_other s2 o) as [o'|] eqn:Eo; [|split; [reflexivity|left; apply Os2'; auto]].
      destruct (im_other_some _ _ _ Eo) as [A [B [C [D _]]]]. rewrite Os2' in C, D by auto. rewrite Os2 in D.
      assert (X : objs s o' <> P2 o').
      { intros X. rewrite X in C, D. apply B. destruct SR as [_ [N _]]. change (nobj s2) with (nobj s) in A.
        apply Hinj; auto; [lia|rewrite P2o; reflexivity|rewrite P2o; exact D|rewrite D; discriminate]. }
      split; [apply objs_mod_other; auto|]. intros x Hne. destruct (Nat.eq_dec x o') as [->|Hne'].
      - right. rewrite objs_mod_same, Os2' by auto. repeat split; auto; intros Y; apply X; apply H1; auto.
      - left. rewrite objs_mod_other, Os2' by auto. reflexivity. }
    destruct S3 as [S3o S3]. split; [eapply same_rest_trans; [|exact SR]; unfold s3; destruct (im_other s2 o); repeat split|]. split.
    - intros x Hx. destruct (Nat.eq_dec x o) as [->|Hne].
      + rewrite objs_mod_same, S3o, Os2, P2o. reflexivity.
      + rewrite objs_mod_other by auto. specialize (K1 x Hne Hx). destruct (S3 x Hne) as [->|Y]; [auto|tauto].
    - intros x Hx Hk. destruct (K2 x Hx) as [Hne Hnd']. rewrite objs_mod_other by auto.
      destruct (S3 x Hne) as [->|[_ [_ ->]]]; [auto|]. destruct (H2 x Hnd' Hk) as [->| ->]; auto.
  Qed.

  Lemma phase2_char : let s2 := fold_left (fun s o => restore_ks_one E ks o s) (all_objs st1) st1 in
    same_rest s2 st1 /\ forall x, x < nobj st1 \/ ks_find x ks = None -> objs s2 x = P2 x.
  Proof.
    intros s2.
    destruct (foldM_done (fun o => lift (restore_ks_one E ks o)) I2 (all_objs st1)) with (todo := all_objs st1) (done := @nil nat) (s := st1)
      as [s' [E' [SR [H1 _]]]].
    - intros done o s HI Hnd Hin. eexists. split; [reflexivity|]. apply phase2_step; auto.
      assert (X : In o (all_objs st1)) by (apply Hin, in_or_app; right; left; reflexivity).
      apply in_seq in X. lia.
    - split; [apply same_rest_refl|]. split; [|auto].
      intros x [[]|Hx]. unfold P2. rewrite Hx. reflexivity.
    - apply seq_NoDup.
    - apply incl_refl.
    - rewrite foldM_lift in E'. injection E' as <-. split; [exact SR|].
      intros x [Hx|Hx]; apply H1; auto. left. apply in_seq. lia.
  Qed.
End Phase2.

(* ------------------------------------------------------------------ phase 3: reverted deletions *)
Section Phase3.
  Variables (st2 : sess) (todel : list nat).
  Definition P3 (x : nat) : obj :=
    if mem x todel then o_in (o_delf (objs st2 x) false) true else objs st2 x.
  Definition fin3 (x : nat) : Prop := oin (objs st2 x) = true \/ In x todel.
  Hypothesis Hok : forall x, In x todel -> x < nobj st2 /\ okey (objs st2 x) <> None /\ oatt (objs st2 x) = true.
  Hypothesis Hinj : forall x y, x < nobj st2 -> y < nobj st2 -> fin3 x -> fin3 y ->
    okey (objs st2 x) = okey (objs st2 y) -> okey (objs st2 x) <> None -> x = y.

  Definition I3 (done : list nat) (s : sess) : Prop :=
    sdel s = filter (fun x => negb (mem x done)) (sdel st2) /\
    (forall x, objs s x = if mem x done then P3 x else objs st2 x) /\
    eoc s = eoc st2 /\ nobj s = nobj st2 /\ snew s = snew st2 /\ stack s = stack st2 /\
    handles s = handles st2 /\ committed s = committed st2 /\ work s = work st2 /\ saves s = saves st2 /\ nfid s = nfid st2.

  Lemma filter_remm : forall o done l,
    remm o (filter (fun x => negb (mem x done)) l) = filter (fun x => negb (mem x (done ++ [o]))) l.
  Proof.
    intros o done l. unfold remm. induction l as [|a l IH]; cbn; auto.
    rewrite mem_app. cbn. rewrite orb_false_r.
    destruct (mem a done) eqn:E1; cbn.
    - exact IH.
    - destruct (Nat.eqb_spec o a); destruct (Nat.eqb_spec a o); try congruence; cbn; rewrite IH; reflexivity.
  Qed.

  Lemma phase3_step : forall done o s, I3 done s -> ~ In o done -> In o todel -> incl done todel ->
    exists s', update_impl_revert o s = (Ok, s') /\ I3 (done ++ [o]) s'.
  Proof.
    intros done o s [A10 [A11 HI]] Hnd Hin Hincl.
    destruct (Hok o Hin) as [Hlt [Hk Ha]].
    assert (Oo : objs s o = objs st2 o).
    { rewrite A11. destruct (mem o done) eqn:Em; [apply mem_In in Em; contradiction|reflexivity]. }
    unfold update_impl_revert. rewrite Oo.
    destruct (okey (objs st2 o)) as [k|] eqn:Ek; [|congruence].
    rewrite Ha. rewrite andb_false_r. cbn [negb].
    set (s1 := set_sdel (mod_obj s o (fun ob => o_delf ob false)) (remm o (sdel (mod_obj s o (fun ob => o_delf ob false))))).
    assert (O1 : objs s1 o = o_delf (objs st2 o) false).
    { unfold s1. cbn [objs set_sdel]. rewrite objs_mod_same, Oo. reflexivity. }
    assert (O1' : forall x, x <> o -> objs s1 x = objs s x).
    { intros x Hx. unfold s1. cbn [objs set_sdel]. rewrite objs_mod_other; auto. }
    (* nothing else holds the key of [o]: it would be an object of the final identity map *)
    assert (Hnone : im_other s1 o = None).
    { destruct (im_other s1 o) as [o'|] eqn:Eo; auto. exfalso.
      destruct (im_other_some _ _ _ Eo) as [B1 [B2 [B3 [B4 B5]]]].
      rewrite O1' in B3, B4 by auto. rewrite O1 in B4. rewrite A11 in B3, B4.
      change (nobj s1) with (nobj s) in B1. destruct HI as [_ [N _]].
      assert (F : fin3 o' /\ okey (objs st2 o') = Some k).
      { unfold P3 in *. destruct (mem o' done) eqn:Ed; [|split; [left; exact B3|rewrite B4; exact Ek]].
        apply mem_In in Ed. apply Hincl in Ed. split; [right; exact Ed|].
        destruct (mem o' todel); cbn in B4; rewrite B4; exact Ek. }
      destruct F as [F1 F2]. apply B2. apply Hinj; auto; [lia|right; auto|congruence|congruence]. }
    eexists. split; [reflexivity|].
    unfold im_replace. fold s1. rewrite Hnone. split; [|split; [|exact HI]].
    - cbn. rewrite A10. apply filter_remm.
    - intros x. rewrite mem_app. cbn [mem existsb]. rewrite orb_false_r.
      destruct (Nat.eqb_spec x o) as [->|Hne].
      + rewrite orb_true_r, objs_mod_same, O1. unfold P3. rewrite (proj2 (mem_In _ _) Hin). reflexivity.
      + rewrite orb_false_r, objs_mod_other, O1' by auto. apply A11.
  Qed.

  Lemma phase3_char : NoDup todel ->
    exists s3, foldM update_impl_revert todel st2 = (Ok, s3) /\ I3 todel s3.
  Proof.
    intros Hnd. apply (foldM_done update_impl_revert I3 todel) with (done := @nil nat); auto.
    - intros done o s HI Hn Hincl. apply phase3_step; auto.
      + apply Hincl, in_or_app. right. left. reflexivity.
      + intros x Hx. apply Hincl, in_or_app. auto.
    - repeat split; auto. induction (sdel st2) as [|a l IHl]; cbn; auto. f_equal. exact IHl.
    - apply incl_refl.
  Qed.
End Phase3.
