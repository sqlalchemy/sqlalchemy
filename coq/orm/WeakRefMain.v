(* C48 - every operation preserves the invariant; the reachable states *)
From Coq Require Import List ZArith NArith Bool Arith Lia.
Import ListNotations.
From SAV.orm Require Import WeakRef WeakRefBase WeakRefInv WeakRefFlush.

Lemma inv_bump_pk : forall s, Inv s -> Inv (bump_pk s).
Proof.
  intros s [D O MR MI NR NI P B S L F]. constructor; cbn; auto.
  - intros o A. specialize (P o A). lia.
  - intros k v G. specialize (B k v G). lia.
Qed.

Lemma inv_alloc : forall s ob, Inv s -> okb ob = true -> (pk ob < next_pk s)%N ->
  (in_map ob = true -> db_get (pk ob) (db s) <> None /\ forall o, in_map (heap s o) = true -> pk (heap s o) <> pk ob) ->
  (in_new ob = true -> db_get (pk ob) (db s) = None /\ forall o, in_new (heap s o) = true -> pk (heap s o) <> pk ob) ->
  Inv (alloc ob s).
Proof.
  intros s ob I Ok Lp Hm Hn. set (s' := alloc ob s).
  assert (Old : forall x, x <> nobj s -> heap s' x = heap s x).
  { intros x Hx. cbn. destruct (Nat.eqb x (nobj s)) eqn:E; auto. apply Nat.eqb_eq in E. contradiction. }
  assert (New : heap s' (nobj s) = ob) by (cbn; rewrite Nat.eqb_refl; reflexivity).
  assert (NotOld : forall x, alive (heap s x) = true -> x <> nobj s).
  { intros x A. assert (L := alive_lt s x I A). lia. }
  assert (Each : forall P : obj -> Prop, P ob -> (forall x, P (heap s x)) -> forall x, P (heap s' x)).
  { intros P Pn Po x. cbn. destruct (Nat.eqb x (nobj s)); auto. }
  assert (Inj : forall fl : obj -> bool,
    (forall o1 o2, fl (heap s o1) = true -> fl (heap s o2) = true -> pk (heap s o1) = pk (heap s o2) -> o1 = o2) ->
    (fl ob = true -> forall o, fl (heap s o) = true -> pk (heap s o) <> pk ob) ->
    forall o1 o2, fl (heap s' o1) = true -> fl (heap s' o2) = true -> pk (heap s' o1) = pk (heap s' o2) -> o1 = o2).
  { intros fl J F o1 o2 M1 M2 E.
    destruct (Nat.eq_dec o1 (nobj s)) as [->|N1]; destruct (Nat.eq_dec o2 (nobj s)) as [->|N2]; auto.
    - rewrite New in *. rewrite Old in * by auto. exfalso. apply (F M1 o2 M2). auto.
    - rewrite New in *. rewrite Old in * by auto. exfalso. apply (F M2 o1 M1). auto.
    - rewrite !Old in * by auto. apply J; auto. }
  constructor.
  - intros o L. cbn in L. rewrite Old by lia. apply (i_dead s I). lia.
  - apply (Each (fun b => okb b = true)); [exact Ok|apply (i_ok s I)].
  - apply (Each (fun b => in_map b = true -> db_get (pk b) (db s) <> None)); [apply Hm|apply (i_map_row s I)].
  - apply (Inj in_map (i_map_inj s I)). intro M. apply (Hm M).
  - apply (Each (fun b => in_new b = true -> db_get (pk b) (db s) = None)); [apply Hn|apply (i_new_row s I)].
  - apply (Inj in_new (i_new_inj s I)). intro M. apply (Hn M).
  - apply (Each (fun b => alive b = true -> (pk b < next_pk s)%N)); [auto|apply (i_pk s I)].
  - apply (i_db s I).
  - intros o H. rewrite Old; auto using i_slots.
  - intros o H. rewrite Old; auto using i_local.
  - apply (i_failed s I).
Qed.

Lemma db_get_fresh : forall s, Inv s -> db_get (next_pk s) (db s) = None.
Proof.
  intros s I. destruct (db_get (next_pk s) (db s)) eqn:E; auto.
  assert (P := i_db s I _ _ E). lia.
Qed.

Lemma inv_new : forall s, Inv s -> Inv (bump_pk (alloc (new_obj s) s)).
Proof.
  intros s I. destruct (ok_new_obj s) as (Ok & A & P & M & N & _).
  change (Inv (alloc (new_obj s) (bump_pk s))). apply inv_alloc; auto using inv_bump_pk.
  - rewrite P. cbn. lia.
  - rewrite M. discriminate.
  - intros _. rewrite P. split; [apply (db_get_fresh s I)|].
    intros o N'. assert (Q := i_pk s I o (okb_member_alive _ (i_ok s I o) (or_introl N'))). cbn. lia.
Qed.

Lemma map_alive : forall s o, Inv s -> in_map (heap s o) = true -> alive (heap s o) = true.
Proof. intros s o I M. apply (okb_member_alive _ (i_ok s I o)). auto. Qed.
Lemma lookup_some : forall s k o, lookup k s = Some o -> in_map (heap s o) = true /\ pk (heap s o) = k.
Proof.
  intros s k o H. unfold lookup in H. apply find_some in H. destruct H as [_ H].
  cbv zeta in H. apply andb_prop in H. destruct H as [H1 H2]. apply N.eqb_eq in H2. auto.
Qed.
Lemma lookup_none : forall s k, Inv s -> lookup k s = None ->
  forall o, in_map (heap s o) = true -> pk (heap s o) <> k.
Proof.
  intros s k I H o M E. unfold lookup in H.
  assert (L := alive_lt s o I (map_alive s o I M)).
  assert (Hin : In o (oids s)) by (apply in_seq; lia).
  assert (X := find_none _ _ H o Hin). cbv beta zeta in X. rewrite M, E, N.eqb_refl in X. discriminate.
Qed.
Lemma lookup_unique : forall s o, Inv s -> in_map (heap s o) = true -> lookup (pk (heap s o)) s = Some o.
Proof.
  intros s o I M. destruct (lookup (pk (heap s o)) s) as [x|] eqn:L.
  - destruct (lookup_some _ _ _ L) as [Mx Px]. f_equal. apply (i_map_inj s I); auto.
  - destruct (lookup_none s _ I L o M). reflexivity.
Qed.

Lemma upd_same : forall s o f, heap (upd o f s) o = f (heap s o).
Proof. intros. cbn. rewrite Nat.eqb_refl. reflexivity. Qed.
Lemma upd_other : forall s o f x, x <> o -> heap (upd o f s) x = heap s x.
Proof. intros. cbn. destruct (Nat.eqb x o) eqn:E; auto. apply Nat.eqb_eq in E. contradiction. Qed.

Lemma inv_load : forall i k s, Inv s -> Inv (load i k s).
Proof.
  intros i k s I. unfold load.
  destruct (lookup k s) as [o|] eqn:Lk.
  - destruct (lookup_some s k o Lk) as [M P]. assert (A := map_alive s o I M).
    destruct (expired (heap s o)); [|apply inv_slot_some; auto].
    set (s1 := set_local None (rc_collect (flush (set_local (Some o) s)))).
    assert (I1 : Inv s1).
    { unfold s1. apply inv_set_local; [|intros ? H; discriminate].
      apply inv_rc_collect. apply inv_flush. apply inv_set_local; auto.
      intros o' H. inversion H. subst o'. exact A. }
    destruct (in_map (heap s1 o)) eqn:M1; [|apply inv_slot_none; auto].
    assert (A1 := map_alive s1 o I1 M1). assert (T := tr_unexpire _ (i_ok s1 I1 o)).
    apply inv_slot_some; [apply inv_upd; auto|]. rewrite upd_same, (proj2 T). exact A1.
  - set (s1 := rc_collect (flush s)).
    assert (I1 : Inv s1) by (unfold s1; apply inv_rc_collect; apply inv_flush; exact I).
    destruct (lookup k s1) as [o|] eqn:Lk1.
    + destruct (lookup_some s1 k o Lk1) as [M P]. apply inv_slot_some; auto. apply (map_alive s1 o I1 M).
    + destruct (db_has k (db s1)) eqn:Dh; [|apply inv_slot_none; auto].
      apply inv_slot_some; [|cbn; rewrite Nat.eqb_refl; reflexivity].
      unfold db_has in Dh. destruct (db_get k (db s1)) eqn:G; [|discriminate].
      apply inv_alloc; auto.
      * apply (i_db s1 I1 _ _ G).
      * intros _. split; [cbn [pk loaded_obj]; congruence|apply (lookup_none s1 k I1 Lk1)].
      * cbn. discriminate.
Qed.

Lemma inv_slot_upd : forall s i o f, Inv s -> slot_get s i = Some o ->
  (okb (heap s o) = true -> alive (heap s o) = true -> tr_live (heap s o) (f (heap s o))) -> Inv (upd o f s).
Proof.
  intros s i o f I G F. assert (A := i_slots s I o (slot_get_In s i o G)). apply inv_upd; auto.
Qed.

Lemma inv_step : forall o s, Inv s -> Inv (fst (step o s)).
Proof.
  intros o s I. destruct o as [i k|i|i|i|i|i w0|i| | | |i| |i|i j]; cbn [step fst].
  - apply inv_load. exact I.
  - apply inv_slot_some; [apply inv_bump_val, inv_new, I|].
    cbn [heap bump_val bump_pk alloc]. rewrite Nat.eqb_refl. exact (proj1 (proj2 (ok_new_obj s))).
  - destruct (slot_get s i) as [o|] eqn:G; cbn [fst]; auto.
    apply inv_bump_val. apply (inv_slot_upd s i); auto. intros Ok _. apply tr_modified_event, Ok.
  - destruct (slot_get s i) as [o|] eqn:G; cbn [fst]; auto.
    apply inv_bump_val. apply (inv_slot_upd s i); auto. intros Ok _. apply tr_modified_event, Ok.
  - destruct (slot_get s i) as [o|] eqn:G; cbn [fst]; auto.
    destruct (in_val (heap s o)); cbn [fst]; auto.
    apply inv_bump_val. apply (inv_slot_upd s i); auto. intros Ok _. apply tr_modified_event, Ok.
  - destruct (slot_get s i) as [o|] eqn:G; cbn [fst]; auto.
    destruct (persistent (heap s o)) eqn:P; cbn [fst]; auto.
    apply (inv_slot_upd s i); auto. intros Ok _. apply tr_expire_attr, Ok.
  - apply inv_slot_none, I.
  - apply inv_collect. exact I.
  - apply inv_flush. exact I.
  - apply inv_hmap; [apply inv_flush; exact I|apply tr_commit_obj|reflexivity].
  - destruct (slot_get s i) as [o|] eqn:G; cbn [fst]; auto.
    destruct (persistent (heap s o)) eqn:P; cbn [fst]; auto.
    apply (inv_slot_upd s i); auto. intros Ok _. apply tr_expire_obj, Ok.
  - apply inv_hmap; auto. apply tr_expire_if.
  - destruct (slot_get s i) as [o|] eqn:G; cbn [fst]; auto.
    destruct (persistent (heap s o)) eqn:P; cbn [fst]; auto.
    apply (inv_slot_upd s i); auto. intros Ok A. apply tr_set_in_del; auto.
  - destruct (slot_get s i) as [o|] eqn:G; cbn [fst]; auto.
    apply (inv_slot_upd s i); auto. intros Ok A. apply tr_set_link; auto.
Qed.

Lemma step_cpy_fst : forall o s, fst (step_cpy o s) = compact (rc_collect (fst (step o s))).
Proof. intros o s. unfold step_cpy. destruct (step o s). reflexivity. Qed.
Lemma inv_step_cpy : forall o s, Inv s -> Inv (fst (step_cpy o s)).
Proof. intros o s I. rewrite step_cpy_fst. apply inv_compact, inv_rc_collect, inv_step, I. Qed.

Lemma inv_init : forall rows ns npk, (forall k v, db_get k rows = Some v -> (k < npk)%N) -> Inv (init rows ns npk).
Proof.
  intros rows ns npk H. constructor; cbn; auto; try discriminate.
  intros o Hin. apply repeat_spec in Hin. discriminate.
Qed.

Inductive reachable (s0 : st) : st -> Prop :=
| r_init : reachable s0 s0
| r_op : forall s o, reachable s0 s -> reachable s0 (fst (step o s))
| r_collect : forall s l, reachable s0 s -> reachable s0 (collect l s)
| r_compact : forall s, reachable s0 s -> reachable s0 (compact s).

Lemma reachable_inv : forall s0 s, Inv s0 -> reachable s0 s -> Inv s.
Proof.
  intros s0 s I0 R. induction R; auto using inv_step, inv_collect, inv_compact.
Qed.
Lemma reachable_rc_iter : forall s0 n s, reachable s0 s -> reachable s0 (rc_iter n s).
Proof.
  induction n; intros s R; simpl; auto. destruct (rc_zero s); auto. apply IHn. apply r_collect. exact R.
Qed.
Lemma reachable_step_cpy : forall s0 o s, reachable s0 s -> reachable s0 (fst (step_cpy o s)).
Proof. intros s0 o s R. rewrite step_cpy_fst. apply r_compact, reachable_rc_iter, r_op, R. Qed.
Fixpoint run_cpy (ops : list op) (s : st) : st :=
  match ops with [] => s | o :: r => run_cpy r (fst (step_cpy o s)) end.
Lemma reachable_run_cpy : forall s0 ops s, reachable s0 s -> reachable s0 (run_cpy ops s).
Proof. induction ops; intros s R; simpl; auto. apply IHops. apply reachable_step_cpy. exact R. Qed.
