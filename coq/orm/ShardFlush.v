(* C53 - what one flush does: invariant, routing of every statement, effect on every object *)
From Coq Require Import List ZArith NArith Bool.
Import ListNotations.
From SAV.orm Require Import Shard ShardDb ShardInv.
Open Scope Z_scope.

Lemma Forall2_length' : forall {A} (R : A -> A -> Prop) l l', Forall2 R l l' -> length l = length l'.
Proof. intros A R l l' H. induction H; simpl; auto. Qed.

Section Flush.
  Variable sc : row -> N.

  (* what the UPDATE pass, the INSERT pass and the whole flush make of one object: the object alone
     decides (the database only decides whether the flush fails) *)
  Definition upd_obj (i : inst) : inst :=
    match i_life i, i_tok i with
    | Persistent, Some t => mkInst (i_cur i) (i_cur i) Persistent (Some t)
    | _, _ => i
    end.
  Definition ins_obj (i : inst) : inst :=
    match i_life i with
    | Pending => mkInst (i_cur i) (i_cur i) Persistent (Some (target sc i))
    | _ => i
    end.
  Definition flushed (i : inst) : inst := ins_obj (upd_obj i).

  Lemma upd_obj_keep : forall i,
    i_life (upd_obj i) = i_life i /\ i_tok (upd_obj i) = i_tok i /\ i_cur (upd_obj i) = i_cur i.
  Proof. intros i. unfold upd_obj. destruct (i_life i) eqn:El; auto. destruct (i_tok i) eqn:Et; auto. Qed.
  Lemma upd_obj_id : forall i, i_life i <> Persistent -> upd_obj i = i.
  Proof. intros i H. unfold upd_obj. destruct (i_life i); congruence. Qed.
  Lemma ins_obj_id : forall i, i_life i <> Pending -> ins_obj i = i.
  Proof. intros i H. unfold ins_obj. destruct (i_life i); congruence. Qed.

  Lemma flushed_pending : forall i, i_life i = Pending ->
    flushed i = mkInst (i_cur i) (i_cur i) Persistent (Some (target sc i)).
  Proof. intros i H. unfold flushed. rewrite upd_obj_id by congruence. unfold ins_obj. now rewrite H. Qed.
  Lemma flushed_keep : forall i, i_life i <> Pending ->
    i_life (flushed i) = i_life i /\ i_tok (flushed i) = i_tok i /\ i_cur (flushed i) = i_cur i.
  Proof.
    intros i H. unfold flushed. rewrite ins_obj_id; [apply upd_obj_keep|].
    now rewrite (proj1 (upd_obj_keep i)).
  Qed.
  Lemma flushed_clean : forall i, (i_life i = Persistent -> i_tok i <> None) -> clean (flushed i).
  Proof.
    intros i H. unfold clean. destruct (i_life i) eqn:El.
    - rewrite flushed_pending by auto. simpl. split; [discriminate | auto].
    - destruct (i_tok i) as [t|] eqn:Et; [|now destruct H]. unfold flushed, upd_obj. rewrite El, Et.
      rewrite ins_obj_id by (simpl; discriminate). simpl. split; [discriminate | auto].
    - destruct (flushed_keep i) as [Hl _]; [congruence|]. rewrite Hl, El. split; discriminate.
  Qed.

  (* the object a statement was emitted for *)
  Definition just1 (i : inst) (w : write) : Prop :=
    match w with
    | WIns pre s r => i_life i = Pending /\ i_cur i = r /\ i_tok i = pre /\
                      s = match pre with Some t => t | None => sc r end
    | WUpd s r => i_life i = Persistent /\ i_tok i = Some s /\ i_cur i = r
    | WDel s k => i_life i = Persistent /\ i_tok i = Some s /\ r_pk (i_cur i) = k
    end.
  Definition justified (l : list inst) (w : write) : Prop := exists i, In i l /\ just1 i w.

  Lemma just1_upd_obj : forall i w, just1 (upd_obj i) w -> just1 i w.
  Proof.
    intros i w. destruct (upd_obj_keep i) as [Hl [Ht Hc]]. destruct w; simpl; rewrite Hl, Ht, Hc; auto.
  Qed.

  (* one step of a pass on object [i]: the new object is [g i], the statements emitted are justified by
     [i] and turn [d] into the new database, and the invariant survives wherever [i] stands *)
  Definition obj_ok (g : inst -> inst) (i : inst) (d : dbs) (out : res (inst * dbs * list write)) : Prop :=
    match out with
    | Ok (i', d', w) =>
        i' = g i /\ apply_writes w d = Ok d' /\ Forall (just1 i) w /\
        forall pre post, Inv (pre ++ i :: post) d -> Inv (pre ++ i' :: post) d'
    | Err _ => True
    end.

  Lemma obj_ok_id : forall g i d, g i = i -> obj_ok g i d (Ok (i, d, [])).
  Proof. intros g i d H. simpl. auto. Qed.

  Lemma flush_upd_ok : forall i d, obj_ok upd_obj i d (flush_upd i d).
  Proof.
    intros i d. unfold flush_upd.
    destruct (i_life i) eqn:El; try (apply obj_ok_id, upd_obj_id; congruence).
    destruct (i_tok i) as [t|] eqn:Et; [|apply obj_ok_id; unfold upd_obj; now rewrite El, Et].
    destruct (row_eqb (i_cur i) (i_old i)) eqn:Er.
    - apply obj_ok_id. apply row_eqb_eq in Er. unfold upd_obj. rewrite El, Et.
      destruct i; simpl in *; congruence.
    - split; [unfold upd_obj; now rewrite El, Et|]. split; [reflexivity|].
      split; [repeat constructor; auto|]. intros pre post HI. now apply inv_update.
  Qed.

  Lemma flush_ins_ok : forall i d, obj_ok ins_obj i d (flush_ins sc i d).
  Proof.
    intros i d. unfold flush_ins.
    destruct (i_life i) eqn:El; try (apply obj_ok_id, ins_obj_id; congruence).
    destruct (sql_insert (i_cur i) (d (target sc i))) as [t'|] eqn:Es; [|exact I].
    split; [unfold ins_obj; now rewrite El|]. split; [simpl; now rewrite Es|].
    split; [repeat constructor; auto|]. intros pre post HI. now apply inv_insert.
  Qed.

  Lemma pass_ok : forall g f, (forall i d, obj_ok g i d (f i d)) ->
    forall l d l' d' w, pass f l d = Ok (l', d', w) ->
    l' = map g l /\ apply_writes w d = Ok d' /\ Forall (justified l) w /\
    forall pre, Inv (pre ++ l) d -> Inv (pre ++ l') d'.
  Proof.
    intros g f Hf. induction l as [|i r IH]; simpl; intros d l' d' w H.
    - injection H as <- <- <-. auto.
    - specialize (Hf i d). destruct (f i d) as [[[i' d1] w1]|]; [|discriminate].
      destruct Hf as [-> [Hw1 [Hj1 Hi1]]].
      destruct (pass f r d1) as [[[r' d2] w2]|] eqn:E2; [|discriminate]. injection H as <- <- <-.
      destruct (IH _ _ _ _ E2) as [-> [Hw2 [Hj2 Hi2]]]. split; [reflexivity|]. split; [|split].
      + rewrite (apply_writes_app _ _ _ _ Hw1). exact Hw2.
      + apply Forall_app. split; (eapply Forall_impl; [|eassumption]).
        * intros x Hx. exists i. simpl. auto.
        * intros x [j [Hj Hx]]. exists j. simpl. auto.
      + intros pre HI. replace (pre ++ g i :: map g r) with ((pre ++ [g i]) ++ map g r)
          by (rewrite <- app_assoc; reflexivity).
        apply Hi2. rewrite <- app_assoc. apply Hi1, HI.
  Qed.

  Lemma flush_spec : forall st st', flush sc st = Ok st' ->
    insts st' = map flushed (insts st) /\ committed st' = committed st /\ rlog st' = rlog st /\
    (Inv (insts st) (db st) -> Inv (insts st') (db st')) /\
    exists delta, wlog st' = wlog st ++ delta /\ apply_writes delta (db st) = Ok (db st') /\
                  Forall (justified (insts st)) delta.
  Proof.
    intros st st' H. unfold flush in H.
    destruct (pass flush_upd (insts st) (db st)) as [[[l1 d1] w1]|] eqn:E1; [|discriminate].
    destruct (pass (flush_ins sc) l1 d1) as [[[l2 d2] w2]|] eqn:E2; [|discriminate]. injection H as <-. simpl.
    destruct (pass_ok _ _ flush_upd_ok _ _ _ _ _ E1) as [-> [W1 [J1 I1]]].
    destruct (pass_ok _ _ flush_ins_ok _ _ _ _ _ E2) as [-> [W2 [J2 I2]]].
    split; [now rewrite map_map|]. split; [reflexivity|]. split; [reflexivity|]. split.
    - intros HI. apply (I2 []), (I1 []), HI.
    - exists (w1 ++ w2). split; [reflexivity|]. split; [rewrite (apply_writes_app _ _ _ _ W1); exact W2|].
      apply Forall_app. split; [exact J1|]. eapply Forall_impl; [|exact J2].
      intros w [y [Hy Jy]]. apply in_map_iff in Hy. destruct Hy as [x [<- Hx]]. exists x. split; auto.
      now apply just1_upd_obj.
  Qed.

  Lemma flush_insts : forall st st', flush sc st = Ok st' -> insts st' = map flushed (insts st).
  Proof. intros st st' H. apply (flush_spec _ _ H). Qed.

  Lemma flush_frame : forall st st', flush sc st = Ok st' -> committed st' = committed st /\ rlog st' = rlog st.
  Proof. intros st st' H. destruct (flush_spec _ _ H) as [_ [? [? _]]]. auto. Qed.

  Lemma flush_inv : forall st st', flush sc st = Ok st' -> Inv (insts st) (db st) -> Inv (insts st') (db st').
  Proof. intros st st' H. apply (flush_spec _ _ H). Qed.

  Lemma flush_log : forall st st', flush sc st = Ok st' ->
    exists delta, wlog st' = wlog st ++ delta /\ apply_writes delta (db st) = Ok (db st') /\
                  Forall (justified (insts st)) delta.
  Proof. intros st st' H. apply (flush_spec _ _ H). Qed.

  Lemma flush_clean : forall st st', flush sc st = Ok st' -> Inv (insts st) (db st) -> Forall clean (insts st').
  Proof.
    intros st st' H HI. rewrite (flush_insts _ _ H). apply Forall_forall. intros z Hz.
    apply in_map_iff in Hz. destruct Hz as [x [<- Hx]]. apply flushed_clean. intros Hl.
    destruct (inv_row _ _ HI x Hx Hl) as [t [Ht _]]. congruence.
  Qed.

  Lemma pass_id : forall f l d, (forall i, In i l -> f i d = Ok (i, d, [])) -> pass f l d = Ok (l, d, []).
  Proof.
    induction l as [|i l IH]; intros d H; simpl; auto.
    rewrite (H i) by (now left). rewrite IH; auto. intros j Hj. apply H. now right.
  Qed.

  Lemma flush_clean_id : forall st st', Forall clean (insts st) -> flush sc st = Ok st' ->
    insts st' = insts st /\ db st' = db st /\ wlog st' = wlog st.
  Proof.
    intros st st' Hc H. unfold flush in H. rewrite Forall_forall in Hc. rewrite !pass_id in H.
    - injection H as <-. simpl. rewrite !app_nil_r. auto.
    - intros i Hi. destruct (Hc i Hi) as [Hp _]. unfold flush_ins. destruct (i_life i); auto. congruence.
    - intros i Hi. destruct (Hc i Hi) as [_ Hcl]. unfold flush_upd. destruct (i_life i) eqn:El; auto.
      destruct (i_tok i); auto. rewrite (Hcl eq_refl). now rewrite row_eqb_refl.
  Qed.
End Flush.
