(* C43, 'fetch': the keys read from RETURNING are the identity keys (mapper order) of exactly the selected rows,
   for every order of the mapper's primary key; hence the synchronised objects are the updated rows. *)
From Coq Require Import List ZArith NArith Bool.
Import ListNotations.
From SAV.sql Require Import Val3 Val3Proofs.
From SAV.orm Require Import Evaluator EvaluatorProofs EvaluatorSyncProofs FetchSync.

Lemma sv_eqb_refl v : sv_eqb v v = true.
Proof. destruct v; cbn [sv_eqb]; [reflexivity|apply Z.eqb_refl|apply text_eqb_refl]. Qed.
Lemma sv_eqb_eq a b : sv_eqb a b = true -> a = b.
Proof.
  destruct a, b; cbn [sv_eqb]; intros H; try discriminate; try reflexivity.
  - apply Z.eqb_eq in H. now subst.
  - apply text_eqb_eq in H. now subst.
Qed.
Lemma svl_eqb_refl l : svl_eqb l l = true.
Proof. induction l; cbn [svl_eqb]; [reflexivity|]. now rewrite sv_eqb_refl, IHl. Qed.
Lemma svl_eqb_eq a b : svl_eqb a b = true -> a = b.
Proof.
  revert b. induction a as [|x a IH]; intros [|y b] H; try discriminate; [reflexivity|].
  cbn [svl_eqb] in H. apply andb_true_iff in H as [H1 H2]. apply sv_eqb_eq in H1. apply IH in H2. now subst.
Qed.

(* rows are functions and no extensionality is assumed: [sem] respects pointwise equality *)
Lemma sem_ext r r2 : (forall c, r c = r2 c) -> forall e, sem e r = sem e r2.
Proof.
  intros Heq e. induction e as [c|t v| | | |o a b Ha Hb|n a vs Ha|es H|es H|e He|e He|] using ex_ind'; try reflexivity.
  - apply Heq.
  - cbn [sem]. now rewrite Ha, Hb.
  - cbn [sem]. now rewrite Ha.
  - rewrite !sem_and. f_equal. induction H as [|x es Hx _ IH]; [reflexivity|]. cbn [and_sem]. now rewrite Hx, IH.
  - rewrite !sem_or. f_equal. induction H as [|x es Hx _ IH]; [reflexivity|]. cbn [or_sem]. now rewrite Hx, IH.
  - cbn [sem]. now rewrite He.
  - exact He.
Qed.

Lemma rr_lookup_returning m r c : In c m.(tpk) -> rr_lookup c (returning_row m r) = Some (r c).
Proof.
  unfold rr_lookup, returning_row. induction (tpk m) as [|c0 l IH]; intros H; [destruct H|].
  cbn [map find fst]. destruct (Nat.eqb c0 c) eqn:E.
  - apply Nat.eqb_eq in E. now subst.
  - destruct H as [H|H]; [subst; rewrite Nat.eqb_refl in E; discriminate|]. now apply IH.
Qed.

Lemma tuple_getter_returning m r cols : incl cols m.(tpk) ->
  tuple_getter cols (returning_row m r) = Some (map r cols).
Proof.
  unfold tuple_getter. induction cols as [|c cols IH]; intros H; [reflexivity|].
  cbn [map opt_all]. rewrite (rr_lookup_returning m r c) by (apply H; now left).
  rewrite IH by (intros x Hx; apply H; now right). reflexivity.
Qed.

(* [incl mpk tpk]: the identity key may list the table's key columns in any order, or only some of them *)
Theorem interpret_returning_rows_mapper_order m rows :
  m.(sub_table) = false -> incl m.(mpk) m.(tpk) ->
  interpret_returning_rows m (map (returning_row m) rows) = map (identity_of m) rows.
Proof.
  intros Hs Hi. unfold interpret_returning_rows. rewrite Hs.
  replace (opt_all (map (tuple_getter (mpk m)) (map (returning_row m) rows))) with (Some (map (identity_of m) rows)); [reflexivity|].
  induction rows as [|r rows IH]; [reflexivity|].
  cbn [map opt_all]. rewrite (tuple_getter_returning m r (mpk m) Hi). now rewrite <- IH.
Qed.

Theorem fetch_keys_correct m ur crit db : m.(sub_table) = false -> incl m.(mpk) m.(tpk) ->
  fetch_keys m ur crit db = map (identity_of m) (filter (selected crit) db).
Proof.
  intros Hs Hi. unfold fetch_keys. destruct ur; [|reflexivity].
  now apply interpret_returning_rows_mapper_order.
Qed.

(* rows of one table have distinct identity keys *)
Definition keys_distinct (m : mapping) (db : list row) : Prop :=
  forall r1 r2, In r1 db -> In r2 db -> identity_of m r1 = identity_of m r2 -> (forall c, r1 c = r2 c).

Theorem in_keys_iff_selected m ur crit db r :
  m.(sub_table) = false -> incl m.(mpk) m.(tpk) -> keys_distinct m db -> In r db ->
  in_keys m (fetch_keys m ur crit db) r = selected crit r.
Proof.
  intros Hs Hi Hd Hr. rewrite (fetch_keys_correct m ur crit db Hs Hi). unfold in_keys.
  destruct (selected crit r) eqn:E.
  - apply existsb_exists. exists (identity_of m r). split; [|apply svl_eqb_refl].
    apply in_map. apply filter_In. now split.
  - apply not_true_is_false. intros H. apply existsb_exists in H as (k & Hk & He).
    apply svl_eqb_eq in He. apply in_map_iff in Hk as (r2 & <- & Hr2). apply filter_In in Hr2 as [Hr2 Hs2].
    unfold selected in *. rewrite (sem_ext r r2 (Hd r r2 Hr Hr2 He) crit) in E. congruence.
Qed.

(* UPDATE with 'fetch': for ANY criterion the database can evaluate, the object agrees with its row afterwards
   (only the SET expressions are evaluated in Python) *)
Theorem fetch_update_in_sync sc m ur crit sets db r :
  m.(sub_table) = false -> incl m.(mpk) m.(tpk) -> keys_distinct m db -> In r db ->
  row_ok sc r -> targets_distinct sets = true -> forallb (set_ok sc r) sets = true ->
  exists o', fetch_update_obj sc m (fetch_keys m ur crit db) sets r = OOk o' /\
             forall c, o' c = obj_of (update_row crit sets r) c.
Proof.
  intros Hs Hi Hd Hr Hrow Ht Hok. unfold fetch_update_obj.
  rewrite (in_keys_iff_selected m ur crit db r Hs Hi Hd Hr), update_row_upd.
  destruct (selected crit r); [exact (apply_sets_ok sc r sets Hrow Ht Hok)|now exists (obj_of r)].
Qed.

Theorem fetch_delete_in_sync m ur crit db r :
  m.(sub_table) = false -> incl m.(mpk) m.(tpk) -> keys_distinct m db -> In r db ->
  fetch_delete_obj m (fetch_keys m ur crit db) r = if delete_row crit r then DRemoved else DKeep (obj_of r).
Proof.
  intros Hs Hi Hd Hr. unfold fetch_delete_obj, delete_row.
  now rewrite (in_keys_iff_selected m ur crit db r Hs Hi Hd Hr).
Qed.

(* why the order matters: reading the RETURNING row in TABLE order for a mapper whose identity key is
   (u, g) on a table whose primary key is (g, u) yields the mirrored key - another object's identity *)
Example table_order_is_not_identity_order :
  let m := {| tpk := [0%nat; 1%nat]; mpk := [1%nat; 0%nat]; sub_table := false |} in
  let r1 : row := fun c => match c with 0%nat => SInt 1 | 1%nat => SInt 2 | _ => SNull end in
  let r2 : row := fun c => match c with 0%nat => SInt 2 | 1%nat => SInt 1 | _ => SNull end in
  tuple_getter m.(tpk) (returning_row m r1) = Some (identity_of m r2) /\
  identity_of m r1 <> identity_of m r2 /\
  interpret_returning_rows m [returning_row m r1] = [identity_of m r1].
Proof. cbv zeta. repeat split; try reflexivity. discriminate. Qed.
