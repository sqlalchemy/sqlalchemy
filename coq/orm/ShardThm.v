(* C53 - the three clauses of the property, for all chooser functions and data sets.  Every theorem needs of
   the state only [Inv]; those stated with [reach st] get it from [reachable_inv] *)
From Coq Require Import List ZArith NArith Lia.
Import ListNotations.
From SAV.orm Require Import Shard ShardDb ShardInv ShardFlush ShardLoad ShardSticky ShardDelete ShardOps.
Open Scope Z_scope.

Section Thm.
  Variable sc : row -> N.
  Variable ic : Z -> list N.
  Variable ec : qry -> list N.
  Variable d0 : dbs.
  Hypothesis Hwf : wf_db d0.

  Notation reach := (reachable sc ic ec d0).

  (* every pending object is inserted by the flush, on the shard chosen for it (its preset identity
     token if it has one, otherwise shard_chooser applied to its attributes at flush time); it becomes
     persistent with that shard as identity token and its row is in that shard's table *)
  Theorem write_goes_to_chosen_shard : forall st st', reach st -> flush sc st = Ok st' ->
    forall o i, nth_error (insts st) o = Some i -> i_life i = Pending ->
    let s := match i_tok i with Some t => t | None => sc (i_cur i) end in
    exists i', nth_error (insts st') o = Some i' /\ i_life i' = Persistent /\ i_tok i' = Some s /\
               i_cur i' = i_cur i /\ In (i_cur i) (db st' s).
  Proof.
    intros st st' HR Hf o i Hn Hl s. pose proof (reachable_inv _ _ _ _ _ Hwf HR) as HI.
    pose proof (map_nth_error (flushed sc) _ _ Hn) as Hn'. rewrite <- (flush_insts _ _ _ Hf) in Hn'.
    rewrite (flushed_pending _ _ Hl) in Hn'. eexists. split; [exact Hn'|]. simpl. repeat split; auto.
    destruct (inv_row _ _ (flush_inv _ _ _ Hf HI) _ (nth_error_In _ _ Hn') eq_refl) as [t [Ht [Hin _]]].
    simpl in *. injection Ht as <-. exact Hin.
  Qed.

  (* statement [w] is backed by an object of [l]: [justified], except that an UPDATE need only match the
     object's primary key - refresh flushes the object with its committed attribute values *)
  Definition routed (l : list inst) (w : write) : Prop :=
    match w with
    | WIns pre s r =>
        s = match pre with Some t => t | None => sc r end /\
        exists i, In i l /\ i_life i = Pending /\ i_cur i = r /\ i_tok i = pre
    | WUpd s r => exists i, In i l /\ i_life i = Persistent /\ i_tok i = Some s /\ r_pk (i_cur i) = r_pk r
    | WDel s k => exists i, In i l /\ i_life i = Persistent /\ i_tok i = Some s /\ r_pk (i_cur i) = k
    end.

  Lemma justified_routed : forall l w, justified sc l w -> routed l w.
  Proof.
    intros l w [i [Hi J]]. destruct w; simpl in *.
    - destruct J as [? [? [? ?]]]. split; auto. exists i. auto.
    - destruct J as [? [? ?]]. exists i. repeat split; auto. congruence.
    - destruct J as [? [? ?]]. exists i. auto.
  Qed.

  Lemma flush_routed : forall st st', flush sc st = Ok st' ->
    exists delta, wlog st' = wlog st ++ delta /\ Forall (routed (insts st)) delta.
  Proof.
    intros st st' H. destruct (flush_log _ _ _ H) as [delta [Hw [_ HJ]]]. exists delta. split; auto.
    eapply Forall_impl; [|exact HJ]. apply justified_routed.
  Qed.

  (* INSERT goes to the preset token / shard_chooser(row); UPDATE and DELETE go to the identity token
     of the persistent object with that primary key; nothing else is written *)
  Theorem writes_are_routed : forall st o st' r, Inv (insts st) (db st) -> step sc ic ec st o = Ok (st', r) ->
    exists delta, wlog st' = wlog st ++ delta /\ Forall (routed (insts st)) delta.
  Proof.
    intros st o st' r HI H.
    assert (Hnil : forall s, wlog s = wlog st -> exists delta, wlog s = wlog st ++ delta /\ Forall (routed (insts st)) delta)
      by (intros s Hs; exists []; rewrite app_nil_r; auto).
    assert (Hq : forall q tgt s os, do_query sc ec st q tgt = Ok (s, os) ->
                 exists delta, wlog s = wlog st ++ delta /\ Forall (routed (insts st)) delta).
    { intros q tgt s os Eq. destruct (do_query_spec _ _ _ _ _ _ _ HI Eq) as [st1 [Ef [_ [-> _]]]].
      now apply flush_routed. }
    apply step_cases in H. destruct o.
    - subst st'. now apply Hnil.
    - destruct (do_set_spec _ _ _ _ _ H) as [_ [_ ->]]. now apply Hnil.
    - now apply flush_routed.
    - destruct H as [s [Ef ->]]. simpl. now apply flush_routed.
    - (* the DELETEs are for objects that were persistent before the flush *)
      destruct (do_delete_spec _ _ _ _ H) as [Ev [st1 [Ef Ed]]]. destruct (delete_all_spec _ _ _ Ed) as [Hw2 _].
      destruct (flush_routed _ _ Ef) as [delta [Hw HF]]. exists (delta ++ flat_map (del_of st1) (dedup os)).
      split; [rewrite Hw2, Hw; now rewrite app_assoc|]. apply Forall_app. split; auto.
      apply Forall_forall. intros w Hin. apply in_flat_map in Hin. destruct Hin as [o [Ho Hw']].
      apply (proj1 (in_dedup _ _)) in Ho.
      destruct (del_of_flushed _ _ _ _ Ef (Ev _ Ho)) as [i [t [En [El [Et Hd]]]]].
      rewrite Hd in Hw'. destruct Hw' as [<-|[]]. exists i. repeat split; auto. eapply nth_error_In; eauto.
    - destruct H as [os H]. eapply Hq; eauto.
    - destruct H as [ro H]. destruct (do_get_cases _ _ _ _ _ _ _ _ H) as [[-> _]|[os [Eq _]]]; eauto.
    - destruct (do_refresh_spec _ _ _ _ H) as [i0 [t [st1 [rw [En [El [Et [Ef [_ ->]]]]]]]]].
      destruct (flush_log _ _ _ Ef) as [delta [Hw [_ HJ]]]. simpl in *. exists delta. split; auto.
      eapply Forall_impl; [|exact HJ]. intros w [i [Hi J]].
      destruct (in_upd_nth _ _ _ _ _ En Hi) as [Hi' | ->]; [apply justified_routed; exists i; auto|].
      destruct (inv_row _ _ HI i0 (nth_error_In _ _ En) El) as [t0 [_ [_ Hpk]]].
      destruct w; simpl in *; destruct J as [Jl [J2 J3]]; [congruence | |];
        exists i0; (repeat split; [eapply nth_error_In; eauto | congruence ..]).
    - (* only the first flush writes *)
      destruct H as [ro H]. destruct (do_merge_spec _ _ _ _ _ _ _ _ H) as [st1 [st2 [ro2 [Ef [Eg Hm]]]]].
      destruct (do_get_clean _ _ _ _ _ _ _ _ (flush_inv _ _ _ Ef HI) (flush_clean _ _ _ Ef HI) Eg) as [Hw2 _].
      assert (wlog st' = wlog st1) as ->; [|now apply flush_routed]. rewrite <- Hw2. destruct ro2 as [o|].
      + destruct Hm as [Es _]. now destruct (do_set_spec _ _ _ _ _ Es) as [_ [_ ->]].
      + now destruct Hm as [-> _].
  Qed.

  (* after the autoflush, the objects returned are, in this order, one per row matching the query in
     each shard of [execute_chooser q] (or of the single shard given explicitly), rows of a shard in
     primary key order; every object carries the shard it was read from as identity token and shows
     exactly the attribute values of that row.  The legacy Query API removes repeated objects. *)
  Theorem query_is_union_of_chosen_shards : forall st q tgt legacy st' r,
    reach st -> step sc ic ec st (OQuery q tgt legacy) = Ok (st', r) ->
    exists os st1,
      r = ROids (if legacy then dedup os else os) /\
      flush sc st = Ok st1 /\ db st' = db st1 /\
      rlog st' = rlog st ++ shards_for ec q tgt /\
      map (view (insts st')) os = map Some (expected q (shards_for ec q tgt) (db st')).
  Proof.
    intros st q tgt legacy st' r HR H. pose proof (reachable_inv _ _ _ _ _ Hwf HR) as HI.
    simpl in H. destruct (do_query sc ec st q tgt) as [[s os]|] eqn:E; [|discriminate]. injection H as <- <-.
    destruct (do_query_spec _ _ _ _ _ _ _ HI E) as [st1 [Ef [Hd [_ [Hr [_ [_ Hv]]]]]]].
    exists os, st1. repeat split; auto.
  Qed.

  (* the identity map is keyed by (pk, token): two different objects never share both *)
  Theorem identity_keys_distinct : forall st o1 o2 i1 i2 t1 t2,
    Inv (insts st) (db st) -> nth_error (insts st) o1 = Some i1 -> nth_error (insts st) o2 = Some i2 -> o1 <> o2 ->
    i_life i1 = Persistent -> i_life i2 = Persistent -> i_tok i1 = Some t1 -> i_tok i2 = Some t2 ->
    (r_pk (i_cur i1), t1) <> (r_pk (i_cur i2), t2).
  Proof.
    intros st o1 o2 i1 i2 t1 t2 HI H1 H2 Hne L1 L2 T1 T2 He.
    eapply (keys_distinct _ _ _ _ _ (r_pk (i_cur i1), t1) (inv_key _ _ HI) H1 H2 Hne).
    - now apply key_of_persistent.
    - rewrite He. now apply key_of_persistent.
  Qed.

  (* rows matching the query in two different chosen shards come back as two different objects -
     in particular when they have the same primary key *)
  Theorem same_pk_different_shards_distinct : forall st q tgt st' os s1 s2 r1 r2,
    reach st -> do_query sc ec st q tgt = Ok (st', os) ->
    In s1 (shards_for ec q tgt) -> In s2 (shards_for ec q tgt) -> s1 <> s2 ->
    In r1 (db st' s1) -> qmatch q r1 = true -> In r2 (db st' s2) -> qmatch q r2 = true ->
    exists o1 o2, In o1 os /\ In o2 os /\ o1 <> o2 /\
                  view (insts st') o1 = Some (s1, r1) /\ view (insts st') o2 = Some (s2, r2).
  Proof.
    intros st q tgt st' os s1 s2 r1 r2 HR H S1 S2 Hne R1 Q1 R2 Q2.
    pose proof (reachable_inv _ _ _ _ _ Hwf HR) as HI.
    destruct (do_query_spec _ _ _ _ _ _ _ HI H) as [st1 [_ [_ [_ [_ [_ [_ Hv]]]]]]].
    apply (distinct_results _ _ _ (s1, r1) (s2, r2) Hv); [apply in_expected; auto .. | congruence].
  Qed.

  (* get with an identity token consults only that shard: the identity map under (pk, token), then at
     most one SELECT, on that shard; the answer is an object of that shard with that primary key, or
     None exactly when the shard has no such row *)
  Theorem get_with_token_hits_only_that_shard : forall st k t st' res,
    Inv (insts st) (db st) -> do_get sc ic ec st k (Some t) = Ok (st', res) ->
    (rlog st' = rlog st \/ rlog st' = rlog st ++ [t]) /\
    match res with
    | Some o => exists i, nth_error (insts st') o = Some i /\ i_tok i = Some t /\ r_pk (i_cur i) = k /\
                          has_pk k (db st' t) = true
    | None => has_pk k (db st' t) = false
    end.
  Proof.
    intros st k t st' res HI H.
    destruct (do_get_cases _ _ _ _ _ _ _ _ H) as [[-> [o [t' [-> [Hl ->]]]]]|[os [Eq Hres]]].
    - split; auto. destruct (lookup_some _ _ _ _ Hl) as [i [Hn [Hlf [Ht Hk]]]]. exists i. repeat split; auto.
      apply has_pk_true, (key_in_db _ _ _ _ HI), in_keys. exists i. eauto using nth_error_In.
    - destruct (do_query_spec _ _ _ _ _ _ _ HI Eq) as [st1 [_ [_ [_ [Hr [_ [_ Hv]]]]]]].
      split; [now right|]. destruct Hres as [[-> Hd]|[o [-> Hd]]].
      + apply dedup_nil in Hd. subst os. unfold expected in Hv. simpl in Hv. apply select_pk_nil.
        destruct (sql_select (QPk k) (db st' t)); [auto | discriminate].
      + assert (Ho : In o os) by (apply in_dedup; rewrite Hd; now left).
        destruct (map_eq_in _ _ _ _ _ (eq_sym Hv) Ho) as [[t' rw] [Hin Hvo]].
        apply in_expected in Hin. destruct Hin as [[<-|[]] [Hin Hq]]. apply Z.eqb_eq in Hq.
        destruct (view_some _ _ _ _ (eq_sym Hvo)) as [i [En [Eti Ec]]].
        exists i. repeat split; try congruence. apply has_pk_true. rewrite <- Hq. unfold pks. now apply in_map.
  Qed.

  (* deleting any set of persistent objects in ONE flush removes exactly the rows of their identities
     (pk, token), each from the shard named by the token: a row of shard s survives iff no deleted object
     has token s and that primary key - in particular a row with the same primary key in ANOTHER shard is
     deleted only if its own object is deleted too, and then it is.  One DELETE per object is emitted. *)
  Theorem flush_deletes_exactly_the_deleted_identities : forall st os st', do_delete sc st os = Ok st' ->
    exists st1, flush sc st = Ok st1 /\
      wlog st' = wlog st1 ++ flat_map (del_of st1) (dedup os) /\
      (forall o, In o os -> exists i, nth_error (insts st) o = Some i /\ i_life i = Persistent /\
                            del_of st1 o = match i_tok i with Some t => [WDel t (r_pk (i_cur i))] | None => [] end) /\
      (forall s x, In x (db st' s) <->
                   In x (db st1 s) /\ ~ exists o, In o os /\ is_identity st1 o s (r_pk x)).
  Proof.
    intros st os st' H. destruct (do_delete_spec _ _ _ _ H) as [Ev [st1 [Ef Ed]]]. exists st1. split; auto.
    destruct (delete_all_spec _ _ _ Ed) as [Hw [_ Hdb]]. split; auto. split.
    - intros o Ho.
      destruct (del_of_flushed _ _ _ _ Ef (Ev _ Ho)) as [i [t [En [El [Et Hd]]]]].
      exists i. rewrite Et. auto.
    - intros s x. rewrite Hdb, Forall_forall. split; intros [Hx Hn]; split; auto.
      + intros [o [Ho Hi]]. apply (Hn o); auto. now apply in_dedup.
      + intros o Ho Hi. apply Hn. exists o. split; auto. now apply (proj1 (in_dedup _ _)).
  Qed.

  (* merge of a detached object whose identity key is (pk, t): after the autoflush the target is looked
     up under (pk, t) only - identity map, then at most one SELECT on shard t.  The returned object shows
     the given values and either carries token t (and shard t has that primary key), or is a NEW pending
     object (no token yet) and shard t has no such row.  No other object changes. *)
  Theorem merge_targets_pk_and_token : forall st r t st' ro,
    Inv (insts st) (db st) -> do_merge sc ic ec st r t = Ok (st', ro) ->
    exists st1 o i, flush sc st = Ok st1 /\ ro = Some o /\ db st' = db st1 /\
      (rlog st' = rlog st \/ rlog st' = rlog st ++ [t]) /\
      nth_error (insts st') o = Some i /\ i_cur i = r /\
      ((i_tok i = Some t /\ has_pk (r_pk r) (db st' t) = true) \/
       (i_life i = Pending /\ i_tok i = None /\ has_pk (r_pk r) (db st' t) = false /\ (length (insts st1) <= o)%nat)) /\
      (forall o' i', o' <> o -> nth_error (insts st1) o' = Some i' -> nth_error (insts st') o' = Some i').
  Proof.
    intros st r t st' ro HI H.
    destruct (do_merge_spec _ _ _ _ _ _ _ _ H) as [st1 [st2 [ro2 [Ef [Eg Hm]]]]].
    pose proof (flush_inv _ _ _ Ef HI) as HI1. destruct (flush_frame _ _ _ Ef) as [_ Hr1].
    destruct (do_get_clean _ _ _ _ _ _ _ _ HI1 (flush_clean _ _ _ Ef HI) Eg) as [_ [Hd2 [xx Hx2]]].
    destruct (get_with_token_hits_only_that_shard _ _ _ _ _ HI1 Eg) as [Hrl Hres]. rewrite Hr1 in Hrl.
    assert (Hkeep : forall o' i', nth_error (insts st1) o' = Some i' -> nth_error (insts st2) o' = Some i').
    { intros o' i' Hn. rewrite Hx2. now apply nth_app_some. }
    exists st1. destruct ro2 as [o|].
    - destruct Hm as [Es ->]. destruct (do_set_spec _ _ _ _ _ Es) as [_ [_ ->]]. simpl.
      destruct Hres as [i [Hn [Ht [Hk Hp]]]].
      exists o, (mkInst (mkRow (r_pk (i_cur i)) (r_grp r) (r_val r)) (i_old i) (i_life i) (i_tok i)).
      repeat (split; [solve [auto]|]). split; [exact (nth_upd_same _ _ _ _ Hn)|].
      split; [simpl; rewrite Hk; now destruct r|]. split; [auto|].
      intros o' i' Hne Hn'. rewrite nth_upd_other by auto. auto.
    - destruct Hm as [-> ->]. simpl. exists (length (insts st2)), (mkInst r r Pending None).
      repeat (split; [solve [auto]|]). split; [apply nth_snoc|].
      split; auto. split.
      + right. repeat split; auto. rewrite Hx2, app_length. lia.
      + intros o' i' _ Hn'. now apply nth_app_some, Hkeep.
  Qed.

  (* once an object is persistent (or deleted) its identity token and primary key are fixed for the rest
     of the program, whatever is assigned to its attributes and whatever the choosers would say later *)
  Theorem token_is_sticky : forall st ops st' o i, Inv (insts st) (db st) ->
    run sc ic ec st ops = Ok st' -> nth_error (insts st) o = Some i -> i_life i <> Pending ->
    exists i', nth_error (insts st') o = Some i' /\ i_tok i' = i_tok i /\ r_pk (i_cur i') = r_pk (i_cur i).
  Proof.
    intros st ops st' o i HI H Hn Hl. destruct (run_later _ _ _ _ _ _ HI H) as [_ [_ He]].
    destruct (He _ _ Hn Hl) as [i' [Hn' [? [? _]]]]. eauto.
  Qed.
End Thm.
