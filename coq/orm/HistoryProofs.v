(* C36 - the History constructors against the declarative net difference, get_history in closed
   form, and the shape of the operations: what a read can do to the state, what an assignment is
   made of, and the common skeleton of the collection mutators.
   Reading the state [st] of History.v: for an attribute a, [a_d] is its entry in obj.__dict__,
   [a_c] its entry in state.committed_state, [a_e] whether it is expired (as set by [expire], cleared
   by [load_expired]; [id_e], [bid_e]: the primary key and foreign key columns); [db_*] is the
   database row. *)
From Coq Require Import List NArith Bool Lia.
Import ListNotations.
From SAV.orm Require Import History HistorySpec.
Open Scope N_scope.

Lemma from_scalar_clean : forall cur,
  from_scalar NoHist cur = match cur with None => blank | Some c => ([], [c], []) end.
Proof. destruct cur; reflexivity. Qed.

Lemma from_scalar_known : forall p cur, from_scalar (CVal p) cur = net_diff_scalar (Known p) cur.
Proof.
  intros p [c|]; unfold from_scalar, net_diff_scalar; cbn [is_nohist is_nostate]; [|reflexivity].
  destruct (c =? p); reflexivity.
Qed.

Lemma from_scalar_unknown : forall o cur, is_nostate o = true ->
  from_scalar o cur = net_diff_scalar Unknown cur.
Proof. intros [| | |v] [c|] H; try discriminate H; reflexivity. Qed.

Lemma from_object_clean : forall cur,
  from_object NoHist cur = match cur with None => blank | Some c => ([], [c], []) end.
Proof. destruct cur; reflexivity. Qed.

Lemma from_object_known : forall p cur, from_object (CVal p) cur = net_diff_object (Known p) cur.
Proof.
  intros p [c|]; unfold from_object, net_diff_object; cbn [is_nohist is_nostate orb].
  - destruct (c =? p) eqn:E; [reflexivity|].
    destruct p; cbn [N.eqb]; reflexivity.
  - destruct p; reflexivity.
Qed.

Lemma from_object_unknown : forall o cur, is_nostate o = true ->
  from_object o cur = net_diff_object Unknown cur.
Proof. intros [| | |v] [c|] H; try discriminate H; reflexivity. Qed.

Lemma from_collection_clean : forall cur,
  from_collection NoHist cur = match cur with None => blank | Some c => ([], c, []) end.
Proof. destruct cur; reflexivity. Qed.

Lemma from_collection_known : forall o cur,
  from_collection (CVal o) cur = net_diff_coll (Known o) cur.
Proof. intros o [c|]; reflexivity. Qed.

Lemma from_collection_unknown : forall o cur, is_nostate o = true ->
  from_collection o cur = net_diff_coll Unknown cur.
Proof. intros [| | |v] [c|] H; try discriminate H; reflexivity. Qed.

Section GetFacts.
  Context {A : Type} (gd : st -> option A) (gc : st -> comm A)
          (loader : passive -> st -> st * lres A) (commit_set : A -> st -> st) (dflt : A).
  Local Notation get := (get A gd gc loader commit_set dflt).

  Lemma get_hit : forall p s v, gd s = Some v -> get p s = (s, GVal v).
  Proof. intros p s v D. unfold History.get. rewrite D. reflexivity. Qed.

  (* the state after a read: untouched, as the loader left it, or with the loaded value committed;
     the last only for an absent attribute without a captured value *)
  Lemma get_cases : forall p s,
    fst (get p s) = s \/ fst (get p s) = fst (loader p s) \/
    exists v, gd s = None /\ (gc s = NoHist \/ gc s = CNoValue) /\ snd (loader p s) = LVal v /\
              get p s = (commit_set v (fst (loader p s)), GVal v).
  Proof.
    intros p s. unfold History.get. destruct (gd s); [left; reflexivity|].
    destruct (gc s); try (left; destruct (init_ok p); reflexivity);
      (destruct (callables_ok p); [|left; reflexivity]);
      destruct (loader p s) as [s1 [| | | |v]]; cbn [negb fst snd];
      try (right; left; reflexivity);
      try (right; left; destruct (gd s1); reflexivity);
      try (right; left; destruct (init_ok p); reflexivity);
      right; right; exists v; auto.
  Qed.

  Lemma get_rule : forall (R : st -> Prop) p s,
    R s -> R (fst (loader p s)) ->
    (forall v, gd s = None -> gc s = NoHist \/ gc s = CNoValue -> snd (loader p s) = LVal v ->
               R (commit_set v (fst (loader p s)))) ->
    R (fst (get p s)).
  Proof.
    intros R p s H0 H1 H2. destruct (get_cases p s) as [-> | [-> | (v & D & C & L & ->)]]; auto.
    apply H2; assumption.
  Qed.

  (* PASSIVE_OFF: unless the loader itself gives up, the read yields a value; the KeyError is that
     of a refresh that did not bring the attribute back *)
  Lemma get_off : forall s,
    snd (loader P_OFF s) <> LNoResult -> snd (loader P_OFF s) <> LNoValue ->
    (exists v, snd (get P_OFF s) = GVal v) \/
    (snd (loader P_OFF s) = LWasSet /\ snd (get P_OFF s) = GRaise KeyError).
  Proof.
    intros s NR NV. unfold History.get. destruct (gd s); [left; eexists; reflexivity|].
    destruct (gc s); try (left; eexists; reflexivity);
      cbn [P_OFF callables_ok negb init_ok];
      destruct (loader P_OFF s) as [s1 [| | | |v]]; cbn [snd] in *;
      try contradiction; try (left; eexists; reflexivity);
      (destruct (gd s1); [left; eexists; reflexivity|right; split; reflexivity]).
  Qed.

  Lemma read_off : forall (f : A -> ret) s,
    snd (loader P_OFF s) <> LNoResult -> snd (loader P_OFF s) <> LNoValue ->
    snd (read f (get P_OFF s)) <> Fail Unreachable.
  Proof.
    intros f s NR NV. unfold read.
    destruct (get_off s NR NV) as [[v ->]|[_ ->]]; discriminate.
  Qed.
End GetFacts.

Lemma get_b_hit : forall p s v, b_d s = Some v -> get_b p s = (s, GVal v).
Proof. intros p s v. apply get_hit. Qed.
Lemma get_c_hit : forall p s l, c_d s = Some l -> get_c p s = (s, GVal l).
Proof. intros p s l. apply get_hit. Qed.

Lemma read_fst : forall A (f : A -> ret) (sr : st * gres A), fst (read f sr) = fst sr.
Proof. intros A f [s r]. unfold read. cbn. destruct r; reflexivity. Qed.

(* get_history(PASSIVE_NO_INITIALIZE) in closed form *)
Lemma hist_x_eq : forall s, hist_x s = from_scalar (x_c s) (x_d s).
Proof.
  intros s. unfold hist_x. destruct (x_d s) eqn:D; [reflexivity|].
  destruct (x_c s) eqn:C; cbn [is_nohist negb]; try reflexivity.
  unfold get_x, get. rewrite D, C. reflexivity.
Qed.

Lemma hist_b_eq : forall s,
  hist_b s = match b_d s, b_c s with
             | None, CNoValue => blank
             | d, c => from_object c d
             end.
Proof.
  intros s. unfold hist_b, get_b, get.
  destruct (b_d s) eqn:D; [destruct (b_c s); reflexivity|].
  destruct (b_c s) eqn:C; reflexivity.
Qed.

Lemma hist_c_eq : forall s, hist_c s = from_collection (c_c s) (c_d s).
Proof.
  intros s. unfold hist_c, get_c, get.
  destruct (c_d s) eqn:D; [reflexivity|].
  destruct (c_c s) eqn:C; reflexivity.
Qed.

(* _modified_event: the first change captures, later ones do not *)
Lemma mod_x_c : forall prev s, x_c (mod_x prev s) = if is_nohist (x_c s) then prev else x_c s.
Proof. intros prev s. unfold mod_x. destruct (is_nohist (x_c s)); reflexivity. Qed.
Lemma mod_b_c : forall prev s, b_c (mod_b prev s) = if is_nohist (b_c s) then prev else b_c s.
Proof. intros prev s. unfold mod_b. destruct (is_nohist (b_c s)); reflexivity. Qed.
Lemma mod_c_c : forall prev s, c_c (mod_c prev s) =
  if is_nohist (c_c s) then match prev, c_d s with CNoValue, Some l => CVal l | _, _ => prev end
  else c_c s.
Proof. intros prev s. unfold mod_c. destruct (is_nohist (c_c s)); reflexivity. Qed.

(* assignments and deletions: capture, then store; [fst (set_x v s)] is [assign_x (Some v) s] by
   computation *)
Definition assign_x (nv : option val) (s : st) : st := set_x_d nv (mod_x (old_plain s) s).
Definition assign_b (nv : option val) (s : st) : st :=
  let (s1, old) := get_b P_NO_FETCH_NO_INIT s in set_b_d nv (mod_b (comm_of_gres old) s1).

Lemma del_x_fst : forall s, fst (del_x s) = s \/ fst (del_x s) = assign_x None s.
Proof. intros s. unfold del_x. destruct (_ && _); auto. Qed.
Lemma set_b_fst : forall v s, fst (set_b v s) = assign_b (Some v) s.
Proof. intros v s. unfold set_b, assign_b. destruct (get_b _ s). reflexivity. Qed.
Lemma del_b_fst : forall s, fst (del_b s) = assign_b None s.
Proof. intros s. unfold del_b, assign_b. destruct (get_b _ s). destruct (_ && _); reflexivity. Qed.

(* reading a.cs always succeeds *)
Lemma loader_c_off : forall s,
  snd (loader_c P_OFF s) = LEmpty \/ exists l, snd (loader_c P_OFF s) = LVal l.
Proof. intros s. unfold loader_c. destruct (persistent s); cbn; eauto. Qed.

Lemma get_c_off_val : forall s, exists l, snd (get_c P_OFF s) = GVal l.
Proof.
  intros s. destruct (get_off c_d c_c loader_c commit_c [] s) as [H|[E _]]; auto;
    destruct (loader_c_off s) as [H|[l H]]; congruence.
Qed.

Lemma coll_touch_get : forall s, fst (coll_touch s) = fst (get_c P_OFF s).
Proof.
  intros s. unfold coll_touch. destruct (c_d s) eqn:D.
  - rewrite (get_c_hit _ _ _ D). reflexivity.
  - destruct (get_c P_OFF s). reflexivity.
Qed.

Lemma coll_touch_eq : forall s, coll_touch s = (fst (coll_touch s), true).
Proof.
  intros s. unfold coll_touch. destruct (c_d s); [reflexivity|].
  destruct (get_c_off_val s) as [l E]. destruct (get_c P_OFF s). cbn in E. rewrite E. reflexivity.
Qed.

(* all of them but bulk replacement and [del a.cs] read the collection first *)
Definition via_touch (o : op) : bool :=
  match o with
  | CAdd _ | CRem _ | CGet | CPop _ | CPopD _ | CPopItem | CDelKey _ | CSetDefault _ | CUpdate _ | CClear => true
  | _ => false
  end.

(* ... and then fire events and store the new contents: a store always follows an event, a
   second event may precede it (replacing the holder of a dict key, a pop).  [before_pop] is the
   pre-remove event of c_pop / c_popitem only. *)
Section TouchOps.
  Variable P : st -> Prop.
  Hypothesis P_event : forall s, P s -> P (coll_event s).
  Hypothesis P_before_pop : forall s, P s -> P (before_pop s).
  Hypothesis P_store : forall l s, P s -> P (set_c_d (Some l) (coll_event s)).

  Lemma update_fold_rule : forall l s, P s -> P (fold_left update_one l s).
  Proof.
    induction l as [|o rest IH]; intros s H; cbn [fold_left]; [exact H|]. apply IH. unfold update_one.
    destruct (holder _ _) as [p|]; [destruct (p =? o); [exact H|]|];
      unfold dict_setitem; destruct (same_key _ _); auto.
  Qed.

  Lemma touch_op_rule : forall k o s, via_touch o = true ->
    P (fst (coll_touch s)) -> P (fst (step k o s)).
  Proof.
    intros k o s V H.
    destruct o; try discriminate V; cbn [step];
      unfold c_add, c_rem, c_get, c_pop, c_popitem, c_delkey, c_setdefault, c_update, c_clear;
      rewrite coll_touch_eq; cbn [negb]; revert H; generalize (fst (coll_touch s)); intros s1 H.
    - destruct k; [|destruct (memb _ _)|destruct (same_key _ _)]; cbn [fst]; auto.
    - destruct k; [destruct (memb _ _)|destruct (memb _ _)|
                   destruct (holder _ _) as [p|]; [destruct (p =? o)|]]; cbn [fst]; auto.
    - exact H.
    - destruct (holder _ _); cbn [fst]; auto.
    - destruct (holder _ _); cbn [fst]; auto.
    - destruct (last_of _); cbn [fst]; auto.
    - destruct (holder _ _); cbn [fst]; auto.
    - destruct (same_key _ _); cbn [fst]; auto.
    - apply update_fold_rule. exact H.
    - destruct (cur_coll s1); cbn [fst]; auto.
  Qed.
End TouchOps.

(* a mutator that raises has fired at most the pre-remove event *)
Lemma touch_op_fail : forall k o s s' e, via_touch o = true -> step k o s = (s', Fail e) ->
  e <> Unreachable /\ (s' = fst (coll_touch s) \/ s' = before_pop (fst (coll_touch s))).
Proof.
  intros k o s s' e V. destruct o; try discriminate V; cbn [step];
    unfold c_add, c_rem, c_get, c_pop, c_popitem, c_delkey, c_setdefault, c_update, c_clear;
    rewrite coll_touch_eq; cbn [negb]; generalize (fst (coll_touch s)); intros s1.
  - destruct k; [| destruct (memb _ _) | destruct (same_key _ _)]; discriminate.
  - destruct k; [destruct (memb _ _)|destruct (memb _ _)|
                 destruct (holder _ _) as [p|]; [destruct (p =? o)|]];
      intros H; inversion H; split; auto; discriminate.
  - discriminate.
  - destruct (holder _ _); intros H; inversion H; split; auto; discriminate.
  - destruct (holder _ _); discriminate.
  - destruct (last_of _); intros H; inversion H; split; auto; discriminate.
  - destruct (holder _ _); intros H; inversion H; split; auto; discriminate.
  - destruct (same_key _ _); discriminate.
  - discriminate.
  - destruct (cur_coll s1); discriminate.
Qed.
