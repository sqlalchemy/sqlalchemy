(* C32 - the theorems: a flush that fails at any point (statement k, flush events, real statement errors)
   commits nothing, and Session.rollback() afterwards leaves a session that agrees with the database. *)
From Coq Require Import List ZArith Bool Arith Lia.
Import ListNotations.
From SAV.orm Require Import SessTxn SessTxnSpec SessTxnInv SessTxnDbInv SessTxnCore SessTxnFlushCore SessTxnMain
  FlushFail FlushFailInv.
Open Scope nat_scope.

(* Session.rollback() from any state of the invariant *)
Lemma rollback_from_inv : forall st, Inv st ->
  exists s2, do_op ORollback st = (Ok, s2) /\ Inv s2 /\ stack s2 = [] /\ is_clean s2 = true /\
    committed s2 = committed st /\ work s2 = committed st /\ agrees s2 = true /\ no_pending s2 = true /\
    nobj s2 = nobj st /\ handles s2 = handles st /\ eoc s2 = eoc st.
Proof.
  intros st [gs C]. destruct (op_rollback_core st gs C) as (s2 & E & C2 & S2 & Cl & K1 & K2 & K3 & K4 & K5).
  exists s2. split; [exact E|]. split; [exists []; exact C2|]. split; [exact S2|]. split; [exact Cl|]. split; [exact K1|].
  destruct (DbOk_empty _ _ (c_db _ _ C2) S2) as [Hw _].
  split; [congruence|]. split; [apply Good_agrees; exact (c_good _ _ C2)|].
  split; [|repeat split; congruence].
  exact (clean_no_pending s2 (c_good _ _ C2) Cl).
Qed.

(* ---- the three statements of C32, for a state of the C33 invariant ---- *)

(* nothing is committed: neither by the failing flush nor by the rollback after it; after the rollback the
   connection's rows are the committed rows (no partial effect survives) *)
Theorem nothing_committed : forall ft st r s1, Inv st -> flush_fault ft st = (r, s1) -> r <> Unmodelled ->
  committed s1 = committed st /\
  exists s2, do_op ORollback s1 = (Ok, s2) /\ committed s2 = committed st /\ work s2 = committed st /\ stack s2 = [].
Proof.
  intros ft st r s1 [gs C] H Hr.
  destruct (flush_fault_core ft st gs r s1 C H Hr) as [C1 P]. pose proof (fp_committed _ _ _ P) as Hc.
  split; [exact Hc|].
  destruct (rollback_from_inv s1 (ex_intro _ gs C1)) as (s2 & E & _ & S2 & _ & K1 & K2 & _).
  exists s2. repeat split; congruence.
Qed.

(* after the rollback every object agrees with the database and nothing is pending or modified *)
Theorem after_rollback_objects_agree_with_db : forall ft st r s1, Inv st -> flush_fault ft st = (r, s1) -> r <> Unmodelled ->
  exists s2, do_op ORollback s1 = (Ok, s2) /\ agrees s2 = true /\ no_pending s2 = true /\ is_clean s2 = true.
Proof.
  intros ft st r s1 [gs C] H Hr.
  destruct (flush_fault_core ft st gs r s1 C H Hr) as (C1 & _).
  destruct (rollback_from_inv s1 (ex_intro _ gs C1)) as (s2 & E & _ & _ & Cl & _ & _ & A & P & _).
  exists s2. auto.
Qed.

(* the session is recoverable: the failing flush itself keeps the invariant (so every C33 theorem applies
   to whatever the application does next, e.g. the re-run), the transaction is either untouched or
   DEACTIVE with its snapshot restored, and the rollback ends in a clean session outside a transaction *)
Theorem session_recoverable : forall ft st r s1, Inv st -> flush_fault ft st = (r, s1) -> r <> Unmodelled ->
  Inv s1 /\ nobj s1 = nobj st /\ handles s1 = handles st /\
  (r <> Ok -> hd_state s1 = hd_state st \/ (hd_state st = Some ACTIVE /\ hd_state s1 = Some DEACTIVE /\ is_clean s1 = true)) /\
  exists s2, do_op ORollback s1 = (Ok, s2) /\ Inv s2 /\ stack s2 = [] /\ is_clean s2 = true.
Proof.
  intros ft st r s1 [gs C] H Hr.
  destruct (flush_fault_core ft st gs r s1 C H Hr) as [C1 P].
  split; [exists gs; exact C1|]. split; [exact (fp_nobj _ _ _ P)|]. split; [exact (fp_handles _ _ _ P)|]. split; [exact (fp_err _ _ _ P)|].
  destruct (rollback_from_inv s1 (ex_intro _ gs C1)) as (s2 & E & I2 & S2 & Cl & _).
  exists s2. auto.
Qed.

(* ---- histories: the guarded operations of C33 and faulty flushes (no restriction on the fault) ---- *)
Definition fguard (st : sess) (p : fop) : bool := match p with Plain q => guard st q | Faulty _ => true end.
Inductive FReach (e : bool) : sess -> Prop :=
  | freach_init : FReach e (sess0 e)
  | freach_step : forall st p r st', FReach e st -> fguard st p = true -> do_fop p st = (r, st') ->
      r <> Unmodelled -> FReach e st'.

Theorem freach_inv : forall e st, FReach e st -> Inv st.
Proof.
  intros e st H. induction H; [apply inv_init|].
  destruct p as [q|ft]; cbn [do_fop fguard] in *.
  - eapply do_op_inv; eauto.
  - destruct IHFReach as [gs C]. destruct (flush_fault_core ft st gs r st' C H1 H2) as [C' _]. exists gs. exact C'.
Qed.

Theorem nothing_committed_reach : forall e ft st r s1, FReach e st -> flush_fault ft st = (r, s1) -> r <> Unmodelled ->
  committed s1 = committed st /\
  exists s2, do_op ORollback s1 = (Ok, s2) /\ committed s2 = committed st /\ work s2 = committed st /\ stack s2 = [].
Proof. intros e ft st r s1 R. apply nothing_committed. eapply freach_inv; eauto. Qed.

Theorem after_rollback_agree_reach : forall e ft st r s1, FReach e st -> flush_fault ft st = (r, s1) -> r <> Unmodelled ->
  exists s2, do_op ORollback s1 = (Ok, s2) /\ agrees s2 = true /\ no_pending s2 = true /\ is_clean s2 = true.
Proof. intros e ft st r s1 R. apply after_rollback_objects_agree_with_db. eapply freach_inv; eauto. Qed.

(* the failing flush and the rollback after it stay inside the guarded histories: everything C33 proves
   about guarded histories holds for whatever follows (the re-run) *)
Theorem recoverable_reach : forall e ft st r s1, FReach e st -> flush_fault ft st = (r, s1) -> r <> Unmodelled ->
  FReach e s1 /\ nobj s1 = nobj st /\ handles s1 = handles st /\
  (r <> Ok -> hd_state s1 = hd_state st \/ (hd_state st = Some ACTIVE /\ hd_state s1 = Some DEACTIVE /\ is_clean s1 = true)) /\
  exists s2, do_op ORollback s1 = (Ok, s2) /\ FReach e s2 /\ stack s2 = [] /\ is_clean s2 = true.
Proof.
  intros e ft st r s1 R H Hr.
  assert (R1 : FReach e s1) by (eapply (freach_step e st (Faulty ft)); eauto).
  destruct (session_recoverable ft st r s1 (freach_inv e st R) H Hr) as (_ & N & Hh & F & s2 & E2 & _ & S2 & Cl2).
  split; [exact R1|]. split; [exact N|]. split; [exact Hh|]. split; [exact F|].
  exists s2. split; [exact E2|]. split; [|auto].
  eapply (freach_step e s1 (Plain ORollback)); eauto; discriminate.
Qed.

Open Scope Z_scope.
Definition finalf (e : bool) (ps : list fop) : res * sess := last (runf (sess0 e) ps) (Ok, sess0 e).
Definition res_is (r : res) (c : Z) : bool := match r with Err c' => Z.eqb c c' | _ => false end.
Definition is_none {A} (x : option A) : bool := match x with None => true | _ => false end.

(* the crash oracle is not vacuous: the driver failure after the second statement of the flush comes out,
   the transaction is DEACTIVE, the INSERT that had run is gone from the connection's rows *)
Definition w_fault : list fop :=
  [Plain (ONew 1 0); Plain (ONew 2 1); Plain OCommit; Plain (OSetV 0 2); Plain (ONew 3 1); Faulty (FStmt 1)].
Definition fault_fires_check : bool :=
  let (r, st) := finalf true w_fault in
  res_is r E_FAULT && match stack st with f :: _ => tstate_eqb (fstate f) DEACTIVE | [] => false end &&
  is_none (work st 3) && is_none (committed st 3).
Lemma fault_fires : fault_fires_check = true.
Proof. vm_compute. reflexivity. Qed.

(* finding C32-expunged-object-with-key-switch-left-detached, repaired in /repo 6d10bc4:
   new(1,0); flush; o.id = 2; flush failing in after_flush_postexec; rollback: the object, added in the
   rolled back transaction, is transient again (no identity key; key 1 is of a row that never was committed) *)
Definition w_d7 : list fop :=
  [Plain (ONew 1 0); Plain OFlush; Plain (OSetPK 0 2); Faulty FPost; Plain ORollback].
Definition all_keyless (st : sess) : bool := forallb (fun o => is_none (okey (objs st o))) (all_objs st).
Theorem added_object_transient_again :
  fst (finalf false w_d7) = Ok /\ all_keyless (snd (finalf false w_d7)) = true /\
  oatt (objs (snd (finalf false w_d7)) 0%nat) = false /\ committed (snd (finalf false w_d7)) 1 = None.
Proof. vm_compute. repeat split; reflexivity. Qed.
