(* C33 - the statements of one flush against the table: every object's row stays its own. *)
From Coq Require Import List ZArith Bool Arith Lia.
Import ListNotations.
From SAV.orm Require Import SessTxn SessTxnBase SessTxnInv SessTxnOps.
Open Scope nat_scope.

(* everything but the objects and the working table *)
Definition same_but_ow (s t : sess) : Prop :=
  eoc s = eoc t /\ nobj s = nobj t /\ snew s = snew t /\ sdel s = sdel t /\ stack s = stack t /\
  handles s = handles t /\ committed s = committed t /\ saves s = saves t /\ nfid s = nfid t.
Lemma sbo_refl : forall s, same_but_ow s s.
Proof. intros; repeat split. Qed.
Lemma sbo_trans : forall a b c, same_but_ow a b -> same_but_ow b c -> same_but_ow a c.
Proof. unfold same_but_ow. intros a b c H1 H2. intuition congruence. Qed.

(* what a load may do to an object: fill in unloaded values *)
Definition obj_le (x y : obj) : Prop :=      (* y is x, possibly with more values loaded *)
  okey y = okey x /\ oatt y = oatt x /\ odelf y = odelf x /\ oin y = oin x /\
  omod y = omod x /\ ocid y = ocid x /\ ocv y = ocv x /\
  (odid x <> None -> odid y = odid x) /\ (odv x <> None -> odv y = odv x).
Lemma obj_le_refl : forall x, obj_le x x.
Proof. intros; repeat split; auto. Qed.
Lemma obj_le_trans : forall x y z, obj_le x y -> obj_le y z -> obj_le x z.
Proof.
  unfold obj_le. intros x y z [A1 [A2 [A3 [A4 [A5 [A6 [A7 [A8 A9]]]]]]]] [B1 [B2 [B3 [B4 [B5 [B6 [B7 [B8 B9]]]]]]]].
  repeat split; try congruence.
  - intros H. rewrite <- (A8 H). apply B8. rewrite (A8 H). exact H.
  - intros H. rewrite <- (A9 H). apply B9. rewrite (A9 H). exact H.
Qed.

(* the object after load_row found the row (k, v) *)
Definition loaded (ob : obj) (k v : Z) : obj :=
  o_exp (o_dv (o_did ob (match ocid ob, odid ob with None, None => Some k | _, d => d end))
              (match ocv ob, odv ob with None, None => Some v | _, d => d end)) false.

Lemma load_row_found : forall o st k v, okey (objs st o) = Some k -> work st k = Some v ->
  load_row o st = (Ok, set_obj st o (loaded (objs st o) k v)).
Proof. intros o st k v Hk Hw. unfold load_row. rewrite Hk, Hw. reflexivity. Qed.

Lemma loaded_le : forall ob k v, obj_le ob (loaded ob k v).
Proof.
  intros ob k v. unfold obj_le, loaded. cbn. repeat split; auto.
  - intros H. destruct (ocid ob), (odid ob); congruence.
  - intros H. destruct (ocv ob), (odv ob); congruence.
Qed.
Lemma loaded_VA : forall ob k v, VA ob k v -> VA (loaded ob k v) k v.
Proof.
  intros ob k v [V1 [V2 [V3 [V4 [V5 V6]]]]]. unfold VA, loaded. cbn.
  split; [|split; [|split; [|split; [|split]]]].
  - intros H. destruct (ocid ob) eqn:E1; [congruence|]. destruct (odid ob) eqn:E2; auto.
  - intros old H. destruct (V2 old H) as [A B]. split; auto. rewrite H. exact B.
  - intros H. destruct (ocv ob) eqn:E1; [congruence|]. destruct (odv ob) eqn:E2; auto.
  - intros old H. apply V4; auto.
  - intros H. destruct (ocv ob) eqn:E1; [|congruence]. apply V5. congruence.
  - exact V6.
Qed.
Lemma loaded_J : forall ob k v,
  Jobj ob ->
  (ocv ob <> None -> odv ob <> None) ->
  Jobj (loaded ob k v).
Proof.
  intros ob k v [J1 [J2 J3]] Hcv. unfold Jobj, loaded; cbn. split; [|split].
  - intros H. destruct (ocv ob) eqn:E1.
    + exfalso. apply Hcv; [discriminate|exact H].
    + destruct (odv ob); discriminate.
  - intros H. specialize (J2 H). destruct (ocid ob), (odid ob); congruence.
  - exact J3.
Qed.
(* a load changes neither the SET clause of the object's UPDATE nor, once done, is it needed again *)
Lemma loaded_sets : forall ob k v,
  upd_sets_id (loaded ob k v) = upd_sets_id ob /\ upd_sets_v (loaded ob k v) = upd_sets_v ob /\
  needs_pk_load (loaded ob k v) = false.
Proof.
  intros ob k v. unfold upd_sets_id, upd_sets_v, needs_pk_load, loaded. cbn.
  split; [|split]; [destruct (ocid ob), (odid ob)|destruct (ocv ob), (odv ob)|destruct (ocid ob), (odid ob)]; reflexivity.
Qed.

(* an object bound to the row (k, v): its UPDATE or DELETE looks for the row at k *)
Lemma VA_where_pk : forall ob k v, VA ob k v -> needs_pk_load ob = false -> where_pk ob = Some k /\ odid ob <> None.
Proof.
  intros ob k v [V1 [V2 _]] H. unfold where_pk, needs_pk_load in *.
  destruct (ocid ob) as [old|] eqn:Ec.
  - destruct (V2 old eq_refl) as [X Y]. subst old. auto.
  - destruct (odid ob) as [d|]; [|discriminate]. destruct (V1 eq_refl) as [X|X]; [discriminate|].
    split; [exact X|discriminate].
Qed.
(* ... and its UPDATE writes the loaded values, keeping those the SET clause leaves out *)
Lemma VA_upd_pk : forall ob k v, VA ob k v ->
  odid ob = None \/ odid ob = Some (if upd_sets_id ob then match odid ob with Some x => x | None => k end else k).
Proof.
  intros ob k v [V1 [V2 _]]. unfold upd_sets_id. destruct (ocid ob) as [old|] eqn:Ec.
  - destruct (V2 old eq_refl) as [X _]. subst old. destruct (odid ob) as [d|]; auto.
    destruct (Z.eqb_spec k d); cbn; subst; auto.
  - destruct (V1 eq_refl) as [X|X]; rewrite X; auto.
Qed.
Lemma VA_upd_v : forall ob k v, VA ob k v ->
  odv ob = None \/ odv ob = Some (if upd_sets_v ob then match odv ob with Some x => x | None => v end else v).
Proof.
  intros ob k v [_ [_ [V3 [V4 _]]]]. unfold upd_sets_v. destruct (ocv ob) as [[old|]|] eqn:Ec.
  - rewrite (V4 old eq_refl). destruct (odv ob) as [d|]; auto.
    destruct (Z.eqb_spec v d); cbn; subst; auto.
  - destruct (odv ob); auto.
  - destruct (V3 eq_refl) as [X|X]; rewrite X; auto.
Qed.

Definition stmt_obj (a : stmt) : nat := match a with SUpd o | SIns o | SDel o => o end.

Section Stmts.
  (* the state before the first statement, the frame and its snapshot *)
  Variables (s0 : sess) (g : ghost) (f : frame).
  Let n := nobj s0.
  Let W0 := work s0.
  Let sn := snew s0.
  Let sd := sdel s0.
  Hypothesis GC : GClean g.

  (* what survives a failing statement: only loads happened to the objects *)
  Record SigL (s : sess) : Prop := mkSigL {
    sl_rest : same_but_ow s s0;
    sl_good : Good (objs s) n W0 sn sd;
    sl_j : J (objs s) n;
    sl_rel : Rel g f (objs s) n sn sd W0;
    sl_le : forall x, obj_le (objs s0 x) (objs s x)
  }.

  (* ghost: where the row of each object currently is, and its value *)
  Record Sig (todo : list stmt) (s : sess) (rho : nat -> option Z) (rv : nat -> Z) : Prop := mkSig {
    sg_l : SigL s;
    sg_row : forall x p, rho x = Some p -> work s p = Some (rv x);
    sg_inj : forall x y p, rho x = Some p -> rho y = Some p -> x = y;
    sg_cover : forall p, work s p <> None ->
                 (exists x, rho x = Some p) \/
                 (work s p = W0 p /\ forall x, oin (objs s0 x) = true -> okey (objs s0 x) <> Some p);
    (* statements still to come find the object's row where the identity key says *)
    sg_todo_ud : forall o, In (SUpd o) todo \/ In (SDel o) todo ->
                   oin (objs s o) = true /\ exists k, okey (objs s o) = Some k /\ rho o = Some k /\ W0 k = Some (rv o);
    sg_todo_ins : forall o, In (SIns o) todo -> In o sn /\ rho o = None;
    (* objects whose row is placed: their loaded values describe it *)
    sg_vals : forall x p, rho x = Some p ->
                In (SUpd x) todo \/ In (SDel x) todo \/
                ((odid (objs s x) = None \/ odid (objs s x) = Some p) /\
                 (odv (objs s x) = None \/ odv (objs s x) = Some (rv x)));
    sg_dom : forall x, rho x <> None -> x < n /\ (oin (objs s x) = true \/ In x sn)
  }.

  Lemma sigl_set_work : forall s w, SigL s -> SigL (set_work s w).
  Proof. intros s w [A1 A2 A3 A4 A5]. constructor; auto. Qed.

  (* an object whose UPDATE or DELETE is still to come: its row, and the values the object has for it *)
  Lemma todo_row : forall todo s rho rv o, Sig todo s rho rv -> In (SUpd o) todo \/ In (SDel o) todo ->
    exists k, rho o = Some k /\ okey (objs s o) = Some k /\ work s k = Some (rv o) /\ W0 k = Some (rv o) /\
              oin (objs s o) = true /\ o < n /\ VA (objs s o) k (rv o).
  Proof.
    intros todo s rho rv o S Ho. destruct (sg_todo_ud _ _ _ _ S o Ho) as [Hin [k [Hk [Hrho Hw0]]]].
    pose proof (sl_good _ (sg_l _ _ _ _ S)) as G.
    destruct (g_rows _ _ _ _ _ G o k Hin Hk) as [v' [Hv' Hva]]. assert (v' = rv o) by congruence. subst v'.
    exists k. split; [exact Hrho|]. split; [exact Hk|]. split; [exact (sg_row _ _ _ _ S o k Hrho)|]. split; [exact Hw0|].
    split; [exact Hin|]. split; [apply (g_in _ _ _ _ _ G o Hin)|exact Hva].
  Qed.

  (* a load of an object of the identity map whose row is still the original one *)
  Lemma load_step : forall s o k v, SigL s -> oin (objs s o) = true -> okey (objs s o) = Some k ->
    work s k = Some v -> W0 k = Some v ->
    exists s1, load_in_flush o s = (Ok, s1) /\ objs s1 = updN (objs s) o (loaded (objs s o) k v) /\
               work s1 = work s /\ same_but_ow s1 s /\ SigL s1.
  Proof.
    intros s o k v L Hin Hk Hw Hw0. destruct L as [L1 L2 L3 L4 L5].
    destruct (g_in _ _ _ _ _ L2 o Hin) as [Hn [Ha [Hd _]]].
    unfold load_in_flush. rewrite Ha, (load_row_found o s k v Hk Hw). cbn [negb].
    eexists. split; [reflexivity|]. split; [reflexivity|]. split; [reflexivity|]. split; [repeat split|].
    destruct (g_rows _ _ _ _ _ L2 o k Hin Hk) as [v' [Hv' Hva]].
    assert (v' = v) by congruence. subst v'.
    assert (SI : same_id (loaded (objs s o) k v) (objs s o)) by (repeat split).
    constructor.
    - eapply sbo_trans; [|exact L1]. repeat split.
    - cbn [objs set_obj set_objs]. apply Good_upd; auto.
      + intros _ k' v'' Hk' Hw'. assert (k' = k) by congruence. subst k'.
        assert (v'' = v) by congruence. subst v''. apply loaded_VA; auto.
      + intros _ _ X. unfold loaded in X. cbn in X. congruence.
    - cbn [objs set_obj set_objs]. apply J_upd; auto. apply loaded_J.
      + apply L3; auto.
      + destruct Hva as [_ [_ [_ [_ [V5 _]]]]]. exact V5.
    - cbn [objs set_obj set_objs]. eapply Rel_upd; eauto.
    - intros x. cbn [objs set_obj set_objs]. unfold updN. destruct (Nat.eqb_spec x o).
      + subst. eapply obj_le_trans; [apply L5|apply loaded_le].
      + apply L5.
  Qed.

  (* four ways a statement moves on: a load of the object of a statement still to come; the head
     statement is done with the row where it is; the row of its object is taken out of the table; a row is
     written for an object that has none.  An UPDATE is the third followed by the fourth. *)
  Lemma sig_objs : forall todo s s1 rho rv o, Sig todo s rho rv -> In (SUpd o) todo \/ In (SDel o) todo ->
    SigL s1 -> work s1 = work s -> (forall x, x <> o -> objs s1 x = objs s x) ->
    oin (objs s1 o) = oin (objs s o) -> okey (objs s1 o) = okey (objs s o) -> Sig todo s1 rho rv.
  Proof.
    intros todo s s1 rho rv o [L Srow Sinj Scov Sud Sins Svals Sdom] Ho L1 Hw Hx Hi Hk.
    assert (E : forall x, oin (objs s1 x) = oin (objs s x) /\ okey (objs s1 x) = okey (objs s x)).
    { intros x. destruct (Nat.eq_dec x o) as [->|Hne]; [|rewrite Hx]; auto. }
    constructor; auto; try (rewrite Hw; assumption).
    - intros x H. destruct (E x) as [E1 E2]. rewrite E1, E2. auto.
    - intros x p H. destruct (Nat.eq_dec x o) as [->|Hne]; [tauto|]. rewrite Hx by auto. auto.
    - intros x H. rewrite (proj1 (E x)). auto.
  Qed.

  Lemma sig_done : forall a todo s rho rv, Sig (a :: todo) s rho rv ->
    (forall p, rho (stmt_obj a) = Some p ->
       (odid (objs s (stmt_obj a)) = None \/ odid (objs s (stmt_obj a)) = Some p) /\
       (odv (objs s (stmt_obj a)) = None \/ odv (objs s (stmt_obj a)) = Some (rv (stmt_obj a)))) ->
    Sig todo s rho rv.
  Proof.
    intros a todo s rho rv [L Srow Sinj Scov Sud Sins Svals Sdom] Hv. constructor; auto.
    - intros x [H|H]; apply Sud; [left|right]; right; exact H.
    - intros x H. apply Sins. right; exact H.
    - intros x p H. destruct (Svals x p H) as [[X|X]|[[X|X]|X]]; auto; subst a; right; right; apply Hv; exact H.
  Qed.

  Lemma sig_take : forall a todo s rho rv k, Sig (a :: todo) s rho rv ->
    (forall b, In b todo -> stmt_obj b <> stmt_obj a) -> rho (stmt_obj a) = Some k ->
    Sig todo (set_work s (updZ (work s) k None)) (updN rho (stmt_obj a) None) rv.
  Proof.
    intros a todo s rho rv k [L Srow Sinj Scov Sud Sins Svals Sdom] Hf Hk. set (o := stmt_obj a) in *.
    assert (Hoth : forall x p, x <> o -> rho x = Some p -> p <> k).
    { intros x p Hx Hp E. subst p. apply Hx. eapply Sinj; eauto. }
    constructor; cbn [work objs set_work set_db].
    - apply sigl_set_work; exact L.
    - intros x p H. apply updN_inv in H. destruct H as [[_ H]|[Hx H]]; [discriminate|].
      rewrite updZ_other by eauto. auto.
    - intros x y p H1 H2. apply updN_inv in H1, H2.
      destruct H1 as [[_ H1]|[_ H1]], H2 as [[_ H2]|[_ H2]]; try discriminate. eauto.
    - intros p H. destruct (Z.eq_dec p k) as [->|Hp]; [rewrite updZ_same in H; congruence|].
      rewrite updZ_other in * by auto. destruct (Scov p H) as [[x Hx]|X]; [left; exists x|right; exact X].
      rewrite updN_other; auto. intros ->. congruence.
    - intros x H. rewrite updN_other by (destruct H as [H|H]; apply (Hf _ H)).
      apply Sud. destruct H; [left|right]; right; assumption.
    - intros x H. destruct (Sins x (or_intror H)) as [A B]. split; auto.
      destruct (Nat.eq_dec x o) as [->|Hx]; [apply updN_same|rewrite updN_other; auto].
    - intros x p H. apply updN_inv in H. destruct H as [[_ H]|[Hx H]]; [discriminate|].
      destruct (Svals x p H) as [[X|X]|[[X|X]|X]]; auto; subst a; cbn in Hx; congruence.
    - intros x H. destruct (Nat.eq_dec x o) as [->|Hx]; [rewrite updN_same in H; congruence|].
      rewrite updN_other in H by auto. auto.
  Qed.

  Lemma sig_place : forall todo s rho rv o p v, Sig todo s rho rv ->
    (forall b, In b todo -> stmt_obj b <> o) -> rho o = None -> work s p = None ->
    o < n -> oin (objs s o) = true \/ In o sn ->
    odid (objs s o) = None \/ odid (objs s o) = Some p -> odv (objs s o) = None \/ odv (objs s o) = Some v ->
    Sig todo (set_work s (updZ (work s) p (Some v))) (updN rho o (Some p)) (updN rv o v).
  Proof.
    intros todo s rho rv o p v [L Srow Sinj Scov Sud Sins Svals Sdom] Hf Ho Hp Hn Hd V1 V2.
    assert (Hoth : forall x q, rho x = Some q -> q <> p).
    { intros x q Hq E. subst q. rewrite (Srow x p Hq) in Hp. discriminate. }
    constructor; cbn [work objs set_work set_db].
    - apply sigl_set_work; exact L.
    - intros x q H. apply updN_inv in H. destruct H as [[-> H]|[Hx H]].
      + injection H as <-. rewrite updN_same. apply updZ_same.
      + rewrite updN_other, updZ_other by eauto. auto.
    - intros x y q H1 H2. apply updN_inv in H1, H2.
      destruct H1 as [[-> H1]|[_ H1]], H2 as [[-> H2]|[_ H2]]; auto; [injection H1 as <-|injection H2 as <-|eauto];
        exfalso; eapply Hoth; eauto.
    - intros q H. destruct (Z.eq_dec q p) as [->|Hq]; [left; exists o; apply updN_same|].
      rewrite updZ_other in * by auto. destruct (Scov q H) as [[x Hx]|X]; [left; exists x|right; exact X].
      rewrite updN_other; auto. intros ->. congruence.
    - intros x H. rewrite !updN_other by (destruct H as [H|H]; apply (Hf _ H)). auto.
    - intros x H. rewrite updN_other by (apply (Hf _ H)). auto.
    - intros x q H. apply updN_inv in H. destruct H as [[-> H]|[Hx H]].
      + injection H as <-. rewrite updN_same. auto.
      + rewrite updN_other by auto. auto.
    - intros x H. destruct (Nat.eq_dec x o) as [->|Hx]; [auto|]. rewrite updN_other in H by auto. auto.
  Qed.

  (* the SELECT of an expired primary key that precedes an UPDATE or DELETE *)
  Lemma pk_load_step : forall todo s rho rv o, Sig todo s rho rv -> In (SUpd o) todo \/ In (SDel o) todo ->
    exists s1, (if needs_pk_load (objs s o) then load_in_flush o s else (Ok, s)) = (Ok, s1) /\
      Sig todo s1 rho rv /\ work s1 = work s /\ (forall x, x <> o -> objs s1 x = objs s x) /\
      needs_pk_load (objs s1 o) = false /\
      upd_sets_id (objs s1 o) = upd_sets_id (objs s o) /\ upd_sets_v (objs s1 o) = upd_sets_v (objs s o).
  Proof.
    intros todo s rho rv o S Ho. destruct (needs_pk_load (objs s o)) eqn:En.
    2:{ exists s. auto 10. }
    destruct (todo_row _ _ _ _ o S Ho) as [k [_ [Hk [Hw [Hw0 [Hin _]]]]]].
    destruct (load_step s o k (rv o) (sg_l _ _ _ _ S) Hin Hk Hw Hw0) as [s1 [A [B [C [_ E]]]]].
    assert (Bo : objs s1 o = loaded (objs s o) k (rv o)) by (rewrite B; apply updN_same).
    exists s1. split; [exact A|]. split; [|split; [exact C|split]].
    - apply (sig_objs todo s s1 rho rv o); auto; try (rewrite Bo; reflexivity).
      intros x Hx. rewrite B. apply updN_other; exact Hx.
    - intros x Hx. rewrite B. apply updN_other; exact Hx.
    - rewrite Bo. destruct (loaded_sets (objs s o) k (rv o)) as [X [Y Z]]. auto.
  Qed.

  (* the UPDATE of [o]: nothing if no attribute has a net change *)
  Lemma update_step : forall todo s rho rv o r s',
    Sig (SUpd o :: todo) s rho rv -> (forall b, In b todo -> stmt_obj b <> o) ->
    do_update o s = (r, s') -> r <> Unmodelled ->
    (r = Ok -> exists rho' rv', Sig todo s' rho' rv' /\
                 (forall x, x <> o -> rho' x = rho x /\ rv' x = rv x /\ objs s' x = objs s x) /\ rho' o <> None) /\
    (r <> Ok -> SigL s').
  Proof.
    intros todo s rho rv o r s' S Hf H Hr. unfold do_update in H.
    destruct (negb (upd_sets_id (objs s o) || upd_sets_v (objs s o))) eqn:Esets.
    - inversion H; subst s' r. split; [|congruence]. intros _.
      exists rho, rv. destruct (todo_row _ _ _ _ o S (or_introl (or_introl eq_refl))) as [k [Hrho [_ [_ [_ [_ [_ Hva]]]]]]]. split; [|split; [auto|congruence]].
      apply negb_true_iff, orb_false_elim in Esets. destruct Esets as [E1 E2].
      apply (sig_done _ _ _ _ _ S). cbn [stmt_obj]. intros p Hp. assert (p = k) by congruence. subst p.
      pose proof (VA_upd_pk _ _ _ Hva) as X. pose proof (VA_upd_v _ _ _ Hva) as Y. rewrite E1 in X. rewrite E2 in Y. auto.
    - destruct (pk_load_step _ s rho rv o S (or_introl (or_introl eq_refl))) as [s1 [HL [S1 [HW [HO [Hnl [Eid Ev]]]]]]].
      rewrite HL in H. rewrite <- Eid, <- Ev in H. clear Esets Eid Ev.
      destruct (todo_row _ _ _ _ o S1 (or_introl (or_introl eq_refl))) as [k [Hrho [_ [Hwk [_ [Hin [Hn Hva]]]]]]].
      destruct (VA_where_pk _ _ _ Hva Hnl) as [Hwh _]. rewrite Hwh, Hwk in H.
      pose proof (VA_upd_pk _ _ _ Hva) as Vpk. pose proof (VA_upd_v _ _ _ Hva) as Vv.
      set (ob1 := objs s1 o) in *.
      set (newpk := if upd_sets_id ob1 then match odid ob1 with Some x => x | None => k end else k) in *.
      set (newv := if upd_sets_v ob1 then match odv ob1 with Some x => x | None => rv o end else rv o) in *.
      destruct (upd_sets_v ob1 && match odv ob1 with None => true | Some _ => false end);
        [inversion H; subst; congruence|].
      destruct (negb (Z.eqb newpk k) && match work s1 newpk with Some _ => true | None => false end) eqn:Ei;
        inversion H; subst s' r.
      { split; [congruence|]. intros _. exact (sg_l _ _ _ _ S1). }
      split; [|congruence]. intros _.
      exists (updN (updN rho o None) o (Some newpk)), (updN rv o newv).
      split; [|split; [intros x Hx; rewrite !updN_other by auto; cbn; auto|rewrite updN_same; discriminate]].
      pose proof (sig_take _ _ _ _ _ k S1 Hf Hrho) as S2.
      apply (sig_place _ _ _ _ o newpk newv S2); cbn [work objs set_work set_db]; auto.
      + apply updN_same.
      + (* the new primary key is free, or is the old one *)
        destruct (Z.eqb_spec newpk k) as [->|Hne]; [apply updZ_same|]. rewrite updZ_other by auto.
        cbn in Ei. destruct (work s1 newpk); [discriminate|reflexivity].
  Qed.

  (* the INSERT of the pending object [o] *)
  Lemma insert_step : forall todo s rho rv o r s',
    Sig (SIns o :: todo) s rho rv -> (forall b, In b todo -> stmt_obj b <> o) ->
    do_insert o s = (r, s') -> r <> Unmodelled ->
    (r = Ok -> exists rho' rv', Sig todo s' rho' rv' /\
                 (forall x, x <> o -> rho' x = rho x /\ rv' x = rv x /\ objs s' x = objs s x) /\ rho' o <> None) /\
    (r <> Ok -> SigL s').
  Proof.
    intros todo s rho rv o r s' S Hf H Hr.
    destruct (sg_todo_ins _ _ _ _ S o (or_introl eq_refl)) as [Hsn Hrho].
    unfold do_insert in H.
    destruct (odid (objs s o)) as [pk|] eqn:Ed; [|inversion H; subst; congruence].
    destruct (odv (objs s o)) as [v|] eqn:Ev; [|inversion H; subst; congruence].
    destruct (work s pk) eqn:Ew; inversion H; subst s' r.
    { split; [congruence|]. intros _. exact (sg_l _ _ _ _ S). }
    split; [|congruence]. intros _.
    exists (updN rho o (Some pk)), (updN rv o v).
    split; [|split; [intros x Hx; rewrite !updN_other by auto; auto|rewrite updN_same; discriminate]].
    apply sig_place; auto.
    - apply (sig_done _ _ _ _ _ S). cbn [stmt_obj]. congruence.
    - apply (g_new _ _ _ _ _ (sl_good _ (sg_l _ _ _ _ S))). exact Hsn.
  Qed.

  (* the DELETE of [o]; the object is loaded afterwards *)
  Lemma delete_step : forall todo s rho rv o r s',
    Sig (SDel o :: todo) s rho rv -> (forall b, In b todo -> stmt_obj b <> o) ->
    do_delete o s = (r, s') -> r <> Unmodelled ->
    (r = Ok -> exists rho' rv', Sig todo s' rho' rv' /\
                 (forall x, x <> o -> rho' x = rho x /\ rv' x = rv x /\ objs s' x = objs s x) /\ rho' o = None /\
                 odid (objs s' o) <> None /\ odv (objs s' o) <> None) /\
    (r <> Ok -> SigL s').
  Proof.
    intros todo s rho rv o r s' S Hf H Hr. unfold do_delete in H.
    destruct (pk_load_step _ s rho rv o S (or_intror (or_introl eq_refl))) as [s1 [HL [S1 [HW [HO [Hnl _]]]]]].
    rewrite HL in H.
    destruct (todo_row _ _ _ _ o S1 (or_intror (or_introl eq_refl))) as [k [Hrho [_ [_ [_ [_ [Hn Hva]]]]]]].
    destruct (VA_where_pk _ _ _ Hva Hnl) as [Hwh Hdid]. rewrite Hwh in H.
    inversion H; subst s' r. split; [|congruence]. intros _.
    exists (updN rho o None), rv.
    split; [exact (sig_take _ _ _ _ _ k S1 Hf Hrho)|].
    split; [intros x Hx; rewrite updN_other by auto; cbn; auto|]. split; [apply updN_same|]. split; [exact Hdid|].
    intros X. apply Hdid. apply (sl_j _ (sg_l _ _ _ _ S1) o Hn). exact X.
  Qed.

  (* a statement list of one flush: at most one statement per object *)
  Definition WfL (l : list stmt) : Prop := NoDup (map stmt_obj l).

  (* what the statement [a] leaves for its object *)
  Definition stmt_post (a : stmt) (rho : nat -> option Z) (s : sess) : Prop :=
    match a with
    | SDel o => rho o = None /\ odid (objs s o) <> None /\ odv (objs s o) <> None
    | _ => rho (stmt_obj a) <> None
    end.

  Lemma stmt_step : forall a l s rho rv, Sig (a :: l) s rho rv -> WfL (a :: l) ->
    forall ra sa, do_stmt a s = (ra, sa) -> ra <> Unmodelled ->
                (ra = Ok -> exists rho1 rv1, Sig l sa rho1 rv1 /\
                    (forall x, x <> stmt_obj a -> rho1 x = rho x /\ rv1 x = rv x /\ objs sa x = objs s x) /\
                    stmt_post a rho1 sa) /\
                (ra <> Ok -> SigL sa).
  Proof.
    intros a l s rho rv S W ra sa Ha Hra.
    assert (Hf : forall b, In b l -> stmt_obj b <> stmt_obj a).
    { intros b Hb E. inversion W; subst. rewrite <- E in *. auto using in_map. }
    destruct a as [o|o|o]; cbn [do_stmt stmt_obj stmt_post] in *.
    - exact (update_step l s rho rv o ra sa S Hf Ha Hra).
    - exact (insert_step l s rho rv o ra sa S Hf Ha Hra).
    - exact (delete_step l s rho rv o ra sa S Hf Ha Hra).
  Qed.

  (* a run of the first statements of the list (all of them; or up to an injected failure, C32) *)
  Lemma stmts_run : forall l suf s rho rv r s',
    Sig (l ++ suf) s rho rv -> WfL (l ++ suf) -> foldM do_stmt l s = (r, s') -> r <> Unmodelled ->
    (r = Ok -> exists rho' rv', Sig suf s' rho' rv' /\
       (forall x, ~ In x (map stmt_obj l) -> rho' x = rho x /\ rv' x = rv x /\ objs s' x = objs s x) /\
       (forall a, In a l -> stmt_post a rho' s')) /\
    (r <> Ok -> SigL s').
  Proof.
    induction l as [|a l IH]; intros suf s rho rv r s' S W H Hr.
    - inversion H; subst. split; [|congruence]. intros _. exists rho, rv. split; auto. split; [auto|intros a []].
    - cbn [foldM] in H. apply bind_inv in H. cbn [app] in S, W.
      destruct H as [[s1 [H1 H2]]|[H1 Hn]].
      2:{ split; [congruence|]. intros _. exact (proj2 (stmt_step a _ s rho rv S W r s' H1 Hr) Hn). }
      destruct (stmt_step a _ s rho rv S W Ok s1 H1) as [A _]; [discriminate|].
      destruct (A eq_refl) as [rho1 [rv1 [S1 [O1 P1]]]].
      inversion W as [|? ? Hna W']; subst.
      destruct (IH suf s1 rho1 rv1 r s' S1 W' H2 Hr) as [B C]. split; auto.
      intros E. destruct (B E) as [rho' [rv' [S' [U1 U2]]]].
      (* later statements leave the object of [a] alone *)
      assert (Hna' : ~ In (stmt_obj a) (map stmt_obj l)).
      { intros X. apply Hna. rewrite map_app. apply in_or_app. auto. }
      exists rho', rv'. split; auto. split.
      + intros x Hx. cbn in Hx. destruct (U1 x) as [X1 [X2 X3]]; [tauto|].
        destruct (O1 x) as [Y1 [Y2 Y3]]; [intros ->; tauto|]. repeat split; congruence.
      + intros b [<-|Hb]; [|auto]. destruct (U1 _ Hna') as [X1 [_ X3]].
        destruct a; cbn [stmt_post stmt_obj] in *; rewrite X1, ?X3; exact P1.
  Qed.

  Lemma stmts_prefix : forall pre suf s rho rv r s',
    Sig (pre ++ suf) s rho rv -> WfL (pre ++ suf) -> foldM do_stmt pre s = (r, s') -> r <> Unmodelled -> SigL s'.
  Proof.
    intros pre suf s rho rv r s' S W H Hr. destruct (stmts_run pre suf s rho rv r s' S W H Hr) as [A B].
    destruct r; [|apply B; discriminate|congruence].
    destruct (A eq_refl) as [rho' [rv' [S' _]]]. exact (sg_l _ _ _ _ S').
  Qed.
End Stmts.

Lemma SigL_refl : forall st g f, Good (objs st) (nobj st) (work st) (snew st) (sdel st) -> J (objs st) (nobj st) ->
  Rel g f (objs st) (nobj st) (snew st) (sdel st) (work st) -> SigL st g f st.
Proof.
  intros st g f G Jh R. constructor; auto.
  - apply sbo_refl.
  - intros x. apply obj_le_refl.
Qed.
