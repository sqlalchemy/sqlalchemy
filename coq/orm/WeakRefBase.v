(* C48 - the database table; the local invariant [okb] of one object, read clause by clause ([okb_spec]) and
   as three shapes of flag vectors ([okb_shapes]); its preservation by every per-object transformer, checked
   on the shapes *)
From Coq Require Import List ZArith NArith Bool Arith Lia.
Import ListNotations.
From SAV.orm Require Import WeakRef.

Lemma db_get_del_same : forall k d, db_get k (db_del k d) = None.
Proof.
  intros k d. unfold db_get, db_del. induction d as [|[a b] d IH]; simpl; auto.
  destruct (N.eqb a k) eqn:E; simpl; auto. rewrite E. exact IH.
Qed.
Lemma db_get_del_other : forall k k' d, k <> k' -> db_get k' (db_del k d) = db_get k' d.
Proof.
  intros k k' d Hn. unfold db_get, db_del. induction d as [|[a b] d IH]; simpl; auto.
  destruct (N.eqb a k) eqn:E; simpl.
  - apply N.eqb_eq in E. subst a. destruct (N.eqb k k') eqn:E2; [apply N.eqb_eq in E2; contradiction|]. exact IH.
  - destruct (N.eqb a k'); auto.
Qed.
Lemma db_get_set_same : forall k v d, db_get k (db_set k v d) = Some v.
Proof. intros. unfold db_get, db_set. simpl. rewrite N.eqb_refl. reflexivity. Qed.
Lemma db_get_set_other : forall k k' v d, k <> k' -> db_get k' (db_set k v d) = db_get k' d.
Proof.
  intros k k' v d Hn. unfold db_set. unfold db_get at 1. simpl.
  destruct (N.eqb k k') eqn:E; [apply N.eqb_eq in E; contradiction|].
  apply (db_get_del_other k k' d Hn).
Qed.

Definition imp (a b : bool) : bool := negb a || b.
Definition has_pend (ob : obj) : bool :=
  match pend ob with Some _ => true | None => match pendw ob with Some _ => true | None => false end end.
Definition has_link (ob : obj) : bool := match link ob with Some _ => true | None => false end.
Definition okb (ob : obj) : bool :=
  imp (in_map ob) (alive ob && haskey ob && sess ob && negb (delflag ob) && negb (in_new ob))
  && imp (in_new ob) (alive ob && negb (haskey ob) && sess ob && negb (in_del ob))
  && imp (in_del ob) (in_map ob)
  && imp (in_mod ob) (in_map ob && modified ob)
  && imp (alive ob && sess ob && modified ob) (strong ob)
  && imp (in_map ob && modified ob) (in_mod ob)
  && imp (has_pend ob) (modified ob)
  && imp (alive ob && haskey ob && sess ob && negb (delflag ob)) (in_map ob)
  && imp (strong ob) (modified ob)
  && imp (delflag ob) (haskey ob)
  && imp (has_link ob) (alive ob).

(* what every transformer of a live state guarantees: the local invariant again, the same pk, and no new
   membership of the identity map or of session._new - so the global invariant's clauses on rows and on the
   uniqueness of keys are inherited ([inv_tr]) *)
Definition tr (ob ob' : obj) : Prop :=
  okb ob' = true /\ pk ob' = pk ob /\ (in_map ob' = true -> in_map ob = true) /\
  (in_new ob' = true -> in_new ob = true) /\ (alive ob' = true -> alive ob = true).

Lemma imp_true : forall a b, imp a b = true -> a = true -> b = true.
Proof. intros [] []; simpl; auto; discriminate. Qed.

Lemma okb_spec : forall ob, okb ob = true ->
  (in_map ob = true -> alive ob = true /\ haskey ob = true /\ sess ob = true /\ delflag ob = false /\ in_new ob = false) /\
  (in_new ob = true -> alive ob = true /\ haskey ob = false /\ sess ob = true /\ in_del ob = false) /\
  (in_del ob = true -> in_map ob = true) /\
  (in_mod ob = true -> in_map ob = true /\ modified ob = true) /\
  (alive ob = true -> sess ob = true -> modified ob = true -> strong ob = true) /\
  (in_map ob = true -> modified ob = true -> in_mod ob = true) /\
  (has_pend ob = true -> modified ob = true) /\
  (alive ob = true -> haskey ob = true -> sess ob = true -> delflag ob = false -> in_map ob = true) /\
  (strong ob = true -> modified ob = true) /\
  (delflag ob = true -> haskey ob = true) /\
  (has_link ob = true -> alive ob = true).
Proof.
  intros ob H. unfold okb in H. do 10 (apply andb_prop in H; destruct H as [H ?]).
  repeat match goal with X : imp _ _ = true |- _ =>
    generalize (imp_true _ _ X); clear X; intro X; rewrite ?andb_true_iff, ?negb_true_iff in X end.
  firstorder.
Qed.

Lemma okb_link_alive : forall ob t, okb ob = true -> link ob = Some t -> alive ob = true.
Proof. intros ob t H E. apply (okb_spec ob H). unfold has_link. rewrite E. reflexivity. Qed.
Lemma okb_member_alive : forall ob, okb ob = true -> in_new ob = true \/ in_map ob = true -> alive ob = true.
Proof. intros ob H [N|M]; [apply (proj1 (proj2 (okb_spec ob H)))|apply (proj1 (okb_spec ob H))]; auto. Qed.
Lemma okb_modified_strong : forall ob, okb ob = true -> alive ob = true -> sess ob = true -> modified ob = true ->
  strong ob = true.
Proof. intros ob H. apply (okb_spec ob H). Qed.
Lemma okb_pending_rooted : forall ob, okb ob = true -> alive ob = true -> has_pend ob = true ->
  in_new ob = true \/ in_map ob = true ->
  in_new ob = true \/ (strong ob = true /\ in_map ob = true /\ in_mod ob = true).
Proof.
  intros ob H A P [N|M]; [left; exact N|right].
  destruct (okb_spec ob H) as (C1 & _ & _ & _ & C5 & C6 & C7 & _). destruct (C1 M) as (_ & _ & S & _). auto.
Qed.

Lemma okb_dead0 : okb dead0 = true. Proof. reflexivity. Qed.
Lemma tr_refl : forall ob, okb ob = true -> tr ob ob.
Proof. intros ob H. repeat split; auto. Qed.

(* An object that satisfies [okb] has one of three shapes of flags: it is in the identity map (alive, keyed,
   attached, in_mod = strong = modified), or in session._new (strong = modified), or in neither collection
   (then in_del and in_mod are off as well).  [on_shapes Q] evaluates Q on all of them: 4 + 2 + 64 of the 2^12
   flag vectors.  The transformers branch on several of these flags at once, so that they preserve
   [okb] is checked shape by shape ([by_shapes]) and not argued clause by clause. *)
Definition allb2 (f : bool -> bool) : bool := f true && f false.
Lemma allb2_spec : forall f, allb2 f = true -> forall b, f b = true.
Proof. intros f H. apply andb_prop in H. intros []; apply H. Qed.
Definition on_shapes (Q : obj -> bool) k ex pe pw iv lk : bool :=
  allb2 (fun d => allb2 (fun m => Q (mkObj true k true true false d true m m m ex pe pw iv false lk)))
  && allb2 (fun m => Q (mkObj true k false true true false false false m m ex pe pw iv false lk))
  && allb2 (fun a => allb2 (fun hk => allb2 (fun se => allb2 (fun md => allb2 (fun sg => allb2 (fun df =>
       Q (mkObj a k hk se false false false false md sg ex pe pw iv df lk))))))).

Lemma okb_shapes : forall Q, (forall k ex pe pw iv lk, on_shapes Q k ex pe pw iv lk = true) ->
  forall ob, okb ob = true -> Q ob = true.
Proof.
  intros Q HQ [a k hk se inw idl im imd md sg ex pe pw iv df lk] H.
  specialize (HQ k ex pe pw iv lk). apply andb_prop in HQ as [HQ S3]. apply andb_prop in HQ as [S1 S2].
  apply okb_spec in H. cbn in H. destruct H as (C1 & C2 & C3 & C4 & C5 & C6 & _ & _ & C9 & C10 & _).
  assert (E : imd = im && md).
  { destruct imd; [destruct C4 as [-> ->]; reflexivity|]. destruct im, md; auto. }
  assert (G : a = true -> se = true -> sg = md).
  { intros -> ->. destruct md; [auto|]. destruct sg; [discriminate (C9 eq_refl)|reflexivity]. }
  destruct im.
  - destruct C1 as (-> & -> & -> & -> & ->); auto. rewrite E, G; auto.
    exact (allb2_spec _ (allb2_spec _ S1 idl) md).
  - rewrite (not_true_is_false idl), E by (intro X; discriminate (C3 X)). destruct inw.
    + destruct C2 as (-> & -> & -> & ->); auto. rewrite G, (not_true_is_false df); auto.
      * exact (allb2_spec _ S2 md).
      * intro X. discriminate (C10 X).
    + exact (allb2_spec _ (allb2_spec _ (allb2_spec _ (allb2_spec _ (allb2_spec _ (allb2_spec _ S3 a) hk) se) md) sg) df).
Qed.
Ltac by_shapes := intros ? ? [?|] [?|] ? [?|]; vm_compute; reflexivity.
(* no setter touches pk: unfold the transformer on a record and split its conditionals *)
Ltac pk_frame :=
  intros []; cbv beta delta [modified_event expire_attr commit_all expire_obj commit_obj flush_obj]; cbn;
  repeat match goal with |- context [if ?c then _ else _] => destruct c end; reflexivity.

Definition tr_live (ob ob' : obj) : Prop := tr ob ob' /\ alive ob' = alive ob.
Definition trb (ob ob' : obj) : bool :=
  okb ob' && imp (in_map ob') (in_map ob) && imp (in_new ob') (in_new ob) && eqb (alive ob') (alive ob).

Lemma tr_live_check : forall (pre : obj -> bool) (f : obj -> obj),
  (forall k ex pe pw iv lk, on_shapes (fun ob => imp (okb ob && pre ob) (trb ob (f ob))) k ex pe pw iv lk = true) ->
  (forall ob, pk (f ob) = pk ob) ->
  forall ob, okb ob = true -> pre ob = true -> tr_live ob (f ob).
Proof.
  intros pre f S P ob H Hp. assert (T : trb ob (f ob) = true).
  { apply (imp_true (okb ob && pre ob)); [exact (okb_shapes _ S ob H)|rewrite H, Hp; reflexivity]. }
  apply andb_prop in T as [T A]. apply andb_prop in T as [T N]. apply andb_prop in T as [O M].
  apply eqb_prop in A. unfold tr_live, tr. rewrite A. repeat split; auto; apply imp_true; assumption.
Qed.

Lemma tr_modified_event : forall w v ob, okb ob = true -> tr_live ob (modified_event w v ob).
Proof. intros w v ob H. apply (tr_live_check (fun _ => true)); [destruct w; by_shapes|pk_frame|auto..]. Qed.
(* partial expire: state.modified => _strong_obj is kept (the object stays strongly referenced) *)
Lemma tr_expire_attr : forall w ob, okb ob = true -> tr_live ob (expire_attr w ob).
Proof. intros w ob H. apply (tr_live_check (fun _ => true)); [destruct w; by_shapes|pk_frame|auto..]. Qed.
Lemma tr_live_commit_all : forall ob, okb ob = true -> tr_live ob (commit_all ob).
Proof. intros ob H. apply (tr_live_check (fun _ => true)); [by_shapes|pk_frame|auto..]. Qed.
Lemma tr_commit_all : forall ob, okb ob = true -> tr ob (commit_all ob).
Proof. intros ob H. apply tr_live_commit_all, H. Qed.
Lemma tr_expire_obj : forall ob, okb ob = true -> tr_live ob (expire_obj ob).
Proof. intros ob H. apply (tr_live_check (fun _ => true)); [by_shapes|pk_frame|auto..]. Qed.
Lemma tr_expire_if : forall ob, okb ob = true -> tr_live ob (if in_map ob then expire_obj ob else ob).
Proof. intros ob H. destruct (in_map ob); [apply tr_expire_obj|split; [apply tr_refl|]]; auto. Qed.
Lemma tr_commit_obj : forall ob, okb ob = true -> tr_live ob (commit_obj ob).
Proof. intros ob H. apply (tr_live_check (fun _ => true)); [by_shapes|pk_frame|auto..]. Qed.
Lemma tr_set_in_del : forall ob, okb ob = true -> alive ob = true -> persistent ob = true -> tr_live ob (set_in_del true ob).
Proof.
  intros ob H Ha Hp. apply (tr_live_check (fun ob => alive ob && persistent ob)); [by_shapes|pk_frame|auto|].
  rewrite Ha, Hp. reflexivity.
Qed.
Lemma tr_set_link : forall x ob, okb ob = true -> alive ob = true -> tr_live ob (set_link x ob).
Proof. intros x ob H Ha. apply (tr_live_check alive); [destruct x; by_shapes|pk_frame|auto..]. Qed.
(* [okb] mentions neither expired nor in_val *)
Lemma tr_set_expired : forall x ob, okb ob = true -> tr ob (set_expired x ob).
Proof. intros x [] H. repeat split; auto. Qed.
Lemma tr_unexpire : forall ob, okb ob = true -> tr_live ob (set_in_val true (set_expired false ob)).
Proof. intros [] H. repeat split; auto. Qed.

(* an object that no root holds can be freed *)
Definition unrooted_local (ob : obj) : bool :=
  negb (in_new ob) && negb (in_del ob) && negb (strong ob && (in_map ob || in_mod ob)).
Lemma okb_clean_unrooted : forall ob, okb ob = true -> in_map ob = true -> modified ob = false -> in_del ob = false ->
  unrooted_local ob = true.
Proof.
  intros ob H M Md D. destruct (okb_spec ob H) as (C1 & _ & _ & _ & _ & _ & _ & _ & C9 & _).
  destruct (C1 M) as (_ & _ & _ & _ & N). unfold unrooted_local. rewrite N, D, (not_true_is_false (strong ob)); [reflexivity|].
  intro X. rewrite (C9 X) in Md. discriminate.
Qed.
Lemma tr_free_obj : forall ob, okb ob = true -> unrooted_local ob = true -> tr ob (free_obj ob).
Proof.
  intros ob H U.
  assert (O := okb_shapes (fun ob => imp (okb ob && unrooted_local ob) (okb (free_obj ob))) ltac:(by_shapes) ob H).
  split; [apply (imp_true _ _ O); rewrite H, U; reflexivity|]. clear. destruct ob. repeat split; auto; discriminate.
Qed.

Lemma flush_obj_facts : forall ob, okb ob = true -> let ob' := flush_obj ob in
  okb ob' = true /\ alive ob' = alive ob /\ in_new ob' = false /\
  (in_map ob' = true -> (in_map ob = true /\ in_del ob = false) \/ in_new ob = true).
Proof.
  intros ob H ob'.
  assert (F := okb_shapes (fun ob => let ob' := flush_obj ob in imp (okb ob)
    (okb ob' && eqb (alive ob') (alive ob) && negb (in_new ob') &&
     imp (in_map ob') (in_map ob && negb (in_del ob) || in_new ob))) ltac:(by_shapes) ob H).
  cbv beta zeta in F. apply (fun F => imp_true _ _ F H) in F. fold ob' in F.
  apply andb_prop in F as [F M]. apply andb_prop in F as [F N]. apply andb_prop in F as [O A].
  split; [exact O|]. split; [apply eqb_prop, A|]. split; [apply negb_true_iff, N|].
  intro X. apply (imp_true _ _ M), orb_true_iff in X. destruct X as [X|X]; auto.
  apply andb_prop in X as [X1 X2]. apply negb_true_iff in X2. auto.
Qed.
Lemma flush_obj_pk : forall ob, pk (flush_obj ob) = pk ob.
Proof. pk_frame. Qed.

Lemma ok_new_obj : forall s, let ob := new_obj s in
  okb ob = true /\ alive ob = true /\ pk ob = next_pk s /\ in_map ob = false /\ in_new ob = true /\
  pend ob = Some (next_val s) /\ in_del ob = false /\ pendw ob = None.
Proof. intros s. cbn. repeat split. Qed.
Lemma ok_loaded_obj : forall k, let ob := loaded_obj k in
  okb ob = true /\ alive ob = true /\ pk ob = k /\ in_map ob = true /\ in_new ob = false.
Proof. intros k. cbn. repeat split. Qed.
