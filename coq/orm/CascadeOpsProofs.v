(* C39 - Session.add / delete / expunge / expire reach exactly the closure of the configured cascade: each folds a
   primitive that rewrites the data of one object idempotently, so the fold rewrites exactly the listed objects.
   Also the three projections of the state that the flush and history files share: [view], [core], [attrs]. *)
From Coq Require Import List Bool Arith.
From SAV.orm Require Import Cascade CascadeBase CascadeIterProofs.
Import ListNotations.

Definition promote (x : status) : status :=
  match x with Transient => Pending | Detached => Persistent | y => y end.
Definition expunged (x : status) : status :=
  match x with Pending => Transient | Persistent => Detached | Deleted => DetDel | y => y end.

Lemma upd_same : forall A (f : nat -> A) k v, upd f k v k = v.
Proof. intros. unfold upd. rewrite Nat.eqb_refl. reflexivity. Qed.
Lemma upd_other : forall A (f : nat -> A) k v x, x <> k -> upd f k v x = f x.
Proof. intros. unfold upd. destruct (Nat.eqb x k) eqn:E; auto. apply Nat.eqb_eq in E. contradiction. Qed.

(* the data of an object that the session primitives read and write *)
Record view := mkView { v_st : status; v_marked : bool; v_expired : bool }.
Definition view_of (s : state) (x : nat) : view := mkView (st s x) (marked s x) (expired s x).

Lemma view_st : forall s x, st s x = v_st (view_of s x).
Proof. reflexivity. Qed.
Lemma view_marked : forall s x, marked s x = v_marked (view_of s x).
Proof. reflexivity. Qed.
Lemma view_expired : forall s x, expired s x = v_expired (view_of s x).
Proof. reflexivity. Qed.

(* _save_or_update_impl, _expunge_states, _delete_impl for a cascaded object, _conditional_expire *)
Definition sou_view (w : view) : view :=
  mkView (promote (v_st w)) (match v_st w with Detached | Persistent => false | _ => v_marked w end) (v_expired w).
Definition expunge_view (w : view) : view :=
  mkView (expunged (v_st w)) (match v_st w with Persistent => false | _ => v_marked w end) (v_expired w).
Definition delete_view (w : view) : view :=
  match v_st w with
  | Persistent | Detached => if v_marked w then w else mkView Persistent true (v_expired w)
  | _ => w
  end.
Definition expire_view (w : view) : view :=
  mkView (match v_st w with Pending => Transient | v => v end) (v_marked w)
         (match v_st w with Transient | Pending => false | _ => true end || v_expired w).

Definition acts (step : state -> nat -> state) (g : view -> view) : Prop :=
  forall s c x, view_of (step s c) x = if Nat.eqb x c then g (view_of s c) else view_of s x.

(* the six cases of the status of [c]; where the primitive writes, [upd] is the conditional wanted; where it does
   not, the conditional is settled by the case at hand *)
Ltac acts_cases s c x :=
  unfold view_of, has_key, was_deleted, is_pending; destruct (st s c) eqn:S;
  cbn [st marked expired set_st set_marked set_expired set_poison negb]; unfold upd;
  destruct (Nat.eqb x c) eqn:E; try reflexivity; apply Nat.eqb_eq in E; subst x; rewrite ?S; try reflexivity.

Lemma sou_impl_acts : acts sou_impl sou_view.
Proof. intros s c x. unfold sou_impl. acts_cases s c x. Qed.
Lemma expunge1_acts : acts expunge1 expunge_view.
Proof. intros s c x. unfold expunge1. acts_cases s c x. Qed.
Lemma delete_impl_casc_acts : acts delete_impl_casc delete_view.
Proof. intros s c x. unfold delete_impl_casc. destruct (marked s c) eqn:Mk; acts_cases s c x; rewrite Mk; reflexivity. Qed.
Lemma cond_expire_acts : acts cond_expire expire_view.
Proof. intros s c x. unfold cond_expire. acts_cases s c x. Qed.

Lemma fold_view : forall step g, acts step g -> (forall w, g (g w) = g w) ->
  forall l s x, view_of (fold_left step l s) x = if mem x l then g (view_of s x) else view_of s x.
Proof.
  intros step g H I l. apply (fold_pointwise state view view_of step (fun _ => g) H). right. intros _. exact I.
Qed.

Lemma sou_view_idem : forall w, sou_view (sou_view w) = sou_view w.
Proof. intros [v m e]. destruct v; reflexivity. Qed.
Lemma expunge_view_idem : forall w, expunge_view (expunge_view w) = expunge_view w.
Proof. intros [v m e]. destruct v; reflexivity. Qed.
Lemma delete_view_idem : forall w, delete_view (delete_view w) = delete_view w.
Proof. intros [v m e]. destruct v, m; reflexivity. Qed.
Lemma expire_view_idem : forall w, expire_view (expire_view w) = expire_view w.
Proof. intros [v m e]. destruct v, e; reflexivity. Qed.

(* _save_or_update_impl and _delete_impl raise on an object deleted in this transaction (the model's poison); no
   primitive changes whether an object is one, so a fold that avoids them at the start avoids them throughout *)
Lemma fold_poison : forall step g, acts step g ->
  (forall w, match v_st (g w) with Deleted | DetDel => true | _ => false end =
             match v_st w with Deleted | DetDel => true | _ => false end) ->
  (forall s c, was_deleted s c = false -> poison (step s c) = poison s) ->
  forall l s, (forall x, In x l -> was_deleted s x = false) -> poison (fold_left step l s) = poison s.
Proof.
  intros step g H G P. induction l as [|c l IH]; intros s Hl; cbn [fold_left]; [reflexivity|].
  rewrite IH; [apply P, Hl; left; reflexivity|]. intros x Hx. unfold was_deleted. rewrite view_st, H.
  destruct (Nat.eqb x c) eqn:E; [rewrite G; apply Nat.eqb_eq in E; subst x|]; apply Hl; [left|right]; auto.
Qed.

(* the state in which the cascade runs: the lead object has been saved *)
Definition add_lead (s : state) (o : nat) : state := sou_impl (set_oos s o false) o.

Lemma sou_state_view : forall cfg s o x,
  view_of (sou_state cfg s o) x =
  if mem x (o :: cascade_iter cfg (add_lead s o) TSU (in_session (add_lead s o)) o)
  then sou_view (view_of s x) else view_of s x.
Proof. intros cfg s o x. exact (fold_view _ _ sou_impl_acts sou_view_idem (o :: _) (set_oos s o false) x). Qed.

Lemma sou_state_in_session : forall cfg s o x,
  in_session (sou_state cfg s o) x =
  in_session s x || (mem x (o :: cascade_iter cfg (add_lead s o) TSU (in_session (add_lead s o)) o)
                     && negb (was_deleted s x)).
Proof.
  intros cfg s o x. unfold in_session at 1. rewrite view_st, sou_state_view. unfold in_session, was_deleted.
  destruct (mem x _); cbn [v_st sou_view view_of]; destruct (st s x); reflexivity.
Qed.

Lemma sou_state_poison : forall cfg s o,
  (forall x, In x (o :: cascade_iter cfg (add_lead s o) TSU (in_session (add_lead s o)) o) -> was_deleted s x = false) ->
  poison (sou_state cfg s o) = poison s.
Proof.
  intros cfg s o H. apply (fold_poison _ _ sou_impl_acts) with (l := o :: _) (s := set_oos s o false); [| |exact H].
  - intros [v m e]. destruct v; reflexivity.
  - intros a c Hc. unfold sou_impl, was_deleted in *. destruct (st a c); try discriminate; reflexivity.
Qed.

Theorem add_closure : forall cfg s o,
  was_deleted s o = false ->
  (forall x, creach cfg (add_lead s o) TSU (in_session (add_lead s o)) o x -> was_deleted s x = false) ->
  let s' := fst (op_add cfg s o) in
  snd (op_add cfg s o) = 0 /\ poison s' = poison s /\
  (forall x, in_session s' x = true <->
             in_session s x = true \/ x = o \/ creach cfg (add_lead s o) TSU (in_session (add_lead s o)) o x) /\
  (forall x, x <> o -> ~ creach cfg (add_lead s o) TSU (in_session (add_lead s o)) o x -> st s' x = st s x).
Proof.
  intros cfg s o Hd Hr. unfold op_add. rewrite Hd. cbn [fst snd].
  assert (HL : forall x, mem x (o :: cascade_iter cfg (add_lead s o) TSU (in_session (add_lead s o)) o) = true ->
                         was_deleted s x = false).
  { intros x Hx. apply closure_mem in Hx. destruct Hx as [->|Hx]; [exact Hd|exact (Hr x Hx)]. }
  split; [reflexivity|]. split; [apply sou_state_poison; intros x Hx; apply HL, mem_In, Hx|]. split; intros x.
  - rewrite sou_state_in_session, orb_true_iff, andb_true_iff, negb_true_iff, <- closure_mem.
    split; [tauto|]. intros [H|H]; [tauto|]. right. split; [exact H|exact (HL x H)].
  - intros Hxo Hn. rewrite view_st, sou_state_view.
    destruct (mem x _) eqn:M; [apply closure_mem in M; tauto|reflexivity].
Qed.

Lemma expunge_all_view : forall cfg s o x,
  view_of (expunge_all cfg s o) x =
  if mem x (o :: cascade_iter cfg s TEX no_halt o) then expunge_view (view_of s x) else view_of s x.
Proof. intros cfg s o. exact (fold_view _ _ expunge1_acts expunge_view_idem _ s). Qed.

Lemma expunge_all_attached : forall cfg s o x,
  attached (expunge_all cfg s o) x = attached s x && negb (mem x (o :: cascade_iter cfg s TEX no_halt o)).
Proof.
  intros cfg s o x. unfold attached. rewrite view_st, expunge_all_view.
  destruct (mem x _); cbn [v_st expunge_view view_of]; destruct (st s x); reflexivity.
Qed.

Lemma poison_expunge1 : forall a c, poison (expunge1 a c) = poison a.
Proof. intros. unfold expunge1. destruct (st a c); reflexivity. Qed.
Lemma expunge_all_poison : forall cfg s o, poison (expunge_all cfg s o) = poison s.
Proof. intros. apply fold_left_proj, poison_expunge1. Qed.

Theorem expunge_closure : forall cfg s o, attached s o = true ->
  let s' := fst (op_expunge cfg s o) in
  snd (op_expunge cfg s o) = 0 /\ poison s' = poison s /\
  (forall x, (x = o \/ creach cfg s TEX no_halt o x) -> st s' x = expunged (st s x)) /\
  (forall x, x <> o -> ~ creach cfg s TEX no_halt o x -> st s' x = st s x) /\
  (forall x, attached s' x = true <-> attached s x = true /\ x <> o /\ ~ creach cfg s TEX no_halt o x).
Proof.
  intros cfg s o Ha. unfold op_expunge. rewrite Ha. cbn [negb fst snd].
  split; [reflexivity|]. split; [apply expunge_all_poison|]. split; [|split]; intros x.
  - intros H. apply closure_mem in H. rewrite view_st, expunge_all_view, H. reflexivity.
  - intros H1 H2. rewrite view_st, expunge_all_view.
    destruct (mem x _) eqn:M; [apply closure_mem in M; tauto|reflexivity].
  - rewrite expunge_all_attached, andb_true_iff, negb_true_iff, <- not_true_iff_false, closure_mem. tauto.
Qed.

(* what the attribute events and the foreign-key synchronisation of the flush leave alone *)
Definition core (s : state) := (st s, rowp s, marked s, poison s).
Lemma core_eq : forall a b, core a = core b ->
  st a = st b /\ rowp a = rowp b /\ marked a = marked b /\ poison a = poison b.
Proof. intros a b H. injection H. auto. Qed.

Lemma core_sethp_false : forall s c ri p, core (sethp_false s c ri p) = core s.
Proof. intros. unfold sethp_false. destruct (hp s c ri) as [| |q]; [| |destruct (key_eqb s q p)]; reflexivity. Qed.
Lemma core_mod_coll : forall s p ri, core (mod_coll s p ri) = core s.
Proof. intros. unfold mod_coll. destruct (ccomm s p ri); reflexivity. Qed.
Lemma core_mod_scalar : forall s c ri v, core (mod_scalar s c ri v) = core s.
Proof. intros. unfold mod_scalar. destruct (pcomm s c ri); reflexivity. Qed.
Lemma core_attach_new : forall s x ri c, core (attach_new s x ri c) = core s.
Proof. intros. exact (core_mod_coll s x ri). Qed.

(* the cascade only reads the relationship attributes *)
Definition attrs (s : state) := (coll s, ccomm s, par s, pcomm s, hp s).
Lemma attrs_eq : forall a b, attrs a = attrs b ->
  coll a = coll b /\ ccomm a = ccomm b /\ par a = par b /\ pcomm a = pcomm b /\ hp a = hp b.
Proof. intros a b H. injection H. auto. Qed.

Lemma creach_ext : forall cfg s1 s2 t halt n c,
  attrs s1 = attrs s2 -> (forall x, has_key s1 x = has_key s2 x) ->
  creach cfg s1 t halt n c -> creach cfg s2 t halt n c.
Proof.
  intros cfg s1 s2 t halt n c A K.
  assert (He : forall n c, edge cfg s1 t halt n c -> edge cfg s2 t halt n c).
  { destruct (attrs_eq _ _ A) as [A1 [A2 [A3 [A4 _]]]]. intros n' c' [p [Hp [Hh [Hc Ha]]]]. exists p. split; [exact Hp|]. split; [exact Hh|].
    unfold children, admissible in *. rewrite <- A1, <- A2, <- A3, <- A4, <- K. split; assumption. }
  intros H. induction H; [apply cr_one|eapply cr_step; [eassumption|]]; apply He; assumption.
Qed.

(* the lead object is treated like the cascaded ones, but the cascade runs before it is marked *)
Lemma op_delete_fold : forall cfg s o, has_key s o = true -> was_deleted s o = false -> marked s o = false ->
  exists s1, attrs s1 = attrs s /\ (forall x, has_key s1 x = has_key s x) /\
    op_delete cfg s o = (fold_left delete_impl_casc (o :: cascade_iter cfg s1 TDL no_halt o) s, 0).
Proof.
  intros cfg s o Hk Hd Hm. unfold op_delete. rewrite Hk, Hd, Hm. cbn [negb fold_left].
  eexists. split; [|split; [|f_equal; f_equal; unfold delete_impl_casc; rewrite Hk, Hd, Hm; reflexivity]].
  - destruct (st s o); reflexivity.
  - intros x. unfold has_key. destruct (st s o) eqn:S; try reflexivity. cbn [st set_st]. unfold upd.
    destruct (Nat.eqb x o) eqn:E; [apply Nat.eqb_eq in E; subst x; rewrite S|]; reflexivity.
Qed.

Theorem delete_closure : forall cfg s o,
  has_key s o = true -> was_deleted s o = false -> marked s o = false ->
  (forall x, creach cfg s TDL no_halt o x -> was_deleted s x = false) ->
  let s' := fst (op_delete cfg s o) in
  snd (op_delete cfg s o) = 0 /\ poison s' = poison s /\
  (forall x, marked s' x = true <->
             marked s x = true \/ x = o \/ (creach cfg s TDL no_halt o x /\ has_key s x = true)).
Proof.
  intros cfg s o Hk Hd Hm Hr. destruct (op_delete_fold cfg s o Hk Hd Hm) as [s1 [A [K ->]]]. cbn [fst snd].
  set (L := o :: cascade_iter cfg s1 TDL no_halt o).
  assert (HL : forall x, mem x L = true <-> x = o \/ creach cfg s TDL no_halt o x).
  { intros x. unfold L. rewrite closure_mem.
    split; (intros [H|H]; [left; exact H|right]); [apply (creach_ext cfg s1 s)|apply (creach_ext cfg s s1)]; auto. }
  split; [reflexivity|]. split.
  - apply (fold_poison _ _ delete_impl_casc_acts).
    + intros [v m e]. destruct v, m; reflexivity.
    + intros a c Hc. unfold delete_impl_casc. rewrite Hc.
      destruct (has_key a c); [|reflexivity]. destruct (marked a c); [reflexivity|]. destruct (st a c); reflexivity.
    + intros x Hx. apply mem_In, HL in Hx. destruct Hx as [->|Hx]; [exact Hd|exact (Hr x Hx)].
  - intros x. rewrite view_marked, (fold_view _ _ delete_impl_casc_acts delete_view_idem). fold L.
    destruct (mem x L) eqn:M; cbn [v_marked view_of].
    + apply HL in M.
      assert (W : was_deleted s x = false) by (destruct M as [->|M]; auto).
      assert (E : v_marked (delete_view (view_of s x)) = marked s x || has_key s x).
      { unfold delete_view, view_of, has_key, was_deleted in *. cbn [v_st v_marked].
        destruct (st s x), (marked s x); try discriminate W; reflexivity. }
      assert (Ko : x = o -> has_key s x = true) by (intros ->; exact Hk).
      rewrite E, orb_true_iff. tauto.
    + assert (N : ~ (x = o \/ creach cfg s TDL no_halt o x)) by (rewrite <- HL, M; discriminate). tauto.
Qed.

Lemma cond_expire_fold : forall l s,
  let s' := fold_left cond_expire l s in
  poison s' = poison s /\
  (forall x, expired s' x = expired s x || (mem x l && has_key s x)) /\
  (forall x, st s' x = if mem x l && is_pending s x then Transient else st s x).
Proof.
  intros l s s'. split; [|split; intros x].
  - apply fold_left_proj. intros a c. unfold cond_expire. destruct (has_key a c), (is_pending a c); reflexivity.
  - unfold s'. rewrite view_expired, (fold_view _ _ cond_expire_acts expire_view_idem).
    destruct (mem x l); cbn [v_expired expire_view view_of]; [apply orb_comm|symmetry; apply orb_false_r].
  - unfold s'. rewrite view_st, (fold_view _ _ cond_expire_acts expire_view_idem). unfold is_pending.
    destruct (mem x l); cbn [v_st expire_view view_of andb]; destruct (st s x); reflexivity.
Qed.

Theorem expire_closure : forall cfg s o, st s o = Persistent ->
  let s' := fst (op_expire cfg s o) in
  snd (op_expire cfg s o) = 0 /\ poison s' = poison s /\
  (forall x, expired s' x = true <->
             expired s x = true \/ ((x = o \/ creach cfg s TRE no_halt o x) /\ has_key s x = true)) /\
  (forall x, st s' x = if is_pending s x then
                         (if mem x (cascade_iter cfg s TRE no_halt o) then Transient else Pending)
                       else st s x).
Proof.
  intros cfg s o Hp. unfold op_expire. rewrite Hp. cbn [fst snd].
  destruct (cond_expire_fold (o :: cascade_iter cfg s TRE no_halt o) s) as [P [E S]].
  split; [reflexivity|]. split; [exact P|]. split; intros x.
  - rewrite E, orb_true_iff, andb_true_iff, closure_mem. tauto.
  - rewrite S, mem_cons. unfold is_pending. destruct (Nat.eqb x o) eqn:Ex; cbn [orb].
    + apply Nat.eqb_eq in Ex. subst x. rewrite Hp. reflexivity.
    + destruct (mem x _), (st s x); reflexivity.
Qed.
