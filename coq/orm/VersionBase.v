(* C44: association lists (rows, identity maps, the session store); the order relations of the invariant;
   what a list of versioned statements (the UPDATEs or the DELETEs of one flush) does to the rows *)
From Coq Require Import List ZArith Bool Arith Lia.
Import ListNotations.
From SAV.orm Require Import Version.
Open Scope Z_scope.

Lemma lookup_rset : forall k k' r l, lookup k' (rset k r l) =
  if Z.eqb k' k then match lookup k l with Some _ => Some r | None => None end else lookup k' l.
Proof.
  induction l as [|[k0 a] t IH]; cbn [rset map lookup fst]; [destruct (Z.eqb k' k); reflexivity|].
  fold (rset k r t). destruct (Z.eqb_spec k0 k) as [->|N0]; cbn [lookup]; rewrite IH.
  - destruct (Z.eqb_spec k k') as [<-|N]; [rewrite Z.eqb_refl; reflexivity|]. destruct (Z.eqb_spec k' k); [congruence|reflexivity].
  - destruct (Z.eqb_spec k0 k') as [->|N]; [|reflexivity]. destruct (Z.eqb_spec k' k); [contradiction|reflexivity].
Qed.

Lemma lookup_rdel : forall A k k' (l : list (Z * A)), lookup k' (rdel k l) = if Z.eqb k' k then None else lookup k' l.
Proof.
  induction l as [|[k0 a] t IH]; cbn [rdel filter lookup fst]; [destruct (Z.eqb k' k); reflexivity|].
  fold (rdel k t). destruct (Z.eqb_spec k0 k) as [->|N0]; cbn [negb lookup]; rewrite IH.
  - destruct (Z.eqb_spec k' k) as [->|N]; [reflexivity|]. destruct (Z.eqb_spec k k'); [congruence|reflexivity].
  - destruct (Z.eqb_spec k0 k') as [->|N]; [|reflexivity]. destruct (Z.eqb_spec k' k); [contradiction|reflexivity].
Qed.

Lemma lookup_In : forall A k (a : A) l, lookup k l = Some a -> In (k, a) l.
Proof.
  induction l as [|[k0 b] t IH]; cbn [lookup]; [discriminate|].
  destruct (Z.eqb_spec k0 k) as [->|N]; intros H.
  - injection H as ->. left. reflexivity.
  - right. apply IH, H.
Qed.

Lemma lookup_none_neq : forall A k k' (a : A) l, lookup k l = None -> In (k', a) l -> k' <> k.
Proof.
  intros A k k' a l Hn Hin E. subst k'. revert Hn Hin.
  induction l as [|[k0 b] t IH]; cbn [lookup In]; [tauto|].
  destruct (Z.eqb_spec k0 k) as [->|N]; [discriminate|]. intros Hn [E|Hin]; [congruence|]. apply IH; assumption.
Qed.

Lemma sget_sput_same : forall i x l, sget i (sput i x l) = x.
Proof. intros. unfold sput. cbn [sget]. rewrite Nat.eqb_refl. reflexivity. Qed.
Lemma sget_sput_other : forall i j x l, j <> i -> sget j (sput i x l) = sget j l.
Proof. intros. unfold sput. cbn [sget]. destruct (Nat.eqb_spec i j); [congruence|reflexivity]. Qed.

Fixpoint distinct {A} (l : list (Z * A)) : Prop :=
  match l with [] => True | (k, _) :: r => lookup k r = None /\ distinct r end.

Lemma lookup_filter_none : forall A (f : Z * A -> bool) k l, lookup k l = None -> lookup k (filter f l) = None.
Proof.
  induction l as [|[k0 b] t IH]; cbn [lookup filter]; [reflexivity|].
  destruct (Z.eqb_spec k0 k) as [->|N]; [discriminate|]. intros H.
  destruct (f (k0, b)); cbn [lookup]; [destruct (Z.eqb_spec k0 k); [contradiction|]|]; apply IH, H.
Qed.

Lemma distinct_filter : forall A (f : Z * A -> bool) l, distinct l -> distinct (filter f l).
Proof.
  induction l as [|[k0 b] t IH]; cbn [distinct filter]; [trivial|].
  intros [H1 H2]. destruct (f (k0, b)); cbn [distinct]; [split; [apply lookup_filter_none, H1|]|]; apply IH, H2.
Qed.

Lemma distinct_In_lookup : forall A k (a : A) l, distinct l -> In (k, a) l -> lookup k l = Some a.
Proof.
  induction l as [|[k0 b] t IH]; cbn [distinct In lookup]; [tauto|].
  intros [H1 H2] [E|H].
  - injection E as -> ->. rewrite Z.eqb_refl. reflexivity.
  - destruct (Z.eqb_spec k0 k) as [->|N]; [|apply IH; assumption].
    apply IH in H; [|assumption]. congruence.
Qed.

Lemma lookup_filter : forall A (f : Z * A -> bool) k (a : A) l, distinct l -> In (k, a) l ->
  lookup k (filter f l) = if f (k, a) then Some a else None.
Proof.
  intros A f k a l D Hin. destruct (f (k, a)) eqn:F.
  - apply distinct_In_lookup; [apply distinct_filter, D|]. apply filter_In. split; assumption.
  - destruct (lookup k (filter f l)) as [b|] eqn:L; [|reflexivity]. apply lookup_In, filter_In in L. destruct L as [Hb Fb].
    pose proof (distinct_In_lookup _ _ _ _ D Hin) as L1. rewrite (distinct_In_lookup _ _ _ _ D Hb) in L1. congruence.
Qed.

(* strictly increasing keys: the identity map of a session, which is also its flush order *)
Fixpoint sorted (l : ents) : Prop :=
  match l with [] => True | (k, _) :: r => Forall (fun p => k < fst p) r /\ sorted r end.

Lemma sorted_distinct : forall l, sorted l -> distinct l.
Proof.
  induction l as [|[k e] t IH]; cbn [sorted distinct]; [trivial|]. intros [H1 H2]. split; [|apply IH, H2].
  destruct (lookup k t) as [a|] eqn:L; [|reflexivity]. apply lookup_In in L.
  rewrite Forall_forall in H1. specialize (H1 _ L). cbn [fst] in H1. lia.
Qed.

Lemma eins_In : forall k e k' e' l, In (k', e') (eins k e l) -> (k', e') = (k, e) \/ In (k', e') l.
Proof.
  induction l as [|[k0 e0] t IH]; cbn [eins].
  - intros [H|[]]. left. symmetry. exact H.
  - destruct (Z.ltb_spec k k0) as [Hlt|Hge].
    + intros [H|H]; [left; symmetry; exact H|right; exact H].
    + destruct (Z.eqb_spec k k0) as [->|N].
      * intros [H|H]; [left; symmetry; exact H|right; right; exact H].
      * intros [H|H]; [right; left; exact H|]. destruct (IH H) as [E|E]; [left; exact E|right; right; exact E].
Qed.

Lemma sorted_eins : forall k e l, sorted l -> sorted (eins k e l).
Proof.
  induction l as [|[k0 e0] t IH]; cbn [eins sorted]; [intros _; split; [constructor|trivial]|].
  intros [H1 H2]. destruct (Z.ltb_spec k k0) as [Hlt|Hge].
  - cbn [sorted]. split; [|split; assumption]. constructor; [cbn [fst]; lia|].
    eapply Forall_impl; [|exact H1]. cbn. intros; lia.
  - destruct (Z.eqb_spec k k0) as [->|N]; cbn [sorted]; [split; assumption|]. split; [|apply IH, H2].
    rewrite Forall_forall in *. intros [k' e'] Hin. apply eins_In in Hin. destruct Hin as [E|Hin]; [|apply (H1 _ Hin)].
    injection E as -> ->. cbn [fst]. lia.
Qed.

Lemma lookup_eins_same : forall k e l, lookup k (eins k e l) = Some e.
Proof.
  induction l as [|[k0 e0] t IH]; cbn [eins lookup]; [rewrite Z.eqb_refl; reflexivity|].
  destruct (Z.ltb_spec k k0) as [Hlt|Hge]; [cbn [lookup]; rewrite Z.eqb_refl; reflexivity|].
  destruct (Z.eqb_spec k k0) as [->|N]; cbn [lookup]; [rewrite Z.eqb_refl; reflexivity|].
  destruct (Z.eqb_spec k0 k); [congruence|]. exact IH.
Qed.

(* r2 evolved from r1: no row re-created, versions do not go backwards, equal version = equal content *)
Definition rows_le (r1 r2 : rows) : Prop :=
  forall k b, lookup k r2 = Some b ->
  exists a, lookup k r1 = Some a /\ rv a <= rv b /\ (rv a = rv b -> rx a = rx b).
(* what a session has loaded is a (possibly old) state of the row *)
Definition ent_le (es : ents) (r : rows) : Prop :=
  forall k e b, In (k, e) es -> lookup k r = Some b -> ev e <= rv b /\ (ev e = rv b -> ex e = rx b).

(* both relations compare (version, content) pairs in this order *)
Lemma ver_le_trans : forall (v1 v2 v3 : Z) (x1 x2 x3 : content),
  v1 <= v2 /\ (v1 = v2 -> x1 = x2) -> v2 <= v3 /\ (v2 = v3 -> x2 = x3) -> v1 <= v3 /\ (v1 = v3 -> x1 = x3).
Proof. intros v1 v2 v3 x1 x2 x3 [L1 E1] [L2 E2]. split; [lia|]. intros E. rewrite E1, E2 by lia. reflexivity. Qed.

Lemma rows_le_refl : forall r, rows_le r r.
Proof. intros r k b H. exists b. split; [exact H|split; [lia|trivial]]. Qed.

Lemma rows_le_trans : forall r1 r2 r3, rows_le r1 r2 -> rows_le r2 r3 -> rows_le r1 r3.
Proof.
  intros r1 r2 r3 H12 H23 k c Hc. destruct (H23 _ _ Hc) as [b [Hb Hbc]].
  destruct (H12 _ _ Hb) as [a [Ha Hab]]. exists a. split; [exact Ha|]. exact (ver_le_trans _ _ _ _ _ _ Hab Hbc).
Qed.

Lemma ent_le_rows_le : forall es r1 r2, ent_le es r1 -> rows_le r1 r2 -> ent_le es r2.
Proof.
  intros es r1 r2 H1 H12 k e c Hin Hc. destruct (H12 _ _ Hc) as [b [Hb Hbc]].
  exact (ver_le_trans _ _ _ _ _ _ (H1 _ _ _ Hin Hb) Hbc).
Qed.

Lemma ent_le_nil : forall r, ent_le [] r.
Proof. intros r k e b []. Qed.

Lemma ent_le_eins : forall k e l r, ent_le l r ->
  (forall b, lookup k r = Some b -> ev e <= rv b /\ (ev e = rv b -> ex e = rx b)) -> ent_le (eins k e l) r.
Proof.
  intros k e l r H He k' e' b Hin Hb. apply eins_In in Hin. destruct Hin as [E|Hin].
  - injection E as -> ->. apply He, Hb.
  - eapply H; eassumption.
Qed.

(* a WHERE clause that matches identifies the row the instance was loaded from *)
Lemma matches_loaded : forall es w k e, ent_le es w -> In (k, e) es -> matches w k (ev e) = true ->
  lookup k w = Some {| rx := ex e; rv := ev e |}.
Proof.
  unfold matches. intros es w k e H Hin M. destruct (lookup k w) as [[x v]|] eqn:L; [|discriminate].
  apply Z.eqb_eq in M. cbn [rv] in M. subst v. destruct (H k e _ Hin L) as [_ E]. rewrite (E eq_refl). reflexivity.
Qed.

(* how many of the instances in l carry the version their row has in w *)
Definition mcount (w : rows) (l : ents) : nat :=
  length (filter (fun ke : Z * ent => matches w (fst ke) (ev (snd ke))) l).

Lemma mcount_cons : forall w k e l,
  mcount w ((k, e) :: l) = if matches w k (ev e) then S (mcount w l) else mcount w l.
Proof. intros. unfold mcount. cbn [filter fst snd]. destruct (matches w k (ev e)); reflexivity. Qed.

Lemma mcount_ext : forall w w' (l : ents),
  (forall k e, In (k, e) l -> matches w' k (ev e) = matches w k (ev e)) -> mcount w' l = mcount w l.
Proof. intros w w' l H. unfold mcount. f_equal. apply filter_ext_in. intros [k e] Hin. apply H, Hin. Qed.

Lemma mcount_le : forall w l, (mcount w l <= length l)%nat.
Proof.
  induction l as [|[k e] t IH]; [apply le_n|]. rewrite mcount_cons. cbn [length]. destruct (matches w k (ev e)); lia.
Qed.

Lemma mcount_full : forall w l, mcount w l = length l -> forall k e, In (k, e) l -> matches w k (ev e) = true.
Proof.
  induction l as [|[k0 e0] t IH]; [intros _ k e []|]. rewrite mcount_cons. cbn [length]. pose proof (mcount_le w t).
  destruct (matches w k0 (ev e0)) eqn:M; [|lia]. intros Hl k e [E|Hin]; [|apply IH; [lia|exact Hin]].
  injection E as <- <-. exact M.
Qed.

(* [run] executes one statement per instance: the statement for (k, e) changes row k by [act], and only if that row
   carries the loaded version [ev e]; [post e] is row k afterwards; the second component is the summed rowcount.
   The UPDATE list and the DELETE list of a flush are both of this kind (upd_versioned, del_versioned); the proofs
   use them through the four lemmas of Section Versioned. *)
Set Implicit Arguments.
Record versioned (run : rows -> ents -> rows * nat) (act : Z -> ent -> rows -> rows) (post : ent -> option row) : Prop := {
  run_nil : forall w, run w [] = (w, O);
  run_cons : forall w k e l, run w ((k, e) :: l) =
    if matches w k (ev e) then (fst (run (act k e w) l), S (snd (run (act k e w) l))) else run w l;
  act_other : forall k e w k', k' <> k -> lookup k' (act k e w) = lookup k' w;
  act_same : forall k e w, matches w k (ev e) = true -> lookup k (act k e w) = post e }.
Unset Implicit Arguments.

Section Versioned.
Context {run act post} (V : versioned run act post).

(* with distinct keys every WHERE clause is evaluated on the row as it was before the first statement *)
Lemma run_count : forall l w, distinct l -> snd (run w l) = mcount w l.
Proof.
  induction l as [|[k e] t IH]; intros w D; [rewrite (run_nil V); reflexivity|]. destruct D as [H1 H2].
  rewrite (run_cons V), mcount_cons. destruct (matches w k (ev e)); cbn [snd]; rewrite IH by exact H2; [f_equal|reflexivity].
  apply mcount_ext. intros k0 e0 Hin. unfold matches. rewrite (act_other V); [reflexivity|].
  eapply lookup_none_neq; eassumption.
Qed.

Lemma run_lookup : forall l w k, distinct l ->
  lookup k (fst (run w l)) =
  match lookup k l with
  | Some e => if matches w k (ev e) then post e else lookup k w
  | None => lookup k w
  end.
Proof.
  induction l as [|[k0 e0] t IH]; intros w k D; [rewrite (run_nil V); reflexivity|]. destruct D as [H1 H2].
  rewrite (run_cons V). cbn [lookup].
  destruct (matches w k0 (ev e0)) eqn:M; cbn [fst]; rewrite IH by exact H2; destruct (Z.eqb_spec k0 k) as [->|N].
  - rewrite H1, M. apply (act_same V), M.
  - unfold matches. rewrite !(act_other V) by congruence. reflexivity.
  - rewrite H1, M. reflexivity.
  - reflexivity.
Qed.

Lemma run_le : (forall e b, post e = Some b -> ev e < rv b) -> forall l w, distinct l -> rows_le w (fst (run w l)).
Proof.
  intros Hpost l w D k b H. rewrite run_lookup in H by exact D.
  destruct (lookup k l) as [e|]; [destruct (matches w k (ev e)) eqn:M|]; [|apply rows_le_refl, H..].
  unfold matches in M. destruct (lookup k w) as [a|]; [|discriminate]. apply Z.eqb_eq in M. apply Hpost in H.
  exists a. split; [reflexivity|]. split; lia.
Qed.

Lemma run_zero : forall l w, snd (run w l) = O -> fst (run w l) = w.
Proof.
  induction l as [|[k e] t IH]; intros w; [rewrite (run_nil V); reflexivity|].
  rewrite (run_cons V). destruct (matches w k (ev e)); [discriminate|apply IH].
Qed.
End Versioned.

(* UPDATE a SET x = p, v = g(v) WHERE id = k AND v = v *)
Lemma upd_versioned : forall g,
  versioned (run_updates g) (fun k e => rset k {| rx := pend_of e; rv := g (ev e) |})
            (fun e => Some {| rx := pend_of e; rv := g (ev e) |}).
Proof.
  intros g. split.
  - reflexivity.
  - intros. cbn [run_updates]. unfold sql_update. destruct (matches _ _ _); destruct (run_updates _ _ _); reflexivity.
  - intros k e w k' N. rewrite lookup_rset. destruct (Z.eqb_spec k' k); [contradiction|reflexivity].
  - unfold matches. intros k e w M. rewrite lookup_rset, Z.eqb_refl. destruct (lookup k w); [reflexivity|discriminate].
Qed.

(* DELETE FROM a WHERE id = k AND v = v *)
Lemma del_versioned : versioned run_deletes (fun k _ => rdel k) (fun _ => None).
Proof.
  split.
  - reflexivity.
  - intros. cbn [run_deletes]. unfold sql_delete. destruct (matches _ _ _); destruct (run_deletes _ _); reflexivity.
  - intros k e w k' N. rewrite lookup_rdel. destruct (Z.eqb_spec k' k); [contradiction|reflexivity].
  - intros. rewrite lookup_rdel, Z.eqb_refl. reflexivity.
Qed.
