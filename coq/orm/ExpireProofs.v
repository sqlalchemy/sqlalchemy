(* C46: proofs about the attribute-state model.  The invariants are shown to survive the model's object transformers
   ([owf], [osynced], [opending]); [upd_obj_elim] and [att_elim] carry that to the states [step] builds. *)
From Coq Require Import List ZArith NArith Bool Arith.
Import ListNotations.
From SAV.orm Require Import Expire.
Open Scope Z_scope.

(* attached to the session, no pending change, and either expired or holding the value the session's open transaction sees *)
Definition synced (s : state) (k : Z) (a : nat) : Prop :=
  oatt (objs s k) = true /\ orig (objs s k) a = None /\
  (oval (objs s k) a = None \/ (snap s <> None /\ oval (objs s k) a = Some (view s k a))).
(* a pending (unflushed) change with value v *)
Definition pending (s : state) (k : Z) (a : nat) (v : Z) : Prop :=
  orig (objs s k) a <> None /\ oval (objs s k) a = Some v.
(* well-formedness: what is not in the dict is marked expired and has no pending change *)
Definition wf (s : state) : Prop :=
  forall k a, oval (objs s k) a = None -> oexp (objs s k) a = true /\ orig (objs s k) a = None.

Definition named (ns : list nat) (a : nat) : bool := match ns with [] => true | _ => mem a ns end.

(* operations after which attribute a of instance k must read as the database's value *)
Definition expires (eoc : bool) (o : op) (s : state) (k : Z) (a : nat) : Prop :=
  oatt (objs s k) = true /\
  match o with
  | Expire k' ns | Refresh k' ns => k' = k /\ named ns a = true
  | ExpireAll | PopEx | PopExCols _ => True
  | Commit => eoc = true
  | Rollback => tx s = true
  | _ => False
  end.
(* operations that do not end the guarantee *)
Definition keeps (eoc : bool) (k : Z) (a : nat) (o : op) : Prop :=
  match o with
  | SetA k' a' _ => ~ (k' = k /\ a' = a)
  | Commit => eoc = true
  | Expunge k' => k' <> k
  | _ => True
  end.
(* operations that leave a pending change of (k, a) alone *)
Definition undisturbed (k : Z) (a : nat) (o : op) : Prop :=
  match o with
  | SetA k' a' _ => ~ (k' = k /\ a' = a)
  | Expire k' ns | Refresh k' ns => k' <> k \/ named ns a = false
  | Read _ _ | Ext _ _ _ | Expunge _ | Add _ => True
  | ExpireAll | Commit | Rollback | PopEx | PopExCols _ => False
  end.

(* what the invariants look at: the dict entry, the committed_state entry and the expired flag of one attribute *)
Definition cell (o : obj) (a : nat) : option Z * option (option Z) * bool := (oval o a, orig o a, oexp o a).
Definition owf (o : obj) : Prop := forall a, let '(x, g, e) := cell o a in x = None -> e = true /\ g = None.
Definition osynced (open : Prop) (v : Z) (a : nat) (o : obj) : Prop :=
  oatt o = true /\ let '(x, g, _) := cell o a in g = None /\ (x = None \/ (open /\ x = Some v)).
Definition opending (a : nat) (v : Z) (o : obj) : Prop := let '(x, g, _) := cell o a in g <> None /\ x = Some v.

Lemma wf_owf : forall s, wf s = forall k, owf (objs s k).
Proof. reflexivity. Qed.
Lemma synced_osynced : forall s k a, synced s k a = osynced (snap s <> None) (view s k a) a (objs s k).
Proof. reflexivity. Qed.
Lemma pending_opending : forall s k a v, pending s k a v = opending a v (objs s k).
Proof. reflexivity. Qed.

Lemma view_begin_read : forall s, view (begin_read s) = view s.
Proof. intros s. unfold view, begin_read. cbn [snap com]. destruct (snap s) as [[g r]|]; reflexivity. Qed.
Lemma snap_begin_read : forall s, snap (begin_read s) <> None.
Proof. intros s. unfold begin_read. cbn [snap]. destruct (snap s); discriminate. Qed.

Lemma named_cases : forall ns a, named ns a = true -> ns = [] \/ (ns <> [] /\ mem a ns = true).
Proof. intros [|n t] a H; [left; reflexivity|right; split; [discriminate|exact H]]. Qed.

(* expire and refresh act on the named cells only *)
Lemma cell_expire_obj : forall ns o a, cell (expire_obj ns o) a = if named ns a then (None, None, true) else cell o a.
Proof.
  intros [|n t] o a; [reflexivity|]. unfold cell. cbn [expire_obj expire_attrs oval orig oexp named].
  destruct (mem a (n :: t)); reflexivity.
Qed.
Lemma cell_refreshed : forall ns r o a,
  cell (refreshed_obj ns r o) a = if named ns a then (Some (r a), None, false) else cell o a.
Proof.
  intros [|n t] r o a; [reflexivity|]. unfold cell. cbn [refreshed_obj oval orig oexp named].
  destruct (mem a (n :: t)); reflexivity.
Qed.
Lemma cell_eq : forall o a x g e, cell o a = (x, g, e) -> oval o a = x /\ orig o a = g /\ oexp o a = e.
Proof. intros o a x g e H. injection H as -> -> ->. repeat split. Qed.

Lemma upd_obj_same : forall s k o, upd_obj s k o k = o.
Proof. intros. unfold upd_obj. rewrite Z.eqb_refl. reflexivity. Qed.
Lemma upd_obj_other : forall s k o k', k' <> k -> upd_obj s k o k' = objs s k'.
Proof. intros. unfold upd_obj. destruct (Z.eqb_spec k' k); [contradiction|reflexivity]. Qed.
(* what holds of the new object (where it was put) and of the old ones holds of the updated map *)
Lemma upd_obj_elim : forall (Q : obj -> Prop) s k o k', (k' = k -> Q o) -> Q (objs s k') -> Q (upd_obj s k o k').
Proof. intros Q s k o k' Hn Ho. unfold upd_obj. destruct (Z.eqb_spec k' k); [apply Hn; assumption|exact Ho]. Qed.

Lemma oatt_expire_obj : forall ns o, oatt (expire_obj ns o) = oatt o.
Proof. intros [|n t] o; reflexivity. Qed.
Lemma oatt_refreshed : forall ns r o, oatt (refreshed_obj ns r o) = oatt o.
Proof. intros [|n t] r o; reflexivity. Qed.
Lemma att_true : forall f o, oatt o = true -> att f o = f o.
Proof. intros f o H. unfold att. rewrite H. reflexivity. Qed.
Lemma att_false : forall f o, oatt o = false -> att f o = o.
Proof. intros f o H. unfold att. rewrite H. reflexivity. Qed.
Lemma att_elim : forall (Q : obj -> Prop) f o, Q (f o) -> Q o -> Q (att f o).
Proof. intros Q f o Hf Ho. unfold att. destruct (oatt o); assumption. Qed.

Lemma owf_expire_full : forall o, owf (expire_full o).
Proof. intros o a _. split; reflexivity. Qed.
Lemma owf_expire_obj : forall ns o, owf o -> owf (expire_obj ns o).
Proof. intros ns o W a. rewrite cell_expire_obj. destruct (named ns a); [intros _; split; reflexivity|apply W]. Qed.
Lemma owf_loaded : forall r o, owf o -> owf (loaded_obj r o).
Proof.
  intros r o W a. unfold cell. cbn [loaded_obj oval oexp orig]. destruct (oexp o a && isnone (orig o a)) eqn:C; [discriminate|].
  intros H. destruct (W a H) as [A B]. rewrite A, B in C. discriminate.
Qed.
Lemma owf_refreshed : forall ns r o, owf o -> owf (refreshed_obj ns r o).
Proof. intros ns r o W a. rewrite cell_refreshed. destruct (named ns a); [intros H; discriminate H|apply W]. Qed.
Lemma owf_populated : forall ns r o, owf (populated_obj ns r o).
Proof. intros ns r o a. unfold cell. cbn [populated_obj oval oexp orig]. destruct (in_row ns a); [discriminate|intros _; split; reflexivity]. Qed.
Lemma owf_finalized : forall o, owf o -> owf (finalized o).
Proof. intros o W a H. destruct (W a H) as [A _]. unfold cell in *. cbn [finalized oval oexp orig] in *. rewrite A, H. split; reflexivity. Qed.

Section P.
Variables (eoc : bool) (pks : list Z) (attrs : list nat).
Notation stepT := (step eoc pks attrs).
Notation runT := (run eoc pks attrs).

Lemma wf_init : forall r0, wf (init r0).
Proof. intros r0 k a. cbn. discriminate. Qed.

Lemma wf_step : forall o s, wf s -> wf (fst (stepT o s)).
Proof.
  intros o s W. rewrite wf_owf in *. intros k'. pose proof (W k') as Wk.
  destruct o as [k a|k a v|k ns| |k ns| | | |k a v|ns|k|k]; cbn [step].
  - destruct (oval (objs s k) a); [exact Wk|]. destruct (oatt (objs s k)); [|exact Wk].
    apply (upd_obj_elim owf); [intros _; apply owf_loaded, W|exact Wk].
  - apply (upd_obj_elim owf); [intros _|exact Wk]. intros a'. unfold cell. cbn [oval oexp orig].
    destruct (Nat.eqb_spec a' a); [discriminate|apply W].
  - destruct (oatt (objs s k)); [|exact Wk]. apply (upd_obj_elim owf); [intros _; apply owf_expire_obj, W|exact Wk].
  - apply (att_elim owf); [apply owf_expire_full|exact Wk].
  - destruct (oatt (objs s k)); [|exact Wk].
    apply (upd_obj_elim owf); [intros _; apply owf_refreshed, owf_expire_obj, W|exact Wk].
  - unfold commit. destruct (any_changed pks attrs s && _); cbn [fst objs].
    + apply (att_elim owf); [apply owf_expire_full|exact Wk].
    + destruct (oatt (objs s k')); [|exact Wk]. destruct eoc; [apply owf_expire_full|].
      destruct (omod (objs s k')); [|exact Wk]. apply owf_finalized.
      destruct (isnone (oval (objs s k') 0%nat)); [apply owf_loaded|]; exact Wk.
  - destruct (tx s); [|exact Wk]. apply (att_elim owf); [apply owf_expire_full|exact Wk].
  - apply (att_elim owf); [apply owf_refreshed|]; exact Wk.
  - exact Wk.
  - apply (att_elim owf); [apply owf_populated|exact Wk].
  - destruct (oatt (objs s k)); [|exact Wk]. apply (upd_obj_elim owf); [intros _|exact Wk]. apply W.
  - apply (upd_obj_elim owf); [intros _|exact Wk]. apply W.
Qed.

Lemma run_preserves : forall (P : state -> Prop) (ok : op -> Prop),
  (forall o s, ok o -> P s -> P (fst (stepT o s))) -> forall l s, Forall ok l -> P s -> P (runT l s).
Proof.
  intros P ok St. induction l as [|o t IH]; intros s F H; cbn [run]; [exact H|]. inversion F as [|? ? K Ft]; subst.
  apply IH; [exact Ft|]. apply St; assumption.
Qed.

Lemma wf_run : forall l s, wf s -> wf (runT l s).
Proof.
  intros l s. apply (run_preserves wf (fun _ => True)); [intros o s' _; apply wf_step|]. apply Forall_forall. intros; exact I.
Qed.

(* clause 1 of props/C46.v: an expiring operation establishes [synced], the kept ones preserve it, a read uses it *)
Lemma osynced_expired : forall P v a o, oatt o = true -> orig o a = None -> oval o a = None -> osynced P v a o.
Proof. intros P v a o A B C. split; [exact A|split; [exact B|left; exact C]]. Qed.
Lemma osynced_expire_full : forall P v a o, oatt o = true -> osynced P v a (att expire_full o).
Proof. intros P v a o A. rewrite (att_true _ _ A). apply osynced_expired; [exact A|reflexivity|reflexivity]. Qed.
(* the guarantee moves to any state whose open snapshot shows the same value *)
Lemma osynced_weaken : forall (P P' : Prop) v v' a o, (P -> P' /\ v' = v) -> osynced P v a o -> osynced P' v' a o.
Proof.
  intros P P' v v' a o H [A [B C]]. split; [exact A|split; [exact B|]].
  destruct C as [C|[O C]]; [left; exact C|right]. destruct (H O) as [O' ->]. split; assumption.
Qed.
Lemma osynced_expire_obj : forall P v a ns o, oatt o = true ->
  (named ns a = false -> osynced P v a o) -> osynced P v a (expire_obj ns o).
Proof.
  intros P v a ns o HA S. split; [rewrite oatt_expire_obj; exact HA|]. rewrite cell_expire_obj.
  destruct (named ns a); [split; [reflexivity|left; reflexivity]|apply S; reflexivity].
Qed.
Lemma osynced_loaded : forall (P : Prop) r a o, P -> osynced P (r a) a o -> osynced P (r a) a (loaded_obj r o).
Proof.
  intros P r a o O [A [B C]]. split; [exact A|split; [exact B|]]. cbn [loaded_obj oval]. rewrite B. cbn [isnone]. rewrite andb_true_r.
  destruct (oexp o a); [right; split; [exact O|reflexivity]|exact C].
Qed.
Lemma osynced_refreshed : forall (P : Prop) r a ns o, P -> oatt o = true ->
  (named ns a = false -> osynced P (r a) a o) -> osynced P (r a) a (refreshed_obj ns r o).
Proof.
  intros P r a ns o O HA S. split; [rewrite oatt_refreshed; exact HA|]. rewrite cell_refreshed.
  destruct (named ns a); [split; [reflexivity|right; split; [exact O|reflexivity]]|apply S; reflexivity].
Qed.
Lemma synced_begin_read : forall s k a, synced s k a -> synced (begin_read s) k a.
Proof.
  intros s k a. apply osynced_weaken. intros _. split; [apply snap_begin_read|rewrite view_begin_read; reflexivity].
Qed.

Lemma expires_synced : forall o s k a, expires eoc o s k a -> synced (fst (stepT o s)) k a.
Proof.
  intros o s k a [HA H]. rewrite synced_osynced. destruct o as [k' a'|k' a' v|k' ns| |k' ns| | | |k' a' v|ns|k'|k']; try contradiction; cbn [step].
  - destruct H as [-> Nm]. rewrite HA. unfold synced. cbn [fst with_objs objs]. rewrite upd_obj_same.
    apply osynced_expire_obj; [exact HA|]. intros E. rewrite E in Nm. discriminate.
  - apply osynced_expire_full, HA.
  - destruct H as [-> Nm]. rewrite HA. unfold synced. cbn [fst with_objs objs]. rewrite upd_obj_same.
    apply (osynced_refreshed _ (view (begin_read s) k)); [apply snap_begin_read|rewrite oatt_expire_obj; exact HA|].
    intros E. rewrite E in Nm. discriminate.
  - subst eoc. unfold commit. destruct (any_changed pks attrs s && _); [apply osynced_expire_full, HA|].
    unfold synced. cbn [fst objs]. rewrite HA. apply osynced_expired; [|reflexivity|reflexivity].
    cbn [expire_full oatt]. destruct (omod (objs s k)); [|exact HA].
    destruct (isnone (oval (objs s k) 0%nat)); exact HA.
  - rewrite H. apply osynced_expire_full, HA.
  - unfold synced. cbn [fst with_objs objs]. rewrite (att_true _ _ HA).
    apply (osynced_refreshed _ (view (begin_read s) k) a []); [apply snap_begin_read|exact HA|discriminate].
  - unfold synced. cbn [fst with_objs objs]. rewrite (att_true _ _ HA).
    split; [exact HA|split; [reflexivity|]]. cbn [populated_obj oval].
    destruct (in_row ns a); [right; split; [apply snap_begin_read|reflexivity]|left; reflexivity].
Qed.

Lemma keeps_synced : forall o s k a, keeps eoc k a o -> synced s k a -> synced (fst (stepT o s)) k a.
Proof.
  intros o s k a K S. pose proof S as [SA _]. rewrite synced_osynced in *.
  destruct o as [k' a'|k' a' v|k' ns| |k' ns| | | |k' a' v|ns|k'|k']; cbn [keeps] in K.
  - cbn [step]. destruct (oval (objs s k') a'); [exact S|]. destruct (oatt (objs s k')); [|exact S].
    apply synced_begin_read in S. apply (upd_obj_elim (osynced _ _ a)); [intros ->|exact S].
    apply (osynced_loaded _ (view (begin_read s) k')); [apply snap_begin_read|exact S].
  - apply (upd_obj_elim (osynced _ _ a)); [intros ->|exact S]. destruct S as [_ [S1 S2]].
    unfold osynced, cell. cbn [oval orig oatt]. destruct (Nat.eqb_spec a a') as [->|_]; [exfalso; apply K; split; reflexivity|].
    split; [exact SA|split; assumption].
  - cbn [step]. destruct (oatt (objs s k')); [|exact S].
    apply (upd_obj_elim (osynced _ _ a)); [intros ->; apply osynced_expire_obj; [exact SA|intros _]|]; exact S.
  - apply (expires_synced ExpireAll). exact (conj SA I).
  - cbn [step]. destruct (oatt (objs s k')); [|exact S].
    apply synced_begin_read in S. apply (upd_obj_elim (osynced _ _ a)); [intros ->|exact S].
    apply (osynced_refreshed _ (view (begin_read s) k')); [apply snap_begin_read|rewrite oatt_expire_obj; exact SA|].
    intros _. apply osynced_expire_obj; [exact SA|intros _; exact S].
  - apply (expires_synced Commit). exact (conj SA K).
  - destruct (tx s) eqn:T; [apply (expires_synced Rollback); exact (conj SA T)|]. cbn [step]. rewrite T. exact S.
  - apply (expires_synced PopEx). exact (conj SA I).
  - (* external update: an open snapshot does not move; without one the attribute is expired *)
    revert S. apply osynced_weaken. intros O. split; [exact O|]. unfold view. cbn [step fst snap com].
    destruct (snap s); [reflexivity|contradiction].
  - apply (expires_synced (PopExCols ns)). exact (conj SA I).
  - cbn [step]. destruct (oatt (objs s k')); [|exact S].
    apply (upd_obj_elim (osynced _ _ a)); [intros E; contradiction (K (eq_sym E))|exact S].
  - apply (upd_obj_elim (osynced _ _ a)); [intros ->|exact S]. split; [reflexivity|apply S].
Qed.

Lemma read_synced : forall s k a, wf s -> synced s k a ->
  snd (stepT (Read k a) s) = RVal (Some (view s k a)).
Proof.
  intros s k a W [SA [S1 S2]]. cbn [step]. destruct (oval (objs s k) a) as [v|] eqn:E; cbn [snd].
  - destruct S2 as [X|[_ X]]; [discriminate|]. rewrite X. reflexivity.
  - rewrite SA. cbn [snd]. destruct (W k a E) as [A B]. cbn [loaded_obj oval]. rewrite A, B. cbn [isnone andb].
    rewrite view_begin_read. reflexivity.
Qed.

Theorem synced_run : forall l s k a, Forall (keeps eoc k a) l -> synced s k a -> synced (runT l s) k a.
Proof. intros l s k a. apply (run_preserves (fun s => synced s k a)). intros o s'. apply keeps_synced. Qed.

(* clause 2: pending changes that were not expired *)
Lemma opending_loaded : forall a v r o, opending a v o -> opending a v (loaded_obj r o).
Proof.
  intros a v r o [P1 P2]. split; [exact P1|]. cbn [loaded_obj oval]. destruct (orig o a); [|contradiction].
  cbn [isnone]. rewrite andb_false_r. exact P2.
Qed.
Lemma opending_expire_obj : forall a v ns o, named ns a = false -> opending a v o -> opending a v (expire_obj ns o).
Proof. intros a v ns o Nm P. unfold opending. rewrite cell_expire_obj, Nm. exact P. Qed.
Lemma opending_refreshed : forall a v ns r o, named ns a = false -> opending a v o -> opending a v (refreshed_obj ns r o).
Proof. intros a v ns r o Nm P. unfold opending. rewrite cell_refreshed, Nm. exact P. Qed.

Lemma undisturbed_pending : forall o s k a v, undisturbed k a o -> pending s k a v -> pending (fst (stepT o s)) k a v.
Proof.
  intros o s k a v U P. rewrite pending_opending in *.
  destruct o as [k' a'|k' a' v'|k' ns| |k' ns| | | |k' a' v'|ns|k'|k']; cbn [undisturbed] in U; try contradiction; cbn [step].
  - destruct (oval (objs s k') a'); [exact P|]. destruct (oatt (objs s k')); [|exact P].
    apply (upd_obj_elim (opending a v)); [intros ->; apply opending_loaded|]; exact P.
  - apply (upd_obj_elim (opending a v)); [intros ->|exact P]. unfold opending, cell. cbn [oval orig].
    destruct (Nat.eqb_spec a a') as [->|_]; [exfalso; apply U; split; reflexivity|exact P].
  - destruct (oatt (objs s k')); [|exact P]. apply (upd_obj_elim (opending a v)); [intros ->|exact P].
    destruct U as [U|U]; [contradiction U; reflexivity|]. apply opending_expire_obj; assumption.
  - destruct (oatt (objs s k')); [|exact P]. apply (upd_obj_elim (opending a v)); [intros ->|exact P].
    destruct U as [U|U]; [contradiction U; reflexivity|]. apply opending_refreshed, opending_expire_obj; assumption.
  - exact P.
  - destruct (oatt (objs s k')); [|exact P]. apply (upd_obj_elim (opending a v)); [intros ->|]; exact P.
  - apply (upd_obj_elim (opending a v)); [intros ->|]; exact P.
Qed.

Lemma read_pending : forall s k a v, pending s k a v ->
  stepT (Read k a) s = (s, RVal (Some v)).
Proof. intros s k a v [_ P2]. cbn [step]. rewrite P2. reflexivity. Qed.

Theorem pending_run : forall l s k a v, Forall (undisturbed k a) l -> pending s k a v -> pending (runT l s) k a v.
Proof. intros l s k a v. apply (run_preserves (fun s => pending s k a v)). intros o s'. apply undisturbed_pending. Qed.

(* clause 3: refresh overwrites exactly the named attributes of exactly the named instance *)
Theorem refresh_exact : forall s k ns, oatt (objs s k) = true ->
  let s' := fst (stepT (Refresh k ns) s) in
  (forall a, named ns a = true ->
     oval (objs s' k) a = Some (view s k a) /\ orig (objs s' k) a = None /\ oexp (objs s' k) a = false) /\
  (forall a, named ns a = false ->
     oval (objs s' k) a = oval (objs s k) a /\ orig (objs s' k) a = orig (objs s k) a /\
     oexp (objs s' k) a = oexp (objs s k) a /\ omod (objs s' k) = omod (objs s k)) /\
  (forall k', k' <> k -> objs s' k' = objs s k') /\
  com s' = com s /\ gen s' = gen s /\ view s' = view s /\ snap s' <> None /\
  selects pks attrs (Refresh k ns) s (snd (stepT (Refresh k ns) s)) = 1%nat.
Proof.
  intros s k ns HA. cbn [step selects]. rewrite HA. cbn [fst snd]. cbv zeta. cbn [with_objs objs com gen snap].
  rewrite upd_obj_same, <- (view_begin_read s). repeat apply conj; try reflexivity.
  - intros a Nm. apply cell_eq. rewrite cell_refreshed, Nm. reflexivity.
  - intros a Nm. set (o' := refreshed_obj _ _ _).
    assert (C : cell o' a = cell (objs s k) a) by (unfold o'; rewrite cell_refreshed, Nm, cell_expire_obj, Nm; reflexivity).
    apply cell_eq in C. destruct C as [A [B C]]. repeat split; try assumption. destruct ns; [discriminate Nm|reflexivity].
  - intros k' N. apply upd_obj_other, N.
  - apply snap_begin_read.
Qed.

(* a populate_existing query whose rows lack some loaded columns: what is in the row is overwritten, what is not is
   discarded and expired, pending changes included - nothing keeps an old value *)
Theorem popex_cols_exact : forall s ns k, oatt (objs s k) = true ->
  let s' := fst (stepT (PopExCols ns) s) in
  forall a, orig (objs s' k) a = None /\
    (in_row ns a = true -> oval (objs s' k) a = Some (view s k a)) /\
    (in_row ns a = false -> oval (objs s' k) a = None /\ oexp (objs s' k) a = true).
Proof.
  intros s ns k HA. cbn [step fst]. cbv zeta. cbn [with_objs objs]. rewrite (att_true _ _ HA). intros a.
  cbn [populated_obj oval orig oexp]. rewrite view_begin_read. split; [reflexivity|].
  split; intros E; rewrite E; [reflexivity|split; reflexivity].
Qed.
End P.
