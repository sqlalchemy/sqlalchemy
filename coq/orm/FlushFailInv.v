(* C32 - a faulty flush under the session invariant of C33 (SessTxnCore.Core). *)
From Coq Require Import List ZArith Bool Arith Lia.
Import ListNotations.
From SAV.orm Require Import SessTxn SessTxnBase SessTxnFlush SessTxnCore SessTxnFlushCore FlushFail.
Open Scope nat_scope.

(* every crash point is covered by the error-path analysis of Session._flush *)
Lemma fault_inner_spec : forall ft, InnerSpec (fault_inner ft).
Proof.
  (* a listener raising after the whole body (FPost; FPre never reaches the subtransaction and shares that body) *)
  assert (Post : InnerSpec (fun n d e => foldM (organize_pending e) n ;;
                                         withst (fun st0 => exec_f None 0%Z (stmts_of st0 n d e)) ;; finalize n d e ;; raise E_EVENT)).
  { intros s0 g f rest dirty GC Hs G Jh R Hd Hnd r sZ H Hr.
    assert (H' : (flush_body (snew s0) dirty (sdel s0) ;; raise E_EVENT) s0 = (r, sZ)).
    { unfold flush_body, flush_body_k. rewrite bind_assoc4. exact H. }
    apply bind_inv in H'. destruct H' as [[s1 [H1 H2]]|[H1 Hn]].
    + inversion H2; subst r sZ. split; [discriminate|]. intros _. right.
      destruct (flush_body_inner s0 g f rest dirty GC Hs G Jh R Hd Hnd Ok s1 H1) as [A _]; [discriminate|]. exact (A eq_refl).
    + destruct (flush_body_inner s0 g f rest dirty GC Hs G Jh R Hd Hnd r sZ H1 Hr) as [_ B]. split; [congruence|exact B]. }
  intros ft. destruct ft as [|k| |]; [exact Post|exact (flush_body_k_inner (Some k) E_FAULT)| |exact Post].
  intros s0 g f rest dirty GC Hs G Jh R Hd Hnd r sZ H Hr.
  assert (H' : ((foldM (organize_pending (sdel s0)) (snew s0) ;;
                 withst (fun st0 => exec_f None 0%Z (stmts_of st0 (snew s0) dirty (sdel s0)))) ;; raise E_EVENT) s0 = (r, sZ)).
  { rewrite bind_assoc. exact H. }
  apply bind_inv in H'. destruct H' as [[s1 [H1 H2]]|[H1 Hn]].
  + inversion H2; subst r sZ. split; [discriminate|]. intros _. left.
    apply (flush_pre_spec s0 g f dirty GC G Jh R Hd Hnd None 0%Z Ok s1 H1). discriminate.
  + split; [congruence|]. intros _. left.
    apply (flush_pre_spec s0 g f dirty GC G Jh R Hd Hnd None 0%Z r sZ H1 Hr).
Qed.

(* the faulty flush keeps the invariant; the transaction is at worst DEACTIVE with its snapshot restored *)
Theorem flush_fault_core : forall ft st gs r st', Core st gs -> flush_fault ft st = (r, st') -> r <> Unmodelled ->
  Core st' gs /\ FlushPost st r st'.
Proof.
  intros ft st gs r st' C H Hr.
  destruct ft; try (exact (flush_with_core _ (fault_inner_spec _) st gs r st' C H Hr)).
  unfold flush_fault in H. destruct (is_clean st) eqn:Ecl; inversion H; subst r st';
    (split; [exact C|apply FlushPost_same; auto; discriminate]).
Qed.
