(* C33 - the main induction: every guarded operation keeps the session invariant. *)
From Coq Require Import List ZArith Bool Arith Lia.
Import ListNotations.
From SAV.orm Require Import SessTxn SessTxnSpec SessTxnInv SessTxnCore SessTxnTx SessTxnCommit SessTxnObjOps
  SessTxnNested SessTxnClose.
Open Scope nat_scope.

Lemma inv_init : forall e, Inv (sess0 e).
Proof.
  intros e. exists []. constructor.
  - unfold GoodS, sess0. cbn. constructor; cbn; try (intros; discriminate); try (intros; lia); try (intros; contradiction);
      try (split; constructor); try (intros o; split; [intros []|intros [X _]; lia]).
  - intros o Ho. cbn in Ho. lia.
  - constructor; cbn; auto. split; [reflexivity|exact I].
  - exact I.
  - intros _. reflexivity.
Qed.

Lemma find_frame_none : forall st n, on_stack n st = false -> find_frame n st = None.
Proof.
  intros st n H. unfold on_stack in H. unfold find_frame. induction (stack st) as [|f r IH]; cbn in *; auto.
  apply orb_false_iff in H. destruct H as [H1 H2]. rewrite H1. auto.
Qed.

(* Session.commit(): autobegin, then every frame *)
Lemma op_commit_core : forall st gs r st', Core st gs -> do_op OCommit st = (r, st') -> r <> Unmodelled ->
  exists gs', Core st' gs' /\ (r = Ok -> stack st' = [] /\ is_clean st' = true).
Proof.
  intros st gs r st' C H Hr. cbn [do_op] in H.
  destruct (autobegin_core st gs C) as [gs1 [C1 _]].
  refine (commit_all_core _ _ gs1 r st' C1 _ H Hr).
  unfold autobegin. destruct (stack st) eqn:Es; cbn; rewrite ?Es; cbn; lia.
Qed.

(* Session.rollback() always succeeds *)
Lemma op_rollback_core : forall st gs, Core st gs ->
  exists st', do_op ORollback st = (Ok, st') /\ Core st' [] /\ stack st' = [] /\ is_clean st' = true /\
    committed st' = committed st /\ nfid st' = nfid st /\ nobj st' = nobj st /\ handles st' = handles st /\ eoc st' = eoc st.
Proof. intros st gs C. cbn [do_op]. apply (rollback_all_core _ st gs C). lia. Qed.

(* handle.rollback() inside the guard: the handle's frame is the innermost one, or has left the stack *)
Lemma op_trollback_core : forall st gs h r st', Core st gs -> guard st (OTRollback h) = true ->
  do_op (OTRollback h) st = (r, st') -> r <> Unmodelled ->
  exists gs', Core st' gs' /\ (r = Ok -> is_clean st' = true) /\ committed st' = committed st.
Proof.
  intros st gs h r st' C Hg H Hr. cbn [do_op] in H. unfold guard in Hg. cbn in Hg.
  destruct (nth_error (handles st) h) as [[n|]|] eqn:En;
    [|inversion H; subst; exists gs; split; [exact C|split; [discriminate|reflexivity]]|inversion H; subst; congruence].
  apply orb_prop in Hg. destruct Hg as [Hg|Hg].
  - rewrite (t_rollback_head st gs n C Hg) in H.
    unfold head_is in Hg. destruct (stack st) as [|f rest] eqn:Es; [discriminate|].
    destruct (Core_shape st gs f rest C Es) as [g [gs' Eg]]. subst gs.
    destruct (rollback_head_core st g gs' f rest C Es) as (s2 & E & C2 & _ & Cl2 & K & _).
    rewrite E in H. inversion H; subst. eauto.
  - apply negb_true_iff in Hg. rewrite (t_rollback_gone st n (find_frame_none st n Hg)) in H. inversion H; subst.
    exists gs. split; [exact C|split; [discriminate|reflexivity]].
Qed.

Theorem do_op_inv : forall st p r st', Inv st -> guard st p = true ->
  do_op p st = (r, st') -> r <> Unmodelled ->
  Inv st' /\ (is_boundary p = true -> r = Ok -> is_clean st' = true).
Proof.
  intros st p r st' [gs C] Hg H Hr. unfold Inv.
  assert (NB : forall X : Prop, X -> is_boundary p = false -> X /\ (is_boundary p = true -> r = Ok -> is_clean st' = true)).
  { intros X x E. split; auto. intros Y. congruence. }
  assert (Hu : match p with ONew _ _ | OAdd _ | OSetV _ _ | OSetPK _ _ | ODel _ => head_usable st = true | _ => True end).
  { unfold guard in Hg. apply andb_prop in Hg. destruct Hg as [Hg _]. destruct p; auto. }
  destruct p.
  - apply NB; auto. eapply op_new_core; eauto.
  - apply NB; auto. eapply op_add_core; eauto.
  - apply NB; auto. eapply op_setv_core; eauto.
  - apply NB; auto. eapply op_setpk_core; eauto.
  - apply NB; auto. eapply op_del_core; eauto.
  - apply NB; auto. cbn [do_op] in H. destruct (flush_core st gs r st' C H Hr) as [C' _]. eauto.
  - apply NB; auto. eapply op_nested_core; eauto.
  - (* Session.commit *)
    destruct (op_commit_core st gs r st' C H Hr) as [gs' [C' B]].
    split; [eauto|]. intros _ Y. apply B; auto.
  - destruct (op_rollback_core st gs C) as (s2 & E & C2 & _ & Cl2 & _).
    rewrite E in H. inversion H; subst. eauto.
  - (* handle.commit() *)
    cbn [do_op] in H.
    destruct (nth_error (handles st) h) as [[n|]|] eqn:En;
      [|inversion H; subst; split; [eauto|intros _ Y; discriminate]|inversion H; subst; congruence].
    destruct (t_commit_core st gs n r st' C H Hr) as [gs' [C' [B _]]]. split; eauto.
  - (* handle.rollback() *)
    destruct (op_trollback_core st gs h r st' C Hg H Hr) as [gs' [C' [B _]]]. split; eauto.
  - (* Session.close() *)
    destruct (op_close_core st gs r st' C Hg H Hr) as [_ [C' _]]. apply NB; eauto.
  - apply NB; auto. eapply op_load_core; eauto.
Qed.

Lemma clean_no_pending : forall st, GoodS st -> is_clean st = true -> no_pending st = true.
Proof.
  intros st G Hc. apply is_clean_spec in Hc. destruct Hc as [Hn _].
  unfold no_pending. apply forallb_forall. intros o Ho. apply in_seq in Ho. cbn in Ho.
  unfold is_pending. destruct (okey (objs st o)) eqn:Ek; auto.
  destruct (oatt (objs st o)) eqn:Ea; auto.
  assert (X : In o (snew st)). { apply (g_new _ _ _ _ _ G). repeat split; auto. lia. }
  rewrite Hn in X. destruct X.
Qed.

(* every state of a guarded history (SessTxnSpec.GReach) satisfies the invariant *)
Theorem greach_inv : forall e st, GReach e st -> Inv st.
Proof.
  intros e st H. induction H; [apply inv_init|]. eapply do_op_inv; eauto.
Qed.

(* the guarded theorem: at EVERY point of a guarded history the session agrees with the rows its
   transaction sees; after every successful commit/rollback (outer or savepoint) nothing is pending,
   modified or marked for deletion *)
Theorem agreement_guarded : forall e st p r st', GReach e st -> guard st p = true ->
  do_op p st = (r, st') -> r <> Unmodelled ->
  agrees st' = true /\ (is_boundary p = true -> r = Ok -> is_clean st' = true /\ no_pending st' = true).
Proof.
  intros e st p r st' R Hg H Hr.
  destruct (do_op_inv st p r st' (greach_inv e st R) Hg H Hr) as [[gs C] B].
  split; [apply Good_agrees; exact (c_good _ _ C)|].
  intros X Y. specialize (B X Y). split; auto.
  exact (clean_no_pending st' (c_good _ _ C) B).
Qed.
