(* C45 - the merged collection: one member per source member, in order; a member whose key can be persistent is
   the identity-map instance of that key.  Here: what the target of one child is. *)
From Coq Require Import List Bool Arith ZArith Lia.
From SAV.orm Require Import Merge MergeStages.
Import ListNotations.

(* identity-map entries of class B are never removed or replaced *)
Definition idB_mono (s s' : mstate) : Prop := forall pk c, idB s pk = Some c -> idB s' pk = Some c.
Lemma idB_mono_trans : forall a b c, idB_mono a b -> idB_mono b c -> idB_mono a c.
Proof. intros a b c H1 H2 pk x H. auto. Qed.
Lemma idB_mono_eq : forall s s', idB s' = idB s -> idB_mono s s'.
Proof. intros s s' E pk c H. rewrite E. exact H. Qed.

Lemma idB_load_B : forall cfg s pk row,
  idB (fst (load_B cfg s pk row)) = match idB s pk with Some _ => idB s | None => upd (idB s) pk (Some (next s)) end.
Proof. intros. unfold load_B. destruct (idB s pk); reflexivity. Qed.
Lemma idB_mono_load_B : forall cfg s pk row, idB_mono s (fst (load_B cfg s pk row)).
Proof.
  intros cfg s pk row pk' c H. rewrite idB_load_B. destruct (idB s pk) eqn:E; [exact H|].
  rewrite upd_other; [exact H|congruence].
Qed.
Lemma idB_mono_lazy_bs : forall cfg s t, idB_mono s (lazy_bs cfg s t).
Proof.
  intros cfg. apply (lazy_bs_steps cfg idB_mono idB_mono_trans); [|apply idB_mono_load_B].
  intros s s' H. apply idB_mono_eq, H.
Qed.

(* [c] stands for key [pk]: it is the identity-map entry, or a pending copy of a key that has no row *)
Definition tgt_ok (cfg : mconfig) (load : bool) (s : mstate) (pk c : nat) : Prop :=
  idB s pk = Some c \/ (idB s pk = None /\ load = true /\ assoc pk (rowsB cfg) = None).

(* the identity map of B grows, under load=True only at keys that have a row: such steps keep [tgt_ok] *)
Definition idB_ext (cfg : mconfig) (load : bool) (s s' : mstate) : Prop :=
  idB_mono s s' /\ forall pk, load = true -> assoc pk (rowsB cfg) = None -> idB s pk = None -> idB s' pk = None.
Lemma idB_ext_eq : forall cfg load s s', idB s' = idB s -> idB_ext cfg load s s'.
Proof. intros cfg load s s' E. split; [apply idB_mono_eq, E|]. intros pk _ _ H. rewrite E. exact H. Qed.
Lemma idB_ext_trans : forall cfg load a b c, idB_ext cfg load a b -> idB_ext cfg load b c -> idB_ext cfg load a c.
Proof. intros cfg load a b c [M1 N1] [M2 N2]. split; [eapply idB_mono_trans; eauto|auto]. Qed.
Lemma tgt_ok_ext : forall cfg load s s' pk c, idB_ext cfg load s s' -> tgt_ok cfg load s pk c -> tgt_ok cfg load s' pk c.
Proof. intros cfg load s s' pk c [M N] [H|[H1 [H2 H3]]]; [left; apply M, H|right; auto]. Qed.

(* a key that can be persistent (load=False, an instance in the session before, or a row) is not in the second case *)
Lemma tgt_ok_persistable : forall cfg load s0 s pk c,
  idB_mono s0 s -> load = false \/ idB s0 pk <> None \/ assoc pk (rowsB cfg) <> None -> tgt_ok cfg load s pk c -> idB s pk = Some c.
Proof.
  intros cfg load s0 s pk c M Hp [H|[H1 [H2 H3]]]; [exact H|]. exfalso. destruct Hp as [Hp|[Hp|Hp]]; [congruence| |contradiction].
  destruct (idB s0 pk) eqn:E; [apply M in E; congruence|contradiction].
Qed.

Lemma idB_target_B : forall cfg load s ctx key s2 c,
  obtain (resolve_B cfg load s ctx key) = (s2, c) ->
  (forall pk c, assoc pk (cmap ctx) = Some c -> tgt_ok cfg load s pk c) ->
  idB_ext cfg load s s2 /\ match key with Some pk => tgt_ok cfg load s2 pk c | None => True end.
Proof.
  intros cfg load s ctx key s2 c H Hcm. revert H. unfold obtain, resolve_B.
  destruct key as [pk|]; [|cbn; intros H; inversion H; subst; split; [apply idB_ext_eq; reflexivity|exact I]].
  destruct (idB s pk) as [t0|] eqn:Ib.
  { cbn. intros H. inversion H; subst. split; [apply idB_ext_eq; reflexivity|]. left. exact Ib. }
  destruct (assoc pk (cmap ctx)) as [t0|] eqn:Ic.
  { cbn. intros H. inversion H; subst. split; [apply idB_ext_eq; reflexivity|]. apply Hcm, Ic. }
  destruct load.
  - rewrite get_B_eq, Ib. destruct (assoc pk (rowsB cfg)) as [row|] eqn:Ar; cbn [alloc fst snd]; intros H; inversion H; subst.
    + split; [|left; apply load_B_entry]. split; [apply (idB_mono_load_B cfg (inc_sql s))|].
      intros pk' _ Hn Hi. rewrite idB_load_B. cbn [idB inc_sql]. rewrite Ib, upd_other; [exact Hi|congruence].
    + split; [apply idB_ext_eq; reflexivity|]. right. auto.
  - cbn [alloc fst snd]. intros H. inversion H; subst. split; [|left; apply upd_same]. split; [|discriminate].
    intros pk' c Hc. cbn [idB set_idB set_tkey set_next]. rewrite upd_other; [exact Hc|congruence].
Qed.

(* [c] stands for the key of child [j], if it has one *)
Definition child_ok (cfg : mconfig) (load : bool) (sbs : list srcB) (s : mstate) (j c : nat) : Prop :=
  forall b pk, nth_error sbs j = Some b -> sb_pk b = Some pk -> tgt_ok cfg load s pk c.
Lemma child_ok_ext : forall cfg load sbs s s' j c, idB_ext cfg load s s' -> child_ok cfg load sbs s j c -> child_ok cfg load sbs s' j c.
Proof. intros cfg load sbs s s' j c X H b pk Hb Hp. eapply tgt_ok_ext; eauto. Qed.

(* what the conflict map and the memo of merged children say *)
Definition ctx_inv (cfg : mconfig) (load : bool) (sbs : list srcB) (s : mstate) (ctx : mctx) : Prop :=
  (forall pk c, assoc pk (cmap ctx) = Some c -> tgt_ok cfg load s pk c) /\
  (forall j c, assoc j (memo ctx) = Some c -> child_ok cfg load sbs s j c).

Lemma target_child_step : forall cfg load root sbs s ctx dest j s' ctx' dest',
  child_step cfg load root sbs s ctx dest j (s', ctx', dest') -> ctx_inv cfg load sbs s ctx -> nth_error sbs j <> None ->
  idB_ext cfg load s s' /\ ctx_inv cfg load sbs s' ctx' /\ exists c, dest' = dest ++ [c] /\ child_ok cfg load sbs s' j c.
Proof.
  intros cfg load root sbs s ctx dest j s' ctx' dest' H [Hcm Hmemo] Hvalid.
  remember (s', ctx', dest') as a' eqn:Ea. destruct H as [t Hm|Hn|src s2 t Hm Hn Hg Ho]; inversion Ea; subst; clear Ea; [| contradiction|].
  - split; [apply idB_ext_eq; reflexivity|]. split; [split; assumption|]. exists t. split; [reflexivity|apply Hmemo, Hm].
  - destruct (idB_target_B _ _ _ _ _ _ _ Ho Hcm) as [X2 T2].
    destruct (writes_only_copy_B cfg load root src s2 t) as [_ [_ [B _]]]. pose proof (idB_ext_eq cfg load _ _ B) as X'.
    pose proof (idB_ext_trans _ _ _ _ _ X2 X') as X.
    assert (New : child_ok cfg load sbs (copy_B cfg load root src s2 t) j t).
    { intros b pk Hb Hp. rewrite Hn in Hb. inversion Hb; subst b. rewrite Hp in T2. eapply tgt_ok_ext; [exact X'|exact T2]. }
    split; [exact X|]. split; [|exists t; split; [reflexivity|exact New]]. split.
    + intros pk c. unfold note. cbn [cmap]. destruct (sb_pk src) as [pk0|] eqn:Epk; [rewrite assoc_cons; destruct (Nat.eqb_spec pk pk0)|].
      * intros E. inversion E; subst. eapply New; eauto.
      * intros E. eapply tgt_ok_ext; eauto.
      * intros E. eapply tgt_ok_ext; eauto.
    + intros j0 c. cbn [memo note]. rewrite assoc_cons. destruct (Nat.eqb_spec j0 j).
      * intros E. inversion E; subst. exact New.
      * intros E. eapply child_ok_ext; eauto.
Qed.
