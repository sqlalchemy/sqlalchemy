(* C37 - list facts, state projections, states compared cell by cell, one-step unfoldings of the
   interpreter. *)
From Coq Require Import List NArith Bool.
Import ListNotations.
From SAV.orm Require Import Backref BackrefSpec.
Open Scope N_scope.

Lemma memb_In : forall x l, memb x l = true <-> In x l.
Proof.
  intros x l. unfold memb. rewrite existsb_exists. split.
  - intros [y [I E]]. apply N.eqb_eq in E. subst. exact I.
  - intros I. exists x. split; [exact I|apply N.eqb_refl].
Qed.
Lemma memb_false : forall x l, memb x l = false <-> ~ In x l.
Proof. intros. rewrite <- memb_In. destruct (memb x l); intuition congruence. Qed.

Lemma remove1_In : forall x y l, NoDup l -> (In x (remove1 y l) <-> In x l /\ x <> y).
Proof.
  intros x y l N. induction l as [|z t IH]; cbn [remove1]; [cbn; tauto|].
  inversion N as [|? ? NI ND]; subst. destruct (N.eqb_spec y z) as [->|E]; cbn.
  - split; [intros I; split; [auto|intros ->; contradiction]|intros [[->|I] NE]; [congruence|exact I]].
  - rewrite IH by exact ND. intuition congruence.
Qed.
Lemma remove1_incl : forall x y l, In x (remove1 y l) -> In x l.
Proof.
  intros x y l. induction l as [|z t IH]; cbn [remove1]; [auto|].
  destruct (y =? z); cbn; intuition.
Qed.
Lemma remove1_NoDup : forall y l, NoDup l -> NoDup (remove1 y l).
Proof.
  intros y l N. induction l as [|z t IH]; cbn [remove1]; [constructor|].
  inversion N as [|? ? NI ND]; subst. destruct (y =? z); [exact ND|].
  constructor; [intros I; apply NI; eapply remove1_incl; eauto|apply IH; exact ND].
Qed.
Lemma NoDup_snoc : forall l (v : N), NoDup l -> ~ In v l -> NoDup (l ++ [v]).
Proof.
  intros l v N NI. induction l as [|z t IH]; cbn; [constructor; [intros []|constructor]|].
  inversion N as [|? ? NI' ND]; subst. constructor.
  - rewrite in_app_iff. cbn. intros [I|[E|[]]]; [contradiction|]. subst. apply NI. left. reflexivity.
  - apply IH; [exact ND|]. intros I. apply NI. right. exact I.
Qed.
Lemma In_snoc : forall l (v x : N), In x (l ++ [v]) <-> x = v \/ In x l.
Proof. intros. rewrite in_app_iff. cbn. intuition congruence. Qed.

Lemma count_notin : forall x l, ~ In x l -> count x l = O.
Proof.
  intros x l. induction l as [|z t IH]; cbn [count]; [auto|]. intros NI.
  destruct (N.eqb_spec x z) as [->|E]; [exfalso; apply NI; left; reflexivity|].
  apply IH. intros I. apply NI. right. exact I.
Qed.
Lemma has_dupes_NoDup : forall x l, NoDup l -> has_dupes l x = false.
Proof.
  intros x l N. unfold has_dupes. induction N as [|z t NI ND IH]; cbn [count]; [reflexivity|].
  destruct (N.eqb_spec x z) as [->|E]; [rewrite count_notin by exact NI; reflexivity|exact IH].
Qed.

Lemma insert_at_In : forall i v l (x : N), In x (insert_at i v l) <-> x = v \/ In x l.
Proof.
  induction i as [|j IH]; intros v l x; destruct l as [|y t]; cbn; try (intuition congruence).
  rewrite IH. intuition.
Qed.
Lemma insert_at_NoDup : forall i v l, NoDup l -> ~ In v l -> NoDup (insert_at i v l).
Proof.
  induction i as [|j IH]; intros v l N NI; destruct l as [|y t]; cbn.
  - constructor; [intros []|constructor].
  - constructor; assumption.
  - constructor; [intros []|constructor].
  - inversion N; subst. constructor.
    + rewrite insert_at_In. intros [E|I]; [subst; apply NI; left; reflexivity|contradiction].
    + apply IH; [assumption|]. intros I. apply NI. right. exact I.
Qed.
Lemma remove_at_remove1 : forall i l v, NoDup l -> nth_error l i = Some v -> remove_at i l = remove1 v l.
Proof.
  induction i as [|j IH]; intros l v N E; destruct l as [|y t]; cbn in *; try discriminate.
  - injection E as ->. rewrite N.eqb_refl. reflexivity.
  - inversion N as [|? ? NI ND]; subst. destruct (N.eqb_spec v y) as [->|Q].
    + exfalso. apply NI. eapply nth_error_In; eauto.
    + f_equal. apply IH; assumption.
Qed.

(* l[i] = v  is  del l[i]  followed by  l.insert(i, v); the facts about set_at follow from those
   about its two halves *)
Lemma set_at_insert_remove : forall i v l e, nth_error l i = Some e ->
  set_at i v l = insert_at i v (remove_at i l).
Proof.
  induction i as [|j IH]; intros v [|y t] e E; try discriminate E; cbn; [reflexivity|].
  f_equal. eapply IH. exact E.
Qed.
Lemma set_at_char : forall i v l e, nth_error l i = Some e -> NoDup l ->
  forall x, In x (set_at i v l) <-> x = v \/ In x (remove1 e l).
Proof.
  intros i v l e E ND x.
  rewrite (set_at_insert_remove i v l e E), (remove_at_remove1 i l e ND E). apply insert_at_In.
Qed.
Lemma set_at_In : forall i v l e (x : N), nth_error l i = Some e -> NoDup l ->
  (In x (set_at i v l) <-> x = v \/ (In x l /\ x <> e)).
Proof. intros i v l e x E N. rewrite (set_at_char i v l e E N), (remove1_In x e l N). tauto. Qed.
Lemma set_at_NoDup : forall i v l e, nth_error l i = Some e -> NoDup l -> (~ In v l \/ e = v) ->
  NoDup (set_at i v l).
Proof.
  intros i v l e E N H. rewrite (set_at_insert_remove i v l e E), (remove_at_remove1 i l e N E).
  apply insert_at_NoDup; [apply remove1_NoDup; exact N|].
  rewrite remove1_In by exact N. intros [I NE]. destruct H as [H|H]; [contradiction|congruence].
Qed.
Lemma nodupb_NoDup : forall l, nodupb l = true <-> NoDup l.
Proof.
  induction l as [|y t IH]; cbn [nodupb]; [split; [constructor|reflexivity]|].
  rewrite andb_true_iff, negb_true_iff, memb_false, IH. split.
  - intros [A B]. constructor; assumption.
  - intros N. inversion N; subst. split; assumption.
Qed.

Lemma dedup_NoDup_id : forall l, NoDup l -> dedup l = l.
Proof.
  induction l as [|y t IH]; intros N; [reflexivity|]. inversion N as [|? ? NI ND]; subst. cbn [dedup].
  apply memb_false in NI. rewrite NI, IH by exact ND. reflexivity.
Qed.
Lemma dedup_first_NoDup_id : forall l, NoDup l -> dedup_first l = l.
Proof. intros l N. unfold dedup_first. rewrite dedup_NoDup_id by (apply NoDup_rev; exact N). apply rev_involutive. Qed.

Lemma upd_eq : forall f o c, upd f o c o = c.
Proof. intros. unfold upd. rewrite N.eqb_refl. reflexivity. Qed.
Lemma upd_neq : forall f o c o', o' <> o -> upd f o c o' = f o'.
Proof. intros. unfold upd. apply N.eqb_neq in H. rewrite H. reflexivity. Qed.

Lemma cells_set_same : forall s sd o c, cells (set_cell s sd o c) sd o = c.
Proof. intros s [] o c; cbn; apply upd_eq. Qed.
Lemma cells_set_other_obj : forall s sd o c o', o' <> o -> cells (set_cell s sd o c) sd o' = cells s sd o'.
Proof. intros s [] o c o' H; cbn; apply upd_neq; exact H. Qed.
Lemma cells_set_other_side : forall s sd o c sd' o', sd' <> sd -> cells (set_cell s sd o c) sd' o' = cells s sd' o'.
Proof. intros s [] o c [] o' H; cbn; try reflexivity; congruence. Qed.
Lemma coll_set_same : forall s sd o l, coll_of (set_cell s sd o (CList l)) sd o = l.
Proof. intros. unfold coll_of. rewrite cells_set_same. reflexivity. Qed.
Lemma coll_set_other_obj : forall s sd o c o', o' <> o -> coll_of (set_cell s sd o c) sd o' = coll_of s sd o'.
Proof. intros. unfold coll_of. rewrite cells_set_other_obj by assumption. reflexivity. Qed.
Lemma coll_set_other_side : forall s sd o c sd' o', sd' <> sd -> coll_of (set_cell s sd o c) sd' o' = coll_of s sd' o'.
Proof. intros. unfold coll_of. rewrite cells_set_other_side by assumption. reflexivity. Qed.
Lemma persistent_set : forall s sd o c, persistent (set_cell s sd o c) = persistent s.
Proof. intros s [] o c; reflexivity. Qed.

Ltac simp_cells :=
  repeat first
  [ rewrite coll_set_same
  | rewrite cells_set_same
  | rewrite coll_set_other_obj by congruence
  | rewrite coll_set_other_side by congruence
  | rewrite cells_set_other_obj by congruence
  | rewrite cells_set_other_side by congruence
  | rewrite persistent_set ].

Lemma other_neq : forall sd, other sd <> sd. Proof. destruct sd; discriminate. Qed.
Lemma neq_other : forall sd, sd <> other sd. Proof. destruct sd; discriminate. Qed.
Lemma side_eqb_eq : forall a b, side_eqb a b = true -> a = b.
Proof. intros [] []; (reflexivity || discriminate). Qed.

(* the invariants never look at [persistent], and [set_cell]s on different cells commute only up to
   the functions' values: states are compared cell by cell *)
Definition same_cells (s1 s2 : st) : Prop := forall sd o, cells s1 sd o = cells s2 sd o.

Lemma same_cells_sym : forall s1 s2, same_cells s1 s2 -> same_cells s2 s1.
Proof. intros s1 s2 A sd o. symmetry. apply A. Qed.
Lemma same_cells_trans : forall s1 s2 s3, same_cells s1 s2 -> same_cells s2 s3 -> same_cells s1 s3.
Proof. intros s1 s2 s3 A B sd o. rewrite A. apply B. Qed.
Lemma same_cells_coll : forall s1 s2 sd o, same_cells s1 s2 -> coll_of s1 sd o = coll_of s2 sd o.
Proof. intros s1 s2 sd o A. unfold coll_of. rewrite A. reflexivity. Qed.

Lemma cells_set : forall s sd o c sd' o',
  cells (set_cell s sd o c) sd' o' = if side_eqb sd' sd && (o' =? o) then c else cells s sd' o'.
Proof. intros s [] o c [] o'; reflexivity. Qed.
Lemma same_cells_set : forall s1 s2 sd o c, same_cells s1 s2 ->
  same_cells (set_cell s1 sd o c) (set_cell s2 sd o c).
Proof. intros s1 s2 sd o c A sd' o'. rewrite !cells_set, A. reflexivity. Qed.
Lemma set_cell_shadow : forall s sd o c c',
  same_cells (set_cell (set_cell s sd o c) sd o c') (set_cell s sd o c').
Proof. intros s sd o c c' sd' o'. rewrite !cells_set. destruct (side_eqb sd' sd && (o' =? o)); reflexivity. Qed.
Lemma set_cell_comm : forall s sd1 o1 c1 sd2 o2 c2, sd1 <> sd2 \/ o1 <> o2 ->
  same_cells (set_cell (set_cell s sd1 o1 c1) sd2 o2 c2) (set_cell (set_cell s sd2 o2 c2) sd1 o1 c1).
Proof.
  intros s sd1 o1 c1 sd2 o2 c2 D sd' o'. rewrite !cells_set.
  destruct (side_eqb sd' sd2 && (o' =? o2)) eqn:E2, (side_eqb sd' sd1 && (o' =? o1)) eqn:E1; try reflexivity.
  apply andb_true_iff in E1, E2. destruct E1 as [S1 O1], E2 as [S2 O2].
  apply side_eqb_eq in S1, S2. apply N.eqb_eq in O1, O2. destruct D; congruence.
Qed.

(* the state an operation leaves behind, whether or not it raised, satisfies P *)
Definition lands (P : st -> Prop) (r : res) : Prop :=
  match r with Ok s | Err _ s => P s | OutOfFuel => False end.

(* Fuel.  [run_call] gives every top-level call FUEL = 12.  A list primitive reaches the listener of
   its own side within three levels (KCollAppend or KCollRemove, KFireAppend or KFireRemove, the
   listener), so a listener starts with nine at least.  The longest chain below a listener is the
   one-to-many one (impl append on the child, its scalar set and set listener, the pop on the old
   parent with its remove, fire and remove listener) and fits in nine; many-to-many needs five.  So the
   closed forms of the listener chains are stated for any fuel S^9 n (S^5 n), those of the fire calls
   for ten and more.
   [ev] runs the interpreter symbolically and leaves everything else folded.  It expands the whole tree
   of nested calls; where only the next call is wanted, the equations below step once. *)
Ltac ev := cbn [exec kind_of other tok_append tok_bulk tok_remove tok_replace tok_eqb tok_is side_eqb
                top_eqb fst snd andb orb bind].

Lemma real_obj_ov : forall c, c <> 0 -> real_obj (OV c) = Some c.
Proof. intros [|c] H; [congruence|reflexivity]. Qed.

Lemma exec_coll_append : forall r n sd o v init s,
  exec r (S n) (KCollAppend sd o v init) s =
  bind (exec r n (KFireAppend sd o v init) s)
       (fun s1 => Ok (set_cell s1 sd o (CList (coll_of s1 sd o ++ [v])))).
Proof. reflexivity. Qed.
Lemma exec_coll_remove : forall r n sd o v init s,
  exec r (S n) (KCollRemove sd o v init) s =
  if memb v (coll_of s sd o)
  then bind (exec r n (KFireRemove sd o v init) s)
            (fun s1 => if memb v (coll_of s1 sd o)
                       then Ok (set_cell s1 sd o (CList (remove1 v (coll_of s1 sd o))))
                       else Err ValueError s1)
  else Err ValueError s.
Proof. reflexivity. Qed.
Lemma exec_fire_append : forall r n sd o v init s,
  exec r (S n) (KFireAppend sd o v init) s =
  exec r n (KAppendEvent sd o v (match init with Some t => t | None => tok_append r sd end)) s.
Proof. reflexivity. Qed.
Lemma exec_fire_remove : forall r n sd o v init s,
  exec r (S n) (KFireRemove sd o v init) s =
  exec r n (KRemoveEvent sd o (OV v) (match init with Some t => t | None => tok_remove sd end)) s.
Proof. reflexivity. Qed.
