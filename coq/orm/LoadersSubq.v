(* C40 - subquery loads fetch the related rows of every entity at the end of the eager chain of the
   statement they re-issue - except in the DISTINCT/OFFSET defect region. *)
From Coq Require Import List ZArith Bool.
Import ListNotations.
From SAV.orm Require Import Loaders LoadersBase LoadersJoin LoadersStmt LoadersSrc LoadersOne LoadersAttach.
Open Scope Z_scope.

Definition is_pjoin (p : upred) : bool := match p with PJoin _ => true | _ => false end.
Definition offset_pos (o : option nat) : bool := match o with Some (S _) => true | _ => false end.

(* the region in which re-issuing the user's statement with DISTINCT changes the OFFSET window:
   many-to-one first relationship (DISTINCT is added), no DISTINCT/GROUP BY of the user's own,
   a duplicating JOIN (along a one-to-many relationship), and a positive OFFSET *)
Definition dup_join (u : uquery) (jstep : option step) : bool :=
  match u_pred u, jstep with PJoin _, Some s => is_down s | _, _ => false end.
Definition defect (u : uquery) (jstep : option step) (first : step) : bool :=
  negb (is_down first) && negb (u_dedup u) && dup_join u jstep && offset_pos (u_offset u).

Lemma uniq_untagged : forall l : list row,
  uniq_by tagged_id (map (fun r => (None, r)) l) = map (fun r => (None, r)) (uniq_by idkey l).
Proof. intro. rewrite uniq_by_map. apply f_equal, uniq_by_ext. reflexivity. Qed.

Lemma user_heads : forall u t0 f, stmt_heads (SrcUser u t0 f) = map (fun r => (None, r)) (run_user u t0 f).
Proof.
  intros. unfold stmt_heads, run_user. cbn [src_limit src_offset src_order src_distinct src_group src_base].
  fold (u_dedup u).
  destruct (u_dedup u); rewrite ?uniq_untagged, (sort_by_map (rkey (u_order u))) by reflexivity; apply slice_map.
Qed.

Lemma user_group : forall u t0 f, group (SrcUser u t0 f) None = uniq_by idkey (run_user u t0 f).
Proof.
  intros. unfold group, tgroup, sel. rewrite user_heads, uniq_untagged, filter_map_swap, map_map. cbn [fst snd].
  rewrite filter_all_id by auto. apply map_id.
Qed.

Lemma u_base_wf : forall u t0 f, wf_table t0 -> (forall s, f = Some s -> wf_step s) -> dup_join u f = false ->
  wf_table (u_base u t0 f).
Proof.
  intros u t0 f W Wj P. unfold u_base. unfold dup_join in P. destruct (u_pred u) as [|k|k|k]; auto.
  - apply wf_table_filter; auto.
  - (* a JOIN along a many-to-one relationship keeps or drops each row *)
    destruct f as [s|]; auto.
    assert (KU : st_kind s = Up) by (unfold is_down in P; destruct (st_kind s); auto; discriminate).
    assert (WS : wf_step s) by auto.
    set (g := fun p => map (fun _ : row => p) (filter (fun c => linked s p c && (k <=? rval c)) (st_table s))).
    assert (Hg : forall p, g p = [] \/ g p = [p]).
    { intro p. unfold g. destruct (NoDup_alleq (filter (fun c => linked s p c && (k <=? rval c)) (st_table s))) as [->|[a ->]]; auto.
      - apply NoDup_filter, wf_table_nodup, WS.
      - intros a b Ha Hb. apply filter_In in Ha as [Ha La], Hb as [Hb Lb]. apply andb_true_iff in La as [La _], Lb as [Lb _].
        eapply (up_matches_eq s p); eauto. }
    replace (flat_map g t0) with (filter (fun p => negb (is_nil (g p))) t0); [apply wf_table_filter; auto|].
    induction t0 as [|a t0 IH]; cbn; auto. inversion W; subst. rewrite IH by auto. destruct (Hg a) as [->| ->]; reflexivity.
  - destruct f; auto. apply wf_table_filter; auto.
Qed.

(* DISTINCT commutes with a total ORDER BY *)
Lemma uniq_sort_comm : forall o t0 b, o <> ONone -> wf_table t0 -> (forall r, In r b -> In r t0) ->
  sort_by (rkey o) (uniq_by idkey b) = uniq_by idkey (sort_by (rkey o) b).
Proof.
  intros o t0 b Ho W Hb.
  pose proof (idkey_inj t0 b W Hb) as KI.
  assert (KI2 : key_inj idkey (sort_by (rkey o) b)).
  { apply (idkey_inj t0); auto. intros x Hx. apply sort_by_in in Hx. auto. }
  apply (sorted_unique (rkey o)); auto using sort_by_sorted, uniq_by_sorted, sort_by_NoDup, uniq_by_NoDup.
  - intro x. rewrite sort_by_in, !uniq_by_in_iff, sort_by_in; auto. tauto.
  - intros x y Hx Hy E. apply sort_by_in, uniq_by_in in Hx, Hy.
    eapply table_id_inj; eauto. eapply rkey_inj; eauto.
Qed.

Lemma run_user_table : forall u t0 f r, In r (run_user u t0 f) -> In r t0.
Proof.
  intros u t0 f r H. unfold run_user in H. apply slice_in in H. apply sort_by_in in H.
  destruct (u_dedup u); [apply uniq_by_in in H|]; eapply u_base_table; eauto.
Qed.

(* outside the defect region the DISTINCT re-issue still yields every row the user's statement yields *)
Lemma user_distinct_covers : forall u t0 f first e, wf_table t0 -> u_order u <> ONone ->
  (forall s, f = Some s -> wf_step s) ->
  defect u f first = false -> In e (run_user u t0 f) ->
  In e (run_user (if negb (is_down first) then set_distinct u else u) t0 f).
Proof.
  intros u t0 f first e W Ho Wj D H. destruct (is_down first) eqn:K; cbn [negb]; auto.
  unfold defect in D. rewrite K in D. cbn [negb andb] in D.
  unfold run_user in *. change (u_base (set_distinct u) t0 f) with (u_base u t0 f).
  change (u_dedup (set_distinct u)) with true. cbn [set_distinct u_limit u_offset u_order].
  set (b := u_base u t0 f) in *.
  destruct (u_dedup u) eqn:DD; auto. cbn [negb andb] in D.
  destruct (dup_join u f) eqn:PJ.
  - (* no OFFSET: the first n rows are covered by the first n distinct rows *)
    cbn [andb] in D.
    assert (TB : forall r, In r b -> In r t0) by (intros; eapply u_base_table; eauto).
    rewrite (uniq_sort_comm (u_order u) t0 b) by auto.
    assert (OFF : forall l : list row, slice (u_limit u) (u_offset u) l = match u_limit u with Some n => firstn n l | None => l end).
    { intro l. unfold slice. destruct (u_offset u) as [[|n]|]; auto. discriminate. }
    rewrite OFF in *.
    assert (KI : key_inj idkey (sort_by (rkey (u_order u)) b)).
    { apply (idkey_inj t0); auto. intros x Hx. apply sort_by_in in Hx. auto. }
    destruct (u_limit u) as [n|]; [|apply uniq_by_in_iff; auto].
    destruct (firstn_uniq_covers idkey _ n e H) as [y [Hy Ky]].
    replace e with y; auto. apply KI; auto.
    + apply firstn_in, uniq_by_in in Hy. auto.
    + eapply firstn_in; eauto.
  - (* no duplicating JOIN: DISTINCT removes nothing *)
    rewrite uniq_idkey_id; auto. apply u_base_wf; auto.
Qed.

Lemma chain_ends_ireach : forall steps l x t, In x l -> In t (chain_ends steps x) -> In t (ireach l steps).
Proof.
  induction steps as [|s rest IH]; intros l x t Hx Ht.
  - destruct Ht as [<-|[]]. exact Hx.
  - cbn [chain_ends] in Ht. apply in_flat_map in Ht as [m [Hm Ht]]. rewrite ireach_cons.
    eapply IH; eauto. apply in_flat_map. eauto.
Qed.
Lemma chain_ends_snoc : forall chain s x e' t, In e' (chain_ends chain x) -> In t (matches s e') -> In t (chain_ends (chain ++ [s]) x).
Proof.
  induction chain as [|c cr IH]; intros s x e' t He Ht; cbn [app chain_ends] in *.
  - destruct He as [<-|[]]. apply in_flat_map. exists t. cbn. auto.
  - apply in_flat_map in He as [m [Hm He]]. apply in_flat_map. eauto.
Qed.

(* the first inner join of a subquery load covers the matches of every primary row of the statement
   it re-issues *)
Lemma rows1_covers : forall src c h m, src_step_ok src ->
  (forall u t0 f, src = SrcUser u t0 f -> defect u f c = false) ->
  In h (stmt_heads src) -> In m (matches c (snd h)) -> In m (subq_rows1 src c).
Proof.
  intros src c h m OK Hsafe Hh Hm.
  assert (H0 : In (snd h) (subq_rows0 src c)).
  { destruct src as [u t0 f|s k|s ks|? ? ?]; cbn [subq_rows0]; try (apply in_map, stmt_heads_base; auto).
    rewrite user_heads in Hh. apply in_map_iff in Hh as [r [<- Hr]]. cbn [snd].
    destruct OK as [W [Ho Wj]]. apply user_distinct_covers; auto. eapply Hsafe; eauto. }
  apply filter_In in Hm as [Hm Lm]. unfold linked in Lm. apply okey_eqb_true in Lm as [k [Pk Ck]].
  unfold subq_rows1. apply in_flat_map. exists k. split.
  - unfold subq_keys.
    assert (In k (somes (map (parent_key (st_kind c)) (subq_rows0 src c)))).
    { apply somes_in. rewrite <- Pk. apply in_map; auto. }
    destruct (_ && _); auto. apply dedupeZ_in; auto.
  - apply filter_In. split; auto. unfold match_key. rewrite Ck. cbn. apply Z.eqb_refl.
Qed.

Definition subq_reach (src : source) : list row :=
  match src with SrcSubq orig f r => ireach (subq_rows1 orig f) r | _ => [] end.

Lemma mk_subq_shape : forall src chain s, exists orig f r, mk_subq src chain s = SrcSubq orig f r /\ last_step f r = s.
Proof.
  intros [u t0 f|s0 k|s0 ks|orig f r] chain s; cbn [mk_subq]; try (destruct chain as [|c1 cr]); do 3 eexists;
    (split; [reflexivity|]); unfold last_step; rewrite ?app_assoc; auto using last_last.
Qed.

(* the subquery load for step [s] beneath the statement (src, chain) contains every row related to an
   entity at the end of that statement's chain *)
Lemma subq_cover : forall src chain s e' t, src_step_ok src ->
  (forall u t0 f c1, src = SrcUser u t0 f -> hd_error (chain ++ [s]) = Some c1 -> defect u f c1 = false) ->
  ends src chain e' -> In t (matches s e') -> In t (subq_reach (mk_subq src chain s)).
Proof.
  intros src chain s e' t OK Hsafe [h [Hh Hr]] Ht. pose proof (chain_ends_snoc _ _ _ _ _ Hr Ht) as R.
  destruct src as [u t0 f|s0 k|s0 ks|orig f r]; cbn [mk_subq].
  4: { cbn [subq_reach]. rewrite ireach_app. eapply chain_ends_ireach; [|exact R].
       apply stmt_heads_base in Hh. rewrite src_base_subq in Hh. apply in_map_iff in Hh as [x [<- Hx]]. exact Hx. }
  all: destruct chain; cbn [app chain_ends subq_reach] in *; apply in_flat_map in R as [m [Hm R]];
    (eapply chain_ends_ireach; [|exact R]); eapply rows1_covers; eauto.
Qed.

Lemma mk_subq_derived : forall src chain s, wf_step s -> derived s (mk_subq src chain s).
Proof. intros src chain s WS. destruct (mk_subq_shape src chain s) as [orig [f [r [-> L]]]]. split; auto. Qed.

Lemma subq_load_group : forall src chain s e' k, src_step_ok src -> wf_step s ->
  (forall u t0 f c1, src = SrcUser u t0 f -> hd_error (chain ++ [s]) = Some c1 -> defect u f c1 = false) ->
  ends src chain e' -> parent_key (st_kind s) e' = Some k ->
  group (mk_subq src chain s) (Some k) = related_k s k.
Proof.
  intros src chain s e' k OK WS Hsafe He PK. pose proof (subq_cover src chain s e') as C.
  destruct (mk_subq_shape src chain s) as [orig [f [r [E <-]]]]. rewrite E in *.
  apply subq_group; auto.
  intros c Hc M. apply C; auto. apply filter_In. split; auto. unfold linked. rewrite PK. exact M.
Qed.
