(* C49 - witnesses: the two regions excluded by [guard] really lose a change (also with tables in
   which every mutator notifies), and every mutator missing from the override table yields a
   counterexample history (the side condition [covers] is necessary, not only sufficient). *)
From Coq Require Import List ZArith Bool Arith.
Import ListNotations.
From SAV.base Require Import PySlice.
From SAV.orm Require Import CollBase CollList CollSet CollDict Mutable MutableProofs.
Local Open Scope nat_scope.

Definition ord_id (l : list Z) : list Z := l.
Definition ov_full (k : kind) : list meth := in_place_mutators k.

(* (a) v = obj.data; obj.data = None; v[1] = 2; obj.data = v; flush
   - the object is flagged modified, but committed_state['data'] IS v, so is_equal(v, v) skips the
   UPDATE: after the flush the row still holds the old dictionary *)
Definition hist_reattach : list op :=
  [Save (TSess 0); SetPlain (TSess 0) None; Mut THandle (OD (DSetItem 1 2)%Z); SetH (TSess 0); Flush].
Definition w_reattach : world := run ord_id ov_full hist_reattach (init_world (Some (CD [(0, 1)]%Z)) None).

Lemma reattach_refuted :
  covers_all ov_full = true /\
  guarded ord_id ov_full hist_reattach (init_world (Some (CD [(0, 1)]%Z)) None) = false /\
  slot (objs w_reattach 0) = Pres (Some 0) /\
  vcont (heap w_reattach 0) = CD [(0, 1); (1, 2)]%Z /\
  db w_reattach 0 = Some (CD [(0, 1)]%Z) /\
  ~ stored w_reattach 0.
Proof.
  repeat split; try (vm_compute; reflexivity).
  intros H. specialize (H (Some 0) eq_refl). vm_compute in H. discriminate.
Qed.

(* (b) the same list assigned to two rows, flushed; row 0 expired; row1.data.append(7):
   changed() reaches the expired row 0 first and raises, row 1 is never flagged *)
Definition hist_shared : list op :=
  [Save (TSess 0); SetH (TSess 1); Flush; Expire 0; Mut (TSess 1) (OL (LAppend 7%Z))].
Definition w_shared : world := run ord_id ov_full hist_shared (init_world (Some (CL [1]%Z)) None).

Lemma shared_expired_refuted :
  guarded ord_id ov_full hist_shared (init_world (Some (CL [1]%Z)) None) = false /\
  snd (step ord_id ov_full
         (run ord_id ov_full [Save (TSess 0); SetH (TSess 1); Flush; Expire 0] (init_world (Some (CL [1]%Z)) None))
         (Mut (TSess 1) (OL (LAppend 7%Z)))) = rc_invalid /\
  slot (objs w_shared 1) = Pres (Some 0) /\
  vcont (heap w_shared 0) = CL [1; 7]%Z /\
  db w_shared 1 = Some (CL [1]%Z) /\
  pmod (objs w_shared 1) = false /\
  ~ in_sync w_shared 1.
Proof.
  repeat split; try (vm_compute; reflexivity).
  intros H. specialize (H eq_refl (Some 0) eq_refl). vm_compute in H. discriminate.
Qed.

Lemma unnotified_mutation_lost : forall ov c o c',
  notifies ov c o = false ->
  mut_sem ord_id c o = (Ok tt, c') ->
  ceq c' c = false ->
  guarded ord_id ov [Mut (TSess 0) o] (init_world (Some c) None) = true /\
  ~ in_sync (run ord_id ov [Mut (TSess 0) o] (init_world (Some c) None)) 0.
Proof.
  intros ov c o c' N MS NE.
  assert (GV : get_value (init_world (Some c) None) (TSess 0) =
               (fst (load (init_world (Some c) None) 0), rc_ok, Some (Some 0))) by reflexivity.
  set (w1 := fst (load (init_world (Some c) None) 0)) in *.
  assert (H0 : vcont (heap w1 0) = c) by reflexivity.
  split.
  - cbn [guarded guard]. rewrite GV, H0, MS, N. reflexivity.
  - cbn [run step fst]. rewrite GV. unfold mutate. rewrite H0, MS, N. cbn [fst].
    (* object 0 now holds c', row 0 is unflagged and the database still holds c *)
    intros IS. specialize (IS eq_refl (Some 0) eq_refl).
    revert IS. unfold val. cbn. unfold upd. simpl. rewrite NE. discriminate.
Qed.

Definition witness (k : kind) (m : meth) : option (cont * cop) :=
  let d := CD [(0, 1)]%Z in let l := CL [2; 1]%Z in let s := CS [1; 2]%Z in
  match k, m with
  | KDict, M_setitem => Some (d, OD (DSetItem 1 2)%Z)
  | KDict, M_delitem => Some (d, OD (DDelItem 0)%Z)
  | KDict, M_clear => Some (d, OD DClear)
  | KDict, M_pop => Some (d, OD (DPop 0%Z None))
  | KDict, M_popitem => Some (d, OD DPopItem)
  | KDict, M_setdefault => Some (d, OD (DSetDefault 1 2)%Z)
  | KDict, M_update => Some (d, OD (DUpdate (UMap [(1, 2)]%Z) []))
  | KDict, M_ior => Some (d, OD (DIor [(1, 2)]%Z))
  | KList, M_setitem => Some (l, OL (LSetItem 0 9)%Z)
  | KList, M_delitem => Some (l, OL (LDelItem 0%Z))
  | KList, M_append => Some (l, OL (LAppend 7%Z))
  | KList, M_extend => Some (l, OL (LExtend (VList [7%Z])))
  | KList, M_insert => Some (l, OL (LInsert 0 7)%Z)
  | KList, M_pop => Some (l, OL (LPop None))
  | KList, M_remove => Some (l, OL (LRemove 1%Z))
  | KList, M_clear => Some (l, OL LClear)
  | KList, M_sort => Some (l, OLSort false)
  | KList, M_reverse => Some (l, OL LReverse)
  | KList, M_iadd => Some (l, OL (LIAdd (VList [7%Z])))
  | KList, M_imul => Some (l, OL (LIMul 2%Z))
  | KSet, M_add => Some (s, OS (SAdd 7%Z))
  | KSet, M_discard => Some (s, OS (SDiscard 1%Z))
  | KSet, M_remove => Some (s, OS (SRemove 1%Z))
  | KSet, M_pop => Some (s, OS SPop)
  | KSet, M_clear => Some (s, OS SClear)
  | KSet, M_update => Some (s, OS (SUpdate (AList [7%Z])))
  | KSet, M_difference_update => Some (s, OS (SDiffUpdate (AList [1%Z])))
  | KSet, M_intersection_update => Some (s, OS (SInterUpdate (AList [1%Z])))
  | KSet, M_symmetric_difference_update => Some (s, OS (SSymDiffUpdate (AList [1%Z])))
  | KSet, M_ior => Some (s, OS (SIor (ASet [7%Z])))
  | KSet, M_iand => Some (s, OS (SIand (ASet [1%Z])))
  | KSet, M_isub => Some (s, OS (SIsub (ASet [1%Z])))
  | KSet, M_ixor => Some (s, OS (SIxor (ASet [1%Z])))
  | _, _ => None
  end.

Definition witness_ok (k : kind) (m : meth) : bool :=
  match witness k m with
  | None => false
  | Some (c, o) =>
      match mut_sem ord_id c o with
      | (Ok _, c') => negb (ceq c' c) && meth_beq (meth_of o) m &&
                      match kind_of c, k with KDict, KDict | KList, KList | KSet, KSet => true | _, _ => false end
      | _ => false
      end
  end.

Lemma witnesses_ok : forall k, forallb (witness_ok k) (in_place_mutators k) = true.
Proof. destruct k; vm_compute; reflexivity. Qed.

Theorem covers_necessary : forall k m ov,
  In m (in_place_mutators k) -> memb m (ov k) = false ->
  exists c o, kind_of c = k /\ meth_of o = m /\
    guarded ord_id ov [Mut (TSess 0) o] (init_world (Some c) None) = true /\
    ~ in_sync (run ord_id ov [Mut (TSess 0) o] (init_world (Some c) None)) 0.
Proof.
  intros k m ov Hin Hm.
  pose proof (witnesses_ok k) as W. rewrite forallb_forall in W. specialize (W m Hin).
  unfold witness_ok in W. destruct (witness k m) as [[c o]|]; [|discriminate].
  destruct (mut_sem ord_id c o) as [[[]|e] c'] eqn:MS; [|discriminate].
  apply andb_prop in W; destruct W as [W W3]. apply andb_prop in W; destruct W as [W1 W2].
  apply negb_true_iff in W1. apply internal_meth_dec_bl in W2.
  assert (KK : kind_of c = k) by (destruct (kind_of c), k; congruence).
  exists c, o. split; auto. split; auto.
  apply (unnotified_mutation_lost ov c o c'); auto.
  unfold notifies. rewrite W2, KK. exact Hm.
Qed.

(* the tables before commit eb5f802: MutableDict had no __ior__, MutableList no __imul__ *)
Definition ov_before_eb5f802 (k : kind) : list meth :=
  match k with
  | KDict => [M_setitem; M_delitem; M_clear; M_pop; M_popitem; M_setdefault; M_update]
  | KList => [M_setitem; M_delitem; M_append; M_extend; M_insert; M_pop; M_remove; M_clear; M_sort;
              M_reverse; M_iadd]
  | KSet => in_place_mutators KSet
  end.
