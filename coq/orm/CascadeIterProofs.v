(* C39 - Mapper.cascade_iterator computes exactly the objects reachable through relationships that carry the
   cascade, each once (the shared visited set), for every object graph - cyclic ones included. *)
From Coq Require Import List Bool Arith Lia.
From SAV.orm Require Import Cascade CascadeBase.
Import ListNotations.

Section Iter.
Variable cfg : config.
Variable s : state.
Variable t : ctype.
Variable halt : nat -> bool.

(* one cascade step: [c] is yielded when expanding [n] *)
Definition edge (n c : nat) : Prop :=
  exists p, In p (props_of cfg (cls cfg n)) /\ has (prop_casc cfg p) t = true /\
            In c (children s t n p) /\ admissible cfg s t halt (prop_casc cfg p) c = true.

Inductive creach : nat -> nat -> Prop :=
| cr_one : forall n c, edge n c -> creach n c
| cr_step : forall n m c, creach n m -> edge m c -> creach n c.

Definition bounded (l : list nat) : Prop := forall x, In x l -> x < nobj cfg.

Lemma edge_bound : forall n c, edge n c -> c < nobj cfg.
Proof.
  intros n c [p [_ [_ [_ Ha]]]]. unfold admissible in Ha.
  apply andb_true_iff in Ha. destruct Ha as [Ha _]. apply andb_true_iff in Ha. destruct Ha as [Ha _].
  apply Nat.ltb_lt in Ha. exact Ha.
Qed.

Lemma bounded_length : forall l, NoDup l -> bounded l -> length l <= nobj cfg.
Proof.
  intros l Hnd Hb. rewrite <- (seq_length (nobj cfg) 0). apply NoDup_incl_length; auto.
  intros x Hx. apply in_seq. specialize (Hb x Hx). lia.
Qed.

Lemma creach_prepend : forall n c x, edge n c -> creach c x -> creach n x.
Proof.
  intros n c x He Hr. induction Hr.
  - eapply cr_step; [apply cr_one; exact He|exact H].
  - eapply cr_step; [apply IHHr; exact He|exact H].
Qed.

Lemma new_children_In : forall pc cs vis c,
  In c (new_children cfg s t halt pc cs vis) <->
  In c cs /\ admissible cfg s t halt pc c = true /\ ~ In c vis.
Proof.
  intros pc cs vis c. unfold new_children. set (F := fun q a => _).
  assert (Hstep : forall q a,
            In c (F q a) <-> In c q \/ (a = c /\ admissible cfg s t halt pc c = true /\ ~ In c vis)).
  { intros q a. unfold F. destruct (mem a (vis ++ q)) eqn:M; cbn [negb andb].
    - apply mem_In, in_app_iff in M. split; [tauto|]. intros [H|[<- [H1 H2]]]; tauto.
    - apply mem_false_notIn in M. rewrite in_app_iff in M. destruct (admissible cfg s t halt pc a) eqn:Ad.
      + rewrite in_app_iff. simpl. split; [intros [H|[<-|[]]]|intros [H|[<- _]]]; tauto.
      + split; [tauto|]. intros [H|[<- [H1 _]]]; [exact H|congruence]. }
  enough (G : forall q, In c (fold_left F cs q) <-> In c q \/ (In c cs /\ admissible cfg s t halt pc c = true /\ ~ In c vis))
    by (rewrite G; simpl; tauto).
  induction cs as [|a cs IH]; intros q; cbn [fold_left]; [simpl; tauto|]. rewrite IH, Hstep. simpl. tauto.
Qed.

Lemma new_children_NoDup : forall pc cs vis, NoDup vis -> NoDup (vis ++ new_children cfg s t halt pc cs vis).
Proof.
  intros pc cs vis H. unfold new_children. apply (fold_left_inv _ _ (fun q => NoDup (vis ++ q))).
  - intros q c _ Hq. destruct (mem c (vis ++ q)) eqn:M; cbn [negb andb]; [exact Hq|].
    destruct (admissible cfg s t halt pc c); [|exact Hq].
    rewrite app_assoc. apply NoDup_app_snoc; [exact Hq|]. apply mem_false_notIn. exact M.
  - rewrite app_nil_r. exact H.
Qed.

Definition closed_for (R : list nat) (m : nat) : Prop := forall c, edge m c -> In c R.

Lemma closed_mono : forall R R' m, closed_for R m -> incl R R' -> closed_for R' m.
Proof. intros R R' m H Hi c He. apply Hi, H, He. Qed.

(* [R] continues the visited list [A]; every object it adds has its successors in [R] and satisfies [Src] (which
   says where it was reached from) *)
Definition extends (Src : nat -> Prop) (A R : list nat) : Prop :=
  (exists ext, R = A ++ ext) /\ NoDup R /\ bounded R /\
  (forall m, In m R -> ~ In m A -> closed_for R m /\ Src m).

Definition visit_ok (n : nat) (vis R : list nat) : Prop :=
  (exists ext, R = vis ++ ext) /\ NoDup R /\ bounded R /\ closed_for R n /\
  (forall m, In m R -> ~ In m vis -> closed_for R m /\ creach n m).

Lemma visit_ok_iff : forall n vis R, visit_ok n vis R <-> extends (creach n) vis R /\ closed_for R n.
Proof. unfold visit_ok, extends. tauto. Qed.

Lemma extends_refl : forall Src A, NoDup A -> bounded A -> extends Src A A.
Proof.
  intros Src A Hn Hb. split; [exists []; symmetry; apply app_nil_r|]. split; [exact Hn|]. split; [exact Hb|].
  intros m Hm Hn'. contradiction.
Qed.

Lemma extends_incl : forall Src A R, extends Src A R -> incl A R.
Proof. intros Src A R [[e E] _] x Hx. rewrite E. apply in_app_iff. left. exact Hx. Qed.

Lemma extends_trans : forall (S1 S2 Src : nat -> Prop) A B C,
  extends S1 A B -> extends S2 B C -> (forall m, S1 m -> Src m) -> (forall m, S2 m -> Src m) -> extends Src A C.
Proof.
  intros S1 S2 Src A B C H1 H2 W1 W2. pose proof (extends_incl _ _ _ H2) as Hi.
  destruct H1 as [[e1 E1] [_ [_ M1]]]. destruct H2 as [[e2 E2] [N2 [B2 M2]]].
  split; [exists (e1 ++ e2); rewrite E2, E1, app_assoc; reflexivity|]. split; [exact N2|]. split; [exact B2|].
  intros m Hm HnA. destruct (in_dec Nat.eq_dec m B) as [HB|HB].
  - destruct (M1 m HB HnA) as [Hc Hs]. split; [exact (closed_mono _ _ _ Hc Hi)|exact (W1 m Hs)].
  - destruct (M2 m Hm HB) as [Hc Hs]. split; [exact Hc|exact (W2 m Hs)].
Qed.

(* the statement of [visit_spec] for one amount of fuel: the induction hypothesis of the three lemmas below *)
Definition visit_correct (f : nat) : Prop :=
  forall n vis, NoDup vis -> bounded vis -> nobj cfg < f + length vis -> visit_ok n vis (visit cfg s t halt f n vis).

Lemma inner_fold : forall f, visit_correct f ->
  forall qs A, NoDup A -> bounded A -> (qs <> [] -> nobj cfg < f + length A) ->
  let R := fold_left (fun vis c => visit cfg s t halt f c vis) qs A in
  extends (fun m => exists c, In c qs /\ creach c m) A R /\ (forall c, In c qs -> closed_for R c).
Proof.
  intros f IH qs. induction qs as [|c qs IHq]; intros A Hnd Hb Hf; cbn [fold_left].
  - split; [apply extends_refl; assumption|intros ? []].
  - assert (Hf' : nobj cfg < f + length A) by (apply Hf; discriminate).
    destruct (proj1 (visit_ok_iff _ _ _) (IH c A Hnd Hb Hf')) as [X1 C1].
    set (A1 := visit cfg s t halt f c A) in *.
    pose proof X1 as [[e1 E1] [N1 [B1 _]]].
    destruct (IHq A1 N1 B1) as [X2 C2]; [intros _; rewrite E1, app_length; lia|].
    split.
    + eapply extends_trans; [exact X1|exact X2| |]; cbv beta.
      * intros m Hm. exists c. split; [left; reflexivity|exact Hm].
      * intros m [c' [Hc' Hm]]. exists c'. split; [right; exact Hc'|exact Hm].
    + intros x [<-|Hx]; [exact (closed_mono _ _ _ C1 (extends_incl _ _ _ X2))|exact (C2 x Hx)].
Qed.

(* one property [p] of the expanded node [n]: its new children are appended, then visited *)
Lemma prop_step : forall f n p A, visit_correct f ->
  In p (props_of cfg (cls cfg n)) -> has (prop_casc cfg p) t = true ->
  NoDup A -> bounded A -> nobj cfg < S f + length A ->
  let q := new_children cfg s t halt (prop_casc cfg p) (children s t n p) A in
  let R := fold_left (fun vis c => visit cfg s t halt f c vis) q (A ++ q) in
  extends (creach n) A R /\
  (forall c, In c (children s t n p) -> admissible cfg s t halt (prop_casc cfg p) c = true -> In c R).
Proof.
  intros f n p A IH Hp Hhas Hnd Hb Hf q R.
  assert (Hedge : forall c, In c q -> edge n c).
  { intros c Hc. apply new_children_In in Hc. exists p. tauto. }
  assert (Bq : bounded (A ++ q)).
  { intros x Hx. apply in_app_iff in Hx. destruct Hx as [Hx|Hx]; [exact (Hb x Hx)|exact (edge_bound _ _ (Hedge x Hx))]. }
  destruct (inner_fold f IH q (A ++ q) (new_children_NoDup _ _ _ Hnd) Bq) as [[[e E] [N [B M]]] C].
  { intros Hne. rewrite app_length. destruct q; [contradiction|]. simpl. lia. }
  fold R in E, N, B, M, C. split.
  - split; [exists (q ++ e); rewrite E, app_assoc; reflexivity|]. split; [exact N|]. split; [exact B|].
    intros m Hm HnA. destruct (in_dec Nat.eq_dec m q) as [Hq|Hq].
    + split; [exact (C m Hq)|exact (cr_one _ _ (Hedge m Hq))].
    + destruct (M m Hm) as [Hc [c [Hcq Hr]]]; [rewrite in_app_iff; tauto|].
      split; [exact Hc|exact (creach_prepend _ _ _ (Hedge c Hcq) Hr)].
  - intros c Hc Ha. rewrite E, !in_app_iff.
    destruct (in_dec Nat.eq_dec c A) as [HA|HA]; [tauto|]. left. right. apply new_children_In. tauto.
Qed.

Lemma props_fold : forall f n, visit_correct f ->
  forall ps A, incl ps (props_of cfg (cls cfg n)) -> NoDup A -> bounded A -> nobj cfg < S f + length A ->
  let R := fold_left (fun vis p =>
                        if has (prop_casc cfg p) t then
                          let q := new_children cfg s t halt (prop_casc cfg p) (children s t n p) vis in
                          fold_left (fun vis c => visit cfg s t halt f c vis) q (vis ++ q)
                        else vis) ps A in
  extends (creach n) A R /\
  (forall p c, In p ps -> has (prop_casc cfg p) t = true -> In c (children s t n p) ->
               admissible cfg s t halt (prop_casc cfg p) c = true -> In c R).
Proof.
  intros f n IH ps. induction ps as [|p ps IHp]; intros A Hps Hnd Hb Hf; cbn [fold_left].
  - split; [apply extends_refl; assumption|intros ? ? []].
  - assert (Hps' : incl ps (props_of cfg (cls cfg n))) by (intros x Hx; apply Hps; right; exact Hx).
    destruct (has (prop_casc cfg p) t) eqn:Hhas.
    + destruct (prop_step f n p A IH (Hps p (or_introl eq_refl)) Hhas Hnd Hb Hf) as [X1 K1]. cbv zeta.
      set (A2 := fold_left _ (new_children _ _ _ _ _ _ A) _) in *.
      pose proof X1 as [[e1 E1] [N1 [B1 _]]].
      destruct (IHp A2 Hps' N1 B1) as [X2 K2]; [rewrite E1, app_length; lia|].
      split; [exact (extends_trans _ _ _ _ _ _ X1 X2 (fun _ H => H) (fun _ H => H))|].
      intros p0 c [<-|Hp0] Hh Hc Ha; [|exact (K2 p0 c Hp0 Hh Hc Ha)].
      exact (extends_incl _ _ _ X2 c (K1 c Hc Ha)).
    + destruct (IHp A Hps' Hnd Hb Hf) as [X2 K2]. split; [exact X2|].
      intros p0 c [<-|Hp0] Hh Hc Ha; [congruence|exact (K2 p0 c Hp0 Hh Hc Ha)].
Qed.

Lemma visit_spec : forall fuel n vis, NoDup vis -> bounded vis -> nobj cfg < fuel + length vis ->
  visit_ok n vis (visit cfg s t halt fuel n vis).
Proof.
  induction fuel as [|f IH]; intros n vis Hnd Hb Hf.
  - pose proof (bounded_length vis Hnd Hb). simpl in Hf. lia.
  - cbn [visit]. apply visit_ok_iff.
    destruct (props_fold f n IH _ vis (incl_refl _) Hnd Hb Hf) as [X K]. split; [exact X|].
    intros c [p [Hp [Hh [Hch Ha]]]]. exact (K p c Hp Hh Hch Ha).
Qed.

Lemma cascade_iter_ok : forall o, visit_ok o [] (cascade_iter cfg s t halt o).
Proof. intros o. apply visit_spec; [constructor|intros x []|simpl; lia]. Qed.

Theorem cascade_iter_reach : forall o x, In x (cascade_iter cfg s t halt o) <-> creach o x.
Proof.
  intros o x. destruct (cascade_iter_ok o) as [_ [_ [_ [Cn M]]]]. split.
  - intros H. apply (M x H). intros [].
  - intros H. induction H as [n c He|n m c _ IHm He]; [exact (Cn c He)|].
    exact (proj1 (M m (IHm Cn M) (fun F => F)) c He).
Qed.

Theorem cascade_iter_nodup : forall o, NoDup (cascade_iter cfg s t halt o).
Proof. intros o. exact (proj1 (proj2 (cascade_iter_ok o))). Qed.

Theorem cascade_iter_bound : forall o x, In x (cascade_iter cfg s t halt o) -> x < nobj cfg.
Proof.
  intros o x H. apply cascade_iter_reach in H. inversion H; subst; eapply edge_bound; eauto.
Qed.

Lemma closure_mem : forall o x, mem x (o :: cascade_iter cfg s t halt o) = true <-> x = o \/ creach o x.
Proof. intros o x. rewrite mem_In. simpl. rewrite cascade_iter_reach. intuition. Qed.
End Iter.
