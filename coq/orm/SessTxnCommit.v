(* C33 - commit under the whole invariant. *)
From Coq Require Import List ZArith Bool Arith Lia.
Import ListNotations.
From SAV.orm Require Import SessTxn SessTxnBase SessTxnInv SessTxnFlush SessTxnDbInv SessTxnCore SessTxnFlushCore
  SessTxnTx SessTxnMerge.
Open Scope nat_scope.

Lemma flush_core : forall st gs r st', Core st gs -> flush st = (r, st') -> r <> Unmodelled ->
  Core st' gs /\ FlushPost st r st'.
Proof.
  intros st gs r st' C H Hr.
  exact (flush_with_core flush_body flush_body_inner st gs r st' C H Hr).
Qed.

(* the flush loop of _prepare_impl: one flush leaves the session clean, so any fuel from 2 on ends the loop *)
Lemma flush_loop_core : forall n st gs r st', Core st gs -> flush_loop (S (S n)) st = (r, st') -> r <> Unmodelled ->
  Core st' gs /\ FlushPost st r st'.
Proof.
  intros n st gs r st' C H Hr. cbn [flush_loop] in H.
  destruct (is_clean st) eqn:Ecl.
  { inversion H; subst. split; [exact C|]. apply FlushPost_same; auto. }
  apply bind_inv in H. destruct H as [[s1 [H1 H2]]|[H1 Hn]].
  - destruct (flush_core st gs Ok s1 C H1) as [C1 P1]; [discriminate|].
    destruct (fp_ok _ _ _ P1 eq_refl) as [Cl _].
    cbn [flush_loop] in H2. rewrite Cl in H2. inversion H2; subst r st'. auto.
  - exact (flush_core st gs r st' C H1 Hr).
Qed.

(* SessionTransaction.commit of the innermost frame, after the flush loop of _prepare_impl *)
Definition commit_tail : M :=
  (lift (set_head_state PREPARED) ;; check_moves M_prepare PREPARED) ;;
  (head_db_commit ;; lift (set_head_state COMMITTED) ;; lift remove_snapshot ;; close_head ;; check_moves M_commit CLOSED).

Lemma commit_head_split : forall st f rest, stack st = f :: rest -> fstate f = ACTIVE ->
  commit_head st = (flush_loop 100 ;; commit_tail) st.
Proof.
  intros st f rest Hs Hf. unfold commit_head. rewrite Hs.
  assert (E1 : check_prereq f M_commit = None) by (unfold check_prereq; rewrite Hf; reflexivity).
  rewrite E1.
  assert (E2 : forall X : M, (prepare_head ;; X) st = ((flush_loop 100 ;; lift (set_head_state PREPARED) ;; check_moves M_prepare PREPARED) ;; X) st).
  { intros X. unfold bind at 1. unfold bind at 3. unfold prepare_head. rewrite Hs, Hf. cbn [tstate_eqb].
    assert (E3 : check_prereq f M_prepare = None) by (unfold check_prereq; rewrite Hf; reflexivity).
    rewrite E3. reflexivity. }
  rewrite E2. unfold commit_tail. rewrite bind_assoc. reflexivity.
Qed.

Definition root_final (st : sess) (f : frame) : sess :=
  let st2 := if fconn f then db_commit st else st in
  let st3 := if eoc st
             then map_objs st2 (fun x o => let o1 := if oin o then expire_obj o else o in
                                           if mem x (fdel f) then detach_obj false o1 else o1)
             else st2 in
  set_stack st3 [].

(* the frame is PREPARED, the database command runs, the frame is COMMITTED, _remove_snapshot, close; the
   database command ([s2], for a root or a savepoint) and what _remove_snapshot leaves ([s4]) are the caller's.
   Each step is stated for a state whose stack is a known cons: unfolding the whole chain at once is slow to check *)
Lemma commit_tail_steps : forall st f rest s2 s4 f4 rest4,
  stack st = f :: rest ->
  head_db_commit (set_stack st (f_state f PREPARED :: rest)) = (Ok, s2) -> stack s2 = f_state f PREPARED :: rest ->
  remove_snapshot (set_stack s2 (f_state f COMMITTED :: rest)) = s4 -> stack s4 = f4 :: rest4 -> fstate f4 = COMMITTED ->
  commit_tail st = (Ok, set_stack s4 rest4).
Proof.
  intros st f rest s2 s4 f4 rest4 Hs E2 Hs2 E4 Hs4 Hf4. unfold commit_tail.
  rewrite (bind_ok _ _ _ (set_stack st (f_state f PREPARED :: rest))).
  2:{ unfold bind, lift. rewrite (set_head_state_cons _ _ _ _ Hs). reflexivity. }
  rewrite (bind_ok _ _ _ _ E2). unfold bind at 1, lift at 1. rewrite (set_head_state_cons _ _ _ _ Hs2).
  change (f_state (f_state f PREPARED) COMMITTED) with (f_state f COMMITTED). unfold bind at 1, lift at 1. rewrite E4.
  unfold bind, close_head. rewrite Hs4, Hf4, andb_false_r. reflexivity.
Qed.

Lemma commit_tail_root : forall st f, stack st = [f] -> fnested f = false -> commit_tail st = (Ok, root_final st f).
Proof.
  intros st f Hs Hn.
  set (s2 := if fconn f then db_commit (set_stack st [f_state f PREPARED]) else set_stack st [f_state f PREPARED]).
  assert (Hs2 : stack s2 = [f_state f PREPARED] /\ eoc s2 = eoc st) by (unfold s2; destruct (fconn f); split; reflexivity).
  set (s4 := remove_snapshot (set_stack s2 [f_state f COMMITTED])).
  assert (E4 : s4 = if eoc st
                    then set_stack (map_objs s2 (fun x o => let o1 := if oin o then expire_obj o else o in
                                                            if mem x (fdel f) then detach_obj false o1 else o1))
                                   [f_del (f_state f COMMITTED) []]
                    else set_stack s2 [f_state f COMMITTED]).
  { unfold s4, remove_snapshot. cbn [stack eoc set_stack fnested f_state]. rewrite Hn, (proj2 Hs2). destruct (eoc st); reflexivity. }
  rewrite (commit_tail_steps st f [] s2 s4 (if eoc st then f_del (f_state f COMMITTED) [] else f_state f COMMITTED) [] Hs).
  - rewrite E4. unfold root_final, s2. destruct (fconn f), (eoc st); reflexivity.
  - unfold head_db_commit. cbn [stack set_stack fconn fnested f_state]. rewrite Hn. unfold s2. destruct (fconn f); reflexivity.
  - apply Hs2.
  - reflexivity.
  - rewrite E4. destruct (eoc st); reflexivity.
  - destruct (eoc st); reflexivity.
Qed.

(* the outermost commit: the connection's rows become the committed rows, the snapshot is dropped (with
   expire_on_commit every object of the identity map is expired, the deleted ones are detached) *)
Lemma root_final_core : forall st g gs' f, Core st (g :: gs') -> stack st = [f] -> fstate f = ACTIVE -> is_clean st = true ->
  Core (root_final st f) [] /\ stack (root_final st f) = [] /\ is_clean (root_final st f) = true /\
  committed (root_final st f) = work st /\ work (root_final st f) = work st /\
  nobj (root_final st f) = nobj st /\ handles (root_final st f) = handles st /\ eoc (root_final st f) = eoc st /\
  nfid (root_final st f) = nfid st /\ fnested f = false.
Proof.
  intros st g gs' f C Hs Hf Hcl. destruct C as [G Jh D Ch Em].
  apply is_clean_spec in Hcl. destruct Hcl as [Hsn [Hsd Hmod]].
  unfold GoodS in G. rewrite Hsn, Hsd in G.
  unfold Chain in Ch. rewrite Hs, Hf in Ch. destruct Ch as [GC [R _]]. rewrite Hsn, Hsd in R.
  destruct D as [Dfr Dhd Dnc Dsv]. rewrite Hs in Dfr, Dnc, Dsv. destruct Dsv as [Dsv Dsn].
  cbn [FramesOk] in Dfr. destruct Dfr as [F1 [_ [F3 _]]].
  assert (Hn : fnested f = false). { destruct (fnested f); auto. destruct F3 as [F3 _]. exfalso. apply (F3 eq_refl). reflexivity. }
  assert (Hsv : saves st = []). { rewrite Dsv. cbn. unfold live_conn. rewrite Hn, andb_false_r. cbn. destruct gs'; reflexivity. }
  assert (Hcw : fconn f = false -> work st = committed st).
  { intros X. apply Dnc. intros f' [Y|[]]. subst; auto. }
  (* the objects *)
  set (ob' := fun x => let o := objs st x in
                let o1 := if oin o then expire_obj o else o in
                if mem x (fdel f) then detach_obj false o1 else o1).
  assert (Hdel : forall x, mem x (fdel f) = true -> oin (objs st x) = false /\ odelf (objs st x) = true /\ oatt (objs st x) = true).
  { intros x Hx. destruct (r_del _ _ _ _ _ _ _ R x Hx) as [_ [A [B [E _]]]]. auto. }
  assert (Hk : forall x, okey (ob' x) = okey (objs st x) /\ odelf (ob' x) = odelf (objs st x) /\ oin (ob' x) = oin (objs st x)).
  { intros x. unfold ob'. cbn zeta. destruct (mem x (fdel f)) eqn:E1, (oin (objs st x)) eqn:E2; cbn; rewrite ?E2; auto. }
  assert (Hatt : forall x, oatt (ob' x) = true -> mem x (fdel f) = false /\ oatt (objs st x) = true).
  { intros x. unfold ob'. cbn zeta. destruct (mem x (fdel f)); [cbn; discriminate|]. destruct (oin (objs st x)) eqn:E2; cbn; auto. }
  assert (Hsame : forall x, mem x (fdel f) = false -> oin (objs st x) = false -> ob' x = objs st x).
  { intros x A B. unfold ob'. cbn zeta. rewrite A, B. reflexivity. }
  assert (Hexp : forall x, oin (objs st x) = true -> ob' x = expire_obj (objs st x)).
  { intros x A. unfold ob'. cbn zeta. rewrite A. destruct (mem x (fdel f)) eqn:E; auto. destruct (Hdel x E). congruence. }
  assert (G' : Good ob' (nobj st) (work st) [] []).
  { destruct G as [g1 g2 g3 g4 g5 g5' g6 g6' g7 g8]. constructor.
    - intros o H. destruct (Hk o) as [K1 [K2 K3]]. rewrite K3 in H. destruct (g1 o H) as [A [B [E F]]].
      rewrite (Hexp o H). cbn. auto.
    - intros o1 o2 k H1 H2 K1 K2. destruct (Hk o1) as [A1 [_ A3]]. destruct (Hk o2) as [B1 [_ B3]].
      rewrite A3 in H1. rewrite B3 in H2. rewrite A1 in K1. rewrite B1 in K2. eauto.
    - intros o k Ho K A B. destruct (Hk o) as [K1 [K2 K3]]. destruct (Hatt o A) as [_ A']. rewrite K3. rewrite K1 in K. rewrite K2 in B. eauto.
    - intros o k H K. destruct (Hk o) as [K1 [K2 K3]]. rewrite K3 in H. rewrite K1 in K.
      destruct (g4 o k H K) as [v [V1 V2]]. exists v. split; auto. rewrite (Hexp o H).
      unfold VA, expire_obj. cbn. repeat split; auto; try discriminate; try (intros; discriminate); intros X; congruence.
    - intros o. split; [intros []|]. intros [A [B E]]. destruct (Hk o) as [K1 _]. destruct (Hatt o E) as [_ E'].
      apply (g5 o). rewrite K1 in B. auto.
    - intros o Ho K. destruct (Hk o) as [K1 [K2 _]]. rewrite K2. rewrite K1 in K. auto.
    - intros o [].
    - split; constructor.
    - intros o k Ho K A B. destruct (Hk o) as [K1 [K2 K3]]. destruct (Hatt o A) as [_ A']. rewrite K1 in K. rewrite K2 in B.
      destruct (g7 o k Ho K A' B) as [X|[o' [X1 X2]]]; [left; auto|right].
      exists o'. destruct (Hk o') as [L1 [_ L3]]. rewrite L1, L3. auto.
    - intros o Ho K A B. destruct (Hk o) as [K1 [K2 K3]]. destruct (Hatt o A) as [Nd A']. rewrite K1 in K. rewrite K2 in B.
      assert (Ni : oin (objs st o) = false).
      { destruct (oin (objs st o)) eqn:E; auto. destruct (g1 o E) as [_ [_ [X _]]]. congruence. }
      rewrite (Hsame o Nd Ni). apply g8; auto. }
  assert (J' : J ob' (nobj st)).
  { intros o Ho. specialize (Jh o Ho). unfold ob'. cbn zeta.
    destruct (mem o (fdel f)), (oin (objs st o)); cbn; auto; repeat split; auto; try discriminate; intros X; congruence. }
  assert (Cl' : forall o, oin (ob' o) = true -> omod (ob' o) = false).
  { intros o H. destruct (Hk o) as [_ [_ K3]]. rewrite K3 in H. rewrite (Hexp o H). reflexivity. }
  unfold root_final.
  assert (Main : forall st3, stack st3 = [] -> (objs st3 = objs st \/ objs st3 = ob') -> nobj st3 = nobj st -> snew st3 = [] -> sdel st3 = [] ->
            work st3 = work st -> committed st3 = work st -> saves st3 = [] ->
            Core st3 [] /\ is_clean st3 = true).
  { intros st3 S3 O3 N3 A3 B3 W3 M3 V3.
    assert (Hc3 : is_clean st3 = true).
    { apply is_clean_spec. rewrite A3, B3, N3. repeat split; auto. intros o Ho Hi.
      destruct O3 as [O3|O3]; rewrite O3 in *; [apply Hmod; auto|apply Cl'; auto]. }
    split; [|exact Hc3]. constructor.
    - unfold GoodS. rewrite N3, A3, B3, W3. destruct O3 as [O3|O3]; rewrite O3; auto.
    - rewrite N3. destruct O3 as [O3|O3]; rewrite O3; auto.
    - constructor; rewrite ?S3; cbn; auto.
      + intros _. congruence.
      + split; [rewrite V3; reflexivity|exact I].
    - unfold Chain. rewrite S3. exact I.
    - intros _. exact Hc3. }
  assert (Hcw' : fconn f = false -> committed st = work st) by (intros X; symmetry; auto).
  destruct (fconn f) eqn:Ec; destruct (eoc st) eqn:Ee; cbv zeta;
    match goal with |- Core ?S [] /\ _ =>
      assert (M : Core S [] /\ is_clean S = true);
      [apply Main; cbn; auto; try (right; reflexivity); try (left; reflexivity)
      |destruct M as [M1 M2]; split; [exact M1|]; split; [reflexivity|]; split; [exact M2|]; cbn; repeat split; auto]
    end.
Qed.

(* releasing a savepoint: the database command is RELEASE, the snapshot is merged into the parent's *)
Definition nested_final (st : sess) (f p : frame) (rest' : list frame) : sess :=
  let st2 := if fconn f then set_db st (committed st) (work st) (tl (saves st)) else st in
  set_stack st2 (merge_into p f :: rest').

Lemma nested_final_fields : forall st f p rest',
  objs (nested_final st f p rest') = objs st /\ nobj (nested_final st f p rest') = nobj st /\
  snew (nested_final st f p rest') = snew st /\ sdel (nested_final st f p rest') = sdel st /\
  work (nested_final st f p rest') = work st /\ committed (nested_final st f p rest') = committed st /\
  nfid (nested_final st f p rest') = nfid st /\ stack (nested_final st f p rest') = merge_into p f :: rest' /\
  handles (nested_final st f p rest') = handles st /\ eoc (nested_final st f p rest') = eoc st /\
  is_clean (nested_final st f p rest') = is_clean st.
Proof. intros. unfold nested_final. destruct (fconn f); repeat split; reflexivity. Qed.

Lemma commit_tail_nested : forall st f p rest', stack st = f :: p :: rest' -> fnested f = true ->
  (fconn f = true -> exists w r, saves st = (fid f, w) :: r) ->
  commit_tail st = (Ok, nested_final st f p rest').
Proof.
  intros st f p rest' Hs Hn Hsv.
  set (s1 := set_stack st (f_state f PREPARED :: p :: rest')).
  set (s2 := if fconn f then set_db s1 (committed st) (work st) (tl (saves st)) else s1).
  set (m := merge_into p (f_state f COMMITTED)).
  rewrite (commit_tail_steps st f (p :: rest') s2 (set_stack s2 (f_state f COMMITTED :: m :: rest')) (f_state f COMMITTED) (m :: rest') Hs).
  - unfold nested_final, s2. destruct (fconn f); reflexivity.
  - unfold head_db_commit. cbn [stack set_stack fconn fnested fid f_state]. rewrite Hn. fold s1. unfold s2.
    destruct (fconn f); [|reflexivity]. destruct (Hsv eq_refl) as [w [r E]].
    unfold db_release. cbn [saves s1 set_stack]. rewrite E. cbn [drop_to]. rewrite Nat.eqb_refl. reflexivity.
  - unfold s2. destruct (fconn f); reflexivity.
  - unfold remove_snapshot. cbn [stack set_stack fnested f_state]. rewrite Hn. reflexivity.
  - reflexivity.
  - reflexivity.
Qed.

Lemma merge_skel : forall p f, skel (merge_into p f) = skel p.
Proof. intros. reflexivity. Qed.

Lemma nested_final_core : forall st g gs' f p rest', Core st (g :: gs') -> stack st = f :: p :: rest' -> fstate f = ACTIVE ->
  is_clean st = true ->
  Core (nested_final st f p rest') gs' /\ fnested f = true /\
  (fconn f = true -> exists w r, saves st = (fid f, w) :: r).
Proof.
  intros st g gs' f p rest' C Hs Hf Hcl. destruct C as [G Jh D Ch Em].
  pose proof Hcl as Hcl0. apply is_clean_spec in Hcl. destruct Hcl as [Hsn [Hsd Hmod]].
  unfold Chain in Ch. rewrite Hs, Hf in Ch. destruct Ch as [GC [R CG]].
  destruct gs' as [|gp gs'']; [destruct CG|]. cbn [ChainG] in CG. destruct CG as [GCp [L CG']].
  destruct D as [Dfr Dhd Dnc Dsv]. rewrite Hs in Dfr, Dnc, Dsv. destruct Dsv as [Dsv Dsn].
  cbn [FramesOk] in Dfr. destruct Dfr as [F1 [F2 [F3 [F4 F5]]]].
  assert (Hn : fnested f = true) by (apply (proj2 F3); discriminate).
  assert (Hp : fstate p = ACTIVE) by (apply F5; left; reflexivity).
  assert (Hent : entries (f :: p :: rest') (g :: gp :: gs'') =
                 if fconn f then (fid f, gW g) :: entries (p :: rest') (gp :: gs'') else entries (p :: rest') (gp :: gs'')).
  { cbn [entries]. unfold live_conn at 1. rewrite Hn, Hf. cbn [live_state]. rewrite !andb_true_r. reflexivity. }
  split; [|split; [exact Hn|]].
  2:{ intros Ec. rewrite Dsv, Hent, Ec. eauto. }
  assert (Hsv' : saves (nested_final st f p rest') = entries (p :: rest') (gp :: gs'')).
  { unfold nested_final. destruct (fconn f) eqn:Ec; cbn; rewrite Dsv, Hent; reflexivity. }
  destruct (nested_final_fields st f p rest') as (E1 & E2 & E3 & E4 & E5 & E6 & E7 & E8 & _).
  assert (Hsk : map skel (p :: rest') = map skel (merge_into p f :: rest')) by reflexivity.
  constructor.
  - unfold GoodS. rewrite E1, E2, E3, E4, E5. exact G.
  - rewrite E1, E2. exact Jh.
  - constructor; rewrite ?E5, ?E6, ?E7, ?E8.
    + eapply FramesOk_skel; [exact Hsk|]. eapply FramesOk_weaken; [exact F2|lia].
    + left. exact Hp.
    + intros Hnc.
      assert (Ecp : fconn p = false) by (apply (Hnc (merge_into p f)); left; reflexivity).
      assert (Ecf : fconn f = false).
      { destruct (fconn f) eqn:Ec; auto. rewrite (F4 eq_refl p (or_introl eq_refl)) in Ecp. discriminate. }
      apply Dnc. intros f' [X|[X|X]]; [subst; auto|subst; auto|].
      apply (Hnc f'). right. exact X.
    + eapply SavesOk_skel; [exact Hsk|]. split; [exact Hsv'|].
      cbn [SnapOk] in Dsn. destruct Dsn as [Q1 Q2].
      destruct (fconn p) eqn:Ecp.
      * cbn [SnapOk] in *. rewrite Ecp in *. exact Q2.
      * assert (Ecf : fconn f = false).
        { destruct (fconn f) eqn:Ec; auto. rewrite (F4 eq_refl p (or_introl eq_refl)) in Ecp. discriminate. }
        rewrite Ecf in Q1. rewrite <- Q1. cbn [SnapOk]. rewrite Ecp. exact Q2.
  - unfold Chain. rewrite E8. split; [exact GCp|]. split; [|exact CG'].
    assert (Hm : fstate (merge_into p f) = ACTIVE) by exact Hp. rewrite Hm.
    rewrite E1, E2, E3, E4, E5, Hsn, Hsd.
    unfold GoodS in G. rewrite Hsn, Hsd in R, G.
    apply (Rel_merge gp g p f (objs st) (nobj st) (work st)); auto.
  - rewrite E8. intros X. discriminate.
Qed.

(* what a successful SessionTransaction.commit of the innermost frame leaves *)
Definition CommitDone (st : sess) (f : frame) (rest : list frame) (st' : sess) : Prop :=
  is_clean st' = true /\
  match rest with
  | [] => stack st' = []
  | p :: rest' => exists m rest2, stack st' = m :: rest2 /\ map lists_of rest2 = map lists_of rest' /\ length rest2 = length rest' /\
                    fstate m = ACTIVE /\ fid m = fid p /\ committed st' = committed st
  end.

Lemma commit_head_core : forall st gs f rest r st', Core st gs -> stack st = f :: rest ->
  commit_head st = (r, st') -> r <> Unmodelled ->
  nobj st' = nobj st /\ handles st' = handles st /\ eoc st' = eoc st /\
  ((r <> Ok /\ Core st' gs /\ committed st' = committed st /\ ids st' = ids st /\
    map lists_of (tl (stack st')) = map lists_of (tl (stack st))) \/
   (r = Ok /\ exists gs', Core st' gs' /\ CommitDone st f rest st')).
Proof.
  intros st gs f rest r st' C Hs H Hr.
  destruct (Core_head_state st gs f rest C Hs) as [Hf|Hf].
  2:{ unfold commit_head in H. rewrite Hs in H. unfold check_prereq in H. rewrite Hf in H. cbn in H.
      inversion H; subst. repeat split; auto. left. split; [discriminate|]. split; [exact C|]. repeat split; reflexivity. }
  rewrite (commit_head_split st f rest Hs Hf) in H. apply bind_inv in H. destruct H as [[s1 [H1 H2]]|[H1 Hn]].
  2:{ destruct (flush_loop_core 98 st gs r st' C H1 Hr) as [C1 P1].
      destruct P1 as [A1 A2 A3 A4 A5 A6 A7 A8 A9].
      repeat split; auto. left. split; [exact Hn|]. split; [exact C1|]. repeat split; auto. }
  destruct (flush_loop_core 98 st gs Ok s1 C H1) as [C1 P1]; [discriminate|].
  destruct P1 as [A1 A2 A3 A4 A5 A6 A7 A8 A9]. destruct (A8 eq_refl) as [Cl [Hh Kg]].
  destruct (stack s1) as [|f1 rest1] eqn:Hs1.
  { unfold hd_state in Hh. rewrite Hs, Hs1 in Hh. discriminate. }
  assert (Hf1 : fstate f1 = ACTIVE) by (unfold hd_state in Hh; rewrite Hs, Hs1 in Hh; congruence).
  rewrite Hs in A7. cbn [tl] in A7.
  destruct (Core_shape s1 gs f1 rest1 C1 Hs1) as [g [gs' Eg]]. subst gs.
  destruct rest as [|p rest'].
  - (* the outermost transaction *)
    destruct rest1 as [|x1 r1]; [|discriminate].
    destruct (root_final_core s1 g gs' f1 C1 Hs1 Hf1 Cl) as (R1 & R2 & R3 & R4 & R5 & R6 & R7 & R8 & R9 & Hn1).
    rewrite (commit_tail_root s1 f1 Hs1 Hn1) in H2. inversion H2; subst r st'.
    split; [congruence|]. split; [congruence|]. split; [congruence|].
    right. split; [reflexivity|]. exists []. split; [exact R1|]. split; [exact R3|exact R2].
  - (* a savepoint *)
    destruct rest1 as [|p1 rest1']; [discriminate|].
    cbn [map] in A7. injection A7 as Q1 Q2 Q3 Q4 Q5 Q6 Q7 Q8 Q9.
    destruct (nested_final_core s1 g gs' f1 p1 rest1' C1 Hs1 Hf1 Cl) as [CF [Hn1 Hsv]].
    rewrite (commit_tail_nested s1 f1 p1 rest1' Hs1 Hn1 Hsv) in H2. inversion H2; subst r st'.
    destruct (nested_final_fields s1 f1 p1 rest1') as (_ & E1 & _ & _ & _ & E6 & _ & E4 & E2 & E3 & E5).
    split; [congruence|]. split; [congruence|]. split; [congruence|].
    right. split; [reflexivity|]. exists gs'. split; [exact CF|]. split; [congruence|].
    exists (merge_into p1 f1), rest1'. split; [exact E4|]. split; [exact Q9|].
    split; [apply (f_equal (@length _)) in Q9; rewrite !map_length in Q9; exact Q9|].
    split; [cbn; pose proof (d_frames _ _ (c_db _ _ C1)) as D1; rewrite Hs1 in D1; cbn in D1;
            destruct D1 as [_ [_ [_ [_ F5]]]]; apply F5; left; reflexivity|].
    split; [cbn; congruence|congruence].
Qed.

(* SessionTransaction.commit of the outermost transaction *)
Lemma commit_head_root_core : forall st gs f r st', Core st gs -> stack st = [f] -> commit_head st = (r, st') -> r <> Unmodelled ->
  (r = Ok /\ Core st' [] /\ stack st' = [] /\ is_clean st' = true /\ nobj st' = nobj st /\ handles st' = handles st /\ eoc st' = eoc st) \/
  (r <> Ok /\ Core st' gs /\ nobj st' = nobj st /\ handles st' = handles st /\ eoc st' = eoc st /\ committed st' = committed st).
Proof.
  intros st gs f r st' C Hs H Hr.
  destruct (commit_head_core st gs f [] r st' C Hs H Hr) as (N & Hh & E & [(X & C1 & K & _)|(X & gs' & C1 & Cl & S)]).
  - right. split; [exact X|]. split; [exact C1|]. auto.
  - left. rewrite (Core_nil st' gs' C1 S) in C1. split; [exact X|]. split; [exact C1|]. auto.
Qed.

(* Session.commit(): every frame, innermost first *)
Lemma commit_all_core : forall fuel st gs r st', Core st gs ->
  length (stack st) < fuel -> commit_all fuel st = (r, st') -> r <> Unmodelled ->
  exists gs', Core st' gs' /\ (r = Ok -> stack st' = [] /\ is_clean st' = true).
Proof.
  induction fuel as [|fuel IH]; intros st gs r st' C Hl H Hr; [lia|].
  cbn [commit_all] in H. destruct (stack st) as [|f rest] eqn:Hs.
  { inversion H; subst. exists gs. split; [exact C|]. intros _. split; [exact Hs|]. exact (c_empty _ _ C Hs). }
  apply bind_inv in H. destruct H as [[s1 [H1 H2]]|[H1 Hn]].
  - destruct (commit_head_core st gs f rest Ok s1 C Hs H1) as (_ & _ & _ & [[X _]|[_ [gs1 [C1 [Cl1 CD]]]]]);
      [discriminate|congruence|].
    destruct rest as [|p rest'].
    + destruct fuel as [|fuel']; [cbn in Hl; lia|]. cbn [commit_all] in H2. rewrite CD in H2. inversion H2; subst.
      exists gs1. split; [exact C1|]. auto.
    + destruct CD as (m & rest2 & S1 & K1 & L1 & M1 & I1 & _).
      apply (IH s1 gs1 r st' C1); auto. rewrite S1. cbn in *. lia.
  - destruct (commit_head_core st gs f rest r st' C Hs H1 Hr) as (_ & _ & _ & [[X [C1 _]]|[X _]]); [|congruence].
    exists gs. split; [exact C1|]. intros Y. congruence.
Qed.

(* handle.commit(): the frames above the handle's frame, innermost first, then the frame itself *)
Lemma commit_upto_core : forall fuel n st gs r st', Core st gs ->
  commit_upto fuel n st = (r, st') -> r <> Unmodelled ->
  exists gs', Core st' gs' /\ (r = Ok -> is_clean st' = true) /\
    (committed st' = committed st \/ (r = Ok /\ stack st' = [])).
Proof.
  induction fuel as [|fuel IH]; intros n st gs r st' C H Hr; [inversion H; subst; congruence|].
  cbn [commit_upto] in H. unfold head_is in H.
  destruct (stack st) as [|f rest] eqn:Hs.
  { (* no transaction: commit_head is outside the model *)
    apply bind_inv in H. unfold commit_head in H. rewrite Hs in H. destruct H as [[s1 [H1 _]]|[H1 _]]; inversion H1; subst; congruence. }
  destruct (Nat.eqb (fid f) n) eqn:En.
  - destruct (commit_head_core st gs f rest r st' C Hs H Hr) as (_ & _ & _ & [[X [C1 [K1 _]]]|[X [gs1 [C1 [Cl1 CD]]]]]).
    + exists gs. split; [exact C1|]. split; [intros Y; congruence|left; exact K1].
    + exists gs1. split; [exact C1|]. split; [auto|].
      destruct rest as [|p rest']; [right; auto|]. destruct CD as (m & rest2 & _ & _ & _ & _ & _ & K). left; exact K.
  - apply bind_inv in H. destruct H as [[s1 [H1 H2]]|[H1 Hn]].
    + destruct (commit_head_core st gs f rest Ok s1 C Hs H1) as (_ & _ & _ & [[X _]|[_ [gs1 [C1 [Cl1 CD]]]]]);
        [discriminate|congruence|].
      destruct rest as [|p rest'].
      * (* the outermost transaction was committed and the handle's frame was not found: outside the model *)
        destruct fuel; cbn [commit_upto] in H2; [inversion H2; subst; congruence|].
        unfold head_is in H2. rewrite CD in H2. apply bind_inv in H2. unfold commit_head in H2. rewrite CD in H2.
        destruct H2 as [[s2 [X _]]|[X _]]; inversion X; subst; congruence.
      * destruct CD as (m & rest2 & S1 & K1 & L1 & M1 & I1 & Kc).
        destruct (IH n s1 gs1 r st' C1 H2 Hr) as [gs2 [G1 [G2 [G3|G3]]]]; exists gs2; split; auto; split; auto.
        left. congruence.
    + destruct (commit_head_core st gs f rest r st' C Hs H1 Hr) as (_ & _ & _ & [[X [C1 [K1 _]]]|[X _]]); [|congruence].
      exists gs. split; [exact C1|]. split; [intros Y; congruence|left; exact K1].
Qed.

Lemma t_commit_core : forall st gs n r st', Core st gs -> t_commit n st = (r, st') -> r <> Unmodelled ->
  exists gs', Core st' gs' /\ (r = Ok -> is_clean st' = true) /\
    (committed st' = committed st \/ (r = Ok /\ stack st' = [])).
Proof.
  intros st gs n r st' C H Hr. unfold t_commit in H.
  assert (Refused : forall c, (Err c, st) = (r, st') ->
            exists gs', Core st' gs' /\ (r = Ok -> is_clean st' = true) /\ (committed st' = committed st \/ (r = Ok /\ stack st' = []))).
  { intros c X. inversion X; subst. exists gs. split; [exact C|]. split; [intros Y; discriminate|left; reflexivity]. }
  destruct (find_frame n st) as [fr|]; [|eauto].
  destruct (check_prereq fr M_commit); [eauto|].
  destruct (tstate_eqb (fstate fr) PREPARED); [eapply commit_upto_core; eauto|].
  destruct (check_prereq fr M_prepare); [eauto|eapply commit_upto_core; eauto].
Qed.
