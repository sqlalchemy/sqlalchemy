(* C31 - the layers of the topological sort respect every path of the final dependency set ([fpath_rank]) *)
From Coq Require Import List NArith Lia Permutation.
Import ListNotations.
From SAV.util Require Import Topo TopoRun TopoProofs.
From SAV.orm Require Import FlushOrder FlushOrderSpec FlushOrderBase.
Local Open Scope N_scope.

Lemma plan_inv T g r : plan T g = Layers r -> exists cy, cycles T g = Some cy /\
  forallb (expand_assert g cy) (cyc_actions g cy) = true /\
  sort_as_subsets (cedges (final_edges T g cy)) (dedup (map code (final_items g cy))) = Ok r.
Proof. unfold plan. destruct (cycles T g) as [cy|]; [|discriminate].
  destruct (forallb _ _) eqn:F; [|discriminate]. destruct (sort_as_subsets _ _) eqn:E; try discriminate.
  intros H; inversion H; subst. exists cy. split; [reflexivity|]. split; [exact F|exact E]. Qed.

Section Order.
Variables (T : tables) (g : graph) (cy : list N) (r : list (list N)).
Hypothesis Hs : sort_as_subsets (cedges (final_edges T g cy)) (dedup (map code (final_items g cy))) = Ok r.

Lemma layers_perm : Permutation (concat r) (dedup (map code (final_items g cy))).
Proof. unfold sort_as_subsets in Hs. eapply subsets_perm; exact Hs. Qed.

Lemma layers_nodup : NoDup (concat r).
Proof. eapply Permutation_NoDup; [apply Permutation_sym, layers_perm|apply NoDup_dedup]. Qed.

Definition edge_ok (a b : action) : Prop :=
  In (a, b) (final_edges T g cy) /\ In a (final_items g cy) /\ In b (final_items g cy).

Definition rank_lt (a b : action) : Prop :=
  exists i j, lidx r (code a) = Some i /\ lidx r (code b) = Some j /\ (i < j)%nat.

Lemma edge_rank a b : edge_ok a b -> rank_lt a b.
Proof. intros [He [Ha Hb]]. apply earlier_lidx; [apply layers_nodup|].
  unfold sort_as_subsets in Hs. eapply subsets_order; [exact Hs| | |].
  - unfold cedges. apply in_map_iff. exists (a, b). split; [reflexivity|exact He].
  - apply In_dedup, in_map, Ha.
  - apply In_dedup, in_map, Hb. Qed.

Inductive fpath : action -> action -> Prop :=
| fp1 a b : edge_ok a b -> fpath a b
| fpS a x b : edge_ok a x -> fpath x b -> fpath a b.

Lemma fpath_rank a b : fpath a b -> rank_lt a b.
Proof. induction 1 as [a b H|a x b H _ IH]; [apply edge_rank, H|].
  destruct (edge_rank _ _ H) as [i [j [H1 [H2 H3]]]]. destruct IH as [j' [k [H4 [H5 H6]]]].
  rewrite H2 in H4. inversion H4; subst. exists i, k. repeat split; try assumption. lia. Qed.

Lemma fp2 a x b : edge_ok a x -> edge_ok x b -> fpath a b.
Proof. intros H1 H2. eapply fpS; [exact H1|apply fp1, H2]. Qed.
End Order.
