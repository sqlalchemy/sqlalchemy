(* C48 - the global invariant; its preservation by per-object transformers, by changes of the application's
   references and by every collector run *)
From Coq Require Import List ZArith NArith Bool Arith Lia.
Import ListNotations.
From SAV.orm Require Import WeakRef WeakRefBase.

(* i_dead: beyond nobj the heap is blank.  i_map_row/i_map_inj: every entry of the identity map has a row, and
   no other entry has its key; i_new_row/i_new_inj: an object of session._new has no row yet, and no other
   object of session._new has its key.
   i_pk/i_db: keys of live objects and of rows lie below next_pk, so that the next key is fresh.
   i_slots/i_local: the application's references point to live objects.  i_failed: no flush has raised - this
   is what c48_flush_never_fails reads off. *)
Record Inv (s : st) : Prop := mkInv {
  i_dead : forall o, nobj s <= o -> heap s o = dead0;
  i_ok : forall o, okb (heap s o) = true;
  i_map_row : forall o, in_map (heap s o) = true -> db_get (pk (heap s o)) (db s) <> None;
  i_map_inj : forall o1 o2, in_map (heap s o1) = true -> in_map (heap s o2) = true ->
                            pk (heap s o1) = pk (heap s o2) -> o1 = o2;
  i_new_row : forall o, in_new (heap s o) = true -> db_get (pk (heap s o)) (db s) = None;
  i_new_inj : forall o1 o2, in_new (heap s o1) = true -> in_new (heap s o2) = true ->
                            pk (heap s o1) = pk (heap s o2) -> o1 = o2;
  i_pk : forall o, alive (heap s o) = true -> (pk (heap s o) < next_pk s)%N;
  i_db : forall k v, db_get k (db s) = Some v -> (k < next_pk s)%N;
  i_slots : forall o, In (Some o) (slots s) -> alive (heap s o) = true;
  i_local : forall o, local s = Some o -> alive (heap s o) = true;
  i_failed : failed s = false
}.

Lemma alive_lt : forall s o, Inv s -> alive (heap s o) = true -> o < nobj s.
Proof.
  intros s o I H. destruct (le_lt_dec (nobj s) o) as [L|L]; auto.
  rewrite (i_dead s I o L) in H. discriminate.
Qed.

Lemma key_inj : forall s o1 o2, Inv s ->
  in_new (heap s o1) = true \/ in_map (heap s o1) = true ->
  in_new (heap s o2) = true \/ in_map (heap s o2) = true -> pk (heap s o1) = pk (heap s o2) -> o1 = o2.
Proof.
  intros s o1 o2 I [N1|M1] [N2|M2] E.
  - apply (i_new_inj s I); auto.
  - exfalso. apply (i_map_row s I o2 M2). rewrite <- E. apply (i_new_row s I o1 N1).
  - exfalso. apply (i_map_row s I o1 M1). rewrite E. apply (i_new_row s I o2 N2).
  - apply (i_map_inj s I); auto.
Qed.

Lemma inv_tr : forall s s', Inv s ->
  nobj s' = nobj s -> db s' = db s -> next_pk s' = next_pk s -> failed s' = failed s ->
  (forall o, tr (heap s o) (heap s' o)) ->
  (forall o, nobj s <= o -> heap s' o = dead0) ->
  (forall o, In (Some o) (slots s') -> alive (heap s' o) = true) ->
  (forall o, local s' = Some o -> alive (heap s' o) = true) ->
  Inv s'.
Proof.
  intros s s' I En Ed Ep Ef T D Sl Lo.
  assert (P : forall o, pk (heap s' o) = pk (heap s o)) by (intro o; apply (T o)).
  assert (M : forall o, in_map (heap s' o) = true -> in_map (heap s o) = true) by (intro o; apply (T o)).
  assert (N : forall o, in_new (heap s' o) = true -> in_new (heap s o) = true) by (intro o; apply (T o)).
  constructor; auto.
  - intros o L. apply D. rewrite <- En. exact L.
  - intros o. apply (T o).
  - intros o H. rewrite Ed, P. apply (i_map_row s I), M, H.
  - intros o1 o2 H1 H2. rewrite !P. apply (i_map_inj s I); auto.
  - intros o H. rewrite Ed, P. apply (i_new_row s I), N, H.
  - intros o1 o2 H1 H2. rewrite !P. apply (i_new_inj s I); auto.
  - intros o H. rewrite Ep, P. apply (i_pk s I), (T o), H.
  - intros k v. rewrite Ep, Ed. apply (i_db s I).
  - rewrite Ef. apply (i_failed s I).
Qed.

Lemma inv_live : forall s s', Inv s ->
  nobj s' = nobj s -> db s' = db s -> next_pk s' = next_pk s -> failed s' = failed s ->
  slots s' = slots s -> local s' = local s ->
  (forall o, tr_live (heap s o) (heap s' o)) -> (forall o, nobj s <= o -> heap s' o = dead0) -> Inv s'.
Proof.
  intros s s' I En Ed Ep Ef Es El T D. apply (inv_tr s); auto; try (intros o; apply T).
  - intros o H. rewrite (proj2 (T o)). apply (i_slots s I). rewrite <- Es. exact H.
  - intros o H. rewrite (proj2 (T o)). apply (i_local s I). rewrite <- El. exact H.
Qed.

Lemma inv_upd : forall s o f, Inv s -> alive (heap s o) = true ->
  (okb (heap s o) = true -> tr_live (heap s o) (f (heap s o))) -> Inv (upd o f s).
Proof.
  intros s o f I A F. assert (Lt := alive_lt s o I A).
  apply (inv_live s); auto; intros x; cbn; destruct (Nat.eqb x o) eqn:E.
  - apply Nat.eqb_eq in E. subst x. apply F, (i_ok s I).
  - split; [apply tr_refl, (i_ok s I)|reflexivity].
  - apply Nat.eqb_eq in E. subst x. lia.
  - apply (i_dead s I).
Qed.

Lemma inv_hmap : forall s f, Inv s -> (forall ob, okb ob = true -> tr_live ob (f ob)) -> f dead0 = dead0 ->
  Inv (hmap f s).
Proof.
  intros s f I F D. apply (inv_live s); auto; intros x; cbn.
  - apply F, (i_ok s I).
  - intros L. rewrite (i_dead s I x L). exact D.
Qed.

Lemma inv_refs : forall s s', Inv s -> (forall o, heap s' o = heap s o) ->
  nobj s' = nobj s -> db s' = db s -> next_pk s' = next_pk s -> failed s' = failed s ->
  (forall o, In (Some o) (slots s') -> alive (heap s o) = true) ->
  (forall o, local s' = Some o -> alive (heap s o) = true) -> Inv s'.
Proof.
  intros s s' I E En Ed Ep Ef Sl Lo.
  apply (inv_tr s); auto; intros o; rewrite E; auto using tr_refl, i_ok, i_dead.
Qed.

Lemma In_set_nth : forall {A} i (v : A) l x, In x (set_nth i v l) -> x = v \/ In x l.
Proof.
  intros A i v l. revert i. induction l as [|y l IH]; intros i x H; simpl in *; [destruct i; contradiction|].
  destruct i; simpl in H.
  - destruct H; auto.
  - destruct H as [H|H]; auto. destruct (IH _ _ H); auto.
Qed.
Lemma slot_get_In : forall s i o, slot_get s i = Some o -> In (Some o) (slots s).
Proof.
  intros s i o H. unfold slot_get in H.
  destruct (le_lt_dec (length (slots s)) i) as [L|L].
  - rewrite nth_overflow in H; [discriminate|exact L].
  - rewrite <- H. apply nth_In. exact L.
Qed.
Lemma inv_slot_set : forall s i v, Inv s ->
  (forall o, v = Some o -> alive (heap s o) = true) -> Inv (slot_set i v s).
Proof.
  intros s i v I V. apply (inv_refs s); auto using i_local.
  intros o H. apply In_set_nth in H. destruct H; [apply V|apply (i_slots s I)]; auto.
Qed.
Lemma inv_slot_some : forall s i o, Inv s -> alive (heap s o) = true -> Inv (slot_set i (Some o) s).
Proof. intros s i o I A. apply inv_slot_set; auto. intros o' H. inversion H. subst o'. exact A. Qed.
Lemma inv_slot_none : forall s i, Inv s -> Inv (slot_set i None s).
Proof. intros s i I. apply inv_slot_set; auto. discriminate. Qed.
Lemma inv_set_local : forall s v, Inv s ->
  (forall o, v = Some o -> alive (heap s o) = true) -> Inv (set_local v s).
Proof. intros s v I V. apply (inv_refs s); auto using i_slots. Qed.
Lemma inv_bump_val : forall s, Inv s -> Inv (bump_val s).
Proof. intros s I. apply (inv_refs s); auto using i_slots, i_local. Qed.

Lemma memb_In : forall o l, memb o l = true <-> In o l.
Proof.
  intros o l. unfold memb. rewrite existsb_exists. split.
  - intros [x [H E]]. apply Nat.eqb_eq in E. subst. exact H.
  - intros H. exists o. split; auto. apply Nat.eqb_refl.
Qed.
Lemma add_new_incl : forall X R x, In x R -> In x (add_new R X).
Proof.
  unfold add_new. induction X as [|y X IH]; intros R x H; simpl; auto.
  apply IH. destruct (memb y R); auto. apply in_or_app; auto.
Qed.
Lemma add_new_inv : forall X R x, In x (add_new R X) -> In x R \/ In x X.
Proof.
  unfold add_new. induction X as [|y X IH]; intros R x H; simpl in *; auto.
  apply IH in H. destruct H as [H|H]; auto.
  destruct (memb y R); auto. apply in_app_or in H. destruct H as [H|[H|[]]]; auto.
Qed.
Lemma closure_incl : forall s n R x, In x R -> In x (closure s n R).
Proof. induction n; intros R x H; simpl; auto. apply IHn. apply add_new_incl. exact H. Qed.
Lemma closure_inv : forall s n R x, In x (closure s n R) -> In x R \/ exists p, In x (succ_of s p).
Proof.
  induction n; intros R x H; simpl in *; auto.
  apply IHn in H. destruct H as [H|H]; auto.
  apply add_new_inv in H. destruct H as [H|H]; auto.
  apply in_flat_map in H. destruct H as [p [_ H]]. right. exists p. exact H.
Qed.
Lemma rooted_reach : forall s o, Inv s -> rooted s o = true -> In o (reach s).
Proof.
  intros s o I H. unfold reach. apply closure_incl. apply filter_In. split; auto.
  apply in_seq. split; [lia|]. simpl. apply (alive_lt s o I).
  unfold rooted in H. apply andb_prop in H. apply H.
Qed.
Lemma reach_inv : forall s o, Inv s -> In o (reach s) ->
  rooted s o = true \/ exists p, alive (heap s p) = true /\ link (heap s p) = Some o.
Proof.
  intros s o I H. unfold reach in H. apply closure_inv in H. destruct H as [H|[p H]].
  - apply filter_In in H. left. apply H.
  - right. exists p. unfold succ_of in H. destruct (link (heap s p)) as [t|] eqn:E; [|destruct H].
    destruct (alive (heap s t)) eqn:A; [|destruct H]. destruct H as [H|[]]. subst t.
    split; auto. apply (okb_link_alive _ o (i_ok s I p) E).
Qed.

Lemma rooted_eq : forall s o,
  rooted s o = alive (heap s o) && (app_ref s o || negb (unrooted_local (heap s o))).
Proof.
  intros s o. unfold rooted, unrooted_local. cbv zeta.
  destruct (app_ref s o), (in_new (heap s o)), (in_del (heap s o)), (strong (heap s o) && _); reflexivity.
Qed.
Lemma app_ref_slots : forall s o, In (Some o) (slots s) -> app_ref s o = true.
Proof.
  intros s o H. unfold app_ref. apply orb_true_iff. left. apply existsb_exists.
  exists (Some o). split; auto. simpl. apply Nat.eqb_refl.
Qed.
Lemma app_ref_local : forall s o, local s = Some o -> app_ref s o = true.
Proof. intros s o H. unfold app_ref. rewrite H. simpl. rewrite Nat.eqb_refl. apply orb_true_r. Qed.

Lemma collect_heap : forall l s o, heap (collect l s) o =
  (let ob := heap s o in if memb o l && alive ob && negb (memb o (reach s)) then free_obj ob else ob).
Proof. reflexivity. Qed.

Lemma collect_keeps_rooted : forall l s o, Inv s -> rooted s o = true -> heap (collect l s) o = heap s o.
Proof.
  intros l s o I R. rewrite collect_heap. cbv zeta.
  assert (M : memb o (reach s) = true) by (apply memb_In; apply rooted_reach; auto).
  rewrite M. rewrite andb_false_r. reflexivity.
Qed.

Lemma inv_collect : forall l s, Inv s -> Inv (collect l s).
Proof.
  intros l s I.
  assert (K : forall o, alive (heap s o) = true -> app_ref s o = true -> alive (heap (collect l s) o) = true).
  { intros o A R. rewrite collect_keeps_rooted; auto. unfold rooted. rewrite A, R. reflexivity. }
  apply (inv_tr s); auto.
  - intros o. rewrite collect_heap. cbv zeta.
    destruct (memb o l && alive (heap s o) && negb (memb o (reach s))) eqn:C; [|apply tr_refl, (i_ok s I)].
    apply andb_prop in C. destruct C as [C C3]. apply andb_prop in C. destruct C as [_ C2].
    apply negb_true_iff in C3.
    apply tr_free_obj; [apply (i_ok s I)|].
    destruct (rooted s o) eqn:R; [apply (rooted_reach s o I), memb_In in R; congruence|].
    rewrite rooted_eq, C2 in R. destruct (unrooted_local (heap s o)); auto. rewrite orb_true_r in R. discriminate.
  - intros o L. rewrite collect_heap. cbv zeta. rewrite (i_dead s I o L). simpl.
    rewrite andb_false_r. reflexivity.
  - intros o H. apply K; [apply (i_slots s I o H)|apply (app_ref_slots s o H)].
  - intros o H. apply K; [apply (i_local s I o H)|apply (app_ref_local s o H)].
Qed.

Lemma inv_rc_iter : forall n s, Inv s -> Inv (rc_iter n s).
Proof.
  induction n; intros s I; simpl; auto.
  destruct (rc_zero s); auto. apply IHn. apply inv_collect. exact I.
Qed.
Lemma inv_rc_collect : forall s, Inv s -> Inv (rc_collect s).
Proof. intros. apply inv_rc_iter. auto. Qed.

Lemma collect_fields : forall l s, nobj (collect l s) = nobj s /\ slots (collect l s) = slots s /\
  local (collect l s) = local s /\ db (collect l s) = db s /\ next_pk (collect l s) = next_pk s /\
  next_val (collect l s) = next_val s /\ failed (collect l s) = failed s.
Proof. intros. repeat split. Qed.
Lemma rc_iter_fields : forall n s, nobj (rc_iter n s) = nobj s /\ slots (rc_iter n s) = slots s /\
  local (rc_iter n s) = local s /\ db (rc_iter n s) = db s /\ next_pk (rc_iter n s) = next_pk s /\
  next_val (rc_iter n s) = next_val s /\ failed (rc_iter n s) = failed s.
Proof.
  induction n; intros s; simpl; [repeat split|].
  destruct (rc_zero s) as [|x l]; [repeat split|]. exact (IHn (collect (x :: l) s)).
Qed.

Lemma compact_heap : forall s, Inv s -> forall o, heap (compact s) o = heap s o.
Proof.
  intros s I o. cbn. destruct (le_lt_dec (nobj s) o) as [L|L].
  - rewrite nth_overflow; [symmetry; apply (i_dead s I o L)|]. rewrite map_length. unfold oids. rewrite seq_length. exact L.
  - rewrite (nth_indep _ dead0 (heap s 0)); [|rewrite map_length; unfold oids; rewrite seq_length; exact L].
    rewrite (map_nth (heap s) (oids s) 0 o). unfold oids. rewrite seq_nth; auto.
Qed.
Lemma inv_compact : forall s, Inv s -> Inv (compact s).
Proof. intros s I. apply (inv_refs s); auto using compact_heap, i_slots, i_local. Qed.
