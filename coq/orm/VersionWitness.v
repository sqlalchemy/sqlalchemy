(* C44: concrete histories - the defect region (refutations) and non-vacuity of the theorems' hypotheses *)
From Coq Require Import List ZArith NArith Bool Arith.
Import ListNotations.
From SAV.orm Require Import Version VersionInv VersionTheorems.
Open Scope Z_scope.

Definition rows12 : rows := [(1, {| rx := (0, 0); rv := 1 |}); (2, {| rx := (0, 0); rv := 1 |})].
Definition no_eoc (i : nat) : bool := false.

(* session 0 loads rows 1 and 2 and ends its transaction; session 1 changes row 1 and commits;
   session 0 then marks both instances deleted (w_del) / modifies both (w_upd) *)
Definition w_prefix : list (nat * op) :=
  [(0%nat, Load 1); (0%nat, Load 2); (0%nat, Commit); (1%nat, SetX 1 false 5); (1%nat, Commit)].
Definition w_del : list (nat * op) := w_prefix ++ [(0%nat, Del 1); (0%nat, Del 2)].
Definition w_upd : list (nat * op) := w_prefix ++ [(0%nat, SetX 1 false 7); (0%nat, SetX 2 false 8)].

Definition st_del (sane_rc sane_multi : bool) : state := run false sane_rc sane_multi no_eoc Z.succ w_del (init rows12).
Definition st_upd (sane_rc sane_multi : bool) : state := run false sane_rc sane_multi no_eoc Z.succ w_upd (init rows12).

Lemma st_del_reach : forall sane_rc sane_multi, reach false sane_rc sane_multi no_eoc Z.succ rows12 (st_del sane_rc sane_multi).
Proof. intros. exists w_del. reflexivity. Qed.
Lemma st_upd_reach : forall sane_rc sane_multi, reach false sane_rc sane_multi no_eoc Z.succ rows12 (st_upd sane_rc sane_multi).
Proof. intros. exists w_upd. reflexivity. Qed.

Lemma st_del_stale : forall sane_rc sane_multi, stale_del (st_del sane_rc sane_multi) 0.
Proof.
  intros sane_rc sane_multi. exists 1, {| ex := (0, 0); ev := 1; epend := None; edel := true |}.
  destruct sane_rc, sane_multi; vm_compute; (split; [left; reflexivity|split; reflexivity]).
Qed.
Lemma st_upd_stale : forall sane_rc sane_multi, stale_upd (st_upd sane_rc sane_multi) 0.
Proof.
  intros sane_rc sane_multi. exists 1, {| ex := (0, 0); ev := 1; epend := Some (7, 0); edel := false |}.
  destruct sane_rc, sane_multi; vm_compute; (split; [left; reflexivity|split; reflexivity]).
Qed.

(* the defect: two DELETEs, one stale, dialect without sane multi-rowcount: commit succeeds, row 2 is gone, row 1
   (which the session believes deleted) is still there *)
Lemma multi_delete_unchecked :
  snd (step false true false no_eoc Z.succ 0 Commit (st_del true false)) = ROk /\
  com (sdb (fst (step false true false no_eoc Z.succ 0 Commit (st_del true false)))) = [(1, {| rx := (5, 0); rv := 2 |})] /\
  n_dels (st_del true false) 0 = 2%nat.
Proof. vm_compute. repeat split. Qed.

(* with sane multi-rowcount the same history fails and changes nothing *)
Lemma multi_delete_checked :
  snd (step false true true no_eoc Z.succ 0 Commit (st_del true true)) = RStale /\
  com (sdb (fst (step false true true no_eoc Z.succ 0 Commit (st_del true true)))) =
    [(1, {| rx := (5, 0); rv := 2 |}); (2, {| rx := (0, 0); rv := 1 |})].
Proof. vm_compute. repeat split. Qed.

(* a dialect without sane rowcount verifies nothing: the stale UPDATE matches no row, the flush succeeds *)
Lemma no_sane_rowcount_unchecked :
  snd (step false false false no_eoc Z.succ 0 Commit (st_upd false false)) = ROk /\
  com (sdb (fst (step false false false no_eoc Z.succ 0 Commit (st_upd false false)))) =
    [(1, {| rx := (5, 0); rv := 2 |}); (2, {| rx := (8, 0); rv := 2 |})].
Proof. vm_compute. repeat split. Qed.

(* session 0 changes row 1 inside a transaction whose snapshot predates the commit of session 1: its own commit is
   refused by the database, not by the rowcount check (props/C44.v, c44_ex_database_refuses) *)
Definition w_busy : list (nat * op) := [(0%nat, SetX 1 false 7); (1%nat, SetX 1 false 5); (1%nat, Commit)].
