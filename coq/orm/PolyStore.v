(* C42: the tables written by [store]: which rows each holds, what a lookup by primary key finds; ORDER BY id *)
From Coq Require Import List ZArith Bool Arith Lia Permutation Sorted.
Import ListNotations.
From SAV.orm Require Import Poly PolyTree.

Definition wf_objs (h : hier) (objs : list sobj) : Prop :=
  NoDup (map s_pk objs) /\ forall o, In o objs -> s_cls o < length h.

Lemma find_keyed : forall (A : Type) (g : nat -> A) (l : list nat) (t : nat),
  find (fun p : nat * A => Nat.eqb (fst p) t) (map (fun x => (x, g x)) l) =
  if memn t l then Some (t, g t) else None.
Proof.
  intros A g l t. induction l as [|x l IH]; [reflexivity|].
  cbn [map find fst]. unfold memn. cbn [existsb].
  destruct (Nat.eqb x t) eqn:E.
  - apply Nat.eqb_eq in E. subst. rewrite Nat.eqb_refl. reflexivity.
  - rewrite Nat.eqb_sym, E. cbn [orb]. exact IH.
Qed.

Lemma filter_map_swap : forall (A B : Type) (f : A -> B) (P : B -> bool) (l : list A),
  filter P (map f l) = map f (filter (fun x => P (f x)) l).
Proof.
  intros. induction l as [|x l IH]; [reflexivity|]. cbn [map filter].
  destruct (P (f x)); cbn [map]; rewrite IH; reflexivity.
Qed.

Lemma filter_all : forall (A : Type) (P : A -> bool) (l : list A),
  (forall x, In x l -> P x = true) -> filter P l = l.
Proof.
  intros A P l H. induction l as [|x l IH]; [reflexivity|]. cbn [filter].
  rewrite (H x (or_introl eq_refl)). f_equal. apply IH. intros y Hy. apply H. right. exact Hy.
Qed.

Lemma Permutation_filter' : forall (A : Type) (P : A -> bool) (l l' : list A),
  Permutation l l' -> Permutation (filter P l) (filter P l').
Proof.
  intros A P l l' H. induction H.
  - constructor.
  - cbn [filter]. destruct (P x); [constructor|]; exact IHPermutation.
  - cbn [filter]. destruct (P x), (P y); (apply perm_swap || apply Permutation_refl).
  - eapply Permutation_trans; eassumption.
Qed.

Lemma insert_row_perm : forall r l, Permutation (insert_row r l) (r :: l).
Proof.
  intros r l. induction l as [|x l IH]; [apply Permutation_refl|]. cbn [insert_row].
  destruct (Z.leb (rpk r) (rpk x)); [apply Permutation_refl|].
  eapply Permutation_trans; [apply perm_skip; exact IH | apply perm_swap].
Qed.

Lemma sort_rows_perm : forall l, Permutation (sort_rows l) l.
Proof.
  induction l as [|x l IH]; [constructor|]. cbn [sort_rows fold_right].
  eapply Permutation_trans; [apply insert_row_perm|]. constructor. exact IH.
Qed.

Definition row_le (a b : row) : Prop := (rpk a <= rpk b)%Z.

Lemma insert_row_sorted : forall r l, StronglySorted row_le l -> StronglySorted row_le (insert_row r l).
Proof.
  intros r l H. induction H as [|x l Hs IH Hall].
  - cbn. constructor; constructor.
  - cbn [insert_row]. destruct (Z.leb (rpk r) (rpk x)) eqn:E.
    + apply Z.leb_le in E. constructor; [constructor; assumption|].
      constructor; [exact E|]. rewrite Forall_forall in *. intros y Hy. specialize (Hall y Hy).
      unfold row_le in *. lia.
    + apply Z.leb_gt in E. constructor; [exact IH|].
      rewrite Forall_forall in *. intros y Hy.
      apply (Permutation_in _ (insert_row_perm r l)) in Hy. destruct Hy as [Hy|Hy].
      * subst. unfold row_le. lia.
      * apply Hall. exact Hy.
Qed.

Lemma sort_rows_sorted : forall l, StronglySorted row_le (sort_rows l).
Proof.
  induction l as [|x l IH]; [constructor|]. cbn [sort_rows fold_right]. apply insert_row_sorted. exact IH.
Qed.

Lemma filter_sorted : forall (P : row -> bool) l, StronglySorted row_le l -> StronglySorted row_le (filter P l).
Proof.
  intros P l H. induction H as [|x l Hs IH Hall]; [constructor|]. cbn [filter].
  destruct (P x); [|exact IH]. constructor; [exact IH|].
  rewrite Forall_forall in *. intros y Hy. apply filter_In in Hy. apply Hall. tauto.
Qed.

Lemma sorted_map_pk : forall l, StronglySorted row_le l -> StronglySorted Z.le (map rpk l).
Proof.
  intros l H. induction H as [|x l Hs IH Hall]; [constructor|]. cbn [map]. constructor; [exact IH|].
  rewrite Forall_forall in *. intros y Hy. apply in_map_iff in Hy. destruct Hy as [z [Hz Hin]]. subst.
  apply Hall. exact Hin.
Qed.

Section Store.
Variable h : hier.
Hypothesis Hwf : wf_hier h.
Variable objs : list sobj.
Hypothesis Hobjs : wf_objs h objs.

Definition objs_of (t : nat) : list sobj := filter (fun o => isa h (s_cls o) t) objs.

Lemma tbl_store : forall t,
  tbl (store h objs) t =
  if joined h t && Nat.ltb t (length h) then map (mkrow h t) (objs_of t) else [].
Proof.
  intros t. unfold tbl, store.
  rewrite (find_keyed _ (fun t => map (mkrow h t) (filter (fun o => isa h (s_cls o) t) objs))).
  assert (E : memn t (filter (joined h) (seq 0 (length h))) = joined h t && Nat.ltb t (length h)).
  { apply eq_true_iff_eq. rewrite memn_In, filter_In, in_seq, andb_true_iff, Nat.ltb_lt.
    split; intros [H1 H2]; split; auto; lia. }
  rewrite E. destruct (joined h t && Nat.ltb t (length h)); reflexivity.
Qed.

Lemma NoDup_map_inj : forall (A B : Type) (f : A -> B) (l : list A) x y,
  NoDup (map f l) -> In x l -> In y l -> f x = f y -> x = y.
Proof.
  intros A B f l x y Hnd. induction l as [|z l IH]; intros Hx Hy E; [destruct Hx|].
  cbn [map] in Hnd. inversion Hnd as [|? ? Hz Hnd']; subst.
  destruct Hx as [Hx|Hx], Hy as [Hy|Hy]; subst.
  - reflexivity.
  - exfalso. apply Hz. rewrite E. apply in_map. exact Hy.
  - exfalso. apply Hz. rewrite <- E. apply in_map. exact Hx.
  - apply IH; assumption.
Qed.

(* looking up the key of an object o of l among the rows written for the objects of l that satisfy P: whatever
   [find] returns has the key of o, hence is the row of o *)
Lemma find_row_store : forall (mk : sobj -> row) (P : sobj -> bool) (l : list sobj) o,
  (forall o, rpk (mk o) = s_pk o) -> NoDup (map s_pk l) -> In o l ->
  find_row (map mk (filter P l)) (s_pk o) = if P o then Some (mk o) else None.
Proof.
  intros mk P l o Hmk Hnd Hin. unfold find_row.
  destruct (find (fun r => Z.eqb (rpk r) (s_pk o)) (map mk (filter P l))) as [r|] eqn:E.
  - apply find_some in E. destruct E as [Hr Hk]. apply in_map_iff in Hr. destruct Hr as [o' [Hr Ho']]. subst r.
    apply filter_In in Ho'. destruct Ho' as [Ho' HP]. rewrite Hmk in Hk. apply Z.eqb_eq in Hk.
    rewrite (NoDup_map_inj _ _ s_pk l o' o Hnd Ho' Hin Hk) in *. rewrite HP. reflexivity.
  - destruct (P o) eqn:HP; [|reflexivity].
    assert (Hr : In (mk o) (map mk (filter P l))) by (apply in_map, filter_In; split; assumption).
    apply (find_none _ _ E) in Hr. rewrite Hmk, Z.eqb_refl in Hr. discriminate.
Qed.

Lemma find_row_tbl : forall t o, In o objs ->
  find_row (tbl (store h objs) t) (s_pk o) =
  if joined h t && Nat.ltb t (length h) && isa h (s_cls o) t then Some (mkrow h t o) else None.
Proof.
  intros t o Hin. rewrite tbl_store. destruct (joined h t && Nat.ltb t (length h)); [|reflexivity].
  cbn [andb]. unfold objs_of.
  apply (find_row_store (mkrow h t) (fun o => isa h (s_cls o) t) objs o); [reflexivity | apply Hobjs | exact Hin].
Qed.

Lemma has_row_store : forall t o, In o objs ->
  has_row (store h objs) t (s_pk o) = joined h t && Nat.ltb t (length h) && isa h (s_cls o) t.
Proof.
  intros t o Hin. unfold has_row. rewrite (find_row_tbl t o Hin).
  destruct (joined h t && Nat.ltb t (length h) && isa h (s_cls o) t); reflexivity.
Qed.

Lemma assoc_v_map : forall (f : nat -> option Z) (l : list nat) a, In a l ->
  assoc_v (map (fun a => (a, f a)) l) a = f a.
Proof.
  intros f l a Hin. unfold assoc_v. rewrite (find_keyed _ f). apply memn_In in Hin. rewrite Hin. reflexivity.
Qed.

Lemma db_get_store : forall o a, In o objs -> isa h (s_cls o) a = true ->
  db_get (store h objs) (owner h a) (s_pk o) a = s_val o a.
Proof.
  intros o a Hin Ha. unfold db_get. rewrite (find_row_tbl (owner h a) o Hin).
  assert (Hc : s_cls o < length h) by (apply Hobjs; exact Hin).
  assert (Ho : isa h (s_cls o) (owner h a) = true).
  { apply isa_to_owner; assumption. }
  rewrite (owner_is_joined h Hwf a), Ho.
  assert (Hl : Nat.ltb (owner h a) (length h) = true).
  { apply Nat.ltb_lt. pose proof (isa_le h Hwf _ _ Ho). lia. }
  rewrite Hl. cbn [andb]. unfold mkrow. cbn [rvals].
  apply assoc_v_map. apply filter_In. split.
  - apply in_path_isa; assumption.
  - apply Nat.eqb_refl.
Qed.

Lemma tbl0_store : tbl (store h objs) 0 = map (mkrow h 0) objs.
Proof.
  rewrite tbl_store, (wf_root_joined h Hwf).
  assert (Nat.ltb 0 (length h) = true) by (apply Nat.ltb_lt, wf_nonempty; exact Hwf). rewrite H. cbn [andb].
  unfold objs_of. rewrite filter_all; [reflexivity|].
  intros o Ho. apply isa_root; [exact Hwf | apply Hobjs; exact Ho].
Qed.

End Store.
