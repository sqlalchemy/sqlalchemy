(* C31 - no dependency leads from a delete back to a save: the records reachable from a DELETE record in the
   final dependency set are deletes, post_update UPDATEs of surviving rows and the save-processors of
   post_update one-to-many relationships.  Hence an edge from a save record to a delete record (such as the
   (save_parent, child_action) edge added to _ManyToOneDP.per_state_dependencies by a8ba61d) lies on no
   cycle, for every graph. *)
From Coq Require Import List NArith Bool.
Import ListNotations.
From SAV.orm Require Import FlushOrder FlushOrderSpec FlushOrderBase FlushOrderCover.
Local Open Scope N_scope.

Definition dep_lo (g : graph) (i : N) : bool :=
  existsb (fun d => N.eqb (d_id d) i && d_post d && N.eqb (d_kind d) 0) (g_deps g).
Definition late (g : graph) (a : action) : bool :=
  match a with
  | DelAll _ | DelSt _ | PostAll _ false => true
  | ProcAll i false | ProcSt i false _ => dep_lo g i
  | _ => false
  end.
Definition rlate (k : N) (p : bool) (r : role) : bool :=
  match r with PDels | CDels | CPost | PPost => true | AfterSave => p && N.eqb k 0 | _ => false end.
Definition slate (k : N) (p c : bool) (x : srole) : bool :=
  match x with SDelP | SCPost | SPPost => true | SChild => c | SAfter => p && N.eqb k 0 | _ => false end.

Lemma prop_edges_late k p r1 r2 : In (r1, r2) (prop_edges std_tables k p) -> rlate k p r1 = true -> rlate k p r2 = true.
Proof. intros H L.
  pose proof (prop_edges_forall (fun k p rr => negb (rlate k p (fst rr)) || rlate k p (snd rr)) std_tables eq_refl k p _ H) as X.
  simpl in X. rewrite L in X. exact X. Qed.
Lemma state_edges_late k p i c x y : In (x, y) (state_edges std_tables k p i c) -> slate k p c x = true -> slate k p c y = true.
Proof. intros H L.
  pose proof (state_edges_forall (fun k p _ c xy => negb (slate k p c (fst xy)) || slate k p c (snd xy)) std_tables eq_refl k p i c _ H) as X.
  simpl in X. rewrite L in X. exact X. Qed.

Section Late.
Variables (g : graph) (cy : list N).
Hypothesis Hnd : NoDup (map d_id (g_deps g)).
Notation T := std_tables.

Lemma dep_lo_of d : In d (g_deps g) -> dep_lo g (d_id d) = d_post d && N.eqb (d_kind d) 0.
Proof. intros Hd. unfold dep_lo. destruct (d_post d && N.eqb (d_kind d) 0) eqn:E.
  - apply existsb_exists. exists d. split; [exact Hd|]. rewrite N.eqb_refl. exact E.
  - destruct (existsb _ (g_deps g)) eqn:X; [|reflexivity]. apply existsb_exists in X. destruct X as [d' [Hd' X]].
    apply andb_true_iff in X. destruct X as [X K]. apply andb_true_iff in X. destruct X as [I P]. apply N.eqb_eq in I.
    assert (d' = d) by (apply (dep_by_id g Hnd); assumption). subst d'. rewrite P, K in E. discriminate. Qed.

Lemma late_role d r : In d (g_deps g) -> late g (role_act d r) = rlate (d_kind d) (d_post d) r.
Proof. intros Hd. destruct r; cbn [late role_act rlate]; try reflexivity. apply dep_lo_of. exact Hd. Qed.

Lemma edges0_late a b : In (a, b) (edges0 T g) -> late g a = true -> late g b = true.
Proof. intros H L. destruct (edges0_inv _ _ _ _ H) as [[m [-> _]]|[d [r1 [r2 [Hd [_ [Hr [-> ->]]]]]]]]; [discriminate|].
  rewrite (late_role d r1 Hd) in L. rewrite (late_role d r2 Hd). eapply prop_edges_late; eassumption. Qed.

Lemma child_actions_flag d s ca a : In ca (child_actions g cy d s) -> fst ca = Some a -> late g a = snd ca.
Proof. intros H E.
  destruct (child_actions_inv g cy d s ca a H E) as [[c [-> ->]]|[[c [-> ->]]|[_ [[-> ->]|[-> ->]]]]]; reflexivity. Qed.

Lemma srole_late d isdel s ca x a : In d (g_deps g) -> In ca (child_actions g cy d s) ->
  srole_act d isdel s (fst ca) x = Some a -> late g a = slate (d_kind d) (d_post d) (snd ca) x.
Proof. intros Hd Hca E. destruct x; simpl in E; try (destruct isdel; inversion E; reflexivity).
  - simpl. eapply child_actions_flag; eassumption.
  - destruct isdel; inversion E. cbn [late slate]. apply dep_lo_of. exact Hd. Qed.

Lemma state_dep_edges_late d isdel s a b : In d (g_deps g) ->
  In (Some a, Some b) (state_dep_edges T g cy d isdel s) -> late g a = true -> late g b = true.
Proof. intros Hd H L. unfold state_dep_edges in H. destruct (sum_of g (d_id d) s); [contradiction|].
  apply in_flat_map in H. destruct H as [ca [Hca H]]. apply in_map_iff in H. destruct H as [[x y] [E H]]. simpl in E. inversion E.
  rewrite (srole_late d isdel s ca x a Hd Hca) in L by (first [assumption | symmetry; assumption]).
  rewrite (srole_late d isdel s ca y b Hd Hca) by (first [assumption | symmetry; assumption]). eapply state_edges_late; eassumption. Qed.

Lemma expand_edges_late c a b : In (Some a, Some b) (expand_edges T g cy c) -> late g a = true -> late g b = true.
Proof. destruct c; simpl; try contradiction; intros H L; apply in_app_or in H; destruct H as [H|H];
    try (apply in_map_iff in H; destruct H as [s [E _]]; inversion E; subst; discriminate);
    apply in_flat_map in H; destruct H as [d [Hd H]]; apply deps_of_in in Hd; destruct Hd as [Hd _];
    apply in_flat_map in H; destruct H as [s [_ H]]; eapply state_dep_edges_late; eassumption. Qed.

Lemma convert_late a x : In x (convert g a) -> late g x = late g a.
Proof. destruct a; simpl; try contradiction; intros H; apply in_map_iff in H; destruct H as [s [<- _]]; reflexivity. Qed.

(* every dependency of the final set that starts at a late record ends at a late record *)
Theorem final_edges_late a b : In (a, b) (final_edges T g cy) -> late g a = true -> late g b = true.
Proof. unfold final_edges. intros H L. apply in_flat_map in H. destruct H as [[oa ob] [He H]].
  destruct oa as [a0|]; [|contradiction]. destruct ob as [b0|]; [|contradiction].
  assert (Hab : late g a0 = true -> late g b0 = true).
  { unfold all_edges in He. apply in_app_or in He. destruct He as [He|He].
    - apply in_map_iff in He. destruct He as [[x y] [E He]]. inversion E; subst. apply edges0_late, He.
    - apply in_flat_map in He. destruct He as [c [_ He]]. eapply expand_edges_late; exact He. }
  unfold rewrite1 in H. destruct (amemb a0 _ || amemb b0 _ || (incyc cy a0 && incyc cy b0)); [contradiction|].
  destruct (incyc cy a0).
  - apply in_map_iff in H. destruct H as [x [E Hx]]. inversion E; subst. apply Hab. rewrite <- (convert_late _ _ Hx). exact L.
  - destruct (incyc cy b0).
    + apply in_map_iff in H. destruct H as [x [E Hx]]. inversion E; subst. rewrite (convert_late _ _ Hx). apply Hab, L.
    + destruct H as [H|[]]. inversion H; subst. apply Hab, L. Qed.

Inductive freach : action -> action -> Prop :=
| fr1 a b : In (a, b) (final_edges T g cy) -> freach a b
| frS a b c : In (a, b) (final_edges T g cy) -> freach b c -> freach a c.

Theorem late_closed a b : freach a b -> late g a = true -> late g b = true.
Proof. induction 1 as [a b H|a b c H _ IH]; intros L; [eapply final_edges_late; eassumption|].
  apply IH. eapply final_edges_late; eassumption. Qed.

(* an edge from a record that is not late (every save record) to a late one (every delete record) is on no cycle *)
Theorem save_to_delete_edge_on_no_cycle a b : late g a = false -> late g b = true -> ~ freach b a.
Proof. intros La Lb H. pose proof (late_closed _ _ H Lb). congruence. Qed.
End Late.
