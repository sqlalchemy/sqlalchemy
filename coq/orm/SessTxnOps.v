(* C33 - consequences of the invariant for single objects, and the invariant under a change of one object. *)
From Coq Require Import List ZArith Bool Arith Lia.
Import ListNotations.
From SAV.orm Require Import SessTxn SessTxnBase SessTxnInv.
Open Scope nat_scope.

(* ---- what Good and Rel say about single objects *)
(* Rel depends on the frame only through its four collections *)
Lemma Rel_frame_ext : forall g f f' ob n sn sd W,
  fnew f' = fnew f -> fdel f' = fdel f -> fdirty f' = fdirty f -> fks f' = fks f ->
  Rel g f ob n sn sd W -> Rel g f' ob n sn sd W.
Proof.
  intros g f f' ob n sn sd W E1 E2 E3 E4 R. destruct R.
  constructor; unfold expunged, pkey, pdelf in *; rewrite ?E1, ?E2, ?E3, ?E4; auto.
Qed.

(* in a clean state an attached object outside the identity map is in the deleted state *)
Lemma clean_out_deleted : forall g o, GClean g -> o < gn g -> oatt (gobjs g o) = true -> oin (gobjs g o) = false ->
  odelf (gobjs g o) = true.
Proof.
  intros g o [GG _] Ho Ha Hi. destruct (odelf (gobjs g o)) eqn:Ed; auto. exfalso.
  destruct (okey (gobjs g o)) as [k|] eqn:Ek.
  - rewrite (g_pers _ _ _ _ _ GG o k Ho Ek Ha Ed) in Hi. discriminate.
  - assert (In o []); [|auto]. apply (g_new _ _ _ _ _ GG). auto.
Qed.

(* ... and if it was so when the frame began, it is outside the identity map now *)
Lemma Rel_notin : forall g f ob n sn sd W o, GClean g -> Good ob n W sn sd -> Rel g f ob n sn sd W ->
  o < gn g -> oatt (gobjs g o) = true -> oin (gobjs g o) = false -> oin (ob o) = false.
Proof.
  intros g f ob n sn sd W o GC G R Ho Hk Hi.
  destruct (oin (ob o)) eqn:E; auto. exfalso.
  destruct (expunged f sn o) eqn:Ee.
  - pose proof (r_exp _ _ _ _ _ _ _ R o Ho Ee). congruence.
  - destruct (r_id _ _ _ _ _ _ _ R o Ho Ee) as [_ B]. destruct (B Hk) as [_ C].
    destruct (g_in _ _ _ _ _ G o E) as [_ [_ [Hd _]]].
    rewrite (clean_out_deleted g o GC Ho Hk Hi) in C. unfold pdelf in C. destruct (_ || _); congruence.
Qed.

(* no key switch for an object the frame neither created nor flushed *)
Lemma Rel_ks_none : forall g f ob n sn sd W x, Rel g f ob n sn sd W ->
  mem x (fnew f) = false -> mem x (fdirty f) = false -> ks_find x (fks f) = None.
Proof.
  intros g f ob n sn sd W x R A B. destruct (ks_find x (fks f)) as [[old nw]|] eqn:E; auto.
  destruct (r_ks _ _ _ _ _ _ _ R x old nw E) as [_ [_ [_ [X|X]]]]; congruence.
Qed.

(* an object of the snapshot's identity map that the frame did not touch is in the identity map now, same key *)
Lemma Rel_untouched : forall g f ob n sn sd W x k, GClean g -> Good ob n W sn sd -> Rel g f ob n sn sd W ->
  x < gn g -> oin (gobjs g x) = true -> okey (gobjs g x) = Some k ->
  expunged f sn x = false -> mem x (fdirty f) = false -> mem x (fdel f) = false -> mem x sd = false ->
  oin (ob x) = true /\ okey (ob x) = Some k /\ oatt (ob x) = true.
Proof.
  intros g f ob n sn sd W x k [GG _] G R Hx Hi Hk He Hd Hl Hs.
  destruct (g_in _ _ _ _ _ GG x Hi) as [_ [Ha [Hdf _]]].
  destruct (r_id _ _ _ _ _ _ _ R x Hx He) as [A B]. destruct (B Ha) as [B1 B2].
  unfold expunged in He. apply orb_false_elim in He. destruct He as [He _].
  unfold pkey in B1. rewrite (Rel_ks_none _ _ _ _ _ _ _ x R He Hd) in B1.
  unfold pdelf in B2. rewrite Hl, Hs in B2. cbn in B2.
  assert (Hk' : okey (ob x) = Some k) by congruence. assert (Ha' : oatt (ob x) = true) by congruence.
  split; [|auto]. apply (g_pers _ _ _ _ _ G x k); try congruence. pose proof (r_n _ _ _ _ _ _ _ R). lia.
Qed.

(* conversely, an object of the identity map that the frame did not create was in it when the frame began *)
Lemma Rel_in_was_in : forall g f ob n sn sd W x, GClean g -> Good ob n W sn sd -> Rel g f ob n sn sd W ->
  oin (ob x) = true -> expunged f sn x = false -> x < gn g /\ oin (gobjs g x) = true.
Proof.
  intros g f ob n sn sd W x [GG _] G R Hi He.
  destruct (g_in _ _ _ _ _ G x Hi) as [Hn [Ha [Hd Hk]]].
  assert (Hx : x < gn g).
  { destruct (Nat.lt_ge_cases x (gn g)) as [A|A]; auto.
    destruct (r_fresh _ _ _ _ _ _ _ R x A Hn) as [Z|[Z _]]; congruence. }
  split; [exact Hx|].
  destruct (r_id _ _ _ _ _ _ _ R x Hx He) as [A B]. assert (Ha' : oatt (gobjs g x) = true) by congruence.
  destruct (B Ha') as [B1 B2].
  assert (Hd' : odelf (gobjs g x) = false).
  { rewrite <- B2. unfold pdelf. destruct (_ || _); auto. }
  destruct (okey (gobjs g x)) as [k|] eqn:Ek.
  - apply (g_pers _ _ _ _ _ GG x k); auto.
  - exfalso. unfold pkey in B1. destruct (ks_find x (fks f)) as [[o1 n1]|]; [discriminate|]. congruence.
Qed.

(* a pending object is not in the identity map *)
Lemma Good_pending_out : forall ob n W sn sd o, Good ob n W sn sd -> In o sn -> oin (ob o) = false.
Proof.
  intros ob n W sn sd o G H. apply (g_new _ _ _ _ _ G) in H. destruct H as [_ [Hk _]].
  destruct (oin (ob o)) eqn:E; auto. destruct (g_in _ _ _ _ _ G o E) as [_ [_ [_ X]]]. congruence.
Qed.

(* the invariants are extensional in the object function *)
Lemma Good_obj_ext : forall a b n W sn sd, (forall x, a x = b x) -> Good a n W sn sd -> Good b n W sn sd.
Proof.
  intros a b n W sn sd H G. destruct G as [g1 g2 g3 g4 g5 g5' g6 g6' g7 g8]. constructor.
  - intros o. rewrite <- H. apply g1.
  - intros o1 o2 k. rewrite <- !H. apply g2.
  - intros o k. rewrite <- H. apply g3.
  - intros o k. rewrite <- H. apply g4.
  - intros o. rewrite <- H. apply g5.
  - intros o. rewrite <- H. apply g5'.
  - intros o. rewrite <- H. apply g6.
  - exact g6'.
  - intros o k A B C D. rewrite <- H in *. destruct (g7 o k A B C D) as [X|[o' [X Y]]]; auto.
    right. exists o'. rewrite <- H. auto.
  - intros o. rewrite <- H. apply g8.
Qed.
Lemma J_obj_ext : forall a b n, (forall x, a x = b x) -> J a n -> J b n.
Proof. intros a b n H Ja x Hx. rewrite <- H. apply Ja; auto. Qed.
Lemma Rel_obj_ext : forall g f a b n sn sd W, (forall x, a x = b x) -> Rel g f a n sn sd W -> Rel g f b n sn sd W.
Proof.
  intros g f a b n sn sd W H R. destruct R as [r1 r2 r3 r4 r5 r6 r7 r8 r9 r9' r10 r11]. constructor; auto.
  - intros o A B. specialize (r3 o A B). unfold pkey, pdelf in *. rewrite <- H. exact r3.
  - intros o A B. rewrite <- H. apply r4; auto.
  - intros o k v. rewrite <- H. apply r6.
  - intros o old nw. rewrite <- H. apply r7.
  - intros o. rewrite <- H. apply r8.
  - intros o. rewrite <- H. apply r11.
Qed.
Lemma Approx_obj_ext : forall g a b n, (forall x, a x = b x) -> Approx g a n -> Approx g b n.
Proof.
  intros g a b n H A. destruct A as [a1 a2 a3 a4 a5]. constructor; auto.
  - intros o Ho. rewrite <- H. apply a2; auto.
  - intros o H1 H2. rewrite <- H. apply a3; auto.
  - intros o. rewrite <- H. apply a4.
  - intros o. rewrite <- H. apply a5.
Qed.

(* ---- the identity stays, the values change *)
(* same identity: key, attachment, deleted flag, identity-map membership *)
Definition same_id (x y : obj) : Prop :=
  okey x = okey y /\ oatt x = oatt y /\ odelf x = odelf y /\ oin x = oin y.
Lemma same_id_refl : forall x, same_id x x.
Proof. intros; repeat split. Qed.

Lemma updN_same_id : forall ob o x, same_id x (ob o) -> forall y, same_id (updN ob o x y) (ob y).
Proof. intros ob o x H y. unfold updN. destruct (Nat.eqb_spec y o); subst; auto using same_id_refl. Qed.

Lemma Good_upd : forall ob n W sn sd o x, Good ob n W sn sd -> same_id x (ob o) ->
  (oin (ob o) = true -> forall k v, okey (ob o) = Some k -> W k = Some v -> VA x k v) ->
  (okey x <> None -> oatt x = true -> odelf x = true -> odv x <> None /\ odid x <> None) ->
  Good (updN ob o x) n W sn sd.
Proof.
  intros ob n W sn sd o x G I Hva Hdv. pose proof (updN_same_id ob o x I) as U.
  destruct I as [I1 [I2 [I3 I4]]]. constructor.
  - intros y. destruct (U y) as (-> & -> & -> & ->). apply (g_in _ _ _ _ _ G).
  - intros y1 y2 k. destruct (U y1) as (-> & _ & _ & ->), (U y2) as (-> & _ & _ & ->). apply (g_uniq _ _ _ _ _ G).
  - intros y k. destruct (U y) as (-> & -> & -> & ->). apply (g_pers _ _ _ _ _ G).
  - intros y k. destruct (U y) as (-> & _ & _ & ->). intros H K.
    destruct (g_rows _ _ _ _ _ G y k H K) as [v [Hw Hv]]. exists v. split; auto.
    unfold updN. destruct (Nat.eqb_spec y o); subst; auto.
  - intros y. destruct (U y) as (-> & -> & _ & _). apply (g_new _ _ _ _ _ G).
  - intros y. destruct (U y) as (-> & _ & -> & _). apply (g_newd _ _ _ _ _ G).
  - intros y. destruct (U y) as (_ & _ & _ & ->). apply (g_del _ _ _ _ _ G).
  - apply (g_nodup _ _ _ _ _ G).
  - intros y k. destruct (U y) as (-> & -> & -> & _). intros Hn K A D.
    destruct (g_dels _ _ _ _ _ G y k Hn K A D) as [H|[y' H]]; auto.
    right. exists y'. destruct (U y') as (-> & _ & _ & ->). exact H.
  - intros y. unfold updN. destruct (Nat.eqb_spec y o); subst; auto. apply (g_delv _ _ _ _ _ G).
Qed.

Lemma Rel_upd : forall g f ob n sn sd W o x, GClean g -> Good ob n W sn sd -> Rel g f ob n sn sd W ->
  same_id x (ob o) ->
  (oin (ob o) = true \/ omod x = true \/ (odid x = odid (ob o) /\ odv x = odv (ob o) /\ omod x = omod (ob o))) ->
  Rel g f (updN ob o x) n sn sd W.
Proof.
  intros g f ob n sn sd W o x GC G R I Hv. pose proof (updN_same_id ob o x I) as U.
  pose proof (Rel_notin g f ob n sn sd W o GC G R) as Hout.
  destruct R as [r_n0 r_exp0 r_id0 r_fresh0 r_row0 r_delv0 r_ks0 r_del0 r_lists0 r_ksu0 r_dirty0 r_keep0]. constructor; auto.
  - intros y. unfold pkey, pdelf. destruct (U y) as (-> & -> & -> & _). apply r_id0.
  - intros y. destruct (U y) as (_ & -> & _ & ->). apply r_fresh0.
  - intros y k v Ho He Hd Hdi Hm Hk Hw. unfold updN in *. destruct (Nat.eqb_spec y o); [subst y|eauto].
    destruct (r_del0 o Hd) as [_ [Hin _]].
    destruct Hv as [Hv|[Hv|[V1 [V2 V3]]]]; [congruence|congruence|].
    rewrite V1, V2. rewrite V3 in Hm. eauto.
  - intros y old new. destruct (U y) as (-> & -> & _ & _). apply r_ks0.
  - intros y. destruct (U y) as (-> & -> & -> & ->). apply r_del0.
  - intros y Ho Hk Hi Hm. unfold updN in *. destruct (Nat.eqb_spec y o); [subst y|eauto].
    destruct Hv as [Hv|[Hv|[V1 [V2 V3]]]].
    + rewrite Hout in Hv by auto. discriminate.
    + congruence.
    + rewrite V1, V2. rewrite V3 in Hm. eauto.
Qed.

Lemma J_upd : forall ob n o x, J ob n ->
  Jobj x ->
  J (updN ob o x) n.
Proof.
  intros ob n o x Hj Hx o' Ho. unfold updN. destruct (Nat.eqb_spec o' o); subst; auto.
Qed.

(* ---- an object the session does not hold *)
(* [o] is keyless and outside the identity map before and after; the index range and the pending list may grow *)
Lemma Good_keyless : forall ob n W sn sd o x n' sn',
  Good ob n W sn sd -> oin (ob o) = false ->
  okey x = None -> odelf x = false -> oin x = false ->
  n <= n' -> (forall y, y < n' -> y <> o -> y < n) ->
  NoDup sn' -> (forall y, In y sn' <-> y < n' /\ okey (updN ob o x y) = None /\ oatt (updN ob o x y) = true) ->
  Good (updN ob o x) n' W sn' sd.
Proof.
  intros ob n W sn sd o x n' sn' G Ho Xk Xd Xi Hn Hlt Hnd Hsn.
  assert (E : forall y, y = o /\ updN ob o x y = x \/ y <> o /\ updN ob o x y = ob y).
  { intros y. unfold updN. destruct (Nat.eqb_spec y o); auto. }
  destruct G as [g1 g2 g3 g4 g5 g5' g6 g6' g7 g8]. constructor.
  - intros y. destruct (E y) as [[_ ->]|[_ ->]]; [congruence|]. intros H. destruct (g1 y H) as [A B]. split; [lia|exact B].
  - intros y1 y2 k. destruct (E y1) as [[_ ->]|[_ ->]]; [congruence|]. destruct (E y2) as [[_ ->]|[_ ->]]; [congruence|]. apply g2.
  - intros y k Hy. destruct (E y) as [[_ ->]|[Hne ->]]; [congruence|]. apply g3; auto.
  - intros y k. destruct (E y) as [[_ ->]|[_ ->]]; [congruence|]. apply g4.
  - exact Hsn.
  - intros y Hy. destruct (E y) as [[_ ->]|[Hne ->]]; [auto|]. apply g5'; auto.
  - intros y Hy. specialize (g6 y Hy). destruct (E y) as [[-> _]|[_ ->]]; congruence.
  - split; [exact Hnd|apply g6'].
  - intros y k Hy. destruct (E y) as [[_ ->]|[Hne ->]]; [congruence|]. intros K A D.
    destruct (g7 y k) as [H|[y' [H1 H2]]]; auto. right. exists y'.
    destruct (E y') as [[-> _]|[_ ->]]; [congruence|auto].
  - intros y Hy. destruct (E y) as [[_ ->]|[Hne ->]]; [congruence|]. apply g8; auto.
Qed.

(* [o] is unattached, so the frame has no claim on it: it may change in any way that leaves it unattached and
   outside the identity map, or pending *)
Lemma Rel_unknown : forall g f ob n sn sd W o x n' sn',
  Rel g f ob n sn sd W -> (o < n -> oatt (ob o) = false) ->
  n <= n' -> (forall y, y < n' -> y <> o -> y < n) ->
  (forall y, expunged f sn' y = false -> expunged f sn y = false) ->
  (forall y, y <> o -> expunged f sn' y = expunged f sn y) ->
  (expunged f sn' o = false -> oatt x = false /\ oin x = false) ->
  Rel g f (updN ob o x) n' sn' sd W.
Proof.
  intros g f ob n sn sd W o x n' sn' R Ho Hn Hlt He0 He Hx.
  destruct R as [r1 r2 r3 r4 r5 r6 r7 r8 r9 r9' r10 r11].
  assert (Hunatt : o < gn g -> oatt (gobjs g o) = false).
  { intros Hg. destruct (expunged f sn o) eqn:E; [auto|]. destruct (r3 o Hg E) as [A _]. rewrite <- A. apply Ho. lia. }
  assert (U : forall y, y < n -> oatt (ob y) = true -> updN ob o x y = ob y).
  { intros y Hy A. apply updN_other. intros ->. rewrite Ho in A; auto. discriminate. }
  constructor; auto.
  - lia.
  - intros y Hy E. destruct (Nat.eq_dec y o) as [->|Hne]; [auto|]. rewrite He in E by auto. auto.
  - intros y Hy E. destruct (Nat.eq_dec y o) as [->|Hne].
    + rewrite updN_same, (Hunatt Hy). split; [apply Hx; auto|discriminate].
    + unfold pkey, pdelf. rewrite updN_other by auto. apply r3; auto.
  - intros y H1 H2. destruct (Nat.eq_dec y o) as [->|Hne].
    + rewrite updN_same. destruct (expunged f sn' o); auto.
    + rewrite He, updN_other by auto. auto.
  - intros y k Hy E. apply r5; auto.
  - intros y k v Hy E Hd. destruct (r8 y Hd) as [A [_ [_ [D _]]]]. rewrite U by auto. apply r6; auto.
  - intros y old nw H. destruct (r7 y old nw H) as [A [B [C D]]]. rewrite U by auto. repeat split; auto. lia.
  - intros y H. destruct (r8 y H) as [A [B [C [D F]]]]. rewrite U by auto. repeat split; auto. lia.
  - intros y H. specialize (r9 y H). lia.
  - intros y Hy A. destruct (Nat.eq_dec y o) as [->|Hne]; [rewrite Hunatt in A; auto; discriminate|].
    rewrite updN_other by auto. auto.
Qed.
