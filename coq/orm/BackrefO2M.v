(* C37 - one-to-many / many-to-one.  Closed forms of the listener chains, the laws
   BackrefColl.v asks of them, and the scalar side.  Every operation moves one child: the invariant
   is re-established by [o2m_move]. *)
From Coq Require Import List NArith Bool.
Import ListNotations.
From SAV.orm Require Import Backref BackrefSpec BackrefBase BackrefColl.
Open Scope N_scope.

Lemma sb_set_A : forall s o c o', sb (set_cell s SA o c) o' = sb s o'.
Proof. reflexivity. Qed.
Lemma sb_set_B : forall s o c o', sb (set_cell s SB o c) o' = if o' =? o then c else sb s o'.
Proof. reflexivity. Qed.

(* a state that differs from an invariant one in the parent of one child c, consistently on both
   sides, satisfies the invariant *)
Lemma o2m_move : forall s s' c cv, inv_o2m s -> c <> 0 -> cv <> CUnl ->
  (forall c', sb s' c' = if c' =? c then cv else sb s c') ->
  (forall p x, In x (coll_of s' SA p) <->
               if x =? c then p <> 0 /\ cv = CVal p else In x (coll_of s SA p)) ->
  nodup_side s' SA -> inv_o2m s'.
Proof.
  intros s s' c cv I C L B A N. constructor.
  - intros p x. rewrite A, B. destruct (x =? c); [tauto|apply (o2m_agree s I)].
  - exact N.
  - intros p H. apply A in H. destruct (N.eqb_spec 0 c) as [E|_]; [congruence|exact (o2m_nonzero s I p H)].
  - intros c'. cbn [cells]. rewrite B. destruct (c' =? c); [exact L|apply (o2m_loaded s I)].
Qed.

Lemma inv_o2m_respects : forall s1 s2, inv_o2m s1 ->
  (forall c, cells s2 SB c = cells s1 SB c) ->
  (forall p x, In x (coll_of s2 SA p) <-> In x (coll_of s1 SA p)) ->
  nodup_side s2 SA -> inv_o2m s2.
Proof.
  intros s1 s2 I B A N. constructor.
  - intros p c. rewrite A. change (sb s2 c) with (cells s2 SB c). rewrite B. apply (o2m_agree s1 I).
  - exact N.
  - intros p H. apply A in H. exact (o2m_nonzero s1 I p H).
  - intros c. rewrite B. apply (o2m_loaded s1 I).
Qed.
Lemma inv_o2m_ext : forall s1 s2, same_cells s1 s2 -> inv_o2m s1 -> inv_o2m s2.
Proof. exact (inv_ext SA inv_o2m o2m_nodup inv_o2m_respects). Qed.

(* the state after detaching child c from the collection of parent p0 *)
Definition detach (s : st) (p0 c : N) : st :=
  if memb c (coll_of s SA p0) then set_cell s SA p0 (CList (remove1 c (coll_of s SA p0))) else s.

Lemma detach_coll : forall s p0 c p', NoDup (coll_of s SA p0) ->
  forall x, In x (coll_of (detach s p0 c) SA p') <->
            In x (coll_of s SA p') /\ ~ (p' = p0 /\ x = c).
Proof.
  intros s p0 c p' N x. unfold detach. destruct (memb c (coll_of s SA p0)) eqn:M.
  - destruct (N.eq_dec p' p0) as [->|NE].
    + simp_cells. rewrite remove1_In by exact N. intuition congruence.
    + simp_cells. intuition congruence.
  - apply memb_false in M. split; [intros I; split; [exact I|]|tauto].
    intros [-> ->]. contradiction.
Qed.
Lemma detach_sb : forall s p0 c, sb (detach s p0 c) = sb s.
Proof. intros. unfold detach. destruct (memb c (coll_of s SA p0)); reflexivity. Qed.
Lemma detach_nodup : forall s p0 c, nodup_side s SA -> nodup_side (detach s p0 c) SA.
Proof.
  intros s p0 c N p'. unfold detach. destruct (memb c (coll_of s SA p0)); [|apply N].
  destruct (N.eq_dec p' p0) as [->|NE]; simp_cells; [apply remove1_NoDup|]; apply N.
Qed.
Lemma detach_persistent : forall s p0 c, persistent (detach s p0 c) = persistent s.
Proof. intros. unfold detach. destruct (memb c (coll_of s SA p0)); simp_cells; reflexivity. Qed.

Definition old_parent (s : st) (c : N) : option N := real_obj (scalar_old s SB c).

Lemma old_parent_Some : forall s c p, old_parent s c = Some p <-> p <> 0 /\ sb s c = CVal p.
Proof.
  intros s c p. unfold old_parent, scalar_old. cbn [cells].
  destruct (sb s c) as [| |[|v]|]; cbn; (split; [intros H|intros [P H]]); try discriminate H.
  - injection H as H. congruence.
  - injection H as <-. split; [discriminate|reflexivity].
  - injection H as <-. reflexivity.
Qed.
Lemma oldv_is_sb : forall s c p, oldv_is (scalar_old s SB c) p = true <-> sb s c = CVal p.
Proof.
  intros s c p. unfold scalar_old. cbn [cells]. destruct (sb s c); cbn; try (split; discriminate).
  rewrite N.eqb_eq. split; congruence.
Qed.

(* what the pop on the old parent's collection comes to (nothing when the old value is None, was never
   set, or is not loaded) *)
Definition leave_parent (s : st) (c : N) : st :=
  match old_parent s c with Some p0 => detach s p0 c | None => s end.

Lemma leave_parent_sb : forall s c, sb (leave_parent s c) = sb s.
Proof. intros. unfold leave_parent. destruct (old_parent s c); [apply detach_sb|reflexivity]. Qed.
Lemma leave_parent_nodup : forall s c, nodup_side s SA -> nodup_side (leave_parent s c) SA.
Proof. intros s c N. unfold leave_parent. destruct (old_parent s c); [apply detach_nodup|]; exact N. Qed.
(* under the invariant that is the one collection that holds the child *)
Lemma leave_parent_coll : forall s c, inv_o2m s ->
  forall p x, In x (coll_of (leave_parent s c) SA p) <-> In x (coll_of s SA p) /\ x <> c.
Proof.
  intros s c I p x. unfold leave_parent. destruct (old_parent s c) as [p0|] eqn:R.
  - apply old_parent_Some in R. destruct R as [_ R]. rewrite detach_coll by apply (o2m_nodup s I).
    split; intros [H K]; (split; [exact H|]); [intros ->|tauto].
    apply (o2m_agree s I) in H. apply K. split; [|reflexivity]. destruct H as [_ H]. congruence.
  - split; [intros H; split; [exact H|]|tauto]. intros ->.
    apply (o2m_agree s I), old_parent_Some in H. congruence.
Qed.
Lemma leave_parent_own : forall s c p, sb s c <> CVal p -> coll_of (leave_parent s c) SA p = coll_of s SA p.
Proof.
  intros s c p F. unfold leave_parent. destruct (old_parent s c) as [p0|] eqn:R; [|reflexivity].
  apply old_parent_Some in R. unfold detach. destruct (memb c (coll_of s SA p0)); [|reflexivity].
  apply coll_set_other_obj. intros ->. tauto.
Qed.

(* append: the child's parent attribute is set, through its own listener *)
Definition attach_child (s : st) (p c : N) : st :=
  set_cell (if oldv_is (scalar_old s SB c) p then s else leave_parent s c) SB c (CVal p).

Lemma fire_append_o2m : forall n s p c init, c <> 0 ->
  init = (SA, TAppend) \/ init = (SA, TBulk) ->
  exec O2M (S (S (S (S (S (S (S (S (S n))))))))) (KAppendEvent SA p c init) s = Ok (attach_child s p c).
Proof.
  intros n s p c init C I. pose proof (real_obj_ov c C) as RC. apply N.eqb_neq in C.
  destruct I as [-> | ->]; ev; rewrite C; ev; unfold attach_child, leave_parent, old_parent, detach;
    destruct (oldv_is (scalar_old s SB c) p); try reflexivity;
    destruct (real_obj (scalar_old s SB c)) as [p0|]; ev; try (destruct (p =? 0); reflexivity);
    rewrite RC; ev; destruct (memb c (coll_of s SA p0)); ev; destruct (p =? 0); reflexivity.
Qed.

Lemma attach_child_fresh : forall s p c, sb s c <> CVal p ->
  attach_child s p c = set_cell (leave_parent s c) SB c (CVal p).
Proof.
  intros s p c F. unfold attach_child. destruct (oldv_is (scalar_old s SB c) p) eqn:O; [|reflexivity].
  apply oldv_is_sb in O. contradiction.
Qed.
Lemma attach_child_own : forall s p c, coll_of (attach_child s p c) SA p = coll_of s SA p.
Proof.
  intros s p c. unfold attach_child. rewrite coll_set_other_side by discriminate.
  destruct (oldv_is (scalar_old s SB c) p) eqn:O; [reflexivity|].
  apply leave_parent_own. rewrite <- oldv_is_sb, O. discriminate.
Qed.

Lemma attach_child_inv : forall s p c, inv_o2m s -> p <> 0 -> c <> 0 -> ~ In c (coll_of s SA p) ->
  inv_o2m (set_cell (attach_child s p c) SA p (CList (coll_of s SA p ++ [c]))).
Proof.
  intros s p c I P C NI.
  assert (F : sb s c <> CVal p) by (intros H; apply NI, (o2m_agree s I); auto).
  apply (o2m_move s _ c (CVal p) I C); [discriminate| | |].
  - intros c'. rewrite (attach_child_fresh s p c F), sb_set_A, sb_set_B, leave_parent_sb. reflexivity.
  - intros p' x. rewrite (attach_child_fresh s p c F). destruct (N.eq_dec p' p) as [->|NE]; simp_cells.
    + rewrite In_snoc. destruct (N.eqb_spec x c); intuition congruence.
    + rewrite (leave_parent_coll s c I). destruct (N.eqb_spec x c); [|tauto].
      split; [tauto|]. intros [_ H]. congruence.
  - intros p'. rewrite (attach_child_fresh s p c F). destruct (N.eq_dec p' p) as [->|NE]; simp_cells.
    + apply NoDup_snoc; [apply (o2m_nodup s I)|exact NI].
    + apply leave_parent_nodup, (o2m_nodup s I).
Qed.

(* the child's listener does not read the collection the append started from: its old parent is
   another one *)
Lemma attach_child_commute : forall s p c l, inv_o2m (set_cell s SA p (CList l)) -> p <> 0 -> ~ In c l ->
  same_cells (attach_child (set_cell s SA p (CList l)) p c) (set_cell (attach_child s p c) SA p (CList l)).
Proof.
  intros s p c l I P NI.
  assert (F : sb s c <> CVal p).
  { intros H. apply NI. rewrite <- (coll_set_same s SA p l). apply (o2m_agree _ I). auto. }
  rewrite !attach_child_fresh by exact F.
  eapply same_cells_trans; [|apply set_cell_comm; left; discriminate]. apply same_cells_set.
  unfold leave_parent. change (old_parent (set_cell s SA p (CList l)) c) with (old_parent s c).
  destruct (old_parent s c) as [p0|] eqn:R; [|intros sd o; reflexivity].
  apply old_parent_Some in R. assert (NE : p0 <> p) by (intros ->; tauto).
  unfold detach. rewrite coll_set_other_obj by exact NE.
  destruct (memb c (coll_of s SA p0)); [apply set_cell_comm; right; congruence|intros sd o; reflexivity].
Qed.

(* removal: the child loses its parent when it was this parent *)
Definition unparent (s : st) (p c : N) : st :=
  match sb s c with
  | CVal v => if v =? p then set_cell s SB c (CVal 0) else s
  | _ => s
  end.

Lemma fire_remove_o2m : forall n s p c init, c <> 0 -> p <> 0 ->
  has_dupes (coll_of s SA p) c = false -> sb s c <> CUnl ->
  init = (SA, TRemove) \/ init = (SA, TBulk) /\ ~ In c (coll_of s SA p) ->
  exec O2M (S (S (S (S (S (S (S (S (S n))))))))) (KRemoveEvent SA p (OV c) init) s = Ok (unparent s p c).
Proof.
  intros n s p c init C P D L T. pose proof (real_obj_ov c C) as RC. pose proof (real_obj_ov p P) as RP.
  apply N.eqb_neq in P.
  destruct T as [-> | [-> T]]; [|apply memb_false in T]; ev; rewrite RC; ev; rewrite D; ev;
    unfold unparent, scalar_old; cbn [cells];
    (destruct (sb s c) as [| |v|l] eqn:Q; try reflexivity; [congruence|]);
    cbn [oldv_is]; rewrite N.eqb_sym; (destruct (N.eqb_spec v p) as [->|E]; cbn [negb]; [|reflexivity]);
    ev; cbn [oldv_is]; rewrite N.eqb_sym, P, RP; ev; [reflexivity|].
  (* the bulk token lets the child's listener try the parent's collection again: the child has left it *)
  rewrite RC. ev. rewrite T. ev. reflexivity.
Qed.

Lemma unparent_coll : forall s p c p', coll_of (unparent s p c) SA p' = coll_of s SA p'.
Proof.
  intros. unfold unparent. destruct (sb s c) as [| |w|]; try reflexivity.
  destruct (w =? p); [apply coll_set_other_side; discriminate|reflexivity].
Qed.
Lemma unparent_noop : forall s p c, inv_o2m s -> ~ In c (coll_of s SA p) -> p <> 0 -> unparent s p c = s.
Proof.
  intros s p c I NI P. unfold unparent. destruct (sb s c) as [| |v|] eqn:Q; try reflexivity.
  destruct (v =? p) eqn:E; [|reflexivity]. apply N.eqb_eq in E. subst. exfalso. apply NI.
  apply (o2m_agree s I). auto.
Qed.

Lemma unparent_inv : forall s p c, inv_o2m s -> p <> 0 -> In c (coll_of s SA p) ->
  inv_o2m (set_cell (unparent s p c) SA p (CList (remove1 c (coll_of s SA p)))).
Proof.
  intros s p c I P IN. pose proof (o2m_nodup s I p) as ND.
  assert (C : c <> 0) by (intros ->; exact (o2m_nonzero s I p IN)).
  assert (SBC : sb s c = CVal p) by (apply (o2m_agree s I p c); exact IN).
  unfold unparent. rewrite SBC, N.eqb_refl.
  apply (o2m_move s _ c (CVal 0) I C); [discriminate|reflexivity| |].
  - intros p' x. destruct (N.eq_dec p' p) as [->|NE]; simp_cells.
    + rewrite remove1_In by exact ND. destruct (N.eqb_spec x c); [|tauto].
      split; [tauto|]. intros [_ H]. congruence.
    + destruct (N.eqb_spec x c) as [->|E]; [|tauto]. split; [|intros [Z H]; congruence].
      intros H. apply (o2m_agree s I) in H. destruct H as [_ H]. congruence.
  - intros p'. destruct (N.eq_dec p' p) as [->|NE]; simp_cells; [apply remove1_NoDup; exact ND|apply (o2m_nodup s I)].
Qed.

Lemma unparent_commute : forall s p c l,
  same_cells (unparent (set_cell s SA p (CList l)) p c) (set_cell (unparent s p c) SA p (CList l)).
Proof.
  intros s p c l. unfold unparent. rewrite sb_set_A.
  destruct (sb s c) as [| |v|]; try (intros sd o; reflexivity).
  destruct (v =? p); [apply set_cell_comm; left; discriminate|intros sd o; reflexivity].
Qed.

Theorem o2m_coll_guarded : forall s p, inv_o2m s -> guard_coll_prim s SA p = true ->
  lands inv_o2m (step_prim O2M p s).
Proof.
  apply (coll_prim_guarded O2M SA inv_o2m attach_child unparent eq_refl o2m_nodup o2m_nonzero
           inv_o2m_respects fire_append_o2m).
  - intros n s p c l init I P C ND T. apply fire_remove_o2m; auto.
    + apply has_dupes_NoDup. exact ND.
    + apply (o2m_loaded _ I).
  - apply attach_child_own.
  - intros. apply unparent_coll.
  - apply attach_child_inv.
  - apply unparent_inv.
  - apply attach_child_commute.
  - apply unparent_commute.
Qed.

(* the child is left without a parent: the attribute is None or deleted *)
Lemma orphan_inv : forall s c cv, inv_o2m s -> c <> 0 -> cv <> CUnl -> (forall p, p <> 0 -> cv <> CVal p) ->
  inv_o2m (set_cell (leave_parent s c) SB c cv).
Proof.
  intros s c cv I C L Z. apply (o2m_move s _ c cv I C L).
  - intros c'. rewrite sb_set_B, leave_parent_sb. reflexivity.
  - intros p x. simp_cells. rewrite (leave_parent_coll s c I). destruct (N.eqb_spec x c); [|tauto].
    split; [tauto|]. intros [P H]. exfalso. exact (Z p P H).
  - intros p. simp_cells. apply leave_parent_nodup, (o2m_nodup s I).
Qed.

Definition set_parent (s : st) (c v : N) : st :=
  if oldv_is (scalar_old s SB c) v then set_cell s SB c (CVal v) else
  let s1 := leave_parent s c in
  let s2 := if v =? 0 then s1 else set_cell s1 SA v (CList (coll_of s1 SA v ++ [c])) in
  set_cell s2 SB c (CVal v).

Lemma set_parent_closed : forall s c v, c <> 0 ->
  step_prim O2M (PSet SB c v) s = Ok (set_parent s c v).
Proof.
  intros s c v C. pose proof (real_obj_ov c C) as RC. assert (C0 : (c =? 0) = false) by (apply N.eqb_neq; exact C).
  unfold step_prim, run_call, FUEL, set_parent, leave_parent, old_parent, detach. ev.
  destruct (oldv_is (scalar_old s SB c) v); [reflexivity|].
  destruct (real_obj (scalar_old s SB c)) as [p0|]; ev.
  - rewrite RC. ev. destruct (memb c (coll_of s SA p0)); ev; destruct (v =? 0); ev; try reflexivity;
      rewrite C0; ev; reflexivity.
  - destruct (v =? 0); ev; try reflexivity. rewrite C0. ev. reflexivity.
Qed.

Lemma o2m_set_parent : forall s c v, inv_o2m s -> c <> 0 -> lands inv_o2m (step_prim O2M (PSet SB c v) s).
Proof.
  intros s c v I C. rewrite (set_parent_closed s c v C). cbn [lands]. unfold set_parent.
  destruct (oldv_is (scalar_old s SB c) v) eqn:O.
  - (* the value it has already *)
    apply oldv_is_sb in O. eapply inv_o2m_ext; [|exact I]. intros [] o; [reflexivity|].
    cbn [cells]. rewrite sb_set_B. destruct (N.eqb_spec o c); congruence.
  - destruct (N.eqb_spec v 0) as [->|V].
    + apply orphan_inv; auto; [discriminate|congruence].
    + (* the same state as after  v.children.append(c) *)
      assert (F : sb s c <> CVal v) by (rewrite <- oldv_is_sb, O; discriminate).
      assert (NI : ~ In c (coll_of s SA v)) by (intros H; apply F, (o2m_agree s I); exact H).
      eapply inv_o2m_ext; [|apply (attach_child_inv s v c I V C NI)].
      rewrite (attach_child_fresh s v c F), (leave_parent_own s c v F).
      apply set_cell_comm. left. discriminate.
Qed.

(* del child.parent: AttributeError when there was nothing to delete on a pending object *)
Lemma del_parent_closed : forall s c, c <> 0 -> exists e : bool,
  step_prim O2M (PDel SB c) s =
  (if e then Err AttributeError else Ok) (set_cell (leave_parent s c) SB c CAbsent).
Proof.
  intros s c C. pose proof (real_obj_ov c C) as RC.
  unfold step_prim, run_call, FUEL, leave_parent, old_parent, detach. ev.
  destruct (real_obj (scalar_old s SB c)) as [p0|] eqn:R; ev.
  - rewrite RC. ev. exists false.
    destruct (proj1 (old_parent_Some s c p0) R) as [_ Q]. destruct (memb c (coll_of s SA p0)); ev; cbn [cells]; simp_cells;
      unfold set_cell at 1; cbn [sb]; rewrite Q; reflexivity.
  - unfold scalar_old. cbn [cells]. destruct (sb s c) eqn:Q; try (exists false; reflexivity).
    destruct (persistent s); [exists false|exists true]; reflexivity.
Qed.
Lemma o2m_del_parent : forall s c, inv_o2m s -> c <> 0 -> lands inv_o2m (step_prim O2M (PDel SB c) s).
Proof.
  intros s c I C. destruct (del_parent_closed s c C) as [[] E]; rewrite E; cbn [lands];
    apply orphan_inv; auto; discriminate.
Qed.

Theorem o2m_prim_guarded : forall s p, inv_o2m s -> guard_o2m s p = true ->
  lands inv_o2m (step_prim O2M p s).
Proof.
  intros s p I G. destruct p as [| | | | | | |[] c v|[] c|]; try (apply o2m_coll_guarded; assumption);
    try discriminate G; cbn [guard_o2m] in G; apply negb_true_iff, N.eqb_neq in G.
  - apply o2m_set_parent; assumption.
  - apply o2m_del_parent; assumption.
Qed.
