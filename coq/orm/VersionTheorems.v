(* C44, for every state that satisfies Inv and a dialect with sane rowcounts:
   clause 1 - a flush or commit from a stale loaded version fails and discards the session's whole transaction;
   clause 2 - committed versions never go backwards, no row is re-created, equal versions mean equal content;
   clause 3 - every UPDATE / DELETE of a successful flush hit exactly the row (content and version) the session had loaded *)
From Coq Require Import List ZArith NArith Bool Arith.
Import ListNotations.
From SAV.orm Require Import Version VersionBase VersionInv VersionStep.
Open Scope Z_scope.

(* session i is about to write row k from a loaded version that is not the current one *)
Definition stale_upd (s : state) (i : nat) : Prop :=
  exists k e, In (k, e) (sents (sget i (sss s))) /\ is_upd e = true /\ matches (cur_rows (sdb s) i) k (ev e) = false.
Definition stale_del (s : state) (i : nat) : Prop :=
  exists k e, In (k, e) (sents (sget i (sss s))) /\ edel e = true /\ matches (cur_rows (sdb s) i) k (ev e) = false.
Definition n_dels (s : state) (i : nat) : nat := length (dels (sents (sget i (sss s)))).
Definition is_flush (o : op) : Prop := o = Flush \/ o = Commit.
(* rows in which the effect of a successful flush / commit of session i is visible *)
Definition after_rows (o : op) (s' : state) (i : nat) : rows :=
  match o with Commit => com (sdb s') | _ => cur_rows (sdb s') i end.

(* the DELETE rowcount is verified when the dialect reports it for executemany or a single object is deleted *)
Lemma del_check_guard : forall sane_multi n, (sane_multi = true \/ n = 1%nat) -> del_check true sane_multi n = true.
Proof.
  intros sm n [-> | ->]; unfold del_check; [reflexivity|]. cbn. apply orb_true_r.
Qed.

Section SaneRowcount.
Variables (server sane_multi : bool) (eoc : nat -> bool) (g : Z -> Z).
Notation stepT := (step server true sane_multi eoc g).
Notation flushT := (flush server true sane_multi g).
Notation del_checkT := (del_check true sane_multi).

Lemma step_flush : forall i o s, is_flush o -> snd (flushT i s) <> ROk -> stepT i o s = flushT i s.
Proof.
  intros i o s [-> | ->] H; cbn [step]; [reflexivity|]. destruct (flushT i s) as [s1 r]. cbn [snd] in H.
  destruct r; try reflexivity. contradiction.
Qed.

(* a flush succeeds only if every UPDATE and every counted DELETE matched; its writes are then in the session's
   write transaction *)
Lemma flush_ok_matched : forall i s es w s' r k e, flush_out server sane_multi g i s es w s' r -> r = ROk ->
  In (k, e) es -> is_upd e = true \/ (edel e = true /\ del_checkT (length (dels es)) = true) ->
  matches w k (ev e) = true /\ cur_rows (sdb s') i = flush_rows g w es.
Proof.
  intros i s es w s' r k e HF Hr Hin Hk.
  destruct HF as [Hu Hd|B|B Hst|dirty dirty' B Eu Ed Hdirty]; try discriminate Hr.
  - exfalso. apply (@in_nil _ (k, e)). destruct Hk as [Hk|[Hk _]]; [rewrite <- Hu|rewrite <- Hd]; apply filter_In; split; assumption.
  - split; [|unfold flush_done, cur_rows, writer_is; cbn [sdb wr]; rewrite Nat.eqb_refl; reflexivity].
    destruct Hk as [Hk|[Hk Dc]]; [apply (mcount_full _ _ Eu)|destruct Ed as [Ed|Ed]; [congruence|apply (mcount_full _ _ Ed)]];
      apply filter_In; split; assumption.
Qed.

(* clause 1 *)
Theorem stale_flush_fails : forall i o s, Inv s -> is_flush o ->
  stale_upd s i \/ (stale_del s i /\ del_checkT (n_dels s i) = true) ->
  (snd (stepT i o s) = RStale \/ snd (stepT i o s) = RBusy) /\
  (begin_write (sdb s) i (snap (sget i (sss s))) <> None -> snd (stepT i o s) = RStale) /\
  fst (stepT i o s) = rolled_back s i.
Proof.
  intros i o s HI Ho Hst. pose proof (flush_outcome server sane_multi g i s (proj1 (proj2 HI i))) as HF.
  assert (N : snd (flushT i s) <> ROk).
  { intros Hr. pose proof (fun k e Hin Hk => proj1 (flush_ok_matched _ _ _ _ _ _ k e HF Hr Hin Hk)) as M.
    destruct Hst as [[k [e [Hin [Hk M']]]]|[[k [e [Hin [Hk M']]]] Dc]]; rewrite M in M' by auto; discriminate. }
  rewrite (step_flush i o s Ho N). destruct (flushT i s) as [s1 r]. cbn [fst snd] in *.
  destruct HF as [| B | B _ |]; try (exfalso; apply N; reflexivity).
  - split; [right; reflexivity|]. split; [intros X; contradiction|reflexivity].
  - split; [left; reflexivity|]. split; reflexivity.
Qed.

Hypothesis Hg : forall v, v < g v.

(* clause 2, between any two points of a history *)
Lemma step_com_le : forall i o s, Inv s -> rows_le (com (sdb s)) (com (sdb (fst (stepT i o s)))).
Proof.
  intros i o s HI. pose proof (flush_frame server sane_multi g true i s) as [E _].
  destruct o as [k|k c p|k| | |]; cbn [step].
  1-3: pose proof (proj1 (load_frame i k s)) as El; destruct (load i k s) as [s1 [e|]]; cbn [fst sdb] in *;
       rewrite El; apply rows_le_refl.
  - rewrite E. apply rows_le_refl.
  - pose proof (flush_inv server sane_multi g Hg i s HI) as H1. destruct (flushT i s) as [s1 r]. cbn [fst] in *.
    destruct r; cbn [fst sdb]; try (rewrite E; apply rows_le_refl). rewrite <- E. apply end_com_le, H1.
  - destruct (stx (sget i (sss s))); cbn [fst]; [rewrite (proj1 (rolled_back_facts s i))|]; apply rows_le_refl.
Qed.

Theorem versions_monotone : forall l s, Inv s -> rows_le (com (sdb s)) (com (sdb (run server true sane_multi eoc g l s))).
Proof.
  induction l as [|[i o] t IH]; intros s HI; cbn [run]; [apply rows_le_refl|].
  eapply rows_le_trans; [apply step_com_le, HI|]. apply IH. apply (step_inv server sane_multi eoc g Hg), HI.
Qed.

(* clause 3, and clause 2 for the single step: the UPDATE leaves version g(loaded) > loaded *)
Lemma flush_ok_rows : forall i s k e, Inv s -> snd (flushT i s) = ROk -> In (k, e) (sents (sget i (sss s))) ->
  is_upd e = true \/ (edel e = true /\ del_checkT (n_dels s i) = true) ->
  lookup k (cur_rows (sdb s) i) = Some {| rx := ex e; rv := ev e |} /\
  lookup k (cur_rows (sdb (fst (flushT i s))) i) =
    if edel e then None else if is_upd e then Some {| rx := pend_of e; rv := g (ev e) |} else lookup k (cur_rows (sdb s) i).
Proof.
  intros i s k e HI Hr Hin Hk. pose proof (proj2 HI i) as [S1 [S2 _]].
  destruct (flush_ok_matched _ _ _ _ _ _ k e (flush_outcome server sane_multi g i s S1) Hr Hin Hk) as [M ->].
  split; [apply (matches_loaded _ _ _ _ S2 Hin M)|].
  rewrite (flush_rows_lookup g _ _ k e (sorted_distinct _ S1) Hin), M. reflexivity.
Qed.

(* a successful commit is a successful flush whose rows become the committed rows *)
Lemma step_flush_ok : forall i o s, Inv s -> is_flush o -> snd (stepT i o s) = ROk ->
  snd (flushT i s) = ROk /\ after_rows o (fst (stepT i o s)) i = cur_rows (sdb (fst (flushT i s))) i.
Proof.
  intros i o s HI [-> | ->]; cbn [step after_rows]; [intros Hr; split; [exact Hr|reflexivity]|].
  pose proof (flush_inv server sane_multi g Hg i s HI) as H1. destruct (flushT i s) as [s1 r]. cbn [fst snd] in *.
  destruct r; try discriminate. intros _. split; [reflexivity|]. apply end_commit_com, H1.
Qed.

Theorem no_lost_update : forall i o s, Inv s -> is_flush o -> snd (stepT i o s) = ROk ->
  forall k e, In (k, e) (sents (sget i (sss s))) ->
  (is_upd e = true ->
     lookup k (cur_rows (sdb s) i) = Some {| rx := ex e; rv := ev e |} /\
     lookup k (after_rows o (fst (stepT i o s)) i) = Some {| rx := pend_of e; rv := g (ev e) |} /\ ev e < g (ev e)) /\
  (edel e = true -> del_checkT (n_dels s i) = true ->
     lookup k (cur_rows (sdb s) i) = Some {| rx := ex e; rv := ev e |} /\
     lookup k (after_rows o (fst (stepT i o s)) i) = None).
Proof.
  intros i o s HI Ho Hr k e Hin. destruct (step_flush_ok i o s HI Ho Hr) as [Hok ->].
  pose proof (flush_ok_rows i s k e HI Hok Hin) as HX. split.
  - intros Hup. destruct (HX (or_introl Hup)) as [A B]. split; [exact A|]. split; [|apply Hg].
    rewrite B, Hup. unfold is_upd in Hup. destruct (edel e); [discriminate|reflexivity].
  - intros Hde Dc. destruct (HX (or_intror (conj Hde Dc))) as [A B]. split; [exact A|]. rewrite B, Hde. reflexivity.
Qed.

(* in every state and for every dialect *)
Theorem step_other_sessions : forall sane_rc i o s j, j <> i ->
  sget j (sss (fst (step server sane_rc sane_multi eoc g i o s))) = sget j (sss s).
Proof.
  intros sane_rc i o s j N. pose proof (proj2 (proj2 (flush_frame server sane_multi g sane_rc i s)) j N) as HFl.
  destruct o as [k|k c p|k| | |]; cbn [step].
  1-3: pose proof (proj2 (load_frame i k s) j N) as E; destruct (load i k s) as [s1 [e|]]; cbn [fst sss] in *;
       rewrite ?sget_sput_other by exact N; exact E.
  - exact HFl.
  - destruct (flush _ _ _ _ i s) as [s1 r]. cbn [fst] in *. destruct r; cbn [fst sss]; rewrite ?sget_sput_other by exact N; exact HFl.
  - destruct (stx (sget i (sss s))); cbn [fst]; [|reflexivity]. apply (rolled_back_facts s i), N.
Qed.
End SaneRowcount.
