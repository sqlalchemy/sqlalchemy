(* C53 - lemmas about the reference tables (one shard), the replay of statements, and small list utilities *)
From Coq Require Import List ZArith NArith Bool Lia Permutation.
Import ListNotations.
From SAV.orm Require Import Shard.
Open Scope Z_scope.

Definition pks (t : table) : list Z := map r_pk t.

Lemma upd_same : forall d s t, upd d s t s = t.
Proof. intros. unfold upd. now rewrite N.eqb_refl. Qed.
Lemma upd_other : forall d s t s', s' <> s -> upd d s t s' = d s'.
Proof. intros. unfold upd. destruct (N.eqb_spec s' s); congruence. Qed.

Lemma apply_writes_app : forall a b d d1, apply_writes a d = Ok d1 -> apply_writes (a ++ b) d = apply_writes b d1.
Proof.
  induction a as [|w a IH]; simpl; intros b d d1 H.
  - inversion H. reflexivity.
  - destruct (apply_write d w); [|discriminate]. eauto.
Qed.

Lemma has_pk_true : forall k t, has_pk k t = true <-> In k (pks t).
Proof.
  intros k t. unfold has_pk, pks. rewrite existsb_exists, in_map_iff. split.
  - intros [r [Hi He]]. apply Z.eqb_eq in He. eauto.
  - intros [r [He Hi]]. exists r. split; auto. now apply Z.eqb_eq.
Qed.
Lemma has_pk_false : forall k t, has_pk k t = false <-> ~ In k (pks t).
Proof.
  intros. rewrite <- has_pk_true. destruct (has_pk k t); intuition congruence.
Qed.

Lemma same_pk_same_row : forall (t : table) a b,
  NoDup (pks t) -> In a t -> In b t -> r_pk a = r_pk b -> a = b.
Proof.
  induction t as [|x t IH]; simpl; intros a b Hn Ha Hb He; [tauto|].
  inversion Hn as [|? ? Hx Hn']; subst.
  destruct Ha as [Ha|Ha], Hb as [Hb|Hb]; subst; auto.
  - exfalso. apply Hx. rewrite He. now apply in_map.
  - exfalso. apply Hx. rewrite <- He. now apply in_map.
Qed.

Lemma sql_insert_spec : forall r t t', sql_insert r t = Some t' ->
  t' = t ++ [r] /\ ~ In (r_pk r) (pks t).
Proof.
  unfold sql_insert. intros r t t' H. destruct (has_pk (r_pk r) t) eqn:E; [discriminate|].
  inversion H. split; auto. now apply has_pk_false.
Qed.
Lemma pks_app : forall a b, pks (a ++ b) = pks a ++ pks b.
Proof. intros. unfold pks. now rewrite map_app. Qed.
Lemma NoDup_snoc : forall {A} (l : list A) x, NoDup l -> ~ In x l -> NoDup (l ++ [x]).
Proof. intros A l x Hn Hx. eapply Permutation_NoDup; [apply Permutation_cons_append|]. now constructor. Qed.

Lemma pks_update : forall r t, pks (sql_update r t) = pks t.
Proof.
  intros r t. unfold pks, sql_update. rewrite map_map. apply map_ext_in. intros x _.
  destruct (Z.eqb_spec (r_pk x) (r_pk r)); auto.
Qed.
Lemma in_update_other : forall r t x, In x t -> r_pk x <> r_pk r -> In x (sql_update r t).
Proof.
  intros r t x Hi Hn. unfold sql_update. apply in_map_iff. exists x. split; auto.
  destruct (Z.eqb_spec (r_pk x) (r_pk r)); congruence.
Qed.
Lemma in_update_hit : forall r t x, In x t -> r_pk x = r_pk r -> In r (sql_update r t).
Proof.
  intros r t x Hi He. unfold sql_update. apply in_map_iff. exists x. split; auto.
  destruct (Z.eqb_spec (r_pk x) (r_pk r)); congruence.
Qed.

Lemma in_delete : forall k t x, In x (sql_delete k t) <-> In x t /\ r_pk x <> k.
Proof.
  intros. unfold sql_delete. rewrite filter_In. destruct (Z.eqb_spec (r_pk x) k); simpl; split; intros [? ?]; split; auto; congruence.
Qed.
Lemma NoDup_map_filter : forall {A B} (f : A -> B) p (l : list A), NoDup (map f l) -> NoDup (map f (filter p l)).
Proof.
  induction l; simpl; intros Hn; auto. inversion Hn; subst.
  destruct (p a); simpl; auto. constructor; auto.
  intros Hi. apply H1. apply in_map_iff in Hi. destruct Hi as [x [He Hx]]. apply filter_In in Hx.
  apply in_map_iff. exists x. tauto.
Qed.
Lemma NoDup_pks_delete : forall k t, NoDup (pks t) -> NoDup (pks (sql_delete k t)).
Proof. intros. apply NoDup_map_filter. auto. Qed.

Lemma ins_sorted_perm : forall r l, Permutation (ins_sorted r l) (r :: l).
Proof.
  induction l as [|x l IH]; simpl; auto.
  destruct (r_pk r <=? r_pk x); auto.
  eapply perm_trans; [apply perm_skip, IH|]. apply perm_swap.
Qed.
Lemma sort_pk_perm : forall l, Permutation (sort_pk l) l.
Proof.
  induction l; simpl; auto. eapply perm_trans; [apply ins_sorted_perm|]. now apply perm_skip.
Qed.
Lemma in_sort_pk : forall l x, In x (sort_pk l) <-> In x l.
Proof.
  intros. split; apply Permutation_in; [apply sort_pk_perm | apply Permutation_sym, sort_pk_perm].
Qed.
Lemma in_select : forall q t x, In x (sql_select q t) <-> In x t /\ qmatch q x = true.
Proof. intros. unfold sql_select. rewrite in_sort_pk, filter_In. tauto. Qed.
Lemma select_perm : forall q t, Permutation (sql_select q t) (filter (qmatch q) t).
Proof. intros. apply sort_pk_perm. Qed.

Lemma select_pk_nil : forall k t, sql_select (QPk k) t = [] -> has_pk k t = false.
Proof.
  intros k t H. apply has_pk_false. intros Hi. apply in_map_iff in Hi. destruct Hi as [r [He Hr]].
  assert (In r (sql_select (QPk k) t)) by (apply in_select; split; auto; simpl; now apply Z.eqb_eq).
  rewrite H in H0. inversion H0.
Qed.

Lemma find_pk_some : forall k t r, find_pk k t = Some r -> In r t /\ r_pk r = k.
Proof.
  unfold find_pk. intros k t r H. apply find_some in H. destruct H. split; auto. now apply Z.eqb_eq.
Qed.

Lemma upd_nth_split : forall {A} (f : A -> A) (pre post : list A) x,
  upd_nth (length pre) f (pre ++ x :: post) = pre ++ f x :: post.
Proof. induction pre; simpl; intros; auto. now rewrite IHpre. Qed.
Lemma upd_nth_length : forall {A} (f : A -> A) n (l : list A), length (upd_nth n f l) = length l.
Proof. intros A f n l. revert n. induction l; destruct n; simpl; auto. Qed.
Lemma nth_app_some : forall {A} (l x : list A) o i, nth_error l o = Some i -> nth_error (l ++ x) o = Some i.
Proof. intros A l x o i H. rewrite nth_error_app1; auto. apply nth_error_Some. congruence. Qed.
Lemma nth_snoc : forall {A} (l : list A) i, nth_error (l ++ [i]) (length l) = Some i.
Proof. intros. rewrite nth_error_app2 by auto. now rewrite Nat.sub_diag. Qed.
Lemma nth_upd_same : forall {A} (f : A -> A) l n y, nth_error l n = Some y -> nth_error (upd_nth n f l) n = Some (f y).
Proof. induction l as [|a l IH]; intros [|n] y H; simpl in *; try discriminate; auto. now injection H as ->. Qed.
Lemma nth_upd_other : forall {A} (f : A -> A) l n o, o <> n -> nth_error (upd_nth n f l) o = nth_error l o.
Proof. induction l as [|a l IH]; intros [|n] [|o] H; simpl in *; auto; try congruence. Qed.
Lemma in_upd_nth : forall {A} (f : A -> A) l o y x,
  nth_error l o = Some y -> In x (upd_nth o f l) -> In x l \/ x = f y.
Proof.
  induction l as [|a l IH]; intros [|o] y x Hn Hx; simpl in *; try discriminate; try tauto.
  - injection Hn as ->. destruct Hx; auto.
  - destruct Hx as [Hx|Hx]; auto. destruct (IH _ _ _ Hn Hx); auto.
Qed.

Lemma find_idx_some : forall {A} (p : A -> bool) l n o,
  find_idx p l n = Some o -> exists x, nth_error l (o - n) = Some x /\ p x = true /\ (n <= o)%nat.
Proof.
  induction l as [|a l IH]; simpl; intros n o H; [discriminate|].
  destruct (p a) eqn:E.
  - inversion H; subst. exists a. rewrite Nat.sub_diag. simpl. auto.
  - apply IH in H. destruct H as [x [Hn [Hp Hle]]]. exists x. split; [|split; auto; lia].
    replace (o - n)%nat with (S (o - S n)) by lia. exact Hn.
Qed.
Lemma find_idx_none : forall {A} (p : A -> bool) l n, find_idx p l n = None -> forall x, In x l -> p x = false.
Proof.
  induction l as [|a l IH]; simpl; intros n H x Hi; [tauto|].
  destruct (p a) eqn:E; [discriminate|]. destruct Hi; subst; eauto.
Qed.

Lemma dedup_nil : forall l, dedup l = [] -> l = [].
Proof. destruct l; simpl; auto; discriminate. Qed.
Lemma in_dedup : forall l x, In x (dedup l) <-> In x l.
Proof.
  induction l as [|a l IH]; simpl; intros x; [tauto|].
  rewrite filter_In, IH. destruct (Nat.eqb_spec x a); simpl; split; intros; intuition congruence.
Qed.
Lemma NoDup_dedup : forall l, NoDup (dedup l).
Proof.
  induction l as [|a l IH]; simpl; constructor.
  - rewrite filter_In. rewrite Nat.eqb_refl. simpl. intros [_ H]. discriminate.
  - apply NoDup_filter. auto.
Qed.

Lemma map_eq_in : forall {A B C} (f : A -> C) (g : B -> C) l l' y,
  map f l = map g l' -> In y l' -> exists x, In x l /\ f x = g y.
Proof.
  intros A B C f g l l' y H Hy. apply (in_map g) in Hy. rewrite <- H in Hy.
  apply in_map_iff in Hy. destruct Hy as [x [? ?]]. eauto.
Qed.
