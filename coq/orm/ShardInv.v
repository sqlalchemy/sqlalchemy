(* C53 - the session/database invariant and its preservation by the unit of work and the loaders *)
From Coq Require Import List ZArith NArith Bool Lia.
Import ListNotations.
From SAV.orm Require Import Shard ShardDb.
Open Scope Z_scope.

(* identity keys (pk, token) of the persistent objects, in object order *)
Definition key_of (i : inst) : list (Z * N) :=
  match i_life i, i_tok i with
  | Persistent, Some t => [(r_pk (i_cur i), t)]
  | _, _ => []
  end.
Definition keys (l : list inst) : list (Z * N) := flat_map key_of l.

(* a persistent object has a token, and its committed row is in that shard under the object's primary key *)
Definition stored (d : dbs) (i : inst) : Prop :=
  i_life i = Persistent ->
  exists t, i_tok i = Some t /\ In (i_old i) (d t) /\ r_pk (i_old i) = r_pk (i_cur i).

Record Inv (l : list inst) (d : dbs) : Prop := mkInv {
  inv_pk : forall s, NoDup (pks (d s));
  inv_row : forall i, In i l -> stored d i;
  inv_key : NoDup (keys l)
}.

(* after a flush: nothing pending, no unflushed change *)
Definition clean (i : inst) : Prop :=
  i_life i <> Pending /\ (i_life i = Persistent -> i_cur i = i_old i).

Lemma key_of_persistent : forall i t, i_life i = Persistent -> i_tok i = Some t ->
  key_of i = [(r_pk (i_cur i), t)].
Proof. intros i t Hl Ht. unfold key_of. now rewrite Hl, Ht. Qed.

Lemma row_eqb_eq : forall a b, row_eqb a b = true -> a = b.
Proof.
  intros [a1 a2 a3] [b1 b2 b3]. unfold row_eqb. simpl. rewrite !andb_true_iff, !Z.eqb_eq.
  intros [[? ?] ?]. congruence.
Qed.

Lemma row_eqb_refl : forall a, row_eqb a a = true.
Proof. intros [a b c]. unfold row_eqb. simpl. now rewrite !Z.eqb_refl. Qed.

Lemma keys_app : forall a b, keys (a ++ b) = keys a ++ keys b.
Proof. intros. unfold keys. apply flat_map_app. Qed.
Lemma keys_mid : forall pre i post, keys (pre ++ i :: post) = keys pre ++ key_of i ++ keys post.
Proof. intros. rewrite keys_app. reflexivity. Qed.

Lemma in_keys : forall l k t, In (k, t) (keys l) <->
  exists i, In i l /\ i_life i = Persistent /\ i_tok i = Some t /\ r_pk (i_cur i) = k.
Proof.
  intros l k t. unfold keys. rewrite in_flat_map. split.
  - intros [i [Hi Hk]]. exists i. unfold key_of in Hk.
    destruct (i_life i); try (inversion Hk; fail). destruct (i_tok i); [|inversion Hk].
    destruct Hk as [Hk|[]]. inversion Hk; subst. auto.
  - intros [i [Hi [Hl [Ht Hk]]]]. exists i. split; auto. rewrite (key_of_persistent _ _ Hl Ht), Hk. now left.
Qed.

Lemma is_key_true : forall k t i, is_key k t i = true <->
  i_life i = Persistent /\ i_tok i = Some t /\ r_pk (i_cur i) = k.
Proof.
  intros. unfold is_key. destruct (i_life i); try (split; [discriminate | intros [? _]; discriminate]).
  destruct (i_tok i) as [t'|]; [|split; [discriminate | intros [_ [? _]]; discriminate]].
  rewrite andb_true_iff, Z.eqb_eq, N.eqb_eq. split.
  - intros [? ?]; subst; auto.
  - intros [_ [H ?]]. inversion H. auto.
Qed.

Lemma inv_row_tok : forall l d i t, Inv l d -> In i l -> i_life i = Persistent -> i_tok i = Some t ->
  In (i_old i) (d t) /\ r_pk (i_old i) = r_pk (i_cur i).
Proof.
  intros l d i t HI Hi Hl Ht. destruct (inv_row _ _ HI i Hi Hl) as [t' [Ht' H]].
  rewrite Ht in Ht'. now injection Ht' as <-.
Qed.

Lemma key_in_db : forall l d k t, Inv l d -> In (k, t) (keys l) -> In k (pks (d t)).
Proof.
  intros l d k t HI Hk. apply in_keys in Hk. destruct Hk as [i [Hi [Hl [Ht Hk]]]].
  destruct (inv_row_tok _ _ _ _ HI Hi Hl Ht) as [Hin Hpk].
  subst k. rewrite <- Hpk. unfold pks. now apply in_map.
Qed.

Lemma keys_distinct : forall l o1 o2 i1 i2 k,
  NoDup (keys l) -> nth_error l o1 = Some i1 -> nth_error l o2 = Some i2 -> o1 <> o2 ->
  key_of i1 = [k] -> key_of i2 = [k] -> False.
Proof.
  intros l o1 o2 i1 i2 k Hn H1 H2 Hne K1 K2. destruct (nth_error_split _ _ H1) as [pre [post [-> <-]]].
  rewrite keys_mid, K1 in Hn. apply NoDup_remove_2 in Hn. apply Hn. rewrite in_app_iff.
  assert (Hin : forall m, In i2 m -> In k (keys m))
    by (intros m Hm; apply in_flat_map; exists i2; rewrite K2; simpl; auto).
  destruct (Nat.lt_ge_cases o2 (length pre)) as [Hlt|Hge]; [left | right]; apply Hin.
  - rewrite nth_error_app1 in H2 by auto. eapply nth_error_In; eauto.
  - rewrite nth_error_app2 in H2 by auto.
    destruct (o2 - length pre)%nat as [|n] eqn:E; [lia|]. eapply nth_error_In. exact H2.
Qed.

Lemma in_mid : forall {A} (pre post : list A) i j, In j (pre ++ i :: post) <-> j = i \/ In j pre \/ In j post.
Proof. intros. rewrite in_app_iff. simpl. intuition. Qed.

Lemma inv_replace : forall pre i post d i',
  Inv (pre ++ i :: post) d -> key_of i' = key_of i -> stored d i' -> Inv (pre ++ i' :: post) d.
Proof.
  intros pre i post d i' HI Hk Hr. constructor.
  - apply (inv_pk _ _ HI).
  - intros j Hj Hl. apply in_mid in Hj. destruct Hj as [Hj|Hj]; [subst; auto|].
    apply (inv_row _ _ HI); auto. apply in_mid. auto.
  - rewrite keys_mid, Hk, <- keys_mid. apply (inv_key _ _ HI).
Qed.

(* a statement on shard [t] on behalf of object [i]: table [T] replaces [d t] and [i'] replaces [i].
   Beyond what concerns [i'] itself, it is enough that the rows behind the identities of the OTHER
   objects stay in the table.  [inv_update], [inv_insert], [inv_gone] are its instances for the three SQL statements *)
Lemma inv_write : forall pre i post d t T i',
  Inv (pre ++ i :: post) d -> NoDup (pks T) ->
  (forall x, In x (d t) -> In (r_pk x, t) (keys pre ++ keys post) -> In x T) ->
  stored (upd d t T) i' -> NoDup (keys pre ++ key_of i' ++ keys post) ->
  Inv (pre ++ i' :: post) (upd d t T).
Proof.
  intros pre i post d t T i' HI HT Hrows Hi' Hk. constructor.
  - intros s. destruct (N.eq_dec s t) as [->|Hs]; [now rewrite upd_same|].
    rewrite upd_other by auto. apply (inv_pk _ _ HI).
  - intros j Hj Hlj. apply in_mid in Hj. destruct Hj as [->|Hj]; [auto|].
    destruct (inv_row _ _ HI j) as [tj [Htj [Hinj Hpkj]]]; [apply in_mid; auto | auto |].
    exists tj. split; auto. split; auto. destruct (N.eq_dec tj t) as [->|Hs]; [|now rewrite upd_other].
    rewrite upd_same. apply Hrows; auto. rewrite Hpkj, <- keys_app. apply in_keys. exists j.
    rewrite in_app_iff. auto.
  - now rewrite keys_mid.
Qed.

Lemma inv_update : forall pre i post d t,
  Inv (pre ++ i :: post) d -> i_life i = Persistent -> i_tok i = Some t ->
  Inv (pre ++ mkInst (i_cur i) (i_cur i) Persistent (Some t) :: post) (upd d t (sql_update (i_cur i) (d t))).
Proof.
  intros pre i post d t HI Hl Ht. pose proof (inv_key _ _ HI) as Hn.
  rewrite keys_mid, (key_of_persistent _ _ Hl Ht) in Hn.
  destruct (inv_row_tok _ _ i t HI) as [Hin Hpk]; [apply in_mid; auto | auto ..|].
  apply inv_write with (i := i); auto.
  - rewrite pks_update. apply (inv_pk _ _ HI).
  - intros x Hx Hk. apply in_update_other; auto. intros He. apply NoDup_remove_2 in Hn. apply Hn.
    now rewrite <- He.
  - intros _. exists t. simpl. rewrite upd_same. split; auto. split; auto. eapply in_update_hit; eauto.
Qed.

Lemma inv_insert : forall pre i post d s t',
  Inv (pre ++ i :: post) d -> i_life i = Pending -> sql_insert (i_cur i) (d s) = Some t' ->
  Inv (pre ++ mkInst (i_cur i) (i_cur i) Persistent (Some s) :: post) (upd d s t').
Proof.
  intros pre i post d s t' HI Hl Hs. apply sql_insert_spec in Hs. destruct Hs as [-> Hnew].
  assert (Hki : key_of i = []) by (unfold key_of; now rewrite Hl).
  pose proof (inv_key _ _ HI) as Hn. rewrite keys_mid, Hki in Hn.
  apply inv_write with (i := i); auto.
  - rewrite pks_app. apply NoDup_snoc; auto. apply (inv_pk _ _ HI).
  - intros x Hx _. apply in_or_app. auto.
  - intros _. exists s. simpl. rewrite upd_same. split; auto. split; auto. apply in_or_app. right. now left.
  - apply (NoDup_Add (a := (r_pk (i_cur i), s)) (l := keys pre ++ keys post)); [apply Add_app|].
    split; auto. intros Hin. apply Hnew, (key_in_db _ _ _ _ HI). rewrite keys_mid, Hki. exact Hin.
Qed.

Lemma inv_gone : forall pre i post d t,
  Inv (pre ++ i :: post) d -> i_life i = Persistent -> i_tok i = Some t ->
  Inv (pre ++ mkInst (i_cur i) (i_old i) Gone (i_tok i) :: post)
      (upd d t (sql_delete (r_pk (i_cur i)) (d t))).
Proof.
  intros pre i post d t HI Hl Ht. pose proof (inv_key _ _ HI) as Hn.
  rewrite keys_mid, (key_of_persistent _ _ Hl Ht) in Hn.
  apply inv_write with (i := i); auto.
  - apply NoDup_pks_delete, (inv_pk _ _ HI).
  - intros x Hx Hk. apply in_delete. split; auto. intros He. apply NoDup_remove_2 in Hn. apply Hn.
    now rewrite <- He.
  - discriminate.
  - eapply NoDup_remove_1. exact Hn.
Qed.

Lemma inv_add : forall l d r pre, Inv l d -> Inv (l ++ [mkInst r r Pending pre]) d.
Proof.
  intros l d r pre HI. constructor.
  - apply (inv_pk _ _ HI).
  - intros j Hj Hl. apply in_app_iff in Hj. destruct Hj as [Hj|[Hj|[]]]; [|subst j; discriminate].
    apply (inv_row _ _ HI); auto.
  - rewrite keys_app. simpl. rewrite app_nil_r. apply (inv_key _ _ HI).
Qed.

Lemma inv_load : forall l d r t, Inv l d -> In r (d t) -> lookup l (r_pk r) t = None ->
  Inv (l ++ [mkInst r r Persistent (Some t)]) d.
Proof.
  intros l d r t HI Hr Hm. constructor.
  - apply (inv_pk _ _ HI).
  - intros j Hj Hl. apply in_app_iff in Hj. destruct Hj as [Hj|[Hj|[]]].
    + apply (inv_row _ _ HI); auto.
    + subst j. simpl. eauto.
  - rewrite keys_app. simpl. apply NoDup_snoc; [apply (inv_key _ _ HI)|].
    intros Hin. apply in_keys in Hin. destruct Hin as [i [Hi Hk]].
    assert (is_key (r_pk r) t i = false) by (eapply find_idx_none; eauto).
    assert (is_key (r_pk r) t i = true) by (now apply is_key_true). congruence.
Qed.
