(* C37 - the fuel of the model always suffices for the user-level operations
   (for every relationship kind, every state, duplicates and unloaded cells included). *)
From Coq Require Import List NArith Bool.
Import ListNotations.
From SAV.orm Require Import Backref BackrefSpec BackrefBase.
Open Scope N_scope.

Lemma bind_total : forall r f, r <> OutOfFuel -> (forall s, f s <> OutOfFuel) -> bind r f <> OutOfFuel.
Proof. intros [s|e s|] f H K; cbn; [apply K|discriminate|congruence]. Qed.

(* the except clause of KImplPop *)
Lemma swallow_total : forall r,
  r <> OutOfFuel ->
  match r with
  | Ok s0 => Ok s0
  | Err AttributeError s1 => Err AttributeError s1
  | Err ValueError s1 => Ok s1
  | Err IndexError s1 => Ok s1
  | OutOfFuel => OutOfFuel
  end <> OutOfFuel.
Proof. intros [s|[] s|] H; try discriminate; congruence. Qed.

(* [tot] walks a result expression: a bind is total when both parts are, a conditional when both
   branches are, a match on a nested result when that result is; anything else is left to the caller. *)
Ltac tot :=
  try (change (0 =? 0) with true; cbv iota);
  lazymatch goal with
  | |- Ok _ <> OutOfFuel => discriminate
  | |- Err _ _ <> OutOfFuel => discriminate
  | |- bind _ _ <> OutOfFuel => apply bind_total; [tot | intros ?; tot]
  | |- (if ?c then _ else _) <> OutOfFuel => destruct c; tot
  | |- match ?x with _ => _ end <> OutOfFuel =>
      let T := type of x in
      lazymatch T with
      | res => first
               [ apply swallow_total; tot
               | let H := fresh "H" in
                 assert (H : x <> OutOfFuel) by tot;
                 destruct x as [?|[] ?|]; try (exfalso; apply H; reflexivity); tot ]
      | _ => destruct x; tot
      end
  | |- _ => idtac
  end.

Lemma fire_total : forall r sd o v init n s, kind_of r sd = Coll -> init = None \/ init = tok_bulk r sd ->
  exec r (S (S (S (S (S (S (S (S (S (S n)))))))))) (KFireAppend sd o v init) s <> OutOfFuel /\
  exec r (S (S (S (S (S (S (S (S (S (S n)))))))))) (KFireRemove sd o v init) s <> OutOfFuel.
Proof.
  intros r sd o v init n s K I. destruct r, sd; try discriminate K; destruct I as [-> | ->]; split; ev; tot.
Qed.
Lemma coll_total : forall r sd o v s, kind_of r sd = Coll ->
  run_call r (KCollAppend sd o v None) s <> OutOfFuel /\ run_call r (KCollRemove sd o v None) s <> OutOfFuel.
Proof.
  intros r sd o v s K. unfold run_call, FUEL. rewrite exec_coll_append, exec_coll_remove.
  pose proof (fun n s => fire_total r sd o v None n s K (or_introl eq_refl)) as F. split.
  - apply bind_total; [exact (proj1 (F _ s))|intros; discriminate].
  - destruct (memb v (coll_of s sd o)); [|discriminate]. apply bind_total; [exact (proj2 (F _ s))|].
    intros s1. destruct (memb v (coll_of s1 sd o)); discriminate.
Qed.

Lemma call_total_scal : forall r sd o v s, kind_of r sd = Scal ->
  run_call r (KScalarSet sd o v None None false) s <> OutOfFuel /\
  (forall old, run_call r (KRemoveEvent sd o old (tok_remove sd)) s <> OutOfFuel).
Proof.
  intros r sd o v s K. unfold run_call, FUEL.
  destruct r, sd; try discriminate K; (split; [|intros old]); ev; tot.
Qed.

Definition skind_eqb (a b : skind) : bool := match a, b with Scal, Scal | Coll, Coll => true | _, _ => false end.
Lemma skind_eqb_eq : forall a b, skind_eqb a b = true -> a = b.
Proof. intros [] []; (reflexivity || discriminate). Qed.
Definition prim_kinded (r : rkind) (p : prim) : bool :=
  match p with
  | PAppend sd _ _ | PRemove sd _ _ | PInsert sd _ _ _ | PPop sd _ _ | PDelItem sd _ _
  | PSetItem sd _ _ _ | PReplace sd _ _ | PDelColl sd _ => skind_eqb (kind_of r sd) Coll
  | PSet sd _ _ | PDel sd _ => skind_eqb (kind_of r sd) Scal
  end.

Lemma bulk_appends_total : forall r sd o cs vs s, kind_of r sd = Coll ->
  bulk_appends r sd o cs vs s <> OutOfFuel.
Proof.
  intros r sd o cs vs. induction vs as [|v rest IH]; intros s K; cbn [bulk_appends]; [discriminate|].
  apply bind_total; [|intros s1; apply IH; exact K].
  destruct (memb v cs); [discriminate|]. exact (proj1 (fire_total r sd o v _ _ s K (or_intror eq_refl))).
Qed.
Lemma bulk_removes_total : forall r sd o vs s, kind_of r sd = Coll ->
  bulk_removes r sd o vs s <> OutOfFuel.
Proof.
  intros r sd o vs. induction vs as [|v rest IH]; intros s K; cbn [bulk_removes]; [discriminate|].
  apply bind_total; [|intros s1; apply IH; exact K]. exact (proj2 (fire_total r sd o v _ _ s K (or_intror eq_refl))).
Qed.

Lemma clear_total : forall r sd o l s, kind_of r sd = Coll -> clear_with_event r sd o l s <> OutOfFuel.
Proof.
  intros r sd o l. induction l as [|v rest IH]; intros s K; cbn [clear_with_event]; [discriminate|].
  apply bind_total; [|intros s1; apply IH; exact K]. exact (proj2 (coll_total r sd o v s K)).
Qed.

Theorem step_prim_total : forall r p s, prim_kinded r p = true -> step_prim r p s <> OutOfFuel.
Proof.
  intros r p s K. destruct p as [sd o v|sd o v|sd o i v|sd o i|sd o i|sd o i v|sd o vs|sd o v|sd o|sd o];
    cbn [prim_kinded] in K; apply skind_eqb_eq in K; cbn [step_prim];
    try pose proof (fun v n s => fire_total r sd o v None n s K (or_introl eq_refl)) as F.
  - exact (proj1 (coll_total r sd o v s K)).
  - exact (proj2 (coll_total r sd o v s K)).
  - apply bind_total; [exact (proj1 (F v _ s))|intros; discriminate].
  - destruct (nth_error (coll_of s sd o) i); [|discriminate]. exact (proj2 (F n _ _)).
  - destruct (nth_error (coll_of s sd o) i); [|discriminate].
    apply bind_total; [exact (proj2 (F n _ s))|intros; discriminate].
  - destruct (nth_error (coll_of s sd o) i); [|discriminate].
    apply bind_total; [exact (proj2 (F n _ s))|intros s1].
    apply bind_total; [exact (proj1 (F v _ s1))|intros; discriminate].
  - apply bind_total; [apply bulk_appends_total; exact K|intros s1; apply bulk_removes_total; exact K].
  - exact (proj1 (call_total_scal r sd o v s K)).
  - apply bind_total; [exact (proj2 (call_total_scal r sd o 0 s K) _)|intros s1].
    destruct (cells s1 sd o); try discriminate. destruct (scalar_old s sd o); try discriminate;
      destruct (persistent s); discriminate.
  - destruct (cells s sd o); try discriminate.
    apply bind_total; [apply clear_total; exact K|intros; discriminate].
Qed.
