(* C53 - what every session operation guarantees of the state it leaves ([Later]); characterisation of
   query and get *)
From Coq Require Import List ZArith NArith.
Import ListNotations.
From SAV.orm Require Import Shard ShardDb ShardInv ShardFlush ShardLoad ShardSticky ShardDelete.
Open Scope Z_scope.

Definition wf_db (d : dbs) : Prop := forall s, NoDup (pks (d s)).

(* one or several operations later: the invariant holds, the database moved by replaying exactly the
   statements appended to the log, and no object that had left the pending state lost its number,
   token or primary key *)
Definition Later (st st' : sess) : Prop :=
  Inv (insts st') (db st') /\
  (exists delta, wlog st' = wlog st ++ delta /\ apply_writes delta (db st) = Ok (db st')) /\
  ext (insts st) (insts st').

Lemma Later_quiet : forall st st', Inv (insts st') (db st') -> ext (insts st) (insts st') ->
  wlog st' = wlog st -> db st' = db st -> Later st st'.
Proof. intros st st' HI He Hw Hd. split; [|split]; auto. exists []. rewrite app_nil_r, Hd. auto. Qed.

Lemma Later_refl : forall st, Inv (insts st) (db st) -> Later st st.
Proof. intros. apply Later_quiet; auto. apply ext_refl. Qed.

Lemma Later_trans : forall a b c, Later a b -> Later b c -> Later a c.
Proof.
  intros a b c [_ [[d1 [H1 A1]] E1]] [HI [[d2 [H2 A2]] E2]]. split; [exact HI|]. split; [|eapply ext_trans; eauto].
  exists (d1 ++ d2). split.
  - rewrite H2, H1. now rewrite app_assoc.
  - now rewrite (apply_writes_app _ _ _ _ A1).
Qed.

(* new attribute values for object [o]: lifecycle, token and primary key stay, and if the object is
   persistent its new committed row must be the one stored in the shard of its token *)
Lemma replace_obj : forall l d o i f,
  Inv l d -> nth_error l o = Some i ->
  i_life (f i) = i_life i -> i_tok (f i) = i_tok i -> r_pk (i_cur (f i)) = r_pk (i_cur i) ->
  (forall t, i_life i = Persistent -> i_tok i = Some t ->
             In (i_old (f i)) (d t) /\ r_pk (i_old (f i)) = r_pk (i_cur i)) ->
  Inv (upd_nth o f l) d /\ ext l (upd_nth o f l).
Proof.
  intros l d o i f HI En Hl Ht Hk Ho. split.
  - destruct (nth_error_split _ _ En) as [pre [post [-> <-]]]. rewrite upd_nth_split.
    eapply inv_replace; [exact HI | unfold key_of; now rewrite Hl, Ht, Hk |].
    unfold stored. rewrite Hl, Ht, Hk. intros Hp.
    destruct (inv_row _ _ HI i) as [t [Hti _]]; [apply in_mid; auto | auto |].
    exists t. destruct (Ho t Hp Hti). auto.
  - eapply ext_upd_nth; [exact En|]. intros Hn. unfold keep. rewrite Hl. auto.
Qed.

Section Ops.
  Variable sc : row -> N.
  Variable ic : Z -> list N.
  Variable ec : qry -> list N.

  Lemma flush_later : forall st st', Inv (insts st) (db st) -> flush sc st = Ok st' -> Later st st'.
  Proof.
    intros st st' HI H. split; [eapply flush_inv; eauto|]. split; [|eapply flush_ext; eauto].
    destruct (flush_log _ _ _ H) as [delta [? [? _]]]. exists delta. auto.
  Qed.

  Lemma do_set_spec : forall st o g v st', do_set st o g v = Ok st' ->
    exists i0, nth_error (insts st) o = Some i0 /\
      st' = mkSess (upd_nth o (fun i => mkInst (mkRow (r_pk (i_cur i)) g v) (i_old i) (i_life i) (i_tok i)) (insts st))
                   (db st) (committed st) (wlog st) (rlog st).
  Proof.
    intros st o g v st' H. unfold do_set in H. destruct (nth_error (insts st) o) as [i0|]; [|discriminate].
    exists i0. destruct (i_life i0); try discriminate; injection H as <-; auto.
  Qed.

  Lemma do_set_later : forall st o g v st', Inv (insts st) (db st) -> do_set st o g v = Ok st' -> Later st st'.
  Proof.
    intros st o g v st' HI H. pose proof (set_ext _ _ _ _ _ H) as He.
    destruct (do_set_spec _ _ _ _ _ H) as [i0 [En ->]]. apply Later_quiet; auto. simpl.
    apply (replace_obj _ _ _ _ _ HI En); auto. intros t. apply (inv_row_tok _ _ _ _ HI (nth_error_In _ _ En)).
  Qed.

  Lemma delete_one_later : forall st o st', Inv (insts st) (db st) -> delete_one st o = Ok st' -> Later st st'.
  Proof.
    intros st o st' HI H. destruct (delete_one_spec _ _ _ H) as [i0 [t [En [El [Et ->]]]]].
    split; [|split]; simpl.
    - destruct (nth_error_split _ _ En) as [pre [post [Hs <-]]]. rewrite Hs in *.
      rewrite upd_nth_split. now apply inv_gone.
    - exists [WDel t (r_pk (i_cur i0))]. auto.
    - eapply ext_upd_nth; [exact En|]. intros _. unfold keep. simpl. repeat split; auto. discriminate.
  Qed.

  Lemma delete_all_later : forall os st st', Inv (insts st) (db st) -> delete_all st os = Ok st' -> Later st st'.
  Proof.
    induction os as [|o os IH]; simpl; intros st st' HI H.
    - injection H as <-. now apply Later_refl.
    - destruct (delete_one st o) as [s1|] eqn:E; [|discriminate]. pose proof (delete_one_later _ _ _ HI E) as S1.
      eapply Later_trans; [exact S1 | apply IH; [apply S1 | exact H]].
  Qed.

  Lemma do_delete_spec : forall st os st', do_delete sc st os = Ok st' ->
    (forall o, In o os -> valid_del st o = true) /\
    exists st1, flush sc st = Ok st1 /\ delete_all st1 (dedup os) = Ok st'.
  Proof.
    intros st os st' H. unfold do_delete in H. destruct (forallb (valid_del st) os) eqn:Ev; [|discriminate].
    destruct (flush sc st) as [st1|]; [|discriminate]. rewrite forallb_forall in Ev. eauto.
  Qed.

  Lemma valid_del_spec : forall st o, valid_del st o = true ->
    exists i t, nth_error (insts st) o = Some i /\ i_life i = Persistent /\ i_tok i = Some t.
  Proof.
    intros st o H. unfold valid_del in H. destruct (nth_error (insts st) o) as [i|]; [|discriminate].
    destruct (i_life i) eqn:El; try discriminate. destruct (i_tok i) as [t|] eqn:Et; [|discriminate]. eauto.
  Qed.

  Lemma del_of_flushed : forall st st1 o, flush sc st = Ok st1 -> valid_del st o = true ->
    exists i t, nth_error (insts st) o = Some i /\ i_life i = Persistent /\ i_tok i = Some t /\
                del_of st1 o = [WDel t (r_pk (i_cur i))].
  Proof.
    intros st st1 o Ef Ev. destruct (valid_del_spec _ _ Ev) as [i [t [En [El Et]]]].
    destruct (flush_ext _ _ _ Ef _ _ En) as [i1 [En1 [Ht1 [Hk1 _]]]]; [congruence|].
    exists i, t. repeat split; auto. unfold del_of. now rewrite En1, Ht1, Et, Hk1.
  Qed.

  Lemma do_delete_later : forall st os st', Inv (insts st) (db st) -> do_delete sc st os = Ok st' -> Later st st'.
  Proof.
    intros st os st' HI H. destruct (do_delete_spec _ _ _ H) as [_ [st1 [Ef Ed]]].
    pose proof (flush_later _ _ HI Ef) as S1.
    eapply Later_trans; [exact S1 | exact (delete_all_later _ _ _ (proj1 S1) Ed)].
  Qed.

  Lemma do_query_spec : forall st q tgt st' os,
    Inv (insts st) (db st) -> do_query sc ec st q tgt = Ok (st', os) ->
    exists st1, flush sc st = Ok st1 /\ db st' = db st1 /\ wlog st' = wlog st1 /\
      rlog st' = rlog st ++ shards_for ec q tgt /\ Inv (insts st') (db st') /\
      (exists x, insts st' = insts st1 ++ x) /\
      map (view (insts st')) os = map Some (expected q (shards_for ec q tgt) (db st')).
  Proof.
    intros st q tgt st' os HI H. unfold do_query in H.
    destruct (shards_for ec q tgt) as [|s ss] eqn:Es; [discriminate|].
    destruct (flush sc st) as [st1|] eqn:Ef; [|discriminate].
    destruct (exec_shards q (s :: ss) (db st1) (insts st1)) as [l os'] eqn:Ex.
    injection H as <- <-. exists st1. simpl. rewrite <- (proj2 (flush_frame _ _ _ Ef)).
    destruct (exec_shards_spec _ _ _ _ _ _ (flush_inv _ _ _ Ef HI) (flush_clean _ _ _ Ef HI) Ex)
      as [HI' [_ [Hx Hv]]].
    repeat (split; [solve [auto]|]). auto.
  Qed.

  Lemma do_query_later : forall st q tgt st' os, Inv (insts st) (db st) -> do_query sc ec st q tgt = Ok (st', os) ->
    Later st st'.
  Proof.
    intros st q tgt st' os HI H.
    destruct (do_query_spec _ _ _ _ _ HI H) as [st1 [Ef [Hd [Hw [_ [HI' [[x Hx] _]]]]]]].
    eapply Later_trans; [exact (flush_later _ _ HI Ef)|]. apply Later_quiet; auto. rewrite Hx. apply ext_app.
  Qed.

  Lemma first_hit_some : forall l k ts o, first_hit l k ts = Some o -> exists t, In t ts /\ lookup l k t = Some o.
  Proof.
    induction ts as [|t ts IH]; simpl; intros o H; [discriminate|].
    destruct (lookup l k t) as [o'|] eqn:E.
    - inversion H; subst. eauto.
    - destruct (IH _ H) as [t' [? ?]]. eauto.
  Qed.

  Lemma do_get_cases : forall st k tok st' res, do_get sc ic ec st k tok = Ok (st', res) ->
    (st' = st /\ exists o t, res = Some o /\ lookup (insts st) k t = Some o /\
                            match tok with Some t' => t = t' | None => In t (ic k) end) \/
    (exists os, do_query sc ec st (QPk k) tok = Ok (st', os) /\
                (res = None /\ dedup os = [] \/ exists o, res = Some o /\ dedup os = [o])).
  Proof.
    intros st k tok st' res H. unfold do_get in H.
    destruct (match tok with Some t => lookup (insts st) k t | None => first_hit (insts st) k (ic k) end)
      as [o|] eqn:Eh.
    - injection H as <- <-. left. split; auto. destruct tok as [t|].
      + exists o, t. auto.
      + destruct (first_hit_some _ _ _ _ Eh) as [t [? ?]]. exists o, t. auto.
    - right. destruct (do_query sc ec st (QPk k) tok) as [[st2 os]|] eqn:Eq; [|discriminate].
      exists os. destruct (dedup os) as [|o [|o2 r]] eqn:Ed; try discriminate.
      + injection H as <- <-. auto.
      + injection H as <- <-. split; auto. right. eauto.
  Qed.

  Lemma do_get_later : forall st k t st' ro, Inv (insts st) (db st) -> do_get sc ic ec st k t = Ok (st', ro) ->
    Later st st'.
  Proof.
    intros st k t st' ro HI E. destruct (do_get_cases _ _ _ _ _ E) as [[-> _]|[os [Eq _]]].
    - now apply Later_refl.
    - eapply do_query_later; eauto.
  Qed.

  (* the autoflush of a get emits nothing after a flush *)
  Lemma do_get_clean : forall st k t st' ro, Inv (insts st) (db st) -> Forall clean (insts st) ->
    do_get sc ic ec st k t = Ok (st', ro) ->
    wlog st' = wlog st /\ db st' = db st /\ exists x, insts st' = insts st ++ x.
  Proof.
    intros st k t st' ro HI Hc H. destruct (do_get_cases _ _ _ _ _ H) as [[-> _]|[os [Eq _]]].
    - repeat split; auto. exists []. now rewrite app_nil_r.
    - destruct (do_query_spec _ _ _ _ _ HI Eq) as [st1 [Ef [Hd [Hw [_ [_ [[x Hx] _]]]]]]].
      destruct (flush_clean_id _ _ _ Hc Ef) as [Hi [Hd1 Hw1]]. repeat split; try congruence.
      exists x. congruence.
  Qed.

  (* refresh = two edits of the object's attribute values around an autoflush: first its unflushed changes
     are dropped, at the end the row read from the shard of its token is put in *)
  Lemma do_refresh_spec : forall st o st', do_refresh sc st o = Ok st' ->
    exists i0 t st1 r,
      nth_error (insts st) o = Some i0 /\ i_life i0 = Persistent /\ i_tok i0 = Some t /\
      flush sc (mkSess (upd_nth o (fun i => mkInst (i_old i) (i_old i) (i_life i) (i_tok i)) (insts st))
                       (db st) (committed st) (wlog st) (rlog st)) = Ok st1 /\
      find_pk (r_pk (i_cur i0)) (db st1 t) = Some r /\
      st' = mkSess (upd_nth o (fun i => mkInst r r (i_life i) (i_tok i)) (insts st1))
                   (db st1) (committed st1) (wlog st1) (rlog st1 ++ [t]).
  Proof.
    intros st o st' H. unfold do_refresh in H. destruct (nth_error (insts st) o) as [i0|]; [|discriminate].
    destruct (i_life i0) eqn:El; try discriminate. destruct (i_tok i0) as [t|] eqn:Et; [|discriminate].
    match type of H with context [flush sc ?s0] => destruct (flush sc s0) as [st1|]; [|discriminate] end.
    destruct (find_pk (r_pk (i_cur i0)) (db st1 t)) as [r|] eqn:Er; [|discriminate]. injection H as <-.
    exists i0, t, st1, r. auto 10.
  Qed.

  Lemma do_refresh_later : forall st o st', Inv (insts st) (db st) -> do_refresh sc st o = Ok st' -> Later st st'.
  Proof.
    intros st o st' HI H. destruct (do_refresh_spec _ _ _ H) as [i0 [t [st1 [r [En [El [Et [Ef [Er ->]]]]]]]]].
    destruct (inv_row_tok _ _ _ _ HI (nth_error_In _ _ En) El Et) as [Hin0 Hpk0].
    destruct (replace_obj _ _ _ _ (fun i => mkInst (i_old i) (i_old i) (i_life i) (i_tok i)) HI En)
      as [HI0 He0]; auto.
    { intros t' _ Ht'. rewrite Et in Ht'. injection Ht' as <-. auto. }
    pose proof (fun HI' => flush_later _ _ HI' Ef) as S1. simpl in S1. specialize (S1 HI0).
    (* [ext] across the autoflush finds the object again, with its token and primary key *)
    destruct (proj2 (proj2 S1) _ _ (nth_upd_same _ _ _ _ En)) as [i1 [En1 [Ht1 [Hk1 Hl1]]]]; [simpl; congruence|].
    simpl in Ht1, Hk1. apply find_pk_some in Er. destruct Er as [Hrin Hrpk].
    destruct (replace_obj _ _ _ _ (fun i => mkInst r r (i_life i) (i_tok i)) (proj1 S1) En1) as [HI2 He2]; auto.
    { simpl. congruence. }
    { intros t' _ Ht'. simpl. rewrite Ht1, Et in Ht'. injection Ht' as <-. split; [auto | congruence]. }
    refine (Later_trans _ _ _ _ (Later_trans _ _ _ S1 _)); apply Later_quiet; simpl; auto.
  Qed.

  Lemma do_merge_spec : forall st r t st' ro, do_merge sc ic ec st r t = Ok (st', ro) ->
    exists st1 st2 ro2, flush sc st = Ok st1 /\ do_get sc ic ec st1 (r_pk r) (Some t) = Ok (st2, ro2) /\
      match ro2 with
      | Some o => do_set st2 o (r_grp r) (r_val r) = Ok st' /\ ro = Some o
      | None => st' = mkSess (insts st2 ++ [mkInst r r Pending None]) (db st2) (committed st2) (wlog st2) (rlog st2) /\
                ro = Some (length (insts st2))
      end.
  Proof.
    intros st r t st' ro H. unfold do_merge in H. destruct (flush sc st) as [st1|]; [|discriminate].
    destruct (do_get sc ic ec st1 (r_pk r) (Some t)) as [[st2 [o|]]|] eqn:Eg; [| |discriminate]; exists st1, st2.
    - destruct (do_set st2 o (r_grp r) (r_val r)) as [st3|] eqn:Es; [|discriminate]. injection H as <- <-.
      exists (Some o). auto.
    - injection H as <- <-. exists None. auto.
  Qed.

  Lemma do_merge_later : forall st r t st' ro, Inv (insts st) (db st) -> do_merge sc ic ec st r t = Ok (st', ro) ->
    Later st st'.
  Proof.
    intros st r t st' ro HI H. destruct (do_merge_spec _ _ _ _ _ H) as [st1 [st2 [ro2 [Ef [Eg Hm]]]]].
    pose proof (flush_later _ _ HI Ef) as S1. pose proof (do_get_later _ _ _ _ _ (proj1 S1) Eg) as S2.
    eapply Later_trans; [exact S1|]. eapply Later_trans; [exact S2|]. destruct ro2 as [o|].
    - exact (do_set_later _ _ _ _ _ (proj1 S2) (proj1 Hm)).
    - destruct Hm as [-> _]. apply Later_quiet; simpl; auto; [apply inv_add, S2 | apply ext_app].
  Qed.

  Lemma step_cases : forall st o st' r, step sc ic ec st o = Ok (st', r) ->
    match o with
    | OAdd rw pre => st' = mkSess (insts st ++ [mkInst rw rw Pending pre]) (db st) (committed st) (wlog st) (rlog st)
    | OSet n g v => do_set st n g v = Ok st'
    | OFlush => flush sc st = Ok st'
    | OCommit => exists s, flush sc st = Ok s /\ st' = mkSess (insts s) (db s) (db s) (wlog s) (rlog s)
    | ODelete os => do_delete sc st os = Ok st'
    | OQuery q tgt _ => exists os, do_query sc ec st q tgt = Ok (st', os)
    | OGet k t => exists ro, do_get sc ic ec st k t = Ok (st', ro)
    | ORefresh n => do_refresh sc st n = Ok st'
    | OMerge rw t => exists ro, do_merge sc ic ec st rw t = Ok (st', ro)
    end.
  Proof.
    intros st o st' r H. destruct o; simpl in H.
    - now injection H as <- _.
    - destruct (do_set st o g v); [|discriminate]. now injection H as <- _.
    - destruct (flush sc st); [|discriminate]. now injection H as <- _.
    - unfold do_commit in H. destruct (flush sc st) as [s|]; [|discriminate]. injection H as <- _. eauto.
    - destruct (do_delete sc st os); [|discriminate]. now injection H as <- _.
    - destruct (do_query sc ec st q tgt) as [[s os]|]; [|discriminate]. injection H as <- _. eauto.
    - destruct (do_get sc ic ec st k t) as [[s ro]|]; [|discriminate]. injection H as <- _. eauto.
    - destruct (do_refresh sc st o); [|discriminate]. now injection H as <- _.
    - destruct (do_merge sc ic ec st r0 t) as [[s ro]|]; [|discriminate]. injection H as <- _. eauto.
  Qed.

  Lemma step_later : forall st o st' r, Inv (insts st) (db st) -> step sc ic ec st o = Ok (st', r) -> Later st st'.
  Proof.
    intros st o st' r HI H. apply step_cases in H. destruct o.
    - subst st'. apply Later_quiet; simpl; auto; [now apply inv_add | apply ext_app].
    - eapply do_set_later; eauto.
    - now apply flush_later.
    - destruct H as [s [Ef ->]]. pose proof (flush_later _ _ HI Ef) as S1.
      eapply Later_trans; [exact S1|]. apply Later_quiet; simpl; auto; [apply S1 | apply ext_refl].
    - eapply do_delete_later; eauto.
    - destruct H as [os H]. eapply do_query_later; eauto.
    - destruct H as [ro H]. eapply do_get_later; eauto.
    - eapply do_refresh_later; eauto.
    - destruct H as [ro H]. eapply do_merge_later; eauto.
  Qed.

  Lemma run_later : forall ops st st', Inv (insts st) (db st) -> run sc ic ec st ops = Ok st' -> Later st st'.
  Proof.
    induction ops as [|o ops IH]; simpl; intros st st' HI H.
    - injection H as <-. now apply Later_refl.
    - destruct (step sc ic ec st o) as [[s r]|] eqn:E; [|discriminate]. pose proof (step_later _ _ _ _ HI E) as S1.
      eapply Later_trans; [exact S1 | apply IH; [apply S1 | exact H]].
  Qed.

  Definition reachable (d0 : dbs) (st : sess) : Prop := exists ops, run sc ic ec (init d0) ops = Ok st.

  (* after every program: session/database coherence, and the visible database is exactly the replay of
     the emitted statements on the initial data *)
  Lemma reachable_good : forall d0 st, wf_db d0 -> reachable d0 st ->
    Inv (insts st) (db st) /\ apply_writes (wlog st) d0 = Ok (db st).
  Proof.
    intros d0 st Hw [ops H].
    assert (HI0 : Inv (insts (init d0)) (db (init d0))) by (constructor; simpl; auto; [intros i []|constructor]).
    destruct (run_later _ _ _ HI0 H) as [HI [[delta [Hl Ha]] _]]. split; auto. now rewrite Hl.
  Qed.

  Lemma reachable_inv : forall d0 st, wf_db d0 -> reachable d0 st -> Inv (insts st) (db st).
  Proof. intros d0 st Hw HR. apply (reachable_good _ _ Hw HR). Qed.
End Ops.
