(* C33 - SessionTransaction.rollback, Session.rollback and handle.rollback under the whole invariant. *)
From Coq Require Import List ZArith Bool Arith Lia.
Import ListNotations.
From SAV.orm Require Import SessTxn SessTxnBase SessTxnInv SessTxnShift SessTxnDbInv SessTxnCore SessTxnFlushCore.
Open Scope nat_scope.

(* a DEACTIVE innermost frame has had its snapshot restored *)
Lemma deactive_restored : forall st g gs' f rest, Core st (g :: gs') -> stack st = f :: rest -> fstate f = DEACTIVE ->
  Approx g (objs st) (nobj st) /\ snew st = [] /\ sdel st = [] /\ work st = gW g /\ is_clean st = true.
Proof.
  intros st g gs' f rest C Hs Hf. pose proof (c_chain _ _ C) as Ch. unfold Chain in Ch. rewrite Hs, Hf in Ch.
  destruct Ch as [_ [[Ap [S1 [S2 W]]] _]]. do 4 (split; [assumption|]).
  apply is_clean_spec. repeat split; auto. intros o _ Hi. apply (a_clean _ _ _ Ap o Hi).
Qed.

(* ... and leaves the stack *)
Lemma pop_core : forall st g gs' f rest, Core st (g :: gs') -> stack st = f :: rest -> fstate f = DEACTIVE ->
  close_head st = (Ok, set_stack st rest) /\ Core (set_stack st rest) gs'.
Proof.
  intros st g gs' f rest C Hs Hf.
  assert (E : close_head st = (Ok, set_stack st rest)).
  { unfold close_head. rewrite Hs, Hf. cbn [live_state]. rewrite andb_false_r. reflexivity. }
  split; [exact E|].
  destruct (close_head_db st g gs' f rest (Core_DbOk' _ _ C) Hs) as (st' & E' & [D' _] & _). rewrite E in E'. injection E' as <-.
  destruct (deactive_restored st g gs' f rest C Hs Hf) as (Ap & S1 & S2 & W & Hcl).
  destruct C as [G Jh D Ch Em]. constructor; auto.
  unfold Chain in *. cbn [stack objs nobj snew sdel work set_stack]. rewrite Hs in Ch. destruct Ch as [GC [_ CG]].
  destruct rest as [|p rest']; destruct gs' as [|gp gs'']; auto.
  cbn [ChainG] in CG. destruct CG as [GCp [L CG']]. split; auto. split; auto.
  assert (Hp : fstate p = ACTIVE).
  { pose proof (d_frames _ _ D) as F. rewrite Hs in F. cbn [FramesOk] in F. apply F. left; reflexivity. }
  rewrite Hp, S1, S2, W. unfold GoodS in G. rewrite S1, S2, W in G. eapply Rel_shift; eauto.
Qed.

Lemma check_moves_ok : forall m s st, Z.eqb (moves_to m) (tstate_code s) = true -> check_moves m s st = (Ok, st).
Proof. intros m s st H. unfold check_moves. rewrite H. reflexivity. Qed.

(* SessionTransaction.rollback of the innermost frame *)
Lemma rollback_head_core : forall st g gs' f rest, Core st (g :: gs') -> stack st = f :: rest ->
  exists st', rollback_head st = (Ok, st') /\ Core st' gs' /\ stack st' = rest /\ is_clean st' = true /\
    committed st' = committed st /\ nfid st' = nfid st /\ nobj st' = nobj st /\ handles st' = handles st /\ eoc st' = eoc st /\
    work st' = gW g.
Proof.
  intros st g gs' f rest C Hs.
  (* once the frame is DEACTIVE with its snapshot restored, the second restore is skipped and the frame is popped *)
  assert (Pop : forall s3 f3, Core s3 (g :: gs') -> stack s3 = f3 :: rest -> fstate f3 = DEACTIVE ->
            (withst (fun st1 => if is_clean st1 then ret else restore_snapshot (fnested f)) ;; close_head ;; check_moves M_rollback CLOSED) s3
              = (Ok, set_stack s3 rest) /\ Core (set_stack s3 rest) gs' /\ is_clean s3 = true /\ work s3 = gW g).
  { intros s3 f3 C3 S3 F3. destruct (deactive_restored _ _ _ _ _ C3 S3 F3) as (_ & _ & _ & W & Cl).
    destruct (pop_core _ _ _ _ _ C3 S3 F3) as [E4 C4].
    rewrite bind_withst, Cl. cbn [bind ret]. rewrite (bind_ok _ _ _ _ E4). auto. }
  unfold rollback_head. rewrite Hs.
  destruct (Core_head_state _ _ _ _ C Hs) as [Hf|Hf]; rewrite Hf; cbn [live_state].
  - pose proof (c_chain _ _ C) as Ch. unfold Chain in Ch. rewrite Hs, Hf in Ch. destruct Ch as [GC [R CG]].
    destruct (restore_phase st g gs' f rest (work st) (c_db _ _ C) Hs) as (s2 & s3 & f3 & K & _ & E3 & C3 & S3 & F3 & _ & _ & Cl & K1 & K2 & K3 & K4 & K5);
      [rewrite Hf; reflexivity|exact (c_good _ _ C)|exact (c_j _ _ C)|auto..|].
    destruct (Pop s3 f3 C3 S3 F3) as (E4 & C4 & _ & W).
    rewrite bind_assoc4, K, (bind_ok _ _ _ _ E3), E4.
    eexists. split; [reflexivity|]. split; [exact C4|]. split; [reflexivity|]. split; [exact Cl|]. repeat split; assumption.
  - destruct (Pop st f C Hs Hf) as (E4 & C4 & Cl & W). unfold bind at 1. cbn [ret]. rewrite E4.
    eexists. split; [reflexivity|]. split; [exact C4|]. repeat split; auto.
Qed.

Lemma check_rollback_ok : forall f, fstate f = ACTIVE \/ fstate f = DEACTIVE -> check_prereq f M_rollback = None.
Proof. intros f [H|H]; unfold check_prereq; rewrite H; reflexivity. Qed.

(* Session.rollback(): every frame is rolled back, innermost first *)
Lemma rollback_all_core : forall fuel st gs, Core st gs -> length (stack st) < fuel ->
  exists st', rollback_all fuel st = (Ok, st') /\ Core st' [] /\ stack st' = [] /\ is_clean st' = true /\
    committed st' = committed st /\ nfid st' = nfid st /\ nobj st' = nobj st /\ handles st' = handles st /\ eoc st' = eoc st.
Proof.
  induction fuel as [|fuel IH]; intros st gs C Hl; [lia|].
  cbn [rollback_all]. destruct (stack st) as [|f rest] eqn:Hs.
  - exists st. pose proof (Core_nil _ _ C Hs) as X. subst gs. split; [reflexivity|]. split; [exact C|]. split; [exact Hs|].
    split; [|repeat split; reflexivity].
    destruct C as [G Jh D Ch Em]. exact (Em Hs).
  - destruct (Core_shape _ _ _ _ C Hs) as [g [gs' X]]. subst gs.
    rewrite (check_rollback_ok f (Core_head_state _ _ _ _ C Hs)).
    destruct (rollback_head_core st g gs' f rest C Hs) as (s1 & E1 & C1 & S1 & Cl1 & K1 & K2 & K3 & K4 & K5 & K6).
    rewrite (bind_ok _ _ _ _ E1).
    destruct (IH s1 gs' C1) as (s2 & E2 & C2 & S2 & Cl2 & L1 & L2 & L3 & L4 & L5).
    { rewrite S1. cbn in Hl. lia. }
    exists s2. split; [exact E2|]. split; [exact C2|]. split; [exact S2|]. split; [exact Cl2|]. repeat split; congruence.
Qed.

(* handle.rollback() of the innermost frame is SessionTransaction.rollback of that frame *)
Lemma t_rollback_head : forall st gs n, Core st gs -> head_is n st = true -> t_rollback n st = rollback_head st.
Proof.
  intros st gs n C Hh. unfold head_is in Hh. destruct (stack st) as [|f rest] eqn:Hs; [discriminate|].
  unfold t_rollback, find_frame. rewrite Hs. cbn [find]. rewrite Hh.
  rewrite (check_rollback_ok f (Core_head_state _ _ _ _ C Hs)).
  assert (X : close_above (S (length (f :: rest))) n st = (Ok, st)).
  { cbn [close_above]. unfold head_is. rewrite Hs, Hh. reflexivity. }
  rewrite (bind_ok _ _ _ _ X). reflexivity.
Qed.
Lemma t_rollback_gone : forall st n, find_frame n st = None -> t_rollback n st = (Err E_CLOSED, st).
Proof. intros st n H. unfold t_rollback. rewrite H. reflexivity. Qed.
