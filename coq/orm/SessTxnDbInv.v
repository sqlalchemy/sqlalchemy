(* C33 - the database side of the invariant: every frame's restore point is its snapshot table. *)
From Coq Require Import List ZArith Bool Arith Lia.
Import ListNotations.
From SAV.orm Require Import SessTxn SessTxnBase SessTxnInv.
Open Scope nat_scope.

(* what the database invariant looks at in a frame *)
Definition skel (f : frame) : nat * bool * tstate * bool := (fid f, fnested f, fstate f, fconn f).

Lemma entries_skel : forall fs fs' gs, map skel fs = map skel fs' -> entries fs gs = entries fs' gs.
Proof.
  induction fs as [|f fs IH]; intros fs' gs E; destruct fs' as [|f' fs']; try discriminate; auto.
  cbn in E. injection E as E1 E2 E3 E4 E5. destruct gs as [|g gs]; auto.
  cbn [entries]. unfold live_conn. rewrite E1, E2, E3, E4. rewrite (IH fs' gs E5). reflexivity.
Qed.
Lemma SnapOk_skel : forall fs fs' gs T cm, map skel fs = map skel fs' -> SnapOk fs gs T cm -> SnapOk fs' gs T cm.
Proof.
  induction fs as [|f fs IH]; intros fs' gs T cm E H; destruct fs' as [|f' fs']; try discriminate; auto.
  cbn in E. injection E as E1 E2 E3 E4 E5. destruct gs as [|g gs]; [exact H|].
  cbn [SnapOk] in *. rewrite <- E4, <- E2. destruct H as [A B]. split; eauto.
Qed.
Lemma SavesOk_skel : forall fs fs' gs T cm sv, map skel fs = map skel fs' ->
  SavesOk fs gs T cm sv -> SavesOk fs' gs T cm sv.
Proof.
  intros fs fs' gs T cm sv E [A B]. split.
  - rewrite <- (entries_skel fs fs' gs E). exact A.
  - eapply SnapOk_skel; eauto.
Qed.

Lemma FramesOk_skel : forall fs fs' b, map skel fs = map skel fs' -> FramesOk b fs -> FramesOk b fs'.
Proof.
  induction fs as [|f fs IH]; intros fs' b E H; destruct fs' as [|f' fs']; try discriminate; auto.
  pose proof E as E0. cbn in E. inversion E as [[E1 E2 E3 E4 E5]]. cbn [FramesOk] in *.
  destruct H as [A [B [C [D F]]]]. rewrite <- E1, <- E2, <- E4.
  pose proof (map_in skel fs fs' E5) as Hin.
  split; [exact A|]. split; [eapply IH; eauto|]. split; [|split].
  - destruct C as [C1 C2]. split; intros X.
    + specialize (C1 X). intros Y. subst fs'. destruct fs; [congruence|discriminate].
    + apply C2. intros Y. subst fs. destruct fs'; [congruence|discriminate].
  - intros X x' Hx. destruct (Hin x' Hx) as [x [X1 X2]]. specialize (D X x X1). unfold skel in X2. congruence.
  - intros x' Hx. destruct (Hin x' Hx) as [x [X1 X2]]. specialize (F x X1). unfold skel in X2. congruence.
Qed.

(* when the innermost frame has a connection the "inside" table is irrelevant *)
Lemma SavesOk_T : forall f fs g gs T T' cm sv, fconn f = true ->
  SavesOk (f :: fs) (g :: gs) T cm sv -> SavesOk (f :: fs) (g :: gs) T' cm sv.
Proof. intros f fs g gs T T' cm sv H [A B]. split; auto. cbn [SnapOk] in *. rewrite H in *. exact B. Qed.

Lemma FramesOk_lt : forall fs b f, FramesOk b fs -> In f fs -> fid f < b.
Proof.
  induction fs as [|a fs IH]; intros b f H Hin; [contradiction|].
  cbn in H. destruct H as [A [B _]]. destruct Hin as [Hin|Hin]; [subst; auto|].
  specialize (IH _ _ B Hin). lia.
Qed.
Lemma FramesOk_weaken : forall fs b b', FramesOk b fs -> b <= b' -> FramesOk b' fs.
Proof. destruct fs as [|f fs]; intros b b' H Hb; auto. cbn in *. destruct H as [A B]. split; [lia|exact B]. Qed.

(* the outermost frame is the only one that is not nested *)
Lemma FramesOk_root : forall b f fs, FramesOk b (f :: fs) -> fnested f = false -> fs = [].
Proof.
  intros b f [|f' fs] [_ [_ [[_ X] _]]] H; [reflexivity|]. rewrite X in H; discriminate.
Qed.

Definition all_noconn (fs : list frame) : Prop := forall f, In f fs -> fconn f = false.

Record DbOk (st : sess) (gs : list ghost) : Prop := mkDbOk {
  d_frames : FramesOk (nfid st) (stack st);
  d_head : head_ok (stack st);
  d_noconn : all_noconn (stack st) -> work st = committed st;
  d_saves : SavesOk (stack st) gs (work st) (committed st) (saves st)
}.

(* outside a transaction the session sees the committed rows and the database holds no savepoint *)
Lemma DbOk_empty : forall st gs, DbOk st gs -> stack st = [] -> work st = committed st /\ saves st = [].
Proof.
  intros st gs [_ _ Dnc [Dsv _]] Hs. rewrite Hs in *. split; [apply Dnc; intros f []|].
  rewrite Dsv. destruct gs; reflexivity.
Qed.

(* a change of the state that keeps what the database invariant looks at; with a connection on the innermost
   frame the working table is not looked at *)
Lemma DbOk_skel : forall st st' gs,
  map skel (stack st') = map skel (stack st) -> nfid st' = nfid st -> saves st' = saves st ->
  committed st' = committed st ->
  work st' = work st \/ (exists f rest, stack st = f :: rest /\ fconn f = true) ->
  DbOk st gs -> DbOk st' gs.
Proof.
  intros st st' gs E1 E2 E3 E5 HW D. destruct D as [Dfr Dhd Dnc Dsv]. constructor.
  - rewrite E2. eapply FramesOk_skel; [symmetry; exact E1|exact Dfr].
  - unfold head_ok in *. destruct (stack st') as [|f' r'], (stack st) as [|f r]; try discriminate; auto.
    cbn in E1. injection E1 as A1 A2 A3 A4 A5. rewrite A3. exact Dhd.
  - intros H. assert (H' : all_noconn (stack st)).
    { intros f Hf. destruct (map_in skel _ _ E1 f Hf) as [f' [X1 X2]]. specialize (H f' X1). unfold skel in X2. congruence. }
    destruct HW as [E4|[f [rest [Hs Hc]]]]; [rewrite E4, E5; auto|].
    rewrite (H' f) in Hc; [discriminate|rewrite Hs; left; reflexivity].
  - rewrite E3, E5. apply (SavesOk_skel (stack st)); [symmetry; exact E1|].
    destruct HW as [E4|[f [rest [Hs Hc]]]]; [rewrite E4; exact Dsv|].
    rewrite Hs in *. destruct gs as [|g gs']; [destruct Dsv as [_ []]|]. eapply SavesOk_T; eauto.
Qed.

Lemma DbOk_ext : forall st st' gs,
  map skel (stack st') = map skel (stack st) -> nfid st' = nfid st -> saves st' = saves st ->
  work st' = work st -> committed st' = committed st -> DbOk st gs -> DbOk st' gs.
Proof. intros st st' gs E1 E2 E3 E4 E5. apply DbOk_skel; auto. Qed.

Lemma DbOk_work : forall st st' gs f rest,
  stack st = f :: rest -> fconn f = true ->
  map skel (stack st') = map skel (stack st) -> nfid st' = nfid st -> saves st' = saves st ->
  committed st' = committed st -> DbOk st gs -> DbOk st' gs.
Proof. intros st st' gs f rest Hs Hc E1 E2 E3 E5. apply DbOk_skel; eauto. Qed.

(* everything of a frame but its connection flag *)
Definition lists_of (f : frame) := (fnew f, fdel f, fdirty f, fks f, frbexc f, fid f, fnested f, fstate f).

Lemma entries_noconn : forall f fs g gs, fconn f = false -> entries (f :: fs) (g :: gs) = entries fs gs.
Proof. intros. cbn. unfold live_conn. rewrite H. reflexivity. Qed.

(* provisioning: every frame gets its connection; savepoints are taken with the current table, which is
   the snapshot of every frame that had no connection yet *)
Lemma provision_fs_ok : forall fs gs wk cm b,
  FramesOk b fs -> (forall f, In f fs -> fstate f = ACTIVE) ->
  SnapOk fs gs wk cm -> (all_noconn fs -> wk = cm) ->
  exists fs', provision_fs fs wk (entries fs gs) = (None, fs', entries fs' gs) /\
    map lists_of fs' = map lists_of fs /\
    (forall f, In f fs' -> fconn f = true) /\
    SnapOk fs' gs wk cm.
Proof.
  induction fs as [|f fs IH]; intros gs wk cm b HF HA HS HN.
  - exists []. cbn. repeat split; auto; try (intros f []).
  - cbn [provision_fs]. unfold check_prereq. rewrite (HA f (or_introl eq_refl)).
    change (prereq_ok M_conn_for_bind ACTIVE) with true. cbv iota.
    destruct gs as [|g gs]; [destruct HS|].
    pose proof HF as [F1 [F2 [F3 [F4 F5]]]].
    destruct (fconn f) eqn:Ec.
    + exists (f :: fs). split; [reflexivity|]. split; [reflexivity|]. split; [|exact HS].
      intros f' [X|X]; [subst; auto|apply F4; auto].
    + cbn [SnapOk] in HS. rewrite Ec in HS. destruct HS as [S1 S2].
      assert (P2 : forall f', In f' fs -> fstate f' = ACTIVE) by (intros f' Hf'; apply HA; right; auto).
      assert (P3 : SnapOk fs gs wk cm) by (rewrite <- S1; exact S2).
      assert (P4 : all_noconn fs -> wk = cm).
      { intros Hn. apply HN. intros f' [X|X]; [subst; auto|apply Hn; auto]. }
      destruct (IH gs wk cm (fid f) F2 P2 P3 P4) as [fs' [E1 [E2 [E3 E5]]]].
      rewrite (entries_noconn f fs g gs Ec). rewrite E1.
      exists (f_conn f true :: fs'). split.
      * cbn [entries]. unfold live_conn. cbn [fconn fnested fstate fid f_conn]. rewrite (HA f (or_introl eq_refl)). cbn [live_state].
        rewrite andb_true_r. cbn [andb]. destruct (fnested f); [rewrite S1|]; reflexivity.
      * split; [cbn; rewrite E2; reflexivity|]. split; [intros f' [X|X]; [subst; reflexivity|auto]|].
        cbn [SnapOk fconn f_conn fnested]. destruct (fnested f) eqn:En.
        -- split; auto. rewrite S1. exact E5.
        -- pose proof (FramesOk_root _ _ _ HF En). subst fs. cbn in E1. injection E1 as X1 X2. subst fs'. destruct gs; [|destruct P3].
           split; [|exact I]. rewrite S1. symmetry. apply HN. intros f' [X|[]]. subst f'. exact Ec.
Qed.

(* the innermost frame becomes DEACTIVE with the database at its restore point *)
Lemma DbOk_deact : forall st s' g gs' f rest, DbOk st (g :: gs') -> stack st = f :: rest ->
  stack s' = f_state f DEACTIVE :: rest -> nfid s' = nfid st -> committed s' = committed st ->
  work s' = gW g -> saves s' = entries rest gs' -> DbOk s' (g :: gs').
Proof.
  intros st s' g gs' f rest [D1 D2 D4 [D5 D6]] Hs Hs' En Ec Ew Esv.
  rewrite Hs in *. cbn [SnapOk] in D6. destruct D6 as [A B].
  constructor; rewrite ?Hs', ?En, ?Ec, ?Ew, ?Esv.
  - exact D1.
  - right. reflexivity.
  - intros Hn. pose proof (Hn _ (or_introl eq_refl)) as Hc. cbn in Hc. rewrite Hc in A. rewrite A.
    apply D4. intros f' [<-|Hf']; [exact Hc|apply Hn; right; exact Hf'].
  - split.
    + cbn [entries]. unfold live_conn. cbn. rewrite !andb_false_r. reflexivity.
    + cbn [SnapOk fconn fnested f_state]. split; [destruct (fconn f); auto|exact B].
Qed.

(* the database goes back to the restore point of the innermost frame, which becomes DEACTIVE *)
Lemma head_rollback_ok : forall st g gs' f rest, DbOk st (g :: gs') -> stack st = f :: rest ->
  live_state (fstate f) = true ->
  let s1 := set_db st (committed st) (gW g) (entries rest gs') in
  head_db_rollback st = (Ok, s1) /\ DbOk (set_head_state DEACTIVE s1) (g :: gs').
Proof.
  intros st g gs' f rest D Hs Hl.
  (* whichever way the rollback goes, working table and savepoints end up the same *)
  assert (E : head_db_rollback st = (Ok, set_db st (committed st) (gW g) (entries rest gs'))).
  { pose proof D as [D1 _ _ [D5 D6]]. rewrite Hs in D1, D5, D6. cbn [entries SnapOk] in D5, D6. destruct D6 as [A _].
    unfold live_conn in D5. rewrite Hl, andb_true_r in D5.
    unfold head_db_rollback. rewrite Hs. destruct (fconn f); [destruct (fnested f) eqn:En|]; cbn [andb] in D5.
    - unfold db_rollback_to. rewrite D5. cbn [drop_to]. rewrite Nat.eqb_refl. reflexivity.
    - rewrite (FramesOk_root _ _ _ D1 En). unfold db_rollback. rewrite <- A. reflexivity.
    - rewrite A, <- D5, set_db_id. reflexivity. }
  split; [exact E|].
  apply (DbOk_deact st _ g gs' f rest D Hs); unfold set_head_state; rewrite upd_head_eq; cbn; rewrite ?Hs; reflexivity.
Qed.

(* ---- the innermost frame leaves the stack (close_head) *)
(* the database side of the invariant, with what the chain knows about a DEACTIVE innermost frame *)
Definition DbOk' (st : sess) (gs : list ghost) : Prop :=
  DbOk st gs /\
  (forall f rest g gs', stack st = f :: rest -> gs = g :: gs' -> fstate f = DEACTIVE -> work st = gW g).

Definition same_objs (st st' : sess) : Prop :=
  objs st' = objs st /\ nobj st' = nobj st /\ snew st' = snew st /\ sdel st' = sdel st /\ handles st' = handles st /\
  eoc st' = eoc st /\ committed st' = committed st /\ nfid st' = nfid st.

Lemma close_head_db : forall st g gs' f rest, DbOk' st (g :: gs') -> stack st = f :: rest ->
  exists st', close_head st = (Ok, st') /\ DbOk' st' gs' /\ stack st' = rest /\ same_objs st st'.
Proof.
  intros st g gs' f rest [D Hde] Hs. destruct D as [Dfr Dhd Dnc Dsv]. rewrite Hs in *. destruct Dsv as [Dsv Dsn].
  cbn [FramesOk] in Dfr. destruct Dfr as [F1 [F2 [F3 [F4 F5]]]].
  cbn [SnapOk] in Dsn. destruct Dsn as [Q1 Q2].
  (* frames and the DEACTIVE clause do not depend on which database command is issued *)
  enough (X : exists st', close_head st = (Ok, st') /\ stack st' = rest /\ same_objs st st' /\
                (all_noconn rest -> work st' = committed st) /\ SavesOk rest gs' (work st') (committed st) (saves st')).
  { destruct X as (st' & E & S & O & N & V). exists st'. split; [exact E|]. split; [|auto].
    destruct O as (_ & _ & _ & _ & _ & _ & Oc & On). split.
    - constructor; rewrite S, ?On, ?Oc; auto.
      + eapply FramesOk_weaken; [exact F2|lia].
      + unfold head_ok. destruct rest as [|p r]; auto. left. apply F5. left; reflexivity.
    - intros f0 rest0 g0 gs0 S0 _ Hf0. rewrite S in S0. rewrite (F5 f0) in Hf0; [discriminate|]. rewrite S0. left; reflexivity. }
  unfold close_head. rewrite Hs.
  destruct (fconn f && live_state (fstate f)) eqn:Ecl.
  - apply andb_prop in Ecl. destruct Ecl as [Ec El].
    assert (Hlc : live_conn f = fnested f) by (unfold live_conn; rewrite Ec, El; cbn; rewrite andb_true_r; reflexivity).
    destruct (fnested f) eqn:En.
    + (* ROLLBACK TO SAVEPOINT *)
      assert (Hsv : saves st = (fid f, gW g) :: entries rest gs').
      { rewrite Dsv. cbn [entries]. rewrite Hlc. reflexivity. }
      unfold db_rollback_to. cbn [saves set_stack]. rewrite Hsv. cbn [drop_to]. rewrite Nat.eqb_refl.
      eexists. split; [reflexivity|]. split; [reflexivity|]. split; [repeat split; reflexivity|].
      cbn [work saves set_db]. split; [|split; [reflexivity|exact Q2]].
      intros Hn. exfalso. destruct rest as [|p r]; [destruct F3 as [F3 _]; apply (F3 eq_refl); reflexivity|].
      specialize (Hn p (or_introl eq_refl)). rewrite (F4 Ec p (or_introl eq_refl)) in Hn. discriminate.
    + (* ROLLBACK *)
      assert (Hr : rest = []) by (destruct rest; [reflexivity|destruct F3 as [_ F3]; discriminate F3; discriminate]). subst rest.
      assert (Hg : gs' = []) by (destruct gs'; [reflexivity|destruct Q2]). subst gs'.
      eexists. split; [reflexivity|]. split; [reflexivity|]. split; [repeat split; reflexivity|].
      cbn. split; [reflexivity|split; [reflexivity|exact I]].
  - eexists. split; [reflexivity|]. split; [reflexivity|]. split; [repeat split; reflexivity|].
    cbn [work saves set_stack]. split.
    + intros Hn. destruct (fconn f) eqn:Ec.
      * destruct rest as [|p r].
        -- (* the outermost frame with a connection, not live: it was rolled back *)
           assert (Hfd : fstate f = DEACTIVE).
           { cbn in Ecl. destruct Dhd as [X|X]; [rewrite X in Ecl; discriminate|exact X]. }
           rewrite (Hde f [] g gs' eq_refl eq_refl Hfd).
           destruct (fnested f) eqn:En; [destruct F3 as [F3 _]; exfalso; apply (F3 eq_refl); reflexivity|]. symmetry. exact Q1.
        -- specialize (Hn p (or_introl eq_refl)). rewrite (F4 eq_refl p (or_introl eq_refl)) in Hn. discriminate.
      * apply Dnc. intros f' [X|X]; [subst; exact Ec|auto].
    + assert (Hlc : live_conn f = false).
      { unfold live_conn. apply andb_false_iff in Ecl. destruct Ecl as [E|E]; rewrite E; cbn; auto.
        rewrite andb_false_r. reflexivity. }
      split; [rewrite Dsv; cbn [entries]; rewrite Hlc; reflexivity|].
      destruct (fconn f) eqn:Ec.
      * destruct rest as [|p r]; [destruct gs'; [exact I|destruct Q2]|].
        destruct gs' as [|gp gs'']; [destruct Q2|]. cbn [SnapOk] in *.
        rewrite (F4 eq_refl p (or_introl eq_refl)) in *. exact Q2.
      * rewrite <- Q1. exact Q2.
Qed.

Lemma close_all_db : forall fuel st gs, DbOk' st gs -> length (stack st) < fuel ->
  exists st', close_all fuel st = (Ok, st') /\ stack st' = [] /\ same_objs st st' /\ work st' = committed st' /\ saves st' = [].
Proof.
  induction fuel as [|fuel IH]; intros st gs D Hl; [lia|].
  cbn [close_all]. destruct (stack st) as [|f rest] eqn:Hs.
  - exists st. split; [reflexivity|]. split; [exact Hs|]. split; [repeat split; reflexivity|].
    exact (DbOk_empty st gs (proj1 D) Hs).
  - destruct gs as [|g gs'].
    { destruct D as [[_ _ _ [_ X]] _]. rewrite Hs in X. destruct X. }
    destruct (close_head_db st g gs' f rest D Hs) as (s1 & E1 & D1 & S1 & O1).
    rewrite (bind_ok _ _ _ _ E1).
    destruct (IH s1 gs' D1) as (s2 & E2 & S2 & O2 & W2 & V2); [rewrite S1; cbn in Hl; lia|].
    exists s2. split; [exact E2|]. split; [exact S2|]. split; [|auto].
    destruct O1 as (a1 & a2 & a3 & a4 & a5 & a6 & a7 & a8). destruct O2 as (b1 & b2 & b3 & b4 & b5 & b6 & b7 & b8).
    repeat split; congruence.
Qed.
