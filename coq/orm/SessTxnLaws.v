(* C33 - what the database sees of a guarded history.
   (a) the rows other connections see change only when the outermost transaction is committed;
   (b) the outermost commit publishes exactly the rows the session's connection sees and leaves neither
       transaction nor savepoint; (c) Session.rollback() restores the committed rows and leaves neither;
   (d) in every state the savepoint stack of the database is exactly the stack of the session's live
       begin_nested transactions that hold a connection, innermost first (the SAVEPOINT / RELEASE /
       ROLLBACK TO commands the session issues keep the snapshot stack of engine/RefDb.v in step with
       the SessionTransaction stack). *)
From Coq Require Import List ZArith Bool Arith Lia.
Import ListNotations.
From SAV.orm Require Import SessTxn SessTxnBase SessTxnSpec SessTxnInv SessTxnDbInv SessTxnCore SessTxnFlushCore SessTxnCommit SessTxnObjOps
  SessTxnNested SessTxnClose SessTxnMain.
Open Scope nat_scope.

Lemma committed_autobegin : forall st, committed (autobegin st) = committed st.
Proof. intros. apply autobegin_fields. Qed.
Lemma committed_modified_event : forall o st, committed (modified_event o st) = committed st.
Proof.
  intros. unfold modified_event. destruct (omod _); auto.
  destruct (_ && _); rewrite ?committed_autobegin; reflexivity.
Qed.
Lemma committed_simple : forall p st r st', (match p with ONew _ _ | OAdd _ | OSetV _ _ | ODel _ => True | _ => False end) ->
  do_op p st = (r, st') -> committed st' = committed st.
Proof.
  intros p st r st' Hp H. destruct p; try contradiction; cbn [do_op] in H.
  - unfold save_or_update in H. cbn in H. rewrite updN_same in H. cbn in H.
    destruct (mem _ _) in H; inversion H; subst; cbn; rewrite ?committed_autobegin; reflexivity.
  - destruct (Nat.ltb o (nobj st)); [|inversion H; subst; reflexivity].
    unfold save_or_update, update_impl, im_add in H.
    destruct (okey (objs st o)).
    + destruct (odelf _); [inversion H; subst; reflexivity|]. destruct (negb _); [inversion H; subst; reflexivity|].
      cbn in H. destruct (okey _) in H; [|inversion H; subst; cbn; apply committed_autobegin].
      destruct (im_other _ _) in H; inversion H; subst; cbn; apply committed_autobegin.
    + destruct (mem _ _) in H; inversion H; subst; cbn; apply committed_autobegin.
  - destruct (negb _); inversion H; subst; [reflexivity|]. rewrite committed_modified_event. reflexivity.
  - destruct (negb _); [inversion H; subst; reflexivity|].
    destruct (okey _); [|inversion H; subst; reflexivity]. destruct (negb _); [inversion H; subst; reflexivity|].
    destruct (mem _ _); [inversion H; subst; apply committed_autobegin|].
    unfold bind, im_add, lift in H. destruct (okey _) in H; [|inversion H; subst; apply committed_autobegin].
    destruct (im_other _ _) in H; inversion H; subst; cbn; apply committed_autobegin.
Qed.

Theorem committed_step : forall st p r st', Inv st -> guard st p = true -> do_op p st = (r, st') -> r <> Unmodelled ->
  p <> OCommit -> committed st' = committed st \/ (exists h, p = OTCommit h /\ r = Ok /\ stack st' = []).
Proof.
  intros st p r st' [gs C] Hg H Hr Hp.
  destruct p; try congruence; try (left; eapply committed_simple; eauto; exact I).
  - (* o.id = pk *)
    left. cbn [do_op] in H. destruct (Nat.ltb_spec o (nobj st)) as [Ho|Ho]; cbn [negb] in H; [|inversion H; subst; reflexivity].
    apply bind_inv in H. destruct H as [[s1 [H1 H2]]|[H1 Hn]].
    + inversion H2; subst. rewrite committed_modified_event. cbn.
      destruct (needs_pk_load _); [|inversion H1; subst; reflexivity].
      destruct (load_expired_core st gs o Ok s1 C Ho H1) as [gs1 (_ & _ & _ & _ & K & _)]; [discriminate|exact K].
    + destruct (needs_pk_load _); [|inversion H1; subst; congruence].
      destruct (load_expired_core st gs o r st' C Ho H1 Hr) as [gs1 (_ & _ & _ & _ & K & _)]. exact K.
  - (* flush *)
    left. cbn [do_op] in H. exact (fp_committed _ _ _ (proj2 (flush_core st gs r st' C H Hr))).
  - (* begin_nested *)
    left. cbn [do_op] in H.
    pose proof (Core_handles st gs (handles st ++ [None]) C) as C0.
    set (st0 := set_handles st (handles st ++ [None])) in *.
    destruct (autobegin_core st0 gs C0) as [gs1 [C1 _]].
    assert (E0 : committed (autobegin st0) = committed st) by (rewrite committed_autobegin; reflexivity).
    destruct (stack (autobegin st0)) as [|p rest] eqn:Es; [inversion H; subst; congruence|].
    destruct (check_prereq p M_begin); [inversion H; subst; exact E0|].
    apply bind_inv in H. destruct H as [[s2 [H1 H2]]|[H1 Hn]].
    + destruct (flush_core _ gs1 Ok s2 C1 H1) as [_ P]; [discriminate|]. pose proof (fp_committed _ _ _ P) as K. inversion H2; subst. cbn. congruence.
    + pose proof (fp_committed _ _ _ (proj2 (flush_core _ gs1 r st' C1 H1 Hr))) as K. congruence.
  - (* Session.rollback *)
    left. destruct (op_rollback_core st gs C) as (s2 & E & _ & _ & _ & K & _).
    rewrite E in H. inversion H; subst. exact K.
  - (* handle.commit *)
    cbn [do_op] in H.
    destruct (nth_error (handles st) h) as [[n|]|] eqn:En; [|inversion H; subst; left; reflexivity|inversion H; subst; congruence].
    destruct (t_commit_core st gs n r st' C H Hr) as [gs' [_ [_ [K|[K1 K2]]]]]; [left; exact K|right; eauto].
  - (* handle.rollback *)
    left. destruct (op_trollback_core st gs h r st' C Hg H Hr) as (_ & _ & _ & K). exact K.
  - (* close *)
    left. destruct (op_close_core st gs r st' C Hg H Hr) as (_ & _ & _ & _ & K). exact K.
  - (* attribute refresh *)
    left. cbn [do_op] in H. destruct (Nat.ltb_spec o (nobj st)) as [Ho|Ho]; cbn [negb] in H; [|inversion H; subst; reflexivity].
    destruct (odv (objs st o)); [inversion H; subst; reflexivity|].
    destruct (load_expired_core st gs o r st' C Ho H Hr) as [gs1 (_ & _ & _ & _ & K & _)]. exact K.
Qed.

(* (b) the outermost commit *)
Theorem commit_publishes : forall st r st', Inv st -> guard st OCommit = true -> do_op OCommit st = (r, st') -> r = Ok ->
  stack st' = [] /\ saves st' = [] /\ committed st' = work st' /\ is_clean st' = true.
Proof.
  intros st r st' [gs0 C0] _ H Hr.
  destruct (op_commit_core st gs0 r st' C0 H) as [gs' [C' B']]; [congruence|].
  destruct (B' Hr) as [S1 Cl1]. split; [exact S1|].
  destruct (DbOk_empty _ _ (c_db _ _ C') S1) as [W V]. auto.
Qed.

(* (c) Session.rollback() *)
Theorem rollback_restores : forall st, Inv st ->
  exists st', do_op ORollback st = (Ok, st') /\ stack st' = [] /\ saves st' = [] /\
    committed st' = committed st /\ work st' = committed st /\ is_clean st' = true.
Proof.
  intros st [gs C]. destruct (op_rollback_core st gs C) as (s2 & E & C2 & S2 & Cl & K1 & _).
  exists s2. split; [exact E|]. split; [exact S2|].
  destruct (DbOk_empty _ _ (c_db _ _ C2) S2) as [W V]. repeat split; congruence.
Qed.

(* (d) the savepoint stack of the database mirrors the stack of transactions *)
Lemma entries_ids : forall fs gs, length gs = length fs -> map fst (entries fs gs) = map fid (filter live_conn fs).
Proof.
  induction fs as [|f fs IH]; intros [|g gs] H; try discriminate; auto.
  cbn [entries filter]. destruct (live_conn f); cbn [map]; [f_equal|]; apply IH; cbn in H; lia.
Qed.
Lemma Core_len : forall st gs, Core st gs -> length gs = length (stack st).
Proof.
  intros st gs C. destruct (d_saves _ _ (c_db _ _ C)) as [_ X]. clear C.
  revert gs X. generalize (work st). induction (stack st) as [|f fs IH]; intros T [|g gs] X; try (destruct X; fail); auto.
  cbn in X. destruct X as [_ X]. cbn. f_equal. eapply IH; eauto.
Qed.
Theorem savepoints_mirror_transactions : forall st, Inv st ->
  map fst (saves st) = map fid (filter live_conn (stack st)).
Proof.
  intros st [gs C]. pose proof (Core_len st gs C) as L.
  destruct (d_saves _ _ (c_db _ _ C)) as [X _]. rewrite X. apply entries_ids. exact L.
Qed.

Theorem db_laws :
  (forall e st p r st', GReach e st -> guard st p = true -> do_op p st = (r, st') -> r <> Unmodelled -> p <> OCommit ->
     committed st' = committed st \/ (exists h, p = OTCommit h /\ r = Ok /\ stack st' = [])) /\
  (forall e st r st', GReach e st -> guard st OCommit = true -> do_op OCommit st = (r, st') -> r = Ok ->
     stack st' = [] /\ saves st' = [] /\ committed st' = work st' /\ is_clean st' = true) /\
  (forall e st, GReach e st ->
     exists st', do_op ORollback st = (Ok, st') /\ stack st' = [] /\ saves st' = [] /\
       committed st' = committed st /\ work st' = committed st /\ is_clean st' = true) /\
  (forall e st, GReach e st -> map fst (saves st) = map fid (filter live_conn (stack st))).
Proof.
  split; [|split; [|split]].
  - intros e st p r st' R. apply committed_step. eapply greach_inv; eauto.
  - intros e st r st' R. apply commit_publishes. eapply greach_inv; eauto.
  - intros e st R. apply rollback_restores. eapply greach_inv; eauto.
  - intros e st R. apply savepoints_mirror_transactions. eapply greach_inv; eauto.
Qed.
