(* C40 - the joined (LEFT OUTER JOIN) chain: grouping the ordered rows of parents |><| children by identity
   recovers, level by level, each parent's related rows in relationship order. *)
From Coq Require Import List ZArith Bool Lia.
Import ListNotations.
From SAV.orm Require Import Loaders LoadersBase.
Open Scope Z_scope.

(* the standing hypotheses on the data: primary keys are unique; a collection (one-to-many) is totally
   ordered by its relationship's order_by, a scalar (many-to-one) carries none *)
Definition wf_table (t : list row) : Prop := NoDup (map rid t).
Definition wf_step (s : step) : Prop :=
  wf_table (st_table s) /\
  match st_kind s with Down => st_order s <> ONone | Up => st_order s = ONone end.

Lemma table_id_inj : forall t a b, wf_table t -> In a t -> In b t -> rid a = rid b -> a = b.
Proof. intros t a b. apply NoDup_map_inj. Qed.
Lemma wf_table_nodup : forall t, wf_table t -> NoDup t.
Proof. intro t. apply NoDup_map_inv. Qed.
Lemma wf_table_filter : forall f t, wf_table t -> wf_table (filter f t).
Proof. intros f t. apply NoDup_map_filter. Qed.

Lemma rkey_inj : forall o a b, o <> ONone -> rkey o a = rkey o b -> rid a = rid b.
Proof. intros [] a b H E; cbn in E; try congruence; inversion E; lia. Qed.
Lemma rkey_len : forall o a b, length (rkey o a) = length (rkey o b).
Proof. intros []; reflexivity. Qed.
Lemma okey_len : forall o x y, length (okey o x) = length (okey o y).
Proof. intros [] [a|] [b|]; reflexivity. Qed.
Lemma okey_some_le : forall o a b, lex_le (okey o (Some a)) (okey o (Some b)) = lex_le (rkey o a) (rkey o b).
Proof. intros [] a b; cbn [okey]; try reflexivity; cbn [lex_le]; rewrite Z.ltb_irrefl, Z.eqb_refl; reflexivity. Qed.

Lemma okey_eqb_true : forall a b, okey_eqb a b = true <-> exists k, a = Some k /\ b = Some k.
Proof.
  intros [x|] [y|]; cbn; split; try discriminate; try (intros [k [H1 H2]]; discriminate).
  - intro E. apply Z.eqb_eq in E. subst. eauto.
  - intros [k [H1 H2]]. inversion H1; inversion H2; subst. apply Z.eqb_refl.
Qed.

Lemma up_matches_eq : forall s p a b, wf_step s -> st_kind s = Up ->
  In a (st_table s) -> In b (st_table s) -> linked s p a = true -> linked s p b = true -> a = b.
Proof.
  intros s p a b [WT _] K Ha Hb La Lb. unfold linked in *. rewrite K in *. cbn in *.
  apply okey_eqb_true in La as [k [E1 E2]]. apply okey_eqb_true in Lb as [k' [E1' E2']].
  eapply table_id_inj; eauto. congruence.
Qed.

Definition matches (s : step) (p : row) : list row := filter (linked s p) (st_table s).
Lemma related_eq : forall s p, related s p = sort_by (rkey (st_order s)) (matches s p).
Proof. reflexivity. Qed.
Lemma related_in : forall s p c, In c (related s p) <-> In c (matches s p).
Proof. intros. rewrite related_eq. apply sort_by_in. Qed.
Lemma matches_nodup : forall s p, wf_step s -> NoDup (matches s p).
Proof. intros s p [WT _]. apply NoDup_filter. apply wf_table_nodup; auto. Qed.
Lemma related_nodup : forall s p, wf_step s -> NoDup (related s p).
Proof. intros. rewrite related_eq. apply sort_by_NoDup, matches_nodup; auto. Qed.
Lemma matches_table : forall s p c, In c (matches s p) -> In c (st_table s).
Proof. intros s p c H. apply filter_In in H. apply H. Qed.

(* the related rows by parent key: what lazy, selectin and subquery loads fetch *)
Definition related_k (s : step) (k : Z) : list row :=
  sort_by (rkey (st_order s)) (filter (match_key s k) (st_table s)).
Lemma related_by_key : forall s e,
  related s e = match parent_key (st_kind s) e with Some k => related_k s k | None => [] end.
Proof.
  intros. unfold related, related_k. destruct (parent_key (st_kind s) e) as [k|] eqn:PK.
  - f_equal. apply filter_ext. intro c. unfold linked, match_key. rewrite PK. reflexivity.
  - rewrite filter_none; auto. intros c _. unfold linked. rewrite PK. reflexivity.
Qed.

Lemma matches_key_inj : forall s p, wf_step s -> key_inj (rkey (st_order s)) (matches s p).
Proof.
  intros s p WS a b Ha Hb E. pose proof WS as [WT WK]. apply filter_In in Ha as [Ha La], Hb as [Hb Lb].
  destruct (st_kind s) eqn:K.
  - eapply table_id_inj; eauto. eapply rkey_inj; eauto.
  - eapply up_matches_eq; eauto.
Qed.

(* what [build] is to produce: the object graph of [e] along the chain, with [attach] at its end *)
Fixpoint gchain (chain : list step) (attach : row -> list graph) (e : row) : graph :=
  match chain with
  | [] => Node e (attach e)
  | s :: rest => Node e (map (gchain rest attach) (related s e))
  end.

(* the rows at the end of the chain below [e] *)
Fixpoint chain_ends (chain : list step) (e : row) : list row :=
  match chain with
  | [] => [e]
  | s :: rest => flat_map (chain_ends rest) (matches s e)
  end.

Lemma gchain_graph : forall steps' s chain attach e,
  (forall e', In e' (chain_ends chain e) -> attach e' = map (graph_of steps') (related s e')) ->
  gchain chain attach e = graph_of (chain ++ s :: steps') e.
Proof.
  intros steps' s. induction chain as [|c chain IH]; intros attach e H; cbn [gchain app graph_of chain_ends] in *.
  - rewrite H; cbn; auto.
  - f_equal. apply map_ext_in. intros x Hx. apply IH. intros e' He'. apply H.
    apply in_flat_map. exists x. split; auto. apply related_in; auto.
Qed.
Lemma gchain_nil : forall chain e, gchain chain (fun _ => []) e = graph_of chain e.
Proof.
  induction chain as [|c chain IH]; intro e; cbn; auto. f_equal. apply map_ext. auto.
Qed.

Lemma ljoin1_some : forall s p x, In (Some x) (ljoin1 s (Some p)) <-> In x (matches s p).
Proof.
  intros. unfold ljoin1. fold (matches s p). destruct (matches s p) as [|m ms] eqn:E.
  - cbn. split; [intros [H|[]]; discriminate|tauto].
  - rewrite in_map_iff. split; [intros [y [Hy H]]; inversion Hy; subst; auto|]. intro H. exists x. auto.
Qed.
Lemma ljoin1_none : forall s x, In x (ljoin1 s None) -> x = None.
Proof. intros s x [H|[]]; auto. Qed.
Lemma ljoin_chain_cons : forall s rest l t, In t (ljoin_chain (s :: rest) l) <->
  exists m tl, t = m :: tl /\ In m (ljoin1 s l) /\ In tl (ljoin_chain rest m).
Proof.
  intros. cbn [ljoin_chain]. rewrite in_flat_map. split.
  - intros [m [Hm Ht]]. apply in_map_iff in Ht as [tl [<- Htl]]. eauto.
  - intros [m [tl [-> [Hm Htl]]]]. exists m. split; auto. apply in_map; auto.
Qed.
Lemma ljoin1_inhab : forall s l, exists m, In m (ljoin1 s l).
Proof. intros s [p|]; cbn; [destruct (filter (linked s p) (st_table s)); cbn|]; eauto. Qed.
Lemma ljoin_chain_inhab : forall chain l, exists t, In t (ljoin_chain chain l).
Proof.
  induction chain as [|s rest IH]; intro l; [exists []; cbn; auto|].
  destruct (ljoin1_inhab s l) as [m Hm]. destruct (IH m) as [t Ht].
  exists (m :: t). apply ljoin_chain_cons. eauto.
Qed.

Lemma sorted_somes : forall o l, sorted (okey o) l -> sorted (rkey o) (somes l).
Proof.
  induction l as [|[a|] l IH]; intro S; cbn [somes]; [constructor| |];
    inversion S as [|? ? S' F]; subst; [|apply IH; exact S'].
  constructor; [apply IH; exact S'|]. apply Forall_forall. intros b Hb. apply somes_in in Hb. rewrite Forall_forall in F.
  specialize (F _ Hb). unfold kle in *. rewrite okey_some_le in F. exact F.
Qed.

Lemma idkey_inj : forall t l, wf_table t -> (forall x, In x l -> In x t) -> key_inj idkey l.
Proof. intros t l WT Hl a b Ha Hb [= E]. eapply table_id_inj; eauto. Qed.
Lemma uniq_idkey_in : forall t l, wf_table t -> (forall x, In x l -> In x t) -> forall x, In x (uniq_by idkey l) <-> In x l.
Proof. intros t l WT Hl. apply uniq_by_in_iff. eapply idkey_inj; eauto. Qed.
Lemma uniq_idkey_id : forall l, wf_table l -> uniq_by idkey l = l.
Proof.
  intros l W. apply uniq_by_nodup_id, (NoDup_map_finer rid); auto. intros a b _ _ [= E]. exact E.
Qed.

Lemma build_correct : forall chain attach e tails, Forall wf_step chain ->
  eqset tails (ljoin_chain chain (Some e)) -> sorted (tail_key chain) tails ->
  build chain attach e tails = gchain chain attach e.
Proof.
  induction chain as [|s rest IH]; intros attach e tails WF E S; [reflexivity|].
  inversion WF as [|? ? WS WR]; subst. cbn [build gchain]. f_equal.
  assert (Hform : forall t, In t tails -> exists m tl, t = m :: tl /\ In m (ljoin1 s (Some e)) /\ In tl (ljoin_chain rest m)).
  { intros t Ht. apply E in Ht. apply ljoin_chain_cons in Ht. auto. }
  set (firsts := somes (map (hd None) tails)).
  assert (Hfirsts : forall h, In h firsts <-> In h (matches s e)).
  { intro h. unfold firsts. rewrite somes_in, in_map_iff. split.
    - intros [t [Eh Ht]]. destruct (Hform t Ht) as [m [tl [-> [Hm _]]]]. cbn in Eh. subst m. apply ljoin1_some; auto.
    - intro Hh. destruct (ljoin_chain_inhab rest (Some h)) as [tl Htl].
      exists (Some h :: tl). split; auto. apply E, ljoin_chain_cons. exists (Some h), tl. rewrite ljoin1_some. auto. }
  (* the next level's entities: both sides list the matches of [e] in relationship order *)
  assert (Hents : uniq_by idkey firsts = related s e).
  { apply (sorted_unique (rkey (st_order s))).
    - apply uniq_by_sorted, sorted_somes. eapply sorted_map; [exact S|]. intros a b Ha Hb Hk.
      destruct (Hform a Ha) as [ma [ta [-> _]]], (Hform b Hb) as [mb [tb [-> _]]]. unfold kle in *. cbn [tail_key hd] in *.
      eapply lex_le_app_len; [apply okey_len|exact Hk].
    - apply sort_by_sorted.
    - apply uniq_by_NoDup.
    - apply related_nodup; auto.
    - intro x. rewrite (uniq_idkey_in (st_table s)), Hfirsts, related_in; [tauto|apply WS|].
      intros y Hy. apply Hfirsts in Hy. eapply matches_table; eauto.
    - intros a b Ha Hb. apply (matches_key_inj s e WS); apply Hfirsts; eapply uniq_by_in; eauto. }
  fold firsts. rewrite Hents. apply map_ext_in. intros h Hh. apply related_in in Hh.
  (* the rows whose first component is h *)
  assert (Hhead : forall t, In t (filter (head_is h) tails) -> exists tl, t = Some h :: tl /\ In tl (ljoin_chain rest (Some h))).
  { intros t Ht. apply filter_In in Ht as [Ht Hd]. destruct (Hform t Ht) as [[h'|] [tl [-> [Hm Htl]]]]; [|discriminate].
    apply Z.eqb_eq in Hd. apply ljoin1_some in Hm.
    assert (h' = h) by (apply (table_id_inj (st_table s)); eauto using matches_table; apply WS). subst. eauto. }
  apply IH; auto.
  - intro x. rewrite in_map_iff. split.
    + intros [t [<- Ht]]. destruct (Hhead t Ht) as [tl [-> Htl]]. exact Htl.
    + intro Hx. exists (Some h :: x). split; auto. apply filter_In. split; [|apply Z.eqb_refl].
      apply E, ljoin_chain_cons. exists (Some h), x. rewrite ljoin1_some. auto.
  - eapply sorted_map; [apply sorted_filter; exact S|].
    intros a b Ha Hb Hk. destruct (Hhead a Ha) as [ta [-> _]], (Hhead b Hb) as [tb [-> _]].
    unfold kle in *. cbn [tail_key tl] in *. rewrite lex_le_app_same in Hk. auto.
Qed.

(* one primary row per entity: what makes grouping the joined rows by entity identity sound *)
Definition tag_inj (H : list tagged) : Prop :=
  forall a b, In a H -> In b H -> rid (snd a) = rid (snd b) -> a = b.

Lemma tagkey_inj : forall a b, tagkey a = tagkey b -> a = b.
Proof. intros [x|] [y|] E; cbn in E; inversion E; auto. Qed.
Lemma tagkey_len : forall a, length (tagkey a) = 2%nat.
Proof. intros [x|]; reflexivity. Qed.
Lemma tagged_id_inv : forall a b, tagged_id a = tagged_id b -> fst a = fst b /\ rid (snd a) = rid (snd b).
Proof.
  intros [ta ra] [tb rb] E. unfold tagged_id, idkey in E. cbn [fst snd] in *.
  destruct ta as [x|], tb as [y|]; cbn in E; inversion E; auto.
Qed.
Lemma tagged_id_inj : forall H, tag_inj H -> forall a b, In a H -> In b H -> tagged_id a = tagged_id b -> a = b.
Proof. intros H TI a b Ha Hb E. apply tagged_id_inv in E as [_ E]. auto. Qed.

Lemma ljoin_rows_in : forall chain H j, In j (ljoin_rows chain H) <->
  In (fst j) H /\ In (snd j) (ljoin_chain chain (Some (snd (fst j)))).
Proof.
  intros chain H [h t]. unfold ljoin_rows. rewrite in_flat_map. cbn [fst snd]. split.
  - intros [h' [Hh' Hj]]. apply in_map_iff in Hj as [t' [Ej Ht']]. inversion Ej; subst. auto.
  - intros [Hh Ht]. exists h. split; auto. apply in_map_iff. eauto.
Qed.

Lemma rows_heads : forall chain H rows, eqset rows (ljoin_rows chain H) -> eqset (map fst rows) H.
Proof.
  intros chain H rows E h. rewrite in_map_iff. split.
  - intros [j [<- Hj]]. apply E, ljoin_rows_in in Hj. tauto.
  - intro Hh. destruct (ljoin_chain_inhab chain (Some (snd h))) as [t Ht].
    exists (h, t). split; auto. apply E, ljoin_rows_in. auto.
Qed.
Lemma rows_heads_sorted : forall o0 chain rows, sorted (jkey o0 chain) rows -> sorted (hkey o0) (map fst rows).
Proof.
  intros. eapply sorted_map; eauto. intros a b _ _ Hk. unfold kle, jkey, hkey in *.
  eapply lex_le_app_len; [apply rkey_len|exact Hk].
Qed.

(* every primary entity's object is built from the rows in which it occurs *)
Lemma proc_build : forall chain attach o0 H rows, Forall wf_step chain -> tag_inj H ->
  eqset rows (ljoin_rows chain H) -> sorted (jkey o0 chain) rows ->
  proc chain attach rows = map (fun h => (fst h, gchain chain attach (snd h))) (uniq_by tagged_id (map fst rows)).
Proof.
  intros chain attach o0 H rows WF TI E S. unfold proc. apply map_ext_in. intros h Hh.
  apply uniq_by_in, (rows_heads chain H rows E) in Hh. f_equal.
  assert (Hsame : forall j, In j (filter (same_entity h) rows) ->
                  fst j = h /\ In (snd j) (ljoin_chain chain (Some (snd h)))).
  { intros j Hj. apply filter_In in Hj as [Hj Hs]. apply E, ljoin_rows_in in Hj as [Hj1 Hj2]. apply lz_eqb_eq in Hs.
    assert (fst j = h) by (symmetry; eapply tagged_id_inj; eauto). subst h. auto. }
  apply build_correct; auto.
  - intro x. rewrite in_map_iff. split.
    + intros [j [<- Hj]]. apply Hsame; auto.
    + intro Hx. exists (h, x). split; auto. apply filter_In. split; [apply E, ljoin_rows_in; auto|apply lz_eqb_refl].
  - eapply sorted_map; [apply sorted_filter; exact S|].
    intros a b Ha Hb Hk. apply Hsame in Ha as [Ha _], Hb as [Hb _].
    unfold kle, jkey, jhead, jtail in *. rewrite Ha, Hb, lex_le_app_same in Hk. auto.
Qed.

(* the same for a statement whose primary order is total, entity by entity in the order of the primary rows;
   [left_join_group_roundtrip] is its one-level case, the main proof goes through [proc_build] per tag group *)
Lemma proc_correct : forall chain attach o0 H rows, Forall wf_step chain -> tag_inj H ->
  sorted (hkey o0) H -> key_inj (hkey o0) H ->
  eqset rows (ljoin_rows chain H) -> sorted (jkey o0 chain) rows ->
  proc chain attach rows = map (fun h => (fst h, gchain chain attach (snd h))) (uniq_by tagged_id H).
Proof.
  intros chain attach o0 H rows WF TI SH KI E S. rewrite (proc_build chain attach o0 H) by auto. f_equal.
  symmetry. apply (uniq_by_sorted_unique (hkey o0)); auto.
  - eapply rows_heads_sorted; eauto.
  - eapply eqset_sym, rows_heads; eauto.
  - intros a b. apply tagged_id_inj; auto.
Qed.
