(* C38 - the instrumented list (orm/CollList.v): one equation per wrapper ([*_run]), from which both
   its accounting ([acc_*], composed through the monad) and its equality with py_list_op are read. *)
From Coq Require Import List ZArith Bool Lia ZifyBool Permutation Arith.
Import ListNotations.
From SAV.base Require Import PySlice PySliceProofs.
From SAV.orm Require Import CollBase CollList CollProofs.
Open Scope Z_scope.

Local Notation acc := (accounted (fun l : list item => l) (fun _ => True)).
Local Notation lbal := (bal (fun l : list item => l)).

(* The shape shared by setitem, delitem and pop: at the position [n] the subscript selects the
   wrapper returns [r y] for the element [y] found there, leaves [upd n l] and logs the removal of
   [y] and the addition of [ad]; out of range it raises IndexError and touches nothing. *)
Definition at_index {T} (m : LM T) (i : Z) (r : item -> T)
    (upd : nat -> list item -> list item) (ad : list item) : Prop :=
  forall l g,
    match norm_index i (zlen l) with
    | Some n => exists y, nth_error l n = Some y /\
                m (l, g) = (Ok (r y), (upd n l, g ++ ERem y :: map EAdd ad))
    | None => m (l, g) = (Raise IndexError, (l, g))
    end.

Lemma sa_setitem_run : forall i x,
  at_index (sa_setitem i x) i (fun _ => tt) (fun n => set_nth n x) [x].
Proof.
  intros i x l g. unfold sa_setitem, bind, b_getitem, fire, b_upd, lift, py_getitem, py_setitem. cbn [fst snd].
  destruct (norm_index i (zlen l)) as [n|] eqn:En; [|reflexivity].
  destruct (norm_index_nth _ _ _ _ En) as [y Ey]. exists y. split; [assumption|].
  rewrite Ey. cbn [fst snd]. rewrite En, <- app_assoc. reflexivity.
Qed.

Lemma sa_delitem_run : forall i, at_index (sa_delitem i) i (fun _ => tt) (@del_nth item) [].
Proof.
  intros i l g. unfold sa_delitem, bind, b_getitem, fire, b_upd, lift, py_getitem, py_delitem. cbn [fst snd].
  destruct (norm_index i (zlen l)) as [n|] eqn:En; [|reflexivity].
  destruct (norm_index_nth _ _ _ _ En) as [y Ey]. exists y. split; [assumption|].
  rewrite Ey. cbn [fst snd]. rewrite En. reflexivity.
Qed.

Lemma sa_pop_run : forall i, at_index (sa_pop i) i (fun y => y) (@del_nth item) [].
Proof.
  intros i l g. unfold sa_pop, bind, fire, lift, ret, py_pop. cbn [fst snd].
  destruct (norm_index i (zlen l)) as [n|] eqn:En; [|reflexivity].
  destruct (norm_index_nth _ _ _ _ En) as [y Ey]. exists y. split; [assumption|].
  rewrite Ey. reflexivity.
Qed.

Lemma sa_append_run : forall x l g, sa_append x (l, g) = (Ok tt, (l ++ [x], g ++ [EAdd x])).
Proof. reflexivity. Qed.

Lemma sa_insert_run : forall i x l g,
  sa_insert i x (l, g) = (Ok tt, (py_insert l i x, g ++ [EAdd x])).
Proof. reflexivity. Qed.

Lemma sa_clear_run : forall l g, sa_clear (l, g) = (Ok tt, ([], g ++ map ERem l)).
Proof.
  intros. unfold sa_clear, bind, get, put. cbn [fst snd].
  rewrite (for_each_fire_map _ _ ERem). reflexivity.
Qed.

Lemma sa_delslice_run : forall sl l g,
  match py_delslice l sl with
  | Ok d => exists items, py_getslice l sl = Ok items /\
            sa_delslice sl (l, g) = (Ok tt, (d, g ++ map ERem items))
  | Raise e => sa_delslice sl (l, g) = (Raise e, (l, g))
  end.
Proof.
  intros. unfold sa_delslice, bind, b_upd, lift. cbn [fst snd].
  destruct (py_delslice l sl) as [d|e] eqn:Ed.
  - destruct (py_getslice l sl) as [items|e] eqn:Eg.
    + exists items. split; [reflexivity|]. rewrite (for_each_fire_map _ _ ERem). cbn [fst snd].
      rewrite Ed. reflexivity.
    + apply getslice_delslice_same_error in Eg. congruence.
  - apply getslice_delslice_same_error in Ed. rewrite Ed. reflexivity.
Qed.

Lemma remove_first_perm : forall x l l', remove_first x l = Some l' -> Permutation l (x :: l').
Proof.
  induction l as [|y l IH]; cbn [remove_first]; intros l' H; [discriminate|].
  destruct (Z.eqb_spec x y).
  - inv H. reflexivity.
  - destruct (remove_first x l) as [r|]; [|discriminate]. inv H.
    rewrite perm_swap. constructor. apply IH. reflexivity.
Qed.

Lemma remove_first_mem : forall x l,
  mem x l = match remove_first x l with Some _ => true | None => false end.
Proof.
  induction l as [|y l IH]; cbn [remove_first mem existsb]; [reflexivity|].
  destruct (x =? y); [reflexivity|]. cbn [orb]. fold (mem x l). rewrite IH.
  destruct (remove_first x l); reflexivity.
Qed.

(* `if value in self` and the builtin's ValueError are the same test *)
Lemma sa_remove_run : forall x l g,
  sa_remove x (l, g) = match remove_first x l with
                       | Some l' => (Ok tt, (l', g ++ [ERem x]))
                       | None => (Raise ValueError, (l, g))
                       end.
Proof.
  intros. unfold sa_remove, bind, get, b_upd, lift, py_remove. cbn [fst snd].
  rewrite remove_first_mem.
  destruct (remove_first x l) eqn:E; unfold fire, ret; cbn [fst snd]; rewrite E; reflexivity.
Qed.

Lemma for_each_append : forall w l g,
  for_each w sa_append (l, g) = (Ok tt, (l ++ w, g ++ map EAdd w)).
Proof.
  induction w as [|x w IH]; intros; cbn [for_each map].
  - unfold ret. rewrite !app_nil_r. reflexivity.
  - unfold bind. rewrite sa_append_run, IH, <- !app_assoc. reflexivity.
Qed.

Lemma sa_extend_run : forall v l g,
  sa_extend v (l, g) = match materialise l v with
                       | Some w => (Ok tt, (l ++ w, g ++ map EAdd w))
                       | None => (Raise TypeError, (l, g))
                       end.
Proof.
  intros. unfold sa_extend, bind, get. cbn [fst snd].
  destruct (materialise l v); [apply for_each_append|reflexivity].
Qed.

Lemma acc_intro : forall T (m : LM T),
  (forall l g r s', m (l, g) = (r, s') -> forall x, lbal x s' = lbal x (l, g)) -> acc m.
Proof. intros T m H [l g] r s' _ E. split; [exact I|]. apply (H _ _ _ _ E). Qed.

Lemma acc_b_getitem : forall i, acc (b_getitem i).
Proof. intro i. unfold b_getitem. apply (acc_lift_ro _ _ _ _ (fun l => py_getitem l i)). Qed.

Lemma acc_sa_append : forall x, acc (sa_append x).
Proof.
  intro x. apply acc_intro. intros l g r s' H z. inv H.
  apply (bal_exchange _ _ z l g _ [] [x]), Permutation_cons_append.
Qed.

Lemma acc_sa_insert : forall i x, acc (sa_insert i x).
Proof.
  intros i x. apply acc_intro. intros l g r s' H z. inv H.
  apply (bal_exchange _ _ z l g _ [] [x]), insert_perm.
Qed.

Lemma acc_at_index : forall T (m : LM T) i r upd ad, at_index m i r upd ad ->
  (forall n l y, nth_error l n = Some y -> Permutation (ad ++ l) (y :: upd n l)) -> acc m.
Proof.
  intros T m i r upd ad R P. apply acc_intro. intros l g r' s' H z. specialize (R l g).
  destruct (norm_index i (zlen l)); [destruct R as [y [Ey R]]|]; rewrite R in H; inv H; [|reflexivity].
  apply (bal_exchange _ _ z l g _ [y] ad), P, Ey.
Qed.

Lemma acc_sa_setitem : forall i x, acc (sa_setitem i x).
Proof.
  intros i x. apply (acc_at_index _ _ _ _ _ _ (sa_setitem_run i x)).
  intros n l y. apply nth_error_perm_set.
Qed.

Lemma acc_sa_delitem : forall i, acc (sa_delitem i).
Proof. intro i. apply (acc_at_index _ _ _ _ _ _ (sa_delitem_run i)), nth_error_perm_del. Qed.

Lemma acc_sa_pop : forall i, acc (sa_pop i).
Proof. intro i. apply (acc_at_index _ _ _ _ _ _ (sa_pop_run i)), nth_error_perm_del. Qed.

Lemma acc_sa_clear : acc sa_clear.
Proof.
  apply acc_intro. intros l g r s' H z. rewrite sa_clear_run in H. inv H.
  apply (bal_removed _ _ z l g [] l). rewrite app_nil_r. reflexivity.
Qed.

Lemma acc_sa_delslice : forall sl, acc (sa_delslice sl).
Proof.
  intro sl. apply acc_intro. intros l g r s' H z. pose proof (sa_delslice_run sl l g) as R.
  destruct (py_delslice l sl) as [d|e] eqn:Ed; [destruct R as [items [Eg R]]|];
    rewrite R in H; inv H; [|reflexivity].
  apply (bal_removed _ _ z l g d items), (getslice_delslice_perm _ _ _ _ _ Eg Ed).
Qed.

Lemma acc_sa_remove : forall x, acc (sa_remove x).
Proof.
  intro x. apply acc_intro. intros l g r s' H z. rewrite sa_remove_run in H.
  destruct (remove_first x l) as [l'|] eqn:E; inv H; [|reflexivity].
  apply (bal_removed _ _ z l g l' [x]), remove_first_perm, E.
Qed.

Lemma acc_del_loop : forall n start, acc (del_loop n start).
Proof.
  induction n; intro start; cbn [del_loop]; [apply acc_ret|].
  apply acc_bind; [apply acc_get|]. intro l. apply acc_bind.
  - destruct (start <? zlen l); [apply acc_sa_delitem|apply acc_ret].
  - intros _. apply IHn.
Qed.

Lemma acc_ins_loop : forall v pos, acc (ins_loop pos v).
Proof.
  induction v; intro pos; cbn [ins_loop]; [apply acc_ret|].
  apply acc_bind; [apply acc_sa_insert|]. intros _. apply IHv.
Qed.

Lemma acc_set_loop : forall ivs, acc (set_loop ivs).
Proof.
  induction ivs as [|[i x] r IH]; cbn [set_loop]; [apply acc_ret|].
  apply acc_bind; [apply acc_sa_setitem|]. intros _. exact IH.
Qed.

Lemma acc_sa_setslice : forall sl v, acc (sa_setslice sl v).
Proof.
  intros sl v. unfold sa_setslice. apply acc_bind; [apply acc_get|]. intro l.
  apply acc_bind; [apply (acc_lift_ro _ _ _ _ (fun _ => adjust sl (zlen l)))|].
  intros [[start stop] step].
  assert (A : forall w, acc (del_loop (length (range start stop step)) start ;;; ins_loop start w)).
  { intro w. apply acc_bind; [apply acc_del_loop|intros _; apply acc_ins_loop]. }
  destruct (step =? 1).
  - destruct v; cbn [materialise]; auto using acc_ret, acc_raise.
  - destruct (materialise l v); [|apply acc_raise].
    destruct (Nat.eqb _ _); [apply acc_set_loop|apply acc_raise].
Qed.

Lemma acc_sa_extend : forall v, acc (sa_extend v).
Proof.
  intro v. unfold sa_extend. apply acc_bind; [apply acc_get|]. intro l.
  destruct (materialise l v); [|apply acc_raise]. apply acc_for_each. apply acc_sa_append.
Qed.

(* every operation except *= keeps the balance, whatever it returns or raises *)
Lemma acc_list_op : forall op, match op with LIMul _ => True | _ => acc (sa_list_op op) end.
Proof.
  destruct op; cbn [sa_list_op]; try apply (acc_then_ret _ _ _ _ _ _ (fun _ => _));
    auto using acc_sa_append, acc_sa_remove, acc_sa_insert, acc_sa_setitem, acc_sa_setslice,
      acc_sa_delitem, acc_sa_delslice, acc_sa_extend, acc_sa_pop, acc_sa_clear.
  - apply acc_lift_perm. intros c t c' _ H. inv H. split; [exact I|apply Permutation_rev].
  - apply (acc_lift_ro _ _ _ _ (fun l => py_getslice l sl)).
Qed.

Lemma py_imul_1 : forall (l : list item), py_imul l 1 = l.
Proof. intro l. unfold py_imul. cbn. apply app_nil_r. Qed.

Lemma countZ_concat_repeat : forall x (l : list item) k,
  countZ x (concat (repeat l k)) = Z.of_nat k * countZ x l.
Proof.
  induction k; cbn [repeat concat]; [rewrite countZ_nil; lia|]. rewrite countZ_app, IHk. lia.
Qed.

Lemma countZ_imul : forall x (l : list item) n, countZ x (py_imul l n) = Z.max 0 n * countZ x l.
Proof.
  intros. unfold py_imul. destruct (n <=? 0) eqn:E; [rewrite countZ_nil; lia|].
  rewrite countZ_concat_repeat. lia.
Qed.

Theorem list_op_accounted : forall op l g r l' g',
  list_acct_guard l op = true ->
  sa_list_op op (l, g) = (r, (l', g')) ->
  forall x, countZ x l' - countZ x l = net x g' - net x g.
Proof.
  intros op l g r l' g' Hg H. pose proof (acc_list_op op) as A.
  destruct op; try apply (accounted_delta _ _ _ _ _ _ _ _ _ _ A I H).
  (* *= fires nothing: accounted only where it leaves the contents alone *)
  inv H. intro x. cbn [list_acct_guard] in Hg.
  destruct (Z.eqb_spec n 1); [subst; rewrite py_imul_1; lia|]. destruct l; [|discriminate].
  rewrite countZ_imul, countZ_nil. lia.
Qed.

(* the list accounting guard excludes exactly the defective region *)
Theorem list_acct_guard_exact : forall l op g, list_acct_guard l op = false ->
  let '(_, (l', g')) := sa_list_op op (l, g) in
  exists x, countZ x l' - countZ x l <> net x g' - net x g.
Proof.
  intros l op g H. destruct op; try discriminate; cbn [list_acct_guard] in H.
  (* *= n, n <> 1, on a non-empty list: the count of its head changes, the log does not *)
  apply orb_false_elim in H. destruct H as [H1 H2]. destruct l as [|h t]; [discriminate|].
  cbn [sa_list_op]. unfold bind, b_upd, lift, ret. cbn [fst snd]. exists h. rewrite countZ_imul.
  assert (C : 1 <= countZ h (h :: t)).
  { rewrite countZ_cons, Z.eqb_refl. pose proof (countZ_nonneg h t). lia. }
  nia.
Qed.

Lemma zlen_app : forall (a b : list item), zlen (a ++ b) = zlen a + zlen b.
Proof. intros. unfold zlen. rewrite app_length. lia. Qed.
Lemma zlen_cons : forall (x : item) l, zlen (x :: l) = 1 + zlen l.
Proof. intros. unfold zlen. cbn [length]. lia. Qed.
Lemma zlen_nonneg : forall (l : list item), 0 <= zlen l.
Proof. intros. unfold zlen. lia. Qed.

Lemma del_nth_mid : forall (a : list item) x c, del_nth (length a) (a ++ x :: c) = a ++ c.
Proof. induction a; intros; cbn [length app del_nth]; [reflexivity|]. rewrite IHa. reflexivity. Qed.

Lemma nth_error_mid : forall (a : list item) x c, nth_error (a ++ x :: c) (length a) = Some x.
Proof. intros. rewrite nth_error_app2 by lia. rewrite Nat.sub_diag. reflexivity. Qed.

Lemma norm_index_mid : forall (a : list item) x c,
  norm_index (zlen a) (zlen (a ++ x :: c)) = Some (length a).
Proof.
  intros. rewrite norm_index_nonneg.
  - unfold zlen. rewrite Nat2Z.id. reflexivity.
  - rewrite zlen_app, zlen_cons. pose proof (zlen_nonneg a). pose proof (zlen_nonneg c). lia.
Qed.

Lemma sa_delitem_mid : forall a x c g,
  sa_delitem (zlen a) (a ++ x :: c, g) = (Ok tt, (a ++ c, g ++ [ERem x])).
Proof.
  intros. pose proof (sa_delitem_run (zlen a) (a ++ x :: c) g) as R.
  rewrite norm_index_mid, nth_error_mid, del_nth_mid in R. destruct R as [y [Ey R]].
  inv Ey. exact R.
Qed.

Lemma del_loop_split : forall b a c g,
  del_loop (length b) (zlen a) (a ++ b ++ c, g) = (Ok tt, (a ++ c, g ++ map ERem b)).
Proof.
  induction b as [|x b IH]; intros a c g; cbn [length del_loop map app].
  - unfold ret. rewrite app_nil_r. reflexivity.
  - unfold bind at 1. unfold get at 1. cbn [fst snd].
    assert (E : zlen a <? zlen (a ++ x :: b ++ c) = true).
    { rewrite zlen_app, zlen_cons. pose proof (zlen_nonneg (b ++ c)). lia. }
    rewrite E. unfold bind at 1. rewrite sa_delitem_mid. rewrite IH.
    rewrite <- app_assoc. reflexivity.
Qed.

Lemma sa_insert_mid : forall a x c g,
  sa_insert (zlen a) x (a ++ c, g) = (Ok tt, (a ++ x :: c, g ++ [EAdd x])).
Proof.
  intros. rewrite sa_insert_run. unfold py_insert, insert_pos.
  pose proof (zlen_nonneg a). pose proof (zlen_nonneg c).
  destruct (zlen a <? 0) eqn:E; [lia|]. rewrite zlen_app.
  replace (Z.min (zlen a) (zlen a + zlen c)) with (zlen a) by lia.
  unfold zlen at 1 2. rewrite Nat2Z.id.
  rewrite firstn_app, firstn_all, Nat.sub_diag, skipn_app, skipn_all, Nat.sub_diag.
  cbn [firstn skipn app]. rewrite app_nil_r. reflexivity.
Qed.

Lemma ins_loop_split : forall w a c g,
  ins_loop (zlen a) w (a ++ c, g) = (Ok tt, (a ++ w ++ c, g ++ map EAdd w)).
Proof.
  induction w as [|x w IH]; intros a c g; cbn [ins_loop map app].
  - unfold ret. rewrite app_nil_r. reflexivity.
  - unfold bind at 1. rewrite sa_insert_mid.
    replace (zlen a + 1) with (zlen (a ++ [x])) by (rewrite zlen_app; reflexivity).
    replace (a ++ x :: c) with ((a ++ [x]) ++ c) by (rewrite <- app_assoc; reflexivity).
    rewrite IH. rewrite <- !app_assoc. reflexivity.
Qed.

(* every index of an extended slice is in range, so the assignment loop never raises *)
Lemma set_loop_assign : forall ivs l g, (forall iv, In iv ivs -> 0 <= fst iv < zlen l) ->
  exists g', set_loop ivs (l, g) = (Ok tt, (assign_at l ivs, g')).
Proof.
  induction ivs as [|[i x] r IH]; intros l g Hb; cbn [set_loop].
  - eexists. reflexivity.
  - pose proof (sa_setitem_run i x l g) as R.
    rewrite (norm_index_nonneg i _ (Hb (i, x) (or_introl eq_refl))) in R. destruct R as [y [_ R]].
    unfold bind at 1. rewrite R. apply IH.
    intros iv Hin. unfold zlen. rewrite set_nth_length. apply Hb. right. assumption.
Qed.

Lemma skipn_skipn' : forall (n m : nat) (l : list item), skipn n (skipn m l) = skipn (m + n) l.
Proof.
  intros n m. revert n. induction m; intros n l; [reflexivity|].
  destruct l; cbn [skipn plus]; [apply skipn_nil|apply IHm].
Qed.

(* step 1: l splits as a ++ b ++ c at the slice; the deletion loop removes exactly b, the
   insertion loop puts w in its place *)
Lemma step1_seq : forall w (l : list item) g start stop,
  0 <= start <= zlen l -> 0 <= stop <= zlen l ->
  exists g', (del_loop (length (range start stop 1)) start ;;; ins_loop start w) (l, g) =
    (Ok tt, (firstn (Z.to_nat start) l ++ w ++ skipn (Z.to_nat (Z.max start stop)) l, g')).
Proof.
  intros w l g start stop Hs Hp. set (s := Z.to_nat start). set (n := length (range start stop 1)).
  assert (Hn : n = Z.to_nat (Z.max 0 (stop - start))).
  { unfold n. rewrite range_length, slicelen_step1. reflexivity. }
  replace (skipn (Z.to_nat (Z.max start stop)) l) with (skipn n (skipn s l))
    by (rewrite skipn_skipn'; f_equal; lia).
  set (a := firstn s l). set (b := firstn n (skipn s l)). set (c := skipn n (skipn s l)).
  assert (El : l = a ++ b ++ c) by (unfold a, b, c; rewrite !firstn_skipn; reflexivity).
  assert (Ea : zlen a = start) by (unfold a, zlen in *; rewrite firstn_length; lia).
  assert (Eb : length b = n) by (unfold b, zlen in *; rewrite firstn_length, skipn_length; lia).
  rewrite El, <- Eb, <- Ea. unfold bind. rewrite del_loop_split, ins_loop_split. eexists. reflexivity.
Qed.

Lemma adjust_step1 : forall sl (l : list item) start stop,
  adjust sl (zlen l) = Ok (start, stop, 1) -> 0 <= start <= zlen l /\ 0 <= stop <= zlen l.
Proof. intros sl l start stop Ha. apply (adjust_bounds _ _ _ _ _ (zlen_nonneg l) Ha). lia. Qed.

Lemma sa_setslice_self : forall sl l g start stop,
  adjust sl (zlen l) = Ok (start, stop, 1) -> sa_setslice sl VSelf (l, g) = (Ok tt, (l, g)).
Proof. intros sl l g start stop H. unfold sa_setslice, bind, get, lift. cbn [fst snd]. rewrite H. reflexivity. Qed.

Lemma setslice_eq_python : forall sl v l g, list_eq_guard l (LSetSlice sl v) = true ->
  agrees (sa_list_op (LSetSlice sl v) (l, g)) (py_list_op l (LSetSlice sl v)).
Proof.
  intros sl v l g Hg. cbn [sa_list_op py_list_op]. unfold py_setslice.
  unfold sa_setslice, bind at 1 2 3, get, lift. cbn [fst snd].
  destruct (adjust sl (zlen l)) as [[[start stop] step]|e] eqn:Ha; [|split; reflexivity].
  destruct (step =? 1) eqn:E1.
  - assert (step = 1) by lia. subst step. destruct (adjust_step1 _ _ _ _ Ha) as [Bs Bp].
    destruct v as [w|w| |]; cbn [materialise].
    + destruct (step1_seq w l g start stop Bs Bp) as [g' E]. rewrite E. split; reflexivity.
    + destruct (step1_seq w l g start stop Bs Bp) as [g' E]. rewrite E. split; reflexivity.
    + (* the guard: the slice is the whole list *)
      cbn [list_eq_guard] in Hg. rewrite Ha in Hg. cbn [Z.eqb Pos.eqb] in Hg.
      apply andb_prop in Hg. destruct Hg as [G1 G2].
      replace (Z.max start stop) with (zlen l) by lia. replace start with 0 by lia.
      unfold zlen. rewrite Nat2Z.id, skipn_all. split; [reflexivity|]. cbn. rewrite app_nil_r. reflexivity.
    + split; reflexivity.
  - destruct (materialise l v) as [w|]; [|split; reflexivity].
    destruct (Nat.eqb (length w) (length (range start stop step))) eqn:El; [|split; reflexivity].
    destruct (set_loop_assign (combine (range start stop step) w) l g) as [g' E].
    { intros [i x] Hin. apply in_combine_l in Hin. cbn [fst].
      eapply range_in_bounds; eauto using zlen_nonneg. }
    rewrite E. split; reflexivity.
Qed.

Theorem list_op_eq_python : forall op l g, list_eq_guard l op = true ->
  agrees (sa_list_op op (l, g)) (py_list_op l op).
Proof.
  intros op l g Hg. destruct op; try (apply setslice_eq_python; assumption);
    cbn [sa_list_op py_list_op]; unfold bind.
  - rewrite sa_append_run. split; reflexivity.
  - rewrite sa_remove_run. unfold py_remove. destruct (remove_first x l); split; reflexivity.
  - rewrite sa_insert_run. split; reflexivity.
  - pose proof (sa_setitem_run i x l g) as R. unfold py_setitem.
    destruct (norm_index i (zlen l)); [destruct R as [y [_ R]]|]; rewrite R; split; reflexivity.
  - pose proof (sa_delitem_run i l g) as R. unfold py_delitem.
    destruct (norm_index i (zlen l)); [destruct R as [y [_ R]]|]; rewrite R; split; reflexivity.
  - pose proof (sa_delslice_run sl l g) as R.
    destruct (py_delslice l sl); [destruct R as [items [_ R]]|]; rewrite R; split; reflexivity.
  - rewrite sa_extend_run. destruct (materialise l v); split; reflexivity.
  - rewrite sa_extend_run. destruct (materialise l v); split; reflexivity.
  - set (i := match oi with Some i => i | None => -1 end).
    pose proof (sa_pop_run i l g) as R. unfold py_pop.
    destruct (norm_index i (zlen l)); [destruct R as [y [Ey R]]; rewrite Ey|]; rewrite R; split; reflexivity.
  - rewrite sa_clear_run. split; reflexivity.
  - split; reflexivity.
  - split; reflexivity.
  - unfold lift, ret. cbn [fst snd]. destruct (py_getslice l sl); split; reflexivity.
Qed.

(* the list equality guard excludes exactly the defective region: wherever it is false the
   contents differ from the builtin's *)
Theorem list_eq_guard_exact : forall l op g, list_eq_guard l op = false ->
  fst (snd (sa_list_op op (l, g))) <> snd (py_list_op l op).
Proof.
  intros l op g H. destruct op as [| | | |s0 v| | | | | | | | |]; try discriminate. destruct v; try discriminate.
  cbn [list_eq_guard] in H. cbn [sa_list_op py_list_op materialise]. unfold bind, ret, py_setslice.
  destruct (adjust s0 (zlen l)) as [[[start stop] step]|e] eqn:Ha; [|discriminate].
  destruct (step =? 1) eqn:E1; [|discriminate]. assert (step = 1) by lia. subst step.
  destruct (adjust_step1 _ _ _ _ Ha) as [Bs Bp].
  rewrite (sa_setslice_self _ _ _ _ _ Ha). cbn [fst snd].
  (* the builtin's result has another length *)
  intro Heq. apply (f_equal (@length Z)) in Heq.
  rewrite !app_length, firstn_length, skipn_length in Heq. unfold zlen in *. lia.
Qed.

(* Accounting speaks of the instrumented list alone, so its guard is checked along the instrumented
   states; all_guard follows the builtin's, which are the same only while list_eq_guard holds. *)
Fixpoint sa_guarded (gd : list item -> lop -> bool) (ops : list lop) (s : st (list item)) : bool :=
  match ops with
  | [] => true
  | op :: r => gd (fst s) op && sa_guarded gd r (snd (sa_list_op op s))
  end.

Theorem list_history_eq_python : forall ops l g,
  all_guard list_eq_guard ops l = true ->
  fst (sa_list_run ops (l, g)) = fst (py_list_run ops l) /\
  fst (snd (sa_list_run ops (l, g))) = snd (py_list_run ops l).
Proof.
  induction ops as [|op r IH]; intros l g Hg; cbn [sa_list_run py_list_run]; [auto|].
  cbn [all_guard] in Hg. apply andb_prop in Hg. destruct Hg as [G1 G2].
  destruct (list_op_eq_python op l g G1) as [A1 A2].
  destruct (sa_list_op op (l, g)) as [x [l1 g1]]. cbn [fst snd] in A1, A2.
  destruct (py_list_op l op) as [y l2]. cbn [fst snd] in *. subst.
  destruct (IH l2 g1 G2) as [B1 B2].
  destruct (sa_list_run r (l2, g1)) as [xs s'']. destruct (py_list_run r l2) as [ys l''].
  cbn [fst snd] in *. subst. auto.
Qed.

Theorem list_history_accounted : forall ops l g,
  sa_guarded list_acct_guard ops (l, g) = true ->
  forall x, let '(_, (l', g')) := sa_list_run ops (l, g) in
            countZ x l' - countZ x l = net x g' - net x g.
Proof.
  intros ops l g Hg x.
  pose proof (run_accounted _ _ (fun l => l) (fun _ => True) sa_list_op list_acct_guard
    (fun op c g r c' g' G _ E => conj I (list_op_accounted op c g r c' g' G E)) ops l g Hg I) as R.
  change (run _ _ sa_list_op ops (l, g)) with (sa_list_run ops (l, g)) in R.
  destruct (sa_list_run ops (l, g)) as [xs [l' g']]. apply R.
Qed.

(* slice assignment of anything but the collection itself (list, tuple, iterator, non-iterable):
   no guard for any start / stop / step *)
Corollary list_slice_assignment_eq_python : forall start stop step v l g, v <> VSelf ->
  let op := LSetSlice (mkslice start stop step) v in
  fst (sa_list_op op (l, g)) = fst (py_list_op l op) /\
  fst (snd (sa_list_op op (l, g))) = snd (py_list_op l op).
Proof.
  intros start stop step v l g Hv. apply list_op_eq_python.
  destruct v; try reflexivity. congruence.
Qed.
