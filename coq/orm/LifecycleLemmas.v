(* C35 - what the proofs of the area are built from.
   - facts about the record and about well-formed logs (what [wf] says item by item);
   - [InvP t p st]: the transaction status is [t], every object satisfies [p], the log is well formed
     ([Inv st] is [InvP (tx st) (fun _ => objinvb (tx st)) st]); one pass over the objects is handled by
     [pass_spec], its special cases [only i g] and [replacing i kz g] by [only_spec] and [replacing_spec];
   - [todo]: the invariant of the two loops that take indices off a work list one pass at a time.
   Event names ([Lifecycle.evt]) read from-to with T transient, P pending, S persistent, D deleted,
   X detached; LAP is loaded_as_persistent. *)
From Coq Require Import List ZArith Bool Arith Lia.
Import ListNotations.
From SAV.orm Require Import Lifecycle LifecycleSpec.

Lemma lc_eqb_eq : forall a b, lc_eqb a b = true -> a = b.
Proof. destruct a, b; simpl; intros; congruence. Qed.
Lemma lc_eqb_refl : forall a, lc_eqb a a = true.
Proof. destruct a; reflexivity. Qed.

Lemma one_state : forall o,
  (if is_transient o then 1 else 0) + (if is_pending o then 1 else 0) + (if is_persistent o then 1 else 0)
  + (if is_deleted o then 1 else 0) + (if is_detached o then 1 else 0) = 1.
Proof. intros [k [] [] [] n m sd tn td]; reflexivity. Qed.

Lemma state_is_lc : forall o,
  match lc_of o with
  | Transient => is_transient o | Pending => is_pending o | Persistent => is_persistent o
  | Deleted => is_deleted o | Detached => is_detached o | Absent => false
  end = true.
Proof. intros [k [] [] [] n m sd tn td]; reflexivity. Qed.

Lemma wf_app : forall l1 l2, wf l1 -> wf l2 -> wf (l1 ++ l2).
Proof. induction 1; simpl; intros; auto; constructor; auto. Qed.

Lemma wfo_tag : forall i l, wfo l -> wf (tag i l).
Proof. induction 1; simpl.
  - constructor.
  - apply (wf_fire i f t e); auto.
  - apply (wf_silent i f t); auto. Qed.

(* two boolean checks, each tied to its relation in the one direction it is used in: [wfob] to establish
   [wfo] of the few items one operation logs (by evaluation), [wfb] to refute [wf] of a concrete log *)
Lemma wfob_sound : forall l, wfob l = true -> wfo l.
Proof.
  intro l. remember (length l) as n. revert l Heqn.
  induction n as [n IH] using lt_wf_ind. intros l Hn H.
  destruct l as [|[f t|e a] r]; simpl in H; [constructor| |discriminate].
  destruct r as [|[f' t'|e t'] r'].
  - apply andb_prop in H as [H1 _]. apply wfo_silent; [auto|constructor].
  - apply andb_prop in H as [H1 H2]. apply wfo_silent; auto.
    apply (IH (length (OChg f' t' :: r'))); subst; simpl; auto.
  - apply orb_prop in H as [H|H].
    + apply andb_prop in H as [H H3]. apply andb_prop in H as [H1 H2].
      apply lc_eqb_eq in H2. subst t'. apply wfo_fire; auto.
      apply (IH (length r')); subst; simpl; auto.
    + apply andb_prop in H as [H1 H2]. apply wfo_silent; auto.
      apply (IH (length (OEv e t' :: r'))); subst; simpl; auto.
Qed.

Lemma wfb_complete : forall l, wf l -> wfb l = true.
Proof.
  induction 1; simpl; auto.
  - unfold Chg, Ev. simpl. rewrite Nat.eqb_refl, H, lc_eqb_refl, IHwf. reflexivity.
  - unfold Chg. simpl. rewrite H, IHwf. destruct l as [|[j [f' t'|e t']] r]; auto.
    simpl. apply orb_true_r.
Qed.

Lemma wf_chg_documented : forall l, wf l -> forall i f t, In (Chg i f t) l -> exists e, documented f t e = true.
Proof.
  induction 1; simpl; intros j f' t' HIn; [tauto| |].
  - destruct HIn as [E|[E|HIn]].
    + inversion E; subst; eauto.
    + discriminate E.
    + eauto.
  - destruct HIn as [E|HIn]; [inversion E; subst; eauto|eauto].
Qed.

Lemma wf_at_chg : forall l, wf l -> forall l1 i f t l2, l = l1 ++ Chg i f t :: l2 -> wf (Chg i f t :: l2).
Proof.
  induction 1 as [|i0 f0 t0 e0 l' Hd Hw IH|i0 f0 t0 l' Hd Hw IH]; intros l1 i f t l2 E.
  - destruct l1; discriminate.
  - destruct l1 as [|x [|y l1']]; simpl in E; inversion E; subst; [apply wf_fire; auto|eauto].
  - destruct l1 as [|x l1']; simpl in E; inversion E; subst; [apply wf_silent; auto|eauto].
Qed.

Lemma wf_transition_then_event : forall l, wf l -> forall l1 i f t l2, l = l1 ++ Chg i f t :: l2 ->
  documented f t None = true \/ exists e l3, documented f t (Some e) = true /\ l2 = Ev i e t :: l3.
Proof.
  intros l Hw l1 i f t l2 E. pose proof (wf_at_chg l Hw l1 i f t l2 E) as B.
  inversion B; subst; [right; eauto|left; auto].
Qed.

Lemma wf_event_after_transition : forall l, wf l -> forall l1 i e t l2, l = l1 ++ Ev i e t :: l2 ->
  exists l0 f, l1 = l0 ++ [Chg i f t] /\ documented f t (Some e) = true.
Proof.
  induction 1 as [|i0 f0 t0 e0 l' Hd Hw IH|i0 f0 t0 l' Hd Hw IH]; intros l1 i e t l2 E.
  - destruct l1; discriminate.
  - destruct l1 as [|x [|y l1']]; simpl in E; inversion E; subst.
    + exists [], f0. auto.
    + destruct (IH l1' i e t l2 eq_refl) as [l0 [f [-> B]]].
      exists (Chg i0 f0 t0 :: Ev i0 e0 t0 :: l0), f. auto.
  - destruct l1 as [|x l1']; simpl in E; inversion E; subst.
    destruct (IH l1' i e t l2 eq_refl) as [l0 [f [-> B]]]. exists (Chg i0 f0 t0 :: l0), f. auto.
Qed.

Lemma mapi_log_length : forall f l n, length (fst (mapi_log f n l)) = length l.
Proof. induction l; simpl; intros; auto. destruct (f n a). specialize (IHl (S n)).
  destruct (mapi_log f (S n) l). simpl in *. auto. Qed.

Lemma mapi_log_nth : forall f l n k, nth_error (fst (mapi_log f n l)) k =
  option_map (fun o => fst (f (n + k)%nat o)) (nth_error l k).
Proof. induction l; simpl; intros n k. { destruct k; reflexivity. }
  destruct (f n a) eqn:E. specialize (IHl (S n)). destruct (mapi_log f (S n) l). simpl in *.
  destruct k; simpl. { rewrite Nat.add_0_r, E. reflexivity. }
  rewrite IHl. replace (n + S k)%nat with (S (n + k)) by lia. reflexivity. Qed.

Lemma mapi_log_wf : forall f l n,
  (forall k o, nth_error l k = Some o -> wfo (snd (f (n + k)%nat o))) -> wf (snd (mapi_log f n l)).
Proof. induction l; simpl; intros n H. { constructor. }
  destruct (f n a) eqn:E. specialize (IHl (S n)). destruct (mapi_log f (S n) l). simpl in *.
  apply wf_app.
  - apply wfo_tag. specialize (H 0%nat a eq_refl). rewrite Nat.add_0_r, E in H. exact H.
  - apply IHl. intros k o' Hk. specialize (H (S k) o' Hk). replace (n + S k)%nat with (S (n + k)) in H by lia. exact H.
Qed.

Lemma app_all_eq : forall f st, app_all f st =
  mkSt (eoc st) (fst (mapi_log f 0 (objs st))) (tx st) (slog st ++ snd (mapi_log f 0 (objs st))).
Proof. intros. unfold app_all. destruct (mapi_log f 0 (objs st)). reflexivity. Qed.

Lemma app_all_objs : forall f st, objs (app_all f st) = fst (mapi_log f 0 (objs st)).
Proof. intros. rewrite app_all_eq. reflexivity. Qed.
Lemma app_all_slog : forall f st, slog (app_all f st) = slog st ++ snd (mapi_log f 0 (objs st)).
Proof. intros. rewrite app_all_eq. reflexivity. Qed.
Lemma app_all_tx : forall f st, tx (app_all f st) = tx st.
Proof. intros. rewrite app_all_eq. reflexivity. Qed.
Lemma app_all_eoc : forall f st, eoc (app_all f st) = eoc st.
Proof. intros. rewrite app_all_eq. reflexivity. Qed.
Lemma app_all_length : forall f st, length (objs (app_all f st)) = length (objs st).
Proof. intros. rewrite app_all_objs. apply mapi_log_length. Qed.

Lemma app_all_nth : forall f st k, nth_error (objs (app_all f st)) k =
  option_map (fun o => fst (f k o)) (nth_error (objs st) k).
Proof. intros. rewrite app_all_objs, mapi_log_nth. reflexivity. Qed.

Lemma get_nth : forall st i o, nth_error (objs st) i = Some o -> get st i = o.
Proof. intros. unfold get. apply nth_error_nth. exact H. Qed.

Lemma nth_at : forall st i k o, nth_error (objs st) k = Some o -> k = i /\ o = get st i \/ k <> i.
Proof. intros st i k o E. destruct (Nat.eq_dec k i) as [->|N]; [left|right]; auto. rewrite (get_nth _ _ _ E). auto. Qed.

Definition InvP (t : option bool) (p : nat -> obj -> bool) (st : state) : Prop :=
  tx st = t /\ SP p st /\ wf (slog st).

Lemma InvP_tx : forall t p st, InvP t p st -> tx st = t.
Proof. intros t p st H. apply H. Qed.
Lemma InvP_Inv : forall t st, InvP t (fun _ => objinvb t) st -> Inv st.
Proof. intros t st [<- H]. exact H. Qed.
Lemma Inv_InvP : forall t st, Inv st -> tx st = t -> InvP t (fun _ => objinvb t) st.
Proof. intros t st H <-. exact (conj eq_refl H). Qed.

Lemma InvP_weaken : forall t (p q : nat -> obj -> bool) st,
  InvP t p st -> (forall k o, p k o = true -> q k o = true) -> InvP t q st.
Proof. intros t p q st (T & S & W) Hpq. repeat split; auto. intros k o E. apply Hpq, (S k o E). Qed.

Lemma InvP_set_tx : forall t t' p st, InvP t p st -> InvP t' p (set_tx t' st).
Proof. intros t t' p st (T & S & W). repeat split; auto. Qed.

(* what holds of the object at [i] may be used for that object alone *)
Lemma InvP_at : forall t (p q : nat -> obj -> bool) i st,
  InvP t p st ->
  (p i (get st i) = true -> q i (get st i) = true) ->
  (forall k o, k <> i -> p k o = true -> q k o = true) ->
  InvP t q st.
Proof.
  intros t p q i st (T & S & W) Hi Hk. repeat split; auto. intros k o E.
  destruct (nth_at st i k o E) as [[-> ->]|N]; [apply Hi|apply (Hk k o N)]; apply (S _ _ E).
Qed.

(* the workhorse: a pass that takes every object of [st] to one that satisfies [q] and logs
   well-formed blocks establishes [q] and keeps the log well formed *)
Lemma pass_spec : forall t (p q : nat -> obj -> bool) f st,
  InvP t p st ->
  (forall k o, nth_error (objs st) k = Some o -> p k o = true ->
               q k (fst (f k o)) = true /\ wfob (snd (f k o)) = true) ->
  InvP t q (app_all f st).
Proof.
  intros t p q f st (T & S & W) Hf. split; [rewrite app_all_tx; exact T|]. split.
  - intros k o Hk. rewrite app_all_nth in Hk. destruct (nth_error (objs st) k) eqn:E; [|discriminate].
    inversion Hk; subst. apply (Hf k _ E), (S k _ E).
  - rewrite app_all_slog. apply wf_app; auto. apply mapi_log_wf. intros k o E.
    apply wfob_sound, (Hf k o E), (S k o E).
Qed.

Lemma only_spec : forall t (p : nat -> obj -> bool) i g st,
  InvP t p st ->
  (p i (get st i) = true -> p i (fst (g (get st i))) = true /\ wfob (snd (g (get st i))) = true) ->
  InvP t p (app_all (only i g) st).
Proof.
  intros t p i g st H Hi. apply (pass_spec t p); auto. intros k o E Hp. unfold only.
  destruct (nth_at st i k o E) as [[-> ->]|N]; [rewrite Nat.eqb_refl; auto|].
  apply Nat.eqb_neq in N. rewrite N. auto.
Qed.

(* [replacing i kz g]: [g] acts on the object at [i]; any other object is left alone or loses its
   place in the identity map *)
Lemma replacing_spec : forall t (p q : nat -> obj -> bool) i kz g st,
  InvP t p st ->
  (p i (get st i) = true -> q i (fst (g (get st i))) = true /\ wfob (snd (g (get st i))) = true) ->
  (forall k o, k <> i -> p k o = true -> q k o = true /\ q k (set_iimap false o) = true) ->
  InvP t q (app_all (replacing i kz g) st).
Proof.
  intros t p q i kz g st H Hi Hk. apply (pass_spec t p); auto. intros k o E Hp. unfold replacing.
  destruct (nth_at st i k o E) as [[-> ->]|N]; [rewrite Nat.eqb_refl; auto|].
  destruct (Hk k o N Hp). apply Nat.eqb_neq in N. rewrite N. destruct (iimap o && Z.eqb (pk o) kz); auto.
Qed.

Lemma memn_seq : forall n k, memn k (seq 0 n) = Nat.ltb k n.
Proof.
  intros. unfold memn. destruct (Nat.ltb_spec k n).
  - apply existsb_exists. exists k. split; [apply in_seq; lia|apply Nat.eqb_refl].
  - destruct (existsb (Nat.eqb k) (seq 0 n)) eqn:E; auto.
    apply existsb_exists in E as [x [Hx Hx2]]. apply Nat.eqb_eq in Hx2. subst. apply in_seq in Hx. lia.
Qed.

Lemma fold_err_ok : forall f i r st st', f i st = (st', 0%Z) -> fold_err f (i :: r) st = fold_err f r st'.
Proof. intros f i r st st' H. simpl. rewrite H. reflexivity. Qed.

(* the invariant of a loop over a work list [l] of indices (fold_err in _restore_snapshot, fold_left in
   finalize): [A] throughout, [B] while the index is still on the list, [C] afterwards *)
Definition todo (l : list nat) (A : obj -> bool) (B : nat -> obj -> bool) (C : obj -> bool) (k : nat) (o : obj) : bool :=
  A o && (if memn k l then B k o else C o).

Lemma todo_head : forall A B C i r o, ~ In i r ->
  todo (i :: r) A B C i o = A o && B i o /\ todo r A B C i o = A o && C o.
Proof.
  intros A B C i r o Hni. unfold todo, memn. simpl. rewrite Nat.eqb_refl. split; [reflexivity|].
  destruct (existsb (Nat.eqb i) r) eqn:E; [|reflexivity].
  apply existsb_exists in E as [x [Hx E]]. apply Nat.eqb_eq in E. subst. contradiction.
Qed.

Lemma todo_tail : forall A B C i r k o, k <> i -> todo (i :: r) A B C k o = todo r A B C k o.
Proof. intros A B C i r k o N. unfold todo, memn. simpl. apply Nat.eqb_neq in N. rewrite N. reflexivity. Qed.

Lemma todo_init : forall t A B C st, InvP t (fun k o => A o && B k o) st -> InvP t (todo (all_idx st) A B C) st.
Proof.
  intros t A B C st (T & S & W). repeat split; auto. intros k o E. unfold todo, all_idx. rewrite memn_seq.
  replace (Nat.ltb k (length (objs st))) with true; [apply (S k o E)|].
  symmetry. apply Nat.ltb_lt, nth_error_Some. congruence.
Qed.

(* index [i] is taken off the list by a pass [replacing i kz g] ... *)
Lemma todo_step : forall t A B C i r kz g st,
  ~ In i r -> InvP t (todo (i :: r) A B C) st ->
  (A (get st i) && B i (get st i) = true ->
   A (fst (g (get st i))) && C (fst (g (get st i))) = true /\ wfob (snd (g (get st i))) = true) ->
  (forall k o, todo r A B C k o = true -> todo r A B C k (set_iimap false o) = true) ->
  InvP t (todo r A B C) (app_all (replacing i kz g) st).
Proof.
  intros t A B C i r kz g st Hni HP Hi Hev. apply (replacing_spec t (todo (i :: r) A B C)); auto.
  - destruct (todo_head A B C i r (get st i) Hni) as [-> _].
    destruct (todo_head A B C i r (fst (g (get st i))) Hni) as [_ ->]. exact Hi.
  - intros k o N. rewrite (todo_tail A B C i r k o N). auto.
Qed.

(* ... or because there is nothing to do for it *)
Lemma todo_skip : forall t A B C i r st,
  ~ In i r -> InvP t (todo (i :: r) A B C) st ->
  (A (get st i) && B i (get st i) = true -> C (get st i) = true) ->
  InvP t (todo r A B C) st.
Proof.
  intros t A B C i r st Hni HP Hi. apply (InvP_at t (todo (i :: r) A B C) _ i); auto.
  - destruct (todo_head A B C i r (get st i) Hni) as [-> ->]. intro H. rewrite (Hi H).
    apply andb_prop in H as [-> _]. reflexivity.
  - intros k o N. rewrite (todo_tail A B C i r k o N). auto.
Qed.
