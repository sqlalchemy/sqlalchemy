(* C39 - properties of the CascadeOptions parser *)
From Coq Require Import List Bool Arith Lia.
From SAV.orm Require Import Cascade CascadeBase CascadeOpts.
Import ListNotations.

Lemma list_eqb_eq : forall a b, list_eqb a b = true -> a = b.
Proof.
  induction a as [|x a IH]; destruct b as [|y b]; simpl; intros H; try discriminate; auto.
  apply andb_true_iff in H. destruct H as [H1 H2]. apply Nat.eqb_eq in H1. f_equal; auto.
Qed.

Lemma parse_with_tables_ok : forall a m f, opts_tables_ok a m f = true ->
  forall vs, parse_with a m f vs = parse_options vs.
Proof.
  intros a m f H vs. unfold opts_tables_ok in H.
  apply andb_true_iff in H. destruct H as [H H3]. apply andb_true_iff in H. destruct H as [H1 H2].
  apply list_eqb_eq in H1. apply list_eqb_eq in H2. apply list_eqb_eq in H3. subst. reflexivity.
Qed.

Definition valid (vs : list nat) : Prop := forall v, In v vs -> v <= 7.

Lemma known_name : forall v, mem v all_cascades = (v <=? 7).
Proof. intros v. do 8 (destruct v as [|v]; [reflexivity|]). reflexivity. Qed.
Lemma unknown_name : forall v, negb (mem v all_cascades) = true <-> v > 7.
Proof. intros v. rewrite known_name, negb_true_iff. apply Nat.leb_gt. Qed.

Lemma rejected_iff : forall vs,
  existsb (fun v => negb (mem v all_cascades)) vs = true <-> exists v, In v vs /\ v > 7.
Proof.
  intros vs. rewrite existsb_exists.
  split; intros [v [H1 H2]]; exists v; (split; [exact H1|apply unknown_name; exact H2]).
Qed.

Lemma valid_accepted : forall vs, valid vs -> existsb (fun v => negb (mem v all_cascades)) vs = false.
Proof.
  intros vs H. apply not_true_iff_false. rewrite rejected_iff. intros [v [H1 H2]]. apply H in H1.
  exact (Nat.lt_irrefl 7 (Nat.lt_le_trans 7 v 7 H2 H1)).
Qed.

(* an invalid name raises ArgumentError, and only that *)
Theorem opts_invalid_iff : forall vs, parse_options vs = None <-> exists v, In v vs /\ v > 7.
Proof.
  intros vs. split; intros H.
  - apply rejected_iff. unfold parse_options, parse_with in H.
    destruct (existsb (fun v => negb (mem v all_cascades)) vs); [reflexivity|discriminate H].
  - apply rejected_iff in H. unfold parse_options, parse_with. rewrite H. reflexivity.
Qed.

(* the flags of a valid option list, stated by membership: "none" clears everything, "all" sets every cascade
   except delete-orphan, plain names are memberships *)
Definition flag_spec (vs : list nat) (k : nat) : bool :=
  if mem 7 vs then false
  else if mem 6 vs then (if Nat.eqb k 4 then mem 4 vs else true)
  else mem k vs.

Lemma mem_norm_values : forall vs k, k <= 5 ->
  mem k (norm_values all_cascades all_minus vs) = flag_spec vs k.
Proof.
  intros vs k Hk. unfold norm_values, flag_spec.
  change (filter _ all_cascades) with [0; 1; 2; 3; 5].
  assert (H6 : negb (Nat.eqb k 6) = true) by (apply negb_true_iff, Nat.eqb_neq; lia).
  destruct (mem 6 vs).
  - (* "all": the names added are those up to 5 other than delete-orphan *)
    assert (Hadd : mem k [0; 1; 2; 3; 5] = negb (Nat.eqb k 4))
      by (do 6 (destruct k as [|k]; [reflexivity|]); lia).
    rewrite mem_app, orb_false_r. destruct (mem 7 vs); [reflexivity|].
    rewrite mem_filter, mem_app, H6, Hadd, andb_true_r.
    destruct (Nat.eqb k 4) eqn:E; [apply Nat.eqb_eq in E; subst k; apply orb_false_r|apply orb_true_r].
  - destruct (mem 7 vs); [reflexivity|]. rewrite mem_filter, H6. apply andb_true_r.
Qed.

Lemma opts_flags : forall vs, valid vs ->
  parse_options vs =
  Some (mkCasc (flag_spec vs 0) (flag_spec vs 1) (flag_spec vs 2) (flag_spec vs 3) (flag_spec vs 4) (flag_spec vs 5),
        flag_spec vs 4 && negb (flag_spec vs 3)).
Proof.
  intros vs Hv. unfold parse_options, parse_with. rewrite (valid_accepted vs Hv).
  unfold flag_names. cbn [nth c_do c_dl].
  rewrite (mem_norm_values vs 0), (mem_norm_values vs 1), (mem_norm_values vs 2), (mem_norm_values vs 3),
          (mem_norm_values vs 4), (mem_norm_values vs 5) by repeat constructor.
  reflexivity.
Qed.

Theorem opts_warning : forall vs c w, parse_options vs = Some (c, w) -> w = (c_do c && negb (c_dl c)).
Proof.
  intros vs c w H. unfold parse_options, parse_with in H.
  destruct (existsb (fun v => negb (mem v all_cascades)) vs); [discriminate|]. inversion H. reflexivity.
Qed.

(* every one of the 64 flag combinations is expressible: each flag has a name of its own, so the list of the names
   of the wanted flags does it *)
Theorem opts_every_combination : forall c : casc, exists vs, valid vs /\ exists w, parse_options vs = Some (c, w).
Proof.
  intros [a b c d e f].
  set (vs := filter (fun k => nth k [a; b; c; d; e; f] false) flag_names).
  assert (Hv : valid vs).
  { intros v Hv. apply filter_In in Hv. destruct Hv as [Hv _].
    repeat (destruct Hv as [<-|Hv]; [repeat constructor|]). destruct Hv. }
  assert (E : forall k, flag_spec vs k = mem k flag_names && nth k [a; b; c; d; e; f] false)
    by (intros k; unfold flag_spec, vs; rewrite !mem_filter; reflexivity).
  exists vs. split; [exact Hv|]. eexists. rewrite (opts_flags vs Hv). do 3 f_equal; apply E.
Qed.
