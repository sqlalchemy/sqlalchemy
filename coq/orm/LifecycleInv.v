(* C35 - the invariant is preserved and the log stays well formed: simple operations *)
From Coq Require Import List ZArith Bool Arith Lia.
Import ListNotations.
From SAV.orm Require Import Lifecycle LifecycleSpec LifecycleLemmas.
Open Scope Z_scope.

(* [objinvb] read by lifecycle state: which of session._new (n), the identity map, session._deleted (sd)
   and transaction._deleted (td) may hold an object in that state; transaction._new (tn) is free.
   [inv_evicted]: persistent, but identity_map.replace() has given its place to another object with the same key.
   An entry in transaction._deleted outlives its reason only in a deactive transaction. *)
Inductive objinv (t : option bool) : obj -> Prop :=
  | inv_transient : forall k tn td, (td = true -> t = Some true) ->
      objinv t (mkObj k false false false false false false tn td)
  | inv_pending : forall k n tn td, (td = true -> t = Some true) ->
      objinv t (mkObj k false true false n false false tn td)
  | inv_persistent : forall k sd tn td, (td = true -> t = Some true) ->
      objinv t (mkObj k true true false false true sd tn td)
  | inv_evicted : forall k tn td, (td = true -> t = Some true) ->
      objinv t (mkObj k true true false false false false tn td)
  | inv_deleted : forall k tn td, (td = true -> t <> None) ->
      objinv t (mkObj k true true true false false false tn td)
  | inv_detached : forall k d tn td, (td = true -> t = Some true) ->
      objinv t (mkObj k true false d false false false tn td).

Lemma objinvb_spec : forall t o, objinvb t o = true <-> objinv t o.
Proof.
  split.
  - (* the six clauses taken apart, so that each flag that is fixed prunes at once *)
    destruct o as [k ky s d n m sd tn td]. intro H. unfold objinvb in H; cbn in H.
    do 5 (apply andb_prop in H as [H ?]).
    destruct ky, s, d; cbn in *; try discriminate; destruct n; try discriminate; destruct m; try discriminate;
      destruct sd; try discriminate; constructor; intro; subst; destruct t as [[]|]; cbn in *; congruence.
  - intros [k tn td H|k [] tn td H|k [] tn td H|k tn td H|k tn td H|k [] tn td H]; cbn;
      destruct td, t as [[]|]; try reflexivity; solve [discriminate (H eq_refl) | elim (H eq_refl); reflexivity].
Qed.

(* [by_state H]: case analysis on the lifecycle state of an object whose invariant is [H]; the flags a
   shape leaves open are called n, sd, d, tn, td, so that a proof can go on to split on those the operation reads;
   [to_state]: the object in the goal, once computed, is again of one of the six shapes *)
Ltac by_state H :=
  apply objinvb_spec in H;
  destruct H as [k tn td Ht|k n tn td Ht|k sd tn td Ht|k tn td Ht|k tn td Ht|k d tn td Ht];
  cbn in * |-; try discriminate; subst.
Ltac to_state := apply objinvb_spec; cbv; constructor; intuition congruence.

Lemma objinv_begin : forall o, objinvb None o = true -> objinvb (Some false) o = true.
Proof. intros o H. by_state H; to_state. Qed.

Lemma objinv_deact : forall t o, objinvb t o = true -> objinvb (Some true) o = true.
Proof. intros t o H. by_state H; to_state. Qed.

(* identity_map.replace() takes an object that is not marked for deletion out of the map *)
Lemma evict_ok : forall t o, objinvb t o = true -> isdel o = false -> objinvb t (set_iimap false o) = true.
Proof. intros t o H S. by_state H; to_state. Qed.

Lemma autobegin_tx : forall st, tx (autobegin st) = match tx st with None => Some false | t => t end.
Proof. intros. unfold autobegin. destruct (tx st) eqn:E; simpl; auto. Qed.
Lemma autobegin_objs : forall st, objs (autobegin st) = objs st.
Proof. intros. unfold autobegin. destruct (tx st); reflexivity. Qed.
Lemma autobegin_slog : forall st, slog (autobegin st) = slog st.
Proof. intros. unfold autobegin. destruct (tx st); reflexivity. Qed.
Lemma autobegin_get : forall st i, get (autobegin st) i = get st i.
Proof. intros. unfold get. rewrite autobegin_objs. reflexivity. Qed.
Lemma autobegin_has_tx : forall st, has_tx (autobegin st) = true.
Proof. intros. unfold has_tx. rewrite autobegin_tx. destruct (tx st); reflexivity. Qed.
Lemma autobegin_deact : forall st, is_deact (autobegin st) = is_deact st.
Proof. intros. unfold is_deact. rewrite autobegin_tx. destruct (tx st); reflexivity. Qed.

Lemma autobegin_inv : forall st, Inv st -> Inv (autobegin st).
Proof.
  intros st [H1 H2]. split; [|rewrite autobegin_slog; auto].
  intros k o Hk. rewrite autobegin_objs in Hk. specialize (H1 k o Hk). simpl in H1.
  rewrite autobegin_tx. destruct (tx st); auto. apply objinv_begin; auto.
Qed.

Lemma only_inv : forall g i st, Inv st ->
  (objinvb (tx st) (get st i) = true ->
   objinvb (tx st) (fst (g (get st i))) = true /\ wfob (snd (g (get st i))) = true) ->
  Inv (app_all (only i g) st).
Proof. intros g i st HI Hg. apply (InvP_Inv (tx st)), only_spec; [exact (conj eq_refl HI)|exact Hg]. Qed.

Lemma save_obj_ok : forall t o, objinvb t o = true -> okey o = false ->
  objinvb t (fst (save_obj o)) = true /\ wfob (snd (save_obj o)) = true.
Proof. intros t o H K. by_state H; (split; [to_state|reflexivity]). Qed.

Lemma save_impl_inv : forall i st, Inv st -> Inv (fst (save_impl i st)).
Proof.
  intros i st HI. unfold save_impl. destruct (okey (get st i)) eqn:E; simpl; auto.
  apply only_inv; [apply autobegin_inv, HI|]. rewrite autobegin_get. intro H. apply save_obj_ok; auto.
Qed.

Lemma update_obj_ok : forall t o, objinvb t o = true -> okey o = true -> odel o = false ->
  objinvb t (fst (update_obj o)) = true /\ wfob (snd (update_obj o)) = true.
Proof. intros t o H K D. by_state H; (split; [to_state|reflexivity]). Qed.

Lemma update_impl_inv : forall i st, Inv st -> Inv (fst (update_impl i st)).
Proof.
  intros i st HI. unfold update_impl.
  destruct (okey (get st i)) eqn:E1; simpl; auto.
  destruct (odel (get st i)) eqn:E2; simpl; auto.
  apply autobegin_inv in HI. destruct (conflict i (autobegin st)); simpl; [exact HI|].
  apply only_inv; [exact HI|]. rewrite autobegin_get. intro H. apply update_obj_ok; auto.
Qed.

Lemma do_add_inv : forall i st, Inv st -> Inv (fst (do_add i st)).
Proof. intros. unfold do_add. destruct (okey (get st i)); [apply update_impl_inv|apply save_impl_inv]; auto. Qed.

(* the guard of delete(): the object does not carry the _deleted flag *)
Lemma delete_obj_ok : forall t o, objinvb t o = true -> okey o = true -> odel o = false ->
  objinvb t (fst (delete_obj o)) = true /\ wfob (snd (delete_obj o)) = true.
Proof. intros t o H K D. by_state H; (split; [to_state|reflexivity]). Qed.

Lemma delete_impl_inv : forall i st, Inv st -> negb (okey (get st i) && odel (get st i)) = true ->
  Inv (fst (delete_impl i st)).
Proof.
  intros i st HI G. unfold delete_impl.
  destruct (okey (get st i)) eqn:E1; simpl; auto. simpl in G. apply negb_true_iff in G.
  apply autobegin_inv in HI. destruct (isdel (get st i)); simpl; [exact HI|].
  destruct (conflict i (autobegin st)); simpl; [exact HI|].
  apply only_inv; [exact HI|]. rewrite autobegin_get. intro H. apply delete_obj_ok; auto.
Qed.

Lemma expunge_obj_ok : forall st o, objinvb (tx st) o = true -> osess o = true ->
  objinvb (tx st) (fst (expunge_obj (has_tx st) false o)) = true /\
  wfob (snd (expunge_obj (has_tx st) false o)) = true.
Proof.
  intros st o H S. unfold has_tx. destruct (tx st) as [[]|];
    by_state H; try destruct n; (split; [to_state|reflexivity]).
Qed.

Lemma do_expunge_inv : forall i st, Inv st -> Inv (fst (do_expunge i st)).
Proof.
  intros i st HI. unfold do_expunge. destruct (osess (get st i)) eqn:E; simpl; [|exact HI].
  apply only_inv; [exact HI|]. intro H. apply expunge_obj_ok; auto.
Qed.

Lemma make_transient_obj_ok : forall st o, objinvb (tx st) o = true ->
  objinvb (tx st) (fst (make_transient_obj (has_tx st) o)) = true /\
  wfob (snd (make_transient_obj (has_tx st) o)) = true.
Proof.
  intros st o H. unfold has_tx. destruct (tx st) as [[]|];
    by_state H; try destruct n; try destruct d; (split; [to_state|reflexivity]).
Qed.

Lemma do_make_transient_inv : forall i st, Inv st -> Inv (fst (do_make_transient i st)).
Proof. intros i st HI. apply only_inv; [exact HI|]. intro H. apply make_transient_obj_ok, H. Qed.

Lemma mttd_obj_ok : forall t o, objinvb t o = true -> osess o = false -> okey o = false ->
  objinvb t (fst (mttd_obj o)) = true /\ wfob (snd (mttd_obj o)) = true.
Proof. intros t o H S K. by_state H; (split; [to_state|reflexivity]). Qed.

Lemma do_mttd_inv : forall i st, Inv st -> Inv (fst (do_mttd i st)).
Proof.
  intros i st HI. unfold do_mttd. destruct (osess (get st i) || okey (get st i)) eqn:E; simpl; [exact HI|].
  apply orb_false_elim in E as [E1 E2].
  apply only_inv; [exact HI|]. intro H. apply mttd_obj_ok; auto.
Qed.

Lemma end_tx_obj_ok : forall t o, objinvb t o = true -> objinvb None (fst (end_tx_obj o)) = true.
Proof. intros t o H. by_state H; to_state. Qed.

Lemma end_tx_inv_t : forall t0 t st, InvP t0 (fun _ => objinvb t) st -> Inv (end_tx st).
Proof.
  intros t0 t st H. apply (InvP_Inv None), (InvP_set_tx t0), (pass_spec t0 (fun _ => objinvb t)); auto.
  intros k o _ Hp. split; [apply (end_tx_obj_ok t), Hp|reflexivity].
Qed.

Lemma end_tx_inv : forall st, SP (fun _ => objinvb (tx st)) st -> wf (slog st) -> Inv (end_tx st).
Proof. intros st H1 H2. apply (end_tx_inv_t (tx st) (tx st)). repeat split; auto. Qed.

(* expunge_all detaches what is in the identity map, what is pending and the deleted-state members of the
   transaction; the latter keep their transaction._deleted entry until the transaction object goes (end_tx) *)
Lemma close_obj_ok : forall st o, objinvb (tx st) o = true ->
  objinvb (Some true) (fst (close_obj (has_tx st) o)) = true /\ wfob (snd (close_obj (has_tx st) o)) = true.
Proof.
  intros st o H. unfold has_tx. destruct (tx st) as [[]|];
    by_state H; try destruct n; try destruct d; try destruct td; (split; [to_state|reflexivity]).
Qed.

Lemma do_close_inv : forall st, Inv st -> Inv (fst (do_close st)).
Proof.
  intros st HI. apply (end_tx_inv_t (tx st) (Some true)), (pass_spec _ (fun _ => objinvb (tx st))).
  - exact (conj eq_refl HI).
  - intros k o _ Hp. apply close_obj_ok, Hp.
Qed.
