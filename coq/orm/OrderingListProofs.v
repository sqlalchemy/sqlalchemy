(* C50 - facts about the builtin list operations (section Lists, shared with AssocProxyProofs), then the
   OrderingList model: every guarded operation of an attached list keeps positions equal to indices. *)
From Coq Require Import List ZArith Bool Lia Permutation.
Import ListNotations.
From SAV.base Require Import PySlice PySliceProofs.
From SAV.orm Require Import CollBase CollList OrderingList.
Open Scope Z_scope.

Section Lists.
Context {A : Type}.
Implicit Types (l : list A) (n k : nat).

Lemma NoDup_snoc : forall l x, NoDup l -> ~ In x l -> NoDup (l ++ [x]).
Proof.
  intros l x ND Hx. apply (Permutation_NoDup (Permutation_cons_append l x)). constructor; auto.
Qed.
Lemma NoDup_app_r : forall l l', NoDup (l ++ l') -> NoDup l'.
Proof. induction l; simpl; intros l' H; auto. inversion H; auto. Qed.

Lemma nth_error_snoc : forall l e k x, nth_error (l ++ [e]) k = Some x ->
  (k = length l /\ x = e) \/ nth_error l k = Some x.
Proof.
  intros l e k x H. destruct (Nat.lt_ge_cases k (length l)) as [Hk|Hk].
  - rewrite nth_error_app1 in H by assumption. auto.
  - rewrite nth_error_app2 in H by assumption. left.
    destruct (k - length l)%nat as [|j] eqn:E; simpl in H; [|destruct j; discriminate].
    inversion H. split; [lia|auto].
Qed.

Lemma py_insert_perm : forall l i x, Permutation (x :: l) (py_insert l i x).
Proof. intros; apply insert_perm. Qed.

Lemma del_nth_incl : forall n l, incl (del_nth n l) l.
Proof. unfold incl. induction n; destruct l; simpl; intros x H; auto. destruct H; eauto. Qed.
Lemma NoDup_del_nth : forall n l, NoDup l -> NoDup (del_nth n l).
Proof.
  induction n; destruct l; simpl; intros H; auto; inversion H; subst; auto.
  constructor; auto. intro Hin; apply del_nth_incl in Hin; auto.
Qed.

Lemma delslice_sub : forall l sl d, py_delslice l sl = Ok d -> incl d l /\ (NoDup l -> NoDup d).
Proof.
  intros l sl d H. destruct (py_getslice l sl) as [g|e] eqn:G.
  - pose proof (getslice_delslice_perm _ l sl g d G H) as P. split.
    + intros x Hx. apply (Permutation_in _ (Permutation_sym P)), in_or_app; auto.
    + intros ND. apply (Permutation_NoDup P), NoDup_app_r in ND; auto.
  - apply getslice_delslice_same_error in G. congruence.
Qed.

Lemma nth_error_set_nth : forall n l x k y, nth_error (set_nth n x l) k = Some y ->
  (k = n /\ y = x) \/ nth_error l k = Some y.
Proof.
  induction n; destruct l; simpl; intros x k y H; auto; destruct k; simpl in *; auto.
  - inversion H; auto.
  - destruct (IHn _ _ _ _ H) as [[-> ->]|]; auto.
Qed.
Lemma In_set_nth : forall n l x y, In y (set_nth n x l) -> y = x \/ In y l.
Proof.
  intros n l x y H. apply In_nth_error in H as [k H].
  destruct (nth_error_set_nth _ _ _ _ _ H) as [[_ ->]|H1]; eauto using nth_error_In.
Qed.
Lemma NoDup_set_nth : forall n l x, NoDup l -> ~ In x l -> NoDup (set_nth n x l).
Proof.
  induction n; destruct l; simpl; intros x ND Hx; auto; inversion ND; subst; constructor; auto.
  intro Hin. destruct (In_set_nth _ _ _ _ Hin) as [->|]; auto.
Qed.

Lemma map_snd_combine : forall (B : Type) (r : list B) l, length l = length r -> map snd (combine r l) = l.
Proof. induction r; destruct l; simpl; intros; try discriminate; auto. f_equal; auto. Qed.
End Lists.

Lemma memz_In : forall x l, memz x l = true <-> In x l.
Proof. exact memZ_In. Qed.
Lemma memz_false : forall x l, memz x l = false <-> ~ In x l.
Proof. intros; rewrite <- memz_In; destruct (memz x l); split; congruence. Qed.
Lemma nodupb_NoDup : forall l, nodupb l = true -> NoDup l.
Proof.
  induction l; simpl; intros H; constructor.
  - apply andb_prop in H; destruct H as [H _]. apply negb_true_iff in H. apply memz_false; auto.
  - apply andb_prop in H; destruct H; auto.
Qed.

(* what the guards' [fresh_all v l] says: the new entities are distinct and none is a member *)
Definition Fresh (v l : list Z) : Prop := NoDup v /\ forall x, In x v -> ~ In x l.

Lemma fresh_all_Fresh : forall v l, fresh_all v l = true -> Fresh v l.
Proof.
  intros v l H. apply andb_prop in H as [F N]. split; [apply nodupb_NoDup, N|].
  intros x Hx. rewrite forallb_forall in F. apply memz_false, negb_true_iff, F, Hx.
Qed.
(* one step of a loop that stores the entities of v one after the other *)
Lemma Fresh_cons : forall x v l, Fresh (x :: v) l ->
  ~ In x l /\ forall l', (forall y, In y l' -> y = x \/ In y l) -> Fresh v l'.
Proof.
  intros x v l [ND F]. inversion ND; subst. split; [apply F; left; auto|].
  intros l' Sub. split; auto. intros y Hy Hin.
  destruct (Sub _ Hin) as [->|Hl]; auto. apply (F y); [right|]; auto.
Qed.
Lemma Fresh_incl : forall v l l', Fresh v l -> incl l' l -> Fresh v l'.
Proof. intros v l l' [ND F] Sub. split; auto. intros x Hx Hin. apply (F x Hx); auto. Qed.

Section P.
Variable base : Z.
Variable roa : bool.

Notation ordered := (ordered base).
Notation order_entity := (order_entity base).
Notation reorder_from := (reorder_from base).
Notation reordered := (reordered base).

(* the invariant: every member's position is base + its index, and no entity is a member twice *)
Definition Good (s : ol) : Prop := ordered s /\ NoDup (items s).

Lemma set_pos_same : forall p e v, set_pos p e v e = v.
Proof. intros; unfold set_pos; rewrite Z.eqb_refl; reflexivity. Qed.
Lemma set_pos_other : forall p e v x, x <> e -> set_pos p e v x = p x.
Proof. intros; unfold set_pos. destruct (Z.eqb_spec x e); congruence. Qed.

Lemma order_entity_other : forall i e r p x, x <> e -> order_entity i e r p x = p x.
Proof. intros; unfold OrderingList.order_entity. destruct (p e); [destruct r|]; auto using set_pos_other. Qed.
Lemma order_entity_new : forall i e r p, r = true \/ p e = None ->
  order_entity i e r p e = Some (base + i).
Proof.
  intros i e r p [->|H]; unfold OrderingList.order_entity; [destruct (p e)|rewrite H]; apply set_pos_same.
Qed.

Lemma reorder_from_notin : forall l i p x, ~ In x l -> reorder_from i l p x = p x.
Proof.
  induction l as [|e r IH]; intros i p x H; simpl; auto.
  rewrite IH by (intro; apply H; right; auto).
  apply order_entity_other. intro; subst; apply H; left; auto.
Qed.

Lemma reorder_from_spec : forall l i p k e, NoDup l -> nth_error l k = Some e ->
  reorder_from i l p e = Some (base + i + Z.of_nat k).
Proof.
  induction l as [|a r IH]; intros i p k e ND H; [destruct k; discriminate|].
  inversion ND as [|? ? Ha NDr]; subst. simpl.
  destruct k as [|k]; simpl in H.
  - inversion H; subst. rewrite reorder_from_notin, order_entity_new by auto. f_equal; lia.
  - rewrite (IH (i + 1) _ k e NDr H). f_equal; lia.
Qed.

Lemma good_reordered : forall l p, NoDup l -> Good (reordered l p).
Proof.
  intros l p ND; split; auto. intros k e H; simpl in *.
  rewrite (reorder_from_spec l 0 p k e ND H). f_equal; lia.
Qed.

Lemma good_nil : forall p, Good (mkOL [] p).
Proof. split; [intros k e H; destruct k; discriminate|constructor]. Qed.
Lemma good_empty : Good ol_empty.
Proof. apply good_nil. Qed.

(* append and l[n] = e put a new entity e at index n and number it; the others keep place and number *)
Lemma good_place : forall s l' n e r, Good s -> ~ In e (items s) -> r = true \/ pos s e = None ->
  NoDup l' ->
  (forall k x, nth_error l' k = Some x -> (k = n /\ x = e) \/ nth_error (items s) k = Some x) ->
  Good (mkOL l' (order_entity (Z.of_nat n) e r (pos s))).
Proof.
  intros s l' n e r [O ND] He HR ND' Hl. split; auto.
  intros k x H; simpl in *. destruct (Hl _ _ H) as [[-> ->]|H1].
  - apply order_entity_new; auto.
  - rewrite order_entity_other; auto. intros ->. apply He. eapply nth_error_In; eauto.
Qed.

Lemma good_append : forall s e, Good s -> ~ In e (items s) ->
  (roa = true \/ pos s e = None) -> Good (ol_append base roa s e).
Proof.
  intros s e G He HR. apply good_place; auto using nth_error_snoc. apply NoDup_snoc; auto. apply G.
Qed.

Lemma good_insert : forall s i e, NoDup (items s) -> ~ In e (items s) -> Good (ol_insert base s i e).
Proof.
  intros. apply good_reordered, (Permutation_NoDup (py_insert_perm _ _ _)). constructor; auto.
Qed.

Lemma remove_first_sub : forall x (l l' : list Z), remove_first x l = Some l' ->
  incl l' l /\ (NoDup l -> NoDup l').
Proof.
  induction l as [|a r IH]; simpl; intros l' H; [discriminate|].
  destruct (Z.eqb x a).
  - inversion H; subst. split; [apply incl_tl, incl_refl|]. intros ND; inversion ND; auto.
  - destruct (remove_first x r) as [r'|] eqn:E; [|discriminate]. inversion H; subst.
    destruct (IH r' eq_refl) as [I1 I2]. split.
    + intros y [->|Hy]; [left|right]; auto.
    + intros ND; inversion ND; subst. constructor; auto.
Qed.

Lemma good_remove : forall s e, Good s -> Good (snd (ol_remove base s e)).
Proof.
  intros s e G. unfold ol_remove, py_remove.
  destruct (remove_first e (items s)) as [l'|] eqn:E; simpl; auto.
  apply good_reordered, (remove_first_sub _ _ _ E), G.
Qed.
Lemma good_pop : forall s i, Good s -> Good (snd (ol_pop base s i)).
Proof.
  intros s i G. unfold ol_pop, py_pop.
  destruct (norm_index i (zlen (items s))); simpl; auto.
  destruct (nth_error (items s) n); simpl; auto.
  apply good_reordered, NoDup_del_nth, G.
Qed.
Lemma good_at_delitem : forall s i, Good s ->
  Good (snd (at_delitem base s i)) /\ incl (items (snd (at_delitem base s i))) (items s).
Proof.
  intros s i G. unfold at_delitem. destruct (py_getitem (items s) i); simpl; auto using incl_refl.
  unfold ol_delitem, py_delitem. destruct (norm_index i (zlen (items s))); simpl; auto using incl_refl.
  split; [apply good_reordered, NoDup_del_nth, G|apply del_nth_incl].
Qed.
Lemma good_delslice : forall s sl, Good s -> Good (snd (ol_delslice base s sl)).
Proof.
  intros s sl G. unfold ol_delslice. destruct (py_delslice (items s) sl) eqn:E; simpl; auto.
  apply good_reordered, (delslice_sub _ _ _ E), G.
Qed.

Lemma good_at_setitem : forall s i e, Good s -> ~ In e (items s) ->
  Good (snd (at_setitem base s i e)) /\
  forall y, In y (items (snd (at_setitem base s i e))) -> y = e \/ In y (items s).
Proof.
  intros s i e G He. unfold at_setitem, py_getitem.
  destruct (norm_index i (zlen (items s))) as [n|] eqn:N; simpl; auto.
  destruct (nth_error (items s) n); simpl; auto.
  unfold ol_setitem, py_setitem. rewrite N. simpl. split; [|apply In_set_nth].
  (* the position computed by the method is the normalised index *)
  destruct (norm_index_Some i (zlen (items s)) n N) as [_ <-]; [unfold zlen; lia|].
  apply good_place; auto using nth_error_set_nth. apply NoDup_set_nth; auto. apply G.
Qed.

Lemma sort_small : forall l, (length l <= 1)%nat -> zsort l = l.
Proof. intros [|a [|b r]] H; simpl in *; auto; lia. Qed.
Lemma rev_small : forall (l : list Z), (length l <= 1)%nat -> rev l = l.
Proof. intros [|a [|b r]] H; simpl in *; auto; lia. Qed.
Lemma imul_small : forall (l : list Z) n, n <= 1 \/ l = [] -> py_imul l n = l \/ py_imul l n = [].
Proof.
  intros l n [H| ->]; unfold py_imul.
  - destruct (n <=? 0) eqn:E; auto. assert (n = 1) by lia. subst. simpl. left. apply app_nil_r.
  - destruct (n <=? 0); auto. left. induction (Z.to_nat n); simpl; auto.
Qed.

Lemma good_extend : forall v s, Good s -> Fresh v (items s) ->
  (roa = true \/ forall x, In x v -> pos s x = None) ->
  Good (fold_left (ol_append base roa) v s).
Proof.
  induction v as [|x v IH]; intros s G F HR; simpl; auto.
  destruct (Fresh_cons _ _ _ F) as [Hx Ft]. apply IH.
  - apply good_append; auto. destruct HR as [->|HR]; auto using in_eq.
  - apply Ft. simpl. intros y Hy. apply in_app_or in Hy as [|[<-|[]]]; auto.
  - destruct HR as [->|HR]; auto. right. intros y Hy. simpl.
    rewrite order_entity_other; [apply HR; right; auto|].
    intros ->. destruct F as [ND _]. inversion ND; auto.
Qed.

(* slice assignment as the collections wrapper decomposes it: [del self[start]] for each member of
   the slice, then inserts (step 1); one [__setitem__] per index (extended slice) *)
Lemma del_loop_good : forall n start s, Good s ->
  Good (snd (at_del_loop base n start s)) /\ incl (items (snd (at_del_loop base n start s))) (items s).
Proof.
  induction n; intros start s G; simpl; auto using incl_refl.
  destruct (start <? zlen (items s)); [|apply IHn; auto].
  destruct (good_at_delitem s start G) as [G1 Sub].
  destruct (at_delitem base s start) as [[u|e] s1]; simpl in *; auto.
  destruct (IHn start s1 G1) as [A B]. split; auto. eapply incl_tran; eauto.
Qed.

Lemma ins_loop_good : forall v p s, Good s -> Fresh v (items s) -> Good (at_ins_loop base p v s).
Proof.
  induction v as [|x v IH]; intros p s G F; simpl; auto.
  destruct (Fresh_cons _ _ _ F) as [Hx Ft]. apply IH.
  - apply good_insert; auto. apply G.
  - apply Ft. simpl. intros y Hy.
    apply (Permutation_in _ (Permutation_sym (py_insert_perm _ _ _))) in Hy as [<-|]; auto.
Qed.

Lemma set_loop_good : forall ivs s, Good s -> Fresh (map snd ivs) (items s) ->
  Good (snd (at_set_loop base ivs s)).
Proof.
  induction ivs as [|[i x] r IH]; intros s G F; simpl; auto.
  destruct (Fresh_cons _ _ _ F) as [Hx Ft]. destruct (good_at_setitem s i x G Hx) as [G1 Mem].
  destruct (at_setitem base s i x) as [[u|e] s1]; simpl in *; [apply IH|]; auto.
Qed.

Lemma good_setslice : forall s sl v, Good s -> fresh_all v (items s) = true ->
  Good (snd (at_setslice base s sl v)).
Proof.
  intros s sl v G F. apply fresh_all_Fresh in F. unfold at_setslice.
  destruct (adjust sl (zlen (items s))) as [[[start stop] step]|e]; simpl; auto.
  destruct (step =? 1).
  - destruct (del_loop_good (length (range start stop step)) start s G) as [G1 Sub].
    destruct (at_del_loop base (length (range start stop step)) start s) as [[u|e] s1]; simpl in *; auto.
    apply ins_loop_good; auto. eapply Fresh_incl; eauto.
  - destruct (Nat.eqb_spec (length v) (length (range start stop step))); simpl; auto.
    apply set_loop_good; auto. rewrite map_snd_combine; auto.
Qed.

Lemma unpositioned_None : forall p e, unpositioned p e = true -> p e = None.
Proof. intros p e; unfold unpositioned. destruct (p e); [discriminate|auto]. Qed.

Lemma good_extend_guarded : forall s v, Good s ->
  fresh_all v (items s) && (roa || forallb (unpositioned (pos s)) v) = true ->
  Good (fold_left (ol_append base roa) v s).
Proof.
  intros s v G H. apply andb_prop in H as [H1 H2]. apply good_extend; auto using fresh_all_Fresh.
  apply orb_prop in H2 as [->|H2]; auto. right. intros x Hx.
  rewrite forallb_forall in H2. apply unpositioned_None; auto.
Qed.

Theorem good_step : forall s o, Good s -> ol_guard roa s o = true ->
  Good (snd (ol_step base roa true s o)).
Proof.
  intros s o G H. pose proof G as [O ND].
  destruct o as [e|i e|e|oi|i e|sl v|i|sl|v|v| | | |n|]; simpl in *.
  - apply andb_prop in H as [H1 H2]. apply negb_true_iff, memz_false in H1.
    apply good_append; auto. apply orb_prop in H2 as [->|H2]; auto using unpositioned_None.
  - apply negb_true_iff, memz_false in H. apply good_insert; auto.
  - apply good_remove; auto.
  - apply good_pop; auto.
  - apply negb_true_iff, memz_false in H. apply good_at_setitem; auto.
  - apply good_setslice; auto.
  - apply good_at_delitem; auto.
  - apply good_delslice; auto.
  - apply good_extend_guarded; auto.
  - apply good_extend_guarded; auto.
  - apply good_nil.
  - apply Nat.leb_le in H. rewrite sort_small by assumption. destruct s; auto.
  - apply Nat.leb_le in H. rewrite rev_small by assumption. destruct s; auto.
  - assert (HH : n <= 1 \/ items s = []).
    { apply orb_prop in H. destruct H as [H|H]; [left; lia|right].
      apply Nat.eqb_eq in H. destruct (items s); auto; discriminate. }
    destruct (imul_small (items s) n HH) as [E|E]; rewrite E; [destruct s; auto|apply good_nil].
  - apply good_reordered; auto.
Qed.

Theorem positions_eq_indices : forall ops s, Good s -> ol_guarded base roa true ops s = true ->
  Good (ol_run base roa true ops s).
Proof.
  induction ops as [|o r IH]; intros s G H; simpl in *; auto.
  apply andb_prop in H; destruct H as [H1 H2]. apply IH; auto. apply good_step; auto.
Qed.

Lemma pinsert_head : forall p x l b, p x = Some b ->
  (forall y, In y l -> exists c, p y = Some c /\ b <= c) -> pinsert p x l = x :: l.
Proof.
  intros p x l b Hx H. destruct l as [|y r]; simpl; auto.
  rewrite Hx. destruct (H y (or_introl eq_refl)) as [c [Hc Hle]]. rewrite Hc.
  destruct (b <=? c) eqn:E; auto. lia.
Qed.

Theorem reload_is_list : forall s, ordered s -> reload s = items s.
Proof.
  intros s O. unfold reload, OrderingList.ordered in *.
  assert (G : forall l off, (forall k e, nth_error l k = Some e -> pos s e = Some (base + off + Z.of_nat k)) ->
                       fold_right (pinsert (pos s)) [] l = l).
  { induction l as [|a r IH]; intros off H; simpl; auto.
    rewrite (IH (off + 1)).
    - apply (pinsert_head _ _ _ (base + off)).
      + rewrite (H 0%nat a eq_refl). f_equal; lia.
      + intros y Hy. apply In_nth_error in Hy. destruct Hy as [k Hk].
        exists (base + off + Z.of_nat (S k)). split; [apply (H (S k)); auto|lia].
    - intros k e Hk. rewrite (H (S k) e Hk). f_equal; lia. }
  apply (G (items s) 0). intros k e Hk. rewrite (O k e Hk). f_equal; lia.
Qed.
End P.
