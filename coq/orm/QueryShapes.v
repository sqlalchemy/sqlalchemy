(* C41: the Core query compiled for each ORM query shape computes the relational meaning of the query *)
From Coq Require Import List ZArith Bool Arith.
Import ListNotations.
From SAV.sql Require Import Val3.
From SAV.orm Require Import Query QueryCrit.

Lemma flat_map_map : forall (A B C : Type) (f : A -> B) (g : B -> list C) (l : list A),
  flat_map g (map f l) = flat_map (fun x => g (f x)) l.
Proof. intros. induction l as [|x l IH]; [reflexivity|]. cbn [map flat_map]. rewrite IH. reflexivity. Qed.

Lemma map_flat_map : forall (A B C : Type) (f : B -> C) (g : A -> list B) (l : list A),
  map f (flat_map g l) = flat_map (fun x => map f (g x)) l.
Proof. intros. induction l as [|x l IH]; [reflexivity|]. cbn [flat_map]. rewrite map_app, IH. reflexivity. Qed.

Lemma filter_true : forall (A : Type) (l : list A), filter (fun _ => true) l = l.
Proof. intros. induction l as [|x l IH]; [reflexivity|]. cbn [filter]. rewrite IH. reflexivity. Qed.

(* What  FROM ta AS 0 [LEFT OUTER] JOIN tb AS 1 ON m  ranges over, on the objects: the matching pairs, and
   (a, None) for a left object without partner under an outer join.  [pairs_pc] and [pairs_cp] are instances
   (up to conversion); [env2] is the environment such a pair stands for. *)
Definition is_nil {A : Type} (l : list A) : bool := match l with [] => true | _ => false end.
Definition opairs {A B : Type} (m : A -> B -> bool) (outer : bool) (la : list A) (lb : list B) : list (A * option B) :=
  flat_map (fun a => let ms := filter (m a) lb in
                     if outer && is_nil ms then [(a, None)] else map (fun b => (a, Some b)) ms) la.
Definition env2 {A B : Type} (ga : A -> grow) (gb : B -> grow) (ab : A * option B) : env :=
  [(1, match snd ab with Some b => gb b | None => null_row end); (0, ga (fst ab))].

Lemma opairs_all : forall (A B : Type) (la : list A) (lb : list B),
  opairs (fun _ _ => true) false la lb =
  map (fun ab => (fst ab, Some (snd ab))) (flat_map (fun a => map (fun b => (a, b)) lb) la).
Proof.
  intros. unfold opairs. rewrite map_flat_map. apply flat_map_ext. intros a.
  rewrite filter_true, map_map. reflexivity.
Qed.

Section Shapes.
Variable d : db.

(* SELECT .. FROM t WHERE w, the rows of t being the images of the objects l *)
Lemma sel_envs_one : forall t w cols ord (A : Type) (g : A -> grow) (l : list A) (P : A -> bool),
  rows_of d t = map g l -> (forall x, is_true (beval d [(0, g x)] w) = P x) ->
  sel_envs d {| s_tab := t; s_alias := 0; s_joins := []; s_where := w; s_cols := cols; s_order := ord |} =
  map (fun x => [(0, g x)]) (filter P l).
Proof.
  intros t w cols ord A g l P Ht HP. unfold sel_envs. cbn [s_joins s_tab s_alias s_where fold_left].
  rewrite Ht, map_map, filter_map_swap, (filter_ext _ _ HP). reflexivity.
Qed.

(* SELECT .. FROM ta [LEFT OUTER] JOIN tb ON on WHERE w *)
Lemma sel_envs_join : forall ta tb outer on w cols ord (A B : Type) (ga : A -> grow) (gb : B -> grow) la lb m P,
  rows_of d ta = map ga la -> rows_of d tb = map gb lb ->
  (forall a b, is_true (beval d [(1, gb b); (0, ga a)] on) = m a b) ->
  (forall ab, is_true (beval d (env2 ga gb ab) w) = P ab) ->
  sel_envs d {| s_tab := ta; s_alias := 0;
                s_joins := [ {| f_outer := outer; f_tab := tb; f_alias := 1; f_on := on |} ];
                s_where := w; s_cols := cols; s_order := ord |} =
  map (env2 ga gb) (filter P (opairs m outer la lb)).
Proof.
  intros ta tb outer on w cols ord A B ga gb la lb m P Ha Hb Hm HP. unfold sel_envs, join_step.
  cbn [s_joins s_tab s_alias s_where fold_left f_alias f_on f_tab f_outer].
  rewrite Ha, Hb, map_map, flat_map_map, <- (filter_ext _ _ HP).
  rewrite <- (filter_map_swap _ _ (env2 ga gb) (fun e => is_true (beval d e w))). f_equal.
  unfold opairs. rewrite map_flat_map. apply flat_map_ext. intros a.
  rewrite filter_map_swap, (filter_ext _ _ (Hm a)).
  destruct (filter (m a) lb) as [|b l]; destruct outer; cbn [map is_nilg is_nil andb]; rewrite ?map_map; reflexivity.
Qed.

Lemma sel_envs_p : forall c cols, contains_ok d c = true ->
  sel_envs d (sel_p (tr_pcrit d 0 c) cols) =
  map (fun p => [(0, grow_p p)]) (filter (fun p => is_true (peval d p c)) (ps d)).
Proof.
  intros c cols Hok. apply (sel_envs_one TabP _ _ _ _ grow_p); [reflexivity|].
  intros p. f_equal. apply pcrit_tr; [reflexivity | exact outer_alias_0 | exact Hok].
Qed.

Lemma on_pc_meaning : forall t p c,
  is_true (beval d [(1, grow_c c); (0, grow_p p)] (on_pc t)) = child_of c p && tgt_ok t c.
Proof.
  intros t p c. destruct t; unfold on_pc, pj, sub_crit;
    cbn [beval eeval lookup Nat.eqb gcol grow_p grow_c g_id g_pid g_kind map tgt_ok];
    rewrite ?is_true_and3, pj_child, ?sub_crit_is_sub, ?andb_true_r; reflexivity.
Qed.

Lemma sel_envs_pc : forall outer t w cols P,
  (forall pc, is_true (beval d (env2 grow_p grow_c pc) w) = P pc) ->
  sel_envs d (sel_pc outer (on_pc t) w cols) = map (env2 grow_p grow_c) (filter P (pairs_pc d outer t)).
Proof.
  intros outer t w cols P HP.
  exact (sel_envs_join TabP TabC _ _ _ _ _ _ _ grow_p grow_c (ps d) (cs d) _ P eq_refl eq_refl (on_pc_meaning t) HP).
Qed.

Lemma same_parent_cmp : forall a b, is_true (cmp3 OEq (c_pid a) (c_pid b)) = same_parent a b.
Proof.
  intros a b. unfold same_parent. destruct (c_pid a), (c_pid b); try reflexivity.
  cbn [cmp3 cmpZ]. apply is_true_tv_of_bool.
Qed.

Lemma dedup_rows_in : forall l seen r, In r (dedup_rows l seen) -> In r l.
Proof.
  induction l as [|x l IH]; intros seen r H; [destruct H|]. cbn [dedup_rows] in H.
  destruct (mem_row x seen).
  - right. exact (IH _ _ H).
  - destruct H as [H|H]; [left; exact H | right; exact (IH _ _ H)].
Qed.

(* SELECT * FROM c WHERE w  (a member of the union over C) *)
Lemma sel_rows_call : forall a,
  map snd (sel_rows d (sel_call (tr_sx 0 ColY a))) =
  map cvals (filter (fun c => is_true (sxeval a (c_y c))) (cs d)).
Proof.
  intros a. unfold sel_rows, sel_call.
  rewrite (sel_envs_one TabC _ _ _ _ grow_c (cs d) (fun c => is_true (sxeval a (c_y c)))), !map_map;
    [reflexivity | reflexivity |].
  intros c. rewrite sx_tr. reflexivity.
Qed.

Lemma crow_of_cvals : forall c, crow_of_vals (cvals c) = c.
Proof. intros []. reflexivity. Qed.

Theorem core_rows_meaning : forall q, query_ok d q = true ->
  core_rows d (orm_to_core d q) = meaning_rows d q.
Proof.
  intros q Hok.
  destruct q as [c|k|outer t sp sc m|outer sc sp|sc|a b|c|a b post|vals sc]; cbn [orm_to_core core_rows meaning_rows query_ok] in *.
  - (* select(P).where(c) *)
    unfold sel_rows. rewrite (sel_envs_p c _ Hok), map_map. reflexivity.
  - (* select(C).where(k) *)
    unfold sel_rows.
    rewrite (sel_envs_one TabC _ _ _ _ grow_c (cs d) (fun c => is_true (ceval d c k))), map_map; [reflexivity | reflexivity |].
    intros c. f_equal. apply ccrit_tr; [reflexivity | exact outer_alias_0].
  - (* join along P.children *)
    unfold sel_rows.
    rewrite (sel_envs_pc outer t _ _ (fun pc => is_true (and3 (sxeval sp (p_x (fst pc))) (sxeval sc (oc_y (snd pc)))))), map_map.
    + apply map_ext. intros [p oc]. destruct m, oc; reflexivity.
    + intros [p oc]. cbn [beval]. rewrite !sx_tr. destruct oc; reflexivity.
  - (* join along C.parent *)
    unfold sel_rows.
    rewrite (sel_envs_join TabC TabP _ _ _ _ _ _ _ grow_c grow_p (cs d) (ps d) (fun c p => child_of c p)
               (fun cp => is_true (and3 (sxeval sc (c_y (fst cp))) (sxeval sp (op_x (snd cp)))))), map_map.
    + apply map_ext. intros [c op]. destruct op; reflexivity.
    + reflexivity.
    + reflexivity.
    + intros c p. apply pj_child.
    + intros [c op]. cbn [beval]. rewrite !sx_tr. destruct op; reflexivity.
  - (* group by P with count(C.id) *)
    f_equal. unfold kv_of.
    rewrite (sel_envs_pc true TgC _ _ (fun pc => is_true (sxeval sc (oc_y (snd pc))))), map_map.
    + apply map_ext. intros [p oc]. destruct oc; reflexivity.
    + intros [p oc]. rewrite sx_tr. destruct oc; reflexivity.
  - (* union *)
    apply andb_true_iff in Hok. destruct Hok as [Ha Hb].
    unfold sel_rows. rewrite (sel_envs_p a _ Ha), (sel_envs_p b _ Hb), !map_map. reflexivity.
  - (* select(Node).where(c) *)
    unfold sel_rows.
    rewrite (sel_envs_one TabN _ _ _ _ grow_c (ns d) (fun n => is_true (neval d n c))), map_map; [reflexivity | reflexivity |].
    intros n. f_equal. apply ncrit_tr; [reflexivity | discriminate].
  - (* union over C with a criterion added after the union: every row of the union is a row of c *)
    rewrite !sel_rows_call. f_equal. apply filter_ext_in. intros r Hr.
    apply dedup_rows_in in Hr. rewrite <- map_app in Hr. apply in_map_iff in Hr. destruct Hr as [c [Hc _]]. subst r.
    rewrite crow_of_cvals. f_equal. apply ccrit_tr; [reflexivity | exact outer_alias_0].
  - (* the single-table subclass twice *)
    unfold sel_rows, sel_sibs.
    rewrite (sel_envs_join TabC TabC false BTrue _ _ _ _ _ grow_c grow_c (cs d) (cs d) (fun _ _ => true) _ eq_refl eq_refl
               (fun _ _ => eq_refl) (fun _ => eq_refl)).
    rewrite opairs_all, filter_map_swap, !map_map. f_equal. apply filter_ext. intros [a b].
    cbn [beval]. rewrite !is_true_and3, sx_tr. unfold sub_crit.
    cbn [beval eeval lookup Nat.eqb env2 fst snd gcol grow_c g_pid g_y g_kind map].
    rewrite same_parent_cmp, !sub_crit_is_sub. reflexivity.
Qed.

End Shapes.

Theorem core_exec_meaning : forall d q, query_ok d q = true -> core_exec d (orm_to_core d q) = meaning d q.
Proof. intros d q H. unfold core_exec, meaning. rewrite (core_rows_meaning d q H). reflexivity. Qed.
