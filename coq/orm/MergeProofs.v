(* C45 - a merge with load=False sends no SQL, adds no pending object, flags nothing and leaves no history. *)
From Coq Require Import List Bool Arith ZArith Lia.
From SAV.orm Require Import Merge MergeStages.
Import ListNotations.

(* sources a real program can build: a detached object has a primary key *)
Definition srcsB_ok (sbs : list srcB) : Prop := forall j b, nth_error sbs j = Some b -> sb_detached b = true -> sb_pk b <> None.
Definition srcA_ok (a : srcA) : Prop := sa_detached a = true -> sa_pk a <> None.

Definition clean (s : mstate) (x : nat) : Prop :=
  modf s x = false /\ (forall k, ccomm s x k = None) /\ bscomm s x = None /\ pcomm s x = None.

Definition silent (s s' : mstate) : Prop :=
  sql s' = sql s /\ pendings s' = pendings s /\ (forall x, modf s' x = true -> modf s x = true) /\ (forall x, clean s x -> clean s' x).
Lemma silent_refl : forall s, silent s s.
Proof. intros s. unfold silent. auto. Qed.
Lemma silent_trans : forall a b c, silent a b -> silent b c -> silent a c.
Proof. intros a b c [A1 [A2 [A3 A4]]] [B1 [B2 [B3 B4]]]. split; [congruence|]. split; [congruence|]. auto. Qed.
Lemma silent_frame : forall s s', sql s' = sql s -> pendings s' = pendings s -> modf s' = modf s -> ccomm s' = ccomm s ->
  bscomm s' = bscomm s -> pcomm s' = pcomm s -> silent s s'.
Proof. intros s s' E1 E2 E3 E4 E5 E6. unfold silent, clean. rewrite E1, E2, E3, E4, E5, E6. auto. Qed.

Lemma silent_commit_all : forall s t, silent s (commit_all s t).
Proof.
  intros s t. split; [reflexivity|]. split; [reflexivity|]. unfold clean. cbn [modf ccomm bscomm pcomm commit_all]. unfold upd. split.
  - intros x. destruct (Nat.eqb x t); [discriminate|auto].
  - intros x C. destruct (Nat.eqb x t); auto.
Qed.
Lemma clean_commit_all : forall s t, clean (commit_all s t) t.
Proof. intros s t. unfold clean. cbn [modf ccomm bscomm pcomm commit_all]. rewrite !upd_same, Nat.eqb_refl. auto. Qed.

Lemma silent_merge_col_false : forall s t k v, silent s (merge_col false s t k v).
Proof. intros s t k v. destruct v; cbn [merge_col]; [apply silent_refl|apply silent_frame; reflexivity]. Qed.

(* with a key, load=False always has a target: it makes a persistent instance where the session has none *)
Lemma silent_target_B : forall cfg s ctx pk s2 t, obtain (resolve_B cfg false s ctx (Some pk)) = (s2, t) -> silent s s2.
Proof.
  intros cfg s ctx pk s2 t. unfold obtain, resolve_B. destruct (idB s pk); [|destruct (assoc pk (cmap ctx))];
    cbn; intros E; inversion E; try apply silent_refl. apply silent_frame; reflexivity.
Qed.
Lemma silent_target_A : forall cfg s pk s2 t, obtain (resolve_A cfg false s (Some pk)) = (s2, t) -> silent s s2.
Proof.
  intros cfg s pk s2 t. unfold obtain, resolve_A. destruct (idA s pk); cbn; intros E; inversion E; [apply silent_refl|].
  apply silent_frame; reflexivity.
Qed.

Lemma silent_copy_B_false : forall cfg root src s t, silent s (copy_B cfg false root src s t) /\ clean (copy_B cfg false root src s t) t.
Proof.
  intros. unfold copy_B, finish. split; [|apply clean_commit_all]. eapply silent_trans; [|apply silent_commit_all].
  eapply silent_trans; [apply silent_merge_col_false|]. eapply silent_trans; [apply silent_merge_col_false|].
  destruct (hb cfg && mb cfg && negb false); [destruct (sb_a src)|]; try apply silent_refl; apply silent_frame; reflexivity.
Qed.

Definition acc_inv (s0 : mstate) (a : mstate * mctx * list nat) : Prop :=
  let '(s, ctx, dest) := a in
  silent s0 s /\ (forall c, In c dest -> clean s c) /\ (forall j t, assoc j (memo ctx) = Some t -> clean s t).

Lemma child_step_false : forall cfg root sbs s0 s ctx dest j a',
  srcsB_ok sbs -> acc_inv s0 (s, ctx, dest) -> child_step cfg false root sbs s ctx dest j a' -> acc_inv s0 a'.
Proof.
  intros cfg root sbs s0 s ctx dest j a' Hok [S0 [I1 I2]] Hstep.
  assert (App : forall (s' : mstate) t, (forall x, clean s x -> clean s' x) -> clean s' t -> forall c, In c (dest ++ [t]) -> clean s' c).
  { intros s' t K Ht c Hc. apply in_app_iff in Hc. destruct Hc as [Hc|[Hc|[]]]; [apply K, I1, Hc|subst; exact Ht]. }
  destruct Hstep as [t Hm|Hn|src s2 t Hm Hn [Hd|Hl] Ho]; [| | |discriminate].
  - split; [exact S0|]. split; [|exact I2]. apply App; [auto|eapply I2; eauto].
  - assert (S1 : silent s (set_poison s)) by (apply silent_frame; reflexivity).
    split; [eapply silent_trans; eauto|]. destruct S1 as [_ [_ [_ K]]]. split; [intros c Hc; apply K, I1, Hc|intros j' t' Ha; eapply K, I2; eauto].
  - destruct (sb_pk src) as [pk|] eqn:Hpk; [|exfalso; eapply Hok; eauto].
    destruct (silent_copy_B_false cfg root src s2 t) as [S2 Ct].
    pose proof (silent_trans _ _ _ (silent_target_B _ _ _ _ _ _ Ho) S2) as S1.
    split; [eapply silent_trans; eauto|]. destruct S1 as [_ [_ [_ K]]]. split; [apply App; assumption|].
    intros j' t' Ha. cbn [memo note] in Ha. rewrite assoc_cons in Ha.
    destruct (Nat.eqb j' j); [inversion Ha; subst; exact Ct|eapply K, I2; eauto].
Qed.

Theorem merge_load_false_no_sql_no_dirty : forall cfg sbs s src s' t,
  srcsB_ok sbs -> srcA_ok src ->
  merge_A cfg false sbs s src = Some (s', t) ->
  sql s' = sql s /\ pendings s' = pendings s /\
  (forall x, modf s' x = true -> modf s x = true) /\
  clean s' t /\
  (mf cfg = true -> forall js, sa_bs src = SV js -> exists dest, bs s' t = Some dest /\ forall c, In c dest -> clean s' c).
Proof.
  intros cfg sbs s src s' t Hokb Hoka H.
  destruct (merge_A_stages _ _ _ _ _ _ _ H) as [[Hd|Hl] [s2 [s7 [Ho [Hr Es']]]]]; [|discriminate]. subst s'. cbn [finish].
  destruct (sa_pk src) as [pk|] eqn:Hpk; [|exfalso; apply Hoka; auto].
  assert (S4 : silent s (copy_A false src s2 t)).
  { eapply silent_trans; [eapply silent_target_A; exact Ho|]. unfold copy_A.
    eapply silent_trans; [apply silent_merge_col_false|]. eapply silent_trans; apply silent_merge_col_false. }
  assert (Rel : silent s s7 /\ (mf cfg = true -> forall js, sa_bs src = SV js -> exists dest, bs s7 t = Some dest /\ forall c, In c dest -> clean s7 c)).
  { destruct (rel_A_cases _ _ _ _ _ _ _ Hr) as [[No ->]|[js [s6 [ctx6 [dest [_ [_ [F ->]]]]]]]].
    { split; [exact S4|]. intros Hmf js Hjs. destruct No; congruence. }
    apply (fold_merge_B_ind _ _ _ _ (fun _ => acc_inv s)) in F.
    - destruct F as [S6 [I1 _]]. assert (S7 : silent s6 (set_bs s6 t (Some dest))) by (apply silent_frame; reflexivity).
      split; [exact (silent_trans _ _ _ S6 S7)|]. intros _ js0 _. exists dest. split; [cbn; apply upd_same|].
      intros c Hc. apply S7, I1, Hc.
    - split; [exact S4|]. split; [intros c []|discriminate].
    - intros pre j sj ctx dj a' _. apply child_step_false, Hokb. }
  destruct Rel as [S7 Hbs]. destruct (silent_trans _ _ _ S7 (silent_commit_all s7 t)) as [Q1 [Q2 [Q3 _]]].
  repeat split; auto; try apply clean_commit_all.
  intros Hmf js Hjs. destruct (Hbs Hmf js Hjs) as [dest [Eb Hc]]. exists dest. split; [exact Eb|].
  intros c Hin. apply silent_commit_all, Hc, Hin.
Qed.
