(* C42: facts about the class tree of Poly.v (ancestor chains, table owners, polymorphic_map) *)
From Coq Require Import List ZArith Bool Arith Lia.
Import ListNotations.
From SAV.orm Require Import Poly.

Definition wf_hier (h : hier) : Prop :=
  0 < length h /\ joined h 0 = true /\ parent h 0 = None /\
  (forall i p, parent h i = Some p -> p < i) /\
  (forall i, 0 < i -> i < length h -> exists p, parent h i = Some p) /\
  (forall i j x, ident h i = Some x -> ident h j = Some x -> i = j).

Lemma memn_In : forall x l, memn x l = true <-> In x l.
Proof.
  intros x l. unfold memn. rewrite existsb_exists. split.
  - intros [y [Hy He]]. apply Nat.eqb_eq in He. subst. exact Hy.
  - intros H. exists x. split; [exact H | apply Nat.eqb_refl].
Qed.

Lemma nodupZ_NoDup : forall l, nodupZ l = true -> NoDup l.
Proof.
  induction l as [|x l IH]; intros H; constructor; cbn [nodupZ] in H; apply andb_true_iff in H; destruct H as [Hx Hl].
  - intros Hin. apply negb_true_iff in Hx. rewrite <- not_true_iff_false in Hx. apply Hx.
    apply existsb_exists. exists x. split; [exact Hin | apply Z.eqb_refl].
  - exact (IH Hl).
Qed.

Lemma wf_hierb_ok : forall h, wf_hierb h = true -> wf_hier h.
Proof.
  intros h H. unfold wf_hierb in H.
  repeat (apply andb_true_iff in H; destruct H as [H ?]).
  rename H0 into Hnd, H1 into Hpar, H2 into Hj.
  apply negb_true_iff in H. apply Nat.eqb_neq in H.
  assert (Hlen : 0 < length h) by lia.
  unfold parents_ok in Hpar. rewrite forallb_forall in Hpar.
  assert (Hp : forall i p, parent h i = Some p -> p < i).
  { intros i p Hip. destruct (Nat.lt_ge_cases i (length h)) as [Hlt|Hge].
    - specialize (Hpar i). rewrite Hip in Hpar. apply Nat.ltb_lt. apply Hpar.
      apply in_seq. lia.
    - unfold parent in Hip. apply nth_error_None in Hge. rewrite Hge in Hip. discriminate. }
  repeat split.
  - exact Hlen.
  - exact Hj.
  - destruct (parent h 0) as [p|] eqn:E; [|reflexivity]. apply Hp in E. lia.
  - exact Hp.
  - intros i Hi Hl. specialize (Hpar i). destruct (parent h i) as [p|].
    + exists p. reflexivity.
    + assert (Nat.eqb i 0 = true) by (apply Hpar; apply in_seq; lia). apply Nat.eqb_eq in H0. lia.
  - intros i j x Hi Hj'. apply nodupZ_NoDup in Hnd. rewrite NoDup_nth_error in Hnd. unfold ident in *.
    destruct (nth_error h i) as [ci|] eqn:Ei; [|discriminate].
    destruct (nth_error h j) as [cj|] eqn:Ej; [|discriminate].
    apply Hnd.
    + rewrite map_length. apply nth_error_Some. congruence.
    + rewrite !nth_error_map, Ei, Ej. cbn [option_map]. congruence.
Qed.

Section Tree.
Variable h : hier.
Hypothesis Hwf : wf_hier h.

Lemma wf_nonempty : 0 < length h.
Proof. destruct Hwf as (H & _). exact H. Qed.
Lemma wf_root_joined : joined h 0 = true.
Proof. destruct Hwf as (_ & H & _). exact H. Qed.
Lemma wf_parent_lt : forall i p, parent h i = Some p -> p < i.
Proof. destruct Hwf as (_ & _ & _ & H & _). exact H. Qed.
Lemma wf_has_parent : forall i, 0 < i -> i < length h -> exists p, parent h i = Some p.
Proof. destruct Hwf as (_ & _ & _ & _ & H & _). exact H. Qed.
Lemma wf_ident_inj : forall i j x, ident h i = Some x -> ident h j = Some x -> i = j.
Proof. destruct Hwf as (_ & _ & _ & _ & _ & H). exact H. Qed.

Let Hpar := wf_parent_lt.

Lemma path_up_fuel : forall n m i, i < n -> i < m -> path_up h n i = path_up h m i.
Proof.
  induction n as [|n IH]; intros m i Hn Hm; [lia|].
  destruct m as [|m]; [lia|]. cbn [path_up].
  destruct (parent h i) as [p|] eqn:E; [|reflexivity].
  f_equal. apply Hpar in E. apply IH; lia.
Qed.

Lemma up_unfold : forall i,
  up h i = i :: match parent h i with Some p => up h p | None => [] end.
Proof.
  intros i. unfold up at 1. cbn [path_up]. destruct (parent h i) as [p|] eqn:E; [|reflexivity].
  f_equal. unfold up. apply Hpar in E. apply path_up_fuel; lia.
Qed.

Lemma isa_unfold : forall m c,
  isa h m c = Nat.eqb c m || match parent h m with Some p => isa h p c | None => false end.
Proof.
  intros m c. unfold isa. rewrite up_unfold. unfold memn. cbn [existsb].
  destruct (parent h m); reflexivity.
Qed.

Lemma isa_refl : forall i, isa h i i = true.
Proof. intros i. rewrite isa_unfold, Nat.eqb_refl. reflexivity. Qed.

Lemma isa_inv : forall m c, isa h m c = true ->
  c = m \/ exists p, parent h m = Some p /\ p < m /\ isa h p c = true.
Proof.
  intros m c H. rewrite isa_unfold in H. apply orb_true_iff in H. destruct H as [H|H].
  - left. apply Nat.eqb_eq. exact H.
  - destruct (parent h m) as [p|] eqn:E; [|discriminate]. right. exists p. auto.
Qed.

Lemma isa_step : forall m p c, parent h m = Some p -> isa h p c = true -> isa h m c = true.
Proof. intros m p c E H. rewrite isa_unfold, E, H. apply orb_true_r. Qed.

Lemma isa_parent : forall m p, parent h m = Some p -> isa h m p = true.
Proof. intros m p E. exact (isa_step _ _ _ E (isa_refl p)). Qed.

Lemma isa_le : forall m c, isa h m c = true -> c <= m.
Proof.
  induction m as [m IH] using lt_wf_ind. intros c H.
  destruct (isa_inv _ _ H) as [->|(p & _ & Hp & Hc)]; [lia|]. pose proof (IH p Hp c Hc). lia.
Qed.

Lemma isa_trans : forall a b c, isa h a b = true -> isa h b c = true -> isa h a c = true.
Proof.
  induction a as [a IH] using lt_wf_ind. intros b c Hab Hbc.
  destruct (isa_inv _ _ Hab) as [->|(p & E & Hp & Hpb)]; [exact Hbc|].
  exact (isa_step _ _ _ E (IH p Hp b c Hpb Hbc)).
Qed.

Lemma isa_antisym : forall a b, isa h a b = true -> isa h b a = true -> a = b.
Proof. intros a b H1 H2. apply isa_le in H1. apply isa_le in H2. lia. Qed.

Lemma isa_chain : forall m a b, isa h m a = true -> isa h m b = true ->
  isa h a b = true \/ isa h b a = true.
Proof.
  induction m as [m IH] using lt_wf_ind. intros a b Ha Hb.
  destruct (isa_inv _ _ Ha) as [->|(p & E & Hp & Hpa)]; [left; exact Hb|].
  destruct (isa_inv _ _ Hb) as [->|(p' & E' & _ & Hpb)]; [right; exact Ha|].
  rewrite E in E'. inversion E'; subst p'. exact (IH p Hp a b Hpa Hpb).
Qed.

Lemma isa_root : forall m, m < length h -> isa h m 0 = true.
Proof.
  induction m as [m IH] using lt_wf_ind. intros Hm. destruct m as [|m]; [apply isa_refl|].
  destruct (wf_has_parent (S m)) as [p Hp]; [lia | exact Hm|]. pose proof (Hpar _ _ Hp) as Hlt.
  apply (isa_step _ _ _ Hp), IH; [exact Hlt | lia].
Qed.

Lemma in_path_isa : forall K a, In a (path h K) <-> isa h K a = true.
Proof. intros K a. unfold path. rewrite <- in_rev. unfold isa. symmetry. apply memn_In. Qed.

Lemma owner_f_fuel : forall n m i, i < n -> i < m -> owner_f h n i = owner_f h m i.
Proof.
  induction n as [|n IH]; intros m i Hn Hm; [lia|].
  destruct m as [|m]; [lia|]. cbn [owner_f].
  destruct (joined h i); [reflexivity|].
  destruct (parent h i) as [p|] eqn:E; [|reflexivity].
  apply Hpar in E. apply IH; lia.
Qed.

Lemma owner_unfold : forall i,
  owner h i = if joined h i then i else match parent h i with Some p => owner h p | None => i end.
Proof.
  intros i. unfold owner at 1. cbn [owner_f]. destruct (joined h i); [reflexivity|].
  destruct (parent h i) as [p|] eqn:E; [|reflexivity].
  unfold owner. apply Hpar in E. apply owner_f_fuel; lia.
Qed.

Lemma owner_joined_id : forall t, joined h t = true -> owner h t = t.
Proof. intros t H. rewrite owner_unfold, H. reflexivity. Qed.

Lemma isa_owner : forall i, isa h i (owner h i) = true.
Proof.
  induction i as [i IH] using lt_wf_ind. rewrite owner_unfold.
  destruct (joined h i); [apply isa_refl|].
  destruct (parent h i) as [p|] eqn:E; [|apply isa_refl].
  apply isa_trans with p; [apply isa_parent; exact E | apply IH; exact (Hpar _ _ E)].
Qed.

Lemma isa_to_owner : forall m a, isa h m a = true -> isa h m (owner h a) = true.
Proof. intros m a H. apply isa_trans with a; [exact H | apply isa_owner]. Qed.

Lemma owner_is_joined : forall i, joined h (owner h i) = true.
Proof.
  induction i as [i IH] using lt_wf_ind. rewrite owner_unfold.
  destruct (joined h i) eqn:Ej; [exact Ej|].
  destruct (parent h i) as [p|] eqn:E.
  - apply IH. exact (Hpar _ _ E).
  - (* no parent: the root (joined) or an index outside the hierarchy (joined by default) *)
    destruct i as [|i].
    + pose proof wf_root_joined. congruence.
    + destruct (Nat.lt_ge_cases (S i) (length h)) as [Hlt|Hge].
      * destruct (wf_has_parent (S i)) as [p Hp]; [lia|exact Hlt|congruence].
      * unfold joined in Ej. apply nth_error_None in Hge. rewrite Hge in Ej. discriminate.
Qed.

Lemma owner_idem : forall i, owner h (owner h i) = owner h i.
Proof. intros i. apply owner_joined_id, owner_is_joined. Qed.

Lemma owner_nearest : forall a t, isa h a t = true -> joined h t = true -> isa h (owner h a) t = true.
Proof.
  induction a as [a IH] using lt_wf_ind. intros t Hat Hj. rewrite owner_unfold.
  destruct (joined h a) eqn:Ej; [exact Hat|].
  destruct (isa_inv _ _ Hat) as [->|(p & E & Hp & Hpt)]; [congruence|].
  rewrite E. exact (IH p Hp t Hpt Hj).
Qed.

Lemma ident_is_iff : forall x i, ident_is h x i = true <-> ident h i = Some x.
Proof.
  intros x i. unfold ident_is. destruct (ident h i) as [y|]; [|split; discriminate].
  rewrite Z.eqb_eq. split; congruence.
Qed.

Lemma pmap_ident : forall K x, K < length h -> ident h K = Some x -> pmap h x = Some K.
Proof.
  intros K x HK Hi. unfold pmap.
  destruct (find (ident_is h x) (rev (seq 0 (length h)))) as [j|] eqn:E.
  - apply find_some in E. destruct E as [_ Hj]. apply ident_is_iff in Hj.
    f_equal. exact (wf_ident_inj j K x Hj Hi).
  - exfalso. assert (Hin : In K (rev (seq 0 (length h)))) by (rewrite <- in_rev; apply in_seq; lia).
    apply (find_none _ _ E) in Hin. apply ident_is_iff in Hi. congruence.
Qed.

Lemma pmap_some : forall x K, pmap h x = Some K -> K < length h /\ ident h K = Some x.
Proof.
  intros x K E. unfold pmap in E. apply find_some in E. destruct E as [Hin Hj].
  rewrite <- in_rev in Hin. apply in_seq in Hin. split; [lia | apply ident_is_iff; exact Hj].
Qed.

Lemma ident_some : forall K, K < length h -> exists x, ident h K = Some x.
Proof.
  intros K HK. unfold ident. destruct (nth_error h K) eqn:E.
  - eexists. reflexivity.
  - apply nth_error_None in E. lia.
Qed.

Lemma in_desc : forall C m, In m (desc h C) <-> m < length h /\ isa h m C = true.
Proof.
  intros C m. unfold desc. rewrite filter_In, in_seq. split; intros [H1 H2]; split; auto; lia.
Qed.

End Tree.
