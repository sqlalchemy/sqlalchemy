(* C33 - Session.flush under the whole invariant: success and the error path. *)
From Coq Require Import List ZArith Bool Arith Lia.
Import ListNotations.
From SAV.orm Require Import SessTxn SessTxnBase SessTxnInv SessTxnOps SessTxnRestore2 SessTxnStmts SessTxnFlush
  SessTxnDbInv SessTxnCore.
Open Scope nat_scope.

(* the chain only looks at the four collections of each frame *)
Lemma ChainG_ext : forall fs fs' gi gs, map lists_of fs' = map lists_of fs -> ChainG gi fs gs -> ChainG gi fs' gs.
Proof.
  induction fs as [|f fs IH]; intros fs' gi gs E H; destruct fs' as [|f' fs']; try discriminate; auto.
  cbn in E. injection E as E1 E2 E3 E4 E5 E6 E7 E8 E9. destruct gs as [|g gs]; [exact H|].
  cbn [ChainG] in *. destruct H as [A [B C]]. split; auto. split.
  - eapply Rel_frame_ext; [| | | |exact B]; auto.
  - eapply IH; eauto.
Qed.

Lemma lists_skel : forall fs fs', map lists_of fs' = map lists_of fs ->
  map (fun f => (fid f, fnested f, fstate f)) fs' = map (fun f => (fid f, fnested f, fstate f)) fs.
Proof. intros fs fs'. apply map_factor. intros x y E. injection E as _ _ _ _ _ -> -> ->. reflexivity. Qed.

(* FramesOk when every frame has a connection *)
Lemma FramesOk_allconn : forall fs fs' b, map lists_of fs' = map lists_of fs -> (forall f, In f fs' -> fconn f = true) ->
  FramesOk b fs -> FramesOk b fs'.
Proof.
  induction fs as [|f fs IH]; intros fs' b E Hc H; destruct fs' as [|f' fs']; try discriminate; auto.
  pose proof E as E0. cbn in E. injection E as E1 E2 E3 E4 E5 E6 E7 E8 E9. cbn [FramesOk] in *.
  destruct H as [A [B [C [D F]]]]. rewrite E6, E7.
  split; [exact A|]. split; [apply IH; auto; intros; apply Hc; right; auto|]. split; [|split].
  - destruct C as [C1 C2]. split; intros X.
    + specialize (C1 X). intros Y. subst fs'. destruct fs; [congruence|discriminate].
    + apply C2. intros Y. subst fs. destruct fs'; [congruence|discriminate].
  - intros _ x Hx. apply Hc. right; auto.
  - intros x Hx. destruct (map_in _ _ _ (eq_sym (lists_skel fs fs' E9)) x Hx) as [y [Y1 Y2]].
    injection Y2 as _ _ Y2. rewrite <- Y2. apply F; auto.
Qed.

(* provisioning under the invariant *)
Lemma provision_core : forall st gs f rest, Core st gs -> stack st = f :: rest -> fstate f = ACTIVE ->
  exists sp, provision st = (Ok, sp) /\ Core sp gs /\
    objs sp = objs st /\ nobj sp = nobj st /\ snew sp = snew st /\ sdel sp = sdel st /\ work sp = work st /\
    committed sp = committed st /\ nfid sp = nfid st /\ eoc sp = eoc st /\ handles sp = handles st /\
    map lists_of (stack sp) = map lists_of (stack st) /\ (forall f', In f' (stack sp) -> fconn f' = true).
Proof.
  intros st gs f rest C Hs Hf. destruct C as [G Jh D Ch Em]. destruct D as [Dfr Dhd Dnc Dsv]. destruct Dsv as [Dsv Dsn].
  assert (HA : forall f', In f' (stack st) -> fstate f' = ACTIVE).
  { rewrite Hs. intros f' [X|X]; [subst; auto|]. rewrite Hs in Dfr. cbn in Dfr. destruct Dfr as [_ [_ [_ [_ F]]]]. auto. }
  destruct (provision_fs_ok (stack st) gs (work st) (committed st) (nfid st) Dfr HA Dsn Dnc)
    as [fs' [E1 [E2 [E3 E5]]]].
  unfold provision. rewrite Dsv, E1. eexists. split; [reflexivity|].
  cbn [objs nobj snew sdel work committed nfid eoc handles stack set_db set_stack].
  split; [|repeat split; auto].
  constructor; auto.
  - constructor; cbn [stack nfid saves work committed set_db set_stack]; auto.
    + eapply FramesOk_allconn; eauto.
    + unfold head_ok in *. rewrite Hs in *. destruct fs' as [|f' r']; auto.
      pose proof (lists_skel _ _ E2) as Sk. cbn in Sk. injection Sk as S1 S2 S3 S4. rewrite S3. exact Dhd.
    + intros Hn. exfalso. rewrite Hs in E2. destruct fs' as [|f' r']; [discriminate|].
      specialize (Hn f' (or_introl eq_refl)). rewrite (E3 f' (or_introl eq_refl)) in Hn. discriminate.
    + split; auto.
  - unfold Chain in *. cbn [stack objs nobj snew sdel work set_db set_stack]. rewrite Hs in *.
    destruct fs' as [|f' r']; [discriminate|]. destruct gs as [|g gs']; [contradiction|].
    cbn in E2. injection E2 as X1 X2 X3 X4 X5 X6 X7 X8 X9.
    destruct Ch as [A [B C]]. split; auto. rewrite X8. rewrite Hf in *. split.
    + eapply Rel_frame_ext; [| | | |exact B]; auto.
    + eapply ChainG_ext; eauto.
  - cbn [stack set_db set_stack]. intros X. subst fs'. rewrite Hs in E2. discriminate.
Qed.

Lemma flush_ok_core : forall sp gs g gs' f rest sZ,
  Core sp gs -> stack sp = f :: rest -> fstate f = ACTIVE -> fconn f = true -> gs = g :: gs' ->
  FlushDone sp g f rest sZ -> Core sZ gs /\ is_clean sZ = true.
Proof.
  intros sp gs g gs' f rest sZ C Hs Hf Hc Hg
    (fZ & HsZ & I1 & I2 & I3 & I4 & I5 & G' & J' & R' & Cl & N1 & N2 & N3 & N4 & N5 & N6 & _).
  destruct C as [G Jh D Ch Em]. subst gs.
  assert (Hclean : is_clean sZ = true).
  { apply is_clean_spec. repeat split; auto. }
  split; auto. constructor.
  - unfold GoodS. rewrite N1, N2, N3. exact G'.
  - rewrite N3. exact J'.
  - eapply (DbOk_work sp sZ); eauto. rewrite HsZ, Hs. cbn. unfold skel. rewrite I1, I2, I3, I5. reflexivity.
  - unfold Chain in *. rewrite HsZ. rewrite Hs in Ch. destruct Ch as [A [B C]]. split; auto.
    rewrite I3, Hf. rewrite N1, N2, N3. split; auto.
  - rewrite HsZ. intros X; discriminate.
Qed.

(* database back to the restore point of the (live) innermost frame, frame DEACTIVE, snapshot restored.
   [k] is what follows the first two steps: SessionTransaction.rollback passes the frame's kind to
   _restore_snapshot directly, the error path of _flush reads it off the stack (head_nested) *)
Lemma restore_phase : forall sX g gs' f rest W0,
  DbOk sX (g :: gs') -> stack sX = f :: rest -> live_state (fstate f) = true ->
  Good (objs sX) (nobj sX) W0 (snew sX) (sdel sX) -> J (objs sX) (nobj sX) -> GClean g ->
  Rel g f (objs sX) (nobj sX) (snew sX) (sdel sX) W0 -> ChainG g rest gs' ->
  exists s2 s3 f3, (forall k : M, (head_db_rollback ;; lift (set_head_state DEACTIVE) ;; k) sX = k s2) /\
    head_nested s2 = fnested f /\ restore_snapshot (fnested f) s2 = (Ok, s3) /\
    Core s3 (g :: gs') /\ stack s3 = f3 :: rest /\ fstate f3 = DEACTIVE /\ fid f3 = fid f /\ fnested f3 = fnested f /\
    is_clean s3 = true /\ committed s3 = committed sX /\ nfid s3 = nfid sX /\ nobj s3 = nobj sX /\
    handles s3 = handles sX /\ eoc s3 = eoc sX.
Proof.
  intros sX g gs' f rest W0 DX HsX Hlive G Jh GC R CG.
  destruct (head_rollback_ok sX g gs' f rest DX HsX Hlive) as [E1 D1].
  set (s1 := set_db sX (committed sX) (gW g) (entries rest gs')) in *.
  pose proof (set_head_state_cons DEACTIVE s1 f rest HsX) as E2.
  rewrite E2 in D1. set (s2 := set_stack s1 (f_state f DEACTIVE :: rest)) in *.
  (* the objects and lists are still those of sX; _restore_snapshot gives them the identities of the snapshot *)
  assert (R2 : Rel g (f_state f DEACTIVE) (objs s2) (nobj s2) (snew s2) (sdel s2) W0).
  { eapply Rel_frame_ext; [| | | |exact R]; reflexivity. }
  pose proof (G : Good (objs s2) (nobj s2) W0 (snew s2) (sdel s2)) as G2. pose proof (Jh : J (objs s2) (nobj s2)) as J2.
  destruct (restore_compute (fnested f) s2 _ rest W0 g eq_refl G2 GC R2) as (s3 & E3 & O & N & S1 & S2 & St3 & B5 & B6 & B2 & W3 & B3 & B4).
  assert (Ext : forall x, fo4 (fnested f) (f_state f DEACTIVE) (objs s2) (nobj s2) (snew s2) (sdel s2) x = objs s3 x)
    by (intros; symmetry; apply O).
  pose proof (Approx_obj_ext _ _ _ _ Ext (restored_approx _ _ _ _ _ _ W0 g G2 GC R2)) as Ap.
  assert (Cl : is_clean s3 = true).
  { apply is_clean_spec. repeat split; auto. intros o _ Hi. apply (a_clean _ _ _ Ap o Hi). }
  cbn [s2 s1 nobj work committed saves nfid eoc handles set_stack set_db] in *.
  exists s2, s3. eexists. split; [|split; [reflexivity|split; [exact E3|]]].
  { intros k. unfold bind at 1. rewrite E1. unfold bind, lift. rewrite E2. reflexivity. }
  split; [|split; [exact St3|repeat split; congruence]].
  constructor.
  - unfold GoodS. rewrite S1, S2, N, W3. exact (Good_obj_ext _ _ _ _ _ _ Ext (restored_good _ _ _ _ _ _ W0 g G2 J2 GC R2)).
  - rewrite N. exact (J_obj_ext _ _ _ Ext (restored_J _ _ _ _ _ _ W0 G2 J2)).
  - eapply (DbOk_ext s2); [| | | | |exact D1]; cbn [s2 s1 stack nfid saves work committed set_stack set_db]; try congruence.
    rewrite St3. reflexivity.
  - unfold Chain. rewrite St3, N. cbn [fstate f_state f_del]. split; [exact GC|split; [|exact CG]]. auto.
  - rewrite St3. discriminate.
Qed.

Lemma Core_rbexc : forall st gs b, Core st gs -> Core (upd_head st (fun f => f_rbexc f b)) gs.
Proof.
  intros st gs b [G Jh D Ch Em]. rewrite upd_head_eq. constructor; auto.
  - eapply (DbOk_ext st); [|reflexivity..|exact D]. cbn. destruct (stack st); reflexivity.
  - unfold Chain in *. cbn [stack objs nobj snew sdel work set_stack]. destruct (stack st) as [|f rest]; [exact Ch|].
    destruct gs as [|g gs']; [exact Ch|]. destruct Ch as [A [B C]]. split; [exact A|split; [|exact C]].
    cbn [fstate f_rbexc]. destruct (fstate f); auto. eapply Rel_frame_ext; [| | | |exact B]; reflexivity.
  - cbn. destruct (stack st); [exact Em|discriminate].
Qed.

(* the error path of _flush *)
Lemma flush_fail_core : forall sp gs g gs' f rest sZ,
  Core sp gs -> stack sp = f :: rest -> fstate f = ACTIVE -> fconn f = true -> gs = g :: gs' ->
  SigL sp g f sZ ->
  exists s4 f4, flush_fail sZ = (Ok, s4) /\ Core s4 gs /\ stack s4 = f4 :: rest /\ fstate f4 = DEACTIVE /\
    fid f4 = fid f /\ fnested f4 = fnested f /\
    is_clean s4 = true /\ committed s4 = committed sp /\ nfid s4 = nfid sp /\ nobj s4 = nobj sp /\
    handles s4 = handles sp /\ eoc s4 = eoc sp.
Proof.
  intros sp gs g gs' f rest sZ C Hs Hf Hc Hg [(T1 & T2 & T3 & T4 & T5 & T6 & T7 & T8 & T9) L2 L3 L4 _]. subst gs.
  destruct (Core_head sp _ f rest C Hs Hf) as (g0 & gs0 & Eg & GC & _). injection Eg as <- <-.
  assert (CG : ChainG g rest gs'). { pose proof (c_chain _ _ C) as Ch. unfold Chain in Ch. rewrite Hs in Ch. tauto. }
  (* the database part does not see the objects, and not the table either (connection present) *)
  assert (DZ : DbOk sZ (g :: gs')).
  { eapply (DbOk_work sp sZ); eauto using c_db. rewrite T5. reflexivity. }
  destruct (restore_phase sZ g gs' f rest (work sp)) as (s2 & s3 & f3 & K & Hn2 & E3 & C3 & St3 & F3 & I1 & I2 & Cl & B1 & B2 & B3 & B4 & B5);
    rewrite ?T2, ?T3, ?T4; auto; [congruence|rewrite Hf; reflexivity|].
  unfold flush_fail. rewrite K, bind_withst, Hn2, (bind_ok _ _ _ _ E3), bind_withst, Cl. cbn [bind ret lift].
  exists (upd_head s3 (fun f0 => f_rbexc f0 true)), (f_rbexc f3 true). split; [reflexivity|].
  split; [apply Core_rbexc; exact C3|]. rewrite upd_head_eq, St3. split; [reflexivity|].
  cbn [fstate fid fnested f_rbexc committed nfid nobj handles eoc set_stack]. do 3 (split; [assumption|]).
  split; [|repeat split; congruence].
  apply is_clean_spec. apply is_clean_spec in Cl. exact Cl.
Qed.

(* the body of the subtransaction: a failure happens either before finalize_flush_changes (only loads and
   statements so far) or after it (C32: after_flush_postexec raises) *)
Definition InnerSpec (inner : list nat -> list nat -> list nat -> M) : Prop :=
  forall s0 g f rest dirty, GClean g -> stack s0 = f :: rest ->
    Good (objs s0) (nobj s0) (work s0) (snew s0) (sdel s0) -> J (objs s0) (nobj s0) ->
    Rel g f (objs s0) (nobj s0) (snew s0) (sdel s0) (work s0) ->
    (forall x, In x dirty <-> (x < nobj s0 /\ oin (objs s0 x) = true /\ omod (objs s0 x) = true /\ ~ In x (sdel s0))) ->
    NoDup dirty ->
    forall r sZ, inner (snew s0) dirty (sdel s0) s0 = (r, sZ) -> r <> Unmodelled ->
    (r = Ok -> FlushDone s0 g f rest sZ) /\
    (r <> Ok -> SigL s0 g f sZ \/ FlushDone s0 g f rest sZ).

Lemma flush_body_k_inner : forall k c, InnerSpec (flush_body_k k c).
Proof.
  intros k c s0 g f rest dirty GC Hs G Jh R Hd Hnd r sZ H Hr.
  destruct (flush_body_spec s0 g f rest dirty GC Hs G Jh R Hd Hnd k c r sZ H Hr) as [A B].
  split; [exact A|]. intros X. left. exact (B X).
Qed.

Lemma flush_body_inner : InnerSpec flush_body.
Proof. apply flush_body_k_inner. Qed.

Definition hd_state (st : sess) : option tstate := match stack st with f :: _ => Some (fstate f) | [] => None end.
(* the key switches recorded in the innermost frame grow only by unflushed primary-key changes *)
Definition KsGrow (st st' : sess) : Prop :=
  match stack st, stack st' with
  | f :: _, f' :: _ => forall x, ks_find x (fks f') <> None ->
                         ks_find x (fks f) <> None \/ (oin (objs st x) = true /\ upd_sets_id (objs st x) = true)
  | _, _ => True
  end.
Lemma KsGrow_refl : forall st, KsGrow st st.
Proof. intros st. unfold KsGrow. destruct (stack st); auto. Qed.
Definition ids (st : sess) : list (nat * bool) := map (fun f => (fid f, fnested f)) (stack st).

(* what a flush, successful or not, leaves of the state it started from *)
Record FlushPost (st : sess) (r : res) (st' : sess) : Prop := mkFlushPost {
  fp_ids : ids st' = ids st;
  fp_nfid : nfid st' = nfid st;
  fp_committed : committed st' = committed st;
  fp_nobj : nobj st' = nobj st;
  fp_handles : handles st' = handles st;
  fp_eoc : eoc st' = eoc st;
  fp_outer : map lists_of (tl (stack st')) = map lists_of (tl (stack st));
  fp_ok : r = Ok -> is_clean st' = true /\ hd_state st' = hd_state st /\ KsGrow st st';
  (* an error leaves the innermost transaction as it was, or DEACTIVE with its snapshot restored *)
  fp_err : r <> Ok -> hd_state st' = hd_state st \/
                      (hd_state st = Some ACTIVE /\ hd_state st' = Some DEACTIVE /\ is_clean st' = true)
}.
Lemma FlushPost_same : forall st r, (r = Ok -> is_clean st = true) -> FlushPost st r st.
Proof. intros st r H. constructor; auto using KsGrow_refl. Qed.

Lemma lists_ids : forall fs fs', map lists_of fs' = map lists_of fs ->
  map (fun f0 => (fid f0, fnested f0)) fs' = map (fun f0 => (fid f0, fnested f0)) fs.
Proof. intros fs fs'. apply map_factor. intros x y E. injection E as _ _ _ _ _ -> -> _. reflexivity. Qed.

Lemma flush_with_core : forall inner, InnerSpec inner ->
  forall st gs r st', Core st gs -> flush_with (fun n d e => provision ;; inner n d e) st = (r, st') -> r <> Unmodelled ->
  Core st' gs /\ FlushPost st r st'.
Proof.
  intros inner HI st gs r st' C H Hr. unfold flush_with in H.
  destruct (is_clean st) eqn:Ecl.
  { inversion H; subst. split; [exact C|apply FlushPost_same; auto]. }
  assert (Hne : stack st <> []). { intros X. rewrite (c_empty _ _ C X) in Ecl. discriminate. }
  destruct (autobegin_core st gs C) as [gs0 [C0 [A0 _]]]. destruct (A0 Hne) as [Eg Ea]. subst gs0. rewrite Ea in *.
  destruct (stack st) as [|f rest] eqn:Es; [congruence|].
  destruct (check_prereq f M_begin) eqn:Ec.
  { inversion H; subst. split; [exact C|apply FlushPost_same; discriminate]. }
  assert (Hf : fstate f = ACTIVE).
  { unfold check_prereq in Ec. destruct (fstate f); cbn in Ec; try discriminate; reflexivity. }
  destruct (provision_core st gs f rest C Es Hf) as [sp [Ep [Cp [P1 [P2 [P3 [P4 [P5 [P6 [P7 [P8 [P9 [P10 P11]]]]]]]]]]]]].
  rewrite (bind_ok _ _ _ _ Ep) in H.
  rewrite Es in P10. destruct (stack sp) as [|fp restp] eqn:Esp; [discriminate|].
  cbn in P10. injection P10 as Q1 Q2 Q3 Q4 Q5 Q6 Q7 Q8 Q9.
  assert (Hfp : fstate fp = ACTIVE) by congruence.
  assert (Hcp : fconn fp = true) by (apply P11; left; auto).
  destruct (Core_head sp gs fp restp Cp Esp Hfp) as [g [gs' [Eg [GC R2]]]].
  set (dirty := filter (fun o => negb (mem o (sdel st))) (filter (fun o => oin (objs st o) && omod (objs st o)) (all_objs st))) in *.
  assert (Hd : forall x, In x dirty <-> (x < nobj sp /\ oin (objs sp x) = true /\ omod (objs sp x) = true /\ ~ In x (sdel sp))).
  { intros x. unfold dirty. rewrite P1, P2, P4. rewrite !filter_In. unfold all_objs. rewrite in_seq. split.
    - intros [[A B] D]. apply andb_prop in B. destruct B. apply negb_true_iff in D. repeat split; auto; try lia.
      intros X. apply mem_In in X. congruence.
    - intros [A [B [D E]]]. repeat split; try lia.
      + rewrite B, D. reflexivity.
      + apply negb_true_iff. destruct (mem x (sdel st)) eqn:Em; auto. apply mem_In in Em. contradiction. }
  assert (Hnd : NoDup dirty). { unfold dirty. apply NoDup_filter. apply NoDup_filter. apply seq_NoDup. }
  destruct (inner (snew st) dirty (sdel st) sp) as [r2 sZ] eqn:Ein.
  rewrite <- P3, <- P4 in Ein.
  assert (Hr2 : r2 <> Unmodelled).
  { intros X. subst r2. inversion H; subst. congruence. }
  destruct (HI sp g fp restp dirty GC Esp (c_good _ _ Cp) (c_j _ _ Cp) R2 Hd Hnd r2 sZ Ein Hr2) as [Hok Herr].
  pose proof (lists_ids _ _ Q9) as Hrest.
  destruct r2 as [|z|].
  - (* success *)
    inversion H; subst r st'. destruct (flush_ok_core sp gs g gs' fp restp sZ Cp Esp Hfp Hcp Eg (Hok eq_refl)) as [CZ ClZ].
    destruct (Hok eq_refl) as (fZ & SZ & I1 & I2 & I3 & I4 & I5 & G' & J' & R' & Cl & N1 & N2 & N3 & N4 & N5 & N6 & N7 & N8 & KS).
    split; [exact CZ|]. constructor; unfold ids, hd_state; rewrite ?SZ, ?Es; cbn [map tl]; try congruence.
    intros _. split; [exact ClZ|split; [congruence|]].
    unfold KsGrow. rewrite SZ, Es. intros x Hx. destruct (KS x Hx) as [K|K]; [left; congruence|right; rewrite <- P1; exact K].
  - (* failure *)
    specialize (Herr ltac:(discriminate)).
    (* either way flush_fail starts from a state that differs only by loads from one with the invariant: the
       provisioned state, or the state after finalize_flush_changes *)
    assert (X : exists sp' fp', Core sp' gs /\ stack sp' = fp' :: restp /\ fstate fp' = ACTIVE /\ fconn fp' = true /\
              SigL sp' g fp' sZ /\ fid fp' = fid fp /\ fnested fp' = fnested fp /\
              committed sp' = committed sp /\ nfid sp' = nfid sp /\ nobj sp' = nobj sp /\ handles sp' = handles sp /\ eoc sp' = eoc sp).
    { destruct Herr as [Herr|Hdone]; [exists sp, fp; auto 15|].
      destruct (flush_ok_core sp gs g gs' fp restp sZ Cp Esp Hfp Hcp Eg Hdone) as [CZ _].
      destruct Hdone as (fZ & SZ & I1 & I2 & I3 & I4 & I5 & G' & J' & R' & Cl & N1 & N2 & N3 & N4 & N5 & N6 & N7 & N8 & KS).
      exists sZ, fZ. do 4 (split; [congruence|]). split; [|repeat split; congruence].
      apply SigL_refl; rewrite ?N1, ?N2, N3; assumption. }
    destruct X as (sp' & fp' & Cp' & Esp' & Hfp' & Hcp' & L' & J1 & J2 & J3 & J4 & J5 & J6 & J7).
    destruct (flush_fail_core sp' gs g gs' fp' restp sZ Cp' Esp' Hfp' Hcp' Eg L') as (s4 & f4 & E4 & C4 & S4 & F4 & I4 & Hn4 & Cl4 & K1 & K2 & K3 & K4 & K5).
    rewrite E4 in H. inversion H; subst r st'.
    split; [exact C4|]. constructor; unfold ids, hd_state; rewrite ?S4, ?Es; cbn [map tl]; try congruence.
    intros _. right. rewrite F4, Hf. auto.
  - congruence.
Qed.
