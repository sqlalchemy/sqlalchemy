(* C40 - the end-to-end theorem [all_strategies_agree] and its per-strategy instances; the one-level grouping
   lemma; the two refutation witnesses (no wrap, subquery DISTINCT/OFFSET); facts about the plan and IN-chunks. *)
From Coq Require Import List ZArith Bool Lia.
Import ListNotations.
From SAV.orm Require Import Loaders LoadersBase LoadersJoin LoadersStmt LoadersSrc LoadersOne LoadersAttach LoadersSubq LoadersMain.
Open Scope Z_scope.

(* well-formed data and query: primary keys unique; the root query and every collection totally ordered
   (relationship order_by ends in the primary key), many-to-one relationships carry no order_by *)
Definition wf_query (u : uquery) (t0 : list row) (jstep : option step) (path : list step) : Prop :=
  wf_table t0 /\ u_order u <> ONone /\ (forall s, jstep = Some s -> wf_step s) /\ Forall wf_step path.

(* excludes exactly the region of the DISTINCT/OFFSET defect of subquery loading *)
Definition guard (u : uquery) (jstep : option step) (path : list step) (asg : list strategy) : bool :=
  negb (root_subq asg && match path with c1 :: _ => defect u jstep c1 | [] => false end).

Theorem all_strategies_agree : forall nestf asg u t0 jstep path,
  nest_covers nestf -> wf_query u t0 jstep path -> length asg = length path -> guard u jstep path asg = true ->
  load nestf asg u t0 jstep path = load_spec u t0 jstep path.
Proof.
  intros nestf asg u t0 jstep path NC [W [Ho [Wj WP]]] HL G. unfold load, load_spec.
  destruct (load_wave_correct nestf NC asg false path [SrcUser u t0 jstep] [] t0) as [f [-> Y]]; auto.
  - constructor; [|constructor]. cbn. auto.
  - intros _ RS u' t0' f' c1 [[= <- <- <-]|[]] Hhd. unfold guard in G. rewrite RS in G.
    destruct path as [|c path']; [discriminate|]. injection Hhd as <-.
    cbn in G. destruct (defect u jstep c); auto; discriminate.
  - cbn [map concat]. rewrite app_nil_r.
    rewrite (untagged_result (SrcUser u t0 jstep) path), user_group; auto. apply Y. cbn; auto.
Qed.

Corollary all_strategies_agree_impl : forall asg u t0 jstep path,
  wf_query u t0 jstep path -> length asg = length path -> guard u jstep path asg = true ->
  load should_nest asg u t0 jstep path = load_spec u t0 jstep path.
Proof. intros. apply all_strategies_agree; auto. apply should_nest_covers. Qed.

Lemma guard_no_root_subq : forall u jstep path asg, root_subq asg = false -> guard u jstep path asg = true.
Proof. intros. unfold guard. rewrite H. reflexivity. Qed.

Lemma root_subq_repeat_joined : forall n, root_subq (repeat SJoined n) = false.
Proof. induction n; cbn; auto. Qed.

Theorem joined_eq_spec : forall u t0 jstep path, wf_query u t0 jstep path ->
  load should_nest (repeat SJoined (length path)) u t0 jstep path = load_spec u t0 jstep path.
Proof.
  intros. apply all_strategies_agree_impl; auto; [apply repeat_length|].
  apply guard_no_root_subq. apply root_subq_repeat_joined.
Qed.

Theorem lazy_eq_spec : forall u t0 jstep path, wf_query u t0 jstep path ->
  load should_nest (repeat SLazy (length path)) u t0 jstep path = load_spec u t0 jstep path.
Proof.
  intros. apply all_strategies_agree_impl; auto; [apply repeat_length|].
  apply guard_no_root_subq. destruct (length path); reflexivity.
Qed.

Theorem immediate_eq_spec : forall u t0 jstep path, wf_query u t0 jstep path ->
  load should_nest (repeat SImmediate (length path)) u t0 jstep path = load_spec u t0 jstep path.
Proof.
  intros. apply all_strategies_agree_impl; auto; [apply repeat_length|].
  apply guard_no_root_subq. destruct (length path); reflexivity.
Qed.

(* any chunk sizes >= 1 (the strategy carries chunk size - 1), different per level *)
Theorem selectin_eq_spec : forall (chunks_minus_1 : list nat) u t0 jstep path, wf_query u t0 jstep path ->
  length chunks_minus_1 = length path ->
  load should_nest (map SSelectin chunks_minus_1) u t0 jstep path = load_spec u t0 jstep path.
Proof.
  intros cs u t0 jstep path W HL. apply all_strategies_agree_impl; auto; [rewrite map_length; auto|].
  apply guard_no_root_subq. destruct cs; reflexivity.
Qed.

Theorem subquery_eq_spec_guarded : forall u t0 jstep path, wf_query u t0 jstep path ->
  guard u jstep path (repeat SSubquery (length path)) = true ->
  load should_nest (repeat SSubquery (length path)) u t0 jstep path = load_spec u t0 jstep path.
Proof. intros. apply all_strategies_agree_impl; auto. apply repeat_length. Qed.

(* DESIGN.md's key lemma: one eager-joined collection, total primary order *)
Theorem left_join_group_roundtrip : forall s attach o0 (H : list tagged) rows,
  wf_step s -> tag_inj H -> o0 <> ONone -> sorted (hkey o0) H ->
  eqset rows (ljoin_rows [s] H) -> sorted (jkey o0 [s]) rows ->
  proc [s] attach rows =
  map (fun h => (fst h, Node (snd h) (map (fun c => Node c (attach c)) (related s (snd h))))) (uniq_by tagged_id H).
Proof.
  intros s attach o0 H rows WS TI Ho SH E S.
  rewrite (proc_correct [s] attach o0 H rows); auto.
  intros a b Ha Hb Ek. apply TI; auto. eapply rkey_inj; eauto.
Qed.

(* witness [w_*]: two parents, LIMIT 1, a joined collection and no wrap: the LIMIT cuts the first parent's rows *)
Definition never_nest : nest_fn := fun _ _ _ _ _ _ _ => false.

Definition w_parents : list row := [mkRow 1 None None 0; mkRow 2 None None 0].
Definition w_children : list row := [mkRow 1 (Some 1) None 0; mkRow 2 (Some 1) None 0; mkRow 3 (Some 2) None 0].
Definition w_step : step := mkStep Down OId 1 w_children.
Definition w_query : uquery := mkU PAll false false OId (Some 1%nat) None.

Theorem limit_commutes_only_with_wrap_refuted :
  exists u t0 jstep path, wf_query u t0 jstep path /\
    load never_nest [SJoined] u t0 jstep path <> load_spec u t0 jstep path.
Proof.
  exists w_query, w_parents, None, [w_step]. split.
  - split; [|split; [|split]].
    + unfold wf_table. cbn. repeat constructor; cbn; intuition; discriminate.
    + discriminate.
    + intros s E. discriminate E.
    + constructor; [|constructor]. split; [|cbn; discriminate].
      unfold wf_table. cbn. repeat constructor; cbn; intuition; discriminate.
  - vm_compute. intro H. discriminate H.
Qed.

(* witness [d_*]: many-to-one subquery load under a duplicating JOIN with LIMIT 1 OFFSET 1 *)
Definition d_roots : list row := [mkRow 1 None (Some 1) 0; mkRow 2 None (Some 2) 0].
Definition d_targets : list row := [mkRow 1 None None 0; mkRow 2 None None 0].
Definition d_side : list row := [mkRow 1 (Some 1) None 0; mkRow 2 (Some 1) None 0; mkRow 3 (Some 2) None 0].
Definition d_step : step := mkStep Up ONone 1 d_targets.
Definition d_jstep : step := mkStep Down OId 50 d_side.
Definition d_query : uquery := mkU (PJoin 0) false false OId (Some 1%nat) (Some 1%nat).

Theorem subquery_m2o_distinct_offset_refuted :
  exists u t0 jstep path, wf_query u t0 jstep path /\ guard u jstep path [SSubquery] = false /\
    load should_nest [SSubquery] u t0 jstep path <> load_spec u t0 jstep path /\
    load should_nest [SSelectin 0] u t0 jstep path = load_spec u t0 jstep path.
Proof.
  exists d_query, d_roots, (Some d_jstep), [d_step]. split; [|split; [reflexivity|split]].
  - split; [|split; [|split]].
    + unfold wf_table. cbn. repeat constructor; cbn; intuition; discriminate.
    + discriminate.
    + intros s E. inversion E; subst. split; [|cbn; discriminate].
      unfold wf_table. cbn. repeat constructor; cbn; intuition; discriminate.
    + constructor; [|constructor]. split; [|reflexivity].
      unfold wf_table. cbn. repeat constructor; cbn; intuition; discriminate.
  - vm_compute. intro H. discriminate H.
  - vm_compute. reflexivity.
Qed.

Lemma plan_wave_joined : forall nestf n steps srcs chain, length steps = n ->
  plan_wave nestf false (repeat SJoined n) steps srcs chain = map (fun src => (src, chain ++ steps)) srcs.
Proof.
  induction n as [|n IH]; intros steps srcs chain HL.
  - destruct steps; [|discriminate]. cbn. rewrite app_nil_r. auto.
  - destruct steps as [|s steps]; [discriminate|]. cbn [repeat plan_wave effective]. rewrite IH by (cbn in HL; lia).
    rewrite <- app_assoc. reflexivity.
Qed.
(* all-joined: exactly one statement, carrying the whole path as its eager chain *)
Theorem plan_joined_single_statement : forall nestf u t0 jstep path,
  plan nestf (repeat SJoined (length path)) u t0 jstep path = [(SrcUser u t0 jstep, path)].
Proof. intros. unfold plan. rewrite plan_wave_joined; auto. Qed.

Lemma chunks_fuel_bounds : forall {A} fuel n (l ch : list A), (1 <= n)%nat -> In ch (chunks_fuel fuel n l) ->
  ch <> [] /\ (length ch <= n)%nat.
Proof.
  induction fuel as [|f IH]; intros n l ch Hn H; cbn in H; [contradiction|].
  destruct l as [|a l]; [contradiction|]. destruct H as [<-|H]; [|eapply IH; eauto].
  split; [destruct n; [lia|cbn; discriminate]|apply firstn_le_length].
Qed.
(* IN-chunking: the chunks partition the keys in order, each non-empty and of at most n keys *)
Theorem chunks_partition : forall {A} n (l : list A), (1 <= n)%nat ->
  concat (chunks n l) = l /\ forall ch, In ch (chunks n l) -> ch <> [] /\ (length ch <= n)%nat.
Proof. intros. split; [apply chunks_concat; auto|intros; eapply chunks_fuel_bounds; eauto]. Qed.

Theorem should_nest_spec : forall e m l o d don g,
  should_nest e m l o d don g = true <-> e = true /\ ((l = true \/ o = true) /\ m = true \/ d = true \/ don = true \/ g = true).
Proof.
  intros e m l o d don g. unfold should_nest. destruct e; cbn [negb]; [|intuition discriminate].
  rewrite !orb_true_iff, !andb_true_iff. tauto.
Qed.
