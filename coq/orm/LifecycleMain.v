(* C35 - commit, rollback, merge; every guarded history keeps the invariant *)
From Coq Require Import List ZArith Bool Arith Lia.
Import ListNotations.
From SAV.orm Require Import Lifecycle LifecycleSpec LifecycleLemmas LifecycleInv LifecycleRestore LifecycleFlush.
Open Scope Z_scope.

Lemma commit_detach_ok : forall t o, objinvb t o = true -> t <> Some true ->
  objinvb (Some true) (fst (commit_detach_obj o)) = true /\ wfob (snd (commit_detach_obj o)) = true.
Proof.
  intros t o H N. by_state H; destruct td; try (elim (N (Ht eq_refl))); (split; [to_state|reflexivity]).
Qed.

Lemma do_commit_inv : forall e st, Inv st -> guard_step e Commit st = true -> Inv (fst (do_commit e st)).
Proof.
  intros e st HI G. unfold do_commit. simpl in G.
  pose proof (autobegin_inv st HI) as HI0.
  destruct (is_deact (autobegin st)) eqn:Ed; [exact HI0|].
  destruct (flush_inv e (autobegin st) HI0 G) as [HF HD].
  destruct (flush e (autobegin st)) as [[st2 c] rws]. simpl in *.
  destruct (Z.eqb_spec c 0) as [C|C]; simpl; [|exact HF].
  destruct (eoc st2).
  - apply (end_tx_inv_t (tx st2) (Some true)), (pass_spec _ (fun _ => objinvb (tx st2))); [apply Inv_InvP; auto|].
    intros k o _ Hp. apply (commit_detach_ok (tx st2)); auto.
    intro E. specialize (HD C). rewrite Ed in HD. unfold is_deact in HD. rewrite E in HD. discriminate.
  - apply (end_tx_inv_t (tx st2) (tx st2)), Inv_InvP; auto.
Qed.

Lemma restore_end_inv : forall st, InvP (Some true) (fun _ => objinvb (Some true)) st -> restore_ok st = true ->
  Inv (fst (let (st', c) := restore_snapshot st in if negb (Z.eqb c 0) then (st', c) else (end_tx st', 0))).
Proof.
  intros st HP G. apply restore_inv in HP; [|exact G]. destruct (restore_snapshot st) as [st' c]. simpl in HP.
  destruct (Z.eqb c 0); simpl; [apply (end_tx_inv_t _ _ _ HP)|apply (InvP_Inv _ _ HP)].
Qed.

Lemma do_rollback_inv : forall e st, Inv st -> guard_step e Rollback st = true -> Inv (fst (do_rollback e st)).
Proof.
  intros e st HI G. unfold do_rollback. simpl in G.
  destruct (tx st) as [[]|] eqn:Et; [| |exact HI].
  - destruct (is_clean st (emod e)); [apply (end_tx_inv_t (Some true) (Some true)), Inv_InvP; auto|].
    apply restore_end_inv; [apply Inv_InvP; auto|exact G].
  - apply restore_end_inv; [|exact G].
    apply (InvP_set_tx (Some false)), (InvP_weaken _ (fun _ => objinvb (Some false))); [apply Inv_InvP; auto|].
    intros k o. apply objinv_deact.
Qed.

Lemma add_obj_inv : forall st o es, Inv st -> objinvb (tx st) o = true -> wf es ->
  Inv (mkSt (eoc st) (objs st ++ [o]) (tx st) (slog st ++ es)).
Proof.
  intros st o es [H1 H2] Ho He. split; simpl; [|apply wf_app; auto].
  intros k x Hk. apply nth_error_In, in_app_or in Hk as [Hk|[<-|[]]]; [|exact Ho].
  apply In_nth_error in Hk as [j Hj]. apply (H1 j x Hj).
Qed.

Lemma new_obj_inv : forall t k, objinvb t (new_obj k) = true.
Proof. destruct t as [[]|]; reflexivity. Qed.

Lemma do_merge_inv : forall e i st, Inv st -> guard_step e (Merge i) st = true -> Inv (fst (fst (do_merge e i st))).
Proof.
  intros e i st HI G. unfold do_merge. simpl in G.
  destruct (flush_inv e st HI G) as [HF _].
  destruct (flush e st) as [[st1 c] rws]. simpl in HF.
  destruct (Z.eqb c 0); simpl; [|exact HF].
  pose proof (autobegin_inv st1 HF) as HA.
  destruct (holder (pk (get st1 i)) st1) as [m|].
  - destruct (negb (Nat.eqb m i) && ehasid e i && eidexp e m && negb (inew (get st m) && okey (get st1 m))); [|exact HF].
    destruct (is_deact (autobegin st1)); [exact HA|]. destruct (negb (memz (pk (get st1 i)) rws)); exact HA.
  - destruct (is_deact (autobegin st1)) eqn:Ed; [exact HA|].
    assert (Htx : tx (autobegin st1) = Some false) by (apply is_deact_false_tx; auto; apply autobegin_has_tx).
    destruct (memz (pk (get st1 i)) rws); simpl.
    + apply add_obj_inv; [exact HA|rewrite Htx; reflexivity|].
      apply (wf_fire _ Absent Persistent LAP); [reflexivity|constructor].
    + set (st2 := mkSt _ _ _ _).
      assert (H2 : Inv st2).
      { apply add_obj_inv; [exact HA|apply new_obj_inv|].
        apply (wf_silent _ Absent Transient); [reflexivity|constructor]. }
      pose proof (save_impl_inv (length (objs (autobegin st1))) st2 H2) as HS.
      destruct (save_impl _ st2). exact HS.
Qed.

Lemma step_inv : forall e o st, Inv st -> guard_step e o st = true -> Inv (fst (fst (step e o st))).
Proof.
  intros e o st HI G. destruct o; simpl.
  - apply do_add_inv; auto.
  - apply delete_impl_inv; auto.
  - apply do_expunge_inv; auto.
  - destruct (flush_inv e st HI G) as [H _]. destruct (flush e st) as [[s c] r]. exact H.
  - apply do_commit_inv; auto.
  - apply do_rollback_inv; auto.
  - apply do_close_inv; auto.
  - apply do_merge_inv; auto.
  - apply do_make_transient_inv; auto.
  - apply do_mttd_inv; auto.
Qed.

Lemma init_inv : forall b pks, Inv (init b pks).
Proof.
  intros. split; [|constructor]. intros k o Hk. simpl in Hk.
  rewrite nth_error_map in Hk. destruct (nth_error pks k); [|discriminate]. inversion Hk. apply new_obj_inv.
Qed.

Lemma run_inv : forall h st, Inv st -> guarded h st = true -> Inv (run h st).
Proof.
  induction h as [|[e o] r IH]; intros st HI G; simpl; auto.
  simpl in G. destruct (stop e st); auto.
  apply andb_prop in G as [G1 G2].
  pose proof (step_inv e o st HI G1) as HS.
  destruct (step e o st) as [[st' c] res]. apply IH; auto.
Qed.

Theorem guarded_log_wf : forall b pks h, guarded h (init b pks) = true -> wf (slog (run h (init b pks))).
Proof. intros. apply (run_inv h (init b pks)); auto. apply init_inv. Qed.

Theorem guarded_transitions_documented : forall b pks h, guarded h (init b pks) = true ->
  forall i f t, In (Chg i f t) (slog (run h (init b pks))) -> exists e, documented f t e = true.
Proof. intros b pks h G. apply wf_chg_documented. apply guarded_log_wf; auto. Qed.
