(* C31 - the final dependency set, one dependency at a time.  A per-mapper record on a cycle is split into
   per-state records and its dependencies are rewritten; a processor whose parent mapper is split is replaced by
   per-state processors with dependencies from a second table.  [dep_step]: an entry present in both tables
   yields a dependency between the final records in either regime. *)
From Coq Require Import List NArith Bool.
Import ListNotations.
From SAV.util Require Import Topo Cycles TopoRun TopoProofs.
From SAV.orm Require Import FlushOrder FlushOrderSpec FlushOrderBase FlushOrderSort.
Local Open Scope N_scope.

Lemma role_of_st g s : role_of g s = match st_of g s with Some x => s_role x | None => 0 end.
Proof. reflexivity. Qed.

Definition states_of (g : graph) (m : N) (isdel : bool) : list N := if isdel then dels_of g m else saves_of g m.

Lemma in_states_of g s (isdel : bool) : role_of g s = (if isdel then 2 else 1) -> In s (states_of g (map_of g s) isdel).
Proof. intros H. destruct (role_nonzero g s) as [x [_ [H1 [H2 [H3 [H4 _]]]]]]; [rewrite H; destruct isdel; discriminate|].
  destruct isdel; apply in_map_iff; exists x; (split; [exact H2|]); apply filter_In; (split; [exact H1|]);
    rewrite H4, H3, H, N.eqb_refl; reflexivity. Qed.

Lemma reg_mapper g s : role_of g s <> 0 -> In (map_of g s) (reg_mappers g).
Proof. intros H. destruct (role_nonzero g s H) as [x [_ [H1 [H2 [H3 [H4 _]]]]]].
  unfold reg_mappers. apply In_dedup. apply in_map_iff. exists x. split; [exact H4|]. apply filter_In. split; [exact H1|].
  unfold in_uow. rewrite H3. apply negb_true_iff. apply N.eqb_neq. exact H. Qed.

Lemma mapper_actions0 g s : role_of g s <> 0 -> In (SaveAll (map_of g s)) (actions0 g) /\ In (DelAll (map_of g s)) (actions0 g).
Proof. intros H. split; apply in_or_app; left; apply in_flat_map; exists (map_of g s); (split; [apply reg_mapper, H|simpl; tauto]). Qed.
Lemma save_del_edge0 T g s : role_of g s <> 0 -> In (SaveAll (map_of g s), DelAll (map_of g s)) (edges0 T g).
Proof. intros H. unfold edges0. apply in_or_app. left. apply in_map_iff. exists (map_of g s). split; [reflexivity|apply reg_mapper, H]. Qed.

Lemma child_action_save g s : role_of g s = 1 -> child_action g (Some s) = (Some (SaveSt s), false).
Proof. intros H. unfold child_action. rewrite H. reflexivity. Qed.
Lemma child_action_del g s : role_of g s = 2 -> child_action g (Some s) = (Some (DelSt s), true).
Proof. intros H. unfold child_action. rewrite H. reflexivity. Qed.

(* the child side of a per-state dependency: a per-state record of a state of the child mapper, or (child
   mapper not split) one of its two per-mapper records; the flag says whether it is a delete *)
Lemma child_actions_inv g cy d s ca a : In ca (child_actions g cy d s) -> fst ca = Some a ->
  (exists c, a = SaveSt c /\ snd ca = false) \/ (exists c, a = DelSt c /\ snd ca = true) \/
  (incyc cy (SaveAll (d_child d)) = false /\
   (a = SaveAll (d_child d) /\ snd ca = false \/ a = DelAll (d_child d) /\ snd ca = true)).
Proof. unfold child_actions. destruct (incyc cy (SaveAll (d_child d))).
  - intros H E. apply in_map_iff in H. destruct H as [c [<- _]]. destruct c as [c|]; [|discriminate]. unfold child_action in *.
    destruct (N.eqb (role_of g c) 1); [|destruct (N.eqb (role_of g c) 2)]; inversion E; eauto.
  - intros [<-|[<-|[]]] E; inversion E; auto 6. Qed.

Lemma link_sum g d o r : link_in g d o r = true -> In (Some r) (sum_of g d o).
Proof. unfold link_in, sum_of. rewrite existsb_exists. intros [[[d' o'] r'] [H1 H2]]. simpl in H2.
  apply andb_true_iff in H2. destruct H2 as [H2 H3]. apply andb_true_iff in H2. destruct H2 as [H2 H4].
  apply N.eqb_eq in H2, H4. subst. destruct r' as [r'|]; simpl in H3; [|discriminate]. apply N.eqb_eq in H3. subst.
  apply in_map_iff. exists (d, o, Some r). split; [reflexivity|]. apply filter_In. split; [exact H1|]. simpl.
  rewrite !N.eqb_refl. reflexivity. Qed.

Section Deps.
Variables (g : graph) (cy : list N).
Hypothesis Hnd : NoDup (map d_id (g_deps g)).

Lemma dep_by_id d d' : In d (g_deps g) -> In d' (g_deps g) -> d_id d = d_id d' -> d = d'.
Proof. revert Hnd. generalize (g_deps g). induction l as [|a l IH]; simpl; intros Hn H1 H2 He; [contradiction|].
  inversion Hn; subst. destruct H1 as [->|H1], H2 as [->|H2]; try reflexivity.
  - exfalso. apply H3. rewrite He. apply in_map, H2.
  - exfalso. apply H3. rewrite <- He. apply in_map, H1.
  - apply IH; assumption. Qed.

Lemma in_deps_of d : In d (g_deps g) -> d_active d = true -> In d (deps_of g (d_parent d)).
Proof. intros H1 H2. unfold deps_of. apply filter_In. split; [unfold active; apply filter_In; split; assumption|apply N.eqb_refl]. Qed.
Lemma deps_of_in d m : In d (deps_of g m) -> In d (g_deps g) /\ d_active d = true /\ d_parent d = m.
Proof. unfold deps_of, active. intros H. apply filter_In in H. destruct H as [H1 H2]. apply filter_In in H1.
  apply N.eqb_eq in H2. tauto. Qed.

Definition parent_rec (d : dep) (isdel : bool) : action := if isdel then DelAll (d_parent d) else SaveAll (d_parent d).

Lemma parent_rec_in d b : In d (g_deps g) -> d_active d = true -> In (parent_rec d b) (actions0 g).
Proof. intros Hd Ha. apply (actions0_dep g d _ Hd Ha). destruct b; simpl; auto 8. Qed.

Lemma proc_clean d b : In d (g_deps g) -> incyc cy (parent_rec d b) = false -> clean g cy (ProcAll (d_id d) b).
Proof. intros Hd Hc. unfold clean. destruct (amemb _ _) eqn:E; [|reflexivity]. exfalso.
  apply amemb_true in E. destruct E as [a [H1 H2]]. apply code_inj in H2; [|discriminate]. subst a.
  unfold disabled in H1. apply in_flat_map in H1. destruct H1 as [c [Hc1 Hc2]].
  unfold cyc_actions in Hc1. apply filter_In in Hc1. destruct Hc1 as [_ Hc1].
  destruct c; simpl in Hc2; try contradiction; apply in_map_iff in Hc2; destruct Hc2 as [d' [He Hd']];
    inversion He; subst; apply deps_of_in in Hd'; destruct Hd' as [Hd1 [_ Hd2]];
    assert (d' = d) by (apply dep_by_id; assumption); subst d'; unfold parent_rec in Hc; rewrite Hd2 in Hc; congruence. Qed.

Lemma proc_disabled d b : In d (g_deps g) -> d_active d = true -> incyc cy (parent_rec d b) = true ->
  amemb (ProcAll (d_id d) b) (disabled g cy) = true.
Proof. intros Hd Ha Hc. apply amemb_In. unfold disabled. apply in_flat_map. exists (parent_rec d b). split.
  - apply filter_In. split; [apply parent_rec_in; assumption|exact Hc].
  - destruct b; simpl; apply in_map_iff; exists d; (split; [reflexivity|apply in_deps_of; assumption]). Qed.

Lemma proc_home_state d b o : In d (g_deps g) -> d_active d = true -> incyc cy (parent_rec d b) = true ->
  proc_home g cy (d_id d) b o = ProcSt (d_id d) b o.
Proof. intros Hd Ha Hc. unfold proc_home. rewrite (proc_disabled d b Hd Ha Hc). reflexivity. Qed.
Lemma proc_home_all d b o : In d (g_deps g) -> incyc cy (parent_rec d b) = false ->
  proc_home g cy (d_id d) b o = ProcAll (d_id d) b.
Proof. intros Hd Hc. unfold proc_home. rewrite (proc_clean d b Hd Hc). reflexivity. Qed.
End Deps.

Section Edges.
Variables (g : graph) (cy : list N).
Notation T := std_tables.
Hypothesis Hnd : NoDup (map d_id (g_deps g)).
Hypothesis Hshape : cyc_shape cy = true.
Hypothesis Hfollow : procs_follow g cy = true.
Hypothesis Hpair : forall m, In m (all_mappers g) -> incyc cy (DelAll m) = incyc cy (SaveAll m).

Lemma pair_dep d : In d (g_deps g) -> incyc cy (DelAll (d_parent d)) = incyc cy (SaveAll (d_parent d)) /\
  incyc cy (DelAll (d_child d)) = incyc cy (SaveAll (d_child d)).
Proof. intros H. split; apply Hpair; unfold all_mappers; rewrite !in_app_iff; [right; left|right; right]; apply in_map, H. Qed.

Lemma parent_rec_cyc d b : In d (g_deps g) -> incyc cy (parent_rec d b) = incyc cy (SaveAll (d_parent d)).
Proof. intros H. destruct b; [apply (pair_dep d H)|reflexivity]. Qed.

Lemma proc_not_cyc d b : In d (g_deps g) -> incyc cy (parent_rec d b) = false -> incyc cy (ProcAll (d_id d) b) = false.
Proof. intros Hd Hc. unfold procs_follow in Hfollow. rewrite forallb_forall in Hfollow. specialize (Hfollow _ Hd).
  apply andb_true_iff in Hfollow. destruct Hfollow as [H1 H2]. unfold parent_rec in Hc.
  destruct b; [rewrite Hc in H2|rewrite Hc in H1]; rewrite orb_false_r in *; apply negb_true_iff; assumption. Qed.

Lemma fine_ok a : coarse a = false -> clean g cy a /\ incyc cy a = false.
Proof. intros H. split; [apply not_disabled; intros d b ->; discriminate|apply shape_out; assumption]. Qed.

Lemma convert_in_expand a x : In x (convert g a) -> In x (expand_acts g cy a).
Proof. destruct a; simpl; try contradiction; intros H; apply in_or_app; left; exact H. Qed.

Lemma convert_fine a x : In x (convert g a) -> clean g cy x /\ incyc cy x = false.
Proof. destruct a; simpl; try contradiction; intros H; apply in_map_iff in H; destruct H as [s [<- _]]; apply fine_ok; reflexivity. Qed.

(* the post_update records are named only by the tables of the processors that create them *)
Definition role_fits (k : N) (p : bool) (r : role) : bool :=
  match r with CPost | CPre => p && N.eqb k 0 | PPost | PPre => p && N.eqb k 1 | _ => true end.

Lemma table_roles k p r1 r2 : In (r1, r2) (prop_edges T k p) -> role_fits k p r1 = true /\ role_fits k p r2 = true.
Proof. intros H. apply andb_true_iff.
  exact (prop_edges_forall (fun k p rr => role_fits k p (fst rr) && role_fits k p (snd rr)) T eq_refl k p (r1, r2) H). Qed.

Lemma role_registered d r : In d (g_deps g) -> d_active d = true -> role_fits (d_kind d) (d_post d) r = true ->
  In (role_act d r) (actions0 g).
Proof. intros Hd Ha F. apply (actions0_dep g d _ Hd Ha). unfold dep_actions0, post_acts.
  destruct r; simpl in *; auto 8; apply andb_true_iff in F; destruct F as [-> F]; apply N.eqb_eq in F; rewrite F; simpl; auto 10. Qed.

(* [a'] stands for the per-mapper record [a] in the final set: [a] itself, or any of its per-state parts
   when [a] is split (this is what the rewrite loop of _generate_actions does to either end of an edge) *)
Definition rep (a a' : action) : Prop := if incyc cy a then In a' (convert g a) else a' = a.

Lemma rep_self a : incyc cy a = false -> rep a a.
Proof. unfold rep. intros ->. reflexivity. Qed.
Lemma rep_save s : role_of g s = 1 -> rep (SaveAll (map_of g s)) (home_save g cy s).
Proof. intros R. unfold rep, home_save. destruct (incyc cy _); [|reflexivity]. apply (in_map SaveSt), (in_states_of g s false), R. Qed.
Lemma rep_del s : role_of g s = 2 -> rep (DelAll (map_of g s)) (home_del g cy s).
Proof. intros R. unfold rep, home_del. destruct (incyc cy _); [|reflexivity]. apply (in_map DelSt), (in_states_of g s true), R. Qed.

Lemma rep_item a a' : In a (actions0 g) -> clean g cy a -> rep a a' -> In a' (final_items g cy).
Proof. unfold rep. intros Ha Ca R. destruct (incyc cy a) eqn:I.
  - destruct (convert_fine _ _ R). apply (FI_x g cy a); auto. apply convert_in_expand, R.
  - subst. apply FI_0; assumption. Qed.

Lemma rep_edge a b a' b' : In (a, b) (edges0 T g) -> In a (actions0 g) -> In b (actions0 g) ->
  clean g cy a -> clean g cy b -> rep a a' -> rep b b' -> incyc cy a && incyc cy b = false -> edge_ok T g cy a' b'.
Proof. intros He Ha Hb Ca Cb Ra Rb Hc. split; [|split; [exact (rep_item a a' Ha Ca Ra)|exact (rep_item b b' Hb Cb Rb)]].
  apply (FE_intro T g cy (Some a, Some b)); [apply all_edges_0, He|]. rewrite rewrite1_clean by assumption. unfold rep in *.
  destruct (incyc cy a), (incyc cy b); try discriminate; simpl; subst.
  - exact (in_map (fun x => (x, b)) _ _ Ra).
  - exact (in_map (fun x => (a, x)) _ _ Rb).
  - left. reflexivity. Qed.

Lemma prop_step d r1 r2 a' b' : In d (g_deps g) -> d_active d = true -> In (r1, r2) (prop_edges T (d_kind d) (d_post d)) ->
  clean g cy (role_act d r1) -> clean g cy (role_act d r2) -> rep (role_act d r1) a' -> rep (role_act d r2) b' ->
  incyc cy (role_act d r1) && incyc cy (role_act d r2) = false -> edge_ok T g cy a' b'.
Proof. intros Hd Ha Hr. destruct (table_roles _ _ _ _ Hr). apply rep_edge; [apply edges0_dep| |]; try apply role_registered; assumption. Qed.

(* processor [d] in phase [isdel], a state [o] of its parent mapper, whose records are split, and one of
   the child actions of [o] *)
Definition split_at (d : dep) (isdel : bool) (o : N) (ca : option action * bool) : Prop :=
  In d (g_deps g) /\ d_active d = true /\ incyc cy (parent_rec d isdel) = true /\
  In o (states_of g (d_parent d) isdel) /\ sum_of g (d_id d) o <> [] /\ In ca (child_actions g cy d o).

Lemma state_edge d isdel o ca x y : split_at d isdel o ca ->
  In (x, y) (state_edges T (d_kind d) (d_post d) isdel (snd ca)) ->
  In (srole_act d isdel o (fst ca) x, srole_act d isdel o (fst ca) y) (all_edges T g cy).
Proof. intros [Hd [Ha [Hc [Ho [Hsum Hca]]]]] Hxy.
  apply (all_edges_x T g cy (parent_rec d isdel)); [apply parent_rec_in; assumption|exact Hc|].
  assert (X : In (srole_act d isdel o (fst ca) x, srole_act d isdel o (fst ca) y) (state_dep_edges T g cy d isdel o)).
  { unfold state_dep_edges. destruct (sum_of g (d_id d) o); [contradiction|]. apply in_flat_map. exists ca. split; [exact Hca|].
    apply in_map_iff. exists (x, y). split; [reflexivity|exact Hxy]. }
  unfold parent_rec, states_of in *. destruct isdel; simpl; apply in_or_app; right; apply in_flat_map; exists d;
    (split; [apply in_deps_of; assumption|]); apply in_flat_map; exists o; (split; [exact Ho|exact X]). Qed.

Lemma state_act d isdel o ca a : split_at d isdel o ca ->
  a = (if isdel then DelSt o else SaveSt o) \/ In a (state_dep_acts g cy d isdel o) ->
  In a (flat_map (expand_acts g cy) (cyc_actions g cy)).
Proof. intros [Hd [Ha [Hc [Ho _]]]] Hx. apply in_flat_map. exists (parent_rec d isdel). split.
  { apply filter_In. split; [apply parent_rec_in; assumption|exact Hc]. }
  unfold parent_rec, states_of in *. destruct isdel; simpl; apply in_or_app;
    (destruct Hx as [->|Hx]; [left; apply in_map, Ho|right]); apply in_flat_map; exists d;
    (split; [apply in_deps_of; assumption|]); apply in_flat_map; exists o; split; assumption. Qed.

Lemma child_ok d o ca a : In d (g_deps g) -> In ca (child_actions g cy d o) -> fst ca = Some a ->
  clean g cy a /\ incyc cy a = false.
Proof. intros Hd Hca E.
  destruct (child_actions_inv g cy d o ca a Hca E) as [[c [-> _]]|[[c [-> _]]|[cC [[-> _]|[-> _]]]]];
    try (apply fine_ok; reflexivity); (split; [apply not_disabled; intros; discriminate|]);
    [exact cC|rewrite (proj2 (pair_dep d Hd)); exact cC]. Qed.

Definition post_ok (d : dep) (x : srole) : Prop :=
  match x with
  | SCPost | SCPre => d_post d = true /\ d_kind d = 0
  | SPPost | SPPre => d_post d = true /\ d_kind d = 1
  | _ => True
  end.

(* the records the per-state table speaks of are final records: parts of the parent record, the child
   action, or post_update records, which are there from the start *)
Lemma srole_item d isdel o ca x a : split_at d isdel o ca -> srole_act d isdel o (fst ca) x = Some a -> post_ok d x ->
  In a (final_items g cy) /\ clean g cy a /\ incyc cy a = false.
Proof. intros S E P.
  assert (F : clean g cy a /\ incyc cy a = false).
  { destruct S as [Hd [_ [_ [_ [_ Hca]]]]].
    destruct x; simpl in E; try (apply fine_ok; destruct isdel; inversion E; reflexivity). exact (child_ok d o ca a Hd Hca E). }
  split; [|exact F]. unfold final_items. apply filter_In. unfold clean in F. destruct F as [-> ->]. split; [|reflexivity].
  apply in_or_app. pose proof S as [Hd [Ha [_ [_ [Hsum Hca]]]]].
  destruct x; simpl in E, P;
    try (left; apply (actions0_dep g d _ Hd Ha), in_or_app; right; unfold post_acts; rewrite (proj1 P), (proj2 P); inversion E; simpl; auto);
    right; apply (state_act d isdel o ca a S); try (left; destruct isdel; inversion E; reflexivity);
    right; unfold state_dep_acts; (destruct (sum_of g (d_id d) o); [contradiction|]);
    try (left; destruct isdel; inversion E; reflexivity).
  right. apply in_flat_map. exists ca. split; [exact Hca|]. rewrite E. left. reflexivity. Qed.

Lemma state_step d isdel o ca x y a b : split_at d isdel o ca ->
  In (x, y) (state_edges T (d_kind d) (d_post d) isdel (snd ca)) ->
  srole_act d isdel o (fst ca) x = Some a -> srole_act d isdel o (fst ca) y = Some b ->
  post_ok d x -> post_ok d y -> edge_ok T g cy a b.
Proof. intros S Hxy Ea Eb Px Py.
  destruct (srole_item d isdel o ca x a S Ea Px) as [Fa [Ca Ia]], (srole_item d isdel o ca y b S Eb Py) as [Fb [Cb Ib]].
  split; [|split; assumption].
  apply (FE_intro T g cy (Some a, Some b)); [rewrite <- Ea, <- Eb; apply state_edge; assumption|].
  rewrite rewrite1_clean, Ia, Ib by assumption. left. reflexivity. Qed.

(* the child action of [o] that belongs to the related state [rel] *)
Definition rel_ca (d : dep) (rel : N) : option action * bool :=
  if incyc cy (SaveAll (d_child d)) then child_action g (Some rel)
  else if N.eqb (role_of g rel) 2 then (Some (DelAll (d_child d)), true) else (Some (SaveAll (d_child d)), false).

Lemma rel_ca_in d o rel : link_in g (d_id d) o rel = true -> In (rel_ca d rel) (child_actions g cy d o).
Proof. intros Hl. unfold rel_ca, child_actions. destruct (incyc cy (SaveAll (d_child d))); [apply in_map, link_sum, Hl|].
  destruct (N.eqb (role_of g rel) 2); simpl; tauto. Qed.

Lemma rel_ca_flag d rel : snd (rel_ca d rel) = N.eqb (role_of g rel) 2.
Proof. unfold rel_ca, child_action. destruct (incyc cy (SaveAll (d_child d))).
  - destruct (N.eqb (role_of g rel) 1) eqn:E; [apply N.eqb_eq in E; rewrite E; reflexivity|]. destruct (N.eqb (role_of g rel) 2); reflexivity.
  - destruct (N.eqb (role_of g rel) 2); reflexivity. Qed.

Lemma rel_ca_save d rel : role_of g rel = 1 -> d_child d = map_of g rel -> fst (rel_ca d rel) = Some (home_save g cy rel).
Proof. intros R M. unfold rel_ca, home_save. rewrite (child_action_save g rel R), R, <- M. destruct (incyc cy (SaveAll (d_child d))); reflexivity. Qed.
Lemma rel_ca_del d rel : In d (g_deps g) -> role_of g rel = 2 -> d_child d = map_of g rel ->
  fst (rel_ca d rel) = Some (home_del g cy rel).
Proof. intros Hd R M. unfold rel_ca, home_del. rewrite (child_action_del g rel R), R, <- M, (proj2 (pair_dep d Hd)).
  destruct (incyc cy (SaveAll (d_child d))); reflexivity. Qed.

(* the final record that plays the role [r] of processor [d] for the owner state [o] and the related state [rel] *)
Definition fin_role (d : dep) (o rel : N) (r : role) : action :=
  match r with
  | PSaves => home_save g cy o | PDels => home_del g cy o
  | CSaves => home_save g cy rel | CDels => home_del g cy rel
  | AfterSave => proc_home g cy (d_id d) false o | BeforeDel => proc_home g cy (d_id d) true o
  | CPost => PostAll (map_of g rel) false | CPre => PostAll (map_of g rel) true
  | PPost => PostAll (map_of g o) false | PPre => PostAll (map_of g o) true
  end.
(* its name in the per-state table *)
Definition sr (r : role) : srole :=
  match r with
  | PSaves => SSaveP | PDels => SDelP | CSaves | CDels => SChild | AfterSave => SAfter | BeforeDel => SBefore
  | CPost => SCPost | CPre => SCPre | PPost => SPPost | PPre => SPPre
  end.
(* when the role makes sense: the phase of the owner, the role of the related state *)
Definition role_ok (isdel : bool) (rel : N) (r : role) : Prop :=
  match r with
  | PSaves | AfterSave => isdel = false | PDels | BeforeDel => isdel = true
  | CSaves => role_of g rel = 1 | CDels => role_of g rel = 2
  | _ => True
  end.

Section Step.
Variables (d : dep) (k : N) (p isdel cdel : bool) (o rel : N).
(* [d] is an active processor of kind [k] / post_update [p]; [o] is a state of its parent mapper in phase
   [isdel], linked to the state [rel] of its child mapper; [cdel]: [rel] is to be deleted *)
Definition dep_at : Prop :=
  In d (g_deps g) /\ d_active d = true /\ d_kind d = k /\ d_post d = p /\
  role_of g o = (if isdel then 2 else 1) /\ d_parent d = map_of g o /\ d_child d = map_of g rel /\
  link_in g (d_id d) o rel = true /\ (if cdel then role_of g rel = 2 else role_of g rel <> 2).

(* the owner's mapper is not split: the per-property table *)
Lemma role_rep r : dep_at -> incyc cy (SaveAll (d_parent d)) = false -> role_ok isdel rel r ->
  clean g cy (role_act d r) /\ rep (role_act d r) (fin_role d o rel r) /\ (incyc cy (role_act d r) = true -> sr r = SChild).
Proof. intros [Hd [Ha [Hk [Hp [Ro [Mo [Mr _]]]]]]] cP K.
  assert (cPb : forall b, incyc cy (parent_rec d b) = false) by (intros b; rewrite parent_rec_cyc; assumption).
  split; [|split].
  - destruct r; simpl; try (apply not_disabled; intros; discriminate); apply proc_clean; auto.
  - destruct r; simpl in *; rewrite ?(proc_home_all g cy Hnd d _ o Hd (cPb _)), ?Mo, ?Mr.
    all: try (apply rep_self; first [apply proc_not_cyc; auto | apply shape_out; auto]).
    all: first [apply rep_save | apply rep_del]; first [exact K | rewrite K in Ro; exact Ro].
  - destruct r; simpl; try reflexivity; intros X; exfalso; try (apply (incyc_coarse cy _ Hshape) in X; discriminate);
      rewrite ?(proj1 (pair_dep d Hd)), ?cP, ?(proc_not_cyc d _ Hd (cPb _)) in X; discriminate. Qed.

(* the owner's mapper is split: the per-state table *)
Lemma role_srole r : dep_at -> incyc cy (SaveAll (d_parent d)) = true -> role_ok isdel rel r -> role_fits k p r = true ->
  srole_act d isdel o (fst (rel_ca d rel)) (sr r) = Some (fin_role d o rel r) /\ post_ok d (sr r).
Proof. intros [Hd [Ha [Hk [Hp [Ro [Mo [Mr _]]]]]]] cP K F.
  assert (cPb : forall b, incyc cy (parent_rec d b) = true) by (intros b; rewrite parent_rec_cyc; assumption).
  destruct r; simpl in *;
    (split; [|first [exact I | rewrite Hp, Hk; apply andb_true_iff in F; destruct F as [-> F]; apply N.eqb_eq in F; auto]]);
    first [apply rel_ca_save; assumption | apply rel_ca_del; assumption | idtac];
    rewrite ?K; unfold home_save, home_del;
    rewrite <- ?Mo, <- ?Mr, ?(proj1 (pair_dep d Hd)), ?cP, ?(proc_home_state g cy d _ o Hd Ha (cPb _)); reflexivity. Qed.

Theorem dep_step r1 r2 : dep_at ->
  In (r1, r2) (prop_edges T k p) -> In (sr r1, sr r2) (state_edges T k p isdel cdel) ->
  role_ok isdel rel r1 -> role_ok isdel rel r2 -> sr r1 <> sr r2 ->
  edge_ok T g cy (fin_role d o rel r1) (fin_role d o rel r2).
Proof. intros At T1 T2 K1 K2 Hne. pose proof At as [Hd [Ha [Hk [Hp [Ro [Mo [Mr [Hl Rr]]]]]]]].
  destruct (incyc cy (SaveAll (d_parent d))) eqn:cP.
  - destruct (table_roles _ _ _ _ T1) as [F1 F2].
    destruct (role_srole r1 At cP K1 F1) as [E1 P1], (role_srole r2 At cP K2 F2) as [E2 P2].
    apply (state_step d isdel o (rel_ca d rel) (sr r1) (sr r2)); try assumption.
    + split; [exact Hd|]. split; [exact Ha|]. split; [rewrite parent_rec_cyc; assumption|].
      split; [rewrite Mo; apply in_states_of, Ro|]. split; [|apply rel_ca_in, Hl].
      intros E. apply link_sum in Hl. rewrite E in Hl. exact Hl.
    + rewrite Hk, Hp, rel_ca_flag. replace (N.eqb (role_of g rel) 2) with cdel; [exact T2|].
      destruct cdel; symmetry; [apply N.eqb_eq|apply N.eqb_neq]; exact Rr.
  - destruct (role_rep r1 At cP K1) as [C1 [R1 I1]], (role_rep r2 At cP K2) as [C2 [R2 I2]].
    apply (prop_step d r1 r2); try assumption; [rewrite Hk, Hp; exact T1|].
    destruct (incyc cy (role_act d r1)); [|reflexivity]. destruct (incyc cy (role_act d r2)); [|reflexivity].
    exfalso. apply Hne. rewrite I1, I2; reflexivity. Qed.

Corollary dep_path r1 r2 r3 : dep_at ->
  In (r1, r2) (prop_edges T k p) -> In (sr r1, sr r2) (state_edges T k p isdel cdel) ->
  In (r2, r3) (prop_edges T k p) -> In (sr r2, sr r3) (state_edges T k p isdel cdel) ->
  role_ok isdel rel r1 -> role_ok isdel rel r2 -> role_ok isdel rel r3 -> sr r1 <> sr r2 -> sr r2 <> sr r3 ->
  fpath T g cy (fin_role d o rel r1) (fin_role d o rel r3).
Proof. intros. apply fp2 with (fin_role d o rel r2); apply dep_step; assumption. Qed.
End Step.
End Edges.
