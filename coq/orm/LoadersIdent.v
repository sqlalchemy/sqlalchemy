(* C40 - the identity-map shortcut of lazy / immediate many-to-one loading against a polymorphic target.
   _LazyLoader._load_for_state (use_get) first asks the Session for the identity
   (loading.get_from_identity); an object found under the key is used only if its class IS-A the
   relationship's target class, otherwise the attribute is None (PASSIVE_CLASS_MISMATCH); only when nothing
   is found the row is SELECTed (restricted to the target class).  What is loaded must not depend on what
   happens to be in the Session already. *)
From Coq Require Import List ZArith Bool.
Import ListNotations.
Open Scope Z_scope.

(* a class hierarchy: class -> its parent class (None for the base); [fuel] bounds the depth *)
Definition hierarchy := nat -> option nat.
Fixpoint isa_fuel (h : hierarchy) (fuel : nat) (c target : nat) : bool :=
  Nat.eqb c target ||
  match fuel with
  | O => false
  | S f => match h c with Some p => isa_fuel h f p target | None => false end
  end.

Record prow := mkP { pid : Z; pcls : nat }.          (* a row of the base table with its actual class *)

Definition find_row (db : list prow) (k : Z) : option prow := find (fun r => pid r =? k) db.

(* the relational meaning of a many-to-one whose target is class [target] *)
Definition m2o_spec (isa : nat -> nat -> bool) (db : list prow) (target : nat) (fk : option Z) : option prow :=
  match fk with
  | None => None
  | Some k => match find_row db k with
              | Some r => if isa (pcls r) target then Some r else None
              | None => None
              end
  end.

(* lazy / immediate load with the identity map [idmap] (the objects already in the Session) *)
Definition m2o_lazy (accept : nat -> nat -> bool) (isa : nat -> nat -> bool) (idmap db : list prow) (target : nat)
           (fk : option Z) : option prow :=
  match fk with
  | None => None
  | Some k => match find_row idmap k with
              | Some o => if accept (pcls o) target then Some o else None      (* PASSIVE_CLASS_MISMATCH -> None *)
              | None => m2o_spec isa db target (Some k)                          (* SELECT ... WHERE pk = :k *)
              end
  end.

(* the Session holds rows of the database, as what they are *)
Definition idmap_ok (idmap db : list prow) : Prop := forall k o, find_row idmap k = Some o -> find_row db k = Some o.

(* with the guard "found object IS-A target" the result is the relational meaning, whatever the history *)
Theorem m2o_lazy_history_independent : forall isa idmap db target fk, idmap_ok idmap db ->
  m2o_lazy isa isa idmap db target fk = m2o_spec isa db target fk.
Proof.
  intros isa idmap db target [k|] OK; cbn; auto.
  destruct (find_row idmap k) as [o|] eqn:E; auto. rewrite (OK k o E). reflexivity.
Qed.

(* a wrong guard: also accept an object whose class is an ANCESTOR of the target *)
Definition accept_ancestors (isa : nat -> nat -> bool) (c target : nat) : bool := isa c target || isa target c.

Theorem m2o_lazy_accept_ancestors_refuted : exists (h : hierarchy) idmap db target fk,
  idmap_ok idmap db /\
  m2o_lazy (accept_ancestors (isa_fuel h 3)) (isa_fuel h 3) idmap db target fk <> m2o_spec (isa_fuel h 3) db target fk /\
  m2o_lazy (accept_ancestors (isa_fuel h 3)) (isa_fuel h 3) [] db target fk = m2o_spec (isa_fuel h 3) db target fk.
Proof.
  exists (fun c => match c with 1%nat | 2%nat => Some 0%nat | _ => None end),
         [mkP 1 0], [mkP 1 0], 2%nat, (Some 1).
  split; [intros k o H; exact H|]. split; [vm_compute; discriminate|reflexivity].
Qed.
