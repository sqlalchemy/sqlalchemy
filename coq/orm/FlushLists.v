(* List facts shared by the two C30 proof files: lookups [find (fun x => key x =? i)] by a key in N (the objects,
   parents, children and association lists of both models are searched this way), and a few facts the library lacks. *)
From Coq Require Import List NArith Bool.
Import ListNotations.
Local Open Scope N_scope.

Lemma existsb_eqb_In {A} (eqb : A -> A -> bool) : (forall x y, eqb x y = true <-> x = y) ->
  forall x l, existsb (eqb x) l = true <-> In x l.
Proof. intros Heq x l. rewrite existsb_exists. split.
  - intros [y [H1 H2]]. apply Heq in H2. subst. exact H1.
  - intros H. exists x. split; [exact H|apply Heq; reflexivity]. Qed.

Section Keyed.
Context {A : Type} (key : A -> N).
Lemma find_key_in i l x : find (fun y => N.eqb (key y) i) l = Some x -> In x l /\ key x = i.
Proof. intros H. apply find_some in H. rewrite N.eqb_eq in H. exact H. Qed.
Lemma find_key_none i l : find (fun y => N.eqb (key y) i) l = None <-> ~ In i (map key l).
Proof. induction l as [|a l IH]; simpl; [tauto|]. destruct (N.eqb_spec (key a) i); [|tauto]. split; [discriminate|tauto]. Qed.
Lemma find_key_nodup l x : NoDup (map key l) -> In x l -> find (fun y => N.eqb (key y) (key x)) l = Some x.
Proof. induction l as [|a l IH]; simpl; intros Hn Hi; [contradiction|]. inversion_clear Hn.
  destruct Hi as [->|Hi]; [rewrite N.eqb_refl; reflexivity|].
  destruct (N.eqb_spec (key a) (key x)) as [E|_]; [|auto]. exfalso. apply H. rewrite E. apply in_map, Hi. Qed.
Lemma find_key_map (f : A -> A) i l : (forall x, key (f x) = key x) ->
  find (fun y => N.eqb (key y) i) (map f l) = option_map f (find (fun y => N.eqb (key y) i) l).
Proof. intros Hf. induction l as [|a l IH]; simpl; [reflexivity|]. rewrite Hf. destruct (N.eqb (key a) i); [reflexivity|exact IH]. Qed.
End Keyed.
Lemma fold_left_inv {S O} (P : S -> Prop) (f : S -> O -> S) :
  (forall s o, P s -> P (f s o)) -> forall h s, P s -> P (fold_left f h s).
Proof. intros Hf. induction h as [|o h IH]; intros s Hs; [exact Hs|]. apply IH, Hf, Hs. Qed.
Lemma find_app {A} (f : A -> bool) l1 l2 : find f (l1 ++ l2) = match find f l1 with Some x => Some x | None => find f l2 end.
Proof. induction l1 as [|a l1 IH]; simpl; [reflexivity|]. destruct (f a); [reflexivity|exact IH]. Qed.
Lemma NoDup_app_intro {A} (l1 l2 : list A) : NoDup l1 -> NoDup l2 -> (forall x, In x l1 -> In x l2 -> False) -> NoDup (l1 ++ l2).
Proof. induction l1 as [|a l1 IH]; simpl; intros H1 H2 Hd; [exact H2|]. inversion H1; subst. constructor.
  - intros X. apply in_app_or in X. destruct X as [X|X]; [contradiction|]. apply (Hd a); [left; reflexivity|exact X].
  - apply IH; [assumption|assumption|]. intros x X1 X2. apply (Hd x); [right; exact X1|exact X2]. Qed.
