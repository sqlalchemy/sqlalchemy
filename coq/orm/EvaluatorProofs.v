(* C43: the evaluator's Python value refines the SQL value on the typed, guarded fragment. *)
From Coq Require Import List ZArith NArith Bool Lia.
Import ListNotations.
From SAV.sql Require Import Val3 Val3Proofs InList.
From SAV.orm Require Import Evaluator.
Open Scope Z_scope.

(* induction over expression trees whose hypothesis reaches into the clause lists of AND / OR *)
Section EX_IND.
Variable P : ex -> Prop.
Hypothesis Hcol : forall c, P (ECol c).
Hypothesis Hlit : forall t v, P (ELit t v).
Hypothesis Hnull : P ENull.
Hypothesis Htrue : P ETrue.
Hypothesis Hfalse : P EFalse.
Hypothesis Hbin : forall o a b, P a -> P b -> P (EBin o a b).
Hypothesis Hin : forall n a vs, P a -> P (EIn n a vs).
Hypothesis Hand : forall es, Forall P es -> P (EAnd es).
Hypothesis Hor : forall es, Forall P es -> P (EOr es).
Hypothesis Hnot : forall e, P e -> P (ENot e).
Hypothesis Hgroup : forall e, P e -> P (EGroup e).
Hypothesis Hother : P EOther.
Fixpoint ex_ind' (e : ex) : P e :=
  let all := fix go (l : list ex) : Forall P l :=
               match l with [] => Forall_nil P | x :: r => Forall_cons x (ex_ind' x) (go r) end in
  match e with
  | ECol c => Hcol c
  | ELit t v => Hlit t v
  | ENull => Hnull | ETrue => Htrue | EFalse => Hfalse
  | EBin o a b => Hbin o a b (ex_ind' a) (ex_ind' b)
  | EIn n a vs => Hin n a vs (ex_ind' a)
  | EAnd es => Hand es (all es)
  | EOr es => Hor es (all es)
  | ENot e1 => Hnot e1 (ex_ind' e1)
  | EGroup e1 => Hgroup e1 (ex_ind' e1)
  | EOther => Hother
  end.
End EX_IND.

Lemma if_some {A} (c : bool) (x y : A) : (if c then Some x else None) = Some y -> c = true /\ x = y.
Proof. destruct c; [intros [= ->]; now split|discriminate]. Qed.

Inductive rel : pyv -> sv -> Prop :=
| rel_none : rel VNone SNull
| rel_bool : forall b, rel (VBool b) (SInt (b2z b))
| rel_int : forall z, rel (VInt z) (SInt z)
| rel_str : forall s, rel (VStr s) (SText s).

Definition pv_has (t : sty) (v : pyv) : Prop :=
  match v, t with
  | VNone, _ => True
  | VInt _, TyInt => True
  | VStr _, TyStr => True
  | VBool _, TyBool => True
  | _, _ => False
  end.

(* [rel] and [pv_has] in one: the Python value v of static type t stands for the SQL value s.  A case
   analysis on it gives the shapes of both sides at once. *)
Inductive tval : sty -> pyv -> sv -> Prop :=
| tval_none t : tval t VNone SNull
| tval_int z : tval TyInt (VInt z) (SInt z)
| tval_str x : tval TyStr (VStr x) (SText x)
| tval_bool b : tval TyBool (VBool b) (SInt (b2z b)).

Lemma tval_iff t v s : tval t v s <-> rel v s /\ pv_has t v.
Proof. split; [intros []; split; constructor|intros [Hr Hp]; destruct Hr, t; try destruct Hp; constructor]. Qed.

Definition refines (t : sty) (p : pyres) (s : sv) : Prop := exists v, p = POk v /\ tval t v s.

Lemma refines_ok t v s : tval t v s -> refines t (POk v) s.
Proof. intros H. now exists v. Qed.

Lemma tval_not_exp {t v s} : tval t v s -> is_exp v = false.
Proof. now destruct 1. Qed.
Lemma tval_of_sv t v : sv_has t v = true -> tval t (of_sv v) v.
Proof. destruct v, t; try discriminate; constructor. Qed.
Lemma tval_to_attr t v s : tval t v s -> to_attr v = Loaded s.
Proof. now destruct 1. Qed.

(* a boolean-typed Python value is determined by the truth value of its SQL counterpart *)
Definition of_tv (t : tv) : pyv := match t with TT => VBool true | TF => VBool false | TU => VNone end.
Lemma refines_tv t : refines TyBool (POk (of_tv t)) (sv_of_tv t).
Proof. apply refines_ok. destruct t; constructor. Qed.
Lemma refines_bool {p s} : refines TyBool p s -> p = POk (of_tv (tv_of_sv s)).
Proof. intros (v & -> & H). apply tval_iff in H as [Hr Hp]. destruct Hr as [|[]| |]; try destruct Hp; reflexivity. Qed.

Lemma sv_of_tv_bool b : sv_of_tv (tv_of_bool b) = SInt (b2z b).
Proof. now destruct b. Qed.
Lemma not3_bool b : not3 (tv_of_bool b) = tv_of_bool (negb b).
Proof. now destruct b. Qed.

Lemma in_range lo hi c : BoolSpec (lo <= c <= hi)%N (c < lo \/ hi < c)%N (N.leb lo c && N.leb c hi).
Proof. destruct (N.leb_spec lo c), (N.leb_spec c hi); constructor; lia. Qed.

(* SQLite folds ASCII case; on characters that are not upper-case letters that is plain equality *)
Lemma lower_ceq c x : negb (N.leb 65 c && N.leb c 90)%N = true -> negb (N.leb 65 x && N.leb x 90)%N = true ->
  ceq c x = N.eqb c x.
Proof.
  unfold ceq, upper.
  destruct (in_range 65 90 c) as [|Uc]; [discriminate|]. destruct (in_range 65 90 x) as [|Ux]; [discriminate|].
  intros _ _. destruct (N.eqb_spec c x) as [->|Hne]; [apply N.eqb_refl|]. apply N.eqb_neq.
  destruct (in_range 97 122 c), (in_range 97 122 x); lia.
Qed.

Definition like_any (p : list N) : list N -> bool :=
  fix any (s : list N) : bool := like p s || match s with [] => false | _ :: s' => any s' end.
Lemma like_pct p s : like (pct :: p) s = like_any p s.
Proof. reflexivity. Qed.
Lemma like_any_nil s : like_any [] s = true.
Proof. induction s as [|x s IH]; cbn [like_any like]; [reflexivity|]. cbn [orb]. exact IH. Qed.

Lemma like_lit y : forall x, no_wild y = true -> lower_only x = true -> lower_only y = true ->
  like (y ++ [pct]) x = prefixb y x /\ like y x = text_eqb x y.
Proof.
  induction y as [|c y IH]; intros x Hw Hx Hy.
  - cbn [app]. rewrite like_pct, like_any_nil. now destruct x.
  - cbn [no_wild lower_only forallb] in Hw, Hy.
    apply andb_true_iff in Hw as [Hc Hw]. apply andb_true_iff in Hy as [Hcl Hy].
    apply negb_true_iff in Hc. apply orb_false_iff in Hc as [Hp Hu].
    destruct x as [|a x]; cbn [app like]; rewrite Hp; [now split|]. rewrite Hu.
    cbn [lower_only forallb] in Hx. apply andb_true_iff in Hx as [Hal Hx].
    cbn [orb prefixb text_eqb]. rewrite (lower_ceq c a Hcl Hal), (N.eqb_sym a c).
    destruct (IH x Hw Hx Hy) as [-> ->]. now split.
Qed.

Lemma like_prefix x y : like_safe (SText x) (SText y) = true -> like (y ++ [pct]) x = prefixb y x.
Proof.
  cbn [like_safe]. intros G. apply andb_true_iff in G as [G Hy]. apply andb_true_iff in G as [Hw Hx].
  exact (proj1 (like_lit y x Hw Hx Hy)).
Qed.

(* str.endswith tries every tail of the string, as % does *)
Lemma like_suffix x y : like_safe (SText x) (SText y) = true -> like (pct :: y) x = suffixb y x.
Proof.
  cbn [like_safe]. intros G. apply andb_true_iff in G as [G Hy]. apply andb_true_iff in G as [Hw Hx].
  rewrite like_pct. induction x as [|a x IH]; cbn [like_any suffixb]; rewrite (proj2 (like_lit y _ Hw Hx Hy)); [reflexivity|].
  f_equal. apply IH. cbn [lower_only forallb] in Hx. now apply andb_true_iff in Hx as [_ Hx].
Qed.

Lemma existsb_map_pointwise {A B} (f : B -> bool) (g : A -> B) (h : A -> bool) l :
  (forall x, f (g x) = h x) -> existsb f (map g l) = existsb h l.
Proof. intros H. induction l as [|x l IH]; [reflexivity|]. cbn [map existsb]. now rewrite H, IH. Qed.

(* a non-NULL operand: SQL's three cases are Python's "a in b", "None in b", neither *)
Lemma in_sem_scalar a vs : a <> SNull ->
  in_sem [a] (map (fun v => [v]) vs) = if py_in (of_sv a) vs then TT else if has_null vs then TU else TF.
Proof.
  intros Ha. unfold in_sem, py_in, has_null.
  rewrite (existsb_map_pointwise _ _ (fun v => py_eq (of_sv a) (of_sv v))),
          (existsb_map_pointwise _ _ (fun v => match v with SNull => true | _ => false end)); [reflexivity| |];
    intros v; destruct a, v; try congruence; cbn [row_eq3 eq3 of_sv py_eq as_int];
    try destruct (Z.eqb _ _); try destruct (text_eqb _ _); reflexivity.
Qed.

Lemma in_sem_null vs : in_sem [SNull] (map (fun v => [v]) vs) = if is_nil vs then TF else TU.
Proof.
  unfold in_sem. induction vs as [|v vs IH]; [reflexivity|].
  cbn [map existsb row_eq3 eq3 and3 is_true is_unknown orb is_nil].
  destruct (existsb (fun r => is_true _) _); [now destruct vs|reflexivity].
Qed.

(* the loops of visit_and_clauselist_op / visit_or_clauselist_op and their SQL counterparts, by name *)
Definition and_go (o : obj) : list ex -> bool -> pyres :=
  fix go (l : list ex) (has_null : bool) : pyres :=
    match l with
    | [] => if has_null then POk VNone else POk (VBool true)
    | x :: r =>
        pbind (run x o) (fun v =>
        if is_exp v then POk VExp
        else if truthy v then go r has_null
        else if is_none v then go r true
        else POk (VBool false))
    end.
Definition or_go (o : obj) : list ex -> bool -> pyres :=
  fix go (l : list ex) (has_null : bool) : pyres :=
    match l with
    | [] => if has_null then POk VNone else POk (VBool false)
    | x :: r =>
        pbind (run x o) (fun v =>
        if is_exp v then POk VExp
        else if truthy v then POk (VBool true)
        else go r (has_null || is_none v))
    end.
Lemma run_and es o : run (EAnd es) o = and_go o es false.
Proof. reflexivity. Qed.
Lemma run_or es o : run (EOr es) o = or_go o es false.
Proof. reflexivity. Qed.

Definition and_sem (r : row) : list ex -> tv :=
  fix go (l : list ex) : tv := match l with [] => TT | x :: t => and3 (tv_of_sv (sem x r)) (go t) end.
Definition or_sem (r : row) : list ex -> tv :=
  fix go (l : list ex) : tv := match l with [] => TF | x :: t => or3 (tv_of_sv (sem x r)) (go t) end.
Lemma sem_and es r : sem (EAnd es) r = sv_of_tv (and_sem r es).
Proof. reflexivity. Qed.
Lemma sem_or es r : sem (EOr es) r = sv_of_tv (or_sem r es).
Proof. reflexivity. Qed.

Definition boolish (o : obj) (r : row) (x : ex) : Prop := run x o = POk (of_tv (tv_of_sv (sem x r))).

(* the flag has_null stands for an UNKNOWN met earlier in the list *)
Lemma and_go_ok o r es : Forall (boolish o r) es -> forall hn,
  and_go o es hn = POk (of_tv (and3 (if hn then TU else TT) (and_sem r es))).
Proof.
  induction 1 as [|x es Hx _ IH]; intros hn; cbn [and_go and_sem]; [now destruct hn|].
  rewrite Hx. destruct (tv_of_sv (sem x r)); cbn [pbind of_tv is_exp truthy is_none]; rewrite ?IH;
    now destruct hn, (and_sem r es).
Qed.
Lemma or_go_ok o r es : Forall (boolish o r) es -> forall hn,
  or_go o es hn = POk (of_tv (or3 (if hn then TU else TF) (or_sem r es))).
Proof.
  induction 1 as [|x es Hx _ IH]; intros hn; cbn [or_go or_sem]; [now destruct hn|].
  rewrite Hx. destruct (tv_of_sv (sem x r)); cbn [pbind of_tv is_exp truthy is_none]; rewrite ?IH;
    now destruct hn, (or_sem r es).
Qed.

(* _straight_evaluate: None if an operand is None *)
Definition straight (f : pyv -> pyv -> pyres) (l r : pyv) : pyres :=
  if is_none l || is_none r then POk VNone else f l r.

Lemma run_bin o a b ob {ta tb va vb sa sb} : run a ob = POk va -> run b ob = POk vb -> tval ta va sa -> tval tb vb sb ->
  run (EBin o a b) ob =
  match o with
  | OIs => POk (VBool (py_eq va vb))
  | OIsNot => POk (VBool (negb (py_eq va vb)))
  | _ => straight (py_binop o) va vb
  end.
Proof.
  intros Hva Hvb Ha Hb. cbn [run]. rewrite Hva, Hvb. cbn [pbind]. rewrite (tval_not_exp Ha), (tval_not_exp Hb).
  now destruct o.
Qed.

(* One lemma per operator class, all of one shape: typed operand values, operand types admitted by
   [wt'], the operator's guard if it has one; then Python's result stands for SQL's.  Each is a case
   analysis on the two operand values: typing excludes the mixed cases, a None / NULL operand makes both
   sides None / NULL, and one case of two proper values is left. *)
Lemma arith_ok pf f {ta tb va vb sa sb} : (forall x y, pf (VInt x) (VInt y) = POk (VInt (f x y))) ->
  tval ta va sa -> tval tb vb sb -> intlike ta && intlike tb = true ->
  refines TyInt (straight pf va vb) (sql_arith f sa sb).
Proof.
  intros Hf [] [] E; try discriminate E; unfold straight; cbn [is_none orb sql_arith]; rewrite ?Hf;
    apply refines_ok; constructor.
Qed.

Lemma mod_ok {ta tb va vb sa sb} : tval ta va sa -> tval tb vb sb -> intlike ta && intlike tb = true ->
  mod_safe sa sb = true -> refines TyInt (straight py_mod va vb) (sql_mod sa sb).
Proof.
  intros [] [] E G; try discriminate E; try (apply refines_ok; constructor).
  cbn [mod_safe] in G. apply andb_true_iff in G as [Hy Hm]. apply negb_true_iff in Hy. apply Z.eqb_eq in Hm.
  unfold straight, py_mod, sql_mod. cbn [is_none orb as_int]. rewrite Hy, Hm. apply refines_ok; constructor.
Qed.

Lemma cmp_ok k {ta tb va vb sa sb} : tval ta va sa -> tval tb vb sb -> compat ta tb = true ->
  refines TyBool (straight (py_cmp k) va vb) (sql_cmp k sa sb).
Proof.
  intros [] [] E; try discriminate E; cbn [sql_cmp]; rewrite ?sv_of_tv_bool; apply refines_ok; constructor.
Qed.

Lemma eq_ok (neg : bool) {ta tb va vb sa sb} : tval ta va sa -> tval tb vb sb -> compat ta tb = true ->
  refines TyBool (straight (fun l r => POk (VBool (if neg then negb (py_eq l r) else py_eq l r))) va vb)
                 (sv_of_tv (if neg then not3 (eq3 sa sb) else eq3 sa sb)).
Proof.
  intros [] [] E; try discriminate E; destruct neg; cbn [eq3 not3 sv_of_tv];
    rewrite ?not3_bool, ?sv_of_tv_bool; apply refines_ok; constructor.
Qed.

(* IS / IS NOT are == / != without the None short cut *)
Lemma is_ok (neg : bool) {ta tb va vb sa sb} : tval ta va sa -> tval tb vb sb -> compat ta tb = true ->
  refines TyBool (POk (VBool (if neg then negb (py_eq va vb) else py_eq va vb)))
                 (SInt (b2z (if neg then negb (sql_is sa sb) else sql_is sa sb))).
Proof. intros [] [] E; try discriminate E; destruct neg; apply refines_ok; constructor. Qed.

Lemma concat_ok {ta tb va vb sa sb} : tval ta va sa -> tval tb vb sb -> strlike ta && strlike tb = true ->
  refines TyStr (straight py_add va vb) (sql_concat sa sb).
Proof. intros [] [] E; try discriminate E; apply refines_ok; constructor. Qed.

Lemma startswith_ok {ta tb va vb sa sb} : tval ta va sa -> tval tb vb sb -> strlike ta && strlike tb = true ->
  like_safe sa sb = true -> refines TyBool (straight py_startswith va vb) (sql_like sa (sql_concat sb (SText [pct]))).
Proof.
  intros [] [] E G; try discriminate E; try (apply refines_ok; constructor).
  cbn [sql_concat sql_like]. rewrite (like_prefix _ _ G), sv_of_tv_bool. apply refines_ok; constructor.
Qed.
Lemma endswith_ok {ta tb va vb sa sb} : tval ta va sa -> tval tb vb sb -> strlike ta && strlike tb = true ->
  like_safe sa sb = true -> refines TyBool (straight py_endswith va vb) (sql_like sa (sql_concat (SText [pct]) sb)).
Proof.
  intros [] [] E G; try discriminate E; try (apply refines_ok; constructor).
  cbn [sql_concat sql_like app]. rewrite (like_suffix _ _ G), sv_of_tv_bool. apply refines_ok; constructor.
Qed.

(* IN / NOT IN: the body of [run (EIn neg a vs)] once the operand has evaluated to va *)
Lemma in_ok neg {ta va sa} vs : tval ta va sa -> val_ty ta || sty_eqb ta TyNull = true -> in_safe sa vs = true ->
  refines TyBool
    (if is_none va then POk VNone
     else if py_in va vs then POk (VBool (negb neg))
     else if has_null vs then POk VNone else POk (VBool neg))
    (sv_of_tv (if neg then not3 (in_sem [sa] (map (fun v => [v]) vs)) else in_sem [sa] (map (fun v => [v]) vs))).
Proof.
  intros [] E G; try discriminate E.
  2,3: rewrite in_sem_scalar by discriminate; cbn [of_sv is_none];
       destruct (py_in _ vs), (has_null vs), neg; apply refines_ok; constructor.
  rewrite in_sem_null. destruct vs; [discriminate G|]. destruct neg; apply refines_ok; constructor.
Qed.

(* [run] does not look at the declared SQL types: typing by [wt'] and the guard suffice, [check] plays no part *)
Definition refines_at (sc : schema) (r : row) (e : ex) : Prop :=
  forall t, wt' sc e = Some t -> guard e r = true -> refines t (run e (obj_of r)) (sem e r).

(* the two boolean hypotheses are the list loops inside [wt'] and [guard] *)
Lemma clauses_ok sc r es : Forall (refines_at sc r) es ->
  (fix all (l : list ex) : bool :=
     match l with [] => true | x :: t => match wt' sc x with Some TyBool => all t | _ => false end end) es = true ->
  (fix all (l : list ex) : bool := match l with [] => true | x :: t => guard x r && all t end) es = true ->
  Forall (boolish (obj_of r) r) es.
Proof.
  induction 1 as [|x es Hx _ IH]; intros Hw Hg; constructor;
    destruct (wt' sc x) as [[]|] eqn:Ht; try discriminate Hw; apply andb_true_iff in Hg as [Hgx Hg].
  - exact (refines_bool (Hx _ Ht Hgx)).
  - exact (IH Hw Hg).
Qed.

Theorem run_refines sc r : row_ok sc r -> forall e, refines_at sc r e.
Proof.
  intros Hrow e. unfold refines_at.
  induction e as [c|t0 v| | | |o a b IHa IHb|neg a vs IHa|es IH|es IH|e IH|e IH|] using ex_ind'.
  - intros t Hw _. apply if_some in Hw as [_ <-]. apply refines_ok, tval_of_sv, Hrow.
  - intros t [= <-] _. apply refines_ok. destruct v; constructor.
  - intros t _ _. apply refines_ok. constructor.
  - intros t [= <-] _. exact (refines_tv TT).
  - intros t [= <-] _. exact (refines_tv TF).
  - intros t Hw Hg.
    cbn [wt'] in Hw. destruct (wt' sc a) as [ta|] eqn:Hta; [|discriminate]. destruct (wt' sc b) as [tb|] eqn:Htb; [|discriminate].
    cbn [guard] in Hg. apply andb_true_iff in Hg as [Hg Hgo]. apply andb_true_iff in Hg as [Hga Hgb].
    destruct (IHa ta eq_refl Hga) as (va & Hva & Ha).
    destruct (IHb tb eq_refl Hgb) as (vb & Hvb & Hb).
    rewrite (run_bin o a b _ Hva Hvb Ha Hb). cbn [sem].
    destruct o; try discriminate Hw; apply if_some in Hw as [E <-].
    + exact (arith_ok _ Z.add (fun _ _ => eq_refl) Ha Hb E).
    + exact (arith_ok _ Z.sub (fun _ _ => eq_refl) Ha Hb E).
    + exact (arith_ok _ Z.mul (fun _ _ => eq_refl) Ha Hb E).
    + exact (mod_ok Ha Hb E Hgo).
    + exact (cmp_ok CLt Ha Hb E).
    + exact (cmp_ok CLe Ha Hb E).
    + exact (eq_ok true Ha Hb E).
    + exact (cmp_ok CGt Ha Hb E).
    + exact (cmp_ok CGe Ha Hb E).
    + exact (eq_ok false Ha Hb E).
    + exact (is_ok false Ha Hb E).
    + exact (is_ok true Ha Hb E).
    + exact (concat_ok Ha Hb E).
    + exact (startswith_ok Ha Hb E Hgo).
    + exact (endswith_ok Ha Hb E Hgo).
  - intros t Hw Hg.
    cbn [wt'] in Hw. destruct (wt' sc a) as [ta|] eqn:Hta; [|discriminate].
    apply if_some in Hw as [E <-]. apply andb_true_iff in E as [E _].
    cbn [guard] in Hg. apply andb_true_iff in Hg as [Hga Hgo].
    destruct (IHa ta eq_refl Hga) as (va & Hva & Ha).
    cbn [run sem]. rewrite Hva. cbn [pbind]. rewrite (tval_not_exp Ha). exact (in_ok neg vs Ha E Hgo).
  - intros t Hw Hg. apply if_some in Hw as [Hw <-].
    rewrite run_and, sem_and, (and_go_ok _ _ _ (clauses_ok sc r es IH Hw Hg) false). cbv iota.
    rewrite and3_TT_l. apply refines_tv.
  - intros t Hw Hg. apply if_some in Hw as [Hw <-].
    rewrite run_or, sem_or, (or_go_ok _ _ _ (clauses_ok sc r es IH Hw Hg) false). cbv iota.
    rewrite or3_TF_l. apply refines_tv.
  - intros t Hw Hg. cbn [wt'] in Hw. destruct (wt' sc e) as [[]|] eqn:Ht; try discriminate Hw.
    injection Hw as <-. cbn [run sem]. rewrite (refines_bool (IH TyBool eq_refl Hg)).
    destruct (tv_of_sv (sem e r)); [exact (refines_tv TF)|exact (refines_tv TT)|exact (refines_tv TU)].
  - exact IH.
  - intros t Hw. discriminate.
Qed.

Definition faithful_at (sc : schema) (r : row) (e : ex) : Prop :=
  forall t, wt' sc e = Some t -> check sc e = true -> guard e r = true ->
  exists v, run e (obj_of r) = POk v /\ rel v (sem e r) /\ pv_has t v.

(* the [check] hypothesis is not used *)
Theorem faithful sc r : row_ok sc r -> forall e, faithful_at sc r e.
Proof.
  intros Hrow e t Hw _ Hg. destruct (run_refines sc r Hrow e t Hw Hg) as (v & Hv & H).
  exists v. split; [exact Hv|apply tval_iff, H].
Qed.
