(* C45 - the merge result is the instance of the identity map; its column values are the loaded source values,
   unloaded source attributes leave the target untouched (existing value / value loaded from the row / absent).
   The theorems assume [wf], defined here; that every history keeps it is MergeWf.v. *)
From Coq Require Import List Bool Arith ZArith Lia.
From SAV.orm Require Import Merge MergeStages MergeProofs.
Import ListNotations.

Record wf (s : mstate) : Prop := mkWf {
  wf_boundA : forall pk t, idA s pk = Some t -> t < next s;
  wf_boundB : forall pk t, idB s pk = Some t -> t < next s;
  wf_sep : forall pa pb ta tb, idA s pa = Some ta -> idB s pb = Some tb -> ta <> tb;
  wf_blank : forall x k, next s <= x -> cols s x k = None
}.

Lemma wf_m0 : wf m0.
Proof. constructor; intros; try discriminate; reflexivity. Qed.

(* merging the children leaves the root alone *)
Section Root.
Variable t : nat.   (* the target of the root source *)

(* [t] is allocated and is not an instance of class B *)
Definition outside_B (s : mstate) : Prop := t < next s /\ forall pk, idB s pk <> Some t.
(* a step that leaves the identity map of A and the columns of [t] alone *)
Definition root_kept (s s' : mstate) : Prop := outside_B s' /\ idA s' = idA s /\ forall k, cols s' t k = cols s t k.
Definition keeps_root (s s' : mstate) : Prop := outside_B s -> root_kept s s'.

Lemma keeps_root_refl : forall s, keeps_root s s.
Proof. intros s H. repeat split; auto; apply H. Qed.
Lemma root_kept_trans : forall a b c, root_kept a b -> root_kept b c -> root_kept a c.
Proof. intros a b c [_ [I1 C1]] [Pc [I2 C2]]. split; [exact Pc|]. split; [congruence|]. intros k. rewrite C2. apply C1. Qed.
Lemma keeps_root_trans : forall a b c, keeps_root a b -> keeps_root b c -> keeps_root a c.
Proof. intros a b c H1 H2 Pa. pose proof (H1 Pa) as Hb. exact (root_kept_trans _ _ _ Hb (H2 (proj1 Hb))). Qed.
Lemma keeps_root_writes_only : forall c s s', (outside_B s -> c <> t) -> writes_only c s s' -> keeps_root s s'.
Proof.
  intros c s s' Hc [N [A [B C]]] Ps. destruct (Ps) as [P1 P2].
  split; [split; [rewrite N; exact P1|rewrite B; exact P2]|]. split; [exact A|]. intros k. apply C. intros E. apply (Hc Ps). auto.
Qed.
Lemma keeps_root_inert : forall s s', inert s s' -> keeps_root s s'.
Proof. intros s s' [N [A [B C]]] Ps. unfold root_kept, outside_B. rewrite N, A, B, C. auto. Qed.

Lemma keeps_root_load_B : forall cfg s pk row, keeps_root s (fst (load_B cfg s pk row)).
Proof.
  intros cfg s pk row. unfold load_B. destruct (idB s pk); [apply keeps_root_refl|]. cbn [alloc fst].
  intros [P1 P2]. split; [split|split].
  - cbn. lia.
  - intros pk'. cbn. unfold upd. destruct (Nat.eqb pk' pk); [intros E; inversion E; lia|apply P2].
  - reflexivity.
  - intros k. cbn. rewrite !upd2_other by lia. reflexivity.
Qed.

(* the conflict map holds targets of children *)
Definition cmap_not_root (ctx : mctx) : Prop := forall pk c, assoc pk (cmap ctx) = Some c -> c <> t.

(* the target of a child is never [t]: it is an instance of class B, an entry of the conflict map, or new *)
Lemma target_B_not_root : forall cfg load s ctx key s2 c,
  obtain (resolve_B cfg load s ctx key) = (s2, c) -> cmap_not_root ctx -> outside_B s -> root_kept s s2 /\ c <> t.
Proof.
  intros cfg load s ctx key s2 c H Hctx Ps.
  assert (New : forall a, root_kept s a -> root_kept s (set_pending (set_next a (S (next a))) (next a)) /\ next a <> t).
  { intros a Ka. destruct (Ka) as [[Q1 Q2] _]. split; [|lia]. eapply root_kept_trans; [exact Ka|].
    split; [split; [cbn; lia|exact Q2]|]. split; reflexivity. }
  revert H. unfold obtain, resolve_B. destruct key as [pk|]; [|cbn; intros H; inversion H; subst; apply New, keeps_root_refl, Ps].
  destruct (idB s pk) as [t0|] eqn:Ib.
  { cbn. intros H. inversion H; subst. split; [apply keeps_root_refl, Ps|]. intros F. subst. eapply Ps; eauto. }
  destruct (assoc pk (cmap ctx)) as [t0|] eqn:Ic.
  { cbn. intros H. inversion H; subst. split; [apply keeps_root_refl, Ps|]. eapply Hctx; eauto. }
  destruct load.
  - pose proof (get_B_steps cfg keeps_root keeps_root_trans keeps_root_inert (keeps_root_load_B cfg) s pk Ps) as G. pose proof (get_B_entry cfg s pk) as E.
    destruct (get_B cfg s pk) as [sg [tg|]]; cbn [alloc fst snd] in *; intros H; inversion H; subst; [|apply New, G].
    split; [exact G|]. intros F. subst. eapply G, E. reflexivity.
  - cbn. intros H. inversion H; subst. destruct Ps as [P1 P2]. split; [|lia].
    split; [split; [cbn; lia|]|split; reflexivity]. intros pk'. cbn. unfold upd. destruct (Nat.eqb pk' pk); [intros E; inversion E; lia|apply P2].
Qed.

Lemma keeps_root_child_step : forall cfg load root sbs s ctx dest j a',
  child_step cfg load root sbs s ctx dest j a' -> outside_B s -> cmap_not_root ctx -> root_kept s (fst (fst a')) /\ cmap_not_root (snd (fst a')).
Proof.
  intros cfg load root sbs s ctx dest j a' H Ps Hctx. destruct H as [t0 Hm|Hn|src s2 t0 Hm Hn Hg Ho]; cbn [fst snd].
  - split; [apply keeps_root_refl, Ps|exact Hctx].
  - split; [|exact Hctx]. apply keeps_root_inert; [repeat split; reflexivity|exact Ps].
  - destruct (target_B_not_root _ _ _ _ _ _ _ Ho Hctx Ps) as [K2 Hne]. split.
    + eapply root_kept_trans; [exact K2|]. apply (keeps_root_writes_only t0); [auto|apply writes_only_copy_B|apply K2].
    + intros pk c. unfold note. cbn [cmap]. destruct (sb_pk src) as [pk0|]; [|apply Hctx]. rewrite assoc_cons.
      destruct (Nat.eqb pk pk0); [intros E; inversion E; subst; exact Hne|apply Hctx].
Qed.

Lemma keeps_root_rel_A : forall cfg load sbs src s s7, rel_A cfg load sbs src s t = Some s7 -> keeps_root s s7.
Proof.
  intros cfg load sbs src s s7 H Ps.
  destruct (rel_A_cases _ _ _ _ _ _ _ H) as [[_ ->]|[js [s6 [ctx6 [dest [_ [_ [F ->]]]]]]]]; [apply keeps_root_refl, Ps|].
  set (s5 := if load then lazy_bs cfg s t else s) in *.
  assert (K5 : root_kept s s5).
  { unfold s5. destruct load; [|apply keeps_root_refl, Ps]. apply (lazy_bs_steps cfg keeps_root keeps_root_trans keeps_root_inert (keeps_root_load_B cfg)), Ps. }
  apply (fold_merge_B_ind _ _ _ _ (fun _ a => root_kept s (fst (fst a)) /\ cmap_not_root (snd (fst a)))) in F; cbn [fst snd] in *.
  - destruct F as [K6 _]. eapply root_kept_trans; [exact K6|]. apply keeps_root_inert; [|apply K6].
    destruct load; [apply inert_coll_set|repeat split; reflexivity].
  - split; [exact K5|discriminate].
  - intros pre j sj ctx dj a' _ [Kj Cj] Hstep.
    destruct (keeps_root_child_step _ _ _ _ _ _ _ _ _ Hstep (proj1 Kj) Cj) as [K' C']. split; [eapply root_kept_trans; eauto|exact C'].
Qed.
End Root.

(* the value a column has on the target before the source values are copied *)
Definition base_col (cfg : mconfig) (load : bool) (s : mstate) (src : srcA) (k : nat) : option (option Z) :=
  match sa_pk src with
  | Some pk =>
      match idA s pk with
      | Some e => cols s e k                                     (* the instance the session already holds *)
      | None => if load then
                  match assoc pk (rowsA cfg) with
                  | Some row => Some (match k with 0 => zpk pk | 1 => fst row | _ => snd row end)   (* loaded by Session.get *)
                  | None => None                                 (* no row: a new pending instance *)
                  end
                else None                                        (* load=False: a new empty instance *)
      end
  | None => None
  end.

Definition copied (v : sattr (option Z)) (base : option (option Z)) : option (option Z) :=
  match v with SV x => Some x | SU => base end.

Lemma cols_merge_col_same : forall load s t k v k',
  cols (merge_col load s t k v) t k' = if Nat.eqb k' k then copied v (cols s t k) else cols s t k'.
Proof.
  intros load s t k v k'. rewrite cols_merge_col. destruct v as [|x]; cbn [copied]; unfold upd2; rewrite ?Nat.eqb_refl;
    destruct (Nat.eqb_spec k' k); subst; reflexivity.
Qed.

Lemma cols_copy_A : forall load src s t k, k <= 2 -> cols (copy_A load src s t) t k = copied (src_col src k) (cols s t k).
Proof.
  intros load src s t k Hk. unfold copy_A. rewrite !cols_merge_col_same. destruct k as [|[|[|k]]]; try reflexivity. lia.
Qed.

Lemma target_A : forall cfg load s src s2 t,
  wf s -> obtain (resolve_A cfg load s (sa_pk src)) = (s2, t) ->
  outside_B t s2 /\
  (forall pk, sa_pk src = Some pk ->
     (forall e, idA s pk = Some e -> t = e) /\
     (load = false \/ idA s pk <> None \/ assoc pk (rowsA cfg) <> None -> idA s2 pk = Some t)) /\
  (forall k, k <= 2 -> cols s2 t k = base_col cfg load s src k).
Proof.
  intros cfg load s src s2 t W. unfold base_col.
  (* a new instance: its number is beyond every identity-map entry and its columns are blank *)
  assert (New : forall a, next s < next a -> idB a = idB s -> outside_B (next s) a).
  { intros a N E. split; [exact N|]. intros pk F. rewrite E in F. apply (wf_boundB s W) in F. lia. }
  assert (Blank : forall k, cols s (next s) k = None) by (intros k; apply (wf_blank s W); lia).
  unfold obtain, resolve_A. destruct (sa_pk src) as [pk|].
  2:{ cbn. intros H. inversion H; subst. split; [apply New; [cbn; lia|reflexivity]|]. split; [discriminate|intros; apply Blank]. }
  destruct (idA s pk) as [e|] eqn:Ia.
  { cbn. intros H. inversion H; subst. split; [split; [eapply wf_boundA; eauto|intros pk' F; eapply wf_sep; eauto]|].
    split; [|reflexivity]. intros pk0 E. inversion E; subst. split; [congruence|intros _; exact Ia]. }
  assert (Id : forall pk0, Some pk = Some pk0 -> forall e : nat, idA s pk0 = Some e -> next s = e) by (intros pk0 E; inversion E; congruence).
  destruct load.
  - unfold get_A. rewrite Ia. destruct (assoc pk (rowsA cfg)) as [row|] eqn:Ar; cbn; intros H; inversion H; subst.
    + split; [apply New; [cbn; lia|reflexivity]|]. split.
      * intros pk0 E. split; [apply Id, E|]. inversion E; subst. intros _. apply upd_same.
      * intros k Hk. cbn [cols set_idA set_cols]. unfold upd2. rewrite !Nat.eqb_refl. destruct k as [|[|[|k]]]; try reflexivity. lia.
    + split; [apply New; [cbn; lia|reflexivity]|]. split; [|intros; apply Blank].
      intros pk0 E. split; [apply Id, E|]. inversion E; subst. intros [F|[F|F]]; [discriminate|exfalso; auto..].
  - cbn. intros H. inversion H; subst. split; [apply New; [cbn; lia|reflexivity]|]. split; [|intros; apply Blank].
    intros pk0 E. split; [apply Id, E|]. inversion E; subst. intros _. apply upd_same.
Qed.

(* identity, and every column of the merged object: the key column takes the source key, like x and y their attributes *)
Theorem merge_identity_and_columns : forall cfg load sbs s src s' t,
  wf s -> merge_A cfg load sbs s src = Some (s', t) ->
  (forall pk, sa_pk src = Some pk ->
     (forall e, idA s pk = Some e -> t = e) /\
     (load = false \/ idA s pk <> None \/ assoc pk (rowsA cfg) <> None -> idA s' pk = Some t)) /\
  forall k, k <= 2 -> cols s' t k = copied (src_col src k) (base_col cfg load s src k).
Proof.
  intros cfg load sbs s src s' t W H.
  destruct (merge_A_stages _ _ _ _ _ _ _ H) as [_ [s2 [s7 [Ho [Hr Es']]]]].
  destruct (target_A _ _ _ _ _ _ W Ho) as [P2 [Fid Fcols]].
  (* the column properties write [t] only; the relationship and the final commit leave idA and the columns of [t] alone *)
  destruct (writes_only_copy_A load src s2 t) as [N4 [A4 [B4 _]]].
  assert (P4 : outside_B t (copy_A load src s2 t)) by (destruct P2; split; [rewrite N4|rewrite B4]; assumption).
  destruct (keeps_root_rel_A t _ _ _ _ _ _ Hr P4) as [_ [A7 C7]].
  assert (A8 : idA s' = idA s7 /\ forall k, cols s' t k = cols s7 t k) by (subst s'; destruct load; split; reflexivity).
  destruct A8 as [A8 C8]. split; [|intros k Hk; rewrite C8, C7, cols_copy_A, Fcols by exact Hk; reflexivity].
  intros pk Hpk. destruct (Fid pk Hpk) as [F1 F2]. split; [exact F1|]. intros Hc. rewrite A8, A7, A4. apply F2, Hc.
Qed.

(* DESIGN.md's merge_returns_identity_instance and merged_values_eq_loaded_source_values, for the columns x and y *)
Theorem merge_identity_and_values : forall cfg load sbs s src s' t,
  wf s -> merge_A cfg load sbs s src = Some (s', t) ->
  (forall pk, sa_pk src = Some pk ->
     (forall e, idA s pk = Some e -> t = e) /\
     (load = false \/ idA s pk <> None \/ assoc pk (rowsA cfg) <> None -> idA s' pk = Some t)) /\
  cols s' t 1 = copied (sa_x src) (base_col cfg load s src 1) /\
  cols s' t 2 = copied (sa_y src) (base_col cfg load s src 2).
Proof.
  intros cfg load sbs s src s' t W H. destruct (merge_identity_and_columns _ _ _ _ _ _ _ W H) as [I V].
  split; [exact I|]. split; [exact (V 1 (le_S _ _ (le_n 1)))|exact (V 2 (le_n 2))].
Qed.
