(* C39 - list and fold facts shared by the cascade proofs.  Every cascading operation is a [fold_left] of a primitive
   over the objects the iterator yields; the lemmas below turn what the primitive does in one step into what the
   fold does. *)
From Coq Require Import List Bool Arith.
From SAV.orm Require Import Cascade.
Import ListNotations.

Lemma mem_In : forall x l, mem x l = true <-> In x l.
Proof.
  intros x l. unfold mem. rewrite existsb_exists. split.
  - intros [y [Hy He]]. apply Nat.eqb_eq in He. subst. exact Hy.
  - intros H. exists x. split; [exact H|apply Nat.eqb_refl].
Qed.
Lemma mem_false_notIn : forall x l, mem x l = false <-> ~ In x l.
Proof. intros x l. rewrite <- mem_In. symmetry. apply not_true_iff_false. Qed.
Lemma mem_cons : forall x c l, mem x (c :: l) = Nat.eqb x c || mem x l.
Proof. reflexivity. Qed.

Lemma mem_app : forall x a b, mem x (a ++ b) = mem x a || mem x b.
Proof. intros. unfold mem. apply existsb_app. Qed.

Lemma mem_filter : forall x f l, mem x (filter f l) = mem x l && f x.
Proof.
  intros x f l. induction l as [|y l IH]; [reflexivity|]. cbn [filter]. rewrite mem_cons.
  destruct (Nat.eqb x y) eqn:E.
  - apply Nat.eqb_eq in E. subst y. destruct (f x) eqn:Fx; [rewrite mem_cons, Nat.eqb_refl; reflexivity|].
    rewrite IH, !andb_false_r. reflexivity.
  - destruct (f y); [rewrite mem_cons, E|]; exact IH.
Qed.

Lemma NoDup_app_intro : forall A (a b : list A), NoDup a -> NoDup b -> (forall x, In x a -> In x b -> False) -> NoDup (a ++ b).
Proof.
  intros A. induction a as [|x a IH]; intros b Ha Hb H; cbn [app]; [exact Hb|].
  inversion Ha; subst. constructor.
  - rewrite in_app_iff. intros [F|F]; [contradiction|]. apply (H x); [left; reflexivity|exact F].
  - apply IH; auto. intros y Hy. apply H. right. exact Hy.
Qed.
Lemma NoDup_app_snoc : forall (l : list nat) c, NoDup l -> ~ In c l -> NoDup (l ++ [c]).
Proof. intros l c Hl Hc. apply (NoDup_Add (Add_app c l [])). rewrite app_nil_r. split; assumption. Qed.

Lemma fold_left_inv : forall S B (P : S -> Prop) (f : S -> B -> S) l,
  (forall a b, In b l -> P a -> P (f a b)) -> forall a, P a -> P (fold_left f l a).
Proof.
  intros S B P f. induction l as [|b l IH]; intros H a Ha; cbn [fold_left]; [exact Ha|].
  apply IH; [intros a' b' Hb'; apply H; right; exact Hb'|]. apply H; [left; reflexivity|exact Ha].
Qed.

Lemma fold_left_proj : forall S B T (proj : S -> T) (f : S -> B -> S),
  (forall a b, proj (f a b) = proj a) -> forall l a, proj (fold_left f l a) = proj a.
Proof.
  intros S B T proj f H l a. apply (fold_left_inv S B (fun a' => proj a' = proj a)); [|reflexivity].
  intros a' b _ E. rewrite H. exact E.
Qed.

(* a per-object datum [proj] of which step [c] rewrites only the entry of [c], by [g c].  An object that occurs twice
   in the list is rewritten twice: either none does, or rewriting a second time changes nothing. *)
Lemma fold_pointwise : forall S A (proj : S -> nat -> A) (step : S -> nat -> S) (g : nat -> A -> A),
  (forall a c x, proj (step a c) x = if Nat.eqb x c then g c (proj a c) else proj a x) ->
  forall l, NoDup l \/ (forall c v, g c (g c v) = g c v) ->
  forall a x, proj (fold_left step l a) x = if mem x l then g x (proj a x) else proj a x.
Proof.
  intros S A proj step g Hstep. induction l as [|c l IH]; intros Hl a x; cbn [fold_left]; [reflexivity|].
  rewrite IH, Hstep, mem_cons by (destruct Hl as [Hl|Hl]; [left; inversion Hl; assumption|right; exact Hl]).
  destruct (Nat.eqb x c) eqn:E; cbn [orb]; [|reflexivity].
  apply Nat.eqb_eq in E. subst c. destruct (mem x l) eqn:M; [|reflexivity].
  destruct Hl as [Hl|Hl]; [|apply Hl]. inversion Hl; subst. apply mem_In in M. contradiction.
Qed.
