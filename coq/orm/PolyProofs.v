(* C42: a polymorphic query over the tables written by [store] returns the stored objects of the queried subtree, each as
   its own class and with its stored attribute values; the loading options only change when an attribute is loaded *)
From Coq Require Import List ZArith Bool Arith Lia Permutation Sorted.
Import ListNotations.
From SAV.orm Require Import Poly PolyTree PolyStore.

Lemma classify_spec : forall h C rows,
  match classify h C rows with
  | Ok rks => map fst rks = rows /\ forall r K, In (r, K) rks -> classify1 h C r = Ok K
  | Raise e => exists r, In r rows /\ classify1 h C r = Raise e
  end.
Proof.
  intros h C rows. induction rows as [|r rows IH]; cbn [classify].
  - split; [reflexivity | intros ? ? []].
  - destruct (classify1 h C r) as [K|e] eqn:E1; [|exists r; split; [left; reflexivity | exact E1]].
    destruct (classify h C rows) as [l|e].
    + destruct IH as [Hm Hall]. split; [cbn [map fst]; rewrite Hm; reflexivity|].
      intros r' K' [Hin|Hin]; [inversion Hin; subst; exact E1 | apply Hall; exact Hin].
    + destruct IH as [r' [Hin Hr']]. exists r'. split; [right; exact Hin | exact Hr'].
Qed.

Lemma zip_objs_pk : forall h d C W ld rks fs,
  map o_pk (zip_objs h d C W ld rks fs) = map (fun rk => rpk (fst rk)) rks.
Proof.
  intros h d C W ld rks. induction rks as [|[r K] rks IH]; intros fs; [destruct fs; reflexivity|].
  destruct fs as [|f fs]; cbn [zip_objs map]; rewrite IH; reflexivity.
Qed.

Lemma zip_objs_in : forall h d C W ld rks fs o, In o (zip_objs h d C W ld rks fs) ->
  exists rk f, In rk rks /\ o = mk_obj h d C W ld rk f.
Proof.
  intros h d C W ld rks. induction rks as [|rk rks IH]; intros fs o H; [destruct fs; destruct H|].
  assert (Hc : forall f fs', mk_obj h d C W ld rk f = o \/ In o (zip_objs h d C W ld rks fs') ->
               exists rk' f', In rk' (rk :: rks) /\ o = mk_obj h d C W ld rk' f').
  { intros f fs' [Ho|Hin]; [exists rk, f; split; [left; reflexivity | symmetry; exact Ho]|].
    destruct (IH _ _ Hin) as (rk' & f' & Hin' & Ho). exists rk', f'. split; [right; exact Hin' | exact Ho]. }
  destruct fs as [|f fs]; [apply (Hc false []) | apply (Hc f fs)]; exact H.
Qed.

Lemma select_rows_in : forall h d C W r, In r (select_rows h d C W) ->
  In r (tbl d 0) /\ row_ok h d C W r = true.
Proof.
  intros h d C W r H. unfold select_rows in H. apply filter_In in H. destruct H as [H1 H2].
  split; [|exact H2]. exact (Permutation_in _ (sort_rows_perm _) H1).
Qed.

(* every object of a result is built from a selected row and the class its discriminator dispatches to;
   the IN loaders are those registered by the plan over some sequence of classes *)
Lemma exec_obj_inv : forall h d C o res x, exec h d C o = Ok res -> In x res ->
  exists r K f ks, In r (select_rows h d C (wp_mappers h C (o_wp o))) /\ classify1 h C r = Ok K /\
    x = mk_obj h d C (wp_mappers h C (o_wp o)) (snd (plan h C (o_sel o) ([], []) ks)) (r, K) f.
Proof.
  intros h d C o res x H Hx. unfold exec in H.
  pose proof (classify_spec h C (select_rows h d C (wp_mappers h C (o_wp o)))) as Hs.
  destruct (classify h C (select_rows h d C (wp_mappers h C (o_wp o)))) as [rks|e]; [|discriminate].
  destruct Hs as [Hm Hall]. destruct (plan h C (o_sel o) ([], []) (map snd rks)) as [fs ld] eqn:Ep.
  inversion H; subst res. destruct (zip_objs_in _ _ _ _ _ _ _ _ Hx) as ([r K] & f & Hin & Ho).
  exists r, K, f, (map snd rks). rewrite Ep. split; [|split; [exact (Hall r K Hin) | exact Ho]].
  rewrite <- Hm. exact (in_map fst _ _ Hin).
Qed.

Lemma classify1_ok_inv : forall h C r K, classify1 h C r = Ok K ->
  exists dv, rdisc r = Some dv /\ pmap h dv = Some K /\ (K = C \/ isa h K C = true).
Proof.
  intros h C r K H. unfold classify1 in H.
  destruct (rdisc r) as [dv|]; [|discriminate].
  destruct (pmap h dv) as [K'|] eqn:Ep; [|discriminate].
  exists dv. destruct (Nat.eqb K' C) eqn:E.
  - inversion H; subst. apply Nat.eqb_eq in E. repeat split; auto.
  - destruct (isa h K' C) eqn:Ei; [|discriminate]. inversion H; subst. repeat split; auto.
Qed.

Lemma most_specific_any_db : forall h d C o res, exec h d C o = Ok res ->
  forall x, In x res ->
  exists r dv, In r (tbl d 0) /\ rpk r = o_pk x /\ rdisc r = Some dv /\ pmap h dv = Some (o_cls x) /\
               (o_cls x = C \/ isa h (o_cls x) C = true).
Proof.
  intros h d C o res H x Hx. destruct (exec_obj_inv _ _ _ _ _ _ H Hx) as (r & K & f & ks & Hr & H1 & Ho).
  destruct (classify1_ok_inv _ _ _ _ H1) as (dv & Hd & Hp & Hi). apply select_rows_in in Hr.
  exists r, dv. subst x. cbn [mk_obj o_pk o_cls]. repeat split; try assumption. apply Hr.
Qed.

Section Stored.
Variable h : hier.
Hypothesis Hwf : wf_hier h.
Variable objs : list sobj.
Hypothesis Hobjs : wf_objs h objs.
Variable C : nat.
Hypothesis HC : C < length h.
Variable spec : wpspec.

Let W := wp_mappers h C spec.
Let d := store h objs.

Lemma W_spec : forall m, In m W -> m < length h /\ isa h m C = true.
Proof.
  intros m Hm. unfold W, wp_mappers in Hm. destruct spec as [| |l].
  - destruct Hm.
  - apply in_desc in Hm. exact Hm.
  - apply filter_In in Hm. destruct Hm as [Hm _]. apply in_desc in Hm. exact Hm.
Qed.

(* the with_polymorphic set is closed upwards inside the queried subtree (iterate_to_root) *)
Lemma W_up : forall m t, In m W -> isa h m t = true -> isa h t C = true -> In t W.
Proof.
  intros m t Hm Hmt HtC. pose proof (W_spec m Hm) as [Hl _].
  assert (Htl : t < length h) by (pose proof (isa_le h Hwf _ _ Hmt); lia).
  unfold W, wp_mappers in *. destruct spec as [| |l].
  - destruct Hm.
  - apply in_desc. split; assumption.
  - apply filter_In in Hm. destruct Hm as [_ Hx]. apply filter_In. split.
    + apply in_desc. split; assumption.
    + apply existsb_exists in Hx. destruct Hx as [x [Hx Hxm]]. apply existsb_exists. exists x. split; [exact Hx|].
      apply isa_trans with m; assumption.
Qed.

Lemma in_inner : forall t, isa h C t = true -> joined h t = true -> memn t (inner_tabs h C) = true.
Proof.
  intros t Ht Hj. apply memn_In. unfold inner_tabs.
  rewrite <- (owner_joined_id h Hwf t Hj). apply in_map. apply in_path_isa; assumption.
Qed.

Lemma inner_isa : forall t, memn t (inner_tabs h C) = true -> isa h C t = true /\ joined h t = true.
Proof.
  intros t Ht. apply memn_In in Ht. unfold inner_tabs in Ht. apply in_map_iff in Ht.
  destruct Ht as [k [Hk Hin]]. subst t. apply in_path_isa in Hin. split.
  - apply isa_to_owner; assumption.
  - apply owner_is_joined; exact Hwf.
Qed.

(* a joined-table ancestor of the queried class or of a with_polymorphic mapper is in the FROM clause: below the
   queried class it is itself a with_polymorphic mapper, above it it is on the path from the root *)
Lemma from_covers : forall m t, m = C \/ In m W -> isa h m t = true -> joined h t = true -> in_from h C W t = true.
Proof.
  intros m t Hm Hmt Hj. unfold in_from. apply orb_true_iff.
  destruct Hm as [Hm|Hm]; [subst m; left; apply in_inner; assumption|].
  destruct (W_spec m Hm) as [_ HmC].
  destruct (isa_chain h Hwf m t C Hmt HmC) as [H1|H1].
  - right. apply andb_true_iff. split; [|exact Hj]. apply memn_In. exact (W_up m t Hm Hmt H1).
  - left. apply in_inner; assumption.
Qed.

(* the FROM clause contains, with a table, every table its ON clauses lead to *)
Lemma in_from_up : forall t t', in_from h C W t = true -> isa h t t' = true -> joined h t' = true ->
  in_from h C W t' = true.
Proof.
  intros t t' Hf Htt Hj. unfold in_from in Hf. apply orb_true_iff in Hf. destruct Hf as [Hf|Hf].
  - apply inner_isa in Hf. apply (from_covers C); [left; reflexivity | | exact Hj].
    apply isa_trans with t; [exact Hwf | apply Hf | exact Htt].
  - apply andb_true_iff in Hf. apply (from_covers t); [right; apply memn_In, Hf | exact Htt | exact Hj].
Qed.

Lemma selected_in_from : forall a, selected h C W a = true -> in_from h C W (owner h a) = true.
Proof.
  intros a Hsel. unfold selected in Hsel. apply orb_true_iff in Hsel.
  assert (Hm : exists m, (m = C \/ In m W) /\ isa h m a = true).
  { destruct Hsel as [Hsel|Hsel]; [exists C; auto|].
    apply existsb_exists in Hsel. destruct Hsel as [m [Hm Hma]]. exists m; auto. }
  destruct Hm as [m [Hm Hma]]. apply (from_covers m); [exact Hm | | apply owner_is_joined; exact Hwf].
  apply isa_to_owner; assumption.
Qed.

Section OneObject.
Variable s : sobj.
Hypothesis Hs : In s objs.
Let K := s_cls s.
Let HK : K < length h. Proof. apply Hobjs. exact Hs. Qed.

Lemma present_store : forall n t, t < n -> isa h K t = true -> joined h t = true ->
  in_from h C W t = true -> present h d (in_from h C W) (s_pk s) n t = true.
Proof.
  induction n as [|n IH]; intros t Hn Hi Hj Hf; [lia|].
  cbn [present]. rewrite Hf. unfold d. rewrite (has_row_store h objs Hobjs t s Hs).
  fold K. rewrite Hj, Hi.
  assert (Hl : Nat.ltb t (length h) = true).
  { apply Nat.ltb_lt. pose proof (isa_le h Hwf _ _ Hi). lia. }
  rewrite Hl. cbn [andb].
  destruct (parent h t) as [p|] eqn:Ep; [|reflexivity].
  assert (Hpt : p < t) by exact (wf_parent_lt h Hwf _ _ Ep).
  assert (Htp : isa h t (owner h p) = true).
  { apply isa_to_owner, isa_parent; assumption. }
  apply IH.
  - pose proof (isa_le h Hwf _ _ (isa_owner h Hwf p)). lia.
  - apply isa_trans with t; assumption.
  - apply owner_is_joined; exact Hwf.
  - apply in_from_up with t; [exact Hf | exact Htp | apply owner_is_joined; exact Hwf].
Qed.

Lemma present_isa : forall n t, present h d (in_from h C W) (s_pk s) n t = true -> isa h K t = true.
Proof.
  intros n t H. destruct n as [|n]; [discriminate|]. cbn [present] in H.
  apply andb_true_iff in H. destruct H as [H _]. apply andb_true_iff in H. destruct H as [_ H].
  unfold d in H. rewrite (has_row_store h objs Hobjs t s Hs) in H.
  apply andb_true_iff in H. destruct H as [_ H]. exact H.
Qed.

Lemma row_ok_store : row_ok h d C W (mkrow h 0 s) = isa h K C.
Proof.
  unfold row_ok. cbn [mkrow rpk rdisc Nat.eqb]. fold K.
  destruct (ident_some h K HK) as [x Hx]. rewrite Hx.
  destruct (isa h K C) eqn:Ei.
  - apply andb_true_iff. split.
    + apply forallb_forall. intros t Ht. apply memn_In in Ht. pose proof Ht as Ht'.
      apply inner_isa in Ht. destruct Ht as [Hct Hj]. unfold present_t. apply present_store.
      * lia.
      * apply isa_trans with C; assumption.
      * exact Hj.
      * unfold in_from. rewrite Ht'. reflexivity.
    + unfold crit_ok. destruct (negb (joined h C) && match parent h C with Some _ => true | None => false end); [|reflexivity].
      apply existsb_exists. exists K. split; [apply in_desc; split; assumption|].
      apply ident_is_iff. exact Hx.
  - apply andb_false_iff. destruct (joined h C) eqn:Ej.
    + left. apply not_true_is_false. intros Hall. rewrite forallb_forall in Hall.
      assert (Hin : In C (inner_tabs h C)).
      { apply memn_In. apply in_inner; [apply isa_refl; exact Hwf | exact Ej]. }
      specialize (Hall C Hin). unfold present_t in Hall. apply present_isa in Hall. congruence.
    + right. unfold crit_ok. rewrite Ej. cbn [negb andb].
      assert (Hp : exists p, parent h C = Some p).
      { apply (wf_has_parent h Hwf); [|exact HC]. pose proof (wf_root_joined h Hwf). destruct C; [congruence | lia]. }
      destruct Hp as [p Hp]. rewrite Hp.
      apply not_true_is_false. intros He. apply existsb_exists in He. destruct He as [m [Hm Hid]].
      apply in_desc in Hm. destruct Hm as [Hml HmC].
      apply ident_is_iff in Hid.
      pose proof (wf_ident_inj h Hwf m K x Hid Hx). subst m. congruence.
Qed.

Lemma classify1_store : isa h K C = true -> classify1 h C (mkrow h 0 s) = Ok K.
Proof.
  intros Hi. unfold classify1. cbn [mkrow rdisc Nat.eqb]. fold K.
  destruct (ident_some h K HK) as [x Hx]. rewrite Hx. rewrite (pmap_ident h Hwf K x HK Hx).
  rewrite Hi. destruct (Nat.eqb K C); reflexivity.
Qed.

Lemma attr_value_store : forall a, isa h K a = true -> attr_value h d C W (s_pk s) a = s_val s a.
Proof.
  intros a Ha. unfold attr_value.
  assert (Hg : db_get d (owner h a) (s_pk s) a = s_val s a).
  { unfold d. apply db_get_store; assumption. }
  destruct (selected h C W a) eqn:Es; [|exact Hg].
  assert (Hp : present_t h d C W (s_pk s) (owner h a) = true).
  { unfold present_t. apply present_store.
    - lia.
    - apply isa_to_owner; assumption.
    - apply owner_is_joined; exact Hwf.
    - apply selected_in_from. exact Es. }
  rewrite Hp. exact Hg.
Qed.

End OneObject.

Lemma select_rows_store :
  select_rows h d C W = filter (row_ok h d C W) (sort_rows (map (mkrow h 0) objs)).
Proof. unfold select_rows, d. rewrite (tbl0_store h Hwf objs Hobjs). reflexivity. Qed.

Lemma selected_row_is_object : forall r, In r (select_rows h d C W) ->
  exists s, In s objs /\ r = mkrow h 0 s /\ isa h (s_cls s) C = true.
Proof.
  intros r Hr. rewrite select_rows_store in Hr. apply filter_In in Hr. destruct Hr as [Hin Hok].
  apply (Permutation_in _ (sort_rows_perm _)) in Hin. apply in_map_iff in Hin.
  destruct Hin as [s [Hs Hin]]. exists s. split; [exact Hin|]. split; [symmetry; exact Hs|].
  subst r. rewrite (row_ok_store s Hin) in Hok. exact Hok.
Qed.

Lemma select_rows_pks :
  Permutation (map rpk (select_rows h d C W)) (map s_pk (filter (fun s => isa h (s_cls s) C) objs)).
Proof.
  rewrite select_rows_store.
  eapply Permutation_trans.
  { apply Permutation_map. apply Permutation_filter'. apply sort_rows_perm. }
  rewrite filter_map_swap, map_map. cbn [mkrow rpk].
  rewrite (filter_ext_in (fun x => row_ok h d C W (mkrow h 0 x)) (fun s => isa h (s_cls s) C)).
  - apply Permutation_refl.
  - intros s Hs. apply row_ok_store. exact Hs.
Qed.

End Stored.

Theorem rows_exactly_subtree : forall h objs C o,
  wf_hier h -> wf_objs h objs -> C < length h ->
  exists res, exec h (store h objs) C o = Ok res /\
    Permutation (map o_pk res) (map s_pk (filter (fun s => isa h (s_cls s) C) objs)) /\
    StronglySorted Z.le (map o_pk res).
Proof.
  intros h objs C o Hwf Hobjs HC.
  set (W := wp_mappers h C (o_wp o)).
  pose proof (classify_spec h C (select_rows h (store h objs) C W)) as Hs. unfold exec. fold W.
  destruct (classify h C (select_rows h (store h objs) C W)) as [rks|e].
  2:{ (* no row raises: each is the row of a stored object of the subtree *)
      destruct Hs as [r [Hr He]].
      destruct (selected_row_is_object h Hwf objs Hobjs C HC (o_wp o) r Hr) as (s & Hs & Hrs & Hi). subst r.
      rewrite (classify1_store h Hwf objs Hobjs C s Hs Hi) in He. discriminate. }
  destruct Hs as [Hm _]. destruct (plan h C (o_sel o) ([], []) (map snd rks)) as [fs ld].
  eexists. split; [reflexivity|].
  rewrite zip_objs_pk. rewrite <- (map_map fst rpk), Hm. split.
  - apply select_rows_pks; assumption.
  - unfold select_rows. apply sorted_map_pk. apply filter_sorted. apply sort_rows_sorted.
Qed.

Theorem most_specific_class_stored : forall h objs C o res,
  wf_hier h -> wf_objs h objs -> C < length h ->
  exec h (store h objs) C o = Ok res ->
  forall x, In x res -> exists s, In s objs /\ s_pk s = o_pk x /\ o_cls x = s_cls s /\
    ident h (o_cls x) = ident h (s_cls s) /\
    o_vals x = map (fun a => (a, s_val s a)) (path h (s_cls s)).
Proof.
  intros h objs C o res Hwf Hobjs HC H x Hx.
  destruct (exec_obj_inv _ _ _ _ _ _ H Hx) as (r & K & f & ks & Hr & H1 & Ho).
  destruct (selected_row_is_object h Hwf objs Hobjs C HC (o_wp o) r Hr) as (s & Hs & Hrs & Hi).
  subst r. rewrite (classify1_store h Hwf objs Hobjs C s Hs Hi) in H1. inversion H1; subst K.
  exists s. subst x. cbn [mk_obj o_pk o_cls o_vals mkrow rpk]. repeat split; try reflexivity; try assumption.
  apply map_ext_in. intros a Ha. f_equal.
  apply in_path_isa in Ha.
  exact (attr_value_store h Hwf objs Hobjs C HC (o_wp o) s Hs a Ha).
Qed.

Theorem wp_star_loads_everything : forall h d C sel res,
  wf_hier h -> C < length h ->
  exec h d C {| o_wp := WpStar; o_sel := sel |} = Ok res ->
  forall x, In x res -> o_loaded x = path h (o_cls x).
Proof.
  intros h d C sel res Hwf HC H x Hx.
  destruct (exec_obj_inv _ _ _ _ _ _ H Hx) as (r & K & f & ks & _ & H1 & Ho). subst x.
  destruct (classify1_ok_inv _ _ _ _ H1) as (dv & _ & Hp & Hi).
  cbn [mk_obj o_loaded o_cls]. apply filter_all. intros a Ha.
  apply in_path_isa in Ha. apply orb_true_iff. left.
  unfold selected. apply orb_true_iff. right. apply existsb_exists. exists K. split; [|exact Ha].
  cbn [o_wp wp_mappers]. apply in_desc. apply pmap_some in Hp. destruct Hp as [Hl _]. split; [exact Hl|].
  destruct Hi as [Hi|Hi]; [subst; apply isa_refl; exact Hwf | exact Hi].
Qed.

Lemma plan_step_no_selectin : forall h C st K, snd st = [] -> snd (fst (plan_step h C [] st K)) = [].
Proof.
  intros h C [procs l] K Hst. cbn [snd] in Hst. subst l. unfold plan_step.
  destruct (Nat.eqb K C); [reflexivity|]. destruct (assoc_b procs K); [reflexivity|].
  unfold via. cbn [memn existsb]. destruct (parent h K); reflexivity.
Qed.

Lemma plan_no_selectin : forall h C ks st, snd st = [] -> snd (plan h C [] st ks) = [].
Proof.
  intros h C. induction ks as [|k ks IH]; intros st Hst; [exact Hst|]. cbn [plan].
  specialize (IH _ (plan_step_no_selectin h C st k Hst)).
  destruct (plan_step h C [] st k) as [st' f]. cbn [fst] in IH. destruct (plan h C [] st' ks). exact IH.
Qed.

Theorem plain_query_loads_base_attributes : forall h d C res,
  exec h d C {| o_wp := WpNone; o_sel := [] |} = Ok res ->
  forall x, In x res -> o_loaded x = filter (fun a => isa h C a) (path h (o_cls x)).
Proof.
  intros h d C res H x Hx. destruct (exec_obj_inv _ _ _ _ _ _ H Hx) as (r & K & f & ks & _ & _ & Ho). subst x.
  cbn [o_sel o_wp wp_mappers]. rewrite (plan_no_selectin h C ks ([], []) eq_refl).
  cbn [mk_obj o_loaded o_cls]. apply filter_ext_in. intros a _.
  unfold selected. cbn [existsb memn]. rewrite andb_false_r, !orb_false_r. reflexivity.
Qed.

Theorem raises_only_on_bad_discriminator : forall h d C o e, exec h d C o = Raise e ->
  exists r, In r (tbl d 0) /\ classify1 h C r = Raise e.
Proof.
  intros h d C o e H. unfold exec in H.
  pose proof (classify_spec h C (select_rows h d C (wp_mappers h C (o_wp o)))) as Hs.
  destruct (classify h C (select_rows h d C (wp_mappers h C (o_wp o)))) as [rks|e'].
  - destruct (plan h C (o_sel o) ([], []) (map snd rks)). discriminate.
  - inversion H; subst e'. destruct Hs as [r [Hr He]]. exists r. split; [|exact He].
    apply select_rows_in in Hr. apply Hr.
Qed.
