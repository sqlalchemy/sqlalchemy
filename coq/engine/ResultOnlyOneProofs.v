(* C10 - _only_one_row (first / one / one_or_none / scalar / scalar_one / scalar_one_or_none) against the
   list model, inside the guarded region (empty seen-set, strategy not yet soft-closed) *)
From Coq Require Import List ZArith Bool Arith Lia.
Import ListNotations.
From SAV.engine Require Import ResultModel ResultSpec ResultFetchProofs ResultViewProofs.

Lemma zs_eqb_sym : forall a b, zs_eqb a b = zs_eqb b a.
Proof. induction a; destruct b; cbn; auto. rewrite Z.eqb_sym, IHa. reflexivity. Qed.
Lemma val_eqb_sym a b : val_eqb a b = val_eqb b a.
Proof. destruct a, b; cbn; auto using Z.eqb_sym, zs_eqb_sym. Qed.
Lemma row_eqb_sym : forall a b, row_eqb a b = row_eqb b a.
Proof. induction a; destruct b; cbn; auto. rewrite val_eqb_sym, IHa. reflexivity. Qed.

Lemma second_loop_ok c st first : forall rm fuel f d s r,
  remaining f = rm -> hardc f = false -> softc f = false -> length rm < fuel ->
  take (Some st) c rm 1 [key_of st first] = (d, s, r) ->
  exists f', second_loop fuel c st first f = (f', Ok (hd_error d)) /\
             match d with
             | [] => remaining f' = [] /\ fwf f' /\ hardc f' = true
             | _ => hardc f' = false
             end.
Proof.
  induction rm as [|raw t IH]; intros fuel f d s r Hr Hc Hs Hf Ht.
  - destruct fuel; [cbn in Hf; lia|]. cbn in Ht. inversion Ht; subst.
    pose proof (fetchone_open true f Hc) as H. rewrite Hr in H. destruct H as [f' [E [R1 [W Hh]]]].
    exists f'. cbn [second_loop]. rewrite E. rewrite Hs in Hh. cbn in Hh. cbn [hd_error]. auto.
  - destruct fuel; [cbn in Hf; lia|].
    pose proof (fetchone_open true f Hc) as H. rewrite Hr in H. destruct H as [f' [E [R1 [Hc' Hs']]]].
    cbn [second_loop]. rewrite E. cbn [take mem existsb] in Ht.
    rewrite orb_false_r in Ht. rewrite (row_eqb_sym (key_of st (project c raw))) in Ht.
    destruct (row_eqb (key_of st first) (key_of st (project c raw))) eqn:M.
    + apply (IH fuel f' d s r R1 Hc' Hs'); [cbn in Hf; lia|exact Ht].
    + rewrite take_zero in Ht. inversion Ht; subst. exists f'. cbn [hd_error]. auto.
Qed.

(* what the list model reports: decided by the first two rows [d] the view would deliver *)
Definition only_one_out (pst : row -> item) (second none scalar : bool) (d : list row) : outcome :=
  match d with
  | [] => if none then OErr NoResultFound else ONoRow
  | p :: more =>
      match more, second with
      | _ :: _, true => OErr MultipleResultsFound
      | _, _ => OItem (if scalar then IScalar (first_col p) else pst p)
      end
  end.

Lemma only_one_ok v second none scalar f h :
  hardc f = false -> softc f = false -> seen_empty h v = true -> eff_u v = ufs v ->
  exists f' r, only_one_row v second none scalar f = (f', r) /\
    out_of (fun x => match x with Some it => OItem it | None => ONoRow end) r =
      only_one_out (post (kind v) (cols v)) second none scalar
        (fst (fst (adeliver (ufs v) (cols v) 2 (remaining f) h))) /\
    remaining f' = [] /\ fwf f' /\ hardc f' = true.
Proof.
  intros Hc Hs Hse Heff. unfold only_one_row.
  assert (Closes : forall f0, hardc f0 = false ->
            remaining (soft_close true f0) = [] /\ fwf (soft_close true f0) /\ hardc (soft_close true f0) = true)
    by (intros f0 H0; apply soft_close_spec, fwf_open, H0).
  pose proof (fetchone_open true f Hc) as H. destruct (remaining f) as [|raw t] eqn:Hr.
  - destruct H as [f' [E [R1 [W Hh]]]]. rewrite E. rewrite Hs in Hh. cbn in Hh.
    eexists _, _. split; [reflexivity|]. split; [|auto]. rewrite adeliver_nil. destruct none; reflexivity.
  - destruct H as [f1 [E [R1 [Hc1 Hs1]]]]. rewrite E. destruct second.
    + (* raise_for_second_row *)
      rewrite Heff. unfold adeliver, seen_empty in *. destruct (ufs v) as [u|].
      * destruct (hget h (fst u)) eqn:G; [|discriminate].
        cbn [take mem existsb].
        destruct (take (Some (snd u)) (cols v) t 1 [key_of (snd u) (project (cols v) raw)]) as [[d2 s2] r2] eqn:T.
        destruct (second_loop_ok (cols v) (snd u) (project (cols v) raw) t (S (length (remaining f1))) f1 d2 s2 r2 R1 Hc1 Hs1)
          as [f2 [E2 H2]]; [rewrite R1; lia|exact T|].
        rewrite E2. destruct d2 as [|x d2t]; eexists _, _; (split; [reflexivity|]); (split; [reflexivity|auto]).
      * rewrite take_None.
        pose proof (fetchone_open true f1 Hc1) as H'. rewrite R1 in H'. destruct t as [|raw2 t'].
        -- destruct H' as [f2 [E2 [R2 [W2 Hh2]]]]. rewrite E2. rewrite Hs1 in Hh2. cbn in Hh2.
           eexists _, _. split; [reflexivity|]. split; [reflexivity|auto].
        -- destruct H' as [f2 [E2 [R2 [Hc2 Hs2]]]]. rewrite E2.
           eexists _, _. split; [reflexivity|]. split; [reflexivity|auto].
    + (* no second-row check: close right away *)
      eexists _, _. split; [reflexivity|]. split; [|auto].
      unfold adeliver, seen_empty in *. destruct (ufs v) as [u|].
      * destruct (hget h (fst u)) eqn:G; [|discriminate]. cbn [take mem existsb].
        destruct (take (Some (snd u)) (cols v) t 1 [key_of (snd u) (project (cols v) raw)]) as [[d2 s2] r2].
        destruct d2; reflexivity.
      * rewrite take_None. destruct t; reflexivity.
Qed.

Lemma only_one_closed v second none scalar f : fwf f -> hardc f = true ->
  only_one_row v second none scalar f = (f, Raise ResourceClosed).
Proof. intros W Hc. unfold only_one_row. rewrite (fetchone_closed true f W Hc). reflexivity. Qed.
