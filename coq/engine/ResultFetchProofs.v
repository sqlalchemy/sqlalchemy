(* C10 - the fetch layer (three cursor strategies, _NO_CURSOR_DQL, IteratorResult) refines a plain list
   of remaining rows: [remaining f] *)
From Coq Require Import List ZArith Bool Arith Lia.
Import ListNotations.
From SAV.engine Require Import ResultModel.

(* a hard-closed result holds no rows *)
Definition fwf (f : fstate) : Prop := hardc f = true -> src f = SNone \/ src f = SIter [].

Lemma firstn_nil_inv {A} (n : nat) (l : list A) : 1 <= n -> firstn n l = [] -> l = [].
Proof. intros Hn H. destruct l; [reflexivity|]. destruct n; [lia|]. discriminate. Qed.

Lemma min_length {A} (n : nat) (l : list A) :
  firstn (Nat.min n (length l)) l = firstn n l /\ skipn (Nat.min n (length l)) l = skipn n l.
Proof.
  destruct (Nat.le_ge_cases n (length l)); [rewrite Nat.min_l by lia; auto|].
  rewrite Nat.min_r, firstn_all, skipn_all, firstn_all2, skipn_all2 by lia. auto.
Qed.

Lemma remaining_set_src f s : remaining (set_src f s) = remaining_src s.
Proof. reflexivity. Qed.
Lemma hardc_set_src f s : hardc (set_src f s) = hardc f.
Proof. reflexivity. Qed.

Lemma fwf_open f : hardc f = false -> fwf f.
Proof. unfold fwf. intros ->. discriminate. Qed.

Lemma soft_close_spec hard f : fwf f ->
  remaining (soft_close hard f) = [] /\ fwf (soft_close hard f) /\ hardc (soft_close hard f) = hard || hardc f.
Proof.
  intros W. unfold soft_close, fwf, remaining, softc in *.
  destruct (src f) eqn:E, hard, (hardc f) eqn:Hc; cbn; rewrite ?E, ?Hc; auto.
  (* hard closed with a live strategy *)
  all: destruct (W eq_refl); discriminate.
Qed.
Lemma soft_close_open hard f : hardc f = false ->
  remaining (soft_close hard f) = [] /\ fwf (soft_close hard f) /\ hardc (soft_close hard f) = hard.
Proof.
  intros Hc. destruct (soft_close_spec hard f (fwf_open f Hc)) as (A & B & C).
  rewrite Hc, orb_false_r in C. auto.
Qed.

Lemma fetchone_closed hard f : fwf f -> hardc f = true -> fetchone_impl hard f = (f, Raise ResourceClosed).
Proof.
  intros W Hc. unfold fetchone_impl. destruct (W Hc) as [E|E]; rewrite E; rewrite Hc; reflexivity.
Qed.
Lemma fetchmany_closed n f : fwf f -> hardc f = true -> fetchmany_impl n f = (f, Raise ResourceClosed).
Proof.
  intros W Hc. unfold fetchmany_impl. destruct (W Hc) as [E|E]; rewrite E; rewrite Hc; reflexivity.
Qed.
Lemma fetchall_closed f : fwf f -> hardc f = true -> fetchall_impl f = (f, Raise ResourceClosed).
Proof.
  intros W Hc. unfold fetchall_impl. destruct (W Hc) as [E|E]; rewrite E; rewrite Hc; reflexivity.
Qed.

Lemma buffer_rows_spec c bs g m :
  let '(b1, c1, _) := buffer_rows c bs g m in b1 ++ c1 = c /\ (b1 = [] -> c = []).
Proof.
  unfold buffer_rows. destruct (bs <? 1) eqn:E.
  - destruct c; cbn; split; auto; try (rewrite app_nil_r; reflexivity); intros; discriminate.
  - apply Nat.ltb_ge in E. unfold cur_fetchmany.
    destruct (firstn bs c) as [|r l] eqn:F.
    + pose proof (firstn_nil_inv _ _ E F) as Hc. subst c. rewrite skipn_nil. split; auto.
    + rewrite <- F. rewrite firstn_skipn. split; auto. rewrite F. intros; discriminate.
Qed.

(* CursorFetchStrategy and FullyBufferedCursorFetchStrategy soft-close when a fetchmany comes back empty *)
Lemma close_when_empty n (c : list row) f : 1 <= n -> hardc f = false -> remaining f = skipn n c ->
  let f' := match firstn n c with [] => soft_close false f | _ => f end in
  remaining f' = skipn n c /\ hardc f' = false.
Proof.
  intros Hn Hc Hr. destruct (firstn n c) eqn:F; [|auto].
  rewrite (firstn_nil_inv n c Hn F), skipn_nil. destruct (soft_close_open false f Hc) as (A & _ & B). auto.
Qed.

(* In the three lemmas below the state is an open record [{| src := s; hardc := false |}], so every
   branch of the strategy computes; what is left is list arithmetic and the closing of an exhausted one. *)
Lemma fetchone_open hard f : hardc f = false ->
  match remaining f with
  | [] => exists f', fetchone_impl hard f = (f', Ok None) /\ remaining f' = [] /\ fwf f' /\
                     hardc f' = (hard && negb (softc f))
  | r :: t => exists f', fetchone_impl hard f = (f', Ok (Some r)) /\ remaining f' = t /\
                         hardc f' = false /\ softc f' = false
  end.
Proof.
  destruct f as [s hc]. cbn [hardc]. intros ->.
  unfold fetchone_impl, remaining, softc. cbn [src hardc].
  destruct s as [[|r t]|[|r b] c bs g m|[|r b]| |[|r t]]; cbn [remaining_src app negb andb];
    rewrite ?andb_true_r, ?andb_false_r;
    try (eexists; (split; [reflexivity|]); first [apply soft_close_open; reflexivity | cbn; auto using fwf_open]; fail).
  (* an empty _rowbuffer is refilled first *)
  pose proof (buffer_rows_spec c bs g m) as HB.
  destruct (buffer_rows c bs g m) as [[[|r b1] c1] bs1], HB as [HB1 HB2].
  - rewrite (HB2 eq_refl). eexists; split; [reflexivity|]. apply soft_close_open; reflexivity.
  - rewrite <- HB1. eexists; split; [reflexivity|]. cbn; auto.
Qed.

Lemma fetchmany_open n f : hardc f = false -> 1 <= n ->
  exists f', fetchmany_impl (Some n) f = (f', Ok (firstn n (remaining f))) /\
             remaining f' = skipn n (remaining f) /\ hardc f' = false.
Proof.
  destruct f as [s hc]. cbn [hardc]. intros -> Hn.
  unfold fetchmany_impl, remaining, cur_fetchmany. cbn [src hardc].
  destruct s as [c|b c bs g m|b| |l]; cbn [remaining_src].
  - eexists; split; [reflexivity|]. apply close_when_empty; auto.
  - (* buffered: the rows come from _rowbuffer, topped up from the cursor when it is too short *)
    rewrite (firstn_app n b c), (skipn_app n b c).
    destruct (length b <? n) eqn:L; [apply Nat.ltb_lt in L|apply Nat.ltb_ge in L].
    + rewrite (firstn_all2 b), (skipn_all2 b) by lia. cbn [app].
      destruct (firstn (n - length b) c) eqn:F.
      * rewrite (firstn_nil_inv (n - length b) c) by (exact F || lia).
        rewrite Nat.min_r, firstn_all, skipn_all, skipn_nil, app_nil_r by lia.
        eexists; split; [reflexivity|]. split; apply soft_close_open; reflexivity.
      * rewrite <- F. rewrite Nat.min_r, firstn_all, skipn_all by (rewrite app_length, firstn_length; lia).
        eexists; split; [reflexivity|]. cbn; auto.
    + rewrite Nat.min_l by exact L. replace (n - length b) with 0 by lia. cbn [firstn skipn]. rewrite app_nil_r.
      eexists; split; [reflexivity|]. cbn; auto.
  - destruct (min_length n b) as [-> ->]. eexists; split; [reflexivity|]. apply close_when_empty; auto.
  - rewrite firstn_nil, skipn_nil. eexists; split; [reflexivity|]. cbn; auto.
  - eexists; split; [reflexivity|]. cbn; auto.
Qed.

Lemma fetchall_open f : hardc f = false ->
  exists f', fetchall_impl f = (f', Ok (remaining f)) /\ remaining f' = [] /\ hardc f' = false.
Proof.
  destruct f as [s hc]. cbn [hardc]. intros ->.
  unfold fetchall_impl, remaining. cbn [src hardc].
  destruct s; cbn [remaining_src]; eexists; (split; [reflexivity|]);
    first [split; apply soft_close_open; reflexivity | cbn; auto].
Qed.

Lemma yield_per_spec n f : fwf f ->
  remaining (yield_per_impl n f) = remaining f /\ hardc (yield_per_impl n f) = hardc f /\ fwf (yield_per_impl n f).
Proof.
  unfold fwf, yield_per_impl, remaining. intros W.
  destruct (src f) eqn:E; cbn; rewrite ?E; repeat split; auto; intros Hc; destruct (W Hc); discriminate.
Qed.

Lemma init_remaining st rows : remaining_src (init_src st rows) = rows.
Proof. destruct st; cbn [init_src remaining_src]; auto. apply firstn_skipn. Qed.
