(* C29 - facts about the driver model (io_step) used by the safety proof *)
From Coq Require Import List ZArith Bool Arith Lia.
Import ListNotations.
From SAV.engine Require Import Async AsyncConn AsyncExec.
Open Scope Z_scope.

(* [w'] differs from [w] at most at connection [c] (and in the data / statement log) *)
Definition same_except (c : nat) (w w' : world) : Prop :=
  nconn w' = nconn w /\ forall c', c' <> c -> getc w' c' = getc w c'.

Lemma same_except_refl c w : same_except c w w.
Proof. split; auto. Qed.

Lemma getc_setc_same w c d : getc (setc w c d) c = d.
Proof. unfold getc, setc. cbn. rewrite Nat.eqb_refl. reflexivity. Qed.
Lemma getc_setc_other w c d c' : c' <> c -> getc (setc w c d) c' = getc w c'.
Proof. unfold getc, setc. cbn. intros H. apply Nat.eqb_neq in H. rewrite H. reflexivity. Qed.
Lemma getc_wlog w c k c' : getc (wlog w c k) c' = getc w c'.
Proof. reflexivity. Qed.
Lemma getc_set_committed w l c' : getc (set_committed w l) c' = getc w c'.
Proof. reflexivity. Qed.
Lemma same_except_setc w c d : same_except c w (setc w c d).
Proof. split; [reflexivity|]. intros; apply getc_setc_other; auto. Qed.

(* the connection an awaitable talks to *)
Definition io_conn (i : io) : option nat :=
  match i with
  | IoConnect => None
  | IoSetup c | IoCursor c | IoExec c _ | IoFetch c | IoCursorClose c | IoCommit c | IoRollback c
  | IoTermClose c | IoClose c | IoForceClose c | IoProbe c => Some c
  end.
Definition io_closes (i : io) : bool :=
  match i with IoTermClose _ | IoClose _ | IoForceClose _ => true | _ => false end.

Lemma same_except_wlog c w w' cc k : same_except c w w' -> same_except c w (wlog w' cc k).
Proof. intros [A B]. split; auto. Qed.
Lemma same_except_setcm c w w' l : same_except c w w' -> same_except c w (set_committed w' l).
Proof. intros [A B]. split; auto. Qed.

Lemma io_step_frame i c w : io_conn i = Some c -> same_except c w (snd (io_step w i)).
Proof.
  destruct i; cbn; intros H; inversion H; subst; clear H;
    repeat match goal with
           | |- context [if ?b then _ else _] => destruct b
           | |- context [match ?s with SBegin => _ | SInsert _ => _ | SSelect => _ end] => destruct s
           end; cbn; unfold closed_conn;
    repeat (first [apply same_except_wlog | apply same_except_setcm]);
    first [apply same_except_refl | apply same_except_setc].
Qed.

(* requests that do not close keep the connection open *)
Lemma io_step_keeps_open i c w :
  io_conn i = Some c -> io_closes i = false -> d_open (getc w c) = true ->
  d_open (getc (snd (io_step w i)) c) = true.
Proof.
  destruct i; cbn; intros H Hc Ho; inversion H; subst; clear H; try discriminate; rewrite ?Ho; cbn; auto.
  - destruct s;
      repeat match goal with |- context [if ?b then _ else _] => destruct b end;
      unfold getc, wlog, set_committed, setc in *; cbn; rewrite ?Nat.eqb_refl; auto.
  - destruct (d_txn (getc w c)); unfold getc, wlog, set_committed, setc in *; cbn; rewrite ?Nat.eqb_refl; auto.
  - destruct (d_txn (getc w c)); unfold getc, wlog, set_committed, setc in *; cbn; rewrite ?Nat.eqb_refl; auto.
Qed.

(* a cancelled request, whether it still takes effect or not *)
Lemma cancel_world i c w (eff : bool) : io_conn i = Some c ->
  same_except c w (if eff then io_cancel_step w i else w) /\
  (io_closes i = false -> d_open (getc w c) = true -> d_open (getc (if eff then io_cancel_step w i else w) c) = true).
Proof.
  intros H. destruct eff; [|split; [apply same_except_refl|auto]].
  destruct i; try discriminate; cbn [io_cancel_step]; (split; [apply io_step_frame|intros; apply io_step_keeps_open]); auto.
Qed.

Lemma io_step_closes i c w : io_conn i = Some c -> io_closes i = true ->
  io_step w i = (inl VUnit, closed_conn w c).
Proof. destruct i; cbn; intros H Hc; inversion H; subst; try discriminate; reflexivity. Qed.

Lemma getc_closed_same w c : getc (closed_conn w c) c = dead.
Proof. apply getc_setc_same. Qed.
Lemma closed_frame w c : same_except c w (closed_conn w c).
Proof. apply same_except_setc. Qed.

Lemma step_probe w c : io_step w (IoProbe c) = (inl (VBool (d_open (getc w c))), w).
Proof. reflexivity. Qed.
Lemma step_simple_open w c i :
  (i = IoSetup c \/ i = IoCursor c \/ i = IoCursorClose c) -> d_open (getc w c) = true ->
  io_step w i = (inl VUnit, w).
Proof. intros [->|[->| ->]] H; cbn; rewrite H; reflexivity. Qed.
(* rollback and commit on an open connection succeed and end its transaction *)
Lemma step_end_txn_open w c i : i = IoRollback c \/ i = IoCommit c -> d_open (getc w c) = true ->
  fst (io_step w i) = inl VUnit /\ d_txn (getc (snd (io_step w i)) c) = false.
Proof.
  intros [-> | ->] H; cbn; rewrite H; cbn; destruct (d_txn (getc w c)) eqn:T; cbn; auto;
    unfold getc, wlog, set_committed, setc; cbn; rewrite Nat.eqb_refl; auto.
Qed.
Lemma step_fetch_open w c : d_open (getc w c) = true ->
  io_step w (IoFetch c) = (inl (VRows (visible w c)), w).
Proof. intros H. cbn. rewrite H. reflexivity. Qed.
(* a statement on an open connection succeeds or fails with an ordinary DBAPI error *)
Lemma step_exec_open w c st : d_open (getc w c) = true ->
  fst (io_step w (IoExec c st)) = inl VUnit \/
  fst (io_step w (IoExec c st)) = inr EIntegrity \/ fst (io_step w (IoExec c st)) = inr EOperational.
Proof.
  intros H. cbn. rewrite H. cbn. destruct st; cbn;
    repeat match goal with |- context [if ?b then _ else _] => destruct b end; cbn; auto.
Qed.

Lemma step_connect w : io_step w IoConnect = (inl (VConn (nconn w)), new_conn w (mkd true false [])).
Proof. reflexivity. Qed.
Lemma getc_new_same w d : getc (new_conn w d) (nconn w) = d.
Proof. unfold getc, new_conn. cbn. rewrite Nat.eqb_refl. reflexivity. Qed.
Lemma getc_new_other w d c' : c' <> nconn w -> getc (new_conn w d) c' = getc w c'.
Proof. unfold getc, new_conn. cbn. intros H. apply Nat.eqb_neq in H. rewrite H. reflexivity. Qed.
Lemma nconn_new w d : nconn (new_conn w d) = S (nconn w).
Proof. reflexivity. Qed.
