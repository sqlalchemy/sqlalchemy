(* C24: what DBAPI calls keep (Pres, Up), what an operation that does not end the checkout keeps (Step),
   and what holds after an operation, a list of operations and a user (Post). *)
From Coq Require Import List ZArith Bool Lia.
Import ListNotations.
From SAV.engine Require Import ResetSeq.
Open Scope Z_scope.

Definition DI (d : db) : Prop := dirty d = true -> in_txn d = true.
(* a savepoint that remembers uncommitted writes lives inside an open transaction *)
Definition SPI (d : db) : Prop := forall e, In e (sp d) -> fst e = true -> in_txn d = true.
Definition DBI (d : db) : Prop := DI d /\ SPI d.
Definition iso_default (d : db) : Prop := iso d = 0 /\ autoc d = false.

Lemma pristine_spec : forall d, pristine d = true <-> in_txn d = false /\ dirty d = false /\ iso_default d.
Proof.
  unfold pristine, iso_default; intros d. split.
  - intros H. apply andb_prop in H as [H H4]. apply andb_prop in H as [H H3]. apply andb_prop in H as [H1 H2].
    apply negb_true_iff in H1, H2, H4. apply Z.eqb_eq in H3. auto.
  - intros (-> & -> & -> & ->). reflexivity.
Qed.

Lemma In_firstn : forall A (l : list A) n x, In x (firstn n l) -> In x l.
Proof. induction l; intros n x H; destruct n; cbn in *; try contradiction. destruct H; [auto|right; eauto]. Qed.

(* between s and s' the ghost flag twr_unsound is not raised *)
Definition Up (s s' : st) : Prop := twr_unsound s' = true -> twr_unsound s = true.
Lemma Up_refl : forall s, Up s s. Proof. unfold Up; auto. Qed.
Lemma Up_trans : forall a b c, Up a b -> Up b c -> Up a c.
Proof. unfold Up; auto. Qed.
Lemma Up_log : forall s k, Up s (add_log s k). Proof. unfold Up; auto. Qed.

Lemma next_fault_frame : forall s c s', next_fault s = (c, s') -> Up s s'.
Proof. unfold next_fault, Up; intros. destruct (faults s); injection H as <- <-; cbn; auto. Qed.

(* [got H]: H equates what the model computed with the triple a lemma names: read the three off *)
Ltac got H := injection H as <- <- <-.

Lemma clean_DBI : forall d, DBI (clean d).
Proof. intros d. split; [intros H; cbn in H; discriminate|intros e H; cbn in H; contradiction]. Qed.

Lemma db_commit_spec : forall d s ok d' s', db_commit d s = (ok, d', s') ->
  Up s s' /\ (if ok then d' = clean d else d' = d).
Proof.
  unfold db_commit; intros. destruct (next_fault (add_log s 1)) as [c s2] eqn:E.
  apply next_fault_frame in E. destruct (fkbad d || (c =? 1)); got H; auto.
Qed.
Lemma db_rollback_spec : forall d s ok d' s', db_rollback d s = (ok, d', s') ->
  Up s s' /\ (if ok then d' = clean d else d' = d).
Proof.
  unfold db_rollback; intros. destruct (next_fault (add_log s 2)) as [c s2] eqn:E.
  apply next_fault_frame in E. destruct (c =? 1); got H; auto.
Qed.

(* what every DBAPI call other than set_isolation_level keeps: the characteristics, and the
   transaction-level facts *)
Definition Pres (d d' : db) : Prop := iso d' = iso d /\ autoc d' = autoc d /\ (DBI d -> DBI d').
Lemma Pres_refl : forall d, Pres d d. Proof. intros d; unfold Pres; auto. Qed.
Lemma Pres_trans : forall a b c, Pres a b -> Pres b c -> Pres a c.
Proof. intros a b c (?&?&?) (?&?&?); unfold Pres; split; [congruence|split; [congruence|auto]]. Qed.
Lemma Pres_clean : forall d, Pres d (clean d).
Proof. intros d. split; [reflexivity|split; [reflexivity|]]. intros _. apply clean_DBI. Qed.

#[local] Hint Resolve Up_refl Up_log Pres_refl Pres_clean : core.

(* inside an open transaction nothing more is asked of dirty flags and savepoints *)
Lemma DBI_open : forall d, in_txn d = true -> DBI d.
Proof. intros d H. split; [intros _|intros e _ _]; exact H. Qed.

Lemma db_write_spec : forall b d, Pres d (db_write b d).
Proof.
  intros b d. unfold db_write. destruct (autoc d) eqn:Ea; [apply Pres_refl|].
  split; [reflexivity|split; [cbn; congruence|]]. intros _. apply DBI_open. reflexivity.
Qed.

Lemma db_savepoint_spec : forall d s d' s', db_savepoint d s = (d', s') -> Up s s' /\ Pres d d'.
Proof.
  unfold db_savepoint; intros d s d' s' [= <- <-]. split; [apply Up_log|]. split; [reflexivity|split; [reflexivity|]].
  intros [H1 H2]. split; [exact H1|]. intros e He Hf. cbn in He. apply in_app_iff in He as [He|[<-|[]]]; [eapply H2; eauto|].
  apply H1, Hf.
Qed.
Lemma db_rollback_to_spec : forall k d s d' s', db_rollback_to k d s = (d', s') -> Up s s' /\ Pres d d'.
Proof.
  unfold db_rollback_to; intros k d s d' s' [= <- <-]. split; [apply Up_log|].
  destruct (nth_error (sp d) k) as [[dr fk]|] eqn:En; [|apply Pres_refl]. split; [reflexivity|split; [reflexivity|]]. intros [H1 H2]. split.
  - intros Hd. cbn in Hd. subst dr. apply (H2 (true, fk)); [eapply nth_error_In; eauto|reflexivity].
  - intros e He Hf. change (In e (firstn (S k) (sp d))) in He. apply In_firstn in He. eapply H2; eauto.
Qed.
Lemma db_release_spec : forall k d s d' s', db_release k d s = (d', s') -> Up s s' /\ Pres d d'.
Proof.
  unfold db_release; intros k d s d' s' [= <- <-]. split; [apply Up_log|]. split; [reflexivity|split; [reflexivity|]].
  intros [H1 H2]. split; [exact H1|]. intros e He Hf. apply In_firstn in He. eapply H2; eauto.
Qed.

Definition SameTx (d d' : db) : Prop := in_txn d' = in_txn d /\ dirty d' = dirty d /\ sp d' = sp d.
Lemma SameTx_DBI : forall d d', SameTx d d' -> DBI d -> DBI d'.
Proof. intros d d' (A & B & C) [H1 H2]. split; [unfold DI; rewrite A, B; auto|unfold SPI; rewrite A, C; auto]. Qed.

Lemma db_set_iso_spec : forall l d s d' s', db_set_iso l d s = (d', s') ->
  Up s s' /\ SameTx d d' /\ (l = 0 -> iso_default d').
Proof.
  unfold db_set_iso, iso_default, SameTx; intros l d s d' s' H. injection H as <- <-.
  split; [apply Up_log|]. destruct (l =? 2) eqn:E; cbn; (split; [auto|]); intros ->; cbn in E; try discriminate; auto.
Qed.

Lemma run_finalizers_spec : forall fs d s d' s', run_finalizers fs d s = (d', s') ->
  Up s s' /\ SameTx d d' /\ ((In true fs \/ iso_default d) -> iso_default d').
Proof.
  induction fs as [|b r IH]; intros d s d' s' H; cbn [run_finalizers] in H.
  - injection H as <- <-. split; [apply Up_refl|]. split; [repeat split|]. intros [[]|?]; auto.
  - destruct b.
    + destruct (db_set_iso 0 d s) as [d1 s1] eqn:E. apply db_set_iso_spec in E. destruct E as (E1 & E2 & E3).
      apply IH in H. destruct H as (H1 & H2 & H3).
      split; [exact (Up_trans _ _ _ E1 H1)|]. split; [destruct E2 as (?&?&?), H2 as (?&?&?); repeat split; congruence|].
      intros _. apply H3. right. apply E3. reflexivity.
    + apply IH in H. destruct H as (H1 & H2 & H3). split; [auto|]. split; [auto|].
      intros [[Hc|Hi]|Hd]; [discriminate|apply H3; auto|apply H3; auto].
Qed.

(* what holds of the connection the pool keeps idle *)
Definition PoolAll (reset : rstyle) (s : st) : Prop :=
  match idle s with
  | Some d => iso_default d /\ DBI d /\ (reset <> RNone -> pristine d = true)
  | None => True
  end.

Section P.
Variable reset : rstyle.
Variable kind : pkind.
Variable begin_emits : bool.
Variable engine_iso : Z.

(* every characteristic that was set has a pending finaliser *)
Definition CIf (d : db) (fs : list bool) : Prop := iso_default d \/ In true fs.

Lemma Pres_CIf : forall d d' fs, Pres d d' -> CIf d fs -> CIf d' fs.
Proof. unfold CIf, iso_default; intros d d' fs (H1 & H2 & _) [H|H]; [left; rewrite H1, H2; exact H|auto]. Qed.

(* _finalize_fairy + checkin: what is left in the pool *)
Lemma finalize_end : forall d fs twr s, CIf d fs -> DBI d -> (twr = true -> in_txn d = false) ->
  let s' := finalize reset kind d fs twr s in
  Up s s' /\ PoolAll reset s'.
Proof.
  intros d fs twr s HC HD Ht. cbv zeta. unfold finalize.
  replace (if twr && in_txn d then set_unsound s else s) with s by (destruct twr; cbn; auto; rewrite Ht; auto).
  destruct (match reset with RRollback => _ | RCommit => _ | RNone => _ end) as [[ok d1] s1] eqn:E.
  (* the reset, when it does not fail, leaves no transaction behind unless reset_on_return is None *)
  assert (Hreset : Up s s1 /\ (ok = true -> Pres d d1 /\ (reset <> RNone -> in_txn d1 = false /\ dirty d1 = false))).
  { destruct reset; [destruct twr| |].
    - (* skipped: the root transaction was closed in the same call *)
      got E. split; [auto|]. intros _. split; [auto|]. intros _. split; [auto|].
      destruct HD as [HD _]. unfold DI in HD. destruct (dirty d); [rewrite HD in Ht by reflexivity; auto|reflexivity].
    - apply db_rollback_spec in E as [E1 E2]. split; [exact E1|]. intros ->. subst d1. auto.
    - apply db_commit_spec in E as [E1 E2]. split; [exact E1|]. intros ->. subst d1. auto.
    - got E. split; [auto|]. intros _. split; [auto|]. intros []; reflexivity. }
  destruct Hreset as (Ureset & Hok). destruct ok; [|split; [exact Ureset|unfold PoolAll; cbn; auto]].
  destruct (Hok eq_refl) as (Hpres & Hquiet).
  destruct (run_finalizers (rev fs) d1 s1) as [d2 s2] eqn:Er. apply run_finalizers_spec in Er.
  destruct Er as (Ufin & Hsame & Hiso).
  split; [exact (Up_trans _ _ _ Ureset Ufin)|].
  assert (I2 : iso_default d2).
  { apply Hiso. destruct (Pres_CIf _ _ _ Hpres HC) as [Hd|Hi]; [right; exact Hd|left; apply in_rev in Hi; exact Hi]. }
  assert (PA : iso_default d2 /\ DBI d2 /\ (reset <> RNone -> pristine d2 = true)).
  { split; [exact I2|split; [exact (SameTx_DBI _ _ Hsame (proj2 (proj2 Hpres) HD))|]]. intros Hr. apply pristine_spec.
    destruct Hsame as (-> & -> & _). destruct (Hquiet Hr); auto. }
  unfold PoolAll; cbn. destruct kind; cbn; auto.
Qed.

Definition CInv (c : cst) : Prop := CIf (cdb c) (fins c) /\ DBI (cdb c).

(* an operation that touches neither the pending finalisers nor the characteristics, and does not
   return the connection *)
Definition Step (c : cst) (s : st) (c' : cst) (s' : st) : Prop :=
  Up s s' /\ fins c' = fins c /\ (done c = false -> done c' = false) /\ Pres (cdb c) (cdb c').

Lemma Step_refl : forall c s, Step c s c s.
Proof. intros c s. split; [apply Up_refl|]. split; [reflexivity|]. split; [auto|apply Pres_refl]. Qed.
(* the operation was refused or skipped: it returned the connection and the pool as they were *)
Ltac same H := got H; apply Step_refl.

Lemma Step_trans : forall c s c1 s1 c2 s2, Step c s c1 s1 -> Step c1 s1 c2 s2 -> Step c s c2 s2.
Proof.
  intros c s c1 s1 c2 s2 (A1 & A2 & A3 & A4) (B1 & B2 & B3 & B4).
  split; [eapply Up_trans; eauto|]. split; [congruence|]. split; [auto|eapply Pres_trans; eauto].
Qed.
Lemma Step_mk : forall c s s' d' t nt n' b, Up s s' -> Pres (cdb c) d' -> (done c = false -> b = false) ->
  Step c s (mkcst d' t (fins c) nt n' b) s'.
Proof. intros c s s' d' t nt n' b F P D. exact (conj F (conj eq_refl (conj D P))). Qed.

Lemma Step_set_cdb : forall c s c1 s1 d', Step c s c1 s1 -> Pres (cdb c1) d' -> Step c s (set_cdb c1 d') s1.
Proof. intros c s c1 s1 d' A P. eapply Step_trans; [exact A|]. apply Step_mk; auto. Qed.

(* an operation does not raise the flag; a connection still checked out keeps its invariant,
   one that was returned has left the pool in order *)
Definition Post (s : st) (c' : cst) (s' : st) : Prop :=
  Up s s' /\ if done c' then PoolAll reset s' else CInv c'.

Lemma Step_CInv : forall c s c' s', CInv c -> Step c s c' s' -> CInv c'.
Proof.
  intros c s c' s' [HC HD] (_ & A2 & _ & A4). split; [|apply A4, HD].
  rewrite A2. exact (Pres_CIf _ _ _ A4 HC).
Qed.

Lemma Step_Post : forall c s c' s', CInv c -> done c = false -> Step c s c' s' -> Post s c' s'.
Proof.
  intros c s c' s' HI Hdn A. pose proof (Step_CInv _ _ _ _ HI A) as I. destruct A as (A1 & _ & A3 & _).
  split; [exact A1|]. rewrite (A3 Hdn). exact I.
Qed.

Lemma autobegin_spec : forall c s c1 s1, autobegin begin_emits c s = (c1, s1) -> Step c s c1 s1.
Proof.
  unfold autobegin; intros c s c1 s1 H. destruct (txn c); [injection H as <- <-; apply Step_refl|].
  destruct (begin_emits && negb (in_txn (cdb c))); injection H as <- <-; apply Step_mk; auto.
  split; [reflexivity|split; [reflexivity|]]. intros _. apply DBI_open. reflexivity.
Qed.

Lemma cancel_nested_frame : forall c, cdb (cancel_nested c) = cdb c /\ fins (cancel_nested c) = fins c /\
  done (cancel_nested c) = done c.
Proof. intros c. unfold cancel_nested. destruct (ntop c); cbn; auto. Qed.

Lemma root_close_spec : forall c s ok c1 s1, root_close c s = (ok, c1, s1) ->
  Step c s c1 s1 /\ (txn c = Some true -> ok = true -> cdb c1 = clean (cdb c)).
Proof.
  unfold root_close; intros c s ok c1 s1 H. destruct (txn c) as [[|]|] eqn:Et.
  - destruct (db_rollback (cdb c) s) as [[ok' d1] s2] eqn:E. apply db_rollback_spec in E as [E1 E2].
    got H.
    destruct (cancel_nested_frame (set_txn (set_cdb c d1) None)) as (A & B & C).
    unfold Step. rewrite A, B, C. cbn. destruct ok'; subst d1; (split; [apply (conj E1); auto|congruence]).
  - got H. destruct (cancel_nested_frame c) as (A & B & C). unfold Step. cbn. rewrite A, B, C.
    split; [auto|discriminate].
  - got H. split; [apply Step_refl|discriminate].
Qed.

Lemma nested_spec : forall o c s code c' s', do_op reset kind begin_emits o c s = (code, c', s') ->
  o = ONBegin \/ o = ONCommit \/ o = ONRollback \/ o = ONClose -> Step c s c' s'.
Proof.
  intros o c s code c' s' H [->|[->|O]]; cbn [do_op] in H.
  - destruct (autobegin begin_emits c s) as [c1 s1] eqn:Ea. apply autobegin_spec in Ea.
    destruct (invalid_state c1); [got H; exact Ea|].
    destruct (db_savepoint (cdb c1) s1) as [d1 s2] eqn:E. apply db_savepoint_spec in E as [E1 E2].
    got H. eapply Step_trans; [exact Ea|]. apply Step_mk; auto.
  - destruct (length (ns c)) as [|i]; [same H|].
    destruct (nth_error (ns c) i) as [n|]; [|same H].
    destruct (n_active n); [|same H].
    destruct (invalid_state c).
    + got H. apply Step_mk; auto.
    + destruct (db_release (n_sp n) (cdb c) s) as [d1 s1] eqn:E. apply db_release_spec in E as [E1 E2].
      got H. apply Step_mk; auto.
  - (* rollback and close of a savepoint are the same code *)
    assert (H' : do_op reset kind begin_emits ONRollback c s = (code, c', s')) by (destruct O as [->| ->]; exact H).
    clear H O. cbn [do_op] in H'.
    destruct (length (ns c)) as [|i]; [same H'|].
    destruct (nth_error (ns c) i) as [n|]; [|same H'].
    match type of H' with (if ?b && _ then _ else _) = _ => destruct b end; cbn [andb] in H';
      [destruct (invalid_state c)|]; try (got H'; apply Step_mk; auto; fail).
    destruct (db_rollback_to (n_sp n) (cdb c) s) as [d1 s1] eqn:E. apply db_rollback_to_spec in E as [E1 E2].
    got H'. apply Step_mk; auto.
Qed.

(* statements and begin(): unless refused, autobegin and then at most a write; the three kinds of
   statement are the same code *)
Lemma stmt_spec : forall o c s code c' s', do_op reset kind begin_emits o c s = (code, c', s') ->
  o = OWrite \/ o = OFkWrite \/ o = OFailStmt \/ o = OBegin -> Step c s c' s'.
Proof.
  intros o c s code c' s' H [->|[->|[->| ->]]]; cbn [do_op] in H.
  1-3: destruct (invalid_state c); [same H|].
  4: destruct (txn c); [same H|].
  all: destruct (autobegin begin_emits c s) as [c1 s1] eqn:Ea; apply autobegin_spec in Ea; got H.
  3-4: exact Ea.
  all: apply (Step_set_cdb _ _ _ _ _ Ea), db_write_spec.
Qed.

Lemma txn_spec : forall o c s code c' s', do_op reset kind begin_emits o c s = (code, c', s') ->
  o = OCommit \/ o = ORollback -> Step c s c' s'.
Proof.
  intros o c s code c' s' H [->| ->]; cbn [do_op] in H.
  - destruct (txn c) as [[|]|]; try (same H).
    destruct (db_commit (cdb c) s) as [[ok d1] s1] eqn:E. apply db_commit_spec in E as [E1 E2].
    destruct (cancel_nested_frame (set_cdb c d1)) as (A & B & C).
    assert (Step c s (cancel_nested (set_cdb c d1)) s1).
    { unfold Step. rewrite A, B, C. cbn. destruct ok; subst d1; auto. }
    destruct ok; got H; assumption.
  - destruct (root_close c s) as [[ok c1] s1] eqn:E. apply root_close_spec in E as [E _]. got H. exact E.
Qed.

(* execution_options: a call that sets the isolation level registers the finaliser that resets it *)
Lemma opts_spec : forall level token other c s code c' s',
  do_op reset kind begin_emits (OOpts level token other) c s = (code, c', s') ->
  CInv c -> done c = false -> Post s c' s'.
Proof.
  intros level token other c s code c' s' H [HC HD] Hdn. cbn [do_op] in H.
  assert (K0 : Post s c s) by (split; [apply Up_refl|rewrite Hdn; split; assumption]).
  destruct (negb (level =? 0) || token); [|got H; exact K0].
  destruct (negb (level =? 0) && match txn c with Some true => true | _ => false end); [got H; exact K0|].
  destruct (level =? 0) eqn:El.
  - got H. split; [apply Up_refl|split; [|exact HD]].
    cbn. destruct HC as [Hd|Hi]; [left; auto|right; apply in_app_iff; auto].
  - destruct (db_set_iso level (cdb c) s) as [d1 s1] eqn:E. apply db_set_iso_spec in E. destruct E as (E1 & E2 & E3).
    got H. split; [exact E1|split; [|exact (SameTx_DBI _ _ E2 HD)]].
    cbn. right. apply in_app_iff. right. left. reflexivity.
Qed.

Lemma end_spec : forall o c s code c' s', do_op reset kind begin_emits o c s = (code, c', s') ->
  o = OClose \/ o = ODrop \/ o = OInvalidate -> CInv c -> done c = false -> Post s c' s'.
Proof.
  intros o c s code c' s' H O [HC HD] Hdn.
  pose proof (finalize_end _ _ false s HC HD ltac:(discriminate)) as GC.
  destruct O as [->|[->| ->]]; cbn [do_op] in H.
  - destruct (txn c) as [active|] eqn:Et; [|got H; exact GC].
    destruct (root_close c s) as [[ok c1] s1] eqn:E. apply root_close_spec in E as [R Hclean].
    destruct ok; got H.
    + destruct (Step_CInv _ _ _ _ (conj HC HD) R) as [HC1 HD1].
      destruct (finalize_end (cdb c1) (fins c1) active s1 HC1 HD1) as [G1 G2].
      { intros ->. rewrite (Hclean Et eq_refl). reflexivity. }
      exact (conj (Up_trans _ _ _ (proj1 R) G1) G2).
    + (* the error escapes close(): the connection stays checked out *)
      exact (Step_Post _ _ _ _ (conj HC HD) Hdn R).
  - got H. exact GC.
  - got H. split; [unfold Up; cbn; auto|unfold PoolAll; cbn; auto].
Qed.

Lemma do_op_spec : forall o c s code c' s', do_op reset kind begin_emits o c s = (code, c', s') ->
  CInv c -> done c = false -> Post s c' s'.
Proof.
  intros o c s code c' s' H HI Hdn. pose proof (Step_Post c s c' s' HI Hdn) as S.
  destruct o as [ | | | | | | | | |level token other| | | | ].
  11-14: apply S, (nested_spec _ _ _ _ _ _ H); auto.
  10: exact (opts_spec _ _ _ _ _ _ _ _ H HI Hdn).
  7-9: apply (end_spec _ _ _ _ _ _ H); auto.
  2-3: apply S, (txn_spec _ _ _ _ _ _ H); auto.
  all: apply S, (stmt_spec _ _ _ _ _ _ H); auto.
Qed.

Lemma do_ops_spec : forall ops c s codes codes' c' s', do_ops reset kind begin_emits ops c s codes = (codes', c', s') ->
  CInv c -> done c = false -> Post s c' s'.
Proof.
  induction ops as [|o r IH]; intros c s codes codes' c' s' H HI Hd; cbn [do_ops] in H.
  - got H. split; [apply Up_refl|rewrite Hd; exact HI].
  - destruct (do_op reset kind begin_emits o c s) as [[code c1] s1] eqn:E.
    destruct (do_op_spec _ _ _ _ _ _ E HI Hd) as [A1 A2]. destruct (done c1) eqn:D.
    + got H. split; [exact A1|rewrite D; exact A2].
    + destruct (IH _ _ _ _ _ _ H A2 D) as [B1 B2]. split; [exact (Up_trans _ _ _ A1 B1)|exact B2].
Qed.

Lemma checkout_spec : forall s, PoolAll reset s ->
  let d := fst (checkout s) in
  iso_default d /\ DBI d /\ (reset <> RNone -> pristine d = true) /\ Up s (snd (checkout s)).
Proof.
  intros s HP. unfold checkout, PoolAll, Up in *. destruct (idle s) as [d|]; cbn.
  - destruct HP as (P1 & P2 & P3). auto.
  - split; [split; reflexivity|]. split; [split; [discriminate|intros e []]|]. auto.
Qed.

Lemma connect_spec : forall d s c0 s0, connect engine_iso d s = (c0, s0) -> iso_default d -> DBI d ->
  CInv c0 /\ Up s s0 /\ done c0 = false.
Proof.
  unfold connect; intros d s c0 s0 H Hi Hd. destruct (engine_iso =? 0).
  - injection H as <- <-. split; [split; [left; exact Hi|exact Hd]|split; [apply Up_refl|reflexivity]].
  - destruct (db_set_iso engine_iso d s) as [d1 s1] eqn:E. apply db_set_iso_spec in E. destruct E as (E1 & E2 & E3).
    injection H as <- <-. split; [split; [right; left; reflexivity|eapply SameTx_DBI; eauto]|split; [auto|reflexivity]].
Qed.

Lemma user_spec : forall ops s, PoolAll reset s ->
  let s' := snd (user reset kind begin_emits engine_iso ops s) in
  PoolAll reset s' /\ Up s s'.
Proof.
  intros ops s HP. unfold user.
  destruct (checkout_spec s HP) as (C1 & C2 & _ & U01).
  destruct (checkout s) as [d s0] eqn:Ec. cbn [fst snd] in *.
  set (s1 := mkst (idle s0) (nconn s0) (faults s0) [] (twr_unsound s0)) in *.
  destruct (connect engine_iso d s1) as [c0 s2] eqn:Eo.
  destruct (connect_spec _ _ _ _ Eo C1 C2) as (K1 & K2 & K3).
  destruct (do_ops reset kind begin_emits ops c0 s2 []) as [[codes c] s3] eqn:E.
  destruct (do_ops_spec _ _ _ _ _ _ _ E K1 K3) as [A1 A2]. cbn [snd].
  pose proof (Up_trans _ _ _ U01 (Up_trans _ _ _ K2 A1)) as U. destruct (done c).
  - exact (conj A2 U).
  - (* never returned: the garbage collector finalises the fairy *)
    destruct A2 as [A2 A2']. destruct (finalize_end (cdb c) (fins c) false s3 A2 A2') as (G1 & G2); [discriminate|].
    exact (conj G2 (Up_trans _ _ _ U G1)).
Qed.

Lemma run_spec : forall us s, PoolAll reset s ->
  PoolAll reset (run reset kind begin_emits engine_iso us s) /\ Up s (run reset kind begin_emits engine_iso us s).
Proof.
  induction us as [|u r IH]; intros s HP; cbn [run].
  - split; auto.
  - destruct (user_spec u s HP) as [A1 A2]. destruct (IH _ A1) as [B1 B2]. split; auto. eapply Up_trans; eauto.
Qed.

Lemma init_PoolAll : forall fl, PoolAll reset (init fl).
Proof. intros; unfold PoolAll; cbn; auto. Qed.

(* with reset_on_return enabled, for every history of users (incl. savepoints and
   any sequence of option calls, with or without an option engine) and every fault script, the
   connection handed to the next checkout is pristine *)
Theorem clean_on_checkout : reset <> RNone -> forall us fl,
  pristine (next_checkout (run reset kind begin_emits engine_iso us (init fl))) = true.
Proof.
  intros Hr us fl. destruct (run_spec us _ (init_PoolAll fl)) as [HP _].
  exact (proj1 (proj2 (proj2 (checkout_spec _ HP))) Hr).
Qed.

(* whatever the reset style and whatever list of execution_options calls the
   users made: the next checkout sees the default isolation level / autocommit setting *)
Theorem characteristics_restored : forall us fl,
  iso_default (next_checkout (run reset kind begin_emits engine_iso us (init fl))).
Proof.
  intros us fl. destruct (run_spec us _ (init_PoolAll fl)) as [HP _].
  exact (proj1 (checkout_spec _ HP)).
Qed.

(* ... because during a checkout every characteristic that was set has a pending finaliser that names it *)
Theorem finaliser_pending : forall ops d s c0 s0 codes c s',
  iso_default d -> DBI d -> connect engine_iso d s = (c0, s0) ->
  do_ops reset kind begin_emits ops c0 s0 [] = (codes, c, s') -> done c = false ->
  iso_default (cdb c) \/ In true (fins c).
Proof.
  intros ops d s c0 s0 codes c s' Hd HD Ho H Hdn.
  destruct (connect_spec _ _ _ _ Ho Hd HD) as (K1 & K2 & K3).
  destruct (do_ops_spec _ _ _ _ _ _ _ H K1 K3) as [_ A]. rewrite Hdn in A. exact (proj1 A).
Qed.

(* transaction_was_reset=True never reaches _reset over an open
   DBAPI transaction *)
Theorem reset_skipped_soundly : forall us fl,
  twr_unsound (run reset kind begin_emits engine_iso us (init fl)) = false.
Proof.
  intros us fl. destruct (run_spec us _ (init_PoolAll fl)) as [_ U].
  destruct (twr_unsound (run reset kind begin_emits engine_iso us (init fl))) eqn:E; auto. apply U in E. cbn in E. discriminate.
Qed.

End P.
