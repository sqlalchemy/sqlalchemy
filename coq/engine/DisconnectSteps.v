(* C27 - the single-step theorems.  Each operation is described twice: by what it does towards the DBAPI and the
   pool ([pool_act], [step_pool]) and by what it does to the transaction ([step_txn]); on a blocked connection it is
   given in closed form ([blocked_step_eq]).  The theorems are consequences of these three. *)
From Coq Require Import List Bool.
Import ListNotations.
From SAV.engine Require Import Disconnect DisconnectProofs.

Definition autobegin (s : st) : st :=
  match s_txn s with TNone => set_txn s TActive (s_nested s) | _ => s end.
Definition inactive_check (s : st) : bool :=
  match s_txn s with TInactive => true | _ => false end || head_inactive (s_nested s).

Lemma set_txn_id : forall s, set_txn s (s_txn s) (s_nested s) = s.
Proof. intros []; reflexivity. Qed.

Lemma autobegin_set : forall s,
  autobegin s = set_txn s (match s_txn s with TNone => TActive | t => t end) (s_nested s).
Proof. intros s. unfold autobegin. destruct (s_txn s) eqn:E; [reflexivity|rewrite <- E; symmetry; apply set_txn_id..]. Qed.

(* the way the operations pass on a result: one bookkeeping on success, another on failure, the code as it is
   (that the second applies only when c' <> ROk is not needed by any caller) *)
Lemma bind_ok : forall (x : st * code) (f g : st -> st) s' c',
  (let (s1, c) := x in match c with ROk => (f s1, ROk) | _ => (g s1, c) end) = (s', c') ->
  exists s1, x = (s1, c') /\ ((c' = ROk /\ s' = f s1) \/ s' = g s1).
Proof. intros [s1 []] f g s' c' [= <- <-]; eauto. Qed.

(* the pool after a disconnect hit the LIVE connection *)
Definition disc_shape (lst : list lbeh) (s s' : st) : Prop :=
  s_idle s' = s_idle s ++ [None] /\ s_nconn s' = s_nconn s /\ s_cur s' = None /\
  s_clock s' = (if pool_inv lst then S (s_clock s) else s_clock s) /\
  s_invt s' = (if pool_inv lst then S (s_clock s) else s_invt s).

Section S.
  Variable faults : nat -> fault.
  Variable lst : list lbeh.
  Notation exec_path := (exec_path faults lst).
  Notation step := (step faults lst).

  Definition same_pool (s s' : st) : Prop :=
    s_idle s' = s_idle s /\ s_invt s' = s_invt s /\ s_cur s' = s_cur s /\ s_nconn s' = s_nconn s /\
    s_clock s' = s_clock s.

  Lemma coh_txn : forall k cid s s' c, call_or_handle faults lst k cid s = (s', c) ->
    s_txn s' = s_txn s /\ s_nested s' = s_nested s.
  Proof.
    intros k cid s s' c H.
    destruct (call_or_handle_spec _ _ _ _ _ _ _ H) as [(_ & _ & ->)|(_ & _ & ->)]; [auto|].
    destruct (is_disc c); [exact (inval_txn lst (called k cid s))|auto].
  Qed.

  Lemma call_or_handle_live : forall k cid s s' c, s_cur s <> None -> call_or_handle faults lst k cid s = (s', c) ->
    if is_disc c then disc_shape lst s s' else same_pool s s'.
  Proof.
    intros k cid s s' c Hc H.
    destruct (call_or_handle_spec _ _ _ _ _ _ _ H) as [(_ & -> & ->)|(_ & _ & ->)]; [repeat split|].
    destruct (is_disc c); [|repeat split].
    unfold inval. cbn [s_cur called]. destruct (s_cur s) as [[cid' st0]|]; [|congruence].
    unfold disc_shape. cbn. destruct (pool_inv lst); auto.
  Qed.

  Lemma exec_after_ensure : forall s s1, ensure faults lst s = (s1, None) ->
    exists cid st0, s_cur s1 = Some (cid, st0) /\
      exec_path s = if inactive_check s1 then (s1, RPending)
                    else call_or_handle faults lst K_EXEC cid (autobegin s1).
  Proof.
    intros s s1 He. destruct (ensure_spec _ _ _ _ _ He) as (_ & _ & _ & C).
    destruct (s_cur s1) as [[cid st0]|] eqn:Hc; [|congruence].
    exists cid, st0. split; [reflexivity|]. unfold Disconnect.exec_path. rewrite He. fold (inactive_check s1).
    destruct (inactive_check s1); [reflexivity|]. fold (autobegin s1).
    rewrite autobegin_set. cbn [s_cur set_txn]. rewrite Hc. reflexivity.
  Qed.

  Lemma exec_live : forall s cid st0, s_cur s = Some (cid, st0) ->
    exec_path s = if inactive_check s then (s, RPending)
                  else call_or_handle faults lst K_EXEC cid (autobegin s).
  Proof.
    intros s cid st0 Hc.
    destruct (exec_after_ensure s s (ensure_live faults lst s ltac:(congruence))) as (cid' & st' & E & ->).
    rewrite Hc in E. injection E as <- <-. reflexivity.
  Qed.

  Lemma exec_blocked : forall s, blocked s -> exec_path s = (s, RPending).
  Proof. intros s Hb. unfold Disconnect.exec_path. rewrite (ensure_blocked faults lst s Hb). reflexivity. Qed.

  Inductive pool_act (s : st) : st -> code -> Prop :=
  | pa_quiet c : (is_disc c = true -> s_cur s = None) -> pool_act s s c
  | pa_ensure s1 e c : ensure faults lst s = (s1, e) ->
      match e with Some c0 => c = c0 | None => is_disc c = false end -> pool_act s s1 c
  | pa_call s1 cid st0 k t n s2 c : ensure faults lst s = (s1, None) -> s_cur s1 = Some (cid, st0) ->
      call_or_handle faults lst k cid (set_txn s1 t n) = (s2, c) -> pool_act s s2 c.

  Lemma pa_live : forall k cid st0 s s' c, s_cur s = Some (cid, st0) ->
    call_or_handle faults lst k cid s = (s', c) -> pool_act s s' c.
  Proof.
    intros k cid st0 s s' c Hc H.
    apply (pa_call s s cid st0 k (s_txn s) (s_nested s)); [apply ensure_live; congruence|exact Hc|].
    rewrite set_txn_id. exact H.
  Qed.

  Lemma exec_pool : forall s s' c, exec_path s = (s', c) -> pool_act s s' c.
  Proof.
    intros s s' c H. destruct (ensure faults lst s) as [s1 [c0|]] eqn:He.
    - unfold Disconnect.exec_path in H. rewrite He in H. injection H as <- <-. exact (pa_ensure s s1 _ _ He eq_refl).
    - destruct (exec_after_ensure s s1 He) as (cid & st0 & Hc & Heq). rewrite Heq, autobegin_set in H.
      destruct (inactive_check s1).
      + injection H as <- <-. exact (pa_ensure s s1 None RPending He eq_refl).
      + exact (pa_call s s1 cid st0 _ _ _ s' c He Hc H).
  Qed.

  (* [s'] is [s1] up to the transaction bookkeeping *)
  Definition txn_of (s1 s' : st) : Prop := exists t n, s' = set_txn s1 t n.

  Lemma txn_of_refl : forall s, txn_of s s.
  Proof. intros s. exists (s_txn s), (s_nested s). symmetry. apply set_txn_id. Qed.

  Lemma txn_of_set : forall s t n, txn_of s (set_txn s t n).
  Proof. intros s t n. exists t, n. reflexivity. Qed.

  Hint Resolve txn_of_refl txn_of_set : core.

  Theorem step_pool : forall o s s' c, step o s = (s', c) -> exists s1, pool_act s s1 c /\ txn_of s1 s'.
  Proof.
    intros o s s' c H.
    assert (quiet : forall c0, is_disc c0 = false -> pool_act s s c0) by (intros c0 E; apply pa_quiet; congruence).
    destruct o; cbn [Disconnect.step] in H.
    - eauto using exec_pool.
    - unfold begin_op in H. destruct (s_txn s); [|injection H as <- <-; eauto..].
      destruct (ensure faults lst s) as [s1 [c0|]] eqn:He; injection H as <- <-.
      + exists s1. split; [exact (pa_ensure s s1 _ _ He eq_refl)|auto].
      + exists s1. split; [exact (pa_ensure s s1 None ROk He eq_refl)|auto].
    - unfold commit_op in H. destruct (s_txn s); [injection H as <- <-; eauto| |injection H as <- <-; eauto].
      destruct (s_cur s) as [[cid st0]|] eqn:Hc.
      + apply bind_ok in H as (s1 & Hcoh & [[_ ->]| ->]); eauto using pa_live.
      + injection H as <- <-. exists s. split; [apply pa_quiet; auto|auto].
    - unfold rollback_op in H. destruct (s_txn s); [injection H as <- <-; eauto| |injection H as <- <-; eauto].
      destruct (s_cur s) as [[cid st0]|] eqn:Hc; [|injection H as <- <-; eauto].
      apply bind_ok in H as (s1 & Hcoh & [[_ ->]| ->]); eauto using pa_live.
    - unfold savepoint_op, set_nested in H. destruct (s_txn s) eqn:Et.
      + (* no transaction yet: begin, then the execute runs on the connection begin() ensured *)
        unfold begin_op in H. rewrite Et in H. destruct (ensure faults lst s) as [s1 [c0|]] eqn:He.
        * destruct (ensure_spec _ _ _ _ _ He) as (_ & _ & _ & _ & _ & Hc0).
          destruct c0; try (injection H as <- <-; exists s1; split; [exact (pa_ensure s s1 _ _ He eq_refl)|auto]).
          destruct Hc0 as [[]|Hc0]. discriminate.
        * destruct (ensure_spec _ _ _ _ _ He) as (_ & _ & _ & Hc1).
          destruct (s_cur s1) as [[cid st0]|] eqn:Ec1; [|congruence].
          rewrite (exec_live (set_txn s1 TActive (s_nested s1)) cid st0 Ec1) in H.
          destruct (inactive_check _).
          -- injection H as <- <-. exists s1. split; [exact (pa_ensure s s1 None RPending He eq_refl)|auto].
          -- change (autobegin (set_txn s1 TActive (s_nested s1))) with (set_txn s1 TActive (s_nested s1)) in H.
             apply bind_ok in H as (s2 & Hcoh & [[_ ->]| ->]); eauto using pa_call.
      + apply bind_ok in H as (s2 & He & [[_ ->]| ->]); eauto using exec_pool.
      + apply bind_ok in H as (s2 & He & [[_ ->]| ->]); eauto using exec_pool.
    - unfold rollback_sp_op, set_nested in H. destruct (s_nested s) as [|a rest]; [injection H as <- <-; eauto|].
      destruct (a && _ && _); [|injection H as <- <-; eauto].
      destruct (exec_path s) as [s1 c1] eqn:He. injection H as <- <-. eauto using exec_pool.
    - unfold release_sp_op, set_nested in H. destruct (s_nested s) as [|[|] rest]; [injection H as <- <-; eauto| |injection H as <- <-; eauto].
      apply bind_ok in H as (s1 & He & [[_ ->]| ->]); eauto using exec_pool.
  Qed.

  Theorem invalidated_after_disconnect : forall o s s' c,
    step o s = (s', c) -> is_disc c = true -> invalidated s' = true.
  Proof.
    intros o s s' c H Hd. unfold invalidated.
    destruct (step_pool _ _ _ _ H) as (s1 & P & t & n & ->). cbn.
    enough (E : s_cur s1 = None) by (rewrite E; reflexivity).
    destruct P as [c Hq|s1 e c He Hc|s1 cid st0 k t0 n0 s2 c He _ Hcoh].
    - auto.
    - destruct (ensure_spec _ _ _ _ _ He) as (_ & _ & _ & X). destruct e; [apply X|congruence].
    - destruct (call_or_handle_spec _ _ _ _ _ _ _ Hcoh) as [(_ & -> & _)|(_ & _ & ->)]; [discriminate|].
      rewrite Hd. apply inval_cur.
  Qed.

  Theorem step_live : forall o s s' c, s_cur s <> None -> step o s = (s', c) ->
    if is_disc c then disc_shape lst s s' else same_pool s s'.
  Proof.
    intros o s s' c Hc H. destruct (step_pool _ _ _ _ H) as (s1 & P & t & n & ->).
    destruct P as [c Hq|s1 e c He Hq|s1 cid st0 k t0 n0 s2 c He _ Hcoh];
      try (rewrite (ensure_live faults lst s Hc) in He; injection He as <-; try subst e).
    - destruct (is_disc c); [destruct Hc; auto|repeat split].
    - rewrite Hq. repeat split.
    - exact (call_or_handle_live k cid (set_txn s t0 n0) s2 c Hc Hcoh).
  Qed.

  Theorem non_disconnect_leaves_pool_untouched : forall o s s' c,
    s_cur s <> None -> step o s = (s', c) -> is_disc c = false -> same_pool s s'.
  Proof. intros o s s' c Hc H Hn. pose proof (step_live o s s' c Hc H) as X. rewrite Hn in X. exact X. Qed.

  (* the transaction is kept or begun, the savepoints stay; ROk is never the answer without a transaction *)
  Definition txn_kept (s s' : st) (c : code) : Prop :=
    s_nested s' = s_nested s /\ (s_txn s' = s_txn s \/ (s_txn s = TNone /\ s_txn s' = TActive)) /\
    (c = ROk -> s_txn s' <> TNone).

  Lemma txn_kept_trans : forall s s1 s2 c1 c2, txn_kept s s1 c1 -> txn_kept s1 s2 c2 -> txn_kept s s2 c2.
  Proof.
    intros s s1 s2 c1 c2 (N1 & T1 & _) (N2 & T2 & R2). split; [congruence|]. split; [|exact R2].
    destruct T1 as [T1|[T1 T1']], T2 as [T2|[T2 T2']]; (left; congruence) || (right; split; congruence).
  Qed.

  Lemma exec_txn : forall s s' c, exec_path s = (s', c) -> txn_kept s s' c.
  Proof.
    intros s s' c H. destruct (ensure faults lst s) as [s1 [c0|]] eqn:He;
      destruct (ensure_spec _ _ _ _ _ He) as (A & B & _ & X).
    - unfold Disconnect.exec_path in H. rewrite He in H. injection H as <- <-.
      split; [exact B|]. split; [left; exact A|]. intros ->. destruct X as (_ & _ & [[]|[=]]).
    - destruct (exec_after_ensure s s1 He) as (cid & st0 & _ & Heq). rewrite Heq, autobegin_set in H.
      unfold txn_kept. rewrite <- A, <- B. destruct (inactive_check s1) eqn:Ei.
      + injection H as <- <-. repeat split; auto; discriminate.
      + (* the call runs inside a transaction: the one there was, or the one autobegin opened *)
        destruct (coh_txn _ _ _ _ _ H) as [T N]. cbn in T, N. rewrite T, N. unfold inactive_check in Ei.
        destruct (s_txn s1); try discriminate Ei; repeat split; auto; discriminate.
  Qed.

  Lemma begin_txn : forall s s' c, begin_op faults lst s = (s', c) -> txn_kept s s' c.
  Proof.
    intros s s' c H. unfold begin_op in H.
    destruct (s_txn s) eqn:Et; [|injection H as <- <-; repeat split; auto; discriminate..].
    destruct (ensure faults lst s) as [s1 [c0|]] eqn:He;
      destruct (ensure_spec _ _ _ _ _ He) as (A & B & _ & X); injection H as <- <-; unfold txn_kept; cbn; rewrite ?A, ?B, Et.
    - split; [reflexivity|]. split; [auto|]. intros ->. destruct X as (_ & _ & [[]|[=]]).
    - repeat split; auto; discriminate.
  Qed.

  (* the transaction goes on (kept or begun), and no savepoint appears outside one *)
  Definition txn_goes_on (s s' : st) : Prop :=
    (s_txn s' = s_txn s \/ (s_txn s = TNone /\ s_txn s' = TActive)) /\
    (s_txn s' = TNone -> s_nested s = [] -> s_nested s' = []).

  (* only rollback() and commit() end a transaction, and they take the savepoints with it *)
  Theorem step_txn : forall o s s' c, step o s = (s', c) ->
    txn_goes_on s s' \/
    (s_nested s' = [] /\ (o = ORollback \/ (o = OCommit /\ (c = ROk \/ s_txn s' = TInactive)))).
  Proof.
    intros o s s' c H.
    assert (same : txn_goes_on s s) by (split; auto).
    assert (kept : forall s1 c1, txn_kept s s1 c1 -> txn_goes_on s s1).
    { intros s1 c1 (N & T & _). split; [exact T|]. intros _ E. rewrite N. exact E. }
    destruct o; cbn [Disconnect.step] in H.
    - left. exact (kept _ _ (exec_txn _ _ _ H)).
    - left. exact (kept _ _ (begin_txn _ _ _ H)).
    - unfold commit_op in H. destruct (s_txn s); [injection H as <- <-; auto| |injection H as <- <-; auto].
      destruct (s_cur s) as [[cid st0]|]; [apply bind_ok in H as (s1 & _ & [[-> ->]| ->])|injection H as <- <-];
        right; cbn; auto 6.
    - unfold rollback_op in H. destruct (s_txn s); [injection H as <- <-; auto| |injection H as <- <-; right; auto].
      destruct (s_cur s) as [[cid st0]|]; [apply bind_ok in H as (s1 & _ & [[-> ->]| ->])|injection H as <- <-];
        right; cbn; auto.
    - left. unfold savepoint_op in H.
      destruct (match s_txn s with TNone => begin_op faults lst s | _ => (s, ROk) end) as [s1 c1] eqn:Hb.
      assert (K1 : txn_kept s s1 c1).
      { destruct (s_txn s) eqn:Et; [exact (begin_txn _ _ _ Hb)|injection Hb as <- <-; repeat split; auto; congruence..]. }
      destruct c1; try (injection H as <- <-; exact (kept _ _ K1)).
      apply bind_ok in H as (s2 & He & X).
      pose proof (txn_kept_trans _ _ _ _ _ K1 (exec_txn _ _ _ He)) as K2.
      destruct X as [[-> ->]| ->]; [|exact (kept _ _ K2)].
      (* the savepoint is pushed only after an execute that succeeded, hence inside a transaction *)
      destruct K2 as (_ & T & R). split; [exact T|]. intros E. destruct (R eq_refl E).
    - left. unfold rollback_sp_op in H. destruct (s_nested s) as [|a rest] eqn:En; [injection H as <- <-; exact same|].
      destruct (a && _ && _); [|injection H as <- <-; split; [auto|intros _ E; congruence]].
      destruct (exec_path s) as [s1 c1] eqn:He. destruct (exec_txn _ _ _ He) as (_ & T & _).
      injection H as <- <-. split; [exact T|intros _ E; congruence].
    - left. unfold release_sp_op in H.
      destruct (s_nested s) as [|[|] rest] eqn:En; [injection H as <- <-; exact same| |injection H as <- <-; exact same].
      apply bind_ok in H as (s1 & He & [[_ ->]| ->]); destruct (exec_txn _ _ _ He) as (_ & T & _);
        (split; [exact T|intros _ E; congruence]).
  Qed.

  Theorem transaction_survives_failure : forall o s s' c,
    in_txn s = true -> o <> ORollback -> step o s = (s', c) -> c <> ROk -> in_txn s' = true.
  Proof.
    unfold in_txn. intros o s s' c Ht Ho H Hc.
    destruct (step_txn _ _ _ _ H) as [[[E|[E _]] _]|[_ [E|(_ & [E|E])]]]; try congruence.
    - rewrite E. exact Ht.
    - rewrite E in Ht. discriminate.
    - rewrite E. reflexivity.
  Qed.

  (* no transaction in progress => no current savepoint: holds initially, kept by every operation *)
  Definition no_orphan_savepoint (s : st) : Prop := s_txn s = TNone -> s_nested s = [].

  Theorem step_orphan : forall o s s' c, no_orphan_savepoint s -> step o s = (s', c) -> no_orphan_savepoint s'.
  Proof.
    intros o s s' c HN H Ht.
    destruct (step_txn _ _ _ _ H) as [[[E|[_ E]] N]|[N _]]; [|congruence|exact N].
    apply N; [exact Ht|apply HN; congruence].
  Qed.

  Lemma final_orphan : forall h s, no_orphan_savepoint s -> no_orphan_savepoint (final faults lst h s).
  Proof.
    induction h as [|o h IH]; intros s HN; [exact HN|]. cbn [final].
    destruct (step o s) as [s1 c] eqn:Hs. cbn [fst]. apply IH. eapply step_orphan; eauto.
  Qed.

  Theorem disconnect_in_transaction_blocks : forall o s s' c,
    step o s = (s', c) -> is_disc c = true -> in_txn s' = true -> blocked s'.
  Proof.
    intros o s s' c H Hd Ht. split.
    - pose proof (invalidated_after_disconnect o s s' c H Hd) as Hi. unfold invalidated in Hi.
      destruct (s_cur s'); [discriminate|reflexivity].
    - unfold in_txn in Ht. destruct (s_txn s'); discriminate.
  Qed.

  Definition raising_op (o : op) : Prop := o = OExec \/ o = OBegin \/ o = OCommit \/ o = OSavepoint.

  Lemma blocked_step_eq : forall o s, blocked s -> step o s =
    match o with
    | OExec | OSavepoint => (s, RPending)
    | OBegin => (s, RInvalidReq)
    | OCommit =>
        match s_txn s with
        | TActive => (set_txn s TInactive [], pass_code lst RPending)
        | _ => (s, RPending)
        end
    | ORollback => (set_txn s TNone [], ROk)
    | ORollbackSp => match s_nested s with [] => (s, ROk) | _ :: rest => (set_nested s rest, ROk) end
    | OReleaseSp =>
        match s_nested s with
        | [] => (s, ROk)
        | true :: rest => (set_nested s (false :: rest), RPending)
        | false :: _ => (s, RPending)
        end
    end.
  Proof.
    intros o s Hb. pose proof Hb as [Hc Ht].
    destruct o; cbn [Disconnect.step];
      unfold begin_op, commit_op, rollback_op, savepoint_op, rollback_sp_op, release_sp_op;
      rewrite ?Hc; destruct (s_txn s); try congruence; cbn beta iota;
      rewrite ?(exec_blocked s Hb); try reflexivity; destruct (s_nested s) as [|[|] ?]; reflexivity.
  Qed.

  Theorem rollback_unblocks : forall s, blocked s ->
    step ORollback s = (set_txn s TNone [], ROk).
  Proof. intros s Hb. exact (blocked_step_eq ORollback s Hb). Qed.

  Lemma pass_code_cases : forall c, pass_code lst c = c \/ exists d, pass_code lst c = RCustom d.
  Proof.
    intros c. unfold pass_code. destruct (run_chain lst false true false) as [[d ip] [|]]; eauto.
  Qed.

  Lemma blocked_step : forall o s s' c, blocked s -> o <> ORollback -> step o s = (s', c) ->
    blocked s' /\ s_log s' = s_log s /\ s_n s' = s_n s /\
    match o with
    | OExec | OBegin | OCommit | OSavepoint => c = RPending \/ c = RInvalidReq \/ exists d, c = RCustom d
    | OReleaseSp => s_nested s <> [] -> c = RPending
    | _ => True
    end.
  Proof.
    intros o s s' c Hb Ho H. rewrite (blocked_step_eq o s Hb) in H. destruct Hb as [Hc Ht]. unfold blocked.
    destruct (pass_code_cases RPending) as [Hp|[d Hp]].
    all: destruct o; try congruence; [| |destruct (s_txn s) eqn:Et| |destruct (s_nested s)|destruct (s_nested s) as [|[|] ?]];
      injection H as <- <-; cbn; repeat split; eauto; discriminate || congruence.
  Qed.

  Lemma blocked_final : forall h s, blocked s -> ~ In ORollback h ->
    blocked (final faults lst h s) /\ s_log (final faults lst h s) = s_log s /\ s_n (final faults lst h s) = s_n s.
  Proof.
    induction h as [|o h IH]; intros s Hb Hn; [auto|].
    cbn [final]. destruct (step o s) as [s1 c] eqn:Hs. cbn [fst].
    destruct (blocked_step o s s1 c Hb (fun E => Hn (or_introl E)) Hs) as (B1 & L1 & N1 & _).
    destruct (IH s1 B1 (fun X => Hn (or_intror X))) as (B2 & L2 & N2). split; [exact B2|split; congruence].
  Qed.

  Theorem blocked_until_rollback : forall s h1 o s2 c, blocked s -> ~ In ORollback h1 -> o <> ORollback ->
    step o (final faults lst h1 s) = (s2, c) ->
    s_log s2 = s_log s /\ s_n s2 = s_n s /\ blocked s2 /\
    (raising_op o -> c = RPending \/ c = RInvalidReq \/ exists d, c = RCustom d) /\
    (o = OReleaseSp -> s_nested (final faults lst h1 s) <> [] -> c = RPending).
  Proof.
    intros s h1 o s2 c Hb Hn Ho Hs. destruct (blocked_final h1 s Hb Hn) as (B1 & L1 & N1).
    destruct (blocked_step o _ s2 c B1 Ho Hs) as (B2 & L2 & N2 & R).
    split; [congruence|]. split; [congruence|]. split; [exact B2|].
    split; [intros [-> | [-> | [-> | ->]]]; exact R|intros ->; exact R].
  Qed.

  Theorem reconnects_when_unblocked : forall s,
    s_cur s = None -> s_txn s = TNone -> head_inactive (s_nested s) = false ->
    faults (S (s_n s)) = FOk -> faults (S (S (s_n s))) = FOk ->
    exists s', step OExec s = (s', ROk) /\ invalidated s' = false /\ in_txn s' = true.
  Proof.
    intros s Hc Ht Hh F1 F2. cbn [Disconnect.step].
    destruct (checkout faults s) as [s1 f] eqn:Eco.
    destruct (checkout_frame _ _ _ _ Hc Eco) as (A & B & _ & _ & F & G). rewrite (F F1) in Eco.
    assert (He : ensure faults lst s = (s1, None)) by (unfold ensure; rewrite Hc, Ht, Eco; reflexivity).
    destruct (exec_after_ensure s s1 He) as (cid & st0 & Hc1 & ->).
    unfold inactive_check. rewrite autobegin_set, A, B, Ht, Hh. cbn [orb].
    destruct (call_or_handle _ _ _ _ _) as [s2 c] eqn:Hcoh.
    destruct (call_or_handle_spec _ _ _ _ _ _ _ Hcoh) as [(_ & -> & ->)|(X & _)].
    - eexists. split; [reflexivity|]. unfold invalidated, in_txn. cbn. rewrite Hc1. auto.
    - (* the checkout made at most one call, so the execute is at most the second *)
      cbn in X. destruct G as [G|G]; rewrite G in X; contradiction.
  Qed.

  Theorem reconnects_when_no_transaction : forall w h s, s = final faults lst h (init w) ->
    s_cur s = None -> s_txn s = TNone ->
    faults (S (s_n s)) = FOk -> faults (S (S (s_n s))) = FOk ->
    exists s', step OExec s = (s', ROk) /\ invalidated s' = false /\ in_txn s' = true.
  Proof.
    intros w h s -> Hc Ht F1 F2. apply reconnects_when_unblocked; auto.
    rewrite (final_orphan h (init w) (fun _ => eq_refl) Ht). reflexivity.
  Qed.

  Theorem reconnects_after_rollback : forall s, blocked s ->
    faults (S (s_n s)) = FOk -> faults (S (S (s_n s))) = FOk ->
    exists s', step OExec (fst (step ORollback s)) = (s', ROk) /\ invalidated s' = false /\
               s_log (fst (step ORollback s)) = s_log s.
  Proof.
    intros s Hb F1 F2. rewrite (rollback_unblocks s Hb). cbn [fst].
    destruct Hb as [Hc Ht].
    destruct (reconnects_when_unblocked (set_txn s TNone [])) as (s' & H1 & H2 & _); auto.
    exists s'. auto.
  Qed.
End S.
