(* C10 - simulation between the model of the implementation (ResultModel.istep) and the list model
   (ResultSpec.sstep), lifted to arbitrary operation sequences *)
From Coq Require Import List ZArith Bool Arith Lia.
Import ListNotations.
From SAV.engine Require Import ResultModel ResultSpec ResultFetchProofs ResultViewProofs ResultOnlyOneProofs.

Definition erase (v : view) : sview := {| skind := kind v; scols := cols v; sufs := ufs v |}.
(* every memoised attribute agrees with the view's current uniqueness state *)
Definition memo_ok (v : view) : Prop :=
  (forall m, mu v = Some m -> ufs v = Some m) /\ (forall g c, slot_of g v = Some c -> c = ufs v).

(* The simulation relation.  The list state is the implementation state with the fetch layer read as its
   remaining rows and the views erased; beyond that: a hard-closed result holds no rows (R_wf), memoised
   getters agree with the view they belong to (R_rootmemo, R_fmemo: so a memoised getter behaves like a fresh
   one), the result itself stays a row view (R_rootkind: preserved, no step relies on it), and every seen-set
   a view names is a cell of the heap (R_uroot, R_ufview: what is written to it is read back). *)
Record R (i : istate) (s : sstate) : Prop := mkR {
  R_rem : rem s = remaining (fs i);
  R_closed : sclosed s = hardc (fs i);
  R_yp : syp s = yp i;
  R_hp : shp s = hp i;
  R_root : sroot s = erase (rootv i);
  R_fview : sfview s = option_map erase (fview i);
  R_wf : fwf (fs i);
  R_rootmemo : memo_ok (rootv i);
  R_fmemo : forall v, fview i = Some v -> memo_ok v;
  R_rootkind : kind (rootv i) = VRoot;
  R_uroot : u_ok (hp i) (ufs (rootv i));
  R_ufview : forall v, fview i = Some v -> u_ok (hp i) (ufs v) }.

Lemma eff_u_memo_ok v : memo_ok v -> eff_u v = ufs v.
Proof.
  intros [M _]. unfold eff_u. destruct (ufs v) as [u|] eqn:U; auto.
  destruct (mu v) as [m|] eqn:E; auto. specialize (M m eq_refl). congruence.
Qed.
Lemma memo_ok_mkview k c u : memo_ok (mkview k c u).
Proof. split; [cbn; intros; discriminate|]. intros [] c0; cbn; intros; discriminate. Qed.

(* [v1] is [v] with more memoised, consistently *)
Definition refresh (v v1 : view) : Prop :=
  kind v1 = kind v /\ cols v1 = cols v /\ ufs v1 = ufs v /\ memo_ok v1.

Lemma refresh_refl v : memo_ok v -> refresh v v.
Proof. unfold refresh. auto. Qed.
Lemma refresh_touch v : memo_ok v -> refresh v (touch_mu v).
Proof.
  intros M. unfold touch_mu. destruct (ufs v) as [u|] eqn:U, (mu v) eqn:Mu; try (apply refresh_refl, M).
  destruct M as [_ S]. repeat split; cbn; auto.
  intros g c. rewrite <- U. exact (S g c).
Qed.
Lemma refresh_getter g v cu v1 : memo_ok v -> use_getter g v = (cu, v1) -> cu = ufs v /\ refresh v v1.
Proof.
  intros M. unfold use_getter. destruct (slot_of g v) as [c|] eqn:S; intros [= <- <-].
  - split; [apply (proj2 M g), S|apply refresh_refl, M].
  - destruct (refresh_touch v M) as (K & C & U & M1 & S1). rewrite (eff_u_memo_ok v M).
    split; [reflexivity|]. destruct g; (repeat split; [assumption..|]);
      intros g' c; destruct g'; cbn;
      first [intros [= <-]; auto | exact (S1 GOne c) | exact (S1 GMany c) | exact (S1 GIter c)].
Qed.

Lemma scur_erase i s : R i s -> scur s = erase (cur_view i).
Proof.
  intros H. unfold scur, cur_view. rewrite (R_fview _ _ H), (R_root _ _ H). destruct (fview i); reflexivity.
Qed.
Lemma cur_u_ok i s : R i s -> u_ok (hp i) (ufs (cur_view i)).
Proof.
  intros H. unfold cur_view. destruct (fview i) eqn:F; [apply (R_ufview _ _ H); exact F|apply (R_uroot _ _ H)].
Qed.
Lemma cur_memo i s : R i s -> memo_ok (cur_view i).
Proof.
  intros H. unfold cur_view. destruct (fview i) eqn:F; [apply (R_fmemo _ _ H); exact F|apply (R_rootmemo _ _ H)].
Qed.
Lemma cur_kind_root i s : R i s -> fview i = None -> kind (cur_view i) = VRoot.
Proof. intros H F. unfold cur_view. rewrite F. apply (R_rootkind _ _ H). Qed.
Lemma set_scur_scur s : set_scur s (scur s) = s.
Proof. unfold set_scur, scur. destruct s as [a b c d e [f|]]; reflexivity. Qed.

(* new fetch state and seen-sets (no set is dropped), same views *)
Lemma R_set_fetch i s f h r cl :
  R i s -> remaining f = r -> hardc f = cl -> fwf f -> length (hp i) <= length h ->
  R {| fs := f; yp := yp i; hp := h; rootv := rootv i; fview := fview i |}
    {| rem := r; sclosed := cl; syp := syp s; shp := h; sroot := sroot s; sfview := sfview s |}.
Proof.
  intros H Hr Hcl W L. constructor; cbn; auto; try apply H.
  - apply (u_ok_len (hp i)); [exact L|apply H].
  - intros v Hv. apply (u_ok_len (hp i)); [exact L|apply (R_ufview _ _ H v Hv)].
Qed.
Lemma R_set_view i s v' sv :
  R i s -> sv = erase v' -> memo_ok v' -> (fview i = None -> kind v' = VRoot) -> u_ok (hp i) (ufs v') ->
  R (set_cur_view i v') (set_scur s sv).
Proof.
  intros H -> M K U. unfold set_cur_view, set_scur. rewrite (R_fview _ _ H).
  destruct (fview i) as [v0|] eqn:F; cbn [option_map].
  - constructor; cbn [fs yp hp rootv fview rem sclosed syp shp sroot sfview option_map]; auto;
      try (intros v Hv; inversion Hv; subst; assumption); apply H.
  - constructor; cbn [fs yp hp rootv fview rem sclosed syp shp sroot sfview option_map]; auto;
      try (intros v Hv; discriminate); apply H.
Qed.
(* both at once: what a row-delivering call does *)
Lemma R_fetch i s v1 f1 h1 r cl :
  R i s -> refresh (cur_view i) v1 ->
  remaining f1 = r -> hardc f1 = cl -> fwf f1 -> length (hp i) <= length h1 ->
  R (with_fetch i v1 f1 h1)
    {| rem := r; sclosed := cl; syp := syp s; shp := h1; sroot := sroot s; sfview := sfview s |}.
Proof.
  intros H (K & C & U & M) Hr Hcl W L.
  pose proof (R_set_fetch i s f1 h1 r cl H Hr Hcl W L) as H1.
  rewrite <- (set_scur_scur {| rem := r |}). apply R_set_view; auto.
  - rewrite (scur_erase _ _ H1). unfold erase. rewrite K, C, U. reflexivity.
  - intros F. rewrite K. apply (cur_kind_root i s H F).
  - rewrite U. apply (u_ok_len (hp i)); [exact L|apply (cur_u_ok i s H)].
Qed.
Lemma R_memo i s v1 : R i s -> refresh (cur_view i) v1 -> R (with_fetch i v1 (fs i) (hp i)) s.
Proof.
  intros H Rf.
  pose proof (R_fetch i s v1 (fs i) (hp i) _ _ H Rf (eq_sym (R_rem _ _ H)) (eq_sym (R_closed _ _ H))
                (R_wf _ _ H) (le_n _)) as H'.
  rewrite <- (R_hp _ _ H) in H' at 2. destruct s; exact H'.
Qed.

Definition sim_out (p : istate * outcome) (q : sstate * outcome) : Prop := snd p = snd q /\ R (fst p) (fst q).

(* the shape of every row-delivering call of the list model: [L] on the remaining rows and seen-sets *)
Definition sfetch {B} (L : list row -> heap -> B * list row * heap) (g : B -> outcome) (s : sstate) : sstate * outcome :=
  if sclosed s then closed_err s else
  let '(b, r, h) := L (rem s) (shp s) in
  ({| rem := r; sclosed := sclosed s; syp := syp s; shp := h; sroot := sroot s; sfview := sfview s |}, g b).

(* ([n] may depend on the rows: all() asks for as many as there are) *)
Lemma sfetch_deliver i s (n : list row -> nat) g : R i s ->
  (if sclosed s then closed_err s else let '(d, s1) := deliver (scur s) (n (rem s)) s in (s1, g d)) =
  sfetch (fun rm => adeliver (ufs (cur_view i)) (cols (cur_view i)) (n rm) rm) g s.
Proof.
  intros H. unfold sfetch, deliver. rewrite (scur_erase i s H). cbn [erase sufs scols].
  destruct (adeliver _ _ (n (rem s)) (rem s) (shp s)) as [[d r] h]. reflexivity.
Qed.

(* A getter that computes [L], called through the (possibly refreshed) current view, against [sfetch L]. *)
Lemma sim_fetch {A B} (F : fstate -> heap -> fstate * heap * res A) (L : list row -> heap -> B * list row * heap)
    (ret : B -> A) (g : A -> outcome) (g' : B -> outcome) i s :
  R i s -> computes (ufs (cur_view i)) F L ret -> (forall rm h, length (snd (L rm h)) = length h) ->
  (forall b, g (ret b) = g' b) ->
  forall f1 h1 r v1, F (fs i) (hp i) = (f1, h1, r) -> refresh (cur_view i) v1 ->
  sim_out (with_fetch i v1 f1 h1, out_of g r) (sfetch L g' s).
Proof.
  intros H [FC FO] HL Hg f1 h1 r v1 E Rf. unfold sfetch. rewrite (R_closed _ _ H).
  destruct (hardc (fs i)) eqn:Hc.
  - rewrite (FC _ _ (R_wf _ _ H) Hc) in E. injection E as <- <- <-. split; [reflexivity|apply R_memo; assumption].
  - rewrite (R_rem _ _ H), (R_hp _ _ H). specialize (HL (remaining (fs i)) (hp i)).
    destruct (L (remaining (fs i)) (hp i)) as [[b r1] h'] eqn:EL.
    destruct (FO _ _ b r1 h' Hc (cur_u_ok i s H) EL) as (f' & E' & R1 & Hc1). rewrite E' in E. injection E as <- <- <-.
    split; [apply Hg|]. apply R_fetch; auto using fwf_open. cbn in HL. lia.
Qed.

(* the same for a getter read from its memoised slot [g]: it works with the view's current uniqueness state *)
Lemma sim_getter {A B} g (F : option ustate -> fstate -> heap -> fstate * heap * res A)
    (L : list row -> heap -> B * list row * heap) ret out out' i s :
  R i s -> computes (ufs (cur_view i)) (F (ufs (cur_view i))) L ret ->
  (forall rm h, length (snd (L rm h)) = length h) -> (forall b, out (ret b) = out' b) ->
  sim_out (let '(cu, v1) := use_getter g (cur_view i) in
           let '(f1, h1, r) := F cu (fs i) (hp i) in (with_fetch i v1 f1 h1, out_of out r))
          (sfetch L out' s).
Proof.
  intros H C HL Hg. destruct (use_getter g (cur_view i)) as [cu v1] eqn:E.
  destruct (refresh_getter _ _ _ _ (cur_memo i s H) E) as [-> Rf].
  destruct (F _ (fs i) (hp i)) as [[f1 h1] r] eqn:E1. apply (sim_fetch _ _ _ _ _ _ _ H C HL Hg _ _ _ _ E1 Rf).
Qed.

Lemma sparts_aparts sv n : forall k s0 acc,
  sparts k sv n s0 acc =
  (let '(ps, st, r, h) := aparts k (sufs sv) (scols sv) n (rem s0) (shp s0) acc in
   (ps, st, {| rem := r; sclosed := sclosed s0; syp := syp s0; shp := h; sroot := sroot s0; sfview := sfview s0 |})).
Proof.
  induction k as [|k IH]; intros s0 acc.
  - cbn. destruct s0; reflexivity.
  - cbn [sparts aparts]. unfold deliver.
    destruct (adeliver (sufs sv) (scols sv) n (rem s0) (shp s0)) as [[d r] h] eqn:A.
    destruct d as [|p d']; [reflexivity|].
    rewrite IH. cbn [sroot sfview rem shp sclosed syp]. reflexivity.
Qed.

Lemma sfetch_parts i s k n (g : list (list row) -> bool -> outcome) : R i s ->
  (if sclosed s then closed_err s else let '(ps, st, s1) := sparts k (scur s) n s [] in (s1, g ps st)) =
  sfetch (fun rm h => aparts k (ufs (cur_view i)) (cols (cur_view i)) n rm h []) (fun x => g (fst x) (snd x)) s.
Proof.
  intros H. unfold sfetch. rewrite sparts_aparts, (scur_erase i s H). cbn [erase sufs scols].
  destruct (aparts k _ _ n (rem s) (shp s) []) as [[[ps st] r] h]. reflexivity.
Qed.

Lemma sim_only_one i s second none scalar : R i s ->
  hardc (fs i) || seen_empty (hp i) (cur_view i) && negb (softc (fs i)) = true ->
  sim_out (let '(f1, r) := only_one_row (cur_view i) second none scalar (fs i) in
           (with_fetch i (cur_view i) f1 (hp i),
            out_of (fun x => match x with Some it => OItem it | None => ONoRow end) r))
          (if sclosed s then closed_err s
           else (close_spec s, only_one_out (post (kind (cur_view i)) (cols (cur_view i))) second none scalar (peek2 (scur s) s))).
Proof.
  intros H G. pose proof (cur_memo i s H) as M. pose proof (refresh_refl _ M) as Rf.
  rewrite (R_closed _ _ H). destruct (hardc (fs i)) eqn:Hc; cbn [orb] in G.
  - rewrite (only_one_closed _ _ _ _ _ (R_wf _ _ H) Hc). split; [reflexivity|apply R_memo; assumption].
  - apply andb_prop in G. destruct G as [G2 G3]. apply negb_true_iff in G3.
    destruct (only_one_ok (cur_view i) second none scalar (fs i) (hp i) Hc G3 G2 (eff_u_memo_ok _ M))
      as (f1 & r & E1 & Eo & R1 & W1 & Hc1).
    rewrite E1. unfold peek2. rewrite (scur_erase i s H). cbn [erase sufs scols]. rewrite (R_rem _ _ H), (R_hp _ _ H).
    split; [exact Eo|]. unfold close_spec. rewrite (R_hp _ _ H). apply R_fetch; auto.
Qed.

Theorem step_sim i s o : R i s -> op_ok i o = true ->
  snd (istep i o) = snd (sstep s o) /\ R (fst (istep i o)) (fst (sstep s o)).
Proof.
  intros H G. change (sim_out (istep i o) (sstep s o)).
  pose proof (scur_erase i s H) as SC. pose proof (cur_memo i s H) as M.
  assert (Keep : forall e, sim_out (i, OErr e) (s, OErr e)) by (split; [reflexivity|exact H]).
  destruct o; unfold op_ok in G; unfold istep, sstep; try rewrite SC; cbn [erase skind scols sufs]; try rewrite <- SC.
  - (* fetchone *)
    rewrite (sfetch_deliver i s (fun _ => 1) _ H).
    destruct (kind (cur_view i)) eqn:K; [|apply Keep|];
      (eapply (sim_getter GOne (fun cu => onerow cu _)); [exact H|apply onerow_computes|apply adeliver_heap_length|]);
      intros [|p d]; reflexivity.
  - (* next *)
    rewrite (sfetch_deliver i s (fun _ => 1) _ H).
    eapply (sim_getter GOne (fun cu => onerow cu _)); [exact H|apply onerow_computes|apply adeliver_heap_length|].
    intros [|p d]; reflexivity.
  - (* iterate *)
    destruct k as [|k].
    + destruct (use_getter GIter (cur_view i)) as [cu v1] eqn:E.
      split; [reflexivity|apply R_memo, (refresh_getter _ _ _ _ M E); exact H].
    + rewrite (sfetch_deliver i s (fun _ => S k) _ H).
      eapply (sim_getter GIter (fun cu f h => iter_loop (S k) cu _ f h []));
        [exact H|apply iter_computes|apply adeliver_heap_length|reflexivity].
  - (* fetchmany *)
    rewrite (sfetch_deliver i s (fun _ => size_of n (syp s)) _ H), (R_yp _ _ H).
    eapply (sim_getter GMany (fun cu => manyrows cu _ _ n));
      [exact H|apply manyrows_computes, G|apply adeliver_heap_length|reflexivity].
  - (* partitions *)
    destruct k as [|k]; [split; [reflexivity|exact H]|]. cbn [Nat.eqb orb] in G.
    rewrite (sfetch_parts i s (S k) _ _ H), (R_yp _ _ H).
    eapply (sim_getter GMany (fun cu f h => parts_loop (S k) cu _ _ n f h []));
      [exact H|apply parts_computes, manyrows_computes, G|intros; apply aparts_heap_length|reflexivity].
  - (* all *)
    rewrite (sfetch_deliver i s (@length row) _ H), (eff_u_memo_ok _ M).
    destruct (allrows _ _ (fs i) (hp i)) as [[f1 h1] r] eqn:E1.
    eapply sim_fetch; [exact H|apply allrows_computes|intros; apply adeliver_heap_length| |exact E1|].
    + reflexivity.
    + destruct r; [apply refresh_touch|apply refresh_refl..]; exact M.
  - (* first / one / one_or_none / scalar... *)
    destruct (oo_flags w) as [[second none] scalar].
    destruct (kind (cur_view i)) eqn:K, scalar; try apply Keep; rewrite <- ?K; apply sim_only_one; assumption.
  - (* back to the result *)
    split; [reflexivity|]. constructor; cbn; try (intros v Hv; discriminate); try (apply H); auto.
  - (* scalars *)
    rewrite (R_root _ _ H). cbn [erase scols sufs].
    destruct (reduce_cols (cols (rootv i)) [i0]) as [c|]; [|apply Keep].
    split; [reflexivity|]. constructor; cbn; try (apply H); auto.
    + intros v Hv. inversion Hv; subst. apply memo_ok_mkview.
    + intros v Hv. inversion Hv; subst. cbn. apply (R_uroot _ _ H).
  - (* mappings *)
    rewrite (R_root _ _ H). cbn [erase scols sufs fst snd].
    split; [reflexivity|]. constructor; cbn; try (apply H); auto.
    + intros v Hv. inversion Hv; subst. apply memo_ok_mkview.
    + intros v Hv. inversion Hv; subst. cbn. apply (R_uroot _ _ H).
  - (* columns *)
    assert (Setv : forall v' sv, sv = erase v' -> kind v' = kind (cur_view i) -> ufs v' = ufs (cur_view i) ->
                    memo_ok v' -> R (set_cur_view i v') (set_scur s sv)).
    { intros v' sv Es K' U' M'. apply R_set_view; auto.
      - intros F. rewrite K'. apply (cur_kind_root i s H F).
      - rewrite U'. apply (cur_u_ok i s H). }
    destruct (kind (cur_view i)) eqn:K; [|apply Keep|];
      (destruct (reduce_cols (cols (cur_view i)) idx) as [c|]; (split; [reflexivity|]); cbn [fst];
       [|rewrite <- (set_scur_scur s), SC]; (apply Setv;
       [unfold erase; cbn; rewrite ?K; reflexivity|exact K|reflexivity|apply memo_ok_mkview])).
  - (* unique: the new seen-set is the next heap cell *)
    split; [reflexivity|]. cbn [fst]. rewrite (R_hp _ _ H).
    apply R_set_view; [|reflexivity|apply memo_ok_mkview| |].
    + apply R_set_fetch; auto using (R_wf _ _ H); [symmetry; apply H..|]. rewrite app_length. lia.
    + intros F. apply (cur_kind_root i s H F).
    + cbn. rewrite app_length. cbn. lia.
  - (* yield_per *)
    split; [reflexivity|]. destruct (yield_per_spec n (fs i) (R_wf _ _ H)) as (Y1 & Y2 & Y3).
    constructor; cbn [fst fs yp hp rootv fview rem sclosed syp shp sroot sfview]; rewrite ?Y1, ?Y2;
      try exact Y3; try apply memo_ok_mkview; try apply H; auto.
    + rewrite (R_fview _ _ H). destruct (fview i); reflexivity.
    + intros v Hv. destruct (fview i); inversion Hv. apply memo_ok_mkview.
    + intros v Hv. destruct (fview i) as [v0|] eqn:F; inversion Hv. apply (R_ufview _ _ H v0 F).
  - (* close *)
    split; [reflexivity|]. destruct (soft_close_spec true (fs i) (R_wf _ _ H)) as (C1 & C2 & C3).
    unfold close_spec. rewrite (R_hp _ _ H). apply R_set_fetch; auto.
  - (* freeze *)
    destruct (allrows_computes (ufs (rootv i)) (cols (rootv i))) as [AC AO].
    rewrite (R_closed _ _ H), (eff_u_memo_ok _ (R_rootmemo _ _ H)). destruct (hardc (fs i)) eqn:Hc.
    + rewrite (AC _ _ (R_wf _ _ H) Hc). apply Keep.
    + unfold deliver. rewrite (R_root _ _ H). cbn [erase sufs scols]. rewrite (R_rem _ _ H), (R_hp _ _ H).
      destruct (adeliver (ufs (rootv i)) (cols (rootv i)) (length (remaining (fs i))) (remaining (fs i)) (hp i))
        as [[d r] h'] eqn:A.
      destruct (AO _ _ d r h' Hc (R_uroot _ _ H) A) as (f1 & E1 & _). rewrite E1.
      split; [reflexivity|]. constructor; cbn; auto using memo_ok_mkview; try (intros v Hv; discriminate).
      intros Hx; discriminate.
Qed.

Lemma run_sim : forall ops i s, R i s -> guard_from i ops = true -> irun i ops = srun s ops.
Proof.
  induction ops as [|o t IH]; intros i s H G; [reflexivity|].
  cbn [guard_from] in G. apply andb_prop in G. destruct G as [G1 G2].
  destruct (step_sim i s o H G1) as [E R'].
  cbn [irun srun]. destruct (istep i o) as [i1 o1] eqn:E1. destruct (sstep s o) as [s1 o2] eqn:E2.
  cbn [fst snd] in *. subst o2. rewrite (R_closed _ _ R'). f_equal. apply IH; assumption.
Qed.

Lemma R_init st w rows : R (init_state st w rows) (init_spec w rows).
Proof.
  constructor; cbn; auto; try (intros v Hv; discriminate).
  - unfold remaining. cbn. symmetry. apply init_remaining.
  - intros Hx; discriminate.
  - apply memo_ok_mkview.
Qed.

Theorem all_sequences_guarded st w rows ops :
  guard st w rows ops = true -> run_impl st w rows ops = run_spec w rows ops.
Proof. intros G. apply run_sim; [apply R_init|exact G]. Qed.

(* no loop of the model ever runs out of fuel inside the guarded region *)
Lemma sstep_no_fuel s o : snd (sstep s o) <> OFuel.
Proof.
  unfold sstep, closed_err. destruct o; cbn [snd];
    repeat match goal with
    | |- context [let '(_, _) := ?x in _] => destruct x
    | |- context [match ?x with _ => _ end] => destruct x
    | |- context [if ?x then _ else _] => destruct x
    end; cbn [snd]; discriminate.
Qed.
Lemma srun_no_fuel : forall ops s, ~ In OFuel (map fst (srun s ops)).
Proof.
  induction ops as [|o t IH]; intros s; cbn [srun map]; [intros []|].
  pose proof (sstep_no_fuel s o) as N.
  destruct (sstep s o) as [s1 out] eqn:E. cbn [map fst snd] in *. intros [Hx|Hx]; [|apply (IH s1 Hx)].
  apply N. exact Hx.
Qed.
Theorem fuel_suffices st w rows ops :
  guard st w rows ops = true -> ~ In OFuel (map fst (run_impl st w rows ops)).
Proof. intros G. rewrite (all_sequences_guarded st w rows ops G). apply srun_no_fuel. Qed.
