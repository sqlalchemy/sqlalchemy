(* C26 - the step invariant behind overflow_consistent: the accounting invariant of PoolSeqAccProofs together
   with the links between fairies and records ([Linked]), kept by every harness operation. *)
From Coq Require Import List ZArith Bool Arith Lia.
Import ListNotations.
From SAV.engine Require Import PoolSeq PoolSeqFrame PoolSeqOpOn PoolSeqLeakProofs PoolSeqAccProofs.
Open Scope Z_scope.

Section Acc2.
Variable cf : cfg.
Hypothesis KQ : kind cf = KQueue.
Hypothesis PS : 0 <= psize cf.
Hypothesis MO : -1 <= maxov cf.

Notation Accounting := (Accounting cf).
(* an update that leaves queue, overflow counter, records and fairy_refs alone *)
Ltac a_leaf := eapply Accounting_frame; [reflexivity|reflexivity|reflexivity|reflexivity|auto|].

Lemma Accounting_untainted : forall fl s, Accounting fl s -> taint s = false -> Acc cf fl (q s) (overflow s) (nrecs s) (r_fairy s).
Proof. intros fl s [T|H] Hn; [congruence|exact H]. Qed.

Lemma do_return_conn_raise : forall r s e s', do_return_conn cf r s = (Raise e, s') -> taint s' = true.
Proof.
  unfold do_return_conn; rewrite KQ; intros r s e s' H. dm H; [|inv H].
  destruct (rec_close_if_open r s) as [[|e0] s1] eqn:Ec; inv H.
  change (taint (dec_overflow s1)) with (taint s1). apply tc_taint. eapply rec_close_if_open_raise; eauto.
Qed.

Definition RecOrig (s : st) : Prop :=
  forall f r, f_rec s f = Some r -> r = f_orig s f /\ (f < nfairies s)%nat.
(* every live fairy, except [o], that points to a record is that record's fairy; void once tainted *)
Definition LinkedExcept (o : option nat) (s : st) : Prop :=
  taint s = true \/
  (RecOrig s /\ forall g r, o <> Some g -> f_dead s g = false -> f_rec s g = Some r -> r_fairy s r = Some g).
Notation Linked := (LinkedExcept None).

Lemma LinkedExcept_weaken : forall o s, Linked s -> LinkedExcept o s.
Proof. intros o s [T|[RO RB]]; [left; auto|right; split; auto]. intros g r _. apply RB. discriminate. Qed.

Lemma LinkedExcept_frame : forall o s s', nfairies s' = nfairies s -> (forall g, f_orig s' g = f_orig s g) ->
  (forall g, f_dead s' g = f_dead s g) -> (forall g, f_rec s' g = f_rec s g) ->
  (forall r, r_fairy s' r = r_fairy s r) -> (taint s = true -> taint s' = true) -> LinkedExcept o s -> LinkedExcept o s'.
Proof.
  intros o s s' E1 E2 E3 E4 E5 ET [T|[RO RB]]; [left; auto|right]. split.
  - intros g r Hr. rewrite E4 in Hr. rewrite E1, E2. apply RO; auto.
  - intros g r Ho Hd Hr. rewrite E3 in Hd. rewrite E4 in Hr. rewrite E5. apply RB; auto.
Qed.
Lemma LinkedExcept_rl : forall o s s', RecLevel s s' -> LinkedExcept o s -> LinkedExcept o s'.
Proof.
  intros o s s' R. pose proof (RecLevel_taint _ _ R). destruct R.
  apply LinkedExcept_frame; auto; intros; unfold nfairies, f_orig, f_dead, f_rec; rewrite ?rl_fr, ?rl_fairy; reflexivity.
Qed.

(* an operation that makes no fairy keeps the links; only the records it may clear need a look *)
Lemma LinkedExcept_touch : forall o (F C : nat -> Prop) s s', Linked s -> Touch F C s s' ->
  (taint s' = false ->
   (forall g r, f_dead s g = false -> f_rec s g = Some r -> r_fairy s r = Some g) ->
   forall g r, C r -> o <> Some g -> f_dead s g = false -> f_rec s g = Some r -> f_rec s' g = Some r ->
               r_fairy s' r = Some g) ->
  LinkedExcept o s'.
Proof.
  intros o F C s s' L T HC. destruct (taint s') eqn:Tt; [left; auto|right].
  pose proof (Mono_taint_false _ _ (Touch_Mono _ _ _ _ T) Tt) as T0. destruct L as [L|[RO RB]]; [congruence|].
  assert (RB' : forall g r, f_dead s g = false -> f_rec s g = Some r -> r_fairy s r = Some g)
    by (intros g r; apply RB; discriminate).
  destruct T as [(N1 & N2 & N3) Tr Tf _ _ _ _ _].
  assert (Old : forall g r, f_rec s' g = Some r -> f_rec s g = Some r)
    by (intros g r H; destruct (Tr g) as [E|[_ E]]; congruence).
  split.
  - intros g r Hr. rewrite N1, N2. apply RO, Old; auto.
  - intros g r Ho Hd Hr. rewrite N3 in Hd. pose proof (Old _ _ Hr) as Hr0.
    destruct (Tf r) as [E|[Cr _]]; [rewrite E; auto|]. apply (HC eq_refl RB'); auto.
Qed.

(* an operation on a live fairy f touches f's record only: the links survive if f's own link is cleared
   together with the record's fairy_ref *)
Lemma Linked_on_fairy : forall (F : nat -> Prop) f s s', Linked s -> f_dead s f = false ->
  Touch F (fun r => f_rec s f = Some r) s s' ->
  (forall r, f_rec s f = Some r -> r_fairy s r = Some f -> f_rec s' f = Some r -> taint s' = true) -> Linked s'.
Proof.
  intros F f s s' L Hd T Hc. apply (LinkedExcept_touch None _ _ s s' L T). intros Tt RB g r Cr _ Hdg Hg Hg'.
  pose proof (RB _ _ Hdg Hg) as Eg. pose proof (RB _ _ Hd Cr) as Ef. assert (g = f) by congruence. subst g.
  rewrite (Hc r Cr Ef Hg') in Tt. discriminate.
Qed.

Lemma finalize_acc : forall dbc r gcf twr fy s x s', finalize cf dbc r gcf twr fy s = (x, s') -> Accounting None s -> Accounting None s'.
Proof.
  intros dbc r gcf twr fy s x s' H. refine (finalize_inv cf (Accounting None) r fy _ _ _ _ dbc gcf twr s x s' H).
  - intros a b R HA. eapply Accounting_rl; eauto.
  - intros a HA. apply (Accounting_frame cf None a); auto. unfold taint; cbn. intros _. apply orb_true_r.
  - intros r0 a y b _ Hc HA. eapply rec_checkin_acc; eauto. intros; discriminate.
  - intros a HA. unfold clear_fairy. destruct fy; [apply (Accounting_frame cf None a); auto|exact HA].
Qed.

(* an explicit check-in of r0 while it belongs to f ends with the fairy cleared, or tainted *)
Lemma finalize_cleared : forall dbc r0 twr f s x s', finalize cf dbc (Some r0) None twr (Some f) s = (x, s') ->
  r_fairy s r0 = Some f -> f_rec s' f = Some r0 -> taint s' = true.
Proof.
  intros dbc r0 twr f s x s' H Hl Hl'. apply finalize_cases in H. cbn [stale_ref] in H.
  destruct H as (sa & R & [[Tc ->]|(w & sb & Ec & ->)]); [exact (tc_taint _ Tc)|].
  assert (Ha : r_fairy sa r0 = Some f) by (rewrite (rl_fairy _ _ R); exact Hl).
  unfold checkin_owned in Ec. rewrite Ha in Ec. destruct w.
  - cbn in Hl'. rewrite upd_same in Hl'. discriminate.
  - unfold rec_checkin in Ec. rewrite Ha in Ec. eapply do_return_conn_raise; eauto.
Qed.

(* what every operation on a live fairy f keeps *)
Definition LiveOk (f : nat) (s : st) : Prop := Accounting None s /\ f_dead s f = false /\ Linked s.

Lemma LiveOk_closed : forall f, FairyClosed cf f (LiveOk f).
Proof.
  intros f.
  assert (Own : forall a v, nfairies_ v = nfairies a -> f_orig_ v = f_orig a -> f_dead_ v = f_dead a ->
            f_rec_ v = f_rec a -> LiveOk f a -> LiveOk f (set_fr a v)).
  { intros a v E1 E2 E3 E4 (HA & Hd & L). split; [a_leaf; auto|].
    split; [change (f_dead_ v f = false); rewrite E3; exact Hd|].
    apply (LinkedExcept_frame None a); auto; intros g;
      [exact (f_equal (fun m => m g) E2)|exact (f_equal (fun m => m g) E3)|exact (f_equal (fun m => m g) E4)]. }
  split.
  - intros a b R (HA & Hd & L). split; [eapply Accounting_rl; eauto|].
    split; [unfold f_dead; rewrite (rl_fr _ _ R); exact Hd|eapply LinkedExcept_rl; eauto].
  - intros a n. apply Own; reflexivity.
  - intros a v. apply Own; reflexivity.
  - intros twr a y b H (HA & Hd & L). unfold fairy_checkin in H.
    pose proof (finalize_touch _ _ _ _ _ _ _ _ _ H) as T.
    split; [eapply finalize_acc; eauto|]. split; [rewrite (proj2 (proj2 (t_nf _ _ _ _ T))); exact Hd|].
    apply (Linked_on_fairy _ f a b L Hd T). intros r Cr Ef Hg'. rewrite Cr in H.
    exact (finalize_cleared _ _ _ _ _ _ _ H Ef Hg').
Qed.

Lemma fairy_detach_acc : forall f s x s', fairy_detach cf f s = (x, s') -> Accounting None s ->
  (forall r, f_rec s f = Some r -> r_fairy s r <> None) ->
  Accounting None s' /\ (forall r0, f_rec s' f = Some r0 -> taint s' = true).
Proof.
  intros f s x s' H HA Hr. apply fairy_detach_cases in H.
  destruct (f_rec s f) as [r|] eqn:Er; [|subst; split; [auto|intros; congruence]].
  destruct H as (sx & y & s4 & R & E1 & ->).
  pose proof (do_return_conn_acc cf KQ _ _ _ _ E1 (Accounting_rl cf _ _ _ R (Accounting_clear cf r s HA (Hr r eq_refl)))) as A4.
  destruct y.
  - split; [a_leaf; auto|]. intros r0 H0. cbn in H0. rewrite upd_same in H0. discriminate.
  - split; [exact A4|]. intros. eapply do_return_conn_raise; eauto.
Qed.

Lemma fairy_detach_LiveOk : forall f s x s', fairy_detach cf f s = (x, s') -> LiveOk f s -> LiveOk f s'.
Proof.
  intros f s x s' H (HA & Hd & L). pose proof (fairy_detach_touch _ _ _ _ _ H) as T.
  pose proof (Touch_Mono _ _ _ _ T) as M.
  assert (Hd' : f_dead s' f = false) by (rewrite (proj2 (proj2 (t_nf _ _ _ _ T))); exact Hd).
  destruct (taint s) eqn:T0.
  { pose proof (Mono_taint _ _ M T0) as T1. split; [left; exact T1|]. split; [exact Hd'|left; exact T1]. }
  destruct (fairy_detach_acc _ _ _ _ H HA) as [D1 D2].
  { intros r Hr. destruct L as [L|[_ RB]]; [congruence|]. rewrite (RB f r ltac:(discriminate) Hd Hr). discriminate. }
  split; [exact D1|]. split; [exact Hd'|]. apply (Linked_on_fairy _ f s s' L Hd T). intros r _ _ Hg'. exact (D2 _ Hg').
Qed.

(* what is left of [LiveOk f] when the checkout of the new fairy f fails: f itself may be stale *)
Definition FailedOk (f : nat) (s : st) : Prop := Accounting None s /\ LinkedExcept (Some f) s.

Lemma LiveOk_checkout : forall f, CheckoutClosed cf f (FailedOk f) (LiveOk f).
Proof.
  intros f. pose proof (LiveOk_closed f) as C. pose proof C as [c1 c2 c3 c4].
  assert (W : forall s, LiveOk f s -> FailedOk f s) by (intros s (HA & _ & L); split; [exact HA|apply LinkedExcept_weaken; exact L]).
  split; auto.
  - intros a y b H Q. apply W. eapply fairy_invalidate_inv; eauto.
  - intros r a y b Hr H (HA & Hd & L). split; [eapply checkin_failed_acc; eauto; intros; discriminate|].
    apply checkin_failed_touch in H. apply (LinkedExcept_touch (Some f) _ _ a b L H).
    intros Tt RB g r' <- Ho Hdg Hg _. exfalso. apply Ho.
    pose proof (RB _ _ Hdg Hg). pose proof (RB _ _ Hd Hr). congruence.
Qed.

(* fairy = _ConnectionFairy(...) on a record without fairy *)
Lemma new_fairy_Linked : forall c r s f s', new_fairy c r s = (f, s') -> Linked s ->
  (taint s = false -> r_fairy s r = None) -> Linked s'.
Proof.
  intros c r s f s' H L Hr. rewrite new_fairy_eq in H. inv H.
  destruct (taint s) eqn:T0; [left; exact T0|right]. destruct L as [L|[RO RB]]; [congruence|].
  specialize (Hr eq_refl). split.
  - intros g r' Hg. cbn in *. unfold upd in *. destruct (Nat.eqb_spec g (nfairies s)).
    + inv Hg. split; [reflexivity|lia].
    + destruct (RO _ _ Hg). split; [auto|lia].
  - intros g r' _ Hd Hg. cbn in *. unfold upd in Hd, Hg. destruct (Nat.eqb_spec g (nfairies s)).
    + inv Hg. apply upd_same.
    + pose proof (RB g r' ltac:(discriminate) Hd Hg) as E. rewrite upd_other; [exact E|]. intro; subst; congruence.
Qed.

(* clearing the fairy_ref of records that have no fairy breaks no link *)
Lemma Linked_touch_free : forall (F C : nat -> Prop) s s', Linked s -> Touch F C s s' ->
  (taint s = false -> forall r, C r -> r_fairy s r = None) -> Linked s'.
Proof.
  intros F C s s' L T Hn. apply (LinkedExcept_touch None F C s s' L T). intros T' RB g r Cr _ Hd Hg _. exfalso.
  pose proof (RB _ _ Hd Hg) as E. rewrite (Hn (Mono_taint_false _ _ (Touch_Mono _ _ _ _ T) T') r Cr) in E. discriminate.
Qed.

(* _ConnectionRecord.checkout: the fairy it makes is live and linked; nothing else moved *)
Lemma record_checkout_LiveOk : forall s x s', record_checkout cf s = (x, s') -> Accounting None s -> Linked s ->
  match x with
  | Ok f => f = nfairies s /\ nfairies s' = S (nfairies s) /\ LiveOk f s'
  | Raise _ => nfairies s' = nfairies s /\ Accounting None s' /\ Linked s'
  end.
Proof.
  intros s x s' H HA L. destruct (record_checkout_spec _ _ _ _ H) as [_ N]. unfold record_checkout in H.
  (* the record taken from the pool floats: it has no fairy *)
  assert (Fl : forall r a, Accounting (Some r) a -> taint a = false -> r_fairy a r = None).
  { intros r a Aa Ta. destruct (Accounting_untainted _ _ Aa Ta) as (_ & (_ & _ & Q3 & _) & _). apply (Q3 r eq_refl). }
  destruct (do_get cf s) as [y s1] eqn:E1. pose proof (do_get_acc cf KQ MO _ _ _ E1 HA) as A1. apply do_get_touch in E1.
  assert (L1 : Linked s1).
  { apply (Linked_touch_free _ _ _ _ L E1). intros T0 r' Cr.
    destruct (Accounting_untainted _ _ HA T0) as (_ & (_ & _ & _ & _ & Q5) & _). exact (Q5 r' Cr). }
  destruct y as [r|e]; cbn in A1; [|inv H; destruct N as (N1 & _); auto].
  destruct (get_connection cf r s1) as [[c|err] s2] eqn:E2; apply get_connection_rl in E2;
    pose proof (Accounting_rl cf _ _ _ E2 A1) as A2; pose proof (LinkedExcept_rl _ _ _ E2 L1) as L2.
  - destruct (new_fairy c r s2) as [f s3] eqn:Enf. inv H. destruct N as (N1 & N2 & N3).
    split; [auto|]. split; [auto|]. split; [|split; [exact N3|exact (new_fairy_Linked _ _ _ _ _ Enf L2 (Fl _ _ A2))]].
    rewrite new_fairy_eq in Enf. inv Enf. destruct A2 as [T|H2]; [left; exact T|right; exact (Acc_link cf _ _ _ _ _ _ H2)].
  - destruct (checkin_failed cf r false s2) as [y s3] eqn:E3. apply reraise_after_inv in H as [-> [e' ->]]. cbn [snd].
    destruct N as (N1 & _). split; [auto|]. split; [eapply checkin_failed_acc; eauto; intros; discriminate|].
    apply (Linked_touch_free _ _ _ _ L2 (checkin_failed_touch _ _ _ _ _ _ E3)). intros T2 r' <-. exact (Fl _ _ A2 T2).
Qed.

(* the weakref callback of fairy f fires: afterwards f is dead, so f's own links no longer matter *)
Lemma gc_fairy_Linked : forall f s, Accounting None s -> LinkedExcept (Some f) s ->
  Accounting None (gc_fairy cf f s) /\ Linked (gc_fairy cf f s).
Proof.
  intros f s HA L.
  (* with f dead the exception is void *)
  assert (Dead : forall a, f_dead a f = true -> LinkedExcept (Some f) a -> Linked a).
  { intros a Hd [T|[RO RB]]; [left; auto|right; split; [exact RO|]]. intros g r _ Hg. apply RB; auto. congruence. }
  unfold gc_fairy. destruct (f_dead s f) eqn:Ed; [auto|].
  set (s0 := set_f_dead s (upd (f_dead s) f true)).
  destruct (finalize cf None (Some (f_orig s f)) (Some f) false None s0) as [x s'] eqn:E. cbn [snd].
  assert (L0 : Linked s0).
  { apply Dead; [apply upd_same|]. destruct L as [T|[RO RB]]; [left; exact T|right; split; [exact RO|]].
    intros g r Ho Hd Hr. apply RB; auto. change (upd (f_dead s) f true g = false) in Hd. rewrite upd_other in Hd; congruence. }
  split; [eapply finalize_acc; [exact E|]; subst s0; a_leaf; auto|].
  apply (LinkedExcept_touch None _ _ s0 s' L0 (finalize_touch _ _ _ _ _ _ _ _ _ E)).
  intros _ RB g r Cr _ Hd Hg _. inv Cr.
  (* the record belongs to another fairy: the callback finds its reference stale *)
  pose proof (RB _ _ Hd Hg) as Eg. apply finalize_cases in E. unfold stale_ref in E. rewrite Eg in E.
  assert (g <> f) by (intro; subst g; change (upd (f_dead s) f true f = false) in Hd; rewrite upd_same in Hd; discriminate).
  rewrite (proj2 (Nat.eqb_neq f g)) in E by auto. cbn [negb] in E. subst s'. exact Eg.
Qed.

Definition StepInv (s : st) : Prop := RefsHeld s /\ Accounting None s /\ Linked s.

Lemma StepInv_init : forall fl, StepInv (init cf fl).
Proof.
  intros. split; [apply RefsHeld_init|]. split.
  - right. split; [|split].
    + unfold AccK. cbn. lia.
    + repeat split; cbn; intros; try discriminate; try contradiction; auto; try constructor; try lia.
    + unfold OvB. cbn. lia.
  - right. split; [intros f r H; cbn in H; discriminate|intros g r _ _ H; cbn in H; discriminate].
Qed.

Theorem step_StepInv : forall o dt s x s', StepInv s -> step cf o dt s = (x, s') -> StepInv s'.
Proof.
  intros o dt s x s' B H.
  pose proof (step_RefsHeld cf o dt s x s' ltac:(destruct B; auto) H) as B'.
  unfold step in H.
  set (s0 := set_trace (set_clock s (clock s + dt)) []) in *.
  assert (B0 : StepInv s0).
  { destruct B as (B1 & B2 & B3). split; [exact B1|]. split; [subst s0; a_leaf; auto|].
    apply (LinkedExcept_frame None s); auto. }
  clearbody s0. clear B s. destruct B0 as (B0 & HA & L).
  assert (OH : forall h (k : nat -> st -> res unit * st),
     (forall f y s1, k f s0 = (y, s1) -> LiveOk f s0 -> LiveOk f s1) ->
     on_holder h s0 (fun f => k f s0) = (x, s') -> Accounting None s' /\ Linked s').
  { intros h k Hk Ho. unfold on_holder in Ho.
    destruct (nth_error (holders s0) h) as [[f|]|] eqn:En; try solve [inv Ho; auto].
    destruct (k f s0) as [y s1] eqn:Ek.
    assert (s' = s1) by (destruct y; inv Ho; auto). subst s1.
    destruct B0 as (_ & Al & _). destruct (Al f (nth_error_held _ _ _ En)) as [_ Hd].
    destruct (Hk _ _ _ Ek (conj HA (conj Hd L))) as (A1 & _ & L1). auto. }
  split; [exact B'|]. destruct o.
  - unfold pool_connect in H. rewrite KQ, fairy_checkout_first in H.
    destruct (record_checkout cf s0) as [[f|e] sm] eqn:Er; apply record_checkout_LiveOk in Er; auto.
    + destruct Er as (-> & Nn & Q).
      destruct (fairy_checkout cf (Some (nfairies s0)) false sm) as [[g|e] s1] eqn:Ec; inv H;
        pose proof (fairy_checkout_inv cf _ _ _ (LiveOk_checkout (nfairies s0)) _ _ _ _ Ec Q) as G; cbn beta iota in G.
      * destruct G as (_ & A1 & _ & L1). split; [a_leaf; auto|]. apply (LinkedExcept_frame None s1); auto.
      * (* the fairy made on the way is finalised by the garbage collector *)
        destruct (fairy_checkout_touch _ _ _ _ _ _ Ec) as [T _].
        rewrite (proj1 (t_nf _ _ _ _ T)), Nn, Nat.eqb_refl. destruct G. apply gc_fairy_Linked; auto.
    + destruct Er as (Nn & A1 & L1). inv H. rewrite Nn, (proj2 (Nat.eqb_neq _ _)) by lia. auto.
  - eapply OH; eauto. intros f y s1 Hk. eapply fairy_close_inv; eauto using LiveOk_closed.
  - eapply (OH h (fun f => fairy_invalidate cf f soft)); eauto. intros f y s1 Hk.
    eapply fairy_invalidate_inv; eauto using LiveOk_closed.
  - eapply OH; eauto. intros f y s1 Hk. eapply fairy_detach_LiveOk; eauto.
  - destruct (nth_error (holders s0) h) as [[f|]|] eqn:En; try solve [inv H; auto].
    inv H. set (s1 := set_holders s0 (set_nth (holders s0) h None)) in *.
    assert (A1 : Accounting None s1) by (subst s1; a_leaf; auto).
    assert (L1 : Linked s1) by (apply (LinkedExcept_frame None s0); auto).
    destruct (held f s1); [auto|]. apply gc_fairy_Linked; [exact A1|apply LinkedExcept_weaken; exact L1].
  - inv H. auto.
  - eapply (OH h (fun f => pool_invalidate cf f true)); eauto. intros f y s1 Hk.
    eapply pool_invalidate_inv; eauto using LiveOk_closed.
Qed.

(* overflow_consistent: after any history and any fault script, unless a BaseException has escaped a
   DBAPI close(): checkedout() is exactly the number of records in use, idle records never exceed
   pool_size, the overflow counter stays within [-pool_size, max_overflow] *)
Theorem overflow_consistent : forall fl ops,
  let s := run cf ops (init cf fl) in
  taint s = false ->
  checkedout cf s = Z.of_nat (inuse_count s) /\
  (0 < psize cf -> checkedin s <= psize cf) /\
  - psize cf <= overflow s /\ (0 <= maxov cf -> overflow s <= maxov cf).
Proof.
  intros fl ops s T. destruct (run_inv cf _ step_StepInv ops _ (StepInv_init fl)) as (_ & HA & _). fold s in HA.
  destruct (Accounting_untainted _ _ HA T) as (H1 & (_ & _ & _ & Q4 & _) & H3).
  unfold AccK in H1. cbn [flz] in H1. change (count_upto (has (r_fairy s)) (nrecs s)) with (inuse_count s) in H1.
  unfold checkedout, checkedin. split; [lia|]. split; [exact Q4|].
  split; [lia|exact H3].
Qed.

Theorem no_leak_checkedout : forall fl ops,
  let s := run cf ops (init cf fl) in
  taint s = false -> all_released s -> checkedout cf s = 0.
Proof.
  intros fl ops s T R.
  assert (Tc : taint_gc s = false) by (unfold taint in T; apply orb_false_iff in T; tauto).
  destruct (overflow_consistent fl ops T) as [H _]. fold s in H. rewrite H.
  pose proof (no_leak cf fl ops Tc R) as H0. fold s in H0. rewrite H0. reflexivity.
Qed.

End Acc2.
