(* C26 - what each function of the sequential pool model can touch, as three relations between the state
   before and after, each implying the next: [RecLevel] (record/DBAPI layer), [Touch F C] (no fairy is made; only
   fairies in F lose their record link, only records in C their fairy_ref), [Mono] (also new fairies).  With the
   project tactics, the taint guard and the pool-layer lemmas up to _ConnectionRecord.checkout. *)
From Coq Require Import List ZArith Bool Arith Lia.
Import ListNotations.
From SAV.engine Require Import PoolSeq.
Open Scope Z_scope.

Lemma upd_same : forall A (m : nat -> A) i v, upd m i v i = v.
Proof. intros. unfold upd. rewrite Nat.eqb_refl. reflexivity. Qed.
Lemma upd_other : forall A (m : nat -> A) i j v, j <> i -> upd m i v j = m j.
Proof. intros. unfold upd. destruct (Nat.eqb_spec j i); [contradiction|reflexivity]. Qed.

(* destruct the scrutinee of the innermost match / if in hypothesis H *)
Ltac dm H :=
  match type of H with
  | context [match ?x with _ => _ end] =>
      lazymatch x with
      | context [match _ with _ => _ end] => fail
      | _ => let E := fresh "E" in destruct x eqn:E
      end
  | context [if ?x then _ else _] =>
      lazymatch x with
      | context [if _ then _ else _] => fail
      | context [match _ with _ => _ end] => fail
      | _ => let E := fresh "E" in destruct x eqn:E
      end
  end.
(* for equations between constructor terms (results paired with states): [inversion] builds far larger terms *)
Ltac inv H := first [discriminate H | injection H as; intros; subst; try clear H].

(* a BaseException escaped a DBAPI close(): anywhere (taint_close), or inside the error handler of
   _finalize_fairy while it ran as weakref callback (taint_gc) *)
Definition taint (s : st) : bool := taint_close s || taint_gc s.

Record RecLevel (s s' : st) : Prop := {
  rl_fr : fr s' = fr s;
  rl_hold : holders s' = holders s;
  rl_pl_q : q s' = q s;
  rl_pl_ov : overflow s' = overflow s;
  rl_pl_static : static s' = static s;
  rl_pl_sgr : sg_rec s' = sg_rec s;
  rl_pl_sgf : sg_fairy s' = sg_fairy s;
  rl_pl_asc : as_conn s' = as_conn s;
  rl_pl_aso : as_out s' = as_out s;
  rl_nrecs : nrecs s' = nrecs s;
  rl_fairy : r_fairy s' = r_fairy s;
  rl_tc : taint_close s = true -> taint_close s' = true;
  rl_tg : taint_gc s' = taint_gc s;
  rl_nconns : (nconns s <= nconns s')%nat }.

Lemma RecLevel_refl : forall s, RecLevel s s.
Proof. intros; constructor; auto. Qed.
Lemma RecLevel_trans : forall a b c, RecLevel a b -> RecLevel b c -> RecLevel a c.
Proof.
  intros a b c [] []; constructor; try congruence; try (etransitivity; eassumption); auto.
Qed.

(* closes [RecLevel s s'] when the context links [s] by RecLevel facts to a state of which [s'] is a
   field update *)
Ltac rl := repeat (eapply RecLevel_trans; [eassumption|]);
           first [apply RecLevel_refl | eassumption | constructor; cbn; auto].

Section Frame.
Variable cf : cfg.

Lemma next_fault_rl : forall s c s', next_fault s = (c, s') -> RecLevel s s'.
Proof. unfold next_fault; intros. dm H; inv H; rl. Qed.
Lemma log_rl : forall k c s, RecLevel s (log k c s).
Proof. intros; unfold log; rl. Qed.
Lemma now_rl : forall s t s', now cf s = (t, s') -> RecLevel s s'.
Proof. unfold now; intros. dm H; inv H; rl. Qed.

(* the DBAPI calls: consult the fault script, then log and update per-connection fields *)
Ltac ext_frame H :=
  match type of H with context [next_fault ?s] =>
    let E := fresh "E" in destruct (next_fault s) as [? ?] eqn:E; apply next_fault_rl in E end;
  repeat dm H; inv H; unfold log; rl.

(* [ext_connect], [new_record] and [new_fairy] are chains of single-field updates in which every step mentions
   the previous state twice; each is collapsed here, by conversion, to one update adding a row to its table *)
Lemma ext_connect_eq : forall t s, ext_connect t s =
  let (code, s1) := next_fault s in
  match raises code with
  | Some e => (Raise e, log K_CONNECT (-1) s1)
  | None =>
      let c := nconns s1 in
      (Ok c, log K_CONNECT (Z.of_nat c)
               (set_cn s1 {| nconns_ := S c; c_nclose_ := upd (c_nclose s1) c 0; c_start_ := upd (c_start s1) c t;
                             c_det_ := upd (c_det s1) c false; c_mark_ := upd (c_mark s1) c false;
                             c_soft_ := upd (c_soft s1) c false |}))
  end.
Proof. reflexivity. Qed.

Lemma ext_connect_rl : forall t s x s', ext_connect t s = (x, s') -> RecLevel s s'.
Proof. intros * H. rewrite ext_connect_eq in H. ext_frame H. Qed.
Lemma ext_close_rl : forall c s x s', ext_close c s = (x, s') -> RecLevel s s'.
Proof. unfold ext_close; intros * H. ext_frame H. Qed.
Lemma ext_reset_rl : forall k c s x s', ext_reset k c s = (x, s') -> RecLevel s s'.
Proof. unfold ext_reset; intros * H. ext_frame H. Qed.
Lemma ext_ping_rl : forall c s x s', ext_ping c s = (x, s') -> RecLevel s s'.
Proof. unfold ext_ping; intros * H. ext_frame H. Qed.
Lemma ext_event_rl : forall c s x s', ext_event c s = (x, s') -> RecLevel s s'.
Proof. unfold ext_event; intros * H. ext_frame H. Qed.

Lemma close_connection_rl : forall c s x s', close_connection c s = (x, s') -> RecLevel s s'.
Proof.
  unfold close_connection; intros. destruct (ext_close c s) as [y s1] eqn:E. apply ext_close_rl in E.
  repeat dm H; inv H; rl.
Qed.

Lemma rec_close_rl : forall r s x s', rec_close r s = (x, s') -> RecLevel s s'.
Proof.
  unfold rec_close; intros. dm H; [|inv H; rl].
  destruct (close_connection n s) as [y s1] eqn:E1. apply close_connection_rl in E1.
  dm H; inv H; rl.
Qed.

Lemma rec_connect_rl : forall r s x s', rec_connect cf r s = (x, s') -> RecLevel s s'.
Proof.
  unfold rec_connect; intros.
  destruct (now cf (set_r_dbc s (upd (r_dbc s) r None))) as [t s2] eqn:E1. apply now_rl in E1.
  destruct (ext_connect t (set_r_start s2 (upd (r_start s2) r t))) as [y s4] eqn:E2. apply ext_connect_rl in E2.
  assert (R : RecLevel s s4).
  { eapply RecLevel_trans; [|eapply RecLevel_trans; [exact E1|]; eapply RecLevel_trans; [|exact E2]]; rl. }
  dm H; inv H; rl.
Qed.

Lemma rec_invalidate_rl : forall r soft s x s', rec_invalidate cf r soft s = (x, s') -> RecLevel s s'.
Proof.
  unfold rec_invalidate; intros. dm H; [|inv H; rl].
  destruct soft.
  - destruct (now cf s) as [t s1] eqn:E1. apply now_rl in E1. inv H. rl.
  - destruct (rec_close r s) as [y s1] eqn:E1. apply rec_close_rl in E1. dm H; inv H; rl.
Qed.

Lemma get_connection_rl : forall r s x s', get_connection cf r s = (x, s') -> RecLevel s s'.
Proof.
  unfold get_connection; intros.
  match type of H with (let '(_, _) := ?e in _) = _ => destruct e as [rcy s1] eqn:E0 end.
  assert (R0 : RecLevel s s1).
  { destruct (r_dbc s r); [|inv E0; rl].
    destruct (-1 <? recycle cf).
    - destruct (now cf s) as [t s0] eqn:En. apply now_rl in En. repeat dm E0; inv E0; auto.
    - repeat dm E0; inv E0; rl. }
  match type of H with (let '(_, _) := ?e in _) = _ => destruct e as [y2 s2] eqn:E1 end.
  assert (R1 : RecLevel s1 s2).
  { destruct rcy as [[|]|].
    - destruct (rec_close r s1) as [y s3] eqn:Ec. apply rec_close_rl in Ec.
      destruct y; [|inv E1; auto]. apply rec_connect_rl in E1. rl.
    - inv E1. rl.
    - apply rec_connect_rl in E1; auto. }
  repeat dm H; inv H; rl.
Qed.

Lemma mark_det_rl : forall o s, RecLevel s (mark_det o s).
Proof. intros; unfold mark_det; destruct o; rl. Qed.
(* fairy.detach(): the ghost marks and the record giving up its connection *)
Lemma detach_marks_rl : forall o1 o2 s v, RecLevel s (set_r_dbc (mark_det o1 (mark_det o2 s)) v).
Proof. intros. eapply RecLevel_trans; [apply mark_det_rl|]. eapply RecLevel_trans; [apply mark_det_rl|]. rl. Qed.

Lemma fairy_reset_rl : forall c twr s x s', fairy_reset cf c twr s = (x, s') -> RecLevel s s'.
Proof.
  unfold fairy_reset; intros. repeat dm H; try (inv H; rl); eapply ext_reset_rl; eauto.
Qed.

Lemma rec_close_if_open_rl : forall r s x s', rec_close_if_open r s = (x, s') -> RecLevel s s'.
Proof. unfold rec_close_if_open; intros. dm H; [eapply rec_close_rl; eauto|inv H; rl]. Qed.

(* a Raise out of the record layer's close path means a BaseException escaped close() *)
Lemma close_connection_raise : forall c s e s', close_connection c s = (Raise e, s') -> taint_close s' = true.
Proof.
  unfold close_connection; intros. destruct (ext_close c s) as [[|e0] s1]; [inv H|].
  destruct (is_exception e0); inv H. reflexivity.
Qed.
Lemma rec_close_if_open_raise : forall r s e s', rec_close_if_open r s = (Raise e, s') -> taint_close s' = true.
Proof.
  unfold rec_close_if_open, rec_close; intros. destruct (r_dbc s r); [|inv H].
  destruct (close_connection n s) as [[|e0] s1] eqn:E; inv H.
  change (taint_close s1 = true). eapply close_connection_raise; eauto.
Qed.
Lemma rec_invalidate_raise : forall r soft s e s', rec_invalidate cf r soft s = (Raise e, s') -> taint_close s' = true.
Proof.
  unfold rec_invalidate; intros. pose proof (rec_close_if_open_raise r s) as C. unfold rec_close_if_open in C.
  destruct (r_dbc s r); [|inv H]. destruct soft; [destruct (now cf s); inv H|].
  destruct (rec_close r s) as [[|e0] s1]; inv H. eauto.
Qed.

End Frame.

Definition SameNF (s s' : st) : Prop :=
  nfairies s' = nfairies s /\ f_orig s' = f_orig s /\ f_dead s' = f_dead s.

(* t_sg: SingletonThreadPool forgets its thread-local fairy when the record is returned *)
Record Touch (F C : nat -> Prop) (s s' : st) : Prop := {
  t_nf : SameNF s s';
  t_rec : forall g, f_rec s' g = f_rec s g \/ (F g /\ f_rec s' g = None);
  t_fairy : forall r, r_fairy s' r = r_fairy s r \/ (C r /\ r_fairy s' r = None);
  t_hold : holders s' = holders s;
  t_sg : sg_fairy s' = sg_fairy s \/ sg_fairy s' = None;
  t_tc : taint_close s = true -> taint_close s' = true;
  t_tg : taint_gc s = true -> taint_gc s' = true;
  t_nrecs : (nrecs s <= nrecs s')%nat }.

Definition nothing : nat -> Prop := fun _ => False.

Lemma Touch_refl : forall F C s, Touch F C s s.
Proof. intros; constructor; unfold SameNF; auto. Qed.

Lemma Touch_trans : forall (F C F1 C1 F2 C2 : nat -> Prop) a b c, Touch F1 C1 a b -> Touch F2 C2 b c ->
  (forall g, F1 g -> F g) -> (forall r, C1 r -> C r) -> (forall g, F2 g -> F g) -> (forall r, C2 r -> C r) ->
  Touch F C a c.
Proof.
  intros F C F1 C1 F2 C2 a b c [(N1 & N2 & N3) ? ? ? ? ? ? ?] [(M1 & M2 & M3) ? ? ? ? ? ? ?] HF1 HC1 HF2 HC2.
  constructor; try congruence; try lia; auto.
  - repeat split; congruence.
  - intros g. destruct (t_rec1 g) as [->|[? ?]]; [destruct (t_rec0 g) as [|[? ?]]|]; auto.
  - intros r. destruct (t_fairy1 r) as [->|[? ?]]; [destruct (t_fairy0 r) as [|[? ?]]|]; auto.
  - destruct t_sg1 as [->|?]; auto.
Qed.
(* [touch_chain T1 T2]: chain two Touch facts; the inclusions left over are between [nothing], [eq] and [le] sets *)
Ltac tsub := intros ? ?; first [contradiction | assumption | congruence | lia].
Ltac touch_chain T1 T2 := apply (Touch_trans _ _ _ _ _ _ _ _ _ T1 T2); tsub.

Lemma Touch_weaken : forall (F C F' C' : nat -> Prop) s s', Touch F' C' s s' ->
  (forall g, F' g -> F g) -> (forall r, C' r -> C r) -> Touch F C s s'.
Proof. intros * T ? ?. apply (Touch_trans _ _ _ _ _ _ _ _ _ (Touch_refl nothing nothing s) T); auto; intros ? []. Qed.

Lemma RecLevel_Touch : forall F C s s', RecLevel s s' -> Touch F C s s'.
Proof.
  intros F C s s' []. constructor; unfold SameNF, nfairies, f_orig, f_dead, f_rec;
    rewrite ?rl_fr0, ?rl_fairy0, ?rl_tg0; auto; lia.
Qed.

Lemma Touch_rl : forall F C a b c, Touch F C a b -> RecLevel b c -> Touch F C a c.
Proof. intros * T R. apply (RecLevel_Touch nothing nothing) in R. touch_chain T R. Qed.

Record Mono (s s' : st) : Prop := {
  m_nf : (nfairies s <= nfairies s')%nat;
  m_orig : forall f, (f < nfairies s)%nat -> f_orig s' f = f_orig s f;
  m_dead : forall f, (f < nfairies s)%nat -> f_dead s' f = f_dead s f;
  m_fairy : forall r f, r_fairy s' r = Some f ->
            r_fairy s r = Some f \/
            ((nfairies s <= f < nfairies s')%nat /\ f_orig s' f = r /\ f_dead s' f = false);
  m_hold : holders s' = holders s;
  m_sg : forall f, sg_fairy s' = Some f -> sg_fairy s = Some f \/ (nfairies s <= f < nfairies s')%nat;
  m_tc : taint_close s = true -> taint_close s' = true;
  m_tg : taint_gc s = true -> taint_gc s' = true }.

Lemma Mono_trans : forall a b c, Mono a b -> Mono b c -> Mono a c.
Proof.
  intros a b c [] []; constructor; try lia; try congruence; auto.
  - intros. rewrite m_orig1 by lia. auto.
  - intros. rewrite m_dead1 by lia. auto.
  - intros r f H. destruct (m_fairy1 _ _ H) as [H1|[H1 [H2 H3]]].
    + destruct (m_fairy0 _ _ H1) as [H4|[H4 [H5 H6]]]; auto.
      right. split; [lia|]. rewrite m_orig1, m_dead1 by lia. auto.
    + right. split; [lia|auto].
  - intros f H. destruct (m_sg1 _ H) as [H1|H1]; [|right; lia].
    destruct (m_sg0 _ H1); [auto|right; lia].
Qed.
Lemma Touch_Mono : forall F C s s', Touch F C s s' -> Mono s s'.
Proof.
  intros F C s s' [(N1 & N2 & N3) ? ? ? ? ? ? ?]. constructor; try congruence; auto; try lia.
  - intros r f H. destruct (t_fairy0 r) as [E|[_ E]]; [left|]; congruence.
  - intros f H. destruct t_sg0; [left|]; congruence.
Qed.

Lemma Mono_taint : forall s s', Mono s s' -> taint s = true -> taint s' = true.
Proof.
  unfold taint; intros s s' [] H. apply orb_true_iff in H as [H|H]; [rewrite m_tc0; auto|rewrite m_tg0; auto; apply orb_true_r].
Qed.

Lemma Touch_pl : forall F C s v, sg_fairy_ v = sg_fairy s \/ sg_fairy_ v = None -> Touch F C s (set_pl s v).
Proof. intros. constructor; unfold SameNF; auto. Qed.
Lemma Touch_fr : forall (F C : nat -> Prop) s v,
  nfairies_ v = nfairies s -> f_orig_ v = f_orig s -> f_dead_ v = f_dead s ->
  (forall g, f_rec_ v g = f_rec s g \/ (F g /\ f_rec_ v g = None)) -> Touch F C s (set_fr s v).
Proof. intros. constructor; unfold SameNF; auto. Qed.
Lemma Touch_ex : forall F C s v, (taint_close s = true -> taint_close_ v = true) ->
  (taint_gc s = true -> taint_gc_ v = true) -> Touch F C s (set_ex s v).
Proof. intros. constructor; unfold SameNF; auto. Qed.
Lemma Touch_clear : forall F r s, Touch F (eq r) s (set_r_fairy s (upd (r_fairy s) r None)).
Proof.
  intros. constructor; unfold SameNF; auto. intros r'. cbn. unfold upd.
  destruct (Nat.eqb_spec r' r); auto.
Qed.
Lemma upd_unlink : forall (F : nat -> Prop) (m : nat -> option nat) g, F g ->
  forall g', upd m g None g' = m g' \/ (F g' /\ upd m g None g' = None).
Proof. intros. unfold upd. destruct (Nat.eqb_spec g' g); subst; auto. Qed.

Lemma clear_fairy_touch : forall C fy s, Touch (fun g => fy = Some g) C s (clear_fairy fy s).
Proof.
  intros. destruct fy as [g|]; [|apply Touch_refl]. constructor; unfold SameNF; auto.
  apply (upd_unlink (fun g0 => Some g = Some g0)). reflexivity.
Qed.

Section PoolLayer.
Variable cf : cfg.

Definition add_record (s : st) : st :=
  set_rc s {| nrecs_ := S (nrecs s); r_dbc_ := upd (r_dbc s) (nrecs s) None; r_start_ := upd (r_start s) (nrecs s) 0;
              r_soft_ := upd (r_soft s) (nrecs s) 0; r_fresh_ := upd (r_fresh s) (nrecs s) false;
              r_fairy_ := upd (r_fairy s) (nrecs s) None |}.
Lemma new_record_eq : forall s, new_record cf s =
  match rec_connect cf (nrecs s) (add_record s) with
  | (Ok _, s7) => (Ok (nrecs s), s7)
  | (Raise e, s7) => (Raise e, s7)
  end.
Proof. reflexivity. Qed.

Lemma new_record_touch : forall s x s', new_record cf s = (x, s') -> Touch nothing (eq (nrecs s)) s s'.
Proof.
  intros * H. rewrite new_record_eq in H.
  destruct (rec_connect cf (nrecs s) (add_record s)) as [y s7] eqn:E. apply rec_connect_rl in E.
  assert (T0 : Touch nothing (eq (nrecs s)) s (add_record s)).
  { constructor; unfold SameNF; cbn; auto. intros r. unfold upd. destruct (Nat.eqb_spec r (nrecs s)); auto. }
  dm H; inv H; eapply Touch_rl; eauto.
Qed.

Lemma inc_overflow_touch : forall s b s', inc_overflow cf s = (b, s') -> Touch nothing nothing s s' /\ nrecs s' = nrecs s.
Proof. unfold inc_overflow; intros. repeat dm H; inv H; split; auto using Touch_refl; apply Touch_pl; auto. Qed.

Lemma do_get_queue_touch : forall fuel s x s', do_get_queue cf fuel s = (x, s') -> Touch nothing (le (nrecs s)) s s'.
Proof.
  induction fuel; intros s x s' H; cbn [do_get_queue] in H; [inv H; apply Touch_refl|].
  destruct (q_get cf s) as [[r s1]|] eqn:Eq.
  - inv H. unfold q_get in Eq. repeat dm Eq; inv Eq; apply Touch_pl; auto.
  - dm H; [dm H; [eauto|inv H; apply Touch_refl]|].
    destruct (inc_overflow cf s) as [ok s1] eqn:Ei. apply inc_overflow_touch in Ei as [T1 N1].
    assert (T2 : Touch nothing (le (nrecs s)) s1 s').
    { rewrite <- N1. destruct ok; [|eauto].
      destruct (new_record cf s1) as [y s2] eqn:En. apply new_record_touch in En.
      assert (T3 : Touch nothing nothing s2 s') by (dm H; inv H; [apply Touch_refl|apply Touch_pl; auto]).
      touch_chain En T3. }
    touch_chain T1 T2.
Qed.

Lemma do_get_touch : forall s x s', do_get cf s = (x, s') -> Touch nothing (le (nrecs s)) s s'.
Proof.
  (* the pools that memoise one record make it on demand and store it in the pool structure *)
  assert (New : forall (store : st -> nat -> st) s (x : res nat) s',
    (forall a r, Touch nothing nothing a (store a r)) ->
    match new_record cf s with (Ok r, s1) => (Ok r, store s1 r) | (Raise e, s1) => (Raise e, s1) end = (x, s') ->
    Touch nothing (le (nrecs s)) s s').
  { intros store s x s' St H. destruct (new_record cf s) as [y s1] eqn:En. apply new_record_touch in En.
    destruct y; inv H; [pose proof (St s1 a) as T1; touch_chain En T1|eapply Touch_weaken; [exact En| |]; tsub]. }
  assert (Pl : forall a v, sg_fairy_ v = sg_fairy a -> Touch nothing nothing a (set_pl a v)) by (intros; apply Touch_pl; auto).
  unfold do_get; intros s x s' H. destruct (kind cf).
  - eapply do_get_queue_touch; eauto.
  - apply new_record_touch in H. eapply Touch_weaken; [exact H| |]; tsub.
  - match type of H with (let '(_, _) := ?e in _) = _ => destruct e as [y s1] eqn:E0 end.
    assert (T0 : Touch nothing (le (nrecs s)) s s1).
    { dm E0; [inv E0; apply Touch_refl|]. apply (New (fun a r => set_static a (Some r))) in E0; auto; intros; apply Pl; reflexivity. }
    destruct y; [|inv H; auto]. dm H; [|inv H; auto].
    apply (New (fun a r => set_static a (Some r))) in H; [|intros; apply Pl; reflexivity].
    pose proof (t_nrecs _ _ _ _ T0). change (nrecs (set_static s1 None)) with (nrecs s1) in H.
    assert (T1 : Touch nothing (le (nrecs s)) s (set_static s1 None)) by (eapply Touch_trans; [exact T0|apply (Pl s1); reflexivity| | | |]; tsub).
    touch_chain T1 H.
  - dm H; [inv H; apply Touch_refl|]. apply (New (fun a r => set_sg_rec a (Some r))) in H; auto; intros; apply Pl; reflexivity.
  - dm H; [inv H; apply Touch_refl|].
    match type of H with (let '(_, _) := ?e in _) = _ => destruct e as [y s1] eqn:E0 end.
    assert (T0 : Touch nothing (le (nrecs s)) s s1).
    { dm E0; [inv E0; apply Touch_refl|]. apply (New (fun a r => set_as_conn a (Some r))) in E0; auto; intros; apply Pl; reflexivity. }
    destruct y; inv H; auto. eapply Touch_trans; [exact T0|apply (Pl s1); reflexivity| | | |]; tsub.
Qed.

Lemma do_return_conn_touch : forall r s x s', do_return_conn cf r s = (x, s') -> Touch nothing nothing s s'.
Proof.
  unfold do_return_conn; intros. destruct (kind cf).
  - dm H; [|inv H; apply Touch_pl; auto].
    destruct (rec_close_if_open r s) as [y s1] eqn:E1. apply rec_close_if_open_rl in E1.
    inv H. eapply Touch_trans; [apply (RecLevel_Touch nothing nothing); exact E1|apply (Touch_pl nothing nothing); auto| | | |]; tsub.
  - eapply RecLevel_Touch, rec_close_if_open_rl; eauto.
  - inv H; apply Touch_refl.
  - inv H. apply Touch_pl; auto.
  - dm H; inv H; [apply Touch_pl; auto|apply Touch_refl].
Qed.

Lemma rec_checkin_touch : forall r fwc s x s', rec_checkin cf r fwc s = (x, s') -> Touch nothing (eq r) s s'.
Proof.
  unfold rec_checkin; intros. dm H.
  - apply do_return_conn_touch in H. pose proof (Touch_clear nothing r s) as T. touch_chain T H.
  - dm H; [inv H; apply Touch_refl|]. apply do_return_conn_touch in H. eapply Touch_weaken; [exact H| |]; tsub.
Qed.

Lemma checkin_failed_touch : forall r fwc s x s', checkin_failed cf r fwc s = (x, s') -> Touch nothing (eq r) s s'.
Proof.
  unfold checkin_failed; intros.
  destruct (rec_invalidate cf r false s) as [y s1] eqn:E1. apply rec_invalidate_rl, (RecLevel_Touch nothing nothing) in E1.
  destruct (rec_checkin cf r fwc s1) as [w s2] eqn:E2. apply rec_checkin_touch in E2.
  assert (s' = s2) by (destruct y, w; inv H; auto). subst s2. touch_chain E1 E2.
Qed.

(* with util.safe_reraise(): the state is that of the handler, the result some exception *)
Lemma reraise_after_inv : forall A e (h : res unit * st) (x : res A) s',
  reraise_after e h = (x, s') -> s' = snd h /\ exists e', x = Raise e'.
Proof. unfold reraise_after; intros. destruct h as [[|] s1]; inv H; eauto. Qed.

Lemma new_fairy_eq : forall c r s, new_fairy c r s =
  (nfairies s,
   set_r_fairy (set_fr s {| nfairies_ := S (nfairies s); f_dbc_ := upd (f_dbc s) (nfairies s) (Some c);
                            f_rec_ := upd (f_rec s) (nfairies s) (Some r); f_orig_ := upd (f_orig s) (nfairies s) r;
                            f_counter_ := upd (f_counter s) (nfairies s) 0; f_dead_ := upd (f_dead s) (nfairies s) false |})
               (upd (r_fairy s) r (Some (nfairies s)))).
Proof. reflexivity. Qed.

Lemma new_fairy_mono : forall c r s f s', new_fairy c r s = (f, s') -> Mono s s'.
Proof.
  intros c r s f s' H. rewrite new_fairy_eq in H. inv H.
  constructor; cbn; intros; auto; try lia.
  - rewrite upd_other by lia. auto.
  - rewrite upd_other by lia. auto.
  - unfold upd in H. destruct (Nat.eqb r0 r) eqn:Er.
    + inv H. right. apply Nat.eqb_eq in Er. subst. rewrite !upd_same. repeat split; lia.
    + auto.
Qed.

(* _ConnectionRecord.checkout makes exactly one fairy, or none when it raises *)
Lemma record_checkout_spec : forall s x s', record_checkout cf s = (x, s') ->
  Mono s s' /\
  match x with
  | Ok f => f = nfairies s /\ nfairies s' = S (nfairies s) /\ f_dead s' f = false
  | Raise _ => SameNF s s'
  end.
Proof.
  unfold record_checkout; intros.
  destruct (do_get cf s) as [[r|e] s1] eqn:E1; apply do_get_touch in E1.
  2:{ inv H. split; [eapply Touch_Mono; eauto|apply E1]. }
  destruct (get_connection cf r s1) as [[c|err] s2] eqn:E2; apply get_connection_rl in E2;
    pose proof (Touch_rl _ _ _ _ _ E1 E2) as T2.
  - destruct (new_fairy c r s2) as [f s3] eqn:Enf. inv H.
    split; [eapply Mono_trans; [eapply Touch_Mono; exact T2|eapply new_fairy_mono; eauto]|].
    destruct T2 as [(N1 & N2 & N3) _ _ _ _ _ _ _]. rewrite new_fairy_eq in Enf. inv Enf. cbn.
    fold (nfairies s2). rewrite N1, upd_same. auto.
  - destruct (checkin_failed cf r false s2) as [y s3] eqn:E3. apply checkin_failed_touch in E3.
    apply reraise_after_inv in H as [-> [e' ->]]. cbn [snd].
    assert (T3 : Touch nothing (fun _ => True) s s3) by (eapply Touch_trans; [exact T2|exact E3| | | |]; tsub).
    split; [eapply Touch_Mono; eauto|apply T3].
Qed.
End PoolLayer.
