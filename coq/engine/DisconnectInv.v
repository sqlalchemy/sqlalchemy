(* C27 - pooled connections opened before a disconnect are never used again: an invariant over all histories. *)
From Coq Require Import List Arith Bool Lia.
Import ListNotations.
From SAV.engine Require Import Disconnect DisconnectProofs DisconnectSteps.

(* timestamps and ids are consistent with the clock / the connection counter *)
Definition WF (s : st) : Prop :=
  (forall id st0, In (Some (id, st0)) (s_idle s) -> st0 <= s_clock s /\ id < s_nconn s) /\
  (forall id st0, s_cur s = Some (id, st0) -> st0 <= s_clock s /\ id < s_nconn s) /\
  s_invt s <= s_clock s.

(* a pooled connection older than n0 is stale (it predates the pool's invalidation time); the one in use is not
   older than n0 *)
Definition OlderStale (n0 : nat) (s : st) : Prop :=
  (forall id st0, In (Some (id, st0)) (s_idle s) -> id < n0 -> st0 < s_invt s) /\
  (forall id st0, s_cur s = Some (id, st0) -> n0 <= id) /\
  n0 <= s_nconn s.

Definition use_kind (k : nat) : Prop := k = K_EXEC \/ k = K_COMMIT \/ k = K_ROLLBACK.

(* the DBAPI calls logged since [base] never execute/commit/rollback on a connection older than n0 *)
Definition LogOk (n0 : nat) (base : list (nat * nat)) (s : st) : Prop :=
  exists new, s_log s = new ++ base /\ Forall (fun kc => use_kind (fst kc) -> n0 <= snd kc) new.

(* n0 = the number of connections opened when the disconnect hit, base = the log at that moment.  OlderStale is what
   makes checkout close an older pooled connection instead of handing it out (the recycle test start < s_invt). *)
Definition Inv (n0 : nat) (base : list (nat * nat)) (s : st) : Prop := WF s /\ OlderStale n0 s /\ LogOk n0 base s.

Lemma inv_ext : forall n0 base s s',
  s_log s' = s_log s -> s_nconn s' = s_nconn s -> s_clock s' = s_clock s -> s_idle s' = s_idle s ->
  s_invt s' = s_invt s -> s_cur s' = s_cur s -> Inv n0 base s -> Inv n0 base s'.
Proof.
  intros n0 base s s' E1 E2 E3 E4 E5 E6 (W & F & L). unfold Inv, WF, OlderStale, LogOk in *.
  rewrite E1, E2, E3, E4, E5, E6. auto.
Qed.

Lemma inv_set_txn : forall n0 base s t n, Inv n0 base s -> Inv n0 base (set_txn s t n).
Proof. intros. eapply inv_ext; eauto. Qed.

Lemma logok_cons : forall n0 base s s' k cid,
  s_log s' = (k, cid) :: s_log s -> (use_kind k -> n0 <= cid) -> LogOk n0 base s -> LogOk n0 base s'.
Proof.
  intros n0 base s s' k cid E H (new & E1 & F). exists ((k, cid) :: new). split.
  - rewrite E, E1. reflexivity.
  - constructor; [exact H|exact F].
Qed.

Lemma not_use_close : ~ use_kind K_CLOSE.
Proof. intros [H|[H|H]]; discriminate. Qed.
Lemma not_use_connect : ~ use_kind K_CONNECT.
Proof. intros [H|[H|H]]; discriminate. Qed.

(* the record an invalidation or a failed checkout leaves in the queue holds no connection *)
Lemma in_snoc_none : forall (x : nat * nat) l, In (Some x) (l ++ [None]) -> In (Some x) l.
Proof. intros x l H. apply in_app_or in H. destruct H as [H|[H|[]]]; [exact H|discriminate]. Qed.

Section I.
  Variable faults : nat -> fault.
  Variable lst : list lbeh.
  Variable n0 : nat.
  Variable base : list (nat * nat).
  Notation INV := (Inv n0 base).

  Lemma inv_called : forall k cid s, INV s -> (use_kind k -> n0 <= cid) -> INV (called k cid s).
  Proof.
    intros k cid s (W & F & L) H. split; [exact W|]. split; [exact F|].
    apply (logok_cons n0 base s _ k cid); [reflexivity|exact H|exact L].
  Qed.

  (* all the invariant needs: the pool loses records, the counters and the pool's stamp grow, the connection in
     use is within the counters and not older than n0 *)
  Lemma inv_mono : forall s s', INV s ->
    (forall x, In (Some x) (s_idle s') -> In (Some x) (s_idle s)) ->
    s_clock s <= s_clock s' -> s_nconn s <= s_nconn s' -> s_invt s <= s_invt s' <= s_clock s' ->
    match s_cur s' with Some (id, st0) => st0 <= s_clock s' /\ id < s_nconn s' /\ n0 <= id | None => True end ->
    LogOk n0 base s' -> INV s'.
  Proof.
    intros s s' ((W1 & _ & _) & (F1 & _ & F3) & _) Hsub Hclk Hn Hi Hc L.
    split; [|split; [|exact L]]; (split; [|split]); try lia.
    - intros id st0 Hin. destruct (W1 _ _ (Hsub _ Hin)). lia.
    - intros id st0 E. rewrite E in Hc. tauto.
    - intros id st0 Hin Hlt. specialize (F1 _ _ (Hsub _ Hin) Hlt). lia.
    - intros id st0 E. rewrite E in Hc. tauto.
  Qed.

  Lemma inv_set_cur : forall s idle c, INV s ->
    (forall x, In (Some x) idle -> In (Some x) (s_idle s)) ->
    match c with Some (id, st0) => st0 <= s_clock s /\ id < s_nconn s /\ n0 <= id | None => True end ->
    INV (set_cur s idle c).
  Proof.
    intros s idle c HI Hsub Hc. pose proof HI as ((_ & _ & W3) & _ & L). apply (inv_mono s _ HI); cbn; auto.
  Qed.

  Lemma inv_inval : forall s, INV s -> INV (inval lst s).
  Proof.
    intros s HI. unfold inval. destruct (s_cur s) as [[cid st0]|]; [|exact HI].
    pose proof HI as ((_ & _ & W3) & _ & L). apply (inv_mono s _ HI); cbn.
    - intros x. apply in_snoc_none.
    - destruct (pool_inv lst); lia.
    - lia.
    - (* the pool's stamp moves forward only: the old one was not ahead of the clock *)
      destruct (pool_inv lst); lia.
    - exact I.
    - apply (logok_cons n0 base s _ K_CLOSE cid); [reflexivity|intros X; destruct (not_use_close X)|exact L].
  Qed.

  Lemma inv_handle : forall f s s' c, INV s -> handle lst f s = (s', c) -> INV s'.
  Proof.
    intros f s s' c HI H. destruct (handle_spec _ _ _ _ _ H) as [_ ->].
    destruct (is_disc c); [apply inv_inval|]; exact HI.
  Qed.

  Lemma inv_call_or_handle : forall k cid st0 s s' c, INV s -> s_cur s = Some (cid, st0) ->
    call_or_handle faults lst k cid s = (s', c) -> INV s'.
  Proof.
    intros k cid st0 s s' c HI Hc H.
    assert (Hcid : n0 <= cid). { destruct HI as (_ & (_ & F2 & _) & _). eapply F2; eauto. }
    pose proof (inv_called k cid s HI (fun _ => Hcid)) as HI1.
    destruct (call_or_handle_spec faults lst _ _ _ _ _ H) as [(_ & _ & ->)|(_ & _ & ->)]; [exact HI1|].
    destruct (is_disc c); [apply inv_inval|]; exact HI1.
  Qed.

  Lemma inv_connect : forall s s1 r, INV s -> s_cur s = None -> connect faults s = (s1, r) ->
    INV s1 /\ s_idle s1 = s_idle s /\
    forall idle, (forall x, In (Some x) idle -> In (Some x) (s_idle s)) -> INV (set_cur s1 idle (fst r)).
  Proof.
    intros s s1 r HI Hc H. pose proof HI as ((_ & _ & W3) & (_ & _ & F3) & L).
    destruct (connect_spec _ _ _ _ H) as [(_ & -> & ->)|(_ & -> & ->)]; cbn [fst].
    - assert (HO : INV (opened s)).
      { apply (inv_mono s _ HI); cbn; auto; [rewrite Hc; exact I|].
        apply (logok_cons n0 base s _ K_CONNECT (s_nconn s)); [reflexivity|intros X; destruct (not_use_connect X)|exact L]. }
      split; [exact HO|]. split; [reflexivity|]. intros idle Hsub. apply inv_set_cur; [exact HO|exact Hsub|].
      cbn. lia.
    - pose proof (inv_called K_CONNECT (s_nconn s) s HI (fun X => match not_use_connect X with end)) as HC.
      split; [exact HC|]. split; [reflexivity|]. intros idle Hsub. apply inv_set_cur; [exact HC|exact Hsub|exact I].
  Qed.

  Lemma inv_checkout : forall s s' f, INV s -> s_cur s = None -> checkout faults s = (s', f) -> INV s'.
  Proof.
    intros s s' f HI Hc H. unfold checkout in H.
    destruct (s_idle s) as [|r0 rest] eqn:Ei.
    - destruct (connect faults s) as [s1 r] eqn:Ec. destruct (inv_connect _ _ _ HI Hc Ec) as (H1 & E & H2).
      destruct (fst r); injection H as <- _; [apply H2; rewrite E; auto|exact H1].
    - assert (R : forall s0, INV s0 -> s_cur s0 = None -> s_idle s0 = s_idle s ->
                (let (s1, r) := connect faults s0 in
                 match fst r with
                 | Some c => (set_cur s1 rest (Some c), FOk)
                 | None => (set_cur s1 (rest ++ [None]) None, snd r)
                 end) = (s', f) -> INV s').
      { intros s0 HI0 Hc0 Ei0 H0. destruct (connect faults s0) as [s1 r] eqn:Ec.
        destruct (inv_connect _ _ _ HI0 Hc0 Ec) as (_ & _ & H2). rewrite Ei0, Ei in H2.
        destruct (fst r); injection H0 as <- _; apply H2; intros x Hin; right; [|apply in_snoc_none]; exact Hin. }
      destruct r0 as [[cid start]|]; [|exact (R s HI Hc eq_refl H)].
      destruct (Nat.ltb start (s_invt s)) eqn:El.
      + (* recycle: the stale connection is closed, not used *)
        apply (R (add_log s K_CLOSE cid)); [|exact Hc|reflexivity|exact H].
        apply (inv_ext n0 base (called K_CLOSE cid s)); try reflexivity.
        apply inv_called; [exact HI|]. intros X. destruct (not_use_close X).
      + (* reuse: the head of the queue is not stale, so by OlderStale it is not older than n0 *)
        injection H as <- _. apply Nat.ltb_ge in El.
        assert (Hin : In (Some (cid, start)) (s_idle s)) by (rewrite Ei; left; reflexivity).
        apply inv_set_cur; [exact HI|intros x Hx; rewrite Ei; right; exact Hx|].
        destruct HI as ((W1 & _) & (F1 & _) & _). destruct (W1 _ _ Hin).
        destruct (Nat.lt_ge_cases cid n0) as [Hlt|Hge]; [specialize (F1 _ _ Hin Hlt)|]; lia.
  Qed.

  Lemma inv_ensure : forall s s' e, INV s -> ensure faults lst s = (s', e) -> INV s'.
  Proof.
    intros s s' e HI H. unfold ensure in H.
    destruct (s_cur s) eqn:Hc; [injection H as <- _; exact HI|].
    destruct (s_txn s); try (injection H as <- _; exact HI).
    destruct (checkout faults s) as [s1 f] eqn:Eco.
    pose proof (inv_checkout _ _ _ HI Hc Eco) as HI1.
    destruct f; [injection H as <- _; exact HI1|..];
      destruct (handle lst _ s1) as [s2 c] eqn:Eh; injection H as <- _; exact (inv_handle _ _ _ _ HI1 Eh).
  Qed.

  Theorem inv_step : forall o s s' c, INV s -> step faults lst o s = (s', c) -> INV s'.
  Proof.
    intros o s s' c HI H. destruct (step_pool _ _ _ _ _ _ H) as (s1 & P & t & n & ->). apply inv_set_txn.
    destruct P as [c|s1 e c He _|s1 cid st0 k t0 n0' s2 c He Hc Hcoh].
    - exact HI.
    - exact (inv_ensure _ _ _ HI He).
    - exact (inv_call_or_handle _ _ _ _ _ _ (inv_set_txn _ _ _ _ _ (inv_ensure _ _ _ HI He)) Hc Hcoh).
  Qed.

  Lemma inv_final : forall h s, INV s -> INV (final faults lst h s).
  Proof.
    induction h as [|o h IH]; intros s HI; [exact HI|]. cbn [final].
    destruct (step faults lst o s) as [s1 c] eqn:Hs. cbn [fst]. apply IH. eapply inv_step; eauto.
  Qed.
End I.

Lemma wf_inv0 : forall s, WF s -> Inv 0 (s_log s) s.
Proof.
  intros s W. split; [exact W|]. split.
  - split; [|split]; intros; lia.
  - exists []. split; [reflexivity|constructor].
Qed.

Theorem wf_step : forall faults lst o s s' c, WF s -> step faults lst o s = (s', c) -> WF s'.
Proof. intros faults lst o s s' c W H. exact (proj1 (inv_step faults lst 0 (s_log s) o s s' c (wf_inv0 s W) H)). Qed.

Theorem wf_final : forall faults lst h s, WF s -> WF (final faults lst h s).
Proof. intros faults lst h s W. exact (proj1 (inv_final faults lst 0 (s_log s) h s (wf_inv0 s W))). Qed.

Lemma wf_init : forall w, WF (init w).
Proof.
  intros w. unfold init, WF. cbn. split; [|split].
  - intros id st0 Hin. apply in_map_iff in Hin. destruct Hin as (i & E & Hi). injection E as <- <-.
    apply in_seq in Hi. lia.
  - intros id st0 E. injection E as <- <-. lia.
  - lia.
Qed.

Section D.
  Variable faults : nat -> fault.
  Variable lst : list lbeh.

  (* after the pool was stamped every connection it holds is stale: the invariant starts with n0 = the next id *)
  Lemma disc_establishes_inv : forall s s', WF s -> pool_inv lst = true -> disc_shape lst s s' ->
    Inv (s_nconn s') (s_log s') s'.
  Proof.
    intros s s' (W1 & W2 & W3) Hl (P1 & P2 & P3 & P4 & P5). rewrite Hl in P4, P5.
    assert (X : forall id st0, In (Some (id, st0)) (s_idle s') -> st0 <= s_clock s /\ id < s_nconn s).
    { intros id st0 Hin. rewrite P1 in Hin. exact (W1 _ _ (in_snoc_none _ _ Hin)). }
    split; [|split]; [split; [|split]|split; [|split]|exists []; split; [reflexivity|constructor]];
      try (intros id st0 Hin; try intros _; destruct (X _ _ Hin)); try lia; congruence.
  Qed.

  Theorem older_pooled_connections_not_reused : forall o s s1 c,
    WF s -> s_cur s <> None -> pool_inv lst = true -> step faults lst o s = (s1, c) -> is_disc c = true ->
    forall h, exists new,
      s_log (final faults lst h s1) = new ++ s_log s1 /\
      Forall (fun kc => use_kind (fst kc) -> s_nconn s1 <= snd kc) new.
  Proof.
    intros o s s1 c W Hc Hl H Hd h.
    pose proof (step_live faults lst o s s1 c Hc H) as Hs. rewrite Hd in Hs.
    destruct (inv_final faults lst _ _ h s1 (disc_establishes_inv s s1 W Hl Hs)) as (_ & _ & L). exact L.
  Qed.
End D.
