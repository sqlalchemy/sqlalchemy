(* C10 - consequences of the refinement: whatever mix of fetchone / next / iteration / fetchmany /
   partitions is used, followed by all(): every row is delivered exactly once, in order (and, with
   unique(), exactly the first occurrence of every distinct row) *)
From Coq Require Import List ZArith Bool Arith Lia.
Import ListNotations.
From SAV.engine Require Import ResultModel ResultSpec ResultFetchProofs ResultViewProofs ResultOnlyOneProofs ResultRefine.

(* the row-delivering calls that do not discard anything *)
Definition plain_op (o : op) : bool :=
  match o with
  | FetchOne | Next | IterFor _ | ToRoot => true
  | FetchMany (Some n) => 1 <=? n
  | Partitions (Some n) _ => 1 <=? n
  | _ => false
  end.

(* what one all() would deliver now *)
Definition all_now (s : sstate) : list row :=
  fst (fst (adeliver (sufs (sroot s)) (scols (sroot s)) (length (rem s)) (rem s) (shp s))).
(* the result itself is the current view, a row view, open, its seen-set in the heap *)
Definition pinv (s : sstate) : Prop :=
  sfview s = None /\ skind (sroot s) = VRoot /\ sclosed s = false /\ u_ok (shp s) (sufs (sroot s)).

Lemma flat_rows_post c d : flat_map rows_of_item (map (post VRoot c) d) = d.
Proof. induction d; cbn; congruence. Qed.
Lemma flat_rows_map d : flat_map rows_of_item (map (post VRoot (@nil (nat * nat))) d) = d.
Proof. apply flat_rows_post. Qed.

Lemma deliver_pinv s n d s1 : pinv s -> deliver (scur s) n s = (d, s1) ->
  pinv s1 /\ sroot s1 = sroot s /\ all_now s = d ++ all_now s1.
Proof.
  intros [F [K [C U]]] H. unfold deliver, scur in H. rewrite F in H.
  destruct (adeliver (sufs (sroot s)) (scols (sroot s)) n (rem s) (shp s)) as [[d0 r] h] eqn:A.
  inversion H; subst. unfold pinv, all_now. cbn [sfview sroot sclosed shp rem].
  repeat split; auto.
  - apply (adeliver_u_ok A U).
  - apply (adeliver_then_all _ _ _ _ _ _ _ _ U A).
Qed.

(* a call that hands out, as rows, exactly what [deliver] gave it *)
Lemma deliver_plain s n (g : list row -> outcome) q : pinv s ->
  q = (let '(d, s1) := deliver (scur s) n s in (s1, g d)) ->
  (forall d, length d <= n -> delivered_by (g d) = d) ->
  pinv (fst q) /\ sroot (fst q) = sroot s /\ all_now s = delivered_by (snd q) ++ all_now (fst q).
Proof.
  intros P -> Hg. destruct (deliver (scur s) n s) as [d s1] eqn:D.
  destruct (deliver_pinv s n d s1 P D) as (P1 & R1 & A1).
  unfold deliver in D. destruct (adeliver _ _ n (rem s) (shp s)) as [[d0 r0] h0] eqn:A. injection D as -> _.
  cbn [fst snd]. rewrite Hg by apply (adeliver_length A). auto.
Qed.

Lemma sparts_pinv n : forall k s acc ps st s1, pinv s -> sparts k (scur s) n s acc = (ps, st, s1) ->
  pinv s1 /\ sroot s1 = sroot s /\ concat acc ++ all_now s = concat ps ++ all_now s1.
Proof.
  induction k as [|k IH]; intros s acc ps st s1 P H.
  - cbn in H. inversion H; subst. auto.
  - cbn [sparts] in H. destruct (deliver (scur s) n s) as [d s0] eqn:D.
    destruct (deliver_pinv s n d s0 P D) as [P0 [R0 A0]]. destruct d as [|p d'].
    + inversion H; subst. rewrite A0. auto.
    + assert (SC : scur s0 = scur s) by (unfold scur; destruct P as [F _], P0 as [F0 _]; rewrite F, F0; exact R0).
      rewrite <- SC in H. destruct (IH s0 _ ps st s1 P0 H) as [P1 [R1 A1]].
      split; [exact P1|]. split; [congruence|]. rewrite A0, <- A1. rewrite concat_app. cbn [concat].
      rewrite app_nil_r, <- app_assoc. reflexivity.
Qed.

Lemma flat_parts c ps : flat_map (flat_map rows_of_item) (map (map (post VRoot c)) ps) = concat ps.
Proof. induction ps; cbn; [reflexivity|]. rewrite flat_rows_post. congruence. Qed.

Lemma sstep_plain s o : pinv s -> plain_op o = true ->
  pinv (fst (sstep s o)) /\ sroot (fst (sstep s o)) = sroot s /\
  all_now s = delivered_by (snd (sstep s o)) ++ all_now (fst (sstep s o)).
Proof.
  intros P Hp. pose proof P as [F [K [C U]]].
  assert (KS : skind (scur s) = VRoot) by (unfold scur; rewrite F; exact K).
  destruct o; try discriminate; unfold sstep; rewrite ?KS, ?C.
  1-2: (* fetchone, next: at most one row *)
    (eapply deliver_plain; [exact P|reflexivity|]); intros [|p [|q d]] L; cbn in L; try lia; reflexivity.
  - destruct k as [|k]; [cbn; auto|]. eapply deliver_plain; [exact P|reflexivity|].
    intros d _. apply flat_rows_post.
  - destruct n as [n|]; [|discriminate]. eapply deliver_plain; [exact P|reflexivity|].
    intros d _. apply flat_rows_post.
  - destruct n as [n|]; [|discriminate]. destruct k as [|k]; [cbn; auto|].
    cbn [size_of]. destruct (sparts (S k) (scur s) n s []) as [[ps st] s1] eqn:D.
    destruct (sparts_pinv n (S k) s [] ps st s1 P D) as [P1 [R1 A1]].
    cbn [fst snd delivered_by]. rewrite flat_parts. cbn [concat app] in A1. auto.
  - cbn [fst snd delivered_by app]. unfold pinv, all_now. cbn. auto.
Qed.

Lemma srun_plain : forall ops s, pinv s -> forallb plain_op ops = true ->
  delivered (srun s (ops ++ [All])) = all_now s.
Proof.
  induction ops as [|o t IH]; intros s P H.
  - cbn [app srun]. destruct P as [F [K [C U]]]. unfold sstep. rewrite C.
    unfold deliver, scur. rewrite F. unfold all_now.
    destruct (adeliver (sufs (sroot s)) (scols (sroot s)) (length (rem s)) (rem s) (shp s)) as [[d r] h].
    unfold delivered. cbn. rewrite K, flat_rows_post, app_nil_r. reflexivity.
  - cbn [forallb] in H. apply andb_prop in H. destruct H as [H1 H2].
    destruct (sstep_plain s o P H1) as [P1 [R1 A1]].
    cbn [app srun]. destruct (sstep s o) as [s1 out]. cbn [fst snd] in *.
    unfold delivered in *. cbn [flat_map fst]. rewrite (IH s1 P1 H2). symmetry. exact A1.
Qed.

Lemma op_ok_plain i o : plain_op o = true -> op_ok i o = true.
Proof.
  intros Hp. destruct o; try discriminate; unfold op_ok; auto.
  - destruct n as [n|]; [|discriminate]. exact Hp.
  - destruct n as [n|]; [|discriminate]. unfold plain_op in Hp. cbn [size_ok]. rewrite Hp. apply orb_true_r.
Qed.
(* [plain_op] does not look at the state, so neither does the guard of such a sequence *)
Lemma guard_plain : forall ops i, forallb plain_op ops = true -> guard_from i (ops ++ [All]) = true.
Proof.
  induction ops as [|o t IH]; intros i Hp; [reflexivity|].
  cbn [forallb] in Hp. apply andb_prop in Hp. destruct Hp as [H1 H2].
  cbn [app guard_from]. rewrite (op_ok_plain i o H1). apply IH, H2.
Qed.

Lemma project_identity w r : length r = w -> project (identity_cols w) r = r.
Proof.
  intros <-. unfold project, identity_cols. rewrite map_map. cbn [fst].
  induction r as [|x t IH]; [reflexivity|].
  cbn [length seq map nth]. f_equal. rewrite <- seq_shift, map_map. cbn [nth]. exact IH.
Qed.
Lemma project_identity_rows w rows :
  Forall (fun r => length r = w) rows -> map (project (identity_cols w)) rows = rows.
Proof.
  induction 1 as [|r t Hr Ht IH]; [reflexivity|]. cbn [map]. rewrite (project_identity w r Hr), IH. reflexivity.
Qed.

Theorem no_row_lost_or_duplicated st w rows ops :
  forallb plain_op ops = true -> Forall (fun r => length r = w) rows ->
  delivered (run_impl st w rows (ops ++ [All])) = rows.
Proof.
  intros Hp Hw.
  rewrite (all_sequences_guarded st w rows (ops ++ [All])).
  - unfold run_spec. rewrite srun_plain; [|repeat split; cbn; auto|exact Hp].
    unfold all_now, init_spec, adeliver. cbn [sroot sufs scols rem shp].
    rewrite take_None, firstn_all. apply project_identity_rows, Hw.
  - apply guard_plain, Hp.
Qed.

(* first occurrences, in order: _apply_unique_strategy over the whole list *)
Definition dedup (k : strat) (rows : list row) : list row := fst (apply_unique k rows []).

Theorem unique_delivers_first_occurrences st w rows k ops :
  forallb plain_op ops = true -> Forall (fun r => length r = w) rows ->
  delivered (run_impl st w rows (Unique k :: ops ++ [All])) = dedup k rows.
Proof.
  intros Hp Hw.
  pose proof (project_identity_rows w rows Hw) as Hmap.
  rewrite (all_sequences_guarded st w rows (Unique k :: ops ++ [All])).
  - unfold run_spec. cbn [srun]. destruct (sstep (init_spec w rows) (Unique k)) as [s1 out] eqn:E.
    cbn in E. inversion E; subst. unfold delivered. cbn [flat_map fst delivered_by app].
    match goal with |- flat_map _ (srun ?s _) = _ => pose proof (srun_plain ops s) as SP end.
    unfold delivered in SP. rewrite SP; [|repeat split; cbn; auto|exact Hp].
    unfold all_now, adeliver. cbn [sroot sufs scols rem shp fst snd hget nth].
    (* [row] and [list val] are different texts to [rewrite] *)
    unfold row in *. rewrite take_all. unfold row in *. rewrite Hmap. unfold dedup.
    destruct (apply_unique _ _ _) as [d1 s1]. reflexivity.
  - apply (guard_plain ops _ Hp).
Qed.

Lemma mem_true_iff k s : mem k s = true <-> exists x, In x s /\ row_eqb k x = true.
Proof. unfold mem. rewrite existsb_exists. reflexivity. Qed.

Lemma row_eqb_refl r : row_eqb r r = true.
Proof.
  induction r as [|v t IH]; [reflexivity|]. cbn. rewrite IH, andb_true_r.
  destruct v as [z|l]; cbn; [apply Z.eqb_refl|]. induction l; cbn; [reflexivity|]. rewrite Z.eqb_refl. assumption.
Qed.

Lemma apply_unique_complete k : forall rows seen p, In p rows ->
  mem (key_of k p) seen || mem (key_of k p) (map (key_of k) (fst (apply_unique k rows seen))) = true.
Proof.
  induction rows as [|q t IH]; intros seen p; [intros []|intros [<-|Hp]]; cbn [apply_unique];
    destruct (mem (key_of k q) seen) eqn:M; auto.
  - destruct (apply_unique k t (key_of k q :: seen)). cbn. rewrite row_eqb_refl. reflexivity.
  - specialize (IH (key_of k q :: seen) p Hp). destruct (apply_unique k t (key_of k q :: seen)).
    unfold mem in *. cbn [fst map existsb] in *. rewrite !orb_true_iff in *. tauto.
Qed.
Lemma dedup_complete k rows p : In p rows -> mem (key_of k p) (map (key_of k) (dedup k rows)) = true.
Proof. apply (apply_unique_complete k rows []). Qed.
Lemma apply_unique_incl k : forall rows seen p, In p (fst (apply_unique k rows seen)) -> In p rows.
Proof.
  induction rows as [|q t IH]; intros seen p H; [exact H|].
  cbn [apply_unique] in H. destruct (mem (key_of k q) seen).
  - right. apply (IH seen p H).
  - destruct (apply_unique k t (key_of k q :: seen)) as [d s] eqn:E. cbn in H.
    destruct H as [<-|H]; [left; reflexivity|right]. apply (IH (key_of k q :: seen)). rewrite E. exact H.
Qed.
Lemma dedup_incl k rows p : In p (dedup k rows) -> In p rows.
Proof. apply apply_unique_incl. Qed.
Lemma apply_unique_fresh k : forall rows seen l1 p l2,
  fst (apply_unique k rows seen) = l1 ++ p :: l2 ->
  mem (key_of k p) seen = false /\ mem (key_of k p) (map (key_of k) l1) = false.
Proof.
  induction rows as [|q t IH]; intros seen l1 p l2 H.
  - cbn in H. destruct l1; discriminate.
  - cbn [apply_unique] in H. destruct (mem (key_of k q) seen) eqn:M.
    + apply (IH seen l1 p l2 H).
    + destruct (apply_unique k t (key_of k q :: seen)) as [d s] eqn:E. cbn [fst] in H.
      destruct l1 as [|x l1'].
      * cbn in H. inversion H; subst. auto.
      * cbn [app] in H. inversion H; subst.
        assert (E' : fst (apply_unique k t (key_of k x :: seen)) = l1' ++ p :: l2) by (rewrite E; reflexivity).
        destruct (IH _ _ _ _ E') as [A B]. cbn [mem existsb] in A. apply orb_false_iff in A. destruct A as [A1 A2].
        split; [exact A2|]. cbn [map mem existsb]. rewrite A1. exact B.
Qed.
Lemma dedup_nodup k rows l1 p l2 : dedup k rows = l1 ++ p :: l2 ->
  mem (key_of k p) (map (key_of k) l1) = false.
Proof. intros H. apply (apply_unique_fresh k rows [] l1 p l2 H). Qed.
