(* C26 - the decision kernel of no_dead_reuse: _ConnectionRecord.get_connection hands back the
   connection the record already holds only when none of the three staleness tests fired *)
From Coq Require Import List ZArith Bool Arith Lia.
Import ListNotations.
From SAV.engine Require Import PoolSeq PoolSeqFrame.
Open Scope Z_scope.

Section Kernel.
Variable cf : cfg.

Lemma next_fault_frame : forall s c s', next_fault s = (c, s') -> cn s' = cn s /\ rc s' = rc s /\ pl s' = pl s.
Proof. unfold next_fault; intros. dm H; inv H; auto. Qed.

Lemma now_frame : forall s t s', now cf s = (t, s') ->
  nconns s' = nconns s /\ r_dbc s' = r_dbc s /\ r_start s' = r_start s /\ t = clock s'.
Proof. unfold now; intros. dm H; inv H; auto. Qed.

Lemma rec_connect_nconns : forall r s x s', rec_connect cf r s = (x, s') ->
  match x with Ok _ => nconns s' = S (nconns s) | Raise _ => nconns s' = nconns s end.
Proof.
  unfold rec_connect; intros r s x s' H.
  destruct (now cf (set_r_dbc s (upd (r_dbc s) r None))) as [t s2] eqn:En. apply now_frame in En as (N2 & _).
  rewrite ext_connect_eq in H.
  match type of H with context [next_fault ?s3] => destruct (next_fault s3) as [code s4] eqn:Ef end.
  apply next_fault_frame in Ef as (C4 & _ & _).
  assert (N4 : nconns s4 = nconns s) by (unfold nconns in *; rewrite C4; exact N2).
  destruct (raises code); inv H; [change (nconns s4 = nconns s)|change (S (nconns s4) = S (nconns s))]; rewrite N4; reflexivity.
Qed.

Lemma rec_close_nconns : forall r s x s', rec_close r s = (x, s') -> nconns s' = nconns s.
Proof.
  unfold rec_close, close_connection, ext_close; intros r s x s' H.
  destruct (r_dbc s r); [|inv H; auto].
  destruct (next_fault s) as [code s1] eqn:Ef. apply next_fault_frame in Ef. destruct Ef as (C1 & _ & _).
  assert (N1 : nconns s1 = nconns s) by (unfold nconns; rewrite C1; reflexivity).
  destruct (raises code) as [e|]; cbn [fst snd] in H; [destruct (is_exception e)|]; inv H;
    (transitivity (nconns s1); [reflexivity|exact N1]).
Qed.

(* if no new DBAPI connection was made, the one handed out is the one the record had, and it passed
   the recycle / pool-invalidation / soft-invalidation tests (all three strict comparisons) *)
Theorem get_connection_kernel : forall r s c s',
  get_connection cf r s = (Ok c, s') -> nconns s' = nconns s ->
  r_dbc s r = Some c /\ r_dbc s' r = Some c /\
  ~ (r_start s' r < inv_time s') /\ ~ (r_start s' r < r_soft s' r) /\
  (-1 < recycle cf -> clock s' - r_start s' r <= recycle cf).
Proof.
  unfold get_connection; intros r s c s' H Hn.
  destruct (r_dbc s r) as [c0|] eqn:Ed.
  - match type of H with (let '(_, _) := ?e in _) = _ => destruct e as [rcy s1] eqn:E0 end.
    assert (S1 : nconns s1 = nconns s /\ r_dbc s1 = r_dbc s /\
                 (rcy = Some false -> ~ (r_start s1 r < inv_time s1) /\ ~ (r_start s1 r < r_soft s1 r) /\
                                      (-1 < recycle cf -> clock s1 - r_start s1 r <= recycle cf)) /\ rcy <> None).
    { destruct (-1 <? recycle cf) eqn:Er.
      - destruct (now cf s) as [t s0] eqn:En.
        apply now_frame in En as (N1 & N2 & N3 & N4).
        destruct (recycle cf <? t - r_start s0 r) eqn:E1; [inv E0; repeat split; auto; discriminate|].
        destruct (r_start s0 r <? inv_time s0) eqn:E2; [inv E0; repeat split; auto; discriminate|].
        destruct (r_start s0 r <? r_soft s0 r) eqn:E3; inv E0; repeat split; auto; try discriminate; try lia.
      - destruct (r_start s r <? inv_time s) eqn:E2; [inv E0; repeat split; auto; discriminate|].
        destruct (r_start s r <? r_soft s r) eqn:E3; inv E0; repeat split; auto; try discriminate; try lia. }
    destruct S1 as (N1 & D1 & G1 & G2).
    destruct rcy as [[|]|]; [| |congruence].
    + (* recycled: a new connection is made, contradiction *)
      exfalso. destruct (rec_close r s1) as [[|e] s2] eqn:Ec; [|inv H].
      apply rec_close_nconns in Ec.
      destruct (rec_connect cf r s2) as [[|e] s3] eqn:Er; [|inv H].
      apply rec_connect_nconns in Er. repeat dm H; inv H. lia.
    + rewrite D1, Ed in H. inv H. destruct (G1 eq_refl) as (A1 & A2 & A3).
      rewrite D1, Ed. auto.
  - (* no connection: __connect makes a new one, contradiction *)
    exfalso. destruct (rec_connect cf r s) as [[|e] s3] eqn:Er; [|inv H].
    apply rec_connect_nconns in Er. repeat dm H; inv H. lia.
Qed.

End Kernel.
