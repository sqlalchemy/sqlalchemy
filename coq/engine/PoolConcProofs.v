(* C25: every accepted event has one of five effects on the shared state (stepf_effect); the two
   invariants are checked against those five (effect_inv) and the theorems read off a reachable state. *)
From Coq Require Import List ZArith Bool Lia Arith Permutation.
Import ListNotations.
From SAV.engine Require Import PoolConc.
Open Scope Z_scope.

(* the connection a thread at this pc has checked out and not yet given back *)
Definition owns (p : option pc) (x : conn) : Prop :=
  match p with Some (Holding y) | Some (R1 y) | Some (R2 y) => y = x | _ => False end.

Lemma nth_error_upd ts : forall i j p,
  nth_error (upd ts i p) j =
  if Nat.eqb j i then (match nth_error ts i with Some _ => Some p | None => None end) else nth_error ts j.
Proof.
  induction ts as [|x r IH]; intros i j p.
  - destruct i, j; cbn; try reflexivity; destruct (Nat.eqb _ _); reflexivity.
  - destruct i as [|i], j as [|j]; cbn; try reflexivity. apply IH.
Qed.

Lemma upd_length ts : forall i p, length (upd ts i p) = length ts.
Proof. induction ts as [|x r IH]; intros [|i] p; cbn; auto. Qed.

Lemma upd_same ts : forall i p, nth_error ts i = Some p -> upd ts i p = ts.
Proof. induction ts as [|x r IH]; intros [|i] p H; try discriminate; cbn in *; [congruence|f_equal; auto]. Qed.

Lemma nodup_app_r {A} (l1 l2 : list A) : NoDup (l1 ++ l2) -> NoDup l2.
Proof. induction l1 as [|a l1 IH]; cbn; [auto|]. intros H. inversion H; subst. auto. Qed.

Lemma in_remove_pair i x h j y :
  In (j, y) (remove_pair i x h) <-> In (j, y) h /\ ~ (j = i /\ y = x).
Proof.
  unfold remove_pair. rewrite filter_In. cbn [fst snd]. split.
  - intros [H1 H2]. split; [exact H1|]. intros [-> ->]. rewrite !Nat.eqb_refl in H2. discriminate.
  - intros [H1 H2]. split; [exact H1|].
    destruct (Nat.eqb_spec j i) as [->|]; [|reflexivity]. destruct (Nat.eqb_spec y x) as [->|]; [|reflexivity].
    exfalso. apply H2. split; reflexivity.
Qed.

Lemma remove_pair_notin i x h : ~ In x (map snd h) -> remove_pair i x h = h.
Proof.
  induction h as [|[k z] h IH]; cbn; intros N; [reflexivity|].
  destruct (Nat.eqb_spec z x) as [->|]; [tauto|]. rewrite andb_false_r. cbn. f_equal. tauto.
Qed.

(* connections are held once, so removing the pair (i, x) removes exactly one entry *)
Lemma remove_pair_perm i x : forall h, NoDup (map snd h) -> In (i, x) h ->
  Permutation (map snd h) (x :: map snd (remove_pair i x h)).
Proof.
  induction h as [|[j y] h IH]; intros Hn Hin; [destruct Hin|].
  inversion Hn as [|? ? Hny Hn']; subst. cbn [remove_pair filter fst snd]. destruct Hin as [E|Hin].
  - inversion E; subst. rewrite !Nat.eqb_refl. cbn [andb negb].
    fold (remove_pair i x h). rewrite remove_pair_notin by exact Hny. apply Permutation_refl.
  - destruct (Nat.eqb_spec y x) as [->|].
    + exfalso. apply Hny. apply in_map_iff. exists (i, x). split; [reflexivity|exact Hin].
    + rewrite andb_false_r. cbn [negb map snd]. fold (remove_pair i x h).
      eapply perm_trans; [apply perm_skip; apply IH; assumption|]. apply perm_swap.
Qed.

Lemma remove_pair_len i x h : NoDup (map snd h) -> In (i, x) h ->
  Z.of_nat (length (remove_pair i x h)) + 1 = Z.of_nat (length h).
Proof.
  intros Hn Hin. pose proof (Permutation_length (remove_pair_perm i x h Hn Hin)) as H.
  cbn [length] in H. rewrite !map_length in H. lia.
Qed.

Lemma qpop_spec l q y q' : qpop l q = Some (y, q') -> Permutation q (y :: q') /\ length q = S (length q').
Proof.
  unfold qpop. destruct l.
  - destruct (rev q) as [|z r] eqn:E; [discriminate|]. intros H; inversion H; subst.
    assert (Hq : q = rev r ++ [y]) by (rewrite <- (rev_involutive q), E; reflexivity).
    subst q. split; [apply Permutation_sym, Permutation_cons_append|]. rewrite app_length. cbn. lia.
  - destruct q as [|z r]; [discriminate|]. intros H; inversion H; subst. split; [apply Permutation_refl|reflexivity].
Qed.

(* a slot reserved in the counter with no connection to show for it: before create, after a failed
   create, after closing an overflow connection *)
Definition pending (p : pc) : Z := match p with G5 | G6 | R3 => 1 | _ => 0 end.
Fixpoint sumz (f : pc -> Z) (ts : list pc) : Z := match ts with [] => 0 | p :: r => f p + sumz f r end.
Definition hlen (s : shared) : Z := Z.of_nat (length (held s)).

Lemma sumz_repeat f n : f Idle = 0 -> sumz f (repeat Idle n) = 0.
Proof. intros H. induction n; cbn; lia. Qed.

Lemma sumz_upd f ts : forall i p0 p, nth_error ts i = Some p0 -> sumz f (upd ts i p) = sumz f ts - f p0 + f p.
Proof.
  induction ts as [|x r IH]; intros i p0 p H; [destruct i; discriminate|].
  destruct i as [|j]; cbn in *.
  - inversion H; subst. lia.
  - rewrite (IH j p0 p H). lia.
Qed.

Lemma sumz_nonneg ts : 0 <= sumz pending ts.
Proof. induction ts as [|p r IH]; cbn [sumz]; [lia|destruct p; cbn [pending]; lia]. Qed.

Section P.
Variable c : cfg.

(* What a step of thread i from p to p' does to the shared state.  Every accepted event is one of
   five things: nothing to the connections (only the thread and perhaps the counter move; with the
   lock in use, counter and pending reservations move together and _inc_overflow respects the
   limit), Queue.get, a successful create, Queue.put, or closing a connection the queue had no room for. *)
Inductive effect (i : nat) (s : shared) (p : pc) : shared -> pc -> Prop :=
| Keep v p' :
    owns (Some p) = owns (Some p') ->
    (use_overflow c = true ->
       v - pending p' = overflow s - pending p /\ (overflow s <= max_overflow c -> v <= max_overflow c)) ->
    effect i s p (set_ov s v) p'
| Take x q' :
    qpop (lifo c) (queue s) = Some (x, q') -> owns (Some p) = (fun _ => False) -> pending p = 0 ->
    effect i s p {| queue := q'; overflow := overflow s; held := (i, x) :: held s |} (Holding x)
| Make x :
    ~ In x (opened s) -> p = G5 ->
    effect i s p {| queue := queue s; overflow := overflow s; held := (i, x) :: held s |} (Holding x)
| Put x :
    qlen s < pool_size c -> p = R1 x ->
    effect i s p {| queue := queue s ++ [x]; overflow := overflow s; held := remove_pair i x (held s) |} Idle
| Close x :
    p = R2 x ->
    effect i s p {| queue := queue s; overflow := overflow s; held := remove_pair i x (held s) |}
      (if use_overflow c then R3 else U3).

(* [moves ts i En]: the event concerns thread i; En records its pc (wrong pcs reject the event).
   [accept En]: the event is accepted, and that thread is the one that moves.
   [keep]: queue and held are untouched: ownership is unchanged by computation on the two pcs, and the
   condition on the counter is arithmetic, or void where the configuration does not use the lock. *)
Ltac moves ts i En := destruct (nth_error ts i) as [[]|] eqn:En; try discriminate.
Ltac accept En := intros [= <-]; do 4 eexists; (split; [exact En|split; [reflexivity|]]).
Ltac keep := apply Keep; [destruct (use_overflow c); reflexivity|first [congruence|intros Uo; rewrite ?Uo; cbn; lia]].

Lemma stepf_effect s ts e st' : stepf c (s, ts) e = Some st' ->
  exists i p s' p', nth_error ts i = Some p /\ st' = (s', upd ts i p') /\ effect i s p s' p'.
Proof.
  destruct s as [q ov h]. unfold stepf. cbn [queue overflow held]. destruct e.
  - (* EStart *) moves ts i En. accept En. keep.
  - (* ERd1 *) moves ts i En; (destruct (v =? ov); [|discriminate]); accept En; keep.
  - (* EQGet *) moves ts i En; (destruct (qpop (lifo c) q) as [[y q']|] eqn:Eq; [|discriminate]);
      (destruct (Nat.eqb_spec c0 y) as [->|]; [|discriminate]); accept En; (apply Take; [exact Eq|reflexivity|reflexivity]).
  - (* EQEmpty *) moves ts i En; (destruct q; [|discriminate]); accept En; keep.
  - (* EQWait *) moves ts i En; try destruct wait; destruct q; try discriminate.
    + accept En. keep.
    + (* a waiter that keeps waiting *)
      intros [= <-]. do 4 eexists. split; [exact En|]. split; [f_equal; symmetry; exact (upd_same _ _ _ En)|]. keep.
  - (* ERd2 *) moves ts i En. destruct (negb (v =? ov)); [discriminate|].
    destruct wait, (use_overflow c && (max_overflow c <=? v)); accept En; keep.
  - (* EInc *) moves ts i En. destruct (use_overflow c) eqn:U; [|discriminate].
    destruct (Z.ltb_spec ov (max_overflow c)), b; try discriminate; accept En; keep.
  - (* ECreate *) moves ts i En. destruct ok; [|accept En; keep].
    destruct (existsb (Nat.eqb c0) (opened _)) eqn:Ex; [discriminate|]. accept En. apply Make; [|reflexivity].
    intros Hin. apply not_true_iff_false in Ex. apply Ex, existsb_exists. exists c0. split; [exact Hin|apply Nat.eqb_refl].
  - (* EDec *) moves ts i En; (destruct (use_overflow c) eqn:U; [|discriminate]); accept En; keep.
  - (* ERelease *) moves ts i En. accept En. keep.
  - (* EQPut *) moves ts i En.
    destruct (Z.ltb_spec (qlen {| queue := q; overflow := ov; held := h |}) (pool_size c)); [|discriminate].
    accept En. apply Put; [assumption|reflexivity].
  - (* EQFull *) moves ts i En. destruct (qlen _ <? pool_size c); [discriminate|]. accept En. keep.
  - (* EClose *) moves ts i En. accept En. apply Close; reflexivity.
  - (* EURd *) destruct (use_overflow c) eqn:U; [discriminate|]. destruct (negb (v =? ov)); [discriminate|].
    moves ts i En; accept En; keep.
  - (* EUWr *) destruct (use_overflow c) eqn:U; [discriminate|].
    moves ts i En; [destruct (v =? v0 + 1)|destruct (v =? v0 - 1)|destruct (v =? v0 - 1)]; try discriminate; accept En; keep.
Qed.

Definition Inv_id (st : state) : Prop :=
  let (s, ts) := st in
  NoDup (opened s) /\ forall i x, In (i, x) (held s) <-> owns (nth_error ts i) x.

(* the counter accounts for every open connection and every reserved slot; meaningful when
   _inc_overflow / _dec_overflow run under the lock (max_overflow > -1) *)
Definition Inv_cnt (st : state) : Prop :=
  let (s, ts) := st in
  0 <= qlen s <= pool_size c /\
  overflow s + pool_size c = qlen s + hlen s + sumz pending ts /\
  overflow s <= max_overflow c.

Ltac upd_cases j i :=
  rewrite nth_error_upd; destruct (Nat.eqb_spec j i) as [->|].

Lemma owns_keep ts i p p' s_held :
  nth_error ts i = Some p -> owns (Some p) = owns (Some p') ->
  (forall j x, In (j, x) s_held <-> owns (nth_error ts j) x) ->
  forall j x, In (j, x) s_held <-> owns (nth_error (upd ts i p') j) x.
Proof.
  intros Hn Hp H j x. upd_cases j i; [|apply H]. rewrite Hn, <- Hp, <- Hn. apply H.
Qed.

Lemma owns_add ts i p x0 s_held :
  nth_error ts i = Some p -> owns (Some p) = (fun _ => False) ->
  (forall j x, In (j, x) s_held <-> owns (nth_error ts j) x) ->
  forall j x, In (j, x) ((i, x0) :: s_held) <-> owns (nth_error (upd ts i (Holding x0)) j) x.
Proof.
  intros Hn Hp H j x. upd_cases j i.
  - rewrite Hn. cbn [owns In]. split.
    + intros [E|Hin]; [inversion E; reflexivity|]. apply H in Hin. rewrite Hn, Hp in Hin. destruct Hin.
    + intros ->. left; reflexivity.
  - cbn [In]. rewrite <- H. split; [intros [E|Hin]; [inversion E; congruence|exact Hin]|auto].
Qed.

Lemma owns_remove ts i x0 p p' s_held :
  nth_error ts i = Some p -> (forall x, owns (Some p) x <-> x = x0) -> (forall x, ~ owns (Some p') x) ->
  (forall j x, In (j, x) s_held <-> owns (nth_error ts j) x) ->
  forall j x, In (j, x) (remove_pair i x0 s_held) <-> owns (nth_error (upd ts i p') j) x.
Proof.
  intros Hn Hp Hp' H j x. rewrite in_remove_pair. upd_cases j i.
  - rewrite Hn. split.
    + intros [Hin Hne]. apply H in Hin. rewrite Hn in Hin. apply Hp in Hin. exfalso. apply Hne. auto.
    + intros Ho. exfalso. exact (Hp' _ Ho).
  - rewrite H. split; [intros [Ho _]; exact Ho|intros Ho; split; [exact Ho|intros [E _]; contradiction]].
Qed.

Lemma effect_inv i s ts p s' p' : nth_error ts i = Some p -> effect i s p s' p' -> Inv_id (s, ts) ->
  Inv_id (s', upd ts i p') /\ (use_overflow c = true -> Inv_cnt (s, ts) -> Inv_cnt (s', upd ts i p')).
Proof.
  intros En E [Hnd Hown].
  assert (Hnh : NoDup (map snd (held s))) by exact (nodup_app_r _ _ Hnd).
  assert (Hin : forall x, owns (Some p) x -> In (i, x) (held s)) by (intros x; rewrite <- En; apply Hown).
  unfold Inv_id, Inv_cnt. rewrite (sumz_upd pending _ _ _ _ En).
  destruct E as [v p' Ho Hv|x q' Eq Hf Hp|x Hx ->|x Hl ->|x ->]; unfold opened, qlen, hlen in *;
    cbn [queue held overflow set_ov length map snd pending].
  - split; [split; [exact Hnd|exact (owns_keep _ _ _ _ _ En Ho Hown)]|]. intros U. destruct (Hv U). lia.
  - apply qpop_spec in Eq as [Hperm Hlen]. split; [split|].
    + eapply Permutation_NoDup; [|exact Hnd]. eapply perm_trans; [apply Permutation_app_tail; exact Hperm|]. apply Permutation_middle.
    + exact (owns_add _ _ _ _ _ En Hf Hown).
    + lia.
  - split; [split|].
    + eapply Permutation_NoDup; [apply Permutation_middle|]. constructor; assumption.
    + exact (owns_add _ _ _ _ _ En eq_refl Hown).
    + lia.
  - specialize (Hin x eq_refl). split; [split|].
    + eapply Permutation_NoDup; [|exact Hnd]. rewrite <- app_assoc. apply Permutation_app_head, remove_pair_perm; assumption.
    + apply (owns_remove _ _ _ _ _ _ En); [cbn; split; auto|cbn; tauto|exact Hown].
    + pose proof (remove_pair_len i x _ Hnh Hin). rewrite app_length. cbn [length]. lia.
  - specialize (Hin x eq_refl). split; [split|].
    + apply (NoDup_remove_1 _ _ x). eapply Permutation_NoDup; [|exact Hnd]. apply Permutation_app_head, remove_pair_perm; assumption.
    + apply (owns_remove _ _ _ _ _ _ En); [cbn; split; auto|destruct (use_overflow c); cbn; tauto|exact Hown].
    + intros ->. pose proof (remove_pair_len i x _ Hnh Hin). cbn [pending]. lia.
Qed.

Lemma run_inv : forall tr st st', run c st tr = Some st' -> Inv_id st ->
  Inv_id st' /\ (use_overflow c = true -> Inv_cnt st -> Inv_cnt st').
Proof.
  induction tr as [|e tr IH]; intros st st' Hr Hi; cbn in Hr; [inversion Hr; subst; auto|].
  destruct (stepf c st e) as [st1|] eqn:E; [|discriminate]. destruct st as [s ts].
  apply stepf_effect in E as (i & p & s1 & p1 & En & -> & E).
  destruct (effect_inv _ _ _ _ _ _ En E Hi) as [Hi1 Hc1]. destruct (IH _ _ Hr Hi1). auto.
Qed.

Lemma nth_repeat_idle n i : owns (nth_error (repeat Idle n) i) = fun _ => False.
Proof. revert i. induction n; intros [|i]; cbn; auto. Qed.

Lemma Inv_id_init n : Inv_id (init c n).
Proof. cbn. split; [constructor|]. intros i x. rewrite nth_repeat_idle. split; intros []. Qed.

Lemma reach_inv_id st : reach c st -> Inv_id st.
Proof. intros (n & tr & H). exact (proj1 (run_inv _ _ _ H (Inv_id_init n))). Qed.

(* no DBAPI connection is held by two checkouts at the same time, nor idle and held at once *)
Theorem no_double_hold s ts : reach c (s, ts) ->
  forall i j x, owns (nth_error ts i) x -> owns (nth_error ts j) x -> i = j.
Proof.
  intros Hr i j x Hi Hj. destruct (reach_inv_id _ Hr) as [Hnd Hown]. apply Hown in Hi, Hj.
  apply nodup_app_r in Hnd.
  (* once (i, x) is removed nobody holds x *)
  pose proof (Permutation_NoDup (remove_pair_perm i x _ Hnd Hi) Hnd) as Hn. inversion Hn as [|? ? Hx _]; subst.
  destruct (Nat.eq_dec j i) as [->|Hne]; [reflexivity|]. exfalso. apply Hx, in_map_iff. exists (j, x).
  split; [reflexivity|]. apply in_remove_pair. split; [exact Hj|intros [? _]; contradiction].
Qed.

Theorem idle_not_held s ts : reach c (s, ts) ->
  forall i x, owns (nth_error ts i) x -> ~ In x (queue s).
Proof.
  intros Hr i x Hi Hq. destruct (reach_inv_id _ Hr) as [Hnd Hown]. apply Hown, (in_map snd), in_split in Hi.
  destruct Hi as (l1 & l2 & E). unfold opened in Hnd. rewrite E, app_assoc in Hnd.
  apply NoDup_remove_2 in Hnd. apply Hnd. rewrite !in_app_iff. auto.
Qed.

(* The accounting results are for max_overflow >= 0: when the section closes, these two hypotheses become
   the first premises of reach_inv_cnt, open_bound, idle_bound and checkedout_exact. *)
Hypothesis ps_pos : 0 <= pool_size c.
Hypothesis mo_nonneg : 0 <= max_overflow c.

Lemma reach_inv_cnt st : reach c st -> Inv_cnt st.
Proof.
  intros (n & tr & H). apply (run_inv _ _ _ H (Inv_id_init n)).
  - apply Z.ltb_lt. lia.
  - cbn. unfold qlen, hlen. cbn. rewrite sumz_repeat by reflexivity. lia.
Qed.

(* never more than pool_size + max_overflow connections open *)
Theorem open_bound s ts : reach c (s, ts) -> Z.of_nat (length (opened s)) <= pool_size c + max_overflow c.
Proof.
  intros H. apply reach_inv_cnt in H. destruct H as [Hq [Hv Hm]]. pose proof (sumz_nonneg ts).
  unfold opened. rewrite app_length, map_length. unfold qlen, hlen in *. lia.
Qed.

(* never more than pool_size idle *)
Theorem idle_bound s ts : reach c (s, ts) -> qlen s <= pool_size c.
Proof. intros H. apply reach_inv_cnt in H. destruct H as [Hq _]. lia. Qed.

Definition quiescent (ts : list pc) : Prop :=
  forall p, In p ts -> p = Idle \/ exists x, p = Holding x.
Lemma quiescent_pending ts : quiescent ts -> sumz pending ts = 0.
Proof.
  intros Q. induction ts as [|p r IH]; cbn [sumz]; [reflexivity|].
  rewrite IH by (intros x Hx; apply Q; right; exact Hx).
  destruct (Q p (or_introl eq_refl)) as [->|[x ->]]; reflexivity.
Qed.
(* checkedout() = pool_size - qsize + overflow equals the number of live checkouts whenever no thread
   is in the middle of a pool operation *)
Theorem checkedout_exact s ts : reach c (s, ts) -> quiescent ts ->
  pool_size c - qlen s + overflow s = hlen s.
Proof.
  intros H Q. apply reach_inv_cnt in H. destruct H as [Hq [Hv Hm]].
  pose proof (quiescent_pending _ Q). lia.
Qed.

(* a checkout that is waiting inside Queue.get is served as soon as it wakes up with a connection
   available: with a non-empty queue the only enabled continuations of a waiting thread are "got".
   Partial: this is the safety half only; fairness and timing are not modelled. *)
Theorem waiter_served_partial s ts i : nth_error ts i = Some GW -> queue s <> [] ->
  stepf c (s, ts) (EQEmpty i) = None /\ stepf c (s, ts) (EQWait i) = None /\
  exists x st', stepf c (s, ts) (EQGet i x) = Some st'.
Proof.
  intros En Hq. cbn [stepf]. rewrite En. destruct (queue s) as [|y q] eqn:Eq; [contradiction|].
  split; [reflexivity|]. split; [reflexivity|].
  destruct (qpop (lifo c) (y :: q)) as [[z q']|] eqn:Ep.
  - exists z. rewrite Nat.eqb_refl. eexists. reflexivity.
  - exfalso. unfold qpop in Ep. destruct (lifo c); [|discriminate].
    destruct (rev (y :: q)) eqn:Er; [|discriminate].
    apply (f_equal (@length conn)) in Er. rewrite rev_length in Er. discriminate.
Qed.
End P.
