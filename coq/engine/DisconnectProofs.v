(* C27 - what each building block of the disconnect state machine does: the listener chain, the handler, a guarded
   DBAPI call (call_or_handle), creator(), checkout, Connection.connection (ensure). *)
From Coq Require Import List Bool.
Import ListNotations.
From SAV.engine Require Import Disconnect.

(* invalidate_pool_on_disconnect after the listeners ran (it does not depend on the error) *)
Definition pool_inv (lst : list lbeh) : bool := snd (fst (run_chain lst false true false)).

(* the listeners that actually run: up to and including the first one that raises *)
Fixpoint executed (l : list lbeh) : list lbeh :=
  match l with
  | [] => []
  | b :: r => if Nat.eqb (lb_out b) 2 then [b] else b :: executed r
  end.
Definition last_set (get : lbeh -> option bool) (l : list lbeh) (x : bool) : bool :=
  fold_left (fun acc b => assign (get b) acc) l x.
Definition yields_exn (b : lbeh) : bool := Nat.eqb (lb_out b) 1 || Nat.eqb (lb_out b) 2.

(* the classification the handler ends with is the last value a listener that ran assigned (the dialect's
   verdict if none did) - no matter whether the chain ended normally, with returned exceptions, or with a raise *)
Theorem chain_final : forall l d ip e,
  run_chain l d ip e =
  (last_set lb_d (executed l) d, last_set lb_p (executed l) ip, e || existsb yields_exn (executed l)).
Proof.
  induction l as [|b l IH]; intros d ip e; cbn [run_chain executed].
  - cbn. rewrite orb_false_r. reflexivity.
  - unfold yields_exn. destruct (lb_out b) as [|[|[|n]]] eqn:Eo; cbn [Nat.eqb]; cbn [last_set fold_left existsb];
      rewrite ?Eo; cbn [Nat.eqb orb]; rewrite ?IH; unfold last_set, yields_exn; rewrite ?orb_true_r, ?orb_false_r;
      try reflexivity.
Qed.

(* flag_after transcribes three statements of the handler; its last line is the finally clause, which deletes the
   attribute whenever it is set.  So this is only "the finally clause wins": Connection._is_disconnect is False at
   the start of every later run, and an earlier disconnect never taints the classification of a later error. *)
Theorem flag_after_false : forall lst flag d0 inv, flag_after lst flag d0 inv = false.
Proof. intros. unfold flag_after. destruct (fst (fst (run_chain lst (if flag then true else d0) true false))); reflexivity. Qed.

(* the state handle returns once the error is classified as a disconnect (handle_spec): the live connection is
   closed and invalidated; on a Connection that is already invalidated, nothing *)
Definition inval (lst : list lbeh) (s : st) : st :=
  match s_cur s with
  | Some (cid, _) =>
      let ip := pool_inv lst in
      let clk := if ip then S (s_clock s) else s_clock s in
      mk (s_n s) ((K_CLOSE, cid) :: s_log s) (s_nconn s) clk (s_idle s ++ [None])
         (if ip then clk else s_invt s) None (s_txn s) (s_nested s)
  | None => s
  end.

(* the state dbcall returns *)
Definition called (k cid : nat) (s : st) : st :=
  mk (S (s_n s)) ((k, cid) :: s_log s) (s_nconn s) (s_clock s) (s_idle s) (s_invt s) (s_cur s)
     (s_txn s) (s_nested s).

Definition opened (s : st) : st :=
  mk (S (s_n s)) ((K_CONNECT, s_nconn s) :: s_log s) (S (s_nconn s)) (S (s_clock s)) (s_idle s)
     (s_invt s) (s_cur s) (s_txn s) (s_nested s).

(* the result is a (possibly replaced) DBAPI error *)
Definition err_like (c : code) : Prop :=
  match c with RErr => True | RDisc => True | RCustom _ => True | _ => False end.

Lemma inval_cur : forall lst s, s_cur (inval lst s) = None.
Proof. intros lst s. unfold inval. destruct (s_cur s) as [[cid st0]|] eqn:E; [reflexivity|exact E]. Qed.

Lemma inval_txn : forall lst s, s_txn (inval lst s) = s_txn s /\ s_nested (inval lst s) = s_nested s.
Proof. intros lst s. unfold inval. destruct (s_cur s) as [[cid st0]|]; auto. Qed.

Lemma inval_dead : forall lst s, s_cur s = None -> inval lst s = s.
Proof. intros lst s E. unfold inval. rewrite E. reflexivity. Qed.

Lemma is_disc_err_code : forall d e, is_disc (err_code d e) = d.
Proof. intros [] []; reflexivity. Qed.
Lemma err_like_err_code : forall d e, err_like (err_code d e).
Proof. intros [] []; exact I. Qed.

Definition blocked (s : st) : Prop := s_cur s = None /\ s_txn s <> TNone.

Section P.
  Variable faults : nat -> fault.
  Variable lst : list lbeh.

  Lemma handle_spec : forall f s s' c, handle lst f s = (s', c) ->
    err_like c /\ s' = if is_disc c then inval lst s else s.
  Proof.
    intros f s s' c H. unfold handle, classify in H. rewrite chain_final in H.
    (* by chain_final the listeners' verdict on the pool does not depend on the error: it is pool_inv *)
    unfold inval, pool_inv. rewrite chain_final. cbn [fst snd].
    destruct (last_set lb_d _ _); [destruct (s_cur s) as [[cid st0]|]|]; injection H as <- <-;
      rewrite is_disc_err_code; (split; [apply err_like_err_code|reflexivity]).
  Qed.

  Lemma call_or_handle_spec : forall k cid s s' c, call_or_handle faults lst k cid s = (s', c) ->
    (faults (S (s_n s)) = FOk /\ c = ROk /\ s' = called k cid s) \/
    (faults (S (s_n s)) <> FOk /\ err_like c /\
     s' = if is_disc c then inval lst (called k cid s) else called k cid s).
  Proof.
    intros k cid s s' c H. unfold call_or_handle, dbcall in H. fold (called k cid s) in H.
    destruct (faults (S (s_n s))).
    - injection H as <- <-. left. auto.
    - right. split; [discriminate|exact (handle_spec _ _ _ _ H)].
    - right. split; [discriminate|exact (handle_spec _ _ _ _ H)].
  Qed.

  Lemma connect_spec : forall s s' r, connect faults s = (s', r) ->
    (faults (S (s_n s)) = FOk /\ r = (Some (s_nconn s, S (s_clock s)), FOk) /\ s' = opened s) \/
    (faults (S (s_n s)) <> FOk /\ r = (None, faults (S (s_n s))) /\ s' = called K_CONNECT (s_nconn s) s).
  Proof.
    intros s s' r H. unfold connect, dbcall in H.
    destruct (faults (S (s_n s))) eqn:Ef; injection H as <- <-; cbn.
    - left. auto.
    - right. repeat split; auto; discriminate.
    - right. repeat split; auto; discriminate.
  Qed.

  (* checkout leaves the transaction and the invalidation time alone; it makes at most one fault-consulting
     call (creator()), whose success is the checkout's *)
  Lemma checkout_frame : forall s s' f, s_cur s = None -> checkout faults s = (s', f) ->
    s_txn s' = s_txn s /\ s_nested s' = s_nested s /\ s_invt s' = s_invt s /\
    match f with FOk => s_cur s' <> None | _ => s_cur s' = None end /\
    (faults (S (s_n s)) = FOk -> f = FOk) /\
    (s_n s' = s_n s \/ s_n s' = S (s_n s)).
  Proof.
    intros s s' f Hcur H. unfold checkout in H.
    destruct (s_idle s) as [|[[cid start]|] rest]; [|destruct (Nat.ltb start (s_invt s))|].
    (* three of the four ways through checkout open a connection *)
    all: try (destruct (connect faults _) as [s1 r] eqn:Ec;
              destruct (connect_spec _ _ _ Ec) as [(Ef & -> & ->)|(Ef & -> & ->)]; cbn in Ef, H;
              destruct (faults (S (s_n s)))).
    all: injection H as <- <-; cbn; repeat split; auto; congruence.
  Qed.

  Lemma ensure_live : forall s, s_cur s <> None -> ensure faults lst s = (s, None).
  Proof. intros s H. unfold ensure. destruct (s_cur s); [reflexivity|congruence]. Qed.

  Lemma ensure_blocked : forall s, blocked s -> ensure faults lst s = (s, Some RPending).
  Proof. intros s [H1 H2]. unfold ensure. rewrite H1. destruct (s_txn s); [congruence|reflexivity|reflexivity]. Qed.

  Lemma ensure_spec : forall s s' e, ensure faults lst s = (s', e) ->
    s_txn s' = s_txn s /\ s_nested s' = s_nested s /\ s_invt s' = s_invt s /\
    match e with
    | None => s_cur s' <> None
    | Some c => s_cur s' = None /\ s_cur s = None /\ (err_like c \/ c = RPending)
    end.
  Proof.
    intros s s' e H. unfold ensure in H.
    destruct (s_cur s) eqn:Ecur; [injection H as <- <-; repeat split; congruence|].
    destruct (s_txn s) eqn:Et; [|injection H as <- <-; auto 8..].
    destruct (checkout faults s) as [s1 f] eqn:Eco.
    destruct (checkout_frame _ _ _ Ecur Eco) as (A & B & C & D & _). rewrite Et in A.
    destruct f; [injection H as <- <-; auto| |].
    (* the failed checkout left no connection to invalidate *)
    all: destruct (handle lst _ s1) as [s2 c] eqn:Eh; injection H as <- <-;
      destruct (handle_spec _ _ _ _ Eh) as [El ->]; rewrite (inval_dead lst s1 D);
      destruct (is_disc c); auto 8.
  Qed.
End P.
