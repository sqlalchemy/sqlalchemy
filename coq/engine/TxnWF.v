(* C23, the results that hold for every history (no guard on the history, misuse included):
   - every reachable state is well formed, the recursion fuel of [_cancel] always suffices, and
     __in_begin is False after every operation (one pass over the operations: [good]),
   - an operation on an inactive transaction object sends nothing to the database and leaves the
     database untouched; commit() on it raises. *)
From Coq Require Import List ZArith NArith Bool Arith Lia.
Import ListNotations.
From SAV.engine Require Import RefDb Txn TxnBase.

Definition WF (s : st) : Prop :=
  (forall k j, prev k s = Some j -> j < k) /\
  (forall n, c_nested s = Some n -> n < length (txns s)).

(* WF reads a state only through the [_previous_nested] links, the number of objects and
   [_nested_transaction]: a setter of any other field leaves it convertible, updates of the object
   table go through this lemma *)
Lemma WF_frame : forall s s', WF s -> (forall k, prev k s' = prev k s) ->
  length (txns s') = length (txns s) -> c_nested s' = c_nested s -> WF s'.
Proof. intros s s' [W1 W2] Hp Hl Hn. split; intros; rewrite ?Hp, ?Hl, ?Hn in *; eauto. Qed.

Lemma WF_set_active : forall k b s, WF s -> WF (set_active k b s).
Proof. intros; apply (WF_frame s); auto using prev_set_active, len_set_active. Qed.
Lemma WF_set_ctx_t : forall k b o s, WF s -> WF (upd_txn k (set_ctx_t b o) s).
Proof. intros; apply (WF_frame s); auto using prev_set_ctx_t, len_upd_txn. Qed.
Lemma WF_set_nested_prev : forall k s, WF s -> WF (set_nested (prev k s) s).
Proof.
  intros k s [W1 W2]. split; [exact W1|]. intros n H. cbn in H.
  specialize (W1 _ _ H). apply prev_lt in H. rewrite len_set_nested. lia.
Qed.
Lemma WF_set_nested_none : forall s, WF s -> WF (set_nested None s).
Proof. intros s [W1 W2]. split; [exact W1|discriminate]. Qed.
Lemma WF_push : forall t s, WF s -> (forall j, t_prev t = Some j -> j < length (txns s)) ->
  WF (set_nested (if t_root t then c_nested s else Some (length (txns s))) (push_txn t s)).
Proof.
  intros t s [W1 W2] Ht. split.
  - intros k j. rewrite prev_set_nested, prev_push. destruct (Nat.eqb_spec k (length (txns s))); subst; eauto.
  - intros n H. rewrite len_set_nested, len_push. cbn in H. destruct (t_root t); [apply W2 in H|inversion H]; lia.
Qed.

(* the autobegin invariant: __in_begin is False whenever no _begin_impl frame is active *)
Definition NB (s : st) : Prop := c_in_begin s = false.
Definition nb (m : M) : Prop := forall s, NB s -> NB (snd (m s)).
Lemma nb_warn : nb warn. Proof. intros s H. exact H. Qed.

(* [keeps T m]: every run of [m] relates its start state to its outcome by [T]; sequencing is proved
   once for every such [T].  [good] is defined with it; [nb] (above) and [quiet] (below) are
   [keeps] of a relation, unfolded *)
Definition keeps (T : st -> res * st -> Prop) (m : M) : Prop := forall s, T s (m s).

Section Keeps.
  Variable T : st -> res * st -> Prop.
  (* [T] composes along two runs, whichever of the two results is reported *)
  Hypothesis T_seq : forall s r s1 r2 s2, T s (r, s1) -> T s1 (r2, s2) -> T s (r2, s2) /\ T s (r, s2).

  Lemma keeps_bind : forall m k, keeps T m -> keeps T k -> keeps T (bind m k).
  Proof.
    intros m k Hm Hk s. unfold bind. specialize (Hm s). destruct (m s) as [[| e |] s1]; auto.
    specialize (Hk s1). destruct (k s1) as [r2 s2]. apply (T_seq _ _ _ _ _ Hm Hk).
  Qed.
  Lemma keeps_finally : forall m k, keeps T m -> keeps T k -> keeps T (finally m k).
  Proof.
    intros m k Hm Hk s. unfold finally. specialize (Hm s). destruct (m s) as [r s1].
    specialize (Hk s1). destruct (k s1) as [[| e |] s2]; apply (T_seq _ _ _ _ _ Hm Hk).
  Qed.
End Keeps.
(* [m] keeps __in_begin clear, keeps states well formed and never runs out of fuel *)
Definition good_run (s : st) (rs : res * st) : Prop :=
  (NB s -> NB (snd rs)) /\ (WF s -> WF (snd rs) /\ fst rs <> OutOfFuel).
Definition good : M -> Prop := keeps good_run.

Lemma good_seq : forall s r s1 r2 s2, good_run s (r, s1) -> good_run s1 (r2, s2) ->
  good_run s (r2, s2) /\ good_run s (r, s2).
Proof.
  intros s r s1 r2 s2 [N1 W1] [N2 W2]. unfold good_run in *. cbn [fst snd] in *.
  split; (split; [auto|]); intros W; destruct (W1 W) as [A B]; destruct (W2 A); auto.
Qed.
Lemma good_bind : forall m k, good m -> good k -> good (bind m k).
Proof. exact (keeps_bind _ good_seq). Qed.
Lemma good_finally : forall m k, good m -> good k -> good (finally m k).
Proof. exact (keeps_finally _ good_seq). Qed.
Lemma good_pure : forall (f : st -> st) r, r <> OutOfFuel -> (forall s, c_in_begin (f s) = c_in_begin s) ->
  (forall s, WF s -> WF (f s)) -> good (fun s => (r, f s)).
Proof. intros f r Hr Hn H s. unfold good_run, NB. cbn. rewrite Hn. auto. Qed.
Lemma good_ret : forall r, r <> OutOfFuel -> good (fun s => (r, s)).
Proof. intros r Hr. apply (good_pure (fun s => s)); auto. Qed.
Lemma good_ok : good (fun s => (Ok, s)). Proof. apply good_ret. discriminate. Qed.
Lemma good_raise : forall e, good (fun s => (Raise e, s)). Proof. intro e. apply good_ret. discriminate. Qed.
Lemma good_warn : good warn.
Proof. apply good_pure; [discriminate|reflexivity|auto]. Qed.

Lemma good_emit : forall c, good (emit c).
Proof.
  intros c s. unfold emit. destruct (exec_cmd (s_db s) c) as [d|].
  - apply (good_pure (fun s => add_out (c, true) (set_db d s))); [discriminate|reflexivity|auto].
  - apply (good_pure (add_out (c, false))); [discriminate|reflexivity|auto].
Qed.

Lemma good_ctx_check : good ctx_check.
Proof. intros s. unfold ctx_check. destruct (c_ctx s); [destruct (active n s)|]; first [apply good_ok|apply good_raise]. Qed.

(* _begin_impl restores the flag on every exit path: the listener call is inside the try (/repo ba42825) *)
Lemma begin_impl_resets : forall s, c_in_begin (snd (begin_impl s)) = false.
Proof.
  intros s. unfold begin_impl, bind, finally, begin_listener, emit. cbn [exec_cmd].
  destruct (c_beginfail (set_in_begin true s)) as [|[q|q|]]; reflexivity.
Qed.
Lemma good_begin_impl : good begin_impl.
Proof.
  intros s. split; [intros _; apply begin_impl_resets|]. intros W.
  unfold begin_impl, bind, finally, begin_listener, emit. cbn [exec_cmd].
  destruct (c_beginfail (set_in_begin true s)) as [|[q|q|]]; cbn [fst snd];
    (split; [exact W|discriminate]).
Qed.
Lemma good_new_root : good new_root.
Proof.
  apply good_bind; [apply good_ctx_check|]. intros s. destruct (c_closed s); [apply good_raise|].
  apply good_bind; [apply good_begin_impl|]. apply good_pure; [discriminate|reflexivity|].
  intros s1 W1.
  apply (WF_push (mkT true true 0%N None false None) s1 W1). discriminate.
Qed.

Lemma good_begin : good begin.
Proof. intros s. unfold begin. destruct (c_root s); [apply good_raise|apply good_new_root]. Qed.
Lemma good_autobegin : good autobegin_if_none.
Proof.
  intros s. unfold autobegin_if_none. destruct (c_root s); [apply good_ok|].
  destruct (c_in_begin s); [apply good_ok|apply good_begin].
Qed.

Lemma good_exec_guard : good exec_guard.
Proof.
  intros s. unfold exec_guard. destruct (c_closed s); [apply good_raise|].
  destruct (_ || _); [apply good_raise|]. apply good_bind; auto using good_ctx_check, good_autobegin.
Qed.
Lemma good_sql : forall c, good (sql c).
Proof. intros. apply good_bind; auto using good_exec_guard, good_emit. Qed.
Lemma good_ins : forall v, good (ins v).
Proof.
  intros. apply good_bind; [apply good_exec_guard|]. apply good_pure; [discriminate|reflexivity|].
  auto.
Qed.

Lemma good_new_nested : good new_nested.
Proof.
  apply good_bind; [apply good_ctx_check|]. intros s. apply good_bind.
  - apply (good_bind (fun s1 => (Ok, set_seq (N.succ (c_seq s)) s1)) (sql _)); [|apply good_sql].
    apply good_pure; [discriminate|reflexivity|auto].
  - apply good_pure; [discriminate|reflexivity|]. intros s1 W1.
    apply (WF_push (mkT false true (N.succ (c_seq s)) (c_nested s1) false None) s1 W1).
    cbn. apply W1.
Qed.
Lemma good_begin_nested : good begin_nested.
Proof. apply good_bind; auto using good_autobegin, good_new_nested. Qed.

Lemma good_set_inactive : forall k, good (fun s => (Ok, set_active k false s)).
Proof. intros. apply good_pure; [discriminate|reflexivity|apply WF_set_active]. Qed.
Lemma good_deact_root : forall k, good (deact_root k).
Proof.
  intros k s. unfold deact_root. destruct (active k s); [apply good_set_inactive|].
  destruct (opt_is _ _); [apply good_ok|apply good_warn].
Qed.
Lemma good_deact_nested : forall k w, good (deact_nested k w).
Proof.
  intros k w s. unfold deact_nested. destruct (opt_is _ _).
  - apply (good_pure (fun s => set_nested (prev k s) s)); [discriminate|reflexivity|apply WF_set_nested_prev].
  - destruct w; [apply good_warn|apply good_ok].
Qed.

Lemma prev_deact_nested : forall j k w s, prev j (snd (deact_nested k w s)) = prev j s.
Proof. intros. unfold deact_nested, warn. destruct (opt_is _ _); [|destruct w]; reflexivity. Qed.

Lemma cancel_unfold : forall f k s,
  cancel (S f) k s =
  match deact_nested k true (set_active k false s) with
  | (Ok, s2) => match prev k s2 with Some p => cancel f p s2 | None => (Ok, s2) end
  | r => r
  end.
Proof. reflexivity. Qed.

(* the recursion follows [_previous_nested], which decreases in a well-formed state; without
   well-formedness (any fuel) it still leaves __in_begin alone *)
Lemma good_cancel : forall fuel k s,
  (NB s -> NB (snd (cancel fuel k s))) /\
  (WF s -> k < fuel -> WF (snd (cancel fuel k s)) /\ fst (cancel fuel k s) <> OutOfFuel).
Proof.
  induction fuel; intros k s; [split; [auto|lia]|].
  rewrite cancel_unfold.
  destruct (good_deact_nested k true (set_active k false s)) as [N2 W2].
  pose proof (prev_deact_nested k k true (set_active k false s)) as P. rewrite prev_set_active in P.
  destruct (deact_nested k true (set_active k false s)) as [[| e |] s2]; cbn [fst snd] in *.
  - destruct (prev k s2) as [p|] eqn:E.
    + destruct (IHfuel p s2) as [N3 W3]. split; [auto|]. intros W Hk.
      destruct (W2 (WF_set_active _ _ _ W)) as [A _]. apply W3; [exact A|].
      destruct W as [W _]. symmetry in P. apply W in P. lia.
    + split; [auto|]. intros W _. destruct (W2 (WF_set_active _ _ _ W)). split; [auto|discriminate].
  - split; [auto|]. intros W _. destruct (W2 (WF_set_active _ _ _ W)). split; [auto|discriminate].
  - split; [auto|]. intros W _. apply W2, WF_set_active, W.
Qed.
Lemma good_cancel_nested : good cancel_nested.
Proof.
  intros s. unfold cancel_nested. destruct (c_nested s) eqn:E; [|apply good_ok].
  destruct (good_cancel (length (txns s)) n s) as [A B]. split; [exact A|]. intros W. apply B; [exact W|apply W, E].
Qed.

Lemma good_rollback_impl : good rollback_impl.
Proof.
  intros s. unfold rollback_impl. destruct (c_closed s); [apply good_ok|].
  destruct (c_rbfail s); [|apply good_emit].
  apply (good_bind (fun s => (Ok, set_rbfail false s)) (bind (emit Rollback) (fun s => (Raise OperationalError, s)))).
  - apply good_pure; [discriminate|reflexivity|auto].
  - apply good_bind; [apply good_emit|apply good_raise].
Qed.

Lemma good_root_close_impl : forall k t, good (root_close_impl k t).
Proof.
  intros. apply good_finally.
  - intro s. destruct (active k s); [apply good_rollback_impl|apply good_ok].
  - apply good_bind; [apply good_cancel_nested|]. apply good_bind.
    + intro s. destruct (_ || _); [apply good_deact_root|apply good_ok].
    + intro s. destruct (opt_is _ _); [|apply good_ok].
      apply (good_pure (set_root None)); [discriminate|reflexivity|auto].
Qed.

Lemma good_root_do_commit : forall k, good (root_do_commit k).
Proof.
  intros k s. unfold root_do_commit. destruct (active k s).
  - apply good_bind.
    + apply good_finally; [apply good_emit|]. apply good_bind; auto using good_cancel_nested, good_deact_root.
    + apply good_pure; [discriminate|reflexivity|auto].
  - destruct (opt_is _ _); apply good_raise.
Qed.

Lemma good_nested_close_impl : forall k w, good (nested_close_impl k w).
Proof.
  intros. apply good_finally.
  - intros s. destruct (_ && _); [|apply good_ok].
    destruct (c_closed s); [apply good_ok|apply good_sql].
  - apply good_bind; auto using good_set_inactive, good_deact_nested.
Qed.

Lemma good_nested_do_commit : forall k, good (nested_do_commit k).
Proof.
  intros k s. unfold nested_do_commit. destruct (active k s).
  - apply good_bind.
    + apply good_finally; auto using good_sql, good_set_inactive.
    + apply good_deact_nested.
  - destruct (opt_is _ _); apply good_raise.
Qed.

Lemma good_t_commit : forall k, good (t_commit k).
Proof. intros k s. unfold t_commit. destruct (is_root k s); [apply good_root_do_commit|apply good_nested_do_commit]. Qed.
Lemma good_t_rollback : forall k, good (t_rollback k).
Proof. intros k s. unfold t_rollback. destruct (is_root k s); [apply good_root_close_impl|apply good_nested_close_impl]. Qed.
Lemma good_t_close : forall k, good (t_close k).
Proof. intros k s. unfold t_close. destruct (is_root k s); [apply good_root_close_impl|apply good_nested_close_impl]. Qed.

Lemma good_t_enter : forall k, good (t_enter k).
Proof. intros k. apply good_pure; [discriminate|reflexivity|]. intros. apply WF_set_ctx_t. auto. Qed.

Lemma good_t_exit : forall k e, good (t_exit k e).
Proof.
  intros k e s. unfold t_exit.
  set (fin := fun s1 : st => (Ok, upd_txn k (set_ctx_t false None)
     (if negb (subject k s) || negb (opt_is (c_ctx s) k) then s1 else set_ctx (outer k s1) s1))).
  assert (Gf : good fin).
  { apply good_pure; [discriminate|intro; destruct (_ || _); reflexivity|].
    intros s1 W1. apply WF_set_ctx_t. destruct (_ || _); exact W1. }
  destruct (_ && _); (apply good_finally; [|exact Gf]); intros s1.
  - pose proof (good_t_commit k s1) as [N2 W2].
    destruct (t_commit k s1) as [[| x |] s2]; cbn [fst snd] in *; try (split; assumption).
    pose proof (good_t_rollback k s2) as [N3 W3].
    destruct (t_rollback k s2) as [[| y |] s3]; cbn [fst snd] in *;
      (split; [auto|intros W; destruct (W2 W) as [A _]; destruct (W3 A); split; [auto|try discriminate; auto]]).
  - destruct (negb (active k s1)); [|apply good_t_rollback].
    destruct (installed k s1); [apply good_ok|apply good_t_close].
Qed.

Lemma good_run_op : forall o, good (run_op o).
Proof.
  destruct o; cbn [run_op]; auto using good_begin, good_begin_nested, good_ins, good_t_commit,
    good_t_rollback, good_t_close, good_t_enter, good_t_exit.
  - intros s. unfold conn_commit. destruct (c_root s); [apply good_t_commit|apply good_ok].
  - intros s. unfold conn_rollback. destruct (c_root s); [apply good_t_rollback|apply good_ok].
  - apply good_bind.
    + intros s. destruct (c_root s); [apply good_t_close|apply good_ok].
    + apply good_pure; [discriminate|reflexivity|auto].
  - apply good_pure; [discriminate|reflexivity|auto].
  - apply good_pure; [discriminate|reflexivity|auto].
Qed.

Lemma WF_init : forall d, WF (init d).
Proof. intros d. split; intros; cbn in *; try discriminate. unfold prev, get in H. cbn in H. destruct k; discriminate. Qed.

Lemma step_good : forall o s, WF s -> WF (step_st o s) /\ step_res o s <> Some OutOfFuel.
Proof.
  intros o s W. unfold step_st, step_res, step.
  destruct (good_run_op o (clear_log s)) as [_ G]. destruct (G W) as [W1 F1].
  destruct (handle_of o); [destruct (_ <? _)|]; cbn;
    try (destruct (run_op o (clear_log s)) as [r s1]; cbn in *; split; [auto|congruence]).
Qed.

Theorem fuel_sufficient : forall ops s, WF s ->
  Forall (fun rs => fst rs <> Some OutOfFuel) (trace ops s).
Proof.
  induction ops; intros s W; cbn; constructor.
  - apply step_good, W.
  - apply IHops, step_good, W.
Qed.

Lemma good_nb : forall m, good m -> nb m.
Proof. intros m H s. apply H. Qed.

Lemma step_nb : forall o s, NB s -> NB (step_st o s).
Proof.
  intros o s H. unfold step_st, step.
  pose proof (good_nb _ (good_run_op o) (clear_log s) H) as H1.
  destruct (handle_of o); [destruct (_ <? _)|]; try exact H;
    destruct (run_op o (clear_log s)); exact H1.
Qed.

(* after every operation of every history (raising `begin` listeners and failing rollbacks
   included) __in_begin is False; so _autobegin is never disabled *)
Theorem in_begin_reset : forall ops s, NB s -> Forall (fun rs => c_in_begin (snd rs) = false) (trace ops s).
Proof.
  induction ops; intros s H; cbn; constructor.
  - apply step_nb, H.
  - apply IHops, step_nb, H.
Qed.

(* consequence: in every reachable state a statement on an open connection without a transaction
   autobegins (it is never silently executed outside a Transaction) *)
Lemma autobegin_runs : forall s, NB s -> c_root s = None -> autobegin_if_none s = begin s.
Proof. intros s H Hr. unfold autobegin_if_none. rewrite Hr, H. reflexivity. Qed.

(* operations on an inactive transaction object send nothing to the database *)
Definition quiet_run (s : st) (rs : res * st) : Prop := s_out (snd rs) = s_out s /\ s_db (snd rs) = s_db s.
Definition quiet (m : M) : Prop := forall s, s_out (snd (m s)) = s_out s /\ s_db (snd (m s)) = s_db s.

Lemma quiet_seq : forall s r s1 r2 s2, quiet_run s (r, s1) -> quiet_run s1 (r2, s2) ->
  quiet_run s (r2, s2) /\ quiet_run s (r, s2).
Proof. intros s r s1 r2 s2 [A B] [C D]. unfold quiet_run in *. cbn [snd] in *. repeat split; congruence. Qed.
Lemma quiet_bind : forall m k, quiet m -> quiet k -> quiet (bind m k).
Proof. exact (keeps_bind _ quiet_seq). Qed.
Lemma quiet_finally : forall m k, quiet m -> quiet k -> quiet (finally m k).
Proof. exact (keeps_finally _ quiet_seq). Qed.
Lemma quiet_pure : forall (f : st -> st) r, (forall s, s_out (f s) = s_out s /\ s_db (f s) = s_db s) -> quiet (fun s => (r, f s)).
Proof. intros f r H s. apply H. Qed.
Lemma quiet_ok : quiet (fun s => (Ok, s)). Proof. intro s. auto. Qed.
Lemma quiet_warn : quiet warn. Proof. intro s. auto. Qed.
Lemma quiet_deact_root : forall k, quiet (deact_root k).
Proof. intros k s. unfold deact_root, warn. destruct (active k s); [|destruct (opt_is _ _)]; auto. Qed.
Lemma quiet_deact_nested : forall k w, quiet (deact_nested k w).
Proof. intros k w s. unfold deact_nested, warn. destruct (opt_is _ _); [|destruct w]; auto. Qed.
Lemma quiet_cancel : forall fuel k, quiet (cancel fuel k).
Proof.
  induction fuel; intros k; [intro s; auto|]. cbn [cancel].
  apply quiet_bind; [apply quiet_pure; auto|]. apply quiet_bind; [apply quiet_deact_nested|].
  intro s. destruct (prev k s); [apply IHfuel|auto].
Qed.
Lemma quiet_cancel_nested : quiet cancel_nested.
Proof. intro s. unfold cancel_nested. destruct (c_nested s); [apply quiet_cancel|auto]. Qed.

(* Transaction.rollback ([rb = true]) and Transaction.close differ in one flag: [t_rollback k] is
   [t_end true k] and [t_close k] is [t_end false k], unfolded *)
Definition t_end (rb : bool) (k : nat) : M := fun s =>
  if is_root k s then root_close_impl k rb s else nested_close_impl k rb s.

(* the finally clause of [root_close_impl] after its [cancel_nested], to state what the whole does on an
   inactive object *)
Definition root_close_fin (k : nat) (t : bool) : M :=
  bind (fun s => if active k s || t then deact_root k s else (Ok, s))
       (fun s => if opt_is (c_root s) k then (Ok, set_root None s) else (Ok, s)).

Lemma root_close_impl_inactive : forall k t s, active k s = false ->
  root_close_impl k t s = bind cancel_nested (root_close_fin k t) s.
Proof.
  intros. unfold root_close_impl, root_close_fin, finally. rewrite H.
  destruct (bind cancel_nested _ s) as [[| e |] s2]; reflexivity.
Qed.

Lemma quiet_root_close_fin : forall k t, quiet (root_close_fin k t).
Proof.
  intros. apply quiet_bind.
  - intro s. destruct (_ || _); [apply quiet_deact_root|apply quiet_ok].
  - intro s. destruct (opt_is _ _); [|apply quiet_ok]. apply (quiet_pure (set_root None)). auto.
Qed.

(* rollback / close of an inactive object: no rollback is attempted, only the bookkeeping runs *)
Lemma quiet_end_inactive : forall rb k s, active k s = false ->
  s_out (snd (t_end rb k s)) = s_out s /\ s_db (snd (t_end rb k s)) = s_db s.
Proof.
  intros rb k s H. unfold t_end. destruct (is_root k s).
  - rewrite root_close_impl_inactive by exact H.
    apply quiet_bind; [apply quiet_cancel_nested|apply quiet_root_close_fin].
  - replace (nested_close_impl k rb s)
      with (finally (fun s => (Ok, s)) (bind (fun s => (Ok, set_active k false s)) (deact_nested k rb)) s)
      by (unfold nested_close_impl, finally; rewrite H; reflexivity).
    apply quiet_finally; [apply quiet_ok|].
    apply quiet_bind; [apply quiet_pure; auto|apply quiet_deact_nested].
Qed.
Lemma t_commit_inactive : forall k s, active k s = false ->
  exists e, t_commit k s = (Raise e, s).
Proof.
  intros. unfold t_commit, root_do_commit, nested_do_commit. rewrite H.
  destruct (is_root k s); destruct (opt_is _ _); eauto.
Qed.

Lemma ended_commit_raises : forall k s, k < length (txns s) -> active k s = false ->
  exists e, step (TCommit k) s = Some (Raise e, clear_log s).
Proof.
  intros k s Hk Ha. unfold step. cbn [handle_of]. rewrite (proj2 (Nat.ltb_lt _ _) Hk). cbn [run_op].
  destruct (t_commit_inactive k (clear_log s)) as [e ->]; [rewrite active_clear_log; auto|eauto].
Qed.

(* an operation on a transaction object that is no longer active: nothing reaches the database and
   the database is unchanged (commit() raises without changing anything: [ended_commit_raises]) *)
Theorem inactive_quiet : forall o k s, handle_of o = Some k -> active k s = false ->
  (forall j, o <> TEnter j) ->
  s_out (step_st o s) = [] /\ s_db (step_st o s) = s_db s.
Proof.
  intros o k s Hh Ha Hne. unfold step_st, step. rewrite Hh.
  destruct (k <? length (txns s)); [|cbn; auto].
  change (active k (clear_log s) = false) in Ha.
  destruct o; cbn in Hh; inversion Hh; subst; cbn [run_op].
  - destruct (t_commit_inactive k _ Ha) as [e ->]. cbn. auto.
  - apply (quiet_end_inactive true k _ Ha).
  - apply (quiet_end_inactive false k _ Ha).
  - exfalso. eapply Hne. reflexivity.
  - unfold t_exit, finally. rewrite Ha, andb_false_r. cbn [negb].
    pose proof (quiet_end_inactive false k _ Ha) as Q. change (t_close k (clear_log s)) with (t_end false k (clear_log s)).
    destruct (installed k (clear_log s)); [|destruct (t_end false k (clear_log s)) as [r s1]];
      destruct (_ || _); cbn in *; auto.
Qed.

(* a statement that executes does so inside an active root transaction (never "outside" one) *)
Lemma exec_guard_in_transaction : forall s s', NB s -> exec_guard s = (Ok, s') -> in_transaction s' = true.
Proof.
  intros s s' H E. unfold exec_guard in E. destruct (c_closed s); [discriminate|].
  destruct (inst_inactive (c_root s) s || inst_inactive (c_nested s) s) eqn:P; [discriminate|].
  apply orb_false_elim in P. destruct P as [P _].
  unfold bind, ctx_check in E.
  assert (E' : autobegin_if_none s = (Ok, s')).
  { destruct (c_ctx s); [destruct (active n s)|]; try discriminate; exact E. }
  clear E. unfold autobegin_if_none in E'. unfold in_transaction.
  destruct (c_root s) as [r|] eqn:Hr.
  - inversion E'; subst. rewrite Hr. cbn in *. apply negb_false_iff in P. exact P.
  - rewrite H in E'. unfold begin in E'. rewrite Hr in E'. unfold new_root, bind in E'.
    destruct (ctx_check s) as [[| e |] s1]; try discriminate.
    destruct (c_closed s1); [discriminate|].
    destruct (begin_impl s1) as [[| e |] s2]; try discriminate.
    inversion E'; subst. cbn [c_root set_root inst_active].
    rewrite active_set_root, active_push, Nat.eqb_refl. reflexivity.
Qed.

Theorem statement_in_transaction : forall ops d v s',
  step (OIns v) (run ops (init d)) = Some (Ok, s') -> in_transaction s' = true.
Proof.
  intros ops d v s' E. unfold step in E. cbn [handle_of run_op] in E. inversion E as [E1]. clear E.
  assert (H : NB (clear_log (run ops (init d)))).
  { unfold NB. rewrite c_in_begin_clear_log.
    assert (G : forall l s, NB s -> NB (run l s)).
    { induction l; intros; cbn; auto. apply IHl, step_nb. auto. }
    apply G. reflexivity. }
  unfold ins, bind in E1. destruct (exec_guard _) as [[| e |] s1] eqn:EG; try discriminate.
  inversion E1; subst. exact (exec_guard_in_transaction _ _ H EG).
Qed.
