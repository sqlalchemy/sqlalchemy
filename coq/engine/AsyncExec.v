(* C29 - [exec]: the event-loop run of monadic code.  First the equations that say what [exec] computes,
   one per combinator (those for bind / try / finally / await and [exec_peq] carry everything below); then
   the same facts as rules of a weakest-precondition calculus, which is the form the safety proofs use. *)
From Coq Require Import List ZArith Bool Arith Lia.
Import ListNotations.
From SAV.engine Require Import Async AsyncConn.
Open Scope Z_scope.

Definition rl := run_loop io_step io_cancel_step io_suspends ECancelled (R := res).

(* result of running monadic code [m] from python state [s], world [w], decisions [cs] (trace dropped) *)
Definition exec (m : M) (s : pst) (w : world) (cs : list cdec) : outcome * pst * world * list cdec :=
  let '(r, w', cs', _) := rl (m s) w cs in (fst r, snd r, w', cs').

Lemma exec_ret v s w cs : exec (mret v) s w cs = (Ok v, s, w, cs).
Proof. reflexivity. Qed.
Lemma exec_raise e s w cs : exec (mraise e) s w cs = (Raise e, s, w, cs).
Proof. reflexivity. Qed.
Lemma exec_mod f s w cs : exec (mmod f) s w cs = (Ok VUnit, f s, w, cs).
Proof. reflexivity. Qed.
Lemma exec_get f s w cs : exec (mget f) s w cs = exec (f s) s w cs.
Proof. reflexivity. Qed.

Lemma exec_bind m f s w cs :
  exec (mbind m f) s w cs =
  match exec m s w cs with
  | (Ok v, s1, w1, cs1) => exec (f v) s1 w1 cs1
  | (Raise e, s1, w1, cs1) => (Raise e, s1, w1, cs1)
  end.
Proof.
  unfold exec, mbind, rl. rewrite run_loop_bind.
  destruct (run_loop io_step io_cancel_step io_suspends ECancelled (m s) w cs) as [[[[o s1] w1] cs1] t1].
  cbn [fst snd]. destruct o as [v | e].
  - destruct (run_loop io_step io_cancel_step io_suspends ECancelled (f v s1) w1 cs1) as [[[r2 w2] cs2] t2]. reflexivity.
  - reflexivity.
Qed.

Lemma exec_seq m n s w cs :
  exec (mseq m n) s w cs =
  match exec m s w cs with
  | (Ok _, s1, w1, cs1) => exec n s1 w1 cs1
  | (Raise e, s1, w1, cs1) => (Raise e, s1, w1, cs1)
  end.
Proof. unfold mseq. rewrite exec_bind. reflexivity. Qed.

Lemma exec_try m h s w cs :
  exec (mtry m h) s w cs =
  match exec m s w cs with
  | (Ok v, s1, w1, cs1) => (Ok v, s1, w1, cs1)
  | (Raise e, s1, w1, cs1) => exec (h e) s1 w1 cs1
  end.
Proof.
  unfold exec, mtry, rl. rewrite run_loop_bind.
  destruct (run_loop io_step io_cancel_step io_suspends ECancelled (m s) w cs) as [[[[o s1] w1] cs1] t1].
  cbn [fst snd]. destruct o as [v | e].
  - reflexivity.
  - destruct (run_loop io_step io_cancel_step io_suspends ECancelled (h e s1) w1 cs1) as [[[r2 w2] cs2] t2]. reflexivity.
Qed.

Lemma exec_finally m fin s w cs :
  exec (mfinally m fin) s w cs =
  match exec m s w cs with
  | (o, s1, w1, cs1) =>
      match exec fin s1 w1 cs1 with
      | (Ok _, s2, w2, cs2) => (o, s2, w2, cs2)
      | (Raise e, s2, w2, cs2) => (Raise e, s2, w2, cs2)
      end
  end.
Proof.
  unfold exec, mfinally, rl. rewrite run_loop_bind.
  destruct (run_loop io_step io_cancel_step io_suspends ECancelled (m s) w cs) as [[[[o s1] w1] cs1] t1].
  rewrite run_loop_bind. cbn [fst snd].
  destruct (run_loop io_step io_cancel_step io_suspends ECancelled (fin s1) w1 cs1) as [[[[o2 s2] w2] cs2] t2].
  cbn [fst snd]. destruct o2; reflexivity.
Qed.

Definition of_reply (x : val + exn) : outcome := match x with inl v => Ok v | inr e => Raise e end.

Lemma exec_await i s w cs :
  exec (await_ i) s w cs =
  if io_suspends i then
    match cs with
    | C eff :: cs1 => (Raise ECancelled, s, (if eff then io_cancel_step w i else w), cs1)
    | N :: cs1 => (of_reply (fst (io_step w i)), s, snd (io_step w i), cs1)
    | [] => (of_reply (fst (io_step w i)), s, snd (io_step w i), [])
    end
  else (of_reply (fst (io_step w i)), s, snd (io_step w i), cs).
Proof.
  unfold exec, await_, rl. cbn [run_loop].
  destruct (io_suspends i).
  - destruct cs as [|[|eff] cs1]; cbn; try (destruct (io_step w i) as [[v|e] w1]; reflexivity).
  - destruct (io_step w i) as [[v|e] w1]; reflexivity.
Qed.

(* equal trees run alike; in particular greenlet_spawn around monadic code is not seen by the event loop *)
Lemma exec_peq (m m' : M) s w cs : peq (m s) (m' s) -> exec m s w cs = exec m' s w cs.
Proof. intros H. unfold exec, rl. rewrite (run_loop_peq _ _ _ _ _ _ _ _ _ _ _ H). reflexivity. Qed.
Lemma exec_spawn_false m s w cs :
  exec (acall async_api false m) s w cs = exec m s w cs.
Proof. apply exec_peq. apply spawn_transparent. Qed.

(* AsyncConnection.__aexit__: the shielded close always runs to completion (on the empty stream);
   the task itself is suspended once, on the shield *)
Lemma exec_aexit cf s w cs :
  exec (aexit cf async_api) s w cs =
  let '(o1, s1, w1, _) := exec (acall async_api false (conn_close cf)) s w [] in
  match cs with
  | C _ :: cs1 => (Raise ECancelled, s1, w1, cs1)
  | N :: cs1 => (o1, s1, w1, cs1)
  | [] => (o1, s1, w1, [])
  end.
Proof.
  unfold exec, aexit, rl. cbn [shielded async_api run_loop].
  destruct (run_loop io_step io_cancel_step io_suspends ECancelled (acall async_api false (conn_close cf) s) w [])
    as [[[[o1 s1] w1] c1] t1].
  destruct cs as [|[|eff] cs1]; reflexivity.
Qed.

Lemma single_tail_N cs : single (N :: cs) -> single cs.
Proof. unfold single. cbn. auto. Qed.
Lemma single_tail_C eff cs : single (C eff :: cs) -> quiet cs.
Proof. unfold single. cbn. intros H. apply ncancel0_quiet. lia. Qed.
Lemma quiet_single cs : quiet cs -> single cs.
Proof. unfold single. intros H. rewrite (quiet_ncancel0 cs H). auto. Qed.

(* [wp m s w cs Q]: the result of running [m] satisfies [Q].  A statement
   "let '(o, s', w', cs') := exec m s w cs in ..." is [wp m s w cs (fun o s' w' cs' => ...)] by
   definition.  The rules take the run apart from the left, so that only one [exec] is ever open. *)
Definition post : Type := outcome -> pst -> world -> list cdec -> Prop.
Definition wp (m : M) (s : pst) (w : world) (cs : list cdec) (Q : post) : Prop :=
  let '(o, s', w', cs') := exec m s w cs in Q o s' w' cs'.

(* what is left to do after the first part of a bind / try / finally has ended with outcome [o] *)
Definition bindQ (f : val -> M) (Q : post) : post := fun o s w cs =>
  match o with Ok v => wp (f v) s w cs Q | Raise e => Q (Raise e) s w cs end.
Definition tryQ (h : exn -> M) (Q : post) : post := fun o s w cs =>
  match o with Ok v => Q (Ok v) s w cs | Raise e => wp (h e) s w cs Q end.
Definition finQ (fin : M) (Q : post) : post := fun o s w cs =>
  wp fin s w cs (fun o2 => Q (match o2 with Ok _ => o | Raise e => Raise e end)).
Arguments bindQ f Q !o s w cs /.
Arguments tryQ h Q !o s w cs /.
Arguments finQ fin Q o s w cs /.

Lemma wp_conseq {m s w cs} {Q Q' : post} :
  wp m s w cs Q -> (forall o s' w' cs', Q o s' w' cs' -> Q' o s' w' cs') -> wp m s w cs Q'.
Proof. unfold wp. destruct (exec m s w cs) as [[[o s'] w'] cs']. auto. Qed.

Lemma wp_ret v s w cs (Q : post) : Q (Ok v) s w cs -> wp (mret v) s w cs Q.
Proof. auto. Qed.
Lemma wp_unit s w cs (Q : post) : Q (Ok VUnit) s w cs -> wp munit s w cs Q.
Proof. auto. Qed.
Lemma wp_raise e s w cs (Q : post) : Q (Raise e) s w cs -> wp (mraise e) s w cs Q.
Proof. auto. Qed.
Lemma wp_mod f s w cs (Q : post) : Q (Ok VUnit) (f s) w cs -> wp (mmod f) s w cs Q.
Proof. auto. Qed.
Lemma wp_get f s w cs Q : wp (f s) s w cs Q -> wp (mget f) s w cs Q.
Proof. auto. Qed.
Lemma wp_bind m f s w cs Q : wp m s w cs (bindQ f Q) -> wp (mbind m f) s w cs Q.
Proof. unfold wp. rewrite exec_bind. destruct (exec m s w cs) as [[[[v|e] s1] w1] cs1]; auto. Qed.
Lemma wp_seq m n s w cs Q : wp m s w cs (bindQ (fun _ => n) Q) -> wp (mseq m n) s w cs Q.
Proof. apply wp_bind. Qed.
Lemma wp_try m h s w cs Q : wp m s w cs (tryQ h Q) -> wp (mtry m h) s w cs Q.
Proof. unfold wp. rewrite exec_try. destruct (exec m s w cs) as [[[[v|e] s1] w1] cs1]; auto. Qed.
Lemma wp_finally m fin s w cs Q : wp m s w cs (finQ fin Q) -> wp (mfinally m fin) s w cs Q.
Proof.
  unfold wp. rewrite exec_finally. destruct (exec m s w cs) as [[[o s1] w1] cs1]. cbn.
  unfold wp. destruct (exec fin s1 w1 cs1) as [[[[v|e] s2] w2] cs2]; auto.
Qed.

(* an adapter call that completes without suspending the task cannot be cancelled *)
Lemma wp_nosusp i s w cs (Q : post) : io_suspends i = false ->
  Q (of_reply (fst (io_step w i))) s (snd (io_step w i)) cs -> wp (await_ i) s w cs Q.
Proof. intros Hs. unfold wp. rewrite exec_await, Hs. auto. Qed.
Lemma wp_await_nil i s w (Q : post) :
  Q (of_reply (fst (io_step w i))) s (snd (io_step w i)) [] -> wp (await_ i) s w [] Q.
Proof. unfold wp. rewrite exec_await. destruct (io_suspends i); auto. Qed.
(* one suspension under "at most one cancellation": the reply arrives, or the only cancellation is
   delivered here and the rest of the run sees none *)
Lemma wp_await i s w cs (Q : post) : io_suspends i = true -> (ncancel cs <= 1)%nat ->
  (forall cs1, (ncancel cs1 <= 1)%nat -> Q (of_reply (fst (io_step w i))) s (snd (io_step w i)) cs1) ->
  (forall (eff : bool) cs1, ncancel cs1 = 0%nat -> Q (Raise ECancelled) s (if eff then io_cancel_step w i else w) cs1) ->
  wp (await_ i) s w cs Q.
Proof.
  intros Hs Hc Hn Hx. unfold wp. rewrite exec_await, Hs. destruct cs as [|[|eff] cs1]; cbn in Hc.
  - apply Hn. cbn. lia.
  - apply Hn. exact Hc.
  - apply Hx. lia.
Qed.

(* a run without pending cancellations does what the run on the empty stream does *)
Lemma wp_quiet m s w cs (Q : post) : ncancel cs = 0%nat ->
  wp m s w [] (fun o s' w' _ => forall cs', ncancel cs' = 0%nat -> Q o s' w' cs') -> wp m s w cs Q.
Proof.
  intros H. unfold wp, exec, rl.
  pose proof (run_loop_quiet _ _ _ _ _ io_step io_cancel_step io_suspends ECancelled (m s) w cs (ncancel0_quiet cs H)) as A.
  pose proof (run_loop_quiet _ _ _ _ _ io_step io_cancel_step io_suspends ECancelled (m s) w [] (Forall_nil _)) as B.
  destruct (run_loop io_step io_cancel_step io_suspends ECancelled (m s) w cs) as [[[r1 w1] cs1] t1].
  destruct (run_loop io_step io_cancel_step io_suspends ECancelled (m s) w []) as [[[r2 w2] cs2] t2].
  destruct A as (A1 & A2 & _). destruct B as (B1 & _ & _).
  rewrite A1 in B1. inversion B1; subst. intros G. apply G. apply quiet_ncancel0; exact A2.
Qed.

Lemma wp_spawn_false m s w cs Q : wp m s w cs Q -> wp (acall async_api false m) s w cs Q.
Proof. unfold wp. rewrite exec_spawn_false. auto. Qed.
Lemma wp_aexit cf s w cs (Q : post) :
  wp (conn_close cf) s w []
     (fun o1 s1 w1 _ => match cs with
                        | C _ :: cs1 => Q (Raise ECancelled) s1 w1 cs1
                        | N :: cs1 => Q o1 s1 w1 cs1
                        | [] => Q o1 s1 w1 []
                        end) ->
  wp (aexit cf async_api) s w cs Q.
Proof.
  unfold wp. rewrite exec_aexit, exec_spawn_false.
  destruct (exec (conn_close cf) s w []) as [[[o1 s1] w1] c1]. destruct cs as [|[|eff] cs1]; auto.
Qed.
Arguments wp : simpl never.
