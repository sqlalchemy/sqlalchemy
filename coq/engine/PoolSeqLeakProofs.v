(* C26 - no leak: once every holder has dropped its reference no record stays checked out.  The invariant of
   [step] is [RefsHeld]; inside a step one fairy is in transit (just made, or just dropped): [RefsHeldExcept]. *)
From Coq Require Import List ZArith Bool Arith Lia.
Import ListNotations.
From SAV.engine Require Import PoolSeq PoolSeqFrame PoolSeqOpOn.
Open Scope Z_scope.

(* a fairy_ref points to an existing fairy made for that record; held fairies exist and are not collected;
   the thread-local fairy exists *)
Definition RefsOrig (s : st) : Prop :=
  forall r f, r_fairy s r = Some f -> (f < nfairies s)%nat /\ f_orig s f = r.
Definition HeldAlive (s : st) : Prop :=
  forall f, held f s = true -> (f < nfairies s)%nat /\ f_dead s f = false.
Definition SgExists (s : st) : Prop := forall f, sg_fairy s = Some f -> (f < nfairies s)%nat.
(* every fairy a record refers to is held, except [o] (a fairy just made or just dropped, on its way into a
   holder slot or to the garbage collector); void once taint_gc is set *)
Definition RefsHeldExcept (o : option nat) (s : st) : Prop :=
  RefsOrig s /\ HeldAlive s /\ SgExists s /\
  (taint_gc s = false -> forall r f, r_fairy s r = Some f -> held f s = true \/ o = Some f).
Definition RefsHeld : st -> Prop := RefsHeldExcept None.

Lemma Mono_RefsOrig : forall s s', RefsOrig s -> Mono s s' -> RefsOrig s'.
Proof.
  intros s s' F M r f H. destruct M. destruct (m_fairy _ _ H) as [H1|[H1 [H2 H3]]].
  - destruct (F _ _ H1). split; [lia|]. rewrite m_orig; auto.
  - split; [lia|auto].
Qed.
Lemma Mono_SgExists : forall s s', SgExists s -> Mono s s' -> SgExists s'.
Proof. intros s s' F M f H. destruct M. destruct (m_sg _ H) as [H1|H1]; [apply F in H1; lia|lia]. Qed.
Lemma Mono_tg_false : forall s s', Mono s s' -> taint_gc s' = false -> taint_gc s = false.
Proof.
  intros s s' M H. destruct M. destruct (taint_gc s) eqn:E; auto. rewrite m_tg in H; auto.
Qed.

Lemma existsb_holds_app : forall f l x, existsb (holds f) (l ++ [x]) = existsb (holds f) l || holds f x.
Proof. intros. rewrite existsb_app. cbn. rewrite orb_false_r. reflexivity. Qed.

Lemma existsb_set_nth_none : forall f l h,
  existsb (holds f) (set_nth l h None) = true -> existsb (holds f) l = true.
Proof.
  induction l; intros h H; destruct h; cbn in *; auto.
  - rewrite H. apply orb_true_r.
  - apply orb_true_iff in H as [H|H]; [rewrite H; auto|]. rewrite (IHl _ H). apply orb_true_r.
Qed.
Lemma existsb_set_nth_other : forall f g l h, nth_error l h = Some (Some g) -> f <> g ->
  existsb (holds f) l = true -> existsb (holds f) (set_nth l h None) = true.
Proof.
  induction l; intros h Hn Hne H; destruct h; cbn in *; try discriminate.
  - inv Hn. cbn in H. destruct (Nat.eqb_spec g f); [congruence|]. auto.
  - apply orb_true_iff in H as [H|H]; [rewrite H; auto|]. rewrite (IHl _ Hn Hne H). apply orb_true_r.
Qed.
Lemma nth_error_held : forall l h f, nth_error l h = Some (Some f) -> existsb (holds f) l = true.
Proof.
  induction l; intros h f H; destruct h; cbn in *; try discriminate.
  - inv H. cbn. rewrite Nat.eqb_refl. auto.
  - rewrite (IHl _ _ H). apply orb_true_r.
Qed.

Lemma held_push : forall g f s1,
  held g (set_holders s1 (holders s1 ++ [Some f])) = held g s1 || Nat.eqb f g.
Proof. intros. unfold held. cbn [holders set_holders]. rewrite existsb_holds_app. reflexivity. Qed.

Section Leak.
Variable cf : cfg.

(* check-in always clears the fairy_ref *)
Lemma rec_checkin_clears : forall r s x s', rec_checkin cf r true s = (x, s') -> r_fairy s' r = None.
Proof.
  unfold rec_checkin; intros r s x s' H. destruct (r_fairy s r) eqn:E; [|inv H; exact E].
  apply do_return_conn_touch in H. destruct (t_fairy _ _ _ _ H r) as [->|[[] _]]. cbn. apply upd_same.
Qed.

(* the weakref callback of fairy f, run on its original record r0: the record is checked in unless a
   BaseException escaped close() inside the error handler *)
Lemma finalize_gc_clears : forall f r0 s x s',
  finalize cf None (Some r0) (Some f) false None s = (x, s') -> taint_gc s' = false -> r_fairy s' r0 <> Some f.
Proof.
  intros f r0 s x s' H T. apply finalize_cases in H. unfold stale_ref in H.
  destruct (r_fairy s r0) as [g|] eqn:Ef; [|subst; congruence].
  destruct (Nat.eqb_spec f g); cbn [negb] in H; [subst g|subst; congruence].
  destruct H as (sa & R & [[_ ->]|(w & sb & Ec & ->)]); [discriminate T|].
  unfold checkin_owned in Ec. rewrite (rl_fairy _ _ R), Ef in Ec. apply rec_checkin_clears in Ec.
  destruct w; cbn [clear_fairy]; congruence.
Qed.

Lemma RefsHeld_init : forall fl, RefsHeld (init cf fl).
Proof.
  intros. split; [|split; [|split]].
  - intros r f H. cbn in H. discriminate.
  - intros f H. cbn in H. discriminate.
  - intros f H. cbn in H. discriminate.
  - intros T r f H. cbn in H. discriminate.
Qed.

Lemma held_frame : forall f s s', holders s' = holders s -> held f s' = held f s.
Proof. unfold held; intros. rewrite H. reflexivity. Qed.

(* below [step]: the fairies made on the way are the exception *)
Lemma RefsHeldExcept_mono : forall o s s', RefsHeld s -> Mono s s' ->
  (forall g, (nfairies s <= g < nfairies s')%nat -> o = Some g) -> RefsHeldExcept o s'.
Proof.
  intros o s s' (F & A & G & H) M New. pose proof M as [].
  split; [eapply Mono_RefsOrig; eauto|]. split; [|split; [eapply Mono_SgExists; eauto|]].
  - intros f Hf. rewrite (held_frame _ _ _ m_hold) in Hf. apply A in Hf as [Hf Hd]. rewrite m_dead by auto. split; [lia|auto].
  - intros T r f Hr. rewrite (held_frame _ _ _ m_hold). destruct (m_fairy _ _ Hr) as [H1|[H1 _]]; [|right; auto].
    destruct (H (Mono_tg_false _ _ M T) _ _ H1) as [Hh|Hn]; [left; auto|discriminate].
Qed.
Lemma RefsHeld_same : forall s s', RefsHeld s -> Mono s s' -> nfairies s' = nfairies s -> RefsHeld s'.
Proof. intros s s' B M N. apply (RefsHeldExcept_mono None s s' B M). intros; lia. Qed.

Lemma RefsHeldExcept_held : forall f s, RefsHeldExcept (Some f) s -> held f s = true -> RefsHeld s.
Proof.
  intros f s (F & A & G & H) Hf. split; [exact F|]. split; [exact A|]. split; [exact G|].
  intros T r g Hr. left. destruct (H T _ _ Hr) as [E|E]; [exact E|inv E; exact Hf].
Qed.

(* the excepted fairy goes into a new holder slot *)
Lemma RefsHeldExcept_push : forall f s, RefsHeldExcept (Some f) s -> (f < nfairies s)%nat -> f_dead s f = false ->
  RefsHeld (set_holders s (holders s ++ [Some f])).
Proof.
  intros f s (F & A & G & H) Hf Hd. split; [exact F|]. split; [|split; [exact G|]].
  - intros g Hg. rewrite held_push in Hg. apply orb_true_iff in Hg as [Hg|Hg]; [exact (A g Hg)|].
    apply Nat.eqb_eq in Hg. subst. split; [exact Hf|exact Hd].
  - intros T r g Hr. left. rewrite held_push.
    destruct (H T _ _ Hr) as [E|E]; [rewrite E; reflexivity|inv E; rewrite Nat.eqb_refl; apply orb_true_r].
Qed.

(* the excepted fairy is collected *)
Lemma gc_fairy_RefsHeld : forall f s, RefsHeldExcept (Some f) s -> (f < nfairies s)%nat -> held f s = false ->
  f_dead s f = false -> RefsHeld (gc_fairy cf f s).
Proof.
  intros f s (F & A & G & H) Hf Hh Hd. unfold gc_fairy. rewrite Hd.
  set (s0 := set_f_dead s (upd (f_dead s) f true)).
  destruct (finalize cf None (Some (f_orig s f)) (Some f) false None s0) as [x s'] eqn:E. cbn [snd].
  pose proof (finalize_touch _ _ _ _ _ _ _ _ _ E) as T. pose proof (Touch_Mono _ _ _ _ T) as M.
  destruct T as [(N1 & N2 & N3) _ Tf Th Ts _ _ _].
  assert (Old : forall r g, r_fairy s' r = Some g -> r_fairy s r = Some g).
  { intros r g Hr. destruct (Tf r) as [Er|[_ Er]]; [rewrite Er in Hr; exact Hr|congruence]. }
  split; [apply (Mono_RefsOrig s0); auto|]. split; [|split].
  - intros g Hg. rewrite (held_frame _ _ _ Th) in Hg. change (held g s = true) in Hg.
    assert (g <> f) by (intro; subst; congruence).
    destruct (A g Hg). rewrite N1, N3. split; [auto|]. change (upd (f_dead s) f true g = false). rewrite upd_other; auto.
  - intros g Hg. destruct Ts as [Es|Es]; [rewrite Es in Hg|congruence]. rewrite N1. apply G; exact Hg.
  - intros Tg r g Hr. left. rewrite (held_frame _ _ _ Th).
    destruct (H (Mono_tg_false _ _ M Tg) _ _ (Old _ _ Hr)) as [Hg|Hg]; [exact Hg|]. inv Hg. exfalso.
    destruct (F _ _ (Old _ _ Hr)) as [_ Ho]. subst r. eapply finalize_gc_clears; eauto.
Qed.

Lemma on_holder_RefsHeld : forall h s k x s', RefsHeld s ->
  (forall f y s1, k f = (y, s1) -> OnFairy f s s1) ->
  on_holder h s k = (x, s') -> RefsHeld s'.
Proof.
  unfold on_holder; intros. repeat dm H1; inv H1; auto; apply H0 in E1;
    (eapply RefsHeld_same; [eauto|eapply Touch_Mono; exact E1|apply (t_nf _ _ _ _ E1)]).
Qed.

Theorem step_RefsHeld : forall o dt s x s', RefsHeld s -> step cf o dt s = (x, s') -> RefsHeld s'.
Proof.
  intros o dt s x s' B H. unfold step in H.
  set (s0 := set_trace (set_clock s (clock s + dt)) []) in *.
  assert (B0 : RefsHeld s0) by exact B. clearbody s0. clear B s.
  destruct o.
  - (* connect: the fairy made, if any, is held afterwards, or collected when the checkout failed *)
    destruct (pool_connect cf s0) as [[f|e] s1] eqn:E; destruct (pool_connect_spec _ _ _ _ E) as [M N];
      cbn beta iota in N; inv H; pose proof B0 as (_ & A & G & _).
    + destruct N as [((N1 & _ & N3) & Ns & Nd)|(-> & N2 & N3)].
      * apply RefsHeldExcept_push; [apply (RefsHeldExcept_mono _ s0 s1 B0 M); intros; lia|rewrite N1; apply G; exact Ns|rewrite N3; exact Nd].
      * apply RefsHeldExcept_push; [apply (RefsHeldExcept_mono _ s0 s1 B0 M); intros; f_equal; lia|lia|exact N3].
    + destruct N as [(N1 & _)|(N1 & N2)].
      * rewrite N1, (proj2 (Nat.eqb_neq _ _)) by lia. exact (RefsHeld_same _ _ B0 M N1).
      * rewrite N1, Nat.eqb_refl.
        apply gc_fairy_RefsHeld; [apply (RefsHeldExcept_mono _ s0 s1 B0 M); intros; f_equal; lia|lia| |exact N2].
        destruct (held (nfairies s0) s1) eqn:Eh; [|reflexivity].
        rewrite (held_frame _ _ _ (m_hold _ _ M)) in Eh. apply A in Eh. lia.
  - eapply on_holder_RefsHeld; eauto. intros f y s1 Hk. eapply fairy_close_touch; exact Hk.
  - eapply on_holder_RefsHeld; eauto. intros f y s1 Hk. eapply fairy_invalidate_touch; exact Hk.
  - eapply on_holder_RefsHeld; eauto. intros f y s1 Hk. eapply fairy_detach_touch; exact Hk.
  - (* del: the holder slot is emptied; the fairy is collected when no other slot holds it *)
    destruct (nth_error (holders s0) h) as [[f|]|] eqn:En; try (inv H; exact B0).
    inv H. destruct B0 as (F & A & G & Hh).
    set (s1 := set_holders s0 (set_nth (holders s0) h None)) in *.
    assert (Hf : held f s0 = true) by (unfold held; eapply nth_error_held; eauto).
    assert (B1 : RefsHeldExcept (Some f) s1).
    { split; [exact F|]. split; [|split; [exact G|]].
      - intros g Hg. apply A. revert Hg. apply existsb_set_nth_none.
      - intros T r g Hr. destruct (Nat.eq_dec g f); [subst; auto|left].
        destruct (Hh T r g Hr) as [Hg|Hg]; [|discriminate]. apply existsb_set_nth_other with (g := f); auto. }
    destruct (held f s1) eqn:Eh; [exact (RefsHeldExcept_held _ _ B1 Eh)|].
    destruct (A f Hf). apply gc_fairy_RefsHeld; auto.
  - inv H. exact B0.
  - eapply on_holder_RefsHeld; eauto. intros f y s1 Hk. eapply pool_invalidate_touch; exact Hk.
Qed.

Lemma run_inv : forall P : st -> Prop, (forall o dt s x s', P s -> step cf o dt s = (x, s') -> P s') ->
  forall ops s, P s -> P (run cf ops s).
Proof.
  intros P Hs. induction ops as [|[o dt] r IH]; intros s B; cbn [run]; auto.
  destruct (step cf o dt s) as [x s1] eqn:E. cbn [snd]. apply IH. eapply Hs; eauto.
Qed.

Lemma count_upto_zero : forall p n, (forall k, (k < n)%nat -> p k = false) -> count_upto p n = O.
Proof. induction n; intros H; cbn; auto. rewrite (H n) by lia. rewrite IHn; auto. Qed.

Definition all_released (s : st) : Prop := forall h, In h (holders s) -> h = None.

Lemma all_released_not_held : forall s f, all_released s -> held f s = false.
Proof.
  unfold all_released, held; intros s f H. induction (holders s) as [|a l IH]; cbn; auto.
  rewrite (H a) by (left; auto). cbn. apply IH. intros; apply H; right; auto.
Qed.

(* no_leak: for every configuration (all five pools), history and fault script: unless a
   BaseException escaped close() inside the error handler of _finalize_fairy running as weakref callback
   (ghost taint_gc), once every holder has dropped its reference no record is checked out *)
Theorem no_leak : forall fl ops,
  let s := run cf ops (init cf fl) in
  taint_gc s = false -> all_released s -> inuse_count s = O.
Proof.
  intros fl ops s T R. destruct (run_inv _ step_RefsHeld ops _ (RefsHeld_init fl)) as (F & A & G & H). fold s in F, A, G, H.
  unfold inuse_count. apply count_upto_zero. intros k _. unfold in_use.
  destruct (r_fairy s k) as [f|] eqn:E; auto.
  destruct (H T _ _ E) as [Hh|Hh]; [rewrite all_released_not_held in Hh; auto|]; discriminate.
Qed.

End Leak.
