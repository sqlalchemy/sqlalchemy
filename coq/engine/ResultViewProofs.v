(* C10 - the row getters (_onerow_getter, _manyrow_getter with its re-fetch loop, _allrows, iteration,
   partitions) compute exactly [adeliver]: the first n not-yet-seen rows of the remaining list *)
From Coq Require Import List ZArith Bool Arith Lia.
Import ListNotations.
From SAV.engine Require Import ResultModel ResultSpec ResultFetchProofs.

Lemma hset_length h : forall i s, length (hset h i s) = length h.
Proof. induction h; intros [|i] s; cbn; auto. Qed.
Lemma hget_hset_same h : forall i s, i < length h -> hget (hset h i s) i = s.
Proof.
  unfold hget. induction h; intros [|i] s Hl; cbn in *; try lia; auto. apply IHh. lia.
Qed.
Lemma hget_hset_other h : forall i j s, i <> j -> hget (hset h i s) j = hget h j.
Proof.
  unfold hget. induction h; intros [|i] [|j] s Hn; cbn; auto; try congruence; try (apply IHh; congruence).
Qed.
Lemma hset_hset h : forall i a b, hset (hset h i a) i b = hset h i b.
Proof. induction h; intros [|i] a0 b; cbn; auto. f_equal. apply IHh. Qed.
Lemma hset_hget h : forall i, hset h i (hget h i) = h.
Proof. unfold hget. induction h; intros [|i]; cbn; auto. f_equal. apply IHh. Qed.

Lemma take_zero st c rm seen : take st c rm 0 seen = ([], seen, rm).
Proof. destruct rm; reflexivity. Qed.

Lemma take_None c : forall rm n seen,
  take None c rm n seen = (map (project c) (firstn n rm), seen, skipn n rm).
Proof.
  induction rm as [|raw t IH]; intros n seen.
  - rewrite firstn_nil, skipn_nil. reflexivity.
  - destruct n; [reflexivity|]. cbn [take firstn skipn map]. rewrite IH. reflexivity.
Qed.

Lemma apply_unique_length st : forall rows seen, length (fst (apply_unique st rows seen)) <= length rows.
Proof.
  induction rows as [|p t IH]; intros seen; cbn [apply_unique]; [cbn; lia|].
  destruct (mem (key_of st p) seen).
  - specialize (IH seen). cbn [length]. lia.
  - specialize (IH (key_of st p :: seen)). destruct (apply_unique st t (key_of st p :: seen)). cbn in *. lia.
Qed.

(* reading a chunk of m <= n rows with _apply_unique_strategy, then going on, is [take] *)
Lemma take_chunk st c : forall rm n m seen d1 s1,
  m <= n ->
  apply_unique st (map (project c) (firstn m rm)) seen = (d1, s1) ->
  take (Some st) c rm n seen =
    (let '(d2, s2, r2) := take (Some st) c (skipn m rm) (n - length d1) s1 in (d1 ++ d2, s2, r2)).
Proof.
  induction rm as [|raw t IH]; intros n m seen d1 s1 Hm Ha.
  - rewrite firstn_nil in Ha. cbn in Ha. inversion Ha; subst. rewrite skipn_nil. reflexivity.
  - destruct m as [|m'].
    + cbn in Ha. inversion Ha; subst. cbn [skipn length app]. rewrite Nat.sub_0_r.
      destruct (take (Some st) c (raw :: t) n s1) as [[a b] r]. reflexivity.
    + destruct n as [|n']; [lia|].
      cbn [firstn map apply_unique] in Ha. cbn [take skipn].
      destruct (mem (key_of st (project c raw)) seen) eqn:M.
      * apply (IH (S n') m' seen d1 s1); [lia|exact Ha].
      * destruct (apply_unique st (map (project c) (firstn m' t)) (key_of st (project c raw) :: seen))
          as [d1' s1'] eqn:A. inversion Ha; subst.
        rewrite (IH n' m' _ d1' s1); [|lia|exact A].
        cbn [length]. replace (S n' - S (length d1')) with (n' - length d1') by lia.
        destruct (take (Some st) c (skipn m' t) (n' - length d1') s1) as [[a b] r]. reflexivity.
Qed.
Lemma take_all st c rm seen :
  take (Some st) c rm (length rm) seen =
    (let '(d, s) := apply_unique st (map (project c) rm) seen in (d, s, [])).
Proof.
  destruct (apply_unique st (map (project c) rm) seen) as [d s] eqn:A.
  rewrite <- (firstn_all rm) in A at 1.
  rewrite (take_chunk st c rm _ _ _ d s (le_n _) A), skipn_all. cbn [take]. rewrite app_nil_r. reflexivity.
Qed.

Lemma take_add st c : forall rm n m seen,
  take st c rm (n + m) seen =
    (let '(d1, s1, r1) := take st c rm n seen in
     let '(d2, s2, r2) := take st c r1 m s1 in (d1 ++ d2, s2, r2)).
Proof.
  induction rm as [|raw t IH]; intros n m seen; [reflexivity|].
  destruct n as [|n].
  - rewrite take_zero. cbn [Nat.add app]. destruct (take st c (raw :: t) m seen) as [[d s] r]. reflexivity.
  - cbn [Nat.add take]. destruct st as [k|]; [destruct (mem (key_of k (project c raw)) seen)|].
    + apply (IH (S n)).
    + rewrite IH. destruct (take (Some k) c t n _) as [[d1 s1] r1].
      destruct (take (Some k) c r1 m s1) as [[d2 s2] r2]. reflexivity.
    + rewrite IH. destruct (take None c t n seen) as [[d1 s1] r1].
      destruct (take None c r1 m s1) as [[d2 s2] r2]. reflexivity.
Qed.
Lemma take_1_nil st c : forall rm seen d s r, take st c rm 1 seen = (d, s, r) -> d = [] -> s = seen /\ r = [].
Proof.
  induction rm as [|raw t IH]; intros seen d s r H Hd.
  - cbn in H. inversion H; auto.
  - cbn [take] in H. destruct st as [k|].
    + destruct (mem (key_of k (project c raw)) seen).
      * apply (IH seen d s r H Hd).
      * rewrite take_zero in H. inversion H; subst. discriminate.
    + rewrite take_zero in H. inversion H; subst. discriminate.
Qed.
Lemma take_length st c : forall rm n seen,
  let '(d, _, r) := take st c rm n seen in
  length d <= n /\ length r <= length rm /\ (length d < n -> r = []).
Proof.
  induction rm as [|raw t IH]; intros n seen; [cbn; intuition lia|].
  destruct n; [cbn; intuition lia|]. cbn [take].
  destruct st as [k|]; [destruct (mem (key_of k (project c raw)) seen)|];
    [specialize (IH (S n) seen)|specialize (IH n (key_of k (project c raw) :: seen))|specialize (IH n seen)];
    destruct (take _ c t _ _) as [[a b] r]; cbn in *; destruct IH as (A & B & C);
    repeat split; try lia; intros; apply C; lia.
Qed.
Lemma take_short st c : forall rm n seen d s r,
  take st c rm n seen = (d, s, r) -> length d < n -> r = [].
Proof. intros rm n seen d s r H. pose proof (take_length st c rm n seen) as L. rewrite H in L. apply L. Qed.

(* the seen-set a uniqueness state names is a cell of the heap *)
Definition u_ok (h : heap) (u : option ustate) : Prop :=
  match u with Some u => fst u < length h | None => True end.
Lemma u_ok_len h h' u : length h <= length h' -> u_ok h u -> u_ok h' u.
Proof. unfold u_ok. destruct u; auto. lia. Qed.

Lemma adeliver_heap_length u c n rm h : length (snd (adeliver u c n rm h)) = length h.
Proof.
  unfold adeliver. destruct u as [u|].
  - destruct (take (Some (snd u)) c rm n (hget h (fst u))) as [[a b] r]. cbn. apply hset_length.
  - destruct (take None c rm n []) as [[a b] r]. reflexivity.
Qed.
Lemma adeliver_u_ok {cu c n rm h d r h' u} : adeliver cu c n rm h = (d, r, h') -> u_ok h u -> u_ok h' u.
Proof.
  intros A. apply u_ok_len. pose proof (adeliver_heap_length cu c n rm h) as L. rewrite A in L. cbn in L. lia.
Qed.
Lemma adeliver_nil cu c n h : adeliver cu c n [] h = ([], [], h).
Proof. unfold adeliver. destruct cu; cbn; rewrite ?hset_hget; reflexivity. Qed.
Lemma adeliver_add cu c n m rm h : u_ok h cu ->
  adeliver cu c (n + m) rm h =
    (let '(d1, r1, h1) := adeliver cu c n rm h in
     let '(d2, r2, h2) := adeliver cu c m r1 h1 in (d1 ++ d2, r2, h2)).
Proof.
  intros Hu. unfold adeliver. destruct cu as [u|]; rewrite take_add.
  - destruct (take (Some (snd u)) c rm n (hget h (fst u))) as [[d1 s1] r1].
    rewrite hget_hset_same by exact Hu.
    destruct (take (Some (snd u)) c r1 m s1) as [[d2 s2] r2]. rewrite hset_hset. reflexivity.
  - rewrite (take_None c rm n []).
    destruct (take None c (skipn n rm) m []) as [[d2 s2] r2]. reflexivity.
Qed.
Lemma adeliver_take {cu c n rm h d r h'} : adeliver cu c n rm h = (d, r, h') ->
  exists st seen s, take st c rm n seen = (d, s, r).
Proof.
  unfold adeliver. destruct cu as [u|];
    [destruct (take (Some (snd u)) c rm n (hget h (fst u))) as [[a b] r0] eqn:T
    |destruct (take None c rm n []) as [[a b] r0] eqn:T];
    intros [= <- <- _]; eauto.
Qed.
Lemma adeliver_length {cu c n rm h d r h'} : adeliver cu c n rm h = (d, r, h') ->
  length d <= n /\ length r <= length rm.
Proof.
  intros A. destruct (adeliver_take A) as (st & seen & s & T).
  pose proof (take_length st c rm n seen) as L. rewrite T in L. tauto.
Qed.
Lemma adeliver_short {cu c n rm h d r h'} : adeliver cu c n rm h = (d, r, h') -> length d < n -> r = [].
Proof.
  intros A. destruct (adeliver_take A) as (st & seen & s & T). apply (take_short _ _ _ _ _ _ _ _ T).
Qed.

Lemma take_big st c : forall rm n seen, length rm <= n -> take st c rm n seen = take st c rm (length rm) seen.
Proof.
  induction rm as [|raw t IH]; intros n seen Hn; [reflexivity|].
  destruct n; [cbn in Hn; lia|]. cbn [length] in *. cbn [take]. destruct st as [k|].
  - destruct (mem (key_of k (project c raw)) seen).
    + rewrite (IH (S n)) by lia. rewrite (IH (S (length t))) by lia. reflexivity.
    + rewrite (IH n) by lia. reflexivity.
  - rewrite (IH n) by lia. reflexivity.
Qed.
Lemma adeliver_big u c n rm h : length rm <= n -> adeliver u c n rm h = adeliver u c (length rm) rm h.
Proof. intros Hn. unfold adeliver. destruct u; rewrite (take_big _ c rm n) by exact Hn; reflexivity. Qed.
(* delivering some rows first and everything else afterwards = delivering everything: both sides ask
   for more rows than there are *)
Lemma adeliver_then_all u c n rm h d1 r1 h1 : u_ok h u ->
  adeliver u c n rm h = (d1, r1, h1) ->
  fst (fst (adeliver u c (length rm) rm h)) = d1 ++ fst (fst (adeliver u c (length r1) r1 h1)).
Proof.
  intros Hu A. pose proof (adeliver_length A) as L.
  rewrite <- (adeliver_big u c (n + length rm)) by lia. rewrite (adeliver_add u c n _ rm h Hu), A.
  rewrite (adeliver_big u c (length rm) r1) by lia.
  destruct (adeliver u c (length r1) r1 h1) as [[d2 r2] h2]. reflexivity.
Qed.

(* What it means for a getter [F] of the implementation, run on the fetch state and the seen-sets, to
   compute a function [L] of the remaining rows and the seen-sets: on a closed result it raises; on an
   open one it returns ([ret] of) what [L] returns and leaves the rows and seen-sets [L] leaves. *)
Definition computes {A B} (cu : option ustate) (F : fstate -> heap -> fstate * heap * res A)
    (L : list row -> heap -> B * list row * heap) (ret : B -> A) : Prop :=
  (forall f h, fwf f -> hardc f = true -> F f h = (f, h, Raise ResourceClosed)) /\
  (forall f h b r h', hardc f = false -> u_ok h cu -> L (remaining f) h = (b, r, h') ->
     exists f', F f h = (f', h', Ok (ret b)) /\ remaining f' = r /\ hardc f' = false).

Lemma onerow_loop_ok c u : forall rm fuel f h d seen r,
  remaining f = rm -> hardc f = false -> length rm < fuel ->
  take (Some (snd u)) c rm 1 (hget h (fst u)) = (d, seen, r) ->
  exists f', onerow_loop fuel c u f h = (f', hset h (fst u) seen, Ok (hd_error d)) /\
             remaining f' = r /\ hardc f' = false.
Proof.
  induction rm as [|raw t IH]; intros fuel f h d seen r Hr Hc Hf Ht.
  - destruct fuel; [cbn in Hf; lia|]. cbn in Ht. inversion Ht; subst.
    pose proof (fetchone_open false f Hc) as H. rewrite Hr in H. destruct H as [f' [E [R1 [W Hh]]]].
    exists f'. cbn [onerow_loop]. rewrite E. rewrite hset_hget. cbn in Hh. auto.
  - destruct fuel; [cbn in Hf; lia|].
    pose proof (fetchone_open false f Hc) as H. rewrite Hr in H. destruct H as [f' [E [R1 [Hc' _]]]].
    cbn [onerow_loop]. rewrite E. cbn [take] in Ht.
    destruct (mem (key_of (snd u) (project c raw)) (hget h (fst u))) eqn:M.
    + apply (IH fuel f' h d seen r R1 Hc'); [cbn in Hf; lia|exact Ht].
    + rewrite take_zero in Ht. inversion Ht; subst. exists f'. cbn [hd_error]. auto.
Qed.

Lemma onerow_computes cu c : computes cu (onerow cu c) (adeliver cu c 1) (@hd_error row).
Proof.
  split.
  - intros f h W Hc. unfold onerow. destruct cu; cbn [onerow_loop]; rewrite (fetchone_closed false f W Hc); reflexivity.
  - intros f h d r h' Hc _ Ha. unfold adeliver in Ha. unfold onerow. destruct cu as [u|].
    + destruct (take (Some (snd u)) c (remaining f) 1 (hget h (fst u))) as [[d0 seen] r0] eqn:T.
      inversion Ha; subst. apply (onerow_loop_ok c u (remaining f) _ f h d seen r eq_refl Hc); [lia|exact T].
    + rewrite take_None in Ha. inversion Ha; subst.
      pose proof (fetchone_open false f Hc) as H. destruct (remaining f) as [|raw t].
      * destruct H as [f' [E [R1 [W Hh]]]]. exists f'. rewrite E. cbn in Hh. cbn. auto.
      * destruct H as [f' [E [R1 [Hc' _]]]]. exists f'. rewrite E. cbn. auto.
Qed.

Lemma many_loop_S k c u num collect f h :
  many_loop (S k) c u num collect f h =
  (if (num - length collect) =? 0 then (f, h, Ok collect) else
   let '(f1, r) := fetchmany_impl (Some (num - length collect)) f in
   match r with
   | Ok [] => (f1, h, Ok collect)
   | Ok rows =>
       let '(d, s) := apply_unique (snd u) (map (project c) rows) (hget h (fst u)) in
       many_loop k c u num (collect ++ d) f1 (hset h (fst u) s)
   | Raise e => (f1, h, Raise e)
   | Fuel => (f1, h, Fuel)
   end).
Proof. reflexivity. Qed.

Lemma many_loop_ok c u num : forall fuel f h collect d seen r,
  hardc f = false -> length (remaining f) < fuel -> u_ok h (Some u) ->
  take (Some (snd u)) c (remaining f) (num - length collect) (hget h (fst u)) = (d, seen, r) ->
  exists f', many_loop fuel c u num collect f h = (f', hset h (fst u) seen, Ok (collect ++ d)) /\
             remaining f' = r /\ hardc f' = false.
Proof.
  induction fuel as [|k IH]; intros f h collect d seen r Hc Hf Hu Ht; [lia|].
  rewrite many_loop_S. destruct (num - length collect) as [|q] eqn:Q.
  - cbn [Nat.eqb]. rewrite take_zero in Ht. inversion Ht; subst.
    exists f. rewrite hset_hget, app_nil_r. auto.
  - cbn [Nat.eqb].
    destruct (fetchmany_open (S q) f Hc) as [f1 [E [R1 Hc1]]]; [lia|]. rewrite E.
    destruct (firstn (S q) (remaining f)) as [|x l] eqn:F.
    + assert (H0 : remaining f = []) by (apply (firstn_nil_inv (S q)); [lia|exact F]).
      rewrite H0 in Ht. cbn in Ht. inversion Ht; subst.
      exists f1. rewrite hset_hget, app_nil_r. rewrite R1, H0, skipn_nil. auto.
    + rewrite <- F.
      destruct (apply_unique (snd u) (map (project c) (firstn (S q) (remaining f))) (hget h (fst u)))
        as [d1 s1] eqn:A.
      rewrite (take_chunk (snd u) c (remaining f) (S q) (S q) _ d1 s1 (le_n _) A) in Ht.
      destruct (take (Some (snd u)) c (skipn (S q) (remaining f)) (S q - length d1) s1) as [[d2 s2] r2] eqn:T2.
      inversion Ht; subst.
      assert (Hlen : length (remaining f1) < k).
      { rewrite R1. rewrite skipn_length. destruct (remaining f); [discriminate|]. cbn [length] in *. lia. }
      destruct (IH f1 (hset h (fst u) s1) (collect ++ d1) d2 seen r Hc1 Hlen) as [f' [E' [R' Hc']]].
      * unfold u_ok. rewrite hset_length. exact Hu.
      * rewrite hget_hset_same by exact Hu. rewrite R1. rewrite app_length.
        replace (num - (length collect + length d1)) with (S q - length d1) by lia. exact T2.
      * exists f'. rewrite E'. rewrite hset_hset, app_assoc. auto.
Qed.

Lemma manyrows_some_ok cu ypv c n f h d r h' :
  hardc f = false -> 1 <= n -> u_ok h cu -> adeliver cu c n (remaining f) h = (d, r, h') ->
  exists f', manyrows cu ypv c (Some n) f h = (f', h', Ok d) /\ remaining f' = r /\ hardc f' = false.
Proof.
  intros Hc Hn Hu Ha. unfold adeliver in Ha. unfold manyrows. destruct cu as [u|].
  - destruct (take (Some (snd u)) c (remaining f) n (hget h (fst u))) as [[d0 seen] r0] eqn:T.
    inversion Ha; subst.
    destruct (many_loop_ok c u n (many_fuel f) f h [] d seen r Hc) as [f' [E H]];
      [unfold many_fuel; lia|exact Hu|cbn [length]; rewrite Nat.sub_0_r; exact T|].
    exists f'. rewrite E. auto.
  - rewrite take_None in Ha. inversion Ha; subst.
    destruct (fetchmany_open n f Hc Hn) as [f1 [E [R1 Hc1]]]. exists f1. rewrite E. auto.
Qed.

(* a call without a size, after yield_per, is the call with that size *)
Lemma manyrows_size cu ypv c num : size_ok num ypv = true ->
  manyrows cu ypv c num = manyrows cu ypv c (Some (size_of num ypv)) /\ 1 <= size_of num ypv.
Proof.
  unfold size_ok, size_of. destruct num as [n|]; [|destruct ypv as [[|y]|]]; try discriminate; intros Sz.
  - apply Nat.leb_le in Sz. auto.
  - split; [|lia]. unfold manyrows. destruct cu; reflexivity.
Qed.

Lemma manyrows_computes cu ypv c num : size_ok num ypv = true ->
  computes cu (manyrows cu ypv c num) (adeliver cu c (size_of num ypv)) (fun d => d).
Proof.
  intros Sz. destruct (manyrows_size cu ypv c num Sz) as [-> Hn]. split.
  - intros f h W Hc. unfold manyrows, many_fuel. destruct cu; [rewrite many_loop_S|].
    + destruct (size_of num ypv); [lia|]. cbn [length Nat.sub Nat.eqb]. rewrite (fetchmany_closed _ f W Hc). reflexivity.
    + rewrite (fetchmany_closed _ f W Hc). reflexivity.
  - intros f h d r h' Hc Hu Ha. apply manyrows_some_ok; assumption.
Qed.

Lemma allrows_computes cu c : computes cu (allrows cu c) (fun rm => adeliver cu c (length rm) rm) (fun d => d).
Proof.
  split.
  - intros f h W Hc. unfold allrows. rewrite (fetchall_closed f W Hc). reflexivity.
  - intros f h d r h' Hc _ Ha. unfold adeliver in Ha. unfold allrows.
    destruct (fetchall_open f Hc) as [f1 [E [R1 Hc1]]]. rewrite E. destruct cu as [u|].
    + rewrite take_all in Ha.
      destruct (apply_unique (snd u) (map (project c) (remaining f)) (hget h (fst u))) as [d1 s1].
      inversion Ha; subst. exists f1. auto.
    + rewrite take_None, firstn_all, skipn_all in Ha. inversion Ha; subst. exists f1. auto.
Qed.

Lemma iter_loop_ok cu c : forall k f h acc d r h',
  hardc f = false -> u_ok h cu -> adeliver cu c k (remaining f) h = (d, r, h') ->
  exists f', iter_loop k cu c f h acc = (f', h', Ok (acc ++ d, length d <? k)) /\
             remaining f' = r /\ hardc f' = false.
Proof.
  induction k as [|k IH]; intros f h acc d r h' Hc Hu Ha.
  - unfold adeliver in Ha. destruct cu as [u|]; rewrite take_zero in Ha; inversion Ha; subst;
      exists f; cbn [iter_loop]; rewrite ?hset_hget, app_nil_r; auto.
  - cbn [iter_loop]. rewrite (adeliver_add cu c 1 k _ h Hu) in Ha.
    destruct (adeliver cu c 1 (remaining f) h) as [[d1 r1] h1] eqn:A1.
    destruct (proj2 (onerow_computes cu c) f h d1 r1 h1 Hc Hu A1) as [f1 [E [R1 Hc1]]]. rewrite E.
    pose proof (adeliver_length A1) as L1.
    destruct d1 as [|p [|q d1]]; [| |cbn in L1; lia]; cbn [hd_error].
    + (* no row: nothing is left, the iteration stops *)
      assert (r1 = []) as -> by (apply (adeliver_short A1); cbn; lia).
      rewrite adeliver_nil in Ha. inversion Ha; subst. exists f1. rewrite app_nil_r. auto.
    + destruct (adeliver cu c k r1 h1) as [[d2 r2] h2] eqn:A2. inversion Ha; subst.
      destruct (IH f1 h1 (acc ++ [p]) d2 r h' Hc1 (adeliver_u_ok A1 Hu) A2) as [f' [E' H']].
      exists f'. rewrite E', <- app_assoc. auto.
Qed.
Lemma iter_computes cu c k :
  computes cu (fun f h => iter_loop (S k) cu c f h []) (adeliver cu c (S k)) (fun d => (d, length d <? S k)).
Proof.
  split.
  - intros f h W Hc. cbn [iter_loop]. rewrite (proj1 (onerow_computes cu c) f h W Hc). reflexivity.
  - intros f h d r h'. apply iter_loop_ok.
Qed.

(* the partition loop on (remaining rows, seen-sets) *)
Fixpoint aparts (k : nat) (u : option ustate) (c : list (nat * nat)) (n : nat) (rm : list row) (h : heap)
  (acc : list (list row)) : list (list row) * bool * list row * heap :=
  match k with
  | 0 => (acc, false, rm, h)
  | S k' =>
      let '(d, r, h1) := adeliver u c n rm h in
      match d with
      | [] => (acc, true, r, h1)
      | _ => aparts k' u c n r h1 (acc ++ [d])
      end
  end.

Lemma aparts_heap_length u c n : forall k rm h acc, length (snd (aparts k u c n rm h acc)) = length h.
Proof.
  induction k as [|k IH]; intros rm h acc; [reflexivity|]. cbn [aparts].
  pose proof (adeliver_heap_length u c n rm h) as L.
  destruct (adeliver u c n rm h) as [[[|p d] r] h1]; [exact L|]. rewrite IH. exact L.
Qed.

Lemma parts_loop_ok cu ypv c num n :
  computes cu (manyrows cu ypv c num) (adeliver cu c n) (fun d => d) ->
  forall k f h acc ps st r h', hardc f = false -> u_ok h cu ->
    aparts k cu c n (remaining f) h acc = (ps, st, r, h') ->
    exists f', parts_loop k cu ypv c num f h acc = (f', h', Ok (ps, st)) /\
               remaining f' = r /\ hardc f' = false.
Proof.
  intros [_ M]. induction k as [|k IH]; intros f h acc ps st r h' Hc Hu Ha.
  - cbn in Ha. inversion Ha; subst. exists f. auto.
  - cbn [aparts] in Ha. cbn [parts_loop].
    destruct (adeliver cu c n (remaining f) h) as [[d r1] h1] eqn:A.
    destruct (M f h d r1 h1 Hc Hu A) as [f1 [E [R1 Hc1]]]. rewrite E.
    destruct d as [|p d'].
    + inversion Ha; subst. exists f1. auto.
    + rewrite <- R1 in Ha. apply (IH f1 h1 _ ps st r h' Hc1 (adeliver_u_ok A Hu) Ha).
Qed.
Lemma parts_computes cu ypv c num n k :
  computes cu (manyrows cu ypv c num) (adeliver cu c n) (fun d => d) ->
  computes cu (fun f h => parts_loop (S k) cu ypv c num f h []) (fun rm h => aparts (S k) cu c n rm h [])
    (fun x => x).
Proof.
  intros M. split.
  - intros f h W Hc. cbn [parts_loop]. rewrite (proj1 M f h W Hc). reflexivity.
  - intros f h [ps st] r h'. apply (parts_loop_ok cu ypv c num n M).
Qed.
