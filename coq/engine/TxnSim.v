(* C23: the simulation between the Connection model (Txn.v, running on the reference database)
   and the reference nested-transaction model (TxnSpec.v) on guarded histories.

   [R s p] is a record of facts each of which reads [s] only through the projections it needs, and
   [chain] / [ctxrel] read the object table as a list: a setter of any other field leaves them
   convertible, so such steps are closed by [assumption].  Steps that only clear is_active flags go
   through [R_after]; creating an object through [R_push]; with-blocks through [R_ctx_step]. *)
From Coq Require Import List ZArith NArith Bool Arith Lia.
Import ListNotations.
From SAV.engine Require Import RefDb Txn TxnBase TxnWF TxnSpec.

(* the savepoint objects reachable from [_nested_transaction] through [_previous_nested] are the
   savepoint frames of the reference model, and each has its savepoint (with the right snapshot) in
   the database, in the same order; the database may hold extra, stale savepoints in between
   (ROLLBACK TO keeps the savepoint it rolls back to) *)
Inductive chain (ts : list txn) : option nat -> list (nat * tables) -> list (N * tables) -> Prop :=
| ch_nil : forall sv, chain ts None [] sv
| ch_cons : forall k t snap fr sv1 sv2,
    nth_error ts k = Some t -> t_root t = false -> chain ts (t_prev t) fr sv2 ->
    chain ts (Some k) ((k, snap) :: fr) (sv1 ++ (t_sp t, snap) :: sv2).

(* [_trans_context_manager] and the [_outer_trans_ctx] links form the stack of entered with-blocks,
   and every object on it has [_trans_subject] set *)
Inductive ctxrel (ts : list txn) : option nat -> list nat -> Prop :=
| cx_nil : ctxrel ts None []
| cx_cons : forall k t l, nth_error ts k = Some t -> t_subject t = true -> ~ In k l ->
    ctxrel ts (t_outer t) l -> ctxrel ts (Some k) (k :: l).

(* the object table is read in [s0], the installed transactions and the database in [s]: R holds
   [frames s s]; [R_after] asks for [frames s s'], the chain still read in the old table, because a
   step that only clears is_active flags does not touch what the chain reads *)
Definition frames (s0 s : st) (p : spec) : Prop :=
  match c_root s with
  | None => p_stack p = [] /\ c_nested s = None
  | Some r => exists nf snap, p_stack p = nf ++ [(r, snap)] /\ is_root r s0 = true /\
                              chain (txns s0) (c_nested s) nf (saves (s_db s))
  end.

(* the simulation relation.  [R_names], [R_seq]: the savepoint names in the database are distinct
   and at most [c_seq], so the next SAVEPOINT gets a fresh name and ROLLBACK TO / RELEASE of an
   object's name find that object's savepoint.  [R_nodup]: a handle controls at most one frame.
   [R_closed_empty]: a closed connection has no open frame. *)
Record R (s : st) (p : spec) : Prop := mkR {
  R_len : length (txns s) = p_next p;
  R_kinds : forall k, k < length (txns s) -> is_root k s = kind_root k p;
  R_active : forall k, active k s = live k p;
  R_closed : c_closed s = p_closed p;
  R_closed_empty : p_closed p = true -> p_stack p = [];
  R_committed : committed (s_db s) = p_committed p;
  R_work : work (s_db s) = p_cur p;
  R_frames : frames s s p;
  R_nodup : NoDup (map fst (p_stack p));
  R_names : NoDup (map fst (saves (s_db s)));
  R_seq : forall e, In e (saves (s_db s)) -> (fst e <= c_seq s)%N;
  R_ctx : ctxrel (txns s) (c_ctx s) (p_ctx p);
  R_out : forallb snd (s_out s) = true;
  R_nb : c_in_begin s = false;
  R_bfail : c_beginfail s = p_beginfail p;
  R_rbfail : c_rbfail s = p_rbfail p
}.

(* a setter of a field that a fact of R does not read leaves that fact convertible *)
Lemma R_set_seq : forall s p n, R s p -> (c_seq s <= n)%N -> R (set_seq n s) p.
Proof.
  intros s p n [] Hn. constructor; try assumption.
  intros e He. apply R_seq0 in He. cbn. lia.
Qed.
Lemma R_clear_log : forall s p, R s p -> R (clear_log s) p.
Proof. intros s p []. constructor; auto. Qed.
Lemma R_set_rbfail : forall s p b, R s p -> R (set_rbfail b s) (set_prbfail b p).
Proof. intros s p b []. constructor; auto. Qed.
Lemma R_set_beginfail : forall s p n, R s p -> R (set_beginfail n s) (set_pbeginfail n p).
Proof. intros s p n []. constructor; auto. Qed.
Lemma R_add_warn : forall s p, R s p -> R (add_warn s) p.
Proof. intros s p []. constructor; auto. Qed.
Lemma R_insert : forall s q v, R s q ->
  R (set_db (db_insert 0%N [v] (s_db s)) s) (set_stack (p_stack q) (tbl_insert 0%N [v] (p_cur q)) q).
Proof. intros s q v []. constructor; try assumption. cbn. rewrite R_work0. reflexivity. Qed.
Lemma R_set_closed : forall s q, R s q -> p_stack q = [] -> R (set_closed true s) (set_pclosed true q).
Proof. intros s q [] Hst. constructor; auto. Qed.

Lemma map_upd : forall A B (g : A -> B) f l k, (forall x, g (f x) = g x) -> map g (upd k f l) = map g l.
Proof. induction l; destruct k; cbn; intros; f_equal; auto. Qed.
Lemma NoDup_app_head : forall (A : Type) (l1 : list A) x l2, NoDup (l1 ++ x :: l2) -> ~ In x l1 /\ NoDup (x :: l2).
Proof.
  induction l1; cbn; intros.
  - split; auto.
  - inversion H; subst. destruct (IHl1 _ _ H3). split; auto.
    intros [E|E]; subst; auto. apply H2. apply in_or_app. right. left. auto.
Qed.
Lemma eqb_lt_false : forall k n, k < n -> Nat.eqb k n = false.
Proof. intros. apply Nat.eqb_neq. lia. Qed.
Lemma nth_error_app_old : forall A (l l' : list A) k x, nth_error l k = Some x -> nth_error (l ++ l') k = Some x.
Proof. intros. rewrite nth_error_app1; auto. apply nth_error_Some. congruence. Qed.
Lemma existsb_ids : forall j (nf : list (nat * tables)),
  existsb (Nat.eqb j) (map fst nf) = existsb (fun f => Nat.eqb (fst f) j) nf.
Proof. induction nf; cbn; auto. rewrite IHnf, (Nat.eqb_sym j). reflexivity. Qed.
Lemma existsb_in : forall j l, existsb (Nat.eqb j) l = true <-> In j l.
Proof.
  intros. rewrite existsb_exists. split.
  - intros [x [A B]]. apply Nat.eqb_eq in B. subst. auto.
  - intros. exists j. split; auto. apply Nat.eqb_refl.
Qed.
Lemma app_one_not_nil : forall A (l : list A) x, l ++ [x] <> [].
Proof. intros A l x H. destruct l; discriminate. Qed.

Lemma live_app_root : forall k nf r snap p, p_stack p = nf ++ [(r, snap)] ->
  live k p = existsb (fun f => Nat.eqb (fst f) k) nf || Nat.eqb r k.
Proof. intros. unfold live. rewrite H, existsb_app. cbn. rewrite orb_false_r. reflexivity. Qed.
Lemma live_in : forall k p, live k p = true <-> In k (map fst (p_stack p)).
Proof.
  intros. unfold live. rewrite existsb_exists. split.
  - intros [x [A B]]. apply Nat.eqb_eq in B. subst. apply in_map. auto.
  - intros H. apply in_map_iff in H. destruct H as [x [A B]]. exists x. subst. split; auto. apply Nat.eqb_refl.
Qed.
Lemma live_open_frame : forall b p k, live k (open_frame b p) = Nat.eqb (p_next p) k || live k p.
Proof. reflexivity. Qed.
Lemma below_head : forall k snap rest, below k ((k, snap) :: rest) = rest.
Proof. intros. cbn. rewrite Nat.eqb_refl. reflexivity. Qed.
Lemma below_last : forall k nf r snap, ~ In k (map fst nf) -> below k (nf ++ [(r, snap)]) = [].
Proof.
  induction nf as [|[j sn] nf]; intros; cbn.
  - destruct (Nat.eqb r k); reflexivity.
  - cbn in H. destruct (Nat.eqb_spec j k); [exfalso; auto|]. apply IHnf. auto.
Qed.
Lemma below_in_nonnil : forall k nf x, In k (map fst nf) -> below k (nf ++ [x]) <> [].
Proof.
  induction nf as [|[j sn] nf]; cbn; intros x H; [contradiction|].
  destruct (Nat.eqb_spec j k); [apply app_one_not_nil|]. destruct H; [contradiction|auto].
Qed.
Lemma drop_to_app : forall n sv1 snap sv2, ~ In n (map fst sv1) ->
  drop_to n (sv1 ++ (n, snap) :: sv2) = Some ((n, snap) :: sv2).
Proof.
  induction sv1 as [|[m sn] sv1]; intros; cbn.
  - rewrite N.eqb_refl. reflexivity.
  - cbn in H. destruct (N.eqb_spec m n); [exfalso; auto|]. apply IHsv1. auto.
Qed.
Lemma commit_handle_inner : forall k p fr, below k (p_stack p) = fr -> fr <> [] ->
  commit_handle k p = set_stack fr (p_cur p) p.
Proof. intros. unfold commit_handle. rewrite H. destruct fr; [contradiction|reflexivity]. Qed.
Lemma rollback_handle_inner : forall k p fr, below k (p_stack p) = fr -> fr <> [] ->
  rollback_handle k p = (false, set_stack fr (snap_of k (p_stack p) (p_cur p)) p).
Proof. intros. unfold rollback_handle. rewrite H. destruct fr; [contradiction|reflexivity]. Qed.
Lemma rollback_conn_live : forall p, p_stack p <> [] -> rollback_conn p = (p_rbfail p, rollback_all p).
Proof. intros. unfold rollback_conn. destruct (p_stack p); [contradiction|reflexivity]. Qed.

(* states that differ only in is_active flags, the installed transactions, the database and
   the per-call log *)
Definition static (t : txn) : txn := set_active_t true t.
Record same_but (s s' : st) : Prop := mkSB {
  sb_txns : map static (txns s') = map static (txns s);
  sb_ctx : c_ctx s' = c_ctx s;
  sb_seq : c_seq s' = c_seq s;
  sb_closed : c_closed s' = c_closed s;
  sb_nb : c_in_begin s' = c_in_begin s;
  sb_bfail : c_beginfail s' = c_beginfail s;
  sb_rbfail : c_rbfail s' = c_rbfail s
}.

Lemma sb_get : forall s s' k t, same_but s s' -> get k s = Some t ->
  exists t', get k s' = Some t' /\ t_root t' = t_root t /\ t_sp t' = t_sp t /\ t_prev t' = t_prev t /\
             t_subject t' = t_subject t /\ t_outer t' = t_outer t.
Proof.
  intros s s' k t [H] E. apply (f_equal (fun l => nth_error l k)) in H. unfold get in *.
  rewrite !nth_error_map, E in H. destruct (nth_error (txns s') k) as [t'|]; [|discriminate].
  injection H as. eauto 10.
Qed.

Lemma sb_root : forall s s' k, same_but s s' -> is_root k s' = is_root k s.
Proof.
  intros s s' k [H]. apply (f_equal (fun l => nth_error l k)) in H. rewrite !nth_error_map in H.
  unfold is_root, get. destruct (nth_error (txns s') k), (nth_error (txns s) k); inversion H; auto.
Qed.

Lemma chain_ext : forall ts ts' o fr sv, chain ts o fr sv ->
  (forall k t, nth_error ts k = Some t ->
     exists t', nth_error ts' k = Some t' /\ t_root t' = t_root t /\ t_sp t' = t_sp t /\ t_prev t' = t_prev t) ->
  chain ts' o fr sv.
Proof.
  induction 1; intros He; [constructor|].
  destruct (He _ _ H) as (t' & A & B & C & D). rewrite <- C. apply (ch_cons ts' k t'); try congruence.
  rewrite D. auto.
Qed.

Lemma ctxrel_ext : forall ts ts' o l, ctxrel ts o l ->
  (forall k t, In k l -> nth_error ts k = Some t ->
     exists t', nth_error ts' k = Some t' /\ t_subject t' = t_subject t /\ t_outer t' = t_outer t) ->
  ctxrel ts' o l.
Proof.
  induction 1; intros He; [constructor|].
  destruct (He k t (or_introl eq_refl) H) as (t' & A & B & C).
  apply (cx_cons ts' k t'); try congruence. rewrite C. apply IHctxrel. intros j u Hj. apply He. right. exact Hj.
Qed.

Lemma chain_stale : forall ts o fr sv e, chain ts o fr sv -> chain ts o fr (e :: sv).
Proof. intros. inversion H; subst; [constructor|]. apply (ch_cons ts k t snap fr0 (e :: sv1)); auto. Qed.

Lemma R_root_some : forall s p r, R s p -> c_root s = Some r ->
  exists nf snap, p_stack p = nf ++ [(r, snap)] /\ is_root r s = true /\
    chain (txns s) (c_nested s) nf (saves (s_db s)) /\ active r s = true /\ c_closed s = false /\
    ~ In r (map fst nf).
Proof.
  intros s p r HR Hr. pose proof (R_frames _ _ HR) as F. unfold frames in F. rewrite Hr in F.
  destruct F as (nf & snap & A & B & C). exists nf, snap. repeat split; auto.
  - rewrite (R_active _ _ HR). rewrite (live_app_root _ _ _ _ _ A), Nat.eqb_refl. apply orb_true_r.
  - rewrite (R_closed _ _ HR). destruct (p_closed p) eqn:E; auto.
    rewrite (R_closed_empty _ _ HR E) in A. destruct nf; discriminate.
  - pose proof (R_nodup _ _ HR) as N. rewrite A, map_app in N. cbn in N.
    apply NoDup_app_head in N. tauto.
Qed.

Lemma R_root_none : forall s p, R s p -> c_root s = None -> p_stack p = [] /\ c_nested s = None.
Proof. intros s p HR Hr. pose proof (R_frames _ _ HR) as F. unfold frames in F. rewrite Hr in F. auto. Qed.

Lemma R_root_active : forall s p r, R s p -> c_root s = Some r -> active r s = true.
Proof. intros s p r HR Hr. destruct (R_root_some _ _ _ HR Hr) as (_ & _ & _ & _ & _ & A & _). exact A. Qed.
Lemma R_root_open : forall s p r, R s p -> c_root s = Some r -> c_closed s = false.
Proof. intros s p r HR Hr. destruct (R_root_some _ _ _ HR Hr) as (_ & _ & _ & _ & _ & _ & A & _). exact A. Qed.

Lemma R_nested_active : forall s p k, R s p -> c_nested s = Some k -> active k s = true.
Proof.
  intros s p k HR Hk. destruct (c_root s) as [r|] eqn:Hr.
  - destruct (R_root_some _ _ _ HR Hr) as (nf & snap & A & _ & C & _). rewrite Hk in C. inversion C; subst.
    rewrite (R_active _ _ HR), (live_app_root _ _ _ _ _ A). cbn. rewrite Nat.eqb_refl. reflexivity.
  - destruct (R_root_none _ _ HR Hr). congruence.
Qed.

Lemma R_ctx_top : forall s p, R s p ->
  match c_ctx s, p_ctx p with
  | None, [] => True
  | Some k, j :: _ => k = j /\ k < length (txns s) /\ subject k s = true
  | _, _ => False
  end.
Proof.
  intros s p HR. pose proof (R_ctx _ _ HR) as C. inversion C; auto.
  split; [auto|]. split; [apply nth_error_Some; congruence|]. unfold subject, get. rewrite H1. auto.
Qed.

Lemma R_ctx_check : forall s p, R s p ->
  ctx_check s = if ctx_bad p then (Raise InvalidRequestError, s) else (Ok, s).
Proof.
  intros s p HR. pose proof (R_ctx_top _ _ HR) as T. unfold ctx_check, ctx_bad.
  destruct (c_ctx s) as [k|], (p_ctx p) as [|j l]; try contradiction; auto.
  destruct T as [-> _]. rewrite (R_active _ _ HR). destruct (live j p); reflexivity.
Qed.

Lemma R_pending_false : forall s p, R s p ->
  inst_inactive (c_root s) s || inst_inactive (c_nested s) s = false.
Proof.
  intros s p HR. unfold inst_inactive.
  destruct (c_root s) as [r|] eqn:Hr.
  - rewrite (R_root_active _ _ _ HR Hr). cbn.
    destruct (c_nested s) as [k|] eqn:Hk; auto. rewrite (R_nested_active _ _ _ HR Hk). reflexivity.
  - destruct (R_root_none _ _ HR Hr) as [_ ->]. reflexivity.
Qed.

(* a statement that the database accepts, inside a transaction: the prologue of execute passes *)
Lemma R_sql_ok : forall s p r c d', R s p -> c_root s = Some r -> ctx_bad p = false ->
  exec_cmd (s_db s) c = Some d' -> sql c s = (Ok, add_out (c, true) (set_db d' s)).
Proof.
  intros s p r c d' HR Hr Hb E. unfold sql, bind at 1, exec_guard.
  rewrite (R_root_open _ _ _ HR Hr).
  rewrite (R_pending_false _ _ HR). unfold bind. rewrite (R_ctx_check _ _ HR), Hb.
  unfold autobegin_if_none, emit. rewrite Hr, E. reflexivity.
Qed.

Lemma chain_sb : forall s s' o fr sv, chain (txns s) o fr sv -> same_but s s' -> chain (txns s') o fr sv.
Proof.
  intros s s' o fr sv H SB. eapply chain_ext; [exact H|]. intros k t E.
  destruct (sb_get _ _ _ _ SB E) as (t' & ?). exists t'. tauto.
Qed.
Lemma ctxrel_sb : forall s s' o l, ctxrel (txns s) o l -> same_but s s' -> ctxrel (txns s') o l.
Proof.
  intros s s' o l H SB. eapply ctxrel_ext; [exact H|]. intros k t _ E.
  destruct (sb_get _ _ _ _ SB E) as (t' & ?). exists t'. tauto.
Qed.

(* re-establishing R after a step that creates no object and leaves the with-block stack alone;
   the chain of [frames] is still read in the old object table *)
Lemma R_after : forall s s' p p', R s p -> same_but s s' ->
  p_kinds p' = p_kinds p -> p_ctx p' = p_ctx p -> p_closed p' = p_closed p ->
  p_beginfail p' = p_beginfail p -> p_rbfail p' = p_rbfail p ->
  (forall k, active k s' = live k p') ->
  (p_closed p' = true -> p_stack p' = []) ->
  committed (s_db s') = p_committed p' -> work (s_db s') = p_cur p' ->
  frames s s' p' ->
  NoDup (map fst (p_stack p')) -> NoDup (map fst (saves (s_db s'))) ->
  (forall e, In e (saves (s_db s')) -> (fst e <= c_seq s)%N) ->
  forallb snd (s_out s') = true ->
  R s' p'.
Proof.
  intros s s' p p' [] SB Hk Hc Hcl Hbf Hrf Ha Hce Hco Hw Hf Hn Hnn Hs Ho.
  pose proof SB as [Ht]. apply (f_equal (@length _)) in Ht. rewrite !map_length in Ht.
  constructor; auto; try congruence.
  - unfold p_next in *. congruence.
  - intros k Hlt. rewrite (sb_root _ _ _ SB). unfold kind_root. rewrite Hk. apply R_kinds0. lia.
  - unfold frames in *. destruct (c_root s'); auto. destruct Hf as (nf & snap & A & B & C).
    exists nf, snap. rewrite (sb_root _ _ _ SB). eauto using chain_sb.
  - intros e He. rewrite sb_seq0. auto.
  - rewrite Hc, sb_ctx0. eauto using ctxrel_sb.
Qed.

Lemma kind_root_app : forall k p b, k < p_next p -> nth k (p_kinds p ++ [b]) false = kind_root k p.
Proof. intros. unfold kind_root. apply app_nth1. auto. Qed.

(* creating an object and installing it as root ([o]) or innermost savepoint ([o']).  The state is
   written with [push_txn] outermost so that the [*_push] equations apply; [new_root] and [new_nested]
   apply the setters in another order, which yields a convertible state *)
Lemma R_push : forall s p t o o', R s p -> p_closed p = false -> t_active t = true ->
  let s' := push_txn t (set_nested o' (set_root o s)) in
  frames s' s' (open_frame (t_root t) p) -> R s' (open_frame (t_root t) p).
Proof.
  intros s p t o o' [] Hc Ha s' Hf. constructor; try assumption.
  - unfold s', p_next in *. cbn [open_frame p_kinds]. rewrite len_push, !app_length. cbn. lia.
  - intros k Hk. unfold s' in *. rewrite len_push in Hk. rewrite is_root_push. cbn [txns set_nested set_root] in *.
    unfold kind_root. cbn [open_frame p_kinds]. destruct (Nat.eqb_spec k (length (txns s))) as [->|].
    + rewrite R_len0. unfold p_next. rewrite app_nth2, Nat.sub_diag by lia. reflexivity.
    + rewrite kind_root_app by (rewrite <- R_len0; lia). apply R_kinds0. lia.
  - intros k. unfold s'. rewrite active_push, live_open_frame, <- R_len0, (Nat.eqb_sym k). cbn [txns set_nested set_root].
    destruct (Nat.eqb (length (txns s)) k); [exact Ha|apply R_active0].
  - cbn. congruence.
  - cbn. constructor; [|assumption]. intro H. apply live_in in H. rewrite <- R_active0 in H. apply active_lt in H. lia.
  - eapply ctxrel_ext; [exact R_ctx0|]. intros k u _ E. exists u. split; [apply nth_error_app_old, E|auto].
Qed.

Lemma begin_impl_ok : forall s, c_beginfail s = 0%N ->
  begin_impl s = (Ok, set_in_begin false (add_out (Begin, true) (set_db (s_db s) (set_in_begin true s)))).
Proof. intros s H. unfold begin_impl, bind, finally, begin_listener. rewrite c_beginfail_set_in_begin, H. reflexivity. Qed.

Lemma begin_impl_fail : forall s, c_beginfail s <> 0%N ->
  begin_impl s = (Raise ListenerError,
                  set_in_begin false (if N.eqb (c_beginfail s) 1 then set_beginfail 0%N (set_in_begin true s)
                                      else set_in_begin true s)).
Proof.
  intros s H. unfold begin_impl, bind, finally, begin_listener. rewrite c_beginfail_set_in_begin.
  destruct (c_beginfail s) as [|[q|q|]]; try contradiction; reflexivity.
Qed.

Lemma R_new_root : forall s p, R s p -> c_root s = None -> blocked p = false -> p_beginfail p = 0%N ->
  exists s', new_root s = (Ok, s') /\ R s' (open_frame true p).
Proof.
  intros s p HR Hr Hb Hbf. apply orb_false_elim in Hb. destruct Hb as [Hc Hb].
  destruct (R_root_none _ _ HR Hr) as [Hst Hn].
  unfold new_root, bind. rewrite (R_ctx_check _ _ HR), Hb, (R_closed _ _ HR), Hc.
  rewrite begin_impl_ok by (rewrite (R_bfail _ _ HR); auto).
  eexists. split; [reflexivity|].
  set (s1 := set_in_begin false _).
  assert (HR1 : R s1 p).
  { destruct HR. constructor; try assumption; [|reflexivity]. unfold s1. cbn. rewrite forallb_app, R_out0. reflexivity. }
  apply (R_push s1 p (mkT true true 0%N None false None) (Some (length (txns s1))) (c_nested s1) HR1 Hc eq_refl).
  unfold frames. cbn [c_root push_txn set_txns set_nested set_root]. exists [], (p_cur p). cbn [open_frame p_stack].
  rewrite Hst, <- (R_len _ _ HR). repeat split.
  - rewrite is_root_push. cbn [txns set_nested set_root]. rewrite Nat.eqb_refl. reflexivity.
  - cbn. rewrite Hn. constructor.
Qed.

Lemma R_new_nested : forall s p r, R s p -> c_root s = Some r -> ctx_bad p = false ->
  exists s', new_nested s = (Ok, s') /\ R s' (open_frame false p).
Proof.
  intros s p r HR Hr Hb. set (n := N.succ (c_seq s)).
  assert (HR1 : R (set_seq n s) p) by (apply R_set_seq; [auto|lia]).
  unfold new_nested. unfold bind at 1. rewrite (R_ctx_check _ _ HR), Hb. fold n.
  unfold bind. rewrite (R_sql_ok _ p r (Savepoint n) _ HR1 Hr Hb eq_refl).
  eexists. split; [reflexivity|].
  destruct (R_root_some _ _ _ HR Hr) as (nf & snap & Hst & Hroot & Hch & Hact & Hcl & Hnin).
  set (s2 := add_out _ _).
  (* the new savepoint is in the database but not yet in the chain *)
  assert (HR2 : R s2 p).
  { destruct HR. constructor; try assumption.
    - unfold frames in *. cbn [c_root s2 add_out set_db set_seq] in *. rewrite Hr in *.
      destruct R_frames0 as (nf0 & snap0 & A & B & C). exists nf0, snap0. repeat split; auto. apply chain_stale, C.
    - cbn. constructor; auto. intro H. apply in_map_iff in H. destruct H as [e [A B]].
      apply R_seq0 in B. rewrite A in B. lia.
    - intros e [<-|H]; cbn; [lia|]. apply R_seq0 in H. lia.
    - unfold s2. cbn. rewrite forallb_app, R_out0. reflexivity. }
  apply (R_push s2 p (mkT false true n (c_nested s2) false None) (c_root s2) (Some (length (txns s2))) HR2);
    [rewrite <- (R_closed _ _ HR); exact Hcl|reflexivity|].
  unfold frames. cbn [c_root push_txn set_txns set_nested set_root s2 add_out set_db set_seq]. rewrite Hr.
  exists ((p_next p, p_cur p) :: nf), snap. cbn [open_frame p_stack]. rewrite Hst. repeat split.
  - rewrite is_root_push. cbn [txns set_nested set_root add_out set_db set_seq s2].
    rewrite (eqb_lt_false r) by (apply active_lt, Hact). exact Hroot.
  - rewrite <- (R_len _ _ HR), <- (R_work _ _ HR).
    apply (ch_cons _ _ (mkT false true n (c_nested s) false None) _ _ []); [|reflexivity|].
    + cbn. rewrite nth_error_app2, Nat.sub_diag by lia. reflexivity.
    + eapply chain_ext; [exact Hch|]. intros k u E. exists u. split; [apply nth_error_app_old, E|auto].
Qed.

(* a result agrees with the "raised" flag of the reference model; running out of fuel never does *)
Definition res_ok (r : res) (b : bool) : Prop :=
  match r with Ok => b = false | Raise _ => b = true | OutOfFuel => False end.

(* the result and final state of an operation agree with a step (raised?, state) of the reference model *)
Definition sim (rs : res * st) (bp : bool * spec) : Prop :=
  res_ok (fst rs) (fst bp) /\ R (snd rs) (snd bp).

Lemma sim_ok : forall s p, R s p -> sim (Ok, s) (false, p). Proof. split; auto. reflexivity. Qed.
Lemma sim_raise : forall e s p, R s p -> sim (Raise e, s) (true, p). Proof. split; auto. reflexivity. Qed.

Lemma sim_bind : forall (m k : M) s bp1 bp, sim (m s) bp1 -> (fst bp1 = true -> bp = bp1) ->
  (forall s1, fst bp1 = false -> R s1 (snd bp1) -> sim (k s1) bp) -> sim (bind m k s) bp.
Proof.
  intros m k s bp1 bp [A B] H1 H2. unfold bind. destruct (m s) as [[| e |] s1]; cbn in *;
    [apply H2; auto|rewrite H1 by auto; split; auto|contradiction].
Qed.

Lemma stack_root : forall s p, R s p -> (p_stack p = [] <-> c_root s = None).
Proof.
  intros s p HR. split; intro H.
  - destruct (c_root s) eqn:Hr; auto. destruct (R_root_some _ _ _ HR Hr) as (nf & rs & Hst & _).
    rewrite H in Hst. destruct nf; discriminate.
  - apply (R_root_none _ _ HR H).
Qed.

Lemma sim_new_root : forall s p, R s p -> c_root s = None -> blocked p = false -> sim (new_root s) (begin_root p).
Proof.
  intros s p HR Hr Hb. destruct (N.eq_dec (p_beginfail p) 0) as [E|E].
  - destruct (R_new_root _ _ HR Hr Hb E) as (s' & A & B). rewrite A. unfold begin_root. rewrite E. apply sim_ok, B.
  - (* a `begin` listener raises: only the environment fields change *)
    apply orb_false_elim in Hb. destruct Hb as [Hc Hx].
    unfold new_root, bind. rewrite (R_ctx_check _ _ HR), Hx, (R_closed _ _ HR), Hc.
    rewrite begin_impl_fail by (rewrite (R_bfail _ _ HR); auto). rewrite (R_bfail _ _ HR). unfold begin_root.
    destruct (p_beginfail p) as [|[q|q|]] eqn:F; try contradiction; cbn [N.eqb Pos.eqb]; (split; [reflexivity|]);
      destruct HR; constructor; try assumption; try reflexivity; cbn; congruence.
Qed.

Lemma sim_autobegin : forall s p, R s p -> blocked p = false -> sim (autobegin_if_none s) (autobegin_spec p).
Proof.
  intros s p HR Hb. unfold autobegin_if_none, autobegin_spec, begin. destruct (c_root s) as [r|] eqn:Hr.
  - destruct (R_root_some _ _ _ HR Hr) as (nf & snap & -> & _). destruct nf; apply sim_ok, HR.
  - rewrite (proj2 (stack_root _ _ HR) Hr), (R_nb _ _ HR). apply sim_new_root; auto.
Qed.

Lemma sim_exec_guard : forall s p, R s p -> blocked p = false -> sim (exec_guard s) (autobegin_spec p).
Proof.
  intros s p HR Hb. unfold exec_guard, bind. apply orb_false_elim in Hb as Hb'. destruct Hb' as [Hc Hx].
  rewrite (R_closed _ _ HR), Hc, (R_pending_false _ _ HR), (R_ctx_check _ _ HR), Hx. apply sim_autobegin; auto.
Qed.

Lemma R_blocked_new_root : forall s p, R s p -> blocked p = true -> exists e, new_root s = (Raise e, s).
Proof.
  intros s p HR Hb. unfold new_root, bind. rewrite (R_ctx_check _ _ HR).
  destruct (ctx_bad p) eqn:Hx; [eauto|]. unfold blocked in Hb. rewrite Hx, orb_false_r in Hb.
  rewrite (R_closed _ _ HR), Hb. eauto.
Qed.

Lemma R_blocked_nested : forall s p, R s p -> blocked p = true -> exists e, begin_nested s = (Raise e, s).
Proof.
  intros s p HR Hb. unfold begin_nested, bind, autobegin_if_none, begin.
  destruct (c_root s) eqn:Hr.
  - unfold new_nested, bind. rewrite (R_ctx_check _ _ HR).
    destruct (ctx_bad p) eqn:Hx; [eauto|]. unfold blocked in Hb. rewrite Hx, orb_false_r in Hb.
    rewrite (proj1 (stack_root _ _ HR) (R_closed_empty _ _ HR Hb)) in Hr. discriminate.
  - rewrite (R_nb _ _ HR). destruct (R_blocked_new_root _ _ HR Hb) as [e ->]. eauto.
Qed.

Lemma R_blocked_ins : forall s p v, R s p -> blocked p = true -> exists e, ins v s = (Raise e, s).
Proof.
  intros s p v HR Hb. unfold ins, bind, exec_guard. rewrite (R_closed _ _ HR).
  destruct (p_closed p) eqn:Hc; [eauto|]. rewrite (R_pending_false _ _ HR).
  unfold bind. rewrite (R_ctx_check _ _ HR). unfold blocked in Hb. rewrite Hc in Hb. cbn in Hb. rewrite Hb. eauto.
Qed.

(* cancelling the savepoint chain leaves exactly the objects of the chain inactive *)
Definition deact_all (ks : list nat) (s : st) : st :=
  set_txns (fold_left (fun ts j => upd j (set_active_t false) ts) ks (txns s)) s.

Lemma sb_deact_all : forall ks s, map static (txns (deact_all ks s)) = map static (txns s).
Proof.
  intros ks s. unfold deact_all. cbn [txns set_txns]. generalize (txns s).
  induction ks; intros ts; cbn; [reflexivity|]. rewrite IHks. apply map_upd. reflexivity.
Qed.

Lemma active_deact_all : forall j ks s,
  active j (deact_all ks s) = active j s && negb (existsb (Nat.eqb j) ks).
Proof.
  induction ks; intros s; cbn [existsb].
  - unfold deact_all. cbn. rewrite andb_true_r. reflexivity.
  - change (deact_all (a :: ks) s) with (deact_all ks (set_active a false s)).
    rewrite IHks, active_set_active_false, negb_orb, andb_assoc. reflexivity.
Qed.

Lemma cancel_chain : forall fuel k s fr sv, WF s -> chain (txns s) (Some k) fr sv -> c_nested s = Some k -> k < fuel ->
  cancel fuel k s = (Ok, set_nested None (deact_all (map fst fr) s)).
Proof.
  induction fuel; intros k s fr sv W Hch Hn Hk; [lia|].
  rewrite cancel_unfold. unfold deact_nested. rewrite c_nested_set_active, Hn. cbn [opt_is]. rewrite Nat.eqb_refl.
  rewrite prev_set_nested, !prev_set_active. inversion Hch as [|? t snap fr' sv1 sv2 Ht _ Hch']; subst. cbn [map fst].
  assert (Hp : prev k s = t_prev t) by (unfold prev, get; rewrite Ht; reflexivity). rewrite Hp.
  assert (W2 : WF (set_nested (t_prev t) (set_active k false s))).
  { rewrite <- Hp, <- (prev_set_active k k false s). apply WF_set_nested_prev, WF_set_active, W. }
  destruct (t_prev t) as [q|] eqn:Hq.
  - erewrite IHfuel; [reflexivity|exact W2| |reflexivity|].
    + eapply chain_sb; [eassumption|]. constructor; try reflexivity. apply map_upd. reflexivity.
    + destruct W as [W _]. apply W in Hp. lia.
  - inversion Hch'; subst. reflexivity.
Qed.

Lemma cancel_nested_chain : forall s nf sv, WF s -> chain (txns s) (c_nested s) nf sv ->
  cancel_nested s = (Ok, set_nested None (deact_all (map fst nf) s)).
Proof.
  intros s nf sv W Hch. unfold cancel_nested. destruct (c_nested s) as [n|] eqn:Hn.
  - eapply cancel_chain; eauto. inversion Hch; subst. apply nth_error_Some. congruence.
  - inversion Hch; subst. destruct s. cbn in Hn. subst. reflexivity.
Qed.

(* ending the root transaction: COMMIT or ROLLBACK has reached the database (leaving data [tb] and no
   savepoint), then the savepoint objects are cancelled, the root object is deactivated and uninstalled *)
Lemma root_end : forall s p r c tb, R s p -> WF s -> c_root s = Some r ->
  exists s2, cancel_nested (add_out (c, true) (set_db (mkDb tb tb []) s)) = (Ok, s2) /\ active r s2 = true /\
    c_root s2 = Some r /\
    R (set_root None (set_active r false s2))
      (mkP tb tb [] (p_kinds p) (p_ctx p) (p_closed p) (p_beginfail p) (p_rbfail p)).
Proof.
  intros s p r c tb HR W Hr.
  destruct (R_root_some _ _ _ HR Hr) as (nf & snap & Hst & Hroot & Hch & Hact & Hcl & Hnin).
  set (s1 := add_out (c, true) (set_db (mkDb tb tb []) s)).
  assert (Ha : forall j, active j (deact_all (map fst nf) s1) = live j p && negb (existsb (Nat.eqb j) (map fst nf))).
  { intros j. rewrite active_deact_all. apply (f_equal (fun x => x && _)), (R_active _ _ HR). }
  exists (set_nested None (deact_all (map fst nf) s1)). split; [|split; [|split; [exact Hr|]]].
  - apply (cancel_nested_chain s1 nf (saves (s_db s))); [exact W|exact Hch].
  - rewrite active_set_nested, Ha, <- (R_active _ _ HR), Hact.
    apply negb_true_iff, not_true_is_false. intro X. apply existsb_in in X. auto.
  - apply (R_after s _ p _ HR); try reflexivity.
    + constructor; try reflexivity. cbn [txns set_root set_active upd_txn set_txns set_nested].
      rewrite map_upd by reflexivity. apply (sb_deact_all _ s1).
    + intros j. rewrite active_set_root, active_set_active_false, active_set_nested, Ha.
      rewrite (live_app_root _ _ _ _ _ Hst), existsb_ids, (Nat.eqb_sym r j).
      destruct (existsb _ nf), (Nat.eqb j r); reflexivity.
    + cbn. auto.
    + constructor.
    + constructor.
    + intros e [].
    + cbn. rewrite forallb_app, (R_out _ _ HR). reflexivity.
Qed.

Lemma root_do_commit_R : forall s p r, R s p -> WF s -> c_root s = Some r ->
  sim (root_do_commit r s) (false, commit_all p).
Proof.
  intros s p r HR W Hr.
  pose proof (R_root_active _ _ _ HR Hr) as Hact.
  destruct (root_end s p r Commit (work (s_db s)) HR W Hr) as (s2 & A & Ar & _ & HR').
  unfold root_do_commit. rewrite Hact. unfold bind at 1. unfold finally, emit. cbn [exec_cmd].
  unfold bind at 1. rewrite A. unfold deact_root. rewrite Ar.
  apply sim_ok. unfold commit_all. rewrite <- (R_work _ _ HR). exact HR'.
Qed.

(* the finally clause of [root_close_impl] after a ROLLBACK that the database has performed *)
Lemma root_close_tail : forall s p r t, R s p -> WF s -> c_root s = Some r -> p_rbfail p = false ->
  exists s', bind cancel_nested (root_close_fin r t)
               (add_out (Rollback, true) (set_db (mkDb (committed (s_db s)) (committed (s_db s)) []) s)) = (Ok, s') /\
             R s' (rollback_all p).
Proof.
  intros s p r t HR W Hr Hf.
  destruct (root_end s p r Rollback (committed (s_db s)) HR W Hr) as (s2 & A & Ar & C & HR').
  exists (set_root None (set_active r false s2)). unfold bind at 1. rewrite A.
  unfold root_close_fin, bind, deact_root. rewrite Ar. cbn [orb]. rewrite c_root_set_active, C. cbn [opt_is]. rewrite Nat.eqb_refl.
  split; [reflexivity|]. rewrite Hf, (R_committed _ _ HR) in HR'. exact HR'.
Qed.

Lemma root_close_impl_R : forall s p r t, R s p -> WF s -> c_root s = Some r ->
  sim (root_close_impl r t s) (p_rbfail p, rollback_all p).
Proof.
  intros s p r t HR W Hr.
  pose proof (R_root_active _ _ _ HR Hr) as Hact. pose proof (R_root_open _ _ _ HR Hr) as Hcl.
  unfold root_close_impl, finally. fold (root_close_fin r t). rewrite Hact. unfold rollback_impl. rewrite Hcl, (R_rbfail _ _ HR).
  destruct (p_rbfail p) eqn:Hf.
  - (* the DBAPI rollback is performed and reports an error *)
    destruct (root_close_tail _ _ r t (R_set_rbfail _ _ false HR) W Hr eq_refl) as (s' & A & B).
    unfold bind at 1. unfold emit. cbn [exec_cmd]. cbn [s_db set_rbfail] in *. rewrite A. split; [reflexivity|exact B].
  - destruct (root_close_tail _ _ r t HR W Hr Hf) as (s' & A & B).
    unfold emit. cbn [exec_cmd]. rewrite A. split; [reflexivity|exact B].
Qed.

(* the innermost savepoint [k]: its savepoint is in the database with the snapshot of its frame, the
   reference model ends it by dropping the top frame, and whatever RELEASE or ROLLBACK TO leaves in
   the database ([d']: the savepoints below [k], with or without [k]'s own) the connection's
   bookkeeping re-establishes R *)
Lemma nested_end : forall s p r k, R s p -> c_root s = Some r -> c_nested s = Some k ->
  exists snap sv2,
    drop_to (sp k s) (saves (s_db s)) = Some ((sp k s, snap) :: sv2) /\
    is_root k s = false /\ active k s = true /\ active r s = true /\ c_closed s = false /\
    commit_handle k p = set_stack (below k (p_stack p)) (p_cur p) p /\
    rollback_handle k p = (false, set_stack (below k (p_stack p)) snap p) /\
    forall c d', committed d' = committed (s_db s) ->
      saves d' = sv2 \/ saves d' = (sp k s, snap) :: sv2 ->
      R (set_nested (prev k s) (set_active k false (add_out (c, true) (set_db d' s))))
        (set_stack (below k (p_stack p)) (work d') p).
Proof.
  intros s p r k HR Hr Hk.
  destruct (R_root_some _ _ _ HR Hr) as (nf & rs & Hst & Hroot & Hch & Hact & Hcl & _).
  rewrite Hk in Hch. inversion Hch as [|? t snap fr sv1 sv2 Ht Hrt Hch' E1 E2 E3]; subst.
  assert (Hb : below k (p_stack p) = fr ++ [(r, rs)]) by (rewrite Hst; apply below_head).
  assert (Hs : snap_of k (p_stack p) (p_cur p) = snap) by (rewrite Hst; cbn; rewrite Nat.eqb_refl; reflexivity).
  unfold sp, prev, is_root, get. rewrite Ht, Hb.
  pose proof (R_names _ _ HR) as Nn. rewrite <- E3, map_app in Nn. cbn [map fst] in Nn.
  apply NoDup_app_head in Nn. destruct Nn as [N1 N2].
  pose proof (R_nodup _ _ HR) as ND. rewrite Hst in ND. cbn [app map fst] in ND. apply NoDup_cons_iff in ND. destruct ND as [N3 N4].
  exists snap, sv2. split; [apply drop_to_app, N1|]. split; [exact Hrt|].
  split; [eapply R_nested_active; eauto|]. split; [exact Hact|]. split; [exact Hcl|].
  split; [apply commit_handle_inner; auto using app_one_not_nil|].
  split; [rewrite <- Hs; apply rollback_handle_inner; auto using app_one_not_nil|].
  intros c d' Hco Hsv.
  assert (Hd : chain (txns s) (t_prev t) fr (saves d') /\ NoDup (map fst (saves d')) /\
               forall e, In e (saves d') -> In e (saves (s_db s))).
  { rewrite <- E3. destruct Hsv as [-> | ->].
    - split; [exact Hch'|]. split; [inversion N2; auto|]. intros e He. apply in_or_app. right. right. exact He.
    - split; [apply chain_stale, Hch'|]. split; [exact N2|]. intros e He. apply in_or_app. right. exact He. }
  destruct Hd as (Hd1 & Hd2 & Hd3).
  apply (R_after s _ p _ HR); try reflexivity.
  - constructor; try reflexivity. apply map_upd. reflexivity.
  - intros j. rewrite active_set_nested, active_set_active_false. change (active j (add_out _ _)) with (active j s).
    rewrite (R_active _ _ HR). unfold live. cbn [set_stack p_stack]. rewrite Hst. cbn [app existsb fst].
    destruct (Nat.eqb_spec j k) as [->|Hj].
    + rewrite Nat.eqb_refl. cbn. symmetry. apply not_true_is_false. intro X.
      rewrite <- existsb_ids in X. apply existsb_in in X. auto.
    + rewrite (proj2 (Nat.eqb_neq k j)) by auto. cbn. rewrite andb_true_r. reflexivity.
  - cbn. rewrite <- (R_closed _ _ HR), Hcl. discriminate.
  - cbn. rewrite Hco. apply (R_committed _ _ HR).
  - unfold frames. cbn [c_root c_nested s_db set_nested set_active upd_txn set_txns add_out set_db]. rewrite Hr.
    exists fr, rs. auto.
  - exact N4.
  - exact Hd2.
  - intros e He. apply (R_seq _ _ HR), Hd3, He.
  - cbn. rewrite forallb_app, (R_out _ _ HR). reflexivity.
Qed.

(* [nested_do_commit] / [nested_close_impl] on the innermost savepoint: the statement passes the
   prologue of execute, is accepted by the database, the object is deactivated and uninstalled *)
Lemma nested_do_commit_R : forall s p r k, R s p -> c_root s = Some r -> c_nested s = Some k ->
  ctx_bad p = false -> sim (nested_do_commit k s) (false, commit_handle k p).
Proof.
  intros s p r k HR Hr Hk Hb.
  destruct (nested_end _ _ _ _ HR Hr Hk) as (snap & sv2 & Hdrop & _ & Hak & _ & _ & -> & _ & HE).
  unfold nested_do_commit. rewrite Hak. unfold bind at 1. unfold finally.
  erewrite R_sql_ok by (eauto; cbn [exec_cmd]; rewrite Hdrop; reflexivity).
  unfold deact_nested. rewrite c_nested_set_active, c_nested_add_out, c_nested_set_db, Hk. cbn [opt_is]. rewrite Nat.eqb_refl.
  rewrite prev_set_active. change (prev k (add_out _ _)) with (prev k s). apply sim_ok.
  rewrite <- (R_work _ _ HR). apply (HE _ (mkDb _ _ sv2)); auto.
Qed.

Lemma nested_close_impl_R : forall s p r k w, R s p -> c_root s = Some r -> c_nested s = Some k ->
  ctx_bad p = false -> sim (nested_close_impl k w s) (rollback_handle k p).
Proof.
  intros s p r k w HR Hr Hk Hb.
  destruct (nested_end _ _ _ _ HR Hr Hk) as (snap & sv2 & Hdrop & _ & Hak & Har & Hcl & _ & -> & HE).
  unfold nested_close_impl, finally. rewrite Hak. unfold inst_active. rewrite Hr, Har, Hcl. cbn [andb].
  erewrite R_sql_ok by (eauto; cbn [exec_cmd]; rewrite Hdrop; reflexivity).
  unfold bind, deact_nested. rewrite c_nested_set_active, c_nested_add_out, c_nested_set_db, Hk. cbn [opt_is]. rewrite Nat.eqb_refl.
  rewrite prev_set_active. change (prev k (add_out _ _)) with (prev k s). apply sim_ok.
  apply (HE _ (mkDb _ snap _)); auto.
Qed.

Lemma R_deact_dead : forall s p k, R s p -> active k s = false -> R (set_active k false s) p.
Proof.
  intros s p k HR Hk. apply (R_after s _ p p HR); try reflexivity; try apply HR.
  - constructor; try reflexivity. apply map_upd. reflexivity.
  - intros j. rewrite active_set_active_false, <- (R_active _ _ HR).
    destruct (Nat.eqb_spec j k); [subst; rewrite Hk; reflexivity|apply andb_true_r].
Qed.

Lemma R_not_installed : forall s p k, R s p -> live k p = false ->
  opt_is (c_root s) k = false /\ opt_is (c_nested s) k = false /\ active k s = false.
Proof.
  intros s p k HR Hl. rewrite <- (R_active _ _ HR) in Hl. repeat split; auto.
  - destruct (c_root s) as [r|] eqn:Hr; auto. cbn. destruct (Nat.eqb_spec r k); auto. subst.
    pose proof (R_root_active _ _ _ HR Hr). congruence.
  - destruct (c_nested s) as [n|] eqn:Hn; auto. cbn. destruct (Nat.eqb_spec n k); auto. subst.
    rewrite (R_nested_active _ _ _ HR Hn) in Hl. discriminate.
Qed.

Lemma R_no_nested : forall s p, R s p -> spec_in_nested p = false -> c_nested s = None.
Proof.
  intros s p HR Hn. destruct (c_root s) as [r|] eqn:Hr.
  - destruct (R_root_some _ _ _ HR Hr) as (nf & snap & Hst & _ & Hch & _).
    unfold spec_in_nested in Hn. rewrite Hst, app_length in Hn. apply Nat.ltb_ge in Hn.
    destruct nf; [inversion Hch; auto|]. cbn in Hn. lia.
  - apply (R_root_none _ _ HR Hr).
Qed.

Lemma dead_close_R : forall s p k rb, R s p -> k < length (txns s) -> live k p = false ->
  ok_dead_root k p = true -> sim (t_end rb k s) (false, p).
Proof.
  intros s p k rb HR Hk Hl Hg. destruct (R_not_installed _ _ _ HR Hl) as (A & B & C).
  unfold t_end. rewrite (R_kinds _ _ HR k Hk).
  unfold ok_dead_root in Hg. rewrite Hl in Hg. destruct (kind_root k p); cbn [negb orb] in Hg.
  - apply negb_true_iff in Hg. rewrite (root_close_impl_inactive _ _ _ C). unfold bind at 1. unfold cancel_nested.
    rewrite (R_no_nested _ _ HR Hg). unfold root_close_fin, bind, deact_root, warn. rewrite C, A. cbn [orb].
    destruct rb; [rewrite c_root_add_warn|]; rewrite A; apply sim_ok; auto using R_add_warn.
  - unfold nested_close_impl, finally. rewrite C. cbn [andb]. unfold bind, deact_nested, warn.
    rewrite c_nested_set_active, B. destruct rb; apply sim_ok; auto using R_add_warn, R_deact_dead.
Qed.

(* a live handle that the guard allows to end: the root object (its frame is the whole stack), or
   the innermost savepoint outside a with-block whose transaction has ended *)
Inductive live_case (s : st) (p : spec) (k : nat) : Prop :=
| lc_root : c_root s = Some k -> is_root k s = true -> below k (p_stack p) = [] -> live_case s p k
| lc_top : forall r, c_root s = Some r -> c_nested s = Some k -> is_root k s = false ->
    ctx_bad p = false -> live_case s p k.

Lemma live_cases : forall s p k, R s p -> live k p = true -> ok_end k p = true -> live_case s p k.
Proof.
  intros s p k HR Hl Hg. destruct (c_root s) as [r|] eqn:Hr.
  2:{ destruct (R_root_none _ _ HR Hr) as [Hst _]. unfold live in Hl. rewrite Hst in Hl. discriminate. }
  destruct (R_root_some _ _ _ HR Hr) as (nf & rs & Hst & Hroot & Hch & Hact & Hcl & Hnin).
  destruct (Nat.eq_dec k r) as [->|Hne].
  - apply lc_root; auto. rewrite Hst. apply below_last. auto.
  - assert (Hin : In k (map fst nf)).
    { apply live_in in Hl. rewrite Hst, map_app in Hl. apply in_app_or in Hl. destruct Hl as [|[|[]]]; auto.
      cbn in H. congruence. }
    unfold ok_end in Hg. rewrite Hl in Hg. cbn [negb orb] in Hg.
    unfold is_root_frame in Hg. rewrite Hst in Hg.
    pose proof (below_in_nonnil k nf (r, rs) Hin) as Hb.
    destruct (below k (nf ++ [(r, rs)])); [contradiction|]. cbn [orb] in Hg.
    apply andb_true_iff in Hg. destruct Hg as [Ht Hc]. apply negb_true_iff in Hc.
    unfold top_is in Ht. rewrite Hst in Ht. destruct nf as [|[j sn] nf]; [contradiction|].
    cbn in Ht. apply Nat.eqb_eq in Ht. subst j.
    destruct (nested_end s p r k HR Hr) as (_ & _ & _ & Hk & _); [inversion Hch; auto|].
    eapply lc_top; eauto. inversion Hch; auto.
Qed.

Lemma live_commit_R : forall s p k, R s p -> WF s -> live k p = true -> ok_end k p = true ->
  sim (t_commit k s) (false, commit_handle k p).
Proof.
  intros s p k HR W Hl Hg. destruct (live_cases _ _ _ HR Hl Hg) as [Hr Hk Hb|r Hr Hn Hk Hb];
    unfold t_commit; rewrite Hk.
  - unfold commit_handle. rewrite Hb. apply root_do_commit_R; auto.
  - eapply nested_do_commit_R; eauto.
Qed.

Lemma live_close_R : forall s p k rb, R s p -> WF s -> live k p = true -> ok_end k p = true ->
  sim (t_end rb k s) (rollback_handle k p).
Proof.
  intros s p k rb HR W Hl Hg. destruct (live_cases _ _ _ HR Hl Hg) as [Hr Hk Hb|r Hr Hn Hk Hb];
    unfold t_end; rewrite Hk.
  - unfold rollback_handle. rewrite Hb. apply root_close_impl_R; auto.
  - eapply nested_close_impl_R; eauto.
Qed.

(* entering and leaving a with-block: only _trans_subject / _outer_trans_ctx of one object and
   the connection's pointer change *)
Lemma ctxrel_upd : forall ts o l k f, ctxrel ts o l -> ~ In k l -> ctxrel (upd k f ts) o l.
Proof.
  intros ts o l k f H Hk. eapply ctxrel_ext; [exact H|]. intros j t Hj E. exists t. rewrite nth_upd, E.
  destruct (Nat.eqb_spec j k); [subst; contradiction|auto].
Qed.

Lemma R_ctx_step : forall s p k b o c l, R s p -> ctxrel (upd k (set_ctx_t b o) (txns s)) c l ->
  R (set_ctx c (upd_txn k (set_ctx_t b o) s)) (set_pctx l p).
Proof.
  intros s p k b o c l [] Hc. constructor; try assumption.
  - rewrite len_set_ctx, len_upd_txn. exact R_len0.
  - intros j. rewrite len_set_ctx, len_upd_txn, is_root_set_ctx, is_root_set_ctx_t. apply R_kinds0.
  - intros j. rewrite active_set_ctx, active_set_ctx_t. apply R_active0.
  - unfold frames in *. cbn [c_root c_nested s_db set_ctx upd_txn set_txns]. destruct (c_root s); auto.
    destruct R_frames0 as (nf & snap & A & B & C). exists nf, snap. rewrite is_root_set_ctx, is_root_set_ctx_t.
    repeat split; auto. eapply chain_ext; [exact C|]. intros j t E. cbn [txns set_ctx upd_txn set_txns]. rewrite nth_upd, E.
    destruct (Nat.eqb j k); eexists; split; try reflexivity; auto.
Qed.

Lemma R_enter : forall s p k, R s p -> k < length (txns s) -> existsb (Nat.eqb k) (p_ctx p) = false ->
  R (set_ctx (Some k) (upd_txn k (set_ctx_t true (c_ctx s)) s)) (set_pctx (k :: p_ctx p) p).
Proof.
  intros s p k HR Hk Hin. apply R_ctx_step; [exact HR|].
  assert (Hnin : ~ In k (p_ctx p)) by (intro X; apply existsb_in in X; congruence).
  destruct (get_some _ _ Hk) as [t Ht].
  apply (cx_cons _ k (set_ctx_t true (c_ctx s) t)); auto.
  - rewrite nth_upd, Nat.eqb_refl. unfold get in Ht. rewrite Ht. reflexivity.
  - apply ctxrel_upd; [apply HR|exact Hnin].
Qed.

Lemma R_exit_fin : forall s q k l, R s q -> p_ctx q = k :: l ->
  R (upd_txn k (set_ctx_t false None) (set_ctx (outer k s) s)) (set_pctx (tl (p_ctx q)) q).
Proof.
  intros s q k l HR Hc. apply (R_ctx_step s q k false None (outer k s)); [exact HR|].
  pose proof (R_ctx _ _ HR) as C. rewrite Hc in *. inversion C; subst.
  unfold outer, get. rewrite H2. apply ctxrel_upd; auto.
Qed.

Lemma ctx_bad_open_frame : forall s p b, R s p -> ctx_bad (open_frame b p) = ctx_bad p.
Proof.
  intros s p b HR. unfold ctx_bad. cbn [p_ctx open_frame]. destruct (p_ctx p) as [|k l] eqn:E; auto.
  rewrite live_open_frame. pose proof (R_ctx_top _ _ HR) as T. rewrite E in T.
  destruct (c_ctx s); [|contradiction]. destruct T as (-> & T & _). rewrite (R_len _ _ HR) in T.
  rewrite Nat.eqb_sym, (eqb_lt_false _ _ T). reflexivity.
Qed.

(* a successful autobegin leaves a transaction open and the with-block check as it was *)
Lemma autobegin_spec_ok : forall s p q, R s p -> autobegin_spec p = (false, q) ->
  p_stack q <> [] /\ ctx_bad q = ctx_bad p.
Proof.
  intros s p q HR H. unfold autobegin_spec, begin_root in H.
  destruct (p_stack p) eqn:E; [destruct (p_beginfail p) as [|[]]|]; inversion H; subst;
    (split; [cbn; congruence|]); auto. apply (ctx_bad_open_frame _ _ _ HR).
Qed.

Lemma ctx_bad_same : forall p q, p_ctx q = p_ctx p -> p_stack q = p_stack p -> ctx_bad q = ctx_bad p.
Proof. intros p q A B. unfold ctx_bad, live. rewrite A, B. reflexivity. Qed.

Lemma sim_nested : forall s p, R s p ->
  sim (begin_nested s) (if blocked p then (true, p)
                        else match autobegin_spec p with (false, q) => (false, open_frame false q) | r => r end).
Proof.
  intros s p HR. destruct (blocked p) eqn:Hb.
  - destruct (R_blocked_nested _ _ HR Hb) as [e ->]. apply sim_raise, HR.
  - apply (sim_bind _ _ _ (autobegin_spec p)); [apply sim_autobegin; auto|destruct (autobegin_spec p) as [[] q]; cbn; congruence|].
    intros s1 Hf HR1. destruct (autobegin_spec p) as [b0 q] eqn:E. cbn [fst snd] in *. subst b0.
    destruct (autobegin_spec_ok _ _ _ HR E) as [Hs Hq].
    destruct (c_root s1) as [r|] eqn:Hr; [|apply (stack_root _ _ HR1) in Hr; contradiction].
    destruct (R_new_nested _ _ _ HR1 Hr) as (s' & -> & B); [|apply sim_ok, B].
    rewrite Hq. apply orb_false_elim in Hb. tauto.
Qed.

Lemma sim_conn_rollback : forall s p rb, R s p -> WF s ->
  sim (match c_root s with Some r => t_end rb r s | None => (Ok, s) end) (rollback_conn p).
Proof.
  intros s p rb HR W. destruct (c_root s) as [r|] eqn:Hr.
  - destruct (R_root_some _ _ _ HR Hr) as (nf & rs & Hst & Hroot & _).
    rewrite rollback_conn_live by (rewrite Hst; apply app_one_not_nil).
    unfold t_end. rewrite Hroot. apply root_close_impl_R; auto.
  - unfold rollback_conn. rewrite (proj2 (stack_root _ _ HR) Hr). apply sim_ok, HR.
Qed.

(* Transaction.rollback and Transaction.close are the same step of the reference model *)
Lemma sim_t_end : forall s p k rb, R s p -> WF s -> k < p_next p ->
  ok_end k p && ok_dead_root k p = true ->
  sim (t_end rb k s) (if live k p then rollback_handle k p else (false, p)).
Proof.
  intros s p k rb HR W Hk Hg. apply andb_true_iff in Hg. destruct Hg as [G1 G2].
  destruct (live k p) eqn:Hl.
  - apply live_close_R; auto.
  - apply dead_close_R; auto. rewrite (R_len _ _ HR). auto.
Qed.

(* the finally clause of __exit__ after a body [m] that left the with-block stack alone *)
Lemma sim_exit_fin : forall (m : M) s bp k l, sim (m s) bp -> p_ctx (snd bp) = k :: l ->
  sim (finally m (fun s1 => (Ok, upd_txn k (set_ctx_t false None) (set_ctx (outer k s1) s1))) s)
      (fst bp, set_pctx (tl (p_ctx (snd bp))) (snd bp)).
Proof.
  intros m s bp k l [A B] E. unfold finally. destruct (m s) as [r s1].
  split; [exact A|]. eapply R_exit_fin; eauto.
Qed.

Lemma sim_exit : forall s p k e, R s p -> WF s -> gstep (TExit k e) p = true ->
  let bq := if live k p then (if e then rollback_handle k p else (false, commit_handle k p)) else (false, p) in
  sim (t_exit k e s) (fst bq, set_pctx (tl (p_ctx (snd bq))) (snd bq)).
Proof.
  intros s p k e HR W Hg. cbv zeta. unfold gstep in Hg.
  destruct (p_ctx p) as [|j l] eqn:Hc; [discriminate|].
  apply andb_true_iff in Hg. destruct Hg as [Hg G3]. apply andb_true_iff in Hg. destruct Hg as [G1 G2].
  apply Nat.eqb_eq in G1. subst j.
  pose proof (R_ctx_top _ _ HR) as T. rewrite Hc in T. destruct (c_ctx s) as [k'|] eqn:Hcs; [|contradiction].
  destruct T as (-> & Hkl & Hsub).
  unfold t_exit. rewrite Hsub, Hcs. cbn [opt_is negb orb]. rewrite Nat.eqb_refl. cbn [negb].
  rewrite (R_active _ _ HR).
  destruct (live k p) eqn:Hl; [destruct e|]; cbn [negb andb].
  - (* exception: rollback *)
    apply (sim_exit_fin _ s (rollback_handle k p) k l).
    + rewrite (R_active _ _ HR), Hl. apply (live_close_R _ _ _ true HR W Hl G2).
    + unfold rollback_handle. destruct (below k (p_stack p)); cbn; auto.
  - apply (sim_exit_fin _ s (false, commit_handle k p) k l).
    + pose proof (live_commit_R _ _ _ HR W Hl G2) as X.
      destruct (t_commit k s) as [[| x |] s1]; [exact X|destruct X as [X _]; discriminate X|exact X].
    + unfold commit_handle. destruct (below k (p_stack p)); cbn; auto.
  - rewrite andb_false_r. apply (sim_exit_fin _ s (false, p) k l); [|exact Hc].
    rewrite (R_active _ _ HR), Hl. cbn [negb].
    destruct (R_not_installed _ _ _ HR Hl) as (I1 & I2 & _).
    replace (installed k s) with false by (unfold installed; destruct (is_root k s); auto).
    apply (dead_close_R s p k false HR Hkl Hl G3).
Qed.

(* every operation, by cases; an operation on a handle first checks that the handle exists *)
Lemma sim_op : forall o s p bp, R s p -> WF s -> gstep o p = true -> sstep o p = Some bp -> sim (run_op o s) bp.
Proof.
  intros o s p bp HR W Hg H. destruct o; cbn [run_op].
  7-11: unfold sstep in H; unfold gstep in Hg; destruct (k <? p_next p) eqn:Hk; [|discriminate];
    apply Nat.ltb_lt in Hk.
  all: cbn in H; inversion H; subst; clear H.
  - unfold begin. destruct (c_root s) as [r|] eqn:Hr.
    + assert (Hs : p_stack p <> []) by (intro X; apply (stack_root _ _ HR) in X; congruence).
      destruct (p_stack p); [contradiction|]. cbn. rewrite orb_true_r. apply sim_raise, HR.
    + rewrite (proj2 (stack_root _ _ HR) Hr). cbn. rewrite orb_false_r. destruct (blocked p) eqn:Hb.
      * destruct (R_blocked_new_root _ _ HR Hb) as [e ->]. apply sim_raise, HR.
      * apply sim_new_root; auto.
  - apply sim_nested, HR.
  - destruct (blocked p) eqn:Hb.
    + destruct (R_blocked_ins _ _ v HR Hb) as [e ->]. apply sim_raise, HR.
    + apply (sim_bind _ _ _ (autobegin_spec p)); [apply sim_exec_guard; auto|destruct (autobegin_spec p) as [[] q]; cbn; congruence|].
      intros s1 Hf HR1. destruct (autobegin_spec p) as [b0 q]. cbn [fst snd] in *. subst b0. apply sim_ok, R_insert, HR1.
  - unfold conn_commit. destruct (c_root s) as [r|] eqn:Hr.
    + destruct (R_root_some _ _ _ HR Hr) as (nf & rs & Hst & Hroot & _).
      unfold t_commit. rewrite Hroot, Hst. destruct nf; apply root_do_commit_R; auto.
    + rewrite (proj2 (stack_root _ _ HR) Hr). apply sim_ok, HR.
  - apply (sim_conn_rollback s p true HR W).
  - unfold conn_close.
    apply (sim_bind _ _ _ (rollback_conn p)); [apply (sim_conn_rollback s p false HR W)|destruct (rollback_conn p) as [[] q]; cbn; congruence|].
    intros s1 Hf HR1. destruct (rollback_conn p) as [b0 q] eqn:E. cbn [fst snd] in *. subst b0.
    apply sim_ok, R_set_closed; auto.
    unfold rollback_conn in E. destruct (p_stack p) eqn:Hs; inversion E; subst; auto.
  - destruct (live k p) eqn:Hl.
    + apply live_commit_R; auto.
    + destruct (R_not_installed _ _ _ HR Hl) as (_ & _ & C).
      destruct (t_commit_inactive _ _ C) as [e ->]. apply sim_raise, HR.
  - apply (sim_t_end s p k true HR W Hk Hg).
  - apply (sim_t_end s p k false HR W Hk Hg).
  - apply negb_true_iff in Hg. apply sim_ok, R_enter; auto. rewrite (R_len _ _ HR). auto.
  - apply (sim_exit s p k exc HR W Hg).
  - apply sim_ok, R_set_beginfail, HR.
  - apply sim_ok, R_set_rbfail, HR.
Qed.

Lemma R_init : R (init db_empty) (spec_init []).
Proof.
  constructor; cbn; auto; try constructor.
  - intros k Hk. lia.
  - intros k. unfold active, get. cbn. destruct k; reflexivity.
  - intros e [].
Qed.
