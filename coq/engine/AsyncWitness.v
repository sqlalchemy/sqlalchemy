(* C29 - what the single-cancellation theorems do NOT cover: a second cancellation delivered while
   terminate() waits on its shielded graceful close.  terminate() then force-closes while the graceful
   close is still running; on aiosqlite the two race (Connection.stop() is queued twice, the shielded
   task never finishes, a rollback issued meanwhile fails with "Connection closed").  The model flags
   such a run as outside its domain ([oom]). *)
From Coq Require Import List ZArith Bool Arith Lia.
Import ListNotations.
From SAV.engine Require Import Async AsyncConn AsyncExec AsyncWorld AsyncSafe.
Open Scope Z_scope.

Definition cf2 : cfg := mkcfg 2 0.
Definition w_ops : list op := [OpIns 1; OpSel].
(* eleven uneventful suspensions (connect, 3 x on-connect, cursor, BEGIN: cursor/execute/close, INSERT:
   execute/close, the cursor of the SELECT), then: cancelled in the SELECT, cancelled in terminate() *)
Definition w_cs : list cdec := repeat N 11 ++ [C true; C true].

Lemma double_cancel_outside_model :
  ncancel w_cs = 2%nat /\
  let '(r, w', _, _) := rl (block cf2 async_api SCtx w_ops (init_pst cf2)) init_world w_cs in
  fst r = Raise ECancelled /\ oom (snd r) = true.
Proof. split; [reflexivity|]. vm_compute. split; reflexivity. Qed.

(* the hypotheses of the safety theorems can be met: [cf2] and a fresh engine *)
Lemma cf2_fresh_engine : Done cf2 (init_pst cf2) init_world /\ 1 <= psize cf2.
Proof. split; [apply init_done|]; vm_compute; discriminate. Qed.
