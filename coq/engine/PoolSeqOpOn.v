(* C26 - the fairy layer.  _finalize_fairy is characterised once ([finalize_cases]); each operation on one
   fairy is walked once, for an arbitrary state predicate closed under its elementary steps ([FairyClosed],
   [CheckoutClosed]).  The invariants of the layer are instances; the first is the frame [OnFairy f]. *)
From Coq Require Import List ZArith Bool Arith Lia.
Import ListNotations.
From SAV.engine Require Import PoolSeq PoolSeqFrame.
Open Scope Z_scope.

Section OpOn.
Variable cf : cfg.

(* "connection_record.fairy_ref is not ref" *)
Definition stale_ref (gcf r : option nat) (s : st) : bool :=
  match gcf, r with
  | Some g, Some r0 => match r_fairy s r0 with
                       | Some g' => negb (Nat.eqb g g')
                       | None => true
                       end
  | _, _ => false
  end.
(* "if connection_record and connection_record.fairy_ref is not None: connection_record.checkin()" *)
Definition checkin_owned (r : option nat) (s : st) : res unit * st :=
  match r with
  | Some r0 => match r_fairy s r0 with
               | Some _ => rec_checkin cf r0 true s
               | None => (Ok tt, s)
               end
  | None => (Ok tt, s)
  end.

(* after record-level steps either close() raised a BaseException inside the error handler (first disjunct:
   taint_close, and taint_gc when run as weakref callback), or the record is checked in if still owned,
   and the fairy is cleared iff that check-in returned *)
Definition finalized (r gcf fy : option nat) (s s' : st) : Prop :=
  exists sa, RecLevel s sa /\
    ((taint_close sa = true /\ s' = match gcf with Some _ => set_taint_gc sa true | None => sa end) \/
     exists w sb, checkin_owned r sa = (w, sb) /\ s' = match w with Ok _ => clear_fairy fy sb | Raise _ => sb end).

Lemma finalize_cases : forall dbc r gcf twr fy s x s', finalize cf dbc r gcf twr fy s = (x, s') ->
  if stale_ref gcf r s then s' = s else finalized r gcf fy s s'.
Proof.
  unfold finalize; intros dbc r gcf twr fy s x s' H. fold (stale_ref gcf r s) in H.
  destruct (stale_ref gcf r s); [inv H; reflexivity|].
  match type of H with (let '(_, _) := ?e in _) = _ => destruct e as [y s1] eqn:E0 end.
  fold (checkin_owned r s1) in H.
  assert (M : (y = Ok tt /\ RecLevel s s1) \/ ((exists e, y = Raise e) /\ finalized r gcf fy s s1)).
  { match type of E0 with match ?d with _ => _ end = _ => destruct d as [c|] end; [|inv E0; left; split; [auto|rl]].
    match type of E0 with (let '(_, _) := ?e in _) = _ => destruct e as [y1 s2] eqn:E1 end.
    assert (R1 : RecLevel s s2).
    { destruct (fairy_reset cf c twr s) as [z s3] eqn:Er. apply fairy_reset_rl in Er.
      destruct z; [|inv E1; auto]. dm E1; [inv E1; auto|]. apply close_connection_rl in E1. rl. }
    destruct y1 as [|e]; [inv E0; auto|].
    match type of E0 with (let '(_, _) := ?e in _) = _ => destruct e as [z s3] eqn:E2 end.
    assert (R2 : RecLevel s s3) by (destruct r; [apply rec_invalidate_rl in E2|inv E2]; rl).
    destruct z as [|e2].
    2:{ right. split; [inv E0; eauto|]. exists s3. split; [auto|left]. split.
        - destruct r; [eapply rec_invalidate_raise; eauto|inv E2].
        - destruct gcf; inv E0; reflexivity. }
    destruct (is_exception e); [inv E0; auto|]. fold (checkin_owned r s3) in E0.
    destruct (checkin_owned r s3) as [w s4] eqn:Ec.
    right. split; [destruct w; inv E0; eauto|]. exists s3. split; [auto|right]. exists w, s4.
    split; [auto|destruct w; inv E0; reflexivity]. }
  destruct M as [[-> R]|[[e ->] F]]; [|inv H; exact F].
  destruct (checkin_owned r s1) as [w s2] eqn:Ec. exists s1. split; [auto|right]. exists w, s2.
  split; [auto|destruct w; inv H; reflexivity].
Qed.

(* any state predicate closed under the record-level steps, the taint mark, the check-in of the
   record and the clearing of the fairy survives _finalize_fairy *)
Section FinalizeInv.
Variable P : st -> Prop.
Variables r fy : option nat.
Hypothesis P_rl : forall s s', RecLevel s s' -> P s -> P s'.
Hypothesis P_taint : forall s, P s -> P (set_taint_gc s true).
Hypothesis P_checkin : forall r0 s x s', r = Some r0 -> rec_checkin cf r0 true s = (x, s') -> P s -> P s'.
Hypothesis P_clear : forall s, P s -> P (clear_fairy fy s).

Lemma finalize_inv : forall dbc gcf twr s x s', finalize cf dbc r gcf twr fy s = (x, s') -> P s -> P s'.
Proof.
  intros dbc gcf twr s x s' H HP. apply finalize_cases in H.
  destruct (stale_ref gcf r s); [subst; auto|].
  destruct H as (sa & R & [[_ ->]|(w & sb & Ec & ->)]); apply (P_rl _ _ R) in HP.
  - destruct gcf; auto.
  - assert (P sb).
    { unfold checkin_owned in Ec. destruct r as [r0|]; [|inv Ec; auto].
      destruct (r_fairy sa r0); [eapply P_checkin; eauto|inv Ec; auto]. }
    destruct w; auto.
Qed.
End FinalizeInv.

Lemma finalize_touch : forall dbc r gcf twr fy s x s', finalize cf dbc r gcf twr fy s = (x, s') ->
  Touch (fun g => fy = Some g) (fun r0 => r = Some r0) s s'.
Proof.
  intros dbc r gcf twr fy s x s' H.
  refine (finalize_inv (Touch _ _ s) r fy _ _ _ _ _ _ _ _ _ _ H (Touch_refl _ _ s)).
  - intros a b R T. eapply Touch_rl; eauto.
  - intros a T. eapply Touch_trans; [exact T|apply (Touch_ex nothing nothing a); auto| | | |]; tsub.
  - intros r0 a y b -> Hc T. apply rec_checkin_touch in Hc. touch_chain T Hc.
  - intros a T. pose proof (clear_fairy_touch nothing fy a) as T1. touch_chain T T1.
Qed.

(* Pool._invalidate: a new invalidation stamp (record level), then possibly fairy.invalidate() *)
Lemma pool_invalidate_cases : forall f chk s x s', pool_invalidate cf f chk s = (x, s') ->
  exists s1, RecLevel s s1 /\ ((x, s') = (Ok tt, s1) \/ (chk = true /\ fairy_invalidate cf f false s1 = (x, s'))).
Proof.
  unfold pool_invalidate; intros f chk s x s' H.
  match type of H with context [if ?b then (let (_, _) := now cf s in _) else s] =>
    set (s1 := if b then (let (t, s1) := now cf s in mark_all (set_inv_time s1 t)) else s) in * end.
  exists s1. split.
  - subst s1. match goal with |- RecLevel _ (if ?b then _ else _) => destruct b end; [|rl].
    destruct (now cf s) as [t s2] eqn:En. apply now_rl in En. unfold mark_all. rl.
  - destruct chk; [|auto]. dm H; auto.
Qed.

(* [P] is closed under the elementary steps of close() / invalidate() / Pool._invalidate on fairy f *)
Record FairyClosed (f : nat) (P : st -> Prop) : Prop := {
  fc_rl : forall s s', RecLevel s s' -> P s -> P s';
  fc_counter : forall s n, P s -> P (set_f_counter s (upd (f_counter s) f n));
  fc_dbc : forall s v, P s -> P (set_f_dbc s (upd (f_dbc s) f v));
  fc_checkin : forall twr s x s', fairy_checkin cf f twr s = (x, s') -> P s -> P s' }.
(* for _checkout: [Q] is kept as long as nothing fails (only record-level steps and updates of f's own
   counter and connection happen), [P] is what is left when the attempts are exhausted or an error
   handler ran *)
Record CheckoutClosed (f : nat) (P Q : st -> Prop) : Prop := {
  cc_P : forall s, Q s -> P s;
  cc_rl : forall s s', RecLevel s s' -> Q s -> Q s';
  cc_counter : forall s n, Q s -> Q (set_f_counter s (upd (f_counter s) f n));
  cc_dbc : forall s v, Q s -> Q (set_f_dbc s (upd (f_dbc s) f v));
  cc_exhausted : forall s x s', fairy_invalidate cf f false s = (x, s') -> Q s -> P s';
  cc_failed : forall r s x s', f_rec s f = Some r -> checkin_failed cf r true s = (x, s') -> Q s -> P s' }.

Section FairyOps.
Variable f : nat.
Variable P : st -> Prop.
Hypothesis PC : FairyClosed f P.
(* the fields, in the context for [auto] *)
Let P_rl := fc_rl _ _ PC.
Let P_counter := fc_counter _ _ PC.
Let P_dbc := fc_dbc _ _ PC.
Let P_checkin := fc_checkin _ _ PC.

Lemma fairy_close_inv : forall s x s', fairy_close cf f s = (x, s') -> P s -> P s'.
Proof. unfold fairy_close; intros * H HP. dm H; [eapply P_checkin; eauto|inv H; auto]. Qed.

Lemma fairy_invalidate_inv : forall soft s x s', fairy_invalidate cf f soft s = (x, s') -> P s -> P s'.
Proof.
  unfold fairy_invalidate; intros * H HP. dm H; [|inv H; auto].
  match type of H with (let '(_, _) := ?e in _) = _ => destruct e as [y s1] eqn:E0 end.
  assert (P s1) by (dm E0; [apply rec_invalidate_rl in E0; eauto|inv E0; auto]).
  destruct y; [|inv H; auto]. destruct soft; [inv H; auto|]. eapply P_checkin; eauto.
Qed.

Lemma pool_invalidate_inv : forall chk s x s', pool_invalidate cf f chk s = (x, s') -> P s -> P s'.
Proof.
  intros * H HP. apply pool_invalidate_cases in H as (s1 & R & [H|[_ H]]); apply (P_rl _ _ R) in HP.
  - inv H; auto.
  - eapply fairy_invalidate_inv; eauto.
Qed.

Variable Q : st -> Prop.
Hypothesis QC : CheckoutClosed f P Q.
Let Q_P := cc_P _ _ _ QC.
Let Q_rl := cc_rl _ _ _ QC.
Let Q_counter := cc_counter _ _ _ QC.
Let Q_dbc := cc_dbc _ _ _ QC.
Let Q_exhausted := cc_exhausted _ _ _ QC.
Let Q_failed := cc_failed _ _ _ QC.

Lemma checkout_loop_inv : forall n s x s', checkout_loop cf n f s = (x, s') -> Q s ->
  match x with Ok g => g = f /\ Q s' | Raise _ => P s' end.
Proof.
  induction n; intros s x s' H HQs; cbn [checkout_loop] in H.
  - destruct (fairy_invalidate cf f false s) as [y s1] eqn:E. eapply Q_exhausted in E; eauto.
    destruct y; inv H; auto.
  - destruct (f_rec s f) as [r|] eqn:Er; [|inv H; auto].
    destruct (f_dbc s f) as [c|] eqn:Ec; [|inv H; auto].
    match type of H with (let '(_, _) := ?e in _) = _ => destruct e as [x1 s1] eqn:E1 end.
    match type of H with (let '(_, _) := ?e in _) = _ => destruct e as [x2 s2] eqn:E2 end.
    (* pre-ping and the checkout event *)
    assert (R2 : RecLevel s s2).
    { assert (RecLevel s s1).
      { dm E1; [|inv E1; rl]. match type of E1 with context [ext_ping c ?s0] =>
          destruct (ext_ping c s0) as [z s3] eqn:Ep; apply ext_ping_rl in Ep end.
        assert (s1 = s3) by (repeat dm E1; inv E1; auto). subst s3. eapply RecLevel_trans; [|exact Ep]; rl. }
      destruct x1; [|inv E2; auto]. dm E2; [apply ext_event_rl in E2; rl|inv E2; auto]. }
    (* a handler reached from a state record-level after s, with f still linked to r *)
    assert (Fail : forall A sa y sb (x : res A) e, RecLevel s sa -> checkin_failed cf r true sa = (y, sb) ->
                     reraise_after e (y, sb) = (x, s') -> match x with Ok g => False | Raise _ => P s' end).
    { intros A sa y sb x0 e R Hc Hr. apply reraise_after_inv in Hr as [-> [e' ->]].
      eapply Q_failed; [|exact Hc|eauto]. unfold f_rec. rewrite (rl_fr _ _ R). exact Er. }
    destruct x2 as [|e]; [inv H; eauto|].
    destruct (is_disc e).
    + destruct (rec_invalidate cf r false s2) as [y3 s3] eqn:E3. apply rec_invalidate_rl in E3.
      assert (R3 : RecLevel s s3) by rl.
      destruct y3; [|inv H; eauto].
      match type of H with (let '(_, _) := ?e in _) = _ => destruct e as [y4 s4] eqn:E4 end.
      assert (R4 : RecLevel s s4).
      { dm E4; [|inv E4; auto]. apply pool_invalidate_cases in E4 as (sa & R & [E4|[? _]]); [inv E4; rl|discriminate]. }
      destruct y4; [|inv H; eauto].
      destruct (get_connection cf r s4) as [[c'|err] s5] eqn:E5; apply get_connection_rl in E5;
        assert (R5 : RecLevel s s5) by rl.
      * eapply IHn; eauto.
      * destruct (checkin_failed cf r true s5) as [y6 s6] eqn:E6.
        pose proof (Fail _ _ _ _ _ _ R5 E6 H) as F. destruct x; [destruct F|exact F].
    + assert (Fr : f_rec s2 f = Some r) by (unfold f_rec; rewrite (rl_fr _ _ R2); exact Er).
      rewrite Fr in H. destruct (checkin_failed cf r true s2) as [y6 s6] eqn:E6.
      pose proof (Fail _ _ _ _ _ _ R2 E6 H) as F. destruct x; [destruct F|exact F].
Qed.

Lemma fairy_checkout_inv : forall thr s x s', fairy_checkout cf (Some f) thr s = (x, s') -> Q s ->
  match x with Ok g => g = f /\ Q s' | Raise _ => P s' end.
Proof.
  intros thr s x s' H HQs. unfold fairy_checkout in H.
  destruct (f_rec s f); [|inv H; auto]. destruct (f_dbc s f); [|inv H; auto].
  dm H; [inv H; auto|]. eapply checkout_loop_inv; eauto.
Qed.
End FairyOps.

Lemma CheckoutClosed_same : forall f P, FairyClosed f P ->
  (forall r s x s', f_rec s f = Some r -> checkin_failed cf r true s = (x, s') -> P s -> P s') ->
  CheckoutClosed f P P.
Proof. intros f P C Hf. pose proof C as []. split; auto. apply fairy_invalidate_inv; exact C. Qed.

Definition OnFairy (f : nat) (s s' : st) : Prop := Touch (eq f) (fun r => f_rec s f = Some r) s s'.

Section OnFairyS.
Variables (f : nat) (s0 : st).
Let P (s : st) : Prop := OnFairy f s0 s.

Lemma onf_rec : forall s r, P s -> f_rec s f = Some r -> f_rec s0 f = Some r.
Proof. intros s r T H. destruct (t_rec _ _ _ _ T f) as [E|[_ E]]; congruence. Qed.
Lemma onf_rl : forall s s', RecLevel s s' -> P s -> P s'.
Proof. intros s s' R T. eapply Touch_rl; eauto. Qed.
Lemma onf_own : forall s v, nfairies_ v = nfairies s -> f_orig_ v = f_orig s -> f_dead_ v = f_dead s ->
  f_rec_ v = f_rec s -> P s -> P (set_fr s v).
Proof.
  intros s v ? ? ? E T. eapply Touch_trans; [exact T|apply (Touch_fr nothing nothing); auto; rewrite E; auto| | | |]; tsub.
Qed.
Lemma onf_closed : FairyClosed f P.
Proof.
  split; [exact onf_rl|intros; apply onf_own; auto|intros; apply onf_own; auto|].
  unfold fairy_checkin; intros twr s x s' H T. apply finalize_touch in H.
  eapply Touch_trans; [exact T|exact H| | | |]; try tsub. intros r. apply onf_rec; auto.
Qed.
Lemma onf_checkout : CheckoutClosed f P P.
Proof.
  apply CheckoutClosed_same; [exact onf_closed|].
  intros r s x s' Hr H T. apply checkin_failed_touch in H.
  eapply Touch_trans; [exact T|exact H| | | |]; try tsub. intros r' <-. eapply onf_rec; eauto.
Qed.
End OnFairyS.

Lemma fairy_close_touch : forall f s x s', fairy_close cf f s = (x, s') -> OnFairy f s s'.
Proof. intros f s x s' H. exact (fairy_close_inv f _ (onf_closed f s) _ _ _ H (Touch_refl _ _ s)). Qed.
Lemma fairy_invalidate_touch : forall f soft s x s', fairy_invalidate cf f soft s = (x, s') -> OnFairy f s s'.
Proof. intros f soft s x s' H. exact (fairy_invalidate_inv f _ (onf_closed f s) _ _ _ _ H (Touch_refl _ _ s)). Qed.
Lemma pool_invalidate_touch : forall f chk s x s', pool_invalidate cf f chk s = (x, s') -> OnFairy f s s'.
Proof. intros f chk s x s' H. exact (pool_invalidate_inv f _ (onf_closed f s) _ _ _ _ H (Touch_refl _ _ s)). Qed.
Lemma fairy_checkout_touch : forall f thr s x s', fairy_checkout cf (Some f) thr s = (x, s') ->
  OnFairy f s s' /\ match x with Ok g => g = f | Raise _ => True end.
Proof.
  intros f thr s x s' H.
  pose proof (fairy_checkout_inv f _ _ (onf_checkout f s) _ _ _ _ H (Touch_refl _ _ s)) as G.
  destruct x; [destruct G|]; auto.
Qed.

(* fairy.detach(): the record's fairy_ref is cleared first, then the record goes back to the pool, and only
   when that returns is the fairy's link dropped *)
Lemma fairy_detach_cases : forall f s x s', fairy_detach cf f s = (x, s') ->
  match f_rec s f with
  | None => s' = s
  | Some r => exists sx y s4, RecLevel (set_r_fairy s (upd (r_fairy s) r None)) sx /\
                do_return_conn cf r sx = (y, s4) /\
                s' = match y with Ok _ => set_f_rec s4 (upd (f_rec s4) f None) | Raise _ => s4 end
  end.
Proof.
  unfold fairy_detach; intros f s x s' H. destruct (f_rec s f) as [r|]; [|inv H; auto].
  match type of H with context [do_return_conn cf ?r ?s0] => destruct (do_return_conn cf r s0) as [y s4] eqn:E1 end.
  eexists _, y, s4. split; [apply detach_marks_rl|]. split; [exact E1|destruct y; inv H; reflexivity].
Qed.

Lemma fairy_detach_touch : forall f s x s', fairy_detach cf f s = (x, s') -> OnFairy f s s'.
Proof.
  unfold OnFairy; intros f s x s' H. apply fairy_detach_cases in H.
  destruct (f_rec s f) as [r|] eqn:Er; [|subst; apply Touch_refl].
  destruct H as (sx & y & s4 & R & E1 & ->). apply do_return_conn_touch in E1.
  pose proof (Touch_rl _ _ _ _ _ (Touch_clear (eq f) r s) R) as T0.
  assert (T4 : Touch (eq f) (eq r) s s4) by touch_chain T0 E1.
  destruct y; [|eapply Touch_weaken; [exact T4| |]; tsub].
  eapply Touch_trans; [exact T4|apply (Touch_fr (eq f) nothing); try reflexivity; apply upd_unlink; reflexivity| | | |]; tsub.
Qed.

Lemma Mono_set_sg : forall s s2 f, Mono s s2 -> (nfairies s <= f < nfairies s2)%nat ->
  Mono s (set_sg_fairy s2 (Some f)).
Proof.
  intros s s2 f [] Hf. constructor; auto. intros g H. cbn in H. inv H. right. exact Hf.
Qed.

Lemma fairy_checkout_first : forall thr s, fairy_checkout cf None thr s =
  match record_checkout cf s with
  | (Ok f, s1) => fairy_checkout cf (Some f) false (if thr then set_sg_fairy s1 (Some f) else s1)
  | (Raise e, s1) => (Raise e, s1)
  end.
Proof. intros. unfold fairy_checkout. destruct (record_checkout cf s) as [[f|e] s1]; reflexivity. Qed.

(* at most one fairy is made: the one handed back, or - on failure - one left to the garbage collector *)
Lemma pool_connect_spec : forall s x s', pool_connect cf s = (x, s') ->
  Mono s s' /\
  match x with
  | Ok f => (SameNF s s' /\ sg_fairy s = Some f /\ f_dead s f = false)
            \/ (f = nfairies s /\ nfairies s' = S (nfairies s) /\ f_dead s' f = false)
  | Raise _ => SameNF s s' \/ (nfairies s' = S (nfairies s) /\ f_dead s' (nfairies s) = false)
  end.
Proof.
  intros s x s' H.
  match goal with |- ?G => assert (First : forall thr, fairy_checkout cf None thr s = (x, s') -> G) end.
  { intros thr H0. rewrite fairy_checkout_first in H0.
    destruct (record_checkout cf s) as [[f|e] s1] eqn:Er; apply record_checkout_spec in Er as [M N];
      [|inv H0; auto].
    destruct N as (-> & Nn & Nd).
    set (s1' := if thr then set_sg_fairy s1 (Some (nfairies s)) else s1) in *.
    assert (M1 : Mono s s1') by (subst s1'; destruct thr; [apply Mono_set_sg; [auto|lia]|auto]).
    apply fairy_checkout_touch in H0 as [T G].
    split; [eapply Mono_trans; [exact M1|eapply Touch_Mono; exact T]|].
    destruct (t_nf _ _ _ _ T) as (N1 & _ & N3).
    assert (Nn' : nfairies s' = S (nfairies s)) by (rewrite N1; subst s1'; destruct thr; exact Nn).
    assert (Nd' : f_dead s' (nfairies s) = false) by (rewrite N3; subst s1'; destruct thr; exact Nd).
    destruct x; [subst|]; auto. }
  unfold pool_connect in H. destruct (kind cf); try exact (First _ H).
  destruct (sg_fairy s) as [f|] eqn:Es; [|exact (First _ H)].
  destruct (f_dead s f) eqn:Ed; [exact (First _ H)|].
  apply fairy_checkout_touch in H as [T E]. split; [eapply Touch_Mono; exact T|].
  destruct x; [subst; left|left]; auto using (t_nf _ _ _ _ T).
Qed.

End OpOn.
