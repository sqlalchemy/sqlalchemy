(* C10 - where the implementation leaves the list model: concrete witnesses (each is replayed on the
   real implementation on every run, see findings/C10.json) and the guard's verdict on them *)
From Coq Require Import List ZArith Bool Arith.
Import ListNotations.
From SAV.engine Require Import ResultModel ResultSpec.

Definition r20 : row := [VI 2; VI 0].
Definition r21 : row := [VI 2; VI 1].
Definition rows3 : list row := [r20; r20; r21].

(* D1: r = result.unique(); r.fetchone() -> (2,0); r.first() delivers (2,0) AGAIN (the list model: (2,1)) *)
Lemma only_one_row_ignores_seen :
  run_impl StDirect 2 rows3 [Unique KRow; FetchOne; OnlyOne First] =
    [(OUnit, false); (OItem (IRow r20), false); (OItem (IRow r20), true)] /\
  run_spec 2 rows3 [Unique KRow; FetchOne; OnlyOne First] =
    [(OUnit, false); (OItem (IRow r20), false); (OItem (IRow r21), true)].
Proof. vm_compute. split; reflexivity. Qed.
(* D1, second face: one_or_none() raises MultipleResultsFound although one de-duplicated row remains *)
Lemma one_or_none_spurious_multiple :
  run_impl StDirect 2 rows3 [Unique KRow; FetchOne; OnlyOne OneOrNone] =
    [(OUnit, false); (OItem (IRow r20), false); (OErr MultipleResultsFound, true)] /\
  run_spec 2 rows3 [Unique KRow; FetchOne; OnlyOne OneOrNone] =
    [(OUnit, false); (OItem (IRow r20), false); (OItem (IRow r21), true)].
Proof. vm_compute. split; reflexivity. Qed.
Lemma all_sequences_refuted : exists st w rows ops, run_impl st w rows ops <> run_spec w rows ops.
Proof.
  exists StDirect, 2, rows3, [Unique KRow; FetchOne; OnlyOne First].
  destruct only_one_row_ignores_seen as [-> ->]. discriminate.
Qed.
(* the same on every strategy *)
Lemma only_one_row_ignores_seen_any_strategy :
  forallb (fun st => negb (match run_impl st 2 rows3 [Unique KRow; FetchOne; OnlyOne First],
                                 run_spec 2 rows3 [Unique KRow; FetchOne; OnlyOne First] with
                           | [_; _; (OItem (IRow a), _)], [_; _; (OItem (IRow b), _)] => row_eqb a b
                           | _, _ => true end))
          [StDirect; StBuffered 1; StBuffered 2; StBuffered 1000; StFull; StIter] = true.
Proof. vm_compute. reflexivity. Qed.

(* D2: first() (one(), scalar() ...) on a CursorResult that is already exhausted does not close it:
   result.closed stays False and a later fetchone() returns None instead of raising ResourceClosedError.
   IteratorResult closes, as documented. *)
Lemma only_one_row_on_exhausted_cursor_not_closed :
  run_impl StDirect 1 [[VI 1]] [All; OnlyOne First; FetchOne] =
    [(OItems [IRow [VI 1]], false); (ONoRow, false); (ONoRow, false)] /\
  run_spec 1 [[VI 1]] [All; OnlyOne First; FetchOne] =
    [(OItems [IRow [VI 1]], false); (ONoRow, true); (OErr ResourceClosed, true)] /\
  run_impl StIter 1 [[VI 1]] [All; OnlyOne First; FetchOne] = run_spec 1 [[VI 1]] [All; OnlyOne First; FetchOne].
Proof. vm_compute. repeat split; reflexivity. Qed.
(* ... and whether it happens depends on the fetch strategy: one row left, fetchmany(2), first(), fetchone() *)
Lemma closure_depends_on_strategy :
  run_impl StDirect 1 [[VI 1]] [FetchMany (Some 2); OnlyOne First; FetchOne] =
  run_spec 1 [[VI 1]] [FetchMany (Some 2); OnlyOne First; FetchOne] /\
  run_impl (StBuffered 2) 1 [[VI 1]] [FetchMany (Some 2); OnlyOne First; FetchOne] <>
  run_spec 1 [[VI 1]] [FetchMany (Some 2); OnlyOne First; FetchOne].
Proof. vm_compute. split; [reflexivity|intros H; discriminate H]. Qed.

(* ScalarResult.unique / MappingResult.unique are @_generative (commit 386c857):
   s = result.scalars(); next(s); s.unique(); the getters memoised by the first next() are dropped, so
   next(s) and fetchmany() both de-duplicate from now on - the implementation and the list model agree *)
Lemma filter_unique_after_fetch_honoured :
  run_impl StDirect 1 [[VI 2]; [VI 2]; [VI 2]; [VI 2]] [Scalars 0; Next; Unique KRow; Next; Next; FetchMany (Some 2)] =
    [(OUnit, false); (OItem (IScalar (VI 2)), false); (OUnit, false);
     (OItem (IScalar (VI 2)), false); (OStop, false); (OItems [], false)] /\
  run_spec 1 [[VI 2]; [VI 2]; [VI 2]; [VI 2]] [Scalars 0; Next; Unique KRow; Next; Next; FetchMany (Some 2)] =
    [(OUnit, false); (OItem (IScalar (VI 2)), false); (OUnit, false);
     (OItem (IScalar (VI 2)), false); (OStop, false); (OItems [], false)].
Proof. vm_compute. split; reflexivity. Qed.

(* the guard rejects these four witnesses ... *)
Lemma guard_rejects_witnesses :
  guard StDirect 2 rows3 [Unique KRow; FetchOne; OnlyOne First] = false /\
  guard StDirect 2 rows3 [Unique KRow; FetchOne; OnlyOne OneOrNone] = false /\
  guard StDirect 1 [[VI 1]] [All; OnlyOne First; FetchOne] = false /\
  guard (StBuffered 2) 1 [[VI 1]] [FetchMany (Some 2); OnlyOne First; FetchOne] = false.
Proof. vm_compute. repeat split; reflexivity. Qed.
(* ... and accepts their neighbours: first() on a fresh uniqued result, first() on an exhausted
   IteratorResult or on a CursorResult that has not noticed the exhaustion yet, unique() on a fresh
   scalars() view, unique() on the result itself or on a scalars() view after a fetch, and a long mixed
   sequence *)
Lemma guard_accepts_neighbours :
  guard StDirect 2 rows3 [Unique KRow; OnlyOne One] = true /\
  guard StIter 1 [[VI 1]] [All; OnlyOne First; FetchOne] = true /\
  guard StDirect 1 [[VI 1]] [FetchMany (Some 2); OnlyOne First; FetchOne] = true /\
  guard StDirect 1 [[VI 2]; [VI 2]; [VI 2]] [Scalars 0; Unique KRow; Next; Next] = true /\
  guard StDirect 1 [[VI 2]; [VI 2]; [VI 2]; [VI 2]] [Scalars 0; Next; Unique KRow; Next; Next; FetchMany (Some 2)] = true /\
  guard StDirect 2 rows3 [FetchOne; Unique KRow; FetchOne; FetchOne] = true /\
  guard (StBuffered 2) 2 (rows3 ++ rows3 ++ [[VI 0; VI 0]])
    [YieldPer 3; Unique KFirst; FetchMany None; Mappings; Columns [1; 0]; Partitions (Some 1) 2; ToRoot;
     IterFor 2; Scalars 1; Unique KRow; FetchMany (Some 2); Freeze; OnlyOne ScalarOne; Close; All] = true.
Proof. vm_compute. repeat split; reflexivity. Qed.

(* why fetchmany()/partitions() without a size and without yield_per is outside the property: the chunk is
   whatever the strategy does by default (cursor.arraysize = 1 on sqlite3; everything when buffering) *)
Lemma sizeless_chunk_is_strategy_specific :
  run_impl StDirect 1 [[VI 1]; [VI 2]; [VI 3]] [FetchMany None] = [(OItems [IRow [VI 1]], false)] /\
  run_impl (StBuffered 5) 1 [[VI 1]; [VI 2]; [VI 3]] [FetchMany None] =
    [(OItems [IRow [VI 1]; IRow [VI 2]; IRow [VI 3]], false)] /\
  run_impl StDirect 1 [[VI 1]; [VI 1]; [VI 3]] [Unique KRow; FetchMany None] = [(OUnit, false); (OItems [IRow [VI 1]], false)] /\
  run_impl StDirect 1 [[VI 1]; [VI 2]; [VI 3]] [YieldPer 2; FetchMany None] =
    [(OUnit, false); (OItems [IRow [VI 1]; IRow [VI 2]], false)].
Proof. vm_compute. repeat split; reflexivity. Qed.
