(* C29 - the greenlet trampoline of lib/sqlalchemy/util/concurrency.py (greenlet_spawn / await_) over
   resumption trees.

   A piece of SYNC code that performs DBAPI calls through an asyncio driver adapter is a resumption
   tree: it either returns ([Ret]), or it is suspended in [await_(awaitable)] ([Await i k]: the
   greenlet switched to its parent handing over the awaitable [i]; [k] is the rest of the greenlet,
   resumed with the value ([context.switch(value)]) or the exception ([context.throw(...)]) the
   awaitable produced), or - user level only - it is at an [asyncio.shield(create_task(inner))]
   ([Shield inner k]).

   * [run_sync]   : the sync facade - every awaitable is an ordinary blocking DBAPI call.
   * [greenlet_spawn] : the driver loop of greenlet_spawn as written (switch_occurred /
     _require_await included), as a tree transformer: what the COROUTINE awaits.
   * [run_loop]   : the event loop running a coroutine, with a stream of cancellation decisions, one
     per suspension: [N] no cancellation, [C eff] a CancelledError is delivered at this suspension and
     the request already handed to the driver does ([eff = true], aiosqlite: it is queued on the
     connection thread) or does not take effect.
   Trusted: the greenlet C extension implements switch/throw as "resume the continuation"; the event
   loop delivers a cancellation at a suspension point of the task. *)
From Coq Require Import List Bool Arith Lia.
Import ListNotations.

Inductive cdec := N | C (eff : bool).

(* trace entries of the event loop: a request of the task itself (with: cancelled here), a request
   made by a shielded inner task, the task's suspension on a shield's outer future *)
Inductive ev (IO : Type) := EvAwait (i : IO) (c : bool) | EvInner (i : IO) | EvShield (c : bool).
Arguments EvAwait {IO} i c.
Arguments EvInner {IO} i.
Arguments EvShield {IO} c.
Definition inner_ev {IO} (e : ev IO) : list (ev IO) :=
  match e with EvAwait i _ => [EvInner i] | EvInner i => [EvInner i] | EvShield _ => [] end.
Definition ev_io {IO} (e : ev IO) : list IO :=
  match e with EvAwait i _ => [i] | EvInner i => [i] | EvShield _ => [] end.
Definition ev_uncancelled {IO} (e : ev IO) : Prop :=
  match e with EvAwait _ c => c = false | EvInner _ => True | EvShield c => c = false end.

Definition quiet (cs : list cdec) : Prop := Forall (fun d => d = N) cs.
Fixpoint ncancel (cs : list cdec) : nat :=
  match cs with [] => 0 | N :: r => ncancel r | C _ :: r => S (ncancel r) end.
Definition single (cs : list cdec) : Prop := ncancel cs <= 1.

(* the decision that applies at a suspension, and the rest of the stream: an exhausted stream holds no
   cancellation; a call that does not suspend the task cannot be cancelled and consumes no decision *)
Definition next (susp : bool) (cs : list cdec) : cdec * list cdec :=
  if susp then match cs with d :: r => (d, r) | [] => (N, []) end else (N, cs).
Definition cancels (d : cdec) : bool := match d with C _ => true | N => false end.

Lemma quiet_tail d cs : quiet (d :: cs) -> d = N /\ quiet cs.
Proof. intros H; inversion H; auto. Qed.
Lemma ncancel0_quiet cs : ncancel cs = 0 -> quiet cs.
Proof.
  induction cs as [|[|e] cs IH]; cbn; intros H.
  - constructor.
  - constructor; auto.
    apply IH; exact H.
  - discriminate.
Qed.
Lemma quiet_ncancel0 cs : quiet cs -> ncancel cs = 0.
Proof. induction 1; cbn; subst; auto. Qed.
Lemma next_quiet b cs : quiet cs -> fst (next b cs) = N /\ quiet (snd (next b cs)).
Proof. unfold next. destruct b; [destruct cs as [|d r]|]; cbn; auto using quiet_tail. Qed.
Lemma next_ncancel b cs : ncancel cs = ncancel (snd (next b cs)) + (if cancels (fst (next b cs)) then 1 else 0).
Proof. unfold next. destruct b; [destruct cs as [|[|eff] r]|]; cbn; lia. Qed.

Section Tramp.
  Variables (IO V E W R : Type).
  Variable step : W -> IO -> (V + E) * W.        (* the driver: value or exception, new world *)
  Variable cancel_step : W -> IO -> W.           (* world after a cancelled request that still takes effect *)
  Variable suspends : IO -> bool.                (* false: the adapter call completes without suspending the task *)
  Variable cancelled : E.                        (* asyncio.CancelledError *)
  Variable no_await : R -> R.                    (* a normal return turned into "raise AwaitRequired" *)

  Inductive prog : Type :=
  | Ret (r : R)
  | Await (i : IO) (k : V + E -> prog)
  | Shield (inner : prog) (k : bool -> R -> prog).

  Fixpoint bind (p : prog) (f : R -> prog) : prog :=
    match p with
    | Ret r => f r
    | Await i k => Await i (fun x => bind (k x) f)
    | Shield inner k => Shield inner (fun c r => bind (k c r) f)
    end.

  (* extensional equality of trees (continuations are functions) *)
  Inductive peq : prog -> prog -> Prop :=
  | peq_ret r : peq (Ret r) (Ret r)
  | peq_await i k k' : (forall x, peq (k x) (k' x)) -> peq (Await i k) (Await i k')
  | peq_shield p p' k k' : peq p p' -> (forall c r, peq (k c r) (k' c r)) -> peq (Shield p k) (Shield p' k').

  (* the sync facade: plain blocking calls, in order; a shield is just a call *)
  Fixpoint run_sync (p : prog) (w : W) : R * W * list IO :=
    match p with
    | Ret r => (r, w, [])
    | Await i k =>
        let '(x, w1) := step w i in
        let '(r, w2, t) := run_sync (k x) w1 in (r, w2, i :: t)
    | Shield inner k =>
        let '(r1, w1, t1) := run_sync inner w in
        let '(r, w2, t2) := run_sync (k false r1) w1 in (r, w2, t1 ++ t2)
    end.

  (* greenlet_spawn:
       result = context.switch(args)
       while not context.dead:
           switch_occurred = True
           try:    value = await result
           except BaseException: result = context.throw(exc_info)
           else:   result = context.switch(value)
       if _require_await and not switch_occurred: raise exc.AwaitRequired(...)
       return result
     [g] is the state of the greenlet after the last switch/throw: dead with a result ([Ret]; an
     exception escaping the greenlet is re-raised by switch/throw in the parent, i.e. it IS the
     result of the coroutine), or suspended in await_ with the awaitable [i].  Code running inside a
     greenlet never shields at this level ([Shield] is user-level); it is passed through. *)
  Fixpoint spawn_loop (require switch_occurred : bool) (g : prog) : prog :=
    match g with
    | Ret r => if require && negb switch_occurred then Ret (no_await r) else Ret r
    | Await i k =>
        Await i (fun x =>
          match x with
          | inl value => spawn_loop require true (k (inl value))    (* context.switch(value) *)
          | inr e => spawn_loop require true (k (inr e))            (* context.throw(e) *)
          end)
    | Shield inner k => Shield inner (fun c r => spawn_loop require true (k c r))
    end.
  Definition greenlet_spawn (require : bool) (fn : prog) : prog := spawn_loop require false fn.

  (* [p] does not return at once: it starts with an await (or a shield), so every run goes through a switch *)
  Definition switches (p : prog) : Prop := match p with Ret _ => False | _ => True end.

  (* the event loop with cancellation decisions.
     Result: final value, world, unconsumed decisions, trace (see [ev]) *)
  Fixpoint run_loop (p : prog) (w : W) (cs : list cdec) : R * W * list cdec * list (ev IO) :=
    match p with
    | Ret r => (r, w, cs, [])
    | Await i k =>
        if suspends i then
          match cs with
          | C eff :: cs1 =>
              let w1 := if eff then cancel_step w i else w in
              let '(r, w2, cs2, t) := run_loop (k (inr cancelled)) w1 cs1 in (r, w2, cs2, EvAwait i true :: t)
          | N :: cs1 =>
              let '(x, w1) := step w i in
              let '(r, w2, cs2, t) := run_loop (k x) w1 cs1 in (r, w2, cs2, EvAwait i false :: t)
          | [] =>
              let '(x, w1) := step w i in
              let '(r, w2, cs2, t) := run_loop (k x) w1 [] in (r, w2, cs2, EvAwait i false :: t)
          end
        else
          let '(x, w1) := step w i in
          let '(r, w2, cs2, t) := run_loop (k x) w1 cs in (r, w2, cs2, EvAwait i false :: t)
    | Shield inner k =>
        (* the inner task is not the cancelled task: it always runs to completion; the outer task is
           suspended ONCE on the shield's outer future *)
        let '(r1, w1, _, t1) := run_loop inner w [] in
        match cs with
        | C _ :: cs1 =>
            let '(r, w2, cs2, t2) := run_loop (k true r1) w1 cs1 in (r, w2, cs2, flat_map inner_ev t1 ++ EvShield true :: t2)
        | N :: cs1 =>
            let '(r, w2, cs2, t2) := run_loop (k false r1) w1 cs1 in (r, w2, cs2, flat_map inner_ev t1 ++ EvShield false :: t2)
        | [] =>
            let '(r, w2, cs2, t2) := run_loop (k false r1) w1 [] in (r, w2, cs2, flat_map inner_ev t1 ++ EvShield false :: t2)
        end
    end.

  Lemma peq_refl p : peq p p.
  Proof. induction p; constructor; auto. Qed.

  Lemma peq_sym p q : peq p q -> peq q p.
  Proof. induction 1; constructor; auto. Qed.

  Lemma peq_trans p q : peq p q -> forall r, peq q r -> peq p r.
  Proof.
    induction 1; intros r0 H2; inversion H2; subst; constructor; auto.
  Qed.

  Lemma peq_bind p p' f f' : peq p p' -> (forall r, peq (f r) (f' r)) -> peq (bind p f) (bind p' f').
  Proof. induction 1; intros Hf; cbn; auto; constructor; auto. Qed.

  Lemma spawn_loop_switched req g : peq (spawn_loop req true g) g.
  Proof.
    induction g; cbn.
    - rewrite andb_false_r. constructor.
    - constructor. intros [v | e]; auto.
    - constructor; auto using peq_refl.
  Qed.

  (* greenlet_spawn is the identity on resumption trees, unless _require_await turns a return without
     any await into AwaitRequired *)
  Lemma spawn_peq req g : (req = true -> forall r, g = Ret r -> no_await r = r) -> peq (greenlet_spawn req g) g.
  Proof.
    intros H. unfold greenlet_spawn. destruct g; cbn.
    - destruct req; cbn; [rewrite (H eq_refl r eq_refl)|]; constructor.
    - constructor. intros [v | e]; apply spawn_loop_switched.
    - constructor; auto using peq_refl. intros; apply spawn_loop_switched.
  Qed.
  Lemma spawn_transparent g : peq (greenlet_spawn false g) g.
  Proof. apply spawn_peq. discriminate. Qed.
  (* with _require_await: code that awaits at least once, or that ends in an exception before any await *)
  Lemma spawn_transparent_require g : switches g -> peq (greenlet_spawn true g) g.
  Proof. intros Hs. apply spawn_peq. intros _ r ->. destruct Hs. Qed.
  Lemma spawn_transparent_fix g : (forall r, g = Ret r -> no_await r = r) -> peq (greenlet_spawn true g) g.
  Proof. intros H. apply spawn_peq. auto. Qed.

  (* the only other case: the function returned without ever awaiting -> AwaitRequired *)
  Lemma spawn_require_no_switch r : greenlet_spawn true (Ret r) = Ret (no_await r).
  Proof. reflexivity. Qed.

  Lemma run_sync_peq p q : peq p q -> forall w, run_sync p w = run_sync q w.
  Proof.
    induction 1; intros w; cbn; auto.
    - destruct (step w i) as [x w1]. rewrite H0. reflexivity.
    - rewrite IHpeq. destruct (run_sync p' w) as [[r1 w1] t1]. rewrite H1. reflexivity.
  Qed.

  (* [run_loop] at a suspension, whatever the stream looks like *)
  Lemma run_loop_await i k w cs :
    run_loop (Await i k) w cs =
    let '(d, cs1) := next (suspends i) cs in
    let '(x, w1) := match d with C eff => (inr cancelled, if eff then cancel_step w i else w) | N => step w i end in
    let '(r, w2, cs2, t) := run_loop (k x) w1 cs1 in (r, w2, cs2, EvAwait i (cancels d) :: t).
  Proof.
    cbn. unfold next. destruct (suspends i); [destruct cs as [|[|eff] cs1]|]; cbn; try destruct (step w i); reflexivity.
  Qed.
  Lemma run_loop_shield inner k w cs :
    run_loop (Shield inner k) w cs =
    let '(r1, w1, _, t1) := run_loop inner w [] in
    let '(d, cs1) := next true cs in
    let '(r, w2, cs2, t2) := run_loop (k (cancels d) r1) w1 cs1 in
    (r, w2, cs2, flat_map inner_ev t1 ++ EvShield (cancels d) :: t2).
  Proof. cbn. destruct (run_loop inner w []) as [[[r1 w1] c1] t1]. destruct cs as [|[|eff] cs1]; reflexivity. Qed.

  Lemma run_loop_peq p q : peq p q -> forall w cs, run_loop p w cs = run_loop q w cs.
  Proof.
    induction 1; intros w cs; auto.
    - rewrite !run_loop_await. destruct (next (suspends i) cs) as [d cs1].
      destruct (match d with C eff => _ | N => _ end) as [x w1]. rewrite H0. reflexivity.
    - rewrite !run_loop_shield, IHpeq. destruct (run_loop p' w []) as [[[r1 w1] c1] t1].
      destruct (next true cs) as [d cs1]. rewrite H1. reflexivity.
  Qed.

  (* the requests of a shielded inner task are requests like any other, none of them cancelled *)
  Lemma inner_ev_io (t : list (ev IO)) :
    flat_map ev_io (flat_map inner_ev t) = flat_map ev_io t /\ Forall ev_uncancelled (flat_map inner_ev t).
  Proof.
    induction t as [|e t [IH1 IH2]]; cbn; [split; [reflexivity|constructor]|].
    destruct e; cbn; rewrite ?IH1; split; auto; constructor; cbn; auto.
  Qed.

  (* without cancellation the event loop performs exactly the sync run: same result, same world,
     same awaitables in the same order, none cancelled *)
  Lemma run_loop_quiet p : forall w cs, quiet cs ->
    let '(r, w', cs', t) := run_loop p w cs in
    run_sync p w = (r, w', flat_map ev_io t) /\ quiet cs' /\ Forall ev_uncancelled t.
  Proof.
    induction p as [r | i k IH | inner IHi k IHk]; intros w cs Hq.
    - cbn. repeat split; auto.
    - rewrite run_loop_await. destruct (next_quiet (suspends i) cs Hq) as [Hd Hq1].
      destruct (next (suspends i) cs) as [d cs1]. cbn in Hd, Hq1. subst d. cbn [run_sync cancels].
      destruct (step w i) as [x w1]. specialize (IH x w1 cs1 Hq1).
      destruct (run_loop (k x) w1 cs1) as [[[r w2] cs2] t]. destruct IH as (E1 & Q & F).
      rewrite E1. cbn. repeat split; auto. constructor; cbn; auto.
    - rewrite run_loop_shield. specialize (IHi w [] (Forall_nil _)). cbn [run_sync].
      destruct (run_loop inner w []) as [[[r1 w1] c1] t1]. destruct IHi as (E1 & _ & F1). rewrite E1.
      destruct (next_quiet true cs Hq) as [Hd Hq1]. destruct (next true cs) as [d cs1]. cbn in Hd, Hq1. subst d. cbn [cancels].
      specialize (IHk false r1 w1 cs1 Hq1). destruct (run_loop (k false r1) w1 cs1) as [[[r w2] cs2] t2].
      destruct IHk as (E2 & Q & F2). destruct (inner_ev_io t1) as [Hi1 Hi2].
      rewrite E2, flat_map_app, Hi1. cbn. repeat split; auto.
      apply Forall_app; split; auto. constructor; cbn; auto.
  Qed.

  (* C29, first half: a coroutine that wraps sync code in greenlet_spawn, run by the event loop
     without cancellation, is indistinguishable from calling the sync code directly *)
  Theorem trampoline_transparent (fn : prog) (w : W) :
    let '(r, w', _, t) := run_loop (greenlet_spawn false fn) w [] in
    run_sync fn w = (r, w', flat_map ev_io t) /\ Forall ev_uncancelled t.
  Proof.
    rewrite (run_loop_peq _ _ (spawn_transparent fn)).
    pose proof (run_loop_quiet fn w [] (Forall_nil _)) as H.
    destruct (run_loop fn w []) as [[[r w'] cs'] t]. tauto.
  Qed.

  Theorem trampoline_transparent_require (fn : prog) (w : W) : switches fn ->
    let '(r, w', _, t) := run_loop (greenlet_spawn true fn) w [] in
    run_sync fn w = (r, w', flat_map ev_io t) /\ Forall ev_uncancelled t.
  Proof.
    intros Hs. rewrite (run_loop_peq _ _ (spawn_transparent_require fn Hs)).
    pose proof (run_loop_quiet fn w [] (Forall_nil _)) as H.
    destruct (run_loop fn w []) as [[[r w'] cs'] t]. tauto.
  Qed.

  Lemma run_loop_bind p f : forall w cs,
    run_loop (bind p f) w cs =
    let '(r1, w1, cs1, t1) := run_loop p w cs in
    let '(r, w2, cs2, t2) := run_loop (f r1) w1 cs1 in (r, w2, cs2, t1 ++ t2).
  Proof.
    induction p as [r | i k IH | inner IHi k IHk]; intros w cs; cbn [bind].
    - cbn. destruct (run_loop (f r) w cs) as [[[r2 w2] cs2] t2]. reflexivity.
    - rewrite !run_loop_await. destruct (next (suspends i) cs) as [d cs1].
      destruct (match d with C eff => _ | N => _ end) as [x w1]. rewrite IH.
      destruct (run_loop (k x) w1 cs1) as [[[r1 w2] cs2] t1].
      destruct (run_loop (f r1) w2 cs2) as [[[r3 w3] cs3] t3]. reflexivity.
    - rewrite !run_loop_shield. destruct (run_loop inner w []) as [[[r1 w1] c1] t1].
      destruct (next true cs) as [d cs1]. rewrite IHk.
      destruct (run_loop (k (cancels d) r1) w1 cs1) as [[[r2 w2] cs2] t2].
      destruct (run_loop (f r2) w2 cs2) as [[[r3 w3] cs3] t3]. rewrite <- app_assoc. reflexivity.
  Qed.

  (* sync-equivalence: the same blocking run from every world.  It contains [peq], is a congruence
     for [bind], and identifies a shield with the plain call *)
  Definition seqv (p q : prog) : Prop := forall w, run_sync p w = run_sync q w.

  Lemma run_sync_bind p f : forall w,
    run_sync (bind p f) w =
    let '(r1, w1, t1) := run_sync p w in
    let '(r, w2, t2) := run_sync (f r1) w1 in (r, w2, t1 ++ t2).
  Proof.
    induction p as [r | i k IH | inner IHi k IHk]; intros w; cbn.
    - destruct (run_sync (f r) w) as [[r2 w2] t2]. reflexivity.
    - destruct (step w i) as [x w1]. rewrite IH.
      destruct (run_sync (k x) w1) as [[r1 w2] t1]. destruct (run_sync (f r1) w2) as [[r3 w3] t3]. reflexivity.
    - destruct (run_sync inner w) as [[r1 w1] t1]. rewrite IHk.
      destruct (run_sync (k false r1) w1) as [[r2 w2] t2]. destruct (run_sync (f r2) w2) as [[r3 w3] t3].
      rewrite app_assoc. reflexivity.
  Qed.

  Lemma seqv_refl p : seqv p p.
  Proof. intros w; reflexivity. Qed.
  Lemma seqv_trans p q r : seqv p q -> seqv q r -> seqv p r.
  Proof. intros A B w. rewrite A. apply B. Qed.
  Lemma peq_seqv p q : peq p q -> seqv p q.
  Proof. intros H w. apply run_sync_peq; auto. Qed.
  Lemma seqv_bind p p' f f' : seqv p p' -> (forall r, seqv (f r) (f' r)) -> seqv (bind p f) (bind p' f').
  Proof.
    intros A B w. rewrite !run_sync_bind, A. destruct (run_sync p' w) as [[r1 w1] t1]. rewrite B. reflexivity.
  Qed.
  Lemma seqv_shield inner inner' k k' :
    seqv inner inner' -> (forall r, seqv (k false r) (k' r)) -> seqv (Shield inner k) (bind inner' k').
  Proof.
    intros A B w. cbn. rewrite run_sync_bind, A. destruct (run_sync inner' w) as [[r1 w1] t1]. rewrite B. reflexivity.
  Qed.

  (* no cancellation out of thin air:
     [bad r]: the result [r] is "CancelledError raised".  A tree is [nc_safe] when it can only end badly
     after the event loop handed it a cancellation (at an await or at a shield) *)
  Variable bad : R -> Prop.
  Inductive nc_safe : prog -> Prop :=
  | nc_ret r : ~ bad r -> nc_safe (Ret r)
  | nc_await i k : (forall x, x <> inr cancelled -> nc_safe (k x)) -> nc_safe (Await i k)
  | nc_shield inner k : nc_safe inner -> (forall r, ~ bad r -> nc_safe (k false r)) -> nc_safe (Shield inner k).

  Lemma nc_bind p f : nc_safe p -> (forall r, ~ bad r -> nc_safe (f r)) -> nc_safe (bind p f).
  Proof.
    induction 1; intros Hf; cbn.
    - auto.
    - constructor. auto.
    - constructor; auto.
  Qed.

  Lemma nc_peq p q : peq p q -> nc_safe p -> nc_safe q.
  Proof.
    induction 1; intros Hn; inversion Hn; subst; constructor; auto.
  Qed.

  Lemma nc_run p : nc_safe p -> (forall w i, fst (step w i) <> inr cancelled) ->
    forall w cs, quiet cs -> let '(r, _, _, _) := run_loop p w cs in ~ bad r.
  Proof.
    intros Hn Hstep. induction Hn as [r Hr | i k Hk IH | inner k Hi IHi Hk IHk]; intros w cs Hq.
    - exact Hr.
    - rewrite run_loop_await. destruct (next_quiet (suspends i) cs Hq) as [Hd Hq1].
      destruct (next (suspends i) cs) as [d cs1]. cbn in Hd, Hq1. subst d.
      pose proof (Hstep w i) as Hs. destruct (step w i) as [x w1]. cbn in Hs.
      specialize (IH x Hs w1 cs1 Hq1). destruct (run_loop (k x) w1 cs1) as [[[r w2] cs2] t]. exact IH.
    - rewrite run_loop_shield. specialize (IHi w [] (Forall_nil _)). destruct (run_loop inner w []) as [[[r1 w1] c1] t1].
      destruct (next_quiet true cs Hq) as [Hd Hq1]. destruct (next true cs) as [d cs1]. cbn in Hd, Hq1. subst d. cbn [cancels].
      specialize (IHk r1 IHi w1 cs1 Hq1). destruct (run_loop (k false r1) w1 cs1) as [[[r w2] cs2] t2]. exact IHk.
  Qed.

  (* the decisions left over never contain more cancellations than the ones supplied *)
  Lemma run_loop_ncancel p : forall w cs,
    let '(_, _, cs', _) := run_loop p w cs in ncancel cs' <= ncancel cs.
  Proof.
    induction p as [r | i k IH | inner IHi k IHk]; intros w cs.
    - cbn. lia.
    - rewrite run_loop_await, (next_ncancel (suspends i) cs). destruct (next (suspends i) cs) as [d cs1].
      destruct (match d with C eff => _ | N => _ end) as [x w1]. specialize (IH x w1 cs1).
      destruct (run_loop (k x) w1 cs1) as [[[r w2] cs2] t]. cbn [fst snd]. lia.
    - rewrite run_loop_shield, (next_ncancel true cs). destruct (run_loop inner w []) as [[[r1 w1] c1] t1].
      destruct (next true cs) as [d cs1]. specialize (IHk (cancels d) r1 w1 cs1).
      destruct (run_loop (k (cancels d) r1) w1 cs1) as [[[r w2] cs2] t]. cbn [fst snd]. lia.
  Qed.
End Tramp.

Arguments Ret {IO V E R} r.
Arguments Await {IO V E R} i k.
Arguments Shield {IO V E R} inner k.
Arguments bind {IO V E R} p f.
Arguments peq {IO V E R} _ _.
Arguments run_sync {IO V E W R} step p w.
Arguments run_loop {IO V E W R} step cancel_step suspends cancelled p w cs.
Arguments spawn_loop {IO V E R} no_await require switch_occurred g.
Arguments greenlet_spawn {IO V E R} no_await require fn.
Arguments switches {IO V E R} p.
Arguments seqv {IO V E W R} step p q.
Arguments nc_safe {IO V E R} cancelled bad _.
