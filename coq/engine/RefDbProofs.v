(* Laws of the reference database (RefDb.v): what each command does to the committed data, the
   working data and the savepoint stack, and when ROLLBACK TO / RELEASE are rejected. *)
From Coq Require Import List ZArith NArith Bool.
Import ListNotations.
From SAV.engine Require Import RefDb.

Lemma drop_to_none : forall n s, drop_to n s = None <-> existsb (fun e => N.eqb (fst e) n) s = false.
Proof.
  induction s as [|[m snap] s IH]; cbn; [tauto|].
  destruct (N.eqb m n); cbn; [split; discriminate|exact IH].
Qed.

Lemma drop_to_some_cons : forall n s r, drop_to n s = Some r -> exists snap r', r = (n, snap) :: r'.
Proof.
  induction s as [|[m snap] s IH]; cbn; intros r H; [discriminate|].
  destruct (N.eqb_spec m n); [inversion H; subst; eauto|auto].
Qed.

(* ROLLBACK TO / RELEASE are rejected exactly when the savepoint stack has no such name *)
Theorem rollback_to_rejected_iff : forall d n, exec_cmd d (RollbackTo n) = None <-> has_save n d = false.
Proof.
  intros d n. unfold has_save. rewrite <- drop_to_none. cbn.
  destruct (drop_to n (saves d)) as [r|] eqn:E; [|tauto].
  destruct (drop_to_some_cons _ _ _ E) as (snap & r' & ->). split; discriminate.
Qed.
Theorem release_rejected_iff : forall d n, exec_cmd d (Release n) = None <-> has_save n d = false.
Proof.
  intros d n. unfold has_save. rewrite <- drop_to_none. cbn.
  destruct (drop_to n (saves d)) as [r|] eqn:E; [|tauto].
  destruct (drop_to_some_cons _ _ _ E) as (snap & r' & ->). split; discriminate.
Qed.

(* SAVEPOINT n ; (any work) ; ROLLBACK TO n  restores the work of the moment of the savepoint,
   keeps the savepoint and never touches the committed data *)
Theorem savepoint_rollback_to : forall d n w',
  exec_cmd (mkDb (committed d) w' ((n, work d) :: saves d)) (RollbackTo n) =
  Some (mkDb (committed d) (work d) ((n, work d) :: saves d)).
Proof. intros. cbn. rewrite N.eqb_refl. reflexivity. Qed.

(* SAVEPOINT n ; (any work) ; RELEASE n  keeps the work and removes the savepoint *)
Theorem savepoint_release : forall d n w',
  exec_cmd (mkDb (committed d) w' ((n, work d) :: saves d)) (Release n) =
  Some (mkDb (committed d) w' (saves d)).
Proof. intros. cbn. rewrite N.eqb_refl. reflexivity. Qed.

(* ROLLBACK TO / RELEASE of an outer savepoint discard the inner ones *)
Theorem outer_discards_inner : forall d n m sn sm, n <> m ->
  exec_cmd (mkDb (committed d) (work d) ((m, sm) :: (n, sn) :: saves d)) (RollbackTo n) =
    Some (mkDb (committed d) sn ((n, sn) :: saves d)) /\
  exec_cmd (mkDb (committed d) (work d) ((m, sm) :: (n, sn) :: saves d)) (Release n) =
    Some (mkDb (committed d) (work d) (saves d)).
Proof.
  intros. cbn. rewrite (proj2 (N.eqb_neq m n)) by congruence. rewrite N.eqb_refl. auto.
Qed.

Theorem commit_publishes : forall d, exec_cmd d Commit = Some (mkDb (work d) (work d) []).
Proof. reflexivity. Qed.
Theorem rollback_restores : forall d, exec_cmd d Rollback = Some (mkDb (committed d) (committed d) []).
Proof. reflexivity. Qed.
Theorem begin_is_marker : forall d, exec_cmd d Begin = Some d.
Proof. reflexivity. Qed.

(* only COMMIT changes what other connections see *)
Theorem committed_changes_only_by_commit : forall d c d', exec_cmd d c = Some d' -> c <> Commit ->
  committed d' = committed d.
Proof.
  intros d c d' H Hc. destruct c; cbn in H; try (inversion H; reflexivity); try contradiction.
  - destruct (drop_to n (saves d)) as [[|[m snap] r]|]; inversion H; reflexivity.
  - destruct (drop_to n (saves d)) as [[|e r]|]; inversion H; reflexivity.
Qed.

Theorem exec_all_app : forall cs1 cs2 d,
  exec_all d (cs1 ++ cs2) = match exec_all d cs1 with Some d' => exec_all d' cs2 | None => None end.
Proof.
  induction cs1; intros; cbn; [reflexivity|]. destruct (exec_cmd d a); [apply IHcs1|reflexivity].
Qed.

Lemma tbl_get_insert : forall t r ts, tbl_get t (tbl_insert t r ts) = tbl_get t ts ++ [r].
Proof.
  induction ts as [|[u rows] ts IH]; cbn.
  - rewrite N.eqb_refl. reflexivity.
  - destruct (N.eqb_spec u t); cbn.
    + subst. rewrite N.eqb_refl. reflexivity.
    + rewrite (proj2 (N.eqb_neq u t)) by auto. exact IH.
Qed.
Theorem insert_visible_after_commit : forall d t r d1,
  exec_cmd (db_insert t r d) Commit = Some d1 -> visible t d1 = current t d ++ [r].
Proof. intros d t r d1 H. cbn in H. inversion H; subst. unfold visible, current. cbn. apply tbl_get_insert. Qed.
Theorem delete_all_empties : forall d t, current t (db_delete_all t d) = [].
Proof.
  intros. unfold current, db_delete_all. cbn. induction (work d) as [|[u rows] ts IH]; cbn; [reflexivity|].
  destruct (N.eqb_spec u t); cbn; [exact IH|]. rewrite (proj2 (N.eqb_neq u t)) by auto. exact IH.
Qed.
