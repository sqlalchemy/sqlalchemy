(* C26 - QueuePool accounting: inc/dec of the overflow counter balance on every path.
   The invariant [Acc] speaks of four components only (the queue, the overflow counter, the number of
   records, the fairy_refs); each thing the pool does to them is one elementary move, proved on the
   components alone; the lemmas about the pool's functions then say which moves a function makes. *)
From Coq Require Import List ZArith Bool Arith Lia.
Import ListNotations.
From SAV.engine Require Import PoolSeq PoolSeqFrame.
Open Scope Z_scope.

Lemma count_upto_ext : forall p p' n, (forall k, (k < n)%nat -> p k = p' k) -> count_upto p n = count_upto p' n.
Proof. induction n; intros H; cbn; auto. rewrite (H n) by lia. rewrite IHn; auto. Qed.

(* [in_use s] is [has (r_fairy s)] *)
Definition has (m : nat -> option nat) (k : nat) : bool := match m k with Some _ => true | None => false end.
Definition flz (o : option nat) : Z := match o with Some _ => 1 | None => 0 end.

Lemma count_upto_upd : forall (m : nat -> option nat) n r v, (r < n)%nat ->
  Z.of_nat (count_upto (has (upd m r v)) n) = Z.of_nat (count_upto (has m) n) - flz (m r) + flz v.
Proof.
  induction n; intros r v H; [lia|]. cbn [count_upto].
  destruct (Nat.eq_dec r n).
  - subst. rewrite (count_upto_ext (has (upd m n v)) (has m) n)
      by (intros k Hk; unfold has; rewrite upd_other by lia; reflexivity).
    unfold has. rewrite upd_same. destruct (m n), v; cbn [flz]; lia.
  - rewrite !Nat2Z.inj_add, IHn by lia. unfold has. rewrite upd_other by lia. lia.
Qed.
Lemma count_upto_new : forall (m : nat -> option nat) n, count_upto (has (upd m n None)) (S n) = count_upto (has m) n.
Proof.
  intros. cbn [count_upto]. unfold has at 1. rewrite upd_same.
  apply count_upto_ext. intros k Hk. unfold has. rewrite upd_other by lia. reflexivity.
Qed.

Lemma NoDup_snoc : forall (l : list nat) r, NoDup l -> ~ In r l -> NoDup (l ++ [r]).
Proof.
  induction l; intros r H Hn; cbn; [constructor; auto; constructor|].
  apply NoDup_cons_iff in H as [? ?]. constructor.
  - intro Hi. apply in_app_iff in Hi as [Hi|[Hi|[]]]; [auto|subst; apply Hn; left; auto].
  - apply IHl; auto. intro; apply Hn; right; auto.
Qed.
Lemma last_opt_spec : forall A (l : list A) x r, last_opt l = Some (x, r) -> l = r ++ [x].
Proof.
  unfold last_opt; intros A l x r H. destruct (rev l) as [|y t] eqn:E; inv H.
  rewrite <- (rev_involutive l), E. cbn. reflexivity.
Qed.

Lemma tc_taint : forall s, taint_close s = true -> taint s = true.
Proof. unfold taint; intros s H; rewrite H; reflexivity. Qed.
Lemma RecLevel_taint : forall s s', RecLevel s s' -> taint s = true -> taint s' = true.
Proof.
  unfold taint; intros s s' [] H. rewrite rl_tg. apply orb_true_iff in H as [H|H]; [rewrite rl_tc; auto|rewrite H; apply orb_true_r].
Qed.
Lemma Mono_taint_false : forall s s', Mono s s' -> taint s' = false -> taint s = false.
Proof. intros s s' M H. destruct (taint s) eqn:E; auto. rewrite (Mono_taint _ _ M E) in H. discriminate. Qed.

Section Acc.
Variable cf : cfg.
Hypothesis KQ : kind cf = KQueue.
Hypothesis PS : 0 <= psize cf.
Hypothesis MO : -1 <= maxov cf.    (* max_overflow = -1 means unlimited; smaller values are meaningless *)

Definition AccK (k : Z) (ql : list nat) (ov : Z) (n : nat) (rf : nat -> option nat) : Prop :=
  psize cf + ov = Z.of_nat (length ql) + Z.of_nat (count_upto (has rf) n) + k.
Definition QOk (fl : option nat) (ql : list nat) (n : nat) (rf : nat -> option nat) : Prop :=
  (forall r, In r ql -> (r < n)%nat /\ rf r = None) /\
  NoDup ql /\
  (forall r, fl = Some r -> (r < n)%nat /\ rf r = None /\ ~ In r ql) /\
  (0 < psize cf -> Z.of_nat (length ql) <= psize cf) /\
  (forall r, (n <= r)%nat -> rf r = None).
Definition OvB (ov : Z) : Prop := 0 <= maxov cf -> ov <= maxov cf.
(* at most one "floating" record [fl]: taken from the pool, no fairy yet / any more *)
Definition Acc (fl : option nat) (ql : list nat) (ov : Z) (n : nat) (rf : nat -> option nat) : Prop :=
  AccK (flz fl) ql ov n rf /\ QOk fl ql n rf /\ OvB ov.

Lemma AccK_ov : forall k d ql ov n rf, AccK k ql ov n rf -> AccK (k + d) ql (ov + d) n rf.
Proof. unfold AccK; intros; lia. Qed.

(* a new record: it is floating, or (when its creator raises) not kept at all *)
Lemma Acc_new : forall k ql ov n rf, AccK k ql ov n rf -> QOk None ql n rf ->
  AccK k ql ov (S n) (upd rf n None) /\ QOk None ql (S n) (upd rf n None) /\ QOk (Some n) ql (S n) (upd rf n None).
Proof.
  intros k ql ov n rf HA (Q1 & Q2 & Q3 & Q4 & Q5).
  split; [unfold AccK; rewrite count_upto_new; exact HA|].
  assert (X1 : forall r, In r ql -> (r < S n)%nat /\ upd rf n None r = None).
  { intros r Hr. destruct (Q1 r Hr). split; [lia|]. rewrite upd_other by lia. auto. }
  assert (X5 : forall r, (S n <= r)%nat -> upd rf n None r = None).
  { intros r Hr. rewrite upd_other by lia. apply Q5. lia. }
  split; (split; [exact X1|split; [exact Q2|split; [|split; [exact Q4|exact X5]]]]).
  - intros r Hr. discriminate.
  - intros r Hr. inv Hr. split; [lia|]. split; [apply upd_same|]. intro Hi. destruct (Q1 _ Hi). lia.
Qed.

(* a record leaves the queue *)
Lemma Acc_pop : forall l1 r l2 ov n rf, Acc None (l1 ++ r :: l2) ov n rf -> Acc (Some r) (l1 ++ l2) ov n rf.
Proof.
  intros l1 r l2 ov n rf (HA & (Q1 & Q2 & Q3 & Q4 & Q5) & HO). apply NoDup_remove in Q2 as [Q2 Q2'].
  assert (Hin : forall x, In x (l1 ++ l2) -> In x (l1 ++ r :: l2))
    by (intros x Hx; apply in_app_iff in Hx; apply in_app_iff; cbn; tauto).
  split; [|split; [|exact HO]].
  - unfold AccK in *. rewrite app_length in *. cbn [length flz] in *. lia.
  - split; [intros x Hx; apply Q1; auto|]. split; [exact Q2|]. split; [|split; [|exact Q5]].
    + intros x Hx. inv Hx. destruct (Q1 x) as [Qa Qb]; [apply in_app_iff; cbn; auto|]. auto.
    + intros Hp. specialize (Q4 Hp). rewrite app_length in *. cbn [length] in Q4. lia.
Qed.

(* the floating record goes back to the queue, which is not full *)
Lemma Acc_push : forall r ql ov n rf, Acc (Some r) ql ov n rf ->
  (0 <? psize cf) && (Z.of_nat (length ql) =? psize cf) = false -> Acc None (ql ++ [r]) ov n rf.
Proof.
  intros r ql ov n rf (HA & (Q1 & Q2 & Q3 & Q4 & Q5) & HO) Ef. destruct (Q3 r eq_refl) as (R1 & R2 & R3).
  split; [|split; [|exact HO]].
  - unfold AccK in *. rewrite app_length. cbn [length flz] in *. lia.
  - split; [|split; [|split; [|split]]].
    + intros x Hx. apply in_app_iff in Hx as [Hx|[Hx|[]]]; [apply Q1; auto|subst; auto].
    + apply NoDup_snoc; auto.
    + intros; discriminate.
    + intros Hp. specialize (Q4 Hp). rewrite app_length. cbn [length]. apply andb_false_iff in Ef as [Ef|Ef]; lia.
    + exact Q5.
Qed.

(* the floating record is dropped and the overflow counter decremented *)
Lemma Acc_discard : forall r ql ov n rf, Acc (Some r) ql ov n rf -> Acc None ql (ov - 1) n rf.
Proof.
  intros r ql ov n rf (HA & (Q1 & Q2 & Q3 & Q4 & Q5) & HO). split; [|split].
  - apply (AccK_ov 1 (-1)). exact HA.
  - split; [exact Q1|]. split; [exact Q2|]. split; [intros; discriminate|]. split; [exact Q4|exact Q5].
  - unfold OvB in *. lia.
Qed.

(* a record in use loses its fairy and floats *)
Lemma Acc_clear : forall r ql ov n rf, Acc None ql ov n rf -> rf r <> None -> Acc (Some r) ql ov n (upd rf r None).
Proof.
  intros r ql ov n rf (HA & (Q1 & Q2 & Q3 & Q4 & Q5) & HO) Hr.
  assert (Rn : (r < n)%nat) by (destruct (lt_dec r n); auto; rewrite Q5 in Hr by lia; congruence).
  split; [|split; [|exact HO]].
  - unfold AccK in *. rewrite (count_upto_upd rf n r None Rn). destruct (rf r); [cbn [flz] in *; lia|congruence].
  - split; [|split; [exact Q2|split; [|split; [exact Q4|]]]].
    + intros x Hx. destruct (Q1 x Hx). split; auto. unfold upd. destruct (Nat.eqb x r); auto.
    + intros x Hx. inv Hx. split; [auto|]. split; [apply upd_same|].
      intro Hi. destruct (Q1 _ Hi). congruence.
    + intros x Hx. unfold upd. destruct (Nat.eqb x r); auto.
Qed.

(* the floating record gets a fairy *)
Lemma Acc_link : forall r f ql ov n rf, Acc (Some r) ql ov n rf -> Acc None ql ov n (upd rf r (Some f)).
Proof.
  intros r f ql ov n rf (HA & (Q1 & Q2 & Q3 & Q4 & Q5) & HO). destruct (Q3 r eq_refl) as (R1 & R2 & R3).
  split; [|split; [|exact HO]].
  - unfold AccK in *. rewrite (count_upto_upd rf n r (Some f) R1), R2. cbn [flz] in *. lia.
  - split; [|split; [exact Q2|split; [intros; discriminate|split; [exact Q4|]]]].
    + intros x Hx. destruct (Q1 x Hx). split; auto. rewrite upd_other; auto. intro; subst; auto.
    + intros x Hx. rewrite upd_other by lia. apply Q5; auto.
Qed.

(* void once a BaseException has escaped close() *)
Definition Accounting (fl : option nat) (s : st) : Prop :=
  taint s = true \/ Acc fl (q s) (overflow s) (nrecs s) (r_fairy s).

Lemma Accounting_frame : forall fl s s', q s' = q s -> overflow s' = overflow s -> nrecs s' = nrecs s ->
  r_fairy s' = r_fairy s -> (taint s = true -> taint s' = true) -> Accounting fl s -> Accounting fl s'.
Proof. unfold Accounting; intros fl s s' E1 E2 E3 E4 E5 [T|H]; [left; auto|right]. rewrite E1, E2, E3, E4. exact H. Qed.

Lemma Accounting_rl : forall fl s s', RecLevel s s' -> Accounting fl s -> Accounting fl s'.
Proof. intros fl s s' R. pose proof (RecLevel_taint _ _ R). destruct R. apply Accounting_frame; auto. Qed.

Lemma Accounting_clear : forall r s, Accounting None s -> r_fairy s r <> None ->
  Accounting (Some r) (set_r_fairy s (upd (r_fairy s) r None)).
Proof. intros r s [T|H] Hr; [left; exact T|right; exact (Acc_clear _ _ _ _ _ H Hr)]. Qed.

Lemma new_record_acc : forall k s x s', new_record cf s = (x, s') ->
  AccK k (q s) (overflow s) (nrecs s) (r_fairy s) -> QOk None (q s) (nrecs s) (r_fairy s) ->
  AccK k (q s') (overflow s') (nrecs s') (r_fairy s') /\ overflow s' = overflow s /\ (taint s = true -> taint s' = true) /\
  QOk (match x with Ok r => Some r | Raise _ => None end) (q s') (nrecs s') (r_fairy s').
Proof.
  intros k s x s' H HA HQ. rewrite new_record_eq in H.
  destruct (rec_connect cf (nrecs s) (add_record s)) as [y s7] eqn:E. apply rec_connect_rl in E.
  assert (s' = s7) by (destruct y; inv H; auto). subst s7.
  pose proof (RecLevel_taint _ _ E) as Tt. destruct E. rewrite rl_pl_q, rl_pl_ov, rl_nrecs, rl_fairy.
  destruct (Acc_new _ _ _ _ _ HA HQ) as (B1 & B2 & B3).
  split; [exact B1|]. split; [reflexivity|]. split; [exact Tt|]. destruct y; inv H; [exact B3|exact B2].
Qed.

Lemma q_get_acc : forall s r s', q_get cf s = Some (r, s') -> Accounting None s -> Accounting (Some r) s'.
Proof.
  unfold q_get; intros s r s' H HA.
  assert (X : exists l1 l2, q s = l1 ++ r :: l2 /\ s' = set_q s (l1 ++ l2)).
  { destruct (lifo cf).
    - destruct (last_opt (q s)) as [[x t]|] eqn:E; inv H. apply last_opt_spec in E.
      exists t, []. rewrite app_nil_r. auto.
    - destruct (q s) as [|x t] eqn:E; inv H. exists [], t. auto. }
  destruct X as (l1 & l2 & E1 & ->). destruct HA as [T|HA]; [left; exact T|right].
  rewrite E1 in HA. exact (Acc_pop _ _ _ _ _ _ HA).
Qed.

Lemma q_get_none : forall s, q_get cf s = None -> q s = [].
Proof.
  unfold q_get; intros. destruct (lifo cf).
  - unfold last_opt in H. destruct (rev (q s)) eqn:E; [|discriminate].
    rewrite <- (rev_involutive (q s)), E. reflexivity.
  - destruct (q s); [auto|discriminate].
Qed.

Lemma do_get_queue_acc : forall fuel s x s', do_get_queue cf fuel s = (x, s') -> Accounting None s ->
  Accounting (match x with Ok r => Some r | Raise _ => None end) s'.
Proof.
  induction fuel; intros s x s' H HA; cbn [do_get_queue] in H; [inv H; auto|].
  destruct (q_get cf s) as [[r s1]|] eqn:Eq.
  - inv H. eapply q_get_acc; eauto.
  - destruct ((-1 <? maxov cf) && (maxov cf <=? overflow s)) eqn:Ew; [cbn [negb] in H; inv H; auto|].
    destruct HA as [T|(HA & HQ & HO)].
    { left. eapply Mono_taint; [eapply Touch_Mono, (do_get_queue_touch cf (S fuel))|exact T].
      cbn [do_get_queue]. rewrite Eq, Ew. exact H. }
    (* not at the limit: the increment is granted, then a new record is made; when that fails the
       increment is undone *)
    assert (Inc : inc_overflow cf s = (true, set_overflow s (overflow s + 1)) /\
                  (overflow s + 1 <= maxov cf \/ maxov cf = -1)).
    { unfold inc_overflow. apply andb_false_iff in Ew.
      destruct (maxov cf =? -1) eqn:Em; [split; [auto|lia]|].
      destruct (overflow s <? maxov cf) eqn:El; [split; [auto|lia]|lia]. }
    destruct Inc as [Ei Hb]. rewrite Ei in H.
    destruct (new_record cf (set_overflow s (overflow s + 1))) as [y s2] eqn:En.
    destruct (new_record_acc 1 _ _ _ En (AccK_ov 0 1 _ _ _ _ HA) HQ) as (B1 & B2 & B3 & B4).
    change (overflow (set_overflow s (overflow s + 1))) with (overflow s + 1) in B2.
    right. destruct y; inv H.
    + split; [exact B1|]. split; [exact B4|]. unfold OvB. rewrite B2. lia.
    + split; [apply (AccK_ov 1 (-1)); exact B1|]. split; [exact B4|].
      unfold OvB in *. change (overflow (dec_overflow s2)) with (overflow s2 - 1). rewrite B2. lia.
Qed.

Lemma do_get_acc : forall s x s', do_get cf s = (x, s') -> Accounting None s ->
  Accounting (match x with Ok r => Some r | Raise _ => None end) s'.
Proof. unfold do_get; rewrite KQ. intros. eapply do_get_queue_acc; eauto. Qed.

Lemma do_return_conn_acc : forall r s x s', do_return_conn cf r s = (x, s') -> Accounting (Some r) s -> Accounting None s'.
Proof.
  unfold do_return_conn; rewrite KQ. intros r s x s' H HA.
  destruct (q_full cf s) eqn:Ef.
  - destruct (rec_close_if_open r s) as [y s1] eqn:E1. apply rec_close_if_open_rl in E1.
    inv H. apply (Accounting_rl _ _ _ E1) in HA. destruct HA as [T|HA]; [left; exact T|right].
    exact (Acc_discard _ _ _ _ _ HA).
  - inv H. destruct HA as [T|HA]; [left; exact T|right]. exact (Acc_push _ _ _ _ _ HA Ef).
Qed.

Lemma rec_checkin_acc : forall r fwc s x s', rec_checkin cf r fwc s = (x, s') ->
  (fwc = true -> Accounting None s) -> (fwc = false -> Accounting (Some r) s) -> Accounting None s'.
Proof.
  unfold rec_checkin; intros r fwc s x s' H H1 H2.
  destruct (r_fairy s r) as [g|] eqn:Ef.
  - eapply do_return_conn_acc; [exact H|]. destruct fwc.
    + apply Accounting_clear; auto. congruence.
    + destruct (H2 eq_refl) as [T|(HA & (Q1 & Q2 & Q3 & Q4 & Q5) & HO)]; [left; exact T|].
      destruct (Q3 r eq_refl) as (_ & R2 & _). congruence.
  - destruct fwc; [inv H; auto|]. eapply do_return_conn_acc; eauto.
Qed.

Lemma checkin_failed_acc : forall r fwc s x s', checkin_failed cf r fwc s = (x, s') ->
  (fwc = true -> Accounting None s) -> (fwc = false -> Accounting (Some r) s) -> Accounting None s'.
Proof.
  unfold checkin_failed; intros r fwc s x s' H H1 H2.
  destruct (rec_invalidate cf r false s) as [[|e] s1] eqn:E1; pose proof (rec_invalidate_rl _ _ _ _ _ _ E1) as R.
  - eapply rec_checkin_acc; [exact H| |]; intros Hf; eapply Accounting_rl; eauto.
  - (* a BaseException escaped close(): the check-in still happens (try/finally); tainted *)
    destruct (rec_checkin cf r fwc s1) as [w s2] eqn:E2.
    assert (s' = s2) by (destruct w; inv H; auto). subst s2.
    left. eapply Mono_taint; [eapply Touch_Mono, rec_checkin_touch; eauto|].
    apply tc_taint. eapply rec_invalidate_raise; eauto.
Qed.

End Acc.
