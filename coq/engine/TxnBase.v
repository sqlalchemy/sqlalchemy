(* What the accessors and projections of the C23 model return after an update of the state.

   1. Updates of the object table ([upd_txn], [set_active], [push_txn]): these need an argument
      ([nth_upd], [get_upd_txn], [get_push] and their consequences for each accessor).
   2. The table "accessor or projection X after a setter of another field Y" (and of its own field),
      one equation for every pair.  Every one holds by unfolding, and the proofs of this area mostly
      let conversion do that silently ([exact], [assumption], [reflexivity]); an equation is cited
      by name only where a term has to be rewritten under a context.  Those cited come first. *)
From Coq Require Import List ZArith NArith Bool Arith Lia.
Import ListNotations.
From SAV.engine Require Import RefDb Txn.

Arguments get : simpl never.
Arguments active : simpl never.
Arguments is_root : simpl never.
Arguments sp : simpl never.
Arguments prev : simpl never.
Arguments subject : simpl never.
Arguments outer : simpl never.

Lemma upd_length : forall A (f : A -> A) l k, length (upd k f l) = length l.
Proof. induction l; destruct k; cbn; auto. Qed.

Lemma nth_upd : forall A (f : A -> A) l k j,
  nth_error (upd j f l) k = if Nat.eqb k j then option_map f (nth_error l k) else nth_error l k.
Proof.
  induction l; intros k j.
  - destruct j, k; cbn; try reflexivity; destruct (Nat.eqb k j); reflexivity.
  - destruct j, k; cbn; try reflexivity. apply IHl.
Qed.

Lemma len_upd_txn : forall k f s, length (txns (upd_txn k f s)) = length (txns s).
Proof. intros. cbn. apply upd_length. Qed.
Lemma len_set_active : forall k b s, length (txns (set_active k b s)) = length (txns s).
Proof. intros. apply len_upd_txn. Qed.
Lemma len_push : forall t s, length (txns (push_txn t s)) = S (length (txns s)).
Proof. intros. cbn. rewrite app_length. cbn. lia. Qed.

Lemma get_upd_txn : forall k j f s,
  get k (upd_txn j f s) = if Nat.eqb k j then option_map f (get k s) else get k s.
Proof. intros. unfold get. cbn. apply nth_upd. Qed.

Lemma get_push : forall k t s,
  get k (push_txn t s) = if Nat.eqb k (length (txns s)) then Some t else get k s.
Proof.
  intros. unfold get. cbn. destruct (Nat.eqb_spec k (length (txns s))).
  - subst. rewrite nth_error_app2 by lia. rewrite Nat.sub_diag. reflexivity.
  - destruct (Nat.lt_ge_cases k (length (txns s))).
    + apply nth_error_app1; auto.
    + rewrite (proj2 (nth_error_None _ _)). symmetry. apply nth_error_None. lia.
      rewrite app_length. cbn. lia.
Qed.

Lemma get_lt : forall k s t, get k s = Some t -> k < length (txns s).
Proof. intros. apply nth_error_Some. unfold get in H. congruence. Qed.
Lemma get_some : forall k s, k < length (txns s) -> exists t, get k s = Some t.
Proof. intros. unfold get. destruct (nth_error (txns s) k) eqn:E; eauto. apply nth_error_None in E. lia. Qed.

Lemma active_set_active_same : forall k b s, k < length (txns s) -> active k (set_active k b s) = b.
Proof.
  intros. unfold active, set_active. rewrite get_upd_txn, Nat.eqb_refl.
  destruct (get_some _ _ H) as [t ->]. reflexivity.
Qed.
Lemma active_set_active_other : forall k j b s, k <> j -> active k (set_active j b s) = active k s.
Proof.
  intros. unfold active, set_active. rewrite get_upd_txn.
  destruct (Nat.eqb_spec k j); [contradiction|reflexivity].
Qed.
Lemma active_set_active_false : forall k j s, active k (set_active j false s) = active k s && negb (Nat.eqb k j).
Proof.
  intros. unfold active, set_active. rewrite get_upd_txn.
  destruct (Nat.eqb_spec k j); destruct (get k s); cbn;
    rewrite ?andb_false_r, ?andb_true_r; reflexivity.
Qed.

(* an accessor after [upd_txn j f], for an [f] that keeps the accessed field: by cases on whether
   the index is [j] and on whether the object exists *)
Ltac acc_upd :=
  intros; unfold is_root, sp, prev, subject, outer, active, set_active; rewrite get_upd_txn;
  match goal with |- context [Nat.eqb ?k ?j] => destruct (Nat.eqb k j) end;
  match goal with |- context [get ?k ?s] => destruct (get k s) end; reflexivity.

Lemma is_root_set_active : forall k j b s, is_root k (set_active j b s) = is_root k s. Proof. acc_upd. Qed.
Lemma sp_set_active : forall k j b s, sp k (set_active j b s) = sp k s. Proof. acc_upd. Qed.
Lemma prev_set_active : forall k j b s, prev k (set_active j b s) = prev k s. Proof. acc_upd. Qed.
Lemma subject_set_active : forall k j b s, subject k (set_active j b s) = subject k s. Proof. acc_upd. Qed.
Lemma outer_set_active : forall k j b s, outer k (set_active j b s) = outer k s. Proof. acc_upd. Qed.

Lemma active_set_ctx_t : forall k j b o s, active k (upd_txn j (set_ctx_t b o) s) = active k s. Proof. acc_upd. Qed.
Lemma is_root_set_ctx_t : forall k j b o s, is_root k (upd_txn j (set_ctx_t b o) s) = is_root k s. Proof. acc_upd. Qed.
Lemma sp_set_ctx_t : forall k j b o s, sp k (upd_txn j (set_ctx_t b o) s) = sp k s. Proof. acc_upd. Qed.
Lemma prev_set_ctx_t : forall k j b o s, prev k (upd_txn j (set_ctx_t b o) s) = prev k s. Proof. acc_upd. Qed.
Lemma subject_set_ctx_t_same : forall k b o s, k < length (txns s) -> subject k (upd_txn k (set_ctx_t b o) s) = b.
Proof. intros. unfold subject. rewrite get_upd_txn, Nat.eqb_refl. destruct (get_some _ _ H) as [t ->]. reflexivity. Qed.
Lemma outer_set_ctx_t_same : forall k b o s, k < length (txns s) -> outer k (upd_txn k (set_ctx_t b o) s) = o.
Proof. intros. unfold outer. rewrite get_upd_txn, Nat.eqb_refl. destruct (get_some _ _ H) as [t ->]. reflexivity. Qed.
Lemma subject_set_ctx_t_other : forall k j b o s, k <> j -> subject k (upd_txn j (set_ctx_t b o) s) = subject k s.
Proof. intros. unfold subject. rewrite get_upd_txn. destruct (Nat.eqb_spec k j); [contradiction|reflexivity]. Qed.
Lemma outer_set_ctx_t_other : forall k j b o s, k <> j -> outer k (upd_txn j (set_ctx_t b o) s) = outer k s.
Proof. intros. unfold outer. rewrite get_upd_txn. destruct (Nat.eqb_spec k j); [contradiction|reflexivity]. Qed.

(* an accessor after [push_txn]: the new object sits at index [length (txns s)] *)
Ltac acc_push := intros; unfold active, is_root, sp, prev, subject, outer; rewrite get_push;
  match goal with |- context [Nat.eqb ?k ?j] => destruct (Nat.eqb k j) end; reflexivity.
Lemma active_push : forall k t s, active k (push_txn t s) = if Nat.eqb k (length (txns s)) then t_active t else active k s. Proof. acc_push. Qed.
Lemma is_root_push : forall k t s, is_root k (push_txn t s) = if Nat.eqb k (length (txns s)) then t_root t else is_root k s. Proof. acc_push. Qed.
Lemma sp_push : forall k t s, sp k (push_txn t s) = if Nat.eqb k (length (txns s)) then t_sp t else sp k s. Proof. acc_push. Qed.
Lemma prev_push : forall k t s, prev k (push_txn t s) = if Nat.eqb k (length (txns s)) then t_prev t else prev k s. Proof. acc_push. Qed.
Lemma subject_push : forall k t s, subject k (push_txn t s) = if Nat.eqb k (length (txns s)) then t_subject t else subject k s. Proof. acc_push. Qed.
Lemma outer_push : forall k t s, outer k (push_txn t s) = if Nat.eqb k (length (txns s)) then t_outer t else outer k s. Proof. acc_push. Qed.


Lemma active_lt : forall k s, active k s = true -> k < length (txns s).
Proof. unfold active. intros. destruct (get k s) eqn:E; [eapply get_lt; eauto|discriminate]. Qed.
Lemma prev_lt : forall k j s, prev k s = Some j -> k < length (txns s).
Proof. unfold prev. intros. destruct (get k s) eqn:E; [eapply get_lt; eauto|discriminate]. Qed.

(* the table; cited by name elsewhere: *)
Lemma active_set_root : forall k o s, active k (set_root o s) = active k s. Proof. reflexivity. Qed.
Lemma active_set_nested : forall k o s, active k (set_nested o s) = active k s. Proof. reflexivity. Qed.
Lemma active_set_ctx : forall k o s, active k (set_ctx o s) = active k s. Proof. reflexivity. Qed.
Lemma active_clear_log : forall k s, active k (clear_log s) = active k s. Proof. reflexivity. Qed.
Lemma is_root_set_ctx : forall k o s, is_root k (set_ctx o s) = is_root k s. Proof. reflexivity. Qed.
Lemma prev_set_nested : forall k o s, prev k (set_nested o s) = prev k s. Proof. reflexivity. Qed.
Lemma len_set_nested : forall o s, length (txns (set_nested o s)) = length (txns s). Proof. reflexivity. Qed.
Lemma len_set_ctx : forall o s, length (txns (set_ctx o s)) = length (txns s). Proof. reflexivity. Qed.
Lemma c_root_add_warn : forall s, c_root (add_warn s) = c_root s. Proof. reflexivity. Qed.
Lemma c_nested_set_db : forall d s, c_nested (set_db d s) = c_nested s. Proof. reflexivity. Qed.
Lemma c_nested_add_out : forall e s, c_nested (add_out e s) = c_nested s. Proof. reflexivity. Qed.
Lemma c_in_begin_clear_log : forall s, c_in_begin (clear_log s) = c_in_begin s. Proof. reflexivity. Qed.
Lemma c_beginfail_set_in_begin : forall b s, c_beginfail (set_in_begin b s) = c_beginfail s. Proof. reflexivity. Qed.
Lemma c_root_set_active : forall k b s, c_root (set_active k b s) = c_root s. Proof. reflexivity. Qed.
Lemma c_nested_set_active : forall k b s, c_nested (set_active k b s) = c_nested s. Proof. reflexivity. Qed.
(* the rest of the table: *)
Lemma get_set_root : forall k o s, get k (set_root o s) = get k s. Proof. reflexivity. Qed.
Lemma get_set_nested : forall k o s, get k (set_nested o s) = get k s. Proof. reflexivity. Qed.
Lemma get_set_ctx : forall k o s, get k (set_ctx o s) = get k s. Proof. reflexivity. Qed.
Lemma get_set_seq : forall k n s, get k (set_seq n s) = get k s. Proof. reflexivity. Qed.
Lemma get_set_closed : forall k b s, get k (set_closed b s) = get k s. Proof. reflexivity. Qed.
Lemma get_set_in_begin : forall k b s, get k (set_in_begin b s) = get k s. Proof. reflexivity. Qed.
Lemma get_set_beginfail : forall k n s, get k (set_beginfail n s) = get k s. Proof. reflexivity. Qed.
Lemma get_set_rbfail : forall k b s, get k (set_rbfail b s) = get k s. Proof. reflexivity. Qed.
Lemma get_set_db : forall k d s, get k (set_db d s) = get k s. Proof. reflexivity. Qed.
Lemma get_add_out : forall k e s, get k (add_out e s) = get k s. Proof. reflexivity. Qed.
Lemma get_add_warn : forall k s, get k (add_warn s) = get k s. Proof. reflexivity. Qed.
Lemma get_clear_log : forall k s, get k (clear_log s) = get k s. Proof. reflexivity. Qed.
Lemma active_set_seq : forall k n s, active k (set_seq n s) = active k s. Proof. reflexivity. Qed.
Lemma active_set_closed : forall k b s, active k (set_closed b s) = active k s. Proof. reflexivity. Qed.
Lemma active_set_in_begin : forall k b s, active k (set_in_begin b s) = active k s. Proof. reflexivity. Qed.
Lemma active_set_beginfail : forall k n s, active k (set_beginfail n s) = active k s. Proof. reflexivity. Qed.
Lemma active_set_rbfail : forall k b s, active k (set_rbfail b s) = active k s. Proof. reflexivity. Qed.
Lemma active_set_db : forall k d s, active k (set_db d s) = active k s. Proof. reflexivity. Qed.
Lemma active_add_out : forall k e s, active k (add_out e s) = active k s. Proof. reflexivity. Qed.
Lemma active_add_warn : forall k s, active k (add_warn s) = active k s. Proof. reflexivity. Qed.
Lemma is_root_set_root : forall k o s, is_root k (set_root o s) = is_root k s. Proof. reflexivity. Qed.
Lemma is_root_set_nested : forall k o s, is_root k (set_nested o s) = is_root k s. Proof. reflexivity. Qed.
Lemma is_root_set_seq : forall k n s, is_root k (set_seq n s) = is_root k s. Proof. reflexivity. Qed.
Lemma is_root_set_closed : forall k b s, is_root k (set_closed b s) = is_root k s. Proof. reflexivity. Qed.
Lemma is_root_set_in_begin : forall k b s, is_root k (set_in_begin b s) = is_root k s. Proof. reflexivity. Qed.
Lemma is_root_set_beginfail : forall k n s, is_root k (set_beginfail n s) = is_root k s. Proof. reflexivity. Qed.
Lemma is_root_set_rbfail : forall k b s, is_root k (set_rbfail b s) = is_root k s. Proof. reflexivity. Qed.
Lemma is_root_set_db : forall k d s, is_root k (set_db d s) = is_root k s. Proof. reflexivity. Qed.
Lemma is_root_add_out : forall k e s, is_root k (add_out e s) = is_root k s. Proof. reflexivity. Qed.
Lemma is_root_add_warn : forall k s, is_root k (add_warn s) = is_root k s. Proof. reflexivity. Qed.
Lemma is_root_clear_log : forall k s, is_root k (clear_log s) = is_root k s. Proof. reflexivity. Qed.
Lemma sp_set_root : forall k o s, sp k (set_root o s) = sp k s. Proof. reflexivity. Qed.
Lemma sp_set_nested : forall k o s, sp k (set_nested o s) = sp k s. Proof. reflexivity. Qed.
Lemma sp_set_ctx : forall k o s, sp k (set_ctx o s) = sp k s. Proof. reflexivity. Qed.
Lemma sp_set_seq : forall k n s, sp k (set_seq n s) = sp k s. Proof. reflexivity. Qed.
Lemma sp_set_closed : forall k b s, sp k (set_closed b s) = sp k s. Proof. reflexivity. Qed.
Lemma sp_set_in_begin : forall k b s, sp k (set_in_begin b s) = sp k s. Proof. reflexivity. Qed.
Lemma sp_set_beginfail : forall k n s, sp k (set_beginfail n s) = sp k s. Proof. reflexivity. Qed.
Lemma sp_set_rbfail : forall k b s, sp k (set_rbfail b s) = sp k s. Proof. reflexivity. Qed.
Lemma sp_set_db : forall k d s, sp k (set_db d s) = sp k s. Proof. reflexivity. Qed.
Lemma sp_add_out : forall k e s, sp k (add_out e s) = sp k s. Proof. reflexivity. Qed.
Lemma sp_add_warn : forall k s, sp k (add_warn s) = sp k s. Proof. reflexivity. Qed.
Lemma sp_clear_log : forall k s, sp k (clear_log s) = sp k s. Proof. reflexivity. Qed.
Lemma prev_set_root : forall k o s, prev k (set_root o s) = prev k s. Proof. reflexivity. Qed.
Lemma prev_set_ctx : forall k o s, prev k (set_ctx o s) = prev k s. Proof. reflexivity. Qed.
Lemma prev_set_seq : forall k n s, prev k (set_seq n s) = prev k s. Proof. reflexivity. Qed.
Lemma prev_set_closed : forall k b s, prev k (set_closed b s) = prev k s. Proof. reflexivity. Qed.
Lemma prev_set_in_begin : forall k b s, prev k (set_in_begin b s) = prev k s. Proof. reflexivity. Qed.
Lemma prev_set_beginfail : forall k n s, prev k (set_beginfail n s) = prev k s. Proof. reflexivity. Qed.
Lemma prev_set_rbfail : forall k b s, prev k (set_rbfail b s) = prev k s. Proof. reflexivity. Qed.
Lemma prev_set_db : forall k d s, prev k (set_db d s) = prev k s. Proof. reflexivity. Qed.
Lemma prev_add_out : forall k e s, prev k (add_out e s) = prev k s. Proof. reflexivity. Qed.
Lemma prev_add_warn : forall k s, prev k (add_warn s) = prev k s. Proof. reflexivity. Qed.
Lemma prev_clear_log : forall k s, prev k (clear_log s) = prev k s. Proof. reflexivity. Qed.
Lemma subject_set_root : forall k o s, subject k (set_root o s) = subject k s. Proof. reflexivity. Qed.
Lemma subject_set_nested : forall k o s, subject k (set_nested o s) = subject k s. Proof. reflexivity. Qed.
Lemma subject_set_ctx : forall k o s, subject k (set_ctx o s) = subject k s. Proof. reflexivity. Qed.
Lemma subject_set_seq : forall k n s, subject k (set_seq n s) = subject k s. Proof. reflexivity. Qed.
Lemma subject_set_closed : forall k b s, subject k (set_closed b s) = subject k s. Proof. reflexivity. Qed.
Lemma subject_set_in_begin : forall k b s, subject k (set_in_begin b s) = subject k s. Proof. reflexivity. Qed.
Lemma subject_set_beginfail : forall k n s, subject k (set_beginfail n s) = subject k s. Proof. reflexivity. Qed.
Lemma subject_set_rbfail : forall k b s, subject k (set_rbfail b s) = subject k s. Proof. reflexivity. Qed.
Lemma subject_set_db : forall k d s, subject k (set_db d s) = subject k s. Proof. reflexivity. Qed.
Lemma subject_add_out : forall k e s, subject k (add_out e s) = subject k s. Proof. reflexivity. Qed.
Lemma subject_add_warn : forall k s, subject k (add_warn s) = subject k s. Proof. reflexivity. Qed.
Lemma subject_clear_log : forall k s, subject k (clear_log s) = subject k s. Proof. reflexivity. Qed.
Lemma outer_set_root : forall k o s, outer k (set_root o s) = outer k s. Proof. reflexivity. Qed.
Lemma outer_set_nested : forall k o s, outer k (set_nested o s) = outer k s. Proof. reflexivity. Qed.
Lemma outer_set_ctx : forall k o s, outer k (set_ctx o s) = outer k s. Proof. reflexivity. Qed.
Lemma outer_set_seq : forall k n s, outer k (set_seq n s) = outer k s. Proof. reflexivity. Qed.
Lemma outer_set_closed : forall k b s, outer k (set_closed b s) = outer k s. Proof. reflexivity. Qed.
Lemma outer_set_in_begin : forall k b s, outer k (set_in_begin b s) = outer k s. Proof. reflexivity. Qed.
Lemma outer_set_beginfail : forall k n s, outer k (set_beginfail n s) = outer k s. Proof. reflexivity. Qed.
Lemma outer_set_rbfail : forall k b s, outer k (set_rbfail b s) = outer k s. Proof. reflexivity. Qed.
Lemma outer_set_db : forall k d s, outer k (set_db d s) = outer k s. Proof. reflexivity. Qed.
Lemma outer_add_out : forall k e s, outer k (add_out e s) = outer k s. Proof. reflexivity. Qed.
Lemma outer_add_warn : forall k s, outer k (add_warn s) = outer k s. Proof. reflexivity. Qed.
Lemma outer_clear_log : forall k s, outer k (clear_log s) = outer k s. Proof. reflexivity. Qed.
Lemma len_set_root : forall o s, length (txns (set_root o s)) = length (txns s). Proof. reflexivity. Qed.
Lemma len_set_seq : forall n s, length (txns (set_seq n s)) = length (txns s). Proof. reflexivity. Qed.
Lemma len_set_closed : forall b s, length (txns (set_closed b s)) = length (txns s). Proof. reflexivity. Qed.
Lemma len_set_in_begin : forall b s, length (txns (set_in_begin b s)) = length (txns s). Proof. reflexivity. Qed.
Lemma len_set_beginfail : forall n s, length (txns (set_beginfail n s)) = length (txns s). Proof. reflexivity. Qed.
Lemma len_set_rbfail : forall b s, length (txns (set_rbfail b s)) = length (txns s). Proof. reflexivity. Qed.
Lemma len_set_db : forall d s, length (txns (set_db d s)) = length (txns s). Proof. reflexivity. Qed.
Lemma len_add_out : forall e s, length (txns (add_out e s)) = length (txns s). Proof. reflexivity. Qed.
Lemma len_add_warn : forall s, length (txns (add_warn s)) = length (txns s). Proof. reflexivity. Qed.
Lemma len_clear_log : forall s, length (txns (clear_log s)) = length (txns s). Proof. reflexivity. Qed.
Lemma c_root_set_root : forall o s, c_root (set_root o s) = o. Proof. reflexivity. Qed.
Lemma c_root_set_nested : forall o s, c_root (set_nested o s) = c_root s. Proof. reflexivity. Qed.
Lemma c_root_set_ctx : forall o s, c_root (set_ctx o s) = c_root s. Proof. reflexivity. Qed.
Lemma c_root_set_seq : forall n s, c_root (set_seq n s) = c_root s. Proof. reflexivity. Qed.
Lemma c_root_set_closed : forall b s, c_root (set_closed b s) = c_root s. Proof. reflexivity. Qed.
Lemma c_root_set_in_begin : forall b s, c_root (set_in_begin b s) = c_root s. Proof. reflexivity. Qed.
Lemma c_root_set_beginfail : forall n s, c_root (set_beginfail n s) = c_root s. Proof. reflexivity. Qed.
Lemma c_root_set_rbfail : forall b s, c_root (set_rbfail b s) = c_root s. Proof. reflexivity. Qed.
Lemma c_root_set_db : forall d s, c_root (set_db d s) = c_root s. Proof. reflexivity. Qed.
Lemma c_root_add_out : forall e s, c_root (add_out e s) = c_root s. Proof. reflexivity. Qed.
Lemma c_root_clear_log : forall s, c_root (clear_log s) = c_root s. Proof. reflexivity. Qed.
Lemma c_nested_set_root : forall o s, c_nested (set_root o s) = c_nested s. Proof. reflexivity. Qed.
Lemma c_nested_set_nested : forall o s, c_nested (set_nested o s) = o. Proof. reflexivity. Qed.
Lemma c_nested_set_ctx : forall o s, c_nested (set_ctx o s) = c_nested s. Proof. reflexivity. Qed.
Lemma c_nested_set_seq : forall n s, c_nested (set_seq n s) = c_nested s. Proof. reflexivity. Qed.
Lemma c_nested_set_closed : forall b s, c_nested (set_closed b s) = c_nested s. Proof. reflexivity. Qed.
Lemma c_nested_set_in_begin : forall b s, c_nested (set_in_begin b s) = c_nested s. Proof. reflexivity. Qed.
Lemma c_nested_set_beginfail : forall n s, c_nested (set_beginfail n s) = c_nested s. Proof. reflexivity. Qed.
Lemma c_nested_set_rbfail : forall b s, c_nested (set_rbfail b s) = c_nested s. Proof. reflexivity. Qed.
Lemma c_nested_add_warn : forall s, c_nested (add_warn s) = c_nested s. Proof. reflexivity. Qed.
Lemma c_nested_clear_log : forall s, c_nested (clear_log s) = c_nested s. Proof. reflexivity. Qed.
Lemma c_ctx_set_root : forall o s, c_ctx (set_root o s) = c_ctx s. Proof. reflexivity. Qed.
Lemma c_ctx_set_nested : forall o s, c_ctx (set_nested o s) = c_ctx s. Proof. reflexivity. Qed.
Lemma c_ctx_set_ctx : forall o s, c_ctx (set_ctx o s) = o. Proof. reflexivity. Qed.
Lemma c_ctx_set_seq : forall n s, c_ctx (set_seq n s) = c_ctx s. Proof. reflexivity. Qed.
Lemma c_ctx_set_closed : forall b s, c_ctx (set_closed b s) = c_ctx s. Proof. reflexivity. Qed.
Lemma c_ctx_set_in_begin : forall b s, c_ctx (set_in_begin b s) = c_ctx s. Proof. reflexivity. Qed.
Lemma c_ctx_set_beginfail : forall n s, c_ctx (set_beginfail n s) = c_ctx s. Proof. reflexivity. Qed.
Lemma c_ctx_set_rbfail : forall b s, c_ctx (set_rbfail b s) = c_ctx s. Proof. reflexivity. Qed.
Lemma c_ctx_set_db : forall d s, c_ctx (set_db d s) = c_ctx s. Proof. reflexivity. Qed.
Lemma c_ctx_add_out : forall e s, c_ctx (add_out e s) = c_ctx s. Proof. reflexivity. Qed.
Lemma c_ctx_add_warn : forall s, c_ctx (add_warn s) = c_ctx s. Proof. reflexivity. Qed.
Lemma c_ctx_clear_log : forall s, c_ctx (clear_log s) = c_ctx s. Proof. reflexivity. Qed.
Lemma c_seq_set_root : forall o s, c_seq (set_root o s) = c_seq s. Proof. reflexivity. Qed.
Lemma c_seq_set_nested : forall o s, c_seq (set_nested o s) = c_seq s. Proof. reflexivity. Qed.
Lemma c_seq_set_ctx : forall o s, c_seq (set_ctx o s) = c_seq s. Proof. reflexivity. Qed.
Lemma c_seq_set_seq : forall n s, c_seq (set_seq n s) = n. Proof. reflexivity. Qed.
Lemma c_seq_set_closed : forall b s, c_seq (set_closed b s) = c_seq s. Proof. reflexivity. Qed.
Lemma c_seq_set_in_begin : forall b s, c_seq (set_in_begin b s) = c_seq s. Proof. reflexivity. Qed.
Lemma c_seq_set_beginfail : forall n s, c_seq (set_beginfail n s) = c_seq s. Proof. reflexivity. Qed.
Lemma c_seq_set_rbfail : forall b s, c_seq (set_rbfail b s) = c_seq s. Proof. reflexivity. Qed.
Lemma c_seq_set_db : forall d s, c_seq (set_db d s) = c_seq s. Proof. reflexivity. Qed.
Lemma c_seq_add_out : forall e s, c_seq (add_out e s) = c_seq s. Proof. reflexivity. Qed.
Lemma c_seq_add_warn : forall s, c_seq (add_warn s) = c_seq s. Proof. reflexivity. Qed.
Lemma c_seq_clear_log : forall s, c_seq (clear_log s) = c_seq s. Proof. reflexivity. Qed.
Lemma c_closed_set_root : forall o s, c_closed (set_root o s) = c_closed s. Proof. reflexivity. Qed.
Lemma c_closed_set_nested : forall o s, c_closed (set_nested o s) = c_closed s. Proof. reflexivity. Qed.
Lemma c_closed_set_ctx : forall o s, c_closed (set_ctx o s) = c_closed s. Proof. reflexivity. Qed.
Lemma c_closed_set_seq : forall n s, c_closed (set_seq n s) = c_closed s. Proof. reflexivity. Qed.
Lemma c_closed_set_closed : forall b s, c_closed (set_closed b s) = b. Proof. reflexivity. Qed.
Lemma c_closed_set_in_begin : forall b s, c_closed (set_in_begin b s) = c_closed s. Proof. reflexivity. Qed.
Lemma c_closed_set_beginfail : forall n s, c_closed (set_beginfail n s) = c_closed s. Proof. reflexivity. Qed.
Lemma c_closed_set_rbfail : forall b s, c_closed (set_rbfail b s) = c_closed s. Proof. reflexivity. Qed.
Lemma c_closed_set_db : forall d s, c_closed (set_db d s) = c_closed s. Proof. reflexivity. Qed.
Lemma c_closed_add_out : forall e s, c_closed (add_out e s) = c_closed s. Proof. reflexivity. Qed.
Lemma c_closed_add_warn : forall s, c_closed (add_warn s) = c_closed s. Proof. reflexivity. Qed.
Lemma c_closed_clear_log : forall s, c_closed (clear_log s) = c_closed s. Proof. reflexivity. Qed.
Lemma c_in_begin_set_root : forall o s, c_in_begin (set_root o s) = c_in_begin s. Proof. reflexivity. Qed.
Lemma c_in_begin_set_nested : forall o s, c_in_begin (set_nested o s) = c_in_begin s. Proof. reflexivity. Qed.
Lemma c_in_begin_set_ctx : forall o s, c_in_begin (set_ctx o s) = c_in_begin s. Proof. reflexivity. Qed.
Lemma c_in_begin_set_seq : forall n s, c_in_begin (set_seq n s) = c_in_begin s. Proof. reflexivity. Qed.
Lemma c_in_begin_set_closed : forall b s, c_in_begin (set_closed b s) = c_in_begin s. Proof. reflexivity. Qed.
Lemma c_in_begin_set_in_begin : forall b s, c_in_begin (set_in_begin b s) = b. Proof. reflexivity. Qed.
Lemma c_in_begin_set_beginfail : forall n s, c_in_begin (set_beginfail n s) = c_in_begin s. Proof. reflexivity. Qed.
Lemma c_in_begin_set_rbfail : forall b s, c_in_begin (set_rbfail b s) = c_in_begin s. Proof. reflexivity. Qed.
Lemma c_in_begin_set_db : forall d s, c_in_begin (set_db d s) = c_in_begin s. Proof. reflexivity. Qed.
Lemma c_in_begin_add_out : forall e s, c_in_begin (add_out e s) = c_in_begin s. Proof. reflexivity. Qed.
Lemma c_in_begin_add_warn : forall s, c_in_begin (add_warn s) = c_in_begin s. Proof. reflexivity. Qed.
Lemma c_beginfail_set_root : forall o s, c_beginfail (set_root o s) = c_beginfail s. Proof. reflexivity. Qed.
Lemma c_beginfail_set_nested : forall o s, c_beginfail (set_nested o s) = c_beginfail s. Proof. reflexivity. Qed.
Lemma c_beginfail_set_ctx : forall o s, c_beginfail (set_ctx o s) = c_beginfail s. Proof. reflexivity. Qed.
Lemma c_beginfail_set_seq : forall n s, c_beginfail (set_seq n s) = c_beginfail s. Proof. reflexivity. Qed.
Lemma c_beginfail_set_closed : forall b s, c_beginfail (set_closed b s) = c_beginfail s. Proof. reflexivity. Qed.
Lemma c_beginfail_set_beginfail : forall n s, c_beginfail (set_beginfail n s) = n. Proof. reflexivity. Qed.
Lemma c_beginfail_set_rbfail : forall b s, c_beginfail (set_rbfail b s) = c_beginfail s. Proof. reflexivity. Qed.
Lemma c_beginfail_set_db : forall d s, c_beginfail (set_db d s) = c_beginfail s. Proof. reflexivity. Qed.
Lemma c_beginfail_add_out : forall e s, c_beginfail (add_out e s) = c_beginfail s. Proof. reflexivity. Qed.
Lemma c_beginfail_add_warn : forall s, c_beginfail (add_warn s) = c_beginfail s. Proof. reflexivity. Qed.
Lemma c_beginfail_clear_log : forall s, c_beginfail (clear_log s) = c_beginfail s. Proof. reflexivity. Qed.
Lemma c_rbfail_set_root : forall o s, c_rbfail (set_root o s) = c_rbfail s. Proof. reflexivity. Qed.
Lemma c_rbfail_set_nested : forall o s, c_rbfail (set_nested o s) = c_rbfail s. Proof. reflexivity. Qed.
Lemma c_rbfail_set_ctx : forall o s, c_rbfail (set_ctx o s) = c_rbfail s. Proof. reflexivity. Qed.
Lemma c_rbfail_set_seq : forall n s, c_rbfail (set_seq n s) = c_rbfail s. Proof. reflexivity. Qed.
Lemma c_rbfail_set_closed : forall b s, c_rbfail (set_closed b s) = c_rbfail s. Proof. reflexivity. Qed.
Lemma c_rbfail_set_in_begin : forall b s, c_rbfail (set_in_begin b s) = c_rbfail s. Proof. reflexivity. Qed.
Lemma c_rbfail_set_beginfail : forall n s, c_rbfail (set_beginfail n s) = c_rbfail s. Proof. reflexivity. Qed.
Lemma c_rbfail_set_rbfail : forall b s, c_rbfail (set_rbfail b s) = b. Proof. reflexivity. Qed.
Lemma c_rbfail_set_db : forall d s, c_rbfail (set_db d s) = c_rbfail s. Proof. reflexivity. Qed.
Lemma c_rbfail_add_out : forall e s, c_rbfail (add_out e s) = c_rbfail s. Proof. reflexivity. Qed.
Lemma c_rbfail_add_warn : forall s, c_rbfail (add_warn s) = c_rbfail s. Proof. reflexivity. Qed.
Lemma c_rbfail_clear_log : forall s, c_rbfail (clear_log s) = c_rbfail s. Proof. reflexivity. Qed.
Lemma s_db_set_root : forall o s, s_db (set_root o s) = s_db s. Proof. reflexivity. Qed.
Lemma s_db_set_nested : forall o s, s_db (set_nested o s) = s_db s. Proof. reflexivity. Qed.
Lemma s_db_set_ctx : forall o s, s_db (set_ctx o s) = s_db s. Proof. reflexivity. Qed.
Lemma s_db_set_seq : forall n s, s_db (set_seq n s) = s_db s. Proof. reflexivity. Qed.
Lemma s_db_set_closed : forall b s, s_db (set_closed b s) = s_db s. Proof. reflexivity. Qed.
Lemma s_db_set_in_begin : forall b s, s_db (set_in_begin b s) = s_db s. Proof. reflexivity. Qed.
Lemma s_db_set_beginfail : forall n s, s_db (set_beginfail n s) = s_db s. Proof. reflexivity. Qed.
Lemma s_db_set_rbfail : forall b s, s_db (set_rbfail b s) = s_db s. Proof. reflexivity. Qed.
Lemma s_db_set_db : forall d s, s_db (set_db d s) = d. Proof. reflexivity. Qed.
Lemma s_db_add_out : forall e s, s_db (add_out e s) = s_db s. Proof. reflexivity. Qed.
Lemma s_db_add_warn : forall s, s_db (add_warn s) = s_db s. Proof. reflexivity. Qed.
Lemma s_db_clear_log : forall s, s_db (clear_log s) = s_db s. Proof. reflexivity. Qed.
Lemma s_out_set_root : forall o s, s_out (set_root o s) = s_out s. Proof. reflexivity. Qed.
Lemma s_out_set_nested : forall o s, s_out (set_nested o s) = s_out s. Proof. reflexivity. Qed.
Lemma s_out_set_ctx : forall o s, s_out (set_ctx o s) = s_out s. Proof. reflexivity. Qed.
Lemma s_out_set_seq : forall n s, s_out (set_seq n s) = s_out s. Proof. reflexivity. Qed.
Lemma s_out_set_closed : forall b s, s_out (set_closed b s) = s_out s. Proof. reflexivity. Qed.
Lemma s_out_set_in_begin : forall b s, s_out (set_in_begin b s) = s_out s. Proof. reflexivity. Qed.
Lemma s_out_set_beginfail : forall n s, s_out (set_beginfail n s) = s_out s. Proof. reflexivity. Qed.
Lemma s_out_set_rbfail : forall b s, s_out (set_rbfail b s) = s_out s. Proof. reflexivity. Qed.
Lemma s_out_set_db : forall d s, s_out (set_db d s) = s_out s. Proof. reflexivity. Qed.
Lemma s_out_add_out : forall e s, s_out (add_out e s) = s_out s ++ [e]. Proof. reflexivity. Qed.
Lemma s_out_add_warn : forall s, s_out (add_warn s) = s_out s. Proof. reflexivity. Qed.
Lemma s_out_clear_log : forall s, s_out (clear_log s) = []. Proof. reflexivity. Qed.
Lemma s_warns_set_root : forall o s, s_warns (set_root o s) = s_warns s. Proof. reflexivity. Qed.
Lemma s_warns_set_nested : forall o s, s_warns (set_nested o s) = s_warns s. Proof. reflexivity. Qed.
Lemma s_warns_set_ctx : forall o s, s_warns (set_ctx o s) = s_warns s. Proof. reflexivity. Qed.
Lemma s_warns_set_seq : forall n s, s_warns (set_seq n s) = s_warns s. Proof. reflexivity. Qed.
Lemma s_warns_set_closed : forall b s, s_warns (set_closed b s) = s_warns s. Proof. reflexivity. Qed.
Lemma s_warns_set_in_begin : forall b s, s_warns (set_in_begin b s) = s_warns s. Proof. reflexivity. Qed.
Lemma s_warns_set_beginfail : forall n s, s_warns (set_beginfail n s) = s_warns s. Proof. reflexivity. Qed.
Lemma s_warns_set_rbfail : forall b s, s_warns (set_rbfail b s) = s_warns s. Proof. reflexivity. Qed.
Lemma s_warns_set_db : forall d s, s_warns (set_db d s) = s_warns s. Proof. reflexivity. Qed.
Lemma s_warns_add_out : forall e s, s_warns (add_out e s) = s_warns s. Proof. reflexivity. Qed.
Lemma s_warns_add_warn : forall s, s_warns (add_warn s) = S (s_warns s). Proof. reflexivity. Qed.
Lemma s_warns_clear_log : forall s, s_warns (clear_log s) = 0. Proof. reflexivity. Qed.
Lemma txns_set_root : forall o s, txns (set_root o s) = txns s. Proof. reflexivity. Qed.
Lemma txns_set_nested : forall o s, txns (set_nested o s) = txns s. Proof. reflexivity. Qed.
Lemma txns_set_ctx : forall o s, txns (set_ctx o s) = txns s. Proof. reflexivity. Qed.
Lemma txns_set_seq : forall n s, txns (set_seq n s) = txns s. Proof. reflexivity. Qed.
Lemma txns_set_closed : forall b s, txns (set_closed b s) = txns s. Proof. reflexivity. Qed.
Lemma txns_set_in_begin : forall b s, txns (set_in_begin b s) = txns s. Proof. reflexivity. Qed.
Lemma txns_set_beginfail : forall n s, txns (set_beginfail n s) = txns s. Proof. reflexivity. Qed.
Lemma txns_set_rbfail : forall b s, txns (set_rbfail b s) = txns s. Proof. reflexivity. Qed.
Lemma txns_set_db : forall d s, txns (set_db d s) = txns s. Proof. reflexivity. Qed.
Lemma txns_add_out : forall e s, txns (add_out e s) = txns s. Proof. reflexivity. Qed.
Lemma txns_add_warn : forall s, txns (add_warn s) = txns s. Proof. reflexivity. Qed.
Lemma txns_clear_log : forall s, txns (clear_log s) = txns s. Proof. reflexivity. Qed.
Lemma c_root_push_txn : forall t s, c_root (push_txn t s) = c_root s. Proof. reflexivity. Qed.
Lemma c_root_upd_txn : forall k f s, c_root (upd_txn k f s) = c_root s. Proof. reflexivity. Qed.
Lemma c_nested_push_txn : forall t s, c_nested (push_txn t s) = c_nested s. Proof. reflexivity. Qed.
Lemma c_nested_upd_txn : forall k f s, c_nested (upd_txn k f s) = c_nested s. Proof. reflexivity. Qed.
Lemma c_ctx_push_txn : forall t s, c_ctx (push_txn t s) = c_ctx s. Proof. reflexivity. Qed.
Lemma c_ctx_upd_txn : forall k f s, c_ctx (upd_txn k f s) = c_ctx s. Proof. reflexivity. Qed.
Lemma c_ctx_set_active : forall k b s, c_ctx (set_active k b s) = c_ctx s. Proof. reflexivity. Qed.
Lemma c_seq_push_txn : forall t s, c_seq (push_txn t s) = c_seq s. Proof. reflexivity. Qed.
Lemma c_seq_upd_txn : forall k f s, c_seq (upd_txn k f s) = c_seq s. Proof. reflexivity. Qed.
Lemma c_seq_set_active : forall k b s, c_seq (set_active k b s) = c_seq s. Proof. reflexivity. Qed.
Lemma c_closed_push_txn : forall t s, c_closed (push_txn t s) = c_closed s. Proof. reflexivity. Qed.
Lemma c_closed_upd_txn : forall k f s, c_closed (upd_txn k f s) = c_closed s. Proof. reflexivity. Qed.
Lemma c_closed_set_active : forall k b s, c_closed (set_active k b s) = c_closed s. Proof. reflexivity. Qed.
Lemma c_in_begin_push_txn : forall t s, c_in_begin (push_txn t s) = c_in_begin s. Proof. reflexivity. Qed.
Lemma c_in_begin_upd_txn : forall k f s, c_in_begin (upd_txn k f s) = c_in_begin s. Proof. reflexivity. Qed.
Lemma c_in_begin_set_active : forall k b s, c_in_begin (set_active k b s) = c_in_begin s. Proof. reflexivity. Qed.
Lemma c_beginfail_push_txn : forall t s, c_beginfail (push_txn t s) = c_beginfail s. Proof. reflexivity. Qed.
Lemma c_beginfail_upd_txn : forall k f s, c_beginfail (upd_txn k f s) = c_beginfail s. Proof. reflexivity. Qed.
Lemma c_beginfail_set_active : forall k b s, c_beginfail (set_active k b s) = c_beginfail s. Proof. reflexivity. Qed.
Lemma c_rbfail_push_txn : forall t s, c_rbfail (push_txn t s) = c_rbfail s. Proof. reflexivity. Qed.
Lemma c_rbfail_upd_txn : forall k f s, c_rbfail (upd_txn k f s) = c_rbfail s. Proof. reflexivity. Qed.
Lemma c_rbfail_set_active : forall k b s, c_rbfail (set_active k b s) = c_rbfail s. Proof. reflexivity. Qed.
Lemma s_db_push_txn : forall t s, s_db (push_txn t s) = s_db s. Proof. reflexivity. Qed.
Lemma s_db_upd_txn : forall k f s, s_db (upd_txn k f s) = s_db s. Proof. reflexivity. Qed.
Lemma s_db_set_active : forall k b s, s_db (set_active k b s) = s_db s. Proof. reflexivity. Qed.
Lemma s_out_push_txn : forall t s, s_out (push_txn t s) = s_out s. Proof. reflexivity. Qed.
Lemma s_out_upd_txn : forall k f s, s_out (upd_txn k f s) = s_out s. Proof. reflexivity. Qed.
Lemma s_out_set_active : forall k b s, s_out (set_active k b s) = s_out s. Proof. reflexivity. Qed.
Lemma s_warns_push_txn : forall t s, s_warns (push_txn t s) = s_warns s. Proof. reflexivity. Qed.
Lemma s_warns_upd_txn : forall k f s, s_warns (upd_txn k f s) = s_warns s. Proof. reflexivity. Qed.
Lemma s_warns_set_active : forall k b s, s_warns (set_active k b s) = s_warns s. Proof. reflexivity. Qed.
