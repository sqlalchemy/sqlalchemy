(* C29 - the asyncio API (greenlet_spawn around every facade method, shielded __aexit__) performs the
   same blocking run as the sync API, for every block of the modelled alphabet *)
From Coq Require Import List ZArith Bool Arith Lia.
Import ListNotations.
From SAV.engine Require Import Async AsyncConn.
Open Scope Z_scope.

Notation sq := (seqv io_step (R := res)).

(* [rok p]: the tree [p] returns Ok at once, without any await *)
Definition rok (p : ptree) : Prop := exists v s, p = Ret (Ok v, s).

Lemma rok_bind (p : ptree) f : rok (bind p f) -> exists r, p = Ret r /\ rok (f r).
Proof.
  destruct p as [r | i k | inner k]; cbn; intros (v & s & H); try discriminate.
  exists r. split; auto. exists v, s. auto.
Qed.
Lemma rok_mbind m f s : rok (mbind m f s) -> exists v s1, m s = Ret (Ok v, s1) /\ rok (f v s1).
Proof.
  unfold mbind. intros H. apply rok_bind in H. destruct H as ([o s1] & E & R). cbn in R.
  destruct o as [v|e].
  - exists v, s1. auto.
  - destruct R as (v & s2 & R). discriminate.
Qed.
Lemma rok_mseq m n s : rok (mseq m n s) -> exists v s1, m s = Ret (Ok v, s1) /\ rok (n s1).
Proof. unfold mseq. intros H. apply rok_mbind in H. exact H. Qed.
Lemma rok_mtry m h s : rok (mtry m h s) -> rok (m s) \/ exists e s1, m s = Ret (Raise e, s1) /\ rok (h e s1).
Proof.
  unfold mtry. intros H. apply rok_bind in H. destruct H as ([o s1] & E & R). cbn in R.
  destruct o as [v|e].
  - left. exists v, s1. auto.
  - right. exists e, s1. auto.
Qed.
Lemma rok_mfinally m fin s : rok (mfinally m fin s) -> rok (m s).
Proof.
  unfold mfinally. intros H. apply rok_bind in H. destruct H as ([o s1] & E & R). cbn in R.
  apply rok_bind in R. destruct R as ([o2 s2] & E2 & R2). cbn in R2.
  destruct o2 as [v2|e2]; destruct R2 as (v & s3 & R2); inversion R2; subst.
  exists v, s1. auto.
Qed.
Lemma not_rok_await i s : ~ rok (await_ i s).
Proof. intros (v & s' & H). discriminate. Qed.
Lemma not_rok_raise e s : ~ rok (mraise e s).
Proof. intros (v & s' & H). discriminate. Qed.

Section Api.
  Variable cf : cfg.

  (* _handle_dbapi_exception always raises *)
  Lemma not_rok_handle ab e cur s : ~ rok (handle_gen cf ab e cur s).
  Proof.
    unfold handle_gen, mget. intros H. apply rok_mfinally in H. apply rok_mseq in H.
    destruct H as (v & s1 & _ & H). exact (not_rok_raise _ _ H).
  Qed.

  Lemma not_rok_new_cursor s : ~ rok (new_cursor cf s).
  Proof.
    unfold new_cursor. intros H. apply rok_mtry in H. destruct H as [H | (e & s1 & _ & H)].
    - apply rok_mseq in H. destruct H as (v0 & s1 & _ & H). apply rok_mbind in H.
      destruct H as (v & s2 & _ & H). destruct v; try exact (not_rok_raise _ _ H).
      apply rok_mseq in H. destruct H as (v1 & s3 & E & _). exact (not_rok_await _ _ (ex_intro _ v1 (ex_intro _ s3 E))).
    - destruct e; try exact (not_rok_raise _ _ H); unfold handle_dbapi_exception in H; exact (not_rok_handle _ _ _ _ H).
  Qed.

  (* Connection.execute on the async adapter never returns without having awaited *)
  Lemma not_rok_conn_execute st s : ~ rok (conn_execute cf st s).
  Proof.
    unfold conn_execute, execute_context. intros H. apply rok_mbind in H.
    destruct H as (v & s1 & E & _). exact (not_rok_new_cursor s (ex_intro _ v (ex_intro _ s1 E))).
  Qed.

  (* ... so _require_await leaves its tree as it is *)
  Lemma spawn_execute st s : peq (acall async_api true (conn_execute cf st) s) (conn_execute cf st s).
  Proof.
    apply spawn_transparent_fix. intros [o s1] E. destruct o as [v|e]; [|reflexivity].
    exfalso. apply (not_rok_conn_execute st s). exists v, s1. exact E.
  Qed.

  (* sync-equivalence of the two APIs *)
  Lemma sq_mbind (m m' : M) f f' s :
    (forall s, sq (m s) (m' s)) -> (forall v s, sq (f v s) (f' v s)) -> sq (mbind m f s) (mbind m' f' s).
  Proof.
    intros A B. unfold mbind. apply seqv_bind; auto. intros [o s1]. cbn. destruct o; auto. apply seqv_refl.
  Qed.
  Lemma sq_mseq (m m' n n' : M) s :
    (forall s, sq (m s) (m' s)) -> (forall s, sq (n s) (n' s)) -> sq (mseq m n s) (mseq m' n' s).
  Proof. intros A B. unfold mseq. apply sq_mbind; auto. Qed.
  Lemma sq_mtry (m m' : M) h h' s :
    (forall s, sq (m s) (m' s)) -> (forall e s, sq (h e s) (h' e s)) -> sq (mtry m h s) (mtry m' h' s).
  Proof.
    intros A B. unfold mtry. apply seqv_bind; auto. intros [o s1]. cbn. destruct o; auto. apply seqv_refl.
  Qed.
  Lemma sq_mfinally (m m' fin fin' : M) s :
    (forall s, sq (m s) (m' s)) -> (forall s, sq (fin s) (fin' s)) -> sq (mfinally m fin s) (mfinally m' fin' s).
  Proof.
    intros A B. unfold mfinally. apply seqv_bind; auto. intros [o s1]. cbn.
    apply seqv_bind; auto. intros r2. apply seqv_refl.
  Qed.

  Lemma sq_acall_false (m : M) s : sq (acall async_api false m s) (acall sync_api false m s).
  Proof. unfold acall. cbn. apply peq_seqv. apply spawn_transparent. Qed.

  Lemma sq_acall_execute st s :
    sq (acall async_api true (conn_execute cf st) s) (acall sync_api true (conn_execute cf st) s).
  Proof. apply peq_seqv. apply spawn_execute. Qed.

  Lemma sq_op_body o s : sq (op_body cf async_api o s) (op_body cf sync_api o s).
  Proof.
    destruct o; cbn [op_body]; try apply sq_acall_false; try apply sq_acall_execute.
    apply sq_mbind; [intros; apply sq_acall_execute|]. intros; apply seqv_refl.
  Qed.

  Lemma sq_run_ops ops : forall s, sq (run_ops cf async_api ops s) (run_ops cf sync_api ops s).
  Proof.
    induction ops as [|o rest IH]; intros s; cbn [run_ops].
    - apply seqv_refl.
    - apply sq_mseq; [|exact IH]. intros s1. apply sq_mtry; [|intros; apply seqv_refl].
      intros s2. apply sq_mbind; [intros; apply sq_op_body|intros; apply seqv_refl].
  Qed.

  Lemma sq_aexit s : sq (aexit cf async_api s) (aexit cf sync_api s).
  Proof.
    unfold aexit. cbn [shielded async_api sync_api]. apply seqv_shield.
    - apply sq_acall_false.
    - intros r. apply seqv_refl.
  Qed.

  Lemma sq_block sty ops s : sq (block cf async_api sty ops s) (block cf sync_api sty ops s).
  Proof.
    destruct sty; cbn [block].
    - apply sq_mseq; [intros; apply sq_acall_false|]. intros s1.
      apply sq_mfinally; [intros; apply sq_run_ops|intros; apply sq_aexit].
    - apply sq_mseq; [intros; apply sq_acall_false|]. intros s1.
      apply sq_mfinally; [intros; apply sq_run_ops|intros; apply sq_acall_false].
    - apply sq_mseq; [intros; apply sq_acall_false|intros; apply sq_run_ops].
  Qed.

  (* C29, first half, at the level of the API: without cancellation the event loop running the
     AsyncEngine/AsyncConnection program yields the same outcome, python state (results included),
     database and DBAPI calls in the same order as the Engine/Connection program *)
  Theorem api_transparent sty ops s w :
    let '(r, w', _, t) := run_loop io_step io_cancel_step io_suspends ECancelled (block cf async_api sty ops s) w [] in
    run_sync io_step (block cf sync_api sty ops s) w = (r, w', flat_map ev_io t) /\ Forall ev_uncancelled t.
  Proof.
    pose proof (run_loop_quiet _ _ _ _ _ io_step io_cancel_step io_suspends ECancelled
                  (block cf async_api sty ops s) w [] (Forall_nil _)) as H.
    destruct (run_loop io_step io_cancel_step io_suspends ECancelled (block cf async_api sty ops s) w []) as [[[r w'] cs'] t].
    destruct H as (H1 & _ & H3). split; auto. rewrite <- (sq_block sty ops s w). exact H1.
  Qed.
End Api.
