(* C29 - cancellation safety of the AsyncConnection life cycle (proofs).

   Two invariants: [Done] (nothing is checked out) and [Vp] (one connection is checked out through the
   Connection, its record and its fairy).  Every piece of the modelled code is a transition between
   them under at most one cancellation: Engine.connect() leads from [Done] to [Vp] or, cancelled, back
   to [Done]; an operation keeps [Vp] or, cancelled, invalidates the connection and re-establishes
   [Done] ([keeps]); Connection.close() and the collector lead to [Done].
   Names: [x_S] is operation x on a stream with at most one cancellation; [x_q] is a piece of the clean-up
   code, which only runs once the one cancellation has been delivered, i.e. (wp_quiet) on the empty stream;
   [x_room] is x when the pool queue is not full. *)
From Coq Require Import List ZArith Bool Arith Lia.
Import ListNotations.
From SAV.engine Require Import Async AsyncConn AsyncExec AsyncWorld AsyncApi.
Open Scope Z_scope.

Lemma exec_ncancel m s w cs o s' w' cs' :
  exec m s w cs = (o, s', w', cs') -> (ncancel cs' <= ncancel cs)%nat.
Proof.
  unfold exec, rl. intros H.
  pose proof (run_loop_ncancel _ _ _ _ _ io_step io_cancel_step io_suspends ECancelled (m s) w cs) as A.
  destruct (run_loop io_step io_cancel_step io_suspends ECancelled (m s) w cs) as [[[r1 w1] cs1] t1].
  inversion H; subst. exact A.
Qed.

(* from here on a run is taken apart by the rules only: [cbn] must not unfold [exec] into [run_loop] *)
Global Opaque exec.

(* runs the code at the head of a goal [wp m s w cs Q] by the rules of AsyncExec.v, as far as they go:
   up to the next operation (to be unfolded by name, or to be run by its own lemma), the next
   suspension on a stream that may cancel, or a test the state does not decide *)
Ltac ex :=
  repeat first
    [ simple apply wp_ret | simple apply wp_unit | simple apply wp_raise | simple apply wp_mod | simple apply wp_get
    | simple apply wp_bind | simple apply wp_seq | simple apply wp_try | simple apply wp_finally
    | simple apply wp_await_nil | (simple apply wp_nosusp; [reflexivity|])
    | progress (unfold set_q, set_ov, set_cur, set_fo, set_c_fairy, set_recon, set_txn, set_n_out,
                  set_n_in, set_n_warn, set_oom, set_olog; cbn) ].

Section Safe.
  Variable cf : cfg.
  (* pool_size = 0 means "no limit" to QueuePool (maxov); with a limit, an empty queue and nothing checked
     out mean _overflow < 0, so that Engine.connect() may create a connection (no_wait) *)
  Hypothesis Hps : 1 <= psize cf.

  Definition rec_ok (w : world) (r : rec) : Prop :=
    r_fairy r = false /\
    match r_conn r with Some c => (c < nconn w)%nat /\ d_open (getc w c) = true | None => True end.
  Definition qok (q : list rec) (w : world) : Prop := Forall (rec_ok w) q.

  (* nothing is checked out: every record is back in the pool exactly once, every pooled connection
     is alive, no connection at all has an open transaction.  [d_acct]: QueuePool counts
     _overflow = (records in existence) - pool_size, starting at 0 - pool_size (init_pst), and with nothing
     checked out the records in existence are those in the queue *)
  Record Done (s : pst) (w : world) : Prop := {
    d_room : Z.of_nat (length (q s)) <= psize cf;
    d_acct : ov s = Z.of_nat (length (q s)) - psize cf;
    d_cnt : n_out s = n_in s;
    d_q : qok (q s) w;
    d_nd : NoDup (qconns (q s));
    d_notxn : forall c, d_txn (getc w c) = false;
    d_oom : oom s = false;
    d_curf : cur_fairy s = false }.

  (* [Done] does not look at the Connection object, the fairy, the warnings or the user's log *)
  Lemma done_ext {s s' w} : Done s w ->
    (q s', ov s', n_out s', n_in s', oom s', cur_fairy s') = (q s, ov s, n_out s, n_in s, oom s, cur_fairy s) ->
    Done s' w.
  Proof. intros [] E. inversion E. constructor; congruence. Qed.

  (* what [Done] says, in the words of the property *)
  Lemma done_spelled s w : Done s w ->
    psize cf - Z.of_nat (length (q s)) + ov s = 0 /\
    n_out s = n_in s /\
    (forall r c, In r (q s) -> r_conn r = Some c -> d_open (getc w c) = true /\ d_txn (getc w c) = false) /\
    NoDup (qconns (q s)) /\
    (forall c, d_txn (getc w c) = false) /\
    cur_fairy s = false /\ oom s = false.
  Proof.
    intros [D1 D2 D3 D4 D5 D6 D7 D8]. split; [lia|]. split; [auto|]. split; [|auto].
    intros r c Hr Hc. unfold qok in D4. rewrite Forall_forall in D4. destruct (D4 r Hr) as [_ B]. rewrite Hc in B.
    split; [tauto|auto].
  Qed.

  (* the queue and the driver's connections *)
  Lemma notin_existsb c (l : list nat) : ~ In c l -> existsb (Nat.eqb c) l = false.
  Proof.
    intros H. destruct (existsb (Nat.eqb c) l) eqn:E; auto. apply existsb_exists in E.
    destruct E as (x & Hx & He). apply Nat.eqb_eq in He. subst. contradiction.
  Qed.

  Lemma not_full (q0 : list rec) : Z.of_nat (length q0) < psize cf ->
    (0 <? psize cf) && (Z.of_nat (length q0) =? psize cf) = false.
  Proof. intros H. apply andb_false_iff. right. apply Z.eqb_neq. lia. Qed.

  Lemma qconns_app q r : qconns (q ++ [r]) = qconns q ++ match r_conn r with Some c => [c] | None => [] end.
  Proof. unfold qconns. rewrite flat_map_app. cbn. rewrite app_nil_r. reflexivity. Qed.

  Lemma in_qconns q c : In c (qconns q) <-> exists r, In r q /\ r_conn r = Some c.
  Proof.
    unfold qconns. rewrite in_flat_map. split.
    - intros (r & Hr & Hc). exists r. split; auto. destruct (r_conn r); cbn in Hc; [destruct Hc as [->|[]]; auto|contradiction].
    - intros (r & Hr & Hc). exists r. split; auto. rewrite Hc. cbn. auto.
  Qed.

  Lemma qok_frame q c w w' : qok q w -> ~ In c (qconns q) -> same_except c w w' -> qok q w'.
  Proof.
    intros Hq Hn [Hl Hg]. unfold qok in *. rewrite Forall_forall in *. intros r Hr.
    destruct (Hq r Hr) as [A B]. split; auto. destruct (r_conn r) as [c'|] eqn:E; auto.
    assert (c' <> c). { intros ->. apply Hn. apply in_qconns. eauto. }
    rewrite Hl, Hg; auto.
  Qed.

  Lemma qok_app q r w : qok q w -> rec_ok w r -> qok (q ++ [r]) w.
  Proof. intros. apply Forall_app. split; auto. Qed.

  Lemma qok_new q w d : qok q w -> qok q (new_conn w d) /\ ~ In (nconn w) (qconns q).
  Proof.
    intros Hq. split.
    - unfold qok in *. rewrite Forall_forall in *. intros r Hr. destruct (Hq r Hr) as [A B]. split; auto.
      destruct (r_conn r) as [c'|]; auto. destruct B as [B1 B2]. rewrite nconn_new. split; [lia|].
      rewrite getc_new_other; auto. lia.
    - intros Hin. apply in_qconns in Hin. destruct Hin as (r & Hr & Hc). unfold qok in Hq. rewrite Forall_forall in Hq.
      destruct (Hq r Hr) as [_ B]. rewrite Hc in B. lia.
  Qed.

  Lemma notxn_new w d : d_txn d = false -> (forall c, d_txn (getc w c) = false) ->
    forall c, d_txn (getc (new_conn w d) c) = false.
  Proof.
    intros Hd H c. destruct (Nat.eq_dec c (nconn w)) as [->|Hne].
    - rewrite getc_new_same. auto.
    - rewrite getc_new_other; auto.
  Qed.

  Lemma notxn_closed w c : (forall c', c' <> c -> d_txn (getc w c') = false) ->
    forall c', d_txn (getc (closed_conn w c) c') = false.
  Proof.
    intros H c'. destruct (Nat.eq_dec c' c) as [->|Hne].
    - rewrite getc_closed_same. reflexivity.
    - unfold closed_conn. rewrite getc_setc_other; auto.
  Qed.

  (* the clean-up code *)
  Lemma close_connection_q ing c s w (Q : post) : ~ In c (qconns (q s)) ->
    Q (Ok VUnit) s (closed_conn w c) [] -> wp (close_connection ing c true) s w [] Q.
  Proof.
    intros H HQ. unfold close_connection. ex. rewrite (notin_existsb _ _ H). ex.
    unfold terminate. destruct ing; ex; exact HQ.
  Qed.

  Lemma rec_invalidate_q q1 ov1 c b f cfy rc tx no ni nw om lg w (Q : post) : ~ In c (qconns q1) ->
    Q (Ok VUnit) (mkpst q1 ov1 (Some (mkrec None b)) f cfy rc tx no ni nw om lg) (closed_conn w c) [] ->
    wp (rec_invalidate true) (mkpst q1 ov1 (Some (mkrec (Some c) b)) f cfy rc tx no ni nw om lg) w [] Q.
  Proof.
    intros H HQ. unfold rec_invalidate. ex. unfold rec_close_impl. ex. apply close_connection_q; [exact H|]. ex. exact HQ.
  Qed.

  (* the queue is not full: the record goes to its end *)
  Lemma pool_return_room q1 ov1 r f cfy rc tx no ni nw om lg w cs (Q : post) : Z.of_nat (length q1) < psize cf ->
    Q (Ok VUnit) (mkpst (q1 ++ [r]) ov1 (Some r) f cfy rc tx no (S ni) nw om lg) w cs ->
    wp (pool_return cf) (mkpst q1 ov1 (Some r) f cfy rc tx no ni nw om lg) w cs Q.
  Proof. intros H HQ. unfold pool_return. ex. rewrite (not_full _ H). ex. exact HQ. Qed.

  Lemma rec_checkin_room created q1 ov1 oc b f cfy rc tx no ni nw om lg w cs (Q : post) :
    negb b && created = false -> Z.of_nat (length q1) < psize cf ->
    Q (Ok VUnit) (mkpst (q1 ++ [mkrec oc false]) ov1 (Some (mkrec oc false)) f cfy rc tx no (S ni) nw om lg) w cs ->
    wp (rec_checkin cf created) (mkpst q1 ov1 (Some (mkrec oc b)) f cfy rc tx no ni nw om lg) w cs Q.
  Proof. intros Hb H HQ. unfold rec_checkin. ex. rewrite Hb. ex. apply pool_return_room; [exact H|exact HQ]. Qed.

  Lemma rec_checkin_failed_q q1 ov1 oc b f cfy rc tx no ni nw om lg w (Q : post) :
    Z.of_nat (length q1) < psize cf -> match oc with Some c => ~ In c (qconns q1) | None => True end ->
    Q (Ok VUnit) (mkpst (q1 ++ [mkrec None false]) ov1 (Some (mkrec None false)) f cfy rc tx no (S ni) nw om lg)
      (match oc with Some c => closed_conn w c | None => w end) [] ->
    wp (rec_checkin_failed cf false) (mkpst q1 ov1 (Some (mkrec oc b)) f cfy rc tx no ni nw om lg) w [] Q.
  Proof.
    intros Hroom Hnot HQ. unfold rec_checkin_failed. ex. destruct oc as [c|].
    - apply rec_invalidate_q; [exact Hnot|]. ex. apply rec_checkin_room; [apply andb_false_r|exact Hroom|]. ex. exact HQ.
    - unfold rec_invalidate. ex. apply rec_checkin_room; [apply andb_false_r|exact Hroom|]. ex. exact HQ.
  Qed.

  (* Connection.close() on a Connection that holds no fairy does no IO and leaves the pool alone *)
  Lemma conn_close_no_fairy s w cs (Q : post) : c_fairy s = false ->
    Q (Ok VUnit) (set_recon (set_txn s None) false) w cs -> wp (conn_close cf) s w cs Q.
  Proof.
    destruct s as [q0 ov0 cu f cfy rc tx no ni nw om lg]. cbn. intros -> HQ.
    unfold conn_close. destruct tx as [[|]|]; ex; unfold txn_close_impl; ex;
      unfold rollback_impl, rollback_impl_gen; ex; exact HQ.
  Qed.

  (* garbage collection when nothing is checked out: the weakref callback (if any) returns at once *)
  Lemma gc_idle s w (Q : post) : cur_fairy s = false ->
    Q (Ok VUnit) (set_fo (set_txn (set_recon (set_c_fairy s false) false) None) None) w [] ->
    wp (gc_collect cf) s w [] Q.
  Proof.
    destruct s as [q0 ov0 cu f cfy rc tx no ni nw om lg]. intros Hf HQ.
    unfold gc_collect. destruct cu as [[oc b]|]; cbn in Hf; subst; ex; destruct f as [f0|]; ex;
      try (unfold finalize_fairy; ex); exact HQ.
  Qed.

  Lemma gc_done s w : Done s w ->
    wp (gc_collect cf) s w [] (fun _ s' w' _ => Done s' w' /\ n_warn s' = n_warn s).
  Proof. intros D. apply gc_idle; [apply D|]. split; [apply (done_ext D)|]; reflexivity. Qed.

  (* how a task leaves the engine (the conclusion of block_safe): safe, without a warning, at most the one
     cancellation still to come *)
  Definition safe_post (nw : nat) : post := fun o s' w' cs' =>
    Done s' w' /\ n_warn s' = nw /\ (ncancel cs' <= 1)%nat /\ (o = Ok VUnit \/ o = Raise ECancelled).

  (* the books while a connection is checked out: the queue and the overflow counter, Connection.__can_reconnect,
     the ghost counters, the warnings so far *)
  Record books := mkbk { bk_q : list rec; bk_ov : Z; bk_rc : bool; bk_no : nat; bk_ni : nat; bk_nw : nat }.
  (* the python state while connection [c] is checked out through the fairy held by the Connection ... *)
  Notation vstate k c tx lg :=
    (mkpst (bk_q k) (bk_ov k) (Some (mkrec (Some c) true)) (Some (mkfairy true (Some c))) true (bk_rc k) tx
           (bk_no k) (bk_ni k) (bk_nw k) false lg).
  (* ... and the state once the connection has been invalidated and its record returned empty *)
  Notation istate k tx lg :=
    (mkpst (bk_q k ++ [mkrec None false]) (bk_ov k) (Some (mkrec None false)) (Some (mkfairy false None)) false (bk_rc k) tx
           (bk_no k) (S (bk_ni k)) (bk_nw k) false lg).

  (* connection [c] is checked out, [k] are the books meanwhile, [tx] is Connection._transaction (never an
     inactive one).  [v_acct]: one record more exists than the queue holds; [v_cnt]: one hand-out more than returns *)
  Record Vp (k : books) (c : nat) (tx : option bool) (w : world) : Prop := {
    v_room : Z.of_nat (length (bk_q k)) < psize cf;
    v_acct : bk_ov k = Z.of_nat (length (bk_q k)) - psize cf + 1;
    v_cnt : bk_no k = S (bk_ni k);
    v_q : qok (bk_q k) w;
    v_nd : NoDup (qconns (bk_q k));
    v_notin : ~ In c (qconns (bk_q k));
    v_c : (c < nconn w)%nat;
    v_open : d_open (getc w c) = true;
    v_others : forall c', c' <> c -> d_txn (getc w c') = false;
    v_tx : tx <> Some false }.

  Lemma Vp_frame {k c} tx tx' w w' :
    Vp k c tx w -> same_except c w w' -> d_open (getc w' c) = true -> tx' <> Some false -> Vp k c tx' w'.
  Proof.
    intros V F O T. destruct V. constructor; auto.
    - eapply qok_frame; eauto.
    - destruct F as [Hl _]. rewrite Hl. auto.
    - intros c' Hne. destruct F as [_ Hg]. rewrite Hg; auto.
  Qed.

  Lemma Vp_tx {k c} tx tx' w : Vp k c tx w -> tx' <> Some false -> Vp k c tx' w.
  Proof. intros V. eapply (Vp_frame tx tx' w w V); [apply same_except_refl|apply V]. Qed.

  Lemma Vp_txn {k c} tx w : Vp k c tx w -> tx = Some true \/ tx = None.
  Proof. intros V. destruct tx as [[|]|]; auto. destruct (v_tx _ _ _ _ V). reflexivity. Qed.

  (* the checked-out connection goes back alive and rolled back *)
  Lemma done_returned {k c} tx w fo' cf' rc' tx' nw' lg :
    Vp k c tx w -> d_txn (getc w c) = false ->
    Done (mkpst (bk_q k ++ [mkrec (Some c) false]) (bk_ov k) (Some (mkrec (Some c) false)) fo' cf' rc' tx'
               (bk_no k) (S (bk_ni k)) nw' false lg) w.
  Proof.
    intros V Ht. destruct V. constructor; cbn [q ov n_out n_in oom cur_fairy cur r_fairy]; auto.
    - rewrite app_length. cbn. lia.
    - rewrite app_length. cbn. lia.
    - apply qok_app; [auto|split; cbn; auto].
    - rewrite qconns_app. cbn. apply (NoDup_Add (Add_app c _ [])). rewrite app_nil_r. auto.
    - intros c'. destruct (Nat.eq_dec c' c) as [->|]; auto.
  Qed.

  (* the checked-out connection was closed; its record goes back empty *)
  Lemma done_invalidated {k c} tx w fo' cf' rc' tx' nw' lg :
    Vp k c tx w ->
    Done (mkpst (bk_q k ++ [mkrec None false]) (bk_ov k) (Some (mkrec None false)) fo' cf' rc' tx'
               (bk_no k) (S (bk_ni k)) nw' false lg)
         (closed_conn w c).
  Proof.
    intros V. destruct V. constructor; cbn [q ov n_out n_in oom cur_fairy cur r_fairy]; auto.
    - rewrite app_length. cbn. lia.
    - rewrite app_length. cbn. lia.
    - apply qok_app; [eapply qok_frame; eauto; apply closed_frame|split; cbn; auto].
    - rewrite qconns_app. cbn. rewrite app_nil_r. auto.
    - apply notxn_closed. auto.
  Qed.

  (* a request on [c] that does not close it, under at most one cancellation: either way [c] stays
     checked out and open *)
  Lemma await_V {k c tx w} (V : Vp k c tx w) i s cs (Q : post) :
    io_conn i = Some c -> io_closes i = false -> io_suspends i = true -> (ncancel cs <= 1)%nat ->
    (forall cs1, (ncancel cs1 <= 1)%nat -> Vp k c tx (snd (io_step w i)) ->
                 Q (of_reply (fst (io_step w i))) s (snd (io_step w i)) cs1) ->
    (forall w1 cs1, Vp k c tx w1 -> ncancel cs1 = 0%nat -> Q (Raise ECancelled) s w1 cs1) ->
    wp (await_ i) s w cs Q.
  Proof.
    intros Hi Hcl Hs Hc Hn Hx. apply wp_await; auto.
    - intros cs1 H1. apply Hn; auto.
      eapply Vp_frame; [exact V|apply io_step_frame; auto|apply io_step_keeps_open; auto; apply V|apply V].
    - intros eff cs1 H0. apply Hx; auto. destruct (cancel_world i c w eff Hi) as [F O].
      eapply Vp_frame; [exact V|exact F|apply O; auto; apply V|apply V].
  Qed.

  (* _handle_dbapi_exception(CancelledError) on a valid connection: invalidate, re-raise *)
  Lemma handle_cancel {k c} tx lg w cs cursor (Q : post) : Vp k c tx w -> ncancel cs = 0%nat ->
    (forall cs', ncancel cs' = 0%nat -> Q (Raise ECancelled) (istate k tx lg) (closed_conn w c) cs') ->
    wp (handle_dbapi_exception cf ECancelled cursor) (vstate k c tx lg) w cs Q.
  Proof.
    intros V H0 HQ. apply wp_quiet; [exact H0|].
    unfold handle_dbapi_exception, handle_gen. ex. unfold conn_invalidate. ex. unfold fairy_invalidate. ex.
    apply rec_invalidate_q; [apply V|]. ex. unfold finalize_fairy. ex.
    apply rec_checkin_room; [reflexivity|apply V|]. ex. exact HQ.
  Qed.

  (* AsyncAdapt_aiosqlite_connection.rollback / commit *)
  Lemma end_txn_S {k c tx w} (V : Vp k c tx w) i s cs (Q : post) :
    i = IoRollback c \/ i = IoCommit c -> (ncancel cs <= 1)%nat ->
    (forall w1 cs1, Vp k c tx w1 -> d_txn (getc w1 c) = false -> (ncancel cs1 <= 1)%nat -> Q (Ok VUnit) s w1 cs1) ->
    (forall w1 cs1, Vp k c tx w1 -> ncancel cs1 = 0%nat -> Q (Raise ECancelled) s w1 cs1) ->
    wp (b <- await_ (IoProbe c) ;; match b with VBool true => await_ i | _ => munit end) s w cs Q.
  Proof.
    intros Hi Hc Hn Hx. ex. rewrite (v_open _ _ _ _ V).
    apply (await_V V i); auto; try (destruct Hi; subst; reflexivity).
    intros cs1 H1 V1. destruct (step_end_txn_open w c i Hi (v_open _ _ _ _ V)) as [R T]. rewrite R. apply Hn; auto.
  Qed.

  Lemma rollback_impl_S {k c} tx lg w cs (Q : post) : Vp k c tx w -> (ncancel cs <= 1)%nat ->
    (forall w1 cs1, Vp k c tx w1 -> d_txn (getc w1 c) = false -> (ncancel cs1 <= 1)%nat ->
      Q (Ok VUnit) (vstate k c tx lg) w1 cs1) ->
    (forall w1 cs1, Vp k c tx w1 -> ncancel cs1 = 0%nat ->
      Q (Raise ECancelled) (istate k tx lg) (closed_conn w1 c) cs1) ->
    wp (rollback_impl cf) (vstate k c tx lg) w cs Q.
  Proof.
    intros V Hc Hn Hx. unfold rollback_impl, rollback_impl_gen. ex. unfold connection_prop. ex. unfold the_conn. ex.
    apply (end_txn_S V (IoRollback c)); auto.
    intros w1 cs1 V1 H0. ex. apply handle_cancel; auto.
  Qed.

  Lemma conn_close_checked_out {k c} tx lg w cs : Vp k c tx w -> (ncancel cs <= 1)%nat ->
    wp (conn_close cf) (vstate k c tx lg) w cs (safe_post (bk_nw k)).
  Proof.
    intros V Hc. unfold conn_close. destruct (Vp_txn _ _ V) as [-> | ->]; ex.
    - (* a transaction is active: Transaction.close() rolls back, the fairy is returned without reset *)
      unfold txn_close_impl. ex. apply rollback_impl_S; auto.
      + intros w1 cs1 V1 T H1. ex. unfold fairy_close, finalize_fairy. ex. unfold fairy_reset. ex.
        apply rec_checkin_room; [reflexivity|apply V|]. ex.
        split; [eapply done_returned; eauto|auto].
      + intros w1 cs1 V1 H0. ex. split; [eapply done_invalidated; eauto|]. split; [reflexivity|]. split; [lia|auto].
    - (* no transaction: rollback-on-return in _finalize_fairy *)
      unfold fairy_close, finalize_fairy. ex. unfold fairy_reset. ex.
      apply (end_txn_S V (IoRollback c)); auto.
      + intros w1 cs1 V1 T H1. ex. apply rec_checkin_room; [reflexivity|apply V|]. ex.
        split; [eapply done_returned; eauto|auto].
      + (* the except-arm of _finalize_fairy after a cancelled rollback-on-return (/repo 51edfd0) *)
        intros w1 cs1 V1 H0. ex. apply wp_quiet; [exact H0|]. unfold finalize_except. ex.
        apply rec_invalidate_q; [apply V|]. ex. apply rec_checkin_room; [reflexivity|apply V|]. ex.
        intros cs' H0'. split; [eapply done_invalidated; eauto|]. split; [reflexivity|]. split; [lia|auto].
  Qed.

  (* a Connection that was never closed is reclaimed by the collector: the weakref callback cannot
     await, so the DBAPI connection is detached and terminated (force-closed) and the record goes
     back empty; the "non-checked-in connection" warning is emitted *)
  Lemma gc_valid {k c} tx lg w (Q : post) : Vp k c tx w ->
    Q (Ok VUnit)
      (mkpst (bk_q k ++ [mkrec None false]) (bk_ov k) (Some (mkrec None false)) None false false None
               (bk_no k) (S (bk_ni k)) (S (bk_nw k)) false lg)
      (closed_conn w c) [] ->
    wp (gc_collect cf) (vstate k c tx lg) w [] Q.
  Proof.
    intros V HQ. unfold gc_collect. ex. unfold finalize_fairy. ex. unfold fairy_reset. ex.
    unfold fairy_detach. ex. apply pool_return_room; [apply V|]. ex.
    apply close_connection_q.
    - cbn [q]. rewrite qconns_app. cbn. rewrite app_nil_r. apply V.
    - ex. unfold warn. ex. exact HQ.
  Qed.

  (* the Connection operations from a valid checkout *)
  (* a cancellation was delivered: the connection is still checked out and valid, or it was
     invalidated and nothing is checked out any more *)
  Definition cancelled_post k c (s' : pst) (w' : world) (cs' : list cdec) : Prop :=
    ncancel cs' = 0%nat /\
    ((exists tx' lg', s' = vstate k c tx' lg' /\ Vp k c tx' w')
     \/ (c_fairy s' = false /\ n_warn s' = bk_nw k /\ Done s' w')).
  (* an operation ends with an outcome in [okp] and the connection still checked out, or cancelled *)
  Definition op_post k c (okp : outcome -> Prop) : post := fun o s' w' cs' =>
    (exists tx' lg', s' = vstate k c tx' lg' /\ Vp k c tx' w' /\ okp o /\ (ncancel cs' <= 1)%nat)
    \/ (o = Raise ECancelled /\ cancelled_post k c s' w' cs').
  Definition ordinary (o : outcome) : Prop := o <> Raise ECancelled.

  Lemma op_ok {k c} (okp : outcome -> Prop) o tx lg w cs :
    okp o -> Vp k c tx w -> (ncancel cs <= 1)%nat ->
      op_post k c okp o (vstate k c tx lg) w cs.
  Proof. intros. left. eauto 6. Qed.
  Lemma op_cancelled {k c} okp s w cs : cancelled_post k c s w cs ->
    op_post k c okp (Raise ECancelled) s w cs.
  Proof. right. auto. Qed.
  Lemma cancelled_valid {k c} tx lg w cs : Vp k c tx w -> ncancel cs = 0%nat ->
    cancelled_post k c (vstate k c tx lg) w cs.
  Proof. intros. split; eauto. Qed.
  Lemma cancelled_invalid {k c} tx tx' lg w cs :
    Vp k c tx w -> ncancel cs = 0%nat ->
      cancelled_post k c (istate k tx' lg) (closed_conn w c) cs.
  Proof. intros V H. split; [exact H|]. right. split; [|split]; try reflexivity. eapply done_invalidated; eauto. Qed.

  Lemma op_post_single {k c} okp o s w cs : op_post k c okp o s w cs -> (ncancel cs <= 1)%nat.
  Proof. intros [(_ & _ & _ & _ & _ & H) | (_ & H & _)]; lia. Qed.

  (* what follows an operation: its normal results go on, a cancellation has to pass through *)
  Lemma op_then {k c} okp (Q : post) m s w cs :
    wp m s w cs (op_post k c okp) ->
    (forall o tx lg w' cs', okp o -> Vp k c tx w' -> (ncancel cs' <= 1)%nat ->
      Q o (vstate k c tx lg) w' cs') ->
    (forall s' w' cs', cancelled_post k c s' w' cs' -> Q (Raise ECancelled) s' w' cs') ->
    wp m s w cs Q.
  Proof.
    intros H Hn Hx. apply (wp_conseq H).
    intros o s' w' cs' [(tx & lg & -> & V & Ho & H1) | (-> & Hc)]; auto.
  Qed.

  (* [m], started with [c] checked out, keeps it so or is cancelled *)
  Definition keeps (c : nat) (tx : option bool) (m : M) (okp : outcome -> Prop) : Prop :=
    forall k lg w cs, Vp k c tx w -> (ncancel cs <= 1)%nat -> wp m (vstate k c tx lg) w cs (op_post k c okp).

  Lemma handle_cancel_invalidates {k c} okp tx lg w cs cursor : Vp k c tx w -> ncancel cs = 0%nat ->
    wp (handle_dbapi_exception cf ECancelled cursor) (vstate k c tx lg) w cs (op_post k c okp).
  Proof. intros V H0. apply handle_cancel; auto. intros. eapply op_cancelled, cancelled_invalid; eauto. Qed.

  Lemma new_cursor_S c tx : keeps c tx (new_cursor cf) (eq (Ok (VConn c))).
  Proof.
    intros k lg w cs V Hc. unfold new_cursor. ex. unfold the_conn. ex. apply (await_V V (IoCursor c)); auto.
    - intros cs1 H1 V1. rewrite (step_simple_open w c (IoCursor c)) by (auto; apply V). ex. apply op_ok; auto.
    - intros w1 cs1 V1 H0. ex. apply handle_cancel_invalidates; auto.
  Qed.

  (* _handle_dbapi_exception for an ordinary DBAPI error of a statement *)
  Lemma handle_error_S c e tx : e = EIntegrity \/ e = EOperational ->
    keeps c tx (handle_dbapi_exception cf e (Some c)) (eq (Raise e)).
  Proof.
    intros He k lg w cs V Hc.
    assert (Hd : is_exit_exception e = false /\ is_dbapi_error e = true /\ is_disconnect e = false)
      by (destruct He; subst; auto).
    destruct Hd as (D1 & D2 & D3).
    unfold handle_dbapi_exception, handle_gen. ex. rewrite D1, D2, D3. ex. unfold safe_close_cursor. ex.
    unfold cursor_close. apply (await_V V (IoCursorClose c)); auto.
    - intros cs1 H1 V1. rewrite (step_simple_open w c (IoCursorClose c)) by (auto; apply V). ex.
      destruct (Vp_txn _ _ V) as [-> | ->]; ex.
      + apply op_ok; auto.
      + (* outside a transaction: the autorollback *)
        unfold rollback_impl_gen. ex. unfold connection_prop. ex. unfold the_conn. ex.
        apply (end_txn_S V (IoRollback c)); auto.
        * intros w1 cs2 V2 T H2. ex. apply op_ok; auto.
        * intros w1 cs2 V2 H0. ex. unfold handle0. ex. apply op_cancelled, cancelled_valid; auto.
    - intros w1 cs1 V1 H0. ex. apply op_cancelled, cancelled_valid; auto.
  Qed.

  Lemma exec_single_S c st tx : keeps c tx (exec_single cf c st) ordinary.
  Proof.
    intros k lg w cs V Hc. unfold exec_single. ex. unfold cursor_execute. ex.
    apply (await_V V (IoExec c st)); auto; [|intros; ex; apply handle_cancel_invalidates; auto].
    intros cs1 H1 V1. set (w1 := snd (io_step w (IoExec c st))) in *.
    destruct (step_exec_open w c st (v_open _ _ _ _ V)) as [R | R].
    - rewrite R. ex. destruct (returns_rows st); ex.
      + apply (await_V V1 (IoFetch c)); auto; [|intros; ex; apply handle_cancel_invalidates; auto].
        intros cs2 H2 V2. rewrite step_fetch_open by apply V1. ex. apply op_ok; [discriminate|auto..].
      + unfold cursor_close. apply (await_V V1 (IoCursorClose c)); auto; [|intros; ex; apply handle_cancel_invalidates; auto].
        intros cs2 H2 V2. rewrite (step_simple_open w1 c (IoCursorClose c)) by (auto; apply V1). ex.
        apply op_ok; [discriminate|auto..].
    - assert (He : exists e, fst (io_step w (IoExec c st)) = inr e /\ (e = EIntegrity \/ e = EOperational))
        by (destruct R as [R|R]; eauto).
      destruct He as (e & Re & He). rewrite Re. ex.
      eapply (op_then (eq (Raise e))); [apply handle_error_S; auto| |intros; apply op_cancelled; auto].
      intros o tx' lg' w' cs' <- V' H2. apply op_ok; auto. destruct He; subst; discriminate.
  Qed.

  (* Connection._execute_context, whatever [autobegin] is: Connection.begin, or nothing inside the
     "begin" listener *)
  Lemma execute_context_S c ab st tx :
    keeps c None ab ordinary -> keeps c tx (execute_context cf ab st) ordinary.
  Proof.
    intros Hab k lg w cs V Hc. unfold execute_context. ex.
    eapply (op_then (eq (Ok (VConn c)))); [apply new_cursor_S; auto| |intros; apply op_cancelled; auto].
    intros o tx' lg' w' cs' <- V' H1. ex. destruct (Vp_txn _ _ V') as [-> | ->]; ex.
    - apply exec_single_S; auto.
    - eapply (op_then ordinary); [apply Hab; auto| |intros; apply op_cancelled; auto].
      intros o tx2 lg2 w2 cs2 Ho V2 H2. destruct o as [v|e]; ex; [apply exec_single_S; auto|apply op_ok; auto].
  Qed.

  (* RootTransaction.__init__: BEGIN through the "begin" listener *)
  Lemma root_transaction_S c : keeps c None (root_transaction cf) ordinary.
  Proof.
    intros k lg w cs V Hc. unfold root_transaction. ex.
    eapply (op_then ordinary); [apply execute_context_S; auto| |intros; apply op_cancelled; auto].
    - intros lg' w' cs' V' Hc'. ex. apply op_ok; [discriminate|auto..].
    - intros o tx' lg' w' cs' Ho V' H1. destruct o as [v|e]; ex; apply op_ok; auto; try discriminate.
      eapply (Vp_tx tx'); [exact V'|discriminate].
  Qed.

  Lemma conn_begin_S c tx : keeps c tx (conn_begin cf) ordinary.
  Proof.
    intros k lg w cs V Hc. unfold conn_begin. ex. destruct tx as [a|]; ex.
    - apply op_ok; [discriminate|auto..].
    - apply root_transaction_S; auto.
  Qed.

  Lemma conn_execute_S c st tx : keeps c tx (conn_execute cf st) ordinary.
  Proof. apply execute_context_S, conn_begin_S. Qed.

  Lemma conn_commit_S c tx : keeps c tx (conn_commit cf) ordinary.
  Proof.
    intros k lg w cs V Hc. unfold conn_commit. ex. destruct (Vp_txn _ _ V) as [-> | ->]; ex.
    - unfold txn_commit. ex. unfold commit_impl. ex. unfold connection_prop. ex. unfold the_conn. ex.
      apply (end_txn_S V (IoCommit c)); auto.
      + intros w1 cs1 V1 T H1. ex. apply op_ok; [discriminate| |auto]. eapply (Vp_tx (Some true)); [exact V1|discriminate].
      + intros w1 cs1 V1 H0. ex. apply handle_cancel; auto. intros cs' H0'. ex.
        eapply op_cancelled, cancelled_invalid; eauto.
    - apply op_ok; [discriminate|auto..].
  Qed.

  Lemma conn_rollback_S c tx : keeps c tx (conn_rollback cf) ordinary.
  Proof.
    intros k lg w cs V Hc. unfold conn_rollback. ex. destruct (Vp_txn _ _ V) as [-> | ->]; ex.
    - unfold txn_close_impl. ex. apply rollback_impl_S; auto.
      + intros w1 cs1 V1 T H1. ex. apply op_ok; [discriminate| |auto]. eapply (Vp_tx (Some true)); [exact V1|discriminate].
      + intros w1 cs1 V1 H0. ex. eapply op_cancelled, cancelled_invalid; eauto.
    - apply op_ok; [discriminate|auto..].
  Qed.

  (* the user-level operations through the asyncio API *)
  Lemma wp_spawn_execute st s w cs Q :
    wp (conn_execute cf st) s w cs Q -> wp (acall async_api true (conn_execute cf st)) s w cs Q.
  Proof. unfold wp. rewrite (exec_peq _ _ s w cs (spawn_execute cf st s)). auto. Qed.

  Lemma op_body_S c o tx : keeps c tx (op_body cf async_api o) ordinary.
  Proof.
    intros k lg w cs V Hc. destruct o; cbn [op_body].
    - apply wp_spawn_false, conn_begin_S; auto.
    - apply wp_spawn_execute, conn_execute_S; auto.
    - (* select: execute, then the coroutine awaits cursor._async_soft_close() itself *)
      ex. apply wp_spawn_execute.
      eapply (op_then ordinary); [apply conn_execute_S; auto| |intros; apply op_cancelled; auto].
      intros o tx' lg' w' cs' Ho V' H1. destruct o as [v|e]; ex; [|apply op_ok; auto].
      apply (await_V V' (IoCursorClose c)); auto.
      + intros cs2 H2 V2. rewrite (step_simple_open w' c (IoCursorClose c)) by (auto; apply V'). ex.
        apply op_ok; [discriminate|auto..].
      + intros w2 cs2 V2 H0. ex. apply op_cancelled, cancelled_valid; auto.
    - apply wp_spawn_false, conn_commit_S; auto.
    - apply wp_spawn_false, conn_rollback_S; auto.
  Qed.

  Lemma run_ops_S c ops : forall tx, keeps c tx (run_ops cf async_api ops) (eq (Ok VUnit)).
  Proof.
    induction ops as [|o rest IH]; intros tx k lg w cs V Hc; cbn [run_ops]; ex.
    - apply op_ok; auto.
    - eapply (op_then ordinary); [apply op_body_S; auto| |intros; ex; apply op_cancelled; auto].
      intros o1 tx' lg' w' cs' Ho V' H1. unfold log. destruct o1 as [v|e]; ex; [apply IH; auto|].
      (* every other error is an Exception: logged, and the block goes on *)
      destruct e; [destruct Ho; reflexivity|..]; ex; apply IH; auto.
  Qed.

  (* Connection.close() at the end of a block, whatever the body left behind *)
  Lemma close_after {k c} okp o s1 w1 cs0 cs : op_post k c okp o s1 w1 cs0 ->
    (ncancel cs <= 1)%nat ->
    wp (conn_close cf) s1 w1 cs (safe_post (bk_nw k)).
  Proof.
    intros [(tx & lg & -> & V & _) | (_ & _ & [(tx & lg & -> & V) | (Hf & Hw & D)])] Hc; try (apply conn_close_checked_out; auto).
    apply conn_close_no_fairy; [exact Hf|]. split; [|auto]. apply (done_ext D). reflexivity.
  Qed.

  (* Engine.connect() *)
  (* _ConnectionRecord.__connect under at most one cancellation: connected; cancelled in connect (the
     driver may have created a connection that is stopped again); cancelled in an on-connect call *)
  Lemma rec_connect_S q0 ov0 x b f cfy rc tx no ni nw om lg w cs (Q : post) : (ncancel cs <= 1)%nat ->
    let st oc := mkpst q0 ov0 (Some (mkrec oc b)) f cfy rc tx no ni nw om lg in
    let w1 := new_conn w (mkd true false []) in
    (forall cs1, (ncancel cs1 <= 1)%nat -> Q (Ok VUnit) (st (Some (nconn w))) w1 cs1) ->
    (forall w' cs1, w' = w \/ w' = new_conn w dead -> ncancel cs1 = 0%nat -> Q (Raise ECancelled) (st None) w' cs1) ->
    (forall cs1, ncancel cs1 = 0%nat -> Q (Raise ECancelled) (st (Some (nconn w))) w1 cs1) ->
    wp rec_connect (st x) w cs Q.
  Proof.
    intros Hc st w1 Hn Hx1 Hx2. unfold rec_connect, st. ex. apply wp_await; auto.
    2:{ intros eff cs1 H0. ex. apply Hx1; auto. destruct eff; auto. }
    intros cs1 H1. rewrite step_connect. ex. fold w1.
    (* the on-connect calls do not change the world, cancelled or not *)
    assert (Hset : forall s cs (Q : post), (ncancel cs <= 1)%nat ->
              (forall cs1, (ncancel cs1 <= 1)%nat -> Q (Ok VUnit) s w1 cs1) ->
              (forall cs1, ncancel cs1 = 0%nat -> Q (Raise ECancelled) s w1 cs1) ->
              wp (await_ (IoSetup (nconn w))) s w1 cs Q).
    { intros s cs0 Q0 Hc0 Hn0 Hx0.
      assert (Ho : d_open (getc w1 (nconn w)) = true) by (unfold w1; rewrite getc_new_same; reflexivity).
      apply wp_await; auto.
      - rewrite (step_simple_open w1 (nconn w)) by auto. exact Hn0.
      - intros [|] cs2 H0; [cbn [io_cancel_step]; rewrite (step_simple_open w1 (nconn w)) by auto|]; auto. }
    apply Hset; [auto| |intros; ex; auto]. intros cs2 H2. ex.
    apply Hset; [auto| |intros; ex; auto]. intros cs3 H3. ex.
    apply Hset; [auto| |intros; ex; auto]. intros cs4 H4. ex. auto.
  Qed.

  Lemma no_wait ov0 : ov0 < 0 -> (-1 <? maxov cf) && (maxov cf <=? ov0) = false.
  Proof.
    intros H. destruct (-1 <? maxov cf) eqn:E; cbn; auto. apply Z.ltb_lt in E. apply Z.leb_gt. lia.
  Qed.

  (* closes the arithmetic and list side conditions of [Done] / [Vp] after a connect *)
  Ltac side :=
    first [ lia | reflexivity | discriminate | assumption | solve [constructor]
          | (rewrite nconn_new; lia) | (rewrite getc_new_same; reflexivity)
          | (let c' := fresh in let H := fresh in intros c' H; rewrite getc_new_other; solve [auto])
          | (rewrite app_length; cbn; lia)
          | solve [auto] ].

  (* Engine.connect() from a state with nothing checked out: a connection is checked out, or the
     cancellation arrived first and nothing is *)
  Lemma engine_connect_S s w cs (Q : post) : Done s w -> (ncancel cs <= 1)%nat ->
    (forall k c lg w' cs', bk_nw k = n_warn s -> Vp k c None w' -> (ncancel cs' <= 1)%nat ->
                           Q (Ok VUnit) (vstate k c None lg) w' cs') ->
    (forall s' w' cs', Done s' w' -> n_warn s' = n_warn s -> ncancel cs' = 0%nat -> Q (Raise ECancelled) s' w' cs') ->
    wp (engine_connect cf) s w cs Q.
  Proof.
    intros D Hc Hn Hx. destruct s as [q0 ov0 cu f cfy rc tx no ni nw om lg]. cbn [n_warn] in Hn, Hx.
    destruct D as [Droom Dacct Dcnt Dq Dnd Dtx Dom _]. cbn in Droom, Dacct, Dcnt, Dq, Dnd, Dom |- *. subst om.
    unfold engine_connect. ex. unfold raw_connection. ex. unfold checkout. ex. unfold pool_do_get. ex.
    destruct q0 as [|r rest].
    - (* empty pool: a new record and a new connection *)
      cbn in Droom, Dacct. rewrite (no_wait ov0) by lia. ex. apply rec_connect_S; auto.
      + intros cs1 H1. ex. unfold rec_get_connection. ex.
        apply (Hn (mkbk [] (ov0 + 1) true (S no) ni nw) (nconn w)); [reflexivity| |auto].
        constructor; cbn [bk_q bk_ov bk_no bk_ni length qconns flat_map]; side.
      + intros w' cs1 Hw H0. ex. unfold dec_overflow. ex. apply Hx; [|reflexivity|auto].
        constructor; cbn [q ov n_out n_in oom cur_fairy cur r_fairy length qconns flat_map]; try side.
        destruct Hw as [->| ->]; auto. apply notxn_new; auto.
      + intros cs1 H0. ex. unfold dec_overflow. ex. apply Hx; [|reflexivity|auto].
        constructor; cbn [q ov n_out n_in oom cur_fairy cur r_fairy length qconns flat_map]; try side.
        apply notxn_new; auto.
    - (* a pooled record *)
      cbn [length] in Droom, Dacct. unfold qok in Dq. apply Forall_cons_iff in Dq. destruct Dq as [Hr Hrest].
      destruct r as [oc b]. destruct Hr as [Hb Hoc]. cbn in Hb, Hoc. subst b.
      unfold rec_get_connection. destruct oc as [c'|]; ex.
      + (* ... with a live connection *)
        apply (Hn (mkbk rest ov0 true (S no) ni nw) c'); [reflexivity| |auto].
        cbn in Dnd. apply NoDup_cons_iff in Dnd. destruct Dnd as [Dn1 Dn2]. destruct Hoc as [Hlt Hop].
        constructor; cbn [bk_q bk_ov bk_no bk_ni]; side.
      + (* ... that was invalidated: reconnect; if that is cancelled the record goes back empty *)
        destruct (qok_new rest w (mkd true false []) Hrest) as [Hq1 Hni].
        apply rec_connect_S; auto.
        * intros cs1 H1. ex. apply (Hn (mkbk rest ov0 true (S no) ni nw) (nconn w)); [reflexivity| |auto].
          constructor; cbn [bk_q bk_ov bk_no bk_ni]; side.
        * intros w' cs1 Hw H0. ex. apply wp_quiet; [exact H0|]. apply rec_checkin_failed_q; [lia|exact I|].
          intros cs' H0'. ex. apply Hx; [|reflexivity|auto].
          constructor; cbn [q ov n_out n_in oom cur_fairy cur r_fairy]; try side.
          -- apply qok_app; [|split; cbn; auto]. destruct Hw as [->| ->]; auto. apply qok_new; auto.
          -- rewrite qconns_app. cbn. rewrite app_nil_r. auto.
          -- destruct Hw as [->| ->]; auto. apply notxn_new; auto.
        * intros cs1 H0. ex. apply wp_quiet; [exact H0|]. apply rec_checkin_failed_q; [lia|exact Hni|].
          intros cs' H0'. ex. apply Hx; [|reflexivity|auto].
          constructor; cbn [q ov n_out n_in oom cur_fairy cur r_fairy]; try side.
          -- apply qok_app; [|split; cbn; auto]. eapply qok_frame; [exact Hq1|exact Hni|apply closed_frame].
          -- rewrite qconns_app. cbn. rewrite app_nil_r. auto.
          -- apply notxn_closed. intros. apply notxn_new; auto.
  Qed.

  (* C29, second half: a whole block under at most one cancellation *)
  (* connect, run the body, and close by [close], which meets whatever the body left behind *)
  Lemma closing_block (close : M) ops s w cs :
    (forall k c o s1 w1 cs1, op_post k c (eq (Ok VUnit)) o s1 w1 cs1 -> wp close s1 w1 cs1 (safe_post (bk_nw k))) ->
    Done s w -> (ncancel cs <= 1)%nat ->
    wp (acall async_api false (engine_connect cf) ;; mfinally (run_ops cf async_api ops) close) s w cs
       (safe_post (n_warn s)).
  Proof.
    intros Hclose D Hc. apply wp_seq, wp_spawn_false, engine_connect_S; auto.
    - intros k c lg w1 cs1 <- V H1. ex. eapply wp_conseq; [apply run_ops_S; [exact V|exact H1]|].
      intros o2 s2 w2 cs2 P. cbn. apply (wp_conseq (Hclose _ _ _ _ _ _ P)).
      intros o3 s3 w3 cs3 (Dn & Hn & H3 & Ho). split; [exact Dn|split; [exact Hn|split; [exact H3|]]].
      destruct Ho as [-> | ->]; auto. destruct P as [(_ & _ & _ & _ & <- & _) | (-> & _)]; auto.
    - intros s1 w1 cs1 D1 Hw H0. cbn. split; [exact D1|split; [exact Hw|split; [lia|auto]]].
  Qed.

  Theorem block_safe sty ops s w cs :
    sty <> SLeak -> Done s w -> (ncancel cs <= 1)%nat ->
    let '(o, s', w', cs') := exec (block cf async_api sty ops) s w cs in
    Done s' w' /\ n_warn s' = n_warn s /\ (ncancel cs' <= 1)%nat /\ (o = Ok VUnit \/ o = Raise ECancelled).
  Proof.
    intros Hsty D Hc. destruct sty; [| |congruence]; cbn [block]; apply closing_block; auto;
      intros k c o s1 w1 cs1 P;
      assert (H1 : (ncancel cs1 <= 1)%nat) by (eapply op_post_single; exact P).
    - (* async with engine.connect() as conn: the close is shielded, the task waits on the shield *)
      apply wp_aexit. eapply wp_conseq; [eapply close_after; [exact P|cbn; lia]|].
      intros o3 s3 w3 cs3 (Dn & Hn & _ & Ho).
      destruct cs1 as [|[|eff] cs1']; cbn in H1; (split; [exact Dn|split; [exact Hn|split; [cbn; lia|auto]]]).
    - (* conn = await engine.connect(); try: ... finally: await conn.close() *)
      apply wp_spawn_false. eapply close_after; [exact P|exact H1].
  Qed.

  Theorem leak_safe ops s w cs :
    Done s w -> (ncancel cs <= 1)%nat ->
    let '(o, s1, w1, cs1) := exec (block cf async_api SLeak ops) s w cs in
    let '(_, s', w', _) := exec (gc_collect cf) s1 w1 [] in
    Done s' w' /\ (n_warn s' <= S (n_warn s))%nat /\ (ncancel cs1 <= 1)%nat.
  Proof.
    intros D Hc. cbn [block]. apply wp_seq, wp_spawn_false, engine_connect_S; auto.
    - intros k c lg w1 cs1 <- V H1. ex. eapply wp_conseq; [apply run_ops_S; [exact V|exact H1]|].
      intros o2 s2 w2 cs2 P. assert (H2 : (ncancel cs2 <= 1)%nat) by (eapply op_post_single; exact P).
      (* the body left the connection checked out (the collector takes it), or invalidated it *)
      destruct P as [(tx' & lg' & -> & V' & _) | (_ & _ & [(tx' & lg' & -> & V') | (_ & Hn & D2)])];
        [apply gc_valid; [exact V'|]; split; [eapply done_invalidated; eauto|split; [cbn; lia|exact H2]]..|].
      apply (wp_conseq (gc_done s2 w2 D2)). intros _ s3 w3 _ (D3 & Hn3). split; [exact D3|split; [lia|exact H2]].
    - intros s1 w1 cs1 D1 Hw H0. cbn. apply (wp_conseq (gc_done s1 w1 D1)). intros _ s3 w3 _ (D3 & Hn3). split; [exact D3|split; lia].
  Qed.

  (* any number of tasks on one engine *)
  Fixpoint run_tasks (bs : list (style * list op)) (s : pst) (w : world) (cs : list cdec) : pst * world * list cdec :=
    match bs with
    | [] => (s, w, cs)
    | (sty, ops) :: rest =>
        let '(_, s1, w1, cs1) := exec (block cf async_api sty ops) s w cs in
        let '(_, s2, w2, _) := exec (gc_collect cf) s1 w1 [] in
        run_tasks rest s2 w2 cs1
    end.

  Lemma init_done : Done (init_pst cf) init_world.
  Proof.
    constructor; cbn; try reflexivity; try lia; try (constructor; fail).
  Qed.

  Lemma style_eq_leak (sty : style) : sty = SLeak \/ sty <> SLeak.
  Proof. destruct sty; auto; right; discriminate. Qed.
  
Theorem tasks_safe bs : forall s w cs, Done s w -> (ncancel cs <= 1)%nat ->
    let '(s', w', cs') := run_tasks bs s w cs in Done s' w' /\ (ncancel cs' <= 1)%nat.
  Proof.
    induction bs as [|[sty ops] rest IH]; intros s w cs D Hc; cbn [run_tasks].
    - auto.
    - destruct (style_eq_leak sty) as [->|Hs].
      + pose proof (leak_safe ops s w cs D Hc) as L.
        destruct (exec (block cf async_api SLeak ops) s w cs) as [[[o1 s1] w1] cs1].
        destruct (exec (gc_collect cf) s1 w1 []) as [[[o2 s2] w2] cs2].
        destruct L as (L1 & _ & L3). apply IH; auto.
      + pose proof (block_safe sty ops s w cs Hs D Hc) as B.
        destruct (exec (block cf async_api sty ops) s w cs) as [[[o1 s1] w1] cs1].
        destruct B as (B1 & _ & B3 & _).
        pose proof (gc_done s1 w1 B1) as G. unfold wp in G.
        destruct (exec (gc_collect cf) s1 w1 []) as [[[o2 s2] w2] cs2].
        destruct G as (G1 & _). apply IH; auto.
  Qed.

  Lemma tasks_safe_init bs cs : (ncancel cs <= 1)%nat ->
    let '(s', w', _) := run_tasks bs (init_pst cf) init_world cs in Done s' w'.
  Proof.
    intros Hc. pose proof (tasks_safe bs (init_pst cf) init_world cs init_done Hc) as T.
    destruct (run_tasks bs (init_pst cf) init_world cs) as [[s' w'] cs']. exact (proj1 T).
  Qed.
End Safe.
