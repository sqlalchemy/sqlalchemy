(* C23: from one step to whole histories.  On a guarded history the model and the reference model
   agree after every operation ([sim_trace]); the named results are projections of that.  Then the
   three regions the guard excludes, each with a concrete history on which a result fails. *)
From Coq Require Import List ZArith NArith Bool Arith Lia.
Import ListNotations.
From SAV.engine Require Import RefDb Txn TxnBase TxnWF TxnSpec TxnSim.

Definition res_agree (r : option res) (b : option bool) : Prop :=
  match r, b with
  | None, None => True
  | Some r, Some b => res_ok r b
  | _, _ => False
  end.

Definition agree (rs : option res * st) (bp : option bool * spec) : Prop :=
  res_agree (fst rs) (fst bp) /\ R (snd rs) (snd bp).

(* one step of a history, guarded if the reference model performs it: an operation naming a handle
   that does not exist is skipped on both sides *)
Lemma sim_step : forall o s p, R s p -> WF s -> (forall bp, sstep o p = Some bp -> gstep o p = true) ->
  agree (step_res o s, step_st o s) (sstep_raised o p, sstep_st o p).
Proof.
  intros o s p HR W Hg. pose proof (R_clear_log _ _ HR) as HR0. assert (W0 : WF (clear_log s)) by exact W.
  unfold agree, step_res, step_st, sstep_raised, sstep_st, step. cbn [fst snd].
  assert (Hh : forall k, handle_of o = Some k -> sstep o p = None <-> (k <? length (txns s)) = false).
  { intros k Hk. rewrite (R_len _ _ HR). destruct o; cbn in Hk; inversion Hk; subst; unfold sstep;
      destruct (k <? p_next p); split; intros; congruence. }
  destruct (sstep o p) as [[b p']|] eqn:E.
  - destruct (sim_op o _ p (b, p') HR0 W0 (Hg _ eq_refl) E) as [A B].
    destruct (handle_of o) as [k|] eqn:Hk;
      [destruct (k <? length (txns s)) eqn:Hlt; [|apply (Hh k eq_refl) in Hlt; discriminate]|];
      destruct (run_op o (clear_log s)); split; assumption.
  - destruct (handle_of o) as [k|] eqn:Hk.
    + rewrite (proj1 (Hh k eq_refl) eq_refl). split; [exact I|exact HR0].
    + destruct o; cbn in Hk; try discriminate; cbn in E; discriminate.
Qed.

Theorem sim_trace : forall ops s p, R s p -> WF s -> guard_from ops p = true ->
  Forall2 agree (trace ops s) (strace ops p).
Proof.
  induction ops as [|o ops IH]; intros s p HR W G; cbn [trace strace]; constructor; cbn [guard_from] in G.
  - apply sim_step; auto. intros bp E. rewrite E in G. destruct bp. apply andb_true_iff in G. tauto.
  - apply IH; [|apply step_good, W|].
    + apply sim_step; auto. intros bp E. rewrite E in G. destruct bp. apply andb_true_iff in G. tauto.
    + unfold sstep_st. destruct (sstep o p) as [[b q]|]; [apply andb_true_iff in G; tauto|exact G].
Qed.

Lemma R_flags : forall s p, R s p ->
  in_transaction s = spec_in_transaction p /\ in_nested_transaction s = spec_in_nested p.
Proof.
  intros s p HR. unfold in_transaction, in_nested_transaction, inst_active, spec_in_transaction, spec_in_nested.
  destruct (c_root s) as [r|] eqn:Hr.
  - destruct (R_root_some _ _ _ HR Hr) as (nf & rs & Hst & _ & Hch & Hact & _).
    rewrite Hact, Hst, app_length. cbn [length]. split.
    + destruct (length nf + 1) eqn:E; [lia|reflexivity].
    + destruct (c_nested s) as [k|] eqn:Hk.
      * rewrite (R_nested_active _ _ _ HR Hk). inversion Hch; subst. cbn [length]. symmetry. apply Nat.ltb_lt. lia.
      * inversion Hch; subst. reflexivity.
  - destruct (R_root_none _ _ HR Hr) as [-> ->]. split; reflexivity.
Qed.

Section Guarded.
  Variable ops : list op.
  Hypothesis G : guard_from ops (spec_init []) = true.

  Let T := trace ops (init db_empty).
  Let ST := strace ops (spec_init []).

  Lemma guarded_agree : Forall2 agree T ST.
  Proof. apply sim_trace; auto using R_init, WF_init. Qed.

  Lemma map_agree : forall A (f : option res * st -> A) (g : option bool * spec -> A),
    (forall rs bp, agree rs bp -> f rs = g bp) -> map f T = map g ST.
  Proof.
    intros A f g H. pose proof guarded_agree as F. induction F; cbn; auto. f_equal; auto.
  Qed.

  (* after every operation (so in particular after each outer commit) another connection sees
     exactly what the reference nested-transaction model says; and the connection itself too *)
  Theorem committed_data_eq_reference :
    map (fun rs => (committed (s_db (snd rs)), work (s_db (snd rs)))) T =
    map (fun bp => (p_committed (snd bp), p_cur (snd bp))) ST.
  Proof. apply map_agree. intros rs bp [_ HR]. rewrite (R_committed _ _ HR), (R_work _ _ HR). reflexivity. Qed.

  Theorem flags_agree :
    map (fun rs => (in_transaction (snd rs), in_nested_transaction (snd rs))) T =
    map (fun bp => (spec_in_transaction (snd bp), spec_in_nested (snd bp))) ST.
  Proof. apply map_agree. intros rs bp [_ HR]. destruct (R_flags _ _ HR) as [-> ->]. reflexivity. Qed.

  (* every handle is active exactly while the reference model holds its frame open *)
  Theorem handles_agree : Forall2 (fun rs bp => forall k, active k (snd rs) = live k (snd bp)) T ST.
  Proof. pose proof guarded_agree as F. induction F; constructor; auto. destruct H. apply R_active. auto. Qed.

  (* an operation raises exactly when the reference model refuses it - in particular commit() on an
     ended transaction raises - and the fuel of the model is never exhausted *)
  Theorem raises_agree : Forall2 (fun rs bp => res_agree (fst rs) (fst bp)) T ST.
  Proof. pose proof guarded_agree as F. induction F; constructor; auto. destruct H. auto. Qed.

  (* every command sent to the database is accepted by it *)
  Theorem commands_well_nested : Forall (fun rs => forallb snd (s_out (snd rs)) = true) T.
  Proof.
    pose proof guarded_agree as F. induction F; constructor; auto. destruct H. apply (R_out _ _ H0).
  Qed.
End Guarded.

(* the reference model: commit() on an ended transaction raises and changes nothing; rollback()/close()
   on it do nothing *)
Lemma spec_ended_commit : forall k p, k < p_next p -> live k p = false -> sstep (TCommit k) p = Some (true, p).
Proof. intros. unfold sstep. rewrite (proj2 (Nat.ltb_lt _ _) H), H0. reflexivity. Qed.
Lemma spec_ended_close : forall k p, k < p_next p -> live k p = false ->
  sstep (TRollback k) p = Some (false, p) /\ sstep (TClose k) p = Some (false, p).
Proof. intros. unfold sstep. rewrite (proj2 (Nat.ltb_lt _ _) H), H0. auto. Qed.

(* the regions excluded by the guard; [T0 ops] / [ST0 ops] are the two traces of a concrete history *)
Definition T0 (ops : list op) := trace ops (init db_empty).
Definition ST0 (ops : list op) := strace ops (spec_init []).
Definition rejected (rs : option res * st) : bool := negb (forallb snd (s_out (snd rs))).
Definition flags_of (rs : option res * st) := (in_transaction (snd rs), in_nested_transaction (snd rs)).
Definition sflags_of (bp : option bool * spec) := (spec_in_transaction (snd bp), spec_in_nested (snd bp)).

(* (a) out-of-order savepoint end: s1 = begin_nested(); s2 = begin_nested(); s1.rollback(); s2.rollback() *)
Definition witness_a : list op := [ONested; ONested; TRollback 1; TRollback 2].
(* (b) t1 (autobegun) committed; new transaction with a savepoint; t1.rollback() *)
Definition witness_b : list op := [ONested; OCommit; ONested; TRollback 0].
(* (c) t = begin(); s1 = begin_nested(); insert; with begin_nested() as s2: s2.commit(); s1.rollback()
   raises but ends s1 without ROLLBACK TO; t.commit() then publishes the row *)
Definition witness_c : list op :=
  [OBegin; ONested; OIns 7; ONested; TEnter 2; TCommit 2; TRollback 1; TExit 2 false; TCommit 0].

Lemma refuted_commands_a : existsb rejected (T0 witness_a) = true.
Proof. vm_compute. reflexivity. Qed.
Lemma refuted_flags_a : map flags_of (T0 witness_a) <> map sflags_of (ST0 witness_a).
Proof. intro E. pose proof (f_equal (fun l => nth 2 l (false, false)) E) as X. vm_compute in X. inversion X. Qed.
Lemma refuted_flags_b : map flags_of (T0 witness_b) <> map sflags_of (ST0 witness_b).
Proof. intro E. pose proof (f_equal (fun l => nth 3 l (false, false)) E) as X. vm_compute in X. inversion X. Qed.
Lemma refuted_data_c :
  map (fun rs => committed (s_db (snd rs))) (T0 witness_c) <> map (fun bp => p_committed (snd bp)) (ST0 witness_c).
Proof. intro E. pose proof (f_equal (fun l => nth 8 l []) E) as X. vm_compute in X. inversion X. Qed.
Lemma witnesses_unguarded :
  guard_from witness_a (spec_init []) = false /\ guard_from witness_b (spec_init []) = false /\
  guard_from witness_c (spec_init []) = false.
Proof. vm_compute. auto. Qed.
