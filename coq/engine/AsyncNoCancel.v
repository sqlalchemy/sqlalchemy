(* C29 - no CancelledError out of thin air: every operation of the model is [nc_safe] (it can end in
   CancelledError only after the event loop delivered a cancellation), so a block run without a cancellation
   does not raise it ([block_not_cancelled]; AsyncLater.v combines this with the safety theorems) *)
From Coq Require Import List ZArith Bool Arith Lia.
Import ListNotations.
From SAV.engine Require Import Async AsyncConn AsyncExec.
Open Scope Z_scope.

Definition bad (r : res) : Prop := fst r = Raise ECancelled.
Notation ncs := (nc_safe ECancelled bad).

Lemma nc_mret v s : ncs (mret v s).
Proof. constructor. unfold bad. cbn. discriminate. Qed.
Lemma nc_munit s : ncs (munit s).
Proof. apply nc_mret. Qed.
Lemma nc_mmod f s : ncs (mmod f s).
Proof. constructor. unfold bad. cbn. discriminate. Qed.
Lemma nc_mraise e s : e <> ECancelled -> ncs (mraise e s).
Proof. intros H. constructor. unfold bad. cbn. congruence. Qed.
Lemma nc_mget f s : ncs (f s s) -> ncs (mget f s).
Proof. auto. Qed.
Lemma nc_await_ i s : ncs (await_ i s).
Proof.
  unfold await_. constructor. intros [v|e] H; constructor; unfold bad; cbn; congruence.
Qed.
Lemma nc_mbind m f s : ncs (m s) -> (forall v s1, ncs (f v s1)) -> ncs (mbind m f s).
Proof.
  intros A B. unfold mbind. apply nc_bind; auto. intros [o s1] Hb. cbn. destruct o; auto.
  constructor. exact Hb.
Qed.
Lemma nc_mseq m n s : ncs (m s) -> (forall s1, ncs (n s1)) -> ncs (mseq m n s).
Proof. intros A B. unfold mseq. apply nc_mbind; auto. Qed.
Lemma nc_mtry m h s : ncs (m s) -> (forall e s1, e <> ECancelled -> ncs (h e s1)) -> ncs (mtry m h s).
Proof.
  intros A B. unfold mtry. apply nc_bind; auto. intros [o s1] Hb. cbn. destruct o as [v|e].
  - constructor. exact Hb.
  - apply B. intros ->. apply Hb. reflexivity.
Qed.
Lemma nc_mfinally m fin s : ncs (m s) -> (forall s1, ncs (fin s1)) -> ncs (mfinally m fin s).
Proof.
  intros A B. unfold mfinally. apply nc_bind; auto. intros [o s1] Hb. cbn.
  apply nc_bind; auto. intros [o2 s2] Hb2. cbn. destruct o2; constructor; auto.
Qed.

Lemma nc_spawn req (p : ptree) : ncs p -> ncs (greenlet_spawn no_await req p).
Proof.
  intros H. destruct req.
  - destruct p as [r | i k | inner k].
    + cbn. inversion H; subst. constructor. unfold bad, no_await in *. destruct r as [[v|e] s0]; cbn in *; congruence.
    + eapply nc_peq; [apply peq_sym; apply spawn_transparent_require; exact I|exact H].
    + eapply nc_peq; [apply peq_sym; apply spawn_transparent_require; exact I|exact H].
  - eapply nc_peq; [apply peq_sym; apply spawn_transparent|exact H].
Qed.

(* takes a goal [ncs (m s)] apart along the combinators of [m], splitting on the tests it meets; what is left
   are the operations called by [m], each with its own lemma *)
Ltac nc :=
  repeat first
    [ match goal with
      | |- ncs (munit _) => apply nc_munit
      | |- ncs (mret _ _) => apply nc_mret
      | |- ncs (mmod _ _) => apply nc_mmod
      | |- ncs (await_ _ _) => apply nc_await_
      | |- ncs (mraise _ _) => apply nc_mraise; congruence
      | |- ncs (mget _ _) => apply nc_mget
      | |- ncs (mseq _ _ _) => apply nc_mseq; [|intros ?]
      | |- ncs (mbind _ _ _) => apply nc_mbind; [|intros ? ?]
      | |- ncs (mfinally _ _ _) => apply nc_mfinally; [|intros ?]
      | |- ncs (mtry _ _ _) => apply nc_mtry; [|intros ? ? ?]
      end
    | match goal with
      | H : ?e <> ECancelled |- context [match ?e with _ => _ end] => is_var e; destruct e; [congruence|..]
      | |- context [match ?x with _ => _ end] => is_var x; destruct x
      | |- context [if ?b then _ else _] => destruct b
      | |- context [match ?x with _ => _ end] => destruct x eqn:?
      end
    | progress cbn beta iota ].

Section NoCancel.
  Variable cf : cfg.

  Lemma nc_dbapi_rollback c s : ncs (dbapi_rollback c s).
  Proof. unfold dbapi_rollback. nc. Qed.
  Lemma nc_cursor_close ing c s : ncs (cursor_close ing c s).
  Proof. unfold cursor_close. nc. Qed.
  Lemma nc_close_connection ing c t s : ncs (close_connection ing c t s).
  Proof. unfold close_connection, terminate. nc. Qed.
  Lemma nc_rec_close_impl ing t s : ncs (rec_close_impl ing t s).
  Proof. unfold rec_close_impl. nc. apply nc_close_connection. Qed.
  Lemma nc_rec_invalidate ing s : ncs (rec_invalidate ing s).
  Proof. unfold rec_invalidate. nc. apply nc_rec_close_impl. Qed.
  Lemma nc_pool_return s : ncs (pool_return cf s).
  Proof. unfold pool_return, rec_close, dec_overflow. nc. apply nc_rec_close_impl. Qed.
  Lemma nc_rec_checkin b s : ncs (rec_checkin cf b s).
  Proof. unfold rec_checkin, warn. nc. apply nc_pool_return. Qed.
  Lemma nc_rec_connect s : ncs (rec_connect s).
  Proof. unfold rec_connect. nc. Qed.
  (* Engine.raw_connection: Pool._do_get, _ConnectionRecord.checkout / get_connection / _checkin_failed *)
  Lemma nc_raw_connection s : ncs (raw_connection cf s).
  Proof.
    unfold raw_connection, checkout, pool_do_get, rec_get_connection, rec_checkin_failed, dec_overflow.
    nc; try apply nc_rec_connect; try apply nc_rec_invalidate; apply nc_rec_checkin.
  Qed.

  Lemma nc_fairy_reset a b c s : ncs (fairy_reset a b c s).
  Proof. unfold fairy_reset. nc. apply nc_dbapi_rollback. Qed.
  Lemma nc_fairy_detach s : ncs (fairy_detach cf s).
  Proof. unfold fairy_detach. nc. apply nc_pool_return. Qed.
  Lemma nc_finalize_except g h e s : e <> ECancelled -> ncs (finalize_except cf g h e s).
  Proof. intros He. unfold finalize_except. nc; try apply nc_rec_invalidate; try apply nc_rec_checkin. Qed.
  Lemma nc_finalize_fairy g t s : ncs (finalize_fairy cf g t s).
  Proof.
    unfold finalize_fairy, warn. nc;
      try apply nc_fairy_reset; try apply nc_fairy_detach; try apply nc_close_connection;
      try apply nc_rec_checkin; try (apply nc_finalize_except; assumption).
  Qed.
  Lemma nc_conn_invalidate s : ncs (conn_invalidate cf s).
  Proof. unfold conn_invalidate, fairy_invalidate, warn. nc; try apply nc_rec_invalidate; apply nc_finalize_fairy. Qed.
  Lemma nc_revalidate s : ncs (revalidate cf s).
  Proof. unfold revalidate. nc. apply nc_raw_connection. Qed.
  Lemma nc_the_conn s : ncs (the_conn s).
  Proof. unfold the_conn. nc. Qed.
  Lemma nc_connection_prop h s : (forall e c s1, e <> ECancelled -> ncs (h e c s1)) -> ncs (connection_prop cf h s).
  Proof.
    intros Hh. unfold connection_prop. nc; try apply nc_the_conn; try apply nc_revalidate; try (apply Hh; congruence).
  Qed.
  Lemma nc_rollback_impl_gen h s : (forall e c s1, e <> ECancelled -> ncs (h e c s1)) -> ncs (rollback_impl_gen cf h s).
  Proof.
    intros Hh. unfold rollback_impl_gen. nc; try (apply nc_connection_prop; exact Hh); try apply nc_dbapi_rollback;
      try (apply Hh; assumption).
  Qed.
  (* _handle_dbapi_exception; its autorollback fails into the reentrant call, which only re-raises *)
  Lemma nc_handle e c s : e <> ECancelled -> ncs (handle_dbapi_exception cf e c s).
  Proof.
    intros He. unfold handle_dbapi_exception, handle_gen, safe_close_cursor.
    nc; try apply nc_cursor_close; try apply nc_conn_invalidate.
    all: apply nc_rollback_impl_gen; intros; unfold handle0; nc.
  Qed.
  Lemma nc_execute_context ab st s : (forall s1, ncs (ab s1)) -> ncs (execute_context cf ab st s).
  Proof.
    intros Hab. unfold execute_context, new_cursor, exec_single, cursor_execute.
    nc; try apply nc_revalidate; try apply nc_the_conn; try apply Hab; try apply nc_cursor_close;
      try (apply nc_handle; congruence).
  Qed.
  Lemma nc_conn_begin s : ncs (conn_begin cf s).
  Proof. unfold conn_begin, root_transaction. nc. apply nc_execute_context. intros; apply nc_munit. Qed.
  Lemma nc_conn_execute st s : ncs (conn_execute cf st s).
  Proof. unfold conn_execute. apply nc_execute_context. intros; apply nc_conn_begin. Qed.
  Lemma nc_txn_close_impl b s : ncs (txn_close_impl cf b s).
  Proof. unfold txn_close_impl, rollback_impl. nc. apply nc_rollback_impl_gen. intros; apply nc_handle; auto. Qed.
  Lemma nc_conn_commit s : ncs (conn_commit cf s).
  Proof.
    unfold conn_commit, txn_commit, commit_impl, dbapi_commit.
    nc; try (apply nc_connection_prop; intros; apply nc_handle; auto); try (apply nc_handle; assumption).
  Qed.
  Lemma nc_conn_rollback s : ncs (conn_rollback cf s).
  Proof. unfold conn_rollback. nc. apply nc_txn_close_impl. Qed.
  Lemma nc_conn_close s : ncs (conn_close cf s).
  Proof. unfold conn_close, fairy_close. nc; try apply nc_txn_close_impl; apply nc_finalize_fairy. Qed.
  Lemma nc_engine_connect s : ncs (engine_connect cf s).
  Proof. unfold engine_connect. nc. apply nc_raw_connection. Qed.

  Lemma nc_acall req m s : ncs (m s) -> ncs (acall async_api req m s).
  Proof. intros H. unfold acall. cbn. apply nc_spawn. exact H. Qed.

  Lemma nc_op_body o s : ncs (op_body cf async_api o s).
  Proof.
    destruct o; cbn [op_body]; try (apply nc_acall).
    - apply nc_conn_begin.
    - apply nc_conn_execute.
    - nc. apply nc_acall. apply nc_conn_execute.
    - apply nc_conn_commit.
    - apply nc_conn_rollback.
  Qed.

  Lemma nc_run_ops ops : forall s, ncs (run_ops cf async_api ops s).
  Proof.
    induction ops as [|o rest IH]; intros s; cbn [run_ops].
    - apply nc_munit.
    - apply nc_mseq; [|exact IH]. apply nc_mtry.
      + apply nc_mbind; [apply nc_op_body|]. intros v s1. unfold log. apply nc_mmod.
      + intros e s1 He. unfold log. destruct (is_exception e); [apply nc_mmod|apply nc_mraise; exact He].
  Qed.

  Lemma nc_aexit s : ncs (aexit cf async_api s).
  Proof.
    unfold aexit. cbn [shielded async_api]. constructor.
    - apply nc_acall. apply nc_conn_close.
    - intros r Hb. constructor. exact Hb.
  Qed.

  Lemma nc_block sty ops s : ncs (block cf async_api sty ops s).
  Proof.
    destruct sty; cbn [block].
    - apply nc_mseq; [apply nc_acall; apply nc_engine_connect|]. intros s1.
      apply nc_mfinally; [apply nc_run_ops|intros; apply nc_aexit].
    - apply nc_mseq; [apply nc_acall; apply nc_engine_connect|]. intros s1.
      apply nc_mfinally; [apply nc_run_ops|intros; apply nc_acall; apply nc_conn_close].
    - apply nc_mseq; [apply nc_acall; apply nc_engine_connect|]. intros s1. apply nc_run_ops.
  Qed.

  (* the driver never answers with CancelledError by itself *)
  Lemma io_step_not_cancelled w i : fst (io_step w i) <> inr ECancelled.
  Proof.
    destruct i; cbn;
      repeat match goal with
             | |- context [if ?b then _ else _] => destruct b
             | |- context [match ?s with SBegin => _ | SInsert _ => _ | SSelect => _ end] => destruct s
             end; cbn; discriminate.
  Qed.

  (* without a cancellation no block raises CancelledError *)
  Theorem block_not_cancelled sty ops s w cs : ncancel cs = 0%nat ->
    let '(o, _, _, _) := exec (block cf async_api sty ops) s w cs in o <> Raise ECancelled.
  Proof.
    intros Hq.
    pose proof (nc_run _ _ _ _ _ io_step io_cancel_step io_suspends ECancelled bad (block cf async_api sty ops s)
                  (nc_block sty ops s) io_step_not_cancelled w cs (ncancel0_quiet cs Hq)) as H.
    unfold exec, rl.
    destruct (run_loop io_step io_cancel_step io_suspends ECancelled (block cf async_api sty ops s) w cs) as [[[r w'] cs'] t].
    exact H.
  Qed.
End NoCancel.
